(* [ex_nested]: three handles enter a nested cycle a -> b -> c -> {b, a} at a (thread 1),
   c (thread 2) and b (thread 3); ownership of b moves to thread 2 (b is a participant of the
   cycle headed by c), then ownership of c — and with it of b — moves to thread 1 (c is a
   participant of the cycle headed by a); thread 1 iterates, completes and releases a: both
   waiting threads are woken with Completed and nothing is left in the graph.  The operations
   are those of an H2 trace recorded from the real crate (harness-par/cyc_par, case n1 of
   gen/corpus/C18/nested.case) with threads 0,1,2 renamed 1,2,3 and keys 5.0.0/5.1.0/5.2.0 renamed
   10/11/12. *)
From Salsa Require Import Base.
From Salsa.Core Require Import Model Spec.
From Salsa.Cycle Require Import Spec SpecProofs.
From Salsa.Cycle Require Examples.
From Salsa.Proto Require Import Model ProofsGraph ProofsList ProofsInv ProofsTransfer ProofsWake
  ProofsStep.
From Salsa.CCycle Require Import Model Proofs.

Definition ex_nested : list op :=
  [ OClaim 1 10 true;               (* t1 claims a (outer head) *)
    OClaim 2 12 true;               (* t2 claims c *)
    OClaim 3 11 true;               (* t3 claims b *)
    OClaim 1 11 true;               (* t1: a calls b — Running(t3) *)
    OBlockOn 1 11 3;
    OClaim 2 11 true;               (* t2: c calls b — Running(t3) *)
    OBlockOn 2 11 3;
    OClaim 3 12 true;               (* t3: b calls c — t2 waits for t3: Cycle *)
    OMarkTarget 3 12;               (* b completes as a participant of c's cycle *)
    OTransfer 3 11 12 (OThread 2);  (* b -> c: wakes t2, re-points t1's edge to t2, t3 waits for c@t2 *)
    OReceive 2;
    OClaim 2 11 true;               (* t2 re-enters b, which it owns now: claimed_twice *)
    OReleaseSelf 2 11;
    OClaim 2 10 true;               (* t2: c calls a — t1 waits for t2: Cycle *)
    OMarkTarget 2 10;               (* c completes as a participant of a's cycle *)
    OTransfer 2 12 10 (OThread 1);  (* c -> a (b follows): wakes t1, re-points t3's edge to t1, t2 waits for a@t1 *)
    OReceive 1;
    OClaim 1 11 true;               (* t1 iterates: b (b -> c -> a resolves to t1) *)
    OReleaseSelf 1 11;
    OClaim 1 12 true;               (* ... and c *)
    OReleaseSelf 1 12;
    ORemove 1 10;                   (* a converged: release *)
    OUnblock 1 10 Completed;        (* wakes t2 *)
    OUnblockTransferred 1 10 Completed;   (* releases c and b, wakes t3 *)
    OReceive 2;
    OReceive 3 ].

Example ex_nested_outcomes :
  option_map snd
    (match run_out 20 ex_nested init with ROk r => Some r | RErr _ => None end) =
  Some [ XClaim (CClaimed MDefault); XClaim (CClaimed MDefault); XClaim (CClaimed MDefault);
         XClaim (CRunning 3); XBlock BBlocked;
         XClaim (CRunning 3); XBlock BBlocked;
         XClaim (CCycle false);
         XMarked (Some (OThread 2));
         XTransfer true;
         XReceive (Some Completed);
         XClaim (CClaimed MSelfOnly); XSelfKept;
         XClaim (CCycle false);
         XMarked (Some (OThread 1));
         XTransfer true;
         XReceive (Some Completed);
         XClaim (CClaimed MSelfOnly); XSelfKept;
         XClaim (CClaimed MSelfOnly); XSelfKept;
         XRemoved (mkSync (OThread 1) true true false);
         XUnit; XUnit;
         XReceive (Some Completed); XReceive (Some Completed) ].
Proof. vm_compute. reflexivity. Qed.

Example ex_nested_valid : valid_client 20 ex_nested.
Proof. apply validb_valid. vm_compute. reflexivity. Qed.

(* after the second transfer: t2 waits for a (owned by t1), t3's edge was re-pointed to t1, t1
   runs; b and c are both (transitively) transferred to a *)
Definition ex_nested_mid : state :=
  match run 20 (firstn 16 ex_nested) init with ROk s => s | RErr _ => init end.

Example ex_nested_mid_reachable : reachable 20 ex_nested_mid.
Proof.
  eapply valid_from_reachable with (l := firstn 16 ex_nested) (s := init).
  - constructor.
  - apply validb_valid. vm_compute. reflexivity.
  - vm_compute. reflexivity.
Qed.

Example ex_nested_mid_state :
  (edges (dg ex_nested_mid) 1, edges (dg ex_nested_mid) 2, edges (dg ex_nested_mid) 3,
   wres (dg ex_nested_mid) 1,
   transferred (dg ex_nested_mid) 11, transferred (dg ex_nested_mid) 12,
   transferred (dg ex_nested_mid) 10) =
  (None, Some (1, 10), Some (1, 12), Some Completed, Some (2, 12), Some (1, 10), None).
Proof. vm_compute. reflexivity. Qed.

(* everybody runs again at the end, nothing is left *)
Example ex_nested_final :
  match run 20 ex_nested init with
  | ROk s => (edges (dg s) 1, edges (dg s) 2, edges (dg s) 3,
              wres (dg s) 1, wres (dg s) 2, wres (dg s) 3,
              transferred (dg s) 11, transferred (dg s) 12, tdeps (dg s) 10, sync s 10,
              map fst (notified (dg s)))
  | RErr _ => (None, None, None, None, None, None, None, None, None, None, [])
  end = (None, None, None, None, None, None, None, None, None, None, [3; 2; 1; 2]).
Proof. vm_compute. reflexivity. Qed.

(* the two-node fixpoint of Cycle/Examples.v ( x0 = in | x1, x1 = 2 | (x0 & 6), in = 5 ) read by
   two handles: handle 0 asked for x0, handle 1 for x1 *)
Definition ex_snap : snapshot := {| sn_in := Cycle.Examples.ex12_iv; sn_cell := fun _ => 0 |}.
Definition ex_mh : mh_final :=
  mkMh ex_snap
       (fun q => if key_eqb q (1, 0) then Some 7 else if key_eqb q (1, 1) then Some 6 else None)
       [(0, (1, 0), 7); (1, (1, 1), 6)].

Example ex_mh_certified :
  mh_cert_fix Cycle.Examples.ex12_prog Cycle.Examples.ex12_ns ex_mh &&
  mh_below Cycle.Examples.ex12_prog Cycle.Examples.ex12_ns ex_mh = true.
Proof. vm_compute. reflexivity. Qed.

(* what a leaked provisional value produces: with the input lowered from 5 to 1 the OLD values
   x0 = 7, x1 = 6 still satisfy the NEW equations (7 = 1 | 6, 6 = 2 | (7 & 6)) — a non-least
   fixpoint: the equations conjunct of the certificate holds, `below` rejects it (lfp: 3, 2) *)
Definition ex_snap_low : snapshot :=
  {| sn_in := fun i => if key_eqb i (0, 0) then 1 else 0; sn_cell := fun _ => 0 |}.
Example ex_mh_stale_rejected :
  let st := mkMh ex_snap_low (mh_sigma ex_mh) (mh_results ex_mh) in
  mh_cert_fix Cycle.Examples.ex12_prog Cycle.Examples.ex12_ns st = true /\
  mh_below Cycle.Examples.ex12_prog Cycle.Examples.ex12_ns st = false /\
  kleene Cycle.Examples.ex12_prog ex_snap_low Cycle.Examples.ex12_ns (1, 0) = 3.
Proof. vm_compute. repeat split; reflexivity. Qed.

(* the abstract chaotic iteration: two handles picking in opposite orders *)
Example ex_cmi :
  let l := [(0, (1, 0)); (1, (1, 1)); (1, (1, 0)); (0, (1, 1)); (0, (1, 0)); (1, (1, 1))] in
  (cmi_run Cycle.Examples.ex12_prog ex_snap l bottom (1, 0),
   cmi_run Cycle.Examples.ex12_prog ex_snap l bottom (1, 1),
   quiescent Cycle.Examples.ex12_prog ex_snap Cycle.Examples.ex12_ns
             (cmi_run Cycle.Examples.ex12_prog ex_snap l bottom),
   changes Cycle.Examples.ex12_prog ex_snap l bottom) = (7, 6, true, 3%nat).
Proof. vm_compute. reflexivity. Qed.
