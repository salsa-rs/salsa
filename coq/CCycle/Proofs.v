(* CCycle/Proofs.v — values of cyclic programs read by several handles:
   * every value seen under any interleaving lies below the least fixpoint ([seen_below]);
   * a multi-handle final state that passes the certificate holds / has returned the
     single-threaded results ([mh_certified_values], [mh_certified_fb_values]), hence results are
     schedule independent ([mh_schedule_independent]);
   * the abstract chaotic multi-handle iteration terminates under every schedule that keeps
     sweeping, with the least fixpoint ([cmi_changes_bounded], [cmi_terminates_lfp]). *)
From Salsa Require Import Base.
From Salsa.Core Require Import Model Spec.
From Salsa.Cycle Require Import Spec SpecProofs FallbackProofs.
From Salsa.CCycle Require Import Model.

Lemma lor_le a b c : le_bits a c -> le_bits b c -> le_bits (N.lor a b) c.
Proof.
  intros Ha Hb. unfold le_bits. apply N.bits_inj. intros n.
  rewrite N.land_spec, N.lor_spec.
  assert (Ha' := le_bits_testbit a c n Ha). assert (Hb' := le_bits_testbit b c n Hb).
  destruct (N.testbit a n) eqn:Ea; destruct (N.testbit b n) eqn:Eb; cbn;
    try (rewrite (Ha' eq_refl)); try (rewrite (Hb' eq_refl)); reflexivity.
Qed.

Lemma le_bitsb_spec a b : le_bitsb a b = true <-> le_bits a b.
Proof. unfold le_bitsb, le_bits. apply N.eqb_eq. Qed.

Section Values.
Variable prog : qkey -> body.
Variable sn : snapshot.
Variable ns : list qkey.
Hypothesis Hmono : monotone_prog prog sn.
Hypothesis Hfits : fits8 prog sn.

Notation lfp := (kleene prog sn ns).

Lemma lfp_fix q : In q ns -> F prog sn lfp q = lfp q.
Proof. apply (kleene_is_fixpoint prog sn ns Hmono Hfits). Qed.

(* every value any handle can hold, under any interleaving, lies below the least fixpoint *)
Theorem seen_below : forall q v, seen prog sn ns q v -> le_bits v (lfp q).
Proof.
  induction 1 as [q | q rho Hq _ IH | q v w _ IHv _ IHw].
  - apply le_bits_0.
  - rewrite <- (lfp_fix q Hq). apply Hmono. intros p. apply IH.
  - now apply lor_le.
Qed.

End Values.

Lemma mh_sig_dom ns st q v : mh_sig ns st q = Some v -> In q ns.
Proof. unfold mh_sig. destruct (mem q ns) eqn:E; [intros _; now apply mem_In | discriminate]. Qed.

Lemma results_settled_spec ns st :
  results_settled ns st = true ->
  forall h q v, In (h, q, v) (mh_results st) -> mh_sig ns st q = Some v.
Proof.
  unfold results_settled. rewrite forallb_forall. intros H h q v Hin.
  specialize (H _ Hin). cbn [fst snd] in H.
  destruct (mh_sig ns st q) as [v' |]; [| discriminate]. apply N.eqb_eq in H. now subst.
Qed.

Lemma mh_below_spec prog ns st :
  mh_below prog ns st = true ->
  forall q v, mh_sig ns st q = Some v -> le_bits v (kleene prog (mh_snap st) ns q).
Proof.
  unfold mh_below. rewrite forallb_forall. intros H q v Hs.
  specialize (H q (mh_sig_dom _ _ _ _ Hs)). rewrite Hs in H. now apply le_bitsb_spec.
Qed.

(* C12 for several handles: whatever the schedule was, if the final state of the round passes
   the certificate and holds values below the least fixpoint, every value a handle returned is
   the least fixpoint's — the single-threaded result *)
Theorem mh_certified_values : forall (prog : qkey -> body) (ns : list qkey) (st : mh_final),
  monotone_prog prog (mh_snap st) -> fits8 prog (mh_snap st) ->
  mh_cert_fix prog ns st = true ->
  (forall q v, mh_sig ns st q = Some v -> le_bits v (kleene prog (mh_snap st) ns q)) ->
  (forall q v, mh_sig ns st q = Some v -> v = kleene prog (mh_snap st) ns q) /\
  (forall h q v, In (h, q, v) (mh_results st) -> v = kleene prog (mh_snap st) ns q).
Proof.
  intros prog ns st Hm Hf Hc Hb. unfold mh_cert_fix in Hc. apply andb_true_iff in Hc as [Hc Hr].
  assert (A : forall q v, mh_sig ns st q = Some v -> v = kleene prog (mh_snap st) ns q).
  { intros q v Hs. apply (certified_fix prog (mh_snap st) ns Hm Hf (mh_sig ns st) Hc Hb q v); auto.
    eapply mh_sig_dom; eauto. }
  split; [exact A |]. intros h q v Hin. apply A. eapply results_settled_spec; eauto.
Qed.

(* the same with both side conditions decidable, as evaluated by the driver on every run *)
Corollary mh_certified_values_dec : forall (prog : qkey -> body) (ns : list qkey) (st : mh_final),
  monotone_prog prog (mh_snap st) -> fits8 prog (mh_snap st) ->
  mh_cert_fix prog ns st && mh_below prog ns st = true ->
  forall h q v, In (h, q, v) (mh_results st) -> v = kleene prog (mh_snap st) ns q.
Proof.
  intros prog ns st Hm Hf H. apply andb_true_iff in H as [Hc Hb].
  apply (mh_certified_values prog ns st Hm Hf Hc). now apply mh_below_spec.
Qed.

(* ... and with "below" discharged by the interleaving-independent closure [seen] *)
Corollary mh_certified_values_seen : forall (prog : qkey -> body) (ns : list qkey) (st : mh_final),
  monotone_prog prog (mh_snap st) -> fits8 prog (mh_snap st) ->
  mh_cert_fix prog ns st = true ->
  (forall q v, mh_sig ns st q = Some v -> seen prog (mh_snap st) ns q v) ->
  forall h q v, In (h, q, v) (mh_results st) -> v = kleene prog (mh_snap st) ns q.
Proof.
  intros prog ns st Hm Hf Hc Hs. apply (mh_certified_values prog ns st Hm Hf Hc).
  intros q v E. apply seen_below; auto.
Qed.

(* schedule independence: two rounds over the same inputs (any two schedules, any two sets of
   handles) whose final states pass the certificate returned the same value for the same key *)
Theorem mh_schedule_independent : forall (prog : qkey -> body) (ns : list qkey) (st1 st2 : mh_final),
  mh_snap st1 = mh_snap st2 ->
  monotone_prog prog (mh_snap st1) -> fits8 prog (mh_snap st1) ->
  mh_cert_fix prog ns st1 && mh_below prog ns st1 = true ->
  mh_cert_fix prog ns st2 && mh_below prog ns st2 = true ->
  forall h1 h2 q v1 v2, In (h1, q, v1) (mh_results st1) -> In (h2, q, v2) (mh_results st2) -> v1 = v2.
Proof.
  intros prog ns st1 st2 E Hm Hf H1 H2 h1 h2 q v1 v2 I1 I2.
  rewrite (mh_certified_values_dec prog ns st1 Hm Hf H1 h1 q v1 I1).
  rewrite E in Hm, Hf.
  rewrite (mh_certified_values_dec prog ns st2 Hm Hf H2 h2 q v2 I2). now rewrite E.
Qed.

(* C13 for several handles *)
Theorem mh_certified_fb_values : forall (prog : qkey -> body) (fb : qkey -> val) (ns : list qkey)
    (rank : qkey -> nat) (st : mh_final),
  input_determined prog (mh_snap st) ->
  let cyc := fun q => mem q (cyclic_nodes (succs prog (mh_snap st)) ns) in
  (forall q q', cyc q = false -> In q' (succs prog (mh_snap st) q) -> cyc q' = false -> (rank q' < rank q)%nat) ->
  (forall q, (rank q < length ns)%nat) ->
  mh_cert_fb prog fb ns st = true ->
  forall h q v, In (h, q, v) (mh_results st) -> v = spec_fallback prog (mh_snap st) fb ns q.
Proof.
  intros prog fb ns rank st Hdet cyc Hrank Hb Hc h q v Hin.
  unfold mh_cert_fb in Hc. apply andb_true_iff in Hc as [Hc Hr].
  apply (certified_fallback prog (mh_snap st) fb ns rank (mh_sig ns st) Hdet Hrank Hb Hc).
  - intros q0 v0. apply mh_sig_dom.
  - eapply results_settled_spec; eauto.
Qed.

Lemma sum_bottom (l : list qkey) : list_sum (map (fun q => bc (bottom q)) l) = 0%nat.
Proof.
  induction l as [| x l IH]; [reflexivity |].
  change ((bc 0%N + list_sum (map (fun q => bc (bottom q)) l))%nat = 0%nat). rewrite IH. reflexivity.
Qed.

Section Cmi.
Variable prog : qkey -> body.
Variable sn : snapshot.
Variable ns : list qkey.
Hypothesis Hmono : monotone_prog prog sn.
Hypothesis Hfits : fits8 prog sn.

Notation Fq := (F prog sn).
Notation lfp := (kleene prog sn ns).
Notation step := (cmi_step prog sn).
Notation run := (cmi_run prog sn).
Notation chg := (changes prog sn).

Definition picks_in (l : list pick) : Prop := forall p, In p l -> In (snd p) ns.

(* ascending, byte-valued, below the least fixpoint *)
Record cinv (rho : qkey -> val) : Prop := mkCinv {
  ci_asc : forall q, le_bits (rho q) (Fq rho q);
  ci_byte : forall q, rho q < 256;
  ci_below : forall q, le_bits (rho q) (lfp q)
}.

Lemma cinv_bottom : cinv bottom.
Proof. constructor; intros q; unfold bottom; [apply le_bits_0 | lia | apply le_bits_0]. Qed.

Lemma step_le rho p : cinv rho -> env_le rho (step rho p).
Proof.
  intros I x. unfold cmi_step, upd. destruct (key_eqb_spec (snd p) x) as [<- |]; [apply ci_asc; auto | apply le_bits_refl].
Qed.

Lemma step_cinv rho p : cinv rho -> In (snd p) ns -> cinv (step rho p).
Proof.
  intros I Hp. assert (Hle := step_le rho p I). constructor; intros q.
  - unfold cmi_step at 1, upd. destruct (key_eqb_spec (snd p) q) as [<- | Hne].
    + apply Hmono. exact Hle.
    + eapply le_bits_trans; [apply (ci_asc rho I) | apply Hmono; exact Hle].
  - unfold cmi_step, upd. destruct (key_eqb (snd p) q); [apply Hfits; apply (ci_byte rho I) | apply (ci_byte rho I)].
  - unfold cmi_step, upd. destruct (key_eqb_spec (snd p) q) as [<- | Hne]; [| apply (ci_below rho I)].
    rewrite <- (kleene_is_fixpoint prog sn ns Hmono Hfits (snd p) Hp). apply Hmono. intros x. apply (ci_below rho I).
Qed.

Lemma run_cinv : forall l rho, cinv rho -> picks_in l -> cinv (run l rho).
Proof.
  induction l as [| p l IH]; intros rho I Hp; cbn [cmi_run]; [exact I |].
  apply IH; [apply step_cinv; auto; apply Hp; now left | intros x Hx; apply Hp; now right].
Qed.

(* safety under every schedule: all values below the least fixpoint *)
Theorem cmi_below : forall l, picks_in l -> env_le (run l bottom) lfp.
Proof. intros l Hp q. apply (ci_below _ (run_cinv l bottom cinv_bottom Hp)). Qed.

(* values only grow, so a pick that changes its node sets a bit ([step_wt]), and a node has 8 bits *)
Definition wt (rho : qkey -> val) : nat := list_sum (map (fun q => bc (rho q)) ns).

Lemma wt_bound rho : (wt rho <= 8 * length ns)%nat.
Proof. unfold wt. apply list_sum_bound. intros q. apply bc_le8. Qed.

Lemma step_wt rho p : cinv rho -> In (snd p) ns ->
  (wt rho + (if Fq rho (snd p) =? rho (snd p) then 0 else 1) <= wt (step rho p))%nat.
Proof.
  intros I Hp. assert (Hle := step_le rho p I).
  destruct (N.eqb_spec (Fq rho (snd p)) (rho (snd p))) as [E | Hne].
  - assert (wt rho <= wt (step rho p))%nat; [| lia]. apply list_sum_le. intros q _. apply bc_le, Hle.
  - assert (wt rho < wt (step rho p))%nat; [| lia].
    apply list_sum_lt; [intros q _; apply bc_le, Hle |].
    exists (snd p). split; [exact Hp |]. apply bc_lt.
    + apply Hle.
    + apply (ci_byte rho I).
    + apply (ci_byte _ (step_cinv rho p I Hp)).
    + unfold cmi_step. rewrite upd_same. congruence.
Qed.

Lemma run_wt : forall l rho, cinv rho -> picks_in l -> (wt rho + chg l rho <= wt (run l rho))%nat.
Proof.
  induction l as [| p l IH]; intros rho I Hp; cbn [cmi_run changes]; [lia |].
  assert (Hin : In (snd p) ns) by (apply Hp; now left).
  assert (H1 := step_wt rho p I Hin).
  assert (H2 := IH (step rho p) (step_cinv rho p I Hin) (fun x Hx => Hp x (or_intror Hx))). lia.
Qed.

(* bounded progress under every schedule: at most height x nodes picks ever change anything *)
Theorem cmi_changes_bounded : forall l, picks_in l -> (chg l bottom <= 8 * length ns)%nat.
Proof.
  intros l Hp. assert (H := run_wt l bottom cinv_bottom Hp). assert (B := wt_bound (run l bottom)).
  assert (wt bottom = 0%nat) by apply sum_bottom. lia.
Qed.

Lemma step_ext rho rho' p : (forall x, rho x = rho' x) -> forall x, step rho p x = step rho' p x.
Proof.
  intros E x. unfold cmi_step, upd. destruct (key_eqb (snd p) x); [apply F_ext; exact E | apply E].
Qed.

Lemma run_ext : forall l rho rho', (forall x, rho x = rho' x) -> forall x, run l rho x = run l rho' x.
Proof.
  induction l as [| p l IH]; intros rho rho' E x; cbn [cmi_run]; [apply E |].
  apply IH. now apply step_ext.
Qed.

Lemma chg_ext : forall l rho rho', (forall x, rho x = rho' x) -> chg l rho = chg l rho'.
Proof.
  induction l as [| p l IH]; intros rho rho' E; cbn [changes]; [reflexivity |].
  rewrite (F_ext prog sn rho rho' (snd p) E), (E (snd p)). f_equal. apply IH. now apply step_ext.
Qed.

Lemma step_quiet rho p : Fq rho (snd p) = rho (snd p) -> forall x, step rho p x = rho x.
Proof.
  intros E x. unfold cmi_step, upd. destruct (key_eqb_spec (snd p) x) as [<- |]; auto.
Qed.

Lemma chg_zero : forall l rho, chg l rho = 0%nat ->
  (forall p, In p l -> Fq rho (snd p) = rho (snd p)) /\ (forall x, run l rho x = rho x).
Proof.
  induction l as [| p l IH]; intros rho H; cbn [changes cmi_run] in *.
  - split; [intros p [] | reflexivity].
  - destruct (N.eqb_spec (Fq rho (snd p)) (rho (snd p))) as [E | Hne]; [| discriminate].
    cbn in H. assert (Q := step_quiet rho p E).
    rewrite (chg_ext l _ _ Q) in H. destruct (IH rho H) as [A B]. split.
    + intros p' [<- | Hin]; [exact E | now apply A].
    + intros x. rewrite (run_ext l _ _ Q). apply B.
Qed.

Lemma quiet_sweep l rho : is_sweep ns l -> chg l rho = 0%nat -> quiescent prog sn ns rho = true.
Proof.
  intros [Hall _] H. destruct (chg_zero l rho H) as [A _].
  unfold quiescent. apply forallb_forall. intros q Hq. destruct (Hall q Hq) as [h Hin].
  apply N.eqb_eq. exact (A _ Hin).
Qed.

Lemma run_app : forall l1 l2 rho, run (l1 ++ l2) rho = run l2 (run l1 rho).
Proof. induction l1 as [| p l1 IH]; intros l2 rho; cbn [app cmi_run]; [reflexivity | apply IH]. Qed.

Lemma chg_app : forall l1 l2 rho, chg (l1 ++ l2) rho = (chg l1 rho + chg l2 (run l1 rho))%nat.
Proof.
  induction l1 as [| p l1 IH]; intros l2 rho; cbn [app cmi_run changes]; [reflexivity |].
  rewrite IH. lia.
Qed.

(* pigeonhole: more sweeps than changing picks means some sweep changes nothing *)
Lemma find_quiet : forall (sweeps : list (list pick)) rho,
  (chg (concat sweeps) rho < length sweeps)%nat ->
  exists pre s post, sweeps = pre ++ s :: post /\ chg s (run (concat pre) rho) = 0%nat.
Proof.
  induction sweeps as [| s rest IH]; intros rho H; cbn [concat length] in H; [lia |].
  rewrite chg_app in H. destruct (chg s rho) as [| n] eqn:E.
  - exists [], s, rest. split; [reflexivity | exact E].
  - destruct (IH (run s rho)) as (pre & s' & post & -> & Hq); [lia |].
    exists (s :: pre), s', post. split; [reflexivity |]. cbn [concat]. now rewrite run_app.
Qed.

Lemma quiescent_lfp rho : cinv rho -> quiescent prog sn ns rho = true -> forall q, rho q = lfp q.
Proof.
  intros I Q. apply (chaotic prog sn ns Hmono rho).
  - intros p. apply (ci_below rho I).
  - intros q Hq. unfold quiescent in Q. rewrite forallb_forall in Q. apply N.eqb_eq. now apply Q.
Qed.

Lemma run_at_lfp : forall l rho, picks_in l -> (forall x, rho x = lfp x) -> forall x, run l rho x = lfp x.
Proof.
  induction l as [| p l IH]; intros rho Hp E x; cbn [cmi_run]; [apply E |].
  apply IH; [intros y Hy; apply Hp; now right |]. intros y.
  unfold cmi_step, upd. destruct (key_eqb_spec (snd p) y) as [<- | Hne]; [| apply E].
  rewrite (F_ext prog sn rho lfp (snd p) E).
  apply (kleene_is_fixpoint prog sn ns Hmono Hfits). apply Hp. now left.
Qed.

Lemma concat_picks (sweeps : list (list pick)) :
  (forall s, In s sweeps -> is_sweep ns s) -> picks_in (concat sweeps).
Proof.
  intros H p Hin. apply in_concat in Hin as (s & Hs & Hp). destruct (H s Hs) as [_ B]. now apply B.
Qed.

(* termination with the single-threaded result under every schedule: whatever the handles pick
   and in whatever order, once the schedule contains more than height x nodes sweeps the shared
   assignment IS the least fixpoint (and stays so) *)
Theorem cmi_terminates_lfp : forall sweeps : list (list pick),
  (forall s, In s sweeps -> is_sweep ns s) -> (8 * length ns < length sweeps)%nat ->
  (exists pre s post, sweeps = pre ++ s :: post /\
     quiescent prog sn ns (run (concat pre) bottom) = true) /\
  forall q, run (concat sweeps) bottom q = lfp q.
Proof.
  intros sweeps Hs Hlen.
  assert (Hp := concat_picks sweeps Hs).
  destruct (find_quiet sweeps bottom) as (pre & s & post & E & Hq).
  { assert (B := cmi_changes_bounded (concat sweeps) Hp). lia. }
  assert (Hpre : picks_in (concat pre)).
  { apply concat_picks. intros x Hx. apply Hs. rewrite E. apply in_or_app. now left. }
  assert (I := run_cinv (concat pre) bottom cinv_bottom Hpre).
  assert (Q : quiescent prog sn ns (run (concat pre) bottom) = true).
  { apply (quiet_sweep s); [apply Hs; rewrite E; apply in_or_app; right; now left | exact Hq]. }
  split; [exists pre, s, post; split; [exact E | exact Q] |].
  intros q. rewrite E, concat_app, run_app. apply run_at_lfp.
  - apply concat_picks. intros x Hx. apply Hs. rewrite E. apply in_or_app. now right.
  - apply quiescent_lfp; auto.
Qed.

Lemma cinv_ext rho rho' : (forall x, rho x = rho' x) -> cinv rho -> cinv rho'.
Proof.
  intros E [A B C]. constructor; intros q.
  - rewrite <- (E q), <- (F_ext prog sn rho rho' q E). apply A.
  - rewrite <- (E q). apply B.
  - rewrite <- (E q). apply C.
Qed.

Lemma wt_ext rho rho' : (forall x, rho x = rho' x) -> wt rho = wt rho'.
Proof. intros E. unfold wt. f_equal. apply map_ext. intros q. now rewrite E. Qed.

Lemma cmi_reach_inv reqs s :
  mm_reach (cmi_machine ns) prog (mm_init (cmi_machine ns) prog sn reqs) s -> fst s = sn /\ cinv (snd s).
Proof.
  induction 1 as [| s h s' _ [Es I] (q & Hq & E1 & Hne & E2)].
  - cbn. split; [reflexivity | apply cinv_bottom].
  - split; [congruence |]. rewrite Es in E2.
    apply (cinv_ext (step (snd s) (h, q))); [intros x; symmetry; apply E2 | now apply step_cinv].
Qed.

Lemma cmi_acc : forall n s, fst s = sn -> cinv (snd s) -> (8 * length ns - wt (snd s) < n)%nat ->
  Acc (fun s2 s1 => exists h, mm_step (cmi_machine ns) prog s1 h s2) s.
Proof.
  induction n as [| n IH]; intros s Es I Hn; [lia |]. constructor.
  intros s' (h & q & Hq & E1 & Hne & E2). rewrite Es in E2, Hne.
  assert (I' : cinv (snd s')).
  { apply (cinv_ext (step (snd s) (h, q))); [intros x; symmetry; apply E2 | now apply step_cinv]. }
  apply IH; [congruence | exact I' |].
  assert (W := step_wt (snd s) (h, q) I Hq). cbn [snd] in W.
  destruct (N.eqb_spec (Fq (snd s) q) (snd s q)) as [E | _]; [contradiction |].
  rewrite (wt_ext (snd s') (step (snd s) (h, q)) E2).
  assert (B := wt_bound (step (snd s) (h, q))). lia.
Qed.

Lemma cmi_terminal s : fst s = sn -> cinv (snd s) ->
  (forall h s', ~ mm_step (cmi_machine ns) prog s h s') -> forall q, snd s q = lfp q.
Proof.
  intros Es I Hno. apply quiescent_lfp; [exact I |].
  unfold quiescent. apply forallb_forall. intros q Hq. apply N.eqb_eq.
  destruct (N.eq_dec (Fq (snd s) q) (snd s q)) as [E | Hne]; [exact E |]. exfalso.
  apply (Hno 0 (fst s, step (snd s) (0, q))). exists q. cbn [fst snd]. rewrite Es.
  repeat split; auto.
Qed.

End Cmi.

Theorem cmi_full : forall ns, mh_full_statement (cmi_machine ns) ns.
Proof.
  intros ns prog sn reqs Hm Hf s0. split.
  - intros s HR. destruct (cmi_reach_inv prog sn ns Hm Hf reqs s HR) as [Es I].
    apply (cmi_acc prog sn ns Hm Hf (S (8 * length ns - wt ns (snd s)))); auto.
  - intros s HR Hno. destruct (cmi_reach_inv prog sn ns Hm Hf reqs s HR) as [Es I].
    cbn [mm_obs cmi_machine mh_snap mh_sigma mh_results]. split; [exact Es |]. split.
    + intros q v _ [= <-]. now apply (cmi_terminal prog sn ns Hm s).
    + intros h q v [].
Qed.
