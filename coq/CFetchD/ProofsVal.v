(* CFetchD/ProofsVal.v — what the model with DYNAMIC call lists computes is the from-scratch
   value: the invariant and its preservation by thread steps, with or without the durability
   short-cut.

   The invariant ([InvC], with the ghost set [seen k] of revisions in which [k]'s memo was known
   valid, as in CFetch2/ProofsVal.v):
     * a memo's value is the from-scratch value at every seen revision not before its changed_at;
     * every edge READ ALONG THE PATH of the evaluation at the memo's verified_at is a recorded
       edge, or a call of a key whose value is the same in all revisions ([constk]: what a
       never-changing durability means when no input is never-changing); so two revisions that
       agree on the recorded edges agree on the value AND on the path ([evb_agree]);
     * a memo of never-changing durability has no recorded edges and a constant value;
     * an executing frame holds a residual computation that evaluates like the whole body, and
       every edge of the path that is no longer ahead was accumulated ([cov]): recorded (or
       constant), its stamp below the accumulated changed_at, read from a memo verified now;
     * a verifying frame whose flag is still set has found every recorded edge before its position
       unchanged: input stamps not after the memo's verified_at, callee memos verified now with
       changed_at not after it.
   Rely: a memo verified in the current revision is not written again in it (writers hold the
   claim of an unverified key; claims are exclusive: CFetchD/ProofsSync.v). *)
From Salsa Require Import Base.
From Salsa.Proto Require Import Model.
From Salsa.CFetch Require Import Model.
From Salsa.CFetchD Require Import Model ProofsRel ProofsSync.

Lemma edge_eqb_eq a b : edge_eqb a b = true <-> a = b.
Proof.
  destruct a as [i|k], b as [j|l]; cbn; split; try discriminate.
  - intros H. apply N.eqb_eq in H. now subst.
  - intros [= ->]. apply N.eqb_refl.
  - intros H. apply N.eqb_eq in H. now subst.
  - intros [= ->]. apply N.eqb_refl.
Qed.

Lemma existsb_edge e l : existsb (edge_eqb e) l = true <-> In e l.
Proof.
  rewrite existsb_exists. split.
  - intros (x & Hx & He). apply edge_eqb_eq in He. now subst.
  - intros H. exists e. split; auto. now apply edge_eqb_eq.
Qed.

Lemma add_tr_in a e e' c d : In e (a_tr a) -> In e (a_tr (add_edge a e' c d)).
Proof.
  intros H. unfold add_edge. cbn [a_tr]. destruct ((d =? DUR_MAX) || existsb (edge_eqb e') (a_tr a)); auto.
  apply in_or_app. now left.
Qed.

Lemma add_tr_new a e c d : d <> DUR_MAX -> In e (a_tr (add_edge a e c d)).
Proof.
  intros H. unfold add_edge. cbn [a_tr]. apply N.eqb_neq in H. rewrite H. cbn [orb].
  destruct (existsb (edge_eqb e) (a_tr a)) eqn:Ex.
  - now apply existsb_edge.
  - apply in_or_app. right. now left.
Qed.

Lemma add_tr_inv a e e' c d : In e (a_tr (add_edge a e' c d)) -> In e (a_tr a) \/ (e = e' /\ d <> DUR_MAX).
Proof.
  unfold add_edge. cbn [a_tr]. destruct (N.eqb_spec d DUR_MAX) as [->|Hne]; cbn [orb]; auto.
  destruct (existsb (edge_eqb e') (a_tr a)); auto.
  intros H. apply in_app_or in H as [H|[<-|[]]]; auto.
Qed.

Lemma add_tr_max a e c : a_tr (add_edge a e c DUR_MAX) = a_tr a.
Proof. unfold add_edge. cbn [a_tr]. now rewrite N.eqb_refl. Qed.

(* agreement is only needed for the edges that are on BOTH paths *)
Lemma evb_agree2 rec inp rec' inp' : forall b,
  (forall e, In e (readsb rec inp b) -> In e (readsb rec' inp' b) -> esame rec rec' inp inp' e) ->
  evb rec inp b = evb rec' inp' b.
Proof.
  induction b as [v|i k IH|d k IH]; intros H; cbn [evb]; auto.
  - pose proof (H (EIn i) (or_introl eq_refl) (or_introl eq_refl)) as E0. cbn in E0. rewrite <- E0.
    apply IH. intros e He He'. apply H; cbn [readsb]; [now right|]. right. now rewrite <- E0.
  - pose proof (H (ECall d) (or_introl eq_refl) (or_introl eq_refl)) as E0. cbn in E0. rewrite <- E0.
    apply IH. intros e He He'. apply H; cbn [readsb]; [now right|]. right. now rewrite <- E0.
Qed.

Definition walkingD (ph : phaseD) : bool :=
  match ph with DVerify _ _ | DExec _ _ | DPend _ _ _ => true | _ => false end.

Section Val.
Variable Q : progD.
Variable rank : key -> nat.

Notation Ev := (ED Q rank).
Notation path r k := (readsb (Ev r) (d_in Q r) (d_body Q k)).

(* no input is of never-changing durability *)
Definition no_never : Prop := forall r i, d_idur Q r i < DUR_MAX.

Definition constk (d : key) : Prop := forall r r', Ev r d = Ev r' d.

Definition esameR (r r' : rev) (e : edge) : Prop := esame (Ev r) (Ev r') (d_in Q r) (d_in Q r') e.

Definition ver2D (mm : key -> option memoD) (cur : rev) (k : key) : Prop :=
  exists m, mm k = Some m /\ o_ver m = cur.

(* an edge of the path that was accumulated by the executing frame *)
Definition cov (mm : key -> option memoD) (cur : rev) (a : accD) (e : edge) : Prop :=
  match e with
  | EIn i => In e (a_tr a) /\ d_stamp Q cur i <= a_chg a /\ a_dur a < DUR_MAX
  | ECall d => exists m, mm d = Some m /\ o_ver m = cur /\ o_chg m <= a_chg a /\
                         (In e (a_tr a) \/ constk d) /\ (DUR_MAX <= a_dur a -> constk d)
  end.

Definition good_edge (mm : key -> option memoD) (cur since : rev) (e : edge) : Prop :=
  match e with
  | EIn i => d_stamp Q cur i <= since
  | ECall d => exists md, mm d = Some md /\ o_ver md = cur /\ o_chg md <= since
  end.

(* of a frame that executes [k] with residual body [b] and accumulator [a] *)
Definition exec_ok mm cur (k : key) (b : body) (a : accD) : Prop :=
  ~ ver2D mm cur k /\ a_chg a <= cur /\
  evb (Ev cur) (d_in Q cur) (d_body Q k) = evb (Ev cur) (d_in Q cur) b /\
  (forall e, In e (path cur k) -> In e (readsb (Ev cur) (d_in Q cur) b) \/ cov mm cur a e) /\
  (* [add_edge] records no edge of never-changing durability, and any other edge lowers the
     minimum *)
  (DUR_MAX <= a_dur a -> a_tr a = []) /\
  (* so the current revision is a seen revision of every recorded callee when the memo is
     published, as [memo_okD] asks *)
  (forall d, In (ECall d) (a_tr a) -> ver2D mm cur d) /\
  a_dur a <= DUR_MAX.

(* [pend] is the callee the frame is waiting for: the key of the frame above it on the stack,
   [[]] for the top frame (see [stack_okC]).  The [DMark] clause is never reached: [frame_okC]
   below treats that phase itself. *)
Definition frame_okD mm cur (pend : list key) (f : frameD) : Prop :=
  match h_phase f with
  | DMark _ _ => False
  | DVerify l ok =>
    ~ ver2D mm cur (h_key f) /\
    (ok = true -> exists m done, mm (h_key f) = Some m /\
       o_deps m = done ++ map ECall pend ++ l /\
       forall e, In e done -> good_edge mm cur (o_ver m) e)
  | DExec b a => pend = [] /\ exec_ok mm cur (h_key f) b a
  | DPend d kont a => pend = [d] /\ exec_ok mm cur (h_key f) (BCall d kont) a
  | DRelease r | DUnblock r =>
    exists m, mm (h_key f) = Some m /\ o_ver m = cur /\ retm m = r
  | _ => True
  end.

Definition memo_okD (seen : key -> rev -> Prop) (cur : rev) (k : key) (m : memoD) : Prop :=
  o_chg m <= o_ver m /\ o_ver m <= cur /\ seen k (o_ver m) /\
  (forall r, seen k r -> o_chg m <= r -> Ev r k = o_val m) /\
  (forall e, In e (path (o_ver m) k) -> In e (o_deps m) \/ exists d, e = ECall d /\ constk d) /\
  (o_dur m = DUR_MAX -> o_deps m = [] /\ constk k) /\
  (* a later walk compares a callee's value then and now through the callee's own value clause *)
  (forall d, In (ECall d) (o_deps m) -> seen d (o_ver m)) /\
  o_dur m <= DUR_MAX.

(* ---- a write to an unverified key leaves the other frames alone ---- *)
Lemma cov_stable mm mm' cur k0 a e :
  ~ ver2D mm cur k0 -> (forall k, k <> k0 -> mm' k = mm k) -> cov mm cur a e -> cov mm' cur a e.
Proof.
  intros Hun Hoth. destruct e as [i|d]; cbn [cov]; auto.
  intros (m & Hm & Hv & R). exists m. split; auto. rewrite Hoth; auto.
  intros ->. apply Hun. exists m. auto.
Qed.

Lemma ver2D_stable mm mm' cur k0 d :
  ~ ver2D mm cur k0 -> (forall k, k <> k0 -> mm' k = mm k) -> ver2D mm cur d -> ver2D mm' cur d.
Proof.
  intros Hun Hoth (m & Hm & Hv). exists m. split; auto. rewrite Hoth; auto.
  intros ->. apply Hun. exists m. auto.
Qed.

Lemma exec_stable mm mm' cur k0 k b a :
  ~ ver2D mm cur k0 -> (forall k, k <> k0 -> mm' k = mm k) -> k <> k0 ->
  exec_ok mm cur k b a -> exec_ok mm' cur k b a.
Proof.
  intros Hun Hoth Hne (A & B & C & D & E0 & F & G).
  split; [|split; [exact B|split; [exact C|split; [|split; [exact E0|split; [|exact G]]]]]].
  - intros (m & Hm & Hv). apply A. exists m. split; auto. rewrite <- Hoth; auto.
  - intros e He. destruct (D e He) as [H|H]; auto. right. apply (cov_stable mm mm' cur k0); auto.
  - intros d Hd. apply (ver2D_stable mm mm' cur k0); auto.
Qed.

Lemma frame_stableD mm mm' cur k0 pend f :
  ~ ver2D mm cur k0 -> (forall k, k <> k0 -> mm' k = mm k) ->
  (h_key f = k0 -> walkingD (h_phase f) = false) ->
  frame_okD mm cur pend f -> frame_okD mm' cur pend f.
Proof.
  intros Hun Hoth Hcond. unfold frame_okD.
  destruct (h_phase f) as [|cl r| | | |l ok|b a|d kont a|r|r] eqn:Eph; auto.
  - assert (Hne : h_key f <> k0) by (intros E0; specialize (Hcond E0); discriminate).
    intros [Hnv Hok]. split.
    + intros (m & Hm & Hvv). apply Hnv. exists m. rewrite <- Hoth; auto.
    + intros Eok. destruct (Hok Eok) as (m & done & Hm & Hd & Hg). exists m, done.
      rewrite Hoth by auto. repeat split; auto.
      intros e He. specialize (Hg e He). destruct e as [i|d]; cbn [good_edge] in *; auto.
      destruct Hg as (md & Hmd & Hvd & Hcd). exists md. split; auto. rewrite Hoth; auto.
      intros ->. apply Hun. exists md. auto.
  - assert (Hne : h_key f <> k0) by (intros E0; specialize (Hcond E0); discriminate).
    intros [Hp Hx]. split; auto. eapply exec_stable; eauto.
  - assert (Hne : h_key f <> k0) by (intros E0; specialize (Hcond E0); discriminate).
    intros [Hp Hx]. split; auto. eapply exec_stable; eauto.
  - intros (m & Hm & Hvv & Hr). exists m. rewrite Hoth; auto.
    intros E0. apply Hun. exists m. rewrite <- E0. auto.
  - intros (m & Hm & Hvv & Hr). exists m. rewrite Hoth; auto.
    intros E0. apply Hun. exists m. rewrite <- E0. auto.
Qed.

(* ---- accumulating an edge ---- *)
Lemma cov_add mm cur a e e' c d : cov mm cur a e -> cov mm cur (add_edge a e' c d) e.
Proof.
  destruct e as [i|d0]; cbn [cov].
  - intros (A & B & C). split; [now apply add_tr_in|]. unfold add_edge; cbn [a_chg a_dur]. split; lia.
  - intros (m & Hm & Hv & Hc & Hin & Hd). exists m. repeat split; auto.
    + unfold add_edge; cbn [a_chg]. lia.
    + destruct Hin; [left; now apply add_tr_in | now right].
    + unfold add_edge; cbn [a_dur]. intros H. apply Hd. lia.
Qed.


(* ---- the input reads of a body ---- *)
Lemma adv_ok mm cur k : no_never -> stampsD_ok Q -> 1 <= cur ->
  forall b a b' a', exec_ok mm cur k b a -> adv Q cur b a = (b', a') -> exec_ok mm cur k b' a'.
Proof.
  intros NN SK H1. induction b as [v|i k0 IH|d k0 IH]; intros a b' a' Hx; cbn [adv].
  - intros [= <- <-]. exact Hx.
  - apply IH. destruct Hx as (A & B & C & D & E0 & F & G).
    pose proof (NN cur i) as Hdu. pose proof (proj1 (proj2 SK) cur i H1) as Hst.
    split; [exact A|]. split; [unfold add_edge; cbn [a_chg]; lia|]. split; [|split; [|split; [|split]]].
    + rewrite C. reflexivity.
    + intros e He. destruct (D e He) as [Hin|Hc].
      * cbn [readsb] in Hin. destruct Hin as [<-|Hin]; [|now left].
        right. cbn [cov]. split; [apply add_tr_new; lia|]. unfold add_edge; cbn [a_chg a_dur]. split; lia.
      * right. now apply cov_add.
    + unfold add_edge at 1; cbn [a_dur]. intros H. exfalso. lia.
    + intros d0 Hd0. apply add_tr_inv in Hd0 as [Hd0|[E1 _]]; auto. discriminate.
    + unfold add_edge; cbn [a_dur]. lia.
  - intros [= <- <-]. exact Hx.
Qed.

Lemma skip_ins_spec mm cur ver : forall l l',
  skip_ins Q cur ver l = (true, l') ->
  exists ins, l = ins ++ l' /\ forall e, In e ins -> good_edge mm cur ver e.
Proof.
  induction l as [|e l IH]; intros l'; cbn [skip_ins].
  - intros [= <-]. exists []. split; auto. intros e [].
  - destruct e as [i|d].
    + destruct (N.leb_spec (d_stamp Q cur i) ver) as [Hle|Hgt]; [|discriminate].
      intros H. destruct (IH _ H) as (ins & -> & Hg). exists (EIn i :: ins). split; auto.
      intros e [<-|He]; auto.
    + intros [= <-]. exists []. split; auto. intros e [].
Qed.

End Val.

(* What the invariant says about recorded DURABILITIES is left open: [accok cur k b a] of the
   accumulator of a frame that executes [k] with residual body [b], [memok k m] of a memo,
   [cutok d] of the durability of a memo whose short-cut store is pending.  The three speak of
   one accumulator or memo and of the program only, not of the memo table or of [seen]: they
   survive writes to other keys and the growth of [seen] without a law saying so.  [memok]
   cannot constrain changed_at: [acc_publish] below is for every [chg], because insert_memo
   backdates against the old memo.  [cutok] is there because probe and store of the short-cut
   are two steps: between them other handles run, and all the store still knows of the memo it
   probed is kept in [markokC]; an instance chooses for [cutok] a property of the durability
   alone from which, with the invariant, [cut_sound] follows at the time of the store.
   The laws [inv_stepC] needs of them are hypotheses of this section; CFetchD/ProofsTop.v (no
   short-cut), CFetchD/ProofsShort.v and CFetchD/ProofsLevels.v supply them.
   With the short-cut on, the pending store ([DMark]) knows the memo it returns (verified now or
   still passing the probe), and a frame that walks or executes holds a key whose memo fails the
   probe: a pending store and a walker never meet on one key, although the store takes no claim. *)
Section Cut.
Variable fuel : nat.
Variable Q : progD.
Variable rank : key -> nat.
Variable sc : bool.
Variable accok : rev -> key -> body -> accD -> Prop.
Variable memok : key -> memoD -> Prop.
Variable cutok : dur -> Prop.

Notation Ev := (ED Q rank).
Notation path r k := (readsb (Ev r) (d_in Q r) (d_body Q k)).

Definition nscutC (mm : key -> option memoD) (cur : rev) (k : key) : Prop :=
  forall m, mm k = Some m -> shortcut Q sc cur m = false.

Definition markokC (mm : key -> option memoD) (cur : rev) (k : key) (r : retD) : Prop :=
  exists m, mm k = Some m /\ retm m = r /\ cutok (o_dur m) /\
            (o_ver m = cur \/ (o_ver m < cur /\ shortcut Q sc cur m = true)).

Definition frame_okC mm cur (pend : list key) (f : frameD) : Prop :=
  match h_phase f with
  | DMark _ r => markokC mm cur (h_key f) r
  | DVerify _ _ => frame_okD Q rank mm cur pend f /\ nscutC mm cur (h_key f)
  | DExec b a => frame_okD Q rank mm cur pend f /\ accok cur (h_key f) b a /\ nscutC mm cur (h_key f)
  | DPend d kont a =>
    frame_okD Q rank mm cur pend f /\ accok cur (h_key f) (BCall d kont) a /\ nscutC mm cur (h_key f)
  | _ => frame_okD Q rank mm cur pend f
  end.

Fixpoint stack_okC mm cur (pend : list key) (l : list frameD) : Prop :=
  match l with
  | [] => True
  | f :: b => frame_okC mm cur pend f /\ stack_okC mm cur [h_key f] b
  end.

Record InvC (seen : key -> rev -> Prop) (s : cstateD) : Prop := mkInvC {
  IC_memo : forall k m, cD_memo s k = Some m -> memo_okD Q rank seen (cD_cur s) k m;
  IC_seen : forall k r, seen k r -> r <= cD_cur s;
  IC_stack : forall t, stack_okC (cD_memo s) (cD_cur s) [] (stackD s t);
  (* [stampsD_ok] bounds a stamp by the revision only from 1 on *)
  IC_cur : 1 <= cD_cur s;
  (* backdating a published memo compares callee values at an earlier seen revision through this *)
  IC_closed : forall k r d, seen k r -> In (ECall d) (path r k) -> seen d r \/ constk Q rank d;
  IC_log : forall t k r v, In (ERet t k r v) (cD_log s) -> v = Ev r k;
  IC_lvl : forall k m, cD_memo s k = Some m -> memok k m
}.

Lemma memo_facts seen s d md :
  InvC seen s -> cD_memo s d = Some md -> o_ver md = cD_cur s ->
  Ev (cD_cur s) d = o_val md /\ o_chg md <= cD_cur s /\ o_dur md <= DUR_MAX /\
  (o_dur md = DUR_MAX -> constk Q rank d) /\ seen d (cD_cur s).
Proof.
  intros I Hm Hv.
  destruct (IC_memo _ _ I _ _ Hm) as (A & B & C & D & E0 & F & G & H).
  split; [apply D; [now rewrite <- Hv | lia] |]. split; [lia|]. split; auto.
  split; [intros E1; apply F; exact E1|]. now rewrite <- Hv.
Qed.

Lemma memo_sound seen s k m : InvC seen s -> cD_memo s k = Some m -> o_val m = Ev (o_ver m) k.
Proof.
  intros I Hm. destruct (IC_memo _ _ I _ _ Hm) as (Hc & _ & Hs & Hval & _). symmetry. now apply Hval.
Qed.

Lemma nscut_other mm mm' cur k0 k : (forall k', k' <> k0 -> mm' k' = mm k') -> k <> k0 ->
  nscutC mm cur k -> nscutC mm' cur k.
Proof. intros Hoth Hne H m Hm. rewrite Hoth in Hm by auto. apply H; exact Hm. Qed.

Lemma frame_stableC mm mm' cur k0 pend f :
  ~ ver2D mm cur k0 -> (forall k, k <> k0 -> mm' k = mm k) ->
  (h_key f = k0 -> walkingD (h_phase f) = false) ->
  (forall r, markokC mm cur k0 r -> markokC mm' cur k0 r) ->
  frame_okC mm cur pend f -> frame_okC mm' cur pend f.
Proof.
  intros Hun Hoth Hcond Hmk. unfold frame_okC.
  pose proof (frame_stableD Q rank mm mm' cur k0 pend f Hun Hoth Hcond) as HD.
  destruct (h_phase f) as [|cl r| | | |l ok|b a|d kont a|r|r] eqn:Eph; auto.
  - (* DMark *)
    destruct (N.eq_dec (h_key f) k0) as [E0|Hne]; [rewrite E0; apply Hmk|].
    intros (m & Hm & R). exists m. rewrite Hoth by auto. split; auto.
  - assert (Hne : h_key f <> k0) by (intros E0; specialize (Hcond E0); discriminate).
    intros [A B]. split; [apply HD; exact A | eapply nscut_other; eauto].
  - assert (Hne : h_key f <> k0) by (intros E0; specialize (Hcond E0); discriminate).
    intros (A & B & C). split; [apply HD; exact A|]. split; [exact B | eapply nscut_other; eauto].
  - assert (Hne : h_key f <> k0) by (intros E0; specialize (Hcond E0); discriminate).
    intros (A & B & C). split; [apply HD; exact A|]. split; [exact B | eapply nscut_other; eauto].
Qed.

Lemma stack_stableC mm mm' cur k0 : forall l pend,
  ~ ver2D mm cur k0 -> (forall k, k <> k0 -> mm' k = mm k) ->
  (forall f, In f l -> h_key f = k0 -> walkingD (h_phase f) = false) ->
  (forall r, markokC mm cur k0 r -> markokC mm' cur k0 r) ->
  stack_okC mm cur pend l -> stack_okC mm' cur pend l.
Proof.
  induction l as [|f b IH]; intros pend Hun Hoth Hc Hmk; cbn [stack_okC]; auto.
  intros [Hf Hb]. split.
  - exact (frame_stableC mm mm' cur k0 pend f Hun Hoth (Hc f (or_introl eq_refl)) Hmk Hf).
  - apply IH; auto. intros f' Hf'. apply Hc. now right.
Qed.

Lemma frame_ok_pend mm cur pend pend' f :
  walkingD (h_phase f) = false -> frame_okC mm cur pend f -> frame_okC mm cur pend' f.
Proof. unfold frame_okC, frame_okD. destruct (h_phase f); try discriminate; intros _ H; exact H. Qed.

Lemma stack_frameC mm cur : forall l pend f, stack_okC mm cur pend l -> In f l ->
  exists pend', frame_okC mm cur pend' f.
Proof.
  induction l as [|f0 b IH]; intros pend f Hok Hin; [destruct Hin|].
  cbn [stack_okC] in Hok. destruct Hok as [Hf Hb]. destruct Hin as [<-|Hin]; [eauto | eapply IH; eauto].
Qed.

Lemma walking_nscut mm cur pend f : frame_okC mm cur pend f -> walkingD (h_phase f) = true ->
  nscutC mm cur (h_key f).
Proof.
  unfold frame_okC. destruct (h_phase f); try discriminate; intros H _; apply H.
Qed.

Lemma memo_ok_mono (seen seen' : key -> rev -> Prop) cur k m :
  (forall k' r, seen k' r -> seen' k' r) ->
  (forall r, seen' k r -> seen k r) ->
  memo_okD Q rank seen cur k m -> memo_okD Q rank seen' cur k m.
Proof.
  intros Hs Hk (A & B & C & D & E0 & F & G & H).
  split; [exact A|]. split; [exact B|]. split; [apply Hs; exact C|].
  split; [intros r Hr; apply D; apply Hk; exact Hr|]. split; [exact E0|]. split; [exact F|].
  split; [intros d Hd; apply Hs; apply G; exact Hd | exact H].
Qed.

Lemma inv_nomemoC seen s t u :
  InvC seen s -> uD_memo u = cD_memo s ->
  stack_okC (cD_memo s) (cD_cur s) [] (uD_stack u) ->
  (forall t0 k r v, In (ERet t0 k r v) (uD_ev u) -> v = Ev r k) ->
  InvC seen (apply_updD s t u).
Proof.
  intros [A B C D E0 F G] Hm Hs Hl. constructor; cbn [cD_memo cD_cur cD_log apply_updD]; rewrite ?Hm; auto.
  - intros t'. rewrite stackD_apply. destruct (t =? t'); auto.
  - intros t0 k r v Hin. apply in_app_or in Hin as [Hin|Hin]; eauto.
Qed.

Lemma inv_quietC seen s t u :
  InvC seen s -> uD_memo u = cD_memo s -> uD_ev u = [] ->
  stack_okC (cD_memo s) (cD_cur s) [] (uD_stack u) ->
  InvC seen (apply_updD s t u).
Proof. intros I Hm Hev Hs. apply inv_nomemoC; auto. rewrite Hev. intros ? ? ? ? []. Qed.

(* A memo write at [k0], by the holder of its claim or by the claim-free store of the short-cut:
   that no other frame walks or executes [k0] comes from exclusive claims for a holder, from
   [passing_not_walked] for the short-cut.  The premise about the callees on [k0]'s path keeps
   [IC_closed]; the last one asks for the writer's new stack given the frames below, which are
   in order by [stack_stableC] with [k0] still pending. *)
Lemma inv_writeC seen s t u k0 below m' :
  InvC seen s ->
  forall ph, stackD s t = (k0 @@ ph) :: below ->
  ~ ver2D (cD_memo s) (cD_cur s) k0 ->
  (forall t' f, In f (stackD s t') -> (t' <> t \/ In f below) -> h_key f = k0 -> walkingD (h_phase f) = false) ->
  (forall r, markokC (cD_memo s) (cD_cur s) k0 r -> markokC (uD_memo u) (cD_cur s) k0 r) ->
  uD_memo u = updN (cD_memo s) k0 (Some m') ->
  (forall t0 k r v, In (ERet t0 k r v) (uD_ev u) -> v = Ev r k) ->
  o_ver m' = cD_cur s -> memok k0 m' ->
  memo_okD Q rank (fun k r => seen k r \/ (k = k0 /\ r = cD_cur s)) (cD_cur s) k0 m' ->
  (forall d, In (ECall d) (path (cD_cur s) k0) -> ver2D (cD_memo s) (cD_cur s) d \/ constk Q rank d) ->
  (stack_okC (uD_memo u) (cD_cur s) [k0] below ->
   stack_okC (uD_memo u) (cD_cur s) [] (uD_stack u)) ->
  InvC (fun k r => seen k r \/ (k = k0 /\ r = cD_cur s)) (apply_updD s t u).
Proof.
  intros I ph Hst Hun Hwalk Hmk Hm Hev Hv Hlv Hok Hcl Hs.
  assert (Hoth : forall k, k <> k0 -> uD_memo u k = cD_memo s k).
  { intros k Hk. rewrite Hm. now rewrite updN_other by auto. }
  assert (Hk0 : uD_memo u k0 = Some m') by (rewrite Hm; apply updN_same).
  constructor; cbn [cD_memo cD_cur cD_log apply_updD].
  - intros k m Hk. destruct (N.eq_dec k k0) as [->|Hne].
    + rewrite Hk0 in Hk. injection Hk as <-. exact Hok.
    + rewrite Hoth in Hk by auto. eapply memo_ok_mono; [| |eapply (IC_memo _ _ I); eauto].
      * intros k' r Hr. now left.
      * intros r [Hr|[E0 _]]; [auto | congruence].
  - intros k r [Hr | [_ ->]]; [eapply IC_seen; eauto | lia].
  - intros t'. rewrite stackD_apply. destruct (N.eqb_spec t t') as [<-|Hne].
    + apply Hs.
      pose proof (IC_stack _ _ I t) as Hokk. rewrite Hst in Hokk. cbn [stack_okC h_key] in Hokk.
      destruct Hokk as [_ Hb].
      eapply (stack_stableC (cD_memo s) (uD_memo u) (cD_cur s) k0);
        [exact Hun | exact Hoth | | exact Hmk | exact Hb].
      intros f Hf Hk. apply (Hwalk t f); [rewrite Hst; now right | now right | exact Hk].
    + eapply (stack_stableC (cD_memo s) (uD_memo u) (cD_cur s) k0);
        [exact Hun | exact Hoth | | exact Hmk | apply (IC_stack _ _ I)].
      intros f Hf Hk. apply (Hwalk t' f); auto.
  - apply (IC_cur _ _ I).
  - intros k r d [Hr | [-> ->]] Hin.
    + destruct (IC_closed _ _ I _ _ _ Hr Hin); [left; now left | now right].
    + destruct (Hcl _ Hin) as [(md & Hmd & Hvd)|Hc]; [|now right].
      destruct (IC_memo _ _ I _ _ Hmd) as (_ & _ & Hsn & _). left. left. now rewrite <- Hvd.
  - intros t0 k r v Hin. apply in_app_or in Hin as [Hin|Hin]; [eauto | eapply IC_log; eauto].
  - intros k m Hk. destruct (N.eq_dec k k0) as [->|Hne].
    + rewrite Hk0 in Hk. injection Hk as <-. exact Hlv.
    + rewrite Hoth in Hk by auto. eapply IC_lvl; eauto.
Qed.

Lemma rewalk_ok seen s k m :
  rankedD Q rank -> stampsD_ok Q -> InvC seen s -> cD_memo s k = Some m ->
  (forall e, In e (o_deps m) -> good_edge Q (cD_memo s) (cD_cur s) (o_ver m) e) ->
  Ev (cD_cur s) k = o_val m /\ path (o_ver m) k = path (cD_cur s) k /\
  memo_okD Q rank (fun k0 r => seen k0 r \/ (k0 = k /\ r = cD_cur s)) (cD_cur s) k
           (verified_now (cD_cur s) m) /\
  (forall d, In (ECall d) (path (cD_cur s) k) -> ver2D (cD_memo s) (cD_cur s) d \/ constk Q rank d).
Proof.
  intros RK SK I Hm Hgood.
  destruct (IC_memo _ _ I _ _ Hm) as (Hc & Hle & Hsn & Hval & Hpath & Hmax & Hdep & Hdu).
  assert (HA : forall e, In e (o_deps m) -> esameR Q rank (o_ver m) (cD_cur s) e).
  { intros e He. specialize (Hgood e He). destruct e as [i|d]; cbn [good_edge] in Hgood; unfold esameR; cbn [esame].
    - apply (proj1 SK (cD_cur s) i (o_ver m)); auto.
    - destruct Hgood as (md & Hmd & Hvd & Hcd).
      destruct (IC_memo _ _ I _ _ Hmd) as (Hc' & _ & Hsn' & Hval' & _).
      rewrite (Hval' (cD_cur s)); [|now rewrite <- Hvd | lia].
      rewrite (Hval' (o_ver m)); auto. }
  assert (Hall : forall e, In e (path (o_ver m) k) -> esameR Q rank (o_ver m) (cD_cur s) e).
  { intros e He. destruct (Hpath e He) as [Hin|(d & -> & Hcst)]; auto. unfold esameR; cbn [esame]. apply Hcst. }
  assert (HE : Ev (cD_cur s) k = o_val m).
  { rewrite <- (Hval (o_ver m) Hsn Hc). rewrite (ED_unfold Q rank RK (cD_cur s) k), (ED_unfold Q rank RK (o_ver m) k).
    symmetry. apply evb_agree. exact Hall. }
  assert (Hpe : path (o_ver m) k = path (cD_cur s) k) by (apply readsb_agree; exact Hall).
  split; [exact HE|]. split; [exact Hpe|]. split.
  - unfold memo_okD. cbn [verified_now o_ver o_chg o_val o_dur o_deps].
    split; [lia|]. split; [lia|]. split; [right; auto|]. split; [|split; [|split; [exact Hmax|split; [|exact Hdu]]]].
    + intros r [Hr|[_ ->]] Hler; [now apply Hval | exact HE].
    + intros e He. rewrite <- Hpe in He. now apply Hpath.
    + intros d Hdd. destruct (Hgood _ Hdd) as (md & Hmd & Hvd & _).
      destruct (IC_memo _ _ I _ _ Hmd) as (_ & _ & Hsn' & _). left. now rewrite <- Hvd.
  - intros d Hdd. rewrite <- Hpe in Hdd. destruct (Hpath _ Hdd) as [Hin|(d0 & E0 & Hcst)].
    + left. destruct (Hgood _ Hin) as (md & Hmd & Hvd & _). exists md. auto.
    + injection E0 as ->. now right.
Qed.

Lemma publish_ok seen s k nv a' :
  rankedD Q rank -> stampsD_ok Q -> InvC seen s ->
  exec_ok Q rank (cD_memo s) (cD_cur s) k (BRet nv) a' ->
  memo_okD Q rank (fun k0 r => seen k0 r \/ (k0 = k /\ r = cD_cur s)) (cD_cur s) k
           (mkO (cD_cur s) nv (publish_chg Q s k nv a') (a_dur a') (a_tr a')) /\
  (forall d, In (ECall d) (path (cD_cur s) k) -> ver2D (cD_memo s) (cD_cur s) d \/ constk Q rank d).
Proof.
  intros RK SK I (A & B & C & D & E0 & F & G). cbn [evb readsb] in C, D.
  assert (HE : Ev (cD_cur s) k = nv) by (rewrite (ED_unfold Q rank RK); exact C).
  assert (Hcov : forall e, In e (path (cD_cur s) k) -> cov Q rank (cD_memo s) (cD_cur s) a' e).
  { intros e He. destruct (D e He) as [[]|Hc]; auto. }
  assert (Hch0 : forall r, seen k r -> a_chg a' <= r -> Ev r k = nv).
  { intros r Hr Hle. pose proof (IC_seen _ _ I _ _ Hr) as Hrc. rewrite <- HE.
    rewrite (ED_unfold Q rank RK r k), (ED_unfold Q rank RK (cD_cur s) k). symmetry.
    apply evb_agree2. intros e He He'. specialize (Hcov e He). destruct e as [i|d]; cbn [cov esame] in *.
    - destruct Hcov as (_ & Hs & _). symmetry. apply (proj1 SK (cD_cur s) i r); lia.
    - destruct Hcov as (md & Hmd & Hvd & Hcd & _).
      destruct (IC_memo _ _ I _ _ Hmd) as (_ & _ & Hsn' & Hval' & _).
      destruct (IC_closed _ _ I _ _ _ Hr He') as [Hsd|Hcst]; [|apply Hcst].
      rewrite (Hval' (cD_cur s)); [|now rewrite <- Hvd | lia].
      rewrite (Hval' r); auto. lia. }
  assert (Hchle : publish_chg Q s k nv a' <= cD_cur s).
  { unfold publish_chg. destruct (cD_memo s k) as [mo|] eqn:Emo; [|exact B].
    destruct (d_eq Q k && (o_dur mo <=? a_dur a') && (o_val mo =? nv)); [|exact B].
    destruct (IC_memo _ _ I _ _ Emo) as (? & ? & _). lia. }
  split.
  - unfold memo_okD. cbn [o_ver o_chg o_val o_dur o_deps].
    split; [exact Hchle|]. split; [lia|]. split; [right; auto|]. split; [|split; [|split; [|split; [|exact G]]]].
    + intros r [Hr|[_ ->]] Hler; [|exact HE]. unfold publish_chg in Hler.
      destruct (cD_memo s k) as [mo|] eqn:Emo; [|now apply Hch0].
      destruct (d_eq Q k && (o_dur mo <=? a_dur a') && (o_val mo =? nv)) eqn:Eb; [|now apply Hch0].
      apply andb_true_iff in Eb as [_ Eb]. apply N.eqb_eq in Eb.
      destruct (IC_memo _ _ I _ _ Emo) as (_ & _ & _ & Hval & _). rewrite <- Eb. now apply Hval.
    + intros e He. specialize (Hcov e He). destruct e as [i|d]; cbn [cov] in Hcov.
      * left. apply Hcov.
      * destruct Hcov as (md & _ & _ & _ & [Hin|Hcst] & _); [now left | right; eauto].
    + intros Emax. split; [apply E0; lia|].
      assert (Hr : forall r, Ev r k = Ev (cD_cur s) k).
      { intros r. rewrite (ED_unfold Q rank RK r k), (ED_unfold Q rank RK (cD_cur s) k). symmetry.
        apply evb_agree. intros e He. specialize (Hcov e He). destruct e as [i|d]; cbn [cov esame] in *.
        - destruct Hcov as (_ & _ & Hlt). exfalso. lia.
        - destruct Hcov as (md & _ & _ & _ & _ & Hcst). apply Hcst. lia. }
      intros r r'. now rewrite (Hr r), (Hr r').
    + intros d Hdd. destruct (F d Hdd) as (md & Hmd & Hvd).
      destruct (IC_memo _ _ I _ _ Hmd) as (_ & _ & Hsn' & _). left. now rewrite <- Hvd.
  - intros d Hdd. specialize (Hcov _ Hdd). cbn [cov] in Hcov.
    destruct Hcov as (md & Hmd & Hvd & _). left. exists md. auto.
Qed.

Lemma passing_not_walked seen s k m :
  InvC seen s -> cD_memo s k = Some m -> shortcut Q sc (cD_cur s) m = true ->
  forall t f, In f (stackD s t) -> h_key f = k -> walkingD (h_phase f) = false.
Proof.
  intros I Hm Hsc t f Hin Hk. destruct (walkingD (h_phase f)) eqn:Ew; auto. exfalso.
  destruct (stack_frameC _ _ _ _ _ (IC_stack _ _ I t) Hin) as (pend' & Hfr).
  pose proof (walking_nscut _ _ _ _ Hfr Ew) as Hns. rewrite Hk in Hns. rewrite (Hns m Hm) in Hsc. discriminate.
Qed.

(* other pending stores of the same memo find it verified now *)
Lemma markok_stored mm cur k m r :
  mm k = Some m -> markokC mm cur k r -> markokC (updN mm k (Some (verified_now cur m))) cur k r.
Proof.
  intros Hm (m0 & Hm0 & Hr0 & Hc0 & _). rewrite Hm in Hm0. injection Hm0 as <-.
  exists (verified_now cur m). rewrite updN_same. split; [reflexivity|]. split; [exact Hr0|]. split; [exact Hc0|]. left; reflexivity.
Qed.

(* [probe_cut]: a memo that passes the probe has a durability for which a store may be pending;
   [acc_start], [acc_adv], [acc_deliver]: what is known of the accumulator holds when an execution
   starts and is kept by input reads and by the return of a callee;
   [acc_publish], [mem_rewalk]: the memo inserted after an execution, resp. marked after a walk,
   satisfies [memok]. *)
Hypothesis probe_cut : forall cur k m,
  memok k m -> o_ver m < cur -> shortcut Q sc cur m = true -> cutok (o_dur m).
Hypothesis acc_start : forall cur k, accok cur k (d_body Q k) acc0.
Hypothesis acc_adv : forall cur k b a b' a',
  accok cur k b a -> adv Q cur b a = (b', a') -> accok cur k b' a'.
Hypothesis acc_deliver : forall cur k d kont a md,
  accok cur k (BCall d kont) a -> memok d md -> Ev cur d = o_val md ->
  accok cur k (kont (o_val md)) (add_edge a (ECall d) (o_chg md) (o_dur md)).
Hypothesis acc_publish : forall cur k nv chg a,
  accok cur k (BRet nv) a -> a_dur a <= DUR_MAX -> memok k (mkO cur nv chg (a_dur a) (a_tr a)).
Hypothesis mem_rewalk : forall cur k m,
  memok k m -> path (o_ver m) k = path cur k -> memok k (verified_now cur m).

Lemma deliver_okC mm cur d md below :
  mm d = Some md -> o_ver md = cur -> Ev cur d = o_val md -> o_chg md <= cur ->
  o_dur md <= DUR_MAX -> (o_dur md = DUR_MAX -> constk Q rank d) -> memok d md ->
  stack_okC mm cur [d] below -> stack_okC mm cur [] (deliverD mm (retm md) below).
Proof.
  intros Hm Hv HE Hcc Hdu Hcst Hlv. destruct below as [|f b]; cbn [deliverD stack_okC]; auto.
  intros [Hf Hb].
  destruct (h_phase f) as [|cl r0| | | |l ok|b0 a|d' kont a|r0|r0] eqn:Eph; cbn [stack_okC h_key];
    try (split; [apply (frame_ok_pend mm cur [d]); [rewrite Eph; reflexivity | exact Hf] | exact Hb]);
    unfold frame_okC, frame_okD in Hf; rewrite Eph in Hf; (split; [|exact Hb]);
    unfold frame_okC, frame_okD; cbn [h_phase h_key].
  - (* DVerify: one more recorded edge found unchanged, if it was *)
    destruct Hf as [[Hnv Hok] Hns]. split; [|exact Hns].
    split; auto. intros Eok. apply andb_true_iff in Eok as [Eok Eun].
    destruct (Hok Eok) as (m & done & Hmk & Hd & Hg). exists m, (done ++ [ECall d]). split; auto.
    rewrite Hmk in Eun. cbn [retm r_chg] in Eun. apply N.leb_le in Eun. split.
    + rewrite Hd. cbn [map app]. now rewrite <- app_assoc.
    + intros e He. apply in_app_or in He as [He|[<-|[]]]; auto.
      cbn [good_edge]. exists md. auto.
  - destruct Hf as [[Hp _] _]. discriminate.
  - (* DPend: the edge is accumulated and the body resumes *)
    destruct Hf as ([Hp (A & B & C & D & E0 & F & G)] & Hla & Hns). injection Hp as <-.
    cbn [retm r_val r_chg r_dur]. split; [|split; [apply acc_deliver; assumption | exact Hns]].
    split; auto.
    split; [exact A|]. split; [unfold add_edge; cbn [a_chg]; lia|]. split; [|split; [|split; [|split]]].
    + rewrite C. cbn [evb]. now rewrite HE.
    + intros e He. destruct (D e He) as [Hin|Hc].
      * cbn [readsb] in Hin. destruct Hin as [<-|Hin].
        -- right. cbn [cov]. exists md. split; auto. split; auto. split; [unfold add_edge; cbn [a_chg]; lia|].
           split.
           ++ destruct (N.eq_dec (o_dur md) DUR_MAX) as [E1|E1]; [right; auto | left; now apply add_tr_new].
           ++ unfold add_edge; cbn [a_dur]. intros H. apply Hcst. lia.
        -- left. now rewrite <- HE.
      * right. now apply cov_add.
    + unfold add_edge at 1; cbn [a_dur]. intros H.
      assert (E1 : o_dur md = DUR_MAX) by lia. rewrite E1, add_tr_max. apply E0. lia.
    + intros d0 Hd0. apply add_tr_inv in Hd0 as [Hd0|[E1 _]]; auto.
      injection E1 as ->. exists md. auto.
    + unfold add_edge; cbn [a_dur]. lia.
Qed.

Lemma return_okC seen s t u k m below :
  InvC seen s -> cD_memo s k = Some m -> o_ver m = cD_cur s ->
  stack_okC (cD_memo s) (cD_cur s) [k] below ->
  uD_memo u = cD_memo s -> uD_stack u = deliverD (cD_memo s) (retm m) below ->
  uD_ev u = [ERet t k (cD_cur s) (o_val m)] ->
  InvC seen (apply_updD s t u).
Proof.
  intros I Hm Hv Hb Hmu Hs Hev.
  destruct (memo_facts _ _ _ _ I Hm Hv) as (HE & Hc & Hdu & Hcst & _).
  apply inv_nomemoC; [exact I | exact Hmu | rewrite Hs | rewrite Hev].
  - exact (deliver_okC _ _ k m below Hm Hv HE Hc Hdu Hcst (IC_lvl _ _ I _ _ Hm) Hb).
  - intros t0 k0 r v [E0|[]]. injection E0 as <- <- <- <-. now rewrite HE.
Qed.

Lemma retop_okC seen s t u k ph ph' below :
  InvC seen s -> stackD s t = (k @@ ph) :: below ->
  uD_memo u = cD_memo s -> uD_ev u = [] -> uD_stack u = (k @@ ph') :: below ->
  frame_okC (cD_memo s) (cD_cur s) [] (k @@ ph') ->
  InvC seen (apply_updD s t u).
Proof.
  intros I Hst Hmu Hev Hs Hf. apply inv_quietC; [exact I | exact Hmu | exact Hev |]. rewrite Hs.
  pose proof (IC_stack _ _ I t) as Hok. rewrite Hst in Hok. cbn [stack_okC h_key] in Hok |- *.
  split; [exact Hf | exact (proj2 Hok)].
Qed.

Lemma mark_frame seen s k m cl pend :
  InvC seen s -> cD_memo s k = Some m -> o_ver m <> cD_cur s -> shortcut Q sc (cD_cur s) m = true ->
  frame_okC (cD_memo s) (cD_cur s) pend (k @@ DMark cl (retm m)).
Proof.
  intros I Hm Hv Hsc. destruct (IC_memo _ _ I _ _ Hm) as (_ & Hle & _).
  assert (Hlt : o_ver m < cD_cur s) by lia.
  exists m. split; [exact Hm|]. split; [reflexivity|].
  split; [exact (probe_cut _ _ _ (IC_lvl _ _ I _ _ Hm) Hlt Hsc) | right; split; assumption].
Qed.

Lemma release_frame mm cur pend k m :
  mm k = Some m -> o_ver m = cur -> frame_okC mm cur pend (k @@ DRelease (retm m)).
Proof. intros Hm Hv. exists m. auto. Qed.

Lemma holder_writeC seen s t u k ph below m' :
  InvC seen s -> exclD s -> stackD s t = (k @@ ph) :: below -> holdD ph = true ->
  ~ ver2D (cD_memo s) (cD_cur s) k -> nscutC (cD_memo s) (cD_cur s) k ->
  uD_memo u = updN (cD_memo s) k (Some m') -> uD_ev u = [] ->
  uD_stack u = (k @@ DRelease (retm m')) :: below ->
  o_ver m' = cD_cur s -> memok k m' ->
  memo_okD Q rank (fun k0 r => seen k0 r \/ (k0 = k /\ r = cD_cur s)) (cD_cur s) k m' ->
  (forall d, In (ECall d) (path (cD_cur s) k) -> ver2D (cD_memo s) (cD_cur s) d \/ constk Q rank d) ->
  InvC (fun k0 r => seen k0 r \/ (k0 = k /\ r = cD_cur s)) (apply_updD s t u).
Proof.
  intros I X Hst Hh Hun Hns Hmu Hev Hs Hv Hlv Hok Hcl.
  eapply inv_writeC with (ph := ph) (below := below);
    [exact I | exact Hst | exact Hun | | | exact Hmu | rewrite Hev; intros ? ? ? ? []
    | exact Hv | exact Hlv | exact Hok | exact Hcl |].
  - (* claims are exclusive: nobody else walks or executes k *)
    intros t' f Hin Hpos Hk. destruct (walkingD (h_phase f)) eqn:Ew; auto. exfalso.
    assert (Hh' : holdD (h_phase f) = true) by (destruct (h_phase f); try discriminate; reflexivity).
    destruct (X _ _ _ _ _ _ Hst Hh Hin Hh' Hk) as [Et Hnb]. destruct Hpos; [congruence | contradiction].
  - (* no store is pending for k: its memo is neither verified nor passing the probe *)
    intros r (m0 & Hm0 & _ & _ & [Hv0 | [_ Hsc0]]).
    + exfalso. apply Hun. exists m0. auto.
    + rewrite (Hns m0 Hm0) in Hsc0. discriminate.
  - rewrite Hs, Hmu. cbn [stack_okC h_key]. intros Hb'. split; [|exact Hb'].
    apply release_frame; [apply updN_same | exact Hv].
Qed.

(* the store of the short-cut: the memo has the value and the read path of the current revision,
   and the invariant is kept (possibly with more revisions [seen]).  [cut_store] is stated for
   both stores at once, hence the arbitrary phase [ph] and the continuation premise: the hot-path
   store delivers to the caller, the store after the claim goes on to release.  An instance
   proves it from [inv_writeC], with [passing_not_walked] and [markok_stored] for the premises
   about other frames. *)
Hypothesis cut_sound : forall seen s k m,
  InvC seen s -> cD_memo s k = Some m -> cutok (o_dur m) ->
  o_ver m < cD_cur s -> shortcut Q sc (cD_cur s) m = true ->
  Ev (cD_cur s) k = o_val m /\ path (o_ver m) k = path (cD_cur s) k.
Hypothesis cut_store : forall seen s t u k ph below m,
  InvC seen s -> stackD s t = (k @@ ph) :: below -> cD_memo s k = Some m -> cutok (o_dur m) ->
  o_ver m < cD_cur s -> shortcut Q sc (cD_cur s) m = true ->
  uD_memo u = updN (cD_memo s) k (Some (verified_now (cD_cur s) m)) ->
  (forall t0 k0 r v, In (ERet t0 k0 r v) (uD_ev u) -> v = Ev r k0) ->
  (stack_okC (uD_memo u) (cD_cur s) [k] below -> stack_okC (uD_memo u) (cD_cur s) [] (uD_stack u)) ->
  exists seen', InvC seen' (apply_updD s t u).

(* the top frame takes the phase of the new stack; no memo is written, nothing is logged *)
Ltac retop seen I Hst :=
  exists seen; eapply retop_okC; [exact I | exact Hst | reflexivity | reflexivity | reflexivity |].

Lemma inv_stepC seen s t c u :
  rankedD Q rank -> stampsD_ok Q -> no_never Q -> InvC seen s -> exclD s ->
  step_threadD fuel Q sc s t c = Some u ->
  exists seen', InvC seen' (apply_updD s t u).
Proof.
  intros RK SK NN I X Hstep.
  pose proof (step_threadD_path fuel Q sc s t c u Hstep) as Hp.
  pose proof (IC_stack _ _ I t) as Hok.
  pose proof (IC_cur _ _ I) as H1.
  dpathD Hp; rewrite Hst in Hok; cbn [stack_okC h_key] in Hok;
    try (destruct Hok as [Hf Hb]; unfold frame_okC in Hf; cbn [h_phase h_key] in Hf).
  - (* begin *)
    exists seen. apply inv_quietC; [exact I | reflexivity | reflexivity |].
    cbn [uD_stack stack_okC]. split; exact Logic.I.
  - (* hit *)
    exists seen. eapply return_okC; [exact I | exact Hm | exact Hv | exact Hb | reflexivity | reflexivity | reflexivity].
  - (* hot_sc *)
    retop seen I Hst.
    exact (mark_frame _ _ _ _ _ _ I Hm Hv Hsc).
  - (* go_cold: a [DCold] frame has no obligations *)
    retop seen I Hst. exact Logic.I.
  - (* mark_hot *)
    destruct Hf as (m & Hm & <- & Hct & Hcase). destruct Hcase as [Hv | [Hlt Hsc]].
    + (* verified meanwhile: the store does nothing *)
      rewrite (mark_memo_now s k m Hm Hv).
      exists seen. eapply return_okC; [exact I | exact Hm | exact Hv | exact Hb | reflexivity | reflexivity | reflexivity].
    + rewrite (mark_memo_old s k m Hm Hlt).
      destruct (IC_memo _ _ I _ _ Hm) as (Hc & Hle & _ & _ & _ & Hmax & _ & Hdu).
      destruct (cut_sound seen s k m I Hm Hct Hlt Hsc) as [HE Hpe].
      eapply cut_store; [exact I | exact Hst | exact Hm | exact Hct | exact Hlt | exact Hsc | reflexivity | |];
        cbn [uD_ev uD_stack uD_memo].
      * intros t0 k0 r v [E0|[]]. cbn [retm r_val] in E0. injection E0 as <- <- <- <-. now rewrite HE.
      * intros Hb'. change (retm m) with (retm (verified_now (cD_cur s) m)).
        apply (deliver_okC _ (cD_cur s) k (verified_now (cD_cur s) m)); auto.
        -- apply updN_same.
        -- cbn. lia.
        -- intros E3. apply Hmax. exact E3.
        -- apply mem_rewalk; [eapply IC_lvl; eauto | exact Hpe].
  - (* mark_claimed *)
    destruct Hf as (m & Hm & <- & Hct & Hcase). destruct Hcase as [Hv | [Hlt Hsc]].
    + rewrite (mark_memo_now s k m Hm Hv).
      retop seen I Hst.
      exact (release_frame _ _ _ k m Hm Hv).
    + rewrite (mark_memo_old s k m Hm Hlt).
      eapply cut_store; [exact I | exact Hst | exact Hm | exact Hct | exact Hlt | exact Hsc | reflexivity | |];
        cbn [uD_ev uD_stack uD_memo].
      * intros ? ? ? ? [].
      * intros Hb'. cbn [stack_okC h_key]. split; [|exact Hb'].
        exact (release_frame _ _ _ k (verified_now (cD_cur s) m) (updN_same _ _ _) eq_refl).
  - (* claimed: a [DClaimed] frame has no obligations *)
    retop seen I Hst. exact Logic.I.
  - (* blocked: nor has a [DWait] frame *)
    retop seen I Hst. exact Logic.I.
  - (* cycle1: the frame stays [DCold] *)
    retop seen I Hst. exact Logic.I.
  - (* cycle2 *)
    retop seen I Hst. exact Logic.I.
  - (* woken: back to [DStart] *)
    retop seen I Hst. exact Logic.I.
  - (* recheck_hit *)
    retop seen I Hst.
    exact (release_frame _ _ _ k m Hm Hv).
  - (* recheck_sc *)
    retop seen I Hst.
    exact (mark_frame _ _ _ _ _ _ I Hm Hv Hsc).
  - (* to_verify *)
    retop seen I Hst.
    unfold frame_okC, frame_okD. cbn [h_phase h_key]. split; [split|].
    + intros (m0 & Hm0 & Hv0). congruence.
    + intros _. exists m, []. split; auto. split; auto. intros e [].
    + intros m0 Hm0. rewrite Hm in Hm0. injection Hm0 as <-. exact Hnsc.
  - (* exec_start *)
    assert (Hns : nscutC (cD_memo s) (cD_cur s) k).
    { destruct Hph as [[-> Hnv] | (l & ok & ->)]; [exact (Hnsc eq_refl) | apply Hf]. }
    exists seen. apply inv_nomemoC; [exact I | reflexivity | |]; cbn [uD_stack uD_ev stack_okC h_key].
    2:{ intros t0 k0 r v [E0|[]]. discriminate. }
    split; [|exact Hb]. unfold frame_okC, frame_okD. cbn [h_phase h_key].
    split; [|split; [apply acc_start | exact Hns]].
    split; auto.
    split; [|split; [exact H1|split; [reflexivity|split; [intros e He; now left|split; [reflexivity|split; [intros d []|]]]]]].
    + destruct Hph as [[-> Hnv] | (l & ok & ->)].
      * intros (m0 & Hm0 & Hv0). eapply Hnv; eauto.
      * destruct Hf as [Hf _]. unfold frame_okD in Hf. cbn [h_phase h_key] in Hf. apply Hf.
    + cbn. unfold DUR_MAX. lia.
  - (* call_v *)
    destruct Hf as [Hfd Hns]. unfold frame_okD in Hfd. cbn [h_phase h_key] in Hfd.
    destruct Hfd as [Hun Hokk]. destruct (Hokk eq_refl) as (m0 & done & Hm0 & Hd & Hg).
    assert (m0 = m) by congruence. subst m0. cbn [map app] in Hd.
    destruct (skip_ins_spec Q (cD_memo s) _ _ _ _ Hsk) as (ins & -> & Hgi).
    exists seen. apply inv_quietC; [exact I | reflexivity | reflexivity |]; cbn [uD_stack stack_okC h_key].
    split; [exact Logic.I|]. split; [|exact Hb]. unfold frame_okC, frame_okD. cbn [h_phase h_key]. split; [|exact Hns]. split; auto.
    intros _. exists m, (done ++ ins). split; auto. split.
    + rewrite Hd. cbn [map app]. now rewrite <- app_assoc.
    + intros e He. apply in_app_or in He as [He|He]; auto.
  - (* mark *)
    destruct Hf as [Hfd Hns]. unfold frame_okD in Hfd. cbn [h_phase h_key] in Hfd.
    destruct Hfd as [Hun Hokk]. destruct (Hokk eq_refl) as (m0 & done & Hm0 & Hd & Hg).
    assert (m0 = m) by congruence. subst m0. cbn [map app] in Hd.
    destruct (skip_ins_spec Q (cD_memo s) _ _ _ _ Hsk) as (ins & -> & Hgi).
    rewrite app_nil_r in Hd.
    assert (Hgood : forall e, In e (o_deps m) -> good_edge Q (cD_memo s) (cD_cur s) (o_ver m) e).
    { intros e He. rewrite Hd in He. apply in_app_or in He as [He|He]; auto. }
    destruct (rewalk_ok seen s k m RK SK I Hm Hgood) as (HE & Hpe & Hmok & Hcl).
    eexists. eapply holder_writeC with (m' := verified_now (cD_cur s) m);
      [exact I | exact X | exact Hst | reflexivity | exact Hun | exact Hns | reflexivity | reflexivity
      | reflexivity | reflexivity | exact (mem_rewalk _ _ _ (IC_lvl _ _ I _ _ Hm) Hpe) | exact Hmok | exact Hcl].
  - (* call_x *)
    destruct Hf as (Hfd & Hla & Hns). unfold frame_okD in Hfd. cbn [h_phase h_key] in Hfd.
    destruct Hfd as [_ Hx]. pose proof (adv_ok Q rank (cD_memo s) (cD_cur s) k NN SK H1 _ _ _ _ Hx Hadv) as Hx'.
    pose proof (acc_adv _ _ _ _ _ _ Hla Hadv) as Hla'.
    exists seen. apply inv_quietC; [exact I | reflexivity | reflexivity |]; cbn [uD_stack stack_okC h_key].
    split; [exact Logic.I|]. split; [|exact Hb]. unfold frame_okC, frame_okD. cbn [h_phase h_key]. split; [split; auto|]. split; assumption.
  - (* publish *)
    destruct Hf as (Hfd & Hla & Hns). unfold frame_okD in Hfd. cbn [h_phase h_key] in Hfd.
    destruct Hfd as [_ Hx]. pose proof (adv_ok Q rank (cD_memo s) (cD_cur s) k NN SK H1 _ _ _ _ Hx Hadv) as Hx'.
    pose proof (acc_adv _ _ _ _ _ _ Hla Hadv) as Hla'.
    destruct (publish_ok seen s k nv a' RK SK I Hx') as (Hmok & Hcl).
    destruct Hx' as (A & _ & _ & _ & _ & _ & G).
    eexists. eapply holder_writeC
      with (m' := mkO (cD_cur s) nv (publish_chg Q s k nv a') (a_dur a') (a_tr a'));
      [exact I | exact X | exact Hst | reflexivity | exact A | exact Hns | reflexivity | reflexivity
      | reflexivity | reflexivity | exact (acc_publish _ _ _ _ _ Hla' G) | exact Hmok | exact Hcl].
  - (* release_quiet *)
    unfold frame_okD in Hf. cbn [h_phase h_key] in Hf. destruct Hf as (m & Hm & Hv & <-).
    exists seen. eapply return_okC; [exact I | exact Hm | exact Hv | exact Hb | reflexivity | reflexivity | reflexivity].
  - (* release_wake *)
    retop seen I Hst. exact Hf.
  - (* unblock *)
    unfold frame_okD in Hf. cbn [h_phase h_key] in Hf. destruct Hf as (m & Hm & Hv & <-).
    exists seen. eapply return_okC; [exact I | exact Hm | exact Hv | exact Hb | reflexivity | reflexivity | reflexivity].
Qed.

End Cut.

Arguments IC_memo {Q rank sc accok memok cutok seen s}.
Arguments IC_seen {Q rank sc accok memok cutok seen s}.
Arguments IC_stack {Q rank sc accok memok cutok seen s}.
Arguments IC_cur {Q rank sc accok memok cutok seen s}.
Arguments IC_closed {Q rank sc accok memok cutok seen s}.
Arguments IC_log {Q rank sc accok memok cutok seen s}.
Arguments IC_lvl {Q rank sc accok memok cutok seen s}.
