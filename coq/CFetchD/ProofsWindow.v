(* CFetchD/ProofsWindow.v — the semantic core of the durability short-cut for ALL levels: [durge]
   and [durge_stable] of Core/DurSem.v over the resumable bodies of CFetchD.  A key whose
   from-scratch evaluation reads (transitively) only inputs of durability >= d has the same value,
   the same read path and the same level in every later revision in which level d saw no write.
   Hence a memo that carries the from-scratch value of its verified_at and whose recorded
   durability is such a semantic level is correctly served by the short-cut.  Specification side
   only: no model state. *)
From Salsa Require Import Base.
From Salsa.Proto Require Import Model.
From Salsa.CFetch Require Import Model.
From Salsa.CFetchD Require Import Model ProofsRel.

Section Window.
Variable Q : progD.
Variable rank : key -> nat.
Hypothesis RK : rankedD Q rank.

Notation Ev := (ED Q rank).
Notation path r k := (readsb (Ev r) (d_in Q r) (d_body Q k)).

(* the write rule of the last-changed vector, as in Props/C16.v's [durab_ok] *)
Definition lc_antitone : Prop := forall r d d', d <= d' -> d_lc Q r d' <= d_lc Q r d.
Definition write_rule : Prop :=
  forall r r0 i, r0 <= r -> d_lc Q r (d_idur Q r0 i) <= r0 ->
    d_in Q r i = d_in Q r0 i /\ d_stamp Q r i = d_stamp Q r0 i /\ d_idur Q r i = d_idur Q r0 i.

(* [durgeD r d k]: in revision r every input the evaluation of k reads, transitively, has
   durability >= d *)
Inductive durgeD (r : rev) (d : dur) : key -> Prop :=
| durgeD_intro k :
    (forall i, In (EIn i) (path r k) -> d <= d_idur Q r i) ->
    (forall c, In (ECall c) (path r k) -> durgeD r d c) ->
    durgeD r d k.

Lemma durgeD_mono r d d' k : d' <= d -> durgeD r d k -> durgeD r d' k.
Proof.
  intros Hd H. induction H as [k A B IH]. constructor.
  - intros i Hi. specialize (A i Hi). lia.
  - exact IH.
Qed.

(* the stable window *)
Theorem durgeD_stable v cur d k :
  lc_antitone -> write_rule -> v <= cur -> d_lc Q cur d <= v -> durgeD v d k ->
  Ev cur k = Ev v k /\ path cur k = path v k /\ durgeD cur d k.
Proof.
  intros LA WR Hle Hlc H. induction H as [k A B IH].
  assert (Hin : forall i, In (EIn i) (path v k) ->
            d_in Q cur i = d_in Q v i /\ d_idur Q cur i = d_idur Q v i).
  { intros i Hi. pose proof (A i Hi) as Hd. pose proof (LA cur d (d_idur Q v i) Hd) as Hl.
    destruct (WR cur v i Hle) as (E1 & _ & E3); [lia | split; assumption]. }
  assert (Hag : forall e, In e (path v k) -> esame (Ev v) (Ev cur) (d_in Q v) (d_in Q cur) e).
  { intros e He. destruct e as [i|c]; cbn [esame].
    - symmetry. apply (Hin i He).
    - symmetry. apply (IH c He). }
  assert (HE : Ev cur k = Ev v k).
  { rewrite (ED_unfold Q rank RK cur k), (ED_unfold Q rank RK v k). symmetry. apply evb_agree. exact Hag. }
  assert (HP : path cur k = path v k) by (symmetry; apply readsb_agree; exact Hag).
  split; [exact HE|]. split; [exact HP|]. constructor; rewrite HP.
  - intros i Hi. rewrite (proj2 (Hin i Hi)). apply A; exact Hi.
  - intros c Hc. apply (IH c Hc).
Qed.

(* the short-cut is sound for every memo whose recorded durability is a semantic level *)
Corollary shortcut_sound_of_durgeD cur k (m : memoD) :
  lc_antitone -> write_rule ->
  o_val m = Ev (o_ver m) k -> durgeD (o_ver m) (o_dur m) k -> o_ver m <= cur ->
  shortcut Q true cur m = true ->
  o_val m = Ev cur k /\ path cur k = path (o_ver m) k /\ durgeD cur (o_dur m) k.
Proof.
  intros LA WR Hv Hd Hle Hsc. unfold shortcut in Hsc. cbn [andb] in Hsc. apply N.leb_le in Hsc.
  destruct (durgeD_stable (o_ver m) cur (o_dur m) k LA WR Hle Hsc Hd) as (A & B & C).
  split; [rewrite A; exact Hv | split; assumption].
Qed.

(* what a fresh execution records is a semantic level: the minimum over the inputs read and over
   the levels of the callees (the [a_dur] accumulation of ActiveQuery::add_read) *)
Lemma durgeD_of_reads r d k :
  (forall i, In (EIn i) (path r k) -> d <= d_idur Q r i) ->
  (forall c, In (ECall c) (path r k) -> exists dc, d <= dc /\ durgeD r dc c) ->
  durgeD r d k.
Proof.
  intros A B. constructor; [exact A|]. intros c Hc. destruct (B c Hc) as (dc & Hle & Hd).
  apply (durgeD_mono r dc d c Hle Hd).
Qed.

End Window.
