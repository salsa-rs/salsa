(* CFetchD/ProofsObserver.v — specification side of the observer clause of Core/DInv.v, over the
   resumable bodies of CFetchD: walking the reads of one evaluation against another one, either
   every read has the same answer, or the first read with a different answer is performed by the
   other evaluation too, after the same prefix ([first_changed_is_read_again] of
   Core/SpecProofs.v).  This is what makes
   "a re-execution never yields a changed_at below the old one" ([frame_changed_lb]) and "the new
   durability is at least the observer's" ([frame_dur_lb]) provable: the re-execution reads the old
   prefix again, then the changed edge, whose stamp is newer than the old verified_at.
   No model state occurs here; an invariant of CFetchD with the observer clause is not proved
   (Props/C16.v, OPEN). *)
From Salsa Require Import Base.
From Salsa.Proto Require Import Model.
From Salsa.CFetch Require Import Model.
From Salsa.CFetchD Require Import Model ProofsRel.

Definition eanswer (rec : key -> val) (inp : ikey -> val) (e : edge) : val :=
  match e with EIn i => inp i | ECall d => rec d end.

Lemma esame_answer rec rec' inp inp' e :
  esame rec rec' inp inp' e <-> eanswer rec inp e = eanswer rec' inp' e.
Proof. destruct e; cbn; tauto. Qed.

Theorem first_changed_is_read_againD rec inp rec' inp' : forall b,
  (forall e, In e (readsb rec inp b) -> esame rec rec' inp inp' e) \/
  (exists pre e post, readsb rec inp b = pre ++ e :: post /\
     (forall x, In x pre -> esame rec rec' inp inp' x) /\
     ~ esame rec rec' inp inp' e /\
     exists post', readsb rec' inp' b = pre ++ e :: post').
Proof.
  induction b as [v|i k IH|d k IH]; cbn [readsb].
  - left. intros e [].
  - destruct (N.eq_dec (inp i) (inp' i)) as [Heq|Hne].
    + destruct (IH (inp i)) as [Hag|(pre & e & post & Ht & Hpre & Hnee & post' & Ht')].
      * left. intros e [<-|He]; [exact Heq | apply Hag; exact He].
      * right. exists (EIn i :: pre), e, post. split; [cbn; now rewrite Ht|]. split.
        -- intros x [<-|Hx]; [exact Heq | apply Hpre; exact Hx].
        -- split; [exact Hnee|]. exists post'. cbn. now rewrite <- Heq, Ht'.
    + right. exists [], (EIn i), (readsb rec inp (k (inp i))). split; [reflexivity|]. split; [intros x []|].
      split; [exact Hne|]. eexists. reflexivity.
  - destruct (N.eq_dec (rec d) (rec' d)) as [Heq|Hne].
    + destruct (IH (rec d)) as [Hag|(pre & e & post & Ht & Hpre & Hnee & post' & Ht')].
      * left. intros e [<-|He]; [exact Heq | apply Hag; exact He].
      * right. exists (ECall d :: pre), e, post. split; [cbn; now rewrite Ht|]. split.
        -- intros x [<-|Hx]; [exact Heq | apply Hpre; exact Hx].
        -- split; [exact Hnee|]. exists post'. cbn. now rewrite <- Heq, Ht'.
    + right. exists [], (ECall d), (readsb rec inp (k (rec d))). split; [reflexivity|]. split; [intros x []|].
      split; [exact Hne|]. eexists. reflexivity.
Qed.

(* in Core this bounds the changed_at of a re-execution from below *)
Corollary value_change_has_common_changed_edge rec inp rec' inp' b :
  evb rec inp b <> evb rec' inp' b ->
  exists e, In e (readsb rec inp b) /\ In e (readsb rec' inp' b) /\ ~ esame rec rec' inp inp' e.
Proof.
  intros Hne. destruct (first_changed_is_read_againD rec inp rec' inp' b) as [Hag|(pre & e & post & Ht & _ & Hnee & post' & Ht')].
  - exfalso. apply Hne. apply evb_agree. exact Hag.
  - exists e. split; [rewrite Ht; apply in_or_app; right; now left|].
    split; [rewrite Ht'; apply in_or_app; right; now left | exact Hnee].
Qed.
