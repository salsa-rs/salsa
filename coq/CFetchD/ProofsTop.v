(* CFetchD/ProofsTop.v — the invariant of CFetchD/ProofsVal.v holds of every reachable state, and
   the theorems about the model with dynamic call lists without the durability short-cut
   ([sc = false]; exclusivity holds for both settings of the switch). *)
From Salsa Require Import Base.
From Salsa.Proto Require Import Model ProofsList.
From Salsa.CFetch Require Import Model.
From Salsa.CFetchD Require Import Model ProofsRel ProofsSync ProofsVal.

(* handles that were never spawned have an empty stack *)
Definition IdleOut (s : cstateD) : Prop := forall t, ~ In t (cD_tids s) -> stackD s t = [].

Lemma all_idleD s :
  IdleOut s -> forallb (fun t => idlebD (cD_thr s t)) (cD_tids s) = true -> forall t, stackD s t = [].
Proof.
  intros IO H t. destruct (in_dec N.eq_dec t (cD_tids s)) as [Hin|Hin].
  - rewrite forallb_forall in H. apply H in Hin. now apply idlebD_spec in Hin.
  - now apply IO.
Qed.

Lemma idle_gstep fuel Q sc s o s' : IdleOut s -> gstepD fuel Q sc s o = Some s' -> IdleOut s'.
Proof.
  intros IO. destruct o as [t c| |t ks]; cbn [gstepD].
  - unfold tstepD. destruct (mem t (cD_tids s)) eqn:Emem; [|discriminate].
    destruct (step_threadD fuel Q sc s t c) as [u|]; [|discriminate]. intros [= <-].
    intros t' Hn. rewrite stackD_apply. destruct (N.eqb_spec t t') as [<-|Hne]; [|apply IO; exact Hn].
    exfalso. apply Hn. cbn [apply_updD cD_tids]. now apply mem_In.
  - destruct (forallb _ _); [|discriminate]. intros [= <-]. exact IO.
  - destruct (idlebD (cD_thr s t)); [|discriminate]. intros [= <-].
    intros t' Hn. unfold stackD. cbn [cD_thr cD_tids] in *. unfold updN.
    destruct (N.eqb_spec t t') as [<-|Hne]; [reflexivity|]. apply IO. intros Hin. apply Hn.
    destruct (mem t (cD_tids s)); [exact Hin | now right].
Qed.

Theorem creachD_idle fuel Q sc s : creachD fuel Q sc s -> IdleOut s.
Proof.
  induction 1 as [|s o s' _ IH Hs]; [intros t _; reflexivity | exact (idle_gstep _ _ _ _ _ _ IH Hs)].
Qed.

(* [InvC] has to be checked for thread steps only: a new revision and a new handle start from
   empty stacks. *)
Section Reach.
Variable fuel : nat.
Variable Q : progD.
Variable rank : key -> nat.
Variable sc : bool.
Variable accok : rev -> key -> body -> accD -> Prop.
Variable memok : key -> memoD -> Prop.
Variable cutok : dur -> Prop.

Notation Inv := (InvC Q rank sc accok memok cutok).

Hypothesis step_ok : forall seen s t c u,
  Inv seen s -> exclD s -> step_threadD fuel Q sc s t c = Some u ->
  exists seen', Inv seen' (apply_updD s t u).

Lemma inv_gstepC seen s o s' :
  SyncD s -> IdleOut s -> Inv seen s -> gstepD fuel Q sc s o = Some s' ->
  exists seen', Inv seen' s'.
Proof.
  intros SY IO I. destruct o as [t c| |t ks]; cbn [gstepD].
  - unfold tstepD. destruct (mem t (cD_tids s)); [|discriminate].
    destruct (step_threadD fuel Q sc s t c) as [u|] eqn:Eu; [|discriminate]. intros [= <-].
    eapply step_ok; eauto. apply exclD_of_sync; exact SY.
  - destruct (forallb _ _) eqn:Ef; [|discriminate]. intros [= <-].
    pose proof (all_idleD s IO Ef) as E. exists seen.
    destruct I as [A B C D E0 F G]. constructor; cbn [cD_memo cD_cur cD_log]; auto.
    + intros k m Hm. destruct (A k m Hm) as (a1 & a2 & a3). split; [exact a1|]. split; [lia|exact a3].
    + intros k r Hr. specialize (B k r Hr). lia.
    + intros t. change (stackD (mkCD (cD_cur s + 1) (cD_memo s) (cD_proto s) (cD_thr s) (cD_tids s) (cD_log s)) t)
        with (stackD s t). rewrite E. exact Logic.I.
    + lia.
  - destruct (idlebD (cD_thr s t)); [|discriminate]. intros [= <-].
    exists seen. destruct I as [A B C D E0 F G]. constructor; cbn [cD_memo cD_cur cD_log]; auto.
    intros t'. unfold stackD. cbn [cD_thr]. unfold updN. destruct (N.eqb_spec t t') as [<-|Hne].
    + cbn. exact Logic.I.
    + apply C.
Qed.

Lemma invC_init : Inv (fun _ _ => False) cinitD.
Proof.
  constructor; cbn; try discriminate; try contradiction; auto;
    try (intros; exact Logic.I); try (unfold REV_START; lia).
Qed.

Theorem creachC_inv s : creachD fuel Q sc s -> exists seen, Inv seen s.
Proof.
  intros H. induction H as [|s o s' Hr IH Hs].
  - exists (fun _ _ => False). apply invC_init.
  - destruct IH as (seen & I).
    exact (inv_gstepC seen s o s' (creachD_sync _ _ _ _ Hr) (creachD_idle _ _ _ _ Hr) I Hs).
Qed.

End Reach.

(* Without the short-cut nothing need be recorded about durabilities, and no store is pending. *)
Section Top.
Variable fuel : nat.
Variable Q : progD.
Variable rank : key -> nat.

Notation Ev := (ED Q rank).
Notation InvD := (InvC Q rank false (fun _ _ _ _ => True) (fun _ _ => True) (fun _ => False)).

Theorem creachD_inv s :
  rankedD Q rank -> stampsD_ok Q -> no_never Q -> creachD fuel Q false s ->
  exists seen, InvD seen s.
Proof.
  intros RK SK NN. apply creachC_inv. intros seen s0 t c u I X Hstep.
  refine (inv_stepC fuel Q rank false _ _ _ _ _ _ _ _ _ _ _ seen s0 t c u RK SK NN I X Hstep).
  (* the eight laws of CFetchD/ProofsVal.v, in the order in which they are stated there *)
  - (* probe_cut: the probe never passes *) intros cur k m _ _ Hsc. discriminate Hsc.
  - (* acc_start: nothing is recorded *) intros. exact Logic.I.
  - (* acc_adv *) intros. exact Logic.I.
  - (* acc_deliver *) intros. exact Logic.I.
  - (* acc_publish *) intros. exact Logic.I.
  - (* mem_rewalk *) intros. exact Logic.I.
  - (* cut_sound: no store is ever pending *) intros. contradiction.
  - (* cut_store *) intros. contradiction.
Qed.

(* every value a request returns is the from-scratch value of its revision *)
Theorem values_computedD s t k r v :
  rankedD Q rank -> stampsD_ok Q -> no_never Q -> creachD fuel Q false s ->
  In (ERet t k r v) (cD_log s) -> v = Ev r k.
Proof.
  intros RK SK NN H Hin. destruct (creachD_inv s RK SK NN H) as (seen & I).
  eapply (IC_log I); eauto.
Qed.

(* every memo of every reachable state carries the from-scratch value of its verified_at *)
Theorem memo_soundD s k m :
  rankedD Q rank -> stampsD_ok Q -> no_never Q -> creachD fuel Q false s ->
  cD_memo s k = Some m -> o_val m = Ev (o_ver m) k.
Proof.
  intros RK SK NN H Hm. destruct (creachD_inv s RK SK NN H) as (seen & I).
  exact (memo_sound _ _ _ _ _ _ _ _ _ _ I Hm).
Qed.

(* ... and its recorded edges determine the value: a revision that agrees with the memo's
   verified_at on every recorded edge has the same from-scratch value (soundness of deep
   verification over the DYNAMIC dependency list, repeated and never-changing callees skipped) *)
Theorem recorded_edges_determineD s k m r' :
  rankedD Q rank -> stampsD_ok Q -> no_never Q -> creachD fuel Q false s ->
  cD_memo s k = Some m ->
  (forall e, In e (o_deps m) -> esameR Q rank (o_ver m) r' e) ->
  Ev r' k = o_val m.
Proof.
  intros RK SK NN H Hm Hsame. destruct (creachD_inv s RK SK NN H) as (seen & I).
  destruct (IC_memo I _ _ Hm) as (Hc & _ & Hs & Hval & Hpath & _).
  rewrite <- (Hval (o_ver m) Hs Hc). rewrite (ED_unfold Q rank RK r' k), (ED_unfold Q rank RK (o_ver m) k).
  symmetry. apply evb_agree. intros e He. destruct (Hpath e He) as [Hin|(d & -> & Hcst)].
  - now apply Hsame.
  - cbn [esame]. apply Hcst.
Qed.

End Top.
