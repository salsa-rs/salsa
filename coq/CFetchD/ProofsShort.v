(* CFetchD/ProofsShort.v — the value theorem WITH the durability short-cut ([sc = true]), for
   programs in which every durability level an input ever has is written in every revision
   ([live_levels]: e.g. every input is LOW, whose last-changed revision is the current one).
   There the short-cut fires exactly for memos of NEVER-CHANGING durability — memos whose whole
   call closure reads no input — on the hot path without a claim (probe, then store: two shared
   steps, other handles interleave) and at the re-check after the claim.

   The invariant [InvS] is [InvC] of CFetchD/ProofsVal.v with: every recorded durability is
   never-changing or a live level; the pending store of the short-cut knows a never-changing memo.

   [live_levels] excludes levels that are stable over a window without being never-changing
   (MEDIUM / HIGH inputs not written for some revisions).  There a memo becomes verified in a
   revision in which its callees were not visited, and the ghost set [seen] must be closed over
   the memo's call closure: CFetchD/ProofsLevels.v does that, with [durgeD] of
   CFetchD/ProofsWindow.v, for programs with static semantic levels. *)
From Salsa Require Import Base.
From Salsa.Proto Require Import Model ProofsList.
From Salsa.CFetch Require Import Model.
From Salsa.CFetchD Require Import Model ProofsRel ProofsSync ProofsVal ProofsTop.

Section Short.
Variable fuel : nat.
Variable Q : progD.
Variable rank : key -> nat.

Notation Ev := (ED Q rank).
Notation path r k := (readsb (Ev r) (d_in Q r) (d_body Q k)).

Definition live (d : dur) : Prop := forall r, d_lc Q r d = r.
Definition live_levels : Prop := forall r i, live (d_idur Q r i).
Definition lvl (d : dur) : Prop := d = DUR_MAX \/ live d.

(* [InvS] is [InvC] of CFetchD/ProofsVal.v ([nscutC] ... [stack_okC] there) written out with: an
   accumulated and a recorded durability is [lvl]; a pending store knows a never-changing memo
   ([invS_iff]). *)

(* the key's memo fails the short-cut probe *)
Definition nscut (mm : key -> option memoD) (cur : rev) (k : key) : Prop :=
  forall m, mm k = Some m -> shortcut Q true cur m = false.

(* what a pending short-cut store knows *)
Definition markok (mm : key -> option memoD) (cur : rev) (k : key) (r : retD) : Prop :=
  exists m, mm k = Some m /\ retm m = r /\ o_dur m = DUR_MAX /\
            (o_ver m = cur \/ (o_ver m < cur /\ shortcut Q true cur m = true)).

Definition frame_okS mm cur (pend : list key) (f : frameD) : Prop :=
  match h_phase f with
  | DMark _ r => markok mm cur (h_key f) r
  | DVerify _ _ => frame_okD Q rank mm cur pend f /\ nscut mm cur (h_key f)
  | DExec _ a | DPend _ _ a => frame_okD Q rank mm cur pend f /\ lvl (a_dur a) /\ nscut mm cur (h_key f)
  | _ => frame_okD Q rank mm cur pend f
  end.

Fixpoint stack_okS mm cur (pend : list key) (l : list frameD) : Prop :=
  match l with
  | [] => True
  | f :: b => frame_okS mm cur pend f /\ stack_okS mm cur [h_key f] b
  end.

Record InvS (seen : key -> rev -> Prop) (s : cstateD) : Prop := mkInvS {
  IS_memo : forall k m, cD_memo s k = Some m -> memo_okD Q rank seen (cD_cur s) k m;
  IS_seen : forall k r, seen k r -> r <= cD_cur s;
  IS_stack : forall t, stack_okS (cD_memo s) (cD_cur s) [] (stackD s t);
  IS_cur : 1 <= cD_cur s;
  IS_closed : forall k r d, seen k r -> In (ECall d) (path r k) -> seen d r \/ constk Q rank d;
  IS_log : forall t k r v, In (ERet t k r v) (cD_log s) -> v = Ev r k;
  IS_lvl : forall k m, cD_memo s k = Some m -> lvl (o_dur m)
}.

Notation InvL := (InvC Q rank true (fun _ _ _ a => lvl (a_dur a)) (fun _ m => lvl (o_dur m))
                       (fun d => d = DUR_MAX)).

Lemma invS_iff seen s : InvS seen s <-> InvL seen s.
Proof. split; intros [A B C D E0 F G]; constructor; assumption. Qed.

Lemma min_lvl d d' : lvl d -> lvl d' -> lvl (N.min d d').
Proof. intros H H'. destruct (N.min_spec d d') as [[_ ->]|[_ ->]]; assumption. Qed.

Lemma adv_lvl cur : live_levels -> forall b a, lvl (a_dur a) -> lvl (a_dur (snd (adv Q cur b a))).
Proof.
  intros LL. induction b as [v|i k IH|d k IH]; intros a Ha; cbn [adv snd]; auto.
  apply IH. unfold add_edge; cbn [a_dur]. apply min_lvl; [exact Ha | right; apply LL].
Qed.

Lemma lvl_probe cur m : lvl (o_dur m) -> o_ver m < cur -> shortcut Q true cur m = true -> o_dur m = DUR_MAX.
Proof.
  intros [E0|Hl] Hlt Hsc; [exact E0|].
  unfold shortcut in Hsc. cbn [andb] in Hsc. apply N.leb_le in Hsc. rewrite (Hl cur) in Hsc. lia.
Qed.

Lemma probe_never seen s k m : InvS seen s -> cD_memo s k = Some m -> o_ver m <> cD_cur s ->
  shortcut Q true (cD_cur s) m = true -> o_dur m = DUR_MAX /\ o_ver m < cD_cur s.
Proof.
  intros I Hm Hv Hsc. destruct (IS_memo _ _ I _ _ Hm) as (_ & Hle & _).
  assert (Hlt : o_ver m < cD_cur s) by lia. split; [|exact Hlt].
  exact (lvl_probe _ _ (IS_lvl _ _ I _ _ Hm) Hlt Hsc).
Qed.

(* a memo of never-changing durability is valid in every revision: it has no recorded edge, so a
   walk would find nothing changed *)
Lemma never_memo seen s k m :
  rankedD Q rank -> stampsD_ok Q -> InvL seen s -> cD_memo s k = Some m -> o_dur m = DUR_MAX ->
  Ev (cD_cur s) k = o_val m /\ path (o_ver m) k = path (cD_cur s) k /\
  memo_okD Q rank (fun k0 r => seen k0 r \/ (k0 = k /\ r = cD_cur s)) (cD_cur s) k (verified_now (cD_cur s) m) /\
  (forall d, In (ECall d) (path (cD_cur s) k) -> ver2D (cD_memo s) (cD_cur s) d \/ constk Q rank d).
Proof.
  intros RK SK I Hm Hd3. apply (rewalk_ok _ _ _ _ _ _ _ _ _ _ RK SK I Hm).
  destruct (IC_memo I _ _ Hm) as (_ & _ & _ & _ & _ & Hmax & _).
  intros e He. rewrite (proj1 (Hmax Hd3)) in He. destruct He.
Qed.

Lemma store_never seen s t u k ph below m :
  rankedD Q rank -> stampsD_ok Q ->
  InvL seen s -> stackD s t = (k @@ ph) :: below -> cD_memo s k = Some m -> o_dur m = DUR_MAX ->
  o_ver m < cD_cur s -> shortcut Q true (cD_cur s) m = true ->
  uD_memo u = updN (cD_memo s) k (Some (verified_now (cD_cur s) m)) ->
  (forall t0 k0 r v, In (ERet t0 k0 r v) (uD_ev u) -> v = Ev r k0) ->
  (stack_okS (uD_memo u) (cD_cur s) [k] below -> stack_okS (uD_memo u) (cD_cur s) [] (uD_stack u)) ->
  exists seen', InvL seen' (apply_updD s t u).
Proof.
  intros RK SK I Hst Hm Hd3 Hlt Hsc Hmu Hev Hs.
  destruct (never_memo seen s k m RK SK I Hm Hd3) as (HE & Hpe & Hmok & Hcl).
  exists (fun k0 r => seen k0 r \/ (k0 = k /\ r = cD_cur s)).
  eapply inv_writeC with (ph := ph) (below := below) (m' := verified_now (cD_cur s) m);
    [exact I | exact Hst | | | | exact Hmu | exact Hev | reflexivity | left; exact Hd3
    | exact Hmok | exact Hcl | exact Hs].
  - intros (m0 & Hm0 & Hv0). rewrite Hm in Hm0. injection Hm0 as <-. lia.
  - intros t' f Hin _. exact (passing_not_walked _ _ _ _ _ _ _ _ _ _ I Hm Hsc t' f Hin).
  - rewrite Hmu. intros r. apply markok_stored. exact Hm.
Qed.

Lemma inv_stepS seen s t c u :
  rankedD Q rank -> stampsD_ok Q -> no_never Q -> live_levels -> InvL seen s -> exclD s ->
  step_threadD fuel Q true s t c = Some u ->
  exists seen', InvL seen' (apply_updD s t u).
Proof.
  intros RK SK NN LL I X Hstep.
  (* the eight laws of CFetchD/ProofsVal.v, in the order in which they are stated there *)
  refine (inv_stepC fuel Q rank true _ _ _ _ _ _ _ _ _ _ _ seen s t c u RK SK NN I X Hstep).
  - intros cur k m. apply lvl_probe.
  - intros cur k. left. reflexivity.
  - intros cur k b a b' a' Ha Hadv. pose proof (adv_lvl cur LL b a Ha) as H. rewrite Hadv in H. exact H.
  - intros cur k d kont a md Ha Hmd _. apply min_lvl; assumption.
  - intros cur k nv chg a Ha _. exact Ha.
  - intros cur k m Hlv _. exact Hlv.
  - intros seen0 s0 k m I0 Hm Hd3 _ _. destruct (never_memo seen0 s0 k m RK SK I0 Hm Hd3) as (HE & Hpe & _).
    split; assumption.
  - intros seen0 s0 t0 u0 k ph below m. apply store_never; assumption.
Qed.

Theorem creachS_inv s :
  rankedD Q rank -> stampsD_ok Q -> no_never Q -> live_levels -> creachD fuel Q true s ->
  IdleOut s /\ exists seen, InvS seen s.
Proof.
  intros RK SK NN LL H.
  destruct (creachC_inv fuel Q rank true _ _ _ (fun seen s t c u => inv_stepS seen s t c u RK SK NN LL) s H)
    as (seen & I).
  split; [exact (creachD_idle _ _ _ _ H)|]. exists seen. apply invS_iff; exact I.
Qed.

(* with the short-cut on: every value a request returns is the from-scratch value of its revision *)
Theorem values_computed_shortcut s t k r v :
  rankedD Q rank -> stampsD_ok Q -> no_never Q -> live_levels -> creachD fuel Q true s ->
  In (ERet t k r v) (cD_log s) -> v = Ev r k.
Proof.
  intros RK SK NN LL H Hin. destruct (creachS_inv s RK SK NN LL H) as [_ (seen & I)].
  eapply (IS_log _ _ I); eauto.
Qed.

(* ... and every memo carries the from-scratch value of its verified_at, also when verified_at was
   stored by the short-cut *)
Theorem memo_sound_shortcut s k m :
  rankedD Q rank -> stampsD_ok Q -> no_never Q -> live_levels -> creachD fuel Q true s ->
  cD_memo s k = Some m -> o_val m = Ev (o_ver m) k.
Proof.
  intros RK SK NN LL H Hm. destruct (creachS_inv s RK SK NN LL H) as [_ (seen & I)].
  apply invS_iff in I. exact (memo_sound _ _ _ _ _ _ _ _ _ _ I Hm).
Qed.

(* the short-cut only ever stores verified_at on memos of never-changing durability *)
Theorem shortcut_only_never s k m :
  rankedD Q rank -> stampsD_ok Q -> no_never Q -> live_levels -> creachD fuel Q true s ->
  cD_memo s k = Some m -> o_ver m <> cD_cur s -> shortcut Q true (cD_cur s) m = true -> o_dur m = DUR_MAX.
Proof.
  intros RK SK NN LL H Hm Hv Hsc. destruct (creachS_inv s RK SK NN LL H) as [_ (seen & I)].
  apply (probe_never seen s k m I Hm Hv Hsc).
Qed.

End Short.
