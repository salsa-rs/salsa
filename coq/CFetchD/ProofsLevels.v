(* CFetchD/ProofsLevels.v — the value theorem WITH the durability short-cut ([sc = true]) for ALL
   durability levels, any number of handles, DYNAMIC read paths and durability-changing revisions,
   for programs with STATIC SEMANTIC LEVELS ([static_levels L]): every key k has a level L k that
   is, in every revision, the minimum over the edges of its read path of the durability of the
   input read, resp. of the level of the key called (DUR_MAX for an empty path).  Which inputs
   and which keys are read may depend on values and revisions; only the minimum may not.
   Without static levels the invariant would need the observer clause of Core/DInv.v (Props/C16.v,
   OPEN).

   The invariant is [InvC] of CFetchD/ProofsVal.v with: the recorded durability of every memo is
   EXACTLY the level of its key (so [o_dur m <= o_dur md] for callees is static) and its recorded
   edges lie on the read path; the accumulator of an executing frame is the exact minimum of what
   was read.  When the short-cut marks a memo verified, the ghost set [seen] is closed over the
   memo's call closure ([sclos]); the stable-window theorem of CFetchD/ProofsWindow.v gives the
   values and the read paths of the whole closure at once. *)
From Salsa Require Import Base.
From Salsa.Proto Require Import Model ProofsList.
From Salsa.CFetch Require Import Model.
From Salsa.CFetchD Require Import Model ProofsRel ProofsSync ProofsVal ProofsTop ProofsWindow.

Section Levels.
Variable fuel : nat.
Variable Q : progD.
Variable rank : key -> nat.

Notation Ev := (ED Q rank).
Notation path r k := (readsb (Ev r) (d_in Q r) (d_body Q k)).

Notation reads cur b := (readsb (Ev cur) (d_in Q cur) b).
Notation durge := (durgeD Q rank).

Variable L : key -> dur.

Definition elev (r : rev) (e : edge) : dur :=
  match e with EIn i => d_idur Q r i | ECall c => L c end.
Definition levl (r : rev) (l : list edge) : dur :=
  fold_right (fun e acc => N.min (elev r e) acc) DUR_MAX l.
Definition static_levels : Prop := forall r k, L k = levl r (path r k).

Lemma levl_max r l : levl r l <= DUR_MAX.
Proof. induction l as [|e l IH]; cbn [levl fold_right]; [lia|]. fold (levl r l). lia. Qed.
Lemma levl_le r l e : In e l -> levl r l <= elev r e.
Proof.
  induction l as [|e0 l IH]; intros Hin; [destruct Hin|]. cbn [levl fold_right]. fold (levl r l).
  destruct Hin as [<-|Hin]; [lia | specialize (IH Hin); lia].
Qed.
Lemma levl_glb r l x : x <= DUR_MAX -> (forall e, In e l -> x <= elev r e) -> x <= levl r l.
Proof.
  intros Hx. induction l as [|e0 l IH]; intros H; cbn [levl fold_right]; [exact Hx|]. fold (levl r l).
  pose proof (H e0 (or_introl eq_refl)). assert (x <= levl r l) by (apply IH; intros e He; apply H; now right). lia.
Qed.

Lemma durge_of_levels : rankedD Q rank -> static_levels -> forall r n k, (rank k < n)%nat -> durge r (L k) k.
Proof.
  intros RK SL r. induction n as [|n IH]; intros k Hk; [lia|]. constructor.
  - intros i Hi. rewrite (SL r k). apply (levl_le r _ (EIn i) Hi).
  - intros c Hc. apply (durgeD_mono Q rank r (L c)).
    + rewrite (SL r k). apply (levl_le r _ (ECall c) Hc).
    + apply IH. pose proof (readsb_ranked rank (d_in Q r) (Ev r) (rank k) (d_body Q k) (RK k) c Hc). lia.
Qed.

Definition lc_mono : Prop := forall r r' d, r <= r' -> d_lc Q r d <= d_lc Q r' d.

(* an edge of the path whose durability bounds the accumulator from above *)
Definition covT (cur : rev) (a : accD) (e : edge) : Prop :=
  match e with
  | EIn i => a_dur a <= d_idur Q cur i
  | ECall d => a_dur a <= L d
  end.

(* The accumulator of a frame that executes [k] with residual body [b] carries the exact minimum
   over the part of the path already read.  At publication nothing is ahead, so the first and
   the last clause make the accumulated durability the level of [k] ([publish_extok]). *)
Definition framT (cur : rev) (k : key) (b : body) (a : accD) : Prop :=
  (forall e, In e (path cur k) -> In e (reads cur b) \/ covT cur a e) /\
  (forall e, In e (reads cur b) -> In e (path cur k)) /\
  (forall e, In e (a_tr a) -> In e (path cur k)) /\
  (a_dur a = DUR_MAX \/ exists e, In e (path cur k) /\ a_dur a = elev cur e).

Definition extok (k : key) (m : memoD) : Prop :=
  (forall e, In e (o_deps m) -> In e (path (o_ver m) k)) /\ o_dur m = L k.

Notation InvT := (InvC Q rank true framT extok (fun _ => True)).
Notation stack_okT := (stack_okC Q rank true framT (fun _ => True)).

Lemma covT_mono cur a a' e : a_dur a' <= a_dur a -> covT cur a e -> covT cur a' e.
Proof.
  intros Hle. destruct e as [i|c]; cbn [covT]; lia.
Qed.

Lemma adv_framT cur k : forall b a b' a', framT cur k b a -> adv Q cur b a = (b', a') -> framT cur k b' a'.
Proof.
  induction b as [v|i k0 IH|d k0 IH]; intros a b' a' HT; cbn [adv].
  - intros [= <- <-]. exact HT.
  - apply IH. destruct HT as (T1 & T2 & T3 & T4). cbn [readsb] in T1, T2. split; [|split; [|split]].
    + intros e He. destruct (T1 e He) as [[<-|Hin]|Hc].
      * right. cbn [covT]. unfold add_edge; cbn [a_dur]. lia.
      * now left.
      * right. apply (covT_mono cur a); [unfold add_edge; cbn [a_dur]; lia | exact Hc].
    + intros e He. apply T2. now right.
    + intros e He. apply add_tr_inv in He as [He|[-> _]]; [now apply T3 | apply T2; now left].
    + unfold add_edge; cbn [a_dur].
      destruct (N.min_spec (a_dur a) (d_idur Q cur i)) as [[_ ->]|[_ ->]]; [exact T4|].
      right. exists (EIn i). split; [apply T2; now left | reflexivity].
  - intros [= <- <-]. exact HT.
Qed.

Lemma deliver_framT cur k d kont a md :
  framT cur k (BCall d kont) a -> extok d md -> Ev cur d = o_val md ->
  framT cur k (kont (o_val md)) (add_edge a (ECall d) (o_chg md) (o_dur md)).
Proof.
  intros (T1 & T2 & T3 & T4) [_ Hlv] HE. cbn [readsb] in T1, T2. split; [|split; [|split]].
  - intros e He. destruct (T1 e He) as [[<-|Hin]|Hc].
    + right. cbn [covT]. unfold add_edge; cbn [a_dur]. lia.
    + left. now rewrite <- HE.
    + right. destruct e as [i|c]; cbn [covT] in *; unfold add_edge; cbn [a_dur]; lia.
  - intros e He. apply T2. right. now rewrite HE.
  - intros e He. apply add_tr_inv in He as [He|[-> _]]; [now apply T3 | apply T2; now left].
  - unfold add_edge; cbn [a_dur]. destruct (N.min_spec (a_dur a) (o_dur md)) as [[_ ->]|[_ ->]]; [exact T4|].
    right. exists (ECall d). split; [apply T2; now left | cbn [elev]; exact Hlv].
Qed.

Lemma publish_extok cur k nv chg a :
  static_levels -> framT cur k (BRet nv) a -> a_dur a <= DUR_MAX -> extok k (mkO cur nv chg (a_dur a) (a_tr a)).
Proof.
  intros SL (T1 & T2 & T3 & T4) G. split; cbn [o_ver o_deps o_dur]; [exact T3|].
  rewrite (SL cur k). apply N.le_antisymm.
  - apply levl_glb; [exact G|]. intros e He. destruct (T1 _ He) as [[]|Hcv].
    destruct e as [i|c0]; cbn [covT elev] in *; exact Hcv.
  - destruct T4 as [->|(e & He & ->)]; [apply levl_max | apply levl_le; exact He].
Qed.

Lemma rewalk_extok cur k m : extok k m -> path (o_ver m) k = path cur k -> extok k (verified_now cur m).
Proof.
  intros [Hdp Hdg] Hpe. split; cbn [verified_now o_ver o_deps o_dur]; [|exact Hdg].
  intros e He. rewrite <- Hpe. apply Hdp; exact He.
Qed.

(* ---- the call closure of a key, through keys seen at revision v ---- *)
Inductive sclos (seen : key -> rev -> Prop) (v : rev) : key -> key -> Prop :=
| sc_refl k : sclos seen v k k
| sc_step a d c : In (ECall d) (path v a) -> seen d v -> sclos seen v d c -> sclos seen v a c.

Lemma sclos_seen (seen : key -> rev -> Prop) v k c : seen k v -> sclos seen v k c -> seen c v.
Proof. intros Hk H. induction H as [k|a d c Hin Hs _ IH]; auto. Qed.

Lemma sclos_durge (seen : key -> rev -> Prop) v d k c : durge v d k -> sclos seen v k c -> durge v d c.
Proof.
  intros Hd H. induction H as [k|a e c Hin Hs _ IH]; auto.
  apply IH. destruct Hd as [a A B]. apply B; exact Hin.
Qed.

Lemma sclos_right (seen : key -> rev -> Prop) v k c d : sclos seen v k c -> In (ECall d) (path v c) -> seen d v -> sclos seen v k d.
Proof.
  intros H Hin Hs. induction H as [k|a e c Hin' Hs' _ IH].
  - eapply sc_step; [exact Hin | exact Hs | apply sc_refl].
  - eapply sc_step; [exact Hin' | exact Hs' | apply IH; exact Hin].
Qed.

Lemma mark_window seen s k m :
  rankedD Q rank -> static_levels -> lc_antitone Q -> lc_mono -> write_rule Q ->
  InvT seen s -> cD_memo s k = Some m -> o_ver m < cD_cur s -> shortcut Q true (cD_cur s) m = true ->
  forall c, sclos seen (o_ver m) k c ->
  path (cD_cur s) c = path (o_ver m) c /\
  forall mc, cD_memo s c = Some mc -> Ev (cD_cur s) c = o_val mc.
Proof.
  intros RK SL LA LM WR I Hm Hlt Hsc c Hcl.
  destruct (IC_memo I _ _ Hm) as (_ & _ & Hsn & _).
  destruct (IC_lvl I _ _ Hm) as [_ Hdg].
  assert (Hlc : d_lc Q (cD_cur s) (o_dur m) <= o_ver m).
  { unfold shortcut in Hsc. cbn [andb] in Hsc. now apply N.leb_le in Hsc. }
  assert (Hdgc : durge (o_ver m) (o_dur m) c).
  { apply (sclos_durge seen (o_ver m) (o_dur m) k c); [|exact Hcl].
    rewrite Hdg. apply (durge_of_levels RK SL (o_ver m) (S (rank k)) k). lia. }
  assert (Hwin : forall w, o_ver m <= w -> w <= cD_cur s -> Ev w c = Ev (o_ver m) c).
  { intros w Hvw Hwc. apply (durgeD_stable Q rank RK (o_ver m) w (o_dur m) c LA WR Hvw); [|exact Hdgc].
    pose proof (LM w (cD_cur s) (o_dur m) Hwc). lia. }
  split.
  - apply (durgeD_stable Q rank RK (o_ver m) (cD_cur s) (o_dur m) c LA WR); [lia | exact Hlc | exact Hdgc].
  - intros mc Hmc. destruct (IC_memo I _ _ Hmc) as (Hc' & Hle' & Hsn' & Hval' & _).
    pose proof (sclos_seen seen (o_ver m) k c Hsn Hcl) as Hsv.
    rewrite (Hwin (cD_cur s)); [| lia | lia].
    destruct (N.le_gt_cases (o_ver mc) (o_ver m)) as [Hwv|Hwv].
    + apply Hval'; [exact Hsv | lia].
    + rewrite <- (Hwin (o_ver mc)); [| lia | exact Hle']. apply Hval'; [exact Hsn' | exact Hc'].
Qed.

(* ---- the store of the short-cut: [seen] grows by the call closure of the marked key ---- *)
Lemma store_window seen s t u k ph below m :
  rankedD Q rank -> static_levels -> lc_antitone Q -> lc_mono -> write_rule Q ->
  InvT seen s -> stackD s t = (k @@ ph) :: below ->
  cD_memo s k = Some m -> o_ver m < cD_cur s -> shortcut Q true (cD_cur s) m = true ->
  uD_memo u = updN (cD_memo s) k (Some (verified_now (cD_cur s) m)) ->
  (forall t0 k0 r v, In (ERet t0 k0 r v) (uD_ev u) -> v = Ev r k0) ->
  (stack_okT (uD_memo u) (cD_cur s) [k] below -> stack_okT (uD_memo u) (cD_cur s) [] (uD_stack u)) ->
  InvT (fun c r => seen c r \/ (r = cD_cur s /\ sclos seen (o_ver m) k c)) (apply_updD s t u).
Proof.
  intros RK SL LA LM WR I Hst Hm Hlt Hsc Hmu Hev Hs.
  pose proof (mark_window seen s k m RK SL LA LM WR I Hm Hlt Hsc) as Hwin.
  destruct (IC_memo I _ _ Hm) as (Hc & Hle & Hsn & Hval & Hpath & Hmax & Hdep & Hdu).
  destruct (IC_lvl I _ _ Hm) as [Hdp Hdg].
  destruct (Hwin k (sc_refl seen _ k)) as [Hpk Hvk].
  assert (Hoth : forall k', k' <> k -> uD_memo u k' = cD_memo s k').
  { intros k' Hk. rewrite Hmu. now rewrite updN_other by auto. }
  assert (Hk0 : uD_memo u k = Some (verified_now (cD_cur s) m)) by (rewrite Hmu; apply updN_same).
  assert (Hun : ~ ver2D (cD_memo s) (cD_cur s) k).
  { intros (m0 & Hm0 & Hv0). rewrite Hm in Hm0. injection Hm0 as <-. lia. }
  constructor; cbn [cD_memo cD_cur cD_log apply_updD].
  - intros k' m' Hk'. destruct (N.eq_dec k' k) as [->|Hne].
    + rewrite Hk0 in Hk'. injection Hk' as <-. unfold memo_okD. cbn [verified_now o_ver o_chg o_val o_dur o_deps].
      split; [lia|]. split; [lia|]. split; [right; split; [reflexivity | apply sc_refl]|].
      split; [|split; [|split; [exact Hmax|split; [|exact Hdu]]]].
      * intros r [Hr|[-> _]] Hler; [now apply Hval | exact (Hvk m Hm)].
      * intros e He. rewrite Hpk in He. now apply Hpath.
      * intros d Hdd. right. split; [reflexivity|].
        eapply sc_step; [apply (Hdp _ Hdd) | apply (Hdep d Hdd) | apply sc_refl].
    + rewrite Hoth in Hk' by auto.
      destruct (IC_memo I _ _ Hk') as (A1 & A2 & A3 & A4 & A5 & A6 & A7 & A8).
      split; [exact A1|]. split; [exact A2|]. split; [left; exact A3|].
      split; [|split; [exact A5|split; [exact A6|split; [intros d Hd; left; apply A7; exact Hd | exact A8]]]].
      intros r [Hr|[-> Hcl]] Hler; [now apply A4 | exact (proj2 (Hwin k' Hcl) m' Hk')].
  - intros c r [Hr | [-> _]]; [exact (IC_seen I c r Hr) | lia].
  - intros t'. rewrite stackD_apply.
    assert (Hkeep : forall l pend, (forall f, In f l -> In f (stackD s t')) ->
              stack_okT (cD_memo s) (cD_cur s) pend l -> stack_okT (uD_memo u) (cD_cur s) pend l).
    { intros l pend Hsub. eapply stack_stableC with (k0 := k); [exact Hun | exact Hoth | |].
      - intros f Hf. exact (passing_not_walked _ _ _ _ _ _ _ _ _ _ I Hm Hsc t' f (Hsub f Hf)).
      - rewrite Hmu. intros r. apply markok_stored. exact Hm. }
    destruct (N.eqb_spec t t') as [<-|Hne].
    + apply Hs. pose proof (IC_stack I t) as Hokk. rewrite Hst in Hokk. cbn [stack_okC h_key] in Hokk.
      apply Hkeep; [|exact (proj2 Hokk)]. intros f Hf. rewrite Hst. now right.
    + apply Hkeep; [auto | exact (IC_stack I t')].
  - exact (IC_cur I).
  - intros c r d [Hr | [-> Hcl]] Hin.
    + destruct (IC_closed I _ _ _ Hr Hin); [left; now left | now right].
    + rewrite (proj1 (Hwin c Hcl)) in Hin.
      destruct (IC_closed I _ _ _ (sclos_seen seen _ k c Hsn Hcl) Hin) as [Hsd|Hcst]; [|now right].
      left. right. split; [reflexivity|]. apply (sclos_right seen _ k c d Hcl Hin Hsd).
  - intros t0 k0 r v0 Hin. apply in_app_or in Hin as [Hin|Hin]; [eauto | exact (IC_log I _ _ _ _ Hin)].
  - intros k' m' Hk'. destruct (N.eq_dec k' k) as [->|Hne].
    + rewrite Hk0 in Hk'. injection Hk' as <-. apply rewalk_extok; [exact (conj Hdp Hdg) | symmetry; exact Hpk].
    + rewrite Hoth in Hk' by auto. exact (IC_lvl I _ _ Hk').
Qed.

Lemma inv_stepS seen s t c u :
  rankedD Q rank -> stampsD_ok Q -> no_never Q ->
  static_levels -> lc_antitone Q -> lc_mono -> write_rule Q -> InvT seen s -> exclD s ->
  step_threadD fuel Q true s t c = Some u ->
  exists seen', InvT seen' (apply_updD s t u).
Proof.
  intros RK SK NN SL LA LM WR I X Hstep.
  (* the eight laws of CFetchD/ProofsVal.v, in the order in which they are stated there *)
  refine (inv_stepC fuel Q rank true _ _ _ _ _ _ _ _ _ _ _ seen s t c u RK SK NN I X Hstep).
  - intros; exact Logic.I.
  - intros cur k. split; [intros e He; left; exact He | split; [intros e He; exact He | split; [intros e [] | left; reflexivity]]].
  - intros cur k. apply adv_framT.
  - apply deliver_framT.
  - intros cur k nv chg a. apply publish_extok. exact SL.
  - apply rewalk_extok.
  - intros seen0 s0 k m I0 Hm _ Hlt Hsc.
    destruct (mark_window seen0 s0 k m RK SL LA LM WR I0 Hm Hlt Hsc k (sc_refl _ _ k)) as [Hp Hv].
    split; [exact (Hv m Hm) | symmetry; exact Hp].
  - intros seen0 s0 t0 u0 k ph below m I0 Hst Hm _ Hlt Hsc Hmu Hev Hs. eexists.
    exact (store_window seen0 s0 t0 u0 k ph below m RK SL LA LM WR I0 Hst Hm Hlt Hsc Hmu Hev Hs).
Qed.

Theorem creachS_inv s :
  rankedD Q rank -> stampsD_ok Q -> no_never Q -> static_levels -> lc_antitone Q -> lc_mono -> write_rule Q ->
  creachD fuel Q true s -> exists seen, InvT seen s.
Proof.
  intros RK SK NN SL LA LM WR. apply creachC_inv.
  intros seen s0 t c u. apply inv_stepS; assumption.
Qed.

(* with the short-cut on: every value a request returns is the from-scratch value of its revision *)
Theorem values_computed_shortcut s t k r v :
  rankedD Q rank -> stampsD_ok Q -> no_never Q -> static_levels -> lc_antitone Q -> lc_mono -> write_rule Q -> creachD fuel Q true s ->
  In (ERet t k r v) (cD_log s) -> v = Ev r k.
Proof.
  intros RK SK NN SL LA LM WR H Hin. destruct (creachS_inv s RK SK NN SL LA LM WR H) as (seen & I).
  exact (IC_log I _ _ _ _ Hin).
Qed.

(* ... and every memo carries the from-scratch value of its verified_at, also when verified_at was
   stored by the short-cut *)
Theorem memo_sound_shortcut s k m :
  rankedD Q rank -> stampsD_ok Q -> no_never Q -> static_levels -> lc_antitone Q -> lc_mono -> write_rule Q -> creachD fuel Q true s ->
  cD_memo s k = Some m -> o_val m = Ev (o_ver m) k.
Proof.
  intros RK SK NN SL LA LM WR H Hm. destruct (creachS_inv s RK SK NN SL LA LM WR H) as (seen & I).
  exact (memo_sound _ _ _ _ _ _ _ _ _ _ I Hm).
Qed.

End Levels.
