(* CFetchD/ProofsRel.v — the from-scratch value of a resumable body is well defined for ranked
   programs; two evaluations that agree on every edge READ ALONG THE PATH agree on the value and
   on the path ([evb_agree], [readsb_agree]: the semantic core of deep verification over dynamic
   dependency lists); the thread step of CFetchD as a relation ([pathD]; the ways into an
   execution share [D_exec_start]). *)
From Salsa Require Import Base.
From Salsa.Proto Require Import Model.
From Salsa.CFetch Require Import Model.
From Salsa.CFetchD Require Import Model.

Definition stackD (s : cstateD) (t : thread) : list frameD := thD_stack (cD_thr s t).
Definition todoD (s : cstateD) (t : thread) : list key := thD_todo (cD_thr s t).

Notation "k @@ ph" := (mkFD k ph) (at level 45, no associativity).

(* the edges a computation reads when inputs are [inp] and every callee returns [rec d] *)
Fixpoint readsb (rec : key -> val) (inp : ikey -> val) (b : body) : list edge :=
  match b with
  | BRet _ => []
  | BIn i k => EIn i :: readsb rec inp (k (inp i))
  | BCall d k => ECall d :: readsb rec inp (k (rec d))
  end.

Definition esame (rec rec' : key -> val) (inp inp' : ikey -> val) (e : edge) : Prop :=
  match e with
  | EIn i => inp i = inp' i
  | ECall d => rec d = rec' d
  end.

Lemma evb_agree rec inp rec' inp' : forall b,
  (forall e, In e (readsb rec inp b) -> esame rec rec' inp inp' e) ->
  evb rec inp b = evb rec' inp' b.
Proof.
  induction b as [v|i k IH|d k IH]; intros H; cbn [evb]; auto.
  - pose proof (H (EIn i) (or_introl eq_refl)) as E0. cbn in E0. rewrite <- E0.
    apply IH. intros e He. apply H. cbn [readsb]. now right.
  - pose proof (H (ECall d) (or_introl eq_refl)) as E0. cbn in E0. rewrite <- E0.
    apply IH. intros e He. apply H. cbn [readsb]. now right.
Qed.

Lemma readsb_agree rec inp rec' inp' : forall b,
  (forall e, In e (readsb rec inp b) -> esame rec rec' inp inp' e) ->
  readsb rec inp b = readsb rec' inp' b.
Proof.
  induction b as [v|i k IH|d k IH]; intros H; cbn [readsb]; auto.
  - pose proof (H (EIn i) (or_introl eq_refl)) as E0. cbn in E0. rewrite <- E0. f_equal.
    apply IH. intros e He. apply H. cbn [readsb]. now right.
  - pose proof (H (ECall d) (or_introl eq_refl)) as E0. cbn in E0. rewrite <- E0. f_equal.
    apply IH. intros e He. apply H. cbn [readsb]. now right.
Qed.

Section Spec.
Variable Q : progD.
Variable rank : key -> nat.

(* calls descend along the rank, whatever values the body has seen *)
Fixpoint body_ranked (n : nat) (b : body) : Prop :=
  match b with
  | BRet _ => True
  | BIn _ k => forall v, body_ranked n (k v)
  | BCall d k => (rank d < n)%nat /\ forall v, body_ranked n (k v)
  end.

Definition rankedD : Prop := forall k, body_ranked (rank k) (d_body Q k).

(* the stamp of an input is the revision of its last write; a stamp is not in the future; an
   input of never-changing durability never changes (Input::set_field panics on it) *)
Definition stampsD_ok : Prop :=
  (forall r i r', d_stamp Q r i <= r' -> r' <= r -> d_in Q r' i = d_in Q r i) /\
  (forall r i, 1 <= r -> d_stamp Q r i <= r) /\
  (forall r i r', d_idur Q r i = DUR_MAX -> r <= r' -> d_in Q r' i = d_in Q r i).

Lemma evb_ext_ranked inp rec rec' n : forall b,
  body_ranked n b -> (forall d, (rank d < n)%nat -> rec d = rec' d) ->
  evb rec inp b = evb rec' inp b.
Proof.
  induction b as [v|i k IH|d k IH]; intros Hr H; cbn [evb].
  - reflexivity.
  - apply IH; [apply Hr | exact H].
  - destruct Hr as [Hd Hk]. rewrite <- (H d Hd). apply IH; [apply Hk | exact H].
Qed.

Lemma readsb_ranked inp rec n : forall b,
  body_ranked n b -> forall d, In (ECall d) (readsb rec inp b) -> (rank d < n)%nat.
Proof.
  induction b as [v|i k IH|d0 k IH]; intros Hr d; cbn [readsb].
  - intros [].
  - intros [E0|Hin]; [discriminate|]. eapply IH; [apply Hr | exact Hin].
  - destruct Hr as [Hd Hk]. intros [E0|Hin]; [injection E0 as <-; exact Hd|]. eapply IH; [apply Hk | exact Hin].
Qed.

Lemma evD_stable : rankedD -> forall r n m k, (rank k < n)%nat -> (rank k < m)%nat ->
  evD Q n r k = evD Q m r k.
Proof.
  intros RK r. induction n as [|n IH]; intros m k Hn Hm; [lia|].
  destruct m as [|m]; [lia|]. cbn [evD]. apply (evb_ext_ranked _ _ _ (rank k)); [apply RK|].
  intros d Hd. apply IH; [clear -Hd Hn | clear -Hd Hm]; lia.
Qed.

Lemma ED_unfold : rankedD -> forall r k,
  ED Q rank r k = evb (ED Q rank r) (d_in Q r) (d_body Q k).
Proof.
  intros RK r k. unfold ED at 1. cbn [evD]. apply (evb_ext_ranked _ _ _ (rank k)); [apply RK|].
  intros d Hd. unfold ED. apply evD_stable; auto; clear -Hd; lia.
Qed.

End Spec.

Section RelD.
Variable fuel : nat.
Variable Q : progD.
Variable sc : bool.

Definition mark_memo (s : cstateD) (k : key) : key -> option memoD :=
  match cD_memo s k with
  | Some m => if o_ver m <? cD_cur s then updN (cD_memo s) k (Some (verified_now (cD_cur s) m))
              else cD_memo s
  | None => cD_memo s
  end.

Lemma mark_memo_now s k m : cD_memo s k = Some m -> o_ver m = cD_cur s -> mark_memo s k = cD_memo s.
Proof. intros Hm Hv. unfold mark_memo. rewrite Hm. destruct (N.ltb_spec (o_ver m) (cD_cur s)); [lia | reflexivity]. Qed.

Lemma mark_memo_old s k m : cD_memo s k = Some m -> o_ver m < cD_cur s ->
  mark_memo s k = updN (cD_memo s) k (Some (verified_now (cD_cur s) m)).
Proof. intros Hm Hv. unfold mark_memo. rewrite Hm. destruct (N.ltb_spec (o_ver m) (cD_cur s)); [reflexivity | lia]. Qed.

Definition publish_chg (s : cstateD) (k : key) (nv : val) (a' : accD) : rev :=
  match cD_memo s k with
  | Some mo => if d_eq Q k && (o_dur mo <=? a_dur a') && (o_val mo =? nv) then o_chg mo else a_chg a'
  | None => a_chg a'
  end.

Inductive pathD (s : cstateD) (t : thread) : updD -> Prop :=
| D_begin k td :
    stackD s t = [] -> todoD s t = k :: td ->
    pathD s t (mkUD (cD_proto s) (cD_memo s) [k @@ DStart] td false [])
| D_hit k below m :
    stackD s t = (k @@ DStart) :: below -> cD_memo s k = Some m -> o_ver m = cD_cur s ->
    pathD s t (mkUD (cD_proto s) (cD_memo s) (deliverD (cD_memo s) (retm m) below)
                    (todoD s t) false [ERet t k (cD_cur s) (o_val m)])
| D_hot_sc k below m :
    stackD s t = (k @@ DStart) :: below -> cD_memo s k = Some m -> o_ver m <> cD_cur s ->
    shortcut Q sc (cD_cur s) m = true ->
    pathD s t (mkUD (cD_proto s) (cD_memo s) ((k @@ DMark false (retm m)) :: below) (todoD s t) false [])
| D_go_cold k below :
    stackD s t = (k @@ DStart) :: below ->
    (forall m, cD_memo s k = Some m -> o_ver m <> cD_cur s) ->
    pathD s t (mkUD (cD_proto s) (cD_memo s) ((k @@ DCold) :: below) (todoD s t) false [])
| D_mark_hot k r below :
    stackD s t = (k @@ DMark false r) :: below ->
    pathD s t (mkUD (cD_proto s) (mark_memo s k) (deliverD (mark_memo s k) r below)
                    (todoD s t) false [ERet t k (cD_cur s) (r_val r)])
| D_mark_claimed k r below :
    stackD s t = (k @@ DMark true r) :: below ->
    pathD s t (mkUD (cD_proto s) (mark_memo s k) ((k @@ DRelease r) :: below) (todoD s t) false [])
| D_claimed k below pr1 md :
    stackD s t = (k @@ DCold) :: below ->
    Model.step fuel (cD_proto s) (OClaim t k true) = ROk (pr1, XClaim (CClaimed md)) ->
    pathD s t (mkUD pr1 (cD_memo s) ((k @@ DClaimed) :: below) (todoD s t) false [])
| D_blocked k below pr1 pr2 o :
    stackD s t = (k @@ DCold) :: below ->
    Model.step fuel (cD_proto s) (OClaim t k true) = ROk (pr1, XClaim (CRunning o)) ->
    Model.step fuel pr1 (OBlockOn t k o) = ROk (pr2, XBlock BBlocked) ->
    pathD s t (mkUD pr2 (cD_memo s) ((k @@ DWait) :: below) (todoD s t) false [])
| D_cycle1 k below pr1 inner :
    stackD s t = (k @@ DCold) :: below ->
    Model.step fuel (cD_proto s) (OClaim t k true) = ROk (pr1, XClaim (CCycle inner)) ->
    pathD s t (mkUD pr1 (cD_memo s) ((k @@ DCold) :: below) (todoD s t) true [])
| D_cycle2 k below pr1 pr2 o :
    stackD s t = (k @@ DCold) :: below ->
    Model.step fuel (cD_proto s) (OClaim t k true) = ROk (pr1, XClaim (CRunning o)) ->
    Model.step fuel pr1 (OBlockOn t k o) = ROk (pr2, XBlock BCycle) ->
    pathD s t (mkUD pr2 (cD_memo s) ((k @@ DCold) :: below) (todoD s t) true [])
| D_woken k below pr1 r :
    stackD s t = (k @@ DWait) :: below ->
    Model.step fuel (cD_proto s) (OReceive t) = ROk (pr1, XReceive (Some r)) ->
    pathD s t (mkUD pr1 (cD_memo s) ((k @@ DStart) :: below) (todoD s t) false [])
| D_recheck_hit k below m :
    stackD s t = (k @@ DClaimed) :: below -> cD_memo s k = Some m -> o_ver m = cD_cur s ->
    pathD s t (mkUD (cD_proto s) (cD_memo s) ((k @@ DRelease (retm m)) :: below) (todoD s t) false [])
| D_recheck_sc k below m :
    stackD s t = (k @@ DClaimed) :: below -> cD_memo s k = Some m -> o_ver m <> cD_cur s ->
    shortcut Q sc (cD_cur s) m = true ->
    pathD s t (mkUD (cD_proto s) (cD_memo s) ((k @@ DMark true (retm m)) :: below) (todoD s t) false [])
| D_to_verify k below m :
    stackD s t = (k @@ DClaimed) :: below -> cD_memo s k = Some m -> o_ver m <> cD_cur s ->
    shortcut Q sc (cD_cur s) m = false ->
    pathD s t (mkUD (cD_proto s) (cD_memo s) ((k @@ DVerify (o_deps m) true) :: below)
                    (todoD s t) false [])
| D_exec_start k ph below :
    stackD s t = (k @@ ph) :: below ->
    (ph = DClaimed /\ (forall m, cD_memo s k = Some m -> o_ver m <> cD_cur s)) \/
    (exists l ok, ph = DVerify l ok) ->
    (ph = DClaimed -> forall m, cD_memo s k = Some m -> shortcut Q sc (cD_cur s) m = false) ->
    pathD s t (mkUD (cD_proto s) (cD_memo s) ((k @@ DExec (d_body Q k) acc0) :: below)
                    (todoD s t) false [EExec t k (cD_cur s)])
| D_call_v k rest d rest' below m :
    stackD s t = (k @@ DVerify rest true) :: below -> cD_memo s k = Some m ->
    skip_ins Q (cD_cur s) (o_ver m) rest = (true, ECall d :: rest') ->
    pathD s t (mkUD (cD_proto s) (cD_memo s)
                    ((d @@ DStart) :: (k @@ DVerify rest' true) :: below) (todoD s t) false [])
| D_mark k rest below m :
    stackD s t = (k @@ DVerify rest true) :: below -> cD_memo s k = Some m ->
    skip_ins Q (cD_cur s) (o_ver m) rest = (true, []) ->
    pathD s t (mkUD (cD_proto s) (updN (cD_memo s) k (Some (verified_now (cD_cur s) m)))
                    ((k @@ DRelease (retm m)) :: below) (todoD s t) false [])
| D_call_x k b a d kont a' below :
    stackD s t = (k @@ DExec b a) :: below ->
    adv Q (cD_cur s) b a = (BCall d kont, a') ->
    pathD s t (mkUD (cD_proto s) (cD_memo s)
                    ((d @@ DStart) :: (k @@ DPend d kont a') :: below) (todoD s t) false [])
| D_publish k b a nv a' below :
    stackD s t = (k @@ DExec b a) :: below ->
    adv Q (cD_cur s) b a = (BRet nv, a') ->
    pathD s t (mkUD (cD_proto s)
                    (updN (cD_memo s) k
                          (Some (mkO (cD_cur s) nv (publish_chg s k nv a') (a_dur a') (a_tr a'))))
                    ((k @@ DRelease (mkR nv (publish_chg s k nv a') (a_dur a'))) :: below)
                    (todoD s t) false [])
| D_release_quiet k r below pr1 st :
    stackD s t = (k @@ DRelease r) :: below ->
    Model.step fuel (cD_proto s) (ORemove t k) = ROk (pr1, XRemoved st) ->
    release_script t k st Completed = [] ->
    pathD s t (mkUD pr1 (cD_memo s) (deliverD (cD_memo s) r below) (todoD s t) false
                    [ERet t k (cD_cur s) (r_val r)])
| D_release_wake k r below pr1 st a b c0 :
    stackD s t = (k @@ DRelease r) :: below ->
    Model.step fuel (cD_proto s) (ORemove t k) = ROk (pr1, XRemoved st) ->
    release_script t k st Completed = [OUnblock a b c0] ->
    pathD s t (mkUD pr1 (cD_memo s) ((k @@ DUnblock r) :: below) (todoD s t) false [])
| D_unblock k r below pr1 out :
    stackD s t = (k @@ DUnblock r) :: below ->
    Model.step fuel (cD_proto s) (OUnblock t k Completed) = ROk (pr1, out) ->
    pathD s t (mkUD pr1 (cD_memo s) (deliverD (cD_memo s) r below) (todoD s t) false
                    [ERet t k (cD_cur s) (r_val r)]).

Lemma skip_ins_true cur ver : forall l l',
  skip_ins Q cur ver l = (true, l') -> l' = [] \/ exists d r, l' = ECall d :: r.
Proof.
  induction l as [|e l IH]; intros l'; cbn [skip_ins].
  - intros [= <-]. now left.
  - destruct e as [i|d].
    + destruct (d_stamp Q cur i <=? ver); [apply IH | discriminate].
    + intros [= <-]. right. eauto.
Qed.

Lemma adv_nf cur : forall b a i k a', adv Q cur b a <> (BIn i k, a').
Proof.
  induction b as [v|i0 k0 IH|d k0 IH]; intros a i k a'; cbn [adv]; try discriminate. apply IH.
Qed.

Lemma step_threadD_path s t c u : step_threadD fuel Q sc s t c = Some u -> pathD s t u.
Proof.
  unfold step_threadD. destruct (thD_cycle (cD_thr s t)); [discriminate|].
  destruct (thD_stack (cD_thr s t)) as [|[k ph] below] eqn:Est.
  { destruct (thD_todo (cD_thr s t)) as [|k td] eqn:Etd; [discriminate|].
    intros [= <-]. now constructor. }
  cbn [h_key h_phase]. unfold step_frameD. change (thD_todo (cD_thr s t)) with (todoD s t).
  destruct ph as [|cl r| | | |l ok|b a|d kont a|r|r].
  - (* DStart *)
    destruct (cD_memo s k) as [m|] eqn:Em.
    + destruct (N.eqb_spec (o_ver m) (cD_cur s)) as [Ev|Ev].
      * intros [= <-]. eapply D_hit; eauto.
      * destruct (shortcut Q sc (cD_cur s) m) eqn:Esc; intros [= <-].
        -- eapply D_hot_sc; eauto.
        -- eapply D_go_cold; eauto. intros m' Hm'. congruence.
    + intros [= <-]. eapply D_go_cold; eauto. intros m' Hm'. congruence.
  - (* DMark *)
    destruct cl; intros [= <-].
    + pose proof (D_mark_claimed s t k r below Est) as H. unfold mark_memo in H. exact H.
    + pose proof (D_mark_hot s t k r below Est) as H. unfold mark_memo in H. exact H.
  - destruct (Model.step fuel (cD_proto s) (OClaim t k true)) as [[pr1 out]|] eqn:Ecl; [|discriminate].
    destruct out as [r| | | | | | |]; try discriminate. destruct r as [md|o|inner].
    + intros [= <-]. eapply D_claimed; eauto.
    + destruct (Model.step fuel pr1 (OBlockOn t k o)) as [[pr2 out2]|] eqn:Ebl; [|discriminate].
      destruct out2 as [|b| | | | | |]; try discriminate. destruct b; intros [= <-].
      * eapply D_blocked; eauto.
      * eapply D_cycle2; eauto.
    + intros [= <-]. eapply D_cycle1; eauto.
  - destruct (Model.step fuel (cD_proto s) (OReceive t)) as [[pr1 out]|] eqn:Erc; [|discriminate].
    destruct out as [| |[r|]| | | | |]; try discriminate. intros [= <-]. eapply D_woken; eauto.
  - (* DClaimed *)
    destruct (cD_memo s k) as [m|] eqn:Em.
    + destruct (N.eqb_spec (o_ver m) (cD_cur s)) as [Ev|Ev].
      * intros [= <-]. eapply D_recheck_hit; eauto.
      * destruct (shortcut Q sc (cD_cur s) m) eqn:Esc.
        -- intros [= <-]. eapply D_recheck_sc; eauto.
        -- destruct c; intros [= <-].
           ++ eapply D_to_verify; eauto.
           ++ apply (D_exec_start s t k DClaimed below Est);
                [left; split; auto; intros m' Hm'; congruence | intros _ m' Hm'; congruence].
    + intros [= <-]. apply (D_exec_start s t k DClaimed below Est);
        [left; split; auto; intros m' Hm'; congruence | intros _ m' Hm'; congruence].
  - (* DVerify *)
    destruct (cD_memo s k) as [m|] eqn:Em.
    + destruct ok.
      * destruct (skip_ins Q (cD_cur s) (o_ver m) l) as [okk l'] eqn:Esk. destruct okk.
        -- destruct (skip_ins_true _ _ _ _ Esk) as [->|(d & r & ->)]; intros [= <-].
           ++ eapply D_mark; eauto.
           ++ eapply D_call_v; eauto.
        -- intros [= <-]. apply (D_exec_start s t k _ below Est); [eauto | intros E0; discriminate E0].
      * intros [= <-]. apply (D_exec_start s t k _ below Est); [eauto | intros E0; discriminate E0].
    + intros [= <-]. apply (D_exec_start s t k _ below Est); [eauto | intros E0; discriminate E0].
  - (* DExec *)
    destruct (adv Q (cD_cur s) b a) as [b' a'] eqn:Ea. destruct b' as [nv|i k0|d kont].
    + intros [= <-]. pose proof (D_publish s t k b a nv a' below Est Ea) as H.
      unfold publish_chg in H. exact H.
    + discriminate.
    + intros [= <-]. eapply D_call_x; eauto.
  - discriminate.
  - destruct (Model.step fuel (cD_proto s) (ORemove t k)) as [[pr1 out]|] eqn:Erm; [|discriminate].
    destruct out as [| | |st| | | |]; try discriminate.
    destruct (release_script t k st Completed) as [|o1 [|o2 l2]] eqn:Ers; try discriminate.
    + intros [= <-]. eapply D_release_quiet; eauto.
    + destruct o1; try discriminate. intros [= <-]. eapply D_release_wake; eauto.
    + destruct o1; discriminate.
  - destruct (Model.step fuel (cD_proto s) (OUnblock t k Completed)) as [[pr1 out]|] eqn:Eub;
      [|discriminate].
    intros [= <-]. eapply D_unblock; eauto.
Qed.

End RelD.

Ltac dpathD Hp :=
  destruct Hp as
    [ k td Hst Htd
    | k below m Hst Hm Hv
    | k below m Hst Hm Hv Hsc
    | k below Hst Hnv
    | k r below Hst
    | k r below Hst
    | k below pr1 md Hst Hcl
    | k below pr1 pr2 o Hst Hcl Hbl
    | k below pr1 inner Hst Hcl
    | k below pr1 pr2 o Hst Hcl Hbl
    | k below pr1 r Hst Hrc
    | k below m Hst Hm Hv
    | k below m Hst Hm Hv Hsc
    | k below m Hst Hm Hv Hnsc
    | k ph below Hst Hph Hnsc
    | k rest d rest' below m Hst Hm Hsk
    | k rest below m Hst Hm Hsk
    | k b a d kont a' below Hst Hadv
    | k b a nv a' below Hst Hadv
    | k r below pr1 st Hst Hrm Hrs
    | k r below pr1 st a b c0 Hst Hrm Hrs
    | k r below pr1 out Hst Hub ].
