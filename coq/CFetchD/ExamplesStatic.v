(* CFetchD/ExamplesStatic.v — the HIGH-window witness of CFetchD/ExamplesWindow.v satisfies the
   hypotheses of the all-levels theorem of CFetchD/ProofsStatic.v: the two-handle run in which key 3
   (durability HIGH) is served through the short-cut while another handle walks key 4, and is
   invalidated by the HIGH write, returns from-scratch values BY THE THEOREM. *)
From Salsa Require Import Base.
From Salsa.Proto Require Import Model.
From Salsa.CFetch Require Import Model.
From Salsa.CFetchD Require Import Model ProofsRel ProofsSync ProofsVal ProofsTop Examples ProofsWindow
  ExamplesWindow ProofsStatic.

Lemma stampsw : stampsD_ok Qw.
Proof.
  unfold stampsD_ok, Qw. cbn [d_in d_stamp d_idur]. split; [|split].
  - intros r i r'. destruct (i =? 1).
    + destruct (N.ltb_spec r 3), (N.ltb_spec r' 3); intros; try reflexivity; lia.
    + destruct (N.ltb_spec r 2), (N.ltb_spec r' 2); intros; try reflexivity; lia.
  - intros r i Hr. destruct (i =? 1).
    + destruct (N.ltb_spec r 3); lia.
    + destruct (N.ltb_spec r 2); lia.
  - intros r i r' H. destruct (i =? 1); discriminate.
Qed.

Lemma no_neverw : no_never Qw.
Proof. intros r i. cbn. unfold DUR_MAX. destruct (i =? 1); lia. Qed.

Lemma static_pathsw : static_paths Qw rankw.
Proof.
  intros r r' k. unfold Qw, bodyw. cbn [d_body].
  destruct (k =? 1); [reflexivity|]. destruct (k =? 2); [reflexivity|].
  destruct (k =? 3); [reflexivity|]. destruct (k =? 4); reflexivity.
Qed.

Lemma const_durw : const_dur Qw.
Proof. intros r r' i. reflexivity. Qed.

Lemma lc_monow : lc_mono Qw.
Proof.
  intros r r' d Hle. unfold Qw. cbn [d_lc].
  destruct (N.ltb_spec r' 2); [destruct (N.ltb_spec r 2); lia|].
  destruct (N.ltb_spec r 2); [destruct (N.ltb_spec r' 3), (N.eqb_spec d 0), (N.ltb_spec d 3); lia|].
  destruct (N.ltb_spec r 3), (N.ltb_spec r' 3), (N.eqb_spec d 0), (N.ltb_spec d 3); lia.
Qed.

Example sw_values_from_theorem : forall t k r v, In (ERet t k r v) (cD_log sw) -> v = ED Qw rankw r k.
Proof.
  intros t k r v.
  apply (values_computed_shortcut 8 Qw rankw sw t k r v rankedw stampsw no_neverw
           static_pathsw const_durw lc_antitonew lc_monow write_rulew sw_reachable).
Qed.
