(* CFetchD/ProofsOnce.v — at most one execution per key and revision in CFetchD, with or without
   the durability short-cut, for any program (no rank hypothesis): WillExecute is logged only by
   the holder of the claim, which found the memo unverified when it re-checked after claiming;
   a holder that walks its dependencies keeps everybody else from executing the key; once the
   execution has published, the memo is verified in the revision. *)
From Salsa Require Import Base.
From Salsa.Proto Require Import Model.
From Salsa.CFetch Require Import Model ProofsProto ProofsSafe.
From Salsa.CFetchD Require Import Model ProofsRel ProofsSync ProofsVal ProofsTop.

Definition isexecD (ph : phaseD) : Prop :=
  match ph with DExec _ _ | DPend _ _ _ => True | _ => False end.

Record OnceD (s : cstateD) : Prop := mkOnceD {
  (* so that a new revision starts with count 0 *)
  O_le : forall t k r, In (EExec t k r) (cD_log s) -> r <= cD_cur s;
  O_cnt : forall k r, (count_exec k r (cD_log s) <= 1)%nat;
  (* a claim holder that finds neither may execute *)
  O_now : forall k, (1 <= count_exec k (cD_cur s) (cD_log s))%nat ->
          ver2D (cD_memo s) (cD_cur s) k \/
          exists t f, In f (stackD s t) /\ h_key f = k /\ isexecD (h_phase f);
  (* the walk may still end in an execution *)
  O_pre : forall t f l ok, In f (stackD s t) -> h_phase f = DVerify l ok ->
          count_exec (h_key f) (cD_cur s) (cD_log s) = 0%nat
}.

Lemma isexec_hold ph : isexecD ph -> holdD ph = true.
Proof. destruct ph; cbn; tauto. Qed.

Lemma deliver_exec mm r below f :
  In f below -> isexecD (h_phase f) ->
  exists f', In f' (deliverD mm r below) /\ h_key f' = h_key f /\ isexecD (h_phase f').
Proof.
  destruct below as [|f0 b]; [intros []|]. cbn [deliverD]. intros [<-|Hin] Hx.
  - destruct f0 as [k ph]. destruct ph; cbn in Hx; try contradiction;
      cbn [h_phase h_key]; (eexists; split; [now left|]; cbn; auto).
  - exists f. split; auto. destruct (h_phase f0); now right.
Qed.

Lemma deliver_verify mm r below f l ok :
  In f (deliverD mm r below) -> h_phase f = DVerify l ok ->
  exists f0 l0 ok0, In f0 below /\ h_key f0 = h_key f /\ h_phase f0 = DVerify l0 ok0.
Proof.
  destruct below as [|f0 b]; [intros []|]. cbn [deliverD]. destruct f0 as [k ph].
  destruct ph; cbn [h_phase h_key]; intros [<-|Hin] Hp; cbn [h_phase h_key] in *; try discriminate;
    try (eexists _, _, _; split; [now left | split; [reflexivity | cbn; eauto]]; fail);
    try (exists f, l, ok; split; [now right | auto]; fail).
Qed.

Section Once.
Variable fuel : nat.
Variable Q : progD.
Variable sc : bool.

Lemma ver2D_upd mm cur k m' k1 :
  o_ver m' = cur -> ver2D mm cur k1 -> ver2D (updN mm k (Some m')) cur k1.
Proof.
  intros Hv (m1 & Hm1 & Hv1). destruct (N.eq_dec k k1) as [->|Hne].
  - exists m'. split; [apply updN_same | exact Hv].
  - exists m1. split; [rewrite updN_other; auto | exact Hv1].
Qed.

Lemma ver2D_mark s k k1 :
  ver2D (cD_memo s) (cD_cur s) k1 -> ver2D (mark_memo s k) (cD_cur s) k1.
Proof.
  intros H1. unfold mark_memo. destruct (cD_memo s k) as [m0|]; [|exact H1].
  destruct (o_ver m0 <? cD_cur s); [|exact H1]. apply ver2D_upd; [reflexivity | exact H1].
Qed.

Lemma ver2D_path s t u k1 :
  pathD fuel Q sc s t u -> ver2D (cD_memo s) (cD_cur s) k1 -> ver2D (uD_memo u) (cD_cur s) k1.
Proof.
  intros Hp H1. dpathD Hp; cbn [uD_memo]; try exact H1.
  - (* mark_hot *) apply ver2D_mark; exact H1.
  - (* mark_claimed *) apply ver2D_mark; exact H1.
  - (* mark *) apply ver2D_upd; [reflexivity | exact H1].
  - (* publish *) apply ver2D_upd; [reflexivity | exact H1].
Qed.

(* a step that logs no execution *)
Lemma once_keep s t u :
  OnceD s -> pathD fuel Q sc s t u ->
  (forall k r, count_exec k r (uD_ev u) = 0%nat) ->
  (forall t0 k r, ~ In (EExec t0 k r) (uD_ev u)) ->
  (forall f, In f (stackD s t) -> isexecD (h_phase f) ->
     ver2D (uD_memo u) (cD_cur s) (h_key f) \/
     exists f', In f' (uD_stack u) /\ h_key f' = h_key f /\ isexecD (h_phase f')) ->
  (forall f l ok, In f (uD_stack u) -> h_phase f = DVerify l ok ->
     count_exec (h_key f) (cD_cur s) (cD_log s) = 0%nat) ->
  OnceD (apply_updD s t u).
Proof.
  intros [A B C D] Hp Hev Hno Hex Hpre.
  assert (Hc : forall k r, count_exec k r (uD_ev u ++ cD_log s) = count_exec k r (cD_log s)).
  { intros k r. rewrite count_exec_app, Hev. reflexivity. }
  constructor; cbn [apply_updD cD_log cD_cur cD_memo].
  - intros t0 k r Hin. apply in_app_or in Hin as [Hin|Hin]; [exfalso; eapply Hno; eauto | eauto].
  - intros k r. rewrite Hc. apply B.
  - intros k. rewrite Hc. intros H1. destruct (C k H1) as [Hv|(t' & f & Hin & Hk & Hx)].
    + left. eapply ver2D_path; eauto.
    + destruct (N.eqb_spec t t') as [<-|Hne].
      * destruct (Hex f Hin Hx) as [Hv|(f' & Hin' & Hk' & Hx')].
        -- left. now rewrite <- Hk.
        -- right. exists t, f'. rewrite stackD_apply, N.eqb_refl. split; auto. split; [congruence | auto].
      * right. exists t', f. rewrite stackD_apply. destruct (N.eqb_spec t t'); [contradiction|]. auto.
  - intros t' f l ok. rewrite stackD_apply, Hc. destruct (N.eqb_spec t t') as [<-|Hne]; eauto.
Qed.

Lemma once_retop s t u k ph ph' below :
  OnceD s -> pathD fuel Q sc s t u ->
  stackD s t = (k @@ ph) :: below -> uD_stack u = (k @@ ph') :: below -> uD_ev u = [] ->
  (isexecD ph -> isexecD ph') ->
  (forall l ok, ph' = DVerify l ok -> exists l0 ok0, ph = DVerify l0 ok0) ->
  OnceD (apply_updD s t u).
Proof.
  intros I Hp Hst Hs Hev Hx Hv. apply once_keep; [exact I | exact Hp | | | |]; rewrite ?Hev, ?Hs.
  - intros; reflexivity.
  - intros ? ? ? [].
  - intros f Hin Hxf. right. rewrite Hst in Hin. destruct Hin as [<-|Hin].
    + exists (k @@ ph'). split; [now left | split; [reflexivity | apply Hx; exact Hxf]].
    + exists f. split; [now right | auto].
  - intros f l ok [<-|Hin] Hph.
    + destruct (Hv l ok Hph) as (l0 & ok0 & E0).
      apply (O_pre _ I t (k @@ ph) l0 ok0); [rewrite Hst; now left | exact E0].
    + apply (O_pre _ I t f l ok); [rewrite Hst; now right | exact Hph].
Qed.

Lemma once_return s t u k ph below mm r e :
  OnceD s -> pathD fuel Q sc s t u ->
  stackD s t = (k @@ ph) :: below -> ~ isexecD ph ->
  uD_stack u = deliverD mm r below -> uD_ev u = [e] -> (forall t0 k0 r0, e <> EExec t0 k0 r0) ->
  OnceD (apply_updD s t u).
Proof.
  intros I Hp Hst Hnx Hs Hev He. apply once_keep; [exact I | exact Hp | | | |]; rewrite ?Hev, ?Hs.
  - intros k0 r0. destruct e; [exfalso; eapply He; reflexivity | reflexivity].
  - intros t0 k0 r0 [E0|[]]. exact (He _ _ _ E0).
  - intros f Hin Hx. rewrite Hst in Hin. destruct Hin as [<-|Hin]; [contradiction|].
    right. apply deliver_exec; auto.
  - intros f l ok Hin Hph. destruct (deliver_verify _ _ _ _ _ _ Hin Hph) as (f0 & l0 & ok0 & Hin0 & Hk & Hp1).
    rewrite <- Hk. apply (O_pre _ I t f0 l0 ok0); [rewrite Hst; now right | exact Hp1].
Qed.

(* the top frame neither executes nor walks before the step, and is replaced by one that does
   neither; nothing is logged but possibly a return *)
Ltac once_top I Hp0 Hst :=
  eapply once_retop;
    [exact I | exact Hp0 | exact Hst | reflexivity | reflexivity | intros []
    | intros l0 ok0 E0; discriminate E0].
(* such a top frame returns to the frame below *)
Ltac once_ret I Hp0 Hst :=
  eapply once_return;
    [exact I | exact Hp0 | exact Hst | intros [] | reflexivity | reflexivity | discriminate].

Lemma pres_once s t u : SyncD s -> OnceD s -> pathD fuel Q sc s t u -> OnceD (apply_updD s t u).
Proof.
  intros SY I Hp. pose proof (exclD_of_sync s SY) as X. pose proof I as [A B C D].
  assert (Hpre0 : forall top below f l ok, stackD s t = top :: below -> In f below ->
                  h_phase f = DVerify l ok -> count_exec (h_key f) (cD_cur s) (cD_log s) = 0%nat).
  { intros top below f l ok E0 Hin Hph. eapply (D t f); eauto. rewrite E0. now right. }
  pose proof Hp as Hp0.
  dpathD Hp.
  - (* begin *)
    apply once_keep; cbn [uD_ev uD_stack uD_memo]; [exact I | exact Hp0 | intros; reflexivity | | | ].
    + intros ? ? ? [].
    + intros f Hin. rewrite Hst in Hin. destruct Hin.
    + intros f l ok [<-|[]] Hph. discriminate.
  - (* hit *) once_ret I Hp0 Hst.
  - (* hot_sc *) once_top I Hp0 Hst.
  - (* go_cold *) once_top I Hp0 Hst.
  - (* mark_hot *) once_ret I Hp0 Hst.
  - (* mark_claimed *) once_top I Hp0 Hst.
  - (* claimed *) once_top I Hp0 Hst.
  - (* blocked *) once_top I Hp0 Hst.
  - (* cycle1 *) once_top I Hp0 Hst.
  - (* cycle2 *) once_top I Hp0 Hst.
  - (* woken *) once_top I Hp0 Hst.
  - (* recheck_hit *) once_top I Hp0 Hst.
  - (* recheck_sc *) once_top I Hp0 Hst.
  - (* to_verify: the key was not executed in this revision *)
    apply once_keep; cbn [uD_ev uD_stack uD_memo]; [exact I | exact Hp0 | intros; reflexivity | | | ].
    + intros ? ? ? [].
    + intros f Hin Hx. rewrite Hst in Hin. destruct Hin as [<-|Hin]; [contradiction|].
      right. exists f. split; [cbn; auto | auto].
    + intros f l ok [<-|Hin] Hph; [|eapply Hpre0; eauto]. cbn [h_key].
      destruct (count_exec k (cD_cur s) (cD_log s)) eqn:Ec; auto. exfalso.
      destruct (C k) as [(m0 & Hm0 & Hv0)|(t' & f' & Hin' & Hk' & Hx')]; [lia | congruence |].
      destruct (X t k DClaimed below t' f' Hst eq_refl Hin' (isexec_hold _ Hx') Hk') as [-> Hnb].
      rewrite Hst in Hin'. destruct Hin' as [<-|Hin']; [cbn in Hx'; contradiction | contradiction].
  - (* exec_start *)
    assert (Hh : holdD ph = true) by (destruct Hph as [[-> _]|(l & ok & ->)]; reflexivity).
    assert (Hnx : ~ isexecD ph) by (destruct Hph as [[-> _]|(l & ok & ->)]; cbn; tauto).
    assert (Hzero : count_exec k (cD_cur s) (cD_log s) = 0%nat).
    { destruct Hph as [[-> Hnv]|(l & ok & ->)].
      - destruct (count_exec k (cD_cur s) (cD_log s)) eqn:Ec; auto. exfalso.
        destruct (C k) as [(m0 & Hm0 & Hv0)|(t' & f' & Hin' & Hk' & Hx')]; [lia | eapply Hnv; eauto |].
        destruct (X t k DClaimed below t' f' Hst eq_refl Hin' (isexec_hold _ Hx') Hk') as [-> Hnb].
        rewrite Hst in Hin'. destruct Hin' as [<-|Hin']; [cbn in Hx'; contradiction | contradiction].
      - apply (D t (k @@ DVerify l ok) l ok); [rewrite Hst; now left | reflexivity]. }
    assert (Hcnt : forall k' r', count_exec k' r' (EExec t k (cD_cur s) :: cD_log s) =
                   ((if (k' =? k) && (r' =? cD_cur s) then 1 else 0) + count_exec k' r' (cD_log s))%nat)
      by reflexivity.
    constructor; cbn [apply_updD cD_log cD_cur cD_memo uD_ev uD_memo app].
    + intros t0 k0 r [E0|Hin]; [injection E0 as <- <- <-; lia | eauto].
    + intros k' r'. rewrite Hcnt. destruct (N.eqb_spec k' k) as [->|Hk]; cbn [andb]; [|apply B].
      destruct (N.eqb_spec r' (cD_cur s)) as [->|Hr]; [rewrite Hzero; lia | apply B].
    + intros k'. rewrite Hcnt. destruct (N.eqb_spec k' k) as [->|Hk]; cbn [andb].
      * intros _. right. exists t. eexists. rewrite stackD_apply, N.eqb_refl. cbn [uD_stack].
        split; [now left|]. cbn. auto.
      * intros H1. destruct (C k' H1) as [Hv|(t' & f & Hin & Hkf & Hx)]; [now left|].
        right. exists t', f. rewrite stackD_apply. destruct (N.eqb_spec t t') as [<-|Hne]; auto.
        cbn [uD_stack]. rewrite Hst in Hin. destruct Hin as [<-|Hin]; [contradiction|]. split; [now right|auto].
    + intros t' f l ok. rewrite stackD_apply. rewrite Hcnt. intros Hin Hphf.
      assert (Hin0 : In f (stackD s t') /\ (t' <> t \/ In f below)).
      { destruct (N.eqb_spec t t') as [<-|Hne].
        - cbn [uD_stack] in Hin. destruct Hin as [<-|Hin]; [discriminate|]. rewrite Hst. split; [now right|now right].
        - split; auto. }
      destruct Hin0 as [Hin0 Hpos].
      destruct (N.eqb_spec (h_key f) k) as [Ek|Ek]; cbn [andb]; [|eapply D; eauto].
      exfalso. assert (Hhf : holdD (h_phase f) = true) by (rewrite Hphf; reflexivity).
      destruct (X t k ph below t' f Hst Hh Hin0 Hhf Ek) as [-> Hnb]. destruct Hpos; [congruence|contradiction].
  - (* call_v *)
    apply once_keep; cbn [uD_ev uD_stack uD_memo]; [exact I | exact Hp0 | intros; reflexivity | | | ].
    + intros ? ? ? [].
    + intros f Hin Hx. rewrite Hst in Hin. destruct Hin as [<-|Hin]; [contradiction|].
      right. exists f. split; [cbn; auto | auto].
    + intros f l ok [<-|[<-|Hin]] Hph; [discriminate| |eapply Hpre0; eauto].
      cbn [h_key]. apply (D t (k @@ DVerify rest true) rest true); [rewrite Hst; now left | reflexivity].
  - (* mark *) once_top I Hp0 Hst.
  - (* call_x *)
    apply once_keep; cbn [uD_ev uD_stack uD_memo]; [exact I | exact Hp0 | intros; reflexivity | | | ].
    + intros ? ? ? [].
    + intros f Hin Hx. rewrite Hst in Hin. destruct Hin as [<-|Hin].
      * right. exists (k @@ DPend d kont a'). split; [right; now left|]. cbn. auto.
      * right. exists f. split; [right; now right | auto].
    + intros f l ok [<-|[<-|Hin]] Hph; [discriminate|discriminate|]. eapply Hpre0; eauto.
  - (* publish *)
    apply once_keep; cbn [uD_ev uD_stack uD_memo]; [exact I | exact Hp0 | intros; reflexivity | | | ].
    + intros ? ? ? [].
    + intros f Hin Hx. rewrite Hst in Hin. destruct Hin as [<-|Hin].
      * left. cbn [h_key]. eexists. split; [apply updN_same | reflexivity].
      * right. exists f. split; [now right | auto].
    + intros f l ok [<-|Hin] Hph; [discriminate|]. eapply Hpre0; eauto.
  - (* release_quiet *) once_ret I Hp0 Hst.
  - (* release_wake *) once_top I Hp0 Hst.
  - (* unblock *) once_ret I Hp0 Hst.
Qed.

End Once.

Lemma once_gstep fuel Q sc s o s' :
  SyncD s -> IdleOut s -> OnceD s -> gstepD fuel Q sc s o = Some s' -> OnceD s'.
Proof.
  intros SY IO I. destruct o as [t c| |t ks]; cbn [gstepD].
  - unfold tstepD. destruct (mem t (cD_tids s)); [|discriminate].
    destruct (step_threadD fuel Q sc s t c) as [u|] eqn:Eu; [|discriminate]. intros [= <-].
    eapply pres_once; eauto. eapply step_threadD_path; eauto.
  - destruct (forallb _ _) eqn:Ef; [|discriminate]. intros [= <-].
    pose proof (all_idleD s IO Ef) as E.
    destruct I as [A B C D]. constructor; cbn [cD_log cD_cur cD_memo].
    + intros t k r Hin. specialize (A t k r Hin). lia.
    + exact B.
    + intros k H1. apply count_exec_in in H1 as [t Ht]. specialize (A _ _ _ Ht). lia.
    + intros t f l ok Hin. change (stackD (mkCD (cD_cur s + 1) (cD_memo s) (cD_proto s) (cD_thr s) (cD_tids s) (cD_log s)) t)
        with (stackD s t) in Hin. rewrite E in Hin. destruct Hin.
  - destruct (idlebD (cD_thr s t)) eqn:Ei; [|discriminate]. intros [= <-].
    apply idlebD_spec in Ei as (Es & _).
    destruct I as [A B C D]. constructor; cbn [cD_log cD_cur cD_memo]; auto.
    + intros k H1. destruct (C k H1) as [Hv|(t' & f & Hin & Hk & Hx)]; [now left|]. right.
      exists t', f. split; auto. unfold stackD. cbn [cD_thr]. unfold updN.
      destruct (N.eqb_spec t t') as [<-|Hne]; auto. unfold stackD in Hin. rewrite Es in Hin. destruct Hin.
    + intros t' f l ok. unfold stackD. cbn [cD_thr]. unfold updN.
      destruct (N.eqb_spec t t') as [<-|Hne]; [intros []|]. apply D.
Qed.

Lemma once_init : OnceD cinitD.
Proof. constructor; cbn; try contradiction; auto. intros k H. lia. Qed.

Theorem once_per_revisionD fuel Q sc s :
  creachD fuel Q sc s -> forall k r, (count_exec k r (cD_log s) <= 1)%nat.
Proof.
  intros H. cut (OnceD s); [intros I; apply (O_cnt _ I)|].
  induction H as [|s o s' Hr IH Hs]; [apply once_init|].
  exact (once_gstep _ _ _ _ _ _ (creachD_sync _ _ _ _ Hr) (creachD_idle _ _ _ _ Hr) IH Hs).
Qed.

(* WillExecute is logged by the stepping handle, in the current revision, while the sync table
   records the key as claimed by it; coming from the re-check after the claim, the memo was
   absent or not verified in this revision *)
Theorem exec_by_holderD fuel Q sc s t c s' t1 k1 r1 :
  creachD fuel Q sc s -> tstepD fuel Q sc s t c = Some s' ->
  cD_log s' = EExec t1 k1 r1 :: cD_log s ->
  t1 = t /\ r1 = cD_cur s /\
  (exists st, sync (cD_proto s) k1 = Some st /\ ss_id st = OThread t) /\
  (forall m, cD_memo s k1 = Some m -> o_ver m = cD_cur s ->
     exists l ok below, stackD s t = (k1 @@ DVerify l ok) :: below).
Proof.
  intros HR Hs Hlog. pose proof (creachD_sync _ _ _ _ HR) as SY.
  unfold tstepD in Hs. destruct (mem t (cD_tids s)); [|discriminate].
  destruct (step_threadD fuel Q sc s t c) as [u|] eqn:Eu; [|discriminate]. injection Hs as <-.
  apply step_threadD_path in Eu. cbn [apply_updD cD_log] in Hlog.
  assert (Hnil : forall l : list event, l = EExec t1 k1 r1 :: l -> False).
  { intros l E0. apply (f_equal (@length event)) in E0. cbn in E0. lia. }
  dpathD Eu; cbn [uD_ev app] in Hlog; try (exfalso; eapply Hnil; eauto; fail); try discriminate.
  injection Hlog as <- <- <-. split; auto. split; auto. split.
  - assert (Hh : holdD ph = true) by (destruct Hph as [[-> _]|(l & ok & ->)]; reflexivity).
    apply (SD_hold _ SY t (k @@ ph)); [rewrite Hst; now left | exact Hh].
  - intros m Hm Hv. destruct Hph as [[-> Hnv]|(l & ok & ->)]; [exfalso; eapply Hnv; eauto | eauto].
Qed.
