(* CFetchD/ProofsSync.v — claims are exclusive in CFetchD, directly from the Proto model: a frame
   past the claim for key [k] in the stack of handle [t] means that the sync table records [k] as
   claimed by [t]; the keys a handle holds are pairwise different.  Independent of values, call
   lists and the short-cut switch. *)
From Salsa Require Import Base.
From Salsa.Proto Require Import Model.
From Salsa.CFetch Require Import Model ProofsProto.
From Salsa.CFetchD Require Import Model ProofsRel.

Definition holdD (ph : phaseD) : bool :=
  match ph with
  | DClaimed | DMark true _ | DVerify _ _ | DExec _ _ | DPend _ _ _ | DRelease _ => true
  | _ => false
  end.

Definition hkeysD (l : list frameD) : list key :=
  map h_key (filter (fun f => holdD (h_phase f)) l).

Definition exclD (s : cstateD) : Prop :=
  forall t k ph below t' f',
    stackD s t = (k @@ ph) :: below -> holdD ph = true ->
    In f' (stackD s t') -> holdD (h_phase f') = true -> h_key f' = k ->
    t' = t /\ ~ In f' below.

Record SyncD (s : cstateD) : Prop := mkSyncD {
  SD_only : only_threads (cD_proto s);
  SD_hold : forall t f, In f (stackD s t) -> holdD (h_phase f) = true ->
            exists st, sync (cD_proto s) (h_key f) = Some st /\ ss_id st = OThread t;
  SD_nodup : forall t, NoDup (hkeysD (stackD s t))
}.

Lemma hkeysD_in f l : In f l -> holdD (h_phase f) = true -> In (h_key f) (hkeysD l).
Proof. intros Hin Hh. unfold hkeysD. apply in_map. apply filter_In. auto. Qed.

Lemma hkeysD_spec k l : In k (hkeysD l) -> exists f, In f l /\ holdD (h_phase f) = true /\ h_key f = k.
Proof.
  unfold hkeysD. intros H. apply in_map_iff in H as (f & <- & Hf). apply filter_In in Hf as [A B]. eauto.
Qed.

Lemma exclD_of_sync s : SyncD s -> exclD s.
Proof.
  intros [O H N] t k ph below t' f' Hst Hh Hin Hh' Hk.
  assert (Htop : In (k @@ ph) (stackD s t)) by (rewrite Hst; now left).
  destruct (H t _ Htop Hh) as (st & Hs & Hid). destruct (H t' _ Hin Hh') as (st' & Hs' & Hid').
  cbn [h_key] in Hs. rewrite Hk in Hs'. rewrite Hs in Hs'. injection Hs' as <-.
  rewrite Hid in Hid'. injection Hid' as <-. split; auto.
  intros Hb. specialize (N t). rewrite Hst in N. unfold hkeysD in N. cbn [filter h_phase] in N.
  rewrite Hh in N. cbn [map h_key] in N. inversion N as [|x l Hnot Hnd]. apply Hnot.
  rewrite <- Hk. apply (hkeysD_in f' below Hb Hh').
Qed.

Lemma hkeysD_deliver mm r below : hkeysD (deliverD mm r below) = hkeysD below.
Proof.
  destruct below as [|f b]; cbn [deliverD]; auto. destruct f as [k ph].
  destruct ph; cbn [h_phase h_key]; reflexivity.
Qed.

Lemma stackD_apply s t u t' :
  stackD (apply_updD s t u) t' = if t =? t' then uD_stack u else stackD s t'.
Proof. unfold stackD, apply_updD; cbn. unfold updN. destruct (t =? t'); reflexivity. Qed.

Section Pres.
Variable fuel : nat.
Variable Q : progD.
Variable sc : bool.

Definition keeps_claims (pr pr' : state) : Prop :=
  only_threads pr' /\
  forall k st t, sync pr k = Some st -> ss_id st = OThread t ->
    exists st', sync pr' k = Some st' /\ ss_id st' = OThread t.

Lemma keeps_sync pr pr' : only_threads pr -> sync pr' = sync pr -> keeps_claims pr pr'.
Proof. intros O E. split; [intros k st; rewrite E; apply O | intros k st t; rewrite E; eauto]. Qed.

Lemma keeps_trans pr1 pr2 pr3 : keeps_claims pr1 pr2 -> keeps_claims pr2 pr3 -> keeps_claims pr1 pr3.
Proof.
  intros [_ A] [O B]. split; [exact O|]. intros k st t Hs Hid.
  destruct (A k st t Hs Hid) as (st' & Hs' & Hid'). eauto.
Qed.

(* a claim that is refused only marks the entry as waited for *)
Lemma keeps_refused pr t k a pr1 r :
  only_threads pr -> Model.step fuel pr (OClaim t k a) = ROk (pr1, XClaim r) ->
  (forall md, r <> CClaimed md) -> keeps_claims pr pr1.
Proof.
  intros O Hcl Hr.
  destruct (claim_cases _ _ _ _ _ _ _ O Hcl) as [_ [(_ & Ec & _) | (st & u0 & Hs0 & Hid0 & Hsy & _)]];
    [destruct (Hr _ Ec)|].
  destruct (O _ _ Hs0) as (u1 & Hu1 & Tw & Tg). split.
  - intros k' st' Hs. rewrite Hsy in Hs. unfold updN in Hs. destruct (N.eqb_spec k k') as [<-|Hne].
    + injection Hs as <-. exists u1. cbn. auto.
    + eapply O; eauto.
  - intros k' st' t' Hs Hid. rewrite Hsy. unfold updN. destruct (N.eqb_spec k k') as [<-|Hne]; eauto.
    rewrite Hs0 in Hs. injection Hs as <-. exists (set_waiting st). split; auto.
Qed.

Lemma sync_same s t u :
  SyncD s -> keeps_claims (cD_proto s) (uD_proto u) ->
  hkeysD (uD_stack u) = hkeysD (stackD s t) ->
  SyncD (apply_updD s t u).
Proof.
  intros [O H N] [Ho Hk] E. constructor; cbn [apply_updD cD_proto]; auto.
  - intros t' f. rewrite stackD_apply. destruct (N.eqb_spec t t') as [<-|Hne]; intros Hin Hh.
    + pose proof (hkeysD_in _ _ Hin Hh) as Hin0. rewrite E in Hin0.
      apply hkeysD_spec in Hin0 as (f0 & Hin0 & Hh0 & Ek).
      destruct (H t f0 Hin0 Hh0) as (st & Hs & Hid). rewrite <- Ek. eapply Hk; eauto.
    + destruct (H t' f Hin Hh) as (st & Hs & Hid). eapply Hk; eauto.
  - intros t'. rewrite stackD_apply. destruct (t =? t'); auto. rewrite E. apply N.
Qed.

Lemma nodup_tail k ph below : NoDup (hkeysD ((k @@ ph) :: below)) -> NoDup (hkeysD below).
Proof.
  unfold hkeysD. cbn [filter h_phase]. destruct (holdD ph); cbn [map]; auto.
  intros N. now inversion N.
Qed.

(* nobody else holds the released key ([exclD_of_sync]) *)
Lemma sync_release s t u k r below :
  SyncD s -> stackD s t = (k @@ DRelease r) :: below ->
  sync (uD_proto u) = updN (sync (cD_proto s)) k None ->
  hkeysD (uD_stack u) = hkeysD below ->
  SyncD (apply_updD s t u).
Proof.
  intros I Hst Hsy E. pose proof I as [O H N].
  assert (Hother : forall t' f, In f (stackD s t') -> holdD (h_phase f) = true ->
                   (t' <> t \/ In f below) -> h_key f <> k).
  { intros t' f Hin Hh Hpos E0.
    destruct (exclD_of_sync s I t k (DRelease r) below t' f Hst eq_refl Hin Hh E0) as [Et Hnb].
    destruct Hpos; [congruence | contradiction]. }
  constructor; cbn [apply_updD cD_proto].
  - intros k' st' Hs. rewrite Hsy in Hs. unfold updN in Hs. destruct (k =? k'); [discriminate|].
    eapply O; eauto.
  - intros t' f. rewrite stackD_apply. destruct (N.eqb_spec t t') as [<-|Hne]; intros Hin Hh.
    + pose proof (hkeysD_in _ _ Hin Hh) as Hin0. rewrite E in Hin0.
      apply hkeysD_spec in Hin0 as (f0 & A & B & C).
      assert (Hin0 : In f0 (stackD s t)) by (rewrite Hst; now right).
      destruct (H t f0 Hin0 B) as (st0 & Hs & Hid). exists st0. rewrite <- C. split; auto.
      rewrite Hsy, updN_other; auto. intros E0. eapply (Hother t f0); eauto.
    + destruct (H t' f Hin Hh) as (st0 & Hs & Hid). exists st0. split; auto.
      rewrite Hsy, updN_other; auto. intros E0. eapply (Hother t' f); eauto.
  - intros t'. rewrite stackD_apply. destruct (N.eqb_spec t t') as [<-|Hne]; auto.
    rewrite E. specialize (N t). rewrite Hst in N. eapply nodup_tail; eauto.
Qed.

(* no protocol step; the top frame is replaced by one that holds the same key or, like it, none,
   a frame that holds nothing is pushed, or a frame that holds nothing returns *)
Ltac sync_quiet I O Hst :=
  apply sync_same; cbn [uD_proto uD_stack];
    [exact I | exact (keeps_sync _ _ O eq_refl) | rewrite Hst, ?hkeysD_deliver; reflexivity].

Lemma pres_sync s t u : SyncD s -> pathD fuel Q sc s t u -> SyncD (apply_updD s t u).
Proof.
  intros I Hp. pose proof I as [O H N].
  dpathD Hp.
  - (* begin *) sync_quiet I O Hst.
  - (* hit *) sync_quiet I O Hst.
  - (* hot_sc *) sync_quiet I O Hst.
  - (* go_cold *) sync_quiet I O Hst.
  - (* mark_hot *) sync_quiet I O Hst.
  - (* mark_claimed *) sync_quiet I O Hst.
  - (* claimed *)
    destruct (claim_cases _ _ _ _ _ _ _ O Hcl) as [Hdg [(Hnone & _ & Hsy) | (st & u0 & _ & _ & _ & [[Ec _]|[Ec _]])]];
      try discriminate.
    assert (Hfree : forall t' f, In f (stackD s t') -> holdD (h_phase f) = true -> h_key f <> k).
    { intros t' f Hin Hh E0. destruct (H t' f Hin Hh) as (st & Hs & _). rewrite E0 in Hs. congruence. }
    pose proof (N t) as Nt. rewrite Hst in Nt.
    constructor; cbn [apply_updD cD_proto uD_proto].
    + intros k' st Hs. rewrite Hsy in Hs. unfold updN in Hs. destruct (k =? k').
      * injection Hs as <-. exists t. cbn. auto.
      * eapply O; eauto.
    + intros t' f. rewrite stackD_apply. destruct (N.eqb_spec t t') as [<-|Hne]; cbn [uD_stack].
      * intros [<-|Hin] Hh.
        -- cbn [h_key]. rewrite Hsy, updN_same. exists (fresh_sync t). split; reflexivity.
        -- assert (Hin' : In f (stackD s t)) by (rewrite Hst; now right).
           destruct (H t f Hin' Hh) as (st & Hs & Hid). exists st. split; auto.
           rewrite Hsy, updN_other; auto. intros E0. eapply Hfree; eauto.
      * intros Hin Hh. destruct (H t' f Hin Hh) as (st & Hs & Hid). exists st. split; auto.
        rewrite Hsy, updN_other; auto. intros E0. eapply Hfree; eauto.
    + intros t'. rewrite stackD_apply. destruct (N.eqb_spec t t') as [<-|Hne]; auto. cbn [uD_stack].
      unfold hkeysD. cbn [filter h_phase holdD map h_key]. constructor.
      * intros Hin. apply hkeysD_spec in Hin as (f & A & B & C).
        eapply (Hfree t f); eauto; rewrite Hst; now right.
      * apply nodup_tail in Nt. exact Nt.
  - (* blocked *)
    apply sync_same; cbn [uD_proto uD_stack]; [exact I | | rewrite Hst; reflexivity].
    pose proof (keeps_refused _ _ _ _ _ _ O Hcl) as [O1 K1]; [discriminate|].
    apply (keeps_trans _ pr1); [split; assumption|].
    exact (keeps_sync _ _ O1 (proj1 (block_cases _ _ _ _ _ _ _ Hbl))).
  - (* cycle1 *)
    apply sync_same; cbn [uD_proto uD_stack]; [exact I | | rewrite Hst; reflexivity].
    apply (keeps_refused _ _ _ _ _ _ O Hcl). discriminate.
  - (* cycle2 *)
    apply sync_same; cbn [uD_proto uD_stack]; [exact I | | rewrite Hst; reflexivity].
    pose proof (keeps_refused _ _ _ _ _ _ O Hcl) as [O1 K1]; [discriminate|].
    apply (keeps_trans _ pr1); [split; assumption|].
    exact (keeps_sync _ _ O1 (proj1 (block_cases _ _ _ _ _ _ _ Hbl))).
  - (* woken *)
    apply sync_same; cbn [uD_proto uD_stack]; [exact I | | rewrite Hst; reflexivity].
    exact (keeps_sync _ _ O (proj1 (receive_cases _ _ _ _ _ Hrc))).
  - (* recheck_hit *) sync_quiet I O Hst.
  - (* recheck_sc *) sync_quiet I O Hst.
  - (* to_verify *) sync_quiet I O Hst.
  - (* exec_start *)
    apply sync_same; cbn [uD_proto uD_stack]; [exact I | exact (keeps_sync _ _ O eq_refl) | rewrite Hst].
    destruct Hph as [[-> _] | (l & ok & ->)]; reflexivity.
  - (* call_v *) sync_quiet I O Hst.
  - (* mark *) sync_quiet I O Hst.
  - (* call_x *) sync_quiet I O Hst.
  - (* publish *) sync_quiet I O Hst.
  - (* release_quiet *)
    destruct (remove_cases _ _ _ _ _ _ Hrm) as (_ & _ & Hsy).
    eapply sync_release; [exact I | exact Hst | exact Hsy | cbn [uD_stack]; apply hkeysD_deliver].
  - (* release_wake *)
    destruct (remove_cases _ _ _ _ _ _ Hrm) as (_ & _ & Hsy).
    eapply sync_release; [exact I | exact Hst | exact Hsy | reflexivity].
  - (* unblock *)
    apply sync_same; cbn [uD_proto uD_stack]; [exact I | | rewrite Hst, hkeysD_deliver; reflexivity].
    exact (keeps_sync _ _ O (proj1 (unblock_cases _ _ _ _ _ _ _ Hub))).
Qed.

End Pres.

Inductive creachD (fuel : nat) (Q : progD) (sc : bool) : cstateD -> Prop :=
| crD_init : creachD fuel Q sc cinitD
| crD_step s o s' : creachD fuel Q sc s -> gstepD fuel Q sc s o = Some s' -> creachD fuel Q sc s'.

Lemma syncD_init : SyncD cinitD.
Proof.
  constructor; cbn.
  - intros k st Hs. discriminate.
  - intros t f [].
  - intros t. constructor.
Qed.

Lemma idlebD_spec ts : idlebD ts = true -> thD_stack ts = [] /\ thD_todo ts = [] /\ thD_cycle ts = false.
Proof.
  unfold idlebD. destruct (thD_stack ts); [|discriminate]. destruct (thD_todo ts); [|discriminate].
  destruct (thD_cycle ts); [discriminate|]. auto.
Qed.

Lemma syncD_gstep fuel Q sc s o s' : SyncD s -> gstepD fuel Q sc s o = Some s' -> SyncD s'.
Proof.
  intros I. destruct o as [t c| |t ks]; cbn [gstepD].
  - unfold tstepD. destruct (mem t (cD_tids s)); [|discriminate].
    destruct (step_threadD fuel Q sc s t c) as [u|] eqn:Eu; [|discriminate]. intros [= <-].
    eapply pres_sync; eauto. eapply step_threadD_path; eauto.
  - destruct (forallb _ _); [|discriminate]. intros [= <-]. destruct I as [O H N]. constructor; auto.
  - destruct (idlebD (cD_thr s t)) eqn:Ei; [|discriminate]. intros [= <-].
    apply idlebD_spec in Ei as (Es & _). destruct I as [O H N].
    constructor; cbn [cD_proto]; auto.
    + intros t' f. unfold stackD. cbn [cD_thr]. unfold updN. destruct (N.eqb_spec t t') as [<-|Hne].
      * cbn. intros [].
      * apply H.
    + intros t'. unfold stackD. cbn [cD_thr]. unfold updN. destruct (N.eqb_spec t t') as [<-|Hne].
      * cbn. constructor.
      * apply N.
Qed.

Theorem creachD_sync fuel Q sc s : creachD fuel Q sc s -> SyncD s.
Proof. induction 1; [apply syncD_init | eapply syncD_gstep; eauto]. Qed.

Theorem claims_exclusiveD fuel Q sc s : creachD fuel Q sc s -> exclD s.
Proof. intros H. apply exclD_of_sync. eapply creachD_sync; eauto. Qed.
