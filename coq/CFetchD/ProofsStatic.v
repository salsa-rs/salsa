(* CFetchD/ProofsStatic.v — the value theorem WITH the durability short-cut ([sc = true]) for ALL
   durability levels (MEDIUM / HIGH windows included), any number of handles, for programs whose
   read paths do not depend on the revision ([static_paths]) and whose input durabilities do not
   change ([const_dur]).

   Such a program has static semantic levels: the minimum durability over the inputs a key reads,
   transitively, is the same in every revision.  The theorems are those of CFetchD/ProofsLevels.v
   at that level map. *)
From Salsa Require Import Base.
From Salsa.Proto Require Import Model.
From Salsa.CFetch Require Import Model.
From Salsa.CFetchD Require Import Model ProofsRel ProofsSync ProofsVal ProofsWindow ProofsLevels.

Section Static.
Variable fuel : nat.
Variable Q : progD.
Variable rank : key -> nat.

Notation Ev := (ED Q rank).
Notation path r k := (readsb (Ev r) (d_in Q r) (d_body Q k)).

Definition static_paths : Prop := forall r r' k, path r k = path r' k.
Definition const_dur : Prop := forall r r' i, d_idur Q r i = d_idur Q r' i.
(* [lc_mono] of CFetchD/ProofsLevels.v, which stands inside a section over the level map *)
Definition lc_mono : Prop := forall r r' d, r <= r' -> d_lc Q r d <= d_lc Q r' d.

(* the level of a key, computed along the rank from the paths and durabilities of revision 0 *)
Fixpoint levf (n : nat) (k : key) : dur :=
  match n with
  | O => DUR_MAX
  | S n' => levl Q (levf n') 0 (path 0 k)
  end.

Definition lev (k : key) : dur := levf (S (rank k)) k.

Lemma levl_ext L L' r r' : forall l,
  (forall e, In e l -> elev Q L r e = elev Q L' r' e) -> levl Q L r l = levl Q L' r' l.
Proof.
  induction l as [|e l IH]; intros H; [reflexivity|]. cbn [levl fold_right].
  rewrite (H e (or_introl eq_refl)). f_equal. apply IH. intros e' He'. apply H. now right.
Qed.

Lemma levf_stable : rankedD Q rank -> forall n m k, (rank k < n)%nat -> (rank k < m)%nat -> levf n k = levf m k.
Proof.
  intros RK. induction n as [|n IH]; intros m k Hn Hm; [lia|].
  destruct m as [|m]; [lia|]. cbn [levf]. apply levl_ext. intros [i|c] He; cbn [elev]; [reflexivity|].
  pose proof (readsb_ranked rank (d_in Q 0) (Ev 0) (rank k) (d_body Q k) (RK k) c He) as Hc.
  apply IH; [clear -Hc Hn | clear -Hc Hm]; lia.
Qed.

Lemma static_levels_lev : rankedD Q rank -> static_paths -> const_dur -> static_levels Q rank lev.
Proof.
  intros RK SP CD r k. unfold lev at 1. cbn [levf]. rewrite (SP r 0 k).
  apply levl_ext. intros [i|c] He; cbn [elev]; [apply CD|].
  pose proof (readsb_ranked rank (d_in Q 0) (Ev 0) (rank k) (d_body Q k) (RK k) c He) as Hc.
  apply (levf_stable RK); lia.
Qed.

(* with the short-cut on: every value a request returns is the from-scratch value of its revision *)
Theorem values_computed_shortcut s t k r v :
  rankedD Q rank -> stampsD_ok Q -> no_never Q -> static_paths -> const_dur -> lc_antitone Q -> lc_mono -> write_rule Q -> creachD fuel Q true s ->
  In (ERet t k r v) (cD_log s) -> v = Ev r k.
Proof.
  intros RK SK NN SP CD LA LM WR.
  exact (ProofsLevels.values_computed_shortcut fuel Q rank lev s t k r v RK SK NN (static_levels_lev RK SP CD) LA LM WR).
Qed.

(* ... and every memo carries the from-scratch value of its verified_at, also when verified_at was
   stored by the short-cut *)
Theorem memo_sound_shortcut s k m :
  rankedD Q rank -> stampsD_ok Q -> no_never Q -> static_paths -> const_dur -> lc_antitone Q -> lc_mono -> write_rule Q -> creachD fuel Q true s ->
  cD_memo s k = Some m -> o_val m = Ev (o_ver m) k.
Proof.
  intros RK SK NN SP CD LA LM WR.
  exact (ProofsLevels.memo_sound_shortcut fuel Q rank lev s k m RK SK NN (static_levels_lev RK SP CD) LA LM WR).
Qed.

End Static.
