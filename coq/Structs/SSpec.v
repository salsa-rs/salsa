(* Structs/SSpec.v — the memo-free value Ew of a consistent world IS what the operational
   from-scratch evaluator of Structs/Spec.v computes (Spec.spec_get: one evaluation on a fresh
   database, handles = interned canonical names (creator, identity value, occurrence)), whenever
   that evaluation answers: same data value, and the i-th returned struct of the world is the
   creation that the i-th canonical name of the evaluator denotes. *)
From Coq Require Import Arith.
From Salsa Require Import Base.
From Salsa.Structs Require Import Model ProofsBase Spec Machine SSem SInv SRun STop SParamK.

(* ---------------------------------------------------------------- the evaluator only adds names *)
Definition ext (s s' : sstate) : Prop := exists rest, ss_names s' = ss_names s ++ rest.

Lemma ext_refl s : ext s s.
Proof. exists []. rewrite app_nil_r. reflexivity. Qed.
Lemma ext_trans a b c : ext a b -> ext b c -> ext a c.
Proof. intros [r1 E1] [r2 E2]. exists (r1 ++ r2). rewrite E2, E1, app_assoc. reflexivity. Qed.
Lemma ext_names a b : ss_names b = ss_names a -> ext a b.
Proof. intros E. exists []. rewrite app_nil_r. exact E. Qed.

Section Ext.
Variable prog : qk -> body.
Variable skind : N -> bool.
Variable sn : snapshot.

Lemma srun_ext (ev : qk -> SM rval) : (forall c s s' x, ev c s = (s', x) -> ext s s') ->
  forall b q lf s s' x, srun skind sn ev q b lf s = (s', x) -> ext s s'.
Proof.
  intros Hev. induction b as [v hs | i k IH | c k IH | c k IH | k IH | idv f0 f1 k IH | h f k IH | h k IH | fam h v k IH];
    intros q lf s s' x H; cbn [srun] in H.
  - injection H as <- _. apply ext_refl.
  - exact (IH _ _ _ _ _ _ H).
  - unfold sbind in H. destruct (ev c s) as [s1 [r | p |]] eqn:E1.
    + exact (ext_trans _ _ _ (Hev _ _ _ _ E1) (IH _ _ _ _ _ _ H)).
    + injection H as <- _. exact (Hev _ _ _ _ E1).
    + injection H as <- _. exact (Hev _ _ _ _ E1).
  - exact (IH _ _ _ _ _ _ H).
  - exact (IH _ _ _ _ _ H).
  - destruct (find_name (ss_names s) _ 0) as [i|].
    + refine (ext_trans _ _ _ _ (IH _ _ _ _ _ _ H)). apply ext_names. reflexivity.
    + refine (ext_trans _ _ _ _ (IH _ _ _ _ _ _ H)). eexists. reflexivity.
  - destruct (fields_get (ss_fields s) (fst h)) as [[a0 a1] a2]. exact (IH _ _ _ _ _ _ H).
  - destruct (fields_get (ss_fields s) (fst h)) as [[a0 a1] a2]. exact (IH _ _ _ _ _ _ H).
  - destruct (negb (existsb (handle_eqb h) (sf_own lf))); [injection H as <- _; apply ext_refl|].
    destruct (done_get (ss_done s) (fam, h)) as [[r [|]]|].
    + destruct (existsb (qk_eqb (fam, h)) (sf_assigned lf)); [injection H as <- _; apply ext_refl | exact (IH _ _ _ _ _ H)].
    + refine (ext_trans _ _ _ _ (IH _ _ _ _ _ H)). apply ext_names. reflexivity.
    + refine (ext_trans _ _ _ _ (IH _ _ _ _ _ H)). apply ext_names. reflexivity.
Qed.

Lemma seval_ext : forall n c s s' x, seval prog skind sn n c s = (s', x) -> ext s s'.
Proof.
  induction n as [|n IH]; intros c s s' x H; cbn [seval] in H.
  - injection H as <- _. apply ext_refl.
  - destruct (done_get (ss_done s) c) as [[r b]|]; [injection H as <- _; apply ext_refl|].
    destruct (srun skind sn (seval prog skind sn n) c (prog c) sframe0 s) as [s1 [r | p |]] eqn:E1;
      pose proof (srun_ext _ IH _ _ _ _ _ _ E1) as X.
    + destruct (done_get (ss_done s1) c) as [[r' b']|]; injection H as <- _; [exact X|].
      refine (ext_trans _ _ _ X _). apply ext_names. reflexivity.
    + injection H as <- _. exact X.
    + injection H as <- _. exact X.
Qed.
End Ext.

(* ---------------------------------------------------------------- occurrences by identity value *)
Fixpoint occ_count (x : val) (t : list rd) : N :=
  match t with
  | [] => 0
  | RNew _ idv _ _ :: t' => (if idv =? x then 1 else 0) + occ_count x t'
  | _ :: t' => occ_count x t'
  end.

Lemma occ_count_app x t1 t2 : occ_count x (t1 ++ t2) = occ_count x t1 + occ_count x t2.
Proof. induction t1 as [|r t1 IH]; [reflexivity|]. cbn [app occ_count]. destruct r; rewrite IH; try reflexivity. apply N.add_assoc. Qed.

Lemma split_occ_unique : forall (t pre : list rd) id idv f0 f1 post pre' id' f0' f1' post',
  t = pre ++ RNew id idv f0 f1 :: post -> t = pre' ++ RNew id' idv f0' f1' :: post' ->
  occ_count idv pre = occ_count idv pre' -> pre = pre' /\ id = id' /\ f0 = f0' /\ f1 = f1'.
Proof.
  intros t pre. revert t. induction pre as [|a pre IH]; intros t id idv f0 f1 post pre' id' f0' f1' post' E E' Hc.
  - destruct pre' as [|a' pre'].
    + cbn in E, E'. rewrite E in E'. injection E' as <- <- <- _. auto.
    + exfalso. cbn in E, E'. rewrite E in E'. injection E' as <- _. cbn [occ_count] in Hc. rewrite N.eqb_refl in Hc. lia.
  - destruct pre' as [|a' pre'].
    + exfalso. cbn in E, E'. rewrite E in E'. injection E' as -> _. cbn [occ_count] in Hc. rewrite N.eqb_refl in Hc. lia.
    + cbn [app] in E, E'. rewrite E in E'. injection E' as <- E'.
      destruct (IH _ id idv f0 f1 post pre' id' f0' f1' post' eq_refl E') as (A & B).
      * cbn [occ_count] in Hc. destruct a; lia.
      * subst pre'. auto.
Qed.

(* ---------------------------------------------------------------- the simulation *)
Section SpecSim.
Variable prog : qk -> body.
Variable skind : N -> bool.
Variable idhash : val -> N.
Variable rank : qk -> nat.
Hypothesis Hrank : calls_below prog rank.
Variable NF : nat.
Hypothesis Hbound : forall q, (rank q < NF)%nat.
Hypothesis Hpar : parametricK prog.
Hypothesis Hnk : forall f, skind f = false.
Hypothesis Hgk : forall q d, calls (prog q) d -> gk d.

Notation Ew := (Ew idhash prog NF).
Notation trw := (trw idhash prog NF).
Notation envw := (envw idhash prog NF).
Notation clos := (clos idhash prog NF).
Notation wcons := (wcons prog idhash NF).

Variable w : world.
Variable q0 : qk.
Hypothesis Hg0 : gk q0.
Hypothesis Hc : wcons w q0.

Definition snw : snapshot := {| sn_in := w_in w; sn_cell := w_cell w |}.

Definition cname_of (d : qk) (idv : val) (occ : N) : cname := CN (fst d) (KIn (fst (snd d))) idv occ.

(* the struct h of the world is the creation named nm: made by d, with identity value idv, as the
   occ-th creation of d with that identity value *)
Definition cre (d : qk) (nm : cname) (h : handle) : Prop :=
  exists pre id idv f0 f1 post, trw w d = pre ++ RNew id idv f0 f1 :: post /\
    nm = cname_of d idv (occ_count idv pre) /\ h = w_alloc w d id.

Lemma cre_unique d d' nm h h' : gk d -> gk d' -> cre d nm h -> cre d' nm h' -> d = d' /\ h = h'.
Proof.
  intros Hg Hg' (pre & id & idv & f0 & f1 & post & Et & En & Eh) (pre' & id' & idv' & f0' & f1' & post' & Et' & En' & Eh').
  rewrite En in En'. unfold cname_of in En'. injection En' as E1 E2 E3 E4.
  assert (d = d').
  { destruct d as [f [i g]], d' as [f' [i' g']]. unfold gk in *. cbn in *. subst. reflexivity. }
  subst d' idv'. split; [reflexivity|].
  destruct (split_occ_unique _ pre id idv f0 f1 post pre' id' f0' f1' post' Et Et' E4) as (_ & <- & _).
  congruence.
Qed.

Lemma cre_slot d nm h : clos w q0 d -> cre d nm h -> exists idv f0 f1, w_slot w h = (idv, f0, f1) /\
  exists pre id post, trw w d = pre ++ RNew id idv f0 f1 :: post /\ nm = cname_of d idv (occ_count idv pre) /\ h = w_alloc w d id.
Proof.
  intros Q (pre & id & idv & f0 & f1 & post & Et & En & Eh). exists idv, f0, f1. split.
  - rewrite Eh. apply (Hc d Q id idv f0 f1). rewrite Et. apply in_or_app. right. left. reflexivity.
  - exists pre, id, post. auto.
Qed.

Section Final.
Variable Nf : list cname.       (* the names of the final evaluator state *)

Definition Rm (m : nat) (sh h : handle) : Prop :=
  snd sh = 0 /\ (N.to_nat (fst sh) < m)%nat /\
  exists d nm, clos w q0 d /\ nth_error Nf (N.to_nat (fst sh)) = Some nm /\ cre d nm h.

Lemma Rm_mono m m' h h' : (m <= m')%nat -> Rm m h h' -> Rm m' h h'.
Proof. intros L (A & B & C). split; [exact A|]. split; [lia | exact C]. Qed.

Definition pre_of (st : sstate) : Prop := exists rest, Nf = ss_names st ++ rest.

Lemma pre_of_ext st st' : ext st st' -> pre_of st' -> pre_of st.
Proof. intros [r1 E1] [r2 E2]. exists (r1 ++ r2). rewrite E2, E1, app_assoc. reflexivity. Qed.

Record Inv (st : sstate) : Prop := {
  iv_fld : forall i nm d h, nth_error (ss_names st) i = Some nm -> clos w q0 d -> cre d nm h ->
           fields_get (ss_fields st) (N.of_nat i) = w_slot w h;
  iv_done : forall d r b, done_get (ss_done st) d = Some (r, b) ->
            clos w q0 d /\ rrelK Rm (length (ss_names st)) r (Ew w d)
}.

Lemma rrelK_mono m m' r r' : (m <= m')%nat -> rrelK Rm m r r' -> rrelK Rm m' r r'.
Proof. intros L [A B]. split; [exact A | exact (forall2_mono Rm Rm_mono m m' _ _ L B)]. Qed.

Lemma find_name_spec : forall l c k i, find_name l c k = Some i ->
  exists j, i = k + N.of_nat j /\ exists c', nth_error l j = Some c' /\ cname_eqb c' c = true.
Proof.
  induction l as [|x l IH]; intros c k i H; cbn [find_name] in H; [discriminate|].
  destruct (cname_eqb x c) eqn:E.
  - injection H as <-. exists 0%nat. split; [cbn; lia|]. exists x. auto.
  - destruct (IH c (k + 1) i H) as (j & Ei & c' & Hn & Ec). exists (S j). split; [lia|]. exists c'. auto.
Qed.

Lemma cname_eqb_eq : forall a b, cname_eqb a b = true -> a = b
with ckey_eqb_eq : forall a b, ckey_eqb a b = true -> a = b.
Proof.
  - intros [f k v o] [f' k' v' o']. cbn [cname_eqb]. intros H.
    apply andb_true_iff in H. destruct H as [H Ho]. apply andb_true_iff in H. destruct H as [H Hv].
    apply andb_true_iff in H. destruct H as [Hf Hk].
    apply N.eqb_eq in Hf, Hv, Ho. apply ckey_eqb_eq in Hk. subst. reflexivity.
  - intros [i | c] [j | d]; cbn [ckey_eqb]; intros H; try discriminate.
    + apply N.eqb_eq in H. subst. reflexivity.
    + apply cname_eqb_eq in H. subst. reflexivity.
Qed.

Lemma related_fields m sh h st st' : Rm m sh h -> m = length (ss_names st) -> Inv st -> ext st st' -> pre_of st' ->
  fields_get (ss_fields st) (fst sh) = w_slot w h.
Proof.
  intros (_ & Hlt & d0 & nm0 & Q0 & Hn0 & Hc0) Em I X2 Hpre.
  rewrite <- (N2Nat.id (fst sh)). apply (iv_fld _ I _ nm0 d0 h); [|exact Q0 | exact Hc0].
  destruct (pre_of_ext _ _ X2 Hpre) as [rest Epre]. rewrite Epre in Hn0.
  rewrite nth_error_app1 in Hn0 by lia. exact Hn0.
Qed.

Lemma Inv_interned st j nm d he x : Inv st -> gk d -> nth_error (ss_names st) j = Some nm -> cre d nm he ->
  w_slot w he = x ->
  Inv {| ss_names := ss_names st; ss_fields := (N.of_nat j, x) :: ss_fields st;
         ss_done := ss_done st; ss_ignored := ss_ignored st |}.
Proof.
  intros I Hgd Hn Hcre Hslot. constructor.
  - intros i0 nm0 d0 h0 Hn0 Q0 Hc0. cbn [ss_names ss_fields fields_get] in *.
    destruct (N.eqb_spec (N.of_nat j) (N.of_nat i0)) as [E | Hne].
    + apply Nat2N.inj in E. subst i0. rewrite Hn in Hn0. injection Hn0 as <-.
      destruct (cre_unique d d0 nm he h0 Hgd (clos_gk prog idhash NF Hgk w q0 d0 Hg0 Q0) Hcre Hc0) as [_ <-].
      symmetry. exact Hslot.
    + exact (iv_fld _ I i0 nm0 d0 h0 Hn0 Q0 Hc0).
  - exact (iv_done _ I).
Qed.

Lemma Inv_new_name st nm d he x : Inv st -> gk d -> cre d nm he -> w_slot w he = x ->
  Inv {| ss_names := ss_names st ++ [nm]; ss_fields := (N.of_nat (length (ss_names st)), x) :: ss_fields st;
         ss_done := ss_done st; ss_ignored := ss_ignored st |}.
Proof.
  intros I Hgd Hcre Hslot. constructor.
  - intros i0 nm0 d0 h0 Hn0 Q0 Hc0. cbn [ss_names ss_fields fields_get] in *.
    destruct (N.eqb_spec (N.of_nat (length (ss_names st))) (N.of_nat i0)) as [E | Hne].
    + apply Nat2N.inj in E. subst i0. rewrite nth_error_app2 in Hn0 by lia. rewrite Nat.sub_diag in Hn0. injection Hn0 as <-.
      destruct (cre_unique d d0 nm he h0 Hgd (clos_gk prog idhash NF Hgk w q0 d0 Hg0 Q0) Hcre Hc0) as [_ <-].
      symmetry. exact Hslot.
    + assert (Hlt : (i0 < length (ss_names st))%nat).
      { assert (i0 < length (ss_names st ++ [nm]))%nat by (apply nth_error_Some; rewrite Hn0; discriminate).
        rewrite app_length in H. cbn in H. assert (i0 <> length (ss_names st)) by (intros ->; apply Hne; reflexivity). lia. }
      rewrite nth_error_app1 in Hn0 by exact Hlt.
      exact (iv_fld _ I i0 nm0 d0 h0 Hn0 Q0 Hc0).
  - intros d0 r0 b0 Hd0. destruct (iv_done _ I d0 r0 b0 Hd0) as [A B]. split; [exact A|].
    cbn [ss_names]. apply (rrelK_mono (length (ss_names st))); [rewrite app_length; lia | exact B].
Qed.

Section Ev.
Variable ev : qk -> SM rval.
Hypothesis Hev_ext : forall c s s' x, ev c s = (s', x) -> ext s s'.
Hypothesis Hev : forall c st st' r, clos w q0 c -> Inv st -> ev c st = (st', SOk r) -> pre_of st' ->
  Inv st' /\ rrelK Rm (length (ss_names st')) r (Ew w c).

Definition sim_ok (m : nat) (b b' : body) : Prop :=
  forall d done dis lf st st' r, clos w q0 d -> gk d -> m = length (ss_names st) ->
  trw w d = done ++ trace idhash (envw w d) b' dis ->
  (forall x, cnt_get (sf_occ lf) x = occ_count x done) ->
  Inv st -> srun skind snw ev d b lf st = (st', SOk r) -> pre_of st' ->
  Inv st' /\ rrelK Rm (length (ss_names st')) r (run idhash (envw w d) b' dis).

(* a creation: the evaluator interns the canonical name, the world's allocator names the struct *)
Lemma sim_new m idv f0 f1 k k' :
  (forall m' h h', (m <= m')%nat -> Rm m' h h' -> sim_ok m' (k h) (k' h')) ->
  sim_ok m (NewStruct idv f0 f1 k) (NewStruct idv f0 f1 k').
Proof.
  intros IHk d done dis lf st st' r Q Hgd Em Et Hocc I H Hpre; cbn [srun] in H; cbn [run trace] in *.
  unfold ckey_spec in H. rewrite Hnk in H.
  set (nm := CN (fst d) (KIn (fst (snd d))) idv (cnt_get (sf_occ lf) idv)) in *.
  set (id := nident idhash dis idv) in *.
  set (he := w_alloc w d id).
  assert (Hcre : cre d nm he).
  { exists done, id, idv, f0, f1, (trace idhash (envw w d) (k' (e_new (envw w d) id)) (cnt_bump dis (idhash idv))).
    split; [exact Et|]. split; [|reflexivity]. unfold nm, cname_of. rewrite Hocc. reflexivity. }
  assert (Hslot : w_slot w he = (idv, f0, f1)).
  { apply (Hc d Q id idv f0 f1). rewrite Et. apply in_or_app. right. left. reflexivity. }
  assert (Hocc' : forall x, cnt_get (cnt_bump (sf_occ lf) idv) x = occ_count x (done ++ [RNew id idv f0 f1])).
  { intros x. rewrite occ_count_app. cbn [occ_count]. destruct (N.eqb_spec idv x) as [<- | Hne].
    - rewrite cnt_get_bump_same, Hocc. lia.
    - rewrite cnt_get_bump_other by exact Hne. rewrite Hocc. lia. }
  assert (Et1 : trw w d = (done ++ [RNew id idv f0 f1]) ++ trace idhash (envw w d) (k' he) (cnt_bump dis (idhash idv))).
  { rewrite <- app_assoc. exact Et. }
  destruct (find_name (ss_names st) nm 0) as [i|] eqn:Ef.
  - (* the name is interned already: same handle, fields rewritten *)
    destruct (find_name_spec _ _ _ _ Ef) as (j & Ei & c' & Hn & Ec). apply cname_eqb_eq in Ec. subst c'.
    assert (Ei' : i = N.of_nat j) by lia. subst i.
    set (st1 := {| ss_names := ss_names st; ss_fields := (N.of_nat j, (idv, f0, f1)) :: ss_fields st;
                   ss_done := ss_done st; ss_ignored := ss_ignored st |}) in *.
    pose proof (srun_ext skind snw ev Hev_ext _ _ _ _ _ _ H) as X2.
    pose proof (pre_of_ext _ _ X2 Hpre) as [rest Epre]. cbn [ss_names st1] in Epre.
    assert (Hj : (j < m)%nat) by (rewrite Em; apply nth_error_Some; rewrite Hn; discriminate).
    assert (HR : Rm m (N.of_nat j, 0) he).
    { split; [reflexivity|]. cbn [fst]. rewrite Nat2N.id. split; [exact Hj|].
      exists d, nm. split; [exact Q|]. split; [|exact Hcre]. rewrite Epre. rewrite nth_error_app1; [exact Hn|].
      apply nth_error_Some. rewrite Hn. discriminate. }
    apply (IHk m (N.of_nat j, 0) he (le_n _) HR d (done ++ [RNew id idv f0 f1]) (cnt_bump dis (idhash idv))
             {| sf_occ := cnt_bump (sf_occ lf) idv; sf_own := (N.of_nat j, 0) :: sf_own lf; sf_assigned := sf_assigned lf |}
             st1 st' r Q Hgd Em); auto.
    exact (Inv_interned st j nm d he (idv, f0, f1) I Hgd Hn Hcre Hslot).
  - (* a new name *)
    set (st1 := {| ss_names := ss_names st ++ [nm]; ss_fields := (N.of_nat (length (ss_names st)), (idv, f0, f1)) :: ss_fields st;
                   ss_done := ss_done st; ss_ignored := ss_ignored st |}) in *.
    pose proof (srun_ext skind snw ev Hev_ext _ _ _ _ _ _ H) as X2.
    pose proof (pre_of_ext _ _ X2 Hpre) as [rest Epre]. cbn [ss_names st1] in Epre.
    assert (Em1 : S m = length (ss_names st1)) by (cbn [ss_names st1]; rewrite app_length; cbn; lia).
    assert (HR : Rm (S m) (N.of_nat (length (ss_names st)), 0) he).
    { split; [reflexivity|]. cbn [fst]. rewrite Nat2N.id. split; [lia|].
      exists d, nm. split; [exact Q|]. split; [|exact Hcre]. rewrite Epre, <- app_assoc.
      rewrite nth_error_app2 by lia. rewrite Nat.sub_diag. reflexivity. }
    apply (IHk (S m) _ he (le_S _ _ (le_n _)) HR d (done ++ [RNew id idv f0 f1]) (cnt_bump dis (idhash idv))
             {| sf_occ := cnt_bump (sf_occ lf) idv; sf_own := (N.of_nat (length (ss_names st)), 0) :: sf_own lf; sf_assigned := sf_assigned lf |}
             st1 st' r Q Hgd Em1); auto.
    exact (Inv_new_name st nm d he (idv, f0, f1) I Hgd Hcre Hslot).
Qed.

Lemma srun_sim : forall m b b', brelK Rm m b b' ->
  forall d done dis lf st st' r, clos w q0 d -> gk d -> m = length (ss_names st) ->
  trw w d = done ++ trace idhash (envw w d) b' dis ->
  (forall x, cnt_get (sf_occ lf) x = occ_count x done) ->
  Inv st -> srun skind snw ev d b lf st = (st', SOk r) -> pre_of st' ->
  Inv st' /\ rrelK Rm (length (ss_names st')) r (run idhash (envw w d) b' dis).
Proof.
  intros m b b' Hb.
  induction Hb as [m v hs hs' Hhs | m i k k' Hk IHk | m c k k' Hk IHk | m c k k' Hk IHk | m k k' Hk IHk
                   | m idv f0 f1 k k' Hk IHk | m sh h f k k' Hh Hk IHk | m sh h k k' Hh Hk IHk];
    intros d done dis lf st st' r Q Hgd Em Et Hocc I H Hpre; cbn [srun] in H; cbn [run trace] in *.
  - injection H as <- <-. split; [exact I|]. split; [reflexivity|]. rewrite <- Em. exact Hhs.
  - apply (IHk _ d (done ++ [RIn i]) dis lf st st' r Q Hgd Em); auto.
    + rewrite <- app_assoc. exact Et.
    + intros x. rewrite occ_count_app. cbn. rewrite Hocc. lia.
  - unfold sbind in H. destruct (ev c st) as [st2 [rc | p |]] eqn:E1; try discriminate.
    assert (Qc : clos w q0 c).
    { eapply clos_right; [exact Q|]. rewrite Et. apply in_or_app. right. left. reflexivity. }
    pose proof (Hev_ext _ _ _ _ E1) as X1.
    pose proof (srun_ext skind snw ev Hev_ext _ _ _ _ _ _ H) as X2.
    destruct (Hev c st st2 rc Qc I E1 (pre_of_ext _ _ X2 Hpre)) as [I2 Hr].
    assert (L : (m <= length (ss_names st2))%nat).
    { destruct X1 as [rest E]. rewrite E, app_length. lia. }
    apply (IHk (length (ss_names st2)) rc (Ew w c) L Hr d (done ++ [RQ c]) dis lf st2 st' r Q Hgd eq_refl); auto.
    + rewrite <- app_assoc. exact Et.
    + intros x. rewrite occ_count_app. cbn. rewrite Hocc. lia.
  - apply (IHk _ d (done ++ [RCell c]) dis lf st st' r Q Hgd Em); auto.
    + rewrite <- app_assoc. exact Et.
    + intros x. rewrite occ_count_app. cbn. rewrite Hocc. lia.
  - apply (IHk d (done ++ [RTouch]) dis lf st st' r Q Hgd Em); auto.
    + rewrite <- app_assoc. exact Et.
    + intros x. rewrite occ_count_app. cbn. rewrite Hocc. lia.
  - exact (sim_new m idv f0 f1 k k' IHk d done dis lf st st' r Q Hgd Em Et Hocc I H Hpre).
  - (* a tracked field *)
    destruct (fields_get (ss_fields st) (fst sh)) as [[b0 b1] b2] eqn:Efg.
    pose proof (related_fields m sh h st st' Hh Em I (srun_ext skind snw ev Hev_ext _ _ _ _ _ _ H) Hpre) as Hfl.
    rewrite Efg in Hfl. cbn [envw mkenv e_slot] in *. rewrite <- Hfl in *.
    change (if f =? 0 then b1 else b2) with (fld3 (b0, b1, b2) f) in H.
    apply (IHk _ d (done ++ [RFld h f]) dis lf st st' r Q Hgd Em); auto.
    + rewrite <- app_assoc. exact Et.
    + intros x. rewrite occ_count_app. cbn. rewrite Hocc. lia.
  - (* the identity field *)
    destruct (fields_get (ss_fields st) (fst sh)) as [[b0 b1] b2] eqn:Efg.
    pose proof (related_fields m sh h st st' Hh Em I (srun_ext skind snw ev Hev_ext _ _ _ _ _ _ H) Hpre) as Hfl.
    rewrite Efg in Hfl. cbn [envw mkenv e_slot] in *. rewrite <- Hfl in *.
    change b0 with (idv3 (b0, b1, b2)) in H.
    apply (IHk _ d (done ++ [RIdf h]) dis lf st st' r Q Hgd Em); auto.
    + rewrite <- app_assoc. exact Et.
    + intros x. rewrite occ_count_app. cbn. rewrite Hocc. lia.
Qed.
End Ev.

Lemma seval_sim : forall n c st st' r, clos w q0 c -> Inv st -> seval prog skind snw n c st = (st', SOk r) -> pre_of st' ->
  Inv st' /\ rrelK Rm (length (ss_names st')) r (Ew w c).
Proof.
  induction n as [|n IH]; intros c st st' r Q I H Hpre; cbn [seval] in H; [discriminate|].
  destruct (done_get (ss_done st) c) as [[r0 b0]|] eqn:Ed.
  - injection H as <- <-. split; [exact I|]. exact (proj2 (iv_done _ I c r0 b0 Ed)).
  - destruct (srun skind snw (seval prog skind snw n) c (prog c) sframe0 st) as [s1 [r1 | p |]] eqn:E1; try discriminate.
    assert (Hpre1 : pre_of s1).
    { destruct (done_get (ss_done s1) c) as [[r' b']|]; injection H as <- _; [exact Hpre|].
      destruct Hpre as [rest E]. exists rest. exact E. }
    destruct (srun_sim (seval prog skind snw n) (seval_ext prog skind snw n) IH (length (ss_names st)) (prog c) (prog c)
                (Hpar Rm Rm_mono _ c) c [] [] sframe0 st s1 r1 Q (clos_gk prog idhash NF Hgk w q0 c Hg0 Q) eq_refl eq_refl
                (fun x => eq_refl) I E1 Hpre1) as [I1 Hr1].
    rewrite <- (Ew_unfold Hrank Hbound) in Hr1.
    destruct (done_get (ss_done s1) c) as [[r' b']|] eqn:Ed1; injection H as <- <-.
    + split; [exact I1|]. exact (proj2 (iv_done _ I1 c r' b' Ed1)).
    + split; [|exact Hr1]. constructor.
      * exact (iv_fld _ I1).
      * intros d r0 b0. cbn [ss_done done_get ss_names]. destruct (qk_eqb c d) eqn:Eq.
        -- apply qk_eqb_eq in Eq. subst d. intros E0. injection E0 as <- _. split; [exact Q | exact Hr1].
        -- exact (iv_done _ I1 d r0 b0).
Qed.
End Final.

(* ---------------------------------------------------------------- the evaluator computes Ew *)
Theorem spec_get_is_Ew n x names :
  spec_get prog skind snw n q0 = SOk (x, names) ->
  x = fst (Ew w q0) /\
  Forall2 (fun onm h => exists nm d, onm = Some nm /\ clos w q0 d /\ cre d nm h) names (snd (Ew w q0)).
Proof.
  unfold spec_get. destruct (seval prog skind snw n q0 ss0) as [sf [r | p |]] eqn:E; try discriminate.
  intros H. injection H as <- <-.
  assert (I0 : Inv (ss_names sf) ss0).
  { constructor; [intros [|i] nm d h Hn; discriminate | intros d r0 b0 Hd; discriminate]. }
  destruct (seval_sim (ss_names sf) n q0 ss0 sf r (clos_refl _ _ _ _ _) I0 E) as [_ [Hv Hh]].
  { exists []. rewrite app_nil_r. reflexivity. }
  split; [exact Hv|].
  unfold names_of. induction Hh as [|sh h l l' (A & B & d & nm & Q & Hn & Hcr) Hl IH]; cbn [map]; constructor; [|exact IH].
  exists nm, d. auto.
Qed.

End SpecSim.

(* ---------------------------------------------------------------- the evaluator answers *)
Section Total.
Variable prog : qk -> body.
Variable skind : N -> bool.
Variable sn : snapshot.
Variable rank : qk -> nat.
Hypothesis Hrank : calls_below prog rank.
Hypothesis Hns : forall q, nospec (prog q).

Lemma srun_total (ev : qk -> SM rval) : forall b, nospec b ->
  (forall c, calls b c -> forall s, exists s' r, ev c s = (s', SOk r)) ->
  forall q lf s, exists s' r, srun skind sn ev q b lf s = (s', SOk r).
Proof.
  intros b Hb. induction Hb as [v hs | i k Hk IH | c k Hk IH | c k Hk IH | k Hk IH | idv f0 f1 k Hk IH | h f k Hk IH | h k Hk IH];
    intros Hev q lf s; cbn [srun].
  - eexists _, _. reflexivity.
  - apply IH. intros c Hc. apply Hev. eapply calls_in_rdin. exact Hc.
  - unfold sbind. destruct (Hev c (calls_here c k) s) as (s1 & r1 & E1). rewrite E1.
    apply IH. intros c' Hc. apply Hev. eapply calls_in_call. exact Hc.
  - apply IH. intros c' Hc. apply Hev. eapply calls_in_cell. exact Hc.
  - apply IH. intros c' Hc. apply Hev. eapply calls_in_touch. exact Hc.
  - destruct (find_name (ss_names s) _ 0); apply IH; intros c' Hc; apply Hev; eapply calls_in_new; exact Hc.
  - destruct (fields_get (ss_fields s) (fst h)) as [[a0 a1] a2]. apply IH. intros c' Hc. apply Hev. eapply calls_in_field. exact Hc.
  - destruct (fields_get (ss_fields s) (fst h)) as [[a0 a1] a2]. apply IH. intros c' Hc. apply Hev. eapply calls_in_idfield. exact Hc.
Qed.

Lemma seval_total : forall n c, (rank c < n)%nat -> forall s, exists s' r, seval prog skind sn n c s = (s', SOk r).
Proof.
  induction n as [|n IH]; intros c Hn s; [inversion Hn|]. cbn [seval].
  destruct (done_get (ss_done s) c) as [[r b]|]; [eexists _, _; reflexivity|].
  destruct (srun_total (seval prog skind sn n) (prog c) (Hns c)) with (q := c) (lf := sframe0) (s := s) as (s1 & r1 & E1).
  - intros c' Hc s0. apply IH. pose proof (Hrank _ _ Hc). lia.
  - rewrite E1. destruct (done_get (ss_done s1) c) as [[r' b']|]; eexists _, _; reflexivity.
Qed.

Lemma spec_get_total n q : (rank q < n)%nat -> exists x names, spec_get prog skind sn n q = SOk (x, names).
Proof.
  intros Hn. unfold spec_get. destruct (seval_total n q Hn ss0) as (s' & r & E). rewrite E. eexists _, _. reflexivity.
Qed.
End Total.
