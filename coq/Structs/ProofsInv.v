(* Structs/ProofsInv.v — the ownership invariant OInv of the Structs machine and the
   preservation lemmas for the elementary state changes. *)
From Salsa Require Import Base.
From Salsa.Kern Require Import CoreK.
From Salsa.Structs Require Import Model ProofsBase ProofsCascade Machine.

(* ---- frames as an association list ---- *)
Lemma find_frame_in F q fr : find_frame F q = Some fr -> In (q, fr) F.
Proof.
  induction F as [|[q' fr'] F IH]; cbn [find_frame]; [discriminate|].
  destruct (qk_eqb q' q) eqn:E.
  - apply qk_eqb_eq in E. subst. intros H; injection H as <-. left; reflexivity.
  - intros H. right. exact (IH H).
Qed.

Definition flocs (F : frames) : list loc := map (fun qf => loc_of (fst qf)) F.

Lemma flocs_set_frame F q fr : flocs (set_frame F q fr) = flocs F.
Proof.
  unfold flocs. induction F as [|[q' fr'] F IH]; cbn [set_frame map]; [reflexivity|].
  destruct (qk_eqb q' q); cbn [map fst]; [reflexivity | now rewrite IH].
Qed.

Lemma in_frames_loc F q fr : In (q, fr) F -> In (loc_of q) (flocs F).
Proof. intros H. unfold flocs. apply in_map_iff. exists (q, fr). auto. Qed.

Lemma frames_fun_loc F q1 q2 fr1 fr2 :
  NoDup (flocs F) -> In (q1, fr1) F -> In (q2, fr2) F -> loc_of q1 = loc_of q2 -> q1 = q2 /\ fr1 = fr2.
Proof.
  unfold flocs. induction F as [|[q' fr'] F IH]; cbn [map fst]; intros Hnd H1 H2 E; [destruct H1|].
  inversion Hnd as [|? ? Hx Hr]; subst.
  destruct H1 as [E1 | H1], H2 as [E2 | H2].
  - split; congruence.
  - injection E1 as -> ->. exfalso. apply Hx. rewrite E. exact (in_frames_loc _ _ _ H2).
  - injection E2 as -> ->. exfalso. apply Hx. rewrite <- E. exact (in_frames_loc _ _ _ H1).
  - exact (IH Hr H1 H2 E).
Qed.

Lemma frames_fun F q fr1 fr2 : NoDup (flocs F) -> In (q, fr1) F -> In (q, fr2) F -> fr1 = fr2.
Proof. intros Hnd H1 H2. exact (proj2 (frames_fun_loc F q q fr1 fr2 Hnd H1 H2 eq_refl)). Qed.

(* with distinct locations the association list behaves like a map *)
Lemma in_set_frame F q fr0 fr q' fr' :
  NoDup (flocs F) -> In (q, fr0) F ->
  (In (q', fr') (set_frame F q fr) <-> (q' = q /\ fr' = fr) \/ (q' <> q /\ In (q', fr') F)).
Proof.
  unfold flocs. induction F as [|[q1 fr1] F IH]; cbn [set_frame map fst]; intros Hnd Hin; [destruct Hin|].
  inversion Hnd as [|? ? Hx Hr]; subst.
  destruct (qk_eqb q1 q) eqn:E.
  - apply qk_eqb_eq in E. subst q1. split.
    + intros [H | H].
      * injection H as <- <-. left; auto.
      * right. split; [|right; exact H]. intros ->. apply Hx. exact (in_frames_loc _ _ _ H).
    + intros [[-> ->] | [Hne [H | H]]].
      * left; reflexivity.
      * injection H as -> ->. contradiction.
      * right; exact H.
  - assert (Hq : q1 <> q) by (intros ->; rewrite qk_eqb_refl in E; discriminate).
    destruct Hin as [Hin | Hin]; [injection Hin as -> ->; contradiction|].
    split.
    + intros [H | H].
      * injection H as <- <-. right. split; [exact Hq | left; reflexivity].
      * apply (IH Hr Hin) in H. destruct H as [? | [? ?]]; [left; auto | right; split; auto; right; auto].
    + intros [[-> ->] | [Hne [H | H]]].
      * right. apply (IH Hr Hin). left; auto.
      * left; exact H.
      * right. apply (IH Hr Hin). right; auto.
Qed.

Lemma in_del_frame F q fr0 q' fr' :
  NoDup (flocs F) -> In (q, fr0) F ->
  (In (q', fr') (del_frame F q) <-> (q' <> q /\ In (q', fr') F)).
Proof.
  unfold flocs. induction F as [|[q1 fr1] F IH]; cbn [del_frame map fst]; intros Hnd Hin; [destruct Hin|].
  inversion Hnd as [|? ? Hx Hr]; subst.
  destruct (qk_eqb q1 q) eqn:E.
  - apply qk_eqb_eq in E. subst q1. split.
    + intros H. split; [|right; exact H]. intros ->. apply Hx. exact (in_frames_loc _ _ _ H).
    + intros [Hne [H | H]]; [injection H as -> ->; contradiction | exact H].
  - assert (Hq : q1 <> q) by (intros ->; rewrite qk_eqb_refl in E; discriminate).
    destruct Hin as [Hin | Hin]; [injection Hin as -> ->; contradiction|].
    split.
    + intros [H | H].
      * injection H as <- <-. split; [exact Hq | left; reflexivity].
      * apply (IH Hr Hin) in H. destruct H. split; auto. right; auto.
    + intros [Hne [H | H]]; [left; exact H | right; apply (IH Hr Hin); auto].
Qed.

Lemma flocs_del_frame F q : NoDup (flocs F) -> NoDup (flocs (del_frame F q)).
Proof.
  unfold flocs. induction F as [|[q1 fr1] F IH]; cbn [del_frame map fst]; intros Hnd; [constructor|].
  inversion Hnd as [|? ? Hx Hr]; subst.
  destruct (qk_eqb q1 q); [exact Hr|]. cbn [map fst]. constructor; [|exact (IH Hr)].
  intros Hin. apply Hx. clear -Hin. induction F as [|[q2 fr2] F IH]; cbn [del_frame map fst] in *; [destruct Hin|].
  destruct (qk_eqb q2 q); [right; exact Hin|]. destruct Hin as [H | H]; [left; exact H | right; exact (IH H)].
Qed.

Lemma in_flocs_del F q l : In l (flocs (del_frame F q)) -> In l (flocs F).
Proof.
  unfold flocs. induction F as [|[q2 fr2] F IH]; cbn [del_frame map fst]; [intros []|].
  destruct (qk_eqb q2 q); [intros H; right; exact H|].
  cbn [map fst]. intros [H | H]; [left; exact H | right; exact (IH H)].
Qed.

Lemma active_locb_spec F l : active_locb F l = true <-> active_loc F l.
Proof.
  unfold active_locb, active_loc. rewrite existsb_exists. split.
  - intros ([q fr] & Hin & E). apply key_eqb_eq in E. exists q, fr. auto.
  - intros (q & fr & Hin & E). exists (q, fr). split; [exact Hin|]. apply key_eqb_eq. exact E.
Qed.

Lemma active_loc_flocs F l : active_loc F l <-> In l (flocs F).
Proof.
  unfold active_loc, flocs. rewrite in_map_iff. split.
  - intros (q & fr & Hin & E). exists (q, fr). auto.
  - intros ([q fr] & E & Hin). exists q, fr. auto.
Qed.

(* ---- ownership transfer between two machine states ---- *)
Section Own.
Variable skind : N -> bool.

Notation owner_ids := (owner_ids skind).
Notation owns := (owns skind).
Notation OInv := (OInv skind).
Notation peek_memo := (peek_memo skind).

(* the clauses oi_live, oi_uniq, oi_nodup of OInv *)
Definition own_facts (s : db) (F : frames) : Prop :=
  (forall o h, owns s F o h -> live s h) /\
  (forall o1 o2 h1 h2, owns s F o1 h1 -> owns s F o2 h2 -> fst h1 = fst h2 -> o1 = o2) /\
  (forall o ids, owner_ids s F o ids -> NoDup (map fst ids)).

Lemma oinv_own s F : OInv s F -> own_facts s F.
Proof. intros I. split; [exact (oi_live _ _ _ I) | split; [exact (oi_uniq _ _ _ I) | exact (oi_nodup _ _ _ I)]]. Qed.

(* every owner [o] of the new state got its ids from the owner [phi o] of the old one (at most the
   same ids), plus possibly one new id [hnew] held by [onew] whose slot index nobody else held;
   [phi] is injective on the owners that hold something, so slot indices stay with one owner *)
Lemma own_transfer s F s' F' (phi : owner -> owner) (onew : owner) (hnew : handle) :
  own_facts s F ->
  (forall o ids, owner_ids s' F' o ids ->
     NoDup (map fst ids) /\
     exists ids0, owner_ids s F (phi o) ids0 /\
                  forall h, In h ids -> In h ids0 \/ (o = onew /\ h = hnew)) ->
  (forall o1 o2 ids1 ids2, owner_ids s' F' o1 ids1 -> owner_ids s' F' o2 ids2 -> phi o1 = phi o2 -> o1 = o2) ->
  (forall o h, owns s F o h -> fst h = fst hnew -> o = phi onew) ->
  (forall o h, owns s' F' o h -> fst h = fst hnew -> h = hnew) ->
  (forall h, live s h -> fst h <> fst hnew -> live s' h) ->
  ((exists o, owns s' F' o hnew) -> live s' hnew) ->
  own_facts s' F'.
Proof.
  intros (L & U & ND) H1 H2 H3 H5 H4 H4a. split; [|split].
  - intros o h (ids & Ho & Hin).
    destruct (N.eq_dec (fst h) (fst hnew)) as [E | E].
    + assert (h = hnew) by (apply (H5 o); [exists ids; auto | exact E]). subst h.
      apply H4a. exists o, ids. auto.
    + destruct (H1 o ids Ho) as (_ & ids0 & Ho0 & Hsub).
      destruct (Hsub h Hin) as [Hin0 | [_ ->]]; [|contradiction E; reflexivity].
      apply H4; [|exact E]. apply (L (phi o)). exists ids0. auto.
  - intros o1 o2 h1 h2 (ids1 & Ho1 & Hin1) (ids2 & Ho2 & Hin2) E.
    destruct (H1 o1 ids1 Ho1) as (_ & ids01 & Ho01 & Hsub1).
    destruct (H1 o2 ids2 Ho2) as (_ & ids02 & Ho02 & Hsub2).
    apply (H2 o1 o2 ids1 ids2 Ho1 Ho2).
    destruct (Hsub1 h1 Hin1) as [Hi1 | [-> ->]], (Hsub2 h2 Hin2) as [Hi2 | [-> ->]].
    + apply (U (phi o1) (phi o2) h1 h2); [exists ids01; auto | exists ids02; auto | exact E].
    + apply (H3 (phi o1) h1); [exists ids01; auto | exact E].
    + symmetry. apply (H3 (phi o2) h2); [exists ids02; auto | symmetry; exact E].
    + reflexivity.
  - intros o ids Ho. exact (proj1 (H1 o ids Ho)).
Qed.

(* the common case: no new id *)
Lemma own_transfer0 s F s' F' (phi : owner -> owner) :
  own_facts s F ->
  (forall o ids, owner_ids s' F' o ids ->
     NoDup (map fst ids) /\
     forall h, In h ids -> exists ids0, owner_ids s F (phi o) ids0 /\ In h ids0) ->
  (forall o1 o2 ids1 ids2 h1 h2, owner_ids s' F' o1 ids1 -> owner_ids s' F' o2 ids2 ->
     In h1 ids1 -> In h2 ids2 -> phi o1 = phi o2 -> o1 = o2) ->
  (forall o h, owns s' F' o h -> live s h -> live s' h) ->
  own_facts s' F'.
Proof.
  intros (L & U & ND) H1 H2 H4. split; [|split].
  - intros o h (ids & Ho & Hin). apply (H4 o); [exists ids; auto|].
    destruct (H1 o ids Ho) as (_ & Hsub). destruct (Hsub h Hin) as (ids0 & Ho0 & Hin0).
    apply (L (phi o)). exists ids0. auto.
  - intros o1 o2 h1 h2 (ids1 & Ho1 & Hin1) (ids2 & Ho2 & Hin2) E.
    destruct (H1 o1 ids1 Ho1) as (_ & Hsub1). destruct (Hsub1 h1 Hin1) as (ids01 & Ho01 & Hi1).
    destruct (H1 o2 ids2 Ho2) as (_ & Hsub2). destruct (Hsub2 h2 Hin2) as (ids02 & Ho02 & Hi2).
    apply (H2 o1 o2 ids1 ids2 h1 h2 Ho1 Ho2 Hin1 Hin2).
    apply (U (phi o1) (phi o2) h1 h2); [exists ids01; auto | exists ids02; auto | exact E].
  - intros o ids Ho. exact (proj1 (H1 o ids Ho)).
Qed.

(* peek_memo only looks at d_memo and at (liveness, memo table) of slots *)
Lemma peek_memo_ext s s' l :
  d_memo s' = d_memo s ->
  (forall sl, d_slots s (snd l) = Some sl -> sl_updated sl <> None ->
     exists sl', d_slots s' (snd l) = Some sl' /\ sl_updated sl' <> None /\ sl_memos sl' (fst l) = sl_memos sl (fst l)) ->
  (forall sl', d_slots s' (snd l) = Some sl' -> sl_updated sl' <> None ->
     exists sl, d_slots s (snd l) = Some sl /\ sl_updated sl <> None) ->
  peek_memo s' l = peek_memo s l.
Proof.
  intros Hm Hf Hb. unfold Machine.peek_memo. rewrite Hm. destruct (skind (fst l)); [|reflexivity].
  destruct (d_slots s (snd l)) as [sl|] eqn:E.
  - destruct (sl_updated sl) as [r|] eqn:Eu.
    + destruct (Hf sl eq_refl) as (sl' & E' & Hu' & Hmm); [rewrite Eu; discriminate|].
      rewrite E'. destruct (sl_updated sl'); [exact Hmm | contradiction Hu'; reflexivity].
    + destruct (d_slots s' (snd l)) as [sl'|] eqn:E'; [|reflexivity].
      destruct (sl_updated sl') as [r'|] eqn:Eu'; [|reflexivity].
      destruct (Hb sl' eq_refl) as (sl0 & E0 & Hu0); [rewrite Eu'; discriminate|].
      try rewrite E in E0. injection E0 as <-. contradiction Hu0.
  - destruct (d_slots s' (snd l)) as [sl'|] eqn:E'; [|reflexivity].
    destruct (sl_updated sl') as [r'|] eqn:Eu'; [|reflexivity].
    destruct (Hb sl' eq_refl) as (sl0 & E0 & Hu0); [rewrite Eu'; discriminate|]. try rewrite E in E0. discriminate.
Qed.

Lemma peek_some_live s (q : qk) m :
  peek_memo s (loc_of q) = Some m -> skind (fst q) = true ->
  exists sl, d_slots s (fst (snd q)) = Some sl /\ sl_updated sl <> None.
Proof.
  unfold Machine.peek_memo, loc_of. cbn [fst snd]. intros E Hk. rewrite Hk in E.
  destruct (d_slots s (fst (snd q))) as [sl|]; [|discriminate].
  exists sl. split; [reflexivity|]. destruct (sl_updated sl); discriminate.
Qed.

End Own.

Section Cases.
Variable skind : N -> bool.
Variable sfams : list N.
Hypothesis sfams_skind : forall fam, In fam sfams -> skind fam = true.

Notation owner_ids := (owner_ids skind).
Notation owns := (owns skind).
Notation OInv := (OInv skind).
Notation peek_memo := (peek_memo skind).
Notation own_facts := (own_facts skind).

Lemma owner_ids_peek s s' F o ids :
  (forall l m, peek_memo s' l = Some m -> peek_memo s l = Some m) -> owner_ids s' F o ids -> owner_ids s F o ids.
Proof.
  intros Hp. destruct o as [q | l]; cbn [Machine.owner_ids]; [auto|].
  intros (Hna & m & Hm & E). split; [exact Hna|]. exists m. split; [exact (Hp _ _ Hm) | exact E].
Qed.

Lemma ideal_get_cons h x l h' :
  ideal_get ((h, x) :: l) h' = if handle_eqb h h' then Some x else ideal_get l h'.
Proof. reflexivity. Qed.

(* [store_ok] is the clauses of OInv that do not mention the frames; [own_facts], [frames_locked]
   (= oi_locked) and NoDup (flocs F) are the others. *)
Record store_ok (s : db) : Prop := {
  (* the allocated indices are exactly those below d_nslots *)
  so_alloc : forall i, d_slots s i = None <-> d_nslots s <= i;
  so_free_nodup : NoDup (map fst (d_free s));
  (* a free-list entry is a deleted slot (updated_at = None) with the generation it died with *)
  so_free : forall i g, In (i, g) (d_free s) ->
      exists sl, d_slots s i = Some sl /\ sl_updated sl = None /\ sl_gen sl = g;
  (* a deleted slot holds no memo *)
  so_dead : forall i sl, d_slots s i = Some sl -> sl_updated sl = None -> forall fam, sl_memos sl fam = None;
  (* an id that was ever handed out (ghost list d_ideal) is not ahead of its slot's generation *)
  so_issued : forall i g x, In ((i, g), x) (d_ideal s) -> exists sl, d_slots s i = Some sl /\ g <= sl_gen sl;
  (* the ghost store holds, for the current id of a live slot, the fields of the slot *)
  so_ideal : forall i sl, d_slots s i = Some sl -> sl_updated sl <> None ->
      ideal_get (d_ideal s) (i, sl_gen sl) = Some (slot_fields sl)
}.

Definition frames_locked (s : db) (F : frames) : Prop :=
  forall q fr, In (q, fr) F -> skind (fst q) = true ->
    exists sl, d_slots s (fst (snd q)) = Some sl /\ sl_updated sl = Some (cur s).

Lemma oinv_store_ok s F : OInv s F -> store_ok s.
Proof. intros []. constructor; assumption. Qed.

Lemma oinv_intro s F : store_ok s -> own_facts s F -> frames_locked s F -> NoDup (flocs F) -> OInv s F.
Proof. intros [] (L & U & ND) Hl HF. constructor; assumption. Qed.

(* slot i becomes the live slot sl': a rewrite in place (same generation, same fields or a new
   entry of the ideal store) or a new occupant (greater generation, new entry, taken off the free
   list or from the unused indices) *)
Lemma store_ok_upd s s' i sl' :
  store_ok s ->
  (forall j, d_slots s' j = updN (d_slots s) i (Some sl') j) -> sl_updated sl' <> None ->
  (forall sl, d_slots s i = Some sl -> sl_gen sl <= sl_gen sl') ->
  (d_slots s i = None -> i = d_nslots s /\ d_nslots s' = i + 1) ->
  (d_slots s i <> None -> d_nslots s' = d_nslots s) ->
  (forall x, In x (d_free s') -> In x (d_free s) /\ fst x <> i) -> NoDup (map fst (d_free s')) ->
  (d_ideal s' = d_ideal s /\
   (exists sl, d_slots s i = Some sl /\ sl_updated sl <> None /\ sl_gen sl' = sl_gen sl /\
               slot_fields sl' = slot_fields sl) \/
   d_ideal s' = ((i, sl_gen sl'), slot_fields sl') :: d_ideal s) ->
  store_ok s'.
Proof.
  intros S Es Hu' Hgen Hn0 Hn1 Hfree Hfnd Hid.
  assert (Hslot : forall j, d_slots s' j = if i =? j then Some sl' else d_slots s j).
  { intros j. rewrite Es. reflexivity. }
  constructor.
  - intros j. rewrite Hslot. destruct (d_slots s i) as [sl|] eqn:E0.
    + rewrite Hn1 by discriminate. destruct (N.eqb_spec i j) as [<- | E]; [|exact (so_alloc _ S j)].
      split; [discriminate|]. intros Hle. apply (so_alloc _ S) in Hle. congruence.
    + destruct (Hn0 eq_refl) as (Hi & Hn). rewrite Hn. destruct (N.eqb_spec i j) as [<- | E].
      * split; [discriminate | lia].
      * rewrite (so_alloc _ S j). subst i. lia.
  - exact Hfnd.
  - intros j g Hin. destruct (Hfree _ Hin) as (Hin0 & Hne). cbn [fst] in Hne.
    destruct (so_free _ S j g Hin0) as (sl & Hs & Hu & Hg). exists sl. rewrite Hslot.
    destruct (N.eqb_spec i j); [congruence | auto].
  - intros j sl. rewrite Hslot. destruct (N.eqb_spec i j) as [<- | E].
    + intros H0 Hu0. injection H0 as <-. contradiction.
    + exact (so_dead _ S j sl).
  - intros j g x Hin.
    assert (Hold : In ((j, g), x) (d_ideal s) -> exists sl0, d_slots s' j = Some sl0 /\ g <= sl_gen sl0).
    { intros Hin0. destruct (so_issued _ S j g x Hin0) as (sl0 & H0 & Hg0). rewrite Hslot.
      destruct (N.eqb_spec i j) as [<- | E]; [|exists sl0; auto].
      exists sl'. split; [reflexivity|]. pose proof (Hgen sl0 H0). lia. }
    destruct Hid as [[Ei _] | Ei]; rewrite Ei in Hin; [exact (Hold Hin)|].
    destruct Hin as [Hin | Hin]; [|exact (Hold Hin)].
    injection Hin as <- <- _. rewrite Hslot, N.eqb_refl. exists sl'. split; [reflexivity | lia].
  - intros j sl0. rewrite Hslot. destruct (N.eqb_spec i j) as [<- | E].
    + intros H0 _. injection H0 as <-.
      destruct Hid as [[Ei (sl & Hs & Hu & Eg & Ef)] | Ei]; rewrite Ei.
      * rewrite Eg, Ef. exact (so_ideal _ S i sl Hs Hu).
      * rewrite ideal_get_cons, handle_eqb_refl. reflexivity.
    + intros H0 Hu0. destruct Hid as [[Ei _] | Ei]; rewrite Ei; [exact (so_ideal _ S j sl0 H0 Hu0)|].
      rewrite ideal_get_cons. destruct (handle_eqb (i, sl_gen sl') (j, sl_gen sl0)) eqn:Eh.
      * apply handle_eqb_eq in Eh. injection Eh as Eh _. contradiction.
      * exact (so_ideal _ S j sl0 H0 Hu0).
Qed.

(* one live slot is rewritten: it stays live, keeps its generation; its memo table is kept
   (entry by entry) or emptied *)
Lemma oinv_rewrite s F s' i sl sl' :
  OInv s F -> d_slots s i = Some sl -> sl_updated sl <> None -> sl_updated sl' <> None ->
  sl_gen sl' = sl_gen sl ->
  (forall fam, sl_memos sl' fam = sl_memos sl fam \/ sl_memos sl' fam = None) ->
  d_revs s' = d_revs s -> d_memo s' = d_memo s -> d_nslots s' = d_nslots s -> d_free s' = d_free s ->
  (forall j, d_slots s' j = updN (d_slots s) i (Some sl') j) ->
  (sl_updated sl = Some (cur s) -> sl_updated sl' = Some (cur s)) ->
  (d_ideal s' = d_ideal s /\ slot_fields sl' = slot_fields sl \/
   d_ideal s' = ((i, sl_gen sl), slot_fields sl') :: d_ideal s) ->
  OInv s' F.
Proof.
  intros I Hs Hu Hu' Hg Hm Er Em En Ef Es Hlock Hid.
  assert (Hcur : cur s' = cur s) by (unfold cur; now rewrite Er).
  assert (Hslot : forall j, d_slots s' j = if i =? j then Some sl' else d_slots s j).
  { intros j. rewrite Es. reflexivity. }
  apply oinv_intro.
  - apply (store_ok_upd s s' i sl' (oinv_store_ok _ _ I) Es Hu').
    + intros sl0 H0. rewrite Hs in H0. injection H0 as <-. lia.
    + congruence.
    + intros _. exact En.
    + intros [j g] Hin. rewrite Ef in Hin. split; [exact Hin|]. cbn [fst]. intros ->.
      destruct (oi_free _ _ _ I i g Hin) as (sl0 & H0 & Hu0 & _). rewrite Hs in H0. injection H0 as <-. contradiction.
    + rewrite Ef. exact (oi_free_nodup _ _ _ I).
    + destruct Hid as [[Ei Efl] | Ei]; [left; split; [exact Ei | exists sl; auto] | right; now rewrite Ei, Hg].
  - apply (own_transfer0 skind s F s' F (fun o => o) (oinv_own _ _ _ I)); [| auto |].
    + assert (Hp : forall l m, peek_memo s' l = Some m -> peek_memo s l = Some m).
      { intros l m. unfold Machine.peek_memo. rewrite Em. destruct (skind (fst l)); [|auto].
        rewrite Hslot. destruct (N.eqb_spec i (snd l)) as [E | E]; [|auto].
        subst i. rewrite Hs. destruct (sl_updated sl'); [|discriminate].
        destruct (sl_updated sl); [|contradiction Hu; reflexivity].
        destruct (Hm (fst l)) as [-> | ->]; [auto | discriminate]. }
      intros o ids Ho. apply (owner_ids_peek _ _ _ _ _ Hp) in Ho. split; [exact (oi_nodup _ _ _ I _ _ Ho)|].
      intros h Hh. exists ids. auto.
    + intros o h _ (sl0 & H0 & Hu0 & Hg0). unfold live. rewrite Hslot.
      destruct (N.eqb_spec i (fst h)) as [E | E]; [|exists sl0; auto].
      subst i. rewrite Hs in H0. injection H0 as <-. exists sl'. repeat split; auto. congruence.
  - intros q fr Hin Hk. destruct (oi_locked _ _ _ I q fr Hin Hk) as (sl0 & H0 & Hu0).
    rewrite Hslot, Hcur. destruct (N.eqb_spec i (fst (snd q))) as [E | E]; [|exists sl0; auto].
    subst i. rewrite Hs in H0. injection H0 as <-. exists sl'. split; [reflexivity | exact (Hlock Hu0)].
  - exact (oi_frames _ _ _ I).
Qed.

(* the invariant reads the current revision only where some frame is running (oi_locked) *)
Lemma oinv_ext s s' F :
  OInv s F -> (F <> [] -> cur s' = cur s) -> d_slots s' = d_slots s -> d_memo s' = d_memo s ->
  d_nslots s' = d_nslots s -> d_free s' = d_free s -> d_ideal s' = d_ideal s -> OInv s' F.
Proof.
  intros I Hcur Es Em En Ef Ei.
  assert (Hp : forall l m, peek_memo s' l = Some m -> peek_memo s l = Some m).
  { intros l m. unfold Machine.peek_memo. rewrite Es, Em. auto. }
  destruct (own_transfer0 skind s F s' F (fun o => o) (oinv_own _ _ _ I)) as (L & U & ND).
  { intros o ids Ho. apply (owner_ids_peek s s' F o ids Hp) in Ho.
    split; [exact (oi_nodup _ _ _ I _ _ Ho)|]. intros h Hh. exists ids. auto. }
  { auto. }
  { intros o h _ (sl & Hs & Hu & Hg). exists sl. rewrite Es. auto. }
  pose proof I as [? ? ? ? _ _ _ ? _ ? ?]. constructor; rewrite ?Es, ?En, ?Ef, ?Ei; try assumption.
  intros q fr Hin. rewrite Hcur; [exact (oi_locked _ _ _ I q fr Hin) | intros ->; exact Hin].
Qed.

Lemma oinv_core_eq s s' F :
  OInv s F -> d_revs s' = d_revs s -> d_slots s' = d_slots s -> d_memo s' = d_memo s ->
  d_nslots s' = d_nslots s -> d_free s' = d_free s -> d_ideal s' = d_ideal s -> OInv s' F.
Proof. intros I Er. apply (oinv_ext s s' F I). intros _. unfold cur. now rewrite Er. Qed.

(* the frames change: same locations, every frame keeps a subset of its ids *)
Lemma oinv_frames s F F' :
  OInv s F -> flocs F' = flocs F ->
  (forall q fr', In (q, fr') F' ->
     exists fr, In (q, fr) F /\ (forall h, In h (frame_ids fr') -> In h (frame_ids fr)) /\
                NoDup (map fst (frame_ids fr'))) ->
  OInv s F'.
Proof.
  intros I Hl Hf.
  assert (Hact : forall l, active_loc F' l <-> active_loc F l).
  { intros l. rewrite !active_loc_flocs, Hl. reflexivity. }
  apply oinv_intro.
  - exact (oinv_store_ok _ _ I).
  - apply (own_transfer0 skind s F s F' (fun o => o) (oinv_own _ _ _ I)); [| auto | auto].
    intros [q | l] ids; cbn [Machine.owner_ids].
    + intros (fr' & Hin & ->). destruct (Hf q fr' Hin) as (fr & Hin0 & Hsub & Hnd).
      split; [exact Hnd|]. intros h Hh. exists (frame_ids fr). split; [exists fr; auto | exact (Hsub h Hh)].
    + intros (Hna & m & Hm & ->).
      assert (Ho : owner_ids s F (OwM l) (mids m)).
      { cbn [Machine.owner_ids]. split; [rewrite <- Hact; exact Hna | exists m; auto]. }
      split; [exact (oi_nodup _ _ _ I _ _ Ho)|]. intros h Hh. exists (mids m). auto.
  - intros q fr' Hin Hk. destruct (Hf q fr' Hin) as (fr & Hin0 & _). exact (oi_locked _ _ _ I q fr Hin0 Hk).
  - rewrite Hl. exact (oi_frames _ _ _ I).
Qed.

Lemma oinv_same_ids s F (q : qk) fr fr' :
  OInv s F -> In (q, fr) F -> frame_ids fr' = frame_ids fr -> OInv s (set_frame F q fr').
Proof.
  intros I Hq E. pose proof (oi_frames _ _ _ I) as HF.
  apply (oinv_frames s F _ I); [apply flocs_set_frame|].
  intros q' fr0 Hin. apply (in_set_frame F q fr fr' q' fr0 HF Hq) in Hin. destruct Hin as [[-> ->] | [_ Hin]].
  - exists fr. split; [exact Hq|]. rewrite E. split; [auto|]. apply (oi_nodup _ _ _ I (OwF q)). exists fr. auto.
  - exists fr0. split; [exact Hin|]. split; [auto|]. apply (oi_nodup _ _ _ I (OwF q')). exists fr0. auto.
Qed.

Lemma unlocked_not_active s F i sl fam :
  OInv s F -> d_slots s i = Some sl -> sl_updated sl <> Some (cur s) -> skind fam = true ->
  ~ active_loc F (fam, i).
Proof.
  intros I Hs Hl Hk (q & fr & Hin & El). unfold loc_of in El. injection El as Ef Ei.
  destruct (oi_locked _ _ _ I q fr Hin) as (sl1 & H1 & Hu1); [now rewrite Ef|].
  rewrite Ei, Hs in H1. injection H1 as <-. contradiction.
Qed.

Lemma memo_owns s F i sl fam m c :
  d_slots s i = Some sl -> sl_updated sl <> None -> skind fam = true -> ~ active_loc F (fam, i) ->
  sl_memos sl fam = Some m -> In c (mids m) -> owns s F (OwM (fam, i)) c.
Proof.
  intros Hs Hu Hk Hna Hm Hc. exists (mids m). split; [|exact Hc]. split; [exact Hna|].
  exists m. split; [|reflexivity]. unfold Machine.peek_memo. cbn [fst snd]. rewrite Hk, Hs.
  destruct (sl_updated sl); [exact Hm | contradiction Hu; reflexivity].
Qed.

(* the memo at (fam, i) is taken out of its slot while somebody else (the running frame) holds
   index i: the ids it listed stay live and become orphans *)
Lemma memo_removed s sM F fam i r :
  OInv s F -> owns s F (OwM (fam, i)) r ->
  (forall l m, peek_memo sM l = Some m -> peek_memo s l = Some m) -> peek_memo sM (fam, i) = None ->
  (forall j, j <> i -> d_slots sM j = d_slots s j) ->
  (exists o h, owns s F o h /\ fst h = i /\ o <> OwM (fam, i)) ->
  live sM r /\ forall o x, owns sM F o x -> fst x <> fst r.
Proof.
  intros I Hr Hpk Hnone Hoth (oi & hi & Hoi & Ei & Hne). split.
  - destruct (oi_live _ _ _ I _ _ Hr) as (sl & Hs & Hu & Hg). exists sl. rewrite Hoth; [auto|].
    intros E. apply Hne. apply (oi_uniq _ _ _ I _ _ _ _ Hoi Hr). congruence.
  - intros o x (ids & Ho & Hin) E.
    assert (Hos : owns s F o x) by (exists ids; split; [exact (owner_ids_peek s sM F o ids Hpk Ho) | exact Hin]).
    pose proof (oi_uniq _ _ _ I _ _ _ _ Hos Hr E) as Eo. subst o.
    destruct Ho as (_ & m0 & Hm0 & _). congruence.
Qed.

Lemma store_ok_casc s s' e :
  store_ok s -> casc s s' e -> (forall c, In c e -> live s c) -> store_ok s'.
Proof.
  intros S C Hlive. constructor.
  - intros j. rewrite (cs_nslots _ _ _ C), <- (so_alloc _ S j).
    destruct (casc_slot s s' e j C) as [(c & sl & _ & _ & Hs & _ & _ & Hd) | (_ & E)]; [|now rewrite E].
    rewrite Hs, Hd. split; discriminate.
  - rewrite (cs_free _ _ _ C), map_app. apply nodup_app; [exact (so_free_nodup _ S) | exact (cs_nodup _ _ _ C) |].
    intros j H1 H2. apply in_map_iff in H1. destruct H1 as ([j' g] & <- & H1).
    destruct (so_free _ S j' g H1) as (sl0 & H0 & Hu0 & _).
    exact (proj1 (casc_untouched s s' e j' sl0 C H0 (or_introl Hu0)) H2).
  - intros j g Hin. rewrite (cs_free _ _ _ C) in Hin. apply in_app_or in Hin. destruct Hin as [Hin | Hin].
    + destruct (so_free _ S j g Hin) as (sl0 & H0 & Hu0 & Hg0).
      exists sl0. split; [exact (proj2 (casc_untouched s s' e j sl0 C H0 (or_introl Hu0))) | auto].
    + destruct (cs_died _ _ _ C _ Hin) as (sl0 & H0 & _ & _ & Hd). cbn [fst] in *.
      exists (dead sl0). split; [exact Hd|]. split; [reflexivity|].
      destruct (Hlive _ Hin) as (sl1 & H1 & _ & Hg1). cbn [fst snd] in *. rewrite H0 in H1. injection H1 as <-. exact Hg1.
  - intros j sl0 H0 Hu0 fam.
    destruct (casc_slot s s' e j C) as [(c & sl & _ & _ & _ & _ & _ & Hd) | (_ & E)].
    + rewrite Hd in H0. injection H0 as <-. reflexivity.
    + rewrite E in H0. exact (so_dead _ S j sl0 H0 Hu0 fam).
  - intros j g x Hin. rewrite (cs_ideal _ _ _ C) in Hin.
    destruct (so_issued _ S j g x Hin) as (sl0 & H0 & Hg0).
    destruct (casc_slot s s' e j C) as [(c & sl & _ & _ & Hs & _ & _ & Hd) | (_ & E)].
    + rewrite H0 in Hs. injection Hs as <-. exists (dead sl0). auto.
    + exists sl0. rewrite E. auto.
  - intros j sl0 H0 Hu0. rewrite (cs_ideal _ _ _ C).
    destruct (casc_slot s s' e j C) as [(c & sl & _ & _ & _ & _ & _ & Hd) | (_ & E)].
    + rewrite Hd in H0. injection H0 as <-. contradiction Hu0. reflexivity.
    + rewrite E in H0. exact (so_ideal _ S j sl0 H0 Hu0).
Qed.

(* a successful deletion cascade from orphan roots *)
Lemma oinv_casc s F s' e roots :
  OInv s F -> casc s s' e -> parents sfams s roots e ->
  (forall r, In r roots -> live s r) ->
  (forall r o h, In r roots -> owns s F o h -> fst h <> fst r) ->
  OInv s' F.
Proof.
  intros I C P Hrl Horph.
  assert (Hpeek : forall l m, peek_memo s' l = Some m -> peek_memo s l = Some m).
  { intros l m. unfold Machine.peek_memo. rewrite (cs_memo _ _ _ C).
    destruct (skind (fst l)); [|auto].
    destruct (casc_slot s s' e (snd l) C) as [(c & sl & _ & _ & _ & _ & _ & Hd) | (_ & E)]; [|now rewrite E].
    rewrite Hd. discriminate. }
  (* a handle that died as somebody's child was held by the parent's memo *)
  assert (Hchild : forall p c, In p e -> child_of sfams s p c ->
            exists fam, In fam sfams /\ owns s F (OwM (fam, fst p)) c).
  { intros p c Hp (slp & fam & m & Hsp & Hfam & Hm & Hcm).
    destruct (cs_died _ _ _ C p Hp) as (slp' & Hsp' & Hup & Hlk & _).
    rewrite Hsp in Hsp'. injection Hsp' as <-. exists fam. split; [exact Hfam|].
    apply (memo_owns s F (fst p) slp fam m c Hsp Hup (sfams_skind _ Hfam)); auto.
    exact (unlocked_not_active s F _ slp fam I Hsp Hlk (sfams_skind _ Hfam)). }
  apply oinv_intro.
  - apply (store_ok_casc s s' e (oinv_store_ok _ _ I) C).
    intros c Hc. destruct (P c Hc) as [Hroot | (p & Hp & Hch)]; [exact (Hrl c Hroot)|].
    destruct (Hchild p c Hp Hch) as (fam & _ & Hom). exact (oi_live _ _ _ I _ _ Hom).
  - apply (own_transfer0 skind s F s' F (fun o => o) (oinv_own _ _ _ I)); [| auto |].
    + intros o ids Ho. apply (owner_ids_peek s s' F o ids Hpeek) in Ho.
      split; [exact (oi_nodup _ _ _ I _ _ Ho)|]. intros h Hh. exists ids. auto.
    + (* no surviving owner holds the index of a slot that died *)
      intros o h (ids & Ho & Hin) (sl0 & H0 & Hu0 & Hg0). exists sl0. split; [|auto].
      destruct (casc_slot s s' e (fst h) C) as [(c & sl & Hc & Ec & _ & _ & _ & Hdc) | (_ & E)]; [exfalso | now rewrite E].
      assert (Hos : owns s F o h) by (exists ids; split; [exact (owner_ids_peek s s' F o ids Hpeek Ho) | exact Hin]).
      destruct (P c Hc) as [Hroot | (p & Hp & Hch)]; [exact (Horph c o h Hroot Hos (eq_sym Ec))|].
      destruct (Hchild p c Hp Hch) as (fam & Hfam & Hom).
      assert (Eo : o = OwM (fam, fst p)) by (apply (oi_uniq _ _ _ I o _ h c Hos Hom); congruence).
      subst o. destruct Ho as (_ & m' & Hm' & _).
      destruct (cs_died _ _ _ C p Hp) as (slp & _ & _ & _ & Hdp).
      unfold Machine.peek_memo in Hm'. cbn [fst snd] in Hm'. rewrite (sfams_skind _ Hfam), Hdp in Hm'.
      discriminate.
  - intros q fr Hin Hk. destruct (oi_locked _ _ _ I q fr Hin Hk) as (sl0 & H0 & Hu0).
    rewrite (casc_cur _ _ _ C). exists sl0. split; [|exact Hu0].
    exact (proj2 (casc_untouched s s' e _ sl0 C H0 (or_intror Hu0))).
  - exact (oi_frames _ _ _ I).
Qed.


(* a memo is stored at q's location; its struct ids come from the owner [src] (the frame that
   just completed, or the memo it replaces); frames may lose entries.  The disjunction is the two
   places a memo lives in: the input-keyed table, or the memo table of the key's slot.  The last
   premise makes the map "new owner -> old owner it got its ids from" (the memo at q's location
   from [src], every other owner from itself) injective: [src] is that memo's location, or [src]
   owns nothing afterwards. *)
Lemma oinv_store s F s' F' q m (src : owner) :
  OInv s F ->
  d_revs s' = d_revs s -> d_nslots s' = d_nslots s -> d_free s' = d_free s -> d_ideal s' = d_ideal s ->
  ((skind (fst q) = false /\ (forall l, d_memo s' l = upd (d_memo s) (loc_of q) (Some m) l) /\
    (forall j, d_slots s' j = d_slots s j)) \/
   (skind (fst q) = true /\ (forall l, d_memo s' l = d_memo s l) /\
    exists sl sl', d_slots s (fst (snd q)) = Some sl /\ sl_updated sl <> None /\
               d_slots s' (fst (snd q)) = Some sl' /\
               (forall j, j <> fst (snd q) -> d_slots s' j = d_slots s j) /\
               sl_updated sl' = sl_updated sl /\ sl_gen sl' = sl_gen sl /\ slot_fields sl' = slot_fields sl /\
               sl_memos sl' (fst q) = Some m /\
               (forall fam, fam <> fst q -> sl_memos sl' fam = sl_memos sl fam))) ->
  (forall q' fr', In (q', fr') F' -> In (q', fr') F) -> NoDup (flocs F') ->
  (forall l', l' <> loc_of q -> active_loc F l' -> active_loc F' l') ->
  (~ active_loc F' (loc_of q) -> NoDup (map fst (mids m))) ->
  (~ active_loc F' (loc_of q) -> forall h, In h (mids m) -> exists ids0, owner_ids s F src ids0 /\ In h ids0) ->
  (src = OwM (loc_of q) \/ forall ids, ~ owner_ids s' F' src ids) ->
  OInv s' F'.
Proof.
  intros I Er En Ef Ei Hst Hsub Hnd Hact Hmnd Hsrc Hinj.
  assert (Hcur : cur s' = cur s) by (unfold cur; now rewrite Er).
  (* what the two ways of storing have in common: the slots keep liveness, generation and fields,
     and their memo tables except for the entry at q's location; input-keyed memos elsewhere stay *)
  assert (Sum :
    (forall j sl', d_slots s' j = Some sl' ->
       exists sl, d_slots s j = Some sl /\ sl_updated sl' = sl_updated sl /\ sl_gen sl' = sl_gen sl /\
                  slot_fields sl' = slot_fields sl /\
                  (forall fam, (fam, j) <> loc_of q -> sl_memos sl' fam = sl_memos sl fam) /\
                  (sl_updated sl = None -> forall fam, sl_memos sl' fam = sl_memos sl fam)) /\
    (forall j, d_slots s' j = None <-> d_slots s j = None) /\
    (forall l, l <> loc_of q -> skind (fst l) = false -> d_memo s' l = d_memo s l) /\
    (forall m', peek_memo s' (loc_of q) = Some m' -> m' = m)).
  { destruct Hst as [(Hkq & Em & Es) | (Hkq & Em & sl & sl0' & Hs & Hu & Hs' & Es & Eu & Eg & Efl & Emq & Emo)].
    - split; [|split; [|split]].
      + intros j sl' H'. rewrite Es in H'. exists sl'. repeat split; auto.
      + intros j. now rewrite Es.
      + intros l Hne _. rewrite Em. apply upd_other. congruence.
      + intros m'. unfold Machine.peek_memo. cbn [loc_of fst snd]. rewrite Hkq, Em. unfold loc_of. rewrite upd_same. congruence.
    - split; [|split; [|split]].
      + intros j sl' H'. destruct (N.eq_dec j (fst (snd q))) as [-> | E].
        * rewrite Hs' in H'. injection H' as <-. exists sl. repeat split; auto.
          intros fam Hne. apply Emo. intros ->. apply Hne. reflexivity.
        * rewrite (Es j E) in H'. exists sl'. repeat split; auto.
      + intros j. destruct (N.eq_dec j (fst (snd q))) as [-> | E]; [rewrite Hs, Hs'; split; discriminate | now rewrite (Es j E)].
      + intros l _ _. apply Em.
      + intros m'. unfold Machine.peek_memo. cbn [loc_of fst snd]. rewrite Hkq, Hs'.
        destruct (sl_updated sl0'); [|discriminate]. rewrite Emq. congruence. }
  clear Hst. destruct Sum as (Hslot & Hnone & Hmemo & Hpeekq).
  assert (Hslot2 : forall j sl, d_slots s j = Some sl ->
            exists sl', d_slots s' j = Some sl' /\ sl_updated sl' = sl_updated sl /\ sl_gen sl' = sl_gen sl).
  { intros j sl H0. destruct (d_slots s' j) as [sl'|] eqn:E; [|apply Hnone in E; congruence].
    destruct (Hslot j sl' E) as (sl0 & Hs0 & Hu0 & Hg0 & _). rewrite H0 in Hs0. injection Hs0 as <-. eauto. }
  assert (Hpeek : forall l, l <> loc_of q -> peek_memo s' l = peek_memo s l).
  { intros l Hne. unfold Machine.peek_memo. destruct (skind (fst l)) eqn:Hk; [|exact (Hmemo l Hne Hk)].
    destruct (d_slots s' (snd l)) as [sl'|] eqn:E'.
    - destruct (Hslot _ _ E') as (sl & Hs & Hu & _ & _ & Hm & _). rewrite Hs, Hu.
      destruct (sl_updated sl); [|reflexivity]. apply Hm. intros E. apply Hne. rewrite <- E. destruct l; reflexivity.
    - apply Hnone in E'. rewrite E'. reflexivity. }
  apply oinv_intro.
  - (* the store *)
    pose proof (oinv_store_ok _ _ I) as S. constructor; rewrite ?En, ?Ef, ?Ei.
    + intros j. rewrite Hnone. exact (so_alloc _ S j).
    + exact (so_free_nodup _ S).
    + intros j g Hin. destruct (so_free _ S j g Hin) as (sl & Hs & Hu & Hg).
      destruct (Hslot2 _ _ Hs) as (sl' & H' & Hu' & Hg'). exists sl'. repeat split; congruence.
    + intros j sl' H' Hu' fam. destruct (Hslot _ _ H') as (sl & Hs & Hu & _ & _ & _ & Hm).
      rewrite Hu in Hu'. rewrite (Hm Hu'). exact (so_dead _ S j sl Hs Hu' fam).
    + intros j g x Hin. destruct (so_issued _ S j g x Hin) as (sl & Hs & Hg).
      destruct (Hslot2 _ _ Hs) as (sl' & H' & _ & Hg'). exists sl'. split; [exact H' | lia].
    + intros j sl' H' Hu'. destruct (Hslot _ _ H') as (sl & Hs & Hu & Hg & Hf & _).
      rewrite Hg, Hf. apply (so_ideal _ S j sl Hs). rewrite <- Hu. exact Hu'.
  - (* who holds what: the memo at q's location takes its ids from src *)
    set (phi := fun o : owner => match o with
                                | OwM l => if loc_eqb l (loc_of q) then src else o
                                | _ => o end).
    apply (own_transfer0 skind s F s' F' phi (oinv_own _ _ _ I)).
    + intros [q' | l] ids; cbn [Machine.owner_ids phi].
      * intros (fr' & Hin & ->). apply Hsub in Hin.
        assert (Ho : owner_ids s F (OwF q') (frame_ids fr')) by (exists fr'; auto).
        split; [exact (oi_nodup _ _ _ I _ _ Ho)|]. intros h Hh. exists (frame_ids fr'). auto.
      * intros (Hna & m' & Hm' & ->). unfold loc_eqb. destruct (key_eqb_spec l (loc_of q)) as [-> | Hne].
        -- rewrite (Hpeekq m' Hm'). split; [exact (Hmnd Hna) | exact (Hsrc Hna)].
        -- rewrite (Hpeek l Hne) in Hm'.
           assert (Ho : owner_ids s F (OwM l) (mids m')).
           { split; [|exists m'; auto]. intros Ha. exact (Hna (Hact l Hne Ha)). }
           split; [exact (oi_nodup _ _ _ I _ _ Ho)|]. intros h Hh. exists (mids m'). auto.
    + intros o1 o2 ids1 ids2 h1 h2 Ho1 Ho2 _ _.
      assert (Hphi : forall o ids, owner_ids s' F' o ids -> phi o = o \/ (o = OwM (loc_of q) /\ phi o = src)).
      { intros [q' | l] ids _; cbn [phi]; [left; reflexivity|].
        unfold loc_eqb. destruct (key_eqb_spec l (loc_of q)) as [-> | Hne]; [right; auto | left; reflexivity]. }
      intros Ephi.
      destruct (Hphi _ _ Ho1) as [E1 | [Eo1 E1]], (Hphi _ _ Ho2) as [E2 | [Eo2 E2]];
        rewrite E1, E2 in Ephi.
      * exact Ephi.
      * subst o2. subst o1. destruct Hinj as [-> | Hno]; [reflexivity | exfalso; exact (Hno _ Ho1)].
      * subst o1. subst o2. destruct Hinj as [-> | Hno]; [reflexivity | exfalso; exact (Hno _ Ho2)].
      * congruence.
    + intros o h _ (sl & Hs & Hu & Hg). destruct (Hslot2 _ _ Hs) as (sl' & H' & Hu' & Hg').
      exists sl'. repeat split; [exact H' | rewrite Hu'; exact Hu | congruence].
  - intros q' fr' Hin Hk. apply Hsub in Hin. destruct (oi_locked _ _ _ I q' fr' Hin Hk) as (sl & Hs & Hu).
    destruct (Hslot2 _ _ Hs) as (sl' & H' & Hu' & _). exists sl'. rewrite Hcur. split; [exact H' | congruence].
  - exact Hnd.
Qed.


(* slot i receives a NEW generation g' (allocation of a never-used or deleted slot, or the
   identity-changed path of update on a slot whose memo table is already empty) for frame q *)
Lemma oinv_newgen s F s' q fr fr' i g' slnew :
  OInv s F -> In (q, fr) F ->
  In (i, g') (frame_ids fr') ->
  (forall h, In h (frame_ids fr') -> In h (frame_ids fr) \/ h = (i, g')) ->
  NoDup (map fst (frame_ids fr')) ->
  (forall sl, d_slots s i = Some sl -> sl_updated sl <> None -> forall fam, sl_memos sl fam = None) ->
  (forall sl, d_slots s i = Some sl -> sl_gen sl < g') ->
  (forall o h, owns s F o h -> fst h = i -> o = OwF q) ->
  (forall j, d_slots s' j = updN (d_slots s) i (Some slnew) j) ->
  sl_updated slnew = Some (cur s) -> sl_gen slnew = g' -> (forall fam, sl_memos slnew fam = None) ->
  (d_slots s i = None -> i = d_nslots s /\ d_nslots s' = i + 1) ->
  (d_slots s i <> None -> d_nslots s' = d_nslots s) ->
  (forall x, In x (d_free s') -> In x (d_free s) /\ fst x <> i) -> NoDup (map fst (d_free s')) ->
  d_ideal s' = ((i, g'), slot_fields slnew) :: d_ideal s ->
  d_revs s' = d_revs s -> d_memo s' = d_memo s ->
  OInv s' (set_frame F q fr').
Proof.
  intros I Hq Hnew Hsub Hnd Hmem Hgen Hown Es Hu' Hg' Hm' Hn0 Hn1 Hfree Hfnd Ei Er Em.
  assert (Hcur : cur s' = cur s) by (unfold cur; now rewrite Er).
  assert (Hslot : forall j, d_slots s' j = if i =? j then Some slnew else d_slots s j).
  { intros j. rewrite Es. reflexivity. }
  assert (HF : NoDup (flocs F)) by exact (oi_frames _ _ _ I).
  assert (Hp : forall l m, peek_memo s' l = Some m -> peek_memo s l = Some m).
  { intros l m. unfold Machine.peek_memo. rewrite Em. destruct (skind (fst l)); [|auto].
    rewrite Hslot. destruct (N.eqb_spec i (snd l)) as [E | E]; [|auto].
    rewrite Hu', Hm'. discriminate. }
  assert (Hact : forall l, active_loc (set_frame F q fr') l <-> active_loc F l).
  { intros l. rewrite !active_loc_flocs, flocs_set_frame. reflexivity. }
  apply oinv_intro.
  - apply (store_ok_upd s s' i slnew (oinv_store_ok _ _ I) Es); auto.
    + rewrite Hu'. discriminate.
    + intros sl Hs. pose proof (Hgen sl Hs). lia.
    + right. now rewrite Ei, Hg'.
  - apply (own_transfer skind s F s' (set_frame F q fr') (fun o => o) (OwF q) (i, g') (oinv_own _ _ _ I)); [| auto | exact Hown | | |].
    + intros [q' | l] ids; cbn [Machine.owner_ids].
      * intros (fr0 & Hin & ->). apply (in_set_frame F q fr fr' q' fr0 HF Hq) in Hin.
        destruct Hin as [[-> ->] | [Hne Hin]].
        -- split; [exact Hnd|]. exists (frame_ids fr). split; [exists fr; auto|].
           intros h Hh. destruct (Hsub h Hh) as [? | ->]; auto.
        -- assert (Ho : owner_ids s F (OwF q') (frame_ids fr0)) by (exists fr0; auto).
           split; [exact (oi_nodup _ _ _ I _ _ Ho)|]. exists (frame_ids fr0). split; [exact Ho | auto].
      * intros (Hna & m & Hm & ->).
        assert (Ho : owner_ids s F (OwM l) (mids m)).
        { split; [rewrite <- Hact; exact Hna | exists m; split; [exact (Hp _ _ Hm) | reflexivity]]. }
        split; [exact (oi_nodup _ _ _ I _ _ Ho)|]. exists (mids m). split; [exact Ho | auto].
    + intros o h (ids & Ho & Hin) E. cbn [fst] in E.
      destruct o as [q' | l]; cbn [Machine.owner_ids] in Ho.
      * destruct Ho as (fr0 & Hin0 & ->). apply (in_set_frame F q fr fr' q' fr0 HF Hq) in Hin0.
        destruct Hin0 as [[-> ->] | [Hne Hin0]].
        -- (* the frame of q: indices are unique and (i, g') is there *)
           clear -Hnd Hnew Hin E. induction (frame_ids fr') as [|x l IH]; [destruct Hin|].
           cbn [map] in Hnd. apply NoDup_cons_iff in Hnd. destruct Hnd as [Hx Hr].
           destruct Hin as [Ex | Hin], Hnew as [Ey | Hnew].
           ++ congruence.
           ++ exfalso. apply Hx. apply in_map_iff. exists (i, g'). split; [subst x; symmetry; exact E | exact Hnew].
           ++ exfalso. apply Hx. apply in_map_iff. exists h. split; [subst x; exact E | exact Hin].
           ++ exact (IH Hnew Hr Hin).
        -- exfalso. assert (Hos : owns s F (OwF q') h) by (exists (frame_ids fr0); split; [exists fr0; auto | exact Hin]).
           pose proof (Hown _ _ Hos E) as Eo. injection Eo as ->. contradiction.
      * destruct Ho as (Hna & m & Hm & ->). exfalso.
        assert (Hos : owns s F (OwM l) h).
        { exists (mids m). split; [|exact Hin]. split; [rewrite <- Hact; exact Hna | exists m; split; [exact (Hp _ _ Hm) | reflexivity]]. }
        pose proof (Hown _ _ Hos E). discriminate.
    + intros h (sl & Hs & Hu & Hg) Hne. cbn [fst] in Hne. exists sl. rewrite Hslot.
      destruct (N.eqb_spec i (fst h)); [congruence | auto].
    + intros _. exists slnew. cbn [fst snd]. rewrite Hslot, N.eqb_refl. repeat split; [rewrite Hu'; discriminate | exact Hg'].
  - intros q' fr0 Hin Hk. apply (in_set_frame F q fr fr' q' fr0 HF Hq) in Hin.
    assert (Hin0 : exists fr1, In (q', fr1) F).
    { destruct Hin as [[-> ->] | [_ Hin]]; eauto. }
    destruct Hin0 as (fr1 & Hin1). destruct (oi_locked _ _ _ I q' fr1 Hin1 Hk) as (sl & Hs & Hu).
    rewrite Hslot, Hcur. destruct (N.eqb_spec i (fst (snd q'))) as [E | E].
    + exists slnew. auto.
    + exists sl. auto.
  - rewrite flocs_set_frame. exact HF.
Qed.

End Cases.
