(* Structs/SimBase.v — model-to-machine simulation, part 1: the consistency relation between
   the model's claim stack and the frames of the running executions, the frame relation [rel]
   that every sub-computation of the executable model satisfies, and the primitive steps. *)
From Salsa Require Import Base.
From Salsa.Kern Require Import CoreK.
From Salsa.Structs Require Import Model ProofsBase ProofsCascade Machine ProofsInv ProofsStep ProofsSpecify Guard.

Section SimBase.
Variable skind : N -> bool.
Variable sfams : list N.
Variable idhash : val -> N.
Hypothesis sfams_skind : forall fam, In fam sfams -> skind fam = true.

Notation OInv := (OInv skind).
Notation owns := (owns skind).
Notation owner_ids := (owner_ids skind).
Notation peek_memo := (peek_memo skind).
Notation cur_okb := (cur_okb skind).

(* the struct ids of the memo stored for key p (None: no memo) *)
Definition mst (s : db) (p : qk) : option (list (ident * handle)) :=
  option_map m_structs (peek_memo s (loc_of p)).

Definition locked (s : db) (i : N) : Prop :=
  exists sl, d_slots s i = Some sl /\ sl_updated sl = Some (cur s).

(* claim stack vs frames *)
Record Cons (s : db) (F : frames) : Prop := {
  cn_stack : forall q fr, In (q, fr) F -> In q (d_stack s);
  cn_nodup : NoDup (d_stack s);
  cn_cur : forall q, In q (d_stack s) -> cur_okb s q = true;
  cn_lock : forall q, In q (d_stack s) -> skind (fst q) = true -> locked s (fst (snd q))
}.

(* what a sub-computation may do: same revision counters; a slot that is read-locked in this
   revision stays so and keeps its generation; the struct ids of the memos of the protected keys P
   are kept *)
Record rel (P : list qk) (s s' : db) : Prop := {
  rl_revs : d_revs s' = d_revs s;
  rl_lock : forall i sl, d_slots s i = Some sl -> sl_updated sl = Some (cur s) ->
            exists sl', d_slots s' i = Some sl' /\ sl_updated sl' = Some (cur s) /\ sl_gen sl' = sl_gen sl;
  rl_mst : forall p, In p P -> mst s' p = mst s p
}.

Lemma rel_cur P s s' : rel P s s' -> cur s' = cur s.
Proof. intros R. unfold cur. now rewrite (rl_revs _ _ _ R). Qed.

Lemma rel_refl P s : rel P s s.
Proof. constructor; auto. intros i sl Hs Hu. exists sl. auto. Qed.

Lemma rel_trans P s1 s2 s3 : rel P s1 s2 -> rel P s2 s3 -> rel P s1 s3.
Proof.
  intros A B. pose proof (rel_cur _ _ _ A) as Hc. constructor.
  - rewrite (rl_revs _ _ _ B). exact (rl_revs _ _ _ A).
  - intros i sl Hs Hu. destruct (rl_lock _ _ _ A i sl Hs Hu) as (sl1 & Hs1 & Hu1 & Hg1).
    rewrite <- Hc in Hu1. destruct (rl_lock _ _ _ B i sl1 Hs1 Hu1) as (sl2 & Hs2 & Hu2 & Hg2).
    exists sl2. rewrite Hc in Hu2. repeat split; auto. congruence.
  - intros p Hp. rewrite (rl_mst _ _ _ B p Hp). exact (rl_mst _ _ _ A p Hp).
Qed.

Lemma rel_sub P P' s s' : (forall p, In p P' -> In p P) -> rel P s s' -> rel P' s s'.
Proof. intros Hsub [a b c]. constructor; auto. Qed.

Lemma locked_rel P s s' i : rel P s s' -> locked s i -> locked s' i.
Proof.
  intros R (sl & Hs & Hu). destruct (rl_lock _ _ _ R i sl Hs Hu) as (sl' & Hs' & Hu' & _).
  exists sl'. rewrite (rel_cur _ _ _ R). auto.
Qed.

Lemma cur_okb_rel P s s' (q : qk) :
  rel P s s' -> (skind (fst q) = true -> locked s (fst (snd q))) -> cur_okb s q = true -> cur_okb s' q = true.
Proof.
  intros R Hl. unfold Guard.cur_okb. destruct (skind (fst q)) eqn:Hk; [|auto].
  destruct (Hl eq_refl) as (sl & Hs & Hu). rewrite Hs, Hu.
  destruct (rl_lock _ _ _ R _ sl Hs Hu) as (sl' & Hs' & Hu' & Hg'). rewrite Hs', Hu', Hg'. auto.
Qed.

Lemma Cons_rel P s s' F :
  Cons s F -> rel P s s' -> d_stack s' = d_stack s -> Cons s' F.
Proof.
  intros C R Est. constructor; rewrite ?Est.
  - exact (cn_stack _ _ C).
  - exact (cn_nodup _ _ C).
  - intros q Hq. apply (cur_okb_rel P s s' q R); [intros Hk; exact (cn_lock _ _ C q Hq Hk) | exact (cn_cur _ _ C q Hq)].
  - intros q Hq Hk. exact (locked_rel P s s' _ R (cn_lock _ _ C q Hq Hk)).
Qed.

(* two current keys with the same memo location are the same key *)
Lemma cur_okb_loc s p q : cur_okb s p = true -> cur_okb s q = true -> loc_of p = loc_of q -> p = q.
Proof.
  destruct p as [fp [ip gp]], q as [fq [iq gq]]. unfold Guard.cur_okb, loc_of. cbn [fst snd].
  intros Hp Hq E. injection E as -> ->.
  destruct (skind fq).
  - destruct (d_slots s iq) as [sl|]; [|discriminate]. destruct (sl_updated sl); [|discriminate].
    apply N.eqb_eq in Hp, Hq. congruence.
  - apply N.eqb_eq in Hp, Hq. congruence.
Qed.

(* no frame is active at the location of a current key that is not claimed *)
Lemma not_active_of_unclaimed s F (q : qk) :
  Cons s F -> cur_okb s q = true -> (forall fr, ~ In (q, fr) F) -> ~ active_loc F (loc_of q).
Proof.
  intros C Hq Hnf (q' & fr' & Hin & El).
  assert (q' = q).
  { apply (cur_okb_loc s); [apply (cn_cur _ _ C); exact (cn_stack _ _ C _ _ Hin) | exact Hq | exact El]. }
  subst q'. exact (Hnf fr' Hin).
Qed.

(* ---------------------------------------------------------------- peek under slot changes *)
Lemma peek_same s s' l :
  d_memo s' = d_memo s ->
  (skind (fst l) = true -> d_slots s' (snd l) = d_slots s (snd l)) ->
  peek_memo s' l = peek_memo s l.
Proof.
  intros Em Es. unfold Machine.peek_memo. rewrite Em. destruct (skind (fst l)); [|reflexivity].
  rewrite (Es eq_refl). reflexivity.
Qed.

(* ---------------------------------------------------------------- acquire_read_lock / get_memo *)
Lemma lock_rel P i s s' sl' :
  acquire_read_lock i s = (s', SOk sl') ->
  rel P s s' /\ d_stack s' = d_stack s /\ locked s' i /\
  (forall l, peek_memo s' l = peek_memo s l) /\
  d_slots s' i = Some sl' /\ sl_updated sl' <> None.
Proof.
  intros H. destruct (lock_spec _ _ _ _ H) as [sl Lk].
  pose proof (lk_at Lk) as Hs. pose proof (lk_live Lk) as Hu. pose proof (lk_now Lk) as Hu'.
  pose proof (lk_gen Lk) as Hg. pose proof (lk_memos Lk) as Hm. pose proof (lk_fields Lk) as Hf.
  pose proof (lk_sbs Lk) as B. pose proof (lk_slots Lk) as Es.
  assert (Hp : forall l, peek_memo s' l = peek_memo s l) by (intros l; exact (lock_peek skind _ _ _ _ l H)).
  split; [|split; [exact (sb_stack _ _ B)|split; [|split; [exact Hp|]]]].
  - constructor.
    + exact (sb_revs _ _ B).
    + intros j sl0 H0 Hu0. rewrite Es. unfold updN. destruct (N.eqb_spec i j) as [<- | E].
      * rewrite Hs in H0. injection H0 as <-. exists sl'. auto.
      * exists sl0. auto.
    + intros p _. unfold mst. rewrite Hp. reflexivity.
  - exists sl'. rewrite Es, updN_same. split; [reflexivity|]. rewrite Hu'. f_equal. symmetry. exact (sbs_cur _ _ B).
  - rewrite Es, updN_same. split; [reflexivity | rewrite Hu'; discriminate].
Qed.

Lemma get_memo_sim P (q : qk) s F s' om :
  OInv s F -> get_memo skind q s = (s', SOk om) ->
  OInv s' F /\ rel P s s' /\ d_stack s' = d_stack s /\
  om = peek_memo s' (loc_of q) /\
  (skind (fst q) = true -> locked s' (fst (snd q))).
Proof.
  intros I H. unfold get_memo in H. destruct (skind (fst q)) eqn:Hk.
  - msplit H as sl t H1. mstep H.
    destruct (lock_rel P _ _ _ _ H1) as (R & Est & Hl & Hp & Hs' & Hu').
    split; [exact (lock_oinv skind _ _ _ _ _ I H1)|]. split; [exact R|]. split; [exact Est|]. split; [|auto].
    unfold Machine.peek_memo, loc_of. cbn [fst snd]. rewrite Hk, Hs'.
    destruct (sl_updated sl); [reflexivity | contradiction Hu'; reflexivity].
  - msplit H as x t H1. mstep H1. mstep H.
    split; [exact I|]. split; [apply rel_refl|]. split; [reflexivity|]. split; [|discriminate].
    unfold Machine.peek_memo, loc_of. cbn [fst snd]. rewrite Hk. reflexivity.
Qed.

(* ---------------------------------------------------------------- storing a memo *)
Lemma store_memo_rel P (q : qk) m s s' u :
  store_memo skind q m s = (s', SOk u) ->
  (skind (fst q) = true -> exists sl, d_slots s (fst (snd q)) = Some sl /\ sl_updated sl <> None) ->
  (forall p, In p P -> loc_of p = loc_of q -> mst s p = Some (m_structs m)) ->
  rel P s s' /\ d_stack s' = d_stack s /\ peek_memo s' (loc_of q) = Some m /\
  (forall l, l <> loc_of q -> peek_memo s' l = peek_memo s l).
Proof.
  intros H Hlive HP.
  assert (Hst : d_stack s' = d_stack s).
  { unfold store_memo in H. destruct (skind (fst q)).
    - msplit H as sl t H1. apply get_slot_ok in H1. destruct H1 as [-> _]. apply put_slot_ok in H. subst s'. reflexivity.
    - mstep H. reflexivity. }
  destruct (store_memo_spec skind _ _ _ _ _ H) as (Er & En & Ef & Ei & Hcase).
  assert (Hpq : peek_memo s' (loc_of q) = Some m).
  { unfold Machine.peek_memo, loc_of. cbn [fst snd].
    destruct Hcase as [(Hk & Em & _) | (Hk & Em & sl & Hs & Es)]; rewrite Hk.
    - rewrite Em. apply upd_same.
    - destruct (Hlive Hk) as (sl0 & Hs0 & Hu0). rewrite Hs in Hs0. injection Hs0 as <-.
      rewrite Es, updN_same. cbn [set_sl_memos sl_updated sl_memos].
      destruct (sl_updated sl); [apply updN_same | contradiction Hu0; reflexivity]. }
  assert (Hpo : forall l, l <> loc_of q -> peek_memo s' l = peek_memo s l).
  { intros l Hne. unfold Machine.peek_memo.
    destruct Hcase as [(Hk & Em & Es) | (Hk & Em & sl & Hs & Es)].
    - rewrite Es. destruct (skind (fst l)) eqn:Hkl; [reflexivity|]. rewrite Em. apply upd_other. congruence.
    - destruct (skind (fst l)) eqn:Hkl; [|apply Em].
      rewrite Es. unfold updN. destruct (N.eqb_spec (fst (snd q)) (snd l)) as [E | E]; [|reflexivity].
      rewrite <- E, Hs. cbn [set_sl_memos sl_updated sl_memos].
      destruct (sl_updated sl); [|reflexivity]. unfold updN.
      destruct (N.eqb_spec (fst q) (fst l)) as [E2 | E2]; [|reflexivity].
      exfalso. apply Hne. unfold loc_of. destruct l; cbn [fst snd] in *. congruence. }
  split; [|auto]. constructor.
  - exact Er.
  - intros j sl0 H0 Hu0. destruct Hcase as [(_ & _ & Es) | (Hk & _ & sl & Hs & Es)]; rewrite Es.
    + exists sl0. auto.
    + unfold updN. destruct (N.eqb_spec (fst (snd q)) j) as [<- | E].
      * rewrite Hs in H0. injection H0 as <-. eexists. split; [reflexivity|]. auto.
      * exists sl0. auto.
  - intros p Hp. unfold mst. destruct (key_eqb_spec (loc_of p) (loc_of q)) as [E | E].
    + rewrite E, Hpq. cbn [option_map]. specialize (HP p Hp E). unfold mst in HP. rewrite E in HP. symmetry. exact HP.
    + rewrite (Hpo _ E). reflexivity.
Qed.

(* mark_verified: the stored memo gets verified_at := now; everything else, in particular its
   struct ids, is what the caller read *)
Lemma mark_verified_sim P (q : qk) m s F s' m' :
  OInv s F -> mark_verified skind q m s = (s', SOk m') ->
  mst s q = Some (m_structs m) ->
  OInv s' F /\ rel P s s' /\ d_stack s' = d_stack s /\ m_structs m' = m_structs m /\
  peek_memo s' (loc_of q) = Some m'.
Proof.
  intros I H Hm. unfold mark_verified in H.
  msplit H as x t H1. mstep H1. msplit H as u t2 H2. apply emit_ok in H2. subst t2.
  msplit H as u3 t3 H3. mstep H.
  set (s0 := set_log s (EvValidate q :: d_log s)) in *.
  set (mm := {| m_val := m_val m; m_verified := cur s; m_changed := m_changed m; m_dur := m_dur m;
                m_origin := m_origin m; m_edges := m_edges m; m_structs := m_structs m |}) in *.
  assert (Hpk : forall l, peek_memo s0 l = peek_memo s l) by reflexivity.
  assert (I0 : OInv s0 F).
  { apply (oinv_core_eq skind s s0 F I); reflexivity. }
  assert (Hold : exists old, peek_memo s (loc_of q) = Some old /\ m_structs old = m_structs m).
  { unfold mst in Hm. destruct (peek_memo s (loc_of q)) as [old|]; [|discriminate].
    exists old. split; [reflexivity|]. cbn in Hm. congruence. }
  destruct Hold as (old & Eo & Est).
  pose proof (peek_some_live skind s0 q old Eo) as Hlive.
  destruct (store_memo_rel P q mm s0 t3 u3 H3 Hlive) as (R & Hst & Hpq & Hpo).
  { intros p _ E. unfold mst. rewrite E. change (peek_memo s0 (loc_of q)) with (peek_memo s (loc_of q)).
    rewrite Eo. cbn. f_equal. exact Est. }
  split; [|split; [|split; [exact Hst|split; [reflexivity | exact Hpq]]]].
  - apply (store_memo_oinv skind s0 F t3 F q mm (OwM (loc_of q)) u3 I0 H3 Hlive); auto.
    + exact (oi_frames _ _ _ I0).
    + intros Hna. unfold mids, mm. cbn [m_structs]. rewrite <- Est.
      apply (oi_nodup _ _ _ I0 (OwM (loc_of q)) (mids old)). split; [exact Hna | exists old; auto].
    + intros Hna h Hh. exists (mids old). split; [split; [exact Hna | exists old; auto]|].
      unfold mids, mm in Hh. cbn [m_structs] in Hh. unfold mids. rewrite Est. exact Hh.
  - apply (rel_trans P s s0 t3); [|exact R]. constructor; auto.
    intros i sl Hs Hu. exists sl. auto.
Qed.

End SimBase.
