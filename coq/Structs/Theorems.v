(* Structs/Theorems.v — the C06 / C07 statements over the Structs machine, for every identity
   hash (collisions included), every history of the machine (Structs/Machine.v). *)
From Salsa Require Import Base.
From Salsa.Kern Require Import CoreK.
From Salsa.Structs Require Import Model ProofsBase ProofsCascade Machine ProofsInv ProofsStep.

Section Thms.
Variable skind : N -> bool.
Variable sfams : list N.
Variable idhash : val -> N.
Variable n : nat.
Hypothesis sfams_skind : forall fam, In fam sfams -> skind fam = true.

Notation OInv := (OInv skind).
Notation owns := (owns skind).
Notation owner_ids := (owner_ids skind).
Notation peek_memo := (peek_memo skind).
Notation mstep := (mstep skind sfams idhash n).
Notation mrun := (mrun skind sfams idhash n).

Theorem mrun_oinv es : forall s F s' F',
  OInv s F -> mrun (s, F) es = Some (s', F') -> OInv s' F'.
Proof.
  induction es as [|e es IH]; intros s F s' F' I H; cbn [Machine.mrun] in H.
  - injection H as <- <-. exact I.
  - destruct (mstep (s, F) e) as [[s1 F1]|] eqn:E; [|discriminate].
    exact (IH _ _ _ _ (mstep_oinv skind sfams idhash sfams_skind n _ _ _ _ _ I E) H).
Qed.

Theorem reachable_oinv iv idur es s F :
  mrun (init iv idur, []) es = Some (s, F) -> OInv s F.
Proof. apply mrun_oinv. apply oinv_init. Qed.

(* ---- C06_distinct ---- *)
Lemma oinv_distinct s F :
  OInv s F ->
  (forall o h, owns s F o h -> live s h) /\
  (forall o1 o2 h1 h2, owns s F o1 h1 -> owns s F o2 h2 -> o1 <> o2 -> fst h1 <> fst h2 /\ h1 <> h2) /\
  (forall o ids, owner_ids s F o ids -> NoDup (map fst ids) /\ NoDup ids).
Proof.
  intros I. split; [exact (oi_live _ _ _ I)|]. split.
  - intros o1 o2 h1 h2 H1 H2 Hne.
    assert (Hi : fst h1 <> fst h2) by (intros E; exact (Hne (oi_uniq _ _ _ I _ _ _ _ H1 H2 E))).
    split; [exact Hi | intros E; apply Hi; now rewrite E].
  - intros o ids Ho. pose proof (oi_nodup _ _ _ I _ _ Ho) as Hnd. split; [exact Hnd|].
    exact (NoDup_map_inv _ _ Hnd).
Qed.

Theorem distinct_ids iv idur es s F :
  mrun (init iv idur, []) es = Some (s, F) ->
  (forall o h, owns s F o h -> live s h) /\
  (forall o1 o2 h1 h2, owns s F o1 h1 -> owns s F o2 h2 -> o1 <> o2 -> fst h1 <> fst h2 /\ h1 <> h2) /\
  (forall o ids, owner_ids s F o ids -> NoDup (map fst ids) /\ NoDup ids).
Proof. intros H. exact (oinv_distinct s F (reachable_oinv _ _ _ _ _ H)). Qed.

(* ---- C06_stable: recreation with the same identity keeps id, generation and memo table ---- *)
Theorem stable_recreation s F q fr idv f0 f1 l1 e l2 sl s' h fr' :
  OInv s F -> In (q, fr) F ->
  fr_ids fr = l1 ++ e :: l2 ->
  key_eqb (te_ident e) (idhash idv, cnt_get (fr_disamb fr) (idhash idv)) = true ->
  (forall x, In x l1 -> key_eqb (te_ident x) (idhash idv, cnt_get (fr_disamb fr) (idhash idv)) = false) ->
  d_slots s (fst (te_id e)) = Some sl -> sl_idv sl = idv -> snd (te_id e) + 1 < 4294967296 ->
  new_struct skind sfams idhash n q idv f0 f1 fr s = (s', SOk (h, fr')) ->
  h = te_id e /\ d_log s' = d_log s /\
  exists sl', d_slots s' (fst h) = Some sl' /\ sl_gen sl' = sl_gen sl /\ sl_gen sl' = snd h /\
              sl_updated sl' = Some (cur s) /\ (forall fam, sl_memos sl' fam = sl_memos sl fam) /\
              is_active (fr_ids fr') h = true.
Proof.
  intros I Hq El Hm Hnm Hs Hidv Hgen H.
  destruct (new_struct_cases skind sfams idhash _ _ _ _ _ _ _ _ _ _ H) as (t & slg & cn & ids & Hslg & Es' & Efr & NS).
  assert (He : In e (fr_ids fr)) by (rewrite El; apply in_or_app; right; left; reflexivity).
  destruct NS as [t h Hn0 _ | l1' e' l2' sle t3 u t h ids El' Hm' Hnm' Hsle _ UR K];
    change (idhash idv, cnt_get (fr_disamb fr) (idhash idv)) with (new_key idhash idv fr) in *;
    set (key := new_key idhash idv fr) in *.
  { rewrite (Hn0 e He) in Hm. discriminate. }
  rewrite El in El'. destruct (nomatch_split key _ _ _ _ _ _ El' Hm Hnm Hm' Hnm') as (<- & <- & <-).
  rewrite Hs in Hsle. injection Hsle as <-.
  assert (Hnd : NoDup (map fst (frame_ids fr))) by (apply (oi_nodup _ _ _ I (OwF q)); exists fr; auto).
  destruct (oi_live _ _ _ I _ _ (owns_frame skind s F q fr _ Hq (in_map te_id _ _ He))) as (sle & Hsle & _ & Hgle).
  rewrite Hs in Hsle. injection Hsle as <-.
  (* the activated entry is the one is_active finds: slot indices in the frame are distinct *)
  assert (Hact : is_active (l1 ++ act e :: l2) (te_id e) = true).
  { unfold is_active. unfold frame_ids in Hnd. rewrite El, map_map in Hnd.
    assert (Hfind : forall l0, (forall x, In x l0 -> fst (te_id x) <> fst (te_id e)) ->
              find (fun e0 => handle_eqb (te_id e0) (te_id e)) (l0 ++ act e :: l2) = Some (act e)).
    { induction l0 as [|x l0 IH]; intros Hl0; cbn [app find].
      - cbn [act te_id]. rewrite handle_eqb_refl. reflexivity.
      - destruct (handle_eqb (te_id x) (te_id e)) eqn:Ex.
        + apply handle_eqb_eq in Ex. exfalso. apply (Hl0 x (or_introl eq_refl)). now rewrite Ex.
        + apply IH. intros y Hy. apply Hl0. right. exact Hy. }
    rewrite Hfind; [reflexivity|].
    intros x Hx E. rewrite map_app in Hnd. cbn [map] in Hnd.
    apply (nodup_app_disj _ _ (fst (te_id e)) Hnd); [rewrite <- E; apply in_map_iff; exists x; auto | left; reflexivity]. }
  destruct UR as [Hlk | Hnl Hng | t3 Hnl Hsame Hng B Es Elog | t3 g' ex s1 Hnl Hdiff Hng C Hroot P B Es].
  - rewrite handle_eqb_refl in K. destruct K as (-> & -> & ->). rewrite Efr. subst s'.
    split; [reflexivity|]. split; [reflexivity|]. exists sl. rewrite Hs in Hslg. repeat split; auto.
  - exfalso. rewrite next_gen_spec in Hng. destruct (N.ltb_spec (snd (te_id e) + 1) 4294967296); [discriminate | lia].
  - rewrite handle_eqb_refl in K. destruct K as (-> & -> & ->). rewrite Efr. subst s'.
    split; [reflexivity|]. split; [exact Elog|].
    rewrite Es, updN_same in Hslg. injection Hslg as <-.
    exists (upd_slot sl (sl_gen sl) (fr_dur fr, fr_changed fr) (cur s) idv f0 f1 true).
    cbn [set_ideal set_cname d_slots]. rewrite Es, updN_same. repeat split; auto.
  - contradiction.
Qed.

(* ---- C07: ids that new_struct issues ---- *)
Definition issued (s : db) : list handle := map fst (d_ideal s).

Theorem fresh_or_held s F q fr idv f0 f1 s' h fr' :
  OInv s F -> In (q, fr) F ->
  new_struct skind sfams idhash n q idv f0 f1 fr s = (s', SOk (h, fr')) ->
  (* either the frame already held this id (recreation of the same identity in place) ... *)
  (In h (frame_ids fr) /\ live s h /\
   exists sl sl', d_slots s (fst h) = Some sl /\ d_slots s' (fst h) = Some sl' /\ sl_gen sl' = sl_gen sl /\
                  (sl_updated sl = Some (cur s) \/ sl_idv sl = idv)) \/
  (* ... or it was never issued before, its memo table is empty and every field revision is the
     creator's current changed_at stamp *)
  (~ In h (issued s) /\
   exists sl', d_slots s' (fst h) = Some sl' /\ sl_gen sl' = snd h /\ (forall fam, sl_memos sl' fam = None) /\
               slot_fields sl' = (idv, f0, f1) /\ sl_updated sl' = Some (cur s) /\
               (sl_rev1 sl' = fr_changed fr)).
Proof.
  intros I Hq H.
  destruct (new_struct_cases skind sfams idhash _ _ _ _ _ _ _ _ _ _ H) as (t & slg & cn & ids & Hslg & -> & _ & NS).
  cbn [set_ideal set_cname d_slots].
  (* allocation gives a never-issued id *)
  assert (Halloc : forall t0, allocate (fr_dur fr, fr_changed fr) idv f0 f1 s = (t0, SOk h) ->
            ~ In h (issued s) /\
            d_slots t0 (fst h) = Some (fresh_slot (snd h) (fr_dur fr, fr_changed fr) (cur s) idv f0 f1)).
  { intros t0 Ha. split.
    - intros Hin. unfold issued in Hin. apply in_map_iff in Hin. destruct Hin as ([[i g] x] & E & Hin).
      cbn [fst] in E. subst h. destruct (oi_issued _ _ _ I i g x Hin) as (sl & Hs & Hg).
      pose proof (proj2 (alloc_gen skind _ _ _ _ _ _ _ _ I Ha sl Hs)). cbn [snd] in *. lia.
    - destruct (allocate_spec _ _ _ _ _ _ _ Ha) as (Es & _). rewrite Es. apply updN_same. }
  destruct NS as [t h _ Ha | l1 e l2 sle t3 u t h ids El _ _ Hsle Hule UR K].
  - right. destruct (Halloc _ Ha) as [Hni Hsl]. split; [exact Hni|].
    rewrite Hsl in Hslg. injection Hslg as <-. exists (fresh_slot (snd h) (fr_dur fr, fr_changed fr) (cur s) idv f0 f1).
    repeat split; auto.
  - assert (Hide : In (te_id e) (frame_ids fr)).
    { unfold frame_ids. rewrite El, frame_ids_app. apply in_or_app. right. left. reflexivity. }
    destruct (oi_live _ _ _ I _ _ (owns_frame skind s F q fr _ Hq Hide)) as (sle' & Hsle' & _ & Hgle).
    rewrite Hsle in Hsle'. injection Hsle' as <-.
    destruct UR as [Hlk | Hnl Hng | t3 Hnl Hsame Hng B Es Elog | t3 g' ex s1 Hnl Hdiff Hng C Hroot P B Es].
    + rewrite handle_eqb_refl in K. destruct K as (-> & -> & _).
      left. split; [exact Hide|]. split; [exists sle; auto|].
      exists sle, sle. rewrite Hsle in Hslg. auto.
    + destruct K as (Ha & _). right. destruct (Halloc _ Ha) as [Hni Hsl]. split; [exact Hni|].
      rewrite Hsl in Hslg. injection Hslg as <-. exists (fresh_slot (snd h) (fr_dur fr, fr_changed fr) (cur s) idv f0 f1).
      repeat split; auto.
    + rewrite handle_eqb_refl in K. destruct K as (-> & -> & _).
      left. split; [exact Hide|]. split; [exists sle; auto|].
      exists sle, slg. rewrite Es, updN_same in Hslg. injection Hslg as <-.
      rewrite Es, updN_same. repeat split; auto.
    + rewrite (regen_neq _ _ Hng) in K. destruct K as (-> & -> & _).
      right. split.
      * intros Hin. unfold issued in Hin. apply in_map_iff in Hin. destruct Hin as ([[i g] x] & E & Hin).
        cbn [fst] in E. injection E as -> ->. destruct (oi_issued _ _ _ I _ _ x Hin) as (sl & Hs & Hg).
        rewrite Hsle in Hs. injection Hs as <-. apply next_gen_gt in Hng. lia.
      * rewrite Es, updN_same in Hslg. injection Hslg as <-.
        exists (upd_slot sle g' (fr_dur fr, fr_changed fr) (cur s) idv f0 f1 false). rewrite Es, updN_same.
        repeat split; auto.
Qed.

(* ---- C07: reads through an id that somebody holds agree with the ideal store ---- *)
Lemma held_ideal s F o h :
  OInv s F -> owns s F o h ->
  exists sl, d_slots s (fst h) = Some sl /\ ideal_get (d_ideal s) h = Some (slot_fields sl).
Proof.
  intros I Ho. destruct (oi_live _ _ _ I _ _ Ho) as (sl & Hs & Hu & Hg). exists sl. split; [exact Hs|].
  pose proof (oi_ideal _ _ _ I _ _ Hs Hu) as Hi. rewrite Hg in Hi. destruct h; exact Hi.
Qed.

Theorem read_agrees_ideal s F o h f fr s' v fr' :
  OInv s F -> owns s F o h ->
  read_field h f fr s = (s', SOk (v, fr')) ->
  exists idv f0 f1, ideal_get (d_ideal s) h = Some (idv, f0, f1) /\ v = (if f =? 0 then f0 else f1).
Proof.
  intros I Ho H. destruct (held_ideal s F o h I Ho) as (sl & Hs & Hi).
  unfold read_field in H. msplit H as sl' t0 H0.
  destruct (lock_spec _ _ _ _ H0) as [sl0 Lk0].
  pose proof (lk_at Lk0) as Hs0. pose proof (lk_fields Lk0) as Hf. pose proof (lk_rev0 Lk0) as Hr0.
  pose proof (lk_rev1 Lk0) as Hr1.
  rewrite Hs in Hs0. injection Hs0 as <-.
  exists (sl_idv sl), (sl_f0 sl), (sl_f1 sl). split; [exact Hi|].
  unfold slot_fields in Hf. injection Hf as _ E0 E1.
  destruct (f =? 0); mstep H; congruence.
Qed.

Theorem idfield_agrees_ideal s F o h s' v :
  OInv s F -> owns s F o h ->
  read_idfield h s = (s', SOk v) ->
  exists f0 f1, ideal_get (d_ideal s) h = Some (v, f0, f1).
Proof.
  intros I Ho H. destruct (held_ideal s F o h I Ho) as (sl & Hs & Hi).
  unfold read_idfield in H. msplit H as sl' t0 H0.
  destruct (lock_spec _ _ _ _ H0) as [sl0 Lk0].
  pose proof (lk_at Lk0) as Hs0. pose proof (lk_fields Lk0) as Hf.
  rewrite Hs in Hs0. injection Hs0 as <-. mstep H.
  exists (sl_f0 sl), (sl_f1 sl). unfold slot_fields in *. injection Hf as -> _ _. exact Hi.
Qed.

(* memo lookups through an id somebody holds land in the memo table of that very id *)
Theorem memo_lookup_current s F o h fam :
  OInv s F -> owns s F o h -> skind fam = true ->
  exists sl, d_slots s (fst h) = Some sl /\ sl_gen sl = snd h /\ peek_memo s (fam, fst h) = sl_memos sl fam.
Proof.
  intros I Ho Hk. destruct (oi_live _ _ _ I _ _ Ho) as (sl & Hs & Hu & Hg).
  exists sl. repeat split; auto. unfold Machine.peek_memo. cbn [fst snd]. rewrite Hk, Hs.
  destruct (sl_updated sl); [reflexivity | contradiction Hu; reflexivity].
Qed.

(* dependency checks on a tracked field: decided by the slot's current field revision only *)
Theorem field_mca_spec h f since s s' b :
  field_mca h f since s = (s', SOk b) ->
  s' = s /\ exists sl, d_slots s (fst h) = Some sl /\
    (b = true <-> since < (if f =? 0 then sl_rev0 sl else sl_rev1 sl)).
Proof.
  unfold field_mca. intros H. msplit H as sl t0 H0. apply get_slot_ok in H0. destruct H0 as [-> Hs]. mstep H.
  split; [reflexivity|]. exists sl. split; [exact Hs|].
  unfold Kernels.k_changed_after_tracked_field.
  destruct (N.ltb_spec since (if f =? 0 then sl_rev0 sl else sl_rev1 sl)); split; intros; try lia; try reflexivity; try discriminate.
Qed.


(* ---- C06_discard ---- *)
Lemma live_slots_in s : forall k i, In i (live_slots s k) ->
  exists sl, d_slots s i = Some sl /\ sl_updated sl <> None.
Proof.
  induction k as [|k IH]; intros i H; cbn [live_slots] in H; [destruct H|].
  apply in_app_or in H. destruct H as [H | H]; [exact (IH i H)|].
  destruct (d_slots s (N.of_nat k)) as [sl|] eqn:E; [|destruct H].
  destruct (sl_updated sl) as [r|] eqn:Eu; [|destruct H].
  destruct H as [<- | []]. exists sl. split; [exact E | rewrite Eu; discriminate].
Qed.

Lemma put_memo_frame q m s s' u :
  put_memo skind q m s = (s', SOk u) ->
  d_free s' = d_free s /\
  forall j, (skind (fst q) = true -> j <> fst (snd q)) -> d_slots s' j = d_slots s j.
Proof.
  unfold put_memo. intros H. msplit H as u0 t0 H0.
  assert (H1 : d_free t0 = d_free s /\ forall j, (skind (fst q) = true -> j <> fst (snd q)) -> d_slots t0 j = d_slots s j).
  { destruct (skind (fst q)) eqn:Hk.
    - msplit H0 as sl0 t1 H1. mstep H0.
      destruct (lock_spec _ _ _ _ H1) as [sl Lk].
      pose proof (lk_sbs Lk) as B. pose proof (lk_slots Lk) as Es.
      split; [exact (sb_free _ _ B)|]. intros j Hj. rewrite Es. apply updN_other. intros E. exact (Hj eq_refl (eq_sym E)).
    - mstep H0. auto. }
  destruct H1 as [Ef0 Es0].
  destruct (store_memo_spec skind _ _ _ _ _ H) as (_ & _ & Ef & _ & Hcase).
  split; [congruence|]. intros j Hj. rewrite <- (Es0 j Hj).
  destruct Hcase as [(_ & _ & Es) | (Hk & _ & sl & _ & Es)]; [apply Es|].
  rewrite Es. apply updN_other. intros E. exact (Hj Hk (eq_sym E)).
Qed.

Theorem discard_stale s F q fr v s' m o e :
  OInv s F -> In (q, fr) F ->
  peek_memo s (loc_of q) = Some o -> (forall by_, m_origin o <> OAssigned by_) ->
  finish_exec skind sfams n q (peek_memo s (loc_of q)) v fr s = (s', SOk m) ->
  In e (fr_ids fr) -> te_active e = false ->
  (* the struct that was not recreated is deleted: write-locked, memo table empty, slot on the
     free list, not enumerated *)
  exists sl, d_slots s' (fst (te_id e)) = Some sl /\ sl_updated sl = None /\
             (forall fam, sl_memos sl fam = None) /\ In (te_id e) (d_free s') /\
             ~ In (fst (te_id e)) (live_slots s' (N.to_nat (d_nslots s'))).
Proof.
  intros I Hq Eo Hor H He Hina. rewrite Eo in H.
  destruct (finish_exec_cases skind sfams _ _ _ _ _ _ _ _ H) as (ch & t0 & u2 & _ & H0 & _ & H2).
  set (stale := snd (drain (fr_ids fr))) in *.
  destruct (diff_outputs_casc sfams n o q stale (fr_edges fr) s t0 H0) as (ex & C & P & R).
  assert (Hr : In (te_id e) (diff_roots o stale)).
  { assert (Hst : In (te_id e) (map snd stale)).
    { apply (drain_stale (fr_ids fr)). apply in_map. apply filter_In. split; [exact He | rewrite Hina; reflexivity]. }
    unfold diff_roots. destruct (m_origin o) as [| | by_] eqn:Eor; [exact Hst | exact Hst | exfalso; exact (Hor by_ eq_refl)]. }
  pose proof (R _ Hr) as Hin.
  destruct (cs_died _ _ _ C _ Hin) as (sl & Hs & Hu & Hlk & Hd).
  destruct (put_memo_frame _ _ _ _ _ H2) as [Ef Eoth].
  assert (Hne : skind (fst q) = true -> fst (te_id e) <> fst (snd q)).
  { intros Hk E. destruct (oi_locked _ _ _ I q fr Hq Hk) as (sl1 & Hs1 & Hu1).
    rewrite <- E, Hs in Hs1. injection Hs1 as <-. contradiction. }
  exists (dead sl). rewrite (Eoth _ Hne). split; [exact Hd|]. split; [reflexivity|]. split; [reflexivity|]. split.
  - rewrite Ef, (cs_free _ _ _ C). apply in_or_app. right. exact Hin.
  - intros Hl. destruct (live_slots_in _ _ _ Hl) as (sl2 & Hs2 & Hu2).
    rewrite (Eoth _ Hne), Hd in Hs2. injection Hs2 as <-. apply Hu2. reflexivity.
Qed.

(* what the completed execution keeps: exactly the entries it created or recreated *)
Theorem kept_exactly s F q fr v s' m :
  OInv s F -> In (q, fr) F ->
  finish_exec skind sfams n q (peek_memo s (loc_of q)) v fr s = (s', SOk m) ->
  mids m = map te_id (filter te_active (fr_ids fr)) /\
  peek_memo s' (loc_of q) = Some m /\
  (forall h, In h (mids m) -> live s' h).
Proof.
  intros I Hq H. destruct (finish_oinv skind sfams sfams_skind n q _ v fr s F s' m I Hq H) as [I' Em].
  split; [exact Em|].
  assert (Hp : peek_memo s' (loc_of q) = Some m).
  { destruct (finish_exec_cases skind sfams _ _ _ _ _ _ _ _ H) as (ch & t0 & u2 & _ & _ & _ & H2).
    unfold put_memo in H2. msplit H2 as u3 t3 H3.
    unfold Machine.peek_memo. cbn [loc_of fst snd].
    destruct (store_memo_spec skind _ _ _ _ _ H2) as (_ & _ & _ & _ & Hcase).
    destruct Hcase as [(Hk & Em' & _) | (Hk & _ & sl & Hs & Es)]; rewrite Hk.
    - rewrite Em'. unfold loc_of. apply upd_same.
    - rewrite Hk in H3. msplit H3 as sl0 t4 H4. mstep H3.
      destruct (lock_spec _ _ _ _ H4) as [sl1 Lk1].
      pose proof (lk_now Lk1) as Hu'. pose proof (lk_slots Lk1) as Es1.
      rewrite Es1, updN_same in Hs. injection Hs as <-.
      rewrite Es, updN_same. cbn [set_sl_memos sl_updated sl_memos]. rewrite Hu'. apply updN_same. }
  split; [exact Hp|].
  intros h Hh. apply (oi_live _ _ _ I' (OwM (loc_of q))). exists (mids m). split; [|exact Hh].
  split; [|exists m; auto].
  intros (q' & fr' & Hin & El). pose proof (oi_frames _ _ _ I) as HF.
  apply (in_del_frame F q fr q' fr' HF Hq) in Hin. destruct Hin as [Hne Hin].
  destruct (frames_fun_loc F q' q fr' fr HF Hin Hq El) as [E _]. contradiction.
Qed.

End Thms.
