(* Structs/Examples.v — concrete runs of the executable Structs model and of the Structs machine:
   non-vacuity witnesses for the C06/C07/C10 theorems and vm_compute witnesses of the deviation
   classes found on the real crate (the same cases are replayed on the implementation by
   checks/C10.py and checks/C06.py; see checks/notes). *)
From Salsa Require Import Base.
From Salsa.Kern Require Import CoreK.
From Salsa.Structs Require Import Model Spec Dsl Machine ProofsBase ProofsCascade ProofsInv ProofsStep Theorems.

(* the harness vocabulary: families 2 (ontr) and 3 (spec) are keyed by the tracked struct *)
Definition skind5 (f : N) : bool := (f =? 2) || (f =? 3).
Definition sfams5 : list N := [2; 3].

Lemma sfams5_skind fam : In fam sfams5 -> skind5 fam = true.
Proof. intros [<- | [<- | []]]; reflexivity. Qed.

Fixpoint lookup3 (tbl : list ((N * N) * N)) (k : N * N) : N :=
  match tbl with
  | [] => 0
  | (k', v) :: tbl' => if key_eqb k' k then v else lookup3 tbl' k
  end.

Definition run_case (nodes : list ((N * N) * expr)) (ival idur : list ((N * N) * N)) (ops : list op)
           (nk : N) (idhash : val -> N) : db * list out :=
  run_ops (prog_of nk skind5 nodes) skind5 sfams5 idhash 40%nat (init (lookup3 ival) (lookup3 idur)) ops.

Definition spec_after (nodes : list ((N * N) * expr)) (nk : N) (s : db) (q : qk) :=
  spec_get (prog_of nk skind5 nodes) skind5 (snap_of s) 40%nat q.

Definition k1_nodes : list ((N * N) * expr) := [((2, 0), (ELet 0 HSelf (EOp BAdd (ECallS 3 0) (EInp 1 0)) (ELit 0))); ((1, 0), (EOp BAdd (ELet 3 (HNew (EOp BAnd (EInp 0 1) (ELit 1)) (ECall 0 (ELit 0)) (EOp BMax (EInp 1 1) (EInp 0 0))) (EOp BAdd (EOp BAdd (ECallS 2 3) (ESpecify 3 3 (EOp BAnd (EInp 1 2) (EInp 1 1)))) (ERetH 3)) (ELit 0)) (ELet 2 (HNew (EOp BAnd (EInp 1 2) (ELit 3)) (EOp BEq (ELit 3) (EInp 1 0)) (EInp 0 1)) (EOp BAdd (EOp BAdd (ECallS 3 2) (ERetH 2)) (EField 2 1)) (ELit 0)))); ((4, 1), (EOp BAdd (EOp BAdd (ELit 0) (ELet 3 (HNth 1 (ELit 0) 0) (EOp BAdd (EField 3 0) (ECallS 3 3)) (ELit 0))) (ELet 2 (HNth 1 (ELit 0) 2) (EField 2 0) (ELit 7))))].
Definition k1_ival : list ((N * N) * N) := [((0, 0), 2); ((0, 1), 0); ((0, 2), 0); ((1, 0), 0); ((1, 1), 3); ((1, 2), 1)].
Definition k1_idur : list ((N * N) * N) := [].
Definition k1_ops : list op := [OGetS 3 (1, (0, 0)) 0; OSet (0, 0) 3 None; OGet (4, (1, 0))].
Definition k1_nk : N := 2.
Definition k1_idhash (v : val) : N := v.

Definition k2_nodes : list ((N * N) * expr) := [((1, 0), (EOp BAdd (EOp BAdd (ELet 2 (HNew (ELit 1) (ELit 1) (EOp BMin (EInp 1 2) (ECall 0 (ELit 1)))) (EOp BAdd (EOp BAdd (EOp BAdd (EOp BAdd (EIf (EInp 0 0) (ESpecify 3 2 (EIf (ECall 0 (ELit 1)) (ECall 0 (ELit 1)) (ECall 0 (ELit 0)))) (ELit 0)) (ECallS 3 2)) (ECallS 2 2)) (EField 2 1)) (ERetH 2)) (ELit 0)) (ELit 0)) (ELit 0))); ((4, 0), (EOp BAdd (ELet 2 (HNth 1 (ELit 2) 0) (EOp BAdd (EOp BAdd (ECallS 3 2) (EIdField 2)) (EField 2 1)) (ELit 7)) (ECall 1 (ELit 0)))); ((4, 2), (EOp BAdd (EOp BAdd (ELet 2 (HNth 1 (ELit 0) 2) (EOp BAdd (ECallS 2 2) (EField 2 1)) (ELit 0)) (ELet 3 (HNth 1 (ELit 0) 2) (EOp BAdd (ERetH 3) (ECallS 2 3)) (ELit 7))) (ELit 0)))].
Definition k2_ival : list ((N * N) * N) := [((0, 0), 0); ((0, 1), 2); ((0, 2), 3); ((1, 0), 3); ((1, 1), 3); ((1, 2), 0); ((2, 0), 3); ((2, 1), 2); ((2, 2), 3)].
Definition k2_idur : list ((N * N) * N) := [].
Definition k2_ops : list op := [OSet (0, 0) 1 None; OGet (4, (2, 0)); OSet (0, 0) 0 None; OGet (4, (0, 0))].
Definition k2_nk : N := 3.
Definition k2_idhash (v : val) : N := v.

Definition k3_nodes : list ((N * N) * expr) := [((2, 1), (ELet 0 HSelf (EOp BAdd (EOp BAdd (ECallS 3 0) (EField 0 1)) (ELit 1)) (ELit 0))); ((1, 2), (EOp BAdd (ELit 0) (EIf (ELit 1) (ELet 3 (HNew (ELit 1) (ELit 2) (EInp 1 2)) (EOp BAdd (EOp BAdd (EIf (EInp 0 0) (ESpecify 3 3 (EOp BMax (EInp 1 0) (EInp 0 1))) (ELit 0)) (ERetH 3)) (ECallS 2 3)) (ELit 0)) (ELit 0))))].
Definition k3_ival : list ((N * N) * N) := [((0, 0), 0); ((0, 1), 3); ((0, 2), 2); ((1, 0), 1); ((1, 1), 2); ((1, 2), 3); ((2, 0), 2); ((2, 1), 0); ((2, 2), 3)].
Definition k3_idur : list ((N * N) * N) := [((1, 2), 2); ((2, 1), 0)].
Definition k3_ops : list op := [OSet (0, 0) 1 None; OGet (1, (2, 0)); OSet (0, 0) 0 None; OGet (1, (2, 0))].
Definition k3_nk : N := 3.
Definition k3_idhash (v : val) : N := v mod 2.

Definition coll2_nodes : list ((N * N) * expr) := [((1, 0), (EIf (EInp 0 0) (EOp BAdd (ELet 2 (HNew (ELit 0) (ELit 5) (ELit 0)) (ERetH 2) (ELit 0)) (ELet 3 (HNew (ELit 2) (ELit 6) (ELit 0)) (ERetH 3) (ELit 0))) (EOp BAdd (ELet 3 (HNew (ELit 2) (ELit 6) (ELit 0)) (ERetH 3) (ELit 0)) (ELet 2 (HNew (ELit 0) (ELit 5) (ELit 0)) (ERetH 2) (ELit 0)))))].
Definition coll2_ival : list ((N * N) * N) := [((0, 0), 1)].
Definition coll2_idur : list ((N * N) * N) := [].
Definition coll2_ops : list op := [OGet (1, (0, 0)); OSet (0, 0) 0 None; OGet (1, (0, 0))].
Definition coll2_nk : N := 2.
Definition coll2_idhash (v : val) : N := v mod 2.

Definition coll0_nodes : list ((N * N) * expr) := [((1, 0), (EIf (EInp 0 0) (EOp BAdd (ELet 2 (HNew (ELit 0) (ELit 5) (ELit 0)) (ERetH 2) (ELit 0)) (ELet 3 (HNew (ELit 2) (ELit 6) (ELit 0)) (ERetH 3) (ELit 0))) (EOp BAdd (ELet 3 (HNew (ELit 2) (ELit 6) (ELit 0)) (ERetH 3) (ELit 0)) (ELet 2 (HNew (ELit 0) (ELit 5) (ELit 0)) (ERetH 2) (ELit 0)))))].
Definition coll0_ival : list ((N * N) * N) := [((0, 0), 1)].
Definition coll0_idur : list ((N * N) * N) := [].
Definition coll0_ops : list op := [OGet (1, (0, 0)); OSet (0, 0) 0 None; OGet (1, (0, 0))].
Definition coll0_nk : N := 2.
Definition coll0_idhash (v : val) : N := v.


(* ---- C10: the deviation classes, on the model (= the implementation, checks/C10.py) ---- *)

(* K1: the creator computes spec(s) through a callee, then specifies it.  Fresh database: the
   computed value is kept (7).  Incremental: the callee is only validated in revision 2, the
   specify overwrites the stale Derived memo, the reader sees the specified value (8). *)
Example k1_model_vs_from_scratch :
  let '(s, outs) := run_case k1_nodes k1_ival k1_idur k1_ops k1_nk k1_idhash in
  nth_error outs 2 = Some (SOk (8, [])) /\
  spec_after k1_nodes k1_nk s (4, (1, 0)) = SOk (7, []).
Proof. vm_compute. split; reflexivity. Qed.

(* K2: the creator stops specifying; the body recomputes a value equal to the assigned one with
   older inputs: the backdate assertion fires (debug builds), a fresh database returns 7. *)
Example k2_model_vs_from_scratch :
  let '(s, outs) := run_case k2_nodes k2_ival k2_idur k2_ops k2_nk k2_idhash in
  nth_error outs 3 = Some (SPanic PBackdate) /\
  spec_after k2_nodes k2_nk s (4, (0, 0)) = SOk (7, []).
Proof. vm_compute. split; reflexivity. Qed.

(* K3: the creator stops specifying; spec(s) recomputes to a different value whose changed_at is
   old; ontr(s), which read the assigned value, is validated: 7 instead of 4. *)
Example k3_model_vs_from_scratch :
  let '(s, outs) := run_case k3_nodes k3_ival k3_idur k3_ops k3_nk k3_idhash in
  nth_error outs 3 = Some (SOk (7, [(0, 0)])) /\
  (exists nm, spec_after k3_nodes k3_nk s (1, (2, 0)) = SOk (4, nm)).
Proof. vm_compute. split; [reflexivity | eexists; reflexivity]. Qed.

(* the full C10 statement (results equal a fresh evaluation, with specify) is FALSE of the
   transcribed algorithm *)
Definition from_scratch_with_specify : Prop :=
  forall nodes ival idur ops nk idhash i q v hs,
    nth_error ops i = Some (OGet q) ->
    nth_error (snd (run_case nodes ival idur ops nk idhash)) i = Some (SOk (v, hs)) ->
    exists nm, spec_after nodes nk (fst (run_case nodes ival idur (firstn (S i) ops) nk idhash)) q = SOk (v, nm).

Lemma k1_fresh_value :
  spec_after k1_nodes k1_nk (fst (run_case k1_nodes k1_ival k1_idur (firstn 3 k1_ops) k1_nk k1_idhash)) (4, (1, 0))
  = SOk (7, []).
Proof. vm_compute. reflexivity. Qed.

Lemma k1_incremental_value :
  nth_error (snd (run_case k1_nodes k1_ival k1_idur k1_ops k1_nk k1_idhash)) 2 = Some (SOk (8, [])).
Proof. vm_compute. reflexivity. Qed.

Theorem from_scratch_with_specify_refuted : ~ from_scratch_with_specify.
Proof.
  intros H.
  destruct (H k1_nodes k1_ival k1_idur k1_ops k1_nk k1_idhash 2%nat (4, (1, 0)) 8 [] eq_refl k1_incremental_value)
    as (nm & E).
  rewrite k1_fresh_value in E. discriminate.
Qed.

(* ---- C06: identity-HASH collisions of different identity values ---- *)
(* creations [0; 2] then [2; 0]: per-identity-value order unchanged.  With an injective hash the
   ids are kept (swapped in the result); with hash = value mod 2 both structs get a new
   generation: C06_stable is stated per hash class. *)
Example collision_changes_ids :
  nth_error (snd (run_case coll2_nodes coll2_ival coll2_idur coll2_ops coll2_nk coll2_idhash)) 0
    = Some (SOk (0, [(0, 0); (1, 0)])) /\
  nth_error (snd (run_case coll2_nodes coll2_ival coll2_idur coll2_ops coll2_nk coll2_idhash)) 2
    = Some (SOk (0, [(0, 1); (1, 1)])) /\
  nth_error (snd (run_case coll0_nodes coll0_ival coll0_idur coll0_ops coll0_nk coll0_idhash)) 2
    = Some (SOk (0, [(1, 0); (0, 0)])).
Proof. vm_compute. repeat split; reflexivity. Qed.

(* ---- a machine history exercising every path (non-vacuity of the machine theorems) ---- *)
Definition hmod2 (v : val) : N := v mod 2.
Definition qa : qk := (1, (0, 0)).      (* mk(0) *)
Definition qb : qk := (1, (1, 0)).      (* mk(1) *)
Notation mrun5 := (mrun skind5 sfams5 hmod2 10%nat).

Definition hist1 : list mev :=
  [ MBegin qa; MNew qa 0 5 6; MNew qa 1 7 8; MNew qa 0 9 9; MEnd qa (0, []);     (* slots 0,1,2 *)
    MBegin qb; MNew qb 0 1 1; MEnd qb (0, []);                                    (* slot 3 *)
    MRev;
    MBegin qa; MStamp qa 0 2; MNew qa 0 5 7; MNew qa 3 0 0; MEnd qa (1, []);      (* keeps 0.0; 1 -> identity changed: 1.1; 2.0 discarded *)
    MRev;
    MBegin qb; MNew qb 0 1 1; MNew qb 0 2 2; MEnd qb (0, []);                      (* keeps 3.0; allocates the freed slot: 2.1 *)
    MLock 0 ].

Notation st0 := (init (fun _ => 0) (fun _ => 0), @nil (qk * frame)).

Example hist1_runs :
  match mrun5 st0 hist1 with
  | Some (s, F) =>
      F = [] /\ d_free s = [] /\ d_nslots s = 4 /\
      option_map mids (peek_memo skind5 s (1, 0)) = Some [(0, 0); (1, 1)] /\
      option_map mids (peek_memo skind5 s (1, 1)) = Some [(3, 0); (2, 1)] /\
      map fst (d_ideal s) = [(2, 1); (3, 0); (1, 1); (0, 0); (3, 0); (2, 0); (1, 0); (0, 0)]
  | None => False
  end.
Proof. vm_compute. repeat split; reflexivity. Qed.

Lemma hist1_some : exists st, mrun5 st0 hist1 = Some st.
Proof. vm_compute. eexists. reflexivity. Qed.

Example hist1_invariant : exists s F, mrun5 st0 hist1 = Some (s, F) /\ OInv skind5 s F.
Proof.
  destruct hist1_some as [[s F] E]. exists s, F. split; [exact E|].
  exact (reachable_oinv skind5 sfams5 hmod2 10%nat sfams5_skind _ _ _ _ _ E).
Qed.

(* struct deletion with a memo keyed by the struct: ontr(s) owns a struct of its own *)
Definition qo : qk := (2, (0, 0)).      (* ontr on slot 0 *)
Definition hist2 : list mev :=
  [ MBegin qa; MNew qa 0 1 1; MEnd qa (0, []);                  (* slot 0 *)
    MBegin qo; MNew qo 1 2 2; MEnd qo (0, []);                  (* ontr(0.0) creates slot 1 *)
    MRev;
    MBegin qa; MEnd qa (0, []) ].                               (* mk(0) creates nothing: cascade 0.0 -> ontr memo -> 1.0 *)

Example hist2_cascade :
  match mrun5 st0 hist2 with
  | Some (s, F) =>
      d_free s = [(1, 0); (0, 0)] /\ live_slots s 2 = [] /\
      List.rev (d_log s) = [EvWillDiscard qa (0, 0); EvDiscardS (0, 0); EvDiscardM (2, (0, 0)); EvDiscardS (1, 0)]
  | None => False
  end.
Proof. vm_compute. repeat split; reflexivity. Qed.
