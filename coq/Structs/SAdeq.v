(* Structs/SAdeq.v — adequacy of the world-based from-scratch value: among the worlds that are
   CONSISTENT for q (every struct created in the closure of q holds, in the world's store, the
   fields its creator gives it), the value of q is a function of the inputs, the cells and the
   allocator alone.  So `Ew (wcur s) q` of STop.get_ok is THE from-scratch value of q for the
   current inputs under the handle naming chosen by the engine's allocator. *)
From Salsa Require Import Base.
From Salsa.Structs Require Import Model Machine SSem SInv STop STop2.

Section Adeq.
Variable prog : qk -> body.
Variable idhash : val -> N.
Variable rank : qk -> nat.
Hypothesis Hrank : calls_below prog rank.
Variable NF : nat.
Hypothesis Hbound : forall q, (rank q < NF)%nat.
Hypothesis Hprov : no_forge idhash prog.

Notation Ew := (Ew idhash prog NF).
Notation trw := (trw idhash prog NF).
Notation envw := (envw idhash prog NF).
Notation clos := (clos idhash prog NF).
Notation wcons := (wcons prog idhash NF).

(* same inputs, same cells, same naming of the created structs *)
Definition same_inputs (w w' : world) : Prop :=
  (forall i, w_in w i = w_in w' i) /\ (forall c, w_cell w c = w_cell w' c) /\
  (forall d id, w_alloc w d id = w_alloc w' d id).

Section Two.
Variables w w' : world.
Variable q : qk.
Hypothesis Hsame : same_inputs w w'.
Hypothesis Hc : wcons w q.
Hypothesis Hc' : wcons w' q.

Definition same_at (d : qk) : Prop :=
  clos w q d -> clos w' q d -> trw w' d = trw w d /\ Ew w' d = Ew w d.

(* below the induction bound, the whole cone of a common member is common, with equal traces *)
Lemma cone_same n : (forall d, (rank d < n)%nat -> same_at d) ->
  forall c A, clos w c A -> (rank c < n)%nat -> clos w q c -> clos w' q c ->
  clos w q A /\ clos w' q A /\ trw w' A = trw w A.
Proof.
  intros IH c A HcA. induction HcA as [f | f d0 e Hin Hd0 IHc]; intros Hn Hq Hq'.
  - split; [exact Hq|]. split; [exact Hq'|]. exact (proj1 (IH f Hn Hq Hq')).
  - pose proof (trw_calls idhash prog rank Hrank NF w f d0 Hin) as Hr.
    destruct (IH f Hn Hq Hq') as [Ht _].
    apply IHc.
    + lia.
    + eapply clos_right; [exact Hq | exact Hin].
    + eapply clos_right; [exact Hq' | rewrite Ht; exact Hin].
Qed.

Lemma unique_step n : (forall d, (rank d < n)%nat -> same_at d) -> forall d, (rank d < S n)%nat -> same_at d.
Proof.
  intros IH d Hn Hq Hq'.
  assert (A : agree_on (envw w d) (envw w' d) (trw w d)).
  { destruct (first_changed_is_read_again idhash (prog d) (envw w d) (envw w' d) []) as [A | B]; [exact A|].
    exfalso. destruct B as (pre & r & post & Et & Hpre & Hne & post' & Et').
    fold (trw w d) in Et. fold (trw w' d) in Et'.
    assert (Hin : In r (trw w d)) by (rewrite Et; apply in_or_app; right; left; reflexivity).
    assert (Hin' : In r (trw w' d)) by (rewrite Et'; apply in_or_app; right; left; reflexivity).
    destruct Hsame as (Si & Sc & Sa).
    apply Hne. clear Hne.
    (* a handle read through here has the same fields in both stores *)
    assert (Hslot : forall h, rd_uses r h -> w_slot w h = w_slot w' h).
    { intros h Hu.
      destruct (prov_prefix idhash (prog d) (envw w d) [] [] pre r post h (Hprov _ d) Et Hu)
        as [[] | [(id & idv & f0 & f1 & Hp & ->) | (c & Hp & Hh)]].
      - cbn [envw mkenv e_new].
        assert (I1 : In (RNew id idv f0 f1) (trw w d)) by (rewrite Et; apply in_or_app; left; exact Hp).
        assert (I2 : In (RNew id idv f0 f1) (trw w' d)) by (rewrite Et'; apply in_or_app; left; exact Hp).
        rewrite (Hc d Hq id idv f0 f1 I1). rewrite Sa. rewrite (Hc' d Hq' id idv f0 f1 I2). reflexivity.
      - cbn [envw mkenv e_q] in Hh.
        assert (I1 : In (RQ c) (trw w d)) by (rewrite Et; apply in_or_app; left; exact Hp).
        assert (I2 : In (RQ c) (trw w' d)) by (rewrite Et'; apply in_or_app; left; exact Hp).
        pose proof (trw_calls idhash prog rank Hrank NF w d c I1) as Hr.
        destruct (creator_exists idhash prog rank Hrank NF Hbound Hprov w (S (rank c)) c h (le_n _)) as (B & HcB & id & idv & f0 & f1 & HB & ->).
        { right. right. rewrite <- (Ew_unfold Hrank Hbound). exact Hh. }
        destruct (cone_same n IH c B HcB) as (Q1 & Q2 & Q3).
        + lia.
        + eapply clos_right; [exact Hq | exact I1].
        + eapply clos_right; [exact Hq' | exact I2].
        + rewrite (Hc B Q1 id idv f0 f1 HB). rewrite Sa.
          rewrite <- Q3 in HB. rewrite (Hc' B Q2 id idv f0 f1 HB). reflexivity. }
    destruct r as [i | c | c | | id idv f0 f1 | h f | h]; cbn [answer envw mkenv e_in e_cell e_q e_new e_slot].
    - rewrite Si. reflexivity.
    - pose proof (trw_calls idhash prog rank Hrank NF w d c Hin) as Hr.
      symmetry. apply (IH c).
      + lia.
      + eapply clos_right; [exact Hq | exact Hin].
      + eapply clos_right; [exact Hq' | exact Hin'].
    - rewrite Sc. reflexivity.
    - reflexivity.
    - rewrite Sa. reflexivity.
    - rewrite (Hslot h); [reflexivity | left; exists f; reflexivity].
    - rewrite (Hslot h); [reflexivity | right; reflexivity]. }
  destruct (trace_determined idhash (prog d) _ _ [] A) as [Ht Hr].
  split; [exact Ht|]. rewrite !(Ew_unfold Hrank Hbound). exact Hr.
Qed.

Lemma unique_all : forall n d, (rank d < n)%nat -> same_at d.
Proof.
  induction n as [|n IH]; intros d Hn; [inversion Hn|]. exact (unique_step n IH d Hn).
Qed.

Theorem scratch_unique : Ew w' q = Ew w q.
Proof. exact (proj2 (unique_all (S (rank q)) q (le_n _) (clos_refl _ _ _ _ _) (clos_refl _ _ _ _ _))). Qed.
End Two.
End Adeq.

(* ---------------------------------------------------------------- the history theorem, world-free *)
(* every Get of the history answers with the value of q in EVERY consistent world that has the
   current inputs and cells and names created structs like the engine's allocator *)
Section History.
Variable prog : qk -> body.
Variable skind : N -> bool.
Variable idhash : val -> N.
Variable NF : nat.

Fixpoint gets_scratch (fuel : nat) (s : db) (os : list op) : Prop :=
  match os with
  | [] => True
  | o :: os' =>
      let s' := fst (step prog skind [] idhash fuel s o) in
      (match o with
       | OGet q => exists v, snd (step prog skind [] idhash fuel s o) = SOk v /\
                             (forall w, same_inputs (wcur s') w -> wcons prog idhash NF w q -> v = Ew idhash prog NF w q) /\
                             wcons prog idhash NF (wcur s') q /\
                             (forall h, In h (snd v) -> live s' h)
       | _ => True
       end) /\ gets_scratch fuel s' os'
  end.

Variable rank : qk -> nat.
Hypothesis Hrank : calls_below prog rank.
Hypothesis Hbound : forall q, (rank q < NF)%nat.
Hypothesis Hprov : no_forge idhash prog.

Lemma gets_ok_scratch fuel : forall os s, gets_ok prog skind idhash NF fuel s os -> gets_scratch fuel s os.
Proof.
  induction os as [|o os IH]; intros s H; [exact Logic.I|].
  cbn [gets_ok gets_scratch] in *. destruct H as [Ho Hr]. split; [|exact (IH _ Hr)].
  destruct o as [i v d | d | c v | q | fam q i | ]; try exact Logic.I.
  destruct Ho as (v & Ev & Hv & Hw & Hl). exists v. split; [exact Ev|]. split; [|split; [exact Hw | exact Hl]].
  intros w Hsame Hcw. rewrite Hv.
  symmetry. exact (scratch_unique prog idhash rank Hrank NF Hbound Hprov (wcur _) w q Hsame Hw Hcw).
Qed.
End History.

Lemma s1_ops_s1b prog os : Forall (s1_op prog) os -> forall b, s1b_ops prog b os.
Proof.
  intros H. induction H as [|o os Ho _ IH]; intros b; [exact Logic.I|].
  destruct o as [i v d | d | c v | q | fam q i | ]; cbn [s1_op s1b_ops] in *; try contradiction; auto.
Qed.

Theorem from_scratch_S1_init :
  forall (prog : qk -> body) (skind : N -> bool) (idhash : val -> N) (rank : qk -> nat) (NF : nat),
  calls_below prog rank -> (forall q, (rank q < NF)%nat) ->
  no_forge idhash prog -> (forall q, SRun.nospec (prog q)) -> (forall f, skind f = false) ->
  (forall q d, calls (prog q) d -> gk d) -> (forall q d, calls (prog q) d -> SRun.first_read (prog d)) ->
  forall fuel iv os,
  Forall (s1_op prog) os -> 1 + 2 * N.of_nat (length os) < SRun.GMAX ->
  Forall2 Sim.okout os (snd (run_ops prog skind [] idhash fuel (init iv (fun _ => 0)) os)) ->
  gets_scratch prog skind idhash NF fuel (init iv (fun _ => 0)) os.
Proof.
  intros prog skind idhash rank NF Hrank Hbound Hprov Hns Hnk Hgk Hfirst fuel iv os Hops Hb Hok.
  apply (gets_ok_scratch prog skind idhash NF rank Hrank Hbound Hprov).
  apply (from_scratch_S1b prog skind idhash rank Hrank NF Hbound Hprov Hgk Hnk Hfirst Hns fuel os _ 0 false).
  - apply init_ok.
  - discriminate.
  - cbn. unfold REV_START. lia.
  - exact Hb.
  - exact (s1_ops_s1b prog os Hops false).
  - exact Hok.
Qed.

(* ---------------------------------------------------------------- every Get, after every prefix *)
Section Prefix.
Variable prog : qk -> body.
Variable skind : N -> bool.
Variable idhash : val -> N.
Variable NF : nat.

Lemma run_ops_fst_cons fuel s o os :
  fst (run_ops prog skind [] idhash fuel s (o :: os)) =
  fst (run_ops prog skind [] idhash fuel (fst (step prog skind [] idhash fuel s o)) os).
Proof.
  cbn [run_ops]. destruct (step prog skind [] idhash fuel s o) as [s1 r]. cbn [fst].
  destruct (run_ops prog skind [] idhash fuel s1 os) as [s2 rs]. reflexivity.
Qed.

Lemma gets_scratch_prefix fuel : forall os1 s q os2,
  gets_scratch prog skind idhash NF fuel s (os1 ++ OGet q :: os2) ->
  let s1 := fst (run_ops prog skind [] idhash fuel s os1) in
  let s' := fst (step prog skind [] idhash fuel s1 (OGet q)) in
  exists v, snd (step prog skind [] idhash fuel s1 (OGet q)) = SOk v /\
            (forall w, same_inputs (wcur s') w -> wcons prog idhash NF w q -> v = Ew idhash prog NF w q) /\
            wcons prog idhash NF (wcur s') q /\
            (forall h, In h (snd v) -> live s' h).
Proof.
  induction os1 as [|o os1 IH]; intros s q os2 H.
  - cbn [app gets_scratch] in H. exact (proj1 H).
  - cbn [app gets_scratch] in H. destruct H as [_ H].
    cbv zeta. rewrite run_ops_fst_cons. exact (IH _ q os2 H).
Qed.
End Prefix.

Theorem dependents_S1 :
  forall (prog : qk -> body) (skind : N -> bool) (idhash : val -> N) (rank : qk -> nat) (NF : nat),
  calls_below prog rank -> (forall q, (rank q < NF)%nat) ->
  no_forge idhash prog -> (forall q, SRun.nospec (prog q)) -> (forall f, skind f = false) ->
  (forall q d, calls (prog q) d -> gk d) -> (forall q d, calls (prog q) d -> SRun.first_read (prog d)) ->
  forall fuel iv os,
  Forall (s1_op prog) os -> 1 + 2 * N.of_nat (length os) < SRun.GMAX ->
  Forall2 Sim.okout os (snd (run_ops prog skind [] idhash fuel (init iv (fun _ => 0)) os)) ->
  forall os1 q os2, os = os1 ++ OGet q :: os2 ->
  let s1 := fst (run_ops prog skind [] idhash fuel (init iv (fun _ => 0)) os1) in
  let s' := fst (step prog skind [] idhash fuel s1 (OGet q)) in
  exists v, snd (step prog skind [] idhash fuel s1 (OGet q)) = SOk v /\
            (forall w, same_inputs (wcur s') w -> wcons prog idhash NF w q -> v = Ew idhash prog NF w q) /\
            wcons prog idhash NF (wcur s') q /\
            (forall h, In h (snd v) -> live s' h).
Proof.
  intros prog skind idhash rank NF Hrank Hbound Hprov Hns Hnk Hgk Hfirst fuel iv os Hops Hb Hok os1 q os2 E.
  apply (gets_scratch_prefix prog skind idhash NF fuel os1 _ q os2). rewrite <- E.
  exact (from_scratch_S1_init prog skind idhash rank NF Hrank Hbound Hprov Hns Hnk Hgk Hfirst fuel iv os Hops Hb Hok).
Qed.
