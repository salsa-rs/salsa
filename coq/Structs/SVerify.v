(* Structs/SVerify.v — deep verification: walking the recorded edges in order; when every edge
   is unchanged the memo may be marked verified now.  Then execute, verify_memo, fetch and
   maybe_changed_after at every level keep the from-scratch invariant; a fetch leaves a memo
   verified now holding the value it returns. *)
From Salsa Require Import Base.
From Salsa.Kern Require Import CoreK CoreKFacts.
From Salsa.Structs Require Import Model ProofsBase ProofsCascade Machine ProofsInv ProofsStep Theorems Guard SimBase SimOps Sim
     SSem SInv SSlots SFrame SNewInv SRun SExec.

(* ---------------------------------------------------------------- the edge list of a trace *)
Lemma add_edge_nodup es e : NoDup es -> NoDup (add_edge es e).
Proof.
  intros H. unfold add_edge. destruct (existsb (edge_eqb e) es) eqn:E; [exact H|].
  apply nodup_app; [exact H | constructor; [intros [] | constructor] |].
  intros x Hx [E0 | []]. subst x. assert (existsb (edge_eqb e) es = true); [|congruence].
  apply existsb_exists. exists e. split; [exact Hx | apply edge_eqb_eq; reflexivity].
Qed.

Lemma edges_of_nodup t : NoDup (edges_of t).
Proof.
  induction t as [|x t IH] using rev_ind; [constructor|].
  rewrite edges_of_snoc. unfold edge_step. destruct (rd_edge x); [apply add_edge_nodup; exact IH | exact IH].
Qed.

Lemma in_edges_of t e : In e (edges_of t) <-> exists x, In x t /\ rd_edge x = Some e.
Proof.
  induction t as [|y t IH] using rev_ind.
  - cbn. split; [intros [] | intros (x & [] & _)].
  - rewrite edges_of_snoc. unfold edge_step. destruct (rd_edge y) as [ey|] eqn:Ey.
    + rewrite In_add_edge, IH. split.
      * intros [(x & Hx & Ex) | ->]; [exists x; split; [apply in_or_app; left; exact Hx | exact Ex]|].
        exists y. split; [apply in_or_app; right; left; reflexivity | exact Ey].
      * intros (x & Hx & Ex). apply in_app_or in Hx. destruct Hx as [Hx | [<- | []]]; [left; eauto | right; congruence].
    + rewrite IH. split.
      * intros (x & Hx & Ex). exists x. split; [apply in_or_app; left; exact Hx | exact Ex].
      * intros (x & Hx & Ex). apply in_app_or in Hx. destruct Hx as [Hx | [<- | []]]; [eauto | congruence].
Qed.

(* the first read that produces an edge, and the edges recorded before it *)
Lemma edges_first t e : In e (edges_of t) ->
  exists pre x post tail, t = pre ++ x :: post /\ rd_edge x = Some e /\ edges_of t = edges_of pre ++ e :: tail.
Proof.
  induction t as [|y t IH] using rev_ind; [intros []|].
  rewrite edges_of_snoc. unfold edge_step. intros Hin.
  destruct (in_dec (fun a b : edge => match edge_eqb a b as c return (edge_eqb a b = c -> {a = b} + {a <> b}) with
                                      | true => fun H => left (proj1 (edge_eqb_eq a b) H)
                                      | false => fun H => right (fun E => ltac:(apply (proj2 (edge_eqb_eq a b)) in E; congruence))
                                      end eq_refl) e (edges_of t)) as [Hold | Hnew].
  - destruct (IH Hold) as (pre & x & post & tail & Et & Ex & Ee).
    exists pre, x, (post ++ [y]). destruct (rd_edge y) as [ey|] eqn:Ey.
    + unfold add_edge. destruct (existsb (edge_eqb ey) (edges_of t)).
      * exists tail. split; [rewrite Et, <- app_assoc; reflexivity | auto].
      * exists (tail ++ [ey]). split; [rewrite Et, <- app_assoc; reflexivity|]. split; [exact Ex|].
        rewrite Ee, <- app_assoc. reflexivity.
    + exists tail. split; [rewrite Et, <- app_assoc; reflexivity | auto].
  - destruct (rd_edge y) as [ey|] eqn:Ey; [|contradiction].
    apply In_add_edge in Hin. destruct Hin as [Hin | ->]; [contradiction|].
    exists t, y, [], []. split; [reflexivity|]. split; [exact Ey|].
    unfold add_edge. destruct (existsb (edge_eqb ey) (edges_of t)) eqn:Ex; [|reflexivity].
    exfalso. apply Hnew. apply existsb_exists in Ex. destruct Ex as (z & Hz & Ez). apply edge_eqb_eq in Ez. subst z. exact Hz.
Qed.

Lemma nodup_split_unique {A} (l : list A) a b a' b' e :
  NoDup l -> l = a ++ e :: b -> l = a' ++ e :: b' -> a = a'.
Proof.
  revert l a'. induction a as [|x a IH]; intros l a' Hnd E1 E2.
  - destruct a' as [|y a']; [reflexivity|]. exfalso. subst l. cbn [app] in E2. injection E2 as <- E2.
    apply NoDup_cons_iff in Hnd. destruct Hnd as [Hni _]. apply Hni. rewrite E2. apply in_or_app. right. left. reflexivity.
  - destruct a' as [|y a'].
    + exfalso. rewrite E1 in E2. cbn [app] in E2. injection E2 as -> E2. rewrite E1 in Hnd. cbn [app] in Hnd.
      apply NoDup_cons_iff in Hnd. destruct Hnd as [Hni _]. apply Hni. apply in_or_app. right. left. reflexivity.
    + rewrite E1 in E2. cbn [app] in E2. injection E2 as <- E2. f_equal.
      apply (IH (a ++ e :: b) a'); [|reflexivity | exact E2].
      rewrite E1 in Hnd. cbn [app] in Hnd. apply NoDup_cons_iff in Hnd. exact (proj2 Hnd).
Qed.

Section Verify.
Variable prog : qk -> body.
Variable skind : N -> bool.
Variable idhash : val -> N.
Variable rank : qk -> nat.
Hypothesis Hrank : calls_below prog rank.
Variable NF : nat.
Hypothesis Hbound : forall q, (rank q < NF)%nat.
Hypothesis Hprov : no_forge idhash prog.
Hypothesis Hgk : forall q d, calls (prog q) d -> gk d.
Hypothesis Hnk : forall f, skind f = false.
Hypothesis Hfirst : forall q d, calls (prog q) d -> first_read (prog d).
Hypothesis Hns : forall q, nospec (prog q).

Notation Ew := (Ew idhash prog NF).
Notation trw := (trw idhash prog NF).
Notation envw := (envw idhash prog NF).
Notation SInv := (SInv prog skind idhash NF).
Notation smemo_ok := (smemo_ok prog idhash NF).
Notation dval := (dval prog idhash NF).
Notation Er := (Er prog idhash NF).
Notation trr := (trr prog idhash NF).
Notation fetch_spec := (fetch_spec prog skind idhash NF).
Notation mca_spec := (mca_spec prog skind idhash NF).

(* an edge of the memo m (verified at v) that has been found unchanged, in a form that stays
   true while the state is extended *)
Definition efact (s : db) (m : memo) (e : edge) : Prop :=
  match e with
  | EIn i => f_changed (d_in s i) <= m_verified m
  | EQ d => exists md, d_memo s (loc_of d) = Some md /\ m_verified md = cur s /\ m_changed md <= m_verified m
  | EFld h f => (exists id, In (id, h) (m_structs m)) \/
                (exists l mA id sl, d_memo s l = Some mA /\ m_verified mA = cur s /\ In (id, h) (m_structs mA) /\
                                    live_h s h sl /\ revf sl f <= m_verified m)
  | EOut _ => False
  end.

Lemma efact_sext s s' m e : sext s s' -> efact s m e -> efact s' m e.
Proof.
  intros X. pose proof (sext_cur _ _ X) as Hc. destruct e as [i | d | h f | o]; cbn [efact]; auto.
  - rewrite (x_in X). auto.
  - intros (md & Hmd & Hv & Hle). exists md. split; [exact (x_valid X _ md Hmd Hv)|]. rewrite Hc. auto.
  - intros [A | (l & mA & id & sl & HmA & Hv & Hin & Hl & Hr)]; [left; exact A | right].
    destruct (x_settled X l mA id h HmA Hv Hin sl (proj1 Hl) (proj1 (proj2 Hl))) as (sl' & Hs' & Hu' & Hg' & Hf' & A0 & A1 & _).
    exists l, mA, id, sl'. split; [exact (x_valid X l mA HmA Hv)|]. split; [rewrite Hc; exact Hv|]. split; [exact Hin|].
    split; [split; [exact Hs'|]; split; [exact Hu'|]; destruct Hl as (_ & _ & Hg); congruence|].
    unfold revf in *. destruct (f =? 0); congruence.
Qed.

Lemma keeps_refl s F : keeps s s F.
Proof. split; [reflexivity|]. split; auto. Qed.

Lemma keeps_trans s1 s2 s3 F : keeps s1 s2 F -> keeps s2 s3 F -> keeps s1 s3 F.
Proof.
  intros (A1 & B1 & C1) (A2 & B2 & C2). split; [congruence|]. split.
  - intros p Hp. rewrite (B2 p) by (rewrite A1; exact Hp). exact (B1 p Hp).
  - intros p frp h0 Hp Hh0. rewrite (C2 p frp h0 Hp Hh0). exact (C1 p frp h0 Hp Hh0).
Qed.

(* ---------------------------------------------------------------- walking the edges *)
Lemma listed_live Hs s F l mA id h : SInv Hs s F -> d_memo s l = Some mA -> m_verified mA = cur s -> In (id, h) (m_structs mA) ->
  exists sl, live_h s h sl.
Proof.
  intros I HmA Hv Hin.
  assert (Hst : settled s (kq l)) by (exists mA; rewrite loc_kq; auto).
  destruct (mo_own (si_memo I l mA HmA) (settled_not_active I Hst) id h Hin) as (sl & Hl & _). eauto.
Qed.

(* a handle in the value of a callee whose edge is unchanged is listed by a memo verified now *)
Lemma callee_handle_listed Hs s F q m d h :
  SInv Hs s F -> gk q -> d_memo s (loc_of q) = Some m ->
  In (RQ d) (trr Hs s (m_verified m) q) -> efact s m (EQ d) ->
  In h (snd (Er Hs s (m_verified m) d)) ->
  exists l mA id, d_memo s l = Some mA /\ m_verified mA = cur s /\ In (id, h) (m_structs mA).
Proof.
  intros I Hg Hm Hin (md & Hmd & Hvd & Hle) Hh.
  pose proof (memo_ok_of I Hg Hm) as Hok.
  pose proof (trw_gk prog idhash NF Hgk _ _ _ Hin) as Hgd.
  destruct (dv_memo (mo_obs Hok d (clos_one _ _ _ _ _ _ Hin))) as (md' & Hmd' & _ & Hobs).
  rewrite Hmd in Hmd'. injection Hmd' as <-. rewrite (Hobs Hle), Hvd in Hh.
  pose proof (mo_val (memo_ok_of I Hgd Hmd)) as Ev. rewrite Hvd in Ev.
  destruct (result_hokq prog skind idhash rank Hrank NF Hbound Hprov Hgk Hs s F d md _ frame0 I Hgd Hmd Hvd Ev h Hh)
    as [A | (id & [])]. exact A.
Qed.

(* when the walk reaches a field edge with every earlier edge unchanged: the query created the
   struct itself, or found the handle in the value of an unchanged callee verified now *)
Lemma field_edge_fact Hs s F q m done es h f sl0 :
  SInv Hs s F -> gk q -> d_memo s (loc_of q) = Some m ->
  m_edges m = done ++ EFld h f :: es -> (forall e, In e done -> efact s m e) ->
  d_slots s (fst h) = Some sl0 -> revf sl0 f <= m_verified m ->
  efact s m (EFld h f).
Proof.
  intros I Hg Hm Eed Hdone Hsl0 Hrev. pose proof (memo_ok_of I Hg Hm) as Hok.
  assert (Hin0 : In (EFld h f) (m_edges m)) by (rewrite Eed; apply in_or_app; right; left; reflexivity).
  pose proof (mo_eorder Hok) as Eo.
  assert (Hine : In (EFld h f) (edges_of (trr Hs s (m_verified m) q))) by (rewrite <- Eo; exact Hin0).
  destruct (edges_first _ _ Hine) as (pre & x & post & tail & Et & Ex & Ee).
  assert (x = RFld h f) by (destruct x; cbn in Ex; try discriminate; injection Ex as <- <-; reflexivity). subst x.
  assert (Edone : done = edges_of pre).
  { apply (nodup_split_unique (m_edges m) done es (edges_of pre) tail (EFld h f)); [rewrite Eo; apply edges_of_nodup | exact Eed | rewrite Eo; exact Ee]. }
  destruct (prov_prefix idhash (prog q) (envw (W Hs s (m_verified m)) q) [] [] pre (RFld h f) post h (Hprov _ q) Et)
    as [[] | [(id & idv & g0 & g1 & Hnew & Eh) | (d & Hd & Hh)]].
  { left. exists f. reflexivity. }
  - left. exists id. apply (proj2 (mo_structs Hok)). split; [|exact Eh].
    apply in_news_ids. exists idv, g0, g1. rewrite Et. apply in_or_app. left. exact Hnew.
  - right. assert (HinQ : In (RQ d) (trr Hs s (m_verified m) q)).
    { rewrite Et. apply in_or_app. left. exact Hd. }
    assert (Hfd : efact s m (EQ d)).
    { apply Hdone. rewrite Edone. apply in_edges_of. exists (RQ d). split; [exact Hd | reflexivity]. }
    destruct (callee_handle_listed Hs s F q m d h I Hg Hm HinQ Hfd Hh) as (l & mA & id & HmA & HvA & HinA).
    destruct (listed_live Hs s F l mA id h I HmA HvA HinA) as (sl & Hl).
    exists l, mA, id, sl. split; [exact HmA|]. split; [exact HvA|]. split; [exact HinA|]. split; [exact Hl|].
    assert (sl = sl0) by (destruct Hl as (E1 & _); congruence). subst sl. exact Hrev.
Qed.

Theorem walk_ok L Hs q m : mca_spec L -> forall es done s F s' b,
  SInv Hs s F -> gk q -> d_memo s (loc_of q) = Some m -> m_verified m < cur s -> In q (d_stack s) ->
  ~ active_loc F (loc_of q) -> cur s < GMAX ->
  m_edges m = done ++ es -> (forall e, In e done -> efact s m e) ->
  walk_edges skind L q es (m_verified m) s = (s', SOk b) ->
  SInv Hs s' F /\ sext s s' /\ keeps s s' F /\ (b = false -> forall e, In e (m_edges m) -> efact s' m e).
Proof.
  intros HM. induction es as [|e0 es IH]; intros done s F s' b I Hg Hm Hv Hst Hna Hcur Eed Hdone H; cbn [walk_edges] in H.
  - apply ret_ok in H. destruct H as [-> ->]. split; [exact I|]. split; [apply sext_refl|]. split; [apply keeps_refl|].
    intros _ e He. rewrite Eed, app_nil_r in He. exact (Hdone e He).
  - pose proof (memo_ok_of I Hg Hm) as Hok.
    assert (Hin0 : In e0 (m_edges m)) by (rewrite Eed; apply in_or_app; right; left; reflexivity).
    assert (Eed' : m_edges m = (done ++ [e0]) ++ es) by (rewrite <- app_assoc; exact Eed).
    destruct e0 as [i | c | h f | o].
    + (* an input *)
      apply bind_ok in H. destruct H as (x & t & H1 & H). apply get_ok in H1. destruct H1 as [-> ->].
      destruct (changed_after (f_changed (d_in s i)) (m_verified m)) eqn:Ec.
      * apply ret_ok in H. destruct H as [-> ->]. split; [exact I|]. split; [apply sext_refl|]. split; [apply keeps_refl | discriminate].
      * apply (IH (done ++ [EIn i]) s F s' b I Hg Hm Hv Hst Hna Hcur Eed'); [|exact H].
        intros e He. apply in_app_or in He. destruct He as [He | [<- | []]]; [exact (Hdone e He)|].
        cbn. apply changed_after_false. exact Ec.
    + (* a callee *)
      apply bind_ok in H. destruct H as (ch & s1 & H1 & H).
      assert (Hinr : In (RQ c) (trr Hs s (m_verified m) q)) by (apply (mo_q Hok); exact Hin0).
      pose proof (trw_gk prog idhash NF Hgk _ _ _ Hinr) as Hgc.
      assert (Hfc : first_read (prog c)).
      { apply (Hfirst q). unfold SInv.trr, SSem.trw in Hinr. exact (calls_of_trace idhash _ _ _ _ Hinr). }
      destruct (HM Hs s F c (m_verified m) s1 ch I Hgc Hfc Hcur H1) as (I1 & X1 & K1 & Hres).
      pose proof (sext_cur _ _ X1) as Hc1.
      destruct ch.
      * apply ret_ok in H. destruct H as [-> ->]. split; [exact I1|]. split; [exact X1|]. split; [exact K1 | discriminate].
      * destruct K1 as (A1 & B1 & C1).
        destruct (IH (done ++ [EQ c]) s1 F s' b I1 Hg) as (I' & X' & K' & Hf'); auto.
        -- rewrite (B1 q Hst). exact Hm.
        -- rewrite Hc1. exact Hv.
        -- rewrite A1. exact Hst.
        -- rewrite Hc1. exact Hcur.
        -- intros e He. apply in_app_or in He. destruct He as [He | [<- | []]]; [exact (efact_sext s s1 m e X1 (Hdone e He))|].
           destruct (Hres eq_refl) as (md & Hmd & Hvd & Hle). cbn. exists md. rewrite Hc1. auto.
        -- split; [exact I'|]. split; [exact (sext_trans _ _ _ X1 X')|]. split; [|exact Hf'].
           exact (keeps_trans s s1 s' F (conj A1 (conj B1 C1)) K').
    + (* a tracked field *)
      apply bind_ok in H. destruct H as (ch & s1 & H1 & H).
      destruct (field_mca_spec h f (m_verified m) s s1 ch H1) as (-> & sl0 & Hsl0 & Hch).
      destruct ch.
      * apply ret_ok in H. destruct H as [-> ->]. split; [exact I|]. split; [apply sext_refl|]. split; [apply keeps_refl | discriminate].
      * assert (Hrev : revf sl0 f <= m_verified m).
        { unfold revf. destruct (N.le_gt_cases (if f =? 0 then sl_rev0 sl0 else sl_rev1 sl0) (m_verified m)) as [A | A]; [exact A|].
          apply Hch in A. discriminate. }
        apply (IH (done ++ [EFld h f]) s F s' b I Hg Hm Hv Hst Hna Hcur Eed'); [|exact H].
        intros e He. apply in_app_or in He. destruct He as [He | [<- | []]]; [exact (Hdone e He)|].
        exact (field_edge_fact Hs s F q m done es h f sl0 I Hg Hm Eed Hdone Hsl0 Hrev).
    + exfalso. exact (mo_out Hok o Hin0).
Qed.

(* ---------------------------------------------------------------- marking verified *)
Lemma mark_verified_nk q m s :
  mark_verified skind q m s =
  (set_memo (set_log s (EvValidate q :: d_log s))
            (upd (d_memo s) (loc_of q)
               (Some {| m_val := m_val m; m_verified := cur s; m_changed := m_changed m; m_dur := m_dur m;
                        m_origin := m_origin m; m_edges := m_edges m; m_structs := m_structs m |})),
   SOk {| m_val := m_val m; m_verified := cur s; m_changed := m_changed m; m_dur := m_dur m;
          m_origin := m_origin m; m_edges := m_edges m; m_structs := m_structs m |}).
Proof. unfold mark_verified, store_memo. rewrite Hnk. reflexivity. Qed.

(* the handles a verified run reads through are live *)
Lemma used_live Hs s F q m h :
  SInv Hs s F -> gk q -> d_memo s (loc_of q) = Some m -> ~ active_loc F (loc_of q) ->
  (forall e, In e (m_edges m) -> efact s m e) ->
  (exists f, In (RFld h f) (trr Hs s (m_verified m) q)) \/ In (RIdf h) (trr Hs s (m_verified m) q) ->
  exists sl, live_h s h sl /\
    ((exists id, In (id, h) (m_structs m) /\ slot_fields sl = w_slot (W Hs s (m_verified m)) h) \/
     (exists l mA id, d_memo s l = Some mA /\ m_verified mA = cur s /\ In (id, h) (m_structs mA))).
Proof.
  intros I Hg Hm Hna Hfacts Hu.
  pose proof (memo_ok_of I Hg Hm) as Hok.
  assert (Hu' : uses idhash (envw (W Hs s (m_verified m)) q) (prog q) [] h).
  { destruct Hu as [A | A]; [left; exact A | right; left; exact A]. }
  destruct (prov_uses idhash (prog q) _ [] [] h (Hprov _ q) Hu') as [[] | [(id & idv & g0 & g1 & Hnew & Eh) | (d & Hd & Hh)]].
  - assert (Hin : In (id, h) (m_structs m)).
    { apply (proj2 (mo_structs Hok)). split; [apply in_news_ids; eauto | exact Eh]. }
    destruct (mo_own Hok Hna id h Hin) as (sl & Hl & Hf & _).
    exists sl. split; [exact Hl|]. left. exists id. auto.
  - assert (Hfd : efact s m (EQ d)) by (apply Hfacts; apply (mo_q Hok); exact Hd).
    destruct (callee_handle_listed Hs s F q m d h I Hg Hm Hd Hfd Hh) as (l & mA & id & HmA & HvA & HinA).
    destruct (listed_live Hs s F l mA id h I HmA HvA HinA) as (sl & Hl).
    exists sl. split; [exact Hl|]. right. exists l, mA, id. auto.
Qed.

(* When every recorded edge of m is unchanged, the world read off the state gives the verified
   run the answers of the world in which m was verified: m, verified now, is ok again. *)
Section Mark.
Variable Hs : hist.
Variables (s : db) (F : frames) (q : qk) (m : memo).
Hypothesis I : SInv Hs s F.
Hypothesis Hg : gk q.
Hypothesis Hm : d_memo s (loc_of q) = Some m.
Hypothesis Hv : m_verified m < cur s.
Hypothesis Hna : ~ active_loc F (loc_of q).
Hypothesis Hor : m_origin m = ODerived.
Hypothesis Hfacts : forall e, In e (m_edges m) -> efact s m e.

Let m' := {| m_val := m_val m; m_verified := cur s; m_changed := m_changed m; m_dur := m_dur m;
             m_origin := m_origin m; m_edges := m_edges m; m_structs := m_structs m |}.
Let s' := set_memo (set_log s (EvValidate q :: d_log s)) (upd (d_memo s) (loc_of q) (Some m')).
Let Hok := memo_ok_of I Hg Hm.

Lemma mark_old m0 : d_memo s (loc_of q) = Some m0 -> m_verified m0 < cur s /\ m_changed m0 <= m_changed m'.
Proof. intros Hm0. rewrite Hm in Hm0. injection Hm0 as <-. split; [exact Hv | cbn; lia]. Qed.

Lemma mark_sext : sext s s'.
Proof. apply (store_sext s s' (loc_of q) m'); try reflexivity. exact mark_old. Qed.

Lemma mark_memo : d_memo s' (loc_of q) = Some m'.
Proof. cbn. apply upd_same. Qed.

Lemma mark_callee d : In (RQ d) (trr Hs s (m_verified m) q) ->
  gk d /\ loc_of d <> loc_of q /\ exists md, d_memo s' (loc_of d) = Some md /\ m_verified md = cur s.
Proof.
  intros Hd. pose proof (trw_gk prog idhash NF Hgk _ _ _ Hd) as Hgd. split; [exact Hgd|].
  assert (Hfd : efact s m (EQ d)) by (apply Hfacts; apply (mo_q Hok); exact Hd).
  destruct Hfd as (md & Hmd & Hvd & _).
  assert (Hne : loc_of d <> loc_of q).
  { intros E. rewrite E, Hm in Hmd. injection Hmd as <-. lia. }
  split; [exact Hne|]. exists md. split; [|exact Hvd]. cbn. rewrite upd_other by congruence. exact Hmd.
Qed.

Lemma mark_agree : agree_on (envw (W Hs s (m_verified m)) q) (envw (wcur s') q) (trr Hs s (m_verified m) q).
Proof.
  pose proof (mo_order Hok) as (Ho1 & Ho2 & Ho3).
  intros r Hr. destruct r as [i | d | c | | id idv f0 f1 | h f | h]; cbn [answer SSem.envw mkenv e_in e_cell e_q e_slot e_new].
  - assert (Hle : f_changed (d_in s i) <= (m_verified m)) by (apply (Hfacts (EIn i)); apply (mo_in Hok); exact Hr).
    rewrite (si_in I i (m_verified m) Hle Ho3). reflexivity.
  - assert (Hfd : efact s m (EQ d)) by (apply Hfacts; apply (mo_q Hok); exact Hr).
    destruct Hfd as (md & Hmd & Hvd & Hle).
    pose proof (trw_gk prog idhash NF Hgk _ _ _ Hr) as Hgd.
    destruct (dv_memo (mo_obs Hok d (clos_one _ _ _ _ _ _ Hr))) as (md' & Hmd' & _ & Hobs).
    rewrite Hmd in Hmd'. injection Hmd' as <-.
    change (Ew (W Hs s (m_verified m)) d) with (Er Hs s (m_verified m) d). rewrite (Hobs Hle), Hvd, Er_cur.
    assert (Hsd : settled s d) by (exists md; auto).
    symmetry. exact (proj1 (proj2 (settled_stable prog skind idhash rank Hrank NF Hbound Hprov Hgk Hs s F s' d I mark_sext Hgd Hsd))).
  - exfalso. assert (Eo : m_origin m = OUntracked) by (apply (mo_untr Hok _ Hr); right; eauto). congruence.
  - reflexivity.
  - cbn [wcur w_alloc]. rewrite mark_memo. cbn [m_structs m']. f_equal. f_equal.
    destruct (mo_structs Hok) as [Hnd Hiff]. symmetry. apply (assoc_id_nodup _ _ _ Hnd).
    apply Hiff. split; [apply in_news_ids; eauto | reflexivity].
  - destruct (used_live Hs s F q m h I Hg Hm Hna Hfacts) as (sl & Hl & Hcase); [left; eauto|].
    f_equal. cbn [wcur w_slot]. change (d_slots s') with (d_slots s). destruct Hl as (Hs0 & Hl'). rewrite Hs0, fld3_slot.
    destruct Hcase as [(id & Hin & Hf) | _].
    + rewrite <- Hf. apply fld3_slot.
    + assert (Hfe : efact s m (EFld h f)) by (apply Hfacts; apply (mo_fld Hok); exact Hr).
      destruct Hfe as [(id & Hin) | (l & mA & id & sl1 & _ & _ & _ & Hl1 & Hrev)].
      * destruct (mo_own Hok Hna id h Hin) as (sl1 & Hl1 & Hf & _).
        assert (sl1 = sl) by (destruct Hl1 as (E1 & _); congruence). subst sl1.
        rewrite <- Hf. apply fld3_slot.
      * assert (sl1 = sl) by (destruct Hl1 as (E1 & _); congruence). subst sl1.
        apply (dv_fld (mo_obs Hok q (clos_refl _ _ _ _ _)) h f sl Hr Hl1 Hrev).
  - destruct (used_live Hs s F q m h I Hg Hm Hna Hfacts) as (sl & Hl & _); [right; exact Hr|].
    f_equal. cbn [wcur w_slot]. change (d_slots s') with (d_slots s). pose proof Hl as (Hs0 & _). rewrite Hs0.
    exact (dv_idf (mo_obs Hok q (clos_refl _ _ _ _ _)) h sl Hr Hl).
Qed.

Lemma mark_trace : trr Hs s' (cur s) q = trr Hs s (m_verified m) q /\ Er Hs s' (cur s) q = Er Hs s (m_verified m) q.
Proof.
  destruct (trace_determined idhash (prog q) _ _ [] mark_agree) as [Htr Hrun].
  pose proof (sext_cur _ _ mark_sext) as Hc.
  split; [rewrite <- Hc, trr_cur; exact Htr|].
  rewrite <- Hc, Er_cur. unfold SInv.Er. rewrite !(Ew_unfold Hrank Hbound). exact Hrun.
Qed.

Lemma mark_alloc id : In id (news_ids (trr Hs s (m_verified m) q)) ->
  w_alloc (wcur s') q id = w_alloc (W Hs s (m_verified m)) q id.
Proof.
  intros Hid. cbn [wcur w_alloc]. rewrite mark_memo. cbn [m_structs m'].
  destruct (mo_structs Hok) as [Hnd Hiff]. apply (assoc_id_nodup _ _ _ Hnd). apply Hiff. auto.
Qed.

Lemma mark_self : dval Hs s' F (cur s') q.
Proof.
  destruct mark_trace as [Etr _]. pose proof (sext_cur _ _ mark_sext) as Hc. rewrite Hc.
  assert (EW : W Hs s' (cur s) = wcur s') by (rewrite <- Hc; apply W_cur).
  constructor; rewrite ?Etr, ?EW.
  - exists m'. split; [exact mark_memo|]. split; [cbn; lia|]. intros _. cbn. reflexivity.
  - intros h f sl Hin (Hs0 & _) _. cbn [wcur w_slot]. rewrite Hs0. apply fld3_slot.
  - intros h sl Hin (Hs0 & _). cbn [wcur w_slot]. rewrite Hs0. reflexivity.
  - intros id idv f0 f1 Hin.
    assert (Hid : In id (news_ids (trr Hs s (m_verified m) q))) by (apply in_news_ids; eauto).
    rewrite (mark_alloc id Hid).
    destruct (dv_new (mo_obs Hok q (clos_refl _ _ _ _ _)) id idv f0 f1 Hin) as [Hargs Hiss].
    split; [|exact Hiss].
    assert (Hinm : In (id, w_alloc (W Hs s (m_verified m)) q id) (m_structs m)) by (apply (proj2 (mo_structs Hok)); auto).
    destruct (mo_own Hok Hna id _ Hinm) as (sl & (Hs0 & _) & Hf & _).
    cbn [wcur w_slot]. change (d_slots s') with (d_slots s). rewrite Hs0, Hf. exact Hargs.
  - intros id idv f0 f1 sl Hin Hl. left. split; [exact Hna|]. exists m'. split; [exact mark_memo|]. cbn [m_structs m'].
    assert (Hid : In id (news_ids (trr Hs s (m_verified m) q))) by (apply in_news_ids; eauto).
    rewrite (mark_alloc id Hid). apply (proj2 (mo_structs Hok)). auto.
Qed.

Lemma mark_memo_ok :
  (forall g mg, g <> loc_of q -> d_memo s' g = Some mg -> smemo_ok Hs s' F (kq g) mg) -> smemo_ok Hs s' F q m'.
Proof.
  intros Hothers. destruct mark_trace as [Etr EE]. pose proof (sext_cur _ _ mark_sext) as Hc.
  assert (EW : W Hs s' (cur s) = wcur s') by (rewrite <- Hc; apply W_cur).
  pose proof (mo_order Hok) as (Ho1 & Ho2 & Ho3).
  assert (Hcal : forall d, In (RQ d) (trw (wcur s') q) ->
            gk d /\ loc_of d <> loc_of q /\ exists md, d_memo s' (loc_of d) = Some md /\ m_verified md = cur s').
  { intros d Hin. rewrite <- (trr_cur Hs), Hc, Etr in Hin. rewrite Hc. exact (mark_callee d Hin). }
  destruct Hok as [Korder Kval Klow Korigin Kstructs Kin Kq Kfld Kout Keorder Kuntr Kown Kobs Know].
  constructor; cbn [m' m_val m_verified m_changed m_dur m_origin m_edges m_structs]; rewrite ?Etr, ?EE, ?EW.
  - (* mo_order *) rewrite Hc. lia.
  - (* mo_val *) exact Kval.
  - (* mo_low *) exact Klow.
  - (* mo_origin *) exact Korigin.
  - (* mo_structs *) split; [exact (proj1 Kstructs)|]. intros id h. rewrite (proj2 Kstructs id h). split.
    + intros [Hid ->]. split; [exact Hid | symmetry; exact (mark_alloc id Hid)].
    + intros [Hid ->]. split; [exact Hid | exact (mark_alloc id Hid)].
  - (* mo_in *) exact Kin.
  - (* mo_q *) exact Kq.
  - (* mo_fld *) exact Kfld.
  - (* mo_out *) exact Kout.
  - (* mo_eorder *) exact Keorder.
  - (* mo_untr *) exact Kuntr.
  - (* mo_own *) intros _ id h Hin. destruct (Kown Hna id h Hin) as (sl & Hl & Hf & Hd & A0 & A1 & Hcs).
    exists sl. split; [exact Hl|].
    split; [cbn [wcur w_slot]; change (d_slots s') with (d_slots s); destruct Hl as (Hs0 & _); rewrite Hs0; reflexivity|].
    split; [exact Hd|]. split; [lia|]. split; [lia|].
    exact (cstamp_sext skind s s' F _ id _ (si_oinv I) mark_sext Hcs).
  - (* mo_obs *) intros d Hd. apply (observers_now prog idhash NF Hs s' F q (loc_of q) Hothers mark_self Hcal).
    rewrite W_cur. exact Hd.
  - (* mo_now *) intros _ d Hin. rewrite Hc, Etr in Hin.
    destruct (mark_callee d Hin) as (_ & _ & md & Hmd & Hvd). exists md. rewrite Hc. auto.
Qed.

Lemma mark_store : SInv Hs s' F.
Proof.
  assert (Hstore : SInv Hs s' F /\ sext s s'); [|exact (proj1 Hstore)].
  apply (SInv_store prog skind idhash rank Hrank NF Hbound Hprov Hgk Hs s F s' F (loc_of q) m' I); try reflexivity.
  - (* the memo being replaced is older, its changed_at not later *) exact mark_old.
  - (* OInv of the new state *) refine (proj1 (mark_verified_sim skind [] q m s F s' m' (si_oinv I) (mark_verified_nk q m s) _)).
    unfold SimBase.mst. rewrite (peek_nk skind Hnk), Hm. reflexivity.
  - (* Cons of the new state *) apply (cons_nk skind Hnk s s' F F (si_cons I)); [reflexivity | eauto].
  - (* q does not run *) exact Hna.
  - (* the frames are the old ones *) auto.
  - (* the new memo is ok *) intros Hothers _. rewrite kq_loc by exact Hg. exact (mark_memo_ok Hothers).
  - (* observers of q: the value is the one they saw *)
    intros g mg Hmg Hne Hcl Hle. rewrite (kq_loc q Hg) in *.
    destruct (dv_memo (mo_obs (si_memo I g mg Hmg) q Hcl)) as (md & Hmd & _ & Hobs).
    rewrite Hm in Hmd. injection Hmd as <-. cbn [m' m_changed] in Hle.
    rewrite (proj2 mark_trace). exact (Hobs Hle).
  - (* the structs q held are those the memo lists *)
    intros id h sl _ Ho. rewrite (kq_loc q Hg) in Ho.
    destruct Ho as [(_ & md & Hmd & Hin) | (fr0 & e0 & Hin0 & _)].
    + rewrite Hm in Hmd. injection Hmd as <-. exact Hin.
    + exfalso. apply Hna. exists q, fr0. auto.
  - (* every frame stays *) intros q0 fr0 id h Hin _. left. exact Hin.
Qed.

End Mark.

Theorem mark_ok Hs s F q m s' m' :
  SInv Hs s F -> gk q -> d_memo s (loc_of q) = Some m -> m_verified m < cur s -> ~ active_loc F (loc_of q) ->
  m_origin m = ODerived -> (forall e, In e (m_edges m) -> efact s m e) ->
  mark_verified skind q m s = (s', SOk m') ->
  SInv Hs s' F /\ sext s s' /\ d_stack s' = d_stack s /\
  (forall l, l <> loc_of q -> d_memo s' l = d_memo s l) /\ d_slots s' = d_slots s /\
  d_memo s' (loc_of q) = Some m' /\ m_verified m' = cur s /\ m_val m' = m_val m /\ m_changed m' = m_changed m /\
  m_dur m' = m_dur m.
Proof.
  intros I Hg Hm Hv Hna Hor Hfacts H. rewrite mark_verified_nk in H. injection H as <- <-.
  split; [exact (mark_store Hs s F q m I Hg Hm Hv Hna Hor Hfacts)|].
  split; [exact (mark_sext s q m Hm Hv)|]. split; [reflexivity|].
  split; [intros l Hne; cbn; apply upd_other; congruence|]. split; [reflexivity|].
  split; [cbn; apply upd_same|]. repeat split; reflexivity.
Qed.

(* ---------------------------------------------------------------- changes outside the invariant's view *)
Lemma sext_core s s' :
  d_revs s' = d_revs s -> d_in s' = d_in s -> d_cell s' = d_cell s -> d_memo s' = d_memo s ->
  d_slots s' = d_slots s -> d_ideal s' = d_ideal s -> sext s s'.
Proof.
  intros Hr Hi Hc Hm Hsl Hid. constructor; auto.
  - intros l m Hm0 _. rewrite Hm. exact Hm0.
  - intros l m Hm0. exists m. rewrite Hm. split; [exact Hm0|]. split; lia.
  - intros i sl Hs0 _. rewrite Hsl. exact Hs0.
  - intros l m id h _ _ _. rewrite Hsl. apply slot_keeps_refl.
  - intros i sl Hs0. exists sl. rewrite Hsl. split; [exact Hs0|]. split; [lia|]. intros _ Hu. repeat split; auto; lia.
  - unfold issued. rewrite Hid. intros x Hx. exact Hx.
Qed.

Lemma SInv_core Hs s F s' :
  SInv Hs s F ->
  d_revs s' = d_revs s -> d_in s' = d_in s -> d_cell s' = d_cell s -> d_memo s' = d_memo s ->
  d_slots s' = d_slots s -> d_nslots s' = d_nslots s -> d_free s' = d_free s -> d_ideal s' = d_ideal s ->
  Cons skind s' F -> SInv Hs s' F /\ sext s s'.
Proof.
  intros I Hr Hi Hc Hm Hsl Hn Hf Hid CO'.
  pose proof (sext_core s s' Hr Hi Hc Hm Hsl Hid) as X. split; [|exact X].
  pose proof (sext_cur _ _ X) as Hcur.
  assert (Hlive : forall h sl, live_h s' h sl <-> live_h s h sl) by (intros h sl; unfold live_h; rewrite Hsl; reflexivity).
  apply (SInv_slots prog skind idhash rank Hrank NF Hbound Hprov Hgk Hs s F s' F (fun _ => False) I X Hm).
  - (* OInv afterwards *) exact (oinv_core_eq skind s s' F (si_oinv I) Hr Hsl Hm Hn Hf Hid).
  - (* Cons afterwards *) exact CO'.
  - (* P is decidable *) intros h. right. intros [].
  - (* running queries keep running *) auto.
  - (* no settled query runs *) intros d Hd. exact (settled_not_active I Hd).
  - (* the running queries are input-keyed and not settled *) intros q fr Hin. exact (si_active I q fr Hin).
  - (* outside P, live slots were live with the same data *) intros h sl' _ Hl. apply Hlive in Hl. exists sl'. split; [exact Hl|]. repeat split; reflexivity.
  - (* structs of stored memos are outside P and kept *) intros l m id h _ _ _. split; [intros []|]. rewrite Hsl. apply slot_keeps_refl.
  - (* ownership outside P is kept *) intros d id h sl' _ _ _ Ho. destruct Ho as [(Hna & md & Hmd & Hin) | A]; [left | right; exact A].
    split; [exact Hna|]. exists md. rewrite Hm. auto.
  - (* past observers: fields of handles in P *) intros l m d h f sl' _ _ _ _ [].
  - (* past observers: identity fields of handles in P *) intros l m d h sl' _ _ _ _ [].
  - (* past observers: creators of handles in P *) intros l m d id idv f0 f1 sl' _ _ _ _ [].
  - (* slots are LOW, not updated in the future *) intros i sl. rewrite Hsl, Hcur. exact (si_slots I i sl).
  - (* generations are below the update revision *) intros i sl. rewrite Hsl, Hcur. exact (si_gens I i sl).
  - (* a slot locked now has a holder *) intros h sl Hl Hu. apply Hlive in Hl. rewrite Hcur in *. rewrite Hm. exact (si_lock I h sl Hl Hu).
Qed.

(* ---------------------------------------------------------------- execute *)
Theorem execute_ok L Hs s F q old s' m :
  fetch_spec L -> SInv Hs s F -> gk q -> first_read (prog q) -> cur s < GMAX -> In q (d_stack s) ->
  ~ active_loc F (loc_of q) -> d_memo s (loc_of q) = old -> (forall o, old = Some o -> m_verified o < cur s) ->
  execute prog skind [] idhash L q old s = (s', SOk m) ->
  SInv Hs s' F /\ sext s s' /\ d_stack s' = d_stack s /\
  (forall p, In p (d_stack s) -> loc_of p <> loc_of q -> d_memo s' (loc_of p) = d_memo s (loc_of p)) /\
  (forall p frp h0, In (p, frp) F -> In h0 (frame_ids frp) -> d_slots s' (fst h0) = d_slots s (fst h0)) /\
  d_memo s' (loc_of q) = Some m /\ m_verified m = cur s /\ (exists v, m_val m = Some v) /\ m_dur m = 0.
Proof.
  intros HF I Hg Hfq Hcur Hst Hna Hold Hlt H. unfold execute in H.
  apply bind_ok in H. destruct H as (u & s0 & H0 & H). apply emit_ok in H0. subst s0.
  set (s0 := set_log s (EvExec q :: d_log s)) in *.
  destruct (SInv_core Hs s F s0 I) as [I0 X0]; try reflexivity.
  { apply (cons_nk skind Hnk s s0 F F (si_cons I)); [reflexivity | eauto]. }
  destruct (SInv_begin prog skind idhash rank Hrank NF Hbound Hprov Hgk Hnk Hs s0 F q old I0 Hg Hst Hna Hold Hlt) as [I1 FO1].
  apply bind_ok in H. destruct H as (r & s2 & H2 & H).
  set (fr0 := seed_frame old) in *.
  assert (Hq0 : In (q, fr0) ((q, fr0) :: F)) by (left; reflexivity).
  destruct (run_body_ok prog skind idhash rank Hrank NF Hbound Hprov Hgk Hnk L Hs q old HF (prog q) (Hns q)
              fr0 [] [] [] s0 ((q, fr0) :: F) s2 r I1 Hq0 FO1 Hcur) as (log' & dis' & I2 & X2 & K2 & FO2 & _).
  - intros c Hc. split; [exact (Hgk q c Hc) | exact (Hfirst q c Hc)].
  - intros _. exact Hfq.
  - intros e _. exact (Hprov e q).
  - intros h [].
  - exact H2.
  - cbn [set_frame] in I2. rewrite qk_eqb_refl in I2. cbn [app] in FO2.
    assert (Hlne : log' <> []).
    { intros E. rewrite E in FO2. destruct (fo_start FO2 eq_refl) as [Eb _]. rewrite <- Eb in Hfq. exact Hfq. }
    destruct (fst r) as [v hs] eqn:Er.
    destruct (finish_sinv prog skind idhash rank Hrank NF Hbound Hprov Hgk Hnk Hs s2 F q old (snd r) log' v hs dis' (l_fuel L) s' m
                I2 Hna FO2 Hlne H) as (I3 & X3 & Hst3 & Hm3 & Hfz3 & Hmq & Hvq & Hvalq & Hdq).
    destruct K2 as (A2 & B2 & C2). pose proof (sext_cur _ _ X2) as Hc2.
    split; [exact I3|]. split; [exact (sext_trans _ _ _ X0 (sext_trans _ _ _ X2 X3))|].
    split; [rewrite Hst3, A2; reflexivity|]. split.
    { intros p Hp Hne. rewrite (Hm3 _ Hne). exact (B2 p Hp). }
    split.
    { intros p frp h0 Hp Hh0. rewrite (Hfz3 p frp h0 Hp Hh0).
      apply (C2 p frp h0 (or_intror Hp)); [|exact Hh0]. intros ->. apply Hna. exists q, frp. auto. }
    split; [exact Hmq|]. split; [rewrite Hvq, Hc2; reflexivity|]. split; [eauto | exact Hdq].
Qed.

(* ---------------------------------------------------------------- shallow verification, claim, release *)
Lemma shallow_cases Hs s F q m : SInv Hs s F -> gk q -> d_memo s (loc_of q) = Some m ->
  shallow_verify s m = if m_verified m =? cur s then ShVerified else ShNo.
Proof.
  intros I Hg Hm. pose proof (memo_ok_of I Hg Hm) as Hok.
  pose proof (mo_low Hok) as Hlow. pose proof (mo_order Hok) as (_ & _ & Hle).
  unfold shallow_verify. destruct (N.eqb_spec (m_verified m) (cur s)) as [E | Hne]; [reflexivity|].
  rewrite Hlow, last_changed_low.
  destruct (shallow_ok (r_cur (d_revs s)) (m_verified m)) eqn:Es; [|reflexivity].
  apply shallow_ok_spec in Es. unfold cur in *. lia.
Qed.

Lemma stack_gk s F p : Cons skind s F -> In p (d_stack s) -> gk p.
Proof.
  intros C Hp. pose proof (cn_cur _ _ _ C p Hp) as H. unfold Guard.cur_okb in H. rewrite Hnk in H.
  apply N.eqb_eq in H. exact H.
Qed.

Lemma gk_loc_inj (p q : qk) : gk p -> gk q -> loc_of p = loc_of q -> p = q.
Proof. intros Hp Hq E. rewrite <- (kq_loc p Hp), <- (kq_loc q Hq), E. reflexivity. Qed.

Lemma not_claimed_not_active Hs s F q : SInv Hs s F -> gk q -> ~ In q (d_stack s) -> ~ active_loc F (loc_of q).
Proof.
  intros I Hg Hni (q' & fr & Hin & El).
  destruct (si_active I q' fr Hin) as [Hg' _].
  pose proof (gk_loc_inj q' q Hg' Hg El) as ->. apply Hni. exact (cn_stack _ _ _ (si_cons I) q fr Hin).
Qed.

Lemma claim_ok Hs s F q s1 u : SInv Hs s F -> gk q -> claim q s = (s1, SOk u) ->
  s1 = set_stack s (q :: d_stack s) /\ SInv Hs s1 F /\ sext s s1 /\
  ~ active_loc F (loc_of q) /\ (forall fr, ~ In (q, fr) F) /\ (forall p, In p (d_stack s) -> loc_of p <> loc_of q).
Proof.
  intros I Hg H. unfold claim in H. apply bind_ok in H. destruct H as (x & t & H1 & H). apply get_ok in H1. destruct H1 as [-> ->].
  destruct (existsb (qk_eqb q) (d_stack s)) eqn:Ex; [exfalso; exact (fail_ok _ _ _ _ H)|].
  apply modify_ok in H. subst s1.
  assert (Hni : ~ In q (d_stack s)).
  { intros Hin. assert (existsb (qk_eqb q) (d_stack s) = true); [|congruence].
    apply existsb_exists. exists q. split; [exact Hin | apply qk_eqb_refl]. }
  split; [reflexivity|].
  assert (HI : SInv Hs (set_stack s (q :: d_stack s)) F /\ sext s (set_stack s (q :: d_stack s))).
  { apply (SInv_core Hs s F _ I); try reflexivity.
    destruct (si_cons I) as [a b c d]. constructor; cbn [set_stack d_stack].
    - intros q' fr Hin. right. exact (a q' fr Hin).
    - constructor; assumption.
    - intros p [<- | Hp]; [unfold Guard.cur_okb; rewrite Hnk; apply N.eqb_eq; exact Hg | exact (c p Hp)].
    - intros p _ Hk. rewrite Hnk in Hk. discriminate. }
  split; [exact (proj1 HI)|]. split; [exact (proj2 HI)|].
  split; [exact (not_claimed_not_active Hs s F q I Hg Hni)|]. split.
  - intros fr Hin. apply Hni. exact (cn_stack _ _ _ (si_cons I) q fr Hin).
  - intros p Hp E. apply Hni. rewrite <- (gk_loc_inj p q (stack_gk s F p (si_cons I) Hp) Hg E). exact Hp.
Qed.

Lemma release_ok Hs s F q st s1 u : SInv Hs s F -> d_stack s = q :: st -> (forall fr, ~ In (q, fr) F) ->
  release q s = (s1, SOk u) -> s1 = set_stack s st /\ SInv Hs s1 F /\ sext s s1.
Proof.
  intros I Est HnF H. unfold release in H. apply modify_ok in H. rewrite Est in H. cbn [tl] in H. subst s1.
  split; [reflexivity|]. apply (SInv_core Hs s F _ I); try reflexivity.
  destruct (si_cons I) as [a b c d]. rewrite Est in *. constructor; cbn [set_stack d_stack].
  - intros q' fr Hin. destruct (a q' fr Hin) as [<- | A]; [exfalso; exact (HnF fr Hin) | exact A].
  - apply NoDup_cons_iff in b. exact (proj2 b).
  - intros p Hp. pose proof (c p (or_intror Hp)) as H. unfold Guard.cur_okb in *. rewrite Hnk in *. exact H.
  - intros p _ Hk. rewrite Hnk in Hk. discriminate.
Qed.

(* ---------------------------------------------------------------- verify_memo *)
Theorem verify_ok L Hs s F q m s' r :
  mca_spec L -> SInv Hs s F -> gk q -> d_memo s (loc_of q) = Some m -> In q (d_stack s) ->
  ~ active_loc F (loc_of q) -> cur s < GMAX ->
  verify_memo skind L q m s = (s', SOk r) ->
  SInv Hs s' F /\ sext s s' /\ d_stack s' = d_stack s /\
  (forall p, In p (d_stack s) -> loc_of p <> loc_of q -> d_memo s' (loc_of p) = d_memo s (loc_of p)) /\
  (forall p frp h0, In (p, frp) F -> In h0 (frame_ids frp) -> d_slots s' (fst h0) = d_slots s (fst h0)) /\
  (if fst r
   then d_memo s' (loc_of q) = Some (snd r) /\ m_verified (snd r) = cur s /\ m_val (snd r) = m_val m /\
        m_dur (snd r) = m_dur m /\ m_changed (snd r) = m_changed m
   else d_memo s' (loc_of q) = Some m /\ m_verified m < cur s).
Proof.
  intros HM I Hg Hm Hst Hna Hcur H. unfold verify_memo in H.
  apply bind_ok in H. destruct H as (x & t & H1 & H). apply get_ok in H1. destruct H1 as [-> ->].
  rewrite (shallow_cases Hs s F q m I Hg Hm) in H.
  pose proof (memo_ok_of I Hg Hm) as Hok.
  pose proof (mo_order Hok) as (_ & _ & Hle).
  destruct (N.eqb_spec (m_verified m) (cur s)) as [Ev | Hne].
  - apply bind_ok in H. destruct H as (m1 & t & H1 & H). apply ret_ok in H1. destruct H1 as [-> ->].
    apply ret_ok in H. destruct H as [-> ->]. cbn [fst snd].
    split; [exact I|]. split; [apply sext_refl|]. split; [reflexivity|]. split; [auto|]. split; [auto|]. auto.
  - assert (Hv : m_verified m < cur s) by lia.
    unfold deep_verify in H. destruct (m_origin m) eqn:Eo.
    + apply bind_ok in H. destruct H as (c & s1 & H1 & H).
      destruct (walk_ok L Hs q m HM (m_edges m) [] s F s1 c
                  I Hg Hm Hv Hst Hna Hcur eq_refl (fun e (A : In e []) => match A with end) H1) as (I1 & X1 & K1 & Hf1).
      destruct K1 as (A1 & B1 & C1). pose proof (sext_cur _ _ X1) as Hc1.
      assert (Hm1 : d_memo s1 (loc_of q) = Some m) by (rewrite (B1 q Hst); exact Hm).
      destruct c.
      * apply ret_ok in H. destruct H as [-> ->]. cbn [fst snd].
        split; [exact I1|]. split; [exact X1|]. split; [exact A1|]. split; [intros p Hp _; exact (B1 p Hp)|].
        split; [exact C1|]. auto.
      * apply bind_ok in H. destruct H as (m' & s2 & H2 & H). apply ret_ok in H. destruct H as [-> ->]. cbn [fst snd].
        destruct (mark_ok Hs s1 F q m s2 m' I1 Hg Hm1) as
          (I2 & X2 & Hst2 & Hm2 & Hsl2 & Hmq & Hvq & Hval & Hch & Hd); auto.
        { rewrite Hc1. exact Hv. }
        split; [exact I2|]. split; [exact (sext_trans _ _ _ X1 X2)|]. split; [congruence|].
        split; [intros p Hp Hnel; rewrite (Hm2 _ Hnel); exact (B1 p Hp)|].
        split; [intros p frp h0 Hp Hh0; rewrite Hsl2; exact (C1 p frp h0 Hp Hh0)|].
        split; [exact Hmq|]. split; [rewrite Hvq; exact Hc1|]. auto.
    + apply ret_ok in H. destruct H as [-> ->]. cbn [fst snd].
      split; [exact I|]. split; [apply sext_refl|]. split; [reflexivity|]. split; [auto|]. split; [auto|]. auto.
    + apply ret_ok in H. destruct H as [-> ->]. cbn [fst snd].
      split; [exact I|]. split; [apply sext_refl|]. split; [reflexivity|]. split; [auto|]. split; [auto|]. auto.
Qed.

Lemma memo_val_some Hs s F q m : SInv Hs s F -> gk q -> d_memo s (loc_of q) = Some m -> exists v, m_val m = Some v.
Proof. intros I Hg Hm. eexists. exact (mo_val (memo_ok_of I Hg Hm)). Qed.

(* s2 is a state between `claim q` in s and the matching `release q` *)
Record cold (Hs : hist) (s : db) (F : frames) (q : qk) (s2 : db) : Prop := {
  co_inv : SInv Hs s2 F;
  co_ext : sext s s2;
  co_stack : d_stack s2 = q :: d_stack s;
  co_memo : forall p, In p (d_stack s) -> d_memo s2 (loc_of p) = d_memo s (loc_of p);
  co_slots : forall p frp h0, In (p, frp) F -> In h0 (frame_ids frp) -> d_slots s2 (fst h0) = d_slots s (fst h0);
  co_na : ~ active_loc F (loc_of q);
  co_nf : forall fr, ~ In (q, fr) F;
  co_loc : forall p, In p (d_stack s) -> loc_of p <> loc_of q
}.

Lemma cold_claim Hs s F q s1 u : SInv Hs s F -> gk q -> claim q s = (s1, SOk u) ->
  cold Hs s F q s1 /\ d_memo s1 = d_memo s.
Proof.
  intros I Hg H. destruct (claim_ok Hs s F q s1 u I Hg H) as (-> & I1 & X1 & Hna & HnF & Hloc).
  split; [constructor; auto | reflexivity].
Qed.

Lemma cold_verify L Hs s F q m s1 s2 r : mca_spec L -> gk q -> cur s < GMAX ->
  cold Hs s F q s1 -> d_memo s1 (loc_of q) = Some m -> verify_memo skind L q m s1 = (s2, SOk r) ->
  cold Hs s F q s2 /\
  (if fst r
   then d_memo s2 (loc_of q) = Some (snd r) /\ m_verified (snd r) = cur s /\ m_val (snd r) = m_val m /\
        m_changed (snd r) = m_changed m
   else d_memo s2 (loc_of q) = Some m /\ m_verified m < cur s).
Proof.
  intros HM Hg Hcur [I1 X1 Hst1 Hm1 Hfz1 Hna HnF Hloc] Em H. pose proof (sext_cur _ _ X1) as Hc1.
  destruct (verify_ok L Hs s1 F q m s2 r HM I1 Hg Em) as (I2 & X2 & Hst2 & Hm2 & Hfz2 & Hres);
    [rewrite Hst1; left; reflexivity | exact Hna | rewrite Hc1; exact Hcur | exact H |].
  split.
  - constructor; auto.
    + exact (sext_trans _ _ _ X1 X2).
    + rewrite Hst2. exact Hst1.
    + intros p Hp. rewrite (Hm2 p); [exact (Hm1 p Hp) | rewrite Hst1; right; exact Hp | exact (Hloc p Hp)].
    + intros p frp h0 Hp Hh0. rewrite (Hfz2 p frp h0 Hp Hh0). exact (Hfz1 p frp h0 Hp Hh0).
  - rewrite Hc1 in Hres. destruct (fst r); [destruct Hres as (A & B & C & _ & E); auto | exact Hres].
Qed.

Lemma cold_execute L Hs s F q old s2 s3 m3 : fetch_spec L -> gk q -> first_read (prog q) -> cur s < GMAX ->
  cold Hs s F q s2 -> d_memo s2 (loc_of q) = old -> (forall o, old = Some o -> m_verified o < cur s) ->
  execute prog skind [] idhash L q old s2 = (s3, SOk m3) ->
  cold Hs s F q s3 /\ d_memo s3 (loc_of q) = Some m3 /\ m_verified m3 = cur s /\ exists v, m_val m3 = Some v.
Proof.
  intros HF Hg Hfq Hcur [I2 X2 Hst2 Hm2 Hfz2 Hna HnF Hloc] Hold Hlt H. pose proof (sext_cur _ _ X2) as Hc2.
  destruct (execute_ok L Hs s2 F q old s3 m3 HF I2 Hg Hfq) as (I3 & X3 & Hst3 & Hm3 & Hfz3 & Hmq & Hvq & Hval & _);
    [rewrite Hc2; exact Hcur | rewrite Hst2; left; reflexivity | exact Hna | exact Hold
    | intros o Eo; rewrite Hc2; exact (Hlt o Eo) | exact H |].
  split; [|split; [exact Hmq|]; split; [rewrite Hvq; exact Hc2 | exact Hval]].
  constructor; auto.
  - exact (sext_trans _ _ _ X2 X3).
  - rewrite Hst3. exact Hst2.
  - intros p Hp. rewrite (Hm3 p); [exact (Hm2 p Hp) | rewrite Hst2; right; exact Hp | exact (Hloc p Hp)].
  - intros p frp h0 Hp Hh0. rewrite (Hfz3 p frp h0 Hp Hh0). exact (Hfz2 p frp h0 Hp Hh0).
Qed.

Lemma cold_release Hs s F q s2 s3 u : cold Hs s F q s2 -> release q s2 = (s3, SOk u) ->
  SInv Hs s3 F /\ sext s s3 /\ keeps s s3 F /\ d_memo s3 = d_memo s2.
Proof.
  intros [I2 X2 Hst2 Hm2 Hfz2 Hna HnF Hloc] H.
  destruct (release_ok Hs s2 F q (d_stack s) s3 u I2 Hst2 HnF H) as (-> & I3 & X3).
  split; [exact I3|]. split; [exact (sext_trans _ _ _ X2 X3)|].
  split; [split; [reflexivity|]; split; [exact Hm2 | exact Hfz2] | reflexivity].
Qed.

Theorem fetch_cold_ok L Hs s F q s' mv :
  fetch_spec L -> mca_spec L -> SInv Hs s F -> gk q -> first_read (prog q) -> cur s < GMAX ->
  (forall m, d_memo s (loc_of q) = Some m -> m_verified m < cur s) ->
  fetch_cold prog skind [] idhash L q s = (s', SOk mv) ->
  SInv Hs s' F /\ sext s s' /\ keeps s s' F /\
  d_memo s' (loc_of q) = Some (fst mv) /\ m_verified (fst mv) = cur s /\ m_val (fst mv) = Some (snd mv).
Proof.
  intros HF HM I Hg Hfq Hcur Hnv H. unfold fetch_cold in H.
  apply bind_ok in H. destruct H as (u & s1 & H1 & H).
  destruct (cold_claim Hs s F q s1 u I Hg H1) as [C1 Em1].
  apply bind_ok in H. destruct H as (old & t & H2 & H). rewrite get_memo_nk in H2; [|exact Hnk]. injection H2 as <- <-.
  rewrite Em1 in H.
  apply bind_ok in H. destruct H as (ok & s2 & H3 & H).
  (* after the verification attempt *)
  assert (Hmid : cold Hs s F q s2 /\
                 match ok with
                 | Some mv0 => d_memo s2 (loc_of q) = Some (fst mv0) /\ m_verified (fst mv0) = cur s /\ m_val (fst mv0) = Some (snd mv0)
                 | None => d_memo s2 (loc_of q) = d_memo s (loc_of q)
                 end).
  { destruct (d_memo s (loc_of q)) as [m|] eqn:Em.
    - destruct (memo_val_some Hs s F q m I Hg Em) as (v & Ev). rewrite Ev in H3.
      apply bind_ok in H3. destruct H3 as (r & s2' & H4 & H3). apply ret_ok in H3. destruct H3 as [-> ->].
      destruct (cold_verify L Hs s F q m s1 s2' r HM Hg Hcur C1) as [C2 Hres]; [rewrite Em1; exact Em | exact H4|].
      split; [exact C2|]. destruct (fst r).
      + destruct Hres as (A & B & C & _). cbn [fst snd]. split; [exact A|]. split; [exact B | congruence].
      + exact (proj1 Hres).
    - apply ret_ok in H3. destruct H3 as [-> ->]. split; [exact C1 | rewrite Em1; exact Em]. }
  destruct Hmid as (C2 & Hres).
  destruct ok as [mv0|].
  - apply bind_ok in H. destruct H as (u2 & s3 & H4 & H). apply ret_ok in H. destruct H as [-> ->].
    destruct (cold_release Hs s F q s2 s3 u2 C2 H4) as (I3 & X3 & K3 & Em3).
    split; [exact I3|]. split; [exact X3|]. split; [exact K3|]. rewrite Em3. exact Hres.
  - apply bind_ok in H. destruct H as (m3 & s3 & H4 & H).
    destruct (cold_execute L Hs s F q (d_memo s (loc_of q)) s2 s3 m3 HF Hg Hfq Hcur C2 Hres Hnv H4) as (C3 & Hmq & Hvq & v & Hval).
    apply bind_ok in H. destruct H as (u2 & s4 & H5 & H).
    rewrite Hval in H. apply ret_ok in H. destruct H as [-> ->]. cbn [fst snd].
    destruct (cold_release Hs s F q s3 s4 u2 C3 H5) as (I4 & X4 & K4 & Em4).
    split; [exact I4|]. split; [exact X4|]. split; [exact K4|]. rewrite Em4. auto.
Qed.

Lemma fetch_hot_nk Hs s F q : SInv Hs s F -> gk q ->
  fetch_hot skind q s =
  (s, SOk match d_memo s (loc_of q) with
          | Some m => match m_val m with
                      | Some v => if m_verified m =? cur s then Some (m, v) else None
                      | None => None
                      end
          | None => None
          end).
Proof.
  intros I Hg. unfold fetch_hot, bind. rewrite get_memo_nk by exact Hnk. unfold get.
  destruct (d_memo s (loc_of q)) as [m|] eqn:Em; [|reflexivity].
  destruct (m_val m) as [v|]; [|reflexivity].
  rewrite (shallow_cases Hs s F q m I Hg Em). destruct (m_verified m =? cur s); reflexivity.
Qed.

Theorem fetch_ok L : fetch_spec L -> mca_spec L -> fetch_spec {| l_fetch := fetch prog skind [] idhash L; l_mca := mca prog skind [] idhash L; l_fuel := S (l_fuel L) |}.
Proof.
  intros HF HM Hs s F q s' r I Hg Hfq Hcur H. cbn [l_fetch] in H. unfold fetch in H.
  apply bind_ok in H. destruct H as (hot & t & H1 & H). rewrite (fetch_hot_nk Hs s F q I Hg) in H1. injection H1 as <- <-.
  apply bind_ok in H. destruct H as (mv & s1 & H2 & H). apply ret_ok in H. destruct H as [-> ->].
  unfold memo_qres. cbn [fst snd].
  destruct (d_memo s (loc_of q)) as [m|] eqn:Em.
  - destruct (m_val m) as [v|] eqn:Ev.
    + destruct (N.eqb_spec (m_verified m) (cur s)) as [Evc | Hne].
      * apply ret_ok in H2. destruct H2 as [-> ->]. cbn [fst snd].
        split; [exact I|]. split; [apply sext_refl|]. split; [apply keeps_refl|]. exists m. auto.
      * destruct (fetch_cold_ok L Hs s F q s1 mv HF HM I Hg Hfq Hcur) as (I1 & X1 & K1 & Hm1 & Hv1 & Hval1); [|exact H2|].
        { intros m0 Hm0. rewrite Hm0 in Em. injection Em as ->.
          pose proof (mo_order (memo_ok_of I Hg Hm0)). lia. }
        split; [exact I1|]. split; [exact X1|]. split; [exact K1|]. exists (fst mv). auto.
    + destruct (memo_val_some Hs s F q m I Hg Em) as (v & Ev'). congruence.
  - destruct (fetch_cold_ok L Hs s F q s1 mv HF HM I Hg Hfq Hcur) as (I1 & X1 & K1 & Hm1 & Hv1 & Hval1); [|exact H2|].
    { intros m0 Hm0. rewrite Hm0 in Em. discriminate. }
    split; [exact I1|]. split; [exact X1|]. split; [exact K1|]. exists (fst mv). auto.
Qed.

(* ---------------------------------------------------------------- maybe_changed_after *)
Theorem mca_cold_ok L Hs s F q since s' b :
  fetch_spec L -> mca_spec L -> SInv Hs s F -> gk q -> first_read (prog q) -> cur s < GMAX ->
  (forall m, d_memo s (loc_of q) = Some m -> m_verified m < cur s) ->
  mca_cold prog skind [] idhash L q since s = (s', SOk b) ->
  SInv Hs s' F /\ sext s s' /\ keeps s s' F /\
  (b = false -> exists m, d_memo s' (loc_of q) = Some m /\ m_verified m = cur s /\ m_changed m <= since).
Proof.
  intros HF HM I Hg Hfq Hcur Hnv H. unfold mca_cold in H.
  apply bind_ok in H. destruct H as (u & s1 & H1 & H).
  destruct (cold_claim Hs s F q s1 u I Hg H1) as [C1 Em1].
  apply bind_ok in H. destruct H as (om & t & H2 & H). rewrite get_memo_nk in H2; [|exact Hnk]. injection H2 as <- <-.
  rewrite Em1 in H.
  destruct (d_memo s (loc_of q)) as [old|] eqn:Em.
  - apply bind_ok in H. destruct H as (r & s2 & H3 & H).
    destruct (cold_verify L Hs s F q old s1 s2 r HM Hg Hcur C1) as [C2 Hres]; [rewrite Em1; exact Em | exact H3|].
    destruct (fst r) eqn:Efr.
    + destruct Hres as (A & B & C & E).
      apply bind_ok in H. destruct H as (u2 & s3 & H4 & H). apply ret_ok in H. destruct H as [-> ->].
      destruct (cold_release Hs s F q s2 s3 u2 C2 H4) as (I3 & X3 & K3 & Em3).
      split; [exact I3|]. split; [exact X3|]. split; [exact K3|].
      intros Hb. apply changed_after_false in Hb. exists (snd r). rewrite Em3. split; [exact A|]. split; [exact B | exact Hb].
    + destruct Hres as [A B].
      destruct (memo_val_some Hs s F q old I Hg Em) as (v & Ev). rewrite Ev in H.
      apply bind_ok in H. destruct H as (m3 & s3 & H4 & H).
      destruct (cold_execute L Hs s F q (Some old) s2 s3 m3 HF Hg Hfq Hcur C2 A) as (C3 & Hmq & Hvq & _); [|exact H4|].
      { intros o Eo. injection Eo as <-. exact B. }
      apply bind_ok in H. destruct H as (u2 & s4 & H5 & H). apply ret_ok in H. destruct H as [-> ->].
      destruct (cold_release Hs s F q s3 s4 u2 C3 H5) as (I4 & X4 & K4 & Em4).
      split; [exact I4|]. split; [exact X4|]. split; [exact K4|].
      intros Hb. apply changed_after_false in Hb. exists m3. rewrite Em4. auto.
  - apply bind_ok in H. destruct H as (u2 & s3 & H4 & H). apply ret_ok in H. destruct H as [-> ->].
    destruct (cold_release Hs s F q s1 s3 u2 C1 H4) as (I3 & X3 & K3 & _).
    split; [exact I3|]. split; [exact X3|]. split; [exact K3 | discriminate].
Qed.

Theorem mca_ok L : fetch_spec L -> mca_spec L -> mca_spec {| l_fetch := fetch prog skind [] idhash L; l_mca := mca prog skind [] idhash L; l_fuel := S (l_fuel L) |}.
Proof.
  intros HF HM Hs s F q since s' b I Hg Hfq Hcur H. cbn [l_mca] in H. unfold mca in H.
  apply bind_ok in H. destruct H as (om & t & H1 & H). rewrite get_memo_nk in H1; [|exact Hnk]. injection H1 as <- <-.
  apply bind_ok in H. destruct H as (x & t & H1 & H). apply get_ok in H1. destruct H1 as [-> ->].
  destruct (d_memo s (loc_of q)) as [m|] eqn:Em.
  - rewrite (shallow_cases Hs s F q m I Hg Em) in H.
    destruct (N.eqb_spec (m_verified m) (cur s)) as [Ev | Hne].
    + apply bind_ok in H. destruct H as (m1 & t & H1 & H). apply ret_ok in H1. destruct H1 as [-> ->].
      apply ret_ok in H. destruct H as [-> ->].
      split; [exact I|]. split; [apply sext_refl|]. split; [apply keeps_refl|].
      intros Hb. apply changed_after_false in Hb. exists m. auto.
    + apply (mca_cold_ok L Hs s F q since s' b HF HM I Hg Hfq Hcur); [|exact H].
      intros m0 Hm0. rewrite Hm0 in Em. injection Em as ->.
      pose proof (mo_order (memo_ok_of I Hg Hm0)). lia.
  - apply ret_ok in H. destruct H as [-> ->].
    split; [exact I|]. split; [apply sext_refl|]. split; [apply keeps_refl | discriminate].
Qed.

(* ---------------------------------------------------------------- every level *)
Theorem level_ok : forall n, fetch_spec (level prog skind [] idhash n) /\ mca_spec (level prog skind [] idhash n).
Proof.
  induction n as [|n [IHf IHm]]; cbn [level].
  - split; intros Hs s F q; intros; discriminate.
  - split; [exact (fetch_ok _ IHf IHm) | exact (mca_ok _ IHf IHm)].
Qed.

End Verify.
