(* Structs/SDsl.v — the programs of the harness DSL (Structs/Dsl.v) that use neither `specify` nor
   struct-keyed functions satisfy the hypotheses of the from-scratch theorem: call keys of
   generation 0, no forged handle (under every read environment), and — by finite checks on the
   node table — acyclicity and "every called body starts with a read".  (No `specify` node: a
   consequence of parametricity, SParamK.v.) *)
From Coq Require Import Arith.
From Salsa Require Import Base.
From Salsa.Kern Require Import CoreK.
From Salsa.Structs Require Import Model Dsl ProofsBase SSem SInv SRun SimExamples.

Fixpoint s1wf (e : expr) : bool :=
  match e with
  | ELit _ | EInp _ _ | ECell _ | ETouch | EField _ _ | EIdField _ | ERetH _ => true
  | ECall _ k => s1wf k
  | EOp _ a b => s1wf a && s1wf b
  | EIf c a b => s1wf c && s1wf a && s1wf b
  | ELet _ h bd els => hs1wf h && s1wf bd && s1wf els
  | ECallS _ _ | ESpecify _ _ _ => false
  end
with hs1wf (h : hexpr) : bool :=
  match h with
  | HNew a b c => s1wf a && s1wf b && s1wf c
  | HNth _ k _ => s1wf k
  | HNthS _ _ _ => false
  | HSelf | HVar _ => true
  end.

(* the families an expression may call *)
Fixpoint efams (e : expr) : list N :=
  match e with
  | ELit _ | EInp _ _ | ECell _ | ETouch | EField _ _ | EIdField _ | ERetH _ | ECallS _ _ => []
  | ECall fam k => fam :: efams k
  | EOp _ a b => efams a ++ efams b
  | EIf c a b => efams c ++ efams a ++ efams b
  | ELet _ h bd els => hfams h ++ efams bd ++ efams els
  | ESpecify _ _ v => efams v
  end
with hfams (h : hexpr) : list N :=
  match h with
  | HNew a b c => efams a ++ efams b ++ efams c
  | HNth fam k _ => fam :: efams k
  | HNthS _ _ _ | HSelf | HVar _ => []
  end.

Section Comp.
Variable idhash : val -> N.
Variable nk : N.

Definition envok (env : list (N * handle)) (K : list handle) : Prop :=
  forall x h, env_get env x = Some h -> In h K.

Lemma envok_incl env K K' : envok env K -> incl K K' -> envok env K'.
Proof. intros H Hi x h E. exact (Hi h (H x h E)). Qed.

Lemma envok_cons env K x h : envok env K -> In h K -> envok ((x, h) :: env) K.
Proof. intros H Hh y h0. cbn [env_get]. destruct (x =? y); [intros E; injection E as <-; exact Hh | apply H]. Qed.

(* ---- the calls of a compiled expression ---- *)
Definition called (fams : list N) (d : qk) : Prop := exists fam x, In fam fams /\ d = (fam, (x mod nk, 0)).

Lemma called_incl fams fams' d : incl fams fams' -> called fams d -> called fams' d.
Proof. intros Hi (fam & x & Hin & E). exists fam, x. auto. Qed.

Lemma comp_calls_both :
  (forall e, s1wf e = true -> forall env acc k d, calls (comp nk None e env acc k) d ->
             called (efams e) d \/ exists v a, calls (k v a) d) /\
  (forall h, hs1wf h = true -> forall env acc k d, calls (comph nk None h env acc k) d ->
             called (hfams h) d \/ exists oh a, calls (k oh a) d).
Proof.
  apply expr_hexpr_ind; cbn [s1wf hs1wf comp comph efams hfams].
  - (* ELit *) intros v _ env acc k d H. right. eauto.
  - (* EInp *) intros i f _ env acc k d H. inversion H; subst. right. eauto.
  - (* ECall *) intros fam ke IH Hw env acc k d H. destruct (IH Hw _ _ _ _ H) as [A | (v & a & A)].
    + left. apply (called_incl (efams ke)); [intros x Hx; right; exact Hx | exact A].
    + inversion A; subst.
      * left. exists fam, v. split; [left; reflexivity | reflexivity].
      * right. eauto.
  - (* ECell *) intros c _ env acc k d H. inversion H; subst. right. eauto.
  - (* ETouch *) intros _ env acc k d H. inversion H; subst. right. eauto.
  - (* EOp *) intros o a IHa b IHb Hw env acc k d H. apply andb_true_iff in Hw. destruct Hw as [Ha Hb].
    destruct (IHa Ha _ _ _ _ H) as [A | (va & a1 & A)].
    + left. apply (called_incl (efams a)); [intros x Hx; apply in_or_app; left; exact Hx | exact A].
    + destruct (IHb Hb _ _ _ _ A) as [B | (vb & a2 & B)].
      * left. apply (called_incl (efams b)); [intros x Hx; apply in_or_app; right; exact Hx | exact B].
      * right. eauto.
  - (* EIf *) intros c IHc a IHa b IHb Hw env acc k d H. apply andb_true_iff in Hw. destruct Hw as [Hw Hb].
    apply andb_true_iff in Hw. destruct Hw as [Hc Ha].
    destruct (IHc Hc _ _ _ _ H) as [A | (vc & a1 & A)].
    + left. apply (called_incl (efams c)); [intros x Hx; apply in_or_app; left; exact Hx | exact A].
    + destruct (vc =? 0).
      * destruct (IHb Hb _ _ _ _ A) as [B | B]; [left | right; exact B].
        apply (called_incl (efams b)); [intros x Hx; apply in_or_app; right; apply in_or_app; right; exact Hx | exact B].
      * destruct (IHa Ha _ _ _ _ A) as [B | B]; [left | right; exact B].
        apply (called_incl (efams a)); [intros x Hx; apply in_or_app; right; apply in_or_app; left; exact Hx | exact B].
  - (* ELet *) intros x h IHh bd IHbd els IHels Hw env acc k d H. apply andb_true_iff in Hw. destruct Hw as [Hw He].
    apply andb_true_iff in Hw. destruct Hw as [Hh Hb].
    destruct (IHh Hh _ _ _ _ H) as [A | (oh & a1 & A)].
    + left. apply (called_incl (hfams h)); [intros y Hy; apply in_or_app; left; exact Hy | exact A].
    + destruct oh as [hd|].
      * destruct (IHbd Hb _ _ _ _ A) as [B | B]; [left | right; exact B].
        apply (called_incl (efams bd)); [intros y Hy; apply in_or_app; right; apply in_or_app; left; exact Hy | exact B].
      * destruct (IHels He _ _ _ _ A) as [B | B]; [left | right; exact B].
        apply (called_incl (efams els)); [intros y Hy; apply in_or_app; right; apply in_or_app; right; exact Hy | exact B].
  - (* EField *) intros x f _ env acc k d H. destruct (env_get env x); [inversion H; subst|]; right; eauto.
  - (* EIdField *) intros x _ env acc k d H. destruct (env_get env x); [inversion H; subst|]; right; eauto.
  - (* ECallS *) intros fam x Hw. discriminate.
  - (* ESpecify *) intros fam x v IHv Hw. discriminate.
  - (* ERetH *) intros x _ env acc k d H. destruct (env_get env x); right; eauto.
  - (* HNew *) intros a IHa b IHb c IHc Hw env acc k d H. apply andb_true_iff in Hw. destruct Hw as [Hw Hc].
    apply andb_true_iff in Hw. destruct Hw as [Ha Hb].
    destruct (IHa Ha _ _ _ _ H) as [A | (va & a1 & A)].
    + left. apply (called_incl (efams a)); [intros x Hx; apply in_or_app; left; exact Hx | exact A].
    + destruct (IHb Hb _ _ _ _ A) as [B | (vb & a2 & B)].
      * left. apply (called_incl (efams b)); [intros x Hx; apply in_or_app; right; apply in_or_app; left; exact Hx | exact B].
      * destruct (IHc Hc _ _ _ _ B) as [C | (vc & a3 & C)].
        -- left. apply (called_incl (efams c)); [intros x Hx; apply in_or_app; right; apply in_or_app; right; exact Hx | exact C].
        -- inversion C; subst. right. eauto.
  - (* HNth *) intros fam ke IH i Hw env acc k d H. destruct (IH Hw _ _ _ _ H) as [A | (v & a & A)].
    + left. apply (called_incl (efams ke)); [intros x Hx; right; exact Hx | exact A].
    + inversion A; subst.
      * left. exists fam, v. split; [left; reflexivity | reflexivity].
      * right. eauto.
  - (* HNthS *) intros fam x i Hw. discriminate.
  - (* HSelf *) intros _ env acc k d H. right. eauto.
  - (* HVar *) intros x _ env acc k d H. right. eauto.
Qed.

(* ---- no forged handle ---- *)
Lemma comp_prov_both (sg : senv) :
  (forall e, s1wf e = true -> forall env acc k dis K, envok env K -> incl acc K ->
     (forall v acc' dis' K', incl K K' -> incl acc' K' -> prov idhash sg (k v acc') dis' K') ->
     prov idhash sg (comp nk None e env acc k) dis K) /\
  (forall h, hs1wf h = true -> forall env acc k dis K, envok env K -> incl acc K ->
     (forall oh acc' dis' K', incl K K' -> incl acc' K' -> (forall hd, oh = Some hd -> In hd K') ->
        prov idhash sg (k oh acc') dis' K') ->
     prov idhash sg (comph nk None h env acc k) dis K).
Proof.
  apply expr_hexpr_ind; cbn [s1wf hs1wf comp comph].
  - (* ELit *) intros v _ env acc k dis K He Ha Hk. apply Hk; [apply incl_refl | exact Ha].
  - (* EInp *) intros i f _ env acc k dis K He Ha Hk. cbn [prov]. apply Hk; [apply incl_refl | exact Ha].
  - (* ECall *) intros fam ke IH Hw env acc k dis K He Ha Hk. apply IH; auto.
    intros v acc' dis' K' Hi Ha'. cbn [prov]. apply Hk; [|].
    + intros x Hx. apply in_or_app. right. exact (Hi x Hx).
    + intros x Hx. apply in_or_app. right. exact (Ha' x Hx).
  - (* ECell *) intros c _ env acc k dis K He Ha Hk. cbn [prov]. apply Hk; [apply incl_refl | exact Ha].
  - (* ETouch *) intros _ env acc k dis K He Ha Hk. cbn [prov]. apply Hk; [apply incl_refl | exact Ha].
  - (* EOp *) intros o a IHa b IHb Hw env acc k dis K He Ha Hk. apply andb_true_iff in Hw. destruct Hw as [Hwa Hwb].
    apply IHa; auto. intros va a1 d1 K1 Hi1 Ha1.
    apply IHb; [exact Hwb | exact (envok_incl env K K1 He Hi1) | exact Ha1|].
    intros vb a2 d2 K2 Hi2 Ha2. apply Hk; [exact (incl_tran Hi1 Hi2) | exact Ha2].
  - (* EIf *) intros c IHc a IHa b IHb Hw env acc k dis K He Ha Hk. apply andb_true_iff in Hw. destruct Hw as [Hw Hwb].
    apply andb_true_iff in Hw. destruct Hw as [Hwc Hwa].
    apply IHc; auto. intros vc a1 d1 K1 Hi1 Ha1.
    destruct (vc =? 0); [apply IHb | apply IHa]; auto; try exact (envok_incl env K K1 He Hi1);
      intros v a2 d2 K2 Hi2 Ha2; apply Hk; [exact (incl_tran Hi1 Hi2) | exact Ha2 | exact (incl_tran Hi1 Hi2) | exact Ha2].
  - (* ELet *) intros x h IHh bd IHbd els IHels Hw env acc k dis K He Ha Hk. apply andb_true_iff in Hw. destruct Hw as [Hw Hwe].
    apply andb_true_iff in Hw. destruct Hw as [Hwh Hwb].
    apply IHh; auto. intros oh a1 d1 K1 Hi1 Ha1 Hoh.
    destruct oh as [hd|].
    + apply IHbd; [exact Hwb | | exact Ha1|].
      * apply envok_cons; [exact (envok_incl env K K1 He Hi1) | exact (Hoh hd eq_refl)].
      * intros v a2 d2 K2 Hi2 Ha2. apply Hk; [exact (incl_tran Hi1 Hi2) | exact Ha2].
    + apply IHels; [exact Hwe | exact (envok_incl env K K1 He Hi1) | exact Ha1|].
      intros v a2 d2 K2 Hi2 Ha2. apply Hk; [exact (incl_tran Hi1 Hi2) | exact Ha2].
  - (* EField *) intros x f _ env acc k dis K He Ha Hk. destruct (env_get env x) as [h|] eqn:Ex.
    + cbn [prov]. split; [exact (He x h Ex)|]. apply Hk; [apply incl_refl | exact Ha].
    + apply Hk; [apply incl_refl | exact Ha].
  - (* EIdField *) intros x _ env acc k dis K He Ha Hk. destruct (env_get env x) as [h|] eqn:Ex.
    + cbn [prov]. split; [exact (He x h Ex)|]. apply Hk; [apply incl_refl | exact Ha].
    + apply Hk; [apply incl_refl | exact Ha].
  - (* ECallS *) intros fam x Hw. discriminate.
  - (* ESpecify *) intros fam x v IHv Hw. discriminate.
  - (* ERetH *) intros x _ env acc k dis K He Ha Hk. destruct (env_get env x) as [h|] eqn:Ex.
    + apply Hk; [apply incl_refl|]. intros y Hy. apply in_app_or in Hy. destruct Hy as [Hy | [<- | []]]; [exact (Ha y Hy) | exact (He x h Ex)].
    + apply Hk; [apply incl_refl | exact Ha].
  - (* HNew *) intros a IHa b IHb c IHc Hw env acc k dis K He Ha Hk. apply andb_true_iff in Hw. destruct Hw as [Hw Hwc].
    apply andb_true_iff in Hw. destruct Hw as [Hwa Hwb].
    apply IHa; auto. intros va a1 d1 K1 Hi1 Ha1.
    apply IHb; [exact Hwb | exact (envok_incl env K K1 He Hi1) | exact Ha1|]. intros vb a2 d2 K2 Hi2 Ha2.
    apply IHc; [exact Hwc | exact (envok_incl env K K2 He (incl_tran Hi1 Hi2)) | exact Ha2|]. intros vc a3 d3 K3 Hi3 Ha3.
    cbn [prov]. apply Hk.
    + intros y Hy. right. exact (Hi3 y (Hi2 y (Hi1 y Hy))).
    + intros y Hy. right. exact (Ha3 y Hy).
    + intros hd E. injection E as <-. left. reflexivity.
  - (* HNth *) intros fam ke IH i Hw env acc k dis K He Ha Hk. apply IH; auto.
    intros kv a1 d1 K1 Hi1 Ha1. cbn [prov]. apply Hk.
    + intros y Hy. apply in_or_app. right. exact (Hi1 y Hy).
    + intros y Hy. apply in_or_app. right. exact (Ha1 y Hy).
    + intros hd E. apply in_or_app. left. exact (nth_error_In _ _ E).
  - (* HNthS *) intros fam x i Hw. discriminate.
  - (* HSelf *) intros _ env acc k dis K He Ha Hk. apply Hk; [apply incl_refl | exact Ha | discriminate].
  - (* HVar *) intros x _ env acc k dis K He Ha Hk. apply Hk; [apply incl_refl | exact Ha|]. intros hd E. exact (He x hd E).
Qed.

End Comp.

(* ---------------------------------------------------------------- programs given by a node table *)
Definition skind0 (f : N) : bool := false.

Definition first_readb (b : body) : bool :=
  match b with
  | RdIn _ _ | CallQ _ _ | RdCell _ _ | Touch _ => true
  | _ => false
  end.

Lemma first_readb_ok b : first_readb b = true -> first_read b.
Proof. destruct b; cbn; auto; discriminate. Qed.

Section Table.
Variable idhash : val -> N.
Variable nk : N.
Variable tbl : list ((N * N) * expr).
Hypothesis Hnk0 : nk <> 0.
Hypothesis Hwf : forallb (fun ne => s1wf (snd ne)) tbl = true.

Notation prog := (prog_of nk skind0 tbl).

Lemma prog_eq q : prog q = compile nk None (lookup_node tbl (fst q, fst (snd q))).
Proof. reflexivity. Qed.

Lemma lookup_s1wf q : s1wf (lookup_node tbl q) = true.
Proof.
  revert Hwf. induction tbl as [|[q' e] t IH]; intros H; cbn [lookup_node]; [reflexivity|].
  cbn [forallb snd] in H. apply andb_true_iff in H. destruct H as [He Ht].
  destruct (key_eqb q' q); [exact He | exact (IH Ht)].
Qed.

Lemma table_calls q d : calls (prog q) d -> called nk (efams (lookup_node tbl (fst q, fst (snd q)))) d.
Proof.
  rewrite prog_eq. unfold compile. intros H.
  destruct (proj1 (comp_calls_both nk) _ (lookup_s1wf _) _ _ _ _ H) as [A | (v & a & A)]; [exact A | inversion A].
Qed.

Theorem table_gk : forall q d, calls (prog q) d -> gk d.
Proof. intros q d H. destruct (table_calls q d H) as (fam & x & _ & ->). reflexivity. Qed.

Theorem table_no_forge : no_forge idhash prog.
Proof.
  intros sg q. rewrite prog_eq. unfold compile.
  apply (proj1 (comp_prov_both idhash nk sg)); [apply lookup_s1wf | intros x h E; discriminate | intros x [] |].
  intros v acc' dis' K' _ Ha. cbn [prov]. exact Ha.
Qed.

(* ranks by family *)
Variable frank : N -> nat.
Hypothesis Hrk : forallb (fun ne => forallb (fun fam' => Nat.ltb (frank fam') (frank (fst (fst ne)))) (efams (snd ne))) tbl = true.

Lemma lookup_in q : lookup_node tbl q = ELit 0 \/ In (q, lookup_node tbl q) tbl.
Proof.
  clear Hwf Hrk. induction tbl as [|[q' e] t IH]; cbn [lookup_node]; [left; reflexivity|].
  destruct (key_eqb_spec q' q) as [-> | Hne]; [right; left; reflexivity|].
  destruct IH as [A | A]; [left; exact A | right; right; exact A].
Qed.

Theorem table_calls_below : calls_below prog (fun q => frank (fst q)).
Proof.
  intros q d H. destruct (table_calls q d H) as (fam & x & Hin & ->). cbn [fst].
  destruct (lookup_in (fst q, fst (snd q))) as [E | Hin0].
  - rewrite E in Hin. destruct Hin.
  - rewrite forallb_forall in Hrk. specialize (Hrk _ Hin0). cbn [fst snd] in Hrk.
    rewrite forallb_forall in Hrk. specialize (Hrk fam Hin). apply Nat.ltb_lt in Hrk. exact Hrk.
Qed.

(* every body that can be called starts with a read *)
Variable cfams : list N.
Hypothesis Hcf : forallb (fun ne => forallb (fun fam' => existsb (N.eqb fam') cfams) (efams (snd ne))) tbl = true.
Hypothesis Hfr : forallb (fun fam => forallb (fun k => first_readb (compile nk None (lookup_node tbl (fam, N.of_nat k))))
                                             (seq 0 (N.to_nat nk))) cfams = true.

Theorem table_first : forall q d, calls (prog q) d -> first_read (prog d).
Proof.
  intros q d H. destruct (table_calls q d H) as (fam & x & Hin & ->).
  destruct (lookup_in (fst q, fst (snd q))) as [E | Hin0]; [rewrite E in Hin; destruct Hin|].
  rewrite forallb_forall in Hcf. specialize (Hcf _ Hin0). cbn [snd] in Hcf.
  rewrite forallb_forall in Hcf. specialize (Hcf fam Hin). apply existsb_exists in Hcf. destruct Hcf as (f' & Hf' & Ef).
  apply N.eqb_eq in Ef. subst f'.
  rewrite forallb_forall in Hfr. specialize (Hfr fam Hf'). rewrite forallb_forall in Hfr.
  assert (Hlt : x mod nk < nk) by (apply N.mod_lt; exact Hnk0).
  specialize (Hfr (N.to_nat (x mod nk))). rewrite N2Nat.id in Hfr.
  assert (Hlt' : (N.to_nat (x mod nk) < N.to_nat nk)%nat).
  { clear -Hlt. lia. }
  apply first_readb_ok. rewrite prog_eq. cbn [fst snd]. apply Hfr. apply in_seq. clear -Hlt'. split; [apply Nat.le_0_l | exact Hlt'].
Qed.

End Table.
