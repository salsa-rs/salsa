(* Structs/ProofsBase.v — small facts and tactics shared by the Structs proofs. *)
From Salsa Require Import Base.
From Salsa.gen Require Import Kernels.
From Salsa.Kern Require Import CoreK.
From Salsa.Structs Require Import Model.

(* ---- the state+error monad ---- *)
Lemma bind_ok {A B} (m : M A) (f : A -> M B) s s' b :
  bind m f s = (s', SOk b) -> exists a s1, m s = (s1, SOk a) /\ f a s1 = (s', SOk b).
Proof.
  unfold bind. destruct (m s) as [s1 [a | p |]]; intros H; try discriminate. eauto.
Qed.

Lemma ret_ok {A} (a : A) s s' b : ret a s = (s', SOk b) -> s' = s /\ b = a.
Proof. unfold ret. intros H; injection H; auto. Qed.

Lemma get_ok s s' b : get s = (s', SOk b) -> s' = s /\ b = s.
Proof. unfold get. intros H; injection H; auto. Qed.

Lemma modify_ok f s s' b : modify f s = (s', SOk b) -> s' = f s.
Proof. unfold modify. intros H; injection H; auto. Qed.

Lemma fail_ok {A} p s s' (b : A) : fail p s = (s', SOk b) -> False.
Proof. unfold fail. discriminate. Qed.

Lemma nofuel_ok {A} s s' (b : A) : @nofuel A s = (s', SOk b) -> False.
Proof. unfold nofuel. discriminate. Qed.

(* split one monadic step of a successful run *)
Ltac mstep H :=
  match type of H with
  | bind _ _ _ = (_, SOk _) =>
      let a := fresh "a" in let s1 := fresh "s" in let H1 := fresh "H" in
      apply bind_ok in H; destruct H as (a & s1 & H1 & H)
  | ret _ _ = (?s', SOk ?b) =>
      let E1 := fresh "E" in let E2 := fresh "E" in
      apply ret_ok in H; destruct H as [E1 E2];
      first [subst s' | rewrite E1 in * | idtac]; first [subst b | rewrite E2 in * | idtac]
  | get _ = (?s', SOk ?b) =>
      let E1 := fresh "E" in let E2 := fresh "E" in
      apply get_ok in H; destruct H as [E1 E2];
      first [subst s' | rewrite E1 in * | idtac]; first [subst b | rewrite E2 in * | idtac]
  | modify _ _ = (?s', SOk _) =>
      apply modify_ok in H; first [subst s' | rewrite H in * | idtac]
  | fail _ _ = (_, SOk _) => exfalso; exact (fail_ok _ _ _ _ H)
  | nofuel _ = (_, SOk _) => exfalso; exact (nofuel_ok _ _ _ H)
  end.

Tactic Notation "msplit" hyp(H) "as" ident(x) ident(t) ident(H1) :=
  apply bind_ok in H; destruct H as (x & t & H1 & H).

(* ---- identifiers ---- *)
Lemma handle_eqb_eq a b : handle_eqb a b = true <-> a = b.
Proof. apply key_eqb_eq. Qed.

Lemma handle_eqb_refl a : handle_eqb a a = true.
Proof. apply key_eqb_refl. Qed.

Lemma handle_eqb_neq a b : handle_eqb a b = false <-> a <> b.
Proof. apply key_eqb_neq. Qed.

Lemma hlist_eqb_eq : forall a b, hlist_eqb a b = true <-> a = b.
Proof.
  induction a as [|x a IH]; intros [|y b]; cbn [hlist_eqb]; try (split; [discriminate | intros E; discriminate]).
  - tauto.
  - rewrite andb_true_iff, handle_eqb_eq, IH. split; [intros [-> ->]; reflexivity | intros E; injection E; auto].
Qed.

Lemma rval_eqb_eq a b : rval_eqb a b = true <-> a = b.
Proof.
  unfold rval_eqb. rewrite andb_true_iff, N.eqb_eq, hlist_eqb_eq. destruct a, b; cbn.
  split; [intros [-> ->]; reflexivity | intros E; injection E; auto].
Qed.

Lemma qk_eqb_eq a b : qk_eqb a b = true <-> a = b.
Proof.
  destruct a as [f h], b as [f' h']. unfold qk_eqb. cbn [fst snd].
  rewrite andb_true_iff, N.eqb_eq, handle_eqb_eq. split.
  - intros [-> ->]; reflexivity.
  - intros E; injection E; auto.
Qed.

Lemma qk_eqb_refl a : qk_eqb a a = true.
Proof. apply qk_eqb_eq; reflexivity. Qed.

(* Id::next_generation: +1, failing exactly at u32::MAX — a fact about the translated kernel *)
Lemma next_gen_spec g : next_gen g = if g + 1 <? 4294967296 then Some (g + 1) else None.
Proof.
  unfold next_gen, k_id_next_generation, k_id_generation, k_id_with_generation.
  cbn [k_Id_generation k_Id_index].
  destruct (g + 1 <? 4294967296); reflexivity.
Qed.

Lemma next_gen_some g g' : next_gen g = Some g' -> g' = g + 1.
Proof. rewrite next_gen_spec. destruct (g + 1 <? 4294967296); intros H; [injection H; auto | discriminate]. Qed.

Lemma next_gen_gt g g' : next_gen g = Some g' -> g < g'.
Proof. intros H; apply next_gen_some in H; lia. Qed.

Lemma regen_neq (id : handle) g' : next_gen (snd id) = Some g' -> handle_eqb (fst id, g') id = false.
Proof.
  intros H. apply handle_eqb_neq. intros E. apply next_gen_gt in H. rewrite <- E in H. cbn [snd] in H. lia.
Qed.

(* ---- counters ---- *)
Lemma cnt_get_bump_same l k : cnt_get (cnt_bump l k) k = cnt_get l k + 1.
Proof.
  induction l as [|[k' n] l IH]; cbn [cnt_get cnt_bump].
  - rewrite N.eqb_refl; reflexivity.
  - destruct (N.eqb_spec k' k); cbn [cnt_get].
    + destruct (N.eqb_spec k' k); [reflexivity | contradiction].
    + destruct (N.eqb_spec k' k); [contradiction | exact IH].
Qed.

Lemma cnt_get_bump_other l k k' : k <> k' -> cnt_get (cnt_bump l k) k' = cnt_get l k'.
Proof.
  intros Hne. induction l as [|[k0 n] l IH]; cbn [cnt_get cnt_bump].
  - destruct (N.eqb_spec k k'); [contradiction | reflexivity].
  - destruct (N.eqb_spec k0 k); cbn [cnt_get].
    + destruct (N.eqb_spec k0 k'); [subst; contradiction | reflexivity].
    + destruct (N.eqb_spec k0 k'); [reflexivity | exact IH].
Qed.

(* ---- lists ---- *)
Lemma flat_map_single {A B} (g : A -> B) l : flat_map (fun x => [g x]) l = map g l.
Proof. induction l as [|x l IH]; cbn [flat_map map app]; [reflexivity | now rewrite IH]. Qed.

Lemma nodup_app {A} (l1 l2 : list A) :
  NoDup l1 -> NoDup l2 -> (forall x, In x l1 -> In x l2 -> False) -> NoDup (l1 ++ l2).
Proof.
  intros H1 H2 Hd. induction H1 as [|x l1 Hx H1 IH]; cbn [app]; [exact H2|].
  constructor.
  - intros Hin. apply in_app_or in Hin. destruct Hin as [Hin | Hin]; [exact (Hx Hin)|].
    exact (Hd x (or_introl eq_refl) Hin).
  - apply IH. intros y Hy1 Hy2. exact (Hd y (or_intror Hy1) Hy2).
Qed.

Lemma nodup_app_l {A} (l1 l2 : list A) : NoDup (l1 ++ l2) -> NoDup l1.
Proof.
  induction l1 as [|x l1 IH]; cbn [app]; intros H; [constructor|].
  inversion H as [|? ? Hx Hr]; subst. constructor.
  - intros Hin. apply Hx. apply in_or_app; auto.
  - exact (IH Hr).
Qed.

Lemma nodup_app_r {A} (l1 l2 : list A) : NoDup (l1 ++ l2) -> NoDup l2.
Proof.
  induction l1 as [|x l1 IH]; cbn [app]; intros H; [exact H|].
  inversion H; subst. auto.
Qed.

Lemma nodup_app_disj {A} (l1 l2 : list A) x : NoDup (l1 ++ l2) -> In x l1 -> In x l2 -> False.
Proof.
  induction l1 as [|y l1 IH]; cbn [app]; intros H H1 H2; [destruct H1|].
  inversion H as [|? ? Hy Hr]; subst. destruct H1 as [-> | H1].
  - apply Hy. apply in_or_app; auto.
  - exact (IH Hr H1 H2).
Qed.
