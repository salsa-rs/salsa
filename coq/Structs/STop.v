(* Structs/STop.v — the API: a new revision extends the ghost world history, a write keeps the
   invariant, a Get returns the from-scratch value of the world read off the state.
   For programs without `specify` and without struct-keyed functions, and histories [s1_op]: writes of
   LOW durability, Gets and OEntries. *)
From Salsa Require Import Base.
From Salsa.Kern Require Import CoreK CoreKFacts.
From Salsa.Structs Require Import Model ProofsBase ProofsCascade Machine ProofsInv ProofsStep Theorems Guard SimBase SimOps Sim
     SSem SInv SSlots SFrame SNewInv SRun SExec SVerify.

Section Top.
Variable prog : qk -> body.
Variable skind : N -> bool.
Variable idhash : val -> N.
Variable rank : qk -> nat.
Hypothesis Hrank : calls_below prog rank.
Variable NF : nat.
Hypothesis Hbound : forall q, (rank q < NF)%nat.
Hypothesis Hprov : no_forge idhash prog.
Hypothesis Hgk : forall q d, calls (prog q) d -> gk d.
Hypothesis Hnk : forall f, skind f = false.
Hypothesis Hfirst : forall q d, calls (prog q) d -> first_read (prog d).
Hypothesis Hns : forall q, nospec (prog q).

Notation Ew := (Ew idhash prog NF).
Notation trw := (trw idhash prog NF).
Notation clos := (clos idhash prog NF).
Notation SInv := (SInv prog skind idhash NF).
Notation trr := (trr prog idhash NF).

(* ---------------------------------------------------------------- moving on: every memo is older than vmax *)
Lemma SInv_advance Hs Hs' s s' vmax :
  SInv Hs s [] ->
  d_memo s' = d_memo s -> d_slots s' = d_slots s -> d_nslots s' = d_nslots s -> d_free s' = d_free s ->
  d_ideal s' = d_ideal s -> d_stack s' = d_stack s ->
  (forall l m, d_memo s l = Some m -> m_verified m <= vmax) -> vmax < cur s' -> vmax <= cur s -> cur s <= cur s' ->
  (forall r, r <= vmax -> Wd Hs' s' r = Wd Hs s r) ->
  (forall i, f_changed (d_in s i) <= f_changed (d_in s' i)) ->
  (forall i r, f_changed (d_in s' i) <= r -> r <= cur s' -> w_in (Wd Hs' s' r) i = f_val (d_in s' i)) ->
  (forall i, f_changed (d_in s' i) <= cur s') -> (forall i, f_dur (d_in s' i) = 0) ->
  (forall i sl r, d_slots s i = Some sl -> sl_updated sl = Some r -> r < cur s') ->
  SInv Hs' s' [].
Proof.
  intros I Hm Hsl Hn Hf Hid Hst Hvmax Hlt Hle Hcc HW Hch Hin Hinle Hlow Hnolock.
  assert (Hlive : forall h sl, live_h s' h sl <-> live_h s h sl) by (intros h sl; unfold live_h; rewrite Hsl; reflexivity).
  assert (Hiss : issued s' = issued s) by (unfold issued; rewrite Hid; reflexivity).
  assert (HWr : forall r, r <= vmax -> W Hs' s' r = W Hs s r) by exact HW.
  assert (Hsle : forall c x, sle s c x -> sle s' c x).
  { intros c x. destruct x as [i | d | cc | | id idv f0 f1 | h f | h]; cbn [SInv.sle]; auto.
    - intros A. specialize (Hch i). lia.
    - rewrite Hm. auto.
    - intros [A B]. split; [rewrite Hiss; exact A|]. intros sl Hl. apply Hlive in Hl. exact (B sl Hl). }
  constructor.
  - pose proof (si_cur I). lia.
  - exact Hin.
  - exact Hinle.
  - exact Hlow.
  - exact (oinv_newrev skind s s' (si_oinv I) Hsl Hm Hn Hf Hid).
  - apply (cons_nk skind Hnk s s' [] [] (si_cons I) Hst). intros q fr [].
  - intros i sl Hs0 Hu. rewrite Hsl in Hs0. destruct (si_slots I i sl Hs0 Hu) as [A B]. split; [exact A|].
    intros r Hr. specialize (B r Hr). lia.
  - intros i sl Hs0. rewrite Hsl in Hs0. pose proof (si_gens I i sl Hs0) as G.
    destruct (sl_updated sl); [exact G | lia].
  - (* memos *)
    intros l m Hm'. rewrite Hm in Hm'. pose proof (si_memo I l m Hm') as Hok.
    pose proof (Hvmax l m Hm') as Hv.
    destruct Hok as [Korder Kval Klow Korigin Kstructs Kin Kq Kfld Kout Keorder Kuntr Kown Kobs Know].
    unfold SInv.Er, SInv.trr in *.
    constructor; unfold SInv.Er, SInv.trr; rewrite ?(HWr _ Hv).
    + (* mo_order *) destruct Korder as (A & B & C). repeat split; lia.
    + (* mo_val *) exact Kval.
    + (* mo_low *) exact Klow.
    + (* mo_origin *) exact Korigin.
    + (* mo_structs *) exact Kstructs.
    + (* mo_in *) exact Kin.
    + (* mo_q *) exact Kq.
    + (* mo_fld *) exact Kfld.
    + (* mo_out *) exact Kout.
    + (* mo_eorder *) exact Keorder.
    + (* mo_untr *) exact Kuntr.
    + (* mo_own *) intros Hna id h Hinm. destruct (Kown Hna id h Hinm) as (sl & Hl & Hfl & Hd & A0 & A1 & Hcs).
      exists sl. split; [apply Hlive; exact Hl|]. split; [exact Hfl|]. split; [exact Hd|]. split; [exact A0|]. split; [exact A1|].
      destruct Hcs as [A | (pre & idv & f0 & f1 & post & x & Et & Hx & Hs0)]; [left; exact A | right].
      exists pre, idv, f0, f1, post, x. split; [exact Et|]. split; [exact Hx | exact (Hsle _ _ Hs0)].
    + (* mo_obs *) intros d Hd. destruct (Kobs d Hd) as [a1 a2 a3 a4 a5].
      constructor; unfold SInv.Er, SInv.trr; rewrite ?(HWr _ Hv).
      * destruct a1 as (md & Hmd & Hle1 & Hobs). exists md. rewrite Hm. split; [exact Hmd|]. split; [exact Hle1|].
        intros Hc. rewrite (HWr _ (Hvmax _ md Hmd)). exact (Hobs Hc).
      * intros h f sl Hinr Hl Hr. apply Hlive in Hl. exact (a2 h f sl Hinr Hl Hr).
      * intros h sl Hinr Hl. apply Hlive in Hl. exact (a3 h sl Hinr Hl).
      * intros id idv f0 f1 Hinr. destruct (a4 id idv f0 f1 Hinr) as [A1 A2]. split; [exact A1 | rewrite Hiss; exact A2].
      * intros id idv f0 f1 sl Hinr Hl. apply Hlive in Hl.
        destruct (a5 id idv f0 f1 sl Hinr Hl) as [(Hna & md & Hmd & Hinm) | (fr & e & [] & _)].
        left. split; [exact Hna|]. exists md. rewrite Hm. auto.
    + (* mo_now *) intros Hvc. lia.
  - intros h sl Hl Hu. apply Hlive in Hl. destruct Hl as (Hs0 & _). pose proof (Hnolock _ sl _ Hs0 Hu). lia.
  - intros q fr [].
Qed.

(* ---------------------------------------------------------------- between operations *)
Definition TopOK (s : db) : Prop := exists Hs, SInv Hs s [] /\ d_stack s = [].

(* nothing has been verified or read-locked in the current revision yet *)
Definition fresh (s : db) : Prop :=
  (forall l m, d_memo s l = Some m -> m_verified m < cur s) /\
  (forall i sl r, d_slots s i = Some sl -> sl_updated sl = Some r -> r < cur s).

Lemma init_ok iv : TopOK (init iv (fun _ => 0)).
Proof.
  exists (fun _ => wcur (init iv (fun _ => 0))). split; [|reflexivity].
  constructor.
  - cbn. unfold REV_START. lia.
  - intros i r Hr Hle. cbn in Hr, Hle. unfold REV_START in *. assert (r = 1) by lia. subst r. reflexivity.
  - intros i. cbn. lia.
  - intros i. reflexivity.
  - apply oinv_init.
  - apply cons_nil. reflexivity.
  - intros i sl H. discriminate.
  - intros i sl H. discriminate.
  - intros l m H. discriminate.
  - intros h sl (H & _). discriminate.
  - intros q fr [].
Qed.

Lemma newrev_ok s : TopOK s -> TopOK (new_revision s) /\ fresh (new_revision s) /\ cur (new_revision s) = cur s + 1.
Proof.
  intros (Hs & I & Hst).
  set (s' := new_revision s).
  assert (Hc : cur s' = cur s + 1) by reflexivity.
  set (Hs' := fun r => if r =? cur s then wcur s else Hs r).
  assert (HW : forall r, r <= cur s -> Wd Hs' s' r = Wd Hs s r).
  { intros r Hr. unfold Wd. rewrite Hc. assert (E1 : r <? cur s + 1 = true) by (apply N.ltb_lt; lia). rewrite E1.
    unfold Hs'. destruct (N.eqb_spec r (cur s)) as [-> | Hne].
    - rewrite N.ltb_irrefl. reflexivity.
    - assert (E2 : r <? cur s = true) by (apply N.ltb_lt; lia). rewrite E2. reflexivity. }
  split; [|split; [|exact Hc]].
  - exists Hs'. split; [|exact Hst].
    apply (SInv_advance Hs Hs' s s' (cur s) I); try reflexivity; try lia.
    + (* no memo is verified after cur s *) intros l m Hm. exact (proj2 (proj2 (mo_order (si_memo I l m Hm)))).
    + (* the worlds up to cur s are the old ones *) exact HW.
    + (* an input unchanged since r has its value in world r *)
      intros i r Hr Hle. destruct (N.eq_dec r (cur s')) as [-> | Hne].
      * unfold Wd. rewrite N.ltb_irrefl. reflexivity.
      * rewrite HW by lia. apply (si_in I i r Hr). lia.
    + (* input stamps are not in the future *) intros i. pose proof (si_in_le I i). rewrite Hc. unfold s'. cbn. lia.
    + (* inputs are LOW *) exact (si_low I).
    + (* no slot is read-locked in the new revision *) intros i sl r Hs0 Hu. assert (Hun : sl_updated sl <> None) by (rewrite Hu; discriminate).
      pose proof (proj2 (si_slots I i sl Hs0 Hun) r Hu). lia.
  - split.
    + intros l m Hm. pose proof (mo_order (si_memo I l m Hm)). cbn in *. lia.
    + intros i sl r Hs0 Hu. assert (Hun : sl_updated sl <> None) by (rewrite Hu; discriminate).
      pose proof (proj2 (si_slots I i sl Hs0 Hun) r Hu). cbn in *. lia.
Qed.

Lemma ccount_ok s n : TopOK s -> TopOK (set_ccount s n).
Proof.
  intros (Hs & I & Hst). exists Hs. split; [|exact Hst].
  refine (proj1 (SInv_core prog skind idhash rank Hrank NF Hbound Hprov Hgk Hs s [] _ I _ _ _ _ _ _ _ _ _)); try reflexivity.
  apply (cons_nk skind Hnk s _ [] [] (si_cons I)); [reflexivity | intros q fr []].
Qed.

Lemma write_ok s i v : TopOK s -> fresh s ->
  TopOK (set_in (set_revs s (d_revs s)) (upd (d_in s) i {| f_val := v; f_changed := cur s; f_dur := 0 |})).
Proof.
  intros (Hs & I & Hst) [Fm Fs].
  set (s' := set_in (set_revs s (d_revs s)) (upd (d_in s) i {| f_val := v; f_changed := cur s; f_dur := 0 |})).
  assert (Hc : cur s' = cur s) by reflexivity.
  pose proof (si_cur I) as Hc1.
  exists Hs. split; [|exact Hst].
  apply (SInv_advance Hs Hs s s' (cur s - 1) I); try reflexivity; try lia.
  - (* no memo is verified in the current revision *) intros l m Hm. pose proof (Fm l m Hm). lia.
  - (* the past worlds are the old ones *) intros r Hr. unfold Wd. rewrite Hc. assert (E : r <? cur s = true) by (apply N.ltb_lt; lia). rewrite E. reflexivity.
  - (* input stamps only grow *)
    intros j. unfold s'. cbn. unfold upd. destruct (key_eqb_spec i j) as [<- | Hne]; [cbn; exact (si_in_le I i) | lia].
  - (* an input unchanged since r has its value in world r; for the written input r is the current revision *)
    intros j r Hr Hle. rewrite Hc in Hle. unfold s' in Hr |- *. cbn [d_in set_in set_revs] in Hr |- *. unfold upd in Hr |- *.
    destruct (key_eqb_spec i j) as [<- | Hne]; cbn [f_val f_changed] in *.
    + assert (r = cur s) by lia. subst r. unfold Wd. cbn [cur d_revs set_in set_revs]. fold (cur s). rewrite N.ltb_irrefl. cbn. unfold upd. rewrite key_eqb_refl. reflexivity.
    + destruct (N.eq_dec r (cur s)) as [-> | Hnr].
      * unfold Wd. cbn [cur d_revs set_in set_revs]. fold (cur s). rewrite N.ltb_irrefl. cbn. unfold upd. destruct (key_eqb_spec i j); [contradiction | reflexivity].
      * assert (E : forall s0, cur s0 = cur s -> Wd Hs s0 r = Wd Hs s r).
        { intros s0 E0. unfold Wd. rewrite E0. assert (E : r <? cur s = true) by (apply N.ltb_lt; lia). rewrite E. reflexivity. }
        rewrite E by reflexivity. apply (si_in I j r Hr). lia.
  - (* input stamps are not in the future *)
    intros j. rewrite Hc. unfold s'. cbn. unfold upd. destruct (key_eqb_spec i j); [cbn; lia | exact (si_in_le I j)].
  - (* inputs are LOW *) intros j. unfold s'. cbn. unfold upd. destruct (key_eqb_spec i j); [reflexivity | exact (si_low I j)].
  - (* no slot is read-locked in the current revision *) intros j sl r Hs0 Hu. rewrite Hc. exact (Fs j sl r Hs0 Hu).
Qed.

(* ---------------------------------------------------------------- a Get *)
(* the world is consistent for q: every struct created in the closure of q has, in the world's
   store, the fields its creator gives it *)
Definition wcons (w : world) (q : qk) : Prop :=
  forall d, clos w q d -> forall id idv f0 f1, In (RNew id idv f0 f1) (trw w d) ->
    w_slot w (w_alloc w d id) = (idv, f0, f1).

Lemma get_ok fuel s q s' v : TopOK s -> gk q -> first_read (prog q) -> cur s < GMAX ->
  step prog skind [] idhash fuel s (OGet q) = (s', SOk v) ->
  TopOK s' /\ cur s' = cur s /\ v = Ew (wcur s') q /\ wcons (wcur s') q /\ (forall h, In h (snd v) -> live s' h).
Proof.
  intros (Hs & I & Hst) Hg Hfq Hcur H. cbn [step] in H.
  destruct (fetch prog skind [] idhash (level prog skind [] idhash fuel) q s) as [s1 [[[v1 d1] c1] | p |]] eqn:E; try discriminate.
  injection H as <- <-.
  destruct (level_ok prog skind idhash rank Hrank NF Hbound Hprov Hgk Hnk Hfirst Hns (S fuel)) as [HF _].
  cbn [level] in HF.
  destruct (HF Hs s [] q s1 (v1, d1, c1) I Hg Hfq Hcur E) as (I1 & X1 & (A1 & _) & m & Hm & Hv & Hval & _).
  cbn [fst snd] in Hval. pose proof (sext_cur _ _ X1) as Hc1.
  split; [exists Hs; split; [exact I1 | congruence]|]. split; [exact Hc1|].
  pose proof (memo_ok_of I1 Hg Hm) as Hok.
  rewrite <- Hc1 in Hv.
  split; [|split].
  - pose proof (mo_val Hok) as Ev. rewrite Hval, Hv in Ev. injection Ev as Ev.
    rewrite Er_cur in Ev. exact Ev.
  - intros d Hd id idv f0 f1 Hin.
    assert (Hd' : clos (W Hs s1 (m_verified m)) q d) by (rewrite Hv, W_cur; exact Hd).
    pose proof (mo_obs Hok d Hd') as Hdv.
    assert (Hin' : In (RNew id idv f0 f1) (trr Hs s1 (m_verified m) d)) by (rewrite Hv, trr_cur; exact Hin).
    pose proof (proj1 (dv_new Hdv id idv f0 f1 Hin')) as A. rewrite Hv, W_cur in A. exact A.
  - intros h Hh.
    destruct (result_hokq prog skind idhash rank Hrank NF Hbound Hprov Hgk Hs s1 [] q m v1 frame0 I1 Hg Hm Hv Hval h Hh)
      as [(l & mA & id & HmA & HvA & HinA) | (id & [])].
    destruct (listed_live prog skind idhash NF Hs s1 [] l mA id h I1 HmA HvA HinA) as (sl & Hl).
    exact (live_h_live s1 h sl Hl).
Qed.

(* ---------------------------------------------------------------- histories *)
Definition s1_op (o : op) : Prop :=
  match o with
  | OSet i v d => d = None \/ d = Some 0
  | OGet q => gk q /\ first_read (prog q)
  | OEntries => True
  | _ => False
  end.

Fixpoint gets_ok (fuel : nat) (s : db) (os : list op) : Prop :=
  match os with
  | [] => True
  | o :: os' =>
      let s' := fst (step prog skind [] idhash fuel s o) in
      (match o with
       | OGet q => exists v, snd (step prog skind [] idhash fuel s o) = SOk v /\
                             v = Ew (wcur s') q /\ wcons (wcur s') q /\ (forall h, In h (snd v) -> live s' h)
       | _ => True
       end) /\ gets_ok fuel s' os'
  end.

End Top.
