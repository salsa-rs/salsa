(* Structs/SCanon.v — allocator independence for [s1b_ops] histories: every Get of every history answers
   with the from-scratch value of EVERY consistent world that has the current inputs and cells,
   whatever its allocator: equal data value, and struct lists that correspond position by
   position (same creating query, same identity, same fields).  "From-scratch up to the naming
   of handles." *)
From Salsa Require Import Base.
From Salsa.Kern Require Import CoreK.
From Salsa.Structs Require Import Model Dsl Spec Machine Sim Examples SSem SInv SRun STop STop2 SAdeq SDsl SParam SParamK SSpec S1Examples S1b.

Section Canon.
Variable prog : qk -> body.
Variable skind : N -> bool.
Variable idhash : val -> N.
Variable NF : nat.

Fixpoint gets_canon (fuel : nat) (s : db) (os : list op) : Prop :=
  match os with
  | [] => True
  | o :: os' =>
      let s' := fst (step prog skind [] idhash fuel s o) in
      (match o with
       | OGet q => exists v, snd (step prog skind [] idhash fuel s o) = SOk v /\
                             (forall w', (forall i, w_in (wcur s') i = w_in w' i) -> (forall c, w_cell (wcur s') c = w_cell w' c) ->
                                         wcons prog idhash NF w' q ->
                                         rrel (crel prog idhash NF (wcur s') w' q) v (Ew idhash prog NF w' q)) /\
                             wcons prog idhash NF (wcur s') q /\
                             (forall h, In h (snd v) -> live s' h)
       | _ => True
       end) /\ gets_canon fuel s' os'
  end.

Variable rank : qk -> nat.
Hypothesis Hrank : calls_below prog rank.
Hypothesis Hbound : forall q, (rank q < NF)%nat.
Hypothesis Hpar : parametric prog.

Lemma gets_ok_canon fuel : forall os s, gets_ok prog skind idhash NF fuel s os -> gets_canon fuel s os.
Proof.
  induction os as [|o os IH]; intros s H; [exact Logic.I|].
  cbn [gets_ok gets_canon] in *. destruct H as [Ho Hr]. split; [|exact (IH _ Hr)].
  destruct o as [i v d | d | c v | q | fam q i | ]; try exact Logic.I.
  destruct Ho as (v & Ev & Hv & Hw & Hl). exists v. split; [exact Ev|]. split; [|split; [exact Hw | exact Hl]].
  intros w' Hi Hc Hcw. rewrite Hv.
  exact (allocator_independent prog idhash rank Hrank NF Hbound Hpar (wcur _) w' q Hi Hc Hw Hcw).
Qed.

Lemma gets_canon_prefix fuel : forall os1 s q os2,
  gets_canon fuel s (os1 ++ OGet q :: os2) ->
  let s1 := fst (run_ops prog skind [] idhash fuel s os1) in
  let s' := fst (step prog skind [] idhash fuel s1 (OGet q)) in
  exists v, snd (step prog skind [] idhash fuel s1 (OGet q)) = SOk v /\
            (forall w', (forall i, w_in (wcur s') i = w_in w' i) -> (forall c, w_cell (wcur s') c = w_cell w' c) ->
                        wcons prog idhash NF w' q ->
                        rrel (crel prog idhash NF (wcur s') w' q) v (Ew idhash prog NF w' q)) /\
            wcons prog idhash NF (wcur s') q /\
            (forall h, In h (snd v) -> live s' h).
Proof.
  induction os1 as [|o os1 IH]; intros s q os2 H.
  - cbn [app gets_canon] in H. exact (proj1 H).
  - cbn [app gets_canon] in H. destruct H as [_ H].
    cbv zeta. rewrite run_ops_fst_cons. exact (IH _ q os2 H).
Qed.
End Canon.

Theorem from_scratch_S1b_canon :
  forall (prog : qk -> body) (skind : N -> bool) (idhash : val -> N) (rank : qk -> nat) (NF : nat),
  calls_below prog rank -> (forall q, (rank q < NF)%nat) ->
  no_forge idhash prog -> parametric prog -> (forall q, nospec (prog q)) -> (forall f, skind f = false) ->
  (forall q d, calls (prog q) d -> gk d) -> (forall q d, calls (prog q) d -> first_read (prog d)) ->
  forall fuel iv os,
  s1b_ops prog true os -> 1 + 2 * N.of_nat (length os) < GMAX ->
  Forall2 okout os (snd (run_ops prog skind [] idhash fuel (init iv (fun _ => 0)) os)) ->
  forall os1 q os2, os = os1 ++ OGet q :: os2 ->
  let s1 := fst (run_ops prog skind [] idhash fuel (init iv (fun _ => 0)) os1) in
  let s' := fst (step prog skind [] idhash fuel s1 (OGet q)) in
  exists v, snd (step prog skind [] idhash fuel s1 (OGet q)) = SOk v /\
            (forall w', (forall i, w_in (wcur s') i = w_in w' i) -> (forall c, w_cell (wcur s') c = w_cell w' c) ->
                        wcons prog idhash NF w' q ->
                        rrel (crel prog idhash NF (wcur s') w' q) v (Ew idhash prog NF w' q)) /\
            wcons prog idhash NF (wcur s') q /\
            (forall h, In h (snd v) -> live s' h).
Proof.
  intros prog skind idhash rank NF Hrank Hbound Hprov Hpar Hns Hnk Hgk Hfirst fuel iv os Hops Hb Hok os1 q os2 E.
  apply (gets_canon_prefix prog skind idhash NF fuel os1 _ q os2). rewrite <- E.
  apply (gets_ok_canon prog skind idhash NF rank Hrank Hbound Hpar).
  apply (from_scratch_S1b prog skind idhash rank Hrank NF Hbound Hprov Hgk Hnk Hfirst Hns fuel os _ 0 true).
  - apply init_ok.
  - intros _. apply fresh_init.
  - cbn. unfold REV_START. lia.
  - exact Hb.
  - exact Hops.
  - exact Hok.
Qed.

(* the example programs are parametric *)
Lemma r1_param : parametric (prog_of r1_nk skind0 r1_nodes).
Proof. exact (table_param r1_nk r1_nodes r1_wf). Qed.
Lemma r2_param : parametric (prog_of r1_nk skind0 r2_nodes).
Proof. exact (table_param r1_nk r2_nodes r2_wf). Qed.
Lemma r3_param : parametric (prog_of r1_nk skind0 r3_nodes).
Proof. exact (table_param r1_nk r3_nodes r3_wf). Qed.

(* ---------------------------------------------------------------- the model computes the specification *)
Lemma s1b_ops_get prog : forall os1 b q os2, s1b_ops prog b (os1 ++ OGet q :: os2) -> gk q.
Proof.
  induction os1 as [|o os1 IH]; intros b q os2 H.
  - cbn in H. exact (proj1 (proj1 H)).
  - destruct o; cbn [app s1b_ops] in H; try (destruct H as [_ H]); try contradiction; exact (IH _ _ _ H).
Qed.

(* every Get of every S1b history returns what Structs/Spec.v computes by ONE memo-free evaluation
   on a fresh database holding the current inputs and cells (Spec.spec_get, the oracle of the
   differential checks): the evaluation answers, its data value is the model's, and its i-th
   canonical name (creator, identity value, occurrence) names the creation of the model's i-th
   returned struct. *)
Theorem model_is_spec_S1b :
  forall (prog : qk -> body) (skind : N -> bool) (idhash : val -> N) (rank : qk -> nat) (NF : nat),
  calls_below prog rank -> (forall q, (rank q < NF)%nat) ->
  no_forge idhash prog -> parametricK prog -> (forall q, nospec (prog q)) -> (forall f, skind f = false) ->
  (forall q d, calls (prog q) d -> gk d) -> (forall q d, calls (prog q) d -> first_read (prog d)) ->
  forall fuel iv os,
  s1b_ops prog true os -> 1 + 2 * N.of_nat (length os) < GMAX ->
  Forall2 okout os (snd (run_ops prog skind [] idhash fuel (init iv (fun _ => 0)) os)) ->
  forall os1 q os2, os = os1 ++ OGet q :: os2 ->
  let s1 := fst (run_ops prog skind [] idhash fuel (init iv (fun _ => 0)) os1) in
  let s' := fst (step prog skind [] idhash fuel s1 (OGet q)) in
  exists v names,
    snd (step prog skind [] idhash fuel s1 (OGet q)) = SOk v /\
    spec_get prog skind (snap_of s') NF q = SOk (fst v, names) /\
    Forall2 (fun onm h => exists nm d, onm = Some nm /\ clos idhash prog NF (wcur s') q d /\
                                       cre prog idhash NF (wcur s') d nm h) names (snd v) /\
    (forall n x nms, spec_get prog skind (snap_of s') n q = SOk (x, nms) -> x = fst v).
Proof.
  intros prog skind idhash rank NF Hrank Hbound Hprov Hpar Hns Hnk Hgk Hfirst fuel iv os Hops Hb Hok os1 q os2 E s1 s'.
  destruct (dependents_S1b prog skind idhash rank NF Hrank Hbound Hprov Hns Hnk Hgk Hfirst fuel iv os Hops Hb Hok os1 q os2 E)
    as (v & Ev & Hv & Hw & _).
  fold s1 in Ev, Hv, Hw. fold s' in Hv, Hw.
  assert (Hg : gk q) by (rewrite E in Hops; exact (s1b_ops_get prog os1 true q os2 Hops)).
  assert (Hvw : v = Ew idhash prog NF (wcur s') q).
  { apply Hv; [|exact Hw]. repeat split; reflexivity. }
  destruct (spec_get_total prog skind (snap_of s') rank Hrank Hns NF q (Hbound q)) as (x & names & Es).
  destruct (spec_get_is_Ew prog skind idhash rank Hrank NF Hbound Hpar Hnk Hgk (wcur s') q Hg Hw NF x names Es) as [Hx Hn].
  exists v, names. split; [exact Ev|]. rewrite Hvw. split; [rewrite <- Hx; exact Es|]. split; [exact Hn|].
  intros n x' nms Es'.
  exact (proj1 (spec_get_is_Ew prog skind idhash rank Hrank NF Hbound Hpar Hnk Hgk (wcur s') q Hg Hw n x' nms Es')).
Qed.

Lemma r1_paramK : parametricK (prog_of r1_nk skind0 r1_nodes).
Proof. exact (table_paramK r1_nk r1_nodes r1_wf). Qed.
Lemma r2_paramK : parametricK (prog_of r1_nk skind0 r2_nodes).
Proof. exact (table_paramK r1_nk r2_nodes r2_wf). Qed.

(* the evaluator on the final snapshot of the S1Examples history: mk returns one struct, named
   (creator mk(0), identity value 0, occurrence 0) *)
Example r1_spec_get :
  spec_get (prog_of r1_nk skind0 r1_nodes) skind0
           (snap_of (fst (run_ops (prog_of r1_nk skind0 r1_nodes) skind0 [] r1_idhash 40%nat (init (lookup3 r1_ival) (fun _ => 0)) r1_ops)))
           r1_NF (1, (0, 0)) = SOk (0, [Some (CN 1 (KIn 0) 0 0)]) /\
  spec_get (prog_of r1_nk skind0 r1_nodes) skind0
           (snap_of (fst (run_ops (prog_of r1_nk skind0 r1_nodes) skind0 [] r1_idhash 40%nat (init (lookup3 r1_ival) (fun _ => 0)) r1_ops)))
           r1_NF (4, (0, 0)) = SOk (5, []).
Proof. vm_compute. split; reflexivity. Qed.
