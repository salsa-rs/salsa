(* Structs/SNewInv.v — TS::new preserves the from-scratch invariant and extends the log of the
   running execution by one creation.  The observers of the re-created struct are served either
   because the execution has so far received exactly the answers of the world in which the old
   memo was verified (then the fields are the old ones, and the field-1 revision does not
   decrease), or because the frame's stamp is already later than every observer. *)
From Salsa Require Import Base.
From Salsa.Kern Require Import CoreK CoreKFacts.
From Salsa.Structs Require Import Model ProofsBase ProofsCascade Machine ProofsInv ProofsStep Theorems Guard SimBase SimOps Sim
     SSem SInv SSlots SFrame.

Section SNew.
Variable skind : N -> bool.
Variable idhash : val -> N.

Record ns_frame (s s' : db) : Prop := {
  nf_revs : d_revs s' = d_revs s;
  nf_cc : d_ccount s' = d_ccount s;
  nf_in : d_in s' = d_in s;
  nf_cell : d_cell s' = d_cell s;
  nf_memo : d_memo s' = d_memo s;
  nf_stack : d_stack s' = d_stack s
}.

Definition stamp_frame (fr fr' : frame) (hash : N) : Prop :=
  fr_dur fr' = fr_dur fr /\ fr_changed fr' = fr_changed fr /\ fr_edges fr' = fr_edges fr /\
  fr_untracked fr' = fr_untracked fr /\ fr_disamb fr' = cnt_bump (fr_disamb fr) hash.

(* the three ways [h], the identity map of [fr'] and the slot [slnew] at [h] come about; [e] is the
   first entry of the frame with the identity of the new struct, [sl] the slot of its id *)
Inductive ns_case (idv f0 f1 : val) (fr : frame) (s s' : db) (h : handle) (fr' : frame) (slnew : slot) : Prop :=
(* [sl] holds the same identity value: the id of [e] is kept and [e] becomes active *)
| Case_same l1 e l2 sl :
    fr_ids fr = l1 ++ e :: l2 -> key_eqb (te_ident e) (nident idhash (fr_disamb fr) idv) = true ->
    nomatch (nident idhash (fr_disamb fr) idv) l1 ->
    h = te_id e -> fr_ids fr' = l1 ++ act e :: l2 ->
    d_slots s (fst h) = Some sl -> sl_updated sl <> None -> sl_updated sl <> Some (cur s) -> sl_idv sl = idv ->
    slnew = upd_slot sl (sl_gen sl) (fr_dur fr, fr_changed fr) (cur s) idv f0 f1 true ->
    d_free s' = d_free s -> d_nslots s' = d_nslots s ->
    ns_case idv f0 f1 fr s s' h fr' slnew
(* [sl] holds another identity value (hash collision): same slot, next generation *)
| Case_changed l1 e l2 sl :
    fr_ids fr = l1 ++ e :: l2 -> key_eqb (te_ident e) (nident idhash (fr_disamb fr) idv) = true ->
    nomatch (nident idhash (fr_disamb fr) idv) l1 ->
    h = (fst (te_id e), snd (te_id e) + 1) ->
    fr_ids fr' = l1 ++ mk_entry (nident idhash (fr_disamb fr) idv) h true :: l2 ->
    d_slots s (fst h) = Some sl -> sl_updated sl <> None -> sl_updated sl <> Some (cur s) -> sl_idv sl <> idv ->
    slnew = upd_slot sl (snd h) (fr_dur fr, fr_changed fr) (cur s) idv f0 f1 false ->
    d_free s' = d_free s -> d_nslots s' = d_nslots s ->
    ns_case idv f0 f1 fr s s' h fr' slnew
(* no entry with this identity: a slot from the free list (with its next generation) or a new index *)
| Case_fresh :
    nomatch (nident idhash (fr_disamb fr) idv) (fr_ids fr) ->
    fr_ids fr' = fr_ids fr ++ [mk_entry (nident idhash (fr_disamb fr) idv) h true] ->
    slnew = fresh_slot (snd h) (fr_dur fr, fr_changed fr) (cur s) idv f0 f1 ->
    ((exists sk g, d_free s = sk ++ (fst h, g) :: d_free s' /\ next_gen g = Some (snd h) /\ d_nslots s' = d_nslots s) \/
     (h = (d_nslots s, 0) /\ d_nslots s' = d_nslots s + 1 /\ d_free s' = [])) ->
    ns_case idv f0 f1 fr s s' h fr' slnew.

Lemma parents_nil s roots e : parents [] s roots e -> forall c, In c e -> In c roots.
Proof. intros P c Hc. destruct (P c Hc) as [A | (p & _ & slp & fam & m & _ & [] & _)]. exact A. Qed.

Lemma casc_nil_parents s e : parents [] s [] e -> e = [].
Proof. intros P. destruct e as [|c e]; [reflexivity|]. destruct (parents_nil s [] _ P c (or_introl eq_refl)). Qed.

(* the stamp part of the frame after a creation: every branch only replaces the identity map *)
Lemma new_struct_stamp n q idv f0 f1 fr s s' h fr' :
  new_struct skind [] idhash n q idv f0 f1 fr s = (s', SOk (h, fr')) -> stamp_frame fr fr' (idhash idv).
Proof.
  intros H. unfold new_struct, disambiguate in H.
  destruct (reuse _ _) as [found ids1].
  msplit H as r t0 H0. msplit H as slg t1 H1. msplit H as u2 t2 H2. apply ret_ok in H. destruct H as [_ Er]. subst r.
  destruct found as [id|].
  - msplit H0 as u t3 H3. destruct u as [id'|].
    + destruct (handle_eqb id' id); apply ret_ok in H0; destruct H0 as [_ E]; injection E as _ E2; subst fr'; unfold stamp_frame; cbn; auto.
    + msplit H0 as id' t4 H4. apply ret_ok in H0. destruct H0 as [_ E]. injection E as _ E2. subst fr'. unfold stamp_frame; cbn; auto.
  - msplit H0 as id' t4 H4. apply ret_ok in H0. destruct H0 as [_ E]. injection E as _ E2. subst fr'. unfold stamp_frame; cbn; auto.
Qed.

(* What a successful TS::new does to the state and to the identity map, when no struct-keyed
   function exists (the deletion cascade of the identity-changed path is empty), no generation is
   at its maximum, and the slot of the matched entry is not read-locked in the current revision. *)
Theorem new_struct_effect n q idv f0 f1 fr s s' h fr' :
  new_struct skind [] idhash n q idv f0 f1 fr s = (s', SOk (h, fr')) ->
  (forall e sl, In e (fr_ids fr) -> key_eqb (te_ident e) (nident idhash (fr_disamb fr) idv) = true ->
     d_slots s (fst (te_id e)) = Some sl ->
     sl_updated sl <> Some (cur s) /\ next_gen (snd (te_id e)) <> None) ->
  exists slnew,
    (forall j, d_slots s' j = updN (d_slots s) (fst h) (Some slnew) j) /\
    ns_frame s s' /\
    d_ideal s' = (h, (idv, f0, f1)) :: d_ideal s /\
    stamp_frame fr fr' (idhash idv) /\
    ns_case idv f0 f1 fr s s' h fr' slnew.
Proof.
  intros H Hpre. pose proof (new_struct_stamp n q idv f0 f1 fr s s' h fr' H) as Hstamp.
  destruct (new_struct_cases skind [] idhash n q idv f0 f1 fr s s' h fr' H) as (t & slg & cn & ids & Hslg & -> & Eids' & Hc).
  change (new_key idhash idv fr) with (nident idhash (fr_disamb fr) idv) in Hc.
  set (identity := nident idhash (fr_disamb fr) idv) in *. set (st := (fr_dur fr, fr_changed fr)) in *.
  destruct Hc as [t h Hnm Ha | l1 e l2 sl t3 u t h ids Eids Hmatch Hnm1 Hs Hu UR Hu'].
  - (* no entry with this identity: a slot is allocated *)
    destruct (allocate_spec _ _ _ _ _ _ _ Ha) as (Hsl & Hr & Hm & Hi & Hc & Hfree).
    exists (fresh_slot (snd h) st (cur s) idv f0 f1). split; [intros j; cbn; apply Hsl|].
    assert (Hfr : ns_frame s t).
    { unfold allocate in Ha. msplit Ha as x tt0 Hg. apply get_ok in Hg. destruct Hg as [-> ->].
      (* a slot from the free list or a new one: the same three steps *)
      destruct (pop_free (d_free s)) as [[h0 fl']|];
        (msplit Ha as u1 tt1 Hm1; apply modify_ok in Hm1; subst tt1;
         msplit Ha as u3 tt2 Hp; apply put_slot_ok in Hp; subst tt2;
         apply ret_ok in Ha; destruct Ha as [-> _]; constructor; reflexivity). }
    split; [destruct Hfr; constructor; cbn; assumption|].
    split.
    { rewrite Hsl, updN_same in Hslg. injection Hslg as <-. cbn. rewrite Hi. reflexivity. }
    split; [exact Hstamp|].
    apply Case_fresh; [exact Hnm | exact Eids' | reflexivity | cbn [set_ideal set_cname d_free d_nslots]; exact Hfree].
  - (* an entry with this identity: update runs on its slot *)
    assert (Hine : In e (fr_ids fr)) by (rewrite Eids; apply in_or_app; right; left; reflexivity).
    (* the premise on matched entries is there to exclude the first two outcomes of [update] *)
    destruct (Hpre e sl Hine Hmatch Hs) as [Hnolock Hng].
    destruct UR as [ (* UR_locked *) Hl | (* UR_leak *) Hnl Hleak | (* UR_same *) s1 Hnl Hidv Hng' B Hsl
                   | (* UR_changed *) s1 g' e0 s2 Hnl Hidv Hng' C Hni P B Hsl ].
    + contradiction.
    + contradiction.
    + (* in place *)
      destruct Hu' as (-> & -> & Eids2). rewrite handle_eqb_refl in Eids2. rewrite Eids2 in Eids'.
      exists (upd_slot sl (sl_gen sl) st (cur s) idv f0 f1 true).
      split; [intros j; cbn; apply Hsl|].
      split; [destruct B; constructor; cbn; assumption|].
      split.
      { cbn. rewrite Hsl, updN_same in Hslg. injection Hslg as <-. rewrite (sb_ideal _ _ B). reflexivity. }
      split; [exact Hstamp|].
      eapply (Case_same idv f0 f1 fr s _ _ _ _ l1 e l2 sl);
        [exact Eids | exact Hmatch | exact Hnm1 | reflexivity | exact Eids' | exact Hs | exact Hu | exact Hnl
        | exact Hidv | reflexivity | cbn; exact (sb_free _ _ B) | cbn; exact (sb_nslots _ _ B)].
    + (* identity changed: a new generation in the same slot *)
      pose proof (next_gen_some _ _ Hng') as Eg'.
      assert (Hneq : handle_eqb (fst (te_id e), g') (te_id e) = false).
      { apply handle_eqb_neq. intros E. apply (f_equal snd) in E. cbn in E. lia. }
      destruct Hu' as (-> & -> & Eids2). rewrite Hneq in Eids2. rewrite Eids2 in Eids'.
      assert (He0 : e0 = []) by (exact (casc_nil_parents _ _ P)). subst e0.
      pose proof (casc_sbs _ _ C) as B1.
      assert (Hs2 : forall j, d_slots s2 j = updN (d_slots s) (fst (te_id e))
                 (Some (upd_open sl st idv f0 f1)) j).
      { intros j. rewrite (cs_other _ _ _ C j); [reflexivity | intros []]. }
      exists (upd_slot sl g' st (cur s) idv f0 f1 false).
      assert (Hfin : forall j, d_slots s1 j = updN (d_slots s) (fst (te_id e)) (Some (upd_slot sl g' st (cur s) idv f0 f1 false)) j).
      { intros j. rewrite Hsl. unfold updN. destruct (fst (te_id e) =? j) eqn:Ej; [reflexivity|].
        rewrite Hs2. unfold updN. rewrite Ej. reflexivity. }
      split; [intros j; cbn; apply Hfin|].
      split.
      { pose proof (sbs_trans _ _ _ B1 B) as BB. destruct BB; constructor; cbn; assumption. }
      split.
      { cbn [fst snd] in Hslg. rewrite Hfin, updN_same in Hslg. injection Hslg as <-. cbn.
        rewrite (sb_ideal _ _ B), (sb_ideal _ _ B1). reflexivity. }
      split; [exact Hstamp|].
      eapply (Case_changed idv f0 f1 fr s _ _ _ _ l1 e l2 sl);
        [exact Eids | exact Hmatch | exact Hnm1 | rewrite Eg'; reflexivity | exact Eids' | exact Hs | exact Hu | exact Hnl
        | exact Hidv | reflexivity | cbn; rewrite (sb_free _ _ B), (sb_free _ _ B1); reflexivity
        | cbn; rewrite (sb_nslots _ _ B), (sb_nslots _ _ B1); reflexivity].
Qed.

End SNew.
Arguments nf_revs {_ _}.
Arguments nf_cc {_ _}.
Arguments nf_in {_ _}.
Arguments nf_cell {_ _}.
Arguments nf_memo {_ _}.
Arguments nf_stack {_ _}.

Section NewInv.
Variable prog : qk -> body.
Variable skind : N -> bool.
Variable idhash : val -> N.
Variable rank : qk -> nat.
Hypothesis Hrank : calls_below prog rank.
Variable NF : nat.
Hypothesis Hbound : forall q, (rank q < NF)%nat.
Hypothesis Hprov : no_forge idhash prog.
Hypothesis Hgk : forall q d, calls (prog q) d -> gk d.
Hypothesis Hnk : forall f, skind f = false.

Notation envw := (envw idhash prog NF).
Notation clos := (clos idhash prog NF).
Notation SInv := (SInv prog skind idhash NF).
Notation Er := (Er prog idhash NF).
Notation trr := (trr prog idhash NF).
Notation FrameOK := (FrameOK prog idhash NF).
Notation OInv := (OInv skind).
Notation owns := (owns skind).

Lemma active_set_frame (F : frames) (q : qk) (fr1 : frame) l : active_loc (set_frame F q fr1) l <-> active_loc F l.
Proof. rewrite !active_loc_flocs, flocs_set_frame. reflexivity. Qed.

Lemma nofams : forall fam : N, In fam (@nil N) -> skind fam = true.
Proof. intros fam []. Qed.

Lemma peek_nk s l : peek_memo skind s l = d_memo s l.
Proof. unfold Machine.peek_memo. rewrite Hnk. reflexivity. Qed.

(* ownership in terms of the ownership invariant *)
Lemma listed_owns s F l m id h : d_memo s l = Some m -> ~ active_loc F l -> In (id, h) (m_structs m) -> owns s F (OwM l) h.
Proof.
  intros Hm Hna Hin. exists (mids m). split; [split; [exact Hna|]; exists m; rewrite peek_nk; auto|].
  unfold mids. apply in_map_iff. exists (id, h). auto.
Qed.

Lemma entry_owns s F q fr e : In (q, fr) F -> In e (fr_ids fr) -> owns s F (OwF q) (te_id e).
Proof. intros Hq He. apply (owns_frame skind s F q fr); [exact Hq|]. unfold frame_ids. apply in_map_iff. exists e. auto. Qed.

Lemma owned_owns s F d id h : owned s F d id h -> owns s F (OwM (loc_of d)) h \/ owns s F (OwF d) h.
Proof.
  intros [(Hna & md & Hmd & Hin) | (fr & e & Hin & Hine & E1 & E2)].
  - left. exact (listed_owns s F _ md id h Hmd Hna Hin).
  - right. rewrite <- E2. exact (entry_owns s F d fr e Hin Hine).
Qed.

(* a handle in the slot of an entry of a running frame is held by that frame only *)
Lemma owned_by_frame s F q fr e d id h :
  OInv s F -> In (q, fr) F -> In e (fr_ids fr) -> fst h = fst (te_id e) -> owned s F d id h ->
  d = q /\ exists e0, In e0 (fr_ids fr) /\ te_ident e0 = id /\ te_id e0 = h.
Proof.
  intros OI Hq He Hfst Ho.
  pose proof (entry_owns s F q fr e Hq He) as Hoe.
  destruct Ho as [(Hna & md & Hmd & Hin) | (fr0 & e0 & Hin0 & Hine0 & E1 & E2)].
  - exfalso. pose proof (oi_uniq _ _ _ OI _ _ _ _ (listed_owns s F _ md id h Hmd Hna Hin) Hoe Hfst) as E. discriminate.
  - pose proof (entry_owns s F d fr0 e0 Hin0 Hine0) as Hof. rewrite E2 in Hof.
    pose proof (oi_uniq _ _ _ OI _ _ _ _ Hof Hoe Hfst) as E. injection E as ->.
    pose proof (frames_fun F q fr0 fr (oi_frames _ _ _ OI) Hin0 Hq) as ->.
    split; [reflexivity|]. exists e0. auto.
Qed.

(* the structs of a memo whose query is not running are not in the slot of a frame entry *)
Lemma memo_struct_other s F Hs q fr e l m id h :
  SInv Hs s F -> In (q, fr) F -> In e (fr_ids fr) ->
  d_memo s l = Some m -> ~ active_loc F l -> In (id, h) (m_structs m) -> fst h <> fst (te_id e).
Proof.
  intros I Hq He Hm Hna Hin Hfst.
  pose proof (si_oinv I) as OI.
  assert (Ho : owned s F (kq l) id h).
  { left. rewrite loc_kq. split; [exact Hna|]. exists m. auto. }
  destruct (owned_by_frame s F q fr e (kq l) id h OI Hq He Hfst Ho) as [E _].
  apply Hna. exists q, fr. split; [exact Hq|]. rewrite <- E. apply loc_kq.
Qed.

(* handles never issued are not read or created in any observed world *)
Lemma observed_issued Hs s F l m d h :
  SInv Hs s F -> d_memo s l = Some m -> clos (W Hs s (m_verified m)) (kq l) d ->
  uses idhash (envw (W Hs s (m_verified m)) d) (prog d) [] h -> In h (issued s).
Proof.
  intros I Hm Hd Hu.
  destruct (creator_exists idhash prog rank Hrank NF Hbound Hprov _ (S (rank d)) d h (le_n _) Hu)
    as (A & HcA & (id & idv & f0 & f1 & Hin & ->)).
  pose proof (si_memo I l m Hm) as Hok.
  pose proof (mo_obs Hok A (clos_trans _ _ _ _ _ _ _ Hd HcA)) as Hdv.
  exact (proj2 (dv_new Hdv id idv f0 f1 Hin)).
Qed.

(* the creator of a handle that an observed query reads, when the handle sits in the slot of an
   entry of a running frame: the running query, observed no later than its memo's verified_at *)
Lemma observed_creator Hs s F q fr e l m d h sl :
  SInv Hs s F -> In (q, fr) F -> In e (fr_ids fr) -> fst h = fst (te_id e) -> live_h s h sl ->
  d_memo s l = Some m -> clos (W Hs s (m_verified m)) (kq l) d ->
  uses idhash (envw (W Hs s (m_verified m)) d) (prog d) [] h ->
  clos (W Hs s (m_verified m)) (kq l) q /\
  exists o, d_memo s (loc_of q) = Some o /\ m_verified m <= m_verified o /\
            exists e0, In e0 (fr_ids fr) /\ te_id e0 = h /\
              exists idv f0 f1, In (RNew (te_ident e0) idv f0 f1) (trr Hs s (m_verified m) q) /\
                                h = w_alloc (W Hs s (m_verified m)) q (te_ident e0).
Proof.
  intros I Hq He Hfst Hl Hm Hd Hu.
  destruct (creator_exists idhash prog rank Hrank NF Hbound Hprov _ (S (rank d)) d h (le_n _) Hu)
    as (A & HcA & (id & idv & f0 & f1 & Hin & Eh)).
  pose proof (si_memo I l m Hm) as Hok.
  pose proof (clos_trans _ _ _ _ _ _ _ Hd HcA) as HclA.
  pose proof (mo_obs Hok A HclA) as Hdv.
  rewrite Eh in Hl, Hfst.
  pose proof (dv_own Hdv id idv f0 f1 sl Hin Hl) as Ho.
  destruct (owned_by_frame s F q fr e A id _ (si_oinv I) Hq He Hfst Ho) as [-> (e0 & He0 & E1 & E2)].
  split; [exact HclA|].
  destruct (dv_memo Hdv) as (o & Ho' & Hle & _).
  exists o. split; [exact Ho'|]. split; [exact Hle|].
  exists e0. split; [exact He0|]. split; [congruence|].
  exists idv, f0, f1. rewrite E1. split; [exact Hin | exact Eh].
Qed.

(* the position of a creation in a trace is determined by its identity *)
Lemma news_pos_unique_eq id a b c a' b' c' : forall p1 r1 p2 r2,
  NoDup (news_ids (p1 ++ RNew id a b c :: r1)) ->
  p1 ++ RNew id a b c :: r1 = p2 ++ RNew id a' b' c' :: r2 -> p1 = p2.
Proof.
  induction p1 as [|x p1 IH]; intros r1 p2 r2 Hnd E.
  - destruct p2 as [|y p2]; [reflexivity|]. exfalso. cbn [app] in E. injection E as <- E.
    cbn [app news_ids flat_map] in Hnd. inversion Hnd as [|? ? Hni _]; subst. apply Hni.
    apply in_news_ids. exists a', b', c'. apply in_or_app. right. left. reflexivity.
  - destruct p2 as [|y p2].
    + exfalso. cbn [app] in E. injection E as -> E.
      cbn [app news_ids flat_map] in Hnd. inversion Hnd as [|? ? Hni _]; subst. apply Hni.
      apply in_news_ids. exists a, b, c. apply in_or_app. right. left. reflexivity.
    + cbn [app] in E. injection E as <- E. f_equal. apply (IH r1 p2 r2); [|exact E].
      cbn [app news_ids flat_map] in Hnd. exact (nodup_app_r _ _ Hnd).
Qed.

Lemma news_pos_unique (t : list rd) id a b c a' b' c' p1 r1 p2 r2 :
  NoDup (news_ids t) -> t = p1 ++ RNew id a b c :: r1 -> t = p2 ++ RNew id a' b' c' :: r2 -> p1 = p2.
Proof.
  intros Hnd E1 E2. rewrite E1 in Hnd. rewrite E1 in E2.
  exact (news_pos_unique_eq id a b c a' b' c' p1 r1 p2 r2 Hnd E2).
Qed.

(* the stamp of a logged read is below the frame's stamp *)
Lemma sle_lok_le s fr pre x a c :
  lok s fr pre (x, a) -> sle s c x -> c <= cur s -> fr_changed fr <= cur s -> c <= fr_changed fr.
Proof.
  unfold lok. cbn [fst snd]. destruct x as [i | d | cc | | id idv f0 f1 | h f | h]; cbn [SInv.sle].
  - intros (_ & _ & Hle) Hc _ _. lia.
  - intros (_ & md & Hmd & _ & _ & Hle & _) (md' & Hmd' & Hc) _ _. rewrite Hmd in Hmd'. injection Hmd' as <-. lia.
  - intros (_ & _ & E) _ Hc _. lia.
  - intros (_ & _ & E) _ Hc _. lia.
  - intros _ [].
  - intros (sl & _ & Hl & _ & _ & Hle) [_ Hc] _ _. specialize (Hc sl Hl). lia.
  - intros _ [].
Qed.

(* while the execution has received the answers of the old world, re-creating a seeded struct
   finds the old fields, the old handle, and a field-1 revision below the frame's stamp *)
Lemma agree_recreate Hs s F q o fr log idv f0 f1 k dis e sl :
  SInv Hs s F -> In (q, fr) F ->
  FrameOK Hs s q (Some o) fr log (NewStruct idv f0 f1 k) dis ->
  agrees (envw (W Hs s (m_verified o)) q) log ->
  In e (fr_ids fr) -> te_ident e = nident idhash dis idv ->
  In (te_ident e, te_id e) (m_structs o) ->
  live_h s (te_id e) sl -> slot_fields sl = w_slot (W Hs s (m_verified o)) (te_id e) ->
  sl_rev1 sl <= m_verified o ->
  cstamp s (trr Hs s (m_verified o) q) (te_ident e) (sl_rev1 sl) ->
  slot_fields sl = (idv, f0, f1) /\ sl_rev1 sl <= fr_changed fr /\
  w_alloc (W Hs s (m_verified o)) q (nident idhash dis idv) = te_id e.
Proof.
  intros I Hq FO Hag He Hid Hseed Hl Hfields Hr1 Hcs.
  destruct (si_active I q fr Hq) as [Hgq Hlt].
  pose proof (fo_old FO) as Hold.
  pose proof (memo_ok_of I Hgq Hold) as Hok.
  pose proof (mo_order Hok) as (_ & _ & Hvle).
  set (v := m_verified o) in *. set (id := nident idhash dis idv) in *.
  destruct (fo_tr FO _ Hag) as [Htr _]. cbn [trace] in Htr. fold id in Htr.
  assert (Htr' : trr Hs s v q = map fst log ++ RNew id idv f0 f1 :: trace idhash (envw (W Hs s v) q) (k (e_new (envw (W Hs s v) q) id)) (cnt_bump dis (idhash idv))).
  { exact Htr. }
  assert (Hin : In (RNew id idv f0 f1) (trr Hs s v q)).
  { rewrite Htr'. apply in_or_app. right. left. reflexivity. }
  pose proof (mo_obs Hok q (clos_refl _ _ _ _ _)) as Hdv.
  destruct (dv_new Hdv id idv f0 f1 Hin) as [Hargs _].
  assert (Halloc : w_alloc (W Hs s v) q id = te_id e).
  { assert (Hin1 : In (id, w_alloc (W Hs s v) q id) (m_structs o)).
    { apply (proj2 (mo_structs Hok)). split; [apply in_news_ids; eauto | reflexivity]. }
    assert (Hnd : NoDup (map fst (m_structs o))) by exact (proj1 (mo_structs Hok)).
    rewrite Hid in Hseed.
    rewrite <- (assoc_id_nodup _ _ _ Hnd Hin1). exact (assoc_id_nodup _ _ _ Hnd Hseed). }
  split; [rewrite Hfields, <- Halloc; exact Hargs|]. split; [|exact Halloc].
  rewrite Hid in Hcs.
  destruct Hcs as [A | (pre & idv' & f0' & f1' & post & x & Et & Hx & Hs0)].
  - pose proof (fo_ge1 FO). lia.
  - assert (Epre : pre = map fst log).
    { apply (news_pos_unique (trr Hs s v q) id idv' f0' f1' idv f0 f1 pre post (map fst log) _ (trace_news_nodup idhash _ _ _) Et Htr'). }
    subst pre. apply in_map_iff in Hx. destruct Hx as ([x' a] & Ex & Hxa). cbn in Ex. subst x'.
    apply in_split in Hxa. destruct Hxa as (l1 & l2 & El).
    pose proof (fo_logged FO l1 (x, a) l2 El) as Hlok.
    apply (sle_lok_le s fr l1 x a _ Hlok Hs0); [lia | exact (fo_le FO)].
Qed.

Lemma ideal_get_in l h x : ideal_get l h = Some x -> In h (map fst l).
Proof.
  induction l as [|[h' y] l IH]; cbn [ideal_get map fst]; [discriminate|].
  destruct (handle_eqb h' h) eqn:E; [apply handle_eqb_eq in E; left; exact E | right; exact (IH H)].
Qed.

Lemma live_issued s F h sl : OInv s F -> live_h s h sl -> In h (issued s).
Proof.
  intros OI (Hs & Hu & Hg). pose proof (oi_ideal _ _ _ OI _ sl Hs Hu) as Hi.
  unfold issued. apply (ideal_get_in _ _ (slot_fields sl)). destruct h as [i g]. cbn in *. subst g. exact Hi.
Qed.

(* a handle of a later generation than the slot's, or in a slot never allocated, was never issued *)
Lemma later_not_issued s F h sl : OInv s F -> d_slots s (fst h) = Some sl -> sl_gen sl < snd h -> ~ In h (issued s).
Proof.
  intros OI Hs Hlt Hin. unfold issued in Hin. apply in_map_iff in Hin. destruct Hin as ([[i g] y] & Eh & Hin).
  cbn in Eh. subst h. destruct (oi_issued _ _ _ OI i g y Hin) as (sl0 & Hs0 & Hle). cbn in *.
  rewrite Hs in Hs0. injection Hs0 as <-. lia.
Qed.

Lemma unalloc_not_issued s F h : OInv s F -> d_slots s (fst h) = None -> ~ In h (issued s).
Proof.
  intros OI Hs Hin. unfold issued in Hin. apply in_map_iff in Hin. destruct Hin as ([[i g] y] & Eh & Hin).
  cbn in Eh. subst h. destruct (oi_issued _ _ _ OI i g y Hin) as (sl0 & Hs0 & _). cbn in *. congruence.
Qed.

(* ---------------------------------------------------------------- one creation *)
Section One.
Variable Hs : hist.
Variables (s : db) (F : frames) (q : qk) (old : option memo) (fr : frame) (log : list lentry).
Variables (idv f0 f1 : val) (k : handle -> body) (dis : list (N * N)).
Variables (s' : db) (h : handle) (fr' : frame) (slnew : slot).
Hypothesis I : SInv Hs s F.
Hypothesis Hq : In (q, fr) F.
Hypothesis FO : FrameOK Hs s q old fr log (NewStruct idv f0 f1 k) dis.
Hypothesis Hlogne : log <> [].
Hypothesis Hsl : forall j, d_slots s' j = updN (d_slots s) (fst h) (Some slnew) j.
Hypothesis HNF : ns_frame s s'.
Hypothesis Hideal : d_ideal s' = (h, (idv, f0, f1)) :: d_ideal s.
Hypothesis Hstamp : stamp_frame fr fr' (idhash idv).
Hypothesis Hcase : ns_case idhash idv f0 f1 fr s s' h fr' slnew.

Let id := nident idhash dis idv.
Let OI := si_oinv I.

Lemma one_dis : nident idhash (fr_disamb fr) idv = id.
Proof. unfold id. rewrite (fo_dis FO). reflexivity. Qed.

Lemma one_dur : fr_dur fr = 0.
Proof. exact (fo_low FO Hlogne). Qed.

Lemma one_matched_inactive e : In e (fr_ids fr) -> key_eqb (te_ident e) id = true -> te_active e = false.
Proof.
  intros He Hm. apply key_eqb_eq in Hm. destruct (te_active e) eqn:Ea; [|reflexivity]. exfalso.
  pose proof (fo_cnt_act FO e He Ea) as Hlt. rewrite Hm in Hlt. unfold id, nident in Hlt. cbn in Hlt. lia.
Qed.

Lemma one_matched e : In e (fr_ids fr) -> key_eqb (te_ident e) id = true ->
  te_ident e = id /\ exists o, old = Some o /\ seeded prog idhash NF Hs s q o e /\ m_verified o < cur s.
Proof.
  intros He Hm. split; [apply key_eqb_eq; exact Hm|].
  destruct (fo_seeded FO e He (one_matched_inactive e He Hm)) as (o & Eold & Hseed).
  exists o. split; [exact Eold|]. split; [exact Hseed|].
  apply (proj2 (si_active I q fr Hq)). rewrite (fo_old FO). exact Eold.
Qed.

(* what the three cases have in common: the identity map after the creation, *)
Record ns_ids : Prop := {
  su_new_entry : In (mk_entry id h true) (fr_ids fr');
  su_keep : forall e0, In e0 (fr_ids fr) -> fst (te_id e0) <> fst h -> In e0 (fr_ids fr');
  su_back : forall e0, In e0 (fr_ids fr') -> e0 = mk_entry id h true \/ (In e0 (fr_ids fr) /\ fst (te_id e0) <> fst h);
  (* whatever is owned in the slot of [h] is owned by the frame of [q] *)
  su_owner : forall o0 h0, owns s F o0 h0 -> fst h0 = fst h -> o0 = OwF q;
  su_idents : NoDup (map te_ident (fr_ids fr'));
  su_ident_keep : forall e0, In e0 (fr_ids fr) -> exists e1, In e1 (fr_ids fr') /\ te_ident e1 = te_ident e0
}.

(* and the slot *)
Record ns_sum : Prop := {
  su_notlocked : forall sl, d_slots s (fst h) = Some sl -> sl_updated sl <> Some (cur s);
  su_slnew : slot_fields slnew = (idv, f0, f1) /\ sl_gen slnew = snd h /\ sl_updated slnew = Some (cur s) /\
             sl_dur slnew = 0 /\ sl_rev1 slnew = fr_changed fr /\ sl_rev0 slnew <= cur s;
  (* [h] was never issued, or it is the live id of an entry of [fr] for the same identity value, whose
     field stamps only grow and whose fields, as far as the old memo could see them, are unchanged *)
  su_obs : ~ In h (issued s) \/
           (exists sl e, live_h s h sl /\ In e (fr_ids fr) /\ te_id e = h /\ te_ident e = id /\ sl_idv sl = idv /\
              sl_rev0 sl <= sl_rev0 slnew /\ sl_rev1 sl <= sl_rev1 slnew /\
              forall o, old = Some o -> forall v f, v <= m_verified o -> revf slnew f <= v ->
                fldv slnew f = fldv sl f /\ revf sl f <= v);
  su_gen : forall sl, d_slots s (fst h) = Some sl -> sl_gen sl <= sl_gen slnew /\
           (sl_gen slnew = sl_gen sl -> sl_updated sl <> None);
  su_gen_lt : sl_gen slnew < cur s;
  (* while the execution agrees with the one that produced the old memo, [h] is the id allocated then *)
  su_alloc_old : forall o, old = Some o -> agrees (envw (W Hs s (m_verified o)) q) log ->
           w_alloc (W Hs s (m_verified o)) q id = h
}.

Lemma upd_slot_low sl g now keep :
  sl_dur sl = 0 ->
  upd_slot sl g (fr_dur fr, fr_changed fr) now idv f0 f1 keep =
  {| sl_gen := g; sl_updated := Some now; sl_dur := 0; sl_idv := idv; sl_f0 := f0; sl_f1 := f1;
     sl_rev0 := if sl_f0 sl =? f0 then sl_rev0 sl else fr_changed fr; sl_rev1 := fr_changed fr;
     sl_memos := if keep then sl_memos sl else fun _ => None |}.
Proof.
  intros Hd. unfold upd_slot. cbn [fst snd]. rewrite one_dur, Hd. reflexivity.
Qed.

(* under agreement, the identity being created is one the old memo lists *)
Lemma one_agree_listed o : old = Some o -> agrees (envw (W Hs s (m_verified o)) q) log ->
  In (id, w_alloc (W Hs s (m_verified o)) q id) (m_structs o).
Proof.
  intros Eold Hag.
  destruct (si_active I q fr Hq) as [Hgq _].
  pose proof (fo_old FO) as Hold. rewrite Eold in Hold.
  pose proof (memo_ok_of I Hgq Hold) as Hok.
  destruct (fo_tr FO _ Hag) as [Htr _]. cbn [trace] in Htr.
  apply (proj2 (mo_structs Hok)). split; [|reflexivity].
  apply in_news_ids. exists idv, f0, f1. unfold SInv.trr, SSem.trw. rewrite Htr. apply in_or_app. right. left. reflexivity.
Qed.

(* a slot taken from the free list, or never used, holds no live struct *)
Lemma one_fresh_dead :
  (exists sk g, d_free s = sk ++ (fst h, g) :: d_free s' /\ next_gen g = Some (snd h) /\ d_nslots s' = d_nslots s) \/
  (h = (d_nslots s, 0) /\ d_nslots s' = d_nslots s + 1 /\ d_free s' = []) ->
  (exists sl, d_slots s (fst h) = Some sl /\ sl_updated sl = None /\ sl_gen sl < snd h) \/ d_slots s (fst h) = None.
Proof.
  intros [(sk & g & Efr & Hng & _) | (-> & _ & _)].
  - left. destruct (oi_free _ _ _ OI (fst h) g) as (sl & Hs0 & Hu0 & Hg0).
    { rewrite Efr. apply in_or_app. right. left. reflexivity. }
    exists sl. split; [exact Hs0|]. split; [exact Hu0|]. apply next_gen_gt in Hng. lia.
  - right. cbn. apply (oi_alloc _ _ _ OI). lia.
Qed.

Lemma one_ids_replace l1 e l2 :
  fr_ids fr = l1 ++ e :: l2 -> te_ident e = id -> fst h = fst (te_id e) ->
  fr_ids fr' = l1 ++ mk_entry id h true :: l2 -> ns_ids.
Proof.
  intros Eids Hid Ei Eids'.
  assert (He : In e (fr_ids fr)) by (rewrite Eids; apply in_or_app; right; left; reflexivity).
  assert (Hnd : NoDup (map fst (frame_ids fr))).
  { apply (oi_nodup _ _ _ OI (OwF q)). exists fr. auto. }
  unfold frame_ids in Hnd. rewrite Eids in Hnd. rewrite !map_app in Hnd. cbn [map] in Hnd.
  constructor.
  - rewrite Eids'. apply in_or_app. right. left. reflexivity.
  - intros e0 He0 Hfst. rewrite Eids in He0. rewrite Eids'. apply in_app_or in He0. apply in_or_app.
    destruct He0 as [A | [<- | A]]; [left; exact A | exfalso; apply Hfst; symmetry; exact Ei | right; right; exact A].
  - intros e0 He0. rewrite Eids' in He0. apply in_app_or in He0.
    destruct He0 as [A | [<- | A]].
    + right. split; [rewrite Eids; apply in_or_app; left; exact A|].
      intros Ef. apply (nodup_app_disj _ _ _ Hnd (in_map fst _ _ (in_map te_id _ _ A))). left. rewrite Ei in Ef. auto.
    + left. reflexivity.
    + right. split; [rewrite Eids; apply in_or_app; right; right; exact A|].
      intros Ef. apply nodup_app_r in Hnd. apply NoDup_cons_iff in Hnd. destruct Hnd as [Hni _]. apply Hni.
      rewrite Ei in Ef. rewrite <- Ef. exact (in_map fst _ _ (in_map te_id _ _ A)).
  - intros o0 h0 Ho0 Ef. rewrite Ei in Ef. exact (oi_uniq _ _ _ OI _ _ _ _ Ho0 (entry_owns s F q fr e Hq He) Ef).
  - rewrite Eids'. pose proof (fo_idents FO) as Hnd'. rewrite Eids in Hnd'.
    rewrite !map_app in *. cbn [map mk_entry te_ident] in *. rewrite <- Hid. exact Hnd'.
  - intros e0 He0. rewrite Eids in He0. rewrite Eids'. apply in_app_or in He0.
    destruct He0 as [A | [<- | A]].
    + exists e0. split; [apply in_or_app; left; exact A | reflexivity].
    + exists (mk_entry id h true). split; [apply in_or_app; right; left; reflexivity | symmetry; exact Hid].
    + exists e0. split; [apply in_or_app; right; right; exact A | reflexivity].
Qed.

Lemma one_ids : ns_ids.
Proof.
  destruct Hcase as [l1 e l2 sl Eids Hmatch Hnm Eh Eids' _ _ _ _ _ _ _
                    | l1 e l2 sl Eids Hmatch Hnm Eh Eids' _ _ _ _ _ _ _
                    | Hnm Eids' _ Hfree].
  - rewrite one_dis in Hmatch. apply key_eqb_eq in Hmatch.
    apply (one_ids_replace l1 e l2 Eids Hmatch); [rewrite Eh; reflexivity|].
    rewrite Eids'. unfold act, mk_entry. rewrite Hmatch, Eh. reflexivity.
  - rewrite one_dis in Hmatch, Eids'. apply key_eqb_eq in Hmatch.
    apply (one_ids_replace l1 e l2 Eids Hmatch); [rewrite Eh; reflexivity | exact Eids'].
  - rewrite one_dis in Hnm, Eids'.
    assert (Hnolive : forall h0 sl0, fst h0 = fst h -> live_h s h0 sl0 -> False).
    { intros h0 sl0 Ef (Hs0 & Hu0 & _). rewrite Ef in Hs0.
      destruct (one_fresh_dead Hfree) as [(sl & Hs1 & Hu1 & _) | Hs1]; rewrite Hs1 in Hs0;
        [injection Hs0 as <-; contradiction | discriminate]. }
    constructor.
    + rewrite Eids'. apply in_or_app. right. left. reflexivity.
    + intros e0 He0 _. rewrite Eids'. apply in_or_app. left. exact He0.
    + intros e0 He0. rewrite Eids' in He0. apply in_app_or in He0. destruct He0 as [A | [<- | []]]; [right | left; reflexivity].
      split; [exact A|]. intros Ef.
      destruct (oi_live _ _ _ OI _ _ (entry_owns s F q fr e0 Hq A)) as (sl0 & Hl0).
      exact (Hnolive (te_id e0) sl0 Ef Hl0).
    + intros o0 h0 Ho0 Ef. exfalso. destruct (oi_live _ _ _ OI _ _ Ho0) as (sl0 & Hl0). exact (Hnolive h0 sl0 Ef Hl0).
    + rewrite Eids'. rewrite map_app. cbn [map mk_entry te_ident]. apply nodup_app.
      * exact (fo_idents FO).
      * constructor; [intros [] | constructor].
      * intros x Hx [<- | []]. apply in_map_iff in Hx. destruct Hx as (e0 & Ee0 & He0).
        pose proof (Hnm e0 He0) as Hk. rewrite Ee0, key_eqb_refl in Hk. discriminate.
    + intros e0 He0. exists e0. split; [rewrite Eids'; apply in_or_app; left; exact He0 | reflexivity].
Qed.

Lemma one_sum_same l1 e l2 sl :
  fr_ids fr = l1 ++ e :: l2 -> key_eqb (te_ident e) (nident idhash (fr_disamb fr) idv) = true ->
  h = te_id e -> d_slots s (fst h) = Some sl -> sl_updated sl <> None -> sl_updated sl <> Some (cur s) ->
  sl_idv sl = idv -> slnew = upd_slot sl (sl_gen sl) (fr_dur fr, fr_changed fr) (cur s) idv f0 f1 true -> ns_sum.
Proof.
  intros Eids Hmatch Eh Hsl0 Hu Hnl Hidv Eslnew. pose proof (fo_le FO) as Hfle.
  rewrite one_dis in Hmatch.
  assert (He : In e (fr_ids fr)) by (rewrite Eids; apply in_or_app; right; left; reflexivity).
  destruct (one_matched e He Hmatch) as (Hid & o & Eold & (Hseedin & sl1 & Hl1 & Hf1 & Hd1 & Hr0 & Hr1 & Hcs & Hnl1) & Hlt).
  assert (sl1 = sl) by (destruct Hl1 as (Hs1 & _); congruence).
  subst sl1.
  pose proof (upd_slot_low sl (sl_gen sl) (cur s) true Hd1) as Eu. rewrite <- Eslnew in Eu.
  (* agreement so far, or the stamp is already late *)
  assert (Hdiv : (slot_fields sl = (idv, f0, f1) /\ sl_rev1 sl <= fr_changed fr) \/ m_verified o < fr_changed fr).
  { destruct (fo_div FO o Eold) as [Hag | Hlate]; [left | right; exact Hlate].
    rewrite Eold in FO.
    destruct (agree_recreate Hs s F q o fr log idv f0 f1 k dis e sl I Hq FO Hag He Hid Hseedin) as (A & B & _); auto. }
  assert (Hf0 : sl_f0 sl =? f0 = false -> m_verified o < fr_changed fr).
  { intros Hne0. destruct Hdiv as [[A _] | A]; [|exact A]. exfalso.
    unfold slot_fields in A. injection A as _ A _. rewrite A, N.eqb_refl in Hne0. discriminate. }
  assert (Hrev0 : sl_rev0 sl <= sl_rev0 slnew).
  { rewrite Eu. cbn. destruct (sl_f0 sl =? f0) eqn:E0; [lia|]. specialize (Hf0 eq_refl). lia. }
  assert (Hrev1 : sl_rev1 sl <= sl_rev1 slnew).
  { rewrite Eu. cbn. destruct Hdiv as [[_ A] | A]; lia. }
  assert (Hlh : live_h s h sl).
  { rewrite Eh. exact Hl1. }
  constructor.
  - intros sl2 Hs2. rewrite Hsl0 in Hs2. injection Hs2 as <-. exact Hnl.
  - rewrite Eu. cbn. repeat split; try reflexivity.
    + destruct Hlh as (_ & _ & Hg). exact Hg.
    + destruct (sl_f0 sl =? f0); lia.
  - right. exists sl, e. split; [exact Hlh|]. split; [exact He|]. split; [symmetry; exact Eh|]. split; [exact Hid|].
    split; [exact Hidv|]. split; [exact Hrev0|]. split; [exact Hrev1|].
    intros o1 Eo1 v f Hv Hrf. rewrite Eold in Eo1. injection Eo1 as <-.
    unfold revf, fldv in *. rewrite Eu in *. cbn [sl_rev0 sl_rev1 sl_f0 sl_f1] in *.
    destruct (f =? 0).
    + destruct (sl_f0 sl =? f0) eqn:E0.
      * apply N.eqb_eq in E0. split; [symmetry; exact E0 | exact Hrf].
      * specialize (Hf0 eq_refl). lia.
    + destruct Hdiv as [[A B] | A]; [|lia]. unfold slot_fields in A. injection A as _ _ A. split; [symmetry; exact A | lia].
  - intros sl2 Hs2. rewrite Hsl0 in Hs2. injection Hs2 as <-. rewrite Eu. cbn. split; [lia | intros _; exact Hu].
  - rewrite Eu. cbn. pose proof (si_gens I _ sl Hsl0) as G.
    pose proof (proj2 (si_slots I _ sl Hsl0 Hu)) as G2.
    destruct (sl_updated sl) as [r|] eqn:Er; [|contradiction Hu; reflexivity].
    specialize (G2 r eq_refl). lia.
  - intros o1 Eo1 Hag1. rewrite Eold in Eo1. injection Eo1 as <-. pose proof FO as FO1. rewrite Eold in FO1.
    destruct (agree_recreate Hs s F q o fr log idv f0 f1 k dis e sl I Hq FO1 Hag1 He Hid Hseedin Hl1 Hf1 Hr1 Hcs) as (_ & _ & A).
    rewrite Eh. exact A.
Qed.

Lemma one_sum_changed l1 e l2 sl :
  fr_ids fr = l1 ++ e :: l2 -> key_eqb (te_ident e) (nident idhash (fr_disamb fr) idv) = true ->
  h = (fst (te_id e), snd (te_id e) + 1) -> d_slots s (fst h) = Some sl -> sl_updated sl <> None ->
  sl_updated sl <> Some (cur s) -> sl_idv sl <> idv ->
  slnew = upd_slot sl (snd h) (fr_dur fr, fr_changed fr) (cur s) idv f0 f1 false -> ns_sum.
Proof.
  intros Eids Hmatch Eh Hsl0 Hu Hnl Hidv Eslnew. pose proof (fo_le FO) as Hfle.
  rewrite one_dis in Hmatch.
  assert (He : In e (fr_ids fr)) by (rewrite Eids; apply in_or_app; right; left; reflexivity).
  destruct (one_matched e He Hmatch) as (Hid & o & Eold & (Hseedin & sl1 & Hl1 & Hf1 & Hd1 & Hr0 & Hr1 & Hcs & Hnl1) & Hlt).
  assert (Ei : fst h = fst (te_id e)) by (rewrite Eh; reflexivity).
  assert (sl1 = sl) by (destruct Hl1 as (Hs1 & _); congruence).
  subst sl1.
  pose proof (upd_slot_low sl (snd h) (cur s) false Hd1) as Eu. rewrite <- Eslnew in Eu.
  assert (Hgen : sl_gen sl < snd h).
  { destruct Hl1 as (_ & _ & Hg). rewrite Hg, Eh. cbn. lia. }
  constructor.
  - intros sl2 Hs2. rewrite Hsl0 in Hs2. injection Hs2 as <-. exact Hnl.
  - rewrite Eu. cbn. repeat split; try reflexivity. destruct (sl_f0 sl =? f0); lia.
  - left. exact (later_not_issued s F h sl OI Hsl0 Hgen).
  - intros sl2 Hs2. rewrite Hsl0 in Hs2. injection Hs2 as <-. rewrite Eu. cbn.
    split; [exact (N.lt_le_incl _ _ Hgen) | intros E; rewrite E in Hgen; destruct (N.lt_irrefl _ Hgen)].
  - rewrite Eu. cbn. pose proof (si_gens I _ sl Hsl0) as G.
    pose proof (proj2 (si_slots I _ sl Hsl0 Hu)) as G2.
    destruct (sl_updated sl) as [r|] eqn:Er; [|contradiction Hu; reflexivity].
    specialize (G2 r eq_refl).
    assert (r <> cur s) by (intros ->; apply Hnl; reflexivity).
    destruct Hl1 as (_ & _ & Hg1). rewrite Eh. cbn. rewrite <- Hg1. lia.
  - intros o1 Eo1 Hag1. rewrite Eold in Eo1. injection Eo1 as <-. pose proof FO as FO1. rewrite Eold in FO1. exfalso.
    destruct (agree_recreate Hs s F q o fr log idv f0 f1 k dis e sl I Hq FO1 Hag1 He Hid Hseedin Hl1 Hf1 Hr1 Hcs) as (A & _ & _).
    apply Hidv. unfold slot_fields in A. injection A as A _ _. exact A.
Qed.

Lemma one_sum_fresh :
  nomatch (nident idhash (fr_disamb fr) idv) (fr_ids fr) ->
  slnew = fresh_slot (snd h) (fr_dur fr, fr_changed fr) (cur s) idv f0 f1 ->
  (exists sk g, d_free s = sk ++ (fst h, g) :: d_free s' /\ next_gen g = Some (snd h) /\ d_nslots s' = d_nslots s) \/
  (h = (d_nslots s, 0) /\ d_nslots s' = d_nslots s + 1 /\ d_free s' = []) -> ns_sum.
Proof.
  intros Hnm Eslnew Hfree. pose proof (fo_le FO) as Hfle.
  rewrite one_dis in Hnm.
  assert (Eu : slnew = {| sl_gen := snd h; sl_updated := Some (cur s); sl_dur := 0; sl_idv := idv; sl_f0 := f0; sl_f1 := f1;
                          sl_rev0 := fr_changed fr; sl_rev1 := fr_changed fr; sl_memos := fun _ => None |}).
  { rewrite Eslnew. unfold fresh_slot. cbn [fst snd]. rewrite one_dur. reflexivity. }
  pose proof (one_fresh_dead Hfree) as Hdead.
  constructor.
  - intros sl2 Hs2. destruct Hdead as [(sl & Hs1 & Hu1 & _) | Hs1]; rewrite Hs1 in Hs2; [|discriminate].
    injection Hs2 as <-. rewrite Hu1. discriminate.
  - rewrite Eu. cbn. repeat split; try reflexivity. exact Hfle.
  - left. destruct Hdead as [(sl & Hs1 & _ & Hg1) | Hs1];
      [exact (later_not_issued s F h sl OI Hs1 Hg1) | exact (unalloc_not_issued s F h OI Hs1)].
  - intros sl2 Hs2. destruct Hdead as [(sl & Hs1 & Hu1 & Hg1) | Hs1]; rewrite Hs1 in Hs2; [|discriminate].
    injection Hs2 as <-. rewrite Eu. cbn. split; [lia | intros E; lia].
  - rewrite Eu. cbn. destruct Hfree as [(sk & g & Efr & Hng & _) | (Eh0 & _ & _)].
    + destruct (oi_free _ _ _ OI (fst h) g) as (sl & Hs0 & Hu0 & Hg0).
      { rewrite Efr. apply in_or_app. right. left. reflexivity. }
      pose proof (si_gens I _ sl Hs0) as G. rewrite Hu0 in G. apply next_gen_some in Hng. lia.
    + rewrite Eh0. cbn. pose proof (si_cur I). lia.
  - intros o1 Eo1 Hag1. exfalso.
    destruct (fo_seedall FO o1 id _ Eo1 (one_agree_listed o1 Eo1 Hag1)) as (e0 & He0 & Ee0).
    pose proof (Hnm e0 He0) as Hk. rewrite Ee0, key_eqb_refl in Hk. discriminate.
Qed.

Lemma one_sum : ns_sum.
Proof.
  destruct Hcase as [l1 e l2 sl Eids Hmatch Hnm Eh Eids' Hsl0 Hu Hnl Hidv Eslnew Hfree Hnsl
                    | l1 e l2 sl Eids Hmatch Hnm Eh Eids' Hsl0 Hu Hnl Hidv Eslnew Hfree Hnsl
                    | Hnm Eids' Eslnew Hfree].
  - exact (one_sum_same l1 e l2 sl Eids Hmatch Eh Hsl0 Hu Hnl Hidv Eslnew).
  - exact (one_sum_changed l1 e l2 sl Eids Hmatch Eh Hsl0 Hu Hnl Hidv Eslnew).
  - exact (one_sum_fresh Hnm Eslnew Hfree).
Qed.

Hypothesis OI' : OInv s' (set_frame F q fr').
Hypothesis CO' : Cons skind s' (set_frame F q fr').

Let F' := set_frame F q fr'.
Let SU := one_sum.

Lemma one_cur : cur s' = cur s.
Proof. unfold cur. rewrite (nf_revs HNF). reflexivity. Qed.

Lemma one_slot_other j : j <> fst h -> d_slots s' j = d_slots s j.
Proof. intros Hne. rewrite Hsl. apply updN_other. congruence. Qed.

Lemma one_slot_h : d_slots s' (fst h) = Some slnew.
Proof. rewrite Hsl. apply updN_same. Qed.

Lemma one_live_new h0 sl' : fst h0 = fst h -> live_h s' h0 sl' -> h0 = h /\ sl' = slnew.
Proof.
  intros Ef (Hs0 & _ & Hg0). rewrite Ef, one_slot_h in Hs0. injection Hs0 as <-.
  destruct (su_slnew SU) as (_ & Hg & _). split; [|reflexivity].
  rewrite (surjective_pairing h0), (surjective_pairing h). f_equal; [exact Ef | congruence].
Qed.

Lemma one_live_other h0 sl' : fst h0 <> fst h -> (live_h s' h0 sl' <-> live_h s h0 sl').
Proof. intros Hne. unfold live_h. rewrite (one_slot_other _ Hne). reflexivity. Qed.

Lemma one_memo_other l m id0 h0 : d_memo s l = Some m -> ~ active_loc F l -> In (id0, h0) (m_structs m) -> fst h0 <> fst h.
Proof.
  intros Hm Hna Hin Ef. pose proof (su_owner one_ids _ _ (listed_owns s F l m id0 h0 Hm Hna Hin) Ef) as E. discriminate.
Qed.

Lemma one_issued : issued s' = h :: issued s.
Proof. unfold issued. rewrite Hideal. reflexivity. Qed.

Lemma one_act l : active_loc F' l <-> active_loc F l.
Proof. apply active_set_frame. Qed.

Lemma one_in_F' q0 fr0 : In (q0, fr0) F' <-> (q0 = q /\ fr0 = fr') \/ (q0 <> q /\ In (q0, fr0) F).
Proof. exact (in_set_frame F q fr fr' q0 fr0 (oi_frames _ _ _ OI) Hq). Qed.

Lemma one_sext : sext s s'.
Proof.
  constructor.
  - exact (nf_revs HNF).
  - exact (nf_in HNF).
  - exact (nf_cell HNF).
  - intros l m Hm _. rewrite (nf_memo HNF). exact Hm.
  - intros l m Hm. exists m. rewrite (nf_memo HNF). split; [exact Hm|]. split; lia.
  - intros j sl Hj Hl. rewrite one_slot_other; [exact Hj|]. intros ->. exact (su_notlocked SU sl Hj Hl).
  - intros l m id0 h0 Hm Hv Hin.
    rewrite (one_slot_other _ (one_memo_other l m id0 h0 Hm (verified_not_active I Hm Hv) Hin)). apply slot_keeps_refl.
  - intros j sl Hj. destruct (N.eq_dec j (fst h)) as [-> | Hne].
    + exists slnew. split; [exact one_slot_h|]. destruct (su_gen SU sl Hj) as [Hle Hsame]. split; [exact Hle|].
      intros Hg _. specialize (Hsame Hg). split; [exact Hsame|].
      destruct (su_slnew SU) as (Hf & Hgn & _).
      assert (Hl : live_h s h sl) by (split; [exact Hj|]; split; [exact Hsame | congruence]).
      destruct (su_obs SU) as [Hni | (sl0 & e & Hl0 & _ & _ & _ & Hidv & A & B & _)].
      * exfalso. exact (Hni (live_issued s F h sl OI Hl)).
      * pose proof (live_h_fun s h sl sl0 Hl Hl0) as ->.
        split; [exact A|]. split; [exact B|]. rewrite <- (idv3_slot slnew), Hf. cbn. symmetry. exact Hidv.
    + exists sl. rewrite (one_slot_other _ Hne). split; [exact Hj|]. split; [lia|]. intros _ Hu. repeat split; auto; lia.
  - rewrite one_issued. intros x Hx. right. exact Hx.
Qed.

Lemma one_sinv : SInv Hs s' F'.
Proof.
  pose proof one_sext as X. pose proof one_cur as Hcur.
  apply (SInv_slots prog skind idhash rank Hrank NF Hbound Hprov Hgk Hs s F s' F' (fun h0 => fst h0 = fst h) I X (nf_memo HNF) OI' CO').
  - (* P is decidable *) intros h0. destruct (N.eq_dec (fst h0) (fst h)); auto.
  - (* running queries keep running *) intros l. apply one_act.
  - (* no settled query runs *) intros d Hd A. apply one_act in A. exact (settled_not_active I Hd A).
  - (* the running queries are input-keyed and not settled *) intros q0 fr0 Hin. apply one_in_F' in Hin.
    destruct Hin as [[-> _] | [_ Hin]]; [exact (si_active I q fr Hq) | exact (si_active I q0 fr0 Hin)].
  - (* outside P, live slots were live with the same data *) intros h0 sl' Hnp Hl. apply (one_live_other h0 sl' Hnp) in Hl. exists sl'. split; [exact Hl|]. repeat split; reflexivity.
  - (* structs of stored memos are outside P and kept *) intros l m id0 h0 Hm Hna Hin. pose proof (one_memo_other l m id0 h0 Hm Hna Hin) as Hne. split; [exact Hne|].
    rewrite (one_slot_other _ Hne). apply slot_keeps_refl.
  - (* ownership outside P is kept *) intros d id0 h0 sl' _ Hnp _ Ho. destruct Ho as [(Hna & md & Hmd & Hin) | (fr0 & e0 & Hin0 & Hine0 & E1 & E2)].
    + left. split; [intros A; apply Hna; apply one_act; exact A|]. exists md. rewrite (nf_memo HNF). auto.
    + right. destruct (qk_eq_dec d q) as [-> | Hne].
      * pose proof (frames_fun F q fr0 fr (oi_frames _ _ _ OI) Hin0 Hq) as ->.
        exists fr', e0. split; [apply one_in_F'; left; auto|]. split; [|auto].
        apply (su_keep one_ids e0 Hine0). rewrite E2. exact Hnp.
      * exists fr0, e0. split; [apply one_in_F'; right; auto | auto].
  - (* observers of a field of the new struct *)
    intros l m d h0 f sl' Hm Hv Hd Hin Ef Hl' Hrev. destruct (one_live_new h0 sl' Ef Hl') as [-> ->].
    assert (Hu : uses idhash (envw (W Hs s (m_verified m)) d) (prog d) [] h) by (left; exists f; exact Hin).
    destruct (su_obs SU) as [Hni | (sl & e & Hl & He & Eid & _ & _ & _ & _ & Hobl)].
    { exfalso. exact (Hni (observed_issued Hs s F l m d h I Hm Hd Hu)). }
    destruct (observed_creator Hs s F q fr e l m d h sl I Hq He (f_equal fst (eq_sym Eid)) Hl Hm Hd Hu)
      as (_ & o & Ho & Hle & _).
    rewrite (fo_old FO) in Ho.
    destruct (Hobl o Ho _ f Hle Hrev) as [Efl Hrf]. rewrite Efl.
    pose proof (si_memo I l m Hm) as Hok.
    exact (dv_fld (mo_obs Hok d Hd) h f sl Hin Hl Hrf).
  - (* past observers: identity fields of handles in P *) intros l m d h0 sl' Hm Hv Hd Hin Ef Hl'. destruct (one_live_new h0 sl' Ef Hl') as [-> ->].
    assert (Hu : uses idhash (envw (W Hs s (m_verified m)) d) (prog d) [] h) by (right; left; exact Hin).
    destruct (su_obs SU) as [Hni | (sl & e & Hl & He & Eid & _ & Hidv & _)].
    { exfalso. exact (Hni (observed_issued Hs s F l m d h I Hm Hd Hu)). }
    pose proof (si_memo I l m Hm) as Hok.
    rewrite (dv_idf (mo_obs Hok d Hd) h sl Hin Hl).
    destruct (su_slnew SU) as (Hf & _). rewrite <- (idv3_slot slnew), Hf. cbn. exact Hidv.
  - (* past observers: creators of handles in P *) intros l m d id0 idv0 f00 f10 sl' Hm Hv Hd Hin Ef Hl'.
    destruct (one_live_new _ sl' Ef Hl') as [Eh ->].
    pose proof (si_memo I l m Hm) as Hok.
    pose proof (mo_obs Hok d Hd) as Hdv.
    destruct (su_obs SU) as [Hni | (sl & e & Hl & He & Eid & Eident & _)].
    { exfalso. apply Hni. rewrite <- Eh. exact (proj2 (dv_new Hdv id0 idv0 f00 f10 Hin)). }
    rewrite Eh in *.
    assert (Hl0 : live_h s (w_alloc (W Hs s (m_verified m)) d id0) sl) by (rewrite Eh; exact Hl).
    pose proof (dv_own Hdv id0 idv0 f00 f10 sl Hin Hl0) as Ho. rewrite Eh in Ho.
    destruct (owned_by_frame s F q fr e d id0 h OI Hq He (f_equal fst (eq_sym Eid)) Ho) as [-> (e0 & He0 & E1 & E2)].
    assert (e0 = e).
    { assert (Hnd : NoDup (map te_id (fr_ids fr))).
      { apply (NoDup_map_inv fst). apply (oi_nodup _ _ _ OI (OwF q)). exists fr. auto. }
      apply (map_inj_nodup te_id (fr_ids fr) e0 e Hnd He0 He). congruence. }
    subst e0. right. exists fr', (mk_entry id h true). split; [apply one_in_F'; left; auto|].
    split; [exact (su_new_entry one_ids)|]. cbn. split; [congruence | reflexivity].
  - (* slots are LOW, not updated in the future *) intros j sl Hj Hu. rewrite Hcur. destruct (N.eq_dec j (fst h)) as [-> | Hne].
    + rewrite one_slot_h in Hj. injection Hj as <-. destruct (su_slnew SU) as (_ & _ & Hup & Hd & _).
      split; [exact Hd|]. intros r Hr. rewrite Hup in Hr. injection Hr as <-. lia.
    + rewrite (one_slot_other _ Hne) in Hj. exact (si_slots I j sl Hj Hu).
  - (* generations are below the update revision *) intros j sl Hj. rewrite Hcur. destruct (N.eq_dec j (fst h)) as [-> | Hne].
    + rewrite one_slot_h in Hj. injection Hj as <-. destruct (su_slnew SU) as (_ & _ & Hup & _). rewrite Hup.
      exact (su_gen_lt SU).
    + rewrite (one_slot_other _ Hne) in Hj. exact (si_gens I j sl Hj).
  - (* a slot locked now has a holder *) intros h0 sl0 Hl0 Hu0. rewrite Hcur in Hu0. rewrite Hcur. destruct (N.eq_dec (fst h0) (fst h)) as [Ef | Hne].
    + destruct (one_live_new h0 sl0 Ef Hl0) as [-> ->]. right. exists q, fr', id.
      split; [apply one_in_F'; left; auto | exact (su_new_entry one_ids)].
    + apply (one_live_other h0 sl0 Hne) in Hl0.
      destruct (si_lock I h0 sl0 Hl0 Hu0) as [(l & m & id0 & Hm & Hvm & Hin) | (q0 & fr0 & id0 & Hin0 & Hine0)].
      * left. exists l, m, id0. rewrite (nf_memo HNF). auto.
      * right. destruct (qk_eq_dec q0 q) as [-> | Hneq].
        -- pose proof (frames_fun F q fr0 fr (oi_frames _ _ _ OI) Hin0 Hq) as ->.
           exists q, fr', id0. split; [apply one_in_F'; left; auto|]. apply (su_keep one_ids _ Hine0). cbn. exact Hne.
        -- exists q0, fr0, id0. split; [apply one_in_F'; right; auto | exact Hine0].
Qed.

(* ---- the frame after the creation ---- *)
Lemma one_active_other id0 h0 : In (mk_entry id0 h0 true) (fr_ids fr) -> fst h0 <> fst h.
Proof.
  intros Hin Ef. apply (fo_active FO) in Hin. destruct Hin as (a & b & c & Hin).
  apply in_split in Hin. destruct Hin as (l1 & l2 & El).
  pose proof (fo_logged FO l1 _ l2 El) as Hlok. unfold lok in Hlok. cbn [fst snd] in Hlok.
  destruct Hlok as (h1 & sl1 & E1 & _ & (Hs1 & _) & _ & Hu1 & _). injection E1 as <-.
  rewrite Ef in Hs1. exact (su_notlocked SU sl1 Hs1 Hu1).
Qed.

Lemma one_fr_ext : fr_ext s' fr fr'.
Proof.
  destruct Hstamp as (A & B & C & D & E). constructor.
  - intros e0. rewrite C. auto.
  - rewrite B, one_cur. split; [lia | exact (fo_le FO)].
  - rewrite D. auto.
  - intros id0 h0 Hin. apply (su_keep one_ids _ Hin). cbn. exact (one_active_other id0 h0 Hin).
Qed.

Lemma cnt_get_bump_ge l k0 k1 : cnt_get l k1 <= cnt_get (cnt_bump l k0) k1.
Proof.
  destruct (N.eq_dec k0 k1) as [-> | Hne]; [rewrite cnt_get_bump_same; lia | rewrite cnt_get_bump_other by exact Hne; lia].
Qed.

Lemma one_frame :
  FrameOK Hs s' q old fr' (log ++ [(RNew id idv f0 f1, (0, [h]))]) (k h) (cnt_bump dis (idhash idv)).
Proof.
  pose proof one_sext as X. pose proof one_cur as Hcur. pose proof one_fr_ext as FE.
  destruct Hstamp as (Sd & Sc & Se & Su & Sdis).
  destruct (su_slnew SU) as (Nf & Ng & Nu & Nd & Nr1 & Nr0).
  assert (HL : Logged s' fr' log).
  { apply (Logged_ext s' fr fr' log FE). exact (Logged_sext skind s s' F fr log OI X (fo_logged FO)). }
  assert (Hlive_new : live_h s' h slnew).
  { split; [exact one_slot_h|]. split; [rewrite Nu; discriminate | exact Ng]. }
  constructor.
  - apply Logged_snoc; [exact HL|]. unfold lok. cbn [fst snd].
    exists h, slnew. split; [reflexivity|]. split; [exact (su_new_entry one_ids)|]. split; [exact Hlive_new|].
    split; [exact Nf|]. split; [rewrite Hcur; exact Nu|]. split; [exact Nd|]. rewrite Hcur. split; [exact Nr0|].
    split; [rewrite Nr1; exact (fo_le FO)|].
    rewrite Nr1. exact (cst_sext skind s s' F log _ OI X (fo_stamp FO)).
  - rewrite Sdis, (fo_dis FO). reflexivity.
  - intros e0 Hag. apply agrees_app in Hag. destruct Hag as [Hag1 Hag2].
    destruct (fo_tr FO e0 Hag1) as [Htr Hrun]. cbn [trace run] in Htr, Hrun. fold id in Htr, Hrun.
    assert (En : e_new e0 id = h).
    { specialize (Hag2 _ _ (or_introl eq_refl)). cbn in Hag2. injection Hag2 as A. exact A. }
    rewrite En in Htr, Hrun. split; [|exact Hrun].
    rewrite Htr, map_app. cbn [map fst]. rewrite <- app_assoc. reflexivity.
  - rewrite Sc, Hcur. exact (fo_le FO).
  - rewrite Sc. exact (fo_ge1 FO).
  - rewrite Sc. apply cst_app. exact (cst_sext skind s s' F log _ OI X (fo_stamp FO)).
  - intros _. rewrite Sd. exact one_dur.
  - rewrite Su. rewrite (fo_untr FO). split.
    + intros (x & a & Hin & Hu). exists x, a. split; [apply in_or_app; left; exact Hin | exact Hu].
    + intros (x & a & Hin & Hu). apply in_app_or in Hin. destruct Hin as [Hin | [E | []]]; [exists x, a; auto|].
      injection E as <- _. destruct Hu as [Hu | (c & Hu)]; discriminate.
  - intros e0 He0. rewrite Se in He0. destruct (fo_edges FO e0 He0) as [A (a & Hin)].
    split; [exact A|]. exists a. apply in_or_app. left. exact Hin.
  - rewrite Se, map_app. cbn [map fst]. rewrite edges_of_snoc. unfold edge_step. cbn [rd_edge].
    rewrite (fo_eorder FO). reflexivity.
  - intros id0 h0. split.
    + intros Hin. destruct (su_back one_ids _ Hin) as [E | [Hin0 _]].
      * injection E as -> ->. exists idv, f0, f1. apply in_or_app. right. left. reflexivity.
      * apply (fo_active FO) in Hin0. destruct Hin0 as (a & b & c & Hin0).
        exists a, b, c. apply in_or_app. left. exact Hin0.
    + intros (a & b & c & Hin). apply in_app_or in Hin. destruct Hin as [Hin | [E | []]].
      * apply (fe_ids FE). apply (fo_active FO). eauto.
      * injection E as <- _ _ _ <-. exact (su_new_entry one_ids).
  - exact (su_idents one_ids).
  - intros e0 He0 Ha. destruct (su_back one_ids _ He0) as [-> | [Hin0 _]].
    + cbn. unfold id, nident. cbn. rewrite cnt_get_bump_same. lia.
    + pose proof (fo_cnt_act FO e0 Hin0 Ha) as Hlt.
      pose proof (cnt_get_bump_ge dis (idhash idv) (fst (te_ident e0))). lia.
  - intros e0 He0 Ha. destruct (su_back one_ids _ He0) as [-> | [Hin0 _]]; [discriminate|].
    pose proof (fo_cnt_inact FO e0 Hin0 Ha) as Hle.
    destruct (N.eq_dec (idhash idv) (fst (te_ident e0))) as [E | Hne].
    + rewrite <- E, cnt_get_bump_same. rewrite <- E in Hle.
      assert (Hneq : snd (te_ident e0) <> cnt_get dis (idhash idv)).
      { intros Es. assert (Eid : te_ident e0 = id).
        { unfold id, nident. rewrite (surjective_pairing (te_ident e0)). f_equal; congruence. }
        pose proof (su_idents one_ids) as Hnd.
        pose proof (map_inj_nodup te_ident (fr_ids fr') e0 (mk_entry id h true) Hnd He0 (su_new_entry one_ids) Eid) as Ee.
        rewrite Ee in Ha. discriminate. }
      lia.
    + rewrite cnt_get_bump_other by exact Hne. exact Hle.
  - intros e0 He0 Ha. destruct (su_back one_ids _ He0) as [-> | [Hin0 Hne0]]; [discriminate|].
    destruct (fo_seeded FO e0 Hin0 Ha) as (o & Eold & Hseedin & sl & Hl & Hf & Hd & A0 & A1 & Hcs & Hnl).
    exists o. split; [exact Eold|]. split; [exact Hseedin|]. exists sl.
    destruct (si_active I q fr Hq) as [_ Hlt].
    pose proof (fo_old FO) as Hold. rewrite Eold in Hold. specialize (Hlt o Hold).
    split; [apply (one_live_other _ _ Hne0); exact Hl|].
    split; [rewrite (W_same_cur Hs s s' _ Hcur Hlt); exact Hf|].
    split; [exact Hd|]. split; [exact A0|]. split; [exact A1|].
    split; [|rewrite Hcur; exact Hnl].
    unfold SInv.trr. rewrite (W_same_cur Hs s s' _ Hcur Hlt). exact (cstamp_sext skind s s' F _ _ _ OI one_sext Hcs).
  - intros o id0 h0 Eold Hin. destruct (fo_seedall FO o id0 h0 Eold Hin) as (e0 & He0 & Ee0).
    destruct (su_ident_keep one_ids e0 He0) as (e1 & He1 & Ee1). exists e1. split; [exact He1 | congruence].
  - intros E. apply app_eq_nil in E. destruct E as [_ E]. discriminate.
  - rewrite (nf_memo HNF). exact (fo_old FO).
  - intros o Eold. rewrite Sc.
    destruct (si_active I q fr Hq) as [_ Hlt].
    pose proof (fo_old FO) as Hold. rewrite Eold in Hold. specialize (Hlt o Hold).
    rewrite (W_same_cur Hs s s' _ Hcur Hlt).
    destruct (fo_div FO o Eold) as [Hag | Hlate]; [left | right; exact Hlate].
    apply agrees_app. split; [exact Hag|]. intros x a [E | []]. injection E as <- <-. cbn.
    rewrite (su_alloc_old SU o Eold Hag). reflexivity.
Qed.

Lemma one_frozen p frp h0 : In (p, frp) F -> p <> q -> In h0 (frame_ids frp) -> d_slots s' (fst h0) = d_slots s (fst h0).
Proof.
  intros Hp Hne Hh0. apply one_slot_other. intros Ef.
  pose proof (su_owner one_ids _ _ (owns_frame skind s F p frp h0 Hp Hh0) Ef) as E. injection E as E. contradiction.
Qed.

End One.

Theorem new_struct_sinv Hs s F q old fr log idv f0 f1 k dis n s' h fr' :
  SInv Hs s F -> In (q, fr) F ->
  FrameOK Hs s q old fr log (NewStruct idv f0 f1 k) dis -> log <> [] ->
  (forall i sl, d_slots s i = Some sl -> next_gen (sl_gen sl) <> None) ->
  new_struct skind [] idhash n q idv f0 f1 fr s = (s', SOk (h, fr')) ->
  SInv Hs s' (set_frame F q fr') /\ sext s s' /\
  FrameOK Hs s' q old fr' (log ++ [(RNew (nident idhash dis idv) idv f0 f1, (0, [h]))]) (k h) (cnt_bump dis (idhash idv)) /\
  d_memo s' = d_memo s /\ d_stack s' = d_stack s /\
  (forall p frp h0, In (p, frp) F -> p <> q -> In h0 (frame_ids frp) -> d_slots s' (fst h0) = d_slots s (fst h0)).
Proof.
  intros I Hq FO Hne Hgens H.
  pose proof (si_oinv I) as OI.
  pose proof (fo_dis FO) as Hdis.
  destruct (new_struct_effect skind idhash n q idv f0 f1 fr s s' h fr' H) as (slnew & Hsl & HNF & Hideal & Hstamp & Hcase).
  { intros e sl He Hm Hs0. rewrite Hdis in Hm.
    pose proof (one_matched_inactive Hs s q old fr log idv f0 f1 k dis FO e He Hm) as Hina.
    destruct (fo_seeded FO e He Hina) as (o & _ & _ & sl1 & (Hs1 & _ & Hg1) & _ & _ & _ & _ & _ & Hnl).
    rewrite Hs0 in Hs1. injection Hs1 as <-. split; [exact Hnl|]. rewrite <- Hg1. exact (Hgens _ sl Hs0). }
  destruct (new_struct_oinv skind [] idhash nofams n q idv f0 f1 fr s F s' h fr' OI Hq H) as (OI' & _ & _).
  destruct (new_struct_rel skind [] idhash (d_stack s) n q idv f0 f1 fr s F s' (h, fr') OI Hq) as (R & Est); [|exact H|].
  { intros p _ Hk. rewrite Hnk in Hk. discriminate. }
  pose proof (Cons_rel skind _ s s' _ (cons_set_frame skind s F q fr fr' (si_cons I) (oi_frames _ _ _ OI) Hq) R Est) as CO'.
  split; [exact (one_sinv Hs s F q old fr log idv f0 f1 k dis s' h fr' slnew I Hq FO Hne Hsl HNF Hideal Hcase OI' CO')|].
  split; [exact (one_sext Hs s F q old fr log idv f0 f1 k dis s' h fr' slnew I Hq FO Hne Hsl HNF Hideal Hcase)|].
  split; [exact (one_frame Hs s F q old fr log idv f0 f1 k dis s' h fr' slnew I Hq FO Hne Hsl HNF Hideal Hstamp Hcase)|].
  split; [exact (nf_memo HNF)|]. split; [exact Est|].
  intros p frp h0 Hp Hneq Hh0.
  eapply (one_frozen Hs s F q old fr log idv f0 f1 k dis s' h fr' slnew); eassumption.
Qed.


End NewInv.

Arguments listed_owns {skind} Hnk {s F l m id h}.
Arguments entry_owns skind {s F q fr e}.
