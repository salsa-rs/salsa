(* Structs/SRun.v — running a body: every read extends the log of the execution and keeps the
   from-scratch invariant; the level interface (what fetch and maybe_changed_after guarantee);
   run_body keeps the invariant and ends with a log that determines the run. *)
From Salsa Require Import Base.
From Salsa.Kern Require Import CoreK CoreKFacts.
From Salsa.Structs Require Import Model ProofsBase ProofsCascade Machine ProofsInv ProofsStep Theorems Guard SimBase SimOps Sim
     SSem SInv SSlots SFrame SNewInv.

Lemma edge_eqb_eq a b : edge_eqb a b = true <-> a = b.
Proof.
  destruct a, b; cbn [edge_eqb]; try (split; [discriminate | intros E; discriminate]).
  - rewrite key_eqb_eq. split; [intros ->; reflexivity | intros E; injection E; auto].
  - rewrite qk_eqb_eq. split; [intros ->; reflexivity | intros E; injection E; auto].
  - rewrite andb_true_iff, handle_eqb_eq, N.eqb_eq. split; [intros [-> ->]; reflexivity | intros E; injection E; auto].
  - rewrite qk_eqb_eq. split; [intros ->; reflexivity | intros E; injection E; auto].
Qed.

Lemma In_add_edge e' es e : In e' (add_edge es e) <-> In e' es \/ e' = e.
Proof.
  unfold add_edge. destruct (existsb (edge_eqb e) es) eqn:E.
  - split; [auto|]. intros [H | ->]; [exact H|].
    apply existsb_exists in E. destruct E as (x & Hx & Ex). apply edge_eqb_eq in Ex. subst x. exact Hx.
  - rewrite in_app_iff. cbn. split; [intros [H | [<- | []]]; auto | intros [H | ->]; auto].
Qed.

Inductive nospec : body -> Prop :=
| ns_ret v hs : nospec (Ret v hs)
| ns_rdin i k : (forall v, nospec (k v)) -> nospec (RdIn i k)
| ns_call c k : (forall r, nospec (k r)) -> nospec (CallQ c k)
| ns_cell c k : (forall v, nospec (k v)) -> nospec (RdCell c k)
| ns_touch k : nospec k -> nospec (Touch k)
| ns_new idv f0 f1 k : (forall h, nospec (k h)) -> nospec (NewStruct idv f0 f1 k)
| ns_field h f k : (forall v, nospec (k v)) -> nospec (RdField h f k)
| ns_idfield h k : (forall v, nospec (k v)) -> nospec (RdIdField h k).

(* A frame starts with the maximal durability and every read lowers it to LOW; a struct created,
   or a value returned, before any read would carry the maximal one *)
Definition first_read (b : body) : Prop :=
  match b with
  | RdIn _ _ | CallQ _ _ | RdCell _ _ | Touch _ => True
  | _ => False
  end.

(* u32::MAX, where [next_gen] gives up.  Generations stay below the current revision (si_gens), so
   while cur s < GMAX no slot is leaked (gens_of_cur) *)
Definition GMAX : N := 4294967295.

Section Run.
Variable prog : qk -> body.
Variable skind : N -> bool.
Variable idhash : val -> N.
Variable rank : qk -> nat.
Hypothesis Hrank : calls_below prog rank.
Variable NF : nat.
Hypothesis Hbound : forall q, (rank q < NF)%nat.
Hypothesis Hprov : no_forge idhash prog.
Hypothesis Hgk : forall q d, calls (prog q) d -> gk d.
Hypothesis Hnk : forall f, skind f = false.

Notation envw := (envw idhash prog NF).
Notation clos := (clos idhash prog NF).
Notation SInv := (SInv prog skind idhash NF).
Notation smemo_ok := (smemo_ok prog idhash NF).
Notation trr := (trr prog idhash NF).
Notation FrameOK := (FrameOK prog idhash NF).
Notation OInv := (OInv skind).

Lemma gens_of_cur Hs s F : SInv Hs s F -> cur s < GMAX ->
  forall i sl, d_slots s i = Some sl -> next_gen (sl_gen sl) <> None.
Proof.
  intros I Hc i sl Hsl. pose proof (si_gens I i sl Hsl) as G.
  rewrite next_gen_spec. unfold GMAX in Hc.
  assert (Hlt : sl_gen sl + 1 < 4294967296).
  { destruct (sl_updated sl) as [r|] eqn:Eu; [|lia].
    assert (Hu : sl_updated sl <> None) by (rewrite Eu; discriminate).
    pose proof (proj2 (si_slots I i sl Hsl Hu) r Eu). lia. }
  apply N.ltb_lt in Hlt. rewrite Hlt. discriminate.
Qed.

(* ---------------------------------------------------------------- one more read *)
Lemma frame_read Hs s s' F q old fr fr' log x a b b' dis :
  OInv s F -> sext s s' ->
  FrameOK Hs s q old fr log b dis ->
  (forall id u v w, x <> RNew id u v w) ->
  (forall e, answer e x = a ->
     trace idhash e b dis = x :: trace idhash e b' dis /\ run idhash e b dis = run idhash e b' dis) ->
  lok s' fr' log (x, a) ->
  fr_ext s' fr fr' ->
  fr_disamb fr' = fr_disamb fr -> fr_ids fr' = fr_ids fr -> fr_dur fr' = 0 ->
  cst s' (log ++ [(x, a)]) (fr_changed fr') ->
  (fr_untracked fr' = true <-> (fr_untracked fr = true \/ untr x)) ->
  (forall e, In e (fr_edges fr') -> In e (fr_edges fr) \/ (edge_rd e = x /\ forall o, e <> EOut o)) ->
  fr_edges fr' = edge_step (fr_edges fr) x ->
  d_memo s' (loc_of q) = d_memo s (loc_of q) ->
  (forall e, In e (fr_ids fr) -> te_active e = false -> d_slots s' (fst (te_id e)) = d_slots s (fst (te_id e))) ->
  (forall o, old = Some o -> m_verified o < cur s /\
     (agrees (envw (W Hs s (m_verified o)) q) log ->
      answer (envw (W Hs s (m_verified o)) q) x = a \/ m_verified o < fr_changed fr')) ->
  FrameOK Hs s' q old fr' (log ++ [(x, a)]) b' dis.
Proof.
  intros OI X FO Hx Htr Hlok FE Edis Eids Hdur Hstamp Huntr Hedges Heorder Hmemo Hfroz Hdiv.
  pose proof (sext_cur _ _ X) as Hcur.
  destruct FE as [FE1 [FE2 FE3] FE4 FE5].
  assert (FE : fr_ext s' fr fr') by (constructor; auto).
  constructor.
  - (* fo_logged *) apply Logged_snoc; [|exact Hlok]. apply (Logged_ext s' fr fr' log FE).
    exact (Logged_sext skind s s' F fr log OI X (fo_logged FO)).
  - (* fo_dis *) rewrite Edis. exact (fo_dis FO).
  - (* fo_tr *) intros e Hag. apply agrees_app in Hag. destruct Hag as [Hag1 Hag2].
    destruct (fo_tr FO e Hag1) as [T1 R1].
    destruct (Htr e (Hag2 _ _ (or_introl eq_refl))) as [T2 R2].
    split; [|congruence]. rewrite T1, T2, map_app. cbn [map fst]. rewrite <- app_assoc. reflexivity.
  - (* fo_le *) exact FE3.
  - (* fo_ge1 *) pose proof (fo_ge1 FO). lia.
  - (* fo_stamp *) exact Hstamp.
  - (* fo_low *) intros _. exact Hdur.
  - (* fo_untr *) split.
    + intros Hut. apply Huntr in Hut. destruct Hut as [Hut | Hu].
      * apply (fo_untr FO) in Hut. destruct Hut as (y & c & Hin & Hu).
        exists y, c. split; [apply in_or_app; left; exact Hin | exact Hu].
      * exists x, a. split; [apply in_or_app; right; left; reflexivity | exact Hu].
    + intros (y & c & Hin & Hu). apply Huntr. apply in_app_or in Hin.
      destruct Hin as [Hin | [E | []]]; [left; apply (fo_untr FO); eauto|].
      injection E as <- _. right. exact Hu.
  - (* fo_edges *) intros e He. destruct (Hedges e He) as [Hold | [Ee Hno]].
    + destruct (fo_edges FO e Hold) as [A (c & Hin)]. split; [exact A|].
      exists c. apply in_or_app. left. exact Hin.
    + split; [exact Hno|]. exists a. rewrite Ee. apply in_or_app. right. left. reflexivity.
  - (* fo_eorder *) rewrite map_app. cbn [map fst]. rewrite edges_of_snoc, Heorder, (fo_eorder FO). reflexivity.
  - (* fo_active *) intros id0 h0. rewrite Eids, (fo_active FO). split.
    + intros (u & v & w & Hin). exists u, v, w. apply in_or_app. left. exact Hin.
    + intros (u & v & w & Hin). apply in_app_or in Hin. destruct Hin as [Hin | [E | []]]; [eauto|].
      injection E as E _. exfalso. exact (Hx _ _ _ _ E).
  - (* fo_idents *) rewrite Eids. exact (fo_idents FO).
  - (* fo_cnt_act *) rewrite Eids. exact (fo_cnt_act FO).
  - (* fo_cnt_inact *) rewrite Eids. exact (fo_cnt_inact FO).
  - (* fo_seeded *) rewrite Eids. intros e He Ha.
    destruct (fo_seeded FO e He Ha) as (o & Eold & Hseedin & sl & Hl & Hf & Hd & A0 & A1 & Hcs & Hnl).
    exists o. split; [exact Eold|]. split; [exact Hseedin|]. exists sl.
    destruct (Hdiv o Eold) as [Hlt _].
    split; [unfold live_h; rewrite (Hfroz e He Ha); exact Hl|].
    split; [rewrite (W_same_cur Hs s s' _ Hcur Hlt); exact Hf|].
    split; [exact Hd|]. split; [exact A0|]. split; [exact A1|]. split; [|rewrite Hcur; exact Hnl].
    unfold SInv.trr. rewrite (W_same_cur Hs s s' _ Hcur Hlt). exact (cstamp_sext skind s s' F _ _ _ OI X Hcs).
  - (* fo_seedall *) rewrite Eids. exact (fo_seedall FO).
  - (* fo_start *) intros E. apply app_eq_nil in E. destruct E as [_ E]. discriminate.
  - (* fo_old *) rewrite Hmemo. exact (fo_old FO).
  - (* fo_div *) intros o Eold. destruct (Hdiv o Eold) as [Hlt Hd]. rewrite (W_same_cur Hs s s' _ Hcur Hlt).
    destruct (fo_div FO o Eold) as [Hag | Hlate]; [|right; lia].
    destruct (Hd Hag) as [Ea | Hl]; [left | right; exact Hl].
    apply agrees_app. split; [exact Hag|]. intros y c [E | []]. injection E as <- <-. exact Ea.
Qed.

(* ---------------------------------------------------------------- the frame of a running query may move on *)
Lemma SInv_set_frame Hs s F q fr fr1 :
  SInv Hs s F -> In (q, fr) F -> fr_ids fr1 = fr_ids fr -> SInv Hs s (set_frame F q fr1).
Proof.
  intros I Hq Eids. pose proof (si_oinv I) as OI.
  assert (Efr : frame_ids fr1 = frame_ids fr) by (unfold frame_ids; rewrite Eids; reflexivity).
  assert (HinF : forall q0 fr0, In (q0, fr0) (set_frame F q fr1) <-> (q0 = q /\ fr0 = fr1) \/ (q0 <> q /\ In (q0, fr0) F)).
  { intros q0 fr0. exact (in_set_frame F q fr fr1 q0 fr0 (oi_frames _ _ _ OI) Hq). }
  apply (SInv_slots prog skind idhash rank Hrank NF Hbound Hprov Hgk Hs s F s (set_frame F q fr1) (fun _ => False) I (sext_refl s) eq_refl).
  - (* OInv afterwards *) exact (oinv_same_ids skind s F q fr fr1 OI Hq Efr).
  - (* Cons afterwards *) exact (cons_set_frame skind s F q fr fr1 (si_cons I) (oi_frames _ _ _ OI) Hq).
  - (* P is decidable *) intros h. right. intros [].
  - (* running queries keep running *) intros l. apply active_set_frame.
  - (* no settled query runs *) intros d Hd A. exact (settled_not_active I Hd (proj1 (active_set_frame F q fr1 _) A)).
  - (* the running queries are input-keyed and not settled *) intros q0 fr0 Hin. apply HinF in Hin.
    destruct Hin as [[-> _] | [_ Hin]]; [exact (si_active I q fr Hq) | exact (si_active I q0 fr0 Hin)].
  - (* outside P, live slots were live with the same data *) intros h sl' _ Hl. exists sl'. split; [exact Hl|]. repeat split; reflexivity.
  - (* structs of stored memos are outside P and kept *) intros l m id h _ _ _. split; [intros []|]. apply slot_keeps_refl.
  - (* ownership outside P is kept *) intros d id h sl' _ _ _ Ho. destruct Ho as [(Hna & md & Hmd & Hin) | (fr0 & e0 & Hin0 & Hine0 & E1 & E2)].
    + left. split; [|eauto]. intros A. exact (Hna (proj1 (active_set_frame F q fr1 _) A)).
    + right. destruct (qk_eq_dec d q) as [-> | Hne].
      * pose proof (frames_fun F q fr0 fr (oi_frames _ _ _ OI) Hin0 Hq) as ->.
        exists fr1, e0. split; [apply HinF; left; auto|]. rewrite Eids. auto.
      * exists fr0, e0. split; [apply HinF; right; auto | auto].
  - (* past observers: fields of handles in P *) intros l m d h f sl' _ _ _ _ [].
  - (* past observers: identity fields of handles in P *) intros l m d h sl' _ _ _ _ [].
  - (* past observers: creators of handles in P *) intros l m d id idv f0 f1 sl' _ _ _ _ [].
  - (* slots are LOW, not updated in the future *) exact (si_slots I).
  - (* generations are below the update revision *) exact (si_gens I).
  - (* a slot locked now has a holder *) intros h sl Hl Hu. destruct (si_lock I h sl Hl Hu) as [A | (q0 & fr0 & id0 & Hin0 & Hine0)]; [left; exact A | right].
    destruct (qk_eq_dec q0 q) as [-> | Hne].
    + pose proof (frames_fun F q fr0 fr (oi_frames _ _ _ OI) Hin0 Hq) as ->.
      exists q, fr1, id0. split; [apply HinF; left; auto | rewrite Eids; exact Hine0].
    + exists q0, fr0, id0. split; [apply HinF; right; auto | exact Hine0].
Qed.

(* ---------------------------------------------------------------- handles the execution may use *)
Definition hokq (s : db) (fr : frame) (h : handle) : Prop :=
  (exists l m id, d_memo s l = Some m /\ m_verified m = cur s /\ In (id, h) (m_structs m)) \/
  (exists id, In (mk_entry id h true) (fr_ids fr)).

Lemma hokq_hok s F q fr h : In (q, fr) F -> hokq s fr h -> hok s F h.
Proof. intros Hq [A | (id & Hin)]; [left; exact A | right; exists q, fr, id; auto]. Qed.

Lemma hokq_sext s s' fr fr' h : sext s s' ->
  (forall id h0, In (mk_entry id h0 true) (fr_ids fr) -> In (mk_entry id h0 true) (fr_ids fr')) ->
  hokq s fr h -> hokq s' fr' h.
Proof.
  intros X Hids [(l & m & id & Hm & Hv & Hin) | (id & Hin)]; [left | right; exists id; auto].
  exists l, m, id. split; [exact (x_valid X l m Hm Hv)|]. split; [rewrite (sext_cur _ _ X); exact Hv | exact Hin].
Qed.

Lemma hokq_live Hs s F q fr h : SInv Hs s F -> In (q, fr) F -> hokq s fr h ->
  exists sl, live_h s h sl /\ forall e, In e (fr_ids fr) -> te_active e = false -> fst (te_id e) <> fst h.
Proof.
  intros I Hq Hh. pose proof (si_oinv I) as OI.
  destruct Hh as [(l & m & id & Hm & Hv & Hin) | (id & Hin)].
  - pose proof (verified_not_active I Hm Hv) as Hna.
    pose proof (si_memo I l m Hm) as Hok. rewrite <- (loc_kq l) in Hna.
    destruct (mo_own Hok Hna id h Hin) as (sl & Hl & _). exists sl. split; [exact Hl|].
    intros e He _ Ef. rewrite loc_kq in Hna.
    exact (memo_struct_other prog skind idhash NF Hnk s F Hs q fr e l m id h I Hq He Hm Hna Hin (eq_sym Ef)).
  - destruct (oi_live _ _ _ OI _ _ (entry_owns skind Hq Hin)) as (sl & Hl). exists sl. split; [exact Hl|].
    intros e He Ha Ef.
    assert (Hnd : NoDup (map fst (frame_ids fr))).
    { apply (oi_nodup _ _ _ OI (OwF q)). exists fr. auto. }
    unfold frame_ids in Hnd. rewrite map_map in Hnd.
    pose proof (map_inj_nodup (fun x => fst (te_id x)) (fr_ids fr) e (mk_entry id h true) Hnd He Hin Ef) as Ee.
    rewrite Ee in Ha. discriminate.
Qed.

(* the handles in the value of a settled query are held by memos verified now *)
Lemma result_hokq Hs s F d m a fr : SInv Hs s F -> gk d -> d_memo s (loc_of d) = Some m -> m_verified m = cur s ->
  m_val m = Some a -> forall h, In h (snd a) -> hokq s fr h.
Proof.
  intros I Hg Hm Hv Hval h Hin.
  assert (Hst : settled s d) by (exists m; auto).
  pose proof (memo_ok_of I Hg Hm) as Hok.
  pose proof (mo_val Hok) as Ev. rewrite Hval, Hv in Ev. injection Ev as Ev.
  rewrite Er_cur in Ev.
  destruct (read_handle_listed prog skind idhash rank Hrank NF Hbound Hprov Hgk Hs s F d h I Hg Hst)
    as (A & mA & id & _ & HmA & HvA & HinA & _).
  { right. right. rewrite <- (Ew_unfold Hrank Hbound). rewrite <- Ev. exact Hin. }
  left. exists (loc_of A), mA, id. auto.
Qed.

(* an environment that gives the logged answers *)
Definition senv_of (s : db) (fr : frame) : senv :=
  {| e_in := fun i => f_val (d_in s i);
     e_cell := d_cell s;
     e_q := fun d => match d_memo s (loc_of d) with
                     | Some m => match m_val m with Some v => v | None => (0, []) end
                     | None => (0, [])
                     end;
     e_slot := w_slot (wcur s);
     e_new := fun id => match find (fun e => key_eqb (te_ident e) id) (fr_ids fr) with
                        | Some e => te_id e
                        | None => (0, 0)
                        end |}.

Lemma find_ident l id h : NoDup (map te_ident l) -> In (mk_entry id h true) l ->
  find (fun e => key_eqb (te_ident e) id) l = Some (mk_entry id h true).
Proof.
  induction l as [|e l IH]; cbn [map find]; intros Hnd Hin; [destruct Hin|].
  apply NoDup_cons_iff in Hnd. destruct Hnd as [Hni Hnd].
  destruct Hin as [-> | Hin]; [cbn; rewrite key_eqb_refl; reflexivity|].
  destruct (key_eqb_spec (te_ident e) id) as [E | _]; [|exact (IH Hnd Hin)].
  exfalso. apply Hni. rewrite E. apply in_map_iff. exists (mk_entry id h true). auto.
Qed.

Lemma senv_agrees s fr log : Logged s fr log -> NoDup (map te_ident (fr_ids fr)) -> agrees (senv_of s fr) log.
Proof.
  intros HL Hnd x a Hin. apply in_split in Hin. destruct Hin as (l1 & l2 & El).
  pose proof (HL l1 (x, a) l2 El) as Hlok. unfold lok in Hlok. cbn [fst snd] in Hlok.
  destruct x as [i | d | c | | id idv f0 f1 | h f | h]; cbn [answer senv_of e_in e_cell e_q e_slot e_new].
  - destruct Hlok as (-> & _). reflexivity.
  - destruct Hlok as (_ & md & Hmd & _ & Hval & _). rewrite Hmd, Hval. reflexivity.
  - destruct Hlok as (-> & _). reflexivity.
  - destruct Hlok as (-> & _). reflexivity.
  - destruct Hlok as (h & sl & -> & Hine & _). rewrite (find_ident _ _ _ Hnd Hine). reflexivity.
  - destruct Hlok as (sl & -> & (Hs0 & _) & _). cbn [wcur w_slot]. rewrite Hs0, fld3_slot. reflexivity.
  - destruct Hlok as (sl & -> & (Hs0 & _) & _). cbn [wcur w_slot]. rewrite Hs0. reflexivity.
Qed.

(* what a sub-computation leaves alone: the claim stack, the memos of the claimed queries, the
   slots held by the running frames *)
Definition keeps (s s' : db) (F : frames) : Prop :=
  d_stack s' = d_stack s /\
  (forall p, In p (d_stack s) -> d_memo s' (loc_of p) = d_memo s (loc_of p)) /\
  (forall p frp h0, In (p, frp) F -> In h0 (frame_ids frp) -> d_slots s' (fst h0) = d_slots s (fst h0)).

Definition fetch_spec (L : lower) : Prop := forall Hs s F q s' r,
  SInv Hs s F -> gk q -> first_read (prog q) -> cur s < GMAX ->
  l_fetch L q s = (s', SOk r) ->
  SInv Hs s' F /\ sext s s' /\ keeps s s' F /\
  exists m, d_memo s' (loc_of q) = Some m /\ m_verified m = cur s /\ m_val m = Some (fst (fst r)) /\
            snd (fst r) = m_dur m /\ snd r = m_changed m.

Definition mca_spec (L : lower) : Prop := forall Hs s F q since s' b,
  SInv Hs s F -> gk q -> first_read (prog q) -> cur s < GMAX ->
  l_mca L q since s = (s', SOk b) ->
  SInv Hs s' F /\ sext s s' /\ keeps s s' F /\
  (b = false -> exists m, d_memo s' (loc_of q) = Some m /\ m_verified m = cur s /\ m_changed m <= since).

(* the same, relative to the frame of the running query q *)
Definition keepsq (s s' : db) (F : frames) (q : qk) : Prop :=
  d_stack s' = d_stack s /\
  (forall p, In p (d_stack s) -> d_memo s' (loc_of p) = d_memo s (loc_of p)) /\
  (forall p frp h0, In (p, frp) F -> p <> q -> In h0 (frame_ids frp) -> d_slots s' (fst h0) = d_slots s (fst h0)).

Lemma keepsq_refl s F q : keepsq s s F q.
Proof. split; [reflexivity|]. split; auto. Qed.

Lemma keepsq_trans s1 s2 s3 F q fr fr1 :
  NoDup (flocs F) -> In (q, fr) F ->
  keepsq s1 s2 F q -> keepsq s2 s3 (set_frame F q fr1) q -> keepsq s1 s3 F q.
Proof.
  intros HF Hq (A1 & B1 & C1) (A2 & B2 & C2). split; [congruence|]. split.
  - intros p Hp. rewrite (B2 p) by (rewrite A1; exact Hp). exact (B1 p Hp).
  - intros p frp h0 Hp Hne Hh0. rewrite (C2 p frp h0); [exact (C1 p frp h0 Hp Hne Hh0) | | exact Hne | exact Hh0].
    apply (in_set_frame F q fr fr1 p frp HF Hq). right. auto.
Qed.

Lemma old_lt Hs s F q old fr log b dis o :
  SInv Hs s F -> In (q, fr) F -> FrameOK Hs s q old fr log b dis -> old = Some o -> m_verified o < cur s.
Proof.
  intros I Hq FO Eold. destruct (si_active I q fr Hq) as [_ Hlt].
  apply Hlt. rewrite (fo_old FO). exact Eold.
Qed.

(* the head of the old trace, while the execution agrees with the old world *)
Lemma old_head Hs s q old fr log b dis o x t :
  FrameOK Hs s q old fr log b dis ->
  agrees (envw (W Hs s (m_verified o)) q) log ->
  trace idhash (envw (W Hs s (m_verified o)) q) b dis = x :: t ->
  In x (trr Hs s (m_verified o) q).
Proof.
  intros FO Hag Et. destruct (fo_tr FO _ Hag) as [T _].
  unfold SInv.trr, SSem.trw. rewrite T, Et. apply in_or_app. right. left. reflexivity.
Qed.

Lemma old_ahead Hs s s1 F q old fr log b dis o x t :
  SInv Hs s F -> In (q, fr) F -> FrameOK Hs s q old fr log b dis -> old = Some o ->
  SInv Hs s1 F -> cur s1 = cur s -> d_memo s1 (loc_of q) = d_memo s (loc_of q) ->
  agrees (envw (W Hs s (m_verified o)) q) log ->
  trace idhash (envw (W Hs s (m_verified o)) q) b dis = x :: t ->
  In x (trr Hs s (m_verified o) q) /\ smemo_ok Hs s1 F q o /\ W Hs s1 (m_verified o) = W Hs s (m_verified o).
Proof.
  intros I Hq FO Eold I1 Hc1 Hmemo Hag Et.
  split; [exact (old_head Hs s q old fr log b dis o x t FO Hag Et)|].
  split; [|apply W_same_cur; [exact Hc1 | exact (old_lt Hs s F q old fr log b dis o I Hq FO Eold)]].
  apply (memo_ok_of I1 (proj1 (si_active I q fr Hq))). rewrite Hmemo, (fo_old FO). exact Eold.
Qed.

Lemma stamp_max s log c1 c2 x a :
  cst s log c1 -> sle s c2 x -> cst s (log ++ [(x, a)]) (rev_max c1 c2).
Proof.
  intros H1 H2. unfold rev_max. destruct (N.max_spec c1 c2) as [[_ ->] | [_ ->]].
  - right. exists x, a. split; [apply in_or_app; right; left; reflexivity | exact H2].
  - apply cst_app. exact H1.
Qed.

(* ---------------------------------------------------------------- an input read *)
Lemma step_rdin Hs s F q old fr log i k dis :
  SInv Hs s F -> In (q, fr) F -> FrameOK Hs s q old fr log (RdIn i k) dis ->
  SInv Hs s (set_frame F q (add_read fr (EIn i) (f_dur (d_in s i)) (f_changed (d_in s i)))) /\
  FrameOK Hs s q old (add_read fr (EIn i) (f_dur (d_in s i)) (f_changed (d_in s i)))
          (log ++ [(RIn i, (f_val (d_in s i), []))]) (k (f_val (d_in s i))) dis.
Proof.
  intros I Hq FO. pose proof (si_oinv I) as OI.
  set (fr1 := add_read fr (EIn i) (f_dur (d_in s i)) (f_changed (d_in s i))).
  split; [apply (SInv_set_frame Hs s F q fr fr1 I Hq); reflexivity|].
  pose proof (si_low I i) as Hlow. pose proof (si_in_le I i) as Hile.
  pose proof (fo_le FO) as Hfle.
  assert (Eedges : fr_edges fr1 = add_edge (fr_edges fr) (EIn i)).
  { unfold fr1, add_read. cbn. rewrite Hlow. reflexivity. }
  apply (frame_read Hs s s F q old fr fr1 log (RIn i) (f_val (d_in s i), []) (RdIn i k) _ dis OI (sext_refl s) FO).
  - discriminate.
  - intros e Ea. cbn in Ea. injection Ea as Ea. cbn [trace run]. rewrite Ea. auto.
  - unfold lok. cbn [fst snd]. split; [reflexivity|]. split; [rewrite Eedges; apply In_add_edge; right; reflexivity|].
    unfold fr1, add_read, rev_max. cbn. lia.
  - constructor.
    + intros e He. rewrite Eedges. apply In_add_edge. left. exact He.
    + unfold fr1, add_read, rev_max. cbn. lia.
    + auto.
    + auto.
  - reflexivity.
  - reflexivity.
  - unfold fr1, add_read, dur_min. cbn. rewrite Hlow. apply N.min_0_r.
  - unfold fr1, add_read. cbn [fr_changed set_fr_stamp].
    apply stamp_max; [exact (fo_stamp FO) | cbn; lia].
  - unfold fr1, add_read. cbn. split; [auto|]. intros [A | [A | (c & A)]]; [exact A | discriminate | discriminate].
  - intros e He. rewrite Eedges in He. apply In_add_edge in He. destruct He as [He | ->]; [left; exact He | right].
    split; [reflexivity | discriminate].
  - exact Eedges.
  - reflexivity.
  - reflexivity.
  - intros o Eold. split; [exact (old_lt Hs s F q old fr log _ dis o I Hq FO Eold)|]. intros _.
    pose proof (old_lt Hs s F q old fr log _ dis o I Hq FO Eold) as Hlt.
    destruct (N.le_gt_cases (f_changed (d_in s i)) (m_verified o)) as [Hle | Hgt].
    + left. cbn. rewrite (si_in I i (m_verified o) Hle); [reflexivity | lia].
    + right. unfold fr1, add_read, rev_max. cbn. lia.
Qed.

(* ---------------------------------------------------------------- untracked reads *)
Lemma step_untracked Hs s F q old fr log x a b b' dis :
  SInv Hs s F -> In (q, fr) F -> FrameOK Hs s q old fr log b dis ->
  untr x ->
  (x = RTouch -> a = (0, [])) -> (forall c, x = RCell c -> a = (d_cell s c, [])) ->
  (forall e, answer e x = a ->
     trace idhash e b dis = x :: trace idhash e b' dis /\ run idhash e b dis = run idhash e b' dis) ->
  SInv Hs s (set_frame F q (add_untracked fr (cur s))) /\
  FrameOK Hs s q old (add_untracked fr (cur s)) (log ++ [(x, a)]) b' dis.
Proof.
  intros I Hq FO Hu Ht Hc Htr. pose proof (si_oinv I) as OI.
  set (fr1 := add_untracked fr (cur s)).
  split; [apply (SInv_set_frame Hs s F q fr fr1 I Hq); reflexivity|].
  pose proof (fo_le FO) as Hfle.
  apply (frame_read Hs s s F q old fr fr1 log x a b b' dis OI (sext_refl s) FO).
  - intros id u v w E. rewrite E in Hu. destruct Hu as [Hu | (c & Hu)]; discriminate.
  - exact Htr.
  - unfold lok. cbn [fst snd]. destruct Hu as [-> | (c & ->)].
    + split; [apply Ht; reflexivity|]. split; reflexivity.
    + split; [apply (Hc c); reflexivity|]. split; reflexivity.
  - constructor; [auto | unfold fr1, add_untracked; cbn; lia | auto | auto].
  - reflexivity.
  - reflexivity.
  - reflexivity.
  - right. exists x, a. split; [apply in_or_app; right; left; reflexivity|].
    destruct Hu as [-> | (c & ->)]; exact Logic.I.
  - unfold fr1, add_untracked. cbn. split; [intros _; right; exact Hu | reflexivity].
  - intros e He. left. exact He.
  - unfold edge_step. destruct Hu as [-> | (c & ->)]; reflexivity.
  - reflexivity.
  - reflexivity.
  - intros o Eold. pose proof (old_lt Hs s F q old fr log _ dis o I Hq FO Eold) as Hlt. split; [exact Hlt|].
    intros _. right. unfold fr1, add_untracked. cbn. exact Hlt.
Qed.

(* ---------------------------------------------------------------- a call *)
Lemma step_call L Hs s F q old fr log c k dis s1 a d ch :
  fetch_spec L ->
  SInv Hs s F -> In (q, fr) F -> FrameOK Hs s q old fr log (CallQ c k) dis ->
  gk c -> first_read (prog c) -> cur s < GMAX ->
  l_fetch L c s = (s1, SOk (a, d, ch)) ->
  SInv Hs s1 (set_frame F q (add_read fr (EQ c) d ch)) /\ sext s s1 /\ keeps s s1 F /\
  FrameOK Hs s1 q old (add_read fr (EQ c) d ch) (log ++ [(RQ c, a)]) (k a) dis /\
  (forall h, In h (snd a) -> hokq s1 (add_read fr (EQ c) d ch) h).
Proof.
  intros HF I Hq FO Hgc Hfc Hcur H. pose proof (si_oinv I) as OI.
  destruct (HF Hs s F c s1 (a, d, ch) I Hgc Hfc Hcur H) as (I1 & X & K & m & Hm & Hv & Hval & Ed & Ech).
  cbn [fst snd] in Hval, Ed, Ech. subst d ch.
  pose proof (sext_cur _ _ X) as Hc1.
  set (fr1 := add_read fr (EQ c) (m_dur m) (m_changed m)).
  pose proof (memo_ok_of I1 Hgc Hm) as Hokm.
  pose proof (mo_low Hokm) as Hlow.
  pose proof (mo_order Hokm) as (_ & Hcv & _).
  pose proof (fo_le FO) as Hfle.
  assert (Eedges : fr_edges fr1 = add_edge (fr_edges fr) (EQ c)).
  { unfold fr1, add_read. cbn. rewrite Hlow. reflexivity. }
  assert (Hqs : In q (d_stack s)) by exact (cn_stack _ _ _ (si_cons I) q fr Hq).
  destruct K as (Kst & Kmemo & Kslots).
  assert (FO1 : FrameOK Hs s1 q old fr1 (log ++ [(RQ c, a)]) (k a) dis).
  { apply (frame_read Hs s s1 F q old fr fr1 log (RQ c) a (CallQ c k) _ dis OI X FO).
    - discriminate.
    - intros e Ea. cbn in Ea. cbn [trace run]. rewrite Ea. auto.
    - unfold lok. cbn [fst snd]. split; [exact Hgc|]. exists m. rewrite Hc1.
      split; [exact Hm|]. split; [exact Hv|]. split; [exact Hval|].
      split; [unfold fr1, add_read, rev_max; cbn; lia | rewrite Eedges; apply In_add_edge; right; reflexivity].
    - constructor.
      + intros e He. rewrite Eedges. apply In_add_edge. left. exact He.
      + unfold fr1, add_read, rev_max. cbn. rewrite Hc1. lia.
      + auto.
      + auto.
    - reflexivity.
    - reflexivity.
    - unfold fr1, add_read, dur_min. cbn. rewrite Hlow. apply N.min_0_r.
    - unfold fr1, add_read. cbn [fr_changed set_fr_stamp]. apply stamp_max.
      + exact (cst_sext skind s s1 F log _ OI X (fo_stamp FO)).
      + cbn. exists m. split; [exact Hm | lia].
    - unfold fr1, add_read. cbn. split; [auto|]. intros [A | [A | (cc & A)]]; [exact A | discriminate | discriminate].
    - intros e He. rewrite Eedges in He. apply In_add_edge in He. destruct He as [He | ->]; [left; exact He | right].
      split; [reflexivity | discriminate].
    - exact Eedges.
    - exact (Kmemo q Hqs).
    - intros e He _. apply (Kslots q fr (te_id e) Hq). exact (in_map te_id _ e He).
    - intros o Eold. pose proof (old_lt Hs s F q old fr log _ dis o I Hq FO Eold) as Hlt. split; [exact Hlt|].
      intros Hag.
      destruct (old_ahead Hs s s1 F q old fr log (CallQ c k) dis o (RQ c) _ I Hq FO Eold I1 Hc1 (Kmemo q Hqs) Hag eq_refl)
        as (Hino & Hoko & EW).
      assert (Hcl : clos (W Hs s1 (m_verified o)) q c).
      { rewrite EW. apply clos_one. exact Hino. }
      destruct (dv_memo (mo_obs Hoko c Hcl)) as (md & Hmd & _ & Hobs).
      rewrite Hm in Hmd. injection Hmd as <-.
      destruct (N.le_gt_cases (m_changed m) (m_verified o)) as [Hle | Hgt].
      + left. cbn. specialize (Hobs Hle). unfold SInv.Er in Hobs. rewrite EW in Hobs. rewrite Hobs.
        pose proof (mo_val Hokm) as Ev. rewrite Hval in Ev. injection Ev as Ev. symmetry. exact Ev.
      + right. unfold fr1, add_read, rev_max. cbn. lia. }
  split; [apply (SInv_set_frame Hs s1 F q fr fr1 I1 Hq); reflexivity|].
  split; [exact X|]. split; [split; [exact Kst|]; split; assumption|]. split; [exact FO1|].
  intros h Hh. rewrite <- Hc1 in Hv. exact (result_hokq Hs s1 F c m a fr1 I1 Hgc Hm Hv Hval h Hh).
Qed.

(* ---------------------------------------------------------------- field reads *)
Lemma hokq_revs Hs s F q old fr log b dis h sl f :
  SInv Hs s F -> In (q, fr) F -> FrameOK Hs s q old fr log b dis -> hokq s fr h -> live_h s h sl ->
  revf sl f <= cur s /\ sl_dur sl = 0.
Proof.
  intros I Hq FO Hh Hl.
  destruct Hh as [(l & m & id & Hm & Hv & Hin) | (id & Hin)].
  - assert (Hst : settled s (kq l)) by (exists m; rewrite loc_kq; auto).
    pose proof (settled_not_active I Hst) as Hna.
    pose proof (si_memo I l m Hm) as Hok.
    destruct (mo_own Hok Hna id h Hin) as (sl0 & Hl0 & _ & Hd & A0 & A1 & _).
    pose proof (live_h_fun s h sl sl0 Hl Hl0) as ->.
    split; [|exact Hd]. unfold revf. destruct (f =? 0); lia.
  - apply (fo_active FO) in Hin. destruct Hin as (u & v & w & Hin).
    apply in_split in Hin. destruct Hin as (l1 & l2 & El).
    pose proof (fo_logged FO l1 _ l2 El) as Hlok. unfold lok in Hlok. cbn [fst snd] in Hlok.
    destruct Hlok as (h1 & sl1 & E1 & _ & Hl1 & _ & _ & Hd & A0 & A1 & _). injection E1 as <-.
    pose proof (live_h_fun s h sl sl1 Hl Hl1) as ->.
    split; [|exact Hd]. unfold revf. destruct (f =? 0); lia.
Qed.

Lemma lock_for_read Hs s F q old fr log b dis h s1 sl' :
  SInv Hs s F -> In (q, fr) F -> FrameOK Hs s q old fr log b dis -> hokq s fr h ->
  acquire_read_lock (fst h) s = (s1, SOk sl') ->
  SInv Hs s1 F /\ sext s s1 /\ live_h s1 h sl' /\ sl_updated sl' = Some (cur s) /\ sbs s s1 /\
  (forall f, revf sl' f <= cur s) /\ sl_dur sl' = 0 /\
  (forall e, In e (fr_ids fr) -> te_active e = false -> d_slots s1 (fst (te_id e)) = d_slots s (fst (te_id e))) /\
  (forall p frp h0, In (p, frp) F -> p <> q -> In h0 (frame_ids frp) -> d_slots s1 (fst h0) = d_slots s (fst h0)).
Proof.
  intros I Hq FO Hh H. pose proof (si_oinv I) as OI.
  destruct (hokq_live Hs s F q fr h I Hq Hh) as (sl & Hl & Hother).
  destruct (lock_slots _ _ _ _ H) as (sl0 & Hsl0 & Hu0 & Hu' & Hqv & B & Es & _).
  assert (sl0 = sl) by (destruct Hl as (E1 & _); rewrite E1 in Hsl0; injection Hsl0; auto). subst sl0.
  destruct (lock_sinv prog skind idhash rank Hrank NF Hbound Hprov Hgk Hs s F (fst h) s1 sl' I H) as [I1 X].
  { intros sl2 Hs2. rewrite Hsl0 in Hs2. injection Hs2 as <-.
    assert (Eh : (fst h, sl_gen sl) = h).
    { destruct Hl as (_ & _ & Hg). rewrite Hg. symmetry. apply surjective_pairing. }
    rewrite Eh. exact (hokq_hok s F q fr h Hq Hh). }
  split; [exact I1|]. split; [exact X|].
  assert (Hl' : live_h s1 h sl').
  { split; [rewrite Es; apply updN_same|]. split; [rewrite Hu'; discriminate|].
    destruct Hqv as (Hg & _). destruct Hl as (_ & _ & Hg0). congruence. }
  split; [exact Hl'|]. split; [exact Hu'|]. split; [exact B|].
  split.
  { intros f. rewrite (seqv_revf _ _ f Hqv). exact (proj1 (hokq_revs Hs s F q old fr log b dis h sl f I Hq FO Hh Hl)). }
  split.
  { destruct Hqv as (_ & Hd & _). rewrite Hd. exact (proj2 (hokq_revs Hs s F q old fr log b dis h sl 0 I Hq FO Hh Hl)). }
  split.
  - intros e He Ha. rewrite Es. apply updN_other. intros E. exact (Hother e He Ha (eq_sym E)).
  - intros p frp h0 Hp Hne Hh0. rewrite Es. apply updN_other. intros E.
    assert (Ho0 : owns skind s F (OwF p) h0) by exact (owns_frame skind s F p frp h0 Hp Hh0).
    (* the locked handle is held by a memo or by the frame of q *)
    destruct Hh as [(l & m & id & Hm & Hv & Hin) | (id & Hin)].
    + pose proof (listed_owns Hnk Hm (verified_not_active I Hm Hv) Hin) as Hom.
      pose proof (oi_uniq _ _ _ OI _ _ _ _ Hom Ho0 E) as Eo. discriminate.
    + pose proof (oi_uniq _ _ _ OI _ _ _ _ (entry_owns skind Hq Hin) Ho0 E) as Eo. injection Eo as Eo. congruence.
Qed.

Lemma step_field Hs s F q old fr log h f k dis s1 v fr1 :
  SInv Hs s F -> In (q, fr) F -> FrameOK Hs s q old fr log (RdField h f k) dis -> hokq s fr h ->
  read_field h f fr s = (s1, SOk (v, fr1)) ->
  SInv Hs s1 (set_frame F q fr1) /\ sext s s1 /\ keepsq s s1 F q /\
  FrameOK Hs s1 q old fr1 (log ++ [(RFld h f, (v, []))]) (k v) dis /\
  (forall id h0, In (mk_entry id h0 true) (fr_ids fr) -> In (mk_entry id h0 true) (fr_ids fr1)).
Proof.
  intros I Hq FO Hh H. pose proof (si_oinv I) as OI.
  unfold read_field in H. apply bind_ok in H. destruct H as (sl' & t & H1 & H).
  destruct (lock_for_read Hs s F q old fr log _ dis h t sl' I Hq FO Hh H1) as (I1 & X & Hl' & Hu' & B & Hrevs & Hd' & Hfroz & Hother).
  pose proof (sext_cur _ _ X) as Hc1.
  assert (Ev : v = fldv sl' f /\ fr1 = add_read fr (EFld h f) (sl_dur sl') (revf sl' f) /\ t = s1).
  { unfold fldv, revf. destruct (f =? 0); apply ret_ok in H; destruct H as [-> E]; injection E as -> ->; auto. }
  destruct Ev as (-> & -> & ->). clear H.
  set (fr1 := add_read fr (EFld h f) (sl_dur sl') (revf sl' f)).
  pose proof (fo_le FO) as Hfle.
  assert (Eedges : fr_edges fr1 = add_edge (fr_edges fr) (EFld h f)).
  { unfold fr1, add_read. cbn. rewrite Hd'. reflexivity. }
  assert (FO1 : FrameOK Hs s1 q old fr1 (log ++ [(RFld h f, (fldv sl' f, []))]) (k (fldv sl' f)) dis).
  { apply (frame_read Hs s s1 F q old fr fr1 log (RFld h f) (fldv sl' f, []) (RdField h f k) _ dis OI X FO).
    - discriminate.
    - intros e Ea. cbn in Ea. injection Ea as Ea. cbn [trace run]. rewrite Ea. auto.
    - unfold lok. cbn [fst snd]. exists sl'. split; [reflexivity|]. split; [exact Hl'|]. split; [rewrite Hc1; exact Hu'|].
      split; [rewrite Eedges; apply In_add_edge; right; reflexivity|]. unfold fr1, add_read, rev_max. cbn. lia.
    - constructor.
      + intros e He. rewrite Eedges. apply In_add_edge. left. exact He.
      + unfold fr1, add_read, rev_max. cbn. rewrite Hc1. pose proof (Hrevs f). lia.
      + auto.
      + auto.
    - reflexivity.
    - reflexivity.
    - unfold fr1, add_read, dur_min. cbn. rewrite Hd'. apply N.min_0_r.
    - unfold fr1, add_read. cbn [fr_changed set_fr_stamp]. apply stamp_max.
      + exact (cst_sext skind s s1 F log _ OI X (fo_stamp FO)).
      + cbn. split; [exact (live_issued skind s1 F h sl' (si_oinv I1) Hl')|].
        intros sl2 Hl2. rewrite (live_h_fun s1 h sl' sl2 Hl' Hl2). lia.
    - unfold fr1, add_read. cbn. split; [auto|]. intros [A | [A | (cc & A)]]; [exact A | discriminate | discriminate].
    - intros e He. rewrite Eedges in He. apply In_add_edge in He. destruct He as [He | ->]; [left; exact He | right].
      split; [reflexivity | discriminate].
    - exact Eedges.
    - rewrite (sb_memo _ _ B). reflexivity.
    - exact Hfroz.
    - intros o Eold. pose proof (old_lt Hs s F q old fr log _ dis o I Hq FO Eold) as Hlt. split; [exact Hlt|].
      intros Hag.
      destruct (old_ahead Hs s s1 F q old fr log (RdField h f k) dis o (RFld h f) _ I Hq FO Eold I1 Hc1
                  (f_equal (fun g => g (loc_of q)) (sb_memo _ _ B)) Hag eq_refl) as (Hino & Hoko & EW).
      pose proof (mo_obs Hoko q (clos_refl _ _ _ _ _)) as Hdv.
      destruct (N.le_gt_cases (revf sl' f) (m_verified o)) as [Hle | Hgt].
      + left. cbn. f_equal. rewrite <- EW.
        apply (dv_fld Hdv h f sl'); [unfold SInv.trr; rewrite EW; exact Hino | exact Hl' | exact Hle].
      + right. unfold fr1, add_read, rev_max. cbn. lia. }
  split; [apply (SInv_set_frame Hs s1 F q fr fr1 I1 Hq); reflexivity|].
  split; [exact X|]. split.
  { split; [exact (sb_stack _ _ B)|]. split; [intros p _; rewrite (sb_memo _ _ B); reflexivity | exact Hother]. }
  split; [exact FO1 | auto].
Qed.

Lemma step_idfield Hs s F q old fr log h k dis s1 v :
  SInv Hs s F -> In (q, fr) F -> FrameOK Hs s q old fr log (RdIdField h k) dis -> hokq s fr h -> fr_dur fr = 0 ->
  read_idfield h s = (s1, SOk v) ->
  SInv Hs s1 F /\ sext s s1 /\ keepsq s s1 F q /\
  FrameOK Hs s1 q old fr (log ++ [(RIdf h, (v, []))]) (k v) dis.
Proof.
  intros I Hq FO Hh Hdur H. pose proof (si_oinv I) as OI.
  unfold read_idfield in H. apply bind_ok in H. destruct H as (sl' & t & H1 & H).
  destruct (lock_for_read Hs s F q old fr log _ dis h t sl' I Hq FO Hh H1) as (I1 & X & Hl' & Hu' & B & Hrevs & Hd' & Hfroz & Hother).
  pose proof (sext_cur _ _ X) as Hc1.
  apply ret_ok in H. destruct H as [E1 ->]. subst t.
  split; [exact I1|]. split; [exact X|]. split.
  { split; [exact (sb_stack _ _ B)|]. split; [intros p _; rewrite (sb_memo _ _ B); reflexivity | exact Hother]. }
  apply (frame_read Hs s s1 F q old fr fr log (RIdf h) (sl_idv sl', []) (RdIdField h k) _ dis OI X FO).
  - discriminate.
  - intros e Ea. cbn in Ea. injection Ea as Ea. cbn [trace run]. rewrite Ea. auto.
  - unfold lok. cbn [fst snd]. exists sl'. split; [reflexivity|]. split; [exact Hl' | rewrite Hc1; exact Hu'].
  - constructor; [auto | rewrite Hc1; pose proof (fo_le FO); lia | auto | auto].
  - reflexivity.
  - reflexivity.
  - exact Hdur.
  - apply cst_app. exact (cst_sext skind s s1 F log _ OI X (fo_stamp FO)).
  - split; [auto|]. intros [A | [A | (cc & A)]]; [exact A | discriminate | discriminate].
  - intros e He. left. exact He.
  - reflexivity.
  - rewrite (sb_memo _ _ B). reflexivity.
  - exact Hfroz.
  - intros o Eold. pose proof (old_lt Hs s F q old fr log _ dis o I Hq FO Eold) as Hlt. split; [exact Hlt|].
    intros Hag. left.
    destruct (old_ahead Hs s s1 F q old fr log (RdIdField h k) dis o (RIdf h) _ I Hq FO Eold I1 Hc1
                (f_equal (fun g => g (loc_of q)) (sb_memo _ _ B)) Hag eq_refl) as (Hino & Hoko & EW).
    pose proof (mo_obs Hoko q (clos_refl _ _ _ _ _)) as Hdv.
    cbn. f_equal. rewrite <- EW.
    apply (dv_idf Hdv h sl'); [unfold SInv.trr; rewrite EW; exact Hino | exact Hl'].
Qed.

Lemma hokq_same_ids s fr fr1 h : fr_ids fr1 = fr_ids fr -> hokq s fr h -> hokq s fr1 h.
Proof. intros E [A | (id & Hin)]; [left; exact A | right; exists id; rewrite E; exact Hin]. Qed.

Lemma keeps_keepsq s s' F q : keeps s s' F -> keepsq s s' F q.
Proof. intros (A & B & C). split; [exact A|]. split; [exact B|]. intros p frp h0 Hp _ Hh0. exact (C p frp h0 Hp Hh0). Qed.

(* [R] is the last conjunct of [body_ok], which passes through unchanged *)
Lemma run_body_glue Hs s s1 s' F q old fr fr1 fr' xa log log' b dis' (R : Prop) :
  NoDup (flocs F) -> In (q, fr) F -> sext s s1 -> keepsq s s1 F q ->
  SInv Hs s' (set_frame (set_frame F q fr1) q fr') /\ sext s1 s' /\ keepsq s1 s' (set_frame F q fr1) q /\
    FrameOK Hs s' q old fr' ((log ++ [xa]) ++ log') b dis' /\ R ->
  SInv Hs s' (set_frame F q fr') /\ sext s s' /\ keepsq s s' F q /\
    FrameOK Hs s' q old fr' (log ++ xa :: log') b dis' /\ R.
Proof.
  intros HF Hq X1 K1 (I' & X' & K' & FO' & HR). rewrite set_frame_twice in I'. rewrite <- app_assoc in FO'.
  split; [exact I'|]. split; [exact (sext_trans _ _ _ X1 X')|].
  split; [exact (keepsq_trans s s1 s' F q fr fr1 HF Hq K1 K') | auto].
Qed.

(* ---------------------------------------------------------------- a whole body *)
Section Whole.
Variables (L : lower) (Hs : hist) (q : qk) (old : option memo).
Hypothesis HF : fetch_spec L.

Definition body_ok (b : body) : Prop := forall fr log dis K s F s' r,
  SInv Hs s F -> In (q, fr) F -> FrameOK Hs s q old fr log b dis -> cur s < GMAX ->
  (forall c, calls b c -> gk c /\ first_read (prog c)) ->
  (log = [] -> first_read b) ->
  (forall e, agrees e log -> prov idhash e b dis K) -> (forall h, In h K -> hokq s fr h) ->
  run_body skind [] idhash L q b fr s = (s', SOk r) ->
  exists log' dis', SInv Hs s' (set_frame F q (snd r)) /\ sext s s' /\ keepsq s s' F q /\
     FrameOK Hs s' q old (snd r) (log ++ log') (Ret (fst (fst r)) (snd (fst r))) dis' /\
     (forall h, In h (snd (fst r)) -> hokq s' (snd r) h).

Lemma run_ret v hs : body_ok (Ret v hs).
Proof.
  intros fr log dis K s F s' r I Hq FO Hcur Hcalls Hstart HP HK H; cbn [run_body] in H.
  apply ret_ok in H. destruct H as [-> ->]. cbn [fst snd]. exists [], dis.
  split; [apply (SInv_set_frame Hs s F q fr fr I Hq); reflexivity|].
  split; [apply sext_refl|]. split; [apply keepsq_refl|]. split; [rewrite app_nil_r; exact FO|].
  intros h Hh. apply HK.
  pose proof (HP _ (senv_agrees s fr log (fo_logged FO) (fo_idents FO))) as Hp.
  cbn [prov] in Hp. exact (Hp h Hh).
Qed.

Lemma run_rdin i k : (forall v, body_ok (k v)) -> body_ok (RdIn i k).
Proof.
  intros IH fr log dis K s F s' r I Hq FO Hcur Hcalls Hstart HP HK H; cbn [run_body] in H.
  apply bind_ok in H. destruct H as (x & t & H1 & H). apply get_ok in H1. destruct H1 as [-> ->].
  destruct (step_rdin Hs s F q old fr log i k dis I Hq FO) as [I1 FO1].
  set (fr1 := add_read fr (EIn i) (f_dur (d_in s i)) (f_changed (d_in s i))) in *.
  pose proof (si_oinv I) as OI.
  destruct (IH (f_val (d_in s i)) fr1 _ dis K s _ s' r I1 (in_set_frame_self F q fr fr1 (oi_frames _ _ _ OI) Hq) FO1 Hcur) as (log' & dis' & R').
  - intros c0 Hc0. apply Hcalls. eapply calls_in_rdin. exact Hc0.
  - intros E. destruct (app_cons_not_nil _ _ _ (eq_sym E)).
  - intros e Hag. apply agrees_app in Hag. destruct Hag as [Hag1 Hag2].
    specialize (HP e Hag1). cbn [prov] in HP. specialize (Hag2 _ _ (or_introl eq_refl)). cbn in Hag2. injection Hag2 as Hag2.
    rewrite Hag2 in HP. exact HP.
  - intros h0 Hh0. apply (hokq_same_ids s fr fr1 h0 eq_refl). exact (HK h0 Hh0).
  - exact H.
  - exists ((RIn i, (f_val (d_in s i), [])) :: log'), dis'.
    exact (run_body_glue Hs s s s' F q old fr fr1 _ _ log log' _ dis' _ (oi_frames _ _ _ OI) Hq (sext_refl s) (keepsq_refl s F q) R').
Qed.

Lemma run_call c k : (forall r, body_ok (k r)) -> body_ok (CallQ c k).
Proof.
  intros IH fr log dis K s F s' r I Hq FO Hcur Hcalls Hstart HP HK H; cbn [run_body] in H.
  apply bind_ok in H. destruct H as ([[a d] ch] & s1 & H1 & H).
  destruct (Hcalls c (calls_here c k)) as [Hgc Hfc].
  destruct (step_call L Hs s F q old fr log c k dis s1 a d ch HF I Hq FO Hgc Hfc Hcur H1) as (I1 & X1 & K1 & FO1 & HKa).
  set (fr1 := add_read fr (EQ c) d ch) in *.
  pose proof (si_oinv I) as OI.
  pose proof (sext_cur _ _ X1) as Hc1.
  destruct (IH a fr1 _ dis (snd a ++ K) s1 _ s' r I1 (in_set_frame_self F q fr fr1 (oi_frames _ _ _ OI) Hq) FO1) as (log' & dis' & R').
  - rewrite Hc1. exact Hcur.
  - intros c0 Hc0. apply Hcalls. eapply calls_in_call. exact Hc0.
  - intros E. destruct (app_cons_not_nil _ _ _ (eq_sym E)).
  - intros e Hag. apply agrees_app in Hag. destruct Hag as [Hag1 Hag2].
    specialize (HP e Hag1). cbn [prov] in HP. specialize (Hag2 _ _ (or_introl eq_refl)). cbn in Hag2.
    rewrite Hag2 in HP. exact HP.
  - intros h0 Hh0. apply in_app_or in Hh0. destruct Hh0 as [Hh0 | Hh0]; [exact (HKa h0 Hh0)|].
    apply (hokq_sext s s1 fr fr1 h0 X1); [auto | exact (HK h0 Hh0)].
  - exact H.
  - exists ((RQ c, a) :: log'), dis'.
    exact (run_body_glue Hs s s1 s' F q old fr fr1 _ _ log log' _ dis' _ (oi_frames _ _ _ OI) Hq X1 (keeps_keepsq s s1 F q K1) R').
Qed.

Lemma run_cell c k : (forall v, body_ok (k v)) -> body_ok (RdCell c k).
Proof.
  intros IH fr log dis K s F s' r I Hq FO Hcur Hcalls Hstart HP HK H; cbn [run_body] in H.
  apply bind_ok in H. destruct H as (x & t & H1 & H). apply get_ok in H1. destruct H1 as [-> ->].
  destruct (step_untracked Hs s F q old fr log (RCell c) (d_cell s c, []) (RdCell c k) (k (d_cell s c)) dis I Hq FO) as [I1 FO1].
  { right. exists c. reflexivity. }
  { discriminate. }
  { intros c0 E. injection E as <-. reflexivity. }
  { intros e Ea. cbn in Ea. injection Ea as Ea. cbn [trace run]. rewrite Ea. auto. }
  set (fr1 := add_untracked fr (cur s)) in *.
  pose proof (si_oinv I) as OI.
  destruct (IH (d_cell s c) fr1 _ dis K s _ s' r I1 (in_set_frame_self F q fr fr1 (oi_frames _ _ _ OI) Hq) FO1 Hcur) as (log' & dis' & R').
  - intros c0 Hc0. apply Hcalls. eapply calls_in_cell. exact Hc0.
  - intros E. destruct (app_cons_not_nil _ _ _ (eq_sym E)).
  - intros e Hag. apply agrees_app in Hag. destruct Hag as [Hag1 Hag2].
    specialize (HP e Hag1). cbn [prov] in HP. specialize (Hag2 _ _ (or_introl eq_refl)). cbn in Hag2. injection Hag2 as Hag2.
    rewrite Hag2 in HP. exact HP.
  - intros h0 Hh0. apply (hokq_same_ids s fr fr1 h0 eq_refl). exact (HK h0 Hh0).
  - exact H.
  - exists ((RCell c, (d_cell s c, [])) :: log'), dis'.
    exact (run_body_glue Hs s s s' F q old fr fr1 _ _ log log' _ dis' _ (oi_frames _ _ _ OI) Hq (sext_refl s) (keepsq_refl s F q) R').
Qed.

Lemma run_touch k : body_ok k -> body_ok (Touch k).
Proof.
  intros IH fr log dis K s F s' r I Hq FO Hcur Hcalls Hstart HP HK H; cbn [run_body] in H.
  apply bind_ok in H. destruct H as (x & t & H1 & H). apply get_ok in H1. destruct H1 as [-> ->].
  destruct (step_untracked Hs s F q old fr log RTouch (0, []) (Touch k) k dis I Hq FO) as [I1 FO1].
  { left. reflexivity. }
  { reflexivity. }
  { intros c0 E. discriminate. }
  { intros e _. cbn [trace run]. auto. }
  set (fr1 := add_untracked fr (cur s)) in *.
  pose proof (si_oinv I) as OI.
  destruct (IH fr1 _ dis K s _ s' r I1 (in_set_frame_self F q fr fr1 (oi_frames _ _ _ OI) Hq) FO1 Hcur) as (log' & dis' & R').
  - intros c0 Hc0. apply Hcalls. eapply calls_in_touch. exact Hc0.
  - intros E. destruct (app_cons_not_nil _ _ _ (eq_sym E)).
  - intros e Hag. apply agrees_app in Hag. destruct Hag as [Hag1 _]. specialize (HP e Hag1). exact HP.
  - intros h0 Hh0. apply (hokq_same_ids s fr fr1 h0 eq_refl). exact (HK h0 Hh0).
  - exact H.
  - exists ((RTouch, (0, [])) :: log'), dis'.
    exact (run_body_glue Hs s s s' F q old fr fr1 _ _ log log' _ dis' _ (oi_frames _ _ _ OI) Hq (sext_refl s) (keepsq_refl s F q) R').
Qed.

Lemma run_new idv f0 f1 k : (forall h, body_ok (k h)) -> body_ok (NewStruct idv f0 f1 k).
Proof.
  intros IH fr log dis K s F s' r I Hq FO Hcur Hcalls Hstart HP HK H; cbn [run_body] in H.
  apply bind_ok in H. destruct H as ([hn fr1] & s1 & H1 & H). cbn [fst snd] in H.
  assert (Hlne : log <> []).
  { intros E. exact (Hstart E). }
  pose proof (si_oinv I) as OI.
  destruct (new_struct_sinv prog skind idhash rank Hrank NF Hbound Hprov Hgk Hnk Hs s F q old fr log idv f0 f1 k dis (l_fuel L) s1 hn fr1
              I Hq FO Hlne (gens_of_cur Hs s F I Hcur) H1) as (I1 & X1 & FO1 & Hm1 & Hst1 & Hfz1).
  pose proof (sext_cur _ _ X1) as Hc1.
  destruct (IH hn fr1 _ (cnt_bump dis (idhash idv)) (hn :: K) s1 _ s' r I1 (in_set_frame_self F q fr fr1 (oi_frames _ _ _ OI) Hq) FO1) as (log' & dis' & R').
  - rewrite Hc1. exact Hcur.
  - intros c0 Hc0. apply Hcalls. eapply calls_in_new. exact Hc0.
  - intros E. destruct (app_cons_not_nil _ _ _ (eq_sym E)).
  - intros e Hag. apply agrees_app in Hag. destruct Hag as [Hag1 Hag2].
    specialize (HP e Hag1). cbn [prov] in HP. specialize (Hag2 _ _ (or_introl eq_refl)). cbn in Hag2. injection Hag2 as Hag2.
    rewrite Hag2 in HP. exact HP.
  - intros h0 [<- | Hh0].
    + right. exists (nident idhash dis idv).
      apply (fo_active FO1). exists idv, f0, f1. apply in_or_app. right. left. reflexivity.
    + apply (hokq_sext s s1 fr fr1 h0 X1); [|exact (HK h0 Hh0)].
      intros id0 h1 Hin. apply (fo_active FO1).
      apply (fo_active FO) in Hin. destruct Hin as (u & v & w & Hin).
      exists u, v, w. apply in_or_app. left. exact Hin.
  - exact H.
  - exists ((RNew (nident idhash dis idv) idv f0 f1, (0, [hn])) :: log'), dis'.
    apply (run_body_glue Hs s s1 s' F q old fr fr1 _ _ log log' _ dis' _ (oi_frames _ _ _ OI) Hq X1); [|exact R'].
    split; [exact Hst1|]. split; [intros p _; rewrite Hm1; reflexivity | exact Hfz1].
Qed.

Lemma run_field h f k : (forall v, body_ok (k v)) -> body_ok (RdField h f k).
Proof.
  intros IH fr log dis K s F s' r I Hq FO Hcur Hcalls Hstart HP HK H; cbn [run_body] in H.
  apply bind_ok in H. destruct H as ([v fr1] & s1 & H1 & H). cbn [fst snd] in H.
  assert (HhK : hokq s fr h).
  { apply HK.
    pose proof (HP _ (senv_agrees s fr log (fo_logged FO) (fo_idents FO))) as Hp.
    cbn [prov] in Hp. exact (proj1 Hp). }
  pose proof (si_oinv I) as OI.
  destruct (step_field Hs s F q old fr log h f k dis s1 v fr1 I Hq FO HhK H1) as (I1 & X1 & K1 & FO1 & Hids1).
  pose proof (sext_cur _ _ X1) as Hc1.
  destruct (IH v fr1 _ dis K s1 _ s' r I1 (in_set_frame_self F q fr fr1 (oi_frames _ _ _ OI) Hq) FO1) as (log' & dis' & R').
  - rewrite Hc1. exact Hcur.
  - intros c0 Hc0. apply Hcalls. eapply calls_in_field. exact Hc0.
  - intros E. destruct (app_cons_not_nil _ _ _ (eq_sym E)).
  - intros e Hag. apply agrees_app in Hag. destruct Hag as [Hag1 Hag2].
    specialize (HP e Hag1). cbn [prov] in HP. destruct HP as [_ HP].
    specialize (Hag2 _ _ (or_introl eq_refl)). cbn in Hag2. injection Hag2 as Hag2.
    rewrite Hag2 in HP. exact HP.
  - intros h0 Hh0. apply (hokq_sext s s1 fr fr1 h0 X1 Hids1). exact (HK h0 Hh0).
  - exact H.
  - exists ((RFld h f, (v, [])) :: log'), dis'.
    exact (run_body_glue Hs s s1 s' F q old fr fr1 _ _ log log' _ dis' _ (oi_frames _ _ _ OI) Hq X1 K1 R').
Qed.

Lemma run_idfield h k : (forall v, body_ok (k v)) -> body_ok (RdIdField h k).
Proof.
  intros IH fr log dis K s F s' r I Hq FO Hcur Hcalls Hstart HP HK H; cbn [run_body] in H.
  apply bind_ok in H. destruct H as (v & s1 & H1 & H).
  assert (HhK : hokq s fr h).
  { apply HK.
    pose proof (HP _ (senv_agrees s fr log (fo_logged FO) (fo_idents FO))) as Hp.
    cbn [prov] in Hp. exact (proj1 Hp). }
  assert (Hlne : log <> []).
  { intros E. exact (Hstart E). }
  destruct (step_idfield Hs s F q old fr log h k dis s1 v I Hq FO HhK (fo_low FO Hlne) H1) as (I1 & X1 & K1 & FO1).
  pose proof (sext_cur _ _ X1) as Hc1.
  destruct (IH v fr _ dis K s1 F s' r I1 Hq FO1) as (log' & dis' & I' & X' & K' & FO' & HK').
  - rewrite Hc1. exact Hcur.
  - intros c0 Hc0. apply Hcalls. eapply calls_in_idfield. exact Hc0.
  - intros E. destruct (app_cons_not_nil _ _ _ (eq_sym E)).
  - intros e Hag. apply agrees_app in Hag. destruct Hag as [Hag1 Hag2].
    specialize (HP e Hag1). cbn [prov] in HP. destruct HP as [_ HP].
    specialize (Hag2 _ _ (or_introl eq_refl)). cbn in Hag2. injection Hag2 as Hag2.
    rewrite Hag2 in HP. exact HP.
  - intros h0 Hh0. apply (hokq_sext s s1 fr fr h0 X1); [auto | exact (HK h0 Hh0)].
  - exact H.
  - exists ((RIdf h, (v, [])) :: log'), dis'.
    split; [exact I'|]. split; [exact (sext_trans _ _ _ X1 X')|]. split.
    { destruct K1 as (A1 & B1 & C1), K' as (A2 & B2 & C2). split; [congruence|]. split.
      - intros p Hp. rewrite (B2 p) by (rewrite A1; exact Hp). exact (B1 p Hp).
      - intros p frp h0 Hp Hne Hh0. rewrite (C2 p frp h0 Hp Hne Hh0). exact (C1 p frp h0 Hp Hne Hh0). }
    split; [|exact HK']. rewrite <- app_assoc in FO'. exact FO'.
Qed.

End Whole.

Theorem run_body_ok L Hs q old : fetch_spec L -> forall b, nospec b -> body_ok L Hs q old b.
Proof.
  intros HF b Hb.
  induction Hb as [v hs | i k Hk IH | c k Hk IH | c k Hk IH | k Hk IH | idv f0 f1 k Hk IH | h f k Hk IH | h k Hk IH].
  - apply run_ret.
  - apply run_rdin. exact IH.
  - apply run_call; [exact HF | exact IH].
  - apply run_cell. exact IH.
  - apply run_touch. exact IH.
  - apply run_new. exact IH.
  - apply run_field. exact IH.
  - apply run_idfield. exact IH.
Qed.

End Run.
