(* Structs/SimExamples.v — DSL programs are well-formed bodies; a handle-safe history with
   conditional creation, deletion (cascading into a memo keyed by the struct), re-creation in the
   reused slot (next generation) and a dependent that must re-execute. *)
From Salsa Require Import Base.
From Salsa.Structs Require Import Model Dsl Machine Guard Sim Examples.

(* every `specify` of the expression names a struct-keyed family *)
Fixpoint swf (skind : N -> bool) (e : expr) : bool :=
  match e with
  | ELit _ | EInp _ _ | ECell _ | ETouch | EField _ _ | EIdField _ | ECallS _ _ | ERetH _ => true
  | ECall _ k => swf skind k
  | EOp _ a b => swf skind a && swf skind b
  | EIf c a b => swf skind c && swf skind a && swf skind b
  | ELet _ h bd els => hswf skind h && swf skind bd && swf skind els
  | ESpecify fam _ v => skind fam && swf skind v
  end
with hswf (skind : N -> bool) (h : hexpr) : bool :=
  match h with
  | HNew a b c => swf skind a && swf skind b && swf skind c
  | HNth _ k _ => swf skind k
  | HNthS _ _ _ | HSelf | HVar _ => true
  end.

Scheme expr_mut := Induction for expr Sort Prop
  with hexpr_mut := Induction for hexpr Sort Prop.
Combined Scheme expr_hexpr_ind from expr_mut, hexpr_mut.

Section CompWf.
Variable skind : N -> bool.
Variable nk : N.
Variable self : option handle.

Lemma comp_bwf_both :
  (forall e, swf skind e = true -> forall env acc k, (forall v a, bwf skind (k v a)) ->
             bwf skind (comp nk self e env acc k)) /\
  (forall h, hswf skind h = true -> forall env acc k, (forall oh a, bwf skind (k oh a)) ->
             bwf skind (comph nk self h env acc k)).
Proof.
  apply expr_hexpr_ind; cbn [swf hswf comp comph].
  - (* ELit *) intros v _ env acc k Hk. apply Hk.
  - (* EInp *) intros i f _ env acc k Hk. constructor. intros v. apply Hk.
  - (* ECall *) intros fam ke IH H env acc k Hk. apply IH; [exact H|]. intros v a. constructor. intros r. apply Hk.
  - (* ECell *) intros c _ env acc k Hk. constructor. intros v. apply Hk.
  - (* ETouch *) intros _ env acc k Hk. constructor. apply Hk.
  - (* EOp *) intros o a IHa b IHb H env acc k Hk. apply andb_true_iff in H. destruct H as [Ha Hb].
    apply IHa; [exact Ha|]. intros va a1. apply IHb; [exact Hb|]. intros vb a2. apply Hk.
  - (* EIf *) intros c IHc a IHa b IHb H env acc k Hk. apply andb_true_iff in H. destruct H as [H Hb].
    apply andb_true_iff in H. destruct H as [Hc Ha].
    apply IHc; [exact Hc|]. intros vc a1. destruct (vc =? 0); [apply IHb | apply IHa]; auto.
  - (* ELet *) intros x h IHh bd IHbd els IHels H env acc k Hk. apply andb_true_iff in H. destruct H as [H He].
    apply andb_true_iff in H. destruct H as [Hh Hb].
    apply IHh; [exact Hh|]. intros [hd|] a1; [apply IHbd | apply IHels]; auto.
  - (* EField *) intros x f _ env acc k Hk. destruct (env_get env x); [constructor; intros v|]; apply Hk.
  - (* EIdField *) intros x _ env acc k Hk. destruct (env_get env x); [constructor; intros v|]; apply Hk.
  - (* ECallS *) intros fam x _ env acc k Hk. destruct (env_get env x); [constructor; intros v|]; apply Hk.
  - (* ESpecify *) intros fam x v IHv H env acc k Hk. apply andb_true_iff in H. destruct H as [Hf Hv].
    apply IHv; [exact Hv|]. intros vv a1. destruct (env_get env x); [constructor; [exact Hf|]|]; apply Hk.
  - (* ERetH *) intros x _ env acc k Hk. destruct (env_get env x); apply Hk.
  - (* HNew *) intros a IHa b IHb c IHc H env acc k Hk. apply andb_true_iff in H. destruct H as [H Hc].
    apply andb_true_iff in H. destruct H as [Ha Hb].
    apply IHa; [exact Ha|]. intros va a1. apply IHb; [exact Hb|]. intros vb a2. apply IHc; [exact Hc|].
    intros vc a3. constructor. intros hd. apply Hk.
  - (* HNth *) intros fam ke IH i H env acc k Hk. apply IH; [exact H|]. intros kv a1. constructor. intros r. apply Hk.
  - (* HNthS *) intros fam x i _ env acc k Hk. destruct (env_get env x); [constructor; intros r|]; apply Hk.
  - (* HSelf *) intros _ env acc k Hk. apply Hk.
  - (* HVar *) intros x _ env acc k Hk. apply Hk.
Qed.

Lemma compile_bwf e : swf skind e = true -> bwf skind (compile nk self e).
Proof. intros H. unfold compile. apply (proj1 comp_bwf_both e H). intros v a. constructor. Qed.
End CompWf.

Lemma lookup_node_swf skind tbl : forallb (fun ne => swf skind (snd ne)) tbl = true ->
  forall q, swf skind (lookup_node tbl q) = true.
Proof.
  induction tbl as [|[q' e] tbl IH]; intros H q; cbn [lookup_node]; [reflexivity|].
  cbn [forallb snd] in H. apply andb_true_iff in H. destruct H as [He Ht].
  destruct (key_eqb q' q); [exact He | exact (IH Ht q)].
Qed.

Theorem prog_of_bwf nk skind tbl :
  forallb (fun ne => swf skind (snd ne)) tbl = true -> forall q, bwf skind (prog_of nk skind tbl q).
Proof.
  intros H q. unfold prog_of. destruct (skind (fst q)).
  - constructor. intros idv. apply compile_bwf. apply lookup_node_swf. exact H.
  - apply compile_bwf. apply lookup_node_swf. exact H.
Qed.

(* ---- the history ----
   mk  = (1,0): if in(0,0) then S := new(id = in(0,1), f0 = in(0,2), f1 = 0); return [S]
   onS = (2,_): keyed by a struct: field 0 of the key + 1
   rd  = (4,0): S := first struct of mk(0) ; field0(S) + onS(S)   (99 when mk created nothing) *)
Definition rc_nodes : list ((N * N) * expr) :=
  [((1, 0), EIf (EInp 0 0) (ELet 2 (HNew (EInp 0 1) (EInp 0 2) (ELit 0)) (ERetH 2) (ELit 0)) (ELit 0));
   ((2, 0), ELet 0 HSelf (EOp BAdd (EField 0 0) (ELit 1)) (ELit 0));
   ((4, 0), ELet 2 (HNth 1 (ELit 0) 0) (EOp BAdd (EField 2 0) (ECallS 2 2)) (ELit 99))].
Definition rc_ival : list ((N * N) * N) := [((0, 0), 1); ((0, 1), 0); ((0, 2), 3)].
Definition rc_idur : list ((N * N) * N) := [].
Definition rc_ops : list op :=
  [OGet (4, (0, 0)); OEntries; OSet (0, 0) 0 None; OGet (4, (0, 0)); OEntries;
   OSet (0, 2) 5 None; OSet (0, 0) 1 None; OGet (4, (0, 0)); OGet (1, (0, 0)); OEntries].
Definition rc_nk : N := 1.
Definition rc_idhash (v : val) : N := v.

Notation rc_prog := (prog_of rc_nk skind5 rc_nodes).
Notation rc_init := (init (lookup3 rc_ival) (lookup3 rc_idur)).

Example rc_bwf : forall q, bwf skind5 (rc_prog q).
Proof. apply prog_of_bwf. vm_compute. reflexivity. Qed.

Example rc_handle_safe : handle_safe rc_prog skind5 sfams5 rc_idhash 40%nat rc_init rc_ops = true.
Proof. vm_compute. reflexivity. Qed.

(* the struct is created at (0,0), deleted, and re-created in the reused slot as (0,1); the
   dependent rd re-executes each time: 3 + 4, 99, 5 + 6 *)
Example rc_outputs :
  snd (run_case rc_nodes rc_ival rc_idur rc_ops rc_nk rc_idhash) =
  [SOk (7, []); SOk (1, []); SOk (0, []); SOk (99, []); SOk (0, []);
   SOk (0, []); SOk (0, []); SOk (11, []); SOk (0, [(0, 1)]); SOk (1, [])].
Proof. vm_compute. reflexivity. Qed.

Example rc_invariant :
  OInv skind5 (fst (run_case rc_nodes rc_ival rc_idur rc_ops rc_nk rc_idhash)) [] /\
  d_stack (fst (run_case rc_nodes rc_ival rc_idur rc_ops rc_nk rc_idhash)) = [].
Proof.
  destruct (model_invariant_every_op rc_prog skind5 sfams5 rc_idhash sfams5_skind rc_bwf 40%nat
              (lookup3 rc_ival) (lookup3 rc_idur) rc_ops rc_handle_safe rc_ops [] (eq_sym (app_nil_r _)))
    as (_ & I & E).
  exact (conj I E).
Qed.
