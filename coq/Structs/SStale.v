(* Structs/SStale.v — the dependents property of C07 for the executable model (programs without
   `specify` and without struct-keyed functions): deep
   verification never validates a memo through a dependency edge on a stale id.  If the walk over
   the recorded edges of a memo answers "unchanged", every tracked-field edge of the memo is on
   the CURRENT id of a LIVE slot; so for a field edge on an id whose slot was deleted or reused
   the walk answers "changed" — and it does so at an EARLIER edge: the check of the field edge
   itself (field_mca ignores the generation) may well answer "unchanged" (S1b.r3_stale_check_answers_unchanged). *)
From Salsa Require Import Base.
From Salsa.Kern Require Import CoreK CoreKFacts.
From Salsa.Structs Require Import Model ProofsBase ProofsCascade Machine ProofsInv ProofsStep Theorems Guard SimBase SimOps Sim
     SSem SInv SSlots SFrame SNewInv SRun SExec SVerify.

Section Stale.
Variable prog : qk -> body.
Variable skind : N -> bool.
Variable idhash : val -> N.
Variable rank : qk -> nat.
Hypothesis Hrank : calls_below prog rank.
Variable NF : nat.
Hypothesis Hbound : forall q, (rank q < NF)%nat.
Hypothesis Hprov : no_forge idhash prog.
Hypothesis Hgk : forall q d, calls (prog q) d -> gk d.
Hypothesis Hnk : forall f, skind f = false.
Hypothesis Hfirst : forall q d, calls (prog q) d -> first_read (prog d).
Hypothesis Hns : forall q, nospec (prog q).

Notation SInv := (SInv prog skind idhash NF).

Theorem unchanged_walk_live_fields n Hs q m s F s' b :
  SInv Hs s F -> gk q -> d_memo s (loc_of q) = Some m -> m_verified m < cur s -> In q (d_stack s) ->
  ~ active_loc F (loc_of q) -> cur s < GMAX ->
  walk_edges skind (level prog skind [] idhash n) q (m_edges m) (m_verified m) s = (s', SOk b) ->
  SInv Hs s' F /\ d_memo s' (loc_of q) = Some m /\
  (b = false -> forall h f, In (EFld h f) (m_edges m) -> live s' h).
Proof.
  intros I Hg Hm Hv Hst Hna Hcur H.
  destruct (level_ok prog skind idhash rank Hrank NF Hbound Hprov Hgk Hnk Hfirst Hns n) as [_ HM].
  destruct (walk_ok prog skind idhash rank Hrank NF Hbound Hprov Hgk Hfirst _ Hs q m HM (m_edges m) [] s F s' b
              I Hg Hm Hv Hst Hna Hcur eq_refl (fun e (He : In e []) => match He with end) H) as (I' & X & (A & B & C) & Hf).
  assert (Hm' : d_memo s' (loc_of q) = Some m) by (rewrite (B q Hst); exact Hm).
  split; [exact I'|]. split; [exact Hm'|].
  intros -> h f Hin. specialize (Hf eq_refl (EFld h f) Hin). cbn [efact] in Hf.
  destruct Hf as [(id & Hid) | (l & mA & id & sl & _ & _ & _ & Hl & _)].
  - pose proof (memo_ok_of I' Hg Hm') as Hok.
    destruct (mo_own Hok Hna id h Hid) as (sl & Hl & _). exact (live_h_live s' h sl Hl).
  - exact (live_h_live s' h sl Hl).
Qed.

(* contrapositive: a dependent holding a field edge on an id that is no longer live is not validated *)
Corollary stale_field_edge_changed n Hs q m s F s' b h f :
  SInv Hs s F -> gk q -> d_memo s (loc_of q) = Some m -> m_verified m < cur s -> In q (d_stack s) ->
  ~ active_loc F (loc_of q) -> cur s < GMAX ->
  walk_edges skind (level prog skind [] idhash n) q (m_edges m) (m_verified m) s = (s', SOk b) ->
  In (EFld h f) (m_edges m) -> ~ live s' h -> b = true.
Proof.
  intros I Hg Hm Hv Hst Hna Hcur H Hin Hnl.
  destruct (unchanged_walk_live_fields n Hs q m s F s' b I Hg Hm Hv Hst Hna Hcur H) as (_ & _ & Hf).
  destruct b; [reflexivity|]. exfalso. exact (Hnl (Hf eq_refl h f Hin)).
Qed.

End Stale.
