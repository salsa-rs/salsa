(* Structs/SParamK.v — Kripke (world-indexed) parametricity of bodies in handles: the relation on
   handles may grow while the body runs (new structs are created, callees return new handles).
   Needed to compare the model with the operational from-scratch evaluator of Structs/Spec.v,
   whose handle table grows during one evaluation.  Every DSL program is parametric. *)
From Coq Require Import Arith.
From Salsa Require Import Base.
From Salsa.Structs Require Import Model Dsl Machine SimExamples SSem SInv SRun SDsl.

Section RelK.
Variable R : nat -> handle -> handle -> Prop.
Hypothesis Rmono : forall m m' h h', (m <= m')%nat -> R m h h' -> R m' h h'.

Definition rrelK (m : nat) (r r' : rval) : Prop := fst r = fst r' /\ Forall2 (R m) (snd r) (snd r').

Inductive brelK : nat -> body -> body -> Prop :=
| bk_ret m v hs hs' : Forall2 (R m) hs hs' -> brelK m (Ret v hs) (Ret v hs')
| bk_in m i k k' : (forall v, brelK m (k v) (k' v)) -> brelK m (RdIn i k) (RdIn i k')
| bk_call m c k k' : (forall m' r r', (m <= m')%nat -> rrelK m' r r' -> brelK m' (k r) (k' r')) ->
                     brelK m (CallQ c k) (CallQ c k')
| bk_cell m c k k' : (forall v, brelK m (k v) (k' v)) -> brelK m (RdCell c k) (RdCell c k')
| bk_touch m k k' : brelK m k k' -> brelK m (Touch k) (Touch k')
| bk_new m idv f0 f1 k k' : (forall m' h h', (m <= m')%nat -> R m' h h' -> brelK m' (k h) (k' h')) ->
                            brelK m (NewStruct idv f0 f1 k) (NewStruct idv f0 f1 k')
| bk_fld m h h' f k k' : R m h h' -> (forall v, brelK m (k v) (k' v)) -> brelK m (RdField h f k) (RdField h' f k')
| bk_idf m h h' k k' : R m h h' -> (forall v, brelK m (k v) (k' v)) -> brelK m (RdIdField h k) (RdIdField h' k').

Lemma forall2_mono m m' (l l' : list handle) : (m <= m')%nat -> Forall2 (R m) l l' -> Forall2 (R m') l l'.
Proof. intros Hle H. induction H; constructor; eauto. Qed.

Lemma brelK_mono m b b' : brelK m b b' -> forall m', (m <= m')%nat -> brelK m' b b'.
Proof.
  intros H. induction H as [m v hs hs' Hhs | m i k k' Hk IHk | m c k k' Hk IHk | m c k k' Hk IHk | m k k' Hk IHk
                            | m idv f0 f1 k k' Hk IHk | m h h' f k k' Hh Hk IHk | m h h' k k' Hh Hk IHk]; intros m1 Hle.
  - constructor. exact (forall2_mono m m1 _ _ Hle Hhs).
  - constructor. intros v. exact (IHk v m1 Hle).
  - constructor. intros m2 r r' Hle2 Hr. apply Hk; [lia | exact Hr].
  - constructor. intros v. exact (IHk v m1 Hle).
  - constructor. exact (IHk m1 Hle).
  - constructor. intros m2 h h' Hle2 Hh. apply Hk; [lia | exact Hh].
  - constructor; [exact (Rmono m m1 h h' Hle Hh) | intros v; exact (IHk v m1 Hle)].
  - constructor; [exact (Rmono m m1 h h' Hle Hh) | intros v; exact (IHk v m1 Hle)].
Qed.

(* ---- the DSL ---- *)
Variable nk : N.

Definition envrelK (m : nat) (env env' : list (N * handle)) : Prop :=
  forall x, match env_get env x, env_get env' x with
            | Some h, Some h' => R m h h'
            | None, None => True
            | _, _ => False
            end.
Definition orelK (m : nat) (o o' : option handle) : Prop :=
  match o, o' with Some h, Some h' => R m h h' | None, None => True | _, _ => False end.

Lemma envrelK_mono m m' env env' : (m <= m')%nat -> envrelK m env env' -> envrelK m' env env'.
Proof.
  intros Hle H x. specialize (H x). destruct (env_get env x), (env_get env' x); auto. exact (Rmono m m' _ _ Hle H).
Qed.

Lemma envrelK_cons m env env' x h h' : envrelK m env env' -> R m h h' -> envrelK m ((x, h) :: env) ((x, h') :: env').
Proof. intros H Hh y. cbn [env_get]. destruct (x =? y); [exact Hh | apply H]. Qed.

Lemma forall2K_snoc m (a a' : list handle) h h' : Forall2 (R m) a a' -> R m h h' -> Forall2 (R m) (a ++ [h]) (a' ++ [h']).
Proof. intros H Hh. apply Forall2_app; [exact H | constructor; [exact Hh | constructor]]. Qed.

Lemma forall2K_nth m (l l' : list handle) i : Forall2 (R m) l l' -> orelK m (nth_error l i) (nth_error l' i).
Proof. intros H. revert i. induction H as [|a b l l' Hab H IH]; intros [|i]; cbn; auto. Qed.

Lemma compK_both :
  (forall e, s1wf e = true -> forall m env env' acc acc' k k', envrelK m env env' -> Forall2 (R m) acc acc' ->
             (forall m' v a a', (m <= m')%nat -> Forall2 (R m') a a' -> brelK m' (k v a) (k' v a')) ->
             brelK m (comp nk None e env acc k) (comp nk None e env' acc' k')) /\
  (forall h, hs1wf h = true -> forall m env env' acc acc' k k', envrelK m env env' -> Forall2 (R m) acc acc' ->
             (forall m' o o' a a', (m <= m')%nat -> orelK m' o o' -> Forall2 (R m') a a' -> brelK m' (k o a) (k' o' a')) ->
             brelK m (comph nk None h env acc k) (comph nk None h env' acc' k')).
Proof.
  apply expr_hexpr_ind; cbn [s1wf hs1wf comp comph].
  - (* ELit *) intros v _ m env env' acc acc' k k' He Ha Hk. apply (Hk m); [lia | exact Ha].
  - (* EInp *) intros i f _ m env env' acc acc' k k' He Ha Hk. constructor. intros v. apply (Hk m); [lia | exact Ha].
  - (* ECall *) intros fam ke IH H m env env' acc acc' k k' He Ha Hk. apply IH; [exact H | exact He | exact Ha|].
    intros m1 v a a' L1 Haa. constructor. intros m2 r r' L2 [Hr _]. rewrite Hr. apply Hk; [lia|].
    exact (forall2_mono m1 m2 _ _ L2 Haa).
  - (* ECell *) intros c _ m env env' acc acc' k k' He Ha Hk. constructor. intros v. apply (Hk m); [lia | exact Ha].
  - (* ETouch *) intros _ m env env' acc acc' k k' He Ha Hk. constructor. apply (Hk m); [lia | exact Ha].
  - (* EOp *) intros o a IHa b IHb H m env env' acc acc' k k' He Ha Hk. apply andb_true_iff in H. destruct H as [Hwa Hwb].
    apply IHa; [exact Hwa | exact He | exact Ha|]. intros m1 va a1 a1' L1 H1.
    apply IHb; [exact Hwb | exact (envrelK_mono m m1 _ _ L1 He) | exact H1|]. intros m2 vb a2 a2' L2 H2.
    apply Hk; [lia | exact H2].
  - (* EIf *) intros c IHc a IHa b IHb H m env env' acc acc' k k' He Ha Hk. apply andb_true_iff in H. destruct H as [H Hwb].
    apply andb_true_iff in H. destruct H as [Hwc Hwa].
    apply IHc; [exact Hwc | exact He | exact Ha|]. intros m1 vc a1 a1' L1 H1.
    destruct (vc =? 0); [apply IHb | apply IHa]; auto; try exact (envrelK_mono m m1 _ _ L1 He);
      intros m2 v2 a2 a2' L2 H2; apply Hk; auto; lia.
  - (* ELet *) intros x h IHh bd IHbd els IHels H m env env' acc acc' k k' He Ha Hk. apply andb_true_iff in H. destruct H as [H Hwe].
    apply andb_true_iff in H. destruct H as [Hwh Hwb].
    apply IHh; [exact Hwh | exact He | exact Ha|]. intros m1 [hd|] [hd'|] a1 a1' L1 Ho H1; cbn in Ho; try contradiction.
    + apply IHbd; [exact Hwb | apply envrelK_cons; [exact (envrelK_mono m m1 _ _ L1 He) | exact Ho] | exact H1|].
      intros m2 v2 a2 a2' L2 H2; apply Hk; auto; lia.
    + apply IHels; [exact Hwe | exact (envrelK_mono m m1 _ _ L1 He) | exact H1|].
      intros m2 v2 a2 a2' L2 H2; apply Hk; auto; lia.
  - (* EField *) intros x f _ m env env' acc acc' k k' He Ha Hk. specialize (He x).
    destruct (env_get env x), (env_get env' x); try contradiction.
    + constructor; [exact He|]. intros v. apply (Hk m); [lia | exact Ha].
    + apply (Hk m); [lia | exact Ha].
  - (* EIdField *) intros x _ m env env' acc acc' k k' He Ha Hk. specialize (He x).
    destruct (env_get env x), (env_get env' x); try contradiction.
    + constructor; [exact He|]. intros v. apply (Hk m); [lia | exact Ha].
    + apply (Hk m); [lia | exact Ha].
  - (* ECallS *) intros fam x H. discriminate.
  - (* ESpecify *) intros fam x v IHv H. discriminate.
  - (* ERetH *) intros x _ m env env' acc acc' k k' He Ha Hk. specialize (He x).
    destruct (env_get env x), (env_get env' x); try contradiction; apply (Hk m); try lia;
      [apply forall2K_snoc; assumption | exact Ha].
  - (* HNew *) intros a IHa b IHb c IHc H m env env' acc acc' k k' He Ha Hk. apply andb_true_iff in H. destruct H as [H Hwc].
    apply andb_true_iff in H. destruct H as [Hwa Hwb].
    apply IHa; [exact Hwa | exact He | exact Ha|]. intros m1 va a1 a1' L1 H1.
    apply IHb; [exact Hwb | exact (envrelK_mono m m1 _ _ L1 He) | exact H1|]. intros m2 vb a2 a2' L2 H2.
    apply IHc; [exact Hwc | apply (envrelK_mono m m2); [lia | exact He] | exact H2|]. intros m3 vc a3 a3' L3 H3.
    constructor. intros m4 hd hd' L4 Hh. apply Hk; [lia | exact Hh | exact (forall2_mono m3 m4 _ _ L4 H3)].
  - (* HNth *) intros fam ke IH i H m env env' acc acc' k k' He Ha Hk. apply IH; [exact H | exact He | exact Ha|].
    intros m1 kv a1 a1' L1 H1. constructor. intros m2 r r' L2 [_ Hr].
    apply Hk; [lia | apply forall2K_nth; exact Hr | exact (forall2_mono m1 m2 _ _ L2 H1)].
  - (* HNthS *) intros fam x i H. discriminate.
  - (* HSelf *) intros _ m env env' acc acc' k k' He Ha Hk. apply (Hk m); [lia | exact Logic.I | exact Ha].
  - (* HVar *) intros x _ m env env' acc acc' k k' He Ha Hk. apply (Hk m); [lia | exact (He x) | exact Ha].
Qed.
End RelK.

Definition parametricK (prog : qk -> body) : Prop :=
  forall (R : nat -> handle -> handle -> Prop), (forall m m' h h', (m <= m')%nat -> R m h h' -> R m' h h') ->
  forall m q, brelK R m (prog q) (prog q).

Theorem table_paramK nk tbl : forallb (fun ne => s1wf (snd ne)) tbl = true -> parametricK (prog_of nk skind0 tbl).
Proof.
  intros Hwf R Rmono m q. unfold prog_of, skind0, compile.
  assert (Hw : s1wf (lookup_node tbl (fst q, fst (snd q))) = true).
  { generalize (fst q, fst (snd q)). intros key. induction tbl as [|[q' e] tbl IH]; cbn [lookup_node]; [reflexivity|].
    cbn [forallb snd] in Hwf. apply andb_true_iff in Hwf. destruct Hwf as [A B].
    destruct (key_eqb q' key); [exact A | exact (IH B)]. }
  apply (proj1 (compK_both R Rmono nk) _ Hw); [intros x; exact Logic.I | constructor|].
  intros m' v a a' _ Ha. constructor. exact Ha.
Qed.

(* the relation has no case for `specify`: a parametric body contains none *)
Lemma brelK_nospec m b b' : brelK (fun _ _ _ => True) m b b' -> nospec b.
Proof.
  assert (HT : forall l : list handle, Forall2 (fun _ _ => True) l l) by (induction l; constructor; auto).
  intros H. induction H as [m v hs hs' Hhs | m i k k' Hk IHk | m c k k' Hk IHk | m c k k' Hk IHk | m k k' Hk IHk
                            | m idv f0 f1 k k' Hk IHk | m h h' f k k' Hh Hk IHk | m h h' k k' Hh Hk IHk];
    constructor; auto.
  - intros r. apply (IHk m r r (le_n m)). split; [reflexivity | apply HT].
  - intros h. exact (IHk m h h (le_n m) I).
Qed.

Theorem table_nospec nk tbl : forallb (fun ne => s1wf (snd ne)) tbl = true -> forall q, nospec (prog_of nk skind0 tbl q).
Proof.
  intros Hwf q. exact (brelK_nospec 0%nat _ _ (table_paramK nk tbl Hwf (fun _ _ _ => True) (fun _ _ _ _ _ _ => I) 0%nat q)).
Qed.
