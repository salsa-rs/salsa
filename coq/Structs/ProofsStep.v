(* Structs/ProofsStep.v — every event of the Structs machine preserves the ownership
   invariant OInv (for every identity-hash function, every history). *)
From Salsa Require Import Base.
From Salsa.Kern Require Import CoreK.
From Salsa.Structs Require Import Model ProofsBase ProofsCascade Machine ProofsInv.

(* all database fields except the slots and the event log are equal *)
Record sbs (s s' : db) : Prop := {
  sb_revs : d_revs s' = d_revs s;
  sb_cc : d_ccount s' = d_ccount s;
  sb_in : d_in s' = d_in s;
  sb_cell : d_cell s' = d_cell s;
  sb_memo : d_memo s' = d_memo s;
  sb_nslots : d_nslots s' = d_nslots s;
  sb_free : d_free s' = d_free s;
  sb_stack : d_stack s' = d_stack s;
  sb_cname : d_cname s' = d_cname s;
  sb_ideal : d_ideal s' = d_ideal s
}.

Lemma sbs_refl s : sbs s s.
Proof. constructor; reflexivity. Qed.

Lemma sbs_trans s1 s2 s3 : sbs s1 s2 -> sbs s2 s3 -> sbs s1 s3.
Proof. intros [] []; constructor; congruence. Qed.

Lemma sbs_cur s s' : sbs s s' -> cur s' = cur s.
Proof. intros H. unfold cur. now rewrite (sb_revs _ _ H). Qed.

Lemma sbs_put_slot s i sl : sbs s (set_slots s (updN (d_slots s) i (Some sl))).
Proof. constructor; reflexivity. Qed.

Lemma sbs_log s l : sbs s (set_log s l).
Proof. constructor; reflexivity. Qed.

Lemma casc_sbs s s' : casc s s' [] -> sbs s s'.
Proof.
  intros C. pose proof C as [? ? ? ? ? ? ? ? ? _ _ _ _]. constructor; try assumption.
  rewrite (cs_free _ _ _ C). apply app_nil_r.
Qed.

(* a successful [acquire_read_lock] at index [i]: [sl] is the slot found, [sl'] the slot left there *)
Record lock_facts (i : N) (s s' : db) (sl sl' : slot) : Prop := {
  lk_at : d_slots s i = Some sl;
  lk_live : sl_updated sl <> None;
  lk_now : sl_updated sl' = Some (cur s);
  lk_gen : sl_gen sl' = sl_gen sl;
  lk_memos : forall fam, sl_memos sl' fam = sl_memos sl fam;
  lk_fields : slot_fields sl' = slot_fields sl;
  lk_dur : sl_dur sl' = sl_dur sl;
  lk_rev0 : sl_rev0 sl' = sl_rev0 sl;
  lk_rev1 : sl_rev1 sl' = sl_rev1 sl;
  lk_sbs : sbs s s';
  lk_log : d_log s' = d_log s;
  lk_slots : forall j, d_slots s' j = updN (d_slots s) i (Some sl') j
}.
Arguments lk_at {i s s' sl sl'}.
Arguments lk_live {i s s' sl sl'}.
Arguments lk_now {i s s' sl sl'}.
Arguments lk_gen {i s s' sl sl'}.
Arguments lk_memos {i s s' sl sl'}.
Arguments lk_fields {i s s' sl sl'}.
Arguments lk_dur {i s s' sl sl'}.
Arguments lk_rev0 {i s s' sl sl'}.
Arguments lk_rev1 {i s s' sl sl'}.
Arguments lk_sbs {i s s' sl sl'}.
Arguments lk_log {i s s' sl sl'}.
Arguments lk_slots {i s s' sl sl'}.

Lemma lock_spec i s s' sl' :
  acquire_read_lock i s = (s', SOk sl') -> exists sl, lock_facts i s s' sl sl'.
Proof.
  unfold acquire_read_lock, get_slot, bind, get, put_slot, modify, ret, fail. intros H.
  destruct (d_slots s i) as [sl|] eqn:Hs; [|discriminate].
  destruct (sl_updated sl) as [r|] eqn:Eu; [|discriminate].
  exists sl.
  assert (Hu : sl_updated sl <> None) by (rewrite Eu; discriminate).
  destruct (N.eqb_spec r (cur s)) as [-> | Hne]; injection H as <- <-.
  - (* already locked in this revision: the state is untouched *)
    constructor; auto using sbs_refl.
    intros j. unfold updN. destruct (N.eqb_spec i j) as [<- | E]; [exact Hs | reflexivity].
  - constructor; auto using sbs_put_slot.
Qed.

(* ---- the identity map ---- *)
Definition act (e : tentry) : tentry := {| te_ident := te_ident e; te_id := te_id e; te_active := true |}.
Definition mk_entry (key : ident) (id : handle) (a : bool) : tentry :=
  {| te_ident := key; te_id := id; te_active := a |}.

Definition nomatch (key : ident) (l : list tentry) : Prop :=
  forall x, In x l -> key_eqb (te_ident x) key = false.

Lemma nomatch_tl key x l : nomatch key (x :: l) -> nomatch key l.
Proof. intros H y Hy. apply H. right. exact Hy. Qed.

(* reuse and insert_entry both act on the first entry with the given identity *)
Lemma first_match key l :
  nomatch key l \/
  exists l1 e l2, l = l1 ++ e :: l2 /\ key_eqb (te_ident e) key = true /\ nomatch key l1.
Proof.
  induction l as [|x l IH]; [left; intros y []|].
  destruct (key_eqb (te_ident x) key) eqn:E.
  - right. exists [], x, l. repeat split; auto. intros y [].
  - destruct IH as [Hn | (l1 & e & l2 & -> & Hm & Hn)].
    + left. intros y [<- | Hy]; auto.
    + right. exists (x :: l1), e, l2. repeat split; auto. intros y [<- | Hy]; auto.
Qed.

Lemma reuse_none key l : nomatch key l -> reuse l key = (None, l).
Proof.
  induction l as [|x l IH]; intros Hn; cbn [reuse]; [reflexivity|].
  now rewrite (Hn x (or_introl eq_refl)), (IH (nomatch_tl _ _ _ Hn)).
Qed.

Lemma reuse_at key l1 e l2 :
  key_eqb (te_ident e) key = true -> nomatch key l1 ->
  reuse (l1 ++ e :: l2) key = (Some (te_id e), l1 ++ act e :: l2).
Proof.
  intros He. induction l1 as [|x l1 IH]; intros Hn; cbn [app reuse].
  - now rewrite He.
  - now rewrite (Hn x (or_introl eq_refl)), (IH (nomatch_tl _ _ _ Hn)).
Qed.

Lemma insert_none key id a l : nomatch key l -> insert_entry l key id a = l ++ [mk_entry key id a].
Proof.
  induction l as [|x l IH]; intros Hn; cbn [insert_entry app]; [reflexivity|].
  now rewrite (Hn x (or_introl eq_refl)), (IH (nomatch_tl _ _ _ Hn)).
Qed.

Lemma insert_at key id a l1 e l2 :
  key_eqb (te_ident e) key = true -> nomatch key l1 ->
  insert_entry (l1 ++ e :: l2) key id a = l1 ++ mk_entry key id a :: l2.
Proof.
  intros He. induction l1 as [|x l1 IH]; intros Hn; cbn [app insert_entry].
  - now rewrite He.
  - now rewrite (Hn x (or_introl eq_refl)), (IH (nomatch_tl _ _ _ Hn)).
Qed.

Lemma reuse_spec l key : forall r l', reuse l key = (r, l') ->
  (r = None /\ l' = l /\ nomatch key l) \/
  (exists l1 e l2, l = l1 ++ e :: l2 /\ key_eqb (te_ident e) key = true /\ nomatch key l1 /\
                   r = Some (te_id e) /\ l' = l1 ++ act e :: l2).
Proof.
  intros r l' H. destruct (first_match key l) as [Hn | (l1 & e & l2 & -> & Hm & Hn)].
  - rewrite (reuse_none _ _ Hn) in H. injection H as <- <-. left. auto.
  - rewrite (reuse_at _ _ _ _ Hm Hn) in H. injection H as <- <-. right. exists l1, e, l2. auto.
Qed.

Lemma insert_spec key id a : forall l,
  (nomatch key l /\ insert_entry l key id a = l ++ [mk_entry key id a]) \/
  (exists l1 e l2, l = l1 ++ e :: l2 /\ key_eqb (te_ident e) key = true /\ nomatch key l1 /\
                   insert_entry l key id a = l1 ++ mk_entry key id a :: l2).
Proof.
  intros l. destruct (first_match key l) as [Hn | (l1 & e & l2 & -> & Hm & Hn)].
  - left. split; [exact Hn | exact (insert_none _ _ _ _ Hn)].
  - right. exists l1, e, l2. repeat split; auto. exact (insert_at _ _ _ _ _ _ Hm Hn).
Qed.

Lemma nomatch_split key l1 e l2 l1' e' l2' :
  l1 ++ e :: l2 = l1' ++ e' :: l2' ->
  key_eqb (te_ident e) key = true -> nomatch key l1 ->
  key_eqb (te_ident e') key = true -> nomatch key l1' ->
  l1 = l1' /\ e = e' /\ l2 = l2'.
Proof.
  revert l1'. induction l1 as [|x l1 IH]; intros [|x' l1'] E He Hn He' Hn'; cbn [app] in E.
  - injection E as -> ->. auto.
  - injection E as -> _. rewrite (Hn' x' (or_introl eq_refl)) in He. discriminate.
  - injection E as <- _. rewrite (Hn x (or_introl eq_refl)) in He'. discriminate.
  - injection E as -> E. destruct (IH l1' E He (fun y Hy => Hn y (or_intror Hy)) He' (fun y Hy => Hn' y (or_intror Hy)))
      as (-> & -> & ->). auto.
Qed.

Lemma frame_ids_app l1 e l2 :
  map te_id (l1 ++ e :: l2) = map te_id l1 ++ te_id e :: map te_id l2.
Proof. rewrite map_app. reflexivity. Qed.

Lemma nodup_fst_replace (ids1 ids2 : list handle) (a b : handle) :
  NoDup (map fst (ids1 ++ a :: ids2)) ->
  (fst b = fst a \/ ~ In (fst b) (map fst (ids1 ++ a :: ids2))) ->
  NoDup (map fst (ids1 ++ b :: ids2)).
Proof.
  rewrite !map_app. cbn [map]. intros Hnd Hb.
  assert (H1 := nodup_app_l _ _ Hnd). assert (H2 := nodup_app_r _ _ Hnd).
  apply NoDup_cons_iff in H2. destruct H2 as [Ha H2].
  assert (Hnb : ~ In (fst b) (map fst ids1) /\ ~ In (fst b) (map fst ids2)).
  { destruct Hb as [-> | Hb].
    - split; [|exact Ha]. intros Hin. apply (nodup_app_disj _ _ _ Hnd Hin). left; reflexivity.
    - split; intros Hin; apply Hb; apply in_or_app; [left | right; right]; exact Hin. }
  destruct Hnb as [Hb1 Hb2].
  apply nodup_app; [exact H1 | constructor; [exact Hb2 | exact H2] |].
  intros x Hx [<- | Hx2]; [exact (Hb1 Hx)|].
  apply (nodup_app_disj _ _ _ Hnd Hx). right; exact Hx2.
Qed.

Lemma nodup_fst_append (ids : list handle) (b : handle) :
  NoDup (map fst ids) -> ~ In (fst b) (map fst ids) -> NoDup (map fst (ids ++ [b])).
Proof.
  intros Hnd Hb. rewrite map_app. apply nodup_app; [exact Hnd | cbn; constructor; [intros [] | constructor] |].
  intros x Hx [<- | []]. exact (Hb Hx).
Qed.

(* ---- allocate ---- *)
Lemma pop_free_spec fl : forall h fl', pop_free fl = Some (h, fl') ->
  exists sk g, fl = sk ++ (fst h, g) :: fl' /\ next_gen g = Some (snd h).
Proof.
  induction fl as [|[i g] fl IH]; cbn [pop_free]; intros h fl' H; [discriminate|].
  destruct (next_gen g) as [g'|] eqn:E.
  - injection H as <- <-. exists [], g. auto.
  - destruct (IH h fl' H) as (sk & g0 & -> & Hg). exists ((i, g) :: sk), g0. auto.
Qed.

Lemma allocate_spec st idv f0 f1 s s' h :
  allocate st idv f0 f1 s = (s', SOk h) ->
  let slnew := fresh_slot (snd h) st (cur s) idv f0 f1 in
  (forall j, d_slots s' j = updN (d_slots s) (fst h) (Some slnew) j) /\
  d_revs s' = d_revs s /\ d_memo s' = d_memo s /\ d_ideal s' = d_ideal s /\ d_cname s' = d_cname s /\
  ((exists sk g, d_free s = sk ++ (fst h, g) :: d_free s' /\ next_gen g = Some (snd h) /\
                 d_nslots s' = d_nslots s) \/
   (h = (d_nslots s, 0) /\ d_nslots s' = d_nslots s + 1 /\ d_free s' = [])).
Proof.
  unfold allocate, bind, get, modify, put_slot, ret. intros H.
  destruct (pop_free (d_free s)) as [[h0 fl']|] eqn:Ep; injection H as <- <-; cbn zeta; repeat split; try reflexivity.
  - left. destruct (pop_free_spec _ _ _ Ep) as (sk & g & E & Hg). exists sk, g. auto.
  - right. auto.
Qed.

Lemma allocate_stack st idv f0 f1 s s' h : allocate st idv f0 f1 s = (s', SOk h) -> d_stack s' = d_stack s.
Proof.
  unfold allocate, bind, get, modify, put_slot, ret. intros H.
  destruct (pop_free (d_free s)) as [[h0 fl']|]; injection H as <- _; reflexivity.
Qed.

Section Step.
Variable skind : N -> bool.
Variable sfams : list N.
Variable idhash : val -> N.
Hypothesis sfams_skind : forall fam, In fam sfams -> skind fam = true.

Notation OInv := (OInv skind).
Notation owns := (owns skind).
Notation owner_ids := (owner_ids skind).
Notation peek_memo := (peek_memo skind).

Lemma lock_oinv s F i s' sl' :
  OInv s F -> acquire_read_lock i s = (s', SOk sl') -> OInv s' F.
Proof.
  intros I H. destruct (lock_spec _ _ _ _ H) as [sl Lk].
  pose proof (lk_at Lk) as Hs. pose proof (lk_live Lk) as Hu. pose proof (lk_now Lk) as Hu'.
  pose proof (lk_gen Lk) as Hg. pose proof (lk_memos Lk) as Hm. pose proof (lk_fields Lk) as Hf.
  pose proof (lk_sbs Lk) as B. pose proof (lk_slots Lk) as Es.
  destruct B as [Br _ _ _ Bm Bn Bf _ _ Bi].
  apply (oinv_rewrite skind s F s' i sl sl' I Hs Hu); auto.
  rewrite Hu'. discriminate.
Qed.


(* [upd_slot sl g st now ...] is the slot [update] leaves behind: the new fields, locked at [now],
   with the frame's stamp [st] = (durability, changed_at).  Field 0 keeps its revision when its value
   is unchanged; field 1 is #[no_eq] and always takes the stamp's.  [lower]: the durability drops, and
   then field 0 is stamped anew as well (tracked_struct.rs, "if current_deps.durability < data.durability").
   [keep_memos] is false when the identity changed and [clear_memos] emptied the slot's memo table. *)
Definition upd_slot (sl : slot) (g : N) (st : stamp) (now : rev) (idv f0 f1 : val) (keep_memos : bool) : slot :=
  let rev0' := if sl_f0 sl =? f0 then sl_rev0 sl else snd st in
  let lower := fst st <? sl_dur sl in
  {| sl_gen := g; sl_updated := Some now; sl_dur := fst st; sl_idv := idv; sl_f0 := f0; sl_f1 := f1;
     sl_rev0 := if lower then snd st else rev0'; sl_rev1 := snd st;
     sl_memos := if keep_memos then sl_memos sl else fun _ => None |}.

(* the slot between the two writes of [update]: fields written, [updated_at] still None *)
Definition upd_open (sl : slot) (st : stamp) (idv f0 f1 : val) : slot :=
  {| sl_gen := sl_gen sl; sl_updated := None; sl_dur := sl_dur sl; sl_idv := idv; sl_f0 := f0;
     sl_f1 := f1; sl_rev0 := if sl_f0 sl =? f0 then sl_rev0 sl else snd st; sl_rev1 := snd st;
     sl_memos := sl_memos sl |}.

Inductive upd_result (s : db) (id : handle) (st : stamp) (idv f0 f1 : val) (sl : slot) :
  db -> option handle -> Prop :=
(* already read-locked in this revision: nothing is written, the id is reused as it is *)
| UR_locked : sl_updated sl = Some (cur s) -> upd_result s id st idv f0 f1 sl s (Some id)
(* the generation cannot be advanced: nothing is written, None tells the caller to allocate anew *)
| UR_leak : sl_updated sl <> Some (cur s) -> next_gen (snd id) = None ->
            upd_result s id st idv f0 f1 sl s None
(* same identity value: fields and stamps are overwritten in place, generation and memos stay *)
| UR_same s' : sl_updated sl <> Some (cur s) -> sl_idv sl = idv -> next_gen (snd id) <> None ->
    sbs s s' ->
    (forall j, d_slots s' j = updN (d_slots s) (fst id) (Some (upd_slot sl (sl_gen sl) st (cur s) idv f0 f1 true)) j) ->
    d_log s' = d_log s ->
    upd_result s id st idv f0 f1 sl s' (Some id)
(* the identity hash collided with another identity value: the memos of the slot are discarded by the
   cascade [e] (reaching [s1], never deleting the slot itself), the id comes back with generation [g'] *)
| UR_changed s' g' e s1 : sl_updated sl <> Some (cur s) -> sl_idv sl <> idv -> next_gen (snd id) = Some g' ->
    casc (set_slots s (updN (d_slots s) (fst id) (Some (upd_open sl st idv f0 f1)))) s1 e ->
    ~ In (fst id) (map fst e) ->
    parents sfams (set_slots s (updN (d_slots s) (fst id) (Some (upd_open sl st idv f0 f1))))
            (flat_map (memo_roots sl) sfams) e ->
    sbs s1 s' ->
    (forall j, d_slots s' j = updN (d_slots s1) (fst id) (Some (upd_slot sl g' st (cur s) idv f0 f1 false)) j) ->
    upd_result s id st idv f0 f1 sl s' (Some (fst id, g')).

Lemma update_spec n id st idv f0 f1 s s' r :
  update sfams n id st idv f0 f1 s = (s', SOk r) ->
  exists sl, d_slots s (fst id) = Some sl /\ sl_updated sl <> None /\ upd_result s id st idv f0 f1 sl s' r.
Proof.
  unfold update, get_slot, bind, get, put_slot, modify, ret, fail. intros H.
  destruct (d_slots s (fst id)) as [sl|] eqn:Hs; [|discriminate].
  destruct (sl_updated sl) as [r0|] eqn:Eu; [|discriminate].
  exists sl. split; [reflexivity|]. split; [rewrite Eu; discriminate|].
  destruct (N.eqb_spec r0 (cur s)) as [-> | Hne].
  - injection H as <- <-. apply UR_locked. exact Eu.
  - assert (Hnl : sl_updated sl <> Some (cur s)) by (rewrite Eu; intros E; injection E; auto).
    destruct (next_gen (snd id)) as [g'|] eqn:Eg; [|injection H as <- <-; apply UR_leak; auto].
    destruct (N.eqb_spec (sl_idv sl) idv) as [Ei | Ei]; cbn [negb] in H.
    + (* identity unchanged *)
      cbn [set_slots d_slots] in H. rewrite updN_same in H. injection H as <- <-.
      apply UR_same; auto.
      * rewrite Eg. discriminate.
      * constructor; reflexivity.
      * intros j. cbn [set_slots d_slots]. unfold updN, upd_slot. destruct (fst id =? j); [|reflexivity].
        cbn [sl_gen sl_updated sl_dur sl_idv sl_f0 sl_f1 sl_rev0 sl_rev1 sl_memos].
        destruct (fst st <? sl_dur sl); reflexivity.
    + (* identity changed *)
      fold (upd_open sl st idv f0 f1) in H.
      set (slT := upd_open sl st idv f0 f1) in *.
      set (sT := set_slots s (updN (d_slots s) (fst id) (Some slT))) in *.
      assert (HsT : d_slots sT (fst id) = Some slT) by (unfold sT; cbn [set_slots d_slots]; apply updN_same).
      destruct (clear_memos sfams n id sT) as [t3 [[]|p|]] eqn:H3; [|discriminate|discriminate].
      destruct (clear_memos_casc sfams n id sT t3 slT HsT eq_refl H3) as (e & s1 & C & Hroot & -> & P & R).
      cbn [set_slots d_slots] in H. rewrite updN_same in H. injection H as <- <-.
      apply (UR_changed s id st idv f0 f1 sl _ g' e s1); auto.
      * constructor; reflexivity.
      * intros j. cbn [set_slots d_slots]. unfold updN, upd_slot. destruct (fst id =? j); [|reflexivity].
        cbn [sl_gen sl_updated sl_dur sl_idv sl_f0 sl_f1 sl_rev0 sl_rev1 sl_memos set_sl_memos slT upd_open].
        destruct (fst st <? sl_dur sl); reflexivity.
Qed.


Lemma owns_frame s F q fr h : In (q, fr) F -> In h (frame_ids fr) -> owns s F (OwF q) h.
Proof. intros Hq Hh. exists (frame_ids fr). split; [exists fr; auto | exact Hh]. Qed.

Lemma upd_slot_fields sl g st now idv f0 f1 k : slot_fields (upd_slot sl g st now idv f0 f1 k) = (idv, f0, f1).
Proof. reflexivity. Qed.

(* [ns_result idv f0 f1 fr s t h ids]: from [s] the call reaches [t] (the state before the ghost
   bookkeeping) with handle [h] and identity map [ids].  [new_key idv fr] is the identity the struct
   gets in the frame: the hash of its identity value and the number of earlier structs of this
   execution with the same hash (the disambiguator); SSem.nident is the same pair, taken from the
   count list alone. *)
Definition new_key (idv : val) (fr : frame) : ident := (idhash idv, cnt_get (fr_disamb fr) (idhash idv)).

Inductive ns_result (idv f0 f1 : val) (fr : frame) (s : db) : db -> handle -> list tentry -> Prop :=
(* no entry of the frame's identity map has this identity: a slot is allocated and an entry appended *)
| NS_alloc t h :
    nomatch (new_key idv fr) (fr_ids fr) -> allocate (fr_dur fr, fr_changed fr) idv f0 f1 s = (t, SOk h) ->
    ns_result idv f0 f1 fr s t h (fr_ids fr ++ [mk_entry (new_key idv fr) h true])
(* [e] is the first entry with this identity (in a run of the model: one seeded from the memo of the
   previous execution), [sle] the slot of its id.  [update] runs on [sle], reaches [t3] and returns [u].  [Some id']: the entry becomes active,
   with [id'] in place of its id when the generation moved.  [None] (generation exhausted): a slot is
   allocated from [t3] and its handle put into the entry. *)
| NS_entry l1 e l2 sle t3 u t h ids :
    fr_ids fr = l1 ++ e :: l2 -> key_eqb (te_ident e) (new_key idv fr) = true -> nomatch (new_key idv fr) l1 ->
    d_slots s (fst (te_id e)) = Some sle -> sl_updated sle <> None ->
    upd_result s (te_id e) (fr_dur fr, fr_changed fr) idv f0 f1 sle t3 u ->
    match u with
    | Some id' => t = t3 /\ h = id' /\
                  ids = if handle_eqb id' (te_id e) then l1 ++ act e :: l2
                        else l1 ++ mk_entry (new_key idv fr) id' true :: l2
    | None => allocate (fr_dur fr, fr_changed fr) idv f0 f1 t3 = (t, SOk h) /\
              ids = l1 ++ mk_entry (new_key idv fr) h true :: l2
    end ->
    ns_result idv f0 f1 fr s t h ids.

Lemma new_struct_cases n q idv f0 f1 fr s s' h fr' :
  new_struct skind sfams idhash n q idv f0 f1 fr s = (s', SOk (h, fr')) ->
  exists t slg cn ids,
    d_slots t (fst h) = Some slg /\
    s' = set_ideal (set_cname t cn) ((h, slot_fields slg) :: d_ideal t) /\
    fr_ids fr' = ids /\ ns_result idv f0 f1 fr s t h ids.
Proof.
  intros H. unfold new_struct, disambiguate in H.
  change (idhash idv, cnt_get (fr_disamb fr) (idhash idv)) with (new_key idv fr) in H.
  set (key := new_key idv fr) in *. set (st := (fr_dur fr, fr_changed fr)) in *.
  set (fr1 := set_fr_disamb fr (cnt_bump (fr_disamb fr) (idhash idv)) (cnt_bump (fr_occ fr) idv)) in *.
  change (fr_ids fr1) with (fr_ids fr) in H.
  destruct (reuse (fr_ids fr) key) as [found ids1] eqn:Er.
  msplit H as r t H0. msplit H as slg t1 H1. apply get_slot_ok in H1. destruct H1 as [-> Hslg].
  msplit H as u2 t2 H2. mstep H2. apply ret_ok in H. destruct H as [-> <-]. cbn [fst snd] in *.
  exists t, slg. eexists. exists (fr_ids fr'). split; [exact Hslg|]. split; [reflexivity|]. split; [reflexivity|]. clear Hslg.
  destruct (reuse_spec _ _ _ _ Er) as [(-> & -> & Hnm) | (l1 & e & l2 & El & Hm & Hnm & -> & ->)].
  - msplit H0 as id' t3 H3. apply ret_ok in H0. destruct H0 as [-> E]. injection E as -> ->.
    cbn [set_fr_ids fr_ids]. rewrite (insert_none _ _ _ _ Hnm). exact (NS_alloc _ _ _ _ _ _ _ Hnm H3).
  - msplit H0 as u t3 H3.
    destruct (update_spec n (te_id e) st idv f0 f1 s t3 u H3) as (sle & Hs & Hu & UR).
    apply (NS_entry _ _ _ _ _ l1 e l2 sle t3 u _ _ _ El Hm Hnm Hs Hu UR). clear UR H3.
    destruct u as [id'|].
    + destruct (handle_eqb id' (te_id e)) eqn:Eh; apply ret_ok in H0; destruct H0 as [-> E]; injection E as -> ->.
      * apply handle_eqb_eq in Eh. auto.
      * split; [reflexivity|]. split; [reflexivity|]. exact (insert_at key id' true l1 (act e) l2 Hm Hnm).
    + msplit H0 as id' t4 H4. apply ret_ok in H0. destruct H0 as [-> E]. injection E as -> ->.
      split; [exact H4|]. exact (insert_at key id' true l1 (act e) l2 Hm Hnm).
Qed.

Lemma alloc_gen st idv f0 f1 s F t h :
  OInv s F -> allocate st idv f0 f1 s = (t, SOk h) ->
  forall sl, d_slots s (fst h) = Some sl -> sl_updated sl = None /\ sl_gen sl < snd h.
Proof.
  intros I Ha sl Hs. destruct (allocate_spec _ _ _ _ _ _ _ Ha) as (_ & _ & _ & _ & _ & Hcase).
  destruct Hcase as [(sk & g & Ef & Hg & _) | (-> & _)].
  - destruct (oi_free _ _ _ I (fst h) g) as (sl0 & Hs0 & Hu0 & Hg0); [rewrite Ef; apply in_or_app; right; left; reflexivity|].
    rewrite Hs in Hs0. injection Hs0 as <-. split; [exact Hu0|]. apply next_gen_gt in Hg. lia.
  - cbn [fst] in Hs. assert (d_slots s (d_nslots s) = None) by (apply (oi_alloc _ _ _ I); lia). congruence.
Qed.

(* a slot that is not live is allocated for the frame of q *)
Lemma alloc_oinv st idv f0 f1 q fr fr' s F t h slg cn :
  OInv s F -> In (q, fr) F -> allocate st idv f0 f1 s = (t, SOk h) -> d_slots t (fst h) = Some slg ->
  (forall x, In x (frame_ids fr') -> In x (frame_ids fr) \/ x = h) -> In h (frame_ids fr') ->
  (~ In (fst h) (map fst (frame_ids fr)) -> NoDup (map fst (frame_ids fr'))) ->
  OInv (set_ideal (set_cname t cn) ((h, slot_fields slg) :: d_ideal t)) (set_frame F q fr') /\
  sl_updated slg <> None /\ sl_gen slg = snd h.
Proof.
  intros I Hq Ha Hsl Hsub Hin Hnd.
  destruct (allocate_spec _ _ _ _ _ _ _ Ha) as (Es & Erv & Em & Eid & _ & Hcase).
  assert (Eslg : slg = fresh_slot (snd h) st (cur s) idv f0 f1).
  { rewrite Es, updN_same in Hsl. injection Hsl; auto. }
  pose proof (alloc_gen _ _ _ _ _ _ _ _ I Ha) as Hnl.
  assert (Hnotown : forall o x, owns s F o x -> fst x <> fst h).
  { intros o x Hox E. destruct (oi_live _ _ _ I o x Hox) as (sl & Hs & Hu & _).
    rewrite E in Hs. destruct (Hnl sl Hs) as [Hu0 _]. contradiction. }
  assert (Hfresh : ~ In (fst h) (map fst (frame_ids fr))).
  { intros Hx. apply in_map_iff in Hx. destruct Hx as (x & Ex & Hx).
    exact (Hnotown _ x (owns_frame s F q fr x Hq Hx) Ex). }
  split; [|rewrite Eslg; split; [discriminate | reflexivity]].
  destruct h as [i g']. cbn [fst snd] in *.
  apply (oinv_newgen skind s F _ q fr fr' i g' slg I Hq);
    cbn [set_ideal set_cname d_slots d_nslots d_free d_ideal d_revs d_memo]; auto.
  - intros sl Hs Hu. destruct (Hnl sl Hs) as [Hu0 _]. contradiction.
  - intros sl Hs. exact (proj2 (Hnl sl Hs)).
  - intros o x Hox E. exfalso. exact (Hnotown o x Hox E).
  - intros j. rewrite Es, Eslg. reflexivity.
  - rewrite Eslg. reflexivity.
  - rewrite Eslg. reflexivity.
  - rewrite Eslg. reflexivity.
  - intros Hn. destruct Hcase as [(sk & g & Ef & Hg & En) | (Eh & En & _)].
    + exfalso. destruct (oi_free _ _ _ I i g) as (sl0 & Hs0 & _); [rewrite Ef; apply in_or_app; right; left; reflexivity|].
      congruence.
    + injection Eh as -> _. auto.
  - intros Hn. destruct Hcase as [(sk & g & Ef & Hg & En) | (Eh & En & _)]; [exact En|].
    exfalso. injection Eh as -> _. apply Hn. apply (oi_alloc _ _ _ I). lia.
  - intros x Hx. destruct Hcase as [(sk & g & Ef & Hg & En) | (Eh & En & Ef)]; [|rewrite Ef in Hx; destruct Hx].
    pose proof (oi_free_nodup _ _ _ I) as Hfn. rewrite Ef in Hfn |- *.
    split; [apply in_or_app; right; right; exact Hx|].
    rewrite map_app in Hfn. apply nodup_app_r in Hfn. cbn [map fst] in Hfn.
    apply NoDup_cons_iff in Hfn. destruct Hfn as [Hni _]. intros E. apply Hni. rewrite <- E. apply in_map. exact Hx.
  - destruct Hcase as [(sk & g & Ef & Hg & En) | (Eh & En & Ef)]; [|rewrite Ef; constructor].
    pose proof (oi_free_nodup _ _ _ I) as Hfn. rewrite Ef, map_app in Hfn. apply nodup_app_r in Hfn.
    cbn [map] in Hfn. apply NoDup_cons_iff in Hfn. exact (proj2 Hfn).
  - rewrite Eid. reflexivity.
Qed.

(* UR_locked, UR_same: the slot keeps its generation and its memo table *)
Lemma inplace_oinv s F q fr fr' t h sle slg cn :
  OInv s F -> In (q, fr) F -> frame_ids fr' = frame_ids fr ->
  d_slots s (fst h) = Some sle -> sl_updated sle <> None -> sl_gen sle = snd h ->
  sbs s t -> (forall j, d_slots t j = updN (d_slots s) (fst h) (Some slg) j) ->
  sl_updated slg <> None -> sl_gen slg = sl_gen sle -> (forall fam, sl_memos slg fam = sl_memos sle fam) ->
  (sl_updated sle = Some (cur s) -> sl_updated slg = Some (cur s)) ->
  OInv (set_ideal (set_cname t cn) ((h, slot_fields slg) :: d_ideal t)) (set_frame F q fr').
Proof.
  intros I Hq Eids Hs Hu Hg B Es Hu' Hg' Hm Hlk. destruct h as [i g]. cbn [fst snd] in *. subst g.
  apply (oinv_same_ids skind _ F q fr fr'); [|exact Hq | exact Eids].
  apply (oinv_rewrite skind s F _ i sle slg I Hs Hu Hu' Hg');
    cbn [set_ideal set_cname d_revs d_memo d_nslots d_free d_slots d_ideal]; auto using sb_revs, sb_memo, sb_nslots, sb_free.
  right. now rewrite (sb_ideal _ _ B).
Qed.

(* UR_changed: the memos of the old struct are discarded with everything they own, the slot gets the
   next generation *)
Lemma regen_oinv s F q fr fr' id g' sle slT s1 ex t slg cn :
  OInv s F -> In (q, fr) F -> In id (frame_ids fr) ->
  d_slots s (fst id) = Some sle -> sl_updated sle <> None -> sl_updated sle <> Some (cur s) ->
  next_gen (snd id) = Some g' ->
  casc (set_slots s (updN (d_slots s) (fst id) (Some slT))) s1 ex -> ~ In (fst id) (map fst ex) ->
  parents sfams (set_slots s (updN (d_slots s) (fst id) (Some slT))) (flat_map (memo_roots sle) sfams) ex ->
  sbs s1 t -> (forall j, d_slots t j = updN (d_slots s1) (fst id) (Some slg) j) ->
  sl_updated slg = Some (cur s) -> sl_gen slg = g' -> (forall fam, sl_memos slg fam = None) ->
  In (fst id, g') (frame_ids fr') ->
  (forall x, In x (frame_ids fr') -> In x (frame_ids fr) \/ x = (fst id, g')) ->
  NoDup (map fst (frame_ids fr')) ->
  OInv (set_ideal (set_cname t cn) (((fst id, g'), slot_fields slg) :: d_ideal t)) (set_frame F q fr').
Proof.
  intros I Hq Hid Hsle Hule Hnl Hng C Hroot P B Es Hu' Hg' Hm' Hin Hsub Hnd.
  set (i := fst id) in *.
  pose proof (owns_frame s F q fr id Hq Hid) as Hown_id.
  (* intermediate states: the memo table of slot i emptied first, then the cascade *)
  set (slM := set_sl_memos sle (fun _ => None)).
  set (sT := set_slots s (updN (d_slots s) i (Some slT))) in *.
  set (sM := set_slots sT (updN (d_slots sT) i (Some slM))).
  set (s1M := set_slots s1 (updN (d_slots s1) i (Some slM))).
  assert (HsM : forall j, d_slots sM j = updN (d_slots s) i (Some slM) j).
  { intros j. cbn [sM sT set_slots d_slots]. unfold updN. destruct (i =? j); reflexivity. }
  assert (IM : OInv sM F).
  { apply (oinv_rewrite skind s F sM i sle slM I Hsle Hule Hule); auto. }
  assert (Hpk : forall l m, peek_memo sM l = Some m -> peek_memo s l = Some m).
  { intros l m. unfold Machine.peek_memo. rewrite HsM. change (d_memo sM) with (d_memo s).
    destruct (skind (fst l)); [|auto]. unfold updN. destruct (i =? snd l); [|auto].
    cbn [slM set_sl_memos sl_updated sl_memos]. destruct (sl_updated sle); discriminate. }
  assert (Hroots : forall c, In c (flat_map (memo_roots sle) sfams) ->
            live sM c /\ forall o x, owns sM F o x -> fst x <> fst c).
  { intros c Hc. destruct (in_memo_roots sfams _ _ Hc) as (fam & m & Hf & Hmm & Hcm).
    pose proof (sfams_skind _ Hf) as Hk.
    apply (memo_removed skind s sM F fam i c I).
    - exact (memo_owns skind s F i sle fam m c Hsle Hule Hk (unlocked_not_active skind s F i sle fam I Hsle Hnl Hk) Hmm Hcm).
    - exact Hpk.
    - unfold Machine.peek_memo. cbn [fst snd]. rewrite Hk, HsM, updN_same.
      cbn [slM set_sl_memos sl_updated sl_memos]. destruct (sl_updated sle); reflexivity.
    - intros j Hj. rewrite HsM. apply updN_other. congruence.
    - exists (OwF q), id. split; [exact Hown_id|]. split; [reflexivity | discriminate]. }
  assert (I1M : OInv s1M F).
  { apply (oinv_casc skind sfams sfams_skind sM F s1M ex (flat_map (memo_roots sle) sfams) IM).
    - exact (casc_reslot sT s1 ex i (Some slM) C Hroot).
    - exact (parents_reslot sfams sT i (Some slM) _ ex P Hroot).
    - intros c Hc. exact (proj1 (Hroots c Hc)).
    - intros c o x Hc. exact (proj2 (Hroots c Hc) o x). }
  assert (Hs1Mi : d_slots s1M i = Some slM) by (cbn [s1M set_slots d_slots]; apply updN_same).
  apply (oinv_newgen skind s1M F _ q fr fr' i g' slg I1M Hq);
    cbn [set_ideal set_cname d_slots d_nslots d_free d_ideal d_revs d_memo s1M set_slots]; auto.
  - intros sl0 Hs0 _ fam. rewrite updN_same in Hs0. injection Hs0 as <-. reflexivity.
  - intros sl0 Hs0. rewrite updN_same in Hs0. injection Hs0 as <-. cbn [slM set_sl_memos sl_gen].
    destruct (oi_live _ _ _ I _ _ Hown_id) as (sl1 & H1 & _ & Hg1). fold i in H1. rewrite Hsle in H1. injection H1 as <-.
    apply next_gen_gt in Hng. lia.
  - intros o x Hox E. apply (oi_uniq _ _ _ I1M o (OwF q) x id Hox); [|exact E].
    exact (owns_frame s1M F q fr _ Hq Hid).
  - intros j. rewrite Es. unfold updN. destruct (i =? j); reflexivity.
  - rewrite Hu'. f_equal. symmetry. exact (casc_cur _ _ _ C).
  - intros Hn. rewrite updN_same in Hn. discriminate.
  - intros _. exact (sb_nslots _ _ B).
  - intros x Hx. rewrite (sb_free _ _ B) in Hx. split; [exact Hx|].
    intros E. destruct x as [xi xg]. cbn [fst] in E. subst xi.
    destruct (oi_free _ _ _ I1M i xg Hx) as (sl0 & Hs0 & Hu0 & _).
    rewrite Hs1Mi in Hs0. injection Hs0 as <-. contradiction.
  - rewrite (sb_free _ _ B). exact (oi_free_nodup _ _ _ I1M).
  - now rewrite (sb_ideal _ _ B).
  - exact (sb_revs _ _ B).
  - exact (sb_memo _ _ B).
Qed.

Lemma new_struct_oinv n q idv f0 f1 fr s F s' h fr' :
  OInv s F -> In (q, fr) F ->
  new_struct skind sfams idhash n q idv f0 f1 fr s = (s', SOk (h, fr')) ->
  OInv s' (set_frame F q fr') /\ In h (frame_ids fr') /\ live s' h.
Proof.
  intros I Hq H.
  assert (Hfnd : NoDup (map fst (frame_ids fr))) by (apply (oi_nodup _ _ _ I (OwF q)); exists fr; auto).
  destruct (new_struct_cases _ _ _ _ _ _ _ _ _ _ H) as (t & slg & cn & ids & Hslg & Es' & Efr & NS).
  set (key := new_key idv fr) in *.
  assert (Hlive : sl_updated slg <> None -> sl_gen slg = snd h -> live s' h).
  { intros Hu Hg. subst s'. exists slg. auto. }
  destruct NS as [t h Hnm Ha | l1 e l2 sle t3 u t h ids El Hm Hnm Hsle Hule UR K].
  - (* no entry for this identity: allocate, append *)
    assert (Eids : frame_ids fr' = frame_ids fr ++ [h]).
    { unfold frame_ids. rewrite Efr, map_app. reflexivity. }
    assert (Hin : In h (frame_ids fr')) by (rewrite Eids; apply in_or_app; right; left; reflexivity).
    subst s'. destruct (alloc_oinv _ _ _ _ q fr fr' s F t h slg cn I Hq Ha Hslg) as (IO & Hu & Hg); auto.
    + intros x. rewrite Eids. intros Hx. apply in_app_or in Hx. destruct Hx as [Hx | [<- | []]]; auto.
    + intros Hfr. rewrite Eids. apply nodup_fst_append; assumption.
  - assert (Efr0 : frame_ids fr = map te_id l1 ++ te_id e :: map te_id l2).
    { unfold frame_ids. rewrite El, frame_ids_app. reflexivity. }
    assert (Hide : In (te_id e) (frame_ids fr)) by (rewrite Efr0; apply in_or_app; right; left; reflexivity).
    destruct (oi_live _ _ _ I _ _ (owns_frame s F q fr _ Hq Hide)) as (sle' & Hsle' & _ & Hgle).
    rewrite Hsle in Hsle'. injection Hsle' as <-.
    (* the entry is activated, or replaced by one with a new id *)
    assert (Hkeep : fr_ids fr' = l1 ++ act e :: l2 -> frame_ids fr' = frame_ids fr).
    { intros E. unfold frame_ids. rewrite E, El, !frame_ids_app. reflexivity. }
    assert (Hrepl : forall h0, fr_ids fr' = l1 ++ mk_entry key h0 true :: l2 ->
              In h0 (frame_ids fr') /\
              (forall x, In x (frame_ids fr') -> In x (frame_ids fr) \/ x = h0) /\
              (fst h0 = fst (te_id e) \/ ~ In (fst h0) (map fst (frame_ids fr)) -> NoDup (map fst (frame_ids fr')))).
    { intros h0 E.
      assert (E' : frame_ids fr' = map te_id l1 ++ h0 :: map te_id l2) by (unfold frame_ids; rewrite E; apply frame_ids_app).
      rewrite E', Efr0. split; [|split].
      - apply in_or_app. right. left. reflexivity.
      - intros x Hx. apply in_app_or in Hx. destruct Hx as [Hx | [<- | Hx]];
          [left; apply in_or_app; auto | right; reflexivity | left; apply in_or_app; right; right; exact Hx].
      - apply nodup_fst_replace. rewrite <- Efr0. exact Hfnd. }
    destruct UR as [Hlk | Hnl Hng | t3 Hnl Hsame Hng B Es | t3 g' ex s1 Hnl Hdiff Hng C Hroot P B Es].
    + (* read-locked in this revision: nothing changes *)
      rewrite handle_eqb_refl in K. destruct K as (-> & -> & ->).
      rewrite Hsle in Hslg. injection Hslg as <-. subst s'.
      split; [|split; [rewrite (Hkeep Efr); exact Hide | exact (Hlive Hule Hgle)]].
      apply (inplace_oinv s F q fr fr' s (te_id e) sle sle cn I Hq (Hkeep Efr) Hsle Hule Hgle (sbs_refl s)); auto.
      intros j. unfold updN. destruct (N.eqb_spec (fst (te_id e)) j) as [<- | ?]; [exact Hsle | reflexivity].
    + (* generation exhausted: the old slot is leaked, a new one is allocated *)
      destruct K as (Ha & ->). destruct (Hrepl h Efr) as (Hin & Hsub & Hnd). subst s'.
      destruct (alloc_oinv _ _ _ _ q fr fr' s F t h slg cn I Hq Ha Hslg) as (IO & Hu & Hg); auto.
    + (* updated in place, same identity value: same id *)
      rewrite handle_eqb_refl in K. destruct K as (-> & -> & ->).
      rewrite Es, updN_same in Hslg. injection Hslg as <-. subst s'.
      split; [|split; [rewrite (Hkeep Efr); exact Hide | apply Hlive; [discriminate | exact Hgle]]].
      apply (inplace_oinv s F q fr fr' t3 (te_id e) sle _ cn I Hq (Hkeep Efr) Hsle Hule Hgle B Es);
        [discriminate | reflexivity | reflexivity | contradiction].
    + (* identity value changed under the same hash: memos cleared, generation bumped *)
      rewrite (regen_neq _ _ Hng) in K. destruct K as (-> & -> & ->).
      rewrite Es, updN_same in Hslg. injection Hslg as <-.
      destruct (Hrepl _ Efr) as (Hin & Hsub & Hnd). subst s'.
      split; [|split; [exact Hin | apply Hlive; [discriminate | reflexivity]]].
      apply (regen_oinv s F q fr fr' (te_id e) g' sle _ s1 ex t3 _ cn I Hq Hide Hsle Hule Hnl Hng C Hroot P B Es); auto.
Qed.


(* ---- completion of an execution ---- *)
Lemma in_insert_sorted (x y : ident * handle) l : In y (insert_sorted x l) <-> y = x \/ In y l.
Proof.
  induction l as [|z l IH]; cbn [insert_sorted].
  - split; [intros [<- | []]; auto | intros [-> | []]; left; reflexivity].
  - destruct (handle_ltb (snd x) (snd z)).
    + split; [intros [<- | H]; auto | intros [-> | H]; [left; reflexivity | right; exact H]].
    + split.
      * intros [<- | H]; [right; left; reflexivity|]. apply IH in H. destruct H; auto. right; right; auto.
      * intros [-> | [<- | H]]; [right; apply IH; auto | left; reflexivity | right; apply IH; auto].
Qed.

Lemma in_sorted l y : In y (fold_right insert_sorted [] l) <-> In y l.
Proof.
  induction l as [|x l IH]; cbn [fold_right]; [reflexivity|].
  rewrite in_insert_sorted, IH. split; intros [H | H]; [left; auto | right; exact H | left; auto | right; exact H].
Qed.

Lemma map_inj_nodup {A B} (f : A -> B) l a b : NoDup (map f l) -> In a l -> In b l -> f a = f b -> a = b.
Proof.
  induction l as [|x l IH]; cbn [map]; intros Hnd Ha Hb E; [destruct Ha|].
  apply NoDup_cons_iff in Hnd. destruct Hnd as [Hx Hr].
  destruct Ha as [-> | Ha], Hb as [-> | Hb].
  - reflexivity.
  - exfalso. apply Hx. rewrite E. apply in_map. exact Hb.
  - exfalso. apply Hx. rewrite <- E. apply in_map. exact Ha.
  - exact (IH Hr Ha Hb E).
Qed.

Lemma nodup_map_filter {A B} (f : A -> B) (P : A -> bool) l : NoDup (map f l) -> NoDup (map f (filter P l)).
Proof.
  induction l as [|x l IH]; cbn [map filter]; intros Hnd; [constructor|].
  apply NoDup_cons_iff in Hnd. destruct Hnd as [Hx Hr]. destruct (P x); cbn [map]; [|exact (IH Hr)].
  constructor; [|exact (IH Hr)]. intros Hin. apply Hx. apply in_map_iff in Hin. destruct Hin as (y & E & Hy).
  apply filter_In in Hy. apply in_map_iff. exists y. split; [exact E | exact (proj1 Hy)].
Qed.

Lemma store_memo_spec q m s s' u :
  store_memo skind q m s = (s', SOk u) ->
  d_revs s' = d_revs s /\ d_nslots s' = d_nslots s /\ d_free s' = d_free s /\ d_ideal s' = d_ideal s /\
  ((skind (fst q) = false /\ (forall l, d_memo s' l = upd (d_memo s) (loc_of q) (Some m) l) /\
    (forall j, d_slots s' j = d_slots s j)) \/
   (skind (fst q) = true /\ (forall l, d_memo s' l = d_memo s l) /\
    exists sl, d_slots s (fst (snd q)) = Some sl /\
      forall j, d_slots s' j = updN (d_slots s) (fst (snd q))
                                   (Some (set_sl_memos sl (updN (sl_memos sl) (fst q) (Some m)))) j)).
Proof.
  unfold store_memo, get_slot, bind, get, put_slot, modify, ret, fail. destruct (skind (fst q)) eqn:Hk; intros H.
  - destruct (d_slots s (fst (snd q))) as [sl|] eqn:Hs; [|discriminate]. injection H as <- _.
    repeat split; try reflexivity.
    right. split; [reflexivity|]. split; [reflexivity|]. exists sl. split; reflexivity.
  - injection H as <- _. repeat split; try reflexivity. left. repeat split; reflexivity.
Qed.

Lemma store_memo_oinv s F s' F' q m (src : owner) u :
  OInv s F -> store_memo skind q m s = (s', SOk u) ->
  (skind (fst q) = true -> exists sl, d_slots s (fst (snd q)) = Some sl /\ sl_updated sl <> None) ->
  (forall q' fr', In (q', fr') F' -> In (q', fr') F) -> NoDup (flocs F') ->
  (forall l', l' <> loc_of q -> active_loc F l' -> active_loc F' l') ->
  (~ active_loc F' (loc_of q) -> NoDup (map fst (mids m))) ->
  (~ active_loc F' (loc_of q) -> forall h, In h (mids m) -> exists ids0, owner_ids s F src ids0 /\ In h ids0) ->
  (src = OwM (loc_of q) \/ forall ids, ~ owner_ids s' F' src ids) ->
  OInv s' F'.
Proof.
  intros I H Hlive. destruct (store_memo_spec _ _ _ _ _ H) as (Er & En & Ef & Ei & Hcase).
  apply (oinv_store skind s F s' F' q m src I Er En Ef Ei).
  destruct Hcase as [Hc | (Hk & Em & sl & Hs & Es)]; [left; exact Hc|]. right.
  split; [exact Hk|]. split; [exact Em|].
  destruct (Hlive Hk) as (sl0 & Hs0 & Hu0). rewrite Hs in Hs0. injection Hs0 as <-.
  exists sl, (set_sl_memos sl (updN (sl_memos sl) (fst q) (Some m))).
  repeat split; auto.
  - rewrite Es. apply updN_same.
  - intros j Hj. rewrite Es. apply updN_other. congruence.
  - cbn [set_sl_memos sl_memos]. apply updN_same.
  - intros fam Hf. cbn [set_sl_memos sl_memos]. apply updN_other. congruence.
Qed.

Lemma lock_peek i s s' sl' l :
  acquire_read_lock i s = (s', SOk sl') -> peek_memo s' l = peek_memo s l.
Proof.
  intros H. destruct (lock_spec _ _ _ _ H) as [sl Lk].
  pose proof (lk_at Lk) as Hs. pose proof (lk_live Lk) as Hu. pose proof (lk_now Lk) as Hu'.
  pose proof (lk_gen Lk) as Hg. pose proof (lk_memos Lk) as Hm. pose proof (lk_fields Lk) as Hf.
  pose proof (lk_sbs Lk) as B. pose proof (lk_slots Lk) as Es.
  apply peek_memo_ext; [exact (sb_memo _ _ B) | |].
  - intros sl0 H0 Hu0. rewrite Es. unfold updN. destruct (N.eqb_spec i (snd l)) as [-> | E].
    + rewrite Hs in H0. injection H0 as <-. exists sl'. repeat split; [rewrite Hu'; discriminate | apply Hm].
    + exists sl0. auto.
  - intros sl0'. rewrite Es. unfold updN. destruct (N.eqb_spec i (snd l)) as [-> | E].
    + intros _ _. exists sl. auto.
    + intros H0 Hu0. exists sl0'. auto.
Qed.

Lemma lock_owner_ids i s s' sl' F o ids :
  acquire_read_lock i s = (s', SOk sl') -> owner_ids s F o ids -> owner_ids s' F o ids.
Proof.
  intros H. destruct o as [q | l]; cbn [Machine.owner_ids]; [auto|].
  now rewrite (lock_peek _ _ _ _ l H).
Qed.

Lemma put_memo_oinv s F F' q m (src : owner) s' u :
  OInv s F -> put_memo skind q m s = (s', SOk u) ->
  (forall q' fr', In (q', fr') F' -> In (q', fr') F) -> NoDup (flocs F') ->
  (forall l', l' <> loc_of q -> active_loc F l' -> active_loc F' l') ->
  NoDup (map fst (mids m)) ->
  (forall h, In h (mids m) -> exists ids0, owner_ids s F src ids0 /\ In h ids0) ->
  (src = OwM (loc_of q) \/ forall s2 ids, ~ owner_ids s2 F' src ids) ->
  OInv s' F'.
Proof.
  intros I H Hsub Hnd Hact Hmnd Hsrc Hinj. unfold put_memo in H.
  msplit H as u0 t0 H0.
  assert (I0 : OInv t0 F /\ (forall o ids, owner_ids s F o ids -> owner_ids t0 F o ids) /\
               (skind (fst q) = true -> exists sl, d_slots t0 (fst (snd q)) = Some sl /\ sl_updated sl <> None)).
  { destruct (skind (fst q)) eqn:Hk.
    - msplit H0 as sl0 t1 H1. mstep H0. split; [exact (lock_oinv _ _ _ _ _ I H1)|]. split.
      + intros o ids. exact (lock_owner_ids _ _ _ _ _ _ _ H1).
      + intros _. destruct (lock_spec _ _ _ _ H1) as [sl Lk].
        pose proof (lk_at Lk) as Hs. pose proof (lk_live Lk) as Hu. pose proof (lk_now Lk) as Hu'.
        pose proof (lk_slots Lk) as Es.
        exists sl0. rewrite Es, updN_same. split; [reflexivity | rewrite Hu'; discriminate].
    - mstep H0. split; [exact I|]. split; [auto | discriminate]. }
  destruct I0 as (I0 & Htr & Hlive).
  apply (store_memo_oinv t0 F s' F' q m src u I0 H Hlive); auto.
  - intros _ h Hh. destruct (Hsrc h Hh) as (ids0 & Ho & Hin). exists ids0. split; [exact (Htr _ _ Ho) | exact Hin].
  - destruct Hinj as [-> | Hno]; [left; reflexivity | right; intros ids; exact (Hno s' ids)].
Qed.

Definition diff_roots (old : memo) (stale : list (ident * handle)) : list handle :=
  match m_origin old with OAssigned _ => [] | _ => map snd stale end.

Lemma diff_outputs_casc n old key stale new_edges s s' :
  diff_outputs sfams n old key stale new_edges s = (s', SOk tt) ->
  exists e, casc s s' e /\ parents sfams s (diff_roots old stale) e /\
            (forall r, In r (diff_roots old stale) -> In r e).
Proof.
  unfold diff_outputs, diff_roots. intros H.
  destruct (m_origin old) as [ (* ODerived *) | (* OUntracked *) | (* OAssigned *) by_ ];
    [ | | (* a specified memo has no struct outputs to discard *)
          mstep H; exists []; split; [apply casc_refl|]; split; [intros c [] | intros r []] ].
  (* ODerived, OUntracked: the stale structs are deleted one after the other *)
  all: msplit H as u0 t0 H0; destruct u0.
  all: destruct (iterM_casc_each sfams _ snd stale s t0 (fun kv => emit_then_delete sfams _ n (snd kv)) H0)
         as (e & C & P & R).
  all: exists e; split; [|auto].
  all: pose proof (casc_trans _ _ _ _ _ C (emits_casc _ _ _ _ H)) as T; rewrite app_nil_r in T; exact T.
Qed.


Lemma drain_active l : map snd (fst (drain l)) = map te_id (filter te_active l).
Proof. unfold drain. cbn [fst]. rewrite map_map. reflexivity. Qed.

Lemma drain_stale l r : In r (map snd (snd (drain l))) <-> In r (map te_id (filter (fun e => negb (te_active e)) l)).
Proof.
  unfold drain. cbn [snd]. rewrite !in_map_iff. split.
  - intros (kv & <- & Hkv). apply (proj1 (in_sorted _ _)) in Hkv. apply in_map_iff in Hkv. destruct Hkv as (e & <- & He).
    exists e. auto.
  - intros (e & <- & He). exists (te_ident e, te_id e). split; [reflexivity|]. apply (proj2 (in_sorted _ _)).
    apply in_map_iff. exists e. auto.
Qed.

Lemma finish_exec_cases n q old v fr s s' m :
  finish_exec skind sfams n q old v fr s = (s', SOk m) ->
  exists ch t0 u,
    backdate old (fr_dur fr) (fr_changed fr) v = SOk ch /\
    match old with
    | Some o => diff_outputs sfams n o q (snd (drain (fr_ids fr))) (fr_edges fr) s = (t0, SOk tt)
    | None => t0 = s
    end /\
    m = {| m_val := Some v; m_verified := cur t0; m_changed := ch; m_dur := fr_dur fr;
           m_origin := if fr_untracked fr then OUntracked else ODerived;
           m_edges := if (fr_dur fr =? D_NEVER) && negb (fr_untracked fr) then [] else fr_edges fr;
           m_structs := fst (drain (fr_ids fr)) |} /\
    put_memo skind q m t0 = (s', SOk u).
Proof.
  intros H. unfold finish_exec in H. destruct (drain (fr_ids fr)) as [active stale].
  destruct (backdate old (fr_dur fr) (fr_changed fr) v) as [ch | p |]; [|mstep H|mstep H].
  msplit H as u0 t0 H0. msplit H as x t1 H1. mstep H1. msplit H as u2 t2 H2. mstep H.
  exists ch, t0, u2. split; [reflexivity|]. split; [|split; [reflexivity | exact H2]].
  destruct old as [o|]; [destruct u0; exact H0 | mstep H0; reflexivity].
Qed.

Lemma finish_oinv n q old v fr s F s' m :
  OInv s F -> In (q, fr) F ->
  finish_exec skind sfams n q old v fr s = (s', SOk m) ->
  OInv s' (del_frame F q) /\ mids m = map te_id (filter te_active (fr_ids fr)).
Proof.
  intros I Hq H. destruct (finish_exec_cases _ _ _ _ _ _ _ _ H) as (ch & t0 & u2 & _ & H0 & Em & H2).
  set (stale := snd (drain (fr_ids fr))) in *.
  set (mm := {| m_val := Some v; m_verified := cur t0; m_changed := ch; m_dur := fr_dur fr;
                m_origin := if fr_untracked fr then OUntracked else ODerived;
                m_edges := if (fr_dur fr =? D_NEVER) && negb (fr_untracked fr) then [] else fr_edges fr;
                m_structs := fst (drain (fr_ids fr)) |}) in *.
  subst m.
  assert (Hact : mids mm = map te_id (filter te_active (fr_ids fr))).
  { exact (drain_active (fr_ids fr)). }
  split; [|exact Hact].
  assert (HF : NoDup (flocs F)) by exact (oi_frames _ _ _ I).
  assert (Hfnd : NoDup (map fst (frame_ids fr))).
  { apply (oi_nodup _ _ _ I (OwF q)). exists fr. auto. }
  assert (Hfnd' : NoDup (map (fun x => fst (te_id x)) (fr_ids fr))).
  { unfold frame_ids in Hfnd. rewrite map_map in Hfnd. exact Hfnd. }
  set (frA := set_fr_ids fr (filter te_active (fr_ids fr))).
  set (F1 := set_frame F q frA).
  assert (HF1 : forall q' fr', In (q', fr') F1 <-> (q' = q /\ fr' = frA) \/ (q' <> q /\ In (q', fr') F)).
  { intros q' fr'. exact (in_set_frame F q fr frA q' fr' HF Hq). }
  assert (I1 : OInv s F1).
  { apply (oinv_frames skind s F F1 I); [apply flocs_set_frame|].
    intros q' fr' Hin. apply HF1 in Hin. destruct Hin as [[-> ->] | [_ Hin]].
    - exists fr. split; [exact Hq|]. unfold frame_ids, frA. cbn [fr_ids set_fr_ids]. split.
      + intros h Hh. apply in_map_iff in Hh. destruct Hh as (e & <- & He). apply filter_In in He.
        apply in_map. exact (proj1 He).
      + rewrite map_map. apply nodup_map_filter. exact Hfnd'.
    - exists fr'. split; [exact Hin|]. split; [auto|]. apply (oi_nodup _ _ _ I (OwF q')). exists fr'. auto. }
  (* the stale entries are live, and nobody (else) holds their slots *)
  assert (Hstale : forall r, In r (map snd stale) ->
            live s r /\ forall o h, owns s F1 o h -> fst h <> fst r).
  { intros r Hr. apply (drain_stale (fr_ids fr) r) in Hr. apply in_map_iff in Hr. destruct Hr as (e & <- & He). apply filter_In in He. destruct He as [He Hina].
    assert (Hown : owns s F (OwF q) (te_id e)).
    { apply (owns_frame s F q fr); [exact Hq | apply in_map; exact He]. }
    split; [exact (oi_live _ _ _ I _ _ Hown)|].
    intros o h (ids & Ho & Hin) E.
    destruct o as [q' | l]; cbn [Machine.owner_ids] in Ho.
    - destruct Ho as (fr' & Hin' & ->). apply HF1 in Hin'. destruct Hin' as [[-> ->] | [Hne Hin']].
      + unfold frame_ids, frA in Hin. cbn [fr_ids set_fr_ids] in Hin. apply in_map_iff in Hin.
        destruct Hin as (e2 & <- & He2). apply filter_In in He2. destruct He2 as [He2 Hact2].
        assert (e2 = e).
        { apply (map_inj_nodup (fun x => fst (te_id x)) (fr_ids fr)); auto. }
        subst e2. rewrite Hact2 in Hina. discriminate.
      + assert (Ho2 : owns s F (OwF q') h) by (exact (owns_frame s F q' fr' h Hin' Hin)).
        pose proof (oi_uniq _ _ _ I _ _ _ _ Ho2 Hown E) as Eo. injection Eo as ->. contradiction.
    - destruct Ho as (Hna & m0 & Hm0 & ->).
      assert (Ho2 : owns s F (OwM l) h).
      { exists (mids m0). split; [|exact Hin]. split; [|exists m0; auto].
        intros Ha. apply Hna. apply active_loc_flocs. unfold F1. rewrite flocs_set_frame. apply active_loc_flocs. exact Ha. }
      pose proof (oi_uniq _ _ _ I _ _ _ _ Ho2 Hown E) as Eo. discriminate. }
  assert (IB : OInv t0 F1).
  { destruct old as [o|].
    - destruct (diff_outputs_casc n o q stale (fr_edges fr) s t0 H0) as (e & C & P & R).
      apply (oinv_casc skind sfams sfams_skind s F1 t0 e (diff_roots o stale) I1 C P).
      + intros r Hr. apply Hstale. unfold diff_roots in Hr. destruct (m_origin o); auto. destruct Hr.
      + intros r o0 h Hr. apply (proj2 (Hstale r (ltac:(unfold diff_roots in Hr; destruct (m_origin o); auto; destruct Hr)))).
    - subst t0. exact I1. }
  apply (put_memo_oinv t0 F1 (del_frame F q) q mm (OwF q) _ u2 IB H2).
  - intros q' fr' Hin. apply (in_del_frame F q fr q' fr' HF Hq) in Hin. apply HF1. right. exact Hin.
  - apply flocs_del_frame. exact HF.
  - intros l' Hne (q' & fr' & Hin & El). apply HF1 in Hin. destruct Hin as [[-> ->] | [Hnq Hin]]; [contradiction Hne; auto|].
    exists q', fr'. split; [|exact El]. apply (in_del_frame F q fr q' fr' HF Hq). auto.
  - rewrite Hact. rewrite map_map. apply nodup_map_filter. exact Hfnd'.
  - intros h Hh. exists (frame_ids frA). split; [exists frA; split; [apply HF1; left; auto | reflexivity]|].
    rewrite Hact in Hh. exact Hh.
  - right. intros s2 ids (fr' & Hin & _). apply (in_del_frame F q fr q fr' HF Hq) in Hin. destruct Hin as [Hne _]. contradiction.
Qed.


(* ---- specify ---- *)
Lemma is_active_in l h : is_active l h = true -> In h (map te_id l).
Proof.
  unfold is_active. destruct (find (fun e => handle_eqb (te_id e) h) l) as [e|] eqn:E; [|discriminate].
  intros _. apply find_some in E. destruct E as [He Eh]. apply handle_eqb_eq in Eh. subst h. apply in_map. exact He.
Qed.

Lemma put_memo_spec q m s s' u :
  skind (fst q) = true ->
  put_memo skind q m s = (s', SOk u) ->
  exists sl sl', d_slots s (fst (snd q)) = Some sl /\ sl_updated sl <> None /\
    d_slots s' (fst (snd q)) = Some sl' /\
    (forall j, j <> fst (snd q) -> d_slots s' j = d_slots s j) /\
    sl_updated sl' = Some (cur s) /\ sl_gen sl' = sl_gen sl /\ slot_fields sl' = slot_fields sl /\
    sl_memos sl' (fst q) = Some m /\ (forall fam, fam <> fst q -> sl_memos sl' fam = sl_memos sl fam) /\
    d_revs s' = d_revs s /\ d_nslots s' = d_nslots s /\ d_free s' = d_free s /\ d_ideal s' = d_ideal s /\
    d_memo s' = d_memo s.
Proof.
  intros Hk H. unfold put_memo in H. rewrite Hk in H.
  msplit H as u0 t0 H0. msplit H0 as sl0 t1 H1. mstep H0.
  destruct (lock_spec _ _ _ _ H1) as [sl Lk].
  pose proof (lk_at Lk) as Hs. pose proof (lk_live Lk) as Hu. pose proof (lk_now Lk) as Hu'.
  pose proof (lk_gen Lk) as Hg. pose proof (lk_memos Lk) as Hm. pose proof (lk_fields Lk) as Hf.
  pose proof (lk_sbs Lk) as B. pose proof (lk_slots Lk) as Es.
  unfold store_memo, get_slot, bind, get, put_slot, modify, ret in H. rewrite Hk, Es, updN_same in H.
  injection H as <- _.
  exists sl, (set_sl_memos sl0 (updN (sl_memos sl0) (fst q) (Some m))).
  cbn [set_slots d_slots d_revs d_nslots d_free d_ideal d_memo set_sl_memos sl_updated sl_gen sl_memos].
  destruct B as [Br _ _ _ Bm Bn Bf _ _ Bi]. repeat split; auto.
  - apply updN_same.
  - intros j Hj. rewrite updN_other by congruence. rewrite Es. apply updN_other. congruence.
  - apply updN_same.
  - intros fam Hf'. rewrite updN_other by congruence. apply Hm.
Qed.

(* [t2], the state [get_memo] reaches, differs from [s] at most by the read lock on the slot of [h] *)
Inductive spec_result (n : nat) (q : qk) (fam : N) (h : handle) (v : rval) (fr : frame) (s : db) :
  db -> frame -> Prop :=
(* try_claim fails, the key is on the stack: nothing happens *)
| SR_running : existsb (qk_eqb (fam, h)) (d_stack s) = true -> spec_result n q fam h v fr s s fr
(* the memo [old] was verified in this revision and holds a value that was not specified: that value
   stays, nothing is written (only what the invariant needs of this case is recorded) *)
| SR_kept t2 old :
    existsb (qk_eqb (fam, h)) (d_stack s) = false -> get_memo skind (fam, h) s = (t2, SOk (Some old)) ->
    m_verified old = cur t2 ->
    spec_result n q fam h v fr s t2 fr
(* the value is stored.  [fr1] is the frame at the time of [backdate]: [fr], or [fr] with the output edge
   already added when [q] itself specified the memo earlier in this revision; [ch] is the changed_at
   that [backdate] grants; [t5] is the state after [diff_outputs] discarded the struct outputs of the old
   memo; [u] is the unit result of [put_memo] *)
| SR_stored om t2 fr1 ch t5 s' u :
    existsb (qk_eqb (fam, h)) (d_stack s) = false -> get_memo skind (fam, h) s = (t2, SOk om) ->
    fr1 = fr \/ (exists old, om = Some old /\ m_verified old = cur t2) /\ fr1 = add_output fr (fam, h) ->
    backdate om (fr_dur fr1) (fr_changed fr1) v = SOk ch ->
    match om with
    | Some old => diff_outputs sfams n old (fam, h) (m_structs old) [] t2 = (t5, SOk tt)
    | None => t5 = t2
    end ->
    put_memo skind (fam, h) {| m_val := Some v; m_verified := cur t2; m_changed := ch; m_dur := fr_dur fr1;
                               m_origin := OAssigned q; m_edges := []; m_structs := [] |} t5 = (s', SOk u) ->
    spec_result n q fam h v fr s s' (add_output fr1 (fam, h)).

Lemma specify_cases n q fam h v fr s s' fr' :
  specify skind sfams n q fam h v fr s = (s', SOk fr') ->
  is_active (fr_ids fr) h = true /\ spec_result n q fam h v fr s s' fr'.
Proof.
  intros H. unfold specify in H.
  destruct (is_active (fr_ids fr) h); cbn [negb] in H; [|mstep H]. split; [reflexivity|].
  msplit H as x0 t0 H0. mstep H0.
  destruct (existsb (qk_eqb (fam, h)) (d_stack s)) eqn:Est; [mstep H; exact (SR_running _ _ _ _ _ _ _ Est)|].
  msplit H as om t2 H1. msplit H as x1 t3 H3. mstep H3. msplit H as early t4 H4.
  assert (Hearly : t4 = t2 /\
            (fst early = false /\ snd early = fr \/
             (exists old, om = Some old /\ m_verified old = cur t2) /\
             (early = (true, fr) \/ fst early = false /\ snd early = add_output fr (fam, h)))).
  { (* [early] is the result of the match on [om] in [specify]; without a memo, or with one that is
       not verified in this revision or has no value, it is (false, fr) *)
    clear H. destruct om as [old|]; [|mstep H4; auto].
    destruct (N.eqb_spec (m_verified old) (cur t2)) as [Ev | Ev]; cbn [andb] in H4; [|mstep H4; auto].
    assert (Hnow : exists old0, Some old = Some old0 /\ m_verified old0 = cur t2) by (exists old; auto).
    destruct (m_val old); [|mstep H4; auto].
    destruct (m_origin old) as [ (* ODerived *) | (* OUntracked *) | (* OAssigned *) by_ ].
    - (* a computed value wins: (true, fr) *)
      mstep H4. split; [reflexivity|]. right. split; [exact Hnow | left; reflexivity].
    - mstep H4. split; [reflexivity|]. right. split; [exact Hnow | left; reflexivity].
    - (* specified by [q] in this revision, not yet in this execution: (false, add_output fr key) *)
      destruct (negb (qk_eqb by_ q)); [mstep H4|].
      destruct (existsb (edge_eqb (EOut (fam, h))) (fr_edges fr)); [mstep H4|]. mstep H4.
      split; [reflexivity|]. right. split; [exact Hnow | right; split; reflexivity]. }
  clear H4. destruct Hearly as [-> Hearly].
  assert (Hfr1 : early = (true, fr) /\ (exists old, om = Some old /\ m_verified old = cur t2) \/
                 fst early = false /\
                 (snd early = fr \/ (exists old, om = Some old /\ m_verified old = cur t2) /\ snd early = add_output fr (fam, h))).
  { destruct Hearly as [(Ef & Es) | (Hnow & [E | (Ef & Es)])]; auto. }
  clear Hearly. destruct Hfr1 as [(-> & old & Eo & Ev) | (Ef & Hfr1)]; cbn [fst snd] in H.
  { mstep H. subst om. exact (SR_kept _ _ _ _ _ _ _ t2 old Est H1 Ev). }
  rewrite Ef in H.
  destruct (backdate om (fr_dur (snd early)) (fr_changed (snd early)) v) as [ch | p |] eqn:Eb; [|mstep H|mstep H].
  msplit H as u5 t5 H5. msplit H as u6 t6 H6. mstep H.
  apply (SR_stored _ _ _ _ _ _ _ om t2 (snd early) ch t5 t6 u6 Est H1 Hfr1 Eb); [|exact H6].
  destruct om as [old|]; [destruct u5; exact H5 | mstep H5; reflexivity].
Qed.

Lemma specify_oinv n q fam h v fr s F s' fr' :
  OInv s F -> In (q, fr) F -> skind fam = true -> ~ active_loc F (loc_of (fam, h)) ->
  specify skind sfams n q fam h v fr s = (s', SOk fr') ->
  OInv s' (set_frame F q fr') /\ frame_ids fr' = frame_ids fr.
Proof.
  intros I Hq Hk Hna H.
  assert (Hsame : forall t fr2, OInv t F -> frame_ids fr2 = frame_ids fr -> OInv t (set_frame F q fr2)).
  { intros t fr2 It E. exact (oinv_same_ids skind t F q fr fr2 It Hq E). }
  destruct (specify_cases _ _ _ _ _ _ _ _ _ H)
    as (Eact & [ (* SR_running *) _ | (* SR_kept *) t1 old _ H1 _
               | (* SR_stored *) om t1 fr1 ch t5 t6 u6 _ H1 Hfr1 _ H5 H6 ]).
  { (* SR_running *) split; [apply Hsame; auto | reflexivity]. }
  all: unfold get_memo in H1; cbn [fst snd] in H1; rewrite Hk in H1; msplit H1 as slL t2 H2; mstep H1.
  all: assert (IL : OInv t2 F) by exact (lock_oinv _ _ _ _ _ I H2).
  { (* SR_kept: only the read lock was taken *) split; [apply Hsame; auto | reflexivity]. }
  (* SR_stored *)
  destruct (lock_spec _ _ _ _ H2) as [sl0 Lk0].
  pose proof (lk_at Lk0) as Hs0. pose proof (lk_live Lk0) as Hu0. pose proof (lk_now Lk0) as HuL.
  pose proof (lk_gen Lk0) as HgL. pose proof (lk_memos Lk0) as HmL. pose proof (lk_fields Lk0) as HfL.
  pose proof (lk_sbs Lk0) as BL. pose proof (lk_slots Lk0) as EsL.
  assert (HsL : d_slots t2 (fst h) = Some slL) by (rewrite EsL; apply updN_same).
  assert (HcurL : cur t2 = cur s) by exact (sbs_cur _ _ BL).
  assert (Hids : frame_ids (add_output fr1 (fam, h)) = frame_ids fr) by (destruct Hfr1 as [-> | (_ & ->)]; reflexivity).
  set (newm := {| m_val := Some v; m_verified := cur t2; m_changed := ch; m_dur := fr_dur fr1;
                  m_origin := OAssigned q; m_edges := []; m_structs := [] |}) in *.
  split; [|exact Hids].
  apply Hsame; [|exact Hids].
  set (i := fst h) in *.
  assert (Hh_own : owns t2 F (OwF q) h).
  { apply (owns_frame t2 F q fr h Hq). apply is_active_in. exact Eact. }
  (* the outputs of the old memo, if there is one, are discarded *)
  set (roots := match sl_memos slL fam with Some old => diff_roots old (m_structs old) | None => [] end).
  assert (HC : exists e, casc t2 t5 e /\ parents sfams t2 roots e).
  { unfold roots. destruct (sl_memos slL fam) as [old|].
    - destruct (diff_outputs_casc n old (fam, h) (m_structs old) [] t2 t5 H5) as (e & C & P & _). exists e. auto.
    - subst t5. exists []. split; [apply casc_refl | intros c []]. }
  destruct HC as (e & C & P).
  assert (Hroot : ~ In i (map fst e)).
  { apply (casc_untouched t2 t5 e i slL C HsL). right. now rewrite HuL, HcurL. }
  (* the states with the old memo of (fam, h) conceptually removed beforehand *)
  set (slM := set_sl_memos slL (updN (sl_memos slL) fam None)).
  set (sM := set_slots t2 (updN (d_slots t2) i (Some slM))).
  set (s1M := set_slots t5 (updN (d_slots t5) i (Some slM))).
  assert (IM : OInv sM F).
  { apply (oinv_rewrite skind t2 F _ i slL slM IL HsL); auto.
    - rewrite HuL. discriminate.
    - cbn [slM set_sl_memos sl_updated]. rewrite HuL. discriminate.
    - intros fam'. cbn [slM set_sl_memos sl_memos]. unfold updN. destruct (fam =? fam'); [right | left]; reflexivity. }
  assert (Hpk : forall l m0, peek_memo sM l = Some m0 -> peek_memo t2 l = Some m0).
  { intros l m0. unfold Machine.peek_memo. cbn [sM set_slots d_memo d_slots].
    destruct (skind (fst l)); [|auto]. unfold updN at 1. destruct (N.eqb_spec i (snd l)) as [<- | En]; [|auto].
    rewrite HsL. cbn [slM set_sl_memos sl_updated sl_memos]. destruct (sl_updated slL); [|discriminate].
    unfold updN. destruct (fam =? fst l); [discriminate | auto]. }
  assert (Hroots : forall r, In r roots -> live sM r /\ forall o x, owns sM F o x -> fst x <> fst r).
  { intros r Hr. unfold roots in Hr. destruct (sl_memos slL fam) as [old|] eqn:Eold; [|destruct Hr].
    apply (memo_removed skind t2 sM F fam i r IL).
    - apply (memo_owns skind t2 F i slL fam old r HsL); auto; [rewrite HuL; discriminate|].
      unfold diff_roots in Hr. destruct (m_origin old); auto. destruct Hr.
    - exact Hpk.
    - unfold Machine.peek_memo. cbn [fst snd sM set_slots d_slots]. rewrite Hk, updN_same.
      cbn [slM set_sl_memos sl_updated sl_memos]. destruct (sl_updated slL); [apply updN_same | reflexivity].
    - intros j Hj. cbn [sM set_slots d_slots]. apply updN_other. congruence.
    - exists (OwF q), h. split; [exact Hh_own|]. split; [reflexivity | discriminate]. }
  assert (I1M : OInv s1M F).
  { apply (oinv_casc skind sfams sfams_skind sM F s1M e roots IM).
    - exact (casc_reslot t2 t5 e i (Some slM) C Hroot).
    - exact (parents_reslot sfams t2 i (Some slM) _ e P Hroot).
    - intros r Hr. exact (proj1 (Hroots r Hr)).
    - intros r o x Hr. exact (proj2 (Hroots r Hr) o x). }
  (* the new memo takes the place left empty *)
  destruct (put_memo_spec (fam, h) newm t5 t6 u6 Hk H6)
    as (sl & sl' & Hs & Hu & Hs' & Hoth' & Hu' & Hg' & Hf' & Hmq & Hmo & Er' & En' & Ef' & Ei' & Em').
  cbn [fst snd] in *. fold i in Hs, Hs', Hoth'.
  rewrite (cs_other _ _ _ C i Hroot), HsL in Hs. injection Hs as <-.
  apply (oinv_store skind s1M F t6 F (fam, h) newm (OwM (loc_of (fam, h))) I1M); auto.
  - right. split; [exact Hk|]. split; [intros l; now rewrite Em'|].
    exists slM, sl'. cbn [fst snd s1M set_slots d_slots]. fold i.
    split; [apply updN_same|]. split; [exact Hu|]. split; [exact Hs'|].
    split; [intros j Hj; rewrite Hoth' by exact Hj; symmetry; apply updN_other; congruence|].
    split; [rewrite Hu', (casc_cur _ _ _ C), HcurL; exact (eq_sym HuL)|].
    split; [exact Hg'|]. split; [exact Hf'|]. split; [exact Hmq|].
    intros fam' Hf2. rewrite (Hmo fam' Hf2). cbn [slM set_sl_memos sl_memos]. symmetry. apply updN_other. congruence.
  - exact (oi_frames _ _ _ I1M).
  - intros _. cbn. constructor.
  - intros _ x [].
Qed.


(* ---- seeding a frame from a stored memo ---- *)
Lemma insert_entry_ids l key id a :
  (forall x, In x (map te_id (insert_entry l key id a)) -> In x (map te_id l) \/ x = id) /\
  (NoDup (map fst (map te_id l)) -> ~ In (fst id) (map fst (map te_id l)) ->
   NoDup (map fst (map te_id (insert_entry l key id a)))).
Proof.
  destruct (insert_spec key id a l) as [(_ & ->) | (l1 & e & l2 & -> & _ & _ & ->)].
  - split.
    + intros x Hx. rewrite map_app in Hx. apply in_app_or in Hx. destruct Hx as [Hx | [<- | []]]; auto.
    + intros Hnd Hni. rewrite map_app. apply nodup_fst_append; assumption.
  - split.
    + intros x. rewrite !frame_ids_app. intros Hx. apply in_app_or in Hx.
      destruct Hx as [Hx | [<- | Hx]]; [left; apply in_or_app; auto | right; reflexivity | left; apply in_or_app; right; right; exact Hx].
    + intros Hnd Hni. rewrite frame_ids_app in *. cbn [mk_entry te_id].
      apply (nodup_fst_replace _ _ (te_id e)); [exact Hnd | right; exact Hni].
Qed.

Lemma seed_ids_spec : forall src l,
  NoDup (map fst (map te_id l)) -> NoDup (map fst (map snd src)) ->
  (forall x y, In x (map te_id l) -> In y (map snd src) -> fst x <> fst y) ->
  NoDup (map fst (map te_id (seed_ids l src))) /\
  forall h, In h (map te_id (seed_ids l src)) -> In h (map te_id l) \/ In h (map snd src).
Proof.
  unfold seed_ids. induction src as [|kv src IH]; intros l Hl Hs Hd; cbn [fold_left].
  - split; [exact Hl | auto].
  - cbn [map] in Hs. apply NoDup_cons_iff in Hs. destruct Hs as [Hk Hs].
    destruct (insert_entry_ids l (fst kv) (snd kv) false) as [Hsub Hnd].
    destruct (IH (insert_entry l (fst kv) (snd kv) false)) as [Hn Hi].
    + apply Hnd; [exact Hl|]. intros Hin. apply in_map_iff in Hin. destruct Hin as (x & Ex & Hx).
      exact (Hd x (snd kv) Hx (or_introl eq_refl) Ex).
    + exact Hs.
    + intros x y Hx Hy E. destruct (Hsub x Hx) as [Hx0 | ->].
      * exact (Hd x y Hx0 (or_intror Hy) E).
      * apply Hk. rewrite E. apply in_map. exact Hy.
    + split; [exact Hn|]. intros h Hh. destruct (Hi h Hh) as [Hh1 | Hh2].
      * destruct (Hsub h Hh1) as [? | ->]; [left; assumption | right; left; reflexivity].
      * right. right. exact Hh2.
Qed.

Lemma seed_frame_ids old :
  NoDup (map fst (match old with Some o => mids o | None => [] end)) ->
  NoDup (map fst (frame_ids (seed_frame old))) /\
  forall h, In h (frame_ids (seed_frame old)) -> exists o, old = Some o /\ In h (mids o).
Proof.
  intros Hom. unfold seed_frame. destruct old as [o|].
  - unfold frame_ids. cbn [fr_ids set_fr_ids].
    destruct (seed_ids_spec (m_structs o) []) as [Hn Hi]; [constructor | exact Hom | intros x y [] |].
    split; [exact Hn|]. intros h Hh. exists o. split; [reflexivity|]. destruct (Hi h Hh) as [[] | Hh2]. exact Hh2.
  - split; [constructor | intros h []].
Qed.

(* a frame is added for q whose ids are held by q's stored memo *)
Lemma oinv_begin_gen s F q fr :
  OInv s F -> ~ active_loc F (loc_of q) ->
  (skind (fst q) = true -> exists sl, d_slots s (fst (snd q)) = Some sl /\ sl_updated sl = Some (cur s)) ->
  NoDup (map fst (frame_ids fr)) ->
  (forall h, In h (frame_ids fr) -> exists m, peek_memo s (loc_of q) = Some m /\ In h (mids m)) ->
  OInv s ((q, fr) :: F).
Proof.
  intros I Hna Hlk Hnd Hsub.
  set (phi := fun o : owner => match o with OwF q' => if qk_eqb q' q then OwM (loc_of q) else o | _ => o end).
  apply oinv_intro.
  - exact (oinv_store_ok _ _ _ I).
  - apply (own_transfer0 skind s F s ((q, fr) :: F) phi (oinv_own _ _ _ I)); [| | auto].
    + intros [q' | l] ids; cbn [Machine.owner_ids phi].
      * intros (fr' & Hin & ->). destruct Hin as [Hin | Hin].
        -- injection Hin as -> ->. rewrite qk_eqb_refl. split; [exact Hnd|].
           intros h Hh. destruct (Hsub h Hh) as (m & Hm & Hhm). exists (mids m). split; [|exact Hhm].
           split; [exact Hna | exists m; auto].
        -- destruct (qk_eqb q' q) eqn:E.
           ++ apply qk_eqb_eq in E. subst q'. exfalso. apply Hna. exists q, fr'. auto.
           ++ assert (Ho : owner_ids s F (OwF q') (frame_ids fr')) by (exists fr'; auto).
              split; [exact (oi_nodup _ _ _ I _ _ Ho)|]. intros h Hh. exists (frame_ids fr'). auto.
      * intros (Hna' & m & Hm & ->).
        assert (Ho : owner_ids s F (OwM l) (mids m)).
        { split; [|exists m; auto]. intros (q' & fr' & Hin & El). apply Hna'. exists q', fr'. split; [right; exact Hin | exact El]. }
        split; [exact (oi_nodup _ _ _ I _ _ Ho)|]. intros h Hh. exists (mids m). auto.
    + intros o1 o2 ids1 ids2 h1 h2 Ho1 Ho2 _ _ E.
      destruct o1 as [q1 | l1], o2 as [q2 | l2]; cbn [phi] in E.
      * destruct (qk_eqb q1 q) eqn:E1, (qk_eqb q2 q) eqn:E2.
        -- apply qk_eqb_eq in E1, E2. congruence.
        -- discriminate.
        -- discriminate.
        -- exact E.
      * destruct (qk_eqb q1 q) eqn:E1; [|discriminate]. injection E as <-.
        exfalso. destruct Ho2 as (Hna2 & _). apply Hna2. exists q, fr. split; [left; reflexivity | reflexivity].
      * destruct (qk_eqb q2 q) eqn:E2; [|discriminate]. injection E as ->.
        exfalso. destruct Ho1 as (Hna1 & _). apply Hna1. exists q, fr. split; [left; reflexivity | reflexivity].
      * exact E.
  - intros q' fr' [Hin | Hin] Hk; [injection Hin as <- _; exact (Hlk Hk) | exact (oi_locked _ _ _ I q' fr' Hin Hk)].
  - cbn [flocs map fst]. constructor; [|exact (oi_frames _ _ _ I)].
    intros Hin. apply Hna. apply active_loc_flocs. exact Hin.
Qed.

Lemma oinv_begin s F q :
  OInv s F -> ~ active_loc F (loc_of q) ->
  (skind (fst q) = true -> exists sl, d_slots s (fst (snd q)) = Some sl /\ sl_updated sl = Some (cur s)) ->
  OInv s ((q, seed_frame (peek_memo s (loc_of q))) :: F).
Proof.
  intros I Hna Hlk.
  assert (Hom : NoDup (map fst (match peek_memo s (loc_of q) with Some o => mids o | None => [] end))).
  { destruct (peek_memo s (loc_of q)) as [o|] eqn:Eo; [|constructor].
    apply (oi_nodup _ _ _ I (OwM (loc_of q))). split; [exact Hna | exists o; auto]. }
  destruct (seed_frame_ids _ Hom) as [Hnd Hsub].
  apply oinv_begin_gen; [exact I | exact Hna | exact Hlk | exact Hnd |].
  intros h Hh. destruct (Hsub h Hh) as (o & Eo & Hin). exists o. auto.
Qed.


(* a change of the revision counters only *)
Lemma oinv_newrev s s' :
  OInv s [] -> d_slots s' = d_slots s -> d_memo s' = d_memo s -> d_nslots s' = d_nslots s ->
  d_free s' = d_free s -> d_ideal s' = d_ideal s -> OInv s' [].
Proof.
  intros I. apply (oinv_ext skind s s' [] I). intros E. exfalso. exact (E eq_refl).
Qed.

Lemma oinv_init iv idur : OInv (init iv idur) [].
Proof.
  assert (Hno : forall o ids, ~ owner_ids (init iv idur) [] o ids).
  { intros [q | l] ids; cbn [Machine.owner_ids].
    - intros (fr & [] & _).
    - intros (_ & m & Hm & _). unfold Machine.peek_memo in Hm. cbn [init d_slots d_memo] in Hm.
      destruct (skind (fst l)); discriminate. }
  apply oinv_intro.
  - constructor; cbn [init d_slots d_nslots d_free d_ideal].
    + intros i. split; [intros _; lia | reflexivity].
    + constructor.
    + intros i g [].
    + intros i sl H. discriminate.
    + intros i g x [].
    + intros i sl H. discriminate.
  - split; [|split].
    + intros o h (ids & Ho & _). destruct (Hno _ _ Ho).
    + intros o1 o2 h1 h2 (ids & Ho & _). destruct (Hno _ _ Ho).
    + intros o ids Ho. destruct (Hno _ _ Ho).
  - intros q fr [].
  - constructor.
Qed.

(* ---- every event of the machine preserves the invariant ---- *)
Theorem mstep_oinv n s F e s' F' :
  OInv s F -> mstep skind sfams idhash n (s, F) e = Some (s', F') -> OInv s' F'.
Proof.
  intros I H. assert (HF : NoDup (flocs F)) by exact (oi_frames _ _ _ I).
  destruct e as [q | q d c | q idv f0 f1 | q v | q fam h v | i | q m | ]; cbn [mstep] in H.
  - (* MBegin *)
    destruct (active_locb F (loc_of q)) eqn:Ea; [discriminate|].
    assert (Hna : ~ active_loc F (loc_of q)).
    { intros Ha. apply active_locb_spec in Ha. congruence. }
    destruct (skind (fst q)) eqn:Hk.
    + destruct ((acquire_read_lock (fst (snd q));;; ret tt) s) as [s1 [u | p |]] eqn:El; try discriminate.
      injection H as <- <-.
      msplit El as sl0 t0 H0. mstep El.
      pose proof (lock_oinv _ _ _ _ _ I H0) as I1.
      apply oinv_begin; auto. intros _.
      destruct (lock_spec _ _ _ _ H0) as [sl Lk].
      pose proof (lk_at Lk) as Hs. pose proof (lk_live Lk) as Hu. pose proof (lk_now Lk) as Hu'.
      pose proof (lk_sbs Lk) as B. pose proof (lk_slots Lk) as Es.
      exists sl0. rewrite Es, updN_same. split; [reflexivity|]. rewrite Hu'. f_equal. symmetry. exact (sbs_cur _ _ B).
    + cbn [ret] in H. injection H as <- <-. apply oinv_begin; auto. intros Hc. congruence.
  - (* MStamp *)
    destruct (find_frame F q) as [fr|] eqn:Ef; [|discriminate]. injection H as <- <-.
    pose proof (find_frame_in _ _ _ Ef) as Hq.
    apply (oinv_frames skind s F _ I); [apply flocs_set_frame|].
    intros q' fr' Hin. apply (in_set_frame F q fr _ q' fr' HF Hq) in Hin. destruct Hin as [[-> ->] | [_ Hin]].
    + exists fr. split; [exact Hq|]. split; [auto|]. apply (oi_nodup _ _ _ I (OwF q)). exists fr. auto.
    + exists fr'. split; [exact Hin|]. split; [auto|]. apply (oi_nodup _ _ _ I (OwF q')). exists fr'. auto.
  - (* MNew *)
    destruct (find_frame F q) as [fr|] eqn:Ef; [|discriminate].
    pose proof (find_frame_in _ _ _ Ef) as Hq.
    destruct (new_struct skind sfams idhash n q idv f0 f1 fr s) as [s1 [[h fr1] | p |]] eqn:En; try discriminate.
    injection H as <- <-. exact (proj1 (new_struct_oinv _ _ _ _ _ _ _ _ _ _ _ I Hq En)).
  - (* MEnd *)
    destruct (find_frame F q) as [fr|] eqn:Ef; [|discriminate].
    pose proof (find_frame_in _ _ _ Ef) as Hq.
    destruct (finish_exec skind sfams n q (peek_memo s (loc_of q)) v fr s) as [s1 [m | p |]] eqn:En; try discriminate.
    injection H as <- <-. exact (proj1 (finish_oinv _ _ _ _ _ _ _ _ _ I Hq En)).
  - (* MSpecify *)
    destruct (find_frame F q) as [fr|] eqn:Ef; [|discriminate].
    pose proof (find_frame_in _ _ _ Ef) as Hq.
    destruct (active_locb F (loc_of (fam, h))) eqn:Ea; [discriminate|].
    destruct (skind fam) eqn:Hk; [|discriminate]. cbn [orb negb] in H.
    destruct (specify skind sfams n q fam h v fr s) as [s1 [fr1 | p |]] eqn:En; try discriminate.
    injection H as <- <-.
    assert (Hna : ~ active_loc F (loc_of (fam, h))).
    { intros Ha. apply active_locb_spec in Ha. congruence. }
    exact (proj1 (specify_oinv _ _ _ _ _ _ _ _ _ _ I Hq Hk Hna En)).
  - (* MLock *)
    destruct (acquire_read_lock i s) as [s1 [sl | p |]] eqn:El; try discriminate.
    injection H as <- <-. exact (lock_oinv _ _ _ _ _ I El).
  - (* MTouch *)
    destruct (peek_memo s (loc_of q)) as [old|] eqn:Eo; [|discriminate].
    destruct (active_locb F (loc_of q)) eqn:Ea; [discriminate|].
    assert (Hna : ~ active_loc F (loc_of q)).
    { intros Ha. apply active_locb_spec in Ha. congruence. }
    destruct (hlist_eqb (mids m) (mids old)) eqn:Eh; [|discriminate].
    destruct (store_memo skind q m s) as [s1 [u | p |]] eqn:Es; try discriminate.
    injection H as <- <-.
    assert (Eids : mids m = mids old) by (apply hlist_eqb_eq; exact Eh).
    assert (Hold : owner_ids s F (OwM (loc_of q)) (mids old)) by (split; [exact Hna | exists old; auto]).
    apply (store_memo_oinv s F _ F q m (OwM (loc_of q)) u I Es (peek_some_live skind s q old Eo)); auto.
    + intros _. rewrite Eids. exact (oi_nodup _ _ _ I _ _ Hold).
    + intros _ h Hh. exists (mids old). split; [exact Hold | rewrite <- Eids; exact Hh].
  - (* MRev *)
    destruct F as [|? ?]; [|discriminate]. injection H as <- <-.
    apply (oinv_newrev s _ I); reflexivity.
Qed.

End Step.
