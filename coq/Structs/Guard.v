(* Structs/Guard.v — the handle-safety monitor of the executable Structs model.

   The executable model (like the Rust) looks memos and fields up by slot INDEX: a tracked
   function called through an id whose generation is not the slot's current one would read and
   overwrite the memo table of the slot's present occupant.  Whether a program ever does that is
   a semantic question (a body can only hold ids it created or received in results, and a result
   that was validated must still be current: this is what from-scratch soundness gives, see STop.v).  This file
   makes the assumption EXPLICIT and EXECUTABLE instead of hiding it: [glevel] is [level] with a
   monitor at every tracked-function call (fetch / maybe_changed_after) that stops the run
   (panic) when the key is not current — a struct key must be the current id of a live slot, an
   input key has generation 0.  Definitions and the refinement lemma only: whenever the monitored
   run returns normally, the unmonitored model returns the same result in the same state (the
   monitor never fired), so every statement about successful monitored runs is a statement about
   the executable model on handle-safe runs. *)
From Salsa Require Import Base.
From Salsa.Kern Require Import CoreK.
From Salsa.Structs Require Import Model ProofsBase ProofsSpecify.

Section Guard.
Variable prog : qk -> body.
Variable skind : N -> bool.
Variable sfams : list N.
Variable idhash : val -> N.

Definition cur_okb (s : db) (q : qk) : bool :=
  if skind (fst q) then
    match d_slots s (fst (snd q)) with
    | Some sl => match sl_updated sl with Some _ => sl_gen sl =? snd (snd q) | None => false end
    | None => false
    end
  else snd (snd q) =? 0.

Definition guard {A} (q : qk) (m : M A) : M A :=
  fun s => if cur_okb s q then m s else (s, SPanic PLock).

Fixpoint glevel (n : nat) : lower :=
  match n with
  | O => bottom
  | S n' => let l := glevel n' in
            {| l_fetch := fun q => guard q (fetch prog skind sfams idhash l q);
               l_mca := fun q since => guard q (mca prog skind sfams idhash l q since);
               l_fuel := n |}
  end.

(* the API with the monitored levels *)
Definition gstep (fuel : nat) (s : db) (o : op) : db * out :=
  match o with
  | OGet q =>
      match guard q (fetch prog skind sfams idhash (glevel fuel) q) s with
      | (s', SOk (v, _, _)) => (s', SOk v)
      | (s', SPanic p) => (set_stack s' [], SPanic p)
      | (s', SFuel) => (s', SFuel)
      end
  | OGetS fam q i =>
      match guard q (fetch prog skind sfams idhash (glevel fuel) q) s with
      | (s', SOk (v, _, _)) =>
          match nth_error (snd v) (N.to_nat i) with
          | None => (s', SOk (255, []))
          | Some h =>
              match guard (fam, h) (fetch prog skind sfams idhash (glevel fuel) (fam, h)) s' with
              | (s'', SOk (v', _, _)) => (s'', SOk v')
              | (s'', SPanic p) => (set_stack s'' [], SPanic p)
              | (s'', SFuel) => (s'', SFuel)
              end
          end
      | (s', SPanic p) => (set_stack s' [], SPanic p)
      | (s', SFuel) => (s', SFuel)
      end
  | _ => step prog skind sfams idhash fuel s o
  end.

Fixpoint grun_ops (fuel : nat) (s : db) (os : list op) : db * list out :=
  match os with
  | [] => (s, [])
  | o :: os' =>
      let '(s1, r) := gstep fuel s o in
      let '(s2, rs) := grun_ops fuel s1 os' in
      (s2, r :: rs)
  end.

(* ---------------------------------------------------------------- refinement *)
Definition mref {A} (m' m : M A) : Prop := forall s s' a, m' s = (s', SOk a) -> m s = (s', SOk a).

Lemma mref_refl {A} (m : M A) : mref m m.
Proof. intros s s' a H. exact H. Qed.

Lemma mref_bind {A B} (m' m : M A) (f' f : A -> M B) :
  mref m' m -> (forall a, mref (f' a) (f a)) -> mref (bind m' f') (bind m f).
Proof.
  intros Hm Hf s s' b H. msplit H as a s1 H1.
  rewrite (bind_run _ _ _ _ _ (Hm _ _ _ H1)). exact (Hf a _ _ _ H).
Qed.

Definition refines (L' L : lower) : Prop :=
  l_fuel L' = l_fuel L /\
  (forall q, mref (l_fetch L' q) (l_fetch L q)) /\
  (forall q since, mref (l_mca L' q since) (l_mca L q since)).

Lemma guard_ok {A} q (m : M A) s s' a : guard q m s = (s', SOk a) -> cur_okb s q = true /\ m s = (s', SOk a).
Proof. unfold guard. destruct (cur_okb s q); [auto | discriminate]. Qed.

Section Ref.
Variables L' L : lower.
Hypothesis HR : refines L' L.

Lemma run_body_ref q : forall b fr,
  mref (run_body skind sfams idhash L' q b fr) (run_body skind sfams idhash L q b fr).
Proof.
  destruct HR as (Hf & Hfe & Hm).
  induction b as [v hs | i k IH | c k IH | c k IH | k IH | idv f0 f1 k IH | h f k IH | h k IH | fam h v k IH];
    intros fr; cbn [run_body]; rewrite ?Hf.
  - apply mref_refl.
  - apply mref_bind; [apply mref_refl | intros s0; apply IH].
  - apply mref_bind; [apply Hfe | intros [[v d] ch]; apply IH].
  - apply mref_bind; [apply mref_refl | intros s0; apply IH].
  - apply mref_bind; [apply mref_refl | intros s0; apply IH].
  - apply mref_bind; [apply mref_refl | intros r; apply IH].
  - apply mref_bind; [apply mref_refl | intros r; apply IH].
  - apply mref_bind; [apply mref_refl | intros r; apply IH].
  - apply mref_bind; [apply mref_refl | intros r; apply IH].
Qed.

Lemma walk_edges_ref q since : forall es,
  mref (walk_edges skind L' q es since) (walk_edges skind L q es since).
Proof.
  destruct HR as (Hf & Hfe & Hm).
  induction es as [|e es IH]; cbn [walk_edges]; [apply mref_refl|].
  destruct e as [i | c | h f | o].
  - apply mref_bind; [apply mref_refl | intros s0].
    destruct (changed_after (f_changed (d_in s0 i)) since); [apply mref_refl | exact IH].
  - apply mref_bind; [apply Hm | intros [|]; [apply mref_refl | exact IH]].
  - apply mref_bind; [apply mref_refl | intros [|]; [apply mref_refl | exact IH]].
  - apply mref_bind; [apply mref_refl | intros _; exact IH].
Qed.

Lemma deep_verify_ref q m : mref (deep_verify skind L' q m) (deep_verify skind L q m).
Proof.
  unfold deep_verify. destruct (m_origin m); try apply mref_refl.
  apply mref_bind; [apply walk_edges_ref | intros c; apply mref_refl].
Qed.

Lemma verify_memo_ref q m : mref (verify_memo skind L' q m) (verify_memo skind L q m).
Proof.
  unfold verify_memo. apply mref_bind; [apply mref_refl | intros s0].
  destruct (shallow_verify s0 m); [apply mref_refl | apply mref_refl | apply deep_verify_ref].
Qed.

Lemma execute_ref q old :
  mref (execute prog skind sfams idhash L' q old) (execute prog skind sfams idhash L q old).
Proof.
  unfold execute. rewrite (proj1 HR).
  apply mref_bind; [apply mref_refl | intros _].
  apply mref_bind; [apply run_body_ref | intros r; apply mref_refl].
Qed.

Lemma fetch_cold_ref q :
  mref (fetch_cold prog skind sfams idhash L' q) (fetch_cold prog skind sfams idhash L q).
Proof.
  unfold fetch_cold. apply mref_bind; [apply mref_refl | intros _].
  apply mref_bind; [apply mref_refl | intros old]. apply mref_bind.
  - destruct old as [m|]; [|apply mref_refl]. destruct (m_val m) as [v|]; [|apply mref_refl].
    apply mref_bind; [apply verify_memo_ref | intros r; apply mref_refl].
  - intros [mv|]; [apply mref_refl|].
    apply mref_bind; [apply execute_ref | intros m; apply mref_refl].
Qed.

Lemma fetch_ref q : mref (fetch prog skind sfams idhash L' q) (fetch prog skind sfams idhash L q).
Proof.
  unfold fetch. apply mref_bind; [apply mref_refl | intros hot].
  apply mref_bind; [|intros r; apply mref_refl].
  destruct hot; [apply mref_refl | apply fetch_cold_ref].
Qed.

Lemma mca_cold_ref q since :
  mref (mca_cold prog skind sfams idhash L' q since) (mca_cold prog skind sfams idhash L q since).
Proof.
  unfold mca_cold. apply mref_bind; [apply mref_refl | intros _].
  apply mref_bind; [apply mref_refl | intros [old|]]; [|apply mref_refl].
  apply mref_bind; [apply verify_memo_ref | intros r0].
  destruct (fst r0); [apply mref_refl|]. destruct (m_val old) as [v|]; [|apply mref_refl].
  apply mref_bind; [apply execute_ref | intros m; apply mref_refl].
Qed.

Lemma mca_ref q since : mref (mca prog skind sfams idhash L' q since) (mca prog skind sfams idhash L q since).
Proof.
  unfold mca. apply mref_bind; [apply mref_refl | intros [m|]].
  - apply mref_bind; [apply mref_refl | intros s0].
    destruct (shallow_verify s0 m); [apply mref_refl | apply mref_refl | apply mca_cold_ref].
  - apply mref_refl.
Qed.

End Ref.

Lemma glevel_refines n : refines (glevel n) (level prog skind sfams idhash n).
Proof.
  induction n as [|n IH]; cbn [glevel level].
  - split; [reflexivity|]. split; intros; discriminate.
  - split; [reflexivity|]. split.
    + intros q s s' r H. cbn [l_fetch] in *. apply guard_ok in H. destruct H as [_ H].
      exact (fetch_ref _ _ IH q _ _ _ H).
    + intros q since s s' b H. cbn [l_mca] in *. apply guard_ok in H. destruct H as [_ H].
      exact (mca_ref _ _ IH q since _ _ _ H).
Qed.

(* the shape of Get in [step] and [gstep] *)
Lemma unwind_ok (m : M qres) (k : db -> rval -> db * out) s s' v :
  match m s with
  | (s1, SOk (v1, _, _)) => k s1 v1
  | (s1, SPanic p) => (set_stack s1 [], SPanic p)
  | (s1, SFuel) => (s1, SFuel)
  end = (s', SOk v) ->
  exists s1 v1 d c, m s = (s1, SOk (v1, d, c)) /\ k s1 v1 = (s', SOk v).
Proof.
  destruct (m s) as [s1 [[[v1 d] c] | p |]]; [|discriminate|discriminate].
  intros H. exists s1, v1, d, c. auto.
Qed.

(* whenever the monitored operation returns normally, so does the executable model, with the
   same result and the same state *)
Lemma gstep_step fuel s o s' v :
  gstep fuel s o = (s', SOk v) -> step prog skind sfams idhash fuel s o = (s', SOk v).
Proof.
  pose proof (glevel_refines fuel) as HR.
  destruct o as [i x d | d | c x | q | fam q i | ]; cbn [gstep step]; auto; intros H.
  - apply (unwind_ok _ (fun s1 v1 => (s1, SOk v1))) in H. destruct H as (s1 & v1 & d & c & E & K).
    apply guard_ok in E. rewrite (fetch_ref _ _ HR _ _ _ _ (proj2 E)). exact K.
  - apply (unwind_ok _ (fun s1 v1 => match nth_error (snd v1) (N.to_nat i) with
                                     | None => (s1, SOk (255, []))
                                     | Some h => _ end)) in H.
    destruct H as (s1 & v1 & d & c & E & K).
    apply guard_ok in E. rewrite (fetch_ref _ _ HR _ _ _ _ (proj2 E)).
    destruct (nth_error (snd v1) (N.to_nat i)) as [h|]; [|exact K].
    apply (unwind_ok _ (fun s2 v2 => (s2, SOk v2))) in K. destruct K as (s2 & v2 & d2 & c2 & E2 & K).
    apply guard_ok in E2. rewrite (fetch_ref _ _ HR _ _ _ _ (proj2 E2)). exact K.
Qed.

End Guard.
