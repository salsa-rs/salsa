(* Structs/SParam.v — the from-scratch value does not depend on the allocator's naming of
   handles.  Two consistent worlds with the same inputs and cells but ARBITRARY allocators give a
   query the same data value, and struct lists that correspond position by position: the i-th
   handles were created by the same query under the same identity with the same fields.
   Hypothesis: the bodies are parametric in handles (they only pass handles around: `brel`);
   this is Kripke parametricity (SParamK.v) at a relation that does not grow, hence holds for the
   programs of the DSL (table_param). *)
From Salsa Require Import Base.
From Salsa.Structs Require Import Model Dsl Machine SimExamples SSem SInv SRun STop SAdeq SDsl SParamK.

(* ---------------------------------------------------------------- parametricity of bodies *)
Section Rel.
Variable rho : handle -> handle -> Prop.

Definition rrel (r r' : rval) : Prop := fst r = fst r' /\ Forall2 rho (snd r) (snd r').

Inductive brel : body -> body -> Prop :=
| br_ret v hs hs' : Forall2 rho hs hs' -> brel (Ret v hs) (Ret v hs')
| br_in i k k' : (forall v, brel (k v) (k' v)) -> brel (RdIn i k) (RdIn i k')
| br_call c k k' : (forall r r', rrel r r' -> brel (k r) (k' r')) -> brel (CallQ c k) (CallQ c k')
| br_cell c k k' : (forall v, brel (k v) (k' v)) -> brel (RdCell c k) (RdCell c k')
| br_touch k k' : brel k k' -> brel (Touch k) (Touch k')
| br_new idv f0 f1 k k' : (forall h h', rho h h' -> brel (k h) (k' h')) -> brel (NewStruct idv f0 f1 k) (NewStruct idv f0 f1 k')
| br_fld h h' f k k' : rho h h' -> (forall v, brel (k v) (k' v)) -> brel (RdField h f k) (RdField h' f k')
| br_idf h h' k k' : rho h h' -> (forall v, brel (k v) (k' v)) -> brel (RdIdField h k) (RdIdField h' k').
End Rel.

Definition parametric (prog : qk -> body) : Prop := forall rho q, brel rho (prog q) (prog q).

(* ---------------------------------------------------------------- the semantic theorem *)
Section Indep.
Variable prog : qk -> body.
Variable idhash : val -> N.
Variable rank : qk -> nat.
Hypothesis Hrank : calls_below prog rank.
Variable NF : nat.
Hypothesis Hbound : forall q, (rank q < NF)%nat.
Hypothesis Hpar : parametric prog.

Notation Ew := (Ew idhash prog NF).
Notation trw := (trw idhash prog NF).
Notation envw := (envw idhash prog NF).
Notation clos := (clos idhash prog NF).
Notation wcons := (wcons prog idhash NF).

Variables w w' : world.
Variable q : qk.
Hypothesis Hin : forall i, w_in w i = w_in w' i.
Hypothesis Hcell : forall c, w_cell w c = w_cell w' c.
Hypothesis Hc : wcons w q.
Hypothesis Hc' : wcons w' q.

(* the same creation in the two worlds *)
Definition crel (h h' : handle) : Prop :=
  exists d id idv f0 f1, clos w q d /\ clos w' q d /\
    In (RNew id idv f0 f1) (trw w d) /\ In (RNew id idv f0 f1) (trw w' d) /\
    h = w_alloc w d id /\ h' = w_alloc w' d id.

Lemma crel_slot h h' : crel h h' -> w_slot w h = w_slot w' h'.
Proof.
  intros (d & id & idv & f0 & f1 & Q & Q' & I & I' & -> & ->).
  rewrite (Hc d Q id idv f0 f1 I), (Hc' d Q' id idv f0 f1 I'). reflexivity.
Qed.

Definition related_at (d : qk) : Prop := clos w q d -> clos w' q d -> rrel crel (Ew w d) (Ew w' d).

(* lockstep run of two related residual bodies of d *)
Lemma lockstep d : clos w q d -> clos w' q d -> (forall c, (rank c < rank d)%nat -> related_at c) ->
  forall b b', brel crel b b' -> forall dis,
  incl (trace idhash (envw w d) b dis) (trw w d) -> incl (trace idhash (envw w' d) b' dis) (trw w' d) ->
  rrel crel (run idhash (envw w d) b dis) (run idhash (envw w' d) b' dis).
Proof.
  intros Q Q' IH b b' Hb. induction Hb as [v hs hs' Hhs | i k k' Hk IHk | c k k' Hk IHk | c k k' Hk IHk | k k' Hk IHk
                                          | idv f0 f1 k k' Hk IHk | h h' f k k' Hh Hk IHk | h h' k k' Hh Hk IHk];
    intros dis Ht Ht'; cbn [run trace] in *.
  - split; [reflexivity | exact Hhs].
  - cbn [envw mkenv e_in] in *. rewrite <- Hin in *. apply IHk; intros x Hx; [apply Ht | apply Ht']; right; exact Hx.
  - assert (I1 : In (RQ c) (trw w d)) by (apply Ht; left; reflexivity).
    assert (I2 : In (RQ c) (trw w' d)) by (apply Ht'; left; reflexivity).
    assert (Hr : rrel crel (Ew w c) (Ew w' c)).
    { apply (IH c); [exact (trw_calls idhash prog rank Hrank NF w d c I1) | eapply clos_right; eassumption | eapply clos_right; eassumption]. }
    cbn [envw mkenv e_q] in *. apply (IHk _ _ Hr); intros x Hx; [apply Ht | apply Ht']; right; exact Hx.
  - cbn [envw mkenv e_cell] in *. rewrite <- Hcell in *. apply IHk; intros x Hx; [apply Ht | apply Ht']; right; exact Hx.
  - apply IHk; intros x Hx; [apply Ht | apply Ht']; right; exact Hx.
  - cbn [envw mkenv e_new] in *.
    assert (Hr : crel (w_alloc w d (nident idhash dis idv)) (w_alloc w' d (nident idhash dis idv))).
    { exists d, (nident idhash dis idv), idv, f0, f1. split; [exact Q|]. split; [exact Q'|].
      split; [apply Ht; left; reflexivity|]. split; [apply Ht'; left; reflexivity|]. split; reflexivity. }
    apply (IHk _ _ Hr); intros x Hx; [apply Ht | apply Ht']; right; exact Hx.
  - cbn [envw mkenv e_slot] in *. rewrite <- (crel_slot h h' Hh) in *.
    apply IHk; intros x Hx; [apply Ht | apply Ht']; right; exact Hx.
  - cbn [envw mkenv e_slot] in *. rewrite <- (crel_slot h h' Hh) in *.
    apply IHk; intros x Hx; [apply Ht | apply Ht']; right; exact Hx.
Qed.

Lemma indep_all : forall n d, (rank d < n)%nat -> related_at d.
Proof.
  induction n as [|n IH]; intros d Hn; [inversion Hn|].
  intros Q Q'. rewrite !(Ew_unfold Hrank Hbound).
  apply (lockstep d Q Q'); [intros c Hc0; apply IH; lia | apply Hpar | |]; intros x Hx; exact Hx.
Qed.

Theorem allocator_independent : rrel crel (Ew w q) (Ew w' q).
Proof. exact (indep_all (S (rank q)) q (le_n _) (clos_refl _ _ _ _ _) (clos_refl _ _ _ _ _)). Qed.

Corollary allocator_independent_value : fst (Ew w q) = fst (Ew w' q).
Proof. exact (proj1 allocator_independent). Qed.

End Indep.

(* ---------------------------------------------------------------- the DSL is parametric *)
Lemma brelK_const rho m b b' : brelK (fun _ => rho) m b b' -> brel rho b b'.
Proof.
  intros H. induction H as [m v hs hs' Hhs | m i k k' Hk IHk | m c k k' Hk IHk | m c k k' Hk IHk | m k k' Hk IHk
                            | m idv f0 f1 k k' Hk IHk | m h h' f k k' Hh Hk IHk | m h h' k k' Hh Hk IHk].
  - constructor. exact Hhs.
  - constructor. exact IHk.
  - constructor. intros r r' Hr. exact (IHk m r r' (le_n m) Hr).
  - constructor. exact IHk.
  - constructor. exact IHk.
  - constructor. intros h h' Hh. exact (IHk m h h' (le_n m) Hh).
  - constructor; [exact Hh | exact IHk].
  - constructor; [exact Hh | exact IHk].
Qed.

Lemma parametricK_parametric prog : parametricK prog -> parametric prog.
Proof. intros H rho q. exact (brelK_const rho 0%nat _ _ (H (fun _ => rho) (fun _ _ _ _ _ Hr => Hr) 0%nat q)). Qed.

Theorem table_param nk tbl : forallb (fun ne => s1wf (snd ne)) tbl = true -> parametric (prog_of nk skind0 tbl).
Proof. intros Hwf. exact (parametricK_parametric _ (table_paramK nk tbl Hwf)). Qed.
