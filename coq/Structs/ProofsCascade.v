(* Structs/ProofsCascade.v — what a successful deletion cascade (delete_entity / clear_memos)
   does to the slot store, for every store and every id: exactly the slots of a set [ext] of
   handles die (write-lock None, memo table reset, pushed on the free list in order), each of
   them was live and not read-locked in this revision, nothing else changes, and every dead
   handle is a root or was listed by a memo of another handle that died. *)
From Salsa Require Import Base.
From Salsa.Kern Require Import CoreK.
From Salsa.Structs Require Import Model ProofsBase Machine.

Definition dead (sl : slot) : slot := set_sl_memos (set_sl_updated sl None) (fun _ => None).

(* c is listed by a memo stored in p's slot *)
Definition child_of (sfams : list N) (s : db) (p c : handle) : Prop :=
  exists sl fam m, d_slots s (fst p) = Some sl /\ In fam sfams /\ sl_memos sl fam = Some m /\ In c (mids m).

Record casc (s s' : db) (ext : list handle) : Prop := {
  cs_revs : d_revs s' = d_revs s;
  cs_cc : d_ccount s' = d_ccount s;
  cs_in : d_in s' = d_in s;
  cs_cell : d_cell s' = d_cell s;
  cs_memo : d_memo s' = d_memo s;
  cs_nslots : d_nslots s' = d_nslots s;
  cs_stack : d_stack s' = d_stack s;
  cs_cname : d_cname s' = d_cname s;
  cs_ideal : d_ideal s' = d_ideal s;
  cs_free : d_free s' = d_free s ++ ext;
  cs_nodup : NoDup (map fst ext);
  cs_died : forall c, In c ext ->
      exists sl, d_slots s (fst c) = Some sl /\ sl_updated sl <> None /\
                 sl_updated sl <> Some (cur s) /\ d_slots s' (fst c) = Some (dead sl);
  cs_other : forall j, ~ In j (map fst ext) -> d_slots s' j = d_slots s j
}.

Definition parents (sfams : list N) (s : db) (roots ext : list handle) : Prop :=
  forall c, In c ext -> In c roots \/ exists p, In p ext /\ child_of sfams s p c.

Lemma casc_refl s : casc s s [].
Proof.
  constructor; try reflexivity.
  - now rewrite app_nil_r.
  - constructor.
  - intros c [].
Qed.

Lemma casc_cur s s' e : casc s s' e -> cur s' = cur s.
Proof. intros H. unfold cur. now rewrite (cs_revs _ _ _ H). Qed.

(* only the log changed *)
Lemma casc_log s l : casc s (set_log s l) [].
Proof.
  constructor; try reflexivity.
  - cbn. now rewrite app_nil_r.
  - constructor.
  - intros c [].
Qed.

Lemma casc_trans s s1 s2 e1 e2 :
  casc s s1 e1 -> casc s1 s2 e2 -> casc s s2 (e1 ++ e2).
Proof.
  intros A B.
  assert (Hdisj : forall c1 c2, In c1 e1 -> In c2 e2 -> fst c1 <> fst c2).
  { intros c1 c2 H1 H2 E.
    destruct (cs_died _ _ _ A c1 H1) as (sl & _ & _ & _ & Hd).
    destruct (cs_died _ _ _ B c2 H2) as (sl2 & Hs & Hu & _).
    rewrite <- E, Hd in Hs. injection Hs as <-. apply Hu. reflexivity. }
  pose proof A as [? ? ? ? ? ? ? ? ? _ _ _ _]. pose proof B as [? ? ? ? ? ? ? ? ? _ _ _ _].
  constructor; try congruence.
  - rewrite (cs_free _ _ _ B), (cs_free _ _ _ A). now rewrite app_assoc.
  - rewrite map_app. apply nodup_app.
    + exact (cs_nodup _ _ _ A).
    + exact (cs_nodup _ _ _ B).
    + intros j H1 H2. apply in_map_iff in H1. destruct H1 as (c1 & <- & H1).
      apply in_map_iff in H2. destruct H2 as (c2 & E & H2). exact (Hdisj c1 c2 H1 H2 (eq_sym E)).
  - intros c Hc. apply in_app_or in Hc. destruct Hc as [Hc | Hc].
    + destruct (cs_died _ _ _ A c Hc) as (sl & Hs & Hu & Hl & Hd).
      exists sl. repeat split; auto.
      rewrite (cs_other _ _ _ B); [exact Hd|].
      intros Hin. apply in_map_iff in Hin. destruct Hin as (c2 & E & H2).
      exact (Hdisj c c2 Hc H2 (eq_sym E)).
    + destruct (cs_died _ _ _ B c Hc) as (sl & Hs & Hu & Hl & Hd).
      exists sl. rewrite (casc_cur _ _ _ A) in Hl. repeat split; auto.
      rewrite <- (cs_other _ _ _ A); [exact Hs|].
      intros Hin. apply in_map_iff in Hin. destruct Hin as (c1 & E & H1).
      exact (Hdisj c1 c H1 Hc E).
  - intros j Hj. rewrite map_app in Hj.
    rewrite (cs_other _ _ _ B), (cs_other _ _ _ A); [reflexivity | | ];
      intros Hin; apply Hj; apply in_or_app; auto.
Qed.

Lemma casc_slot s s' e j :
  casc s s' e ->
  (exists c sl, In c e /\ fst c = j /\ d_slots s j = Some sl /\ sl_updated sl <> None /\
                sl_updated sl <> Some (cur s) /\ d_slots s' j = Some (dead sl)) \/
  (~ In j (map fst e) /\ d_slots s' j = d_slots s j).
Proof.
  intros C. destruct (in_dec N.eq_dec j (map fst e)) as [Hin | Hnin].
  - left. apply in_map_iff in Hin. destruct Hin as (c & <- & Hc).
    destruct (cs_died _ _ _ C c Hc) as (sl & Hs & Hu & Hl & Hd). exists c, sl. repeat split; assumption.
  - right. split; [exact Hnin | exact (cs_other _ _ _ C j Hnin)].
Qed.

Lemma casc_untouched s s' e j sl :
  casc s s' e -> d_slots s j = Some sl -> sl_updated sl = None \/ sl_updated sl = Some (cur s) ->
  ~ In j (map fst e) /\ d_slots s' j = Some sl.
Proof.
  intros C Hs Hu. destruct (casc_slot s s' e j C) as [(c & sl0 & _ & _ & Hs0 & Hn & Hl & _) | (Hnin & E)].
  - rewrite Hs in Hs0. injection Hs0 as <-. destruct Hu; contradiction.
  - split; [exact Hnin | now rewrite E].
Qed.

Lemma casc_after_log s l s' e : casc (set_log s l) s' e -> casc s s' e.
Proof. exact (casc_trans _ _ _ _ _ (casc_log s l)). Qed.

(* a cascade does not look at a slot it does not kill *)
Lemma casc_reslot s s1 e i x :
  casc s s1 e -> ~ In i (map fst e) ->
  casc (set_slots s (updN (d_slots s) i x)) (set_slots s1 (updN (d_slots s1) i x)) e.
Proof.
  intros C Hi. pose proof C as [? ? ? ? ? ? ? ? ? ? ? _ _].
  constructor; cbn [set_slots d_revs d_ccount d_in d_cell d_memo d_nslots d_stack d_cname d_ideal d_free d_slots];
    try assumption.
  - intros c Hc. destruct (cs_died _ _ _ C c Hc) as (slc & Hsc & Huc & Hlc & Hdc).
    assert (Hci : i <> fst c) by (intros ->; apply Hi, in_map, Hc).
    exists slc. rewrite !updN_other by exact Hci. auto.
  - intros j Hj. unfold updN. destruct (i =? j); [reflexivity | exact (cs_other _ _ _ C j Hj)].
Qed.

(* ---- primitive steps ---- *)
Lemma get_slot_ok i s s' sl : get_slot i s = (s', SOk sl) -> s' = s /\ d_slots s i = Some sl.
Proof.
  unfold get_slot. intros H. msplit H as x t H1. mstep H1.
  destruct (d_slots s i) eqn:E; [mstep H; auto | mstep H].
Qed.

Lemma put_slot_ok i sl s s' u : put_slot i sl s = (s', SOk u) -> s' = set_slots s (updN (d_slots s) i (Some sl)).
Proof. unfold put_slot. intros H. mstep H. reflexivity. Qed.

Lemma emit_ok e s s' u : emit e s = (s', SOk u) -> s' = set_log s (e :: d_log s).
Proof. unfold emit. intros H. mstep H. reflexivity. Qed.

Lemma dead_memos sl fam : sl_memos (dead sl) fam = None.
Proof. reflexivity. Qed.

Lemma dead_updated sl : sl_updated (dead sl) = None.
Proof. reflexivity. Qed.

Section Casc.
Variable sfams : list N.

(* slots that died hold no memos, so a parent/child link seen later was there before *)
Lemma child_of_back s s1 e p c : casc s s1 e -> child_of sfams s1 p c -> child_of sfams s p c.
Proof.
  intros A (sl & fam & m & Hs & Hf & Hm & Hc).
  destruct (casc_slot s s1 e (fst p) A) as [(c1 & sl0 & _ & _ & _ & _ & _ & Hd) | (_ & E)].
  - rewrite Hs in Hd. injection Hd as ->. rewrite dead_memos in Hm. discriminate.
  - exists sl, fam, m. rewrite <- E. auto.
Qed.

Lemma iterM_casc {A} (f : A -> M unit) (roots : A -> list handle) :
  forall l s s',
  (forall x s1 s2, In x l -> f x s1 = (s2, SOk tt) ->
     exists e, casc s1 s2 e /\ parents sfams s1 (roots x) e /\ (forall r, In r (roots x) -> In r e)) ->
  iterM f l s = (s', SOk tt) ->
  exists e, casc s s' e /\ parents sfams s (flat_map roots l) e /\
            (forall r, In r (flat_map roots l) -> In r e).
Proof.
  induction l as [|x l IH]; intros s s' Hf H; cbn [iterM flat_map] in *.
  - mstep H. exists []. split; [apply casc_refl|]. split; [intros c []| intros r []].
  - msplit H as u t H1. destruct u.
    destruct (Hf x s t (or_introl eq_refl) H1) as (e1 & A1 & P1 & R1).
    destruct (IH t s' (fun y s1 s2 Hy => Hf y s1 s2 (or_intror Hy)) H) as (e2 & A2 & P2 & R2).
    exists (e1 ++ e2). split; [exact (casc_trans _ _ _ _ _ A1 A2)|]. split.
    + intros c Hc. apply in_app_or in Hc. destruct Hc as [Hc | Hc].
      * destruct (P1 c Hc) as [Hr | (p & Hp & Hch)].
        -- left. apply in_or_app; auto.
        -- right. exists p. split; [apply in_or_app; auto | exact Hch].
      * destruct (P2 c Hc) as [Hr | (p & Hp & Hch)].
        -- left. apply in_or_app; auto.
        -- right. exists p. split; [apply in_or_app; auto | exact (child_of_back _ _ _ _ _ A1 Hch)].
    + intros r Hr. apply in_app_or in Hr. apply in_or_app. destruct Hr; auto.
Qed.

Lemma parents_log s l roots e : parents sfams (set_log s l) roots e -> parents sfams s roots e.
Proof. intros P. exact P. Qed.

Lemma parents_reslot s i x roots e :
  parents sfams s roots e -> ~ In i (map fst e) ->
  parents sfams (set_slots s (updN (d_slots s) i x)) roots e.
Proof.
  intros P Hi c Hc. destruct (P c Hc) as [Hr | (p & Hp & sl & fam & m & Hs & H)]; [left; exact Hr|].
  right. exists p. split; [exact Hp|]. exists sl, fam, m. split; [|exact H].
  cbn [set_slots d_slots]. rewrite updN_other; [exact Hs|]. intros ->. apply Hi, in_map, Hp.
Qed.

Lemma iterM_casc_each {A} (f : A -> M unit) (g : A -> handle) l s s' :
  (forall x s1 s2, f x s1 = (s2, SOk tt) -> exists e, casc s1 s2 e /\ In (g x) e /\ parents sfams s1 [g x] e) ->
  iterM f l s = (s', SOk tt) ->
  exists e, casc s s' e /\ parents sfams s (map g l) e /\ (forall r, In r (map g l) -> In r e).
Proof.
  intros Hf H. rewrite <- flat_map_single.
  refine (iterM_casc f (fun x => [g x]) l s s' _ H).
  intros x s1 s2 _ Hx. destruct (Hf x s1 s2 Hx) as (e & C & Hin & P).
  exists e. split; [exact C|]. split; [exact P|]. intros r [<- | []]. exact Hin.
Qed.

Definition memo_roots (sl : slot) (fam : N) : list handle :=
  match sl_memos sl fam with Some m => mids m | None => [] end.

(* the children loop of one memo table *)
Lemma children_casc n' (sl : slot) :
  (forall h s s', delete_entity sfams n' h s = (s', SOk tt) ->
     exists e, casc s s' e /\ In h e /\ parents sfams s [h] e) ->
  forall (hd : handle) s s',
  iterM (fun fam =>
           match sl_memos sl fam with
           | None => ret tt
           | Some m => emit (EvDiscardM (fam, hd)) ;;; iterM (fun kv => delete_entity sfams n' (snd kv)) (m_structs m)
           end) sfams s = (s', SOk tt) ->
  exists e, casc s s' e /\ parents sfams s (flat_map (memo_roots sl) sfams) e /\
            (forall r, In r (flat_map (memo_roots sl) sfams) -> In r e).
Proof.
  intros IHn hd s s' H.
  refine (iterM_casc _ (memo_roots sl) sfams s s' _ H).
  intros fam s1 s2 _ Hf. unfold memo_roots. destruct (sl_memos sl fam) as [m|].
  - msplit Hf as u t H1. apply emit_ok in H1. subst t.
    destruct (iterM_casc_each _ snd (m_structs m) _ _ (fun kv => IHn (snd kv)) Hf) as (e & C & P & R).
    exists e. split; [exact (casc_after_log _ _ _ _ C)|]. split; [exact (parents_log _ _ _ _ P) | exact R].
  - mstep Hf. exists []. split; [apply casc_refl|]. split; [intros c [] | intros r []].
Qed.

Lemma in_memo_roots sl c : In c (flat_map (memo_roots sl) sfams) ->
  exists fam m, In fam sfams /\ sl_memos sl fam = Some m /\ In c (mids m).
Proof.
  rewrite in_flat_map. intros (fam & Hf & Hc). unfold memo_roots in Hc.
  destruct (sl_memos sl fam) as [m|] eqn:E; [|destruct Hc]. eauto.
Qed.

(* delete_entity: the cascade from one id *)
Lemma delete_casc : forall n h s s', delete_entity sfams n h s = (s', SOk tt) ->
  exists e, casc s s' e /\ In h e /\ parents sfams s [h] e.
Proof.
  induction n as [|n' IHn]; intros h s s' H; cbn [delete_entity] in H; [mstep H|].
  unfold emit, get_slot, bind, get, put_slot, modify, ret, fail in H. cbn [set_log d_slots] in H.
  destruct (d_slots s (fst h)) as [sl|] eqn:Hsl; [|discriminate].
  destruct (sl_updated sl) as [r|] eqn:Hupd; [|discriminate].
  change (cur (set_log s (EvDiscardS h :: d_log s))) with (cur s) in H.
  destruct (N.eqb_spec r (cur s)) as [Hr | Hr]; [discriminate|].
  set (sA := set_slots (set_log s (EvDiscardS h :: d_log s))
                       (updN (d_slots (set_log s (EvDiscardS h :: d_log s))) (fst h) (Some (set_sl_updated sl None)))) in *.
  match type of H with context [iterM ?f sfams sA] =>
    destruct (iterM f sfams sA) as [t4 [[]|p|]] eqn:H4; [|discriminate|discriminate] end.
  destruct (children_casc n' sl IHn h sA t4 H4) as (e & A & P & R).
  destruct (d_slots t4 (fst h)) as [sl2|] eqn:Hsl2; [|discriminate].
  injection H as <-.
  (* the root slot is not among the children's dead *)
  assert (HsA : d_slots sA (fst h) = Some (set_sl_updated sl None)).
  { unfold sA. cbn [set_slots d_slots]. apply updN_same. }
  assert (Hroot : ~ In (fst h) (map fst e)) by exact (proj1 (casc_untouched _ _ _ _ _ A HsA (or_introl eq_refl))).
  assert (Ha3 : sl2 = set_sl_updated sl None).
  { rewrite (cs_other _ _ _ A _ Hroot), HsA in Hsl2. injection Hsl2; auto. }
  subst sl2.
  assert (HsAo : forall j, j <> fst h -> d_slots sA j = d_slots s j).
  { intros j Hj. unfold sA. cbn [set_slots d_slots set_log]. apply updN_other. congruence. }
  pose proof A as [? ? ? ? ? ? ? ? ? _ _ _ _].
  exists (e ++ [h]). split; [|split].
  - constructor; cbn [set_free set_slots set_log d_revs d_ccount d_in d_cell d_memo d_nslots d_stack d_cname d_ideal d_free d_slots];
      try assumption.
    + rewrite (cs_free _ _ _ A). unfold sA. cbn [set_slots set_log d_free]. now rewrite app_assoc.
    + rewrite map_app. apply nodup_app; [exact (cs_nodup _ _ _ A) | cbn; constructor; [intros []|constructor] |].
      intros j Hj [<- | []]. exact (Hroot Hj).
    + intros c Hc. apply in_app_or in Hc. destruct Hc as [Hc | [<- | []]].
      * destruct (cs_died _ _ _ A c Hc) as (slc & Hs & Hu & Hl & Hd).
        assert (Hne : fst c <> fst h).
        { intros E. apply Hroot. rewrite <- E. apply in_map. exact Hc. }
        exists slc. rewrite HsAo in Hs by exact Hne. repeat split; auto.
        rewrite updN_other by congruence. exact Hd.
      * exists sl. repeat split.
        -- exact Hsl.
        -- rewrite Hupd. discriminate.
        -- rewrite Hupd. intros E. injection E as E. exact (Hr E).
        -- rewrite updN_same. reflexivity.
    + intros j Hj. rewrite map_app in Hj.
      assert (Hjh : j <> fst h). { intros ->. apply Hj. apply in_or_app. right. left. reflexivity. }
      rewrite updN_other by congruence.
      rewrite (cs_other _ _ _ A); [apply HsAo; exact Hjh|].
      intros Hin. apply Hj. apply in_or_app. auto.
  - apply in_or_app. right. left. reflexivity.
  - intros c Hc. apply in_app_or in Hc. destruct Hc as [Hc | [<- | []]]; [|left; left; reflexivity].
    right. destruct (P c Hc) as [Hroots | (p & Hp & Hch)].
    + exists h. split; [apply in_or_app; right; left; reflexivity|].
      destruct (in_memo_roots _ _ Hroots) as (fam & m & Hf & Hm & Hcm).
      exists sl, fam, m. auto.
    + exists p. split; [apply in_or_app; auto|].
      destruct Hch as (slp & fam & m & Hs & Hf & Hm & Hcm).
      assert (Hne : fst p <> fst h).
      { intros E. apply Hroot. rewrite <- E. apply in_map. exact Hp. }
      exists slp, fam, m. rewrite <- (HsAo _ Hne). auto.
Qed.

Lemma emit_then_delete ev n h s s' :
  (emit ev ;;; delete_entity sfams n h) s = (s', SOk tt) ->
  exists e, casc s s' e /\ In h e /\ parents sfams s [h] e.
Proof.
  intros H. msplit H as u t H1. apply emit_ok in H1. subst t.
  destruct (delete_casc n _ _ _ H) as (e & C & Hin & P).
  exists e. split; [exact (casc_after_log _ _ _ _ C)|]. split; [exact Hin | exact (parents_log _ _ _ _ P)].
Qed.

Lemma emits_casc {A} (ev : A -> event) l : forall s s',
  iterM (fun x => emit (ev x)) l s = (s', SOk tt) -> casc s s' [].
Proof.
  induction l as [|x l IH]; intros s s' H; cbn [iterM] in H.
  - mstep H. apply casc_refl.
  - msplit H as u t H1. apply emit_ok in H1. subst t. exact (casc_after_log _ _ _ _ (IH _ _ H)).
Qed.

(* clear_memos (the `update` path): the root slot stays, its memo table is reset *)
Lemma clear_memos_casc n h s s' sl :
  d_slots s (fst h) = Some sl -> sl_updated sl = None ->
  clear_memos sfams n h s = (s', SOk tt) ->
  exists e s1, casc s s1 e /\ ~ In (fst h) (map fst e) /\
               s' = set_slots s1 (updN (d_slots s1) (fst h) (Some (set_sl_memos sl (fun _ => None)))) /\
               parents sfams s (flat_map (memo_roots sl) sfams) e /\
               (forall r, In r (flat_map (memo_roots sl) sfams) -> In r e).
Proof.
  intros Hsl Hupd H. unfold clear_memos in H.
  msplit H as sl0 t0 H0. apply get_slot_ok in H0. destruct H0 as [-> Hsl']. rewrite Hsl in Hsl'. injection Hsl' as <-.
  msplit H as u1 t1 H1. destruct u1.
  destruct (children_casc n sl (delete_casc n) h s t1 H1) as (e & A & P & R).
  msplit H as sl2 t2 H2. apply get_slot_ok in H2. destruct H2 as [-> Hsl2].
  apply put_slot_ok in H.
  assert (Hroot : ~ In (fst h) (map fst e)) by exact (proj1 (casc_untouched _ _ _ _ _ A Hsl (or_introl Hupd))).
  rewrite (cs_other _ _ _ A _ Hroot), Hsl in Hsl2. injection Hsl2 as <-.
  exists e, t1. auto.
Qed.

End Casc.
