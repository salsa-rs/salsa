(* Structs/S1b.v — the from-scratch theorem for [s1b_ops] histories (STop2.v), stated from the initial
   state and without the ghost worlds, and its non-vacuity example: synthetic writes of any
   durability and untracked-cell writes. *)
From Coq Require Import Arith.
From Salsa Require Import Base.
From Salsa.Kern Require Import CoreK.
From Salsa.Structs Require Import Model ProofsBase Dsl Machine Theorems Sim Examples SSem SInv SRun SVerify SStale STop STop2 SAdeq SDsl SParamK S1Examples.

Theorem from_scratch_S1b_init :
  forall (prog : qk -> body) (skind : N -> bool) (idhash : val -> N) (rank : qk -> nat) (NF : nat),
  calls_below prog rank -> (forall q, (rank q < NF)%nat) ->
  no_forge idhash prog -> (forall q, nospec (prog q)) -> (forall f, skind f = false) ->
  (forall q d, calls (prog q) d -> gk d) -> (forall q d, calls (prog q) d -> first_read (prog d)) ->
  forall fuel iv os,
  s1b_ops prog true os -> 1 + 2 * N.of_nat (length os) < GMAX ->
  Forall2 okout os (snd (run_ops prog skind [] idhash fuel (init iv (fun _ => 0)) os)) ->
  gets_scratch prog skind idhash NF fuel (init iv (fun _ => 0)) os.
Proof.
  intros prog skind idhash rank NF Hrank Hbound Hprov Hns Hnk Hgk Hfirst fuel iv os Hops Hb Hok.
  apply (gets_ok_scratch prog skind idhash NF rank Hrank Hbound Hprov).
  apply (from_scratch_S1b prog skind idhash rank Hrank NF Hbound Hprov Hgk Hnk Hfirst Hns fuel os _ 0 true).
  - apply init_ok.
  - intros _. apply fresh_init.
  - cbn. unfold REV_START. lia.
  - exact Hb.
  - exact Hops.
  - exact Hok.
Qed.

Theorem dependents_S1b :
  forall (prog : qk -> body) (skind : N -> bool) (idhash : val -> N) (rank : qk -> nat) (NF : nat),
  calls_below prog rank -> (forall q, (rank q < NF)%nat) ->
  no_forge idhash prog -> (forall q, nospec (prog q)) -> (forall f, skind f = false) ->
  (forall q d, calls (prog q) d -> gk d) -> (forall q d, calls (prog q) d -> first_read (prog d)) ->
  forall fuel iv os,
  s1b_ops prog true os -> 1 + 2 * N.of_nat (length os) < GMAX ->
  Forall2 okout os (snd (run_ops prog skind [] idhash fuel (init iv (fun _ => 0)) os)) ->
  forall os1 q os2, os = os1 ++ OGet q :: os2 ->
  let s1 := fst (run_ops prog skind [] idhash fuel (init iv (fun _ => 0)) os1) in
  let s' := fst (step prog skind [] idhash fuel s1 (OGet q)) in
  exists v, snd (step prog skind [] idhash fuel s1 (OGet q)) = SOk v /\
            (forall w, same_inputs (wcur s') w -> wcons prog idhash NF w q -> v = Ew idhash prog NF w q) /\
            wcons prog idhash NF (wcur s') q /\
            (forall h, In h (snd v) -> live s' h).
Proof.
  intros prog skind idhash rank NF Hrank Hbound Hprov Hns Hnk Hgk Hfirst fuel iv os Hops Hb Hok os1 q os2 E.
  apply (gets_scratch_prefix prog skind idhash NF fuel os1 _ q os2). rewrite <- E.
  exact (from_scratch_S1b_init prog skind idhash rank NF Hrank Hbound Hprov Hns Hnk Hgk Hfirst fuel iv os Hops Hb Hok).
Qed.

(* ---------------------------------------------------------------- stale ids, top-level form *)
(* after any prefix of an [s1b_ops] history: claim a query q whose stored memo m is not verified in the
   current revision and walk m's recorded edges exactly as deep verification does (any level n).
   If the walk answers "unchanged", every tracked-field edge of m is on the current id of a live
   slot.  So a dependent with a field edge on a deleted / reused id is never validated. *)
Theorem stale_edges_S1b :
  forall (prog : qk -> body) (skind : N -> bool) (idhash : val -> N) (rank : qk -> nat) (NF : nat),
  calls_below prog rank -> (forall q, (rank q < NF)%nat) ->
  no_forge idhash prog -> (forall q, nospec (prog q)) -> (forall f, skind f = false) ->
  (forall q d, calls (prog q) d -> gk d) -> (forall q d, calls (prog q) d -> first_read (prog d)) ->
  forall fuel iv os,
  s1b_ops prog true os -> 1 + 2 * N.of_nat (length os) < GMAX ->
  Forall2 okout os (snd (run_ops prog skind [] idhash fuel (init iv (fun _ => 0)) os)) ->
  forall os1 os2, os = os1 ++ os2 ->
  let s := fst (run_ops prog skind [] idhash fuel (init iv (fun _ => 0)) os1) in
  forall q m n s' b,
  gk q -> d_memo s (loc_of q) = Some m -> m_verified m < cur s ->
  walk_edges skind (level prog skind [] idhash n) q (m_edges m) (m_verified m) (set_stack s [q]) = (s', SOk b) ->
  forall h f, In (EFld h f) (m_edges m) -> ~ live s' h -> b = true.
Proof.
  intros prog skind idhash rank NF Hrank Hbound Hprov Hns Hnk Hgk Hfirst fuel iv os Hops Hb Hok os1 os2 E s q m n s' b
         Hg Hm Hv Hw h f Hin Hnl.
  assert (T0 : TopOK prog skind idhash NF (init iv (fun _ => 0))) by apply init_ok.
  assert (Hc0 : cur (init iv (fun _ => 0)) < GMAX) by (cbn; unfold REV_START, GMAX; lia).
  destruct (from_scratch_S1b_tops prog skind idhash rank Hrank NF Hbound Hprov Hgk Hnk Hfirst Hns fuel os _ 0 true T0
              (fun _ => fresh_init iv _)) as [_ Ht]; [cbn; unfold REV_START; lia | exact Hb | exact Hops | exact Hok|].
  rewrite E in Ht.
  destruct (tops_prefix prog skind idhash NF fuel os1 _ os2 T0 Hc0 Ht) as [(Hs & I & Hst) Hc]. fold s in I, Hst, Hc.
  destruct (claim_ok prog skind idhash rank Hrank NF Hbound Hprov Hgk Hnk Hs s [] q (set_stack s (q :: d_stack s)) tt I Hg) as (_ & I1 & X1 & _).
  { unfold claim, bind, get, modify. cbv beta. rewrite Hst. cbn [existsb]. cbv beta. rewrite ?Hst. reflexivity. }
  rewrite Hst in I1.
  apply (stale_field_edge_changed prog skind idhash rank Hrank NF Hbound Hprov Hgk Hnk Hfirst Hns n Hs q m (set_stack s [q]) [] s' b h f I1 Hg);
    try assumption.
  - left. reflexivity.
  - intros (q' & fr & [] & _).
Qed.

(* ---------------------------------------------------------------- example *)
(* the program of S1Examples plus  cr = (5,0): cell 0 + rd(0) *)
Definition r2_nodes : list ((N * N) * expr) :=
  r1_nodes ++ [((5, 0), EOp BAdd (ECell 0) (ECall 4 (ELit 0)))].
Definition r2_frank (fam : N) : nat := if fam =? 5 then 2%nat else if fam =? 4 then 1%nat else 0%nat.
Definition r2_NF : nat := 3.
Definition r2_ops : list op :=
  [OSetCell 0 10; OGet (5, (0, 0)); OSynth 2; OSetCell 0 20; OGet (5, (0, 0));
   OSet (0, 0) 0 None; OGet (5, (0, 0)); OEntries].

Notation r2_prog := (prog_of r1_nk skind0 r2_nodes).
Notation r2_run := (run_ops r2_prog skind0 [] r1_idhash 40%nat (init (lookup3 r1_ival) (fun _ => 0)) r2_ops).

Lemma r2_wf : forallb (fun ne => s1wf (snd ne)) r2_nodes = true.
Proof. vm_compute. reflexivity. Qed.
Lemma r2_rk : forallb (fun ne => forallb (fun fam' => Nat.ltb (r2_frank fam') (r2_frank (fst (fst ne)))) (efams (snd ne))) r2_nodes = true.
Proof. vm_compute. reflexivity. Qed.
Lemma r2_cf : forallb (fun ne => forallb (fun fam' => existsb (N.eqb fam') [1; 4]) (efams (snd ne))) r2_nodes = true.
Proof. vm_compute. reflexivity. Qed.
Lemma r2_fr : forallb (fun fam => forallb (fun k => first_readb (compile r1_nk None (lookup_node r2_nodes (fam, N.of_nat k))))
                                          (seq 0 (N.to_nat r1_nk))) [1; 4] = true.
Proof. vm_compute. reflexivity. Qed.
Lemma r2_bound : forall q : qk, (r2_frank (fst q) < r2_NF)%nat.
Proof. intros q. unfold r2_frank, r2_NF. destruct (fst q =? 5); [auto|]. destruct (fst q =? 4); auto. Qed.
Lemma r2_ops_ok : s1b_ops r2_prog true r2_ops.
Proof. cbn. repeat split; auto. Qed.
Lemma r2_answers : Forall2 okout r2_ops (snd r2_run).
Proof. apply all_okb_ok. vm_compute. reflexivity. Qed.

(* 10 + 3; after the synthetic write and the cell write 20 + 3; after in0 := 0: 20 + 99 *)
Example r2_outputs :
  snd r2_run = [SOk (0, []); SOk (13, []); SOk (0, []); SOk (0, []); SOk (23, []);
                SOk (0, []); SOk (119, []); SOk (0, [])].
Proof. vm_compute. reflexivity. Qed.

Lemma r2_hyps :
  calls_below r2_prog (fun q => r2_frank (fst q)) /\ (forall q : qk, (r2_frank (fst q) < r2_NF)%nat) /\
  no_forge r1_idhash r2_prog /\ (forall q, nospec (r2_prog q)) /\ (forall f, skind0 f = false) /\
  (forall q d, calls (r2_prog q) d -> gk d) /\ (forall q d, calls (r2_prog q) d -> first_read (r2_prog d)) /\
  s1b_ops r2_prog true r2_ops /\ 1 + 2 * N.of_nat (length r2_ops) < GMAX /\
  Forall2 okout r2_ops (snd r2_run).
Proof.
  split; [exact (table_calls_below r1_nk r2_nodes r2_wf r2_frank r2_rk)|].
  split; [exact r2_bound|].
  split; [exact (table_no_forge r1_idhash r1_nk r2_nodes r2_wf)|].
  split; [exact (table_nospec r1_nk r2_nodes r2_wf)|].
  split; [intros f; reflexivity|].
  split; [exact (table_gk r1_nk r2_nodes r2_wf)|].
  split; [exact (table_first r1_nk r2_nodes r1_nk0 r2_wf [1; 4] r2_cf r2_fr)|].
  split; [exact r2_ops_ok|].
  split; [vm_compute; reflexivity | exact r2_answers].
Qed.

(* the restriction on cell writes is necessary: a cell write after a Get of the same revision is
   not seen by the next Get (the memo verified in this revision is served) *)
Example r2_cell_after_get_is_stale :
  snd (run_ops r2_prog skind0 [] r1_idhash 40%nat (init (lookup3 r1_ival) (fun _ => 0))
         [OSetCell 0 10; OGet (5, (0, 0)); OSetCell 0 20; OGet (5, (0, 0))]) =
  [SOk (0, []); SOk (13, []); SOk (0, []); SOk (13, [])].
Proof. vm_compute. reflexivity. Qed.

(* ---------------------------------------------------------------- stale ids: what protects a dependent *)
(* a second creator B = (2,0): if in(1,0) then new(id 7; 8, 9).  rd is verified in revision 2
   holding field edges on (0,0); in revision 3 mk deletes (0,0) and B, executing for the first
   time with an input changed in revision 2, re-uses slot 0 as (0,1) with field stamps 2.  The
   dependency check of rd's field edge on the stale id (0,0), since = rd's verified_at = 2,
   answers UNCHANGED (field_mca ignores the generation); rd is nevertheless not validated: its
   earlier edge on mk answers changed, rd re-executes and returns 99. *)
Definition r3_nodes : list ((N * N) * expr) :=
  r1_nodes ++ [((2, 0), EIf (EInp 1 0) (ELet 2 (HNew (ELit 7) (ELit 8) (ELit 9)) (ERetH 2) (ELit 0)) (ELit 0))].
Definition r3_ops : list op :=
  [OGet (4, (0, 0)); OSet (1, 0) 1 None; OGet (4, (0, 0)); OSet (0, 0) 0 None; OGet (1, (0, 0)); OGet (2, (0, 0))].
Notation r3_prog := (prog_of r1_nk skind0 r3_nodes).
Notation r3_state := (fst (run_ops r3_prog skind0 [] r1_idhash 40%nat (init (lookup3 r1_ival) (fun _ => 0)) r3_ops)).

Example r3_stale_check_answers_unchanged :
  option_map m_verified (d_memo r3_state (4, 0)) = Some 2 /\
  option_map m_edges (d_memo r3_state (4, 0)) = Some [EQ (1, (0, 0)); EFld (0, 0) 0; EFld (0, 0) 1] /\
  option_map sl_gen (d_slots r3_state 0) = Some 1 /\
  snd (field_mca (0, 0) 0 2 r3_state) = SOk false /\
  snd (step r3_prog skind0 [] r1_idhash 40%nat r3_state (OGet (4, (0, 0)))) = SOk (99, []) /\
  hd_error (d_log (fst (step r3_prog skind0 [] r1_idhash 40%nat r3_state (OGet (4, (0, 0)))))) = Some (EvExec (4, (0, 0))).
Proof. vm_compute. repeat split; reflexivity. Qed.

(* "every dependency check on an id whose slot has been reused answers changed"
   (Props/C07.v, C07_dependents_full_statement_as_first_stated) is false: Examples.hist1 reuses
   slot 2 as (2,1); the field check on (2,0) since revision 1 answers unchanged *)
Lemma hist1_stale_check :
  match mrun skind5 sfams5 hmod2 10%nat (init (fun _ => 0) (fun _ => 0), []) hist1 with
  | Some (s, F) =>
      option_map sl_gen (d_slots s 2) = Some 1 /\ existsb (handle_eqb (2, 0)) (issued s) = true /\
      snd (field_mca (2, 0) 0 1 s) = SOk false
  | None => False
  end.
Proof. vm_compute. repeat split; reflexivity. Qed.

Lemma dependents_first_statement_refuted :
  ~ (forall (skind : N -> bool) (sfams : list N) (idhash : val -> N) (n : nat) iv idur es s F,
     mrun skind sfams idhash n (init iv idur, []) es = Some (s, F) ->
     forall h f since sl,
       d_slots s (fst h) = Some sl -> snd h < sl_gen sl ->
       In h (issued s) ->
       fst (field_mca h f since s) = s /\ snd (field_mca h f since s) = SOk true).
Proof.
  intros H. destruct hist1_some as [[s F] E]. pose proof hist1_stale_check as C. rewrite E in C.
  destruct C as (A & B & D).
  destruct (d_slots s 2) as [sl|] eqn:Esl; [|discriminate]. cbn [option_map] in A. injection A as A.
  apply existsb_exists in B. destruct B as (x & Hx & Ex).
  assert (x = (2, 0)). { unfold handle_eqb in Ex. symmetry. destruct (key_eqb_spec (2, 0) x); [assumption | discriminate]. }
  subst x.
  destruct (H skind5 sfams5 hmod2 10%nat _ _ hist1 s F E (2, 0) 0 1 sl Esl) as [_ X]; [cbn [snd]; lia | exact Hx|].
  rewrite D in X. discriminate.
Qed.

(* the hypotheses of stale_edges_S1b hold for this history, and the walk over rd's edges in the
   final state answers changed (at the edge on mk) *)
Definition r3_frank (fam : N) : nat := if fam =? 4 then 1%nat else 0%nat.
Lemma r3_wf : forallb (fun ne => s1wf (snd ne)) r3_nodes = true.
Proof. vm_compute. reflexivity. Qed.
Lemma r3_rk : forallb (fun ne => forallb (fun fam' => Nat.ltb (r3_frank fam') (r3_frank (fst (fst ne)))) (efams (snd ne))) r3_nodes = true.
Proof. vm_compute. reflexivity. Qed.
Lemma r3_cf : forallb (fun ne => forallb (fun fam' => existsb (N.eqb fam') [1]) (efams (snd ne))) r3_nodes = true.
Proof. vm_compute. reflexivity. Qed.
Lemma r3_fr : forallb (fun fam => forallb (fun k => first_readb (compile r1_nk None (lookup_node r3_nodes (fam, N.of_nat k))))
                                          (seq 0 (N.to_nat r1_nk))) [1] = true.
Proof. vm_compute. reflexivity. Qed.
Lemma r3_bound : forall q : qk, (r3_frank (fst q) < 2)%nat.
Proof. intros q. unfold r3_frank. destruct (fst q =? 4); auto. Qed.

Lemma r3_hyps :
  calls_below r3_prog (fun q => r3_frank (fst q)) /\ (forall q : qk, (r3_frank (fst q) < 2)%nat) /\
  no_forge r1_idhash r3_prog /\ (forall q, nospec (r3_prog q)) /\ (forall f, skind0 f = false) /\
  (forall q d, calls (r3_prog q) d -> gk d) /\ (forall q d, calls (r3_prog q) d -> first_read (r3_prog d)) /\
  s1b_ops r3_prog true r3_ops /\ 1 + 2 * N.of_nat (length r3_ops) < GMAX /\
  Forall2 okout r3_ops (snd (run_ops r3_prog skind0 [] r1_idhash 40%nat (init (lookup3 r1_ival) (fun _ => 0)) r3_ops)).
Proof.
  split; [exact (table_calls_below r1_nk r3_nodes r3_wf r3_frank r3_rk)|].
  split; [exact r3_bound|].
  split; [exact (table_no_forge r1_idhash r1_nk r3_nodes r3_wf)|].
  split; [exact (table_nospec r1_nk r3_nodes r3_wf)|].
  split; [intros f; reflexivity|].
  split; [exact (table_gk r1_nk r3_nodes r3_wf)|].
  split; [exact (table_first r1_nk r3_nodes r1_nk0 r3_wf [1] r3_cf r3_fr)|].
  split; [cbn; repeat split; auto|].
  split; [vm_compute; reflexivity | apply all_okb_ok; vm_compute; reflexivity].
Qed.

Example r3_stale_walk :
  match d_memo r3_state (4, 0) with
  | Some m =>
      In (EFld (0, 0) 0) (m_edges m) /\ m_verified m < cur r3_state /\
      snd (walk_edges skind0 (level r3_prog skind0 [] r1_idhash 40%nat) (4, (0, 0)) (m_edges m) (m_verified m)
             (set_stack r3_state [(4, (0, 0))])) = SOk true
  | None => False
  end.
Proof. vm_compute. split; [right; left; reflexivity | split; reflexivity]. Qed.
