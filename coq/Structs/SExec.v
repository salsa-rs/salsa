(* Structs/SExec.v — an execution: the frame seeded from the old memo, the body (SRun.v), the
   completion (stale structs deleted, memo stored, backdating). *)
From Salsa Require Import Base.
From Salsa.Kern Require Import CoreK CoreKFacts.
From Salsa.Structs Require Import Model ProofsBase ProofsCascade Machine ProofsInv ProofsStep Theorems Guard SimBase SimOps Sim
     SSem SInv SSlots SFrame SNewInv SRun.

Section Exec.
Variable prog : qk -> body.
Variable skind : N -> bool.
Variable idhash : val -> N.
Variable rank : qk -> nat.
Hypothesis Hrank : calls_below prog rank.
Variable NF : nat.
Hypothesis Hbound : forall q, (rank q < NF)%nat.
Hypothesis Hprov : no_forge idhash prog.
Hypothesis Hgk : forall q d, calls (prog q) d -> gk d.
Hypothesis Hnk : forall f, skind f = false.

Notation Ew := (Ew idhash prog NF).
Notation trw := (trw idhash prog NF).
Notation envw := (envw idhash prog NF).
Notation SInv := (SInv prog skind idhash NF).
Notation smemo_ok := (smemo_ok prog idhash NF).
Notation dval := (dval prog idhash NF).
Notation Er := (Er prog idhash NF).
Notation trr := (trr prog idhash NF).
Notation FrameOK := (FrameOK prog idhash NF).
Notation OInv := (OInv skind).

(* ---------------------------------------------------------------- the memo table without struct keys *)
Lemma get_memo_nk q s : get_memo skind q s = (s, SOk (d_memo s (loc_of q))).
Proof. unfold get_memo. rewrite Hnk. reflexivity. Qed.

Lemma put_memo_nk q m s : put_memo skind q m s = (set_memo s (upd (d_memo s) (loc_of q) (Some m)), SOk tt).
Proof. unfold put_memo, store_memo. rewrite Hnk. reflexivity. Qed.

(* ---------------------------------------------------------------- seeding *)
Lemma seed_ids_nomatch : forall src l,
  NoDup (map te_ident l ++ map fst src) ->
  seed_ids l src = l ++ map (fun kv => mk_entry (fst kv) (snd kv) false) src.
Proof.
  unfold seed_ids. induction src as [|[id h] src IH]; intros l Hnd; cbn [fold_left map fst snd]; [rewrite app_nil_r; reflexivity|].
  destruct (insert_spec id h false l) as [(Hnm & E) | (l1 & e & l2 & -> & Hm & _ & _)].
  - rewrite E. rewrite IH.
    + rewrite <- app_assoc. reflexivity.
    + rewrite map_app. cbn [map mk_entry te_ident]. rewrite <- app_assoc. cbn [app fst map] in *.
      exact Hnd.
  - exfalso. apply key_eqb_eq in Hm. rewrite !map_app in Hnd. cbn [map fst] in Hnd.
    rewrite <- app_assoc in Hnd. apply nodup_app_r in Hnd. cbn [app] in Hnd.
    apply NoDup_cons_iff in Hnd. destruct Hnd as [Hni _]. apply Hni. apply in_or_app. right. left. symmetry. exact Hm.
Qed.

Lemma seed_frame_ids_eq o : NoDup (map fst (m_structs o)) ->
  fr_ids (seed_frame (Some o)) = map (fun kv => mk_entry (fst kv) (snd kv) false) (m_structs o).
Proof.
  intros Hnd. unfold seed_frame. cbn [fr_ids set_fr_ids]. rewrite seed_ids_nomatch; [reflexivity | exact Hnd].
Qed.

Lemma seed_frame_stamp old :
  fr_dur (seed_frame old) = D_NEVER /\ fr_changed (seed_frame old) = REV_START /\ fr_edges (seed_frame old) = [] /\
  fr_untracked (seed_frame old) = false /\ fr_disamb (seed_frame old) = [].
Proof. destruct old; cbn; auto. Qed.

Lemma seed_entry Hs s F q old e : SInv Hs s F -> gk q -> d_memo s (loc_of q) = old ->
  In e (fr_ids (seed_frame old)) ->
  exists o, old = Some o /\ te_active e = false /\ In (te_ident e, te_id e) (m_structs o).
Proof.
  intros I Hg Hold He. destruct old as [o|]; [|destruct He].
  exists o. split; [reflexivity|].
  rewrite (seed_frame_ids_eq o (proj1 (mo_structs (memo_ok_of I Hg Hold)))) in He.
  apply in_map_iff in He. destruct He as ([id h] & <- & Hin). cbn. auto.
Qed.

Lemma begin_oinv Hs s F q old : SInv Hs s F -> ~ active_loc F (loc_of q) -> d_memo s (loc_of q) = old ->
  OInv s ((q, seed_frame old) :: F).
Proof.
  intros I Hna Hold. pose proof (si_oinv I) as OI.
  destruct (seed_frame_ids old) as [Hnd Hsub].
  { destruct old as [o|]; [|constructor].
    apply (oi_nodup _ _ _ OI (OwM (loc_of q))). split; [exact Hna|]. exists o. rewrite (peek_nk skind Hnk), Hold. auto. }
  apply (oinv_begin_gen skind s F q (seed_frame old) OI Hna); [rewrite Hnk; discriminate | exact Hnd|].
  intros h Hh. destruct (Hsub h Hh) as (o & Eo & Hin). exists o. rewrite (peek_nk skind Hnk), Hold. auto.
Qed.

Lemma begin_frame Hs s F q old :
  SInv Hs s F -> gk q -> ~ active_loc F (loc_of q) ->
  d_memo s (loc_of q) = old -> (forall o, old = Some o -> m_verified o < cur s) ->
  FrameOK Hs s q old (seed_frame old) [] (prog q) [].
Proof.
  intros I Hg Hna Hold Hlt. pose proof (si_oinv I) as OI.
  pose proof (seed_entry Hs s F q old) as Hentry.
  assert (Hoko : forall o, old = Some o -> smemo_ok Hs s F q o).
  { intros o Eo. apply (memo_ok_of I Hg). rewrite Hold. exact Eo. }
  assert (Hids : forall o, old = Some o ->
            fr_ids (seed_frame old) = map (fun kv => mk_entry (fst kv) (snd kv) false) (m_structs o)).
  { intros o Eo. rewrite Eo. apply seed_frame_ids_eq. exact (proj1 (mo_structs (Hoko o Eo))). }
  destruct (seed_frame_stamp old) as (Sd & Sc & Se & Su & Sdis).
  pose proof (si_cur I) as Hc1.
  constructor.
  - apply Logged_nil.
  - exact Sdis.
  - intros e _. cbn [map app]. auto.
  - rewrite Sc. unfold REV_START. exact Hc1.
  - rewrite Sc. unfold REV_START. lia.
  - left. rewrite Sc. unfold REV_START. lia.
  - intros E. contradiction E. reflexivity.
  - rewrite Su. split; [discriminate | intros (x & a & [] & _)].
  - rewrite Se. intros e [].
  - rewrite Se. reflexivity.
  - intros id h. split.
    + intros Hin. destruct (Hentry _ I Hg Hold Hin) as (_ & _ & Ha & _). discriminate.
    + intros (u & v & w & []).
  - destruct old as [o|] eqn:Eo; [|constructor].
    rewrite (Hids o eq_refl), map_map. cbn [mk_entry te_ident]. exact (proj1 (mo_structs (Hoko o eq_refl))).
  - intros e He Ha. destruct (Hentry e I Hg Hold He) as (_ & _ & Hf & _). congruence.
  - intros e _ _. cbn. lia.
  - intros e He _. destruct (Hentry e I Hg Hold He) as (o & Eo & _ & Hin). exists o. split; [exact Eo|]. split; [exact Hin|].
    destruct (mo_own (Hoko o Eo) Hna (te_ident e) (te_id e) Hin) as (sl & Hl & Hf & Hd & A0 & A1 & Hcs).
    exists sl. split; [exact Hl|]. split; [exact Hf|]. split; [exact Hd|]. split; [exact A0|]. split; [exact A1|].
    split; [exact Hcs|].
    (* not read-locked now: a locked slot is held by a memo verified now or by an active entry *)
    intros Hu.
    assert (Hom : owns skind s F (OwM (loc_of q)) (te_id e)).
    { apply (listed_owns Hnk (m := o) (id := te_ident e)); [rewrite Hold; exact Eo | exact Hna | exact Hin]. }
    destruct (si_lock I (te_id e) sl Hl Hu) as [(l & m & id & Hm & Hv & Hinm) | (q' & fr' & id & Hin' & Hine)].
    + pose proof (listed_owns Hnk Hm (verified_not_active I Hm Hv) Hinm) as Hol.
      pose proof (oi_uniq _ _ _ OI _ _ _ _ Hol Hom eq_refl) as E. injection E as ->.
      rewrite Hold in Hm. specialize (Hlt m Hm). lia.
    + pose proof (oi_uniq _ _ _ OI _ _ _ _ (entry_owns skind Hin' Hine) Hom eq_refl) as E. discriminate.
  - intros o id h Eo Hin. exists (mk_entry id h false). split; [|reflexivity].
    rewrite (Hids o Eo). apply in_map_iff. exists (id, h). auto.
  - auto.
  - exact Hold.
  - intros o _. left. intros x a [].
Qed.

Theorem SInv_begin Hs s F q old :
  SInv Hs s F -> gk q -> In q (d_stack s) -> ~ active_loc F (loc_of q) ->
  d_memo s (loc_of q) = old -> (forall o, old = Some o -> m_verified o < cur s) ->
  SInv Hs s ((q, seed_frame old) :: F) /\ FrameOK Hs s q old (seed_frame old) [] (prog q) [].
Proof.
  intros I Hg Hst Hna Hold Hlt. split; [|exact (begin_frame Hs s F q old I Hg Hna Hold Hlt)].
  set (fr0 := seed_frame old).
  assert (CO' : Cons skind s ((q, fr0) :: F)).
  { destruct (si_cons I) as [a b c d]. constructor; auto.
    intros q' fr' [E | Hin]; [injection E as <- _; exact Hst | exact (a _ _ Hin)]. }
  apply (SInv_slots prog skind idhash rank Hrank NF Hbound Hprov Hgk Hs s F s ((q, fr0) :: F) (fun _ => False) I (sext_refl s) eq_refl
           (begin_oinv Hs s F q old I Hna Hold) CO').
  - (* P is decidable *) intros h. right. intros [].
  - (* running queries keep running *) intros l (q' & fr' & Hin & El). exists q', fr'. split; [right; exact Hin | exact El].
  - (* no settled query runs *) intros d (m & Hm & Hv) (q' & fr' & [E | Hin] & El).
    + injection E as <- _. rewrite El in Hold. rewrite Hm in Hold. specialize (Hlt m (eq_sym Hold)). lia.
    + apply (settled_not_active I (ex_intro _ m (conj Hm Hv))). exists q', fr'. auto.
  - (* the running queries are input-keyed and not settled *) intros q' fr' [E | Hin].
    + injection E as <- _. split; [exact Hg|]. intros m Hm. apply Hlt. rewrite <- Hold. exact Hm.
    + exact (si_active I q' fr' Hin).
  - (* outside P, live slots were live with the same data *) intros h sl' _ Hl. exists sl'. split; [exact Hl|]. repeat split; reflexivity.
  - (* structs of stored memos are outside P and kept *) intros l m id h _ _ _. split; [intros []|]. apply slot_keeps_refl.
  - (* ownership outside P is kept *) intros d id h sl' Hgd _ _ Ho. destruct Ho as [(Hnad & md & Hmd & Hin) | (fr' & e & Hinf & Hine & E1 & E2)].
    + destruct (key_eqb_spec (loc_of d) (loc_of q)) as [El | Hne].
      * (* the structs of q's memo are held by its frame *)
        right. assert (Ed : d = q).
        { rewrite <- (kq_loc d Hgd), <- (kq_loc q Hg), El. reflexivity. }
        subst d. rewrite Hold in Hmd.
        exists fr0, (mk_entry id h false). split; [left; reflexivity|]. split; [|auto].
        unfold fr0. rewrite Hmd. rewrite (seed_frame_ids_eq md); [apply in_map_iff; exists (id, h); auto|].
        rewrite Hmd in Hold. exact (proj1 (mo_structs (memo_ok_of I Hg Hold))).
      * left. split; [|eauto]. intros (q' & fr' & [E | Hin'] & El'); [injection E as <- _; congruence|].
        apply Hnad. exists q', fr'. auto.
    + right. exists fr', e. split; [right; exact Hinf | auto].
  - (* past observers: fields of handles in P *) intros l m d h f sl' _ _ _ _ [].
  - (* past observers: identity fields of handles in P *) intros l m d h sl' _ _ _ _ [].
  - (* past observers: creators of handles in P *) intros l m d id idv f0 f1 sl' _ _ _ _ [].
  - (* slots are LOW, not updated in the future *) exact (si_slots I).
  - (* generations are below the update revision *) exact (si_gens I).
  - (* a slot locked now has a holder *) intros h sl Hl Hu. destruct (si_lock I h sl Hl Hu) as [A | (q' & fr' & id & Hin & Hine)]; [left; exact A | right].
    exists q', fr', id. split; [right; exact Hin | exact Hine].
Qed.

(* ---------------------------------------------------------------- completion *)
(* without struct keys the claim-stack consistency only depends on the stack and the frame keys *)
Lemma cons_nk s s' F F' : Cons skind s F -> d_stack s' = d_stack s ->
  (forall q fr', In (q, fr') F' -> exists fr, In (q, fr) F) -> Cons skind s' F'.
Proof.
  intros [a b c d] Est HF. constructor; rewrite ?Est.
  - intros q fr' Hin. destruct (HF q fr' Hin) as (fr & Hin0). exact (a q fr Hin0).
  - exact b.
  - intros q Hq0. specialize (c q Hq0). unfold Guard.cur_okb in *. rewrite Hnk in *. exact c.
  - intros q _ Hk. rewrite Hnk in Hk. discriminate.
Qed.

Lemma in_cons_frame F q fr : ~ active_loc F (loc_of q) ->
  forall q0 fr0, In (q0, fr0) ((q, fr) :: F) <-> (q0 = q /\ fr0 = fr) \/ (q0 <> q /\ In (q0, fr0) F).
Proof.
  intros Hna q0 fr0. split.
  - intros [E | Hin]; [injection E as <- <-; left; auto | right; split; [|exact Hin]].
    intros ->. apply Hna. exists q, fr0. auto.
  - intros [[-> ->] | [_ Hin]]; [left; reflexivity | right; exact Hin].
Qed.

(* The stale structs of a completing execution are deleted by a cascade e from s to t0 (no struct-
   keyed function: the cascade is exactly the stale entries of the frame).  The slots that die
   are held by the frame of q through inactive entries only, so the slot rule applies with P = "the
   slot dies", and nothing is owed about P since a dead slot holds no live struct. *)
Section Del.
Variable Hs : hist.
Variables (s : db) (F : frames) (q : qk) (old : option memo) (fr : frame) (log : list lentry).
Variables (v : val) (hs : list handle) (dis : list (N * N)) (t0 : db) (e : list handle).
Hypothesis I : SInv Hs s ((q, fr) :: F).
Hypothesis Hna : ~ active_loc F (loc_of q).
Hypothesis FO : FrameOK Hs s q old fr log (Ret v hs) dis.
Hypothesis C : casc s t0 e.
Hypothesis He : forall c, In c e <-> In c (map snd (snd (drain (fr_ids fr)))) /\ old <> None.

Let frA := set_fr_ids fr (filter te_active (fr_ids fr)).
Let F1 := (q, frA) :: F.
Let F2 := (q, fr) :: F.

Lemma del_q : In (q, fr) F2.
Proof. left. reflexivity. Qed.

Lemma del_slots_nodup : NoDup (map (fun x => fst (te_id x)) (fr_ids fr)).
Proof.
  assert (Hfnd : NoDup (map fst (frame_ids fr))) by (apply (oi_nodup _ _ _ (si_oinv I) (OwF q)); exists fr; split; [exact del_q | reflexivity]).
  unfold frame_ids in Hfnd. rewrite map_map in Hfnd. exact Hfnd.
Qed.

Lemma del_entry c : In c e -> exists en, In en (fr_ids fr) /\ te_active en = false /\ te_id en = c.
Proof.
  intros Hc0. apply He in Hc0. destruct Hc0 as [Hc0 _].
  apply (drain_stale (fr_ids fr) c) in Hc0. apply in_map_iff in Hc0. destruct Hc0 as (en & <- & Hen).
  apply filter_In in Hen. destruct Hen as [Hen Ha]. exists en. split; [exact Hen|]. split; [|reflexivity].
  destruct (te_active en); [discriminate | reflexivity].
Qed.

Lemma del_died j : In j (map fst e) -> exists sl, d_slots s j = Some sl /\ sl_updated sl <> None /\
  sl_updated sl <> Some (cur s) /\ d_slots t0 j = Some (dead sl).
Proof. intros Hj. apply in_map_iff in Hj. destruct Hj as (c & <- & Hc0). exact (cs_died _ _ _ C c Hc0). Qed.

Lemma del_nolive h0 sl' : In (fst h0) (map fst e) -> ~ live_h t0 h0 sl'.
Proof.
  intros Hp (Hs0 & Hu0 & _). destruct (del_died _ Hp) as (sl0 & _ & _ & _ & Hd).
  rewrite Hd in Hs0. injection Hs0 as <-. apply Hu0. reflexivity.
Qed.

Lemma del_own_died o0 h0 : owns skind s F2 o0 h0 -> In (fst h0) (map fst e) ->
  o0 = OwF q /\ exists en, In en (fr_ids fr) /\ te_active en = false /\ te_id en = h0.
Proof.
  intros Ho0 Hj. apply in_map_iff in Hj. destruct Hj as (c & Ec & Hc0).
  destruct (del_entry c Hc0) as (en & Hen & Ha & <-).
  pose proof (oi_uniq _ _ _ (si_oinv I) _ _ _ _ Ho0 (entry_owns skind del_q Hen) (eq_sym Ec)) as ->. split; [reflexivity|].
  exists en. split; [exact Hen|]. split; [exact Ha|].
  destruct Ho0 as (ids & (fr0 & Hin0 & ->) & Hin).
  pose proof (frames_fun F2 q fr0 fr (oi_frames _ _ _ (si_oinv I)) Hin0 del_q) as ->.
  unfold frame_ids in Hin. apply in_map_iff in Hin. destruct Hin as (e2 & E2 & He2).
  assert (e2 = en).
  { apply (map_inj_nodup (fun x => fst (te_id x)) (fr_ids fr) e2 en del_slots_nodup He2 Hen). rewrite E2. symmetry. exact Ec. }
  subst e2. exact E2.
Qed.

Lemma del_active_keep en : In en (fr_ids fr) -> te_active en = true -> ~ In (fst (te_id en)) (map fst e).
Proof.
  intros Hen Ha Hj.
  destruct (del_own_died _ _ (entry_owns skind del_q Hen) Hj) as (_ & en2 & Hen2 & Ha2 & E2).
  assert (en2 = en).
  { apply (map_inj_nodup (fun x => fst (te_id x)) (fr_ids fr) en2 en del_slots_nodup Hen2 Hen). rewrite E2. reflexivity. }
  subst en2. congruence.
Qed.

Lemma del_memo_other l m id h0 : d_memo s l = Some m -> ~ active_loc F2 l -> In (id, h0) (m_structs m) ->
  ~ In (fst h0) (map fst e).
Proof. intros Hm Hnal Hin Hj. destruct (del_own_died _ _ (listed_owns Hnk Hm Hnal Hin) Hj) as [E _]. discriminate. Qed.

Lemma del_act_same l : active_loc F1 l <-> active_loc F2 l.
Proof. rewrite !active_loc_flocs. reflexivity. Qed.

(* the ownership invariant: first the frame drops its inactive entries, then the cascade *)
Lemma del_oinv : OInv t0 F1.
Proof.
  pose proof (si_oinv I) as OI. pose proof (in_cons_frame F q frA Hna) as HinF1. fold F1 in HinF1.
  assert (I1 : OInv s F1).
  { apply (oinv_frames skind s F2 F1 OI); [reflexivity|].
    intros q' fr' Hin. apply HinF1 in Hin. destruct Hin as [[-> ->] | [_ Hin]].
    - exists fr. split; [exact del_q|]. unfold frame_ids, frA. cbn [fr_ids set_fr_ids]. split.
      + intros h Hh. apply in_map_iff in Hh. destruct Hh as (e0 & <- & He0). apply filter_In in He0.
        apply in_map. exact (proj1 He0).
      + rewrite map_map. apply nodup_map_filter. exact del_slots_nodup.
    - exists fr'. split; [right; exact Hin|]. split; [auto|]. apply (oi_nodup _ _ _ OI (OwF q')). exists fr'. split; [right; exact Hin | reflexivity]. }
  apply (oinv_casc skind [] (nofams skind) s F1 t0 e e I1 C).
  - intros c Hc0. left. exact Hc0.
  - intros r Hr. destruct (del_entry r Hr) as (en & Hen & _ & <-).
    exact (oi_live _ _ _ OI (OwF q) _ (entry_owns skind del_q Hen)).
  - intros r o0 h0 Hr Ho0 Ef.
    assert (Ho2 : owns skind s F2 o0 h0).
    { destruct Ho0 as (ids & Hoi & Hin). destruct o0 as [q0 | l0]; cbn [Machine.owner_ids] in Hoi.
      - destruct Hoi as (fr0 & Hin0 & ->). apply HinF1 in Hin0. destruct Hin0 as [[-> ->] | [_ Hin0]].
        + apply (owns_frame skind s F2 q fr _ del_q). unfold frame_ids, frA in Hin. cbn [fr_ids set_fr_ids] in Hin.
          apply in_map_iff in Hin. destruct Hin as (e0 & <- & He0). apply filter_In in He0. apply in_map. exact (proj1 He0).
        + apply (owns_frame skind s F2 q0 fr0 _ (or_intror Hin0) Hin).
      - destruct Hoi as (Hnal & m0 & Hm0 & ->). exists (mids m0). split; [|exact Hin]. split; [|exists m0; auto].
        intros A. apply Hnal. apply del_act_same. exact A. }
    destruct (del_own_died o0 h0 Ho2) as (-> & en & Hen & Ha & <-).
    { rewrite Ef. apply in_map. exact Hr. }
    destruct Ho0 as (ids & (fr0 & Hin0 & ->) & Hin). apply HinF1 in Hin0. destruct Hin0 as [[_ ->] | [Hne _]]; [|contradiction Hne; reflexivity].
    unfold frame_ids, frA in Hin. cbn [fr_ids set_fr_ids] in Hin. apply in_map_iff in Hin. destruct Hin as (e2 & E2 & He2).
    apply filter_In in He2. destruct He2 as [He2 Ha2].
    assert (e2 = en) by (apply (map_inj_nodup (fun x => fst (te_id x)) (fr_ids fr) e2 en del_slots_nodup He2 Hen); rewrite E2; reflexivity).
    subst e2. congruence.
Qed.

Lemma del_sext : sext s t0.
Proof.
  pose proof (cs_other _ _ _ C) as Hother.
  constructor.
  - exact (cs_revs _ _ _ C).
  - exact (cs_in _ _ _ C).
  - exact (cs_cell _ _ _ C).
  - intros l m Hm _. rewrite (cs_memo _ _ _ C). exact Hm.
  - intros l m Hm. exists m. rewrite (cs_memo _ _ _ C). split; [exact Hm|]. split; lia.
  - intros j sl Hj Hl. rewrite Hother; [exact Hj|]. intros Hin. destruct (del_died j Hin) as (sl0 & Hs0 & _ & Hnl & _).
    rewrite Hj in Hs0. injection Hs0 as <-. contradiction.
  - intros l m id h Hm Hv Hin.
    rewrite Hother; [apply slot_keeps_refl|]. exact (del_memo_other l m id h Hm (verified_not_active I Hm Hv) Hin).
  - intros j sl Hj. destruct (in_dec N.eq_dec j (map fst e)) as [Hin | Hnin].
    + destruct (del_died j Hin) as (sl0 & Hs0 & _ & _ & Hd). rewrite Hj in Hs0. injection Hs0 as <-.
      exists (dead sl). split; [exact Hd|]. split; [cbn; lia|]. intros _ Hu. exfalso. apply Hu. reflexivity.
    + exists sl. rewrite (Hother j Hnin). split; [exact Hj|]. split; [lia|]. intros _ Hu. repeat split; auto; lia.
  - unfold issued. rewrite (cs_ideal _ _ _ C). intros x Hx. exact Hx.
Qed.

Lemma del_sinv : SInv Hs t0 F1.
Proof.
  pose proof (cs_other _ _ _ C) as Hother. pose proof (casc_cur _ _ _ C) as Hcur.
  pose proof (in_cons_frame F q frA Hna) as HinF1. fold F1 in HinF1.
  assert (CO' : Cons skind t0 F1).
  { apply (cons_nk s t0 F2 F1 (si_cons I) (cs_stack _ _ _ C)).
    intros q0 fr0 Hin. apply HinF1 in Hin. destruct Hin as [[-> _] | [_ Hin]]; [exists fr; exact del_q | exists fr0; right; exact Hin]. }
  apply (SInv_slots prog skind idhash rank Hrank NF Hbound Hprov Hgk Hs s F2 t0 F1 (fun h0 => In (fst h0) (map fst e)) I del_sext (cs_memo _ _ _ C) del_oinv CO').
  - (* P is decidable *) intros h0. destruct (in_dec N.eq_dec (fst h0) (map fst e)); auto.
  - (* running queries keep running *) intros l A. apply del_act_same. exact A.
  - (* no settled query runs *) intros d Hd A. apply del_act_same in A. exact (settled_not_active I Hd A).
  - (* the running queries are input-keyed and not settled *) intros q0 fr0 Hin. apply HinF1 in Hin. destruct Hin as [[-> _] | [_ Hin]];
      [exact (si_active I q fr del_q) | exact (si_active I q0 fr0 (or_intror Hin))].
  - (* outside P, live slots were live with the same data *) intros h0 sl' Hnp (Hs0 & Hu0 & Hg0). rewrite (Hother _ Hnp) in Hs0. exists sl'. split; [split; auto|]. repeat split; reflexivity.
  - (* structs of stored memos are outside P and kept *) intros l m id h0 Hm Hnal Hin. pose proof (del_memo_other l m id h0 Hm Hnal Hin) as Hnp.
    split; [exact Hnp|]. rewrite (Hother _ Hnp). apply slot_keeps_refl.
  - (* ownership outside P is kept *) intros d id h0 sl' _ Hnp _ Ho. destruct Ho as [(Hnad & md & Hmd & Hin) | (fr0 & e0 & Hin0 & Hine0 & E1 & E2)].
    + left. split; [intros A; apply Hnad; apply del_act_same; exact A|]. exists md. rewrite (cs_memo _ _ _ C). auto.
    + right. destruct Hin0 as [E | Hin0].
      * injection E as <- <-. exists frA, e0. split; [left; reflexivity|]. split; [|auto].
        unfold frA. cbn [fr_ids set_fr_ids]. apply filter_In. split; [exact Hine0|].
        destruct (te_active e0) eqn:Ea; [reflexivity|]. exfalso. apply Hnp.
        (* an inactive entry is stale: its slot dies -- unless there is no old memo *)
        rewrite <- E2. apply in_map.
        apply He. split.
        -- apply (drain_stale (fr_ids fr) (te_id e0)). apply in_map_iff. exists e0. split; [reflexivity|].
           apply filter_In. split; [exact Hine0 | rewrite Ea; reflexivity].
        -- destruct (fo_seeded FO e0 Hine0 Ea) as (o & Eo & _). rewrite Eo. discriminate.
      * exists fr0, e0. split; [right; exact Hin0 | auto].
  - (* past observers: fields of handles in P *) intros l m d h0 f sl' _ _ _ _ Hp Hl. destruct (del_nolive h0 sl' Hp Hl).
  - (* past observers: identity fields of handles in P *) intros l m d h0 sl' _ _ _ _ Hp Hl. destruct (del_nolive h0 sl' Hp Hl).
  - (* past observers: creators of handles in P *) intros l m d id idv f0 f1 sl' _ _ _ _ Hp Hl. destruct (del_nolive _ sl' Hp Hl).
  - (* slots are LOW, not updated in the future *) intros j sl Hj Hu. rewrite Hcur. destruct (in_dec N.eq_dec j (map fst e)) as [Hin | Hnin].
    + destruct (del_died j Hin) as (sl0 & _ & _ & _ & Hd). rewrite Hd in Hj. injection Hj as <-. exfalso. apply Hu. reflexivity.
    + rewrite (Hother j Hnin) in Hj. exact (si_slots I j sl Hj Hu).
  - (* generations are below the update revision *) intros j sl Hj. rewrite Hcur. destruct (in_dec N.eq_dec j (map fst e)) as [Hin | Hnin].
    + destruct (del_died j Hin) as (sl0 & Hs0 & Hu0 & Hnl & Hd). rewrite Hd in Hj. injection Hj as <-. cbn.
      pose proof (si_gens I j sl0 Hs0) as G.
      pose proof (proj2 (si_slots I j sl0 Hs0 Hu0)) as G2.
      destruct (sl_updated sl0) as [r|] eqn:Er; [|contradiction Hu0; reflexivity].
      specialize (G2 r eq_refl). assert (r <> cur s) by (intros ->; apply Hnl; reflexivity). lia.
    + rewrite (Hother j Hnin) in Hj. exact (si_gens I j sl Hj).
  - (* a slot locked now has a holder *) intros h0 sl Hl Hu. rewrite Hcur in Hu. rewrite Hcur.
    assert (Hnp : ~ In (fst h0) (map fst e)) by (intros Hin; exact (del_nolive h0 sl Hin Hl)).
    assert (Hl0 : live_h s h0 sl).
    { destruct Hl as (Hs0 & R). rewrite (Hother _ Hnp) in Hs0. split; assumption. }
    destruct (si_lock I h0 sl Hl0 Hu) as [(l & m & id & Hm & Hv & Hin) | (q0 & fr0 & id & Hin0 & Hine0)].
    + left. exists l, m, id. rewrite (cs_memo _ _ _ C). auto.
    + right. destruct Hin0 as [E | Hin0].
      * injection E as <- <-. exists q, frA, id. split; [left; reflexivity|].
        unfold frA. cbn [fr_ids set_fr_ids]. apply filter_In. split; [exact Hine0 | reflexivity].
      * exists q0, fr0, id. split; [right; exact Hin0 | exact Hine0].
Qed.

Lemma del_keeps :
  d_memo t0 = d_memo s /\ d_stack t0 = d_stack s /\
  (forall h sl, live_h s h sl -> sl_updated sl = Some (cur s) -> d_slots t0 (fst h) = d_slots s (fst h)) /\
  (forall p frp h0, In (p, frp) F -> In h0 (frame_ids frp) -> d_slots t0 (fst h0) = d_slots s (fst h0)) /\
  (forall en, In en (fr_ids fr) -> te_active en = true -> d_slots t0 (fst (te_id en)) = d_slots s (fst (te_id en))).
Proof.
  pose proof (cs_other _ _ _ C) as Hother.
  split; [exact (cs_memo _ _ _ C)|]. split; [exact (cs_stack _ _ _ C)|]. split; [|split].
  - intros h0 sl (Hs0 & _) Hl. apply Hother. intros Hin. destruct (del_died _ Hin) as (sl0 & Hs1 & _ & Hnl & _).
    rewrite Hs0 in Hs1. injection Hs1 as <-. contradiction.
  - intros p frp h0 Hp Hh0. apply Hother. intros Hin.
    assert (Hop : owns skind s F2 (OwF p) h0) by exact (owns_frame skind s F2 p frp h0 (or_intror Hp) Hh0).
    destruct (del_own_died _ _ Hop Hin) as [E _]. injection E as ->. apply Hna. exists q, frp. auto.
  - intros en Hen Ha. apply Hother. exact (del_active_keep en Hen Ha).
Qed.

End Del.

(* the slot-level effect of the deletions of a completion *)
Lemma finish_delete Hs s F q old fr log v hs dis n t0 (u0 : unit) stale :
  SInv Hs s ((q, fr) :: F) -> ~ active_loc F (loc_of q) ->
  FrameOK Hs s q old fr log (Ret v hs) dis ->
  stale = snd (drain (fr_ids fr)) ->
  match old with
  | Some o => diff_outputs [] n o q stale (fr_edges fr)
  | None => ret tt
  end s = (t0, SOk u0) ->
  let frA := set_fr_ids fr (filter te_active (fr_ids fr)) in
  SInv Hs t0 ((q, frA) :: F) /\ sext s t0 /\
  d_memo t0 = d_memo s /\ d_stack t0 = d_stack s /\
  (forall h sl, live_h s h sl -> sl_updated sl = Some (cur s) -> d_slots t0 (fst h) = d_slots s (fst h)) /\
  (forall p frp h0, In (p, frp) F -> In h0 (frame_ids frp) -> d_slots t0 (fst h0) = d_slots s (fst h0)) /\
  (forall e, In e (fr_ids fr) -> te_active e = true -> d_slots t0 (fst (te_id e)) = d_slots s (fst (te_id e))).
Proof.
  intros I Hna FO -> H frA.
  (* the cascade: the stale entries, when there is an old memo *)
  assert (Hc : exists e, casc s t0 e /\ (forall c, In c e <-> In c (map snd (snd (drain (fr_ids fr)))) /\ old <> None)).
  { destruct old as [o|] eqn:Eo.
    - destruct (diff_outputs_casc [] n o q (snd (drain (fr_ids fr))) (fr_edges fr) s t0) as (e & C & P & R).
      { destruct u0. exact H. }
      exists e. split; [exact C|].
      destruct (si_active I q fr (or_introl eq_refl)) as [Hgq _].
      pose proof (mo_origin (memo_ok_of I Hgq (fo_old FO))) as Hor.
      assert (Er : diff_roots o (snd (drain (fr_ids fr))) = map snd (snd (drain (fr_ids fr)))).
      { unfold diff_roots. destruct Hor as [-> | ->]; reflexivity. }
      intros c. split.
      + intros Hc. split; [|discriminate]. rewrite <- Er. exact (parents_nil s _ e P c Hc).
      + intros [Hc _]. apply R. rewrite Er. exact Hc.
    - apply ret_ok in H. destruct H as [-> _]. exists []. split; [apply casc_refl|].
      intros c. split; [intros [] | intros [_ A]; contradiction A; reflexivity]. }
  destruct Hc as (e & C & He).
  split; [eapply del_sinv; eassumption|]. split; [eapply del_sext; eassumption|].
  eapply del_keeps; eassumption.
Qed.

Lemma drain_active_in l id h :
  In (id, h) (fst (drain l)) <-> exists e, In e l /\ te_active e = true /\ te_ident e = id /\ te_id e = h.
Proof.
  unfold drain. cbn [fst]. rewrite in_map_iff. split.
  - intros (e & E & He). apply filter_In in He. injection E as <- <-. exists e. tauto.
  - intros (e & He & Ha & <- & <-). exists e. split; [reflexivity|]. apply filter_In. auto.
Qed.

Lemma in_map_fst_log (log : list lentry) x : In x (map fst log) <-> exists a, In (x, a) log.
Proof.
  rewrite in_map_iff. split.
  - intros ([y a] & E & Hin). cbn in E. subst y. eauto.
  - intros (a & Hin). exists (x, a). auto.
Qed.

(* After the deletions (state t0) the memo mm of the completed execution is stored (state s').
   The log of the execution is the trace of q in the world read off s', so mm is ok; the observers
   of q are served because backdating keeps the stamp only when the value is the old one. *)
Section Fin.
Variable Hs : hist.
Variables (s : db) (F : frames) (q : qk) (old : option memo) (fr : frame) (log : list lentry).
Variables (v : val) (hs : list handle) (dis : list (N * N)) (n : nat) (t0 : db) (ch : rev) (u0 : unit).
Hypothesis I : SInv Hs s ((q, fr) :: F).
Hypothesis Hna : ~ active_loc F (loc_of q).
Hypothesis FO : FrameOK Hs s q old fr log (Ret v hs) dis.
Hypothesis Eb : backdate old 0 (fr_changed fr) (v, hs) = SOk ch.
Hypothesis H0 : match old with
                | Some o => diff_outputs [] n o q (snd (drain (fr_ids fr))) (fr_edges fr)
                | None => ret tt
                end s = (t0, SOk u0).

Let active := fst (drain (fr_ids fr)).
Let mm := {| m_val := Some (v, hs); m_verified := cur t0; m_changed := ch; m_dur := 0;
             m_origin := if fr_untracked fr then OUntracked else ODerived;
             m_edges := fr_edges fr; m_structs := active |}.
Let frA := set_fr_ids fr (filter te_active (fr_ids fr)).
Let F1 := (q, frA) :: F.
Let s' := set_memo t0 (upd (d_memo t0) (loc_of q) (Some mm)).
Hypothesis OIF : OInv s' F.

Lemma fin_q : In (q, fr) ((q, fr) :: F).
Proof. left. reflexivity. Qed.

Lemma fin_gk : gk q.
Proof. exact (proj1 (si_active I q fr fin_q)). Qed.

Definition fin_del := finish_delete Hs s F q old fr log v hs dis n t0 u0 _ I Hna FO eq_refl H0.

Lemma fin_active_in id h : In (id, h) active <-> In (mk_entry id h true) (fr_ids fr).
Proof.
  unfold active. rewrite drain_active_in. split.
  - intros (e & He & Ha & <- & <-). destruct e as [a b c]. cbn in *. subst c. exact He.
  - intros Hin. exists (mk_entry id h true). auto.
Qed.

Lemma fin_active_nd : NoDup (map fst active).
Proof. unfold active, drain. cbn [fst]. rewrite map_map. cbn [fst]. apply nodup_map_filter. exact (fo_idents FO). Qed.

(* backdating: the old value and stamp are kept, or the frame's stamp is later than the old memo *)
Lemma fin_back o : old = Some o ->
  m_verified o < cur s /\
  ((ch = m_changed o /\ m_val o = Some (v, hs)) \/ (ch = fr_changed fr /\ m_verified o < fr_changed fr)).
Proof.
  intros Eo. pose proof (fo_old FO) as Hold. rewrite Eo in Hold.
  split; [exact (proj2 (si_active I q fr fin_q) o Hold)|].
  pose proof (memo_ok_of I fin_gk Hold) as Hoko.
  pose proof (mo_val Hoko) as Hvo. pose proof (mo_low Hoko) as Hlo0.
  pose proof Eb as Eb'. rewrite Eo in Eb'. unfold backdate in Eb'. rewrite Hvo, Hlo0 in Eb'.
  assert (Hcb : can_backdate_dur 0 0 = true) by (apply can_backdate_dur_spec; lia). rewrite Hcb in Eb'. cbn [andb] in Eb'.
  destruct (rval_eqb (Er Hs s (m_verified o) q) (v, hs)) eqn:Ee.
  - apply rval_eqb_eq in Ee. destruct (changed_after (m_changed o) (fr_changed fr)); [discriminate|].
    injection Eb' as <-. left. split; [reflexivity|]. rewrite Hvo, Ee. reflexivity.
  - injection Eb' as <-. right. split; [reflexivity|].
    destruct (fo_div FO o Eo) as [Hag | Hlate]; [|exact Hlate]. exfalso.
    destruct (fo_tr FO _ Hag) as [_ Hrun]. cbn [run] in Hrun.
    assert (H : Er Hs s (m_verified o) q = (v, hs)).
    { unfold SInv.Er. rewrite (Ew_unfold Hrank Hbound). exact Hrun. }
    rewrite H, (proj2 (rval_eqb_eq _ _) eq_refl) in Ee. discriminate.
Qed.

Lemma fin_ch_le : ch <= cur s.
Proof.
  assert (Hcase : (exists o, old = Some o) \/ old = None) by (destruct old; eauto).
  destruct Hcase as [(o & Eo) | Eo].
  - destruct (fin_back o Eo) as [Hlo [[-> _] | [-> _]]]; [|exact (fo_le FO)].
    pose proof (fo_old FO) as Hold. rewrite Eo in Hold. pose proof (mo_order (memo_ok_of I fin_gk Hold)). lia.
  - pose proof Eb as Eb'. rewrite Eo in Eb'. cbn in Eb'. injection Eb' as <-. exact (fo_le FO).
Qed.

Lemma fin_old_t0 m0 : d_memo t0 (loc_of q) = Some m0 -> m_verified m0 < cur t0 /\ m_changed m0 <= m_changed mm.
Proof.
  destruct fin_del as (I1 & X1 & Hm1 & _). intros Hm0. rewrite Hm1, (fo_old FO) in Hm0.
  destruct (fin_back m0 Hm0) as [Hlo Hb]. rewrite (sext_cur _ _ X1). split; [exact Hlo|].
  cbn. destruct Hb as [[-> _] | [-> Hl]]; [lia|].
  rewrite <- (fo_old FO) in Hm0. pose proof (mo_order (memo_ok_of I fin_gk Hm0)). lia.
Qed.

Lemma fin_sext : sext t0 s'.
Proof. apply (store_sext t0 s' (loc_of q) mm); try reflexivity. exact fin_old_t0. Qed.

Lemma fin_memo : d_memo s' (loc_of q) = Some mm.
Proof. cbn. apply upd_same. Qed.

Lemma fin_lok y a : In (y, a) log -> exists pre, lok s' fr pre (y, a) /\ exists post, log = pre ++ (y, a) :: post.
Proof.
  destruct fin_del as (I1 & X1 & _). intros Hin. apply in_split in Hin. destruct Hin as (l1 & l2 & El).
  exists l1. split; [|eauto].
  exact (Logged_sext skind t0 s' F1 fr log (si_oinv I1) fin_sext
           (Logged_sext skind s t0 _ fr log (si_oinv I) X1 (fo_logged FO)) l1 _ l2 El).
Qed.

Lemma fin_callee d a : In (RQ d, a) log -> gk d /\ loc_of d <> loc_of q /\
  exists md, d_memo t0 (loc_of d) = Some md /\ d_memo s' (loc_of d) = Some md /\ m_verified md = cur t0 /\ m_val md = Some a.
Proof.
  intros Hin. destruct (fin_lok _ _ Hin) as (pre & Hlok & _). unfold lok in Hlok. cbn [fst snd] in Hlok.
  destruct Hlok as (Hgd & md & Hmd & Hvd & Hvald & _). split; [exact Hgd|].
  assert (Hne : loc_of d <> loc_of q).
  { intros E.
    assert (Hcd : In (RQ d) (map fst log)) by (apply in_map_fst_log; eauto).
    destruct (fo_tr FO (senv_of s fr)) as [T _].
    { exact (senv_agrees s fr log (fo_logged FO) (fo_idents FO)). }
    cbn [trace] in T. rewrite app_nil_r in T. rewrite <- T in Hcd.
    apply calls_of_trace in Hcd. pose proof (Hrank _ _ Hcd) as Hr.
    assert (d = q) by (rewrite <- (kq_loc d Hgd), <- (kq_loc q fin_gk), E; reflexivity). subst d. lia. }
  split; [exact Hne|]. exists md. rewrite (sext_cur _ _ fin_sext) in Hvd. split; [|auto].
  cbn in Hmd. rewrite upd_other in Hmd by congruence. exact Hmd.
Qed.

Lemma fin_agrees : agrees (envw (wcur s') q) log.
Proof.
  destruct fin_del as (I1 & _).
  intros y a Hin. destruct (fin_lok _ _ Hin) as (pre & Hlok & _). unfold lok in Hlok. cbn [fst snd] in Hlok.
  destruct y as [i | d | c | | id idv f0 f1 | h f | h]; cbn [answer SSem.envw mkenv e_in e_cell e_q e_slot e_new].
  - destruct Hlok as (-> & _). reflexivity.
  - destruct (fin_callee d a Hin) as (Hgd & Hne & md & Hmd0 & _ & Hvd & Hvald).
    pose proof (mo_val (memo_ok_of I1 Hgd Hmd0)) as Ev. rewrite Hvald, Hvd in Ev. injection Ev as Ev.
    rewrite Er_cur in Ev. rewrite Ev.
    assert (Hsd : settled t0 d) by (exists md; auto).
    exact (proj1 (proj2 (settled_stable prog skind idhash rank Hrank NF Hbound Hprov Hgk Hs t0 F1 s' d I1 fin_sext Hgd Hsd))).
  - destruct Hlok as (-> & _). reflexivity.
  - destruct Hlok as (-> & _). reflexivity.
  - destruct Hlok as (h & sl & -> & Hine & _). cbn [wcur w_alloc]. rewrite fin_memo. cbn [m_structs mm].
    rewrite (assoc_id_nodup active id h fin_active_nd); [reflexivity|]. apply fin_active_in. exact Hine.
  - destruct Hlok as (sl & -> & (Hs0 & _) & _). cbn [wcur w_slot]. rewrite Hs0, fld3_slot. reflexivity.
  - destruct Hlok as (sl & -> & (Hs0 & _) & _). cbn [wcur w_slot]. rewrite Hs0. reflexivity.
Qed.

Lemma fin_trace : trw (wcur s') q = map fst log /\ Ew (wcur s') q = (v, hs).
Proof.
  destruct (fo_tr FO _ fin_agrees) as [Htr Hrun]. cbn [trace run] in Htr, Hrun. rewrite app_nil_r in Htr.
  split; [exact Htr|]. rewrite (Ew_unfold Hrank Hbound). exact Hrun.
Qed.

Lemma fin_alloc id u w z a : In (RNew id u w z, a) log ->
  exists h sl, a = (0, [h]) /\ In (mk_entry id h true) (fr_ids fr) /\ w_alloc (wcur s') q id = h /\
               live_h s' h sl /\ slot_fields sl = (u, w, z) /\ In (id, h) active.
Proof.
  intros Hin. destruct (fin_lok _ _ Hin) as (pre & Hlok & _). unfold lok in Hlok. cbn [fst snd] in Hlok.
  destruct Hlok as (h & sl & -> & Hine & Hl & Hf & _). exists h, sl. split; [reflexivity|]. split; [exact Hine|].
  assert (Hina : In (id, h) active) by (apply fin_active_in; exact Hine).
  split; [cbn [wcur w_alloc]; rewrite fin_memo; cbn [m_structs mm]; exact (assoc_id_nodup active id h fin_active_nd Hina)|]. auto.
Qed.

Lemma fin_self : dval Hs s' F (cur s') q.
Proof.
  destruct fin_trace as [Htr _].
  constructor; rewrite ?trr_cur, ?W_cur, ?Htr.
  - exists mm. split; [exact fin_memo|]. split; [exact (N.le_refl (cur t0))|]. intros _. reflexivity.
  - intros h f sl Hin (Hs0 & _) _. cbn [wcur w_slot]. rewrite Hs0. apply fld3_slot.
  - intros h sl Hin (Hs0 & _). cbn [wcur w_slot]. rewrite Hs0. reflexivity.
  - intros id idv f0 f1 Hin. apply in_map_fst_log in Hin. destruct Hin as (a & Hin).
    destruct (fin_alloc _ _ _ _ _ Hin) as (h & sl & _ & _ & Ea & Hl & Hf & _).
    rewrite Ea. split; [cbn [wcur w_slot]; destruct Hl as (Hs0 & _); rewrite Hs0; exact Hf|].
    exact (live_issued skind s' F h sl OIF Hl).
  - intros id idv f0 f1 sl Hin Hl. left. split; [exact Hna|]. exists mm. split; [exact fin_memo|]. cbn [m_structs mm].
    apply in_map_fst_log in Hin. destruct Hin as (a & Hin).
    destruct (fin_alloc _ _ _ _ _ Hin) as (h & sl0 & _ & _ & Ea & _ & _ & Hina). rewrite Ea. exact Hina.
Qed.

Lemma fin_memo_ok :
  (forall g mg, g <> loc_of q -> d_memo s' g = Some mg -> smemo_ok Hs s' F (kq g) mg) -> smemo_ok Hs s' F q mm.
Proof.
  intros Hothers. destruct fin_del as (I1 & X1 & _). destruct fin_trace as [Htr EE].
  pose proof (sext_cur _ _ fin_sext) as Hc2.
  assert (Etr : trr Hs s' (cur t0) q = map fst log) by (rewrite <- Hc2, trr_cur; exact Htr).
  assert (EE' : Er Hs s' (cur t0) q = (v, hs)) by (rewrite <- Hc2, Er_cur; exact EE).
  assert (EW : W Hs s' (cur t0) = wcur s') by (rewrite <- Hc2; apply W_cur).
  pose proof (in_map_fst_log log) as Hlogin.
  assert (Hcal : forall d, In (RQ d) (trw (wcur s') q) ->
            gk d /\ loc_of d <> loc_of q /\ exists md, d_memo s' (loc_of d) = Some md /\ m_verified md = cur s').
  { intros d Hin. rewrite Htr in Hin. apply Hlogin in Hin. destruct Hin as (a & Hin).
    destruct (fin_callee d a Hin) as (Hgd & Hne & md & _ & Hmd & Hvd & _).
    split; [exact Hgd|]. split; [exact Hne|]. exists md. split; [exact Hmd | rewrite Hc2; exact Hvd]. }
  constructor; cbn [mm m_val m_verified m_changed m_dur m_origin m_edges m_structs]; rewrite ?Etr, ?EE', ?EW.
  - rewrite Hc2. pose proof (si_cur I1). pose proof fin_ch_le. pose proof (sext_cur _ _ X1). lia.
  - reflexivity.
  - reflexivity.
  - destruct (fr_untracked fr); auto.
  - split; [exact fin_active_nd|]. intros id h. split.
    + intros Hin. pose proof Hin as Hin0. apply fin_active_in in Hin.
      pose proof (proj1 (fo_active FO id h) Hin) as (u & w & z & Hinl).
      split; [apply in_news_ids; exists u, w, z; apply Hlogin; eauto|].
      cbn [wcur w_alloc]. rewrite fin_memo. cbn [m_structs mm]. symmetry. exact (assoc_id_nodup active id h fin_active_nd Hin0).
    + intros [Hin ->]. apply in_news_ids in Hin. destruct Hin as (u & w & z & Hin). apply Hlogin in Hin. destruct Hin as (a & Hin).
      destruct (fin_alloc _ _ _ _ _ Hin) as (h & sl & _ & _ & Ea & _ & _ & Hina). rewrite Ea. exact Hina.
  - intros i. rewrite Hlogin. split.
    + intros (a & Hin). destruct (fin_lok _ _ Hin) as (pre & Hlok & _). exact (proj1 (proj2 Hlok)).
    + intros He. destruct (fo_edges FO _ He) as [_ (a & Hin)]. exists a. exact Hin.
  - intros d. rewrite Hlogin. split.
    + intros (a & Hin). destruct (fin_lok _ _ Hin) as (pre & Hlok & _). unfold lok in Hlok. cbn [fst snd] in Hlok.
      destruct Hlok as (_ & md & _ & _ & _ & _ & He). exact He.
    + intros He. destruct (fo_edges FO _ He) as [_ (a & Hin)]. exists a. exact Hin.
  - intros h f. rewrite Hlogin. split.
    + intros (a & Hin). destruct (fin_lok _ _ Hin) as (pre & Hlok & _). unfold lok in Hlok. cbn [fst snd] in Hlok.
      destruct Hlok as (sl & _ & _ & _ & He & _). exact He.
    + intros He. destruct (fo_edges FO _ He) as [_ (a & Hin)]. exists a. exact Hin.
  - intros o He. destruct (fo_edges FO _ He) as [Hno _]. exact (Hno o eq_refl).
  - exact (fo_eorder FO).
  - intros y Hy Hu. apply Hlogin in Hy. destruct Hy as (a & Hin).
    assert (Hut : fr_untracked fr = true) by (apply (fo_untr FO); eauto).
    rewrite Hut. reflexivity.
  - (* own structs: what the log says about each creation *)
    intros _ id h Hin. apply fin_active_in in Hin.
    pose proof (proj1 (fo_active FO id h) Hin) as (u & w & z & Hinl).
    destruct (fin_lok _ _ Hinl) as (pre & Hlok & post & El). unfold lok in Hlok. cbn [fst snd] in Hlok.
    destruct Hlok as (h1 & sl & E1 & _ & Hl & Hf & Hu & Hd & A0 & A1 & Hcs). injection E1 as <-.
    exists sl. split; [exact Hl|]. split; [cbn [wcur w_slot]; destruct Hl as (Hs0 & _); rewrite Hs0; reflexivity|].
    split; [exact Hd|]. rewrite Hc2 in A0, A1. split; [exact A0|]. split; [exact A1|].
    destruct Hcs as [A | (y & a & Hiny & Hs0)]; [left; exact A | right].
    exists (map fst pre), u, w, z, (map fst post), y. split; [rewrite El, map_app; reflexivity|].
    split; [apply in_map_iff; exists (y, a); auto | exact Hs0].
  - intros d Hd. apply (observers_now prog idhash NF Hs s' F q (loc_of q) Hothers fin_self Hcal).
    rewrite W_cur. exact Hd.
  - intros _ d Hin. rewrite Hc2, Etr in Hin. rewrite <- Htr in Hin.
    destruct (Hcal d Hin) as (_ & _ & md & Hmd & Hvd). exists md. auto.
Qed.

Lemma fin_store : SInv Hs s' F.
Proof.
  destruct fin_del as (I1 & X1 & Hm1 & Hst1 & _).
  pose proof (in_cons_frame F q frA Hna) as HinF1.
  assert (Hstore : SInv Hs s' F /\ sext t0 s'); [|exact (proj1 Hstore)].
  apply (SInv_store prog skind idhash rank Hrank NF Hbound Hprov Hgk Hs t0 F1 s' F (loc_of q) mm I1); try reflexivity.
  - (* the memo being replaced is older, its changed_at not later *) exact fin_old_t0.
  - (* OInv of the final state *) exact OIF.
  - (* Cons of the final state *) apply (cons_nk s s' ((q, fr) :: F) F (si_cons I)); [cbn; exact Hst1|].
    intros q0 fr0 Hin. exists fr0. right. exact Hin.
  - (* q does not run *) exact Hna.
  - (* the other queries run as before *) intros l0 Hne. split.
    + intros (q0 & fr0 & Hin & El). exists q0, fr0. split; [right; exact Hin | exact El].
    + intros (q0 & fr0 & Hin & El). apply HinF1 in Hin. destruct Hin as [[-> _] | [_ Hin]]; [contradiction Hne; auto|].
      exists q0, fr0. auto.
  - (* the remaining frames are old ones *) intros q0 fr0 Hin. right. exact Hin.
  - (* the new memo is ok *) intros Hothers _. rewrite kq_loc by exact fin_gk. exact (fin_memo_ok Hothers).
  - (* observers of q: the stamp is kept only with the old value *)
    intros g mg Hmg Hne Hcl Hle. rewrite (kq_loc q fin_gk) in *.
    destruct (dv_memo (mo_obs (si_memo I1 g mg Hmg) q Hcl)) as (md & Hmd & Hvle & Hobs).
    pose proof Hmd as Hmd0. rewrite Hm1, (fo_old FO) in Hmd. destruct (fin_back md Hmd) as [Hlo Hb]. cbn [mm m_changed] in Hle.
    assert (EE : Er Hs s' (cur t0) q = (v, hs)) by (rewrite <- (sext_cur _ _ fin_sext), Er_cur; exact (proj2 fin_trace)).
    destruct Hb as [[Ech Hvo] | [Ech Hlate]]; rewrite Ech in Hle; [|lia].
    rewrite EE, (Hobs Hle).
    pose proof (mo_val (memo_ok_of I1 fin_gk Hmd0)) as Ev.
    rewrite Hvo in Ev. injection Ev as Ev. symmetry. exact Ev.
  - (* the structs q held are the active entries *)
    intros id h sl _ Ho. rewrite (kq_loc q fin_gk) in Ho.
    destruct Ho as [(Hnaq & _) | (fr0 & e0 & Hin0 & Hine0 & E1 & E2)].
    + exfalso. apply Hnaq. exists q, frA. split; [left; reflexivity | reflexivity].
    + apply HinF1 in Hin0. destruct Hin0 as [[_ ->] | [Hneq _]]; [|contradiction Hneq; reflexivity].
      unfold frA in Hine0. cbn [fr_ids set_fr_ids] in Hine0. apply filter_In in Hine0. destruct Hine0 as [Hine0 Ha0].
      cbn [mm m_structs]. apply drain_active_in. exists e0. auto.
  - (* an active entry of a frame stays in its frame or is listed by the new memo *)
    intros q0 fr0 id h Hin0 Hine0. apply HinF1 in Hin0. destruct Hin0 as [[-> ->] | [_ Hin0]]; [right | left; exact Hin0].
    unfold frA in Hine0. cbn [fr_ids set_fr_ids] in Hine0. apply filter_In in Hine0. cbn [mm m_structs]. apply fin_active_in. exact (proj1 Hine0).
Qed.

Lemma fin_all :
  SInv Hs s' F /\ sext s s' /\ d_stack s' = d_stack s /\
  (forall l, l <> loc_of q -> d_memo s' l = d_memo s l) /\
  (forall p frp h0, In (p, frp) F -> In h0 (frame_ids frp) -> d_slots s' (fst h0) = d_slots s (fst h0)) /\
  d_memo s' (loc_of q) = Some mm /\ cur t0 = cur s.
Proof.
  destruct fin_del as (I1 & X1 & Hm1 & Hst1 & _ & Hfroz1 & _).
  split; [exact fin_store|]. split; [exact (sext_trans _ _ _ X1 fin_sext)|]. split; [cbn; exact Hst1|].
  split.
  { intros l Hne. cbn. rewrite upd_other by congruence. rewrite Hm1. reflexivity. }
  split; [intros p frp h0 Hp Hh0; cbn; exact (Hfroz1 p frp h0 Hp Hh0)|].
  split; [exact fin_memo | exact (sext_cur _ _ X1)].
Qed.

End Fin.

Theorem finish_sinv Hs s F q old fr log v hs dis n s' m' :
  SInv Hs s ((q, fr) :: F) -> ~ active_loc F (loc_of q) ->
  FrameOK Hs s q old fr log (Ret v hs) dis -> log <> [] ->
  finish_exec skind [] n q old (v, hs) fr s = (s', SOk m') ->
  SInv Hs s' F /\ sext s s' /\ d_stack s' = d_stack s /\
  (forall l, l <> loc_of q -> d_memo s' l = d_memo s l) /\
  (forall p frp h0, In (p, frp) F -> In h0 (frame_ids frp) -> d_slots s' (fst h0) = d_slots s (fst h0)) /\
  d_memo s' (loc_of q) = Some m' /\ m_verified m' = cur s /\ m_val m' = Some (v, hs) /\ m_dur m' = 0.
Proof.
  intros I Hna FO Hlne H.
  pose proof (fo_low FO Hlne) as Hdur.
  destruct (finish_oinv skind [] (nofams skind) n q old (v, hs) fr s _ s' m' (si_oinv I) (or_introl eq_refl) H) as [OIF _].
  cbn [del_frame] in OIF. rewrite qk_eqb_refl in OIF.
  destruct (finish_exec_cases skind [] n q old (v, hs) fr s s' m' H) as (ch & t0 & u2 & Eb & H0 & Em & H2).
  rewrite put_memo_nk in H2. injection H2 as <-.
  rewrite Hdur in Eb, Em. change (0 =? D_NEVER) with false in Em. cbn [andb] in Em. subst m'.
  assert (H0' : match old with
                | Some o => diff_outputs [] n o q (snd (drain (fr_ids fr))) (fr_edges fr)
                | None => ret tt
                end s = (t0, SOk tt)).
  { destruct old; [exact H0 | subst t0; reflexivity]. }
  destruct (fin_all Hs s F q old fr log v hs dis n t0 ch tt I Hna FO Eb H0' OIF) as (A & B & C & D & E & G & Hc).
  split; [exact A|]. split; [exact B|]. split; [exact C|]. split; [exact D|]. split; [exact E|].
  split; [exact G|]. split; [exact Hc|]. split; reflexivity.
Qed.

End Exec.
