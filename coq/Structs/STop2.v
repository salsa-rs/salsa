(* Structs/STop2.v — the theorem of STop.v for the larger history class [s1b_ops] with synthetic writes
   (OSynth, any durability) and untracked-cell writes (OSetCell).  A cell write does not start a
   revision, so a memo verified in the current revision that read the cell keeps its value: the
   from-scratch statement is FALSE for a cell write after a Get of the same revision.  The class
   therefore allows OSetCell only while nothing has been verified in the revision yet (directly
   after OSet / OSynth / OSetCell / at the start). *)
From Salsa Require Import Base.
From Salsa.Kern Require Import CoreK CoreKFacts.
From Salsa.Structs Require Import Model ProofsBase ProofsCascade Machine ProofsInv ProofsStep Theorems Guard SimBase SimOps Sim
     SSem SInv SSlots SFrame SNewInv SRun SExec SVerify STop.

Section Top2.
Variable prog : qk -> body.
Variable skind : N -> bool.
Variable idhash : val -> N.
Variable rank : qk -> nat.
Hypothesis Hrank : calls_below prog rank.
Variable NF : nat.
Hypothesis Hbound : forall q, (rank q < NF)%nat.
Hypothesis Hprov : no_forge idhash prog.
Hypothesis Hgk : forall q d, calls (prog q) d -> gk d.
Hypothesis Hnk : forall f, skind f = false.
Hypothesis Hfirst : forall q d, calls (prog q) d -> first_read (prog d).
Hypothesis Hns : forall q, nospec (prog q).

Notation TopOK := (TopOK prog skind idhash NF).
Notation gets_ok := (gets_ok prog skind idhash NF).

Lemma fresh_same s s' : fresh s -> d_memo s' = d_memo s -> d_slots s' = d_slots s -> cur s' = cur s -> fresh s'.
Proof. intros [A B] Em Es Ec. split; rewrite ?Em, ?Es, Ec; assumption. Qed.

Lemma fresh_frame_ok s s' : TopOK s -> fresh s ->
  cur s' = cur s -> d_in s' = d_in s -> d_memo s' = d_memo s -> d_slots s' = d_slots s ->
  d_nslots s' = d_nslots s -> d_free s' = d_free s -> d_ideal s' = d_ideal s -> d_stack s' = d_stack s ->
  TopOK s'.
Proof.
  intros (Hs & I & Hst) [Fm Fs] Hc Hin Hm Hsl Hn Hf Hid Hstk.
  pose proof (si_cur I) as Hc1.
  assert (HW : forall r, r < cur s -> Wd Hs s' r = Wd Hs s r).
  { intros r Hr. unfold Wd. rewrite Hc. apply N.ltb_lt in Hr. rewrite Hr. reflexivity. }
  exists Hs. split; [|congruence].
  apply (SInv_advance prog skind idhash NF Hnk Hs Hs s s' (cur s - 1) I); try assumption; try lia.
  - (* no memo is verified in the current revision *) intros l m Hm0. pose proof (Fm l m Hm0). lia.
  - (* the past worlds are the old ones *) intros r Hr. apply HW. lia.
  - (* input stamps only grow *) intros j. rewrite Hin. lia.
  - (* an input unchanged since r has its value in world r *)
    intros j r Hr Hle. rewrite Hc in Hle. rewrite Hin in *.
    destruct (N.eq_dec r (cur s)) as [-> | Hnr].
    + unfold Wd. rewrite Hc, N.ltb_irrefl. cbn. rewrite Hin. reflexivity.
    + rewrite HW by lia. apply (si_in I j r Hr). lia.
  - (* input stamps are not in the future *) intros j. rewrite Hc, Hin. exact (si_in_le I j).
  - (* inputs are LOW *) intros j. rewrite Hin. exact (si_low I j).
  - (* no slot is read-locked in the current revision *) intros j sl r Hs0 Hu. rewrite Hc. exact (Fs j sl r Hs0 Hu).
Qed.

Lemma revs_ok s x : TopOK s -> fresh s -> r_cur x = cur s -> TopOK (set_revs s x).
Proof. intros T Fr Ex. apply (fresh_frame_ok s _ T Fr); try reflexivity. exact Ex. Qed.

Lemma cell_ok s c v : TopOK s -> fresh s -> TopOK (set_cell s (updN (d_cell s) c v)).
Proof. intros T Fr. apply (fresh_frame_ok s _ T Fr); reflexivity. Qed.

(* ---------------------------------------------------------------- the history class *)
(* b = nothing has been verified in the current revision yet *)
Fixpoint s1b_ops (b : bool) (os : list op) : Prop :=
  match os with
  | [] => True
  | OSet i v d :: os' => (d = None \/ d = Some 0) /\ s1b_ops true os'
  | OSynth d :: os' => s1b_ops true os'
  | OSetCell c v :: os' => b = true /\ s1b_ops true os'
  | OGet q :: os' => (gk q /\ first_read (prog q)) /\ s1b_ops false os'
  | OGetS _ _ _ :: _ => False
  | OEntries :: os' => s1b_ops b os'
  end.

Definition flag_after (b : bool) (o : op) : bool :=
  match o with
  | OSet _ _ _ | OSynth _ | OSetCell _ _ => true
  | OGet _ | OGetS _ _ _ => false
  | OEntries => b
  end.

Lemma zalsa_ok s : TopOK s -> TopOK (zalsa_mut s) /\ cur (zalsa_mut s) <= cur s + 1.
Proof.
  intros T. unfold zalsa_mut. destruct (d_ccount s =? 255).
  - destruct (newrev_ok prog skind idhash NF Hnk s T) as (A & _ & B). split; [exact A | lia].
  - split; [apply (ccount_ok prog skind idhash rank Hrank NF Hbound Hprov Hgk Hnk); exact T|].
    assert (E : cur (set_ccount s (d_ccount s + 1)) = cur s) by reflexivity. rewrite E. lia.
Qed.

Lemma step_write_ok fuel s o : TopOK s ->
  match o with
  | OSet i v d => d = None \/ d = Some 0
  | OSynth d => True
  | _ => False
  end ->
  TopOK (fst (step prog skind [] idhash fuel s o)) /\ fresh (fst (step prog skind [] idhash fuel s o)) /\
  cur (fst (step prog skind [] idhash fuel s o)) <= cur s + 2.
Proof.
  intros T Hop. destruct o as [i v d | d | c v | q | fam q i | ]; try contradiction.
  - cbn [step].
    destruct (zalsa_ok s T) as [Tz Hcz].
    destruct (newrev_ok prog skind idhash NF Hnk _ Tz) as (T1 & F1 & Hc1).
    set (s1 := new_revision (zalsa_mut s)) in *.
    pose proof T1 as (Hs1 & I1 & Hst1).
    pose proof (si_low I1 i) as Hlow. rewrite Hlow. change (0 =? D_NEVER) with false. change (0 =? D_LOW) with true.
    cbn [fst].
    assert (Ed : match d with Some d' => d' | None => 0 end = 0) by (destruct Hop as [-> | ->]; reflexivity).
    rewrite Ed. split; [exact (write_ok prog skind idhash NF Hnk s1 i v T1 F1)|].
    split; [apply (fresh_same s1); [exact F1 | reflexivity | reflexivity | reflexivity]|].
    assert (E : forall x, cur (set_in (set_revs s1 (d_revs s1)) x) = cur s1) by reflexivity. rewrite E. lia.
  - cbn [step].
    destruct (zalsa_ok s T) as [Tz Hcz].
    destruct (newrev_ok prog skind idhash NF Hnk _ Tz) as (T1 & F1 & Hc1).
    set (s1 := new_revision (zalsa_mut s)) in *.
    destruct (d =? D_NEVER); cbn [fst].
    + split; [exact T1|]. split; [exact F1 | lia].
    + split; [apply revs_ok; [exact T1 | exact F1 | reflexivity]|].
      split; [apply (fresh_same s1); [exact F1 | reflexivity | reflexivity | reflexivity]|].
      assert (E : cur (set_revs s1 (report_write (d_revs s1) d)) = cur s1) by reflexivity. rewrite E. lia.
Qed.

Lemma fresh_init iv idur : fresh (init iv idur).
Proof. split; [intros l m H; discriminate | intros i sl r H; discriminate]. Qed.

(* the invariant holds between the operations, and the revision counter stays below GMAX *)
Fixpoint tops_ok (fuel : nat) (s : db) (os : list op) : Prop :=
  match os with
  | [] => True
  | o :: os' =>
      let s' := fst (step prog skind [] idhash fuel s o) in
      (TopOK s' /\ cur s' < GMAX) /\ tops_ok fuel s' os'
  end.

Theorem from_scratch_S1b_tops fuel : forall os s n b,
  TopOK s -> (b = true -> fresh s) -> cur s <= 1 + 2 * n -> 1 + 2 * (n + N.of_nat (length os)) < GMAX ->
  s1b_ops b os -> Forall2 okout os (snd (run_ops prog skind [] idhash fuel s os)) ->
  gets_ok fuel s os /\ tops_ok fuel s os.
Proof.
  induction os as [|o os IH]; intros s n b T Hfr Hc Hb Hops Hok; [split; exact Logic.I|].
  cbn [STop.gets_ok tops_ok]. cbn [run_ops] in Hok.
  destruct (step prog skind [] idhash fuel s o) as [s1 r] eqn:E1.
  destruct (run_ops prog skind [] idhash fuel s1 os) as [s2 rs] eqn:E2. cbn [snd fst] in *.
  inversion Hok as [|? ? ? ? Hr Hrs]; subst.
  cbn [length] in Hb.
  assert (Hstep : TopOK s1 /\ cur s1 <= cur s + 2 /\ (flag_after b o = true -> fresh s1) /\ s1b_ops (flag_after b o) os /\
                  match o with
                  | OGet q => exists v, r = SOk v /\ v = Ew idhash prog NF (wcur s1) q /\ wcons prog idhash NF (wcur s1) q /\
                                        (forall h, In h (snd v) -> live s1 h)
                  | _ => True
                  end).
  { destruct o as [i v d | d | c v | q | fam q i | ]; cbn [s1b_ops flag_after] in *.
    - destruct Hops as [Hd Hos].
      pose proof (step_write_ok fuel s (OSet i v d) T Hd) as A. rewrite E1 in A. cbn [fst] in A.
      destruct A as (A & B & C). auto 6.
    - pose proof (step_write_ok fuel s (OSynth d) T Logic.I) as A. rewrite E1 in A. cbn [fst] in A.
      destruct A as (A & B & C). auto 6.
    - destruct Hops as [-> Hos]. cbn [step] in E1. injection E1 as <- <-.
      pose proof (Hfr eq_refl) as F0.
      split; [exact (cell_ok s c v T F0)|]. split; [change (cur s <= cur s + 2); lia|].
      split; [intros _; apply (fresh_same s); [exact F0 | reflexivity | reflexivity | reflexivity]|]. auto.
    - destruct Hops as [[Hg Hfq] Hos]. destruct Hr as (v & ->).
      destruct (get_ok prog skind idhash rank Hrank NF Hbound Hprov Hgk Hnk Hfirst Hns fuel s q s1 v T Hg Hfq) as (A & B & C & D & E0); [lia | exact E1|].
      split; [exact A|]. split; [lia|]. split; [discriminate|]. split; [exact Hos|]. exists v. auto.
    - contradiction.
    - cbn [step] in E1. injection E1 as <- <-. split; [exact T|]. split; [lia|]. auto. }
  destruct Hstep as (T1 & Hc1 & Hf1 & Hos & Hget).
  destruct (IH s1 (n + 1) (flag_after b o) T1 Hf1) as [G1 G2]; [lia | | exact Hos | |].
  - rewrite Nat2N.inj_succ in Hb. lia.
  - rewrite E2. exact Hrs.
  - split; [split; [exact Hget | exact G1]|]. split; [|exact G2]. split; [exact T1|].
    rewrite Nat2N.inj_succ in Hb. lia.
Qed.

Theorem from_scratch_S1b fuel : forall os s n b,
  TopOK s -> (b = true -> fresh s) -> cur s <= 1 + 2 * n -> 1 + 2 * (n + N.of_nat (length os)) < GMAX ->
  s1b_ops b os -> Forall2 okout os (snd (run_ops prog skind [] idhash fuel s os)) ->
  gets_ok fuel s os.
Proof. intros os s n b T Hfr Hc Hb Hops Hok. exact (proj1 (from_scratch_S1b_tops fuel os s n b T Hfr Hc Hb Hops Hok)). Qed.

Lemma tops_prefix fuel : forall os1 s os2, TopOK s -> cur s < GMAX -> tops_ok fuel s (os1 ++ os2) ->
  TopOK (fst (run_ops prog skind [] idhash fuel s os1)) /\ cur (fst (run_ops prog skind [] idhash fuel s os1)) < GMAX.
Proof.
  induction os1 as [|o os1 IH]; intros s os2 T Hc H; [split; assumption|].
  cbn [app tops_ok] in H. destruct H as [[T1 Hc1] H].
  cbn [run_ops]. destruct (step prog skind [] idhash fuel s o) as [s1 r] eqn:E1. cbn [fst] in *.
  specialize (IH s1 os2 T1 Hc1 H).
  destruct (run_ops prog skind [] idhash fuel s1 os1) as [s2 rs]. exact IH.
Qed.

End Top2.
