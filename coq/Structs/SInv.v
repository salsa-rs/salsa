(* Structs/SInv.v — the from-scratch invariant of the Structs model for programs without
   `specify` and without struct-keyed functions: definitions and basic facts.

   The world of the CURRENT revision is read off the state (inputs, cells, the slot store, and
   for every query the allocation recorded in its memo's tracked_struct_ids); the worlds of
   PAST revisions are a ghost history.  As in Core/DInv.v the invariant is observer-relative and
   closure-wide: a memo f verified at v "observes" every query d of its semantic call closure
   at v, the tracked fields they read and the structs they create. *)
From Salsa Require Import Base.
From Salsa.Kern Require Import CoreK CoreKFacts.
From Salsa.Structs Require Import Model ProofsBase ProofsCascade Machine ProofsInv ProofsStep Theorems Guard SimBase SSem.

(* memos are stored by location (family, index); an input key has generation 0, so [kq l] is the
   one input-keyed query at [l] *)
Definition kq (l : loc) : qk := (fst l, (snd l, 0)).
Definition gk (q : qk) : Prop := snd (snd q) = 0.

Lemma kq_loc (q : qk) : gk q -> kq (loc_of q) = q.
Proof. destruct q as [f [i g]]. unfold gk, kq, loc_of. cbn. intros ->. reflexivity. Qed.
Lemma loc_kq l : loc_of (kq l) = l.
Proof. destruct l. reflexivity. Qed.

Fixpoint assoc_id (l : list (ident * handle)) (id : ident) : handle :=
  match l with
  | [] => (0, 0)
  | (k, h) :: l' => if key_eqb k id then h else assoc_id l' id
  end.

Lemma assoc_id_in l id : In id (map fst l) -> In (id, assoc_id l id) l.
Proof.
  induction l as [|[k h] l IH]; cbn [map fst assoc_id In]; [intros []|].
  destruct (key_eqb_spec k id) as [-> | Hne]; [left; reflexivity|].
  intros [E | H]; [contradiction | right; exact (IH H)].
Qed.

Lemma assoc_id_nodup l id h : NoDup (map fst l) -> In (id, h) l -> assoc_id l id = h.
Proof.
  induction l as [|[k h0] l IH]; cbn [map fst assoc_id In]; [intros _ []|].
  intros Hnd Hin. inversion Hnd as [|? ? Hni Hnd']; subst.
  destruct (key_eqb_spec k id) as [-> | Hne].
  - destruct Hin as [E | Hin]; [injection E as <-; reflexivity|].
    exfalso. apply Hni. apply in_map_iff. exists (id, h). auto.
  - destruct Hin as [E | Hin]; [injection E as E1 _; contradiction | exact (IH Hnd' Hin)].
Qed.

Definition wcur (s : db) : world :=
  {| w_in := fun i => f_val (d_in s i);
     w_cell := d_cell s;
     w_slot := fun h => match d_slots s (fst h) with Some sl => slot_fields sl | None => (0, 0, 0) end;
     w_alloc := fun q id => match d_memo s (loc_of q) with Some m => assoc_id (m_structs m) id | None => (0, 0) end |}.

Definition hist := rev -> world.
Definition Wd (Hs : hist) (s : db) (r : rev) : world := if r <? cur s then Hs r else wcur s.

Definition live_h (s : db) (h : handle) (sl : slot) : Prop :=
  d_slots s (fst h) = Some sl /\ sl_updated sl <> None /\ sl_gen sl = snd h.
Definition revf (sl : slot) (f : N) : rev := if f =? 0 then sl_rev0 sl else sl_rev1 sl.
Definition fldv (sl : slot) (f : N) : val := if f =? 0 then sl_f0 sl else sl_f1 sl.

Lemma fld3_slot sl f : fld3 (slot_fields sl) f = fldv sl f.
Proof. unfold fld3, fldv, slot_fields. cbn. reflexivity. Qed.
Lemma idv3_slot sl : idv3 (slot_fields sl) = sl_idv sl.
Proof. reflexivity. Qed.

Lemma live_h_live s h sl : live_h s h sl -> live s h.
Proof. intros H. exists sl. exact H. Qed.

Lemma live_h_fun s h sl sl' : live_h s h sl -> live_h s h sl' -> sl' = sl.
Proof. intros (E & _) (E' & _). congruence. Qed.

Definition untr (x : rd) : Prop := x = RTouch \/ exists c, x = RCell c.

(* the dependency edges of a run, in the order the reads are first performed *)
Definition rd_edge (x : rd) : option edge :=
  match x with
  | RIn i => Some (EIn i)
  | RQ d => Some (EQ d)
  | RFld h f => Some (EFld h f)
  | _ => None
  end.
Definition edge_step (es : list edge) (x : rd) : list edge :=
  match rd_edge x with Some e => add_edge es e | None => es end.
Definition edges_of (t : list rd) : list edge := fold_left edge_step t [].

Lemma edges_of_snoc t x : edges_of (t ++ [x]) = edge_step (edges_of t) x.
Proof. unfold edges_of. rewrite fold_left_app. reflexivity. Qed.

Section SInv.
Variable prog : qk -> body.
Variable skind : N -> bool.
Variable idhash : val -> N.
Variable NF : nat.

Notation Ew := (Ew idhash prog NF).
Notation trw := (trw idhash prog NF).
Notation clos := (clos idhash prog NF).

(* the stamp c is at most the current stamp of the read x *)
Definition sle (s : db) (c : rev) (x : rd) : Prop :=
  match x with
  | RIn i => c <= f_changed (d_in s i)
  | RQ d => exists md, d_memo s (loc_of d) = Some md /\ c <= m_changed md
  | RFld h f => In h (issued s) /\ forall sl, live_h s h sl -> c <= revf sl f
  | RCell _ | RTouch => True
  | RNew _ _ _ _ | RIdf _ => False
  end.

(* the field-1 revision of a struct is the stamp of something read before its creation *)
Definition cstamp (s : db) (t : list rd) (id : ident) (c : rev) : Prop :=
  c <= 1 \/ exists pre idv f0 f1 post x, t = pre ++ RNew id idv f0 f1 :: post /\ In x pre /\ sle s c x.

(* who holds the struct with identity id of query d *)
Definition owned (s : db) (F : frames) (d : qk) (id : ident) (h : handle) : Prop :=
  (~ active_loc F (loc_of d) /\ exists md, d_memo s (loc_of d) = Some md /\ In (id, h) (m_structs md)) \/
  (exists fr e, In (d, fr) F /\ In e (fr_ids fr) /\ te_ident e = id /\ te_id e = h).

Section AtState.
Variable Hs : hist.
Variable s : db.
Variable F : frames.

Definition W (r : rev) : world := Wd Hs s r.
Definition Er (r : rev) (q : qk) : rval := Ew (W r) q.
Definition trr (r : rev) (q : qk) : list rd := trw (W r) q.

(* what an observer verified at v is owed about a query d of its closure *)
Record dval (v : rev) (d : qk) : Prop := {
  (* d has a memo at least as recent; if that memo did not change after v, d's value at v is the memo's *)
  dv_memo : exists md, d_memo s (loc_of d) = Some md /\ v <= m_verified md /\
            (m_changed md <= v -> Er v d = Er (m_verified md) d);
  (* a field d reads at v, if its slot is live and unchanged since v, still holds the value of world v *)
  dv_fld : forall h f sl, In (RFld h f) (trr v d) -> live_h s h sl -> revf sl f <= v ->
           fld3 (w_slot (W v) h) f = fldv sl f;
  dv_idf : forall h sl, In (RIdf h) (trr v d) -> live_h s h sl -> idv3 (w_slot (W v) h) = sl_idv sl;
  (* a struct d creates at v was issued with these fields, and while live it is held by d *)
  dv_new : forall id idv f0 f1, In (RNew id idv f0 f1) (trr v d) ->
           w_slot (W v) (w_alloc (W v) d id) = (idv, f0, f1) /\ In (w_alloc (W v) d id) (issued s);
  dv_own : forall id idv f0 f1 sl, In (RNew id idv f0 f1) (trr v d) ->
           live_h s (w_alloc (W v) d id) sl -> owned s F d id (w_alloc (W v) d id)
}.

(* the memo [m] of [q] is the record of the from-scratch run of [q] in the world of m_verified m *)
Record smemo_ok (q : qk) (m : memo) : Prop := {
  mo_order : 1 <= m_verified m /\ m_changed m <= m_verified m /\ m_verified m <= cur s;
  mo_val : m_val m = Some (Er (m_verified m) q);
  mo_low : m_dur m = 0;
  mo_origin : m_origin m = ODerived \/ m_origin m = OUntracked;
  (* tracked_struct_ids and edges are those of the trace of that run *)
  mo_structs : NoDup (map fst (m_structs m)) /\
               forall id h, In (id, h) (m_structs m) <->
                 In id (news_ids (trr (m_verified m) q)) /\ h = w_alloc (W (m_verified m)) q id;
  mo_in : forall i, In (RIn i) (trr (m_verified m) q) <-> In (EIn i) (m_edges m);
  mo_q : forall d, In (RQ d) (trr (m_verified m) q) <-> In (EQ d) (m_edges m);
  mo_fld : forall h f, In (RFld h f) (trr (m_verified m) q) <-> In (EFld h f) (m_edges m);
  mo_out : forall o, ~ In (EOut o) (m_edges m);
  mo_eorder : m_edges m = edges_of (trr (m_verified m) q);
  mo_untr : forall x, In x (trr (m_verified m) q) -> untr x -> m_origin m = OUntracked;
  (* the structs of a memo whose query is not running: live, with the fields it created *)
  mo_own : ~ active_loc F (loc_of q) -> forall id h, In (id, h) (m_structs m) ->
           exists sl, live_h s h sl /\ slot_fields sl = w_slot (W (m_verified m)) h /\ sl_dur sl = 0 /\
                      sl_rev0 sl <= m_verified m /\ sl_rev1 sl <= m_verified m /\
                      cstamp s (trr (m_verified m) q) id (sl_rev1 sl);
  (* every query of the call closure is observed (dval); a memo verified now has its callees verified now *)
  mo_obs : forall d, clos (W (m_verified m)) q d -> dval (m_verified m) d;
  mo_now : m_verified m = cur s -> forall d, In (RQ d) (trr (cur s) q) ->
           exists md, d_memo s (loc_of d) = Some md /\ m_verified md = cur s
}.

Record SInv : Prop := {
  si_cur : 1 <= cur s;
  si_in : forall i r, f_changed (d_in s i) <= r -> r <= cur s -> w_in (W r) i = f_val (d_in s i);
  si_in_le : forall i, f_changed (d_in s i) <= cur s;
  si_low : forall i, f_dur (d_in s i) = 0;
  si_oinv : OInv skind s F;
  si_cons : Cons skind s F;
  si_slots : forall i sl, d_slots s i = Some sl -> sl_updated sl <> None ->
             sl_dur sl = 0 /\ (forall r, sl_updated sl = Some r -> r <= cur s);
  (* generations are bounded by the revision counter: a slot changes generation at most once per revision *)
  si_gens : forall i sl, d_slots s i = Some sl ->
            match sl_updated sl with Some r => sl_gen sl < r | None => sl_gen sl + 1 < cur s end;
  si_memo : forall l m, d_memo s l = Some m -> smemo_ok (kq l) m;
  (* a slot read-locked in this revision holds a struct of a memo verified now or created (or
     re-created) by a running execution *)
  si_lock : forall h sl, live_h s h sl -> sl_updated sl = Some (cur s) ->
            (exists l m id, d_memo s l = Some m /\ m_verified m = cur s /\ In (id, h) (m_structs m)) \/
            (exists q fr id, In (q, fr) F /\ In (mk_entry id h true) (fr_ids fr));
  (* the memo of a running query is not verified in this revision; running queries have input keys *)
  si_active : forall q fr, In (q, fr) F -> gk q /\ forall m, d_memo s (loc_of q) = Some m -> m_verified m < cur s
}.

End AtState.
End SInv.

Arguments dv_memo {_ _ _ _ _ _ _ _}.
Arguments dv_fld {_ _ _ _ _ _ _ _}.
Arguments dv_idf {_ _ _ _ _ _ _ _}.
Arguments dv_new {_ _ _ _ _ _ _ _}.
Arguments dv_own {_ _ _ _ _ _ _ _}.
Arguments mo_order {_ _ _ _ _ _ _ _}.
Arguments mo_val {_ _ _ _ _ _ _ _}.
Arguments mo_low {_ _ _ _ _ _ _ _}.
Arguments mo_origin {_ _ _ _ _ _ _ _}.
Arguments mo_structs {_ _ _ _ _ _ _ _}.
Arguments mo_in {_ _ _ _ _ _ _ _}.
Arguments mo_q {_ _ _ _ _ _ _ _}.
Arguments mo_fld {_ _ _ _ _ _ _ _}.
Arguments mo_out {_ _ _ _ _ _ _ _}.
Arguments mo_eorder {_ _ _ _ _ _ _ _}.
Arguments mo_untr {_ _ _ _ _ _ _ _}.
Arguments mo_own {_ _ _ _ _ _ _ _}.
Arguments mo_obs {_ _ _ _ _ _ _ _}.
Arguments mo_now {_ _ _ _ _ _ _ _}.
Arguments si_cur {_ _ _ _ _ _ _}.
Arguments si_in {_ _ _ _ _ _ _}.
Arguments si_in_le {_ _ _ _ _ _ _}.
Arguments si_low {_ _ _ _ _ _ _}.
Arguments si_oinv {_ _ _ _ _ _ _}.
Arguments si_cons {_ _ _ _ _ _ _}.
Arguments si_slots {_ _ _ _ _ _ _}.
Arguments si_gens {_ _ _ _ _ _ _}.
Arguments si_memo {_ _ _ _ _ _ _}.
Arguments si_lock {_ _ _ _ _ _ _}.
Arguments si_active {_ _ _ _ _ _ _}.

(* ---------------------------------------------------------------- within-revision extension *)
Definition slot_keeps (o o' : option slot) : Prop :=
  forall sl, o = Some sl -> sl_updated sl <> None ->
    exists sl', o' = Some sl' /\ sl_updated sl' <> None /\ sl_gen sl' = sl_gen sl /\
                slot_fields sl' = slot_fields sl /\ sl_rev0 sl' = sl_rev0 sl /\ sl_rev1 sl' = sl_rev1 sl /\
                sl_dur sl' = sl_dur sl.

Record sext (s s' : db) : Prop := {
  x_revs : d_revs s' = d_revs s;
  x_in : d_in s' = d_in s;
  x_cell : d_cell s' = d_cell s;
  (* a memo verified now stays as it is; any memo stays or is replaced by a later one *)
  x_valid : forall l m, d_memo s l = Some m -> m_verified m = cur s -> d_memo s' l = Some m;
  x_memo : forall l m, d_memo s l = Some m ->
           exists m', d_memo s' l = Some m' /\ m_verified m <= m_verified m' /\ m_changed m <= m_changed m';
  (* a slot read-locked now is frozen; the structs of a memo verified now keep gen, fields and stamps *)
  x_locked : forall i sl, d_slots s i = Some sl -> sl_updated sl = Some (cur s) -> d_slots s' i = Some sl;
  x_settled : forall l m id h, d_memo s l = Some m -> m_verified m = cur s -> In (id, h) (m_structs m) ->
              slot_keeps (d_slots s (fst h)) (d_slots s' (fst h));
  (* slots never disappear; generations and, within a generation, field revisions only grow *)
  x_slots : forall i sl, d_slots s i = Some sl ->
            exists sl', d_slots s' i = Some sl' /\ sl_gen sl <= sl_gen sl' /\
              (sl_gen sl' = sl_gen sl -> sl_updated sl' <> None ->
               sl_updated sl <> None /\ sl_rev0 sl <= sl_rev0 sl' /\ sl_rev1 sl <= sl_rev1 sl' /\
               sl_idv sl' = sl_idv sl);
  x_issued : incl (issued s) (issued s')
}.
Arguments x_revs {_ _}.
Arguments x_in {_ _}.
Arguments x_cell {_ _}.
Arguments x_valid {_ _}.
Arguments x_memo {_ _}.
Arguments x_locked {_ _}.
Arguments x_settled {_ _}.
Arguments x_slots {_ _}.
Arguments x_issued {_ _}.

Lemma slot_keeps_refl o : slot_keeps o o.
Proof. intros sl E Hu. exists sl. auto 10. Qed.

Lemma slot_keeps_trans a b c : slot_keeps a b -> slot_keeps b c -> slot_keeps a c.
Proof.
  intros H1 H2 sl E Hu. destruct (H1 sl E Hu) as (sl1 & E1 & Hu1 & G1 & Fl1 & A1 & B1 & C1).
  destruct (H2 sl1 E1 Hu1) as (sl2 & E2 & Hu2 & G2 & Fl2 & A2 & B2 & C2).
  exists sl2. repeat split; congruence.
Qed.

Lemma sext_cur s s' : sext s s' -> cur s' = cur s.
Proof. intros H. unfold cur. now rewrite (x_revs H). Qed.

Lemma sext_refl s : sext s s.
Proof.
  constructor; auto.
  - intros l m Hm. exists m. split; [exact Hm|]. split; lia.
  - intros l m id h _ _ _. apply slot_keeps_refl.
  - intros i sl Hs. exists sl. split; [exact Hs|]. split; [lia|]. intros _ Hu. repeat split; auto; lia.
  - intros x Hx. exact Hx.
Qed.

Lemma sext_trans s1 s2 s3 : sext s1 s2 -> sext s2 s3 -> sext s1 s3.
Proof.
  intros A B. pose proof (sext_cur _ _ A) as Hc.
  constructor.
  - rewrite (x_revs B). exact (x_revs A).
  - rewrite (x_in B). exact (x_in A).
  - rewrite (x_cell B). exact (x_cell A).
  - intros l m Hm Hv. apply (x_valid B); [exact (x_valid A l m Hm Hv) | rewrite Hc; exact Hv].
  - intros l m Hm. destruct (x_memo A l m Hm) as (m1 & Hm1 & V1 & C1).
    destruct (x_memo B l m1 Hm1) as (m2 & Hm2 & V2 & C2). exists m2. split; [exact Hm2|]. split; lia.
  - intros i sl Hs Hu. apply (x_locked B); [exact (x_locked A i sl Hs Hu) | rewrite Hc; exact Hu].
  - intros l m id h Hm Hv Hin.
    apply (slot_keeps_trans _ (d_slots s2 (fst h))).
    + exact (x_settled A l m id h Hm Hv Hin).
    + apply (x_settled B l m id h); [exact (x_valid A l m Hm Hv) | rewrite Hc; exact Hv | exact Hin].
  - intros i sl Hs. destruct (x_slots A i sl Hs) as (sl1 & Hs1 & G1 & K1).
    destruct (x_slots B i sl1 Hs1) as (sl2 & Hs2 & G2 & K2).
    exists sl2. split; [exact Hs2|]. split; [lia|]. intros Hg Hu.
    assert (Hg2 : sl_gen sl2 = sl_gen sl1) by lia.
    destruct (K2 Hg2 Hu) as (Hu1 & A1 & B1 & I1).
    assert (Hg1 : sl_gen sl1 = sl_gen sl) by lia.
    destruct (K1 Hg1 Hu1) as (Hu0 & A0 & B0 & I0).
    repeat split; [exact Hu0 | lia | lia | congruence].
  - intros x Hx. exact (x_issued B x (x_issued A x Hx)).
Qed.


(* The world of the current revision, as read off the state, is stable
   for every settled query (memo verified now) while the state is extended within the revision:
   its closure is settled, the allocations are in memos that stay, and the structs it reads belong
   to settled creators, whose slots are kept. *)
Section Stable.
Variable prog : qk -> body.
Variable skind : N -> bool.
Variable idhash : val -> N.
Variable rank : qk -> nat.
Hypothesis Hrank : calls_below prog rank.
Variable NF : nat.
Hypothesis Hbound : forall q, (rank q < NF)%nat.
Hypothesis Hprov : no_forge idhash prog.
Hypothesis Hgk : forall q d, calls (prog q) d -> gk d.

Notation Ew := (Ew idhash prog NF).
Notation trw := (trw idhash prog NF).
Notation envw := (envw idhash prog NF).
Notation clos := (clos idhash prog NF).
Notation SInv := (SInv prog skind idhash NF).
Notation smemo_ok := (smemo_ok prog idhash NF).
Notation Er := (Er prog idhash NF).
Notation trr := (trr prog idhash NF).

Definition settled (s : db) (q : qk) : Prop :=
  exists m, d_memo s (loc_of q) = Some m /\ m_verified m = cur s.

Lemma W_cur Hs s : W Hs s (cur s) = wcur s.
Proof. unfold W, Wd. rewrite N.ltb_irrefl. reflexivity. Qed.

Lemma trr_cur Hs s q : trr Hs s (cur s) q = trw (wcur s) q.
Proof. unfold SInv.trr. rewrite W_cur. reflexivity. Qed.
Lemma Er_cur Hs s q : Er Hs s (cur s) q = Ew (wcur s) q.
Proof. unfold SInv.Er. rewrite W_cur. reflexivity. Qed.

Lemma W_cur_ext Hs s s' : cur s' = cur s -> W Hs s' (cur s) = wcur s'.
Proof. intros <-. apply W_cur. Qed.

Lemma W_past Hs s r : r < cur s -> W Hs s r = Hs r.
Proof. intros H. unfold W, Wd. apply N.ltb_lt in H. rewrite H. reflexivity. Qed.

Lemma W_same_cur Hs s s' r : cur s' = cur s -> r < cur s -> W Hs s' r = W Hs s r.
Proof. intros Hc Hr. rewrite !W_past by lia. reflexivity. Qed.

Lemma memo_ok_of Hs s F q m : SInv Hs s F -> gk q -> d_memo s (loc_of q) = Some m -> smemo_ok Hs s F q m.
Proof. intros I Hg Hm. pose proof (si_memo I _ _ Hm) as H. rewrite (kq_loc q Hg) in H. exact H. Qed.

Lemma trw_gk w q d : In (RQ d) (trw w q) -> gk d.
Proof. intros H. apply calls_of_trace in H. exact (Hgk _ _ H). Qed.

Lemma clos_gk w q d : gk q -> clos w q d -> gk d.
Proof.
  intros Hg Hc. induction Hc as [f | f d0 d Hin Hd0 IH]; [exact Hg|]. apply IH. exact (trw_gk _ _ _ Hin).
Qed.

Lemma settled_not_active Hs s F q : SInv Hs s F -> settled s q -> ~ active_loc F (loc_of q).
Proof.
  intros I (m & Hm & Hv) (q' & fr & Hin & El).
  destruct (si_active I q' fr Hin) as [_ Hlt]. rewrite El in Hlt.
  specialize (Hlt m Hm). lia.
Qed.

Lemma verified_not_active Hs s F l m : SInv Hs s F -> d_memo s l = Some m -> m_verified m = cur s -> ~ active_loc F l.
Proof.
  intros I Hm Hv. rewrite <- (loc_kq l). apply (settled_not_active Hs s F (kq l) I). exists m. rewrite loc_kq. auto.
Qed.

Lemma settled_clos Hs s F q : SInv Hs s F -> gk q -> settled s q ->
  forall d, clos (wcur s) q d -> settled s d /\ gk d.
Proof.
  intros I Hg Hs0 d Hc. induction Hc as [f | f d0 d Hin Hd0 IH]; [auto|].
  apply IH; [exact (trw_gk _ _ _ Hin)|].
  destruct Hs0 as (m & Hm & Hv).
  pose proof (memo_ok_of Hs s F f m I Hg Hm) as Hok.
  apply (mo_now Hok Hv). unfold SInv.trr. rewrite W_cur. exact Hin.
Qed.

Lemma created_listed Hs s F A h : SInv Hs s F -> gk A -> settled s A -> created_by idhash prog NF (wcur s) A h ->
  exists m id, d_memo s (loc_of A) = Some m /\ m_verified m = cur s /\ In (id, h) (m_structs m).
Proof.
  intros I Hg (m & Hm & Hv) (id & idv & f0 & f1 & Hin & ->).
  pose proof (memo_ok_of Hs s F A m I Hg Hm) as Hok.
  exists m, id. split; [exact Hm|]. split; [exact Hv|].
  apply (proj2 (mo_structs Hok)). rewrite Hv. unfold SInv.trr. rewrite W_cur.
  split; [apply in_news_ids; eauto | reflexivity].
Qed.

Lemma read_handle_listed Hs s F q h : SInv Hs s F -> gk q -> settled s q ->
  uses idhash (envw (wcur s) q) (prog q) [] h ->
  exists A m id, gk A /\ d_memo s (loc_of A) = Some m /\ m_verified m = cur s /\ In (id, h) (m_structs m) /\
                 clos (wcur s) q A.
Proof.
  intros I Hg Hst Hu.
  destruct (creator_exists idhash prog rank Hrank NF Hbound Hprov (wcur s) (S (rank q)) q h (le_n _) Hu)
    as (A & HcA & HA).
  destruct (settled_clos Hs s F q I Hg Hst A HcA) as [HsA HgA].
  destruct (created_listed Hs s F A h I HgA HsA HA) as (m & id & Hm & Hv & Hin).
  exists A, m, id. auto.
Qed.

Lemma wslot_keeps s s' h sl : live_h s h sl -> slot_keeps (d_slots s (fst h)) (d_slots s' (fst h)) ->
  w_slot (wcur s') h = w_slot (wcur s) h /\ exists sl', live_h s' h sl' /\ slot_fields sl' = slot_fields sl /\
    sl_rev0 sl' = sl_rev0 sl /\ sl_rev1 sl' = sl_rev1 sl /\ sl_dur sl' = sl_dur sl.
Proof.
  intros (Hs & Hu & Hg) K. destruct (K sl Hs Hu) as (sl' & Hs' & Hu' & Hg' & Hf & A & B & C).
  split.
  - cbn [wcur w_slot]. rewrite Hs, Hs'. exact Hf.
  - exists sl'. split; [split; [exact Hs'|]; split; [exact Hu' | congruence]|]. auto.
Qed.

Theorem settled_stable Hs s F s' q : SInv Hs s F -> sext s s' -> gk q -> settled s q ->
  trw (wcur s') q = trw (wcur s) q /\ Ew (wcur s') q = Ew (wcur s) q /\
  (forall d, clos (wcur s) q d <-> clos (wcur s') q d).
Proof.
  intros I X Hg Hst.
  assert (Hag : forall d, clos (wcur s) q d -> local_agree idhash prog NF (wcur s) (wcur s') d).
  { intros d Hd. destruct (settled_clos Hs s F q I Hg Hst d Hd) as [Hsd Hgd].
    intros r Hr Hnq.
    assert (Hslot : forall h, uses idhash (envw (wcur s) d) (prog d) [] h -> w_slot (wcur s') h = w_slot (wcur s) h).
    { intros h Hu.
      destruct (read_handle_listed Hs s F d h I Hgd Hsd Hu) as (A & m & id & HgA & Hm & Hv & Hin & _).
      pose proof (memo_ok_of Hs s F A m I HgA Hm) as HokA.
      assert (HsA : settled s A) by (exists m; auto).
      destruct (mo_own HokA (settled_not_active Hs s F A I HsA) id h Hin) as (sl & Hl & _).
      exact (proj1 (wslot_keeps s s' h sl Hl (x_settled X _ m id h Hm Hv Hin))). }
    destruct r as [i | c | c | | id idv f0 f1 | h f | h]; cbn [answer envw mkenv e_in e_cell e_slot e_new].
    - cbn [wcur w_in]. rewrite (x_in X). reflexivity.
    - exfalso. exact (Hnq c eq_refl).
    - cbn [wcur w_cell]. rewrite (x_cell X). reflexivity.
    - reflexivity.
    - destruct Hsd as (m & Hm & Hv). cbn [wcur w_alloc]. rewrite Hm, (x_valid X _ m Hm Hv). reflexivity.
    - rewrite Hslot; [reflexivity|]. left. exists f. exact Hr.
    - rewrite Hslot; [reflexivity|]. right. left. exact Hr. }
  destruct (cone_determined idhash prog rank Hrank NF Hbound (wcur s) (wcur s') (S (rank q)) q (le_n _) Hag) as [A B].
  split; [exact A|]. split; [exact B|].
  exact (clos_cone idhash prog rank Hrank NF Hbound (wcur s) (wcur s') q Hag).
Qed.

(* what the invariant says about a revision is stable: past worlds are frozen, the current
   world is stable for settled queries *)
Definition observed (s : db) (v : rev) (q : qk) : Prop := v < cur s \/ (v = cur s /\ settled s q).

Lemma obs_stable Hs s F s' r q : SInv Hs s F -> sext s s' -> gk q -> observed s r q ->
  trr Hs s' r q = trr Hs s r q /\ Er Hs s' r q = Er Hs s r q /\
  (forall d, clos (W Hs s r) q d <-> clos (W Hs s' r) q d).
Proof.
  unfold SInv.trr, SInv.Er. intros I X Hg [Hr | [-> Hst]].
  - rewrite (W_same_cur Hs s s' r (sext_cur _ _ X) Hr). split; [reflexivity|]. split; [reflexivity | intros d; reflexivity].
  - assert (E' : W Hs s' (cur s) = wcur s') by (rewrite <- (sext_cur _ _ X); apply W_cur).
    rewrite E', W_cur. exact (settled_stable Hs s F s' q I X Hg Hst).
Qed.

Lemma observed_of_memo Hs s F l m : SInv Hs s F -> d_memo s l = Some m -> observed s (m_verified m) (kq l).
Proof.
  intros I Hm. pose proof (mo_order (si_memo I l m Hm)) as (_ & _ & Hle).
  destruct (N.eq_dec (m_verified m) (cur s)) as [E | E]; [right | left; lia].
  split; [exact E|]. exists m. rewrite loc_kq. auto.
Qed.

Lemma observed_clos Hs s F v q d : SInv Hs s F -> gk q -> observed s v q -> clos (W Hs s v) q d ->
  gk d /\ observed s v d.
Proof.
  intros I Hg Ho Hd. split; [exact (clos_gk _ _ _ Hg Hd)|].
  destruct Ho as [A | [-> B]]; [left; exact A | right]. split; [reflexivity|].
  rewrite W_cur in Hd. exact (proj1 (settled_clos Hs s F q I Hg B d Hd)).
Qed.

Lemma verified_stable Hs s F s' d md : SInv Hs s F -> sext s s' -> gk d -> d_memo s (loc_of d) = Some md ->
  Er Hs s' (m_verified md) d = Er Hs s (m_verified md) d.
Proof.
  intros I X Hg Hm. pose proof (observed_of_memo Hs s F (loc_of d) md I Hm) as Ho. rewrite (kq_loc d Hg) in Ho.
  exact (proj1 (proj2 (obs_stable Hs s F s' _ d I X Hg Ho))).
Qed.

Lemma W_alloc_stable Hs s s' v d id : cur s' = cur s -> v <= cur s ->
  (v = cur s -> d_memo s' (loc_of d) = d_memo s (loc_of d)) ->
  w_alloc (W Hs s' v) d id = w_alloc (W Hs s v) d id.
Proof.
  intros Hc Hle Hm. destruct (N.eq_dec v (cur s)) as [-> | Hne].
  - rewrite (W_cur_ext Hs s s' Hc), W_cur. cbn [wcur w_alloc]. rewrite (Hm eq_refl). reflexivity.
  - rewrite (W_same_cur Hs s s' v Hc) by lia. reflexivity.
Qed.

Lemma sle_sext s s' F c x : OInv skind s F -> sext s s' -> sle s c x -> sle s' c x.
Proof.
  intros OI X. destruct x as [i | d | cc | | id idv f0 f1 | h f | h]; cbn [SInv.sle]; auto.
  - rewrite (x_in X). auto.
  - intros (md & Hmd & Hle). destruct (x_memo X _ md Hmd) as (m' & Hm' & _ & Hc). exists m'. split; [exact Hm' | lia].
  - intros [Hi Hs0]. split; [exact (x_issued X h Hi)|].
    intros sl' (Hs' & Hu' & Hg').
    unfold issued in Hi. apply in_map_iff in Hi. destruct Hi as ([[i g] y] & Eh & Hi). cbn in Eh. subst h.
    destruct (oi_issued _ _ _ OI i g y Hi) as (sl0 & Hsl0 & Hle).
    destruct (x_slots X i sl0 Hsl0) as (sl1 & Hs1 & Hg1 & K). cbn [fst snd] in *.
    rewrite Hs' in Hs1. injection Hs1 as <-.
    assert (Hg : sl_gen sl' = sl_gen sl0) by lia.
    destruct (K Hg Hu') as (Hu0 & A & B & _).
    assert (Hl0 : live_h s (i, g) sl0) by (split; [exact Hsl0|]; split; [exact Hu0 | cbn; lia]).
    specialize (Hs0 sl0 Hl0). unfold revf in *. destruct (f =? 0); lia.
Qed.

Lemma cstamp_sext s s' F t id0 c : OInv skind s F -> sext s s' -> cstamp s t id0 c -> cstamp s' t id0 c.
Proof.
  intros OI X [A | (pre & a & b & c0 & post & x & Et & Hx & Hs0)]; [left; exact A | right].
  exists pre, a, b, c0, post, x. split; [exact Et|]. split; [exact Hx|].
  exact (sle_sext s s' F c x OI X Hs0).
Qed.

End Stable.

Arguments memo_ok_of {_ _ _ _ _ _ _ _ _}.
Arguments settled_not_active {_ _ _ _ _ _ _ _}.
Arguments verified_not_active {_ _ _ _ _ _ _ _ _}.
Arguments Er_cur {_ _ _}.
Arguments trr_cur {_ _ _}.
