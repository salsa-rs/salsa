(* Structs/SSem.v — the semantic side of the from-scratch development for tracked structs
   (programs without `specify`): the denotation of a body under a read environment that also
   answers tracked-struct reads (fields by handle) and creations (an allocator: identity ->
   handle), read traces, "a run is a function of the answers to its reads", worlds and
   from-scratch evaluation by rank, the call closure, and provenance (a body only uses handles
   it was given).  No model state here. *)
From Salsa Require Import Base.
From Salsa.Kern Require Import CoreK.
From Salsa.Structs Require Import Model ProofsBase.

(* the reads a body performs; a creation is a read of the allocator *)
Inductive rd :=
| RIn (i : ikey) | RQ (q : qk) | RCell (c : cell) | RTouch
| RNew (id : ident) (idv f0 f1 : val)
| RFld (h : handle) (f : N)
| RIdf (h : handle).

Record senv := {
  e_in : ikey -> val; e_cell : cell -> val; e_q : qk -> rval;
  e_slot : handle -> val * val * val;          (* identity value, field 0, field 1 *)
  e_new : ident -> handle                      (* the allocator of the running query *)
}.

Definition fld3 (x : val * val * val) (f : N) : val := if f =? 0 then snd (fst x) else snd x.
Definition idv3 (x : val * val * val) : val := fst (fst x).

Lemma rval_eq_dec (a b : rval) : {a = b} + {a <> b}.
Proof. repeat decide equality. Qed.
Lemma handle_eq_dec (a b : handle) : {a = b} + {a <> b}.
Proof. repeat decide equality. Qed.

Section Sem.
Variable idhash : val -> N.

Definition nident (dis : list (N * N)) (idv : val) : ident := (idhash idv, cnt_get dis (idhash idv)).

(* the denotation of a body (`specify` does not occur in the programs considered: skipped) *)
Fixpoint run (e : senv) (b : body) (dis : list (N * N)) : rval :=
  match b with
  | Ret v hs => (v, hs)
  | RdIn i k => run e (k (e_in e i)) dis
  | CallQ c k => run e (k (e_q e c)) dis
  | RdCell c k => run e (k (e_cell e c)) dis
  | Touch k => run e k dis
  | NewStruct idv f0 f1 k => run e (k (e_new e (nident dis idv))) (cnt_bump dis (idhash idv))
  | RdField h f k => run e (k (fld3 (e_slot e h) f)) dis
  | RdIdField h k => run e (k (idv3 (e_slot e h))) dis
  | Specify _ _ _ k => run e k dis
  end.

Fixpoint trace (e : senv) (b : body) (dis : list (N * N)) : list rd :=
  match b with
  | Ret _ _ => []
  | RdIn i k => RIn i :: trace e (k (e_in e i)) dis
  | CallQ c k => RQ c :: trace e (k (e_q e c)) dis
  | RdCell c k => RCell c :: trace e (k (e_cell e c)) dis
  | Touch k => RTouch :: trace e k dis
  | NewStruct idv f0 f1 k =>
      RNew (nident dis idv) idv f0 f1 :: trace e (k (e_new e (nident dis idv))) (cnt_bump dis (idhash idv))
  | RdField h f k => RFld h f :: trace e (k (fld3 (e_slot e h) f)) dis
  | RdIdField h k => RIdf h :: trace e (k (idv3 (e_slot e h))) dis
  | Specify _ _ _ k => trace e k dis
  end.

Definition answer (e : senv) (r : rd) : rval :=
  match r with
  | RIn i => (e_in e i, [])
  | RQ q => e_q e q
  | RCell c => (e_cell e c, [])
  | RTouch => (0, [])
  | RNew id _ _ _ => (0, [e_new e id])
  | RFld h f => (fld3 (e_slot e h) f, [])
  | RIdf h => (idv3 (e_slot e h), [])
  end.

Definition agree_on (e e' : senv) (l : list rd) : Prop := forall r, In r l -> answer e r = answer e' r.

Lemma agree_on_cons e e' r l : agree_on e e' (r :: l) -> answer e r = answer e' r /\ agree_on e e' l.
Proof. intros H. split; [apply H; left; reflexivity | intros x Hx; apply H; right; exact Hx]. Qed.

(* a run is a function of the answers to the reads it performs *)
Lemma trace_determined (b : body) : forall e e' dis,
  agree_on e e' (trace e b dis) -> trace e' b dis = trace e b dis /\ run e' b dis = run e b dis.
Proof.
  induction b as [v hs | i k IH | c k IH | c k IH | k IH | idv f0 f1 k IH | h f k IH | h k IH | fam h v k IH];
    intros e e' dis H; cbn [trace run] in *.
  - auto.
  - apply agree_on_cons in H. destruct H as [Ha H]. cbn in Ha. injection Ha as Ha. rewrite <- Ha.
    destruct (IH _ e e' dis H) as [A B]. rewrite A, B. auto.
  - apply agree_on_cons in H. destruct H as [Ha H]. cbn in Ha. rewrite <- Ha.
    destruct (IH _ e e' dis H) as [A B]. rewrite A, B. auto.
  - apply agree_on_cons in H. destruct H as [Ha H]. cbn in Ha. injection Ha as Ha. rewrite <- Ha.
    destruct (IH _ e e' dis H) as [A B]. rewrite A, B. auto.
  - apply agree_on_cons in H. destruct H as [_ H]. destruct (IH e e' dis H) as [A B]. rewrite A, B. auto.
  - apply agree_on_cons in H. destruct H as [Ha H]. cbn in Ha. injection Ha as Ha. rewrite <- Ha.
    destruct (IH _ e e' _ H) as [A B]. rewrite A, B. auto.
  - apply agree_on_cons in H. destruct H as [Ha H]. cbn in Ha. injection Ha as Ha. rewrite <- Ha.
    destruct (IH _ e e' dis H) as [A B]. rewrite A, B. auto.
  - apply agree_on_cons in H. destruct H as [Ha H]. cbn in Ha. injection Ha as Ha. rewrite <- Ha.
    destruct (IH _ e e' dis H) as [A B]. rewrite A, B. auto.
  - exact (IH e e' dis H).
Qed.

(* walking the old trace in order: every read has the same answer, or there is a first read
   with a different answer and the new run performs that read too, after the same prefix *)
Lemma first_changed_is_read_again (b : body) : forall e e' dis,
  agree_on e e' (trace e b dis) \/
  (exists pre r post, trace e b dis = pre ++ r :: post /\ agree_on e e' pre /\
                      answer e r <> answer e' r /\
                      exists post', trace e' b dis = pre ++ r :: post').
Proof.
  assert (Hstep : forall e e' (r : rd) (t t' : list rd),
    answer e r = answer e' r ->
    (agree_on e e' t \/
     (exists pre r0 post, t = pre ++ r0 :: post /\ agree_on e e' pre /\ answer e r0 <> answer e' r0 /\
                          exists post', t' = pre ++ r0 :: post')) ->
    agree_on e e' (r :: t) \/
    (exists pre r0 post, r :: t = pre ++ r0 :: post /\ agree_on e e' pre /\ answer e r0 <> answer e' r0 /\
                         exists post', r :: t' = pre ++ r0 :: post')).
  { intros e e' r t t' Heq [Hag | (pre & r0 & post & Ht & Hpre & Hne & post' & Ht')].
    - left. intros x [<- | Hx]; [exact Heq | exact (Hag x Hx)].
    - right. exists (r :: pre), r0, post. split; [cbn; rewrite Ht; reflexivity|]. split.
      + intros x [<- | Hx]; [exact Heq | exact (Hpre x Hx)].
      + split; [exact Hne|]. exists post'. cbn. rewrite Ht'. reflexivity. }
  assert (Hnow : forall e e' (r : rd) (t t' : list rd),
    answer e r <> answer e' r ->
    agree_on e e' (r :: t) \/
    (exists pre r0 post, r :: t = pre ++ r0 :: post /\ agree_on e e' pre /\ answer e r0 <> answer e' r0 /\
                         exists post', r :: t' = pre ++ r0 :: post')).
  { intros e e' r t t' Hne. right. exists [], r, t. split; [reflexivity|]. split; [intros x []|].
    split; [exact Hne|]. exists t'. reflexivity. }
  induction b as [v hs | i k IH | c k IH | c k IH | k IH | idv f0 f1 k IH | h f k IH | h k IH | fam h v k IH];
    intros e e' dis; cbn [trace].
  - left. intros r [].
  - destruct (rval_eq_dec (answer e (RIn i)) (answer e' (RIn i))) as [Heq | Hne]; [|apply Hnow; exact Hne].
    pose proof Heq as Heq'. cbn in Heq'. injection Heq' as Heq'. rewrite <- Heq'.
    apply Hstep; [exact Heq | apply IH].
  - destruct (rval_eq_dec (answer e (RQ c)) (answer e' (RQ c))) as [Heq | Hne]; [|apply Hnow; exact Hne].
    pose proof Heq as Heq'. cbn in Heq'. rewrite <- Heq'.
    apply Hstep; [exact Heq | apply IH].
  - destruct (rval_eq_dec (answer e (RCell c)) (answer e' (RCell c))) as [Heq | Hne]; [|apply Hnow; exact Hne].
    pose proof Heq as Heq'. cbn in Heq'. injection Heq' as Heq'. rewrite <- Heq'.
    apply Hstep; [exact Heq | apply IH].
  - apply Hstep; [reflexivity | apply IH].
  - destruct (rval_eq_dec (answer e (RNew (nident dis idv) idv f0 f1)) (answer e' (RNew (nident dis idv) idv f0 f1)))
      as [Heq | Hne]; [|apply Hnow; exact Hne].
    pose proof Heq as Heq'. cbn in Heq'. injection Heq' as Heq'. rewrite <- Heq'.
    apply Hstep; [exact Heq | apply IH].
  - destruct (rval_eq_dec (answer e (RFld h f)) (answer e' (RFld h f))) as [Heq | Hne]; [|apply Hnow; exact Hne].
    pose proof Heq as Heq'. cbn in Heq'. injection Heq' as Heq'. rewrite <- Heq'.
    apply Hstep; [exact Heq | apply IH].
  - destruct (rval_eq_dec (answer e (RIdf h)) (answer e' (RIdf h))) as [Heq | Hne]; [|apply Hnow; exact Hne].
    pose proof Heq as Heq'. cbn in Heq'. injection Heq' as Heq'. rewrite <- Heq'.
    apply Hstep; [exact Heq | apply IH].
  - apply IH.
Qed.

(* ---------------------------------------------------------------- creations of a run *)
(* identities are issued in increasing disambiguator order per hash: no identity twice *)
Lemma trace_new_ge (b : body) : forall e dis id idv f0 f1,
  In (RNew id idv f0 f1) (trace e b dis) -> cnt_get dis (fst id) <= snd id /\ fst id = idhash idv.
Proof.
  induction b as [v hs | i k IH | c k IH | c k IH | k IH | idv f0 f1 k IH | h f k IH | h k IH | fam h v k IH];
    intros e dis id idv' f0' f1' H; cbn [trace] in H;
    try (destruct H as [H | H]; [discriminate | exact (IH _ _ _ _ _ _ _ H)]).
  - destruct H.
  - destruct H as [H | H]; [discriminate | exact (IH _ _ _ _ _ _ H)].
  - destruct H as [H | H].
    + injection H as <- <- _ _. cbn [nident fst snd]. split; [lia | reflexivity].
    + destruct (IH _ _ _ _ _ _ _ H) as [A B]. split; [|exact B].
      destruct (N.eq_dec (idhash idv) (fst id)) as [E | E].
      * rewrite <- E in *. rewrite cnt_get_bump_same in A. lia.
      * rewrite cnt_get_bump_other in A by exact E. exact A.
  - exact (IH _ _ _ _ _ _ H).
Qed.

Definition news_ids (l : list rd) : list ident :=
  flat_map (fun r => match r with RNew id _ _ _ => [id] | _ => [] end) l.

Lemma in_news_ids l id : In id (news_ids l) <-> exists idv f0 f1, In (RNew id idv f0 f1) l.
Proof.
  unfold news_ids. rewrite in_flat_map. split.
  - intros (r & Hr & Hin). destruct r; cbn in Hin; try contradiction. destruct Hin as [<- | []]. eauto.
  - intros (idv & f0 & f1 & H). exists (RNew id idv f0 f1). split; [exact H | left; reflexivity].
Qed.

Lemma trace_news_nodup (b : body) : forall e dis, NoDup (news_ids (trace e b dis)).
Proof.
  induction b as [v hs | i k IH | c k IH | c k IH | k IH | idv f0 f1 k IH | h f k IH | h k IH | fam h v k IH];
    intros e dis; cbn [trace news_ids flat_map app]; try apply IH.
  - constructor.
  - constructor; [|apply IH].
    intros Hin. apply in_news_ids in Hin. destruct Hin as (idv' & f0' & f1' & Hin).
    destruct (trace_new_ge _ _ _ _ _ _ _ Hin) as [A _]. cbn [nident fst snd] in A.
    rewrite cnt_get_bump_same in A. lia.
Qed.

(* a creation is performed with the same arguments wherever the identity occurs *)
Lemma trace_new_fun (b : body) : forall e dis id idv f0 f1 idv' f0' f1',
  In (RNew id idv f0 f1) (trace e b dis) -> In (RNew id idv' f0' f1') (trace e b dis) ->
  idv' = idv /\ f0' = f0 /\ f1' = f1.
Proof.
  induction b as [v hs | i k IH | c k IH | c k IH | k IH | idv0 f00 f10 k IH | h f k IH | h k IH | fam h v k IH];
    intros e dis id idv f0 f1 idv' f0' f1' H H'; cbn [trace] in H, H';
    try (destruct H as [H | H]; [discriminate|]; destruct H' as [H' | H']; [discriminate|];
         exact (IH _ _ _ _ _ _ _ _ _ _ H H')).
  - destruct H.
  - destruct H as [H | H]; [discriminate|]. destruct H' as [H' | H']; [discriminate|].
    exact (IH _ _ _ _ _ _ _ _ _ H H').
  - assert (Hno : forall a b c, ~ In (RNew (nident dis idv0) a b c)
                                  (trace e (k (e_new e (nident dis idv0))) (cnt_bump dis (idhash idv0)))).
    { intros a b c Hin. destruct (trace_new_ge _ _ _ _ _ _ _ Hin) as [A _]. cbn [nident fst snd] in A.
      rewrite cnt_get_bump_same in A. lia. }
    destruct H as [H | H]; destruct H' as [H' | H'].
    + injection H as _ <- <- <-. injection H' as _ <- <- <-. auto.
    + injection H as <- _ _ _. exfalso. exact (Hno _ _ _ H').
    + injection H' as <- _ _ _. exfalso. exact (Hno _ _ _ H).
    + exact (IH _ _ _ _ _ _ _ _ _ _ H H').
  - exact (IH _ _ _ _ _ _ _ _ _ H H').
Qed.

(* ---------------------------------------------------------------- provenance *)
(* the body only uses (reads through, returns) handles it created itself or found in the
   result of a callee; K is what it was given so far *)
Fixpoint prov (e : senv) (b : body) (dis : list (N * N)) (K : list handle) : Prop :=
  match b with
  | Ret v hs => incl hs K
  | RdIn i k => prov e (k (e_in e i)) dis K
  | CallQ c k => prov e (k (e_q e c)) dis (snd (e_q e c) ++ K)
  | RdCell c k => prov e (k (e_cell e c)) dis K
  | Touch k => prov e k dis K
  | NewStruct idv f0 f1 k =>
      prov e (k (e_new e (nident dis idv))) (cnt_bump dis (idhash idv)) (e_new e (nident dis idv) :: K)
  | RdField h f k => In h K /\ prov e (k (fld3 (e_slot e h) f)) dis K
  | RdIdField h k => In h K /\ prov e (k (idv3 (e_slot e h))) dis K
  | Specify _ _ _ k => prov e k dis K
  end.

Definition uses (e : senv) (b : body) (dis : list (N * N)) (h : handle) : Prop :=
  (exists f, In (RFld h f) (trace e b dis)) \/ In (RIdf h) (trace e b dis) \/ In h (snd (run e b dis)).

Definition given (e : senv) (l : list rd) (h : handle) : Prop :=
  (exists id idv f0 f1, In (RNew id idv f0 f1) l /\ h = e_new e id) \/
  (exists d, In (RQ d) l /\ In h (snd (e_q e d))).

Lemma given_cons e r l h : given e l h -> given e (r :: l) h.
Proof.
  intros [(id & idv & f0 & f1 & H & E) | (d & H & E)]; [left | right].
  - exists id, idv, f0, f1. split; [right; exact H | exact E].
  - exists d. split; [right; exact H | exact E].
Qed.

Lemma given_cons_or e r l h (P : Prop) : P \/ given e l h -> P \/ given e (r :: l) h.
Proof. intros [A | A]; [left; exact A | right; apply given_cons; exact A]. Qed.

Lemma given_app e l1 l2 h : given e l1 h -> given e (l1 ++ l2) h.
Proof.
  intros [(id & idv & f0 & f1 & H & E) | (d & H & E)]; [left | right].
  - exists id, idv, f0, f1. split; [apply in_or_app; left; exact H | exact E].
  - exists d. split; [apply in_or_app; left; exact H | exact E].
Qed.

Definition rd_uses (x : rd) (h : handle) : Prop := (exists f, x = RFld h f) \/ x = RIdf h.

Lemma prov_prefix (b : body) : forall e dis K pre x post h,
  prov e b dis K -> trace e b dis = pre ++ x :: post -> rd_uses x h -> In h K \/ given e pre h.
Proof.
  induction b as [v hs | i k IH | c k IH | c k IH | k IH | idv f0 f1 k IH | h0 f k IH | h0 k IH | fam h0 v k IH];
    intros e dis K pre x post h Hp Et Hu; cbn [prov trace] in *.
  - destruct pre; discriminate.
  - destruct pre as [|r pre]; cbn [app] in Et; injection Et as E1 Et.
    + subst x. destruct Hu as [(f' & Hu) | Hu]; discriminate.
    + subst r. exact (given_cons_or _ _ _ _ _ (IH _ e dis K pre x post h Hp Et Hu)).
  - destruct pre as [|r pre]; cbn [app] in Et; injection Et as E1 Et.
    + subst x. destruct Hu as [(f' & Hu) | Hu]; discriminate.
    + subst r. destruct (IH _ e dis _ pre x post h Hp Et Hu) as [A | A]; [|right; apply given_cons; exact A].
      apply in_app_or in A. destruct A as [A | A]; [|left; exact A].
      right. right. exists c. split; [left; reflexivity | exact A].
  - destruct pre as [|r pre]; cbn [app] in Et; injection Et as E1 Et.
    + subst x. destruct Hu as [(f' & Hu) | Hu]; discriminate.
    + subst r. exact (given_cons_or _ _ _ _ _ (IH _ e dis K pre x post h Hp Et Hu)).
  - destruct pre as [|r pre]; cbn [app] in Et; injection Et as E1 Et.
    + subst x. destruct Hu as [(f' & Hu) | Hu]; discriminate.
    + subst r. exact (given_cons_or _ _ _ _ _ (IH e dis K pre x post h Hp Et Hu)).
  - destruct pre as [|r pre]; cbn [app] in Et; injection Et as E1 Et.
    + subst x. destruct Hu as [(f' & Hu) | Hu]; discriminate.
    + subst r. destruct (IH _ e _ _ pre x post h Hp Et Hu) as [A | A]; [|right; apply given_cons; exact A].
      destruct A as [<- | A]; [|left; exact A].
      right. left. exists (nident dis idv), idv, f0, f1. split; [left; reflexivity | reflexivity].
  - destruct Hp as [Hin Hp]. destruct pre as [|r pre]; cbn [app] in Et; injection Et as E1 Et.
    + subst x. destruct Hu as [(f' & Hu) | Hu]; [injection Hu as <- _; left; exact Hin | discriminate].
    + subst r. exact (given_cons_or _ _ _ _ _ (IH _ e dis K pre x post h Hp Et Hu)).
  - destruct Hp as [Hin Hp]. destruct pre as [|r pre]; cbn [app] in Et; injection Et as E1 Et.
    + subst x. destruct Hu as [(f' & Hu) | Hu]; [discriminate | injection Hu as <-; left; exact Hin].
    + subst r. exact (given_cons_or _ _ _ _ _ (IH _ e dis K pre x post h Hp Et Hu)).
  - exact (IH e dis K pre x post h Hp Et Hu).
Qed.

Lemma prov_ret (b : body) : forall e dis K h,
  prov e b dis K -> In h (snd (run e b dis)) -> In h K \/ given e (trace e b dis) h.
Proof.
  induction b as [v hs | i k IH | c k IH | c k IH | k IH | idv f0 f1 k IH | h0 f k IH | h0 k IH | fam h0 v k IH];
    intros e dis K h Hp Hu; cbn [prov trace run] in *.
  - left. exact (Hp h Hu).
  - exact (given_cons_or _ _ _ _ _ (IH _ e dis K h Hp Hu)).
  - destruct (IH _ e dis _ h Hp Hu) as [A | A]; [|right; apply given_cons; exact A].
    apply in_app_or in A. destruct A as [A | A]; [|left; exact A].
    right. right. exists c. split; [left; reflexivity | exact A].
  - exact (given_cons_or _ _ _ _ _ (IH _ e dis K h Hp Hu)).
  - exact (given_cons_or _ _ _ _ _ (IH e dis K h Hp Hu)).
  - destruct (IH _ e _ _ h Hp Hu) as [A | A]; [|right; apply given_cons; exact A].
    destruct A as [<- | A]; [|left; exact A].
    right. left. exists (nident dis idv), idv, f0, f1. split; [left; reflexivity | reflexivity].
  - exact (given_cons_or _ _ _ _ _ (IH _ e dis K h (proj2 Hp) Hu)).
  - exact (given_cons_or _ _ _ _ _ (IH _ e dis K h (proj2 Hp) Hu)).
  - exact (IH e dis K h Hp Hu).
Qed.

Lemma prov_uses (b : body) : forall e dis K h,
  prov e b dis K -> uses e b dis h -> In h K \/ given e (trace e b dis) h.
Proof.
  intros e dis K h Hp [(f & Hin) | [Hin | Hin]]; [| | exact (prov_ret b e dis K h Hp Hin)];
    apply in_split in Hin; destruct Hin as (pre & post & Et).
  - destruct (prov_prefix b e dis K pre _ post h Hp Et) as [A | A];
      [left; exists f; reflexivity | left; exact A | right; rewrite Et; apply given_app; exact A].
  - destruct (prov_prefix b e dis K pre _ post h Hp Et) as [A | A];
      [right; reflexivity | left; exact A | right; rewrite Et; apply given_app; exact A].
Qed.

(* ---------------------------------------------------------------- calls, rank *)
Inductive calls : body -> qk -> Prop :=
| calls_here q k : calls (CallQ q k) q
| calls_in_call q k r q' : calls (k r) q' -> calls (CallQ q k) q'
| calls_in_rdin i k v q' : calls (k v) q' -> calls (RdIn i k) q'
| calls_in_cell c k v q' : calls (k v) q' -> calls (RdCell c k) q'
| calls_in_touch k q' : calls k q' -> calls (Touch k) q'
| calls_in_new idv f0 f1 k h q' : calls (k h) q' -> calls (NewStruct idv f0 f1 k) q'
| calls_in_field h f k v q' : calls (k v) q' -> calls (RdField h f k) q'
| calls_in_idfield h k v q' : calls (k v) q' -> calls (RdIdField h k) q'
| calls_in_specify fam h v k q' : calls k q' -> calls (Specify fam h v k) q'.

Lemma calls_of_trace e b : forall dis q, In (RQ q) (trace e b dis) -> calls b q.
Proof.
  induction b as [v hs | i k IH | c k IH | c k IH | k IH | idv f0 f1 k IH | h f k IH | h k IH | fam h v k IH];
    intros dis q H; cbn [trace] in H.
  - destruct H.
  - destruct H as [H | H]; [discriminate | eapply calls_in_rdin, IH, H].
  - destruct H as [H | H]; [injection H as <-; constructor | eapply calls_in_call, IH, H].
  - destruct H as [H | H]; [discriminate | eapply calls_in_cell, IH, H].
  - destruct H as [H | H]; [discriminate | eapply calls_in_touch, IH, H].
  - destruct H as [H | H]; [discriminate | eapply calls_in_new, IH, H].
  - destruct H as [H | H]; [discriminate | eapply calls_in_field, IH, H].
  - destruct H as [H | H]; [discriminate | eapply calls_in_idfield, IH, H].
  - eapply calls_in_specify, IH, H.
Qed.

Definition calls_below (prog : qk -> body) (rank : qk -> nat) : Prop :=
  forall q q', calls (prog q) q' -> (rank q' < rank q)%nat.

(* ---------------------------------------------------------------- worlds *)
(* everything a from-scratch evaluation depends on: inputs, cells, the struct store (by handle)
   and, for every query, the handle its allocator gives to each identity *)
Record world := {
  w_in : ikey -> val; w_cell : cell -> val;
  w_slot : handle -> val * val * val;
  w_alloc : qk -> ident -> handle
}.

Definition mkenv (w : world) (eq : qk -> rval) (q : qk) : senv :=
  {| e_in := w_in w; e_cell := w_cell w; e_q := eq; e_slot := w_slot w; e_new := w_alloc w q |}.

Section Eval.
Variable prog : qk -> body.

Fixpoint eval (n : nat) (w : world) (q : qk) : rval :=
  match n with
  | O => (0, [])
  | S n' => run (mkenv w (eval n' w) q) (prog q) []
  end.

Variable rank : qk -> nat.
Hypothesis Hrank : calls_below prog rank.

Lemma eval_fuel_irrelevant w : forall n m q,
  (rank q < n)%nat -> (rank q < m)%nat -> eval n w q = eval m w q.
Proof.
  induction n as [|n IH]; intros m q Hn Hm; [inversion Hn|].
  destruct m as [|m]; [inversion Hm|]. cbn [eval].
  destruct (trace_determined (prog q) (mkenv w (eval n w) q) (mkenv w (eval m w) q) []) as [_ Hr];
    [|symmetry; exact Hr].
  intros r Hr. destruct r; cbn; try reflexivity.
  apply calls_of_trace in Hr. apply Hrank in Hr. apply IH; lia.
Qed.

Variable NF : nat.
Hypothesis Hbound : forall q, (rank q < NF)%nat.

Definition Ew (w : world) (q : qk) : rval := eval NF w q.
Definition envw (w : world) (q : qk) : senv := mkenv w (Ew w) q.
Definition trw (w : world) (q : qk) : list rd := trace (envw w q) (prog q) [].

Lemma Ew_unfold w q : Ew w q = run (envw w q) (prog q) [].
Proof.
  unfold Ew. pose proof (Hbound q) as Hq. destruct NF as [|n] eqn:HN; [inversion Hq|].
  cbn [eval].
  destruct (trace_determined (prog q) (mkenv w (eval n w) q) (envw w q) []) as [_ Hr]; [|symmetry; exact Hr].
  intros x Hx. destruct x; cbn; try reflexivity.
  apply calls_of_trace in Hx. apply Hrank in Hx. unfold Ew. rewrite HN.
  apply eval_fuel_irrelevant; lia.
Qed.

Lemma trw_calls w q d : In (RQ d) (trw w q) -> (rank d < rank q)%nat.
Proof. intros H. apply calls_of_trace in H. exact (Hrank _ _ H). Qed.

(* the call closure of f in the world w *)
Inductive clos (w : world) : qk -> qk -> Prop :=
| clos_refl f : clos w f f
| clos_step f d e : In (RQ d) (trw w f) -> clos w d e -> clos w f e.

Lemma clos_trans w f d e : clos w f d -> clos w d e -> clos w f e.
Proof.
  intros Hfd Hde. induction Hfd as [f | f d0 d Hin Hd0 IH]; [exact Hde|].
  eapply clos_step; [exact Hin | exact (IH Hde)].
Qed.

Lemma clos_one w f d : In (RQ d) (trw w f) -> clos w f d.
Proof. intros H. eapply clos_step; [exact H | apply clos_refl]. Qed.

Lemma clos_right w f d e : clos w f d -> In (RQ e) (trw w d) -> clos w f e.
Proof. intros A B. exact (clos_trans _ _ _ _ A (clos_one _ _ _ B)). Qed.

Lemma clos_rank w f d : clos w f d -> (rank d <= rank f)%nat.
Proof.
  intros Hc. induction Hc as [f | f d0 d Hin Hd0 IH]; [lia|]. pose proof (trw_calls _ _ _ Hin). lia.
Qed.

(* what a query reads that is not another query: the local part of the world *)
Definition local_agree (w w' : world) (d : qk) : Prop :=
  forall r, In r (trw w d) -> (forall c, r <> RQ c) -> answer (envw w d) r = answer (envw w' d) r.

(* two worlds that agree on what the closure of q reads locally give q the same trace and value *)
Lemma cone_determined w w' : forall n q, (rank q < n)%nat ->
  (forall d, clos w q d -> local_agree w w' d) ->
  trw w' q = trw w q /\ Ew w' q = Ew w q.
Proof.
  induction n as [|n IH]; intros q Hn Hag; [inversion Hn|].
  assert (A : agree_on (envw w q) (envw w' q) (trw w q)).
  { intros r Hr. destruct r as [i | c | c | | id idv f0 f1 | h f | h];
      try (apply (Hag q (clos_refl _ _) _ Hr); intros c0; discriminate).
    cbn. symmetry. apply (IH c).
    - pose proof (trw_calls _ _ _ Hr). lia.
    - intros d Hd. apply Hag. eapply clos_step; [exact Hr | exact Hd]. }
  destruct (trace_determined (prog q) _ _ [] A) as [Ht Hr].
  split; [exact Ht|]. rewrite !Ew_unfold. exact Hr.
Qed.

Lemma clos_cone w w' q :
  (forall d, clos w q d -> local_agree w w' d) -> forall d, clos w q d <-> clos w' q d.
Proof.
  intros Hag d. split; intros Hc.
  - revert Hag. induction Hc as [f | f d0 d Hin Hd0 IH]; intros Hag; [apply clos_refl|].
    destruct (cone_determined w w' (S (rank f)) f (le_n (S (rank f))) Hag) as [Ht _].
    eapply clos_step; [rewrite Ht; exact Hin|]. apply IH.
    intros d' Hd'. apply Hag. eapply clos_step; eassumption.
  - assert (G : forall f, clos w' f d -> (forall d0, clos w f d0 -> local_agree w w' d0) -> clos w f d).
    { clear Hag Hc. intros f Hc. induction Hc as [f | f d0 d Hin Hd0 IH]; intros Hag; [apply clos_refl|].
      destruct (cone_determined w w' (S (rank f)) f (le_n (S (rank f))) Hag) as [Ht _].
      rewrite Ht in Hin. eapply clos_step; [exact Hin|]. apply IH.
      intros d' Hd'. apply Hag. eapply clos_step; eassumption. }
    exact (G q Hc Hag).
Qed.

(* ---- no forging: under EVERY read environment a body only uses handles it was given ---- *)
Definition no_forge : Prop := forall e q, prov e (prog q) [] [].
Hypothesis Hprov : no_forge.

(* every handle a query uses was created, in the same world, by a query of its closure *)
Definition created_by (w : world) (A : qk) (h : handle) : Prop :=
  exists id idv f0 f1, In (RNew id idv f0 f1) (trw w A) /\ h = w_alloc w A id.

Lemma creator_exists w : forall n q h, (rank q < n)%nat ->
  uses (envw w q) (prog q) [] h -> exists A, clos w q A /\ created_by w A h.
Proof.
  induction n as [|n IH]; intros q h Hn Hu; [inversion Hn|].
  destruct (prov_uses (prog q) (envw w q) [] [] h (Hprov _ q) Hu) as [[] | [(id & idv & f0 & f1 & Hin & ->) | (d & Hin & Hh)]].
  - exists q. split; [apply clos_refl|]. exists id, idv, f0, f1. split; [exact Hin | reflexivity].
  - cbn [envw mkenv e_q] in Hh.
    destruct (IH d h) as (A & HcA & HA).
    + pose proof (trw_calls _ _ _ Hin). lia.
    + right. right. rewrite <- Ew_unfold. exact Hh.
    + exists A. split; [eapply clos_step; eassumption | exact HA].
Qed.

End Eval.
End Sem.

Arguments Ew_unfold {_ _ _} _ {_} _.
