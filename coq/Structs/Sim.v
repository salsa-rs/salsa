(* Structs/Sim.v — model-to-machine simulation, part 3: every function of the executable model
   (run_body, walk_edges, verify_memo, execute, fetch, maybe_changed_after), run at a monitored
   level, preserves the ownership invariant OInv together with the frames of the executions in
   progress; hence OInv holds after every operation of the executable model on handle-safe,
   non-unwinding histories. *)
From Salsa Require Import Base.
From Salsa.Kern Require Import CoreK.
From Salsa.Structs Require Import Model ProofsBase ProofsCascade Machine ProofsInv ProofsStep Theorems ProofsSpecify Guard SimBase SimOps.

(* specify exists only for functions keyed by a tracked struct (the Rust type system:
   `C::Input<'db>: TrackedStructInDb`) *)
Inductive bwf (skind : N -> bool) : body -> Prop :=
| bwf_ret v hs : bwf skind (Ret v hs)
| bwf_rdin i k : (forall v, bwf skind (k v)) -> bwf skind (RdIn i k)
| bwf_call c k : (forall r, bwf skind (k r)) -> bwf skind (CallQ c k)
| bwf_cell c k : (forall v, bwf skind (k v)) -> bwf skind (RdCell c k)
| bwf_touch k : bwf skind k -> bwf skind (Touch k)
| bwf_new idv f0 f1 k : (forall h, bwf skind (k h)) -> bwf skind (NewStruct idv f0 f1 k)
| bwf_field h f k : (forall v, bwf skind (k v)) -> bwf skind (RdField h f k)
| bwf_idfield h k : (forall v, bwf skind (k v)) -> bwf skind (RdIdField h k)
| bwf_specify fam h v k : skind fam = true -> bwf skind k -> bwf skind (Specify fam h v k).

Section Sim.
Variable prog : qk -> body.
Variable skind : N -> bool.
Variable sfams : list N.
Variable idhash : val -> N.
Hypothesis sfams_skind : forall fam, In fam sfams -> skind fam = true.
Hypothesis Hwf : forall q, bwf skind (prog q).

Notation OInv := (OInv skind).
Notation owns := (owns skind).
Notation peek_memo := (peek_memo skind).
Notation cur_okb := (cur_okb skind).
Notation mst := (mst skind).
Notation rel := (rel skind).
Notation Cons := (Cons skind).

(* ---------------------------------------------------------------- small facts *)
Lemma rel_core_eq P s s' :
  d_revs s' = d_revs s -> d_slots s' = d_slots s -> d_memo s' = d_memo s -> rel P s s'.
Proof.
  intros Er Es Em. constructor; [exact Er | |].
  - intros i sl Hs Hu. exists sl. rewrite Es. auto.
  - intros p _. unfold SimBase.mst, Machine.peek_memo. rewrite Es, Em. reflexivity.
Qed.

Lemma cons_set_frame s F (q : qk) fr fr' :
  Cons s F -> NoDup (flocs F) -> In (q, fr) F -> Cons s (set_frame F q fr').
Proof.
  intros C HF Hq. destruct C as [a b c d]. constructor; auto.
  intros q' fr0 Hin. apply (in_set_frame F q fr fr' q' fr0 HF Hq) in Hin.
  destruct Hin as [[-> ->] | [_ Hin]]; [exact (a _ _ Hq) | exact (a _ _ Hin)].
Qed.

Lemma in_set_frame_self F (q : qk) fr fr' : NoDup (flocs F) -> In (q, fr) F -> In (q, fr') (set_frame F q fr').
Proof. intros HF Hq. apply (in_set_frame F q fr fr' q fr' HF Hq). left. auto. Qed.

Lemma set_frame_twice F (q : qk) a b : set_frame (set_frame F q a) q b = set_frame F q b.
Proof.
  induction F as [|[q' fr'] F IH]; cbn [set_frame]; [reflexivity|].
  destruct (qk_eqb q' q) eqn:E; cbn [set_frame]; rewrite E; [reflexivity | now rewrite IH].
Qed.

Lemma stack_locked s F (P : list qk) :
  Cons s F -> (forall p, In p P -> In p (d_stack s)) ->
  forall p : qk, In p P -> skind (fst p) = true -> locked s (fst (snd p)).
Proof. intros C HP p Hp Hk. exact (cn_lock _ _ _ C p (HP p Hp) Hk). Qed.

Lemma rel_chain s t s' (X : Prop) :
  rel (d_stack s) s t -> d_stack t = d_stack s ->
  X /\ rel (d_stack t) t s' /\ d_stack s' = d_stack t ->
  X /\ rel (d_stack s) s s' /\ d_stack s' = d_stack s.
Proof.
  intros R1 Est1 (HX & R' & Est'). split; [exact HX|]. rewrite Est1 in R'.
  split; [exact (rel_trans skind _ _ _ _ R1 R') | congruence].
Qed.

(* the monitored interface one level down *)
Definition Lsim (L : lower) : Prop :=
  (forall q s F s' r, OInv s F -> Cons s F -> l_fetch L q s = (s', SOk r) ->
     OInv s' F /\ rel (d_stack s) s s' /\ d_stack s' = d_stack s) /\
  (forall q since s F s' b, OInv s F -> Cons s F -> l_mca L q since s = (s', SOk b) ->
     OInv s' F /\ rel (d_stack s) s s' /\ d_stack s' = d_stack s).

Section Level.
Variable L : lower.
Hypothesis HL : Lsim L.

(* ---------------------------------------------------------------- run_body *)
Lemma specify_early n (q : qk) fam h v fr s s' fr' :
  existsb (qk_eqb (fam, h)) (d_stack s) = true ->
  specify skind sfams n q fam h v fr s = (s', SOk fr') -> s' = s /\ fr' = fr.
Proof.
  intros E H. destruct (specify_cases skind sfams _ _ _ _ _ _ _ _ _ H) as (_ & [ (* SR_running *) _ | (* SR_kept *) ? ? E' | (* SR_stored *) ? ? ? ? ? ? ? E' ]); [auto | congruence | congruence].
Qed.

Lemma specify_active n (q : qk) fam h v fr s s' fr' :
  specify skind sfams n q fam h v fr s = (s', SOk fr') -> is_active (fr_ids fr) h = true.
Proof. intros H. exact (proj1 (specify_cases skind sfams _ _ _ _ _ _ _ _ _ H)). Qed.

Lemma body_step (q : qk) fr fr1 s t F s' (r : rval * frame) :
  OInv s F -> Cons s F -> In (q, fr) F ->
  OInv t (set_frame F q fr1) -> rel (d_stack s) s t -> d_stack t = d_stack s ->
  (forall F1, OInv t F1 -> Cons t F1 -> In (q, fr1) F1 ->
     OInv s' (set_frame F1 q (snd r)) /\ rel (d_stack t) t s' /\ d_stack s' = d_stack t) ->
  OInv s' (set_frame F q (snd r)) /\ rel (d_stack s) s s' /\ d_stack s' = d_stack s.
Proof.
  intros I C Hq I1 R1 Est1 K. pose proof (oi_frames _ _ _ I) as HF.
  apply (rel_chain s t s' _ R1 Est1). rewrite <- (set_frame_twice F q fr1 (snd r)).
  apply (K (set_frame F q fr1) I1).
  - exact (Cons_rel skind _ s t _ (cons_set_frame s F q fr fr1 C HF Hq) R1 Est1).
  - exact (in_set_frame_self F q fr fr1 HF Hq).
Qed.

Lemma run_body_sim (q : qk) : forall b, bwf skind b -> forall fr s F s' r,
  OInv s F -> Cons s F -> In (q, fr) F ->
  run_body skind sfams idhash L q b fr s = (s', SOk r) ->
  OInv s' (set_frame F q (snd r)) /\ rel (d_stack s) s s' /\ d_stack s' = d_stack s.
Proof.
  destruct HL as [HLf HLm].
  induction 1 as [v hs | i k Hk IH | c k Hk IH | c k Hk IH | k Hk IH | idv f0 f1 k Hk IH | h f k Hk IH | h k Hk IH | fam h v k Hfam Hk IH];
    intros fr s F s' r I C Hq H; cbn [run_body] in H.
  - mstep H. cbn [snd]. split; [exact (oinv_same_ids skind s F q fr fr I Hq eq_refl)|]. split; [apply rel_refl | reflexivity].
  - msplit H as x t H1. mstep H1.
    set (fr1 := add_read fr (EIn i) (f_dur (d_in s i)) (f_changed (d_in s i))) in *.
    apply (body_step q fr fr1 s s F s' r I C Hq (oinv_same_ids skind s F q fr fr1 I Hq eq_refl) (rel_refl _ _ _) eq_refl).
    intros F1 I' C' Hq'. exact (IH _ _ _ F1 _ _ I' C' Hq' H).
  - msplit H as x t H1. destruct x as [[v d] ch].
    destruct (HLf c s F t _ I C H1) as (I1 & R1 & Est1).
    set (fr1 := add_read fr (EQ c) d ch) in *.
    apply (body_step q fr fr1 s t F s' r I C Hq (oinv_same_ids skind t F q fr fr1 I1 Hq eq_refl) R1 Est1).
    intros F1 I' C' Hq'. exact (IH _ _ _ F1 _ _ I' C' Hq' H).
  - msplit H as x t H1. mstep H1.
    set (fr1 := add_untracked fr (cur s)) in *.
    apply (body_step q fr fr1 s s F s' r I C Hq (oinv_same_ids skind s F q fr fr1 I Hq eq_refl) (rel_refl _ _ _) eq_refl).
    intros F1 I' C' Hq'. exact (IH _ _ _ F1 _ _ I' C' Hq' H).
  - msplit H as x t H1. mstep H1.
    set (fr1 := add_untracked fr (cur s)) in *.
    apply (body_step q fr fr1 s s F s' r I C Hq (oinv_same_ids skind s F q fr fr1 I Hq eq_refl) (rel_refl _ _ _) eq_refl).
    intros F1 I' C' Hq'. exact (IH _ _ F1 _ _ I' C' Hq' H).
  - msplit H as x t H1. destruct x as [hn fr1]. cbn [fst snd] in H.
    destruct (new_struct_oinv skind sfams idhash sfams_skind _ _ _ _ _ _ _ _ _ _ _ I Hq H1) as (I1 & _ & _).
    destruct (new_struct_rel skind sfams idhash (d_stack s) _ _ _ _ _ _ _ _ _ _ I Hq
                (stack_locked s F _ C (fun p Hp => Hp)) H1) as (R1 & Est1).
    apply (body_step q fr fr1 s t F s' r I C Hq I1 R1 Est1).
    intros F1 I' C' Hq'. exact (IH _ _ _ F1 _ _ I' C' Hq' H).
  - msplit H as x t H1. destruct x as [v fr1]. unfold read_field in H1.
    msplit H1 as sl t1 H2.
    destruct (lock_rel skind (d_stack s) _ _ _ _ H2) as (R1 & Est1 & _).
    pose proof (lock_oinv skind _ _ _ _ _ I H2) as I1.
    assert (Efr : frame_ids fr1 = frame_ids fr /\ t = t1).
    { destruct (f =? 0); apply ret_ok in H1; destruct H1 as [Et Ev]; injection Ev as _ ->; auto. }
    destruct Efr as [Efr Et]; subst t1. cbn [fst snd] in H.
    apply (body_step q fr fr1 s t F s' r I C Hq (oinv_same_ids skind t F q fr fr1 I1 Hq Efr) R1 Est1).
    intros F1 I' C' Hq'. exact (IH _ _ _ F1 _ _ I' C' Hq' H).
  - msplit H as v t H1. unfold read_idfield in H1. msplit H1 as sl t1 H2. mstep H1.
    destruct (lock_rel skind (d_stack s) _ _ _ _ H2) as (R1 & Est1 & _).
    pose proof (lock_oinv skind _ _ _ _ _ I H2) as I1.
    pose proof (Cons_rel skind _ s t1 F C R1 Est1) as C1.
    exact (rel_chain s t1 s' _ R1 Est1 (IH _ fr t1 F s' r I1 C1 Hq H)).
  - msplit H as fr1 t H1.
    assert (Hstep : OInv t (set_frame F q fr1) /\ rel (d_stack s) s t /\ d_stack t = d_stack s).
    { destruct (existsb (qk_eqb (fam, h)) (d_stack s)) eqn:Est.
      - destruct (specify_early _ _ _ _ _ _ _ _ _ Est H1) as [-> ->].
        split; [exact (oinv_same_ids skind s F q fr fr I Hq eq_refl)|]. split; [apply rel_refl | reflexivity].
      - assert (Hkey : cur_okb s (fam, h) = true).
        { pose proof (specify_active _ _ _ _ _ _ _ _ _ H1) as Ha. apply is_active_in in Ha.
          destruct (oi_live _ _ _ I _ _ (owns_frame skind s F q fr h Hq Ha)) as (sl & Hs & Hu & Hg).
          unfold Guard.cur_okb. cbn [fst snd]. rewrite Hfam, Hs.
          destruct (sl_updated sl); [apply N.eqb_eq; exact Hg | contradiction Hu; reflexivity]. }
        assert (Hunclaimed : forall p, In p (d_stack s) -> loc_of p <> loc_of (fam, h)).
        { intros p Hp El. pose proof (cur_okb_loc skind s p (fam, h) (cn_cur _ _ _ C p Hp) Hkey El) as E. subst p.
          assert (existsb (qk_eqb (fam, h)) (d_stack s) = true); [|congruence].
          apply existsb_exists. exists (fam, h). split; [exact Hp | apply qk_eqb_refl]. }
        assert (Hna : ~ active_loc F (loc_of (fam, h))).
        { intros (q' & fr' & Hin & El). exact (Hunclaimed q' (cn_stack _ _ _ C _ _ Hin) El). }
        destruct (specify_oinv skind sfams sfams_skind _ _ _ _ _ _ _ _ _ _ I Hq Hfam Hna H1) as (I1 & _).
        destruct (specify_rel skind sfams (d_stack s) _ _ _ _ _ _ _ _ _ _ I H1
                    (stack_locked s F _ C (fun p Hp => Hp)) (fun _ => Hunclaimed)) as (R1 & Est1).
        auto. }
    destruct Hstep as (I1 & R1 & Est1).
    apply (body_step q fr fr1 s t F s' r I C Hq I1 R1 Est1).
    intros F1 I' C' Hq'. exact (IH _ _ F1 _ _ I' C' Hq' H).
Qed.

(* ---------------------------------------------------------------- verification *)
Lemma walk_edges_sim (q : qk) since : forall es s F s' b,
  OInv s F -> Cons s F ->
  walk_edges skind L q es since s = (s', SOk b) ->
  OInv s' F /\ rel (d_stack s) s s' /\ d_stack s' = d_stack s.
Proof.
  destruct HL as [HLf HLm].
  induction es as [|e es IH]; intros s F s' b I C H; cbn [walk_edges] in H.
  - apply ret_ok in H. destruct H as [-> _]. split; [exact I|]. split; [apply rel_refl | reflexivity].
  - destruct e as [i | c | h f | o].
    + apply bind_ok in H. destruct H as (x & t & H1 & H). apply get_ok in H1. destruct H1 as [-> ->].
      destruct (changed_after (f_changed (d_in s i)) since).
      * apply ret_ok in H. destruct H as [-> _]. split; [exact I|]. split; [apply rel_refl | reflexivity].
      * exact (IH _ _ _ _ I C H).
    + apply bind_ok in H. destruct H as (ch & t & H1 & H).
      destruct (HLm c since s F t ch I C H1) as (I1 & R1 & Est1).
      destruct ch.
      * apply ret_ok in H. destruct H as [-> _]. auto.
      * pose proof (Cons_rel skind _ s t F C R1 Est1) as C1.
        exact (rel_chain s t s' _ R1 Est1 (IH _ _ _ _ I1 C1 H)).
    + apply bind_ok in H. destruct H as (ch & t & H1 & H).
      assert (t = s).
      { unfold field_mca in H1. apply bind_ok in H1. destruct H1 as (sl & t1 & H2 & H1).
        apply get_slot_ok in H2. destruct H2 as [-> _]. apply ret_ok in H1. tauto. }
      subst t. destruct ch.
      * apply ret_ok in H. destruct H as [-> _]. split; [exact I|]. split; [apply rel_refl | reflexivity].
      * exact (IH _ _ _ _ I C H).
    + apply bind_ok in H. destruct H as (u & t & H1 & H). destruct u.
      destruct (validate_specified_sim skind (d_stack s) q o s F t I H1) as (I1 & R1 & Est1).
      pose proof (Cons_rel skind _ s t F C R1 Est1) as C1.
      exact (rel_chain s t s' _ R1 Est1 (IH _ _ _ _ I1 C1 H)).
Qed.

Lemma deep_verify_sim (q : qk) m s F s' r :
  OInv s F -> Cons s F -> In q (d_stack s) -> mst s q = Some (m_structs m) ->
  deep_verify skind L q m s = (s', SOk r) ->
  OInv s' F /\ rel (d_stack s) s s' /\ d_stack s' = d_stack s /\ m_structs (snd r) = m_structs m.
Proof.
  intros I C Hq Hm H. unfold deep_verify in H.
  destruct (m_origin m).
  - apply bind_ok in H. destruct H as (c & t & H1 & H).
    destruct (walk_edges_sim q _ _ _ _ _ _ I C H1) as (I1 & R1 & Est1).
    destruct c.
    + apply ret_ok in H. destruct H as [-> ->]. auto.
    + apply bind_ok in H. destruct H as (m' & t2 & H2 & H). apply ret_ok in H. destruct H as [-> ->].
      assert (Hm1 : mst t q = Some (m_structs m)) by (rewrite (rl_mst _ _ _ _ R1 q Hq); exact Hm).
      destruct (mark_verified_sim skind (d_stack s) q m t F t2 m' I1 H2 Hm1) as (I2 & R2 & Est2 & Em & _).
      split; [exact I2|]. split; [exact (rel_trans skind _ _ _ _ R1 R2)|]. split; [congruence | exact Em].
  - apply ret_ok in H. destruct H as [-> ->]. split; [exact I|]. split; [apply rel_refl | auto].
  - apply ret_ok in H. destruct H as [-> ->]. split; [exact I|]. split; [apply rel_refl | auto].
Qed.

Lemma verify_memo_sim (q : qk) m s F s' r :
  OInv s F -> Cons s F -> In q (d_stack s) -> mst s q = Some (m_structs m) ->
  verify_memo skind L q m s = (s', SOk r) ->
  OInv s' F /\ rel (d_stack s) s s' /\ d_stack s' = d_stack s /\ m_structs (snd r) = m_structs m.
Proof.
  intros I C Hq Hm H. unfold verify_memo in H.
  apply bind_ok in H. destruct H as (x & t & H1 & H). apply get_ok in H1. destruct H1 as [-> ->].
  assert (Hu : forall u, (m' <- update_shallow skind q m u ;; ret (true, m')) s = (s', SOk r) ->
     OInv s' F /\ rel (d_stack s) s s' /\ d_stack s' = d_stack s /\ m_structs (snd r) = m_structs m).
  { intros u Hb. apply bind_ok in Hb. destruct Hb as (m' & t & H1 & Hb). apply ret_ok in Hb. destruct Hb as [-> ->].
    destruct (update_shallow_sim skind (d_stack s) q m u s F t m' I H1 Hm) as (I1 & R1 & Est1 & Em).
    auto. }
  destruct (shallow_verify s m); [exact (Hu _ H) | exact (Hu _ H) | exact (deep_verify_sim q m s F s' r I C Hq Hm H)].
Qed.

(* ---------------------------------------------------------------- execute *)
Definition oldok (s : db) (q : qk) (old : option memo) : Prop :=
  match old with Some o => mst s q = Some (m_structs o) | None => True end.

Lemma mst_peek s (q : qk) o : mst s q = Some (m_structs o) ->
  exists m, peek_memo s (loc_of q) = Some m /\ mids m = mids o.
Proof.
  unfold SimBase.mst. destruct (Machine.peek_memo skind s (loc_of q)) as [m|]; cbn [option_map]; [|discriminate].
  intros E. exists m. split; [reflexivity|]. unfold mids. congruence.
Qed.

Lemma cons_locs s F (p q : qk) : Cons s F -> In p (d_stack s) -> In q (d_stack s) -> p <> q -> loc_of p <> loc_of q.
Proof.
  intros C Hp Hq Hne El. apply Hne.
  exact (cur_okb_loc skind s p q (cn_cur _ _ _ C p Hp) (cn_cur _ _ _ C q Hq) El).
Qed.

Lemma execute_sim (P : list qk) (q : qk) old s F s' m :
  OInv s F -> Cons s F -> In q (d_stack s) -> (forall fr, ~ In (q, fr) F) -> oldok s q old ->
  (forall p, In p P -> In p (d_stack s) /\ p <> q) ->
  execute prog skind sfams idhash L q old s = (s', SOk m) ->
  OInv s' F /\ rel P s s' /\ d_stack s' = d_stack s.
Proof.
  intros I C Hq HnF Hold HP H. unfold execute in H.
  apply bind_ok in H. destruct H as (u & s1 & H1 & H). unfold emit in H1. apply modify_ok in H1.
  assert (Est1 : d_stack s1 = d_stack s) by (subst s1; reflexivity).
  assert (R1 : rel (d_stack s) s s1) by (subst s1; apply rel_core_eq; reflexivity).
  assert (I1 : OInv s1 F) by (subst s1; apply (oinv_core_eq skind s _ F I); reflexivity).
  pose proof (Cons_rel skind _ s s1 F C R1 Est1) as C1.
  assert (Hq1 : In q (d_stack s1)) by (rewrite Est1; exact Hq).
  assert (Hold1 : oldok s1 q old).
  { unfold oldok in *. destruct old; [|exact Logic.I]. rewrite (rl_mst _ _ _ _ R1 q Hq). exact Hold. }
  clear H1.
  apply bind_ok in H. destruct H as (r & s2 & H2 & H).
  set (fr0 := seed_frame old) in *.
  assert (Hna : ~ active_loc F (loc_of q)).
  { apply (not_active_of_unclaimed skind s1 F q C1 (cn_cur _ _ _ C1 q Hq1) HnF). }
  assert (Hseed : NoDup (map fst (frame_ids fr0)) /\
                  forall h, In h (frame_ids fr0) -> exists m, peek_memo s1 (loc_of q) = Some m /\ In h (mids m)).
  { destruct (seed_frame_ids old) as (Hnd & Hsub).
    - destruct old as [o|]; [|constructor]. destruct (mst_peek s1 q o Hold1) as (m3 & Hp3 & Em3).
      rewrite <- Em3. apply (oi_nodup _ _ _ I1 (OwM (loc_of q))). split; [exact Hna|]. exists m3. auto.
    - split; [exact Hnd|]. intros h Hh. destruct (Hsub h Hh) as (o & -> & Ho).
      destruct (mst_peek s1 q o Hold1) as (m3 & Hp3 & Em3). exists m3. rewrite Em3. auto. }
  destruct Hseed as (Hnd & Hsub).
  assert (I1' : OInv s1 ((q, fr0) :: F)).
  { apply oinv_begin_gen; [exact I1 | exact Hna | | exact Hnd | exact Hsub].
    intros Hk. exact (cn_lock _ _ _ C1 q Hq1 Hk). }
  assert (C1' : Cons s1 ((q, fr0) :: F)).
  { destruct C1 as [a b c d]. constructor; auto. intros q' fr' [E | Hin]; [injection E as <- _; exact Hq1 | exact (a _ _ Hin)]. }
  destruct (run_body_sim q (prog q) (Hwf q) fr0 s1 _ s2 r I1' C1' (or_introl eq_refl) H2) as (I2 & R2 & Est2).
  cbn [set_frame] in I2. rewrite qk_eqb_refl in I2.
  pose proof (Cons_rel skind _ s1 s2 _ C1' R2 Est2) as C2.
  destruct (finish_oinv skind sfams sfams_skind _ _ _ _ _ _ _ _ _ I2 (or_introl eq_refl) H) as (I3 & _).
  cbn [del_frame] in I3. rewrite qk_eqb_refl in I3.
  assert (HP2 : forall p, In p P -> In p (d_stack s2) /\ p <> q).
  { intros p Hp. rewrite Est2, Est1. exact (HP p Hp). }
  destruct (finish_rel skind sfams P _ _ _ _ _ _ _ _ H) as (R3 & Est3).
  { intros p Hp Hk. exact (cn_lock _ _ _ C2 p (proj1 (HP2 p Hp)) Hk). }
  { intros p Hp. apply (cons_locs s2 _ p q C2); [exact (proj1 (HP2 p Hp)) | rewrite Est2; exact Hq1 | exact (proj2 (HP2 p Hp))]. }
  split; [exact I3|]. split; [|congruence].
  assert (Hsub1 : forall p, In p P -> In p (d_stack s)) by (intros p Hp; exact (proj1 (HP p Hp))).
  apply (rel_trans skind P s s1 s'); [exact (rel_sub skind _ _ _ _ Hsub1 R1)|].
  apply (rel_trans skind P s1 s2 s'); [|exact R3].
  apply (rel_sub skind (d_stack s1)); [|exact R2]. intros p Hp. rewrite Est1. exact (Hsub1 p Hp).
Qed.

(* ---------------------------------------------------------------- fetch / maybe_changed_after *)
Lemma lock_cur_okb i s s' sl' (p : qk) :
  acquire_read_lock i s = (s', SOk sl') -> cur_okb s p = true -> cur_okb s' p = true.
Proof.
  intros H. destruct (lock_spec _ _ _ _ H) as [sl Lk].
  pose proof (lk_at Lk) as Hs. pose proof (lk_live Lk) as Hu. pose proof (lk_now Lk) as Hu'.
  pose proof (lk_gen Lk) as Hg. pose proof (lk_slots Lk) as Es.
  unfold Guard.cur_okb. destruct (skind (fst p)); [|auto].
  rewrite Es. unfold updN. destruct (N.eqb_spec i (fst (snd p))) as [<- | E]; [|auto].
  rewrite Hs, Hu', Hg. destruct (sl_updated sl); [auto | contradiction Hu; reflexivity].
Qed.

Lemma get_memo_cur_okb (p q : qk) s s' om :
  get_memo skind q s = (s', SOk om) -> cur_okb s p = true -> cur_okb s' p = true.
Proof.
  unfold get_memo. intros H. destruct (skind (fst q)).
  - apply bind_ok in H. destruct H as (sl & t & H1 & H). apply ret_ok in H. destruct H as [-> _].
    exact (lock_cur_okb _ _ _ _ p H1).
  - apply bind_ok in H. destruct H as (x & t & H1 & H). apply get_ok in H1. destruct H1 as [-> ->].
    apply ret_ok in H. destruct H as [-> _]. auto.
Qed.

Lemma peek_mst s (q : qk) m : Some m = peek_memo s (loc_of q) -> mst s q = Some (m_structs m).
Proof. intros E. unfold SimBase.mst. rewrite <- E. reflexivity. Qed.

Lemma fetch_hot_sim (P : list qk) (q : qk) s F s' hot :
  OInv s F -> cur_okb s q = true -> fetch_hot skind q s = (s', SOk hot) ->
  OInv s' F /\ rel P s s' /\ d_stack s' = d_stack s /\ cur_okb s' q = true /\
  (skind (fst q) = true -> locked s' (fst (snd q))).
Proof.
  intros I Hc H. unfold fetch_hot in H.
  apply bind_ok in H. destruct H as (om & s1 & H1 & H).
  destruct (get_memo_sim skind P q s F s1 om I H1) as (I1 & R1 & Est1 & Eom & Hl1).
  pose proof (get_memo_cur_okb q q _ _ _ H1 Hc) as Hc1.
  apply bind_ok in H. destruct H as (x & t & H2 & H). apply get_ok in H2. destruct H2 as [-> ->].
  assert (Hnone : forall r, ret r s1 = (s', SOk hot) ->
    OInv s' F /\ rel P s s' /\ d_stack s' = d_stack s /\ cur_okb s' q = true /\
    (skind (fst q) = true -> locked s' (fst (snd q)))).
  { intros r Hr. apply ret_ok in Hr. destruct Hr as [-> _]. auto. }
  destruct om as [m|]; [|exact (Hnone _ H)].
  destruct (m_val m) as [v|]; [|exact (Hnone _ H)].
  assert (Hu : forall u, (m' <- update_shallow skind q m u ;; ret (Some (m', v))) s1 = (s', SOk hot) ->
    OInv s' F /\ rel P s s' /\ d_stack s' = d_stack s /\ cur_okb s' q = true /\
    (skind (fst q) = true -> locked s' (fst (snd q)))).
  { intros u Hb. apply bind_ok in Hb. destruct Hb as (m' & t & H3 & Hb). apply ret_ok in Hb. destruct Hb as [-> _].
    destruct (update_shallow_sim skind P q m u s1 F t m' I1 H3 (peek_mst _ _ _ Eom)) as (I2 & R2 & Est2 & _).
    split; [exact I2|]. split; [exact (rel_trans skind _ _ _ _ R1 R2)|]. split; [congruence|].
    split; [exact (cur_okb_rel skind P s1 t q R2 Hl1 Hc1) | intros Hk; exact (locked_rel skind P s1 t _ R2 (Hl1 Hk))]. }
  destruct (shallow_verify s1 m); [exact (Hu _ H) | exact (Hu _ H) | exact (Hnone _ H)].
Qed.

Lemma claim_sim (q : qk) s F s1 u :
  OInv s F -> Cons s F -> cur_okb s q = true -> (skind (fst q) = true -> locked s (fst (snd q))) ->
  claim q s = (s1, SOk u) ->
  d_stack s1 = q :: d_stack s /\ OInv s1 F /\ Cons s1 F /\ (forall P, rel P s s1) /\
  (forall fr, ~ In (q, fr) F) /\ ~ In q (d_stack s).
Proof.
  intros I C Hc Hl H. unfold claim in H.
  apply bind_ok in H. destruct H as (x & t & H1 & H). apply get_ok in H1. destruct H1 as [-> ->].
  destruct (existsb (qk_eqb q) (d_stack s)) eqn:Ex; [exfalso; exact (fail_ok _ _ _ _ H)|].
  apply modify_ok in H. subst s1.
  assert (Hnin : ~ In q (d_stack s)).
  { intros Hin. assert (existsb (qk_eqb q) (d_stack s) = true); [|congruence].
    apply existsb_exists. exists q. split; [exact Hin | apply qk_eqb_refl]. }
  split; [reflexivity|]. split; [apply (oinv_core_eq skind s _ F I); reflexivity|]. split.
  - destruct C as [a b c d]. constructor.
    + intros q' fr Hin. right. exact (a _ _ Hin).
    + cbn. constructor; [exact Hnin | exact b].
    + intros p [<- | Hp]; [exact Hc | exact (c p Hp)].
    + intros p [<- | Hp] Hk; [exact (Hl Hk) | exact (d p Hp Hk)].
  - split; [intros P; apply rel_core_eq; reflexivity|]. split; [|exact Hnin].
    intros fr Hin. exact (Hnin (cn_stack _ _ _ C _ _ Hin)).
Qed.

Lemma release_sim (P : list qk) (q : qk) st s F s' u :
  OInv s F -> d_stack s = q :: st -> release q s = (s', SOk u) ->
  OInv s' F /\ rel P s s' /\ d_stack s' = st.
Proof.
  intros I Est H. unfold release in H. apply modify_ok in H. subst s'.
  split; [apply (oinv_core_eq skind s _ F I); reflexivity|]. split; [apply rel_core_eq; reflexivity|].
  cbn. rewrite Est. reflexivity.
Qed.

Definition Post (s : db) (F : frames) (s' : db) : Prop :=
  OInv s' F /\ rel (d_stack s) s s' /\ d_stack s' = d_stack s.

(* shared tail of the cold paths: after the claim, work relative to q :: stack, then release *)
Lemma cold_close (q : qk) s s1 s3 F s' u :
  d_stack s1 = q :: d_stack s -> (forall P, rel P s s1) ->
  OInv s3 F -> rel (d_stack s) s1 s3 -> d_stack s3 = d_stack s1 ->
  release q s3 = (s', SOk u) -> Post s F s'.
Proof.
  intros Est1 R1 I3 R3 Est3 H.
  destruct (release_sim (d_stack s) q (d_stack s) s3 F s' u I3 (eq_trans Est3 Est1) H) as (I' & R' & Est').
  split; [exact I'|]. split; [|exact Est'].
  exact (rel_trans skind _ _ _ _ (R1 _) (rel_trans skind _ _ _ _ R3 R')).
Qed.

Lemma sub_cons (q : qk) (st : list qk) : forall p, In p st -> In p (q :: st).
Proof. intros p Hp. right. exact Hp. Qed.

Lemma fetch_cold_sim (q : qk) s F s' r :
  OInv s F -> Cons s F -> cur_okb s q = true -> (skind (fst q) = true -> locked s (fst (snd q))) ->
  fetch_cold prog skind sfams idhash L q s = (s', SOk r) -> Post s F s'.
Proof.
  intros I C Hc Hl H. unfold fetch_cold in H.
  apply bind_ok in H. destruct H as (u & s1 & H1 & H).
  destruct (claim_sim q s F s1 u I C Hc Hl H1) as (Est1 & I1 & C1 & R1 & HnF & Hnin).
  apply bind_ok in H. destruct H as (old & s2 & H2 & H).
  destruct (get_memo_sim skind (d_stack s1) q s1 F s2 old I1 H2) as (I2 & R2 & Est2 & Eold & _).
  pose proof (Cons_rel skind _ s1 s2 F C1 R2 Est2) as C2.
  assert (Hq2 : In q (d_stack s2)) by (rewrite Est2, Est1; left; reflexivity).
  apply bind_ok in H. destruct H as (ok & s3 & H3 & H).
  assert (A : OInv s3 F /\ rel (d_stack s2) s2 s3 /\ d_stack s3 = d_stack s2).
  { assert (Hnone : forall x, ret x s2 = (s3, SOk ok) -> OInv s3 F /\ rel (d_stack s2) s2 s3 /\ d_stack s3 = d_stack s2).
    { intros x Hr. apply ret_ok in Hr. destruct Hr as [-> _]. split; [exact I2|]. split; [apply rel_refl | reflexivity]. }
    destruct old as [m|]; [|exact (Hnone _ H3)].
    destruct (m_val m) as [v|]; [|exact (Hnone _ H3)].
    apply bind_ok in H3. destruct H3 as (rr & t & H4 & H3). apply ret_ok in H3. destruct H3 as [-> _].
    destruct (verify_memo_sim q m s2 F t rr I2 C2 Hq2 (peek_mst _ _ _ Eold) H4) as (I3 & R3 & Est3 & _). auto. }
  destruct A as (I3 & R3 & Est3).
  pose proof (Cons_rel skind _ s2 s3 F C2 R3 Est3) as C3.
  assert (R13 : rel (d_stack s1) s1 s3).
  { apply (rel_trans skind _ s1 s2 s3 R2). rewrite <- Est2. exact R3. }
  assert (Est13 : d_stack s3 = d_stack s1) by congruence.
  assert (Hsub : forall p, In p (d_stack s) -> In p (d_stack s1)) by (rewrite Est1; apply sub_cons).
  destruct ok as [mv|].
  - apply bind_ok in H. destruct H as (u2 & s4 & H4 & H). apply ret_ok in H. destruct H as [-> _].
    exact (cold_close q s s1 s3 F s4 u2 Est1 R1 I3 (rel_sub skind _ _ _ _ Hsub R13) Est13 H4).
  - apply bind_ok in H. destruct H as (m & s4 & H4 & H).
    assert (Hold3 : oldok s3 q old).
    { unfold oldok. destruct old as [o|]; [|exact Logic.I].
      rewrite (rl_mst _ _ _ _ R3 q Hq2). exact (peek_mst _ _ _ Eold). }
    destruct (execute_sim (d_stack s) q old s3 F s4 m I3 C3) as (I4 & R4 & Est4); auto.
    + rewrite Est3. exact Hq2.
    + intros p Hp. split; [rewrite Est13; exact (Hsub p Hp) | intros ->; exact (Hnin Hp)].
    + apply bind_ok in H. destruct H as (u2 & s5 & H5 & H).
      assert (s' = s5).
      { destruct (m_val m); [apply ret_ok in H; tauto | exfalso; exact (nofuel_ok _ _ _ H)]. }
      subst s5.
      apply (cold_close q s s1 s4 F s' u2 Est1 R1 I4); [|congruence|exact H5].
      exact (rel_trans skind _ _ _ _ (rel_sub skind _ _ _ _ Hsub R13) R4).
Qed.

Lemma fetch_sim (q : qk) s F s' r :
  OInv s F -> Cons s F -> cur_okb s q = true ->
  fetch prog skind sfams idhash L q s = (s', SOk r) -> Post s F s'.
Proof.
  intros I C Hc H. unfold fetch in H.
  apply bind_ok in H. destruct H as (hot & s1 & H1 & H).
  destruct (fetch_hot_sim (d_stack s) q s F s1 hot I Hc H1) as (I1 & R1 & Est1 & Hc1 & Hl1).
  apply bind_ok in H. destruct H as (x & s2 & H2 & H). apply ret_ok in H. destruct H as [-> _].
  destruct hot as [mv|].
  - apply ret_ok in H2. destruct H2 as [-> _]. split; [exact I1|]. split; [exact R1 | exact Est1].
  - pose proof (Cons_rel skind _ s s1 F C R1 Est1) as C1.
    exact (rel_chain s s1 s2 _ R1 Est1 (fetch_cold_sim q s1 F s2 x I1 C1 Hc1 Hl1 H2)).
Qed.

Lemma mca_cold_sim (q : qk) since s F s' b :
  OInv s F -> Cons s F -> cur_okb s q = true -> (skind (fst q) = true -> locked s (fst (snd q))) ->
  mca_cold prog skind sfams idhash L q since s = (s', SOk b) -> Post s F s'.
Proof.
  intros I C Hc Hl H. unfold mca_cold in H.
  apply bind_ok in H. destruct H as (u & s1 & H1 & H).
  destruct (claim_sim q s F s1 u I C Hc Hl H1) as (Est1 & I1 & C1 & R1 & HnF & Hnin).
  apply bind_ok in H. destruct H as (om & s2 & H2 & H).
  destruct (get_memo_sim skind (d_stack s1) q s1 F s2 om I1 H2) as (I2 & R2 & Est2 & Eold & _).
  pose proof (Cons_rel skind _ s1 s2 F C1 R2 Est2) as C2.
  assert (Hq2 : In q (d_stack s2)) by (rewrite Est2, Est1; left; reflexivity).
  assert (Hsub : forall p, In p (d_stack s) -> In p (d_stack s1)) by (rewrite Est1; apply sub_cons).
  destruct om as [old|].
  - apply bind_ok in H. destruct H as (rr & s3 & H3 & H).
    destruct (verify_memo_sim q old s2 F s3 rr I2 C2 Hq2 (peek_mst _ _ _ Eold) H3) as (I3 & R3 & Est3 & _).
    pose proof (Cons_rel skind _ s2 s3 F C2 R3 Est3) as C3.
    assert (R13 : rel (d_stack s1) s1 s3).
    { apply (rel_trans skind _ s1 s2 s3 R2). rewrite <- Est2. exact R3. }
    assert (Est13 : d_stack s3 = d_stack s1) by congruence.
    assert (Hrel : forall (u2 : bool) s4 (x : bool), (release q ;;; ret x) s3 = (s4, SOk u2) -> Post s F s4).
    { intros u2 s4 x Hb. apply bind_ok in Hb. destruct Hb as (u3 & s5 & H5 & Hb). apply ret_ok in Hb. destruct Hb as [-> _].
      exact (cold_close q s s1 s3 F s5 u3 Est1 R1 I3 (rel_sub skind _ _ _ _ Hsub R13) Est13 H5). }
    destruct (fst rr); [exact (Hrel _ _ _ H)|].
    destruct (m_val old) as [v|]; [|exact (Hrel _ _ _ H)].
    apply bind_ok in H. destruct H as (m & s4 & H4 & H).
    assert (Hold3 : oldok s3 q (Some old)).
    { unfold oldok. rewrite (rl_mst _ _ _ _ R3 q Hq2). exact (peek_mst _ _ _ Eold). }
    destruct (execute_sim (d_stack s) q (Some old) s3 F s4 m I3 C3) as (I4 & R4 & Est4); auto.
    + rewrite Est3. exact Hq2.
    + intros p Hp. split; [rewrite Est13; exact (Hsub p Hp) | intros ->; exact (Hnin Hp)].
    + apply bind_ok in H. destruct H as (u2 & s5 & H5 & H). apply ret_ok in H. destruct H as [-> _].
      apply (cold_close q s s1 s4 F s5 u2 Est1 R1 I4); [|congruence|exact H5].
      exact (rel_trans skind _ _ _ _ (rel_sub skind _ _ _ _ Hsub R13) R4).
  - apply bind_ok in H. destruct H as (u2 & s4 & H4 & H). apply ret_ok in H. destruct H as [-> _].
    apply (cold_close q s s1 s2 F s4 u2 Est1 R1 I2); [|exact Est2|exact H4].
    exact (rel_sub skind _ _ _ _ Hsub R2).
Qed.

Lemma mca_sim (q : qk) since s F s' b :
  OInv s F -> Cons s F -> cur_okb s q = true ->
  mca prog skind sfams idhash L q since s = (s', SOk b) -> Post s F s'.
Proof.
  intros I C Hc H. unfold mca in H.
  apply bind_ok in H. destruct H as (om & s1 & H1 & H).
  destruct (get_memo_sim skind (d_stack s) q s F s1 om I H1) as (I1 & R1 & Est1 & Eom & Hl1).
  pose proof (get_memo_cur_okb q q _ _ _ H1 Hc) as Hc1.
  apply bind_ok in H. destruct H as (x & t & H2 & H). apply get_ok in H2. destruct H2 as [-> ->].
  destruct om as [m|].
  - assert (Hu : forall u, (m' <- update_shallow skind q m u ;; ret (changed_after (m_changed m') since)) s1 = (s', SOk b) ->
                Post s F s').
    { intros u Hb. apply bind_ok in Hb. destruct Hb as (m' & t & H3 & Hb). apply ret_ok in Hb. destruct Hb as [-> _].
      destruct (update_shallow_sim skind (d_stack s) q m u s1 F t m' I1 H3 (peek_mst _ _ _ Eom)) as (I2 & R2 & Est2 & _).
      split; [exact I2|]. split; [exact (rel_trans skind _ _ _ _ R1 R2) | congruence]. }
    destruct (shallow_verify s1 m); [exact (Hu _ H) | exact (Hu _ H) |].
    pose proof (Cons_rel skind _ s s1 F C R1 Est1) as C1.
    exact (rel_chain s s1 s' _ R1 Est1 (mca_cold_sim q since s1 F s' b I1 C1 Hc1 Hl1 H)).
  - apply ret_ok in H. destruct H as [-> _]. split; [exact I1|]. split; [exact R1 | exact Est1].
Qed.

End Level.

(* ---------------------------------------------------------------- all monitored levels *)
Lemma glevel_Lsim n : Lsim (glevel prog skind sfams idhash n).
Proof.
  induction n as [|n IH]; cbn [glevel].
  - split; intros; discriminate.
  - split.
    + intros q s F s' r I C H. cbn [l_fetch] in H. destruct (guard_ok skind q _ s s' r H) as [Hc H'].
      exact (fetch_sim _ IH q s F s' r I C Hc H').
    + intros q since s F s' b I C H. cbn [l_mca] in H. destruct (guard_ok skind q _ s s' b H) as [Hc H'].
      exact (mca_sim _ IH q since s F s' b I C Hc H').
Qed.

(* the interior of an execution at any monitored level: the frames are those of the running
   executions *)
Theorem glevel_run_body n (q : qk) fr s F s' r :
  OInv s F -> Cons s F -> In (q, fr) F ->
  run_body skind sfams idhash (glevel prog skind sfams idhash n) q (prog q) fr s = (s', SOk r) ->
  OInv s' (set_frame F q (snd r)).
Proof.
  intros I C Hq H. exact (proj1 (run_body_sim _ (glevel_Lsim n) q (prog q) (Hwf q) fr s F s' r I C Hq H)).
Qed.

(* ---------------------------------------------------------------- the API *)
Definition Top (s : db) : Prop := OInv s [] /\ d_stack s = [].

Lemma cons_nil s : d_stack s = [] -> Cons s [].
Proof.
  intros E. constructor.
  - intros q fr [].
  - rewrite E. constructor.
  - intros q Hq. rewrite E in Hq. destruct Hq.
  - intros q Hq. rewrite E in Hq. destruct Hq.
Qed.

(* an operation that does not unwind: a Get returns a value *)
Definition okout (o : op) (r : out) : Prop :=
  match o with
  | OGet _ | OGetS _ _ _ => exists v, r = SOk v
  | _ => True
  end.

Lemma gfetch_top fuel (q : qk) s s' r :
  Top s -> guard skind q (fetch prog skind sfams idhash (glevel prog skind sfams idhash fuel) q) s = (s', SOk r) -> Top s'.
Proof.
  intros [I E] H. destruct (guard_ok skind q _ s s' r H) as [Hc H'].
  destruct (fetch_sim _ (glevel_Lsim fuel) q s [] s' r I (cons_nil s E) Hc H') as (I' & _ & E').
  split; [exact I' | congruence].
Qed.

Lemma top_same s s' :
  Top s -> d_slots s' = d_slots s -> d_memo s' = d_memo s -> d_nslots s' = d_nslots s ->
  d_free s' = d_free s -> d_ideal s' = d_ideal s -> d_stack s' = d_stack s -> Top s'.
Proof.
  intros [I E] Es Em En Ef Ei Est. split; [exact (oinv_newrev skind s s' I Es Em En Ef Ei) | congruence].
Qed.

Lemma top_set_revs s x : Top s -> Top (set_revs s x).
Proof. intros T. apply (top_same s _ T); reflexivity. Qed.

Lemma top_set_in s x : Top s -> Top (set_in s x).
Proof. intros T. apply (top_same s _ T); reflexivity. Qed.

Lemma top_set_cell s x : Top s -> Top (set_cell s x).
Proof. intros T. apply (top_same s _ T); reflexivity. Qed.

Lemma top_set_ccount s x : Top s -> Top (set_ccount s x).
Proof. intros T. apply (top_same s _ T); reflexivity. Qed.

Lemma top_newrev s : Top s -> Top (new_revision (zalsa_mut s)).
Proof.
  intros T. unfold zalsa_mut, new_revision.
  destruct (d_ccount s =? 255); repeat (apply top_set_ccount, top_set_revs); [|apply top_set_ccount]; exact T.
Qed.

Lemma gstep_top fuel s o s' r :
  Top s -> gstep prog skind sfams idhash fuel s o = (s', r) -> okout o r -> Top s'.
Proof.
  intros T H Hok. destruct o as [i x d | d | c x | q | fam q i | ]; cbn [gstep step] in H.
  - pose proof (top_newrev s T) as T1. set (s1 := new_revision (zalsa_mut s)) in *.
    destruct (f_dur (d_in s1 i) =? D_NEVER); injection H as <- _; [exact T1 | exact (top_set_in _ _ (top_set_revs _ _ T1))].
  - pose proof (top_newrev s T) as T1. set (s1 := new_revision (zalsa_mut s)) in *.
    destruct (d =? D_NEVER); injection H as <- _; [exact T1 | exact (top_set_revs _ _ T1)].
  - injection H as <- _. exact (top_set_cell _ _ T).
  - destruct Hok as (v & ->).
    apply (unwind_ok _ (fun s1 v1 => (s1, SOk v1))) in H. destruct H as (s1 & v1 & d & c & E & K).
    injection K as <- _. exact (gfetch_top fuel q s s1 _ T E).
  - destruct Hok as (v & ->).
    apply (unwind_ok _ (fun s1 v1 => match nth_error (snd v1) (N.to_nat i) with
                                     | None => (s1, SOk (255, []))
                                     | Some h => _ end)) in H.
    destruct H as (s1 & v1 & d & c & E & K).
    pose proof (gfetch_top fuel q s s1 _ T E) as T1.
    destruct (nth_error (snd v1) (N.to_nat i)) as [h|]; [|injection K as <- _; exact T1].
    apply (unwind_ok _ (fun s2 v2 => (s2, SOk v2))) in K. destruct K as (s2 & v2 & d2 & c2 & E2 & K).
    injection K as <- _. exact (gfetch_top fuel (fam, h) s1 s2 _ T1 E2).
  - injection H as <- _. exact T.
Qed.

Lemma gstep_step_ok fuel s o s' r :
  gstep prog skind sfams idhash fuel s o = (s', r) -> okout o r ->
  step prog skind sfams idhash fuel s o = (s', r).
Proof.
  intros H Hok. destruct o as [i x d | d | c x | q | fam q i | ]; try exact H.
  - destruct Hok as (v & ->). exact (gstep_step prog skind sfams idhash fuel s _ s' v H).
  - destruct Hok as (v & ->). exact (gstep_step prog skind sfams idhash fuel s _ s' v H).
Qed.

Theorem grun_top fuel : forall os s s' rs,
  Top s -> grun_ops prog skind sfams idhash fuel s os = (s', rs) -> Forall2 okout os rs ->
  Top s' /\ run_ops prog skind sfams idhash fuel s os = (s', rs).
Proof.
  induction os as [|o os IH]; intros s s' rs T H Hok; cbn [grun_ops run_ops] in *.
  - injection H as <- <-. auto.
  - destruct (gstep prog skind sfams idhash fuel s o) as [s1 r] eqn:E1.
    destruct (grun_ops prog skind sfams idhash fuel s1 os) as [s2 rs2] eqn:E2.
    injection H as <- <-. inversion Hok as [|? ? ? ? Hr Hrs]; subst.
    rewrite (gstep_step_ok fuel s o s1 r E1 Hr).
    destruct (IH s1 s2 rs2 (gstep_top fuel s o s1 r T E1 Hr) E2 Hrs) as [T2 ->]. auto.
Qed.

(* prefixes: the monitored run of a prefix is the prefix of the monitored run *)
Lemma grun_ops_app fuel : forall os1 os2 s,
  grun_ops prog skind sfams idhash fuel s (os1 ++ os2) =
  let '(s1, r1) := grun_ops prog skind sfams idhash fuel s os1 in
  let '(s2, r2) := grun_ops prog skind sfams idhash fuel s1 os2 in (s2, r1 ++ r2).
Proof.
  induction os1 as [|o os1 IH]; intros os2 s; cbn [grun_ops app].
  - destruct (grun_ops prog skind sfams idhash fuel s os2). reflexivity.
  - destruct (gstep prog skind sfams idhash fuel s o) as [s1 r]. rewrite IH.
    destruct (grun_ops prog skind sfams idhash fuel s1 os1) as [s2 r1].
    destruct (grun_ops prog skind sfams idhash fuel s2 os2) as [s3 r2]. reflexivity.
Qed.

Theorem model_invariant fuel iv idur os s' rs :
  grun_ops prog skind sfams idhash fuel (init iv idur) os = (s', rs) -> Forall2 okout os rs ->
  run_ops prog skind sfams idhash fuel (init iv idur) os = (s', rs) /\ OInv s' [] /\ d_stack s' = [].
Proof.
  intros H Hok. destruct (grun_top fuel os (init iv idur) s' rs) as [[I E] Hr]; auto.
  split; [apply oinv_init | reflexivity].
Qed.

(* ---------------------------------------------------------------- decidable form, prefixes *)
Definition okoutb (o : op) (r : out) : bool :=
  match o with
  | OGet _ | OGetS _ _ _ => match r with SOk _ => true | _ => false end
  | _ => true
  end.

Fixpoint all_okb (os : list op) (rs : list out) : bool :=
  match os, rs with
  | [], [] => true
  | o :: os', r :: rs' => okoutb o r && all_okb os' rs'
  | _, _ => false
  end.

Lemma okoutb_ok o r : okoutb o r = true -> okout o r.
Proof.
  destruct o; cbn; auto; destruct r; try discriminate; eauto.
Qed.

Lemma all_okb_ok : forall os rs, all_okb os rs = true -> Forall2 okout os rs.
Proof.
  induction os as [|o os IH]; intros [|r rs] H; cbn [all_okb] in H; try discriminate; [constructor|].
  apply andb_true_iff in H. destruct H as [H1 H2]. constructor; [exact (okoutb_ok _ _ H1) | exact (IH _ H2)].
Qed.

Lemma all_okb_app : forall os1 r1 os2 r2, length r1 = length os1 ->
  all_okb (os1 ++ os2) (r1 ++ r2) = true -> all_okb os1 r1 = true.
Proof.
  induction os1 as [|o os1 IH]; intros [|r r1] os2 r2 Hl H; cbn in Hl; try discriminate; [reflexivity|].
  cbn [all_okb app] in *. apply andb_true_iff in H. destruct H as [H1 H2].
  rewrite H1. cbn. exact (IH r1 os2 r2 (eq_add_S _ _ Hl) H2).
Qed.

(* a history is handle-safe and does not unwind: the monitored run answers every Get *)
Definition handle_safe (fuel : nat) (s : db) (os : list op) : bool :=
  all_okb os (snd (grun_ops prog skind sfams idhash fuel s os)).

Lemma grun_ops_length fuel : forall os s, length (snd (grun_ops prog skind sfams idhash fuel s os)) = length os.
Proof.
  induction os as [|o os IH]; intros s; cbn [grun_ops]; [reflexivity|].
  destruct (gstep prog skind sfams idhash fuel s o) as [s1 r]. specialize (IH s1).
  destruct (grun_ops prog skind sfams idhash fuel s1 os) as [s2 rs]. cbn [snd length] in *. now rewrite IH.
Qed.

Lemma handle_safe_prefix fuel s os1 os2 :
  handle_safe fuel s (os1 ++ os2) = true -> handle_safe fuel s os1 = true.
Proof.
  unfold handle_safe. rewrite grun_ops_app. pose proof (grun_ops_length fuel os1 s) as Hl.
  destruct (grun_ops prog skind sfams idhash fuel s os1) as [s1 r1].
  destruct (grun_ops prog skind sfams idhash fuel s1 os2) as [s2 r2]. cbn [snd] in *.
  exact (all_okb_app os1 r1 os2 r2 Hl).
Qed.

Theorem model_invariant_every_op fuel iv idur os :
  handle_safe fuel (init iv idur) os = true ->
  forall os1 os2, os = os1 ++ os2 ->
  run_ops prog skind sfams idhash fuel (init iv idur) os1 = grun_ops prog skind sfams idhash fuel (init iv idur) os1 /\
  OInv (fst (run_ops prog skind sfams idhash fuel (init iv idur) os1)) [] /\
  d_stack (fst (run_ops prog skind sfams idhash fuel (init iv idur) os1)) = [].
Proof.
  intros Hs os1 os2 ->. apply handle_safe_prefix in Hs. unfold handle_safe in Hs.
  destruct (grun_ops prog skind sfams idhash fuel (init iv idur) os1) as [s1 r1] eqn:E. cbn [snd] in Hs.
  destruct (model_invariant fuel iv idur os1 s1 r1 E (all_okb_ok _ _ Hs)) as (Hr & I & Est).
  rewrite Hr. cbn [fst]. auto.
Qed.

Theorem model_distinct_every_op fuel iv idur os :
  handle_safe fuel (init iv idur) os = true ->
  forall os1 os2, os = os1 ++ os2 ->
  let s := fst (run_ops prog skind sfams idhash fuel (init iv idur) os1) in
  (forall o h, owns s [] o h -> live s h) /\
  (forall o1 o2 h1 h2, owns s [] o1 h1 -> owns s [] o2 h2 -> o1 <> o2 -> fst h1 <> fst h2 /\ h1 <> h2) /\
  (forall o ids, Machine.owner_ids skind s [] o ids -> NoDup (map fst ids) /\ NoDup ids).
Proof.
  intros Hs os1 os2 E s. destruct (model_invariant_every_op fuel iv idur os Hs os1 os2 E) as (_ & I & _).
  exact (oinv_distinct skind s [] I).
Qed.

Theorem model_no_alias_every_op fuel iv idur os :
  handle_safe fuel (init iv idur) os = true ->
  forall os1 os2, os = os1 ++ os2 ->
  forall o h, owns (fst (run_ops prog skind sfams idhash fuel (init iv idur) os1)) [] o h ->
  (forall f fr s' v fr', read_field h f fr (fst (run_ops prog skind sfams idhash fuel (init iv idur) os1)) = (s', SOk (v, fr')) ->
     exists idv f0 f1, ideal_get (d_ideal (fst (run_ops prog skind sfams idhash fuel (init iv idur) os1))) h = Some (idv, f0, f1) /\
                       v = (if f =? 0 then f0 else f1)) /\
  (forall s' v, read_idfield h (fst (run_ops prog skind sfams idhash fuel (init iv idur) os1)) = (s', SOk v) ->
     exists f0 f1, ideal_get (d_ideal (fst (run_ops prog skind sfams idhash fuel (init iv idur) os1))) h = Some (v, f0, f1)).
Proof.
  intros Hs os1 os2 E o h Ho.
  destruct (model_invariant_every_op fuel iv idur os Hs os1 os2 E) as (_ & I & _).
  split.
  - intros f fr s' v fr' H. exact (read_agrees_ideal skind _ _ o h f fr s' v fr' I Ho H).
  - intros s' v H. exact (idfield_agrees_ideal skind _ _ o h s' v I Ho H).
Qed.

End Sim.
