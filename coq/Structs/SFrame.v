(* Structs/SFrame.v — what is known about a running execution: the log of its reads with the
   answers it received, the frame (stamp, edges, identity map) in terms of the log, the body still
   to run, and — when the query has an old memo — either every logged answer is the answer of the
   world in which the old memo was verified, or the frame's changed_at stamp is already later than
   the old memo's verified_at. *)
From Salsa Require Import Base.
From Salsa.Kern Require Import CoreK CoreKFacts.
From Salsa.Structs Require Import Model ProofsBase ProofsCascade Machine ProofsInv ProofsStep Theorems Guard SimBase SSem SInv SSlots.

Definition lentry := (rd * rval)%type.
Definition agrees (e : senv) (log : list lentry) : Prop := forall x a, In (x, a) log -> answer e x = a.

Lemma agrees_app e l1 l2 : agrees e (l1 ++ l2) <-> agrees e l1 /\ agrees e l2.
Proof.
  unfold agrees. split.
  - intros H. split; intros x a Hin; apply H; apply in_or_app; auto.
  - intros [H1 H2] x a Hin. apply in_app_or in Hin. destruct Hin; auto.
Qed.

Section Frame.
Variable prog : qk -> body.
Variable skind : N -> bool.
Variable idhash : val -> N.
Variable NF : nat.

Notation envw := (envw idhash prog NF).
Notation trr := (trr prog idhash NF).

(* the stamp c is the stamp of something logged (or the start revision) *)
Definition cst (s : db) (pre : list lentry) (c : rev) : Prop :=
  c <= 1 \/ exists x a, In (x, a) pre /\ sle s c x.

Definition lok (s : db) (fr : frame) (pre : list lentry) (xa : lentry) : Prop :=
  match fst xa with
  | RIn i => snd xa = (f_val (d_in s i), []) /\ In (EIn i) (fr_edges fr) /\ f_changed (d_in s i) <= fr_changed fr
  | RQ d => gk d /\ exists md, d_memo s (loc_of d) = Some md /\ m_verified md = cur s /\ m_val md = Some (snd xa) /\
            m_changed md <= fr_changed fr /\ In (EQ d) (fr_edges fr)
  | RCell c => snd xa = (d_cell s c, []) /\ fr_untracked fr = true /\ fr_changed fr = cur s
  | RTouch => snd xa = (0, []) /\ fr_untracked fr = true /\ fr_changed fr = cur s
  | RNew id idv f0 f1 =>
      exists h sl, snd xa = (0, [h]) /\ In (mk_entry id h true) (fr_ids fr) /\ live_h s h sl /\
        slot_fields sl = (idv, f0, f1) /\ sl_updated sl = Some (cur s) /\ sl_dur sl = 0 /\
        sl_rev0 sl <= cur s /\ sl_rev1 sl <= cur s /\ cst s pre (sl_rev1 sl)
  | RFld h f =>
      exists sl, snd xa = (fldv sl f, []) /\ live_h s h sl /\ sl_updated sl = Some (cur s) /\
        In (EFld h f) (fr_edges fr) /\ revf sl f <= fr_changed fr
  | RIdf h => exists sl, snd xa = (sl_idv sl, []) /\ live_h s h sl /\ sl_updated sl = Some (cur s)
  end.

Definition Logged (s : db) (fr : frame) (log : list lentry) : Prop :=
  forall pre xa post, log = pre ++ xa :: post -> lok s fr pre xa.

Definition edge_rd (e : edge) : rd :=
  match e with
  | EIn i => RIn i
  | EQ d => RQ d
  | EFld h f => RFld h f
  | EOut o => RQ o
  end.

(* what is known about an entry seeded from the old memo and not re-created yet *)
Definition seeded (Hs : hist) (s : db) (q : qk) (o : memo) (e : tentry) : Prop :=
  In (te_ident e, te_id e) (m_structs o) /\
  exists sl, live_h s (te_id e) sl /\ slot_fields sl = w_slot (W Hs s (m_verified o)) (te_id e) /\
             sl_dur sl = 0 /\ sl_rev0 sl <= m_verified o /\ sl_rev1 sl <= m_verified o /\
             cstamp s (trr Hs s (m_verified o) q) (te_ident e) (sl_rev1 sl) /\
             sl_updated sl <> Some (cur s).

(* [log]: the reads made so far with their answers; [b]: the rest of the body; [dis]: the
   disambiguator counts; [old]: the memo of [q] in the store. *)
Record FrameOK (Hs : hist) (s : db) (q : qk) (old : option memo) (fr : frame) (log : list lentry)
       (b : body) (dis : list (N * N)) : Prop := {
  (* each logged answer is what the state gives, and is accounted for in the frame *)
  fo_logged : Logged s fr log;
  fo_dis : fr_disamb fr = dis;
  (* in any environment that answers as the log does, the body of [q] reads [log] and continues as [b] *)
  fo_tr : forall e, agrees e log ->
          trace idhash e (prog q) [] = map fst log ++ trace idhash e b dis /\
          run idhash e (prog q) [] = run idhash e b dis;
  (* the changed_at stamp: between the start revision 1 and now, and the stamp of some logged read *)
  fo_le : fr_changed fr <= cur s;
  fo_ge1 : 1 <= fr_changed fr;
  fo_stamp : cst s log (fr_changed fr);
  (* every read has durability LOW (the frame starts at the maximum and takes the minimum) *)
  fo_low : log <> [] -> fr_dur fr = 0;
  fo_untr : fr_untracked fr = true <-> exists x a, In (x, a) log /\ untr x;
  (* the edges are the logged reads, in order; no output edge (no specify) *)
  fo_edges : forall e, In e (fr_edges fr) -> (forall o, e <> EOut o) /\ exists a, In (edge_rd e, a) log;
  fo_eorder : fr_edges fr = edges_of (map fst log);
  (* the identity map: active entries are the structs created so far; inactive ones were seeded from
     the old memo, which seeds every struct it lists *)
  fo_active : forall id h, In (mk_entry id h true) (fr_ids fr) <->
              exists idv f0 f1, In (RNew id idv f0 f1, (0, [h])) log;
  fo_idents : NoDup (map te_ident (fr_ids fr));
  fo_cnt_act : forall e, In e (fr_ids fr) -> te_active e = true ->
               snd (te_ident e) < cnt_get dis (fst (te_ident e));
  fo_cnt_inact : forall e, In e (fr_ids fr) -> te_active e = false ->
               cnt_get dis (fst (te_ident e)) <= snd (te_ident e);
  fo_seeded : forall e, In e (fr_ids fr) -> te_active e = false -> exists o, old = Some o /\ seeded Hs s q o e;
  fo_seedall : forall o id h, old = Some o -> In (id, h) (m_structs o) ->
               exists e, In e (fr_ids fr) /\ te_ident e = id;
  fo_start : log = [] -> b = prog q /\ dis = [];
  fo_old : d_memo s (loc_of q) = old;
  (* either the execution has so far seen what the world of the old memo's verified_at answers, or
     it has read something that changed since *)
  fo_div : forall o, old = Some o ->
           agrees (envw (W Hs s (m_verified o)) q) log \/ m_verified o < fr_changed fr
}.

Lemma cst_sext s s' F pre c : OInv skind s F -> sext s s' -> cst s pre c -> cst s' pre c.
Proof.
  intros OI X [A | (x & a & Hin & Hs0)]; [left; exact A | right].
  exists x, a. split; [exact Hin | exact (sle_sext skind s s' F c x OI X Hs0)].
Qed.

Lemma cst_app s pre post c : cst s pre c -> cst s (pre ++ post) c.
Proof.
  intros [A | (x & a & Hin & Hs0)]; [left; exact A | right]. exists x, a. split; [apply in_or_app; left; exact Hin | exact Hs0].
Qed.

(* ---------------------------------------------------------------- the log *)
Lemma Logged_nil s fr : Logged s fr [].
Proof. intros pre xa post E. destruct pre; discriminate. Qed.

Lemma Logged_snoc s fr log xa : Logged s fr log -> lok s fr log xa -> Logged s fr (log ++ [xa]).
Proof.
  intros HL Hx pre ya post E.
  destruct post as [|z post].
  - apply app_inj_tail in E. destruct E as [<- <-]. exact Hx.
  - assert (E' : log = pre ++ ya :: removelast (z :: post)).
    { assert (Hne : z :: post <> []) by discriminate.
      rewrite (app_removelast_last z Hne) in E.
      change (pre ++ ya :: (removelast (z :: post) ++ [last (z :: post) z]))
        with (pre ++ (ya :: removelast (z :: post)) ++ [last (z :: post) z]) in E.
      rewrite app_assoc in E. apply app_inj_tail in E. destruct E as [E _]. exact E. }
    exact (HL pre ya _ E').
Qed.

Lemma cst_weaken s pre pre' c : (forall xa, In xa pre -> In xa pre') -> cst s pre c -> cst s pre' c.
Proof. intros Hsub [A | (x & a & Hin & Hs0)]; [left; exact A | right]. exists x, a. split; [apply Hsub; exact Hin | exact Hs0]. Qed.

(* the frame moved on: more edges, a later stamp, the identity map keeps its active entries *)
Record fr_ext (s : db) (fr fr' : frame) : Prop := {
  fe_edges : forall e, In e (fr_edges fr) -> In e (fr_edges fr');
  fe_changed : fr_changed fr <= fr_changed fr' /\ fr_changed fr' <= cur s;
  fe_untr : fr_untracked fr = true -> fr_untracked fr' = true;
  fe_ids : forall id h, In (mk_entry id h true) (fr_ids fr) -> In (mk_entry id h true) (fr_ids fr')
}.

Lemma lok_ext s fr fr' pre xa : fr_ext s fr fr' -> lok s fr pre xa -> lok s fr' pre xa.
Proof.
  intros [A [B1 B2] C D]. unfold lok. destruct (fst xa) as [i | d | c | | id idv f0 f1 | h f | h].
  - intros (E & Hin & Hle). split; [exact E|]. split; [exact (A _ Hin) | lia].
  - intros (Hg & md & Hmd & Hv & Hval & Hle & Hin). split; [exact Hg|]. exists md. repeat split; auto; lia.
  - intros (E & Hu & Hc). split; [exact E|]. split; [exact (C Hu) | lia].
  - intros (E & Hu & Hc). split; [exact E|]. split; [exact (C Hu) | lia].
  - intros (h & sl & E & Hin & R). exists h, sl. split; [exact E|]. split; [exact (D _ _ Hin) | exact R].
  - intros (sl & E & Hl & Hu & Hin & Hle). exists sl. split; [exact E|]. split; [exact Hl|]. split; [exact Hu|].
    split; [exact (A _ Hin) | lia].
  - auto.
Qed.

Lemma Logged_ext s fr fr' log : fr_ext s fr fr' -> Logged s fr log -> Logged s fr' log.
Proof. intros X HL pre xa post E. exact (lok_ext s fr fr' pre xa X (HL pre xa post E)). Qed.

Lemma lok_sext s s' F fr pre xa : OInv skind s F -> sext s s' -> lok s fr pre xa -> lok s' fr pre xa.
Proof.
  intros OI X. pose proof (sext_cur _ _ X) as Hc. unfold lok.
  destruct (fst xa) as [i | d | c | | id idv f0 f1 | h f | h]; rewrite ?Hc, ?(x_in X), ?(x_cell X); auto.
  - intros (Hg & md & Hmd & Hv & R). split; [exact Hg|]. exists md. split; [exact (x_valid X _ md Hmd Hv)|]. split; [exact Hv | exact R].
  - intros (h & sl & E & Hin & (Hs0 & Hu0 & Hg0) & Hf & Hu & Hd & A0 & A1 & Hcs).
    exists h, sl. split; [exact E|]. split; [exact Hin|].
    split; [split; [exact (x_locked X _ sl Hs0 Hu) | auto]|].
    repeat (split; [assumption|]). exact (cst_sext s s' F pre _ OI X Hcs).
  - intros (sl & E & (Hs0 & Hu0 & Hg0) & Hu & R). exists sl. split; [exact E|].
    split; [split; [exact (x_locked X _ sl Hs0 Hu) | auto]|]. split; [exact Hu | exact R].
  - intros (sl & E & (Hs0 & Hu0 & Hg0) & Hu). exists sl. split; [exact E|].
    split; [split; [exact (x_locked X _ sl Hs0 Hu) | auto] | exact Hu].
Qed.

Lemma Logged_sext s s' F fr log : OInv skind s F -> sext s s' -> Logged s fr log -> Logged s' fr log.
Proof. intros OI X HL pre xa post E. exact (lok_sext s s' F fr pre xa OI X (HL pre xa post E)). Qed.

End Frame.

Arguments fe_edges {_ _ _}.
Arguments fe_changed {_ _ _}.
Arguments fe_untr {_ _ _}.
Arguments fe_ids {_ _ _}.
Arguments fo_logged {_ _ _ _ _ _ _ _ _ _ _}.
Arguments fo_dis {_ _ _ _ _ _ _ _ _ _ _}.
Arguments fo_tr {_ _ _ _ _ _ _ _ _ _ _}.
Arguments fo_le {_ _ _ _ _ _ _ _ _ _ _}.
Arguments fo_ge1 {_ _ _ _ _ _ _ _ _ _ _}.
Arguments fo_stamp {_ _ _ _ _ _ _ _ _ _ _}.
Arguments fo_low {_ _ _ _ _ _ _ _ _ _ _}.
Arguments fo_untr {_ _ _ _ _ _ _ _ _ _ _}.
Arguments fo_edges {_ _ _ _ _ _ _ _ _ _ _}.
Arguments fo_eorder {_ _ _ _ _ _ _ _ _ _ _}.
Arguments fo_active {_ _ _ _ _ _ _ _ _ _ _}.
Arguments fo_idents {_ _ _ _ _ _ _ _ _ _ _}.
Arguments fo_cnt_act {_ _ _ _ _ _ _ _ _ _ _}.
Arguments fo_cnt_inact {_ _ _ _ _ _ _ _ _ _ _}.
Arguments fo_seeded {_ _ _ _ _ _ _ _ _ _ _}.
Arguments fo_seedall {_ _ _ _ _ _ _ _ _ _ _}.
Arguments fo_start {_ _ _ _ _ _ _ _ _ _ _}.
Arguments fo_old {_ _ _ _ _ _ _ _ _ _ _}.
Arguments fo_div {_ _ _ _ _ _ _ _ _ _ _}.
