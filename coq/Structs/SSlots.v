(* Structs/SSlots.v — the frame rules of the from-scratch invariant.  Slot changes: when the
   memo tables stay, a set P of handles may change arbitrarily provided no memo of a query that is
   not running lists one of them, and what the observers of past revisions are owed about the
   handles of P is shown separately; every other handle keeps its slot data.  Then the rule for
   storing a memo verified now, and the read lock as an instance of the slot rule. *)
From Salsa Require Import Base.
From Salsa.Kern Require Import CoreK CoreKFacts.
From Salsa.Structs Require Import Model ProofsBase ProofsCascade Machine ProofsInv ProofsStep Theorems Guard SimBase SimOps SSem SInv.

Definition seqv (a b : slot) : Prop :=
  sl_gen b = sl_gen a /\ sl_dur b = sl_dur a /\ slot_fields b = slot_fields a /\
  sl_rev0 b = sl_rev0 a /\ sl_rev1 b = sl_rev1 a.

Lemma seqv_revf a b f : seqv a b -> revf b f = revf a f.
Proof. intros (_ & _ & _ & A & B). unfold revf. destruct (f =? 0); assumption. Qed.
Lemma seqv_fldv a b f : seqv a b -> fldv b f = fldv a f.
Proof. intros (_ & _ & A & _). rewrite <- !fld3_slot. now rewrite A. Qed.
Lemma seqv_idv a b : seqv a b -> sl_idv b = sl_idv a.
Proof. intros (_ & _ & A & _). rewrite <- !idv3_slot. now rewrite A. Qed.

Section Slots.
Variable prog : qk -> body.
Variable skind : N -> bool.
Variable idhash : val -> N.
Variable rank : qk -> nat.
Hypothesis Hrank : calls_below prog rank.
Variable NF : nat.
Hypothesis Hbound : forall q, (rank q < NF)%nat.
Hypothesis Hprov : no_forge idhash prog.
Hypothesis Hgk : forall q d, calls (prog q) d -> gk d.

Notation clos := (clos idhash prog NF).
Notation SInv := (SInv prog skind idhash NF).
Notation smemo_ok := (smemo_ok prog idhash NF).
Notation dval := (dval prog idhash NF).
Notation Er := (Er prog idhash NF).
Notation trr := (trr prog idhash NF).

Lemma gk_kq l : gk (kq l).
Proof. reflexivity. Qed.

Lemma inputs_frame Hs s F s' : SInv Hs s F -> sext s s' ->
  1 <= cur s' /\
  (forall i r, f_changed (d_in s' i) <= r -> r <= cur s' -> w_in (W Hs s' r) i = f_val (d_in s' i)) /\
  (forall i, f_changed (d_in s' i) <= cur s') /\ (forall i, f_dur (d_in s' i) = 0).
Proof.
  intros I X. pose proof (sext_cur _ _ X) as Hcur. rewrite (x_in X), Hcur.
  split; [exact (si_cur I)|]. split; [|split; [exact (si_in_le I) | exact (si_low I)]].
  intros i r Hr Hle. destruct (N.eq_dec r (cur s)) as [-> | Hne].
  - unfold W, Wd. rewrite Hcur, N.ltb_irrefl. cbn. rewrite (x_in X). reflexivity.
  - rewrite (W_same_cur Hs s s' r Hcur) by lia. exact (si_in I i r Hr Hle).
Qed.

Lemma smemo_ok_frame Hs s F s' F' g mg :
  SInv Hs s F -> sext s s' -> d_memo s g = Some mg -> d_memo s' g = Some mg ->
  (~ active_loc F' g -> ~ active_loc F g) ->
  (forall id h, ~ active_loc F g -> In (id, h) (m_structs mg) ->
     slot_keeps (d_slots s (fst h)) (d_slots s' (fst h))) ->
  (forall d, clos (W Hs s (m_verified mg)) (kq g) d -> gk d -> observed s (m_verified mg) d ->
     dval Hs s F (m_verified mg) d -> dval Hs s' F' (m_verified mg) d) ->
  smemo_ok Hs s' F' (kq g) mg.
Proof.
  intros I X Hmg Hmg' Hnact Hkeep Hdv.
  pose proof (sext_cur _ _ X) as Hcur.
  pose proof (si_memo I g mg Hmg) as Hok.
  pose proof (mo_order Hok) as (Ho1 & Ho2 & Ho3).
  pose proof (observed_of_memo prog skind idhash NF Hs s F g mg I Hmg) as Hcase.
  set (v := m_verified mg) in *.
  destruct (obs_stable prog skind idhash rank Hrank NF Hbound Hprov Hgk Hs s F s' v (kq g) I X (gk_kq g) Hcase)
    as (Etr & EE & Eclos).
  assert (Halloc : forall id, w_alloc (W Hs s' v) (kq g) id = w_alloc (W Hs s v) (kq g) id).
  { intros id. apply W_alloc_stable; [exact Hcur | exact Ho3|]. intros _. rewrite loc_kq, Hmg, Hmg'. reflexivity. }
  destruct Hok as [Korder Kval Klow Korigin Kstructs Kin Kq Kfld Kout Keorder Kuntr Kown Kobs Know].
  fold v in Kval, Kstructs, Kin, Kq, Kfld, Keorder, Kuntr, Kown, Kobs, Know.
  constructor; fold v.
  - (* mo_order *) rewrite Hcur. auto.
  - (* mo_val *) rewrite Kval. f_equal. symmetry. exact EE.
  - (* mo_low *) exact Klow.
  - (* mo_origin *) exact Korigin.
  - (* mo_structs *) destruct Kstructs as [Kstructs1 Kstructs2]. split; [exact Kstructs1|]. intros id h. rewrite Etr, Halloc. apply Kstructs2.
  - (* mo_in *) intros i. rewrite Etr. apply Kin.
  - (* mo_q *) intros d. rewrite Etr. apply Kq.
  - (* mo_fld *) intros h f. rewrite Etr. apply Kfld.
  - (* mo_out *) exact Kout.
  - (* mo_eorder *) rewrite Etr. exact Keorder.
  - (* mo_untr *) intros x. rewrite Etr. apply Kuntr.
  - (* mo_own *) rewrite loc_kq. intros Hna id h Hin. rewrite loc_kq in Kown.
    destruct (Kown (Hnact Hna) id h Hin) as (sl & Hl & Hf & Hd & A0 & A1 & Hcs).
    destruct (wslot_keeps s s' h sl Hl (Hkeep id h (Hnact Hna) Hin)) as (Ew' & sl' & Hl' & Hf' & B0 & B1 & Bd).
    exists sl'. split; [exact Hl'|]. split.
    { rewrite Hf', Hf. destruct Hcase as [A | [A _]].
      - rewrite (W_same_cur Hs s s' v Hcur A). reflexivity.
      - rewrite A, W_cur, (W_cur_ext Hs s s' Hcur). symmetry. exact Ew'. }
    split; [congruence|]. split; [congruence|]. split; [congruence|].
    rewrite Etr, B1. exact (cstamp_sext skind s s' F _ _ _ (si_oinv I) X Hcs).
  - (* mo_obs *) intros d Hd'. apply Eclos in Hd'.
    destruct (observed_clos prog skind idhash NF Hgk Hs s F v (kq g) d I (gk_kq g) Hcase Hd') as [Hgd Hod].
    exact (Hdv d Hd' Hgd Hod (Kobs d Hd')).
  - (* mo_now *) intros Hv d Hin. rewrite Hcur in Hv, Hin.
    assert (Etc : trr Hs s' (cur s) (kq g) = trr Hs s (cur s) (kq g)) by (rewrite <- Hv; exact Etr).
    rewrite Etc in Hin. destruct (Know Hv d Hin) as (md & Hmd & Hvd).
    exists md. split; [exact (x_valid X _ md Hmd Hvd) | rewrite Hcur; exact Hvd].
Qed.

(* [P] is the set of handles whose slot the change may touch (the struct being created, or the ones
   being deleted); outside [P] nothing moves, and for [P] the caller shows what past observers are owed. *)
Section SlotRule.
Variables (Hs : hist) (s : db) (F : frames) (s' : db) (F' : frames) (P : handle -> Prop).
Hypothesis I : SInv Hs s F.
Hypothesis X : sext s s'.
Hypothesis Hmemo : d_memo s' = d_memo s.
Hypothesis OI' : OInv skind s' F'.
Hypothesis CO' : Cons skind s' F'.
Hypothesis Pdec : forall h, P h \/ ~ P h.
(* running queries keep running; no query with a memo verified now starts; the running ones are input-keyed
   and have no memo verified now *)
Hypothesis Hact : forall l, active_loc F l -> active_loc F' l.
Hypothesis Hact2 : forall d, settled s d -> ~ active_loc F' (loc_of d).
Hypothesis HF' : forall q fr', In (q, fr') F' -> gk q /\ forall m, d_memo s (loc_of q) = Some m -> m_verified m < cur s.
(* every handle outside P that is live afterwards was live before, with the same data *)
Hypothesis Hback : forall h sl', ~ P h -> live_h s' h sl' -> exists sl, live_h s h sl /\ seqv sl sl'.
(* the structs of memos whose query is not running are outside P and kept *)
Hypothesis Hkeep : forall l m id h, d_memo s l = Some m -> ~ active_loc F l -> In (id, h) (m_structs m) ->
  ~ P h /\ slot_keeps (d_slots s (fst h)) (d_slots s' (fst h)).
Hypothesis Hown : forall d id h sl', gk d -> ~ P h -> live_h s' h sl' -> owned s F d id h -> owned s' F' d id h.
(* what the observers of past revisions are owed about the handles of P *)
Hypothesis Ofld : forall l m d h f sl', d_memo s l = Some m -> m_verified m < cur s ->
  clos (W Hs s (m_verified m)) (kq l) d -> In (RFld h f) (trr Hs s (m_verified m) d) ->
  P h -> live_h s' h sl' -> revf sl' f <= m_verified m ->
  fld3 (w_slot (W Hs s (m_verified m)) h) f = fldv sl' f.
Hypothesis Oidf : forall l m d h sl', d_memo s l = Some m -> m_verified m < cur s ->
  clos (W Hs s (m_verified m)) (kq l) d -> In (RIdf h) (trr Hs s (m_verified m) d) ->
  P h -> live_h s' h sl' -> idv3 (w_slot (W Hs s (m_verified m)) h) = sl_idv sl'.
Hypothesis Oown : forall l m d id idv f0 f1 sl', d_memo s l = Some m -> m_verified m < cur s ->
  clos (W Hs s (m_verified m)) (kq l) d -> In (RNew id idv f0 f1) (trr Hs s (m_verified m) d) ->
  P (w_alloc (W Hs s (m_verified m)) d id) -> live_h s' (w_alloc (W Hs s (m_verified m)) d id) sl' ->
  owned s' F' d id (w_alloc (W Hs s (m_verified m)) d id).
(* the slot clauses of SInv (si_slots, si_gens, si_lock) for the new store *)
Hypothesis Hslots : forall i sl, d_slots s' i = Some sl -> sl_updated sl <> None ->
  sl_dur sl = 0 /\ (forall r, sl_updated sl = Some r -> r <= cur s').
Hypothesis Hgens : forall i sl, d_slots s' i = Some sl ->
  match sl_updated sl with Some r => sl_gen sl < r | None => sl_gen sl + 1 < cur s' end.
Hypothesis Hlock : forall h sl, live_h s' h sl -> sl_updated sl = Some (cur s') ->
  (exists l m id, d_memo s' l = Some m /\ m_verified m = cur s' /\ In (id, h) (m_structs m)) \/
  (exists q fr id, In (q, fr) F' /\ In (mk_entry id h true) (fr_ids fr)).

Lemma slots_dval l m d : d_memo s l = Some m ->
  clos (W Hs s (m_verified m)) (kq l) d -> gk d -> observed s (m_verified m) d ->
  dval Hs s F (m_verified m) d -> dval Hs s' F' (m_verified m) d.
Proof.
  pose proof (sext_cur _ _ X) as Hcur.
  intros Hm Hd' Hgd Hod [a1 a2 a3 a4 a5].
  pose proof (mo_order (si_memo I l m Hm)) as (_ & _ & Ho3).
  set (v := m_verified m) in *.
  destruct (obs_stable prog skind idhash rank Hrank NF Hbound Hprov Hgk Hs s F s' v d I X Hgd Hod) as (Etd & EEd & _).
  assert (Halloc : forall id, w_alloc (W Hs s' v) d id = w_alloc (W Hs s v) d id).
  { intros id. apply W_alloc_stable; [exact Hcur | exact Ho3 | rewrite Hmemo; reflexivity]. }
  (* at the current revision d is settled: its memo lists its structs, which are kept *)
  assert (Hnow : v = cur s -> forall id idv f0 f1, In (RNew id idv f0 f1) (trr Hs s v d) ->
            exists md, d_memo s (loc_of d) = Some md /\ ~ active_loc F (loc_of d) /\ ~ active_loc F' (loc_of d) /\
                       In (id, w_alloc (W Hs s v) d id) (m_structs md)).
  { intros A id idv f0 f1 Hin. destruct Hod as [B | [_ Hsd]]; [lia|].
    destruct (created_listed prog skind idhash NF Hs s F d (w_alloc (wcur s) d id) I Hgd Hsd) as (md & id' & Hmd & Hvd & Hlist).
    { exists id, idv, f0, f1. split; [rewrite <- (trr_cur Hs), <- A; exact Hin | reflexivity]. }
    exists md. split; [exact Hmd|]. split; [exact (settled_not_active I Hsd)|]. split; [exact (Hact2 d Hsd)|].
    apply (proj2 (mo_structs (memo_ok_of I Hgd Hmd))). rewrite Hvd, <- A.
    split; [apply in_news_ids; eauto | reflexivity]. }
  constructor.
  - destruct a1 as (md & Hmd & Hle & Hobs1). exists md. split; [rewrite Hmemo; exact Hmd|]. split; [exact Hle|].
    intros Hc. rewrite EEd, (verified_stable prog skind idhash rank Hrank NF Hbound Hprov Hgk Hs s F s' d md I X Hgd Hmd).
    exact (Hobs1 Hc).
  - intros h f sl' Hin Hl' Hrev. rewrite Etd in Hin.
    destruct Hod as [A | [A B]].
    + rewrite (W_same_cur Hs s s' v Hcur A).
      destruct (Pdec h) as [Hp | Hnp]; [exact (Ofld l m d h f sl' Hm A Hd' Hin Hp Hl' Hrev)|].
      destruct (Hback h sl' Hnp Hl') as (sl & Hl & Hq).
      rewrite (seqv_fldv _ _ f Hq). apply (a2 h f sl Hin Hl). rewrite <- (seqv_revf _ _ f Hq). exact Hrev.
    + rewrite A. rewrite <- Hcur. rewrite W_cur. cbn [wcur w_slot].
      destruct Hl' as (Hs' & _ & _). rewrite Hs'. apply fld3_slot.
  - intros h sl' Hin Hl'. rewrite Etd in Hin.
    destruct Hod as [A | [A B]].
    + rewrite (W_same_cur Hs s s' v Hcur A).
      destruct (Pdec h) as [Hp | Hnp]; [exact (Oidf l m d h sl' Hm A Hd' Hin Hp Hl')|].
      destruct (Hback h sl' Hnp Hl') as (sl & Hl & Hq).
      rewrite (seqv_idv _ _ Hq). exact (a3 h sl Hin Hl).
    + rewrite A. rewrite <- Hcur. rewrite W_cur. cbn [wcur w_slot].
      destruct Hl' as (Hs' & _ & _). rewrite Hs'. reflexivity.
  - intros id idv f0 f1 Hin. rewrite Etd in Hin. rewrite Halloc.
    destruct (a4 id idv f0 f1 Hin) as [A1 A2]. split; [|exact (x_issued X _ A2)].
    destruct (N.eq_dec v (cur s)) as [A | A].
    + destruct (Hnow A id idv f0 f1 Hin) as (md & Hmd & Hnad & _ & Hlist).
      destruct (mo_own (memo_ok_of I Hgd Hmd) Hnad id _ Hlist) as (sl & Hl & _).
      destruct (Hkeep _ md id _ Hmd Hnad Hlist) as [_ Hk].
      rewrite A in *. rewrite W_cur in *. rewrite <- Hcur. rewrite W_cur.
      rewrite (proj1 (wslot_keeps s s' _ sl Hl Hk)). exact A1.
    + rewrite (W_same_cur Hs s s' v Hcur) by lia. exact A1.
  - intros id idv f0 f1 sl' Hin Hl'. rewrite Etd in Hin. rewrite Halloc in *.
    destruct (N.eq_dec v (cur s)) as [A | A].
    + destruct (Hnow A id idv f0 f1 Hin) as (md & Hmd & _ & Hnad' & Hlist).
      left. split; [exact Hnad'|]. exists md. split; [rewrite Hmemo; exact Hmd | exact Hlist].
    + assert (A' : v < cur s) by lia.
      destruct (Pdec (w_alloc (W Hs s v) d id)) as [Hp | Hnp]; [exact (Oown l m d id idv f0 f1 sl' Hm A' Hd' Hin Hp Hl')|].
      destruct (Hback _ sl' Hnp Hl') as (sl & Hl & Hq).
      exact (Hown d id _ sl' Hgd Hnp Hl' (a5 id idv f0 f1 sl Hin Hl)).
Qed.

Theorem SInv_slots : SInv Hs s' F'.
Proof.
  pose proof (sext_cur _ _ X) as Hcur.
  destruct (inputs_frame Hs s F s' I X) as (C1 & C2 & C3 & C4).
  constructor; [exact C1 | exact C2 | exact C3 | exact C4 | exact OI' | exact CO' | exact Hslots | exact Hgens | | exact Hlock |].
  - intros l m Hm'. pose proof Hm' as Hm. rewrite Hmemo in Hm.
    apply (smemo_ok_frame Hs s F s' F' l m I X Hm Hm').
    + intros A B. exact (A (Hact l B)).
    + intros id h Hna Hin. exact (proj2 (Hkeep l m id h Hm Hna Hin)).
    + intros d. exact (slots_dval l m d Hm).
  - intros q fr' Hin. destruct (HF' q fr' Hin) as [Hg Hlt]. split; [exact Hg|].
    intros m Hm. rewrite Hmemo in Hm. rewrite Hcur. exact (Hlt m Hm).
Qed.

End SlotRule.

Lemma qk_eq_dec (a b : qk) : {a = b} + {a <> b}.
Proof. repeat decide equality. Qed.

Lemma gk_loc_eq (d : qk) l : gk d -> loc_of d = l -> d = kq l.
Proof. intros Hg <-. symmetry. apply kq_loc. exact Hg. Qed.

Lemma store_sext s s' l m' :
  d_revs s' = d_revs s -> d_in s' = d_in s -> d_cell s' = d_cell s -> d_slots s' = d_slots s ->
  d_ideal s' = d_ideal s ->
  (forall l0, d_memo s' l0 = upd (d_memo s) l (Some m') l0) ->
  m_verified m' = cur s ->
  (forall m0, d_memo s l = Some m0 -> m_verified m0 < cur s /\ m_changed m0 <= m_changed m') ->
  sext s s'.
Proof.
  intros Hrevs Hin Hcell Hslots Hideal Hmemo Hv Hold.
  assert (Hm_l : d_memo s' l = Some m') by (rewrite Hmemo; apply upd_same).
  assert (Hm_o : forall l0, l0 <> l -> d_memo s' l0 = d_memo s l0).
  { intros l0 Hne. rewrite Hmemo. apply upd_other. congruence. }
  constructor; auto.
  - intros l0 m Hm Hvm. destruct (key_eqb_spec l0 l) as [-> | Hne].
    + destruct (Hold m Hm) as [A _]. lia.
    + rewrite (Hm_o l0 Hne). exact Hm.
  - intros l0 m Hm. destruct (key_eqb_spec l0 l) as [-> | Hne].
    + exists m'. split; [exact Hm_l|]. destruct (Hold m Hm) as [A B]. lia.
    + exists m. split; [rewrite (Hm_o l0 Hne); exact Hm|]. lia.
  - intros i sl Hsl0 _. rewrite Hslots. exact Hsl0.
  - intros l0 m id h _ _ _. rewrite Hslots. apply slot_keeps_refl.
  - intros i sl Hsl0. exists sl. rewrite Hslots. split; [exact Hsl0|]. split; [lia|]. intros _ Hu. repeat split; auto; lia.
  - unfold issued. rewrite Hideal. intros x Hx. exact Hx.
Qed.

(* Storing a memo verified now (after an execution, or after a successful verification): the new
   memo must be ok, every observer of the query must be served by it, and the structs the query
   held must be the ones the new memo lists. *)
Section StoreRule.
Variables (Hs : hist) (s : db) (F : frames) (s' : db) (F' : frames) (l : loc) (m' : memo).
Hypothesis I : SInv Hs s F.
Hypothesis Hrevs : d_revs s' = d_revs s.
Hypothesis Hin : d_in s' = d_in s.
Hypothesis Hcell : d_cell s' = d_cell s.
Hypothesis Hslots : d_slots s' = d_slots s.
Hypothesis Hideal : d_ideal s' = d_ideal s.
Hypothesis Hmemo : forall l0, d_memo s' l0 = upd (d_memo s) l (Some m') l0.
Hypothesis Hv : m_verified m' = cur s.
Hypothesis Hold : forall m0, d_memo s l = Some m0 -> m_verified m0 < cur s /\ m_changed m0 <= m_changed m'.
Hypothesis OI' : OInv skind s' F'.
Hypothesis CO' : Cons skind s' F'.
Hypothesis Hnl : ~ active_loc F' l.
Hypothesis Hact : forall l0, l0 <> l -> (active_loc F' l0 <-> active_loc F l0).
Hypothesis HF' : forall q fr', In (q, fr') F' -> In (q, fr') F.
Hypothesis Hok' : (forall g mg, g <> l -> d_memo s' g = Some mg -> smemo_ok Hs s' F' (kq g) mg) -> sext s s' ->
  smemo_ok Hs s' F' (kq l) m'.
(* observers of the query *)
Hypothesis Hobsq : forall g mg, d_memo s g = Some mg -> g <> l -> clos (W Hs s (m_verified mg)) (kq g) (kq l) ->
  m_changed m' <= m_verified mg -> Er Hs s (m_verified mg) (kq l) = Er Hs s' (cur s) (kq l).
(* the structs the query held *)
Hypothesis Hheld : forall id h sl, live_h s h sl -> owned s F (kq l) id h -> In (id, h) (m_structs m').
Hypothesis Hentries : forall q fr id h, In (q, fr) F -> In (mk_entry id h true) (fr_ids fr) ->
  In (q, fr) F' \/ In (id, h) (m_structs m').

Lemma store_x : sext s s'.
Proof. exact (store_sext s s' l m' Hrevs Hin Hcell Hslots Hideal Hmemo Hv Hold). Qed.

Lemma store_memo_l : d_memo s' l = Some m'.
Proof. rewrite Hmemo. apply upd_same. Qed.

Lemma store_memo_o l0 : l0 <> l -> d_memo s' l0 = d_memo s l0.
Proof. intros Hne. rewrite Hmemo. apply upd_other. congruence. Qed.

Lemma store_live h sl : live_h s' h sl <-> live_h s h sl.
Proof. unfold live_h. rewrite Hslots. reflexivity. Qed.

Lemma store_dval g mg d : d_memo s g = Some mg -> g <> l ->
  clos (W Hs s (m_verified mg)) (kq g) d -> gk d -> observed s (m_verified mg) d ->
  dval Hs s F (m_verified mg) d -> dval Hs s' F' (m_verified mg) d.
Proof.
  pose proof store_x as X. pose proof (sext_cur _ _ X) as Hcur.
  pose proof store_memo_l as Hm_l. pose proof store_memo_o as Hm_o. pose proof store_live as Hlive.
  assert (Hissued : issued s' = issued s) by (unfold issued; rewrite Hideal; reflexivity).
  assert (Hnot_settled : ~ settled s (kq l)).
  { intros (m0 & Hm0 & Hv0). rewrite loc_kq in Hm0. destruct (Hold m0 Hm0) as [A _]. lia. }
  intros Hmg Hne Hd' Hgd Hod [a1 a2 a3 a4 a5].
  pose proof (mo_order (si_memo I g mg Hmg)) as (_ & _ & Ho3).
  set (v := m_verified mg) in *.
  destruct (obs_stable prog skind idhash rank Hrank NF Hbound Hprov Hgk Hs s F s' v d I X Hgd Hod) as (Etd & EEd & _).
  (* d is the query being stored only if the observer is older *)
  assert (Hdl : loc_of d = l -> v < cur s).
  { intros E. destruct Hod as [A | [_ B]]; [exact A|]. exfalso. apply Hnot_settled.
    rewrite <- (gk_loc_eq d l Hgd E). exact B. }
  assert (Hslot_v : forall h, w_slot (W Hs s' v) h = w_slot (W Hs s v) h).
  { intros h. destruct (N.eq_dec v (cur s)) as [A | A].
    - rewrite A, W_cur, (W_cur_ext Hs s s' Hcur). cbn [wcur w_slot]. rewrite Hslots. reflexivity.
    - rewrite (W_same_cur Hs s s' v Hcur) by lia. reflexivity. }
  assert (Halloc_d : forall id, w_alloc (W Hs s' v) d id = w_alloc (W Hs s v) d id).
  { intros id. apply W_alloc_stable; [exact Hcur | exact Ho3|]. intros A. apply Hm_o. intros E. specialize (Hdl E). lia. }
  constructor.
  - destruct a1 as (md & Hmd & Hle & Hobs1).
    destruct (key_eqb_spec (loc_of d) l) as [E | E].
    + exists m'. rewrite E. split; [exact Hm_l|]. split; [rewrite Hv; exact Ho3|].
      intros Hc. rewrite EEd, Hv.
      pose proof (gk_loc_eq d l Hgd E) as Ed. rewrite Ed in *.
      exact (Hobsq g mg Hmg Hne Hd' Hc).
    + exists md. split; [rewrite (Hm_o _ E); exact Hmd|]. split; [exact Hle|].
      intros Hc. rewrite EEd, (verified_stable prog skind idhash rank Hrank NF Hbound Hprov Hgk Hs s F s' d md I X Hgd Hmd).
      exact (Hobs1 Hc).
  - intros h f sl' Hinr Hl' Hrev. rewrite Etd in Hinr. rewrite Hslot_v.
    apply Hlive in Hl'. exact (a2 h f sl' Hinr Hl' Hrev).
  - intros h sl' Hinr Hl'. rewrite Etd in Hinr. rewrite Hslot_v. apply Hlive in Hl'. exact (a3 h sl' Hinr Hl').
  - intros id idv f0 f1 Hinr. rewrite Etd in Hinr. rewrite Halloc_d, Hslot_v, Hissued. exact (a4 id idv f0 f1 Hinr).
  - intros id idv f0 f1 sl' Hinr Hl'. rewrite Etd in Hinr. rewrite Halloc_d in *. apply Hlive in Hl'.
    pose proof (a5 id idv f0 f1 sl' Hinr Hl') as Hown.
    destruct (key_eqb_spec (loc_of d) l) as [E | E].
    + pose proof (gk_loc_eq d l Hgd E) as Ed. rewrite Ed in *.
      left. rewrite loc_kq. split; [exact Hnl|]. exists m'. split; [exact Hm_l|].
      exact (Hheld id _ sl' Hl' Hown).
    + destruct Hown as [(Hna & md & Hmd & Hinm) | (fr & e & Hinf & Hine & E1 & E2)].
      * left. split; [intros A; apply Hna; apply (Hact _ E); exact A|].
         exists md. split; [rewrite (Hm_o _ E); exact Hmd | exact Hinm].
      * (* the frame of d is still there: only the frame of the stored query may go *)
         destruct (in_dec qk_eq_dec d (map fst F')) as [Hin' | Hnin'].
         ++ apply in_map_iff in Hin'. destruct Hin' as ([d' fr'] & Ed' & Hin'). cbn in Ed'. subst d'.
            pose proof (HF' _ _ Hin') as Hin0.
            assert (fr' = fr).
            { exact (frames_fun F d fr' fr (oi_frames _ _ _ (si_oinv I)) Hin0 Hinf). }
            subst fr'. right. exists fr, e. auto.
         ++ exfalso. assert (Ha : active_loc F (loc_of d)) by (exists d, fr; auto).
            apply (Hact _ E) in Ha. destruct Ha as (q2 & fr2 & Hin2 & El2).
            pose proof (HF' _ _ Hin2) as Hin02.
            destruct (frames_fun_loc F q2 d fr2 fr (oi_frames _ _ _ (si_oinv I)) Hin02 Hinf El2) as [-> _].
            apply Hnin'. apply in_map_iff. exists (d, fr2). auto.
Qed.

Theorem SInv_store : SInv Hs s' F' /\ sext s s'.
Proof.
  pose proof store_x as X. pose proof (sext_cur _ _ X) as Hcur.
  pose proof store_memo_l as Hm_l. pose proof store_memo_o as Hm_o. pose proof store_live as Hlive.
  split; [|exact X].
  destruct (inputs_frame Hs s F s' I X) as (C1 & C2 & C3 & C4).
  constructor; [exact C1 | exact C2 | exact C3 | exact C4 | exact OI' | exact CO' | | | | |].
  - intros i sl. rewrite Hslots, Hcur. exact (si_slots I i sl).
  - intros i sl. rewrite Hslots, Hcur. exact (si_gens I i sl).
  - assert (Hothers : forall g mg, g <> l -> d_memo s' g = Some mg -> smemo_ok Hs s' F' (kq g) mg);
      [|intros g mg Hmg'; destruct (key_eqb_spec g l) as [-> | Hne];
        [rewrite Hm_l in Hmg'; injection Hmg' as <-; exact (Hok' Hothers X) | exact (Hothers g mg Hne Hmg')]].
    intros g mg Hne Hmg'.
    pose proof Hmg' as Hmg. rewrite (Hm_o g Hne) in Hmg.
    apply (smemo_ok_frame Hs s F s' F' g mg I X Hmg Hmg').
    + intros A B. apply A. apply (Hact g Hne). exact B.
    + intros id h _ _. rewrite Hslots. apply slot_keeps_refl.
    + intros d. exact (store_dval g mg d Hmg Hne).
  - intros h sl Hl Hu. apply Hlive in Hl. rewrite Hcur in *.
    destruct (si_lock I h sl Hl Hu) as [(l0 & m & id & Hm & Hvm & Hinm) | (q & fr & id & Hinq & Hine)].
    + left. exists l0, m, id. split; [|auto]. destruct (key_eqb_spec l0 l) as [-> | Hne].
      * destruct (Hold m Hm) as [A _]. lia.
      * rewrite (Hm_o l0 Hne). exact Hm.
    + destruct (Hentries q fr id h Hinq Hine) as [A | A].
      * right. exists q, fr, id. auto.
      * left. exists l, m', id. auto.
  - intros q fr' Hinq. pose proof (HF' q fr' Hinq) as Hin0.
    destruct (si_active I q fr' Hin0) as [Hg Hlt]. split; [exact Hg|].
    intros m Hm. assert (Hne : loc_of q <> l).
    { intros E. apply Hnl. exists q, fr'. auto. }
    rewrite (Hm_o _ Hne) in Hm. rewrite Hcur. exact (Hlt m Hm).
Qed.

End StoreRule.

Lemma clos_inv w q d : clos w q d -> d = q \/ exists d1, In (RQ d1) (trw idhash prog NF w q) /\ clos w d1 d.
Proof. intros H. destruct H as [f | f d1 d2 Hin Hd]; [left; reflexivity | right; eauto]. Qed.

(* the observers of a query verified now: itself, and what the memos of its callees, all
   verified now under other keys, observe *)
Lemma observers_now Hs s F q l :
  (forall g mg, g <> l -> d_memo s g = Some mg -> smemo_ok Hs s F (kq g) mg) ->
  dval Hs s F (cur s) q ->
  (forall d, In (RQ d) (trw idhash prog NF (wcur s) q) ->
     gk d /\ loc_of d <> l /\ exists md, d_memo s (loc_of d) = Some md /\ m_verified md = cur s) ->
  forall d, clos (W Hs s (cur s)) q d -> dval Hs s F (cur s) d.
Proof.
  intros Hothers Hself Hcallee d Hd. rewrite W_cur in Hd.
  destruct (clos_inv _ _ _ Hd) as [-> | (d1 & Hin1 & Hd1)]; [exact Hself|].
  destruct (Hcallee d1 Hin1) as (Hgd1 & Hne1 & md1 & Hmd1 & Hvd1).
  pose proof (Hothers (loc_of d1) md1 Hne1 Hmd1) as Hok1. rewrite (kq_loc d1 Hgd1) in Hok1.
  rewrite <- Hvd1. apply (mo_obs Hok1 d). rewrite Hvd1, W_cur. exact Hd1.
Qed.

(* the slot-level effect of a lock *)
Lemma lock_slots i s s' sl' :
  acquire_read_lock i s = (s', SOk sl') ->
  exists sl, d_slots s i = Some sl /\ sl_updated sl <> None /\ sl_updated sl' = Some (cur s) /\
             seqv sl sl' /\ sbs s s' /\
             (forall j, d_slots s' j = updN (d_slots s) i (Some sl') j) /\
             (sl_updated sl = Some (cur s) -> sl' = sl).
Proof.
  intros H. destruct (lock_spec _ _ _ _ H) as [sl Lk].
  pose proof (lk_at Lk) as Hsl. pose proof (lk_live Lk) as Hu. pose proof (lk_now Lk) as Hu'.
  pose proof (lk_gen Lk) as Hg. pose proof (lk_memos Lk) as Hm. pose proof (lk_fields Lk) as Hf.
  pose proof (lk_dur Lk) as Hd. pose proof (lk_rev0 Lk) as Hr0. pose proof (lk_rev1 Lk) as Hr1.
  pose proof (lk_sbs Lk) as B. pose proof (lk_slots Lk) as Es.
  exists sl. split; [exact Hsl|]. split; [exact Hu|]. split; [exact Hu'|].
  split; [repeat split; assumption|]. split; [exact B|]. split; [exact Es|].
  intros Hl. unfold acquire_read_lock in H.
  apply bind_ok in H. destruct H as (sl0 & t0 & H0 & H). apply get_slot_ok in H0. destruct H0 as [-> Hs0].
  rewrite Hsl in Hs0. injection Hs0 as <-.
  apply bind_ok in H. destruct H as (x & t1 & H1 & H). apply get_ok in H1. destruct H1 as [-> ->].
  rewrite Hl in H. rewrite N.eqb_refl in H. apply ret_ok in H. destruct H as [_ ->]. reflexivity.
Qed.

Lemma lock_sext i s s' sl' : acquire_read_lock i s = (s', SOk sl') -> sext s s'.
Proof.
  intros H. destruct (lock_slots _ _ _ _ H) as (sl & Hsl & Hu & Hu' & Hq & B & Es & Hsame).
  destruct Hq as (Hg & Hd & Hf & Hr0 & Hr1).
  constructor.
  - exact (sb_revs _ _ B).
  - exact (sb_in _ _ B).
  - exact (sb_cell _ _ B).
  - intros l m Hm _. rewrite (sb_memo _ _ B). exact Hm.
  - intros l m Hm. exists m. rewrite (sb_memo _ _ B). split; [exact Hm|]. split; lia.
  - intros j slj Hj Hl. rewrite Es. unfold updN. destruct (N.eqb_spec i j) as [<- | Hne]; [|exact Hj].
    rewrite Hsl in Hj. injection Hj as <-. rewrite (Hsame Hl). reflexivity.
  - intros l m id h _ _ _ slh Hh Huh. rewrite Es. unfold updN. destruct (N.eqb_spec i (fst h)) as [E | Hne].
    + rewrite <- E in Hh. rewrite Hsl in Hh. injection Hh as <-.
      exists sl'. split; [reflexivity|]. split; [rewrite Hu'; discriminate|]. repeat split; assumption.
    + exists slh. repeat split; auto.
  - intros j slj Hj. rewrite Es. unfold updN. destruct (N.eqb_spec i j) as [<- | Hne].
    + rewrite Hsl in Hj. injection Hj as <-. exists sl'. split; [reflexivity|]. split; [lia|].
      intros _ _. split; [exact Hu|]. split; [lia|]. split; [lia|].
      rewrite <- !idv3_slot. now rewrite Hf.
    + exists slj. split; [exact Hj|]. split; [lia|]. intros _ Huj. repeat split; auto; lia.
  - unfold issued. rewrite (sb_ideal _ _ B). intros x Hx. exact Hx.
Qed.

(* the struct in the slot is held by a memo verified now or by a running execution *)
Definition hok (s : db) (F : frames) (h : handle) : Prop :=
  (exists l m id, d_memo s l = Some m /\ m_verified m = cur s /\ In (id, h) (m_structs m)) \/
  (exists q fr id, In (q, fr) F /\ In (mk_entry id h true) (fr_ids fr)).

Theorem lock_sinv Hs s F i s' sl' :
  SInv Hs s F -> acquire_read_lock i s = (s', SOk sl') ->
  (forall sl, d_slots s i = Some sl -> hok s F (i, sl_gen sl)) ->
  SInv Hs s' F /\ sext s s'.
Proof.
  intros I H Hhok. pose proof (lock_sext _ _ _ _ H) as X. split; [|exact X].
  destruct (lock_slots _ _ _ _ H) as (sl & Hsl & Hu & Hu' & Hq & B & Es & Hsame).
  pose proof (lock_oinv skind _ _ _ _ _ (si_oinv I) H) as OI'.
  destruct (lock_rel skind (d_stack s) _ _ _ _ H) as (R & Est & _).
  pose proof (Cons_rel skind _ s s' F (si_cons I) R Est) as CO'.
  assert (Hback : forall h sl1, live_h s' h sl1 -> exists sl0, live_h s h sl0 /\ seqv sl0 sl1).
  { intros h sl1 (Hs1 & Hu1 & Hg1). rewrite Es in Hs1. unfold updN in Hs1.
    destruct (N.eqb_spec i (fst h)) as [E | Hne].
    - injection Hs1 as <-. exists sl. split; [|exact Hq]. unfold live_h. rewrite <- E. split; [exact Hsl|]. split; [exact Hu|].
      destruct Hq as (Hg & _). congruence.
    - exists sl1. split; [split; auto|]. repeat split; reflexivity. }
  apply (SInv_slots Hs s F s' F (fun _ => False) I X (sb_memo _ _ B) OI' CO').
  - (* P is decidable *) intros h. right. intros [].
  - (* running queries keep running *) intros l A. exact A.
  - (* no settled query runs *) intros d Hd. exact (settled_not_active I Hd).
  - (* the running queries are input-keyed and not settled *) intros q fr Hin. exact (si_active I q fr Hin).
  - (* outside P, live slots were live with the same data *) intros h sl1 _ Hl. exact (Hback h sl1 Hl).
  - (* structs of stored memos are outside P and kept *) intros l m id h Hm _ Hin. split; [intros []|]. intros slh Hh Huh. rewrite Es. unfold updN.
    destruct (N.eqb_spec i (fst h)) as [E | Hne].
    + rewrite <- E in Hh. rewrite Hsl in Hh. injection Hh as <-. destruct Hq as (Hg & Hd & Hf & Hr0 & Hr1).
      exists sl'. split; [reflexivity|]. split; [rewrite Hu'; discriminate|]. repeat split; assumption.
    + exists slh. repeat split; auto.
  - (* ownership outside P is kept *) intros d id h sl1 _ _ _ Ho. destruct Ho as [(Hna & md & Hmd & Hin) | Hfr]; [left | right; exact Hfr].
    split; [exact Hna|]. exists md. rewrite (sb_memo _ _ B). auto.
  - (* past observers: fields of handles in P *) intros l m d h f sl1 _ _ _ _ [].
  - (* past observers: identity fields of handles in P *) intros l m d h sl1 _ _ _ _ [].
  - (* past observers: creators of handles in P *) intros l m d id idv f0 f1 sl1 _ _ _ _ [].
  - (* slots are LOW, not updated in the future *) intros j slj Hj Huj. rewrite Es in Hj. unfold updN in Hj. rewrite (sbs_cur _ _ B).
    destruct (N.eqb_spec i j) as [<- | Hne].
    + injection Hj as <-. destruct Hq as (_ & Hd & _).
      destruct (si_slots I i sl Hsl Hu) as [A _]. split; [congruence|].
      intros r Hr. rewrite Hu' in Hr. injection Hr as <-. lia.
    + exact (si_slots I j slj Hj Huj).
  - (* generations are below the update revision *) intros j slj Hj. rewrite Es in Hj. unfold updN in Hj. rewrite (sbs_cur _ _ B).
    destruct (N.eqb_spec i j) as [<- | Hne].
    + injection Hj as <-. destruct Hq as (Hg & _). rewrite Hu', Hg.
      pose proof (si_gens I i sl Hsl) as G. pose proof (proj2 (si_slots I i sl Hsl Hu)) as G2. destruct (sl_updated sl) as [r|] eqn:Er; [|contradiction Hu; reflexivity].
      specialize (G2 r eq_refl). lia.
    + exact (si_gens I j slj Hj).
  - (* a slot locked now has a holder *) intros h sl1 Hl1 Hu1. rewrite (sbs_cur _ _ B) in *. rewrite (sb_memo _ _ B).
    destruct Hl1 as (Hs1 & Hun1 & Hg1). rewrite Es in Hs1. unfold updN in Hs1.
    destruct (N.eqb_spec i (fst h)) as [E | Hne].
    + injection Hs1 as <-. destruct Hq as (Hg & _).
      assert (Eh : h = (i, sl_gen sl)) by (destruct h as [hi hg]; cbn in *; subst; f_equal; congruence).
      rewrite Eh. exact (Hhok sl Hsl).
    + exact (si_lock I h sl1 (conj Hs1 (conj Hun1 Hg1)) Hu1).
Qed.

End Slots.
