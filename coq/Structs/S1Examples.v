(* Structs/S1Examples.v — non-vacuity of the from-scratch theorem SAdeq.from_scratch_S1_init: a DSL program with a
   conditional creation, a dependent reading both tracked fields through the returned handle, and
   a history in which the struct is created as (0,0), deleted, and re-created in the reused slot
   as (0,1); the dependent re-executes each time. *)
From Coq Require Import Arith.
From Salsa Require Import Base.
From Salsa.Kern Require Import CoreK.
From Salsa.Structs Require Import Model Dsl Machine Sim Examples SSem SInv SRun STop SAdeq SDsl SParamK.

(* mk = (1,0): if in(0,0) then S := new(id = in(0,1), f0 = in(0,2), f1 = 0); return [S]
   rd = (4,0): S := first struct of mk(0) ; field0(S) + field1(S)   (99 when mk created nothing) *)
Definition r1_nodes : list ((N * N) * expr) :=
  [((1, 0), EIf (EInp 0 0) (ELet 2 (HNew (EInp 0 1) (EInp 0 2) (ELit 0)) (ERetH 2) (ELit 0)) (ELit 0));
   ((4, 0), ELet 2 (HNth 1 (ELit 0) 0) (EOp BAdd (EField 2 0) (EField 2 1)) (ELit 99))].
Definition r1_nk : N := 1.
Definition r1_frank (fam : N) : nat := if fam =? 4 then 1%nat else 0%nat.
Definition r1_NF : nat := 2.
Definition r1_idhash (v : val) : N := v.
Definition r1_ival : list ((N * N) * N) := [((0, 0), 1); ((0, 1), 0); ((0, 2), 3)].
Definition r1_ops : list op :=
  [OGet (4, (0, 0)); OEntries; OSet (0, 0) 0 None; OGet (4, (0, 0)); OEntries;
   OSet (0, 2) 5 None; OSet (0, 0) 1 None; OGet (4, (0, 0)); OGet (1, (0, 0)); OEntries].

Notation r1_prog := (prog_of r1_nk skind0 r1_nodes).
Notation r1_init := (init (lookup3 r1_ival) (fun _ => 0)).
Notation r1_run := (run_ops r1_prog skind0 [] r1_idhash 40%nat r1_init r1_ops).

Lemma r1_nk0 : r1_nk <> 0.
Proof. discriminate. Qed.
Lemma r1_wf : forallb (fun ne => s1wf (snd ne)) r1_nodes = true.
Proof. vm_compute. reflexivity. Qed.
Lemma r1_rk : forallb (fun ne => forallb (fun fam' => Nat.ltb (r1_frank fam') (r1_frank (fst (fst ne)))) (efams (snd ne))) r1_nodes = true.
Proof. vm_compute. reflexivity. Qed.
Lemma r1_cf : forallb (fun ne => forallb (fun fam' => existsb (N.eqb fam') [1]) (efams (snd ne))) r1_nodes = true.
Proof. vm_compute. reflexivity. Qed.
Lemma r1_fr : forallb (fun fam => forallb (fun k => first_readb (compile r1_nk None (lookup_node r1_nodes (fam, N.of_nat k))))
                                          (seq 0 (N.to_nat r1_nk))) [1] = true.
Proof. vm_compute. reflexivity. Qed.

Lemma r1_bound : forall q : qk, (r1_frank (fst q) < r1_NF)%nat.
Proof. intros q. unfold r1_frank, r1_NF. destruct (fst q =? 4); auto. Qed.

Lemma r1_ops_ok : Forall (s1_op r1_prog) r1_ops.
Proof. repeat constructor. Qed.

Lemma r1_answers : Forall2 okout r1_ops (snd r1_run).
Proof. apply all_okb_ok. vm_compute. reflexivity. Qed.

(* the outputs: 3 + 0, one struct; 99, none; 5 + 0; mk returns the re-created struct (0,1); one struct *)
Example r1_outputs :
  snd r1_run = [SOk (3, []); SOk (1, []); SOk (0, []); SOk (99, []); SOk (0, []);
                SOk (0, []); SOk (0, []); SOk (5, []); SOk (0, [(0, 1)]); SOk (1, [])].
Proof. vm_compute. reflexivity. Qed.

Lemma r1_len : 1 + 2 * N.of_nat (length r1_ops) < GMAX.
Proof. vm_compute. reflexivity. Qed.

Example r1_from_scratch :
  gets_scratch r1_prog skind0 r1_idhash r1_NF 40%nat r1_init r1_ops.
Proof.
  exact (from_scratch_S1_init r1_prog skind0 r1_idhash (fun q => r1_frank (fst q)) r1_NF
           (table_calls_below r1_nk r1_nodes r1_wf r1_frank r1_rk) r1_bound
           (table_no_forge r1_idhash r1_nk r1_nodes r1_wf)
           (table_nospec r1_nk r1_nodes r1_wf)
           (fun _ => eq_refl)
           (table_gk r1_nk r1_nodes r1_wf)
           (table_first r1_nk r1_nodes r1_nk0 r1_wf [1] r1_cf r1_fr)
           40%nat (lookup3 r1_ival) r1_ops r1_ops_ok r1_len r1_answers).
Qed.

(* all hypotheses of the theorem at once, for Props *)
Lemma r1_hyps :
  calls_below r1_prog (fun q => r1_frank (fst q)) /\ (forall q : qk, (r1_frank (fst q) < r1_NF)%nat) /\
  no_forge r1_idhash r1_prog /\ (forall q, nospec (r1_prog q)) /\ (forall f, skind0 f = false) /\
  (forall q d, calls (r1_prog q) d -> gk d) /\ (forall q d, calls (r1_prog q) d -> first_read (r1_prog d)) /\
  Forall (s1_op r1_prog) r1_ops /\ 1 + 2 * N.of_nat (length r1_ops) < GMAX /\
  Forall2 okout r1_ops (snd r1_run).
Proof.
  repeat split.
  - exact (table_calls_below r1_nk r1_nodes r1_wf r1_frank r1_rk).
  - exact r1_bound.
  - exact (table_no_forge r1_idhash r1_nk r1_nodes r1_wf).
  - exact (table_nospec r1_nk r1_nodes r1_wf).
  - exact (table_gk r1_nk r1_nodes r1_wf).
  - exact (table_first r1_nk r1_nodes r1_nk0 r1_wf [1] r1_cf r1_fr).
  - exact r1_ops_ok.
  - exact r1_answers.
Qed.
