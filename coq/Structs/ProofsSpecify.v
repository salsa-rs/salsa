(* Structs/ProofsSpecify.v — model-level lemmas about `specify` (C10): what the transcribed
   specify_and_record / fetch / deep_verify_memo / validate_specified_value do, for every
   program, identity hash and database state. *)
From Salsa Require Import Base.
From Salsa.Kern Require Import CoreK.
From Salsa.Structs Require Import Model ProofsBase ProofsCascade ProofsStep.

(* acquire_read_lock on a live slot, computed *)
Definition locked_slot (s : db) (sl : slot) : slot :=
  match sl_updated sl with
  | Some r => if r =? cur s then sl else set_sl_updated sl (Some (cur s))
  | None => sl
  end.
Definition locked_db (s : db) (i : N) (sl : slot) : db :=
  match sl_updated sl with
  | Some r => if r =? cur s then s else set_slots s (updN (d_slots s) i (Some (set_sl_updated sl (Some (cur s)))))
  | None => s
  end.

Lemma lock_run i s sl :
  d_slots s i = Some sl -> sl_updated sl <> None ->
  acquire_read_lock i s = (locked_db s i sl, SOk (locked_slot s sl)).
Proof.
  intros Hs Hu. unfold acquire_read_lock, get_slot, bind, get, put_slot, modify, ret, locked_db, locked_slot.
  rewrite Hs. destruct (sl_updated sl) as [r|]; [|contradiction Hu; reflexivity].
  destruct (r =? cur s); reflexivity.
Qed.

Lemma locked_slot_memos s sl fam : sl_memos (locked_slot s sl) fam = sl_memos sl fam.
Proof. unfold locked_slot. destruct (sl_updated sl) as [r|]; [destruct (r =? cur s)|]; reflexivity. Qed.

Lemma locked_db_log s i sl : d_log (locked_db s i sl) = d_log s.
Proof. unfold locked_db. destruct (sl_updated sl) as [r|]; [destruct (r =? cur s)|]; reflexivity. Qed.

Lemma locked_db_cur s i sl : cur (locked_db s i sl) = cur s.
Proof. unfold locked_db. destruct (sl_updated sl) as [r|]; [destruct (r =? cur s)|]; reflexivity. Qed.

Lemma locked_db_stack s i sl : d_stack (locked_db s i sl) = d_stack s.
Proof. unfold locked_db. destruct (sl_updated sl) as [r|]; [destruct (r =? cur s)|]; reflexivity. Qed.

Lemma locked_db_revs s i sl : d_revs (locked_db s i sl) = d_revs s.
Proof. unfold locked_db. destruct (sl_updated sl) as [r|]; [destruct (r =? cur s)|]; reflexivity. Qed.

Lemma bind_run {A B} (m : M A) (f : A -> M B) s s1 a : m s = (s1, SOk a) -> bind m f s = f a s1.
Proof. intros H. unfold bind. rewrite H. reflexivity. Qed.

Section Specify.
Variable prog : qk -> body.
Variable skind : N -> bool.
Variable sfams : list N.
Variable idhash : val -> N.

Lemma get_memo_run (q : qk) s sl :
  skind (fst q) = true -> d_slots s (fst (snd q)) = Some sl -> sl_updated sl <> None ->
  get_memo skind q s = (locked_db s (fst (snd q)) sl, SOk (sl_memos sl (fst q))).
Proof.
  intros Hk Hs Hu. unfold get_memo. rewrite Hk, (bind_run _ _ _ _ _ (lock_run _ _ _ Hs Hu)).
  unfold ret. now rewrite locked_slot_memos.
Qed.

(* C10: specifying a struct the current execution did not create panics, nothing changes *)
Lemma specify_foreign_panics n q fam h v fr s :
  is_active (fr_ids fr) h = false ->
  specify skind sfams n q fam h v fr s = (s, SPanic PSpecForeign).
Proof. intros H. unfold specify. rewrite H. reflexivity. Qed.

(* C10: a second specify of the same key in one execution panics *)
Lemma specify_twice_panics n q fam h v fr s sl old :
  is_active (fr_ids fr) h = true -> skind fam = true ->
  existsb (qk_eqb (fam, h)) (d_stack s) = false ->
  d_slots s (fst h) = Some sl -> sl_updated sl <> None ->
  sl_memos sl fam = Some old ->
  m_verified old = cur s -> m_val old <> None -> m_origin old = OAssigned q ->
  existsb (edge_eqb (EOut (fam, h))) (fr_edges fr) = true ->      (* this execution already specified it *)
  exists s', specify skind sfams n q fam h v fr s = (s', SPanic PSpecTwice).
Proof.
  intros Ha Hk Hst Hs Hu Hm Hv Hval Ho He. unfold specify. rewrite Ha. cbn [negb].
  unfold bind at 1. unfold get at 1. rewrite Hst.
  rewrite (bind_run _ _ _ _ _ (get_memo_run (fam, h) s sl Hk Hs Hu)).
  unfold bind at 1. unfold get at 1. cbn [fst snd].
  rewrite Hm, Hv, locked_db_cur, N.eqb_refl.
  destruct (m_val old) as [ov|]; [|contradiction Hval; reflexivity]. cbn [andb].
  rewrite Ho, qk_eqb_refl. cbn [negb]. rewrite He.
  exists (locked_db s (fst h) sl). reflexivity.
Qed.

(* C10: a value computed (Derived) in this revision wins: specify changes neither memo nor frame *)
Lemma specify_computed_kept n q fam h v fr s sl old :
  is_active (fr_ids fr) h = true -> skind fam = true ->
  existsb (qk_eqb (fam, h)) (d_stack s) = false ->
  d_slots s (fst h) = Some sl -> sl_updated sl <> None ->
  sl_memos sl fam = Some old ->
  m_verified old = cur s -> m_val old <> None -> (forall by_, m_origin old <> OAssigned by_) ->
  specify skind sfams n q fam h v fr s = (locked_db s (fst h) sl, SOk fr).
Proof.
  intros Ha Hk Hst Hs Hu Hm Hv Hval Ho. unfold specify. rewrite Ha. cbn [negb].
  unfold bind at 1. unfold get at 1. rewrite Hst.
  rewrite (bind_run _ _ _ _ _ (get_memo_run (fam, h) s sl Hk Hs Hu)).
  unfold bind at 1. unfold get at 1. cbn [fst snd].
  rewrite Hm, Hv, locked_db_cur, N.eqb_refl.
  destruct (m_val old) as [ov|]; [|contradiction Hval; reflexivity]. cbn [andb].
  destruct (m_origin old) as [| | by_] eqn:Eo; [| |exfalso; exact (Ho by_ eq_refl)]; reflexivity.
Qed.

(* C10: a specified value verified in this revision is returned without running the body:
   no event at all is emitted *)
Lemma fetch_specified_no_exec L (q : qk) s sl m v :
  skind (fst q) = true -> d_slots s (fst (snd q)) = Some sl -> sl_updated sl <> None ->
  sl_memos sl (fst q) = Some m -> m_verified m = cur s -> m_val m = Some v ->
  fetch prog skind sfams idhash L q s =
    (locked_db s (fst (snd q)) sl, SOk (v, m_dur m, m_changed m)) /\
  d_log (locked_db s (fst (snd q)) sl) = d_log s.
Proof.
  intros Hk Hs Hu Hm Hv Hval. split; [|apply locked_db_log].
  pose proof (get_memo_run q s sl Hk Hs Hu) as Hg. rewrite Hm in Hg.
  assert (Hh : fetch_hot skind q s = (locked_db s (fst (snd q)) sl, SOk (Some (m, v)))).
  { unfold fetch_hot. rewrite (bind_run _ _ _ _ _ Hg).
    rewrite (bind_run _ _ _ _ _ (eq_refl : get (locked_db s (fst (snd q)) sl) = (_, SOk _))).
    rewrite Hval. unfold shallow_verify. rewrite Hv, locked_db_cur, N.eqb_refl. reflexivity. }
  unfold fetch. rewrite (bind_run _ _ _ _ _ Hh).
  rewrite (bind_run _ _ _ _ _ (eq_refl : ret (m, v) (locked_db s (fst (snd q)) sl) = (_, SOk _))).
  reflexivity.
Qed.

(* C10: an Assigned memo never deep-verifies.  Deep verification is reached only when the memo is not
   verified in this revision (its creator did not specify it again, nor was the creator
   validated); then the body must run *)
Lemma deep_verify_assigned L q m by_ s :
  m_origin m = OAssigned by_ -> deep_verify skind L q m s = (s, SOk (false, m)).
Proof. intros H. unfold deep_verify. rewrite H. reflexivity. Qed.

(* ... and running the body starts with the WillExecute event *)
Lemma execute_starts_with_exec L q old :
  execute prog skind sfams idhash L q old =
  bind (emit (EvExec q)) (fun _ =>
    bind (run_body skind sfams idhash L q (prog q) (seed_frame old)) (fun r =>
      finish_exec skind sfams (l_fuel L) q old (fst r) (snd r))).
Proof. reflexivity. Qed.

(* C10: a validated creator marks its specified outputs verified (deep_verify_edges Output arm,
   update_shallow): afterwards the memo is verified in the current revision *)
Lemma validate_specified_marks (q o : qk) s sl m :
  skind (fst o) = true -> d_slots s (fst (snd o)) = Some sl -> sl_updated sl <> None ->
  sl_memos sl (fst o) = Some m -> m_origin m = OAssigned q ->
  exists s', validate_specified skind q o s = (s', SOk tt) /\
    exists sl', d_slots s' (fst (snd o)) = Some sl' /\
      exists m', sl_memos sl' (fst o) = Some m' /\ m_verified m' = cur s /\ m_val m' = m_val m /\
                 m_origin m' = m_origin m /\ In (EvValidate o) (d_log s').
Proof.
  intros Hk Hs Hu Hm Ho.
  set (sL := locked_db s (fst (snd o)) sl). set (slL := locked_slot s sl).
  assert (Hl : d_slots sL (fst (snd o)) = Some slL).
  { unfold sL, slL, locked_db, locked_slot. destruct (sl_updated sl) as [r|] eqn:Eu; [|exact Hs].
    destruct (r =? cur s); [exact Hs|]. cbn [set_slots d_slots]. apply updN_same. }
  pose proof (get_memo_run o s sl Hk Hs Hu) as Hg. rewrite Hm in Hg. fold sL in Hg.
  set (m' := {| m_val := m_val m; m_verified := cur sL; m_changed := m_changed m; m_dur := m_dur m;
                m_origin := m_origin m; m_edges := m_edges m; m_structs := m_structs m |}).
  set (sF := set_slots (set_log sL (EvValidate o :: d_log sL))
               (updN (d_slots sL) (fst (snd o)) (Some (set_sl_memos slL (updN (sl_memos slL) (fst o) (Some m')))))).
  assert (Hmv : mark_verified skind o m sL = (sF, SOk m')).
  { unfold mark_verified. rewrite (bind_run _ _ _ _ _ (eq_refl : get sL = (_, SOk _))).
    rewrite (bind_run _ _ _ _ _ (eq_refl : emit (EvValidate o) sL = (_, SOk tt))).
    assert (Hst : store_memo skind o m' (set_log sL (EvValidate o :: d_log sL)) = (sF, SOk tt)).
    { unfold store_memo. rewrite Hk.
      assert (Hgs : get_slot (fst (snd o)) (set_log sL (EvValidate o :: d_log sL)) = (set_log sL (EvValidate o :: d_log sL), SOk slL)).
      { unfold get_slot. rewrite (bind_run _ _ _ _ _ (eq_refl : get _ = (_, SOk _))). cbn [set_log d_slots]. rewrite Hl. reflexivity. }
      rewrite (bind_run _ _ _ _ _ Hgs). reflexivity. }
    rewrite (bind_run _ _ _ _ _ Hst). reflexivity. }
  exists sF. split.
  - unfold validate_specified. rewrite (bind_run _ _ _ _ _ Hg). rewrite Ho, qk_eqb_refl.
    rewrite (bind_run _ _ _ _ _ Hmv). reflexivity.
  - exists (set_sl_memos slL (updN (sl_memos slL) (fst o) (Some m'))). split.
    + unfold sF. cbn [set_slots d_slots]. apply updN_same.
    + exists m'. split; [cbn [set_sl_memos sl_memos]; apply updN_same|].
      unfold m'. cbn [m_verified m_val m_origin]. unfold sL. rewrite locked_db_cur.
      repeat split; auto. unfold sF. cbn [set_slots set_log d_log]. left. reflexivity.
Qed.

(* C10: the value specified by the creator's latest execution wins over whatever memo an
   earlier revision left for the key (Assigned or Derived): when specify returns normally and the
   old memo is not verified in this revision, the key's memo is Assigned by q with value v,
   verified now, and the frame records the output edge *)
Lemma specify_overwrites n (q : qk) fam h v fr s sl s' fr' :
  is_active (fr_ids fr) h = true -> skind fam = true ->
  existsb (qk_eqb (fam, h)) (d_stack s) = false ->
  d_slots s (fst h) = Some sl -> sl_updated sl <> None ->
  (forall old, sl_memos sl fam = Some old -> m_verified old <> cur s) ->
  specify skind sfams n q fam h v fr s = (s', SOk fr') ->
  In (EOut (fam, h)) (fr_edges fr') /\
  exists sl' m', d_slots s' (fst h) = Some sl' /\ sl_memos sl' fam = Some m' /\
                 m_val m' = Some v /\ m_origin m' = OAssigned q /\ m_verified m' = cur s /\
                 m_structs m' = [].
Proof.
  intros Ha Hk Hst Hs Hu Hold H.
  pose proof (get_memo_run (fam, h) s sl Hk Hs Hu) as Hg. cbn [fst snd] in Hg.
  assert (Hnot : ~ exists old, sl_memos sl fam = Some old /\ m_verified old = cur (locked_db s (fst h) sl)).
  { intros (old & E1 & E2). rewrite locked_db_cur in E2. exact (Hold old E1 E2). }
  destruct (specify_cases skind sfams _ _ _ _ _ _ _ _ _ H)
    as (_ & [ (* SR_running *) E | (* SR_kept *) t2 old _ H1 Ev
            | (* SR_stored *) om t2 fr1 ch t5 t6 u6 _ H1 Hfr1 _ _ H6 ]).
  { congruence. }
  { exfalso. rewrite Hg in H1. injection H1 as <- Eo. apply Hnot. exists old. auto. }
  rewrite Hg in H1; injection H1 as <- <-.
  assert (fr1 = fr) by (destruct Hfr1 as [-> | (Hnow & _)]; [reflexivity | contradiction]). subst fr1.
  set (sL := locked_db s (fst h) sl) in *.
  split.
  - unfold add_output, add_edge. cbn [set_fr_stamp fr_edges].
    destruct (existsb (edge_eqb (EOut (fam, h))) (fr_edges fr)) eqn:Ee.
    + apply existsb_exists in Ee. destruct Ee as (x & Hx & Ex). destruct x; cbn [edge_eqb] in Ex; try discriminate.
      apply qk_eqb_eq in Ex. subst. exact Hx.
    + apply in_or_app. right. left. reflexivity.
  - destruct (put_memo_spec skind (fam, h) _ _ _ _ Hk H6) as (sl0 & sl' & _ & _ & Hs' & _ & _ & _ & _ & Hmq & _).
    cbn [fst snd] in *. exists sl'. eexists. split; [exact Hs'|]. split; [exact Hmq|].
    cbn [m_val m_origin m_verified m_structs]. unfold sL. rewrite locked_db_cur. repeat split; reflexivity.
Qed.

End Specify.
