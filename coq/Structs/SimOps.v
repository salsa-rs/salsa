(* Structs/SimOps.v — model-to-machine simulation, part 2: the struct operations of a running
   body (new_struct, specify), completion (finish_exec) and the validation of specified outputs
   satisfy the frame relation [rel]. *)
From Salsa Require Import Base.
From Salsa.Kern Require Import CoreK.
From Salsa.Structs Require Import Model ProofsBase ProofsCascade Machine ProofsInv ProofsStep ProofsSpecify Guard SimBase.

Section SimOps.
Variable skind : N -> bool.
Variable sfams : list N.
Variable idhash : val -> N.
Hypothesis sfams_skind : forall fam, In fam sfams -> skind fam = true.

Notation OInv := (OInv skind).
Notation owns := (owns skind).
Notation peek_memo := (peek_memo skind).
Notation cur_okb := (cur_okb skind).
Notation mst := (mst skind).
Notation rel := (rel skind).
Notation Cons := (Cons skind).

(* slots that are read-locked in this revision are left exactly as they are *)
Definition lsame (s s' : db) : Prop :=
  forall i sl, d_slots s i = Some sl -> sl_updated sl = Some (cur s) -> d_slots s' i = Some sl.

Lemma rel_of_lsame (P : list qk) s s' :
  d_revs s' = d_revs s -> d_memo s' = d_memo s -> lsame s s' ->
  (forall p : qk, In p P -> skind (fst p) = true -> locked s (fst (snd p))) ->
  rel P s s'.
Proof.
  intros Er Em Hl HP. constructor.
  - exact Er.
  - intros i sl Hs Hu. exists sl. split; [exact (Hl i sl Hs Hu) | auto].
  - intros p Hp. unfold SimBase.mst. f_equal. apply peek_same; [exact Em|].
    change (snd (loc_of p)) with (fst (snd p)). change (fst (loc_of p)) with (fst p).
    intros Hk. destruct (HP p Hp Hk) as (sl & Hs & Hu).
    rewrite Hs. exact (Hl _ sl Hs Hu).
Qed.

Lemma casc_lsame s s' e : casc s s' e -> lsame s s'.
Proof.
  intros C i sl Hs Hu. exact (proj2 (casc_untouched s s' e i sl C Hs (or_intror Hu))).
Qed.

Lemma lsame_trans s1 s2 s3 : cur s2 = cur s1 -> lsame s1 s2 -> lsame s2 s3 -> lsame s1 s3.
Proof. intros Hc A B i sl Hs Hu. apply B; [exact (A i sl Hs Hu) | rewrite Hc; exact Hu]. Qed.

(* ---------------------------------------------------------------- new_struct *)
Lemma new_struct_lsame n q idv f0 f1 fr s F s' r :
  OInv s F -> In (q, fr) F ->
  new_struct skind sfams idhash n q idv f0 f1 fr s = (s', SOk r) ->
  d_revs s' = d_revs s /\ d_memo s' = d_memo s /\ d_stack s' = d_stack s /\ lsame s s'.
Proof.
  intros I Hq H. destruct r as [h fr'].
  destruct (new_struct_cases skind sfams idhash _ _ _ _ _ _ _ _ _ _ H) as (t & slg & cn & ids & _ & -> & _ & NS).
  change (d_revs t = d_revs s /\ d_memo t = d_memo s /\ d_stack t = d_stack s /\ lsame s t).
  assert (Halloc : forall t0 h0, allocate (fr_dur fr, fr_changed fr) idv f0 f1 s = (t0, SOk h0) ->
            d_revs t0 = d_revs s /\ d_memo t0 = d_memo s /\ d_stack t0 = d_stack s /\ lsame s t0).
  { intros t0 h0 Ha. destruct (allocate_spec _ _ _ _ _ _ _ Ha) as (Es & Erv & Em & _).
    split; [exact Erv|]. split; [exact Em|]. split; [exact (allocate_stack _ _ _ _ _ _ _ Ha)|].
    intros i sl Hs Hu. rewrite Es. unfold updN. destruct (N.eqb_spec (fst h0) i) as [E | E]; [|exact Hs].
    exfalso. subst i. destruct (alloc_gen skind _ _ _ _ _ _ _ _ I Ha sl Hs) as [Hu0 _]. congruence. }
  destruct NS as [t h _ Ha | l1 e l2 sle t3 u t h ids _ _ _ Hsle Hule UR K].
  { exact (Halloc _ _ Ha). }
  destruct UR as [Hlk | Hnl Hng | t3 Hnl Hsame Hng B Es Elog | t3 g' ex s1 Hnl Hdiff Hng C Hroot P B Es].
  - destruct K as (-> & _). repeat split; auto. intros i sl0 H4 _. exact H4.
  - destruct K as (Ha & _). exact (Halloc _ _ Ha).
  - destruct K as (-> & _).
    split; [exact (sb_revs _ _ B)|]. split; [exact (sb_memo _ _ B)|]. split; [exact (sb_stack _ _ B)|].
    intros i sl0 H4 Hu4. rewrite Es. unfold updN. destruct (N.eqb_spec (fst (te_id e)) i) as [E | E]; [|exact H4].
    exfalso. subst i. rewrite Hsle in H4. injection H4 as <-. contradiction.
  - destruct K as (-> & _).
    split; [rewrite (sb_revs _ _ B); exact (cs_revs _ _ _ C)|].
    split; [rewrite (sb_memo _ _ B); exact (cs_memo _ _ _ C)|].
    split; [rewrite (sb_stack _ _ B); exact (cs_stack _ _ _ C)|].
    intros i sl0 H4 Hu4. rewrite Es. unfold updN. destruct (N.eqb_spec (fst (te_id e)) i) as [E | E].
    + exfalso. subst i. rewrite Hsle in H4. injection H4 as <-. contradiction.
    + apply (casc_lsame _ _ _ C); [cbn [set_slots d_slots]; rewrite updN_other by exact E; exact H4 | exact Hu4].
Qed.

Lemma new_struct_rel P n q idv f0 f1 fr s F s' r :
  OInv s F -> In (q, fr) F ->
  (forall p : qk, In p P -> skind (fst p) = true -> locked s (fst (snd p))) ->
  new_struct skind sfams idhash n q idv f0 f1 fr s = (s', SOk r) ->
  rel P s s' /\ d_stack s' = d_stack s.
Proof.
  intros I Hq HP H. destruct (new_struct_lsame _ _ _ _ _ _ _ _ _ _ I Hq H) as (Er & Em & Est & Hl).
  split; [exact (rel_of_lsame P s s' Er Em Hl HP) | exact Est].
Qed.

(* ---------------------------------------------------------------- put_memo *)
Lemma put_memo_rel P (q : qk) m s s' u :
  put_memo skind q m s = (s', SOk u) ->
  (forall p, In p P -> loc_of p <> loc_of q) ->
  rel P s s' /\ d_stack s' = d_stack s /\ peek_memo s' (loc_of q) = Some m.
Proof.
  intros H HP. unfold put_memo in H. msplit H as u0 t0 H0.
  assert (H1 : rel P s t0 /\ d_stack t0 = d_stack s /\
               (skind (fst q) = true -> exists sl, d_slots t0 (fst (snd q)) = Some sl /\ sl_updated sl <> None)).
  { destruct (skind (fst q)) eqn:Hk.
    - msplit H0 as sl0 t1 H1. mstep H0.
      destruct (lock_rel skind P _ _ _ _ H1) as (R & Est & _ & _ & Hs' & Hu'). split; [exact R|]. split; [exact Est|].
      intros _. exists sl0. auto.
    - mstep H0. split; [apply rel_refl|]. split; [reflexivity | discriminate]. }
  destruct H1 as (R0 & Est0 & Hlive).
  destruct (store_memo_rel skind P q m t0 s' u H Hlive) as (R & Est & Hpq & _).
  { intros p Hp E. exfalso. exact (HP p Hp E). }
  split; [exact (rel_trans skind P _ _ _ R0 R)|]. split; [congruence | exact Hpq].
Qed.

(* ---------------------------------------------------------------- completion *)
Lemma finish_rel P n (q : qk) old v fr s s' m :
  finish_exec skind sfams n q old v fr s = (s', SOk m) ->
  (forall p : qk, In p P -> skind (fst p) = true -> locked s (fst (snd p))) ->
  (forall p, In p P -> loc_of p <> loc_of q) ->
  rel P s s' /\ d_stack s' = d_stack s.
Proof.
  intros H HPl HPq.
  destruct (finish_exec_cases skind sfams _ _ _ _ _ _ _ _ H) as (ch & t0 & u2 & _ & H0 & _ & H2).
  assert (R0 : rel P s t0 /\ d_stack t0 = d_stack s).
  { destruct old as [o|]; [|subst t0; split; [apply rel_refl | reflexivity]].
    destruct (diff_outputs_casc sfams n o q _ (fr_edges fr) s t0 H0) as (e & C & _ & _).
    split; [|exact (cs_stack _ _ _ C)].
    apply rel_of_lsame; [exact (cs_revs _ _ _ C) | exact (cs_memo _ _ _ C) | exact (casc_lsame _ _ _ C) | exact HPl]. }
  destruct R0 as [R0 Est0].
  destruct (put_memo_rel P q _ _ _ _ H2 HPq) as (R & Est & _).
  split; [exact (rel_trans skind P _ _ _ R0 R) | congruence].
Qed.

(* ---------------------------------------------------------------- specify *)
Lemma specify_rel P n (q : qk) fam h v fr s F s' fr' :
  OInv s F ->
  specify skind sfams n q fam h v fr s = (s', SOk fr') ->
  (forall p : qk, In p P -> skind (fst p) = true -> locked s (fst (snd p))) ->
  (existsb (qk_eqb (fam, h)) (d_stack s) = false -> forall p, In p P -> loc_of p <> loc_of (fam, h)) ->
  rel P s s' /\ d_stack s' = d_stack s.
Proof.
  intros I H HPl HPq.
  destruct (specify_cases skind sfams _ _ _ _ _ _ _ _ _ H)
    as (_ & [ (* SR_running *) _ | (* SR_kept *) t1 old Est H1 _
            | (* SR_stored *) om t1 fr1 ch t5 t6 u6 Est H1 _ _ H5 H6 ]).
  { (* SR_running *) split; [apply rel_refl | reflexivity]. }
  all: specialize (HPq Est); destruct (get_memo_sim skind P (fam, h) s F t1 _ I H1) as (I1 & R1 & Est1 & _ & _).
  { (* SR_kept: only the read lock *) auto. }
  (* SR_stored *)
  assert (R2 : rel P t1 t5 /\ d_stack t5 = d_stack t1).
  { destruct om as [old|]; [|subst t5; split; [apply rel_refl | reflexivity]].
    destruct (diff_outputs_casc sfams n old (fam, h) (m_structs old) [] t1 t5 H5) as (e & C & _ & _).
    split; [|exact (cs_stack _ _ _ C)].
    apply rel_of_lsame; [exact (cs_revs _ _ _ C) | exact (cs_memo _ _ _ C) | exact (casc_lsame _ _ _ C) |].
    intros p Hp Hk. exact (locked_rel skind P s t1 _ R1 (HPl p Hp Hk)). }
  destruct R2 as [R2 Est2].
  destruct (put_memo_rel P (fam, h) _ _ _ _ H6 HPq) as (R3 & Est3 & _).
  split; [exact (rel_trans skind P _ _ _ R1 (rel_trans skind P _ _ _ R2 R3)) | congruence].
Qed.

(* ---------------------------------------------------------------- validation of outputs *)
Lemma validate_specified_sim P (q o : qk) s F s' :
  OInv s F -> validate_specified skind q o s = (s', SOk tt) ->
  OInv s' F /\ rel P s s' /\ d_stack s' = d_stack s.
Proof.
  intros I H. unfold validate_specified in H.
  msplit H as om t H1. destruct (get_memo_sim skind P o s F t om I H1) as (I1 & R1 & Est1 & Eom & _).
  destruct om as [m|]; [|mstep H; auto].
  destruct (m_origin m) as [| | by_]; [mstep H | mstep H |].
  destruct (qk_eqb by_ q); [|mstep H].
  msplit H as m' t2 H2. mstep H.
  destruct (mark_verified_sim skind P o m t F t2 m' I1 H2) as (I2 & R2 & Est2 & _).
  { unfold SimBase.mst. rewrite <- Eom. reflexivity. }
  split; [exact I2|]. split; [exact (rel_trans skind P _ _ _ R1 R2) | congruence].
Qed.

Lemma iter_validate_sim P (q : qk) : forall os s F s',
  OInv s F -> iterM (validate_specified skind q) os s = (s', SOk tt) ->
  OInv s' F /\ rel P s s' /\ d_stack s' = d_stack s.
Proof.
  induction os as [|o os IH]; intros s F s' I H; cbn [iterM] in H.
  - mstep H. split; [exact I|]. split; [apply rel_refl | reflexivity].
  - msplit H as u t H1. destruct u.
    destruct (validate_specified_sim P q o s F t I H1) as (I1 & R1 & Est1).
    destruct (IH t F s' I1 H) as (I2 & R2 & Est2).
    split; [exact I2|]. split; [exact (rel_trans skind P _ _ _ R1 R2) | congruence].
Qed.

(* update_shallow: ShHigher marks the memo and its specified outputs verified *)
Lemma update_shallow_sim P (q : qk) m u s F s' m' :
  OInv s F -> update_shallow skind q m u s = (s', SOk m') ->
  mst s q = Some (m_structs m) ->
  OInv s' F /\ rel P s s' /\ d_stack s' = d_stack s /\ m_structs m' = m_structs m.
Proof.
  intros I H Hm. destruct u; cbn [update_shallow] in H.
  - mstep H. split; [exact I|]. split; [apply rel_refl|]. split; reflexivity.
  - msplit H as m1 t H1.
    destruct (mark_verified_sim skind P q m s F t m1 I H1 Hm) as (I1 & R1 & Est1 & Es1 & _).
    msplit H as u t2 H2. destruct u. mstep H.
    unfold mark_outputs_verified in H2.
    destruct (iter_validate_sim P q _ t F t2 I1 H2) as (I2 & R2 & Est2).
    split; [exact I2|]. split; [exact (rel_trans skind P _ _ _ R1 R2)|]. split; [congruence | exact Es1].
  - mstep H. split; [exact I|]. split; [apply rel_refl|]. split; reflexivity.
Qed.

End SimOps.
