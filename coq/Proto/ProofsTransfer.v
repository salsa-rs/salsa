(* Proto/ProofsTransfer.v — I1-I3 through every branch of DependencyGraph::transfer_lock,
   including the re-rooting loop. *)
From Salsa Require Import Base.
From Salsa.Proto Require Import Model ProofsGraph ProofsList ProofsInv.

(* all that update_transferred_edges may change: the thread an edge leads to, not its key *)
Definition rw_rel (g g' : dgraph) : Prop :=
  same_T g g' /\ qdeps g' = qdeps g /\ wres g' = wres g /\ notified g' = notified g /\
  (forall t, option_map snd (edges g' t) = option_map snd (edges g t)).

Lemma rw_rel_refl g : rw_rel g g.
Proof. repeat split; auto. Qed.

Lemma rw_rel_trans g1 g2 g3 : rw_rel g1 g2 -> rw_rel g2 g3 -> rw_rel g1 g3.
Proof.
  intros (T1 & Q1 & W1 & N1 & E1) (T2 & Q2 & W2 & N2 & E2).
  split; [eapply same_T_trans; eauto|]. split; [congruence|]. split; [congruence|].
  split; [congruence|]. intros t. now rewrite E2, E1.
Qed.

Lemma rewrite_edge_rw fuel n g d g' : rewrite_edge fuel n g d = ROk g' -> rw_rel g g'.
Proof.
  unfold rewrite_edge. destruct (edges g d) as [[u k]|] eqn:Ed; [|discriminate].
  intros Hr. apply bind_ok in Hr as (bb & _ & Hr). destruct bb; [discriminate|]. injection Hr as <-.
  split; [split; reflexivity|]. repeat split; auto. intros t. cbn. unfold updN.
  destruct (N.eqb_spec d t) as [<-|]; auto. now rewrite Ed.
Qed.

Lemma update_transferred_edges_rw n : forall fuel g q g',
  update_transferred_edges fuel g q n = ROk g' -> rw_rel g g'.
Proof.
  induction fuel as [|f IH]; intros g q g'; cbn [update_transferred_edges]; [discriminate|].
  intros Hu. apply bind_ok in Hu as (ga & Ha & Hu).
  assert (Ra : rw_rel g ga).
  { eapply (foldM_inv (fun g'' => rw_rel g g'')) in Ha; eauto; [|apply rw_rel_refl].
    intros s a s' _ Rs Hr. eapply rw_rel_trans; [exact Rs|]. eapply rewrite_edge_rw; eauto. }
  eapply (foldM_inv (fun g'' => rw_rel g g'')) in Hu; eauto.
  intros s a s' _ Rs Hr. eapply rw_rel_trans; [exact Rs|]. eapply IH; eauto.
Qed.

Lemma rewrite_edge_inv fuel n g d g' :
  einv g -> rewrite_edge fuel n g d = ROk g' -> einv g' /\ rw_rel g g'.
Proof.
  intros [G D ND W] H. split; [|exact (rewrite_edge_rw _ _ _ _ _ H)].
  revert H. unfold rewrite_edge.
  destruct (edges g d) as [[u k]|] eqn:Ed; [|discriminate].
  intros H. apply bind_ok in H as (b & Hb & H). destruct b; [discriminate|].
  injection H as <-.
  assert (Hnd : n <> d).
  { intros ->. unfold depends_on in Hb; cbn in Hb. destruct fuel; [discriminate|].
    cbn in Hb. rewrite updN_same, N.eqb_refl in Hb. discriminate. }
  apply depends_on_false in Hb; auto. cbn in Hb.
  unfold einv; cbn. constructor.
  - eapply grounded_ext; [intros x; symmetry; apply eproj_upd|]. cbn.
    apply upd_grounded; auto. intros Hr. apply Hb.
    eapply reaches_ext; [intros z; symmetry; apply eproj_upd|]. cbn.
    now apply reaches_upd_target.
  - intros d' k'. rewrite D. unfold updN. destruct (N.eqb_spec d d') as [<-|Hd]; [|tauto].
    rewrite Ed. split; intros [u' H']; injection H' as _ <-; eauto.
  - exact ND.
  - intros t r Ht. unfold updN. destruct (N.eqb_spec d t) as [<-|Hd]; [|eauto].
    apply W in Ht. congruence.
Qed.

Lemma update_transferred_edges_inv n fuel g q g' :
  einv g -> update_transferred_edges fuel g q n = ROk g' -> einv g' /\ rw_rel g g'.
Proof.
  intros HE H. split; [|exact (update_transferred_edges_rw _ _ _ _ _ H)].
  revert g q g' HE H.
  induction fuel as [|f IH]; intros g q g' HE; cbn [update_transferred_edges]; [discriminate|].
  intros H. apply bind_ok in H as (g1 & H1 & H).
  assert (P1 : einv g1).
  { eapply (foldM_inv einv) in H1; eauto.
    intros s a s' _ Hs Hr. now apply rewrite_edge_inv in Hr. }
  eapply (foldM_inv einv) in H; eauto.
Qed.

Lemma unblock_transfer_target_ok fuel g q n g' :
  unblock_transfer_target fuel g q n = ROk g' ->
  g' = g \/
  exists k i d, nth_error (qdeps g k) i = Some d /\
    unblock_runtime (set_qdeps g (updN (qdeps g) k (swap_remove_at i (qdeps g k)))) d Completed
      = ROk g'.
Proof.
  unfold unblock_transfer_target. intros H. apply bind_ok in H as (r & _ & H).
  destruct r as [[k i]|]; [|injection H as <-; now left].
  destruct (nth_error (qdeps g k) i) as [d|] eqn:E; [|discriminate].
  right. eauto.
Qed.

Lemma unblock_transfer_target_inv fuel g q n g' :
  einv g -> unblock_transfer_target fuel g q n = ROk g' ->
  einv g' /\ same_T g g' /\
  (forall t, edges g t = None -> wres g t = None -> edges g' t = None /\ wres g' t = None).
Proof.
  intros HE H. apply unblock_transfer_target_ok in H as [-> | (k & i & d & Hn & H)].
  - split; auto. split; [apply same_T_refl | auto].
  - destruct HE as [G D ND W].
    pose proof (nth_error_In _ _ Hn) as Hin.
    set (g1 := set_qdeps g (updN (qdeps g) k (swap_remove_at i (qdeps g k)))) in *.
    assert (HP : einv_p (edges g1) (qdeps g1) (wres g1) k [d]).
    { subst g1; cbn. constructor; auto.
      - intros d' k'. rewrite <- D. unfold updN. destruct (N.eqb_spec k k') as [<-|Hk].
        + rewrite swap_remove_at_In by eauto. cbn.
          destruct (N.eq_dec d' d) as [->|Hne]; intuition congruence.
        + cbn. intuition congruence.
      - intros k'. unfold updN. destruct (N.eqb_spec k k') as [<-|Hk]; auto.
        now apply swap_remove_at_NoDup.
      - repeat constructor. intros [].
      - intros d' [<-|[]]. rewrite updN_same. rewrite swap_remove_at_In by eauto. tauto. }
    pose proof (unblock_runtime_same_T _ _ _ _ H) as ST.
    pose proof H as H0. apply unblock_runtime_ok in H0 as ((u & kd & Ed) & Eg).
    apply unblock_runtime_einv_p with (k := k) (pend := []) in H as [HP' _]; auto.
    apply einv_p_nil in HP'. split; [exact HP' |]. split; [exact ST|].
    intros t Et Wt. subst g'. cbn. subst g1; cbn in *. unfold updN.
    destruct (N.eqb_spec d t) as [<-|Hd]; [congruence | auto].
Qed.

(* The re-rooting loop walks the chain from [src]; it stops at the end of the chain or at the
   first entry [a] transferred to [q], which it moves under [q]'s old owner [oo]. *)
Lemma reroot_spec q n ot oo : forall fuel g src g',
  reroot fuel g q n ot oo src = ROk g' -> src <> q ->
  (g' = g /\ ~ reaches (tproj g) src q) \/
  (exists a th g1,
     path_av (tproj g) q src a /\ transferred g a = Some (th, q) /\
     tdeps_remove g q a = ROk g1 /\
     ((oo = n /\ g' = set_transferred g1 (updN (transferred g1) a None)) \/
      (oo <> n /\
       tdeps_push (set_transferred g1 (updN (transferred g1) a (Some (ot, oo)))) oo a = ROk g'))).
Proof.
  induction fuel as [|f IH]; intros g src g'; cbn [reroot]; [discriminate|].
  destruct (transferred g src) as [[th nt]|] eqn:Es.
  - destruct (N.eqb_spec nt q) as [->|Hnt].
    + intros H Hsrc. right. apply bind_ok in H as (g1 & H1 & H).
      exists src, th, g1. split; [constructor|]. split; [exact Es|]. split; [exact H1|].
      destruct (N.eqb_spec oo n) as [->|Hoo].
      * left. injection H as <-. auto.
      * right. auto.
    + intros H Hsrc. apply IH in H as [[-> Hr] | (a & th' & g1 & Hp & Ha & H1 & Hc)]; auto.
      * left. split; auto. intros Hr'. inversion Hr' as [|t u v Ht Hr'']; subst; [congruence|].
        unfold tproj, tproj_f in Ht; rewrite Es in Ht; injection Ht as <-. auto.
      * right. exists a, th', g1. split; auto.
        eapply pa_step with (u := nt); [unfold tproj, tproj_f; now rewrite Es | exact Hnt | exact Hp].
  - intros [= <-] Hsrc. left. split; auto. intros Hr.
    apply reaches_from_root in Hr; [congruence|]. unfold tproj, tproj_f; now rewrite Es.
Qed.

(* dependency_graph.rs:335-337 *)
Definition attach_tail (g : dgraph) (new_owner query : key) : R dgraph :=
  let g0 := match tdeps g new_owner with
            | Some _ => g
            | None => set_tdeps g (updN (tdeps g) new_owner (Some []))
            end in
  if mem new_owner (match tdeps g0 new_owner with Some l => l | None => [] end)
  then RErr EDuplicateDependent else tdeps_push g0 new_owner query.

(* dependency_graph.rs:339-358 *)
Definition transfer_rest (fuel : nat) (g1 : dgraph) (query : key) (current_thread : thread)
  (new_owner : key) (new_owner_thread : thread) (thread_changed : bool) : R (dgraph * bool) :=
  if thread_changed then
    g2 <- unblock_transfer_target fuel g1 query new_owner_thread ;;
    g3 <- update_transferred_edges fuel g2 query new_owner_thread ;;
    dep2 <- depends_on fuel g3 new_owner_thread current_thread ;;
    if negb (current_thread =? new_owner_thread) && negb dep2 then
      g4 <- add_edge fuel g3 current_thread new_owner new_owner_thread ;;
      ROk (g4, true)
    else ROk (g3, false)
  else ROk (g1, false).

Lemma transfer_finish_split fuel g q cur n nt tc :
  transfer_finish fuel g q cur n nt tc =
  (g1 <- attach_tail g n q ;; transfer_rest fuel g1 q cur n nt tc).
Proof.
  unfold transfer_finish, attach_tail, transfer_rest.
  destruct (mem n _); reflexivity.
Qed.

Lemma attach_tail_ok g n q g1 :
  attach_tail g n q = ROk g1 ->
  same_E g g1 /\ transferred g1 = transferred g /\
  (forall k, tdeps g1 k = updN (tdeps g) n (Some (lst (tdeps g n) ++ [q])) k).
Proof.
  unfold attach_tail. destruct (tdeps g n) as [l|] eqn:E.
  - rewrite E. destruct (mem n l); [discriminate|]. intros H.
    apply tdeps_push_ok in H as (l' & Hl & _ & ->). rewrite E in Hl; injection Hl as <-.
    repeat split; auto.
  - cbn. rewrite updN_same. cbn. intros H.
    apply tdeps_push_ok in H as (l' & Hl & _ & ->). cbn in Hl. rewrite updN_same in Hl.
    injection Hl as <-. repeat split; auto. intros k. cbn. unfold updN.
    destruct (n =? k); reflexivity.
Qed.

Lemma transfer_rest_inv fuel g1 q cur n nt tc g' b :
  einv g1 -> edges g1 cur = None -> wres g1 cur = None ->
  transfer_rest fuel g1 q cur n nt tc = ROk (g', b) ->
  einv g' /\ same_T g1 g'.
Proof.
  intros HE Ec Wc. unfold transfer_rest. destruct tc.
  - intros H. apply bind_ok in H as (g2 & H2 & H). apply bind_ok in H as (g3 & H3 & H).
    apply bind_ok in H as (dep2 & _ & H).
    apply unblock_transfer_target_inv in H2 as (HE2 & ST2 & Run2); auto.
    destruct (Run2 _ Ec Wc) as [Ec2 Wc2].
    apply update_transferred_edges_inv in H3 as (HE3 & ST3 & Q3 & W3 & N3 & Ed3); auto.
    destruct (negb (cur =? nt) && negb dep2).
    + apply bind_ok in H as (g4 & H4 & H). injection H as <- <-.
      pose proof H4 as H4'. apply add_edge_ok in H4' as (_ & _ & _ & Eg).
      split.
      * eapply add_edge_einv; eauto. congruence.
      * eapply same_T_trans; [exact ST2|]. eapply same_T_trans; [exact ST3|].
        subst g4. split; reflexivity.
    + injection H as <- <-. split; auto. eapply same_T_trans; eauto.
  - intros [= <- <-]. split; auto. apply same_T_refl.
Qed.

(* Client precondition of transfer_lock on the dependency graph:
   * the caller is running;
   * a query is not transferred to itself (execute.rs: outer_cycle excludes current_key);
   * Vacant branch only: the caller does not close a cycle in [transferred] — that branch has
     no re-rooting, so "transferred always forms a tree" is the caller's obligation there. *)
Definition transfer_pre (g : dgraph) (q : key) (cur : thread) (n : key) : Prop :=
  edges g cur = None /\ wres g cur = None /\ q <> n /\
  (transferred g q = None -> ~ reaches (tproj g) n q).

Lemma sub_upd_none (tr : key -> option (thread * key)) q v :
  forall t, tproj_f (updN tr q None) t = tproj_f (updN tr q v) t \/ tproj_f (updN tr q None) t = None.
Proof.
  intros t. unfold tproj_f, updN. destruct (q =? t); [now right | now left].
Qed.

Lemma reroot_same_E q n ot oo : forall fuel g src g',
  reroot fuel g q n ot oo src = ROk g' -> same_E g g'.
Proof.
  induction fuel as [|f IH]; intros g src g'; cbn [reroot]; [discriminate|].
  destruct (transferred g src) as [[th nt]|].
  - destruct (nt =? q).
    + intros H. apply bind_ok in H as (g1 & H1 & H).
      apply tdeps_remove_ok in H1 as (l & _ & ->).
      destruct (oo =? n).
      * injection H as <-. repeat split; reflexivity.
      * apply tdeps_push_ok in H as (l' & _ & _ & ->). repeat split; reflexivity.
    + apply IH.
  - intros [= <-]. apply same_E_refl.
Qed.

Lemma transfer_lock_ok fuel g q cur n nid g' b :
  transfer_lock fuel g q cur n nid = ROk (g', b) ->
  (g' = g /\ b = false) \/
  exists nt g4 tc,
    same_E g g4 /\ transfer_rest fuel g4 q cur n nt tc = ROk (g', b) /\
    (tinv g -> q <> n -> (transferred g q = None -> ~ reaches (tproj g) n q) -> tinv g4).
Proof.
  unfold transfer_lock. intros H.
  apply bind_ok in H as (nt & _ & H). apply bind_ok in H as (dep & _ & H).
  destruct (negb ((nt =? cur) || dep)); [discriminate|].
  destruct (transferred g q) as [[ot oo]|] eqn:Eq.
  - (* Occupied *)
    destruct ((ot =? nt) && (oo =? n)).
    { injection H as <- <-. now left. }
    right.
    apply bind_ok in H as (g1 & H1 & H). apply bind_ok in H as (g3 & H3 & H).
    rewrite transfer_finish_split in H. apply bind_ok in H as (g4 & H4 & H).
    exists nt, g4, true.
    apply tdeps_remove_ok in H1 as (loo & Eoo & ->).
    pose proof (reroot_same_E _ _ _ _ _ _ _ _ H3) as SE3.
    apply attach_tail_ok in H4 as (SE4 & Tr4 & Td4).
    split; [exact (same_E_trans _ _ _ SE3 SE4) |]. split; [exact H |]. intros HT Hqn Hvac.
    set (tr := transferred g) in *. set (td := tdeps g) in *.
    set (tdA := updN td oo (Some (set_remove q loo))) in *.
    set (trA := updN tr q None).
    (* A: [q] is cut from under its old owner [oo] *)
    assert (HA : tinv_f trA tdA) by (eapply detach_f; eauto).
    assert (Hooq : oo <> q).
    { intros ->. destruct HT as [G _ _]. eapply (grounded_no_self _ q G).
      unfold tproj_f. fold tr. now rewrite Eq. }
    apply reroot_spec in H3 as [[-> Hr] | (a & tha & g2a & Hp & Ha & H2a & Hc)]; auto.
    + (* no edge into [q] on the chain of the new owner *)
      unfold tinv. rewrite Tr4. cbn.
      eapply tinv_f_ext; [| intros k; symmetry; apply Td4 |].
      2:{ cbn. apply (attach_f trA tdA q nt n HA).
          - apply updN_same.
          - intros Hr'. apply Hr. unfold tproj; cbn.
            eapply reaches_sub; [|exact Hr']. apply sub_upd_none. }
      intros k. cbn. unfold trA, updN. fold tr. destruct (q =? k); reflexivity.
    + (* found [a -> q] on the chain of the new owner *)
      cbn in Hp, Ha. fold tr in Hp, Ha.
      assert (Haq : a <> q) by (eapply path_av_end_ne; eauto).
      assert (Ea : tr a = Some (tha, q)).
      { unfold updN in Ha. destruct (N.eqb_spec q a); [congruence | auto]. }
      apply tdeps_remove_ok in H2a as (lq & Elq & ->). cbn in Elq. fold td tdA in Elq.
      cbn in Hc.
      destruct Hc as [[-> Hg3] | [Hoon Hg3]].
      * (* old_owner == new_owner: impossible in a forest *)
        exfalso. destruct HT as [G _ _]. fold tr in G.
        eapply (grounded_no_cycle _ q n G).
        { unfold tproj_f. now rewrite Eq. }
        eapply reaches_step_r with (y := a); [|unfold tproj_f; now rewrite Ea].
        apply path_av_reaches in Hp.
        eapply reaches_ext; [|exact Hp]. intros z. unfold tproj, tproj_f; cbn. fold tr.
        unfold updN. destruct (N.eqb_spec q z) as [<-|]; [now rewrite Eq | auto].
      * apply tdeps_push_ok in Hg3 as (l' & El' & _ & ->). cbn in El'. fold td tdA in El'.
        set (tdB := updN tdA q (Some (set_remove a lq))) in *.
        set (trB := updN trA a None).
        (* B: [a] is cut from under [q] *)
        assert (HB : tinv_f trB tdB).
        { eapply detach_f; eauto. unfold trA. rewrite updN_other; eauto. }
        assert (Hnoa : ~ reaches (tproj_f tr) oo a).
        { intros Hr. destruct HT as [G _ _]. fold tr in G.
          eapply (grounded_no_cycle _ q oo G).
          - unfold tproj_f. now rewrite Eq.
          - eapply reaches_step_r; [exact Hr|]. unfold tproj_f. now rewrite Ea. }
        assert (Hsub : forall t, tproj_f trB t = tproj_f tr t \/ tproj_f trB t = None).
        { intros t. unfold trB, trA, tproj_f, updN.
          destruct (a =? t); [now right|]. destruct (q =? t); [now right | now left]. }
        set (tdC := updN tdB oo (Some (lst (tdB oo) ++ [a]))).
        set (trC := updN trB a (Some (ot, oo))).
        (* C: [a] goes under [oo], which is not below [a] *)
        assert (HC : tinv_f trC tdC).
        { apply attach_f; auto.
          - apply updN_same.
          - intros Hr. apply Hnoa. eapply reaches_sub; eauto. }
        set (tdD := updN tdC n (Some (lst (tdC n) ++ [q]))).
        set (trD := updN trC q (Some (nt, n))).
        (* D: [q] goes under [n]; a path from [n] to [q] would now run through [a -> oo], and
           [q] was below [oo] to begin with *)
        assert (HD : tinv_f trD tdD).
        { apply attach_f; auto.
          - unfold trC, trB, trA. rewrite updN_other by auto. rewrite updN_other by auto.
            apply updN_same.
          - intros Hr.
            assert (Hp' : path_av (tproj_f trC) q n a).
            { eapply path_av_ext; [exact Hp | auto | |].
              - unfold tproj, tproj_f; cbn. fold tr. rewrite updN_other by auto. now rewrite Ea.
              - intros z Hzq Hza. unfold tproj, tproj_f, trC, trB, trA; cbn. fold tr.
                now rewrite !updN_other by auto. }
            assert (Hnq : n <> q) by congruence.
            pose proof (path_av_to_q _ _ _ _ Hp' Hnq Hr) as Hr2.
            inversion Hr2 as [|t u v Ht Hr3]; subst; [congruence|].
            unfold tproj_f, trC in Ht. rewrite updN_same in Ht. cbn in Ht. injection Ht as <-.
            assert (Hr4 : reaches (tproj_f trB) oo q).
            { eapply reaches_upd_inv with (a := a) (v := Some oo).
              - intros Hx. apply Hnoa. eapply reaches_sub; eauto.
              - eapply reaches_ext; [|exact Hr3]. intros z. unfold trC. apply tproj_upd. }
            destruct HT as [G _ _]. fold tr in G.
            eapply (grounded_no_cycle _ q oo G).
            + unfold tproj_f. now rewrite Eq.
            + eapply reaches_sub; eauto. }
        unfold tinv. rewrite Tr4.
        eapply (tinv_f_ext trD tdD); [| | exact HD].
        -- intros k. cbn [transferred set_tdeps set_transferred]. fold tr.
           unfold trD, trC, trB, trA, updN.
           destruct (N.eqb_spec q k) as [Hqk|Hqk], (N.eqb_spec a k) as [Hak|Hak]; congruence.
        -- intros k. rewrite Td4. cbn [tdeps set_tdeps set_transferred].
           unfold tdD, tdC. rewrite El'. reflexivity.
  - (* Vacant *)
    right. rewrite transfer_finish_split in H. apply bind_ok in H as (g4 & H4 & H).
    exists nt, g4, (negb (cur =? nt)).
    apply attach_tail_ok in H4 as (SE4 & Tr4 & Td4).
    split; [exact SE4 |]. split; [exact H |]. intros HT Hqn Hvac.
    unfold tinv. rewrite Tr4. cbn.
    eapply tinv_f_ext; [intros k; reflexivity | intros k; symmetry; apply Td4 |]. cbn.
    apply attach_f; auto.
Qed.

Lemma transfer_lock_inv fuel g q cur n nid g' b :
  einv g -> tinv g -> transfer_pre g q cur n ->
  transfer_lock fuel g q cur n nid = ROk (g', b) ->
  einv g' /\ tinv g'.
Proof.
  intros HE HT (Ec & Wc & Hqn & Hvac) H.
  apply transfer_lock_ok in H as [[-> _] | (nt & g4 & tc & SE & H & HT4)]; [auto |].
  pose proof SE as (A & B & C & _).
  eapply transfer_rest_inv in H as [HE' ST'].
  - split; auto. eapply same_T_tinv; eauto.
  - eapply same_E_einv; eauto.
  - now rewrite A.
  - now rewrite C.
Qed.
