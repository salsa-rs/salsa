(* Proto/ProofsInv.v — the invariants I1-I3 of DESIGN §7 C19 and their preservation by every
   function of the dependency graph. *)
From Salsa Require Import Base.
From Salsa.Proto Require Import Model ProofsGraph ProofsList.

(* the two graphs as [gmap]s: a blocked thread to the thread it waits on, a transferred key to
   its new owner *)
Definition eproj_f (e : thread -> option (thread * key)) : gmap := fun t => option_map fst (e t).
Definition tproj_f (tr : key -> option (thread * key)) : gmap := fun k => option_map snd (tr k).
Definition eproj (g : dgraph) : gmap := eproj_f (edges g).
Definition tproj (g : dgraph) : gmap := tproj_f (transferred g).

Definition lst {A} (o : option (list A)) : list A := match o with Some l => l | None => [] end.

Lemma eproj_upd e d v x :
  eproj_f (updN e d v) x = updN (eproj_f e) d (option_map fst v) x.
Proof. unfold eproj_f, updN. now destruct (d =? x). Qed.

Lemma tproj_upd tr d v x :
  tproj_f (updN tr d v) x = updN (tproj_f tr) d (option_map snd v) x.
Proof. unfold tproj_f, updN. now destruct (d =? x). Qed.

Record einv_f (e : thread -> option (thread * key)) (qd : key -> list thread)
  (wr : thread -> option wait_result) : Prop := mkEinv {
  (* I1: the blocked-on graph is acyclic (grounded) *)
  E_grounded : grounded (eproj_f e);
  (* I2: blocked threads <-> query_dependents entries, a bijection *)
  E_deps : forall d k, In d (qd k) <-> exists u, e d = Some (u, k);
  E_nodup : forall k, NoDup (qd k);
  (* I2: wait_results is disjoint from edges *)
  E_wres : forall t r, wr t = Some r -> e t = None
}.

Definition einv (g : dgraph) : Prop := einv_f (edges g) (qdeps g) (wres g).

(* relaxed form used while [unblock_runtimes_blocked_on k] is half-way: the threads in [pend]
   still have their edge (for key [k]) but are no longer in [qdeps k] *)
Record einv_p (e : thread -> option (thread * key)) (qd : key -> list thread)
  (wr : thread -> option wait_result) (k : key) (pend : list thread) : Prop := mkEinvP {
  EP_grounded : grounded (eproj_f e);
  EP_deps : forall d k', (In d (qd k') \/ (k' = k /\ In d pend)) <-> exists u, e d = Some (u, k');
  EP_nodup : forall k', NoDup (qd k');
  EP_pend : NoDup pend;
  EP_disj : forall d, In d pend -> ~ In d (qd k);
  EP_wres : forall t r, wr t = Some r -> e t = None
}.

Lemma einv_p_nil e qd wr k : einv_p e qd wr k [] -> einv_f e qd wr.
Proof.
  intros [G D ND NP DJ W]. constructor; auto. intros d k'. rewrite <- D. cbn. tauto.
Qed.

(* the transfer forest part: I3 *)
Record tinv_f (tr : key -> option (thread * key)) (td : key -> option (list key)) : Prop := mkTinv {
  T_grounded : grounded (tproj_f tr);
  T_inverse : forall x y, (exists th, tr x = Some (th, y)) <-> (exists l, td y = Some l /\ In x l);
  T_nodup : forall y l, td y = Some l -> NoDup l
}.

Definition tinv (g : dgraph) : Prop := tinv_f (transferred g) (tdeps g).

(* relaxed form used inside [unblock_recursive]: the keys in [pend] have lost their parent's
   dependents list but may still have their own [transferred] entry *)
Record tinv_p (tr : key -> option (thread * key)) (td : key -> option (list key))
  (pend : list key) : Prop := mkTinvP {
  TP_grounded : grounded (tproj_f tr);
  TP_listed : forall x y l, td y = Some l -> In x l -> exists th, tr x = Some (th, y);
  TP_entry : forall x th y, tr x = Some (th, y) -> (exists l, td y = Some l /\ In x l) \/ In x pend;
  TP_pend : forall x, In x pend -> forall y l, td y = Some l -> ~ In x l;
  TP_nodup : forall y l, td y = Some l -> NoDup l
}.

Lemma tinv_p_nil tr td : tinv_p tr td [] -> tinv_f tr td.
Proof.
  intros [G L En P ND]. constructor; auto. intros x y; split.
  - intros [th H]. destruct (En _ _ _ H) as [?|[]]; auto.
  - intros (l & H1 & H2). eauto.
Qed.

Lemma tinv_p_root tr td k : tinv_f tr td -> tr k = None -> tinv_p tr td [k].
Proof.
  intros [G I ND] Hk. constructor; auto.
  - intros x y l Hl Hin. apply I; eauto.
  - intros x th y Hx. left. apply I; eauto.
  - intros x [<-|[]] y l Hl Hin.
    destruct (proj2 (I k y)) as [th Hth]; eauto. congruence.
Qed.

Lemma tinv_f_ext tr td tr' td' :
  (forall k, tr k = tr' k) -> (forall k, td k = td' k) -> tinv_f tr td -> tinv_f tr' td'.
Proof.
  intros E1 E2 [G I ND]. constructor.
  - eapply grounded_ext; [|exact G]. intros x; unfold tproj_f; now rewrite E1.
  - intros x y. rewrite <- E1, <- E2. apply I.
  - intros y l. rewrite <- E2. apply ND.
Qed.

Definition Inv (s : state) : Prop := einv (dg s) /\ tinv (dg s).

Lemma init_Inv : Inv init.
Proof.
  split.
  - constructor; cbn.
    + intros t; exists t; now constructor.
    + intros d k; split; [intros [] | intros [u H]; discriminate].
    + intros; constructor.
    + intros; discriminate.
  - constructor; cbn.
    + intros t; exists t; now constructor.
    + intros x y; split; [intros [th H]; discriminate | intros (l & H & _); discriminate].
    + intros; discriminate.
Qed.

Lemma depends_on_true f e p to :
  depends_on_loop f e p to = ROk true -> reaches (eproj_f e) p to.
Proof.
  revert p; induction f as [|f IH]; intros p; cbn [depends_on_loop]; [discriminate|].
  destruct (e p) as [[q kq]|] eqn:Ep.
  - destruct (N.eqb_spec q to) as [->|Hne].
    + intros _. econstructor; [|constructor]. unfold eproj_f; now rewrite Ep.
    + intros H. econstructor; [|apply IH; exact H]. unfold eproj_f; now rewrite Ep.
  - intros [= H]. apply N.eqb_eq in H as ->. constructor.
Qed.

Lemma depends_on_false f e p to :
  depends_on_loop f e p to = ROk false -> p <> to -> ~ reaches (eproj_f e) p to.
Proof.
  revert p; induction f as [|f IH]; intros p; cbn [depends_on_loop]; [discriminate|].
  destruct (e p) as [[q kq]|] eqn:Ep.
  - destruct (N.eqb_spec q to) as [->|Hne]; [discriminate|].
    intros H Hp Hr. inversion Hr as [|t u v Ht Hr']; subst; [congruence|].
    unfold eproj_f in Ht; rewrite Ep in Ht; injection Ht as <-.
    eapply IH; eauto.
  - intros _ Hp Hr. inversion Hr as [|t u v Ht Hr']; subst; [congruence|].
    unfold eproj_f in Ht; rewrite Ep in Ht; discriminate.
Qed.

Lemma treaches_false f tr k target :
  treaches f tr k target = ROk false -> ~ reaches (tproj_f tr) k target.
Proof.
  revert k; induction f as [|f IH]; intros k; cbn [treaches]; [discriminate|].
  destruct (N.eqb_spec k target) as [->|Hne]; [discriminate|].
  destruct (tr k) as [[th k']|] eqn:Ek.
  - intros H Hr. inversion Hr as [|t u v Ht Hr']; subst; [congruence|].
    unfold tproj_f in Ht; rewrite Ek in Ht; injection Ht as <-. eapply IH; eauto.
  - intros _ Hr. inversion Hr as [|t u v Ht Hr']; subst; [congruence|].
    unfold tproj_f in Ht; rewrite Ek in Ht; discriminate.
Qed.

Lemma add_edge_ok fuel g from k to g' :
  add_edge fuel g from k to = ROk g' ->
  from <> to /\ edges g from = None /\ ~ reaches (eproj g) to from /\
  g' = set_qdeps (set_edges g (updN (edges g) from (Some (to, k))))
         (updN (qdeps g) k (qdeps g k ++ [from])).
Proof.
  unfold add_edge. destruct (N.eqb_spec from to) as [|Hne]; [discriminate|].
  destruct (edges g from) eqn:Ef; [discriminate|].
  intros H. apply bind_ok in H as (b & Hb & H). destruct b; [discriminate|].
  injection H as <-. repeat split; auto.
  eapply depends_on_false; eauto.
Qed.

Lemma add_edge_einv fuel g from k to g' :
  einv g -> wres g from = None -> add_edge fuel g from k to = ROk g' -> einv g'.
Proof.
  intros [G D ND W] Hw H. apply add_edge_ok in H as (Hne & Hf & Hr & ->).
  unfold einv; cbn. constructor.
  - eapply grounded_ext; [intros x; symmetry; apply eproj_upd|]. cbn.
    now apply upd_grounded.
  - intros d k'. unfold updN at 1 2.
    destruct (N.eqb_spec k k') as [<-|Hk], (N.eqb_spec from d) as [<-|Hd].
    + split; [eauto|]. intros _. apply In_snoc; now right.
    + rewrite In_snoc, D. split; [intros [?|?]; [auto|congruence] | auto].
    + rewrite D. split; intros [u H]; [congruence|]. injection H as _ ->; congruence.
    + apply D.
  - intros k'. unfold updN. destruct (N.eqb_spec k k') as [<-|Hk]; auto.
    apply NoDup_snoc; auto. rewrite D. intros [u H]; congruence.
  - intros t r Ht. unfold updN. destruct (N.eqb_spec from t) as [<-|Hd]; [congruence|eauto].
Qed.

Lemma unblock_runtime_ok g id r g' :
  unblock_runtime g id r = ROk g' ->
  (exists u k, edges g id = Some (u, k)) /\
  g' = set_notified (set_wres (set_edges g (updN (edges g) id None))
                              (updN (wres g) id (Some r)))
                    ((id, r) :: notified g).
Proof.
  unfold unblock_runtime. destruct (edges g id) as [[u k]|] eqn:E; [|discriminate].
  intros [= <-]. split; eauto.
Qed.

Lemma unblock_runtime_einv_p g d r g' k pend :
  einv_p (edges g) (qdeps g) (wres g) k (d :: pend) ->
  unblock_runtime g d r = ROk g' ->
  einv_p (edges g') (qdeps g') (wres g') k pend /\ qdeps g' = qdeps g.
Proof.
  intros [G D ND NP DJ W] H. apply unblock_runtime_ok in H as ((u & kd & Ed) & ->).
  cbn. split; [|reflexivity]. inversion NP as [|? ? Hd NP']; subst.
  assert (Hkd : kd = k).
  { destruct (proj1 (D d k)) as [u' Hu']; [right; split; auto; now left|]. congruence. }
  subst kd. constructor; auto.
  - eapply grounded_ext; [intros x; symmetry; apply eproj_upd|]. cbn. now apply del_grounded.
  - intros d' k'. unfold updN. destruct (N.eqb_spec d d') as [<-|Hne].
    + split; [|intros [? ?]; discriminate]. intros [Hin | [-> Hin]]; [|contradiction].
      exfalso. destruct (proj1 (D d k')) as [u' Hu']; [now left|].
      assert (k' = k) by congruence. subst. eapply DJ; [now left | exact Hin].
    + rewrite <- D. cbn. intuition congruence.
  - intros d' Hd'. apply DJ. now right.
  - intros t r' Ht. unfold updN in *. destruct (N.eqb_spec d t) as [<-|Hne]; eauto.
Qed.

Lemma unblock_fold_einv_p r k pend : forall g g',
  einv_p (edges g) (qdeps g) (wres g) k pend ->
  foldM (fun g' from_id => unblock_runtime g' from_id r) pend g = ROk g' ->
  einv g' /\ qdeps g' = qdeps g.
Proof.
  induction pend as [|d pend IH]; intros g g' HI; cbn [foldM].
  - intros [= <-]. split; auto. exact (einv_p_nil _ _ _ _ HI).
  - intros H. apply bind_ok in H as (g1 & H1 & H2).
    destruct (unblock_runtime_einv_p _ _ _ _ _ _ HI H1) as [HI1 Q1].
    destruct (IH _ _ HI1 H2) as [HI2 Q2]. split; auto. congruence.
Qed.

Lemma unblock_on_einv g k r g' :
  einv g -> unblock_runtimes_blocked_on g k r = ROk g' -> einv g' /\ qdeps g' k = [].
Proof.
  intros [G D ND W] H. unfold unblock_runtimes_blocked_on in H.
  apply unblock_fold_einv_p with (k := k) in H as [HI Q].
  - split; auto. rewrite Q. cbn. apply updN_same.
  - cbn. constructor; auto.
    + intros d k'. rewrite <- D. unfold updN. destruct (N.eqb_spec k k') as [<-|Hk].
      * cbn. intuition.
      * intuition congruence.
    + intros k'. unfold updN. destruct (k =? k'); [constructor | auto].
    + intros d _. rewrite updN_same. intros [].
Qed.

(* E-part operations leave the T-part fields alone and vice versa *)
Definition same_T (g g' : dgraph) : Prop :=
  transferred g' = transferred g /\ tdeps g' = tdeps g.
Definition same_E (g g' : dgraph) : Prop :=
  edges g' = edges g /\ qdeps g' = qdeps g /\ wres g' = wres g /\ notified g' = notified g.

Lemma same_T_refl g : same_T g g. Proof. split; reflexivity. Qed.
Lemma same_T_trans g1 g2 g3 : same_T g1 g2 -> same_T g2 g3 -> same_T g1 g3.
Proof. intros [A B] [C D]; split; congruence. Qed.
Lemma same_E_refl g : same_E g g. Proof. repeat split; reflexivity. Qed.
Lemma same_E_trans g1 g2 g3 : same_E g1 g2 -> same_E g2 g3 -> same_E g1 g3.
Proof. intros (A & B & C & D) (A' & B' & C' & D'); repeat split; congruence. Qed.

Lemma same_T_tinv g g' : same_T g g' -> tinv g -> tinv g'.
Proof. intros [A B]; unfold tinv; now rewrite A, B. Qed.
Lemma same_E_einv g g' : same_E g g' -> einv g -> einv g'.
Proof. intros (A & B & C & _); unfold einv; now rewrite A, B, C. Qed.

Lemma unblock_runtime_same_T g id r g' : unblock_runtime g id r = ROk g' -> same_T g g'.
Proof. intros H; apply unblock_runtime_ok in H as [_ ->]. split; reflexivity. Qed.

Lemma unblock_on_same_T g k r g' : unblock_runtimes_blocked_on g k r = ROk g' -> same_T g g'.
Proof.
  unfold unblock_runtimes_blocked_on. intros H.
  eapply (foldM_inv (fun g'' => same_T g g'')) in H; eauto.
  - intros s a s' _ Hs Hu. eapply same_T_trans; [exact Hs|]. eapply unblock_runtime_same_T; eauto.
  - split; reflexivity.
Qed.

Lemma unblock_on_qdeps g k r g' :
  unblock_runtimes_blocked_on g k r = ROk g' -> qdeps g' = updN (qdeps g) k [].
Proof.
  unfold unblock_runtimes_blocked_on. intros H.
  eapply (foldM_inv (fun g'' => qdeps g'' = updN (qdeps g) k [])) in H; eauto.
  intros s a s' _ Hs Hu. apply unblock_runtime_ok in Hu as [_ ->]. exact Hs.
Qed.

Lemma tdeps_remove_ok g owner k g' :
  tdeps_remove g owner k = ROk g' ->
  exists l, tdeps g owner = Some l /\
            g' = set_tdeps g (updN (tdeps g) owner (Some (set_remove k l))).
Proof. unfold tdeps_remove. destruct (tdeps g owner); [|discriminate]. intros [= <-]; eauto. Qed.

Lemma tdeps_push_ok g owner k g' :
  tdeps_push g owner k = ROk g' ->
  exists l, tdeps g owner = Some l /\ ~ In k l /\
            g' = set_tdeps g (updN (tdeps g) owner (Some (l ++ [k]))).
Proof.
  unfold tdeps_push. destruct (tdeps g owner) as [l|]; [|discriminate].
  destruct (mem k l) eqn:M; [discriminate|]. intros [= <-].
  exists l; repeat split; auto. now apply mem_false.
Qed.

Lemma detach_f tr td x th o l :
  tinv_f tr td -> tr x = Some (th, o) -> td o = Some l ->
  tinv_f (updN tr x None) (updN td o (Some (set_remove x l))).
Proof.
  intros [G I ND] Hx Ho. constructor.
  - eapply grounded_ext; [intros z; symmetry; apply tproj_upd|]. cbn. now apply del_grounded.
  - intros x' y. unfold updN. destruct (N.eqb_spec x x') as [<-|Hx'], (N.eqb_spec o y) as [<-|Hy].
    + split; [intros [? ?]; discriminate|]. intros (l' & [= <-] & Hin).
      apply set_remove_In in Hin; [tauto | eauto].
    + split; [intros [? ?]; discriminate|]. intros Hl. apply I in Hl as [th' Hl]. congruence.
    + rewrite I. split.
      * intros (l' & Hl' & Hin). assert (l' = l) by congruence. subst.
        eexists; split; eauto. apply set_remove_In; eauto.
      * intros (l' & [= <-] & Hin). apply set_remove_In in Hin; [|eauto]. exists l; tauto.
    + apply I.
  - intros y l'. unfold updN. destruct (N.eqb_spec o y) as [<-|Hy]; [|apply ND].
    intros [= <-]. apply set_remove_NoDup; eauto.
Qed.

Lemma attach_f tr td x th y :
  tinv_f tr td -> tr x = None -> ~ reaches (tproj_f tr) y x ->
  tinv_f (updN tr x (Some (th, y))) (updN td y (Some (lst (td y) ++ [x]))).
Proof.
  intros [G I ND] Hx Hr.
  assert (Hnl : forall y' l', td y' = Some l' -> ~ In x l').
  { intros y' l' Hl Hin. destruct (proj2 (I x y')) as [th' H']; eauto. congruence. }
  constructor.
  - eapply grounded_ext; [intros z; symmetry; apply tproj_upd|]. cbn. now apply upd_grounded.
  - intros x' y'. unfold updN.
    destruct (N.eqb_spec x x') as [<-|Hx'], (N.eqb_spec y y') as [<-|Hy].
    + split; [|eauto]. intros _. eexists; split; eauto. apply In_snoc; now right.
    + split.
      * intros [th' [= _ ->]]. congruence.
      * intros (l' & Hl & Hin). exfalso. eapply Hnl; eauto.
    + rewrite I. split.
      * intros (l' & Hl & Hin). rewrite Hl. cbn. eexists; split; eauto. apply In_snoc; now left.
      * intros (l' & [= <-] & Hin). apply In_snoc in Hin as [Hin|Hin]; [|congruence].
        destruct (td y) as [l|]; cbn in Hin; [eauto | destruct Hin].
    + apply I.
  - intros y' l'. unfold updN. destruct (N.eqb_spec y y') as [<-|Hy]; [|apply ND].
    intros [= <-]. apply NoDup_snoc.
    + destruct (td y) as [l|] eqn:E; cbn; [eauto | constructor].
    + destruct (td y) as [l|] eqn:E; cbn; [eauto | intros []].
Qed.

Lemma undo_transfer_lock_ok g k g' :
  undo_transfer_lock g k = ROk g' ->
  (transferred g k = None /\ g' = g) \/
  (exists th o l, transferred g k = Some (th, o) /\ tdeps g o = Some l /\
     g' = set_tdeps (set_transferred g (updN (transferred g) k None))
            (updN (tdeps g) o (Some (set_remove k l)))).
Proof.
  unfold undo_transfer_lock. destruct (transferred g k) as [[th o]|] eqn:E.
  - intros H. apply tdeps_remove_ok in H as (l & Hl & ->). right.
    exists th, o, l. repeat split; auto.
  - intros [= <-]. now left.
Qed.

Lemma undo_transfer_lock_inv g k g' :
  undo_transfer_lock g k = ROk g' ->
  same_E g g' /\ (tinv g -> tinv g' /\ transferred g' k = None).
Proof.
  intros H. apply undo_transfer_lock_ok in H as [[E ->] | (th & o & l & E & El & ->)].
  - split; [apply same_E_refl | auto].
  - split; [repeat split; reflexivity|]. intros HT. split.
    + unfold tinv; cbn. eapply detach_f; eauto.
    + cbn. apply updN_same.
Qed.

(* entering [unblock_recursive q]: [q]'s own entry and its dependents list are removed, the
   dependents become pending *)
Lemma tinv_p_open tr td q pend :
  tinv_p tr td (q :: pend) ->
  tinv_p (updN tr q None) (updN td q None) (lst (td q) ++ pend).
Proof.
  intros [G L En P ND]. constructor.
  - eapply grounded_ext; [intros z; symmetry; apply tproj_upd|]. cbn. now apply del_grounded.
  - intros x y l0. unfold updN. destruct (N.eqb_spec q y) as [<-|Hy]; [discriminate|].
    intros Hl Hin. destruct (N.eqb_spec q x) as [<-|Hx].
    + exfalso. eapply P; [now left | exact Hl | exact Hin].
    + eauto.
  - intros x th y. unfold updN at 1. destruct (N.eqb_spec q x) as [<-|Hx]; [discriminate|].
    intros Hxy. destruct (En _ _ _ Hxy) as [(l0 & Hl & Hin) | [Hq | Hin]].
    + unfold updN. destruct (N.eqb_spec q y) as [<-|Hy].
      * right. apply in_or_app; left. now rewrite Hl.
      * left; eauto.
    + congruence.
    + right. apply in_or_app; now right.
  - intros x Hx y l0. unfold updN. destruct (N.eqb_spec q y) as [<-|Hy]; [discriminate|].
    intros Hl Hin. apply in_app_or in Hx as [Hx|Hx].
    + destruct (td q) as [lq|] eqn:Eq; [|destruct Hx]. cbn in Hx.
      destruct (L _ _ _ Eq Hx) as [th1 H1]. destruct (L _ _ _ Hl Hin) as [th2 H2]. congruence.
    + eapply P; [right; exact Hx | exact Hl | exact Hin].
  - intros y l0. unfold updN. destruct (N.eqb_spec q y) as [<-|Hy]; [discriminate|]. apply ND.
Qed.

Lemma unblock_recursive_inv r : forall fuel g q g' pend,
  unblock_recursive fuel g q r = ROk g' ->
  einv g -> tinv_p (transferred g) (tdeps g) (q :: pend) ->
  einv g' /\ tinv_p (transferred g') (tdeps g') pend.
Proof.
  induction fuel as [|f IH]; intros g q g' pend; cbn [unblock_recursive]; [discriminate|].
  set (g1 := set_transferred g (updN (transferred g) q None)).
  set (l := match tdeps g1 q with Some l => l | None => [] end).
  set (g2 := set_tdeps g1 (updN (tdeps g1) q None)).
  intros H HE HT.
  assert (HE2 : einv g2) by exact HE.
  assert (HT2 : tinv_p (transferred g2) (tdeps g2) (l ++ pend)).
  { apply tinv_p_open in HT. exact HT. }
  clearbody g2 l. clear HE HT g1. revert g2 H HE2 HT2.
  induction l as [|c l IHl]; intros g2 H HE2 HT2; cbn [foldM] in H.
  - injection H as <-. auto.
  - apply bind_ok in H as (g3 & H3 & H). apply bind_ok in H3 as (g4 & H4 & H3).
    pose proof (unblock_on_same_T _ _ _ _ H4) as [S1 S2].
    apply unblock_on_einv in H4 as [HE4 _]; auto.
    destruct (IH _ _ _ (l ++ pend) H3 HE4) as [HE3 HT3].
    { rewrite S1, S2. exact HT2. }
    exact (IHl _ H HE3 HT3).
Qed.

Lemma unblock_transferred_inv fuel g k r g' :
  unblock_transferred_queries_owned_by fuel g k r = ROk g' ->
  einv g -> tinv g -> einv g' /\ tinv g'.
Proof.
  unfold unblock_transferred_queries_owned_by. intros H HE HT.
  apply bind_ok in H as (g1 & H1 & H).
  apply undo_transfer_lock_inv in H1 as [SE HT1]. destruct (HT1 HT) as [HT1' Hk].
  eapply unblock_recursive_inv with (pend := []) in H as [HE' HT'].
  - split; auto. now apply tinv_p_nil.
  - eapply same_E_einv; eauto.
  - now apply tinv_p_root.
Qed.
