(* Proto/ProofsSubtree.v — I5, second half: releasing a transfer target recursively releases
   every key whose ownership was (transitively) transferred to it, and wakes all their
   dependents with the release result. *)
From Salsa Require Import Base.
From Salsa.Proto Require Import Model ProofsGraph ProofsList ProofsInv ProofsWake.

Definition cleared (g : dgraph) (x : key) : Prop :=
  transferred g x = None /\ tdeps g x = None /\ qdeps g x = [].

Definition mono (g g' : dgraph) : Prop :=
  forall z,
    (transferred g' z = transferred g z \/ transferred g' z = None) /\
    (tdeps g' z = tdeps g z \/ tdeps g' z = None) /\
    (qdeps g' z = qdeps g z \/ qdeps g' z = []).

Lemma mono_refl g : mono g g.
Proof. intros z; auto. Qed.

Lemma mono_trans g1 g2 g3 : mono g1 g2 -> mono g2 g3 -> mono g1 g3.
Proof.
  intros A B z. destruct (A z) as (A1 & A2 & A3), (B z) as (B1 & B2 & B3).
  repeat split.
  - destruct B1 as [-> | ->]; auto.
  - destruct B2 as [-> | ->]; auto.
  - destruct B3 as [-> | ->]; auto.
Qed.

Lemma cleared_mono g g' x : cleared g x -> mono g g' -> cleared g' x.
Proof.
  intros (A & B & C) M. destruct (M x) as (M1 & M2 & M3). repeat split.
  - destruct M1 as [-> | ->]; auto.
  - destruct M2 as [-> | ->]; auto.
  - destruct M3 as [-> | ->]; auto.
Qed.

Lemma mono_sub g g' :
  mono g g' -> forall t, tproj g' t = tproj g t \/ tproj g' t = None.
Proof.
  intros M t. destruct (M t) as ([E|E] & _); unfold tproj, tproj_f; rewrite E; auto.
Qed.

Lemma unblock_on_mono g k r g' :
  unblock_runtimes_blocked_on g k r = ROk g' -> mono g g' /\ qdeps g' k = [].
Proof.
  intros H. pose proof (unblock_on_same_T _ _ _ _ H) as [S1 S2].
  apply unblock_on_qdeps in H. split.
  - intros z. rewrite S1, S2, H. repeat split; auto. unfold updN. destruct (k =? z); auto.
  - rewrite H. apply updN_same.
Qed.

(* The recursion covers the whole subtree.  [pend]: the roots an enclosing call has still to
   visit; entries below one of them are not claimed cleared. *)
Definition ur_post (g : dgraph) (q : key) (pend : list key) (g' : dgraph) : Prop :=
  mono g g' /\
  (forall z, ~ reaches (tproj g) z q -> transferred g' z = transferred g z) /\
  (transferred g' q = None /\ tdeps g' q = None) /\
  (forall x, x <> q -> reaches (tproj g) x q ->
             (forall p, In p pend -> ~ reaches (tproj g) x p) -> cleared g' x).

Lemma unblock_recursive_cover r : forall fuel g q g' pend,
  unblock_recursive fuel g q r = ROk g' ->
  einv g -> tinv_p (transferred g) (tdeps g) (q :: pend) ->
  ur_post g q pend g'.
Proof.
  induction fuel as [|f IH]; intros g q g' pend; [cbn; discriminate|].
  (* the loop over the dependents *)
  assert (Loop : forall l g2 g',
    foldM (fun g' q0 => g'' <- unblock_runtimes_blocked_on g' q0 r ;; unblock_recursive f g'' q0 r)
          l g2 = ROk g' ->
    einv g2 -> tinv_p (transferred g2) (tdeps g2) (l ++ pend) -> NoDup l ->
    tproj g2 q = None -> (forall c, In c l -> tproj g2 c = Some q) ->
    mono g2 g' /\
    (forall z, (forall c, In c l -> ~ reaches (tproj g2) z c) ->
               transferred g' z = transferred g2 z) /\
    (forall c x, In c l -> reaches (tproj g2) x c ->
                 (forall p, In p pend -> ~ reaches (tproj g2) x p) -> cleared g' x)).
  { clear g g'. induction l as [|c l IHl]; intros g2 g' H HE2 HT2 ND Hq Hc; cbn [foldM] in H.
    - injection H as <-. split; [apply mono_refl|]. split; auto. intros c x [].
    - apply bind_ok in H as (g3 & H3 & H). apply bind_ok in H3 as (g4 & H4 & H3).
      pose proof (unblock_on_same_T _ _ _ _ H4) as [S1 S2].
      pose proof (unblock_on_mono _ _ _ _ H4) as [M4 Q4].
      apply unblock_on_einv in H4 as [HE4 _]; auto.
      assert (HT4 : tinv_p (transferred g4) (tdeps g4) (c :: l ++ pend))
        by (rewrite S1, S2; exact HT2).
      assert (P4 : tproj g4 = tproj g2) by (unfold tproj; now rewrite S1).
      pose proof (IH _ _ _ _ H3 HE4 HT4) as (M3 & F3 & (C3a & C3b) & Cov3).
      destruct (unblock_recursive_inv _ _ _ _ _ _ H3 HE4 HT4) as [HE3 HT3].
      inversion ND as [|? ? Hcl ND']; subst.
      assert (Hcq : tproj g2 c = Some q) by (apply Hc; now left).
      assert (Dis : forall c' x, In c' l -> reaches (tproj g2) x c' -> ~ reaches (tproj g2) x c).
      { intros c' x Hc' Hx' Hx. eapply (siblings_disjoint (tproj g2) q c c' x); eauto.
        - apply Hc; now right.
        - intros ->; contradiction. }
      assert (Keep : forall c' , In c' l -> transferred g3 c' = transferred g2 c').
      { intros c' Hc'. rewrite F3; [now rewrite S1|]. rewrite P4.
        eapply Dis; eauto. constructor. }
      assert (M23 : mono g2 g3) by (eapply mono_trans; eauto).
      assert (Hq3 : tproj g3 q = None).
      { destruct (mono_sub _ _ M23 q) as [E|E]; congruence. }
      assert (Hc3 : forall c', In c' l -> tproj g3 c' = Some q).
      { intros c' Hc'. unfold tproj, tproj_f. rewrite (Keep _ Hc').
        apply (Hc c'). now right. }
      destruct (IHl _ _ H HE3 HT3 ND' Hq3 Hc3) as (Ml & Fl & Covl).
      split; [eapply mono_trans; eauto|]. split.
      + intros z Hz. rewrite Fl.
        * rewrite F3; [now rewrite S1|]. rewrite P4. apply Hz. now left.
        * intros c' Hc' Hr. eapply (Hz c'); [now right|].
          eapply reaches_sub; [apply (mono_sub _ _ M23) | exact Hr].
      + intros c0 x [<-|Hc0] Hx Hp.
        * (* the subtree of the head *)
          eapply cleared_mono; [|exact Ml].
          destruct (N.eq_dec x c) as [->|Hxc].
          -- repeat split; auto. destruct (M3 c) as (_ & _ & [E|E]); congruence.
          -- apply Cov3; auto; [now rewrite P4|]. rewrite P4.
             intros p Hpin. apply in_app_or in Hpin as [Hpin|Hpin]; [|now apply Hp].
             intros Hr. eapply Dis; eauto.
        * (* the subtree of a later dependent: untouched so far *)
          eapply Covl; eauto.
          -- eapply reaches_frame; [exact Hx|]. intros z Hz1 Hz2 Hz3.
             unfold tproj, tproj_f. rewrite F3; [now rewrite S1|]. rewrite P4.
             intros Hzc. eapply (Dis c0 z); eauto.
          -- intros p Hpin Hr. eapply (Hp p Hpin).
             eapply reaches_sub; [apply (mono_sub _ _ M23) | exact Hr]. }
  cbn [unblock_recursive].
  set (g1 := set_transferred g (updN (transferred g) q None)).
  set (l := match tdeps g1 q with Some l => l | None => [] end).
  set (g2 := set_tdeps g1 (updN (tdeps g1) q None)).
  intros H HE HT.
  assert (HE2 : einv g2) by exact HE.
  assert (HT2 : tinv_p (transferred g2) (tdeps g2) (l ++ pend)).
  { apply tinv_p_open in HT. exact HT. }
  assert (M2 : mono g g2).
  { intros z. subst g2 g1; cbn. unfold updN. destruct (q =? z); auto. }
  assert (Hq2 : transferred g2 q = None /\ tdeps g2 q = None).
  { subst g2 g1; cbn. now rewrite !updN_same. }
  assert (Hl : forall c, In c l -> tproj g2 c = Some q /\ c <> q /\ tproj g c = Some q).
  { intros c Hc. subst l g1; cbn in Hc.
    destruct (tdeps g q) as [lq|] eqn:Eq; [|destruct Hc].
    destruct HT as [G L _ _ _]. destruct (L _ _ _ Eq Hc) as [th Hth].
    assert (c <> q).
    { intros ->. eapply (grounded_no_self _ q G). unfold tproj_f. now rewrite Hth. }
    repeat split; auto.
    - subst g2; unfold tproj, tproj_f; cbn. rewrite updN_other by auto. now rewrite Hth.
    - unfold tproj, tproj_f. now rewrite Hth. }
  assert (NDl : NoDup l).
  { subst l g1; cbn. destruct (tdeps g q) as [lq|] eqn:Eq; [|constructor].
    destruct HT as [_ _ _ _ ND]. eauto. }
  assert (Hq2' : tproj g2 q = None).
  { unfold tproj, tproj_f. destruct Hq2 as [-> _]. reflexivity. }
  destruct (Loop l g2 g' H HE2 HT2 NDl Hq2' (fun c Hc => proj1 (Hl c Hc))) as (Ml & Fl & Covl).
  assert (Sub2 : forall t, tproj g2 t = tproj g t \/ tproj g2 t = None)
    by (apply mono_sub; exact M2).
  split; [eapply mono_trans; eauto|]. split; [|split].
  - intros z Hz. rewrite Fl.
    + subst g2 g1; cbn. rewrite updN_other; auto. intros ->. apply Hz. constructor.
    + intros c Hc Hr. apply Hz. destruct (Hl c Hc) as (_ & _ & Ec).
      eapply reaches_step_r; [|exact Ec]. eapply reaches_sub; eauto.
  - destruct Hq2 as [A B]. destruct (Ml q) as ([E|E] & [E'|E'] & _); split; congruence.
  - intros x Hxq Hx Hp.
    destruct (reaches_last _ _ _ Hx Hxq) as (c & Hxc & Ec).
    destruct HT as [G L En P ND].
    assert (Hcl : In c l).
    { unfold tproj, tproj_f in Ec. destruct (transferred g c) as [[th y]|] eqn:Etc; [|discriminate].
      injection Ec as ->.
      destruct (En _ _ _ Etc) as [(l0 & El0 & Hin) | [Hcq | Hin]].
      - subst l g1; cbn. now rewrite El0.
      - exfalso. subst c. eapply (grounded_no_self _ q G). unfold tproj_f. now rewrite Etc.
      - exfalso. eapply Hp; eauto. }
    eapply (Covl c x Hcl).
    + eapply reaches_frame; [exact Hxc|]. intros z Hz1 Hz2 Hz3.
      subst g2 g1; unfold tproj, tproj_f; cbn. rewrite updN_other; auto.
      intros Hqz; subst z. eapply (grounded_no_cycle _ c q G); eauto.
    + intros p Hpin Hr. eapply (Hp p Hpin). eapply reaches_sub; eauto.
Qed.

(* I5 (transfer target): after unblock_transferred_queries_owned_by(k, r) every key that was
   (transitively) transferred to [k] is released — no transferred entry, no dependents list,
   nobody registered as waiting — and every thread that waited for such a key has been woken
   with [r]. *)
Theorem unblock_transferred_covers fuel g k r g' :
  einv g -> tinv g ->
  unblock_transferred_queries_owned_by fuel g k r = ROk g' ->
  transferred g' k = None /\ tdeps g' k = None /\
  (forall x, x <> k -> reaches (tproj g) x k ->
     cleared g' x /\
     forall d u, edges g d = Some (u, x) -> edges g' d = None /\ wres g' d = Some r).
Proof.
  intros HE HT H.
  pose proof (unblock_transferred_inv _ _ _ _ _ H HE HT) as [HE' HT'].
  pose proof (unblock_transferred_wk _ _ _ _ _ H) as [W (NW & LW & AW & BW)].
  unfold unblock_transferred_queries_owned_by in H.
  apply bind_ok in H as (g1 & H1 & H).
  pose proof H1 as H1'. apply undo_transfer_lock_inv in H1' as [SE HT1].
  destruct (HT1 HT) as [HT1' Hk].
  assert (HE1 : einv g1) by (eapply same_E_einv; eauto).
  pose proof (tinv_p_root _ _ _ HT1' Hk) as HTp.
  destruct (unblock_recursive_cover _ _ _ _ _ _ H HE1 HTp) as (M & F & (Ck1 & Ck2) & Cov).
  split; auto. split; auto.
  intros x Hxk Hx.
  assert (Hx1 : reaches (tproj g1) x k).
  { (* undo_transfer_lock only removed k's own entry *)
    apply undo_transfer_lock_ok in H1 as [[_ ->] | (th & o & l & Ek & El & ->)]; auto.
    eapply reaches_frame; [exact Hx|]. intros z _ _ Hz. unfold tproj, tproj_f; cbn.
    now rewrite updN_other by auto. }
  assert (Cx : cleared g' x) by (apply Cov; auto; intros p []).
  split; auto.
  intros d u Ed.
  destruct (in_dec N.eq_dec d W) as [Hin|Hn].
  - destruct (AW _ Hin) as (_ & ? & ?). auto.
  - exfalso. destruct (BW _ Hn) as [K _]. unfold wait_key in K. rewrite Ed in K. cbn in K.
    destruct (edges g' d) as [[u' x']|] eqn:Ed'; [|discriminate]. cbn in K. injection K as ->.
    destruct HE' as [_ D _ _]. destruct Cx as (_ & _ & Qx).
    assert (Hd : In d (qdeps g' x)) by (apply D; eauto).
    rewrite Qx in Hd. destruct Hd.
Qed.
