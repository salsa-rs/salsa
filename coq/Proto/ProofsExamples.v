(* Proto/ProofsExamples.v — concrete traces showing that the hypotheses of the C19 theorems are
   satisfiable on non-trivial runs: a cross-thread cycle that is reported, an ownership
   transfer with hand-over wake-up and self-block, a reclaim (claimed_twice), a panicking
   release, and a transfer through the re-rooting branch. *)
From Salsa Require Import Base.
From Salsa.Proto Require Import Model ProofsGraph ProofsList ProofsInv ProofsTransfer ProofsWake
  ProofsStep.

(* threads 1, 2; queries a = 10 (claimed by thread 1), b = 20 (claimed by thread 2).
   a calls b, b calls a: cycle_a_t1_b_t2-style. *)
Definition ex_cycle : list op :=
  [ OClaim 1 10 true;               (* t1 claims a *)
    OClaim 2 20 true;               (* t2 claims b *)
    OClaim 1 20 true;               (* t1 wants b: Running(t2) *)
    OBlockOn 1 20 2;                (* t1 blocks on b@t2 *)
    OClaim 2 10 true;               (* t2 wants a: would close t2 -> t1 -> t2: Cycle *)
    OMarkTarget 2 10;               (* b is a participant of outer cycle a: transfer b -> a *)
    OTransfer 2 20 10 (OThread 1);  (* wakes t1 (Completed, hand-over), t2 blocks on a@t1 *)
    OReceive 1;                     (* t1 resumes: Completed *)
    OClaim 1 20 true;               (* t1 re-claims b, which it now owns: claimed_twice *)
    OReleaseSelf 1 20;              (* SelfOnly release: b stays Transferred *)
    ORemove 1 10;                   (* t1 panics inside a: release_panicking *)
    OUnblock 1 10 Panicked;         (* wakes t2 with Panicked *)
    OUnblockTransferred 1 10 Panicked;  (* a was a transfer target: releases b *)
    OReceive 2 ].                   (* t2 resumes: Panicked *)

Example ex_cycle_outcomes :
  option_map snd
    (match run_out 20 ex_cycle init with ROk r => Some r | RErr _ => None end) =
  Some [ XClaim (CClaimed MDefault);
         XClaim (CClaimed MDefault);
         XClaim (CRunning 2);
         XBlock BBlocked;
         XClaim (CCycle false);
         XMarked (Some (OThread 1));
         XTransfer true;
         XReceive (Some Completed);
         XClaim (CClaimed MSelfOnly);
         XSelfKept;
         XRemoved (mkSync (OThread 1) true true false);
         XUnit;
         XUnit;
         XReceive (Some Panicked) ].
Proof. vm_compute. reflexivity. Qed.

Example ex_cycle_valid : valid_client 20 ex_cycle.
Proof. apply validb_valid. vm_compute. reflexivity. Qed.

(* the release script computed by the model for the removed state is what the trace contains *)
Example ex_cycle_script :
  release_script 1 10 (mkSync (OThread 1) true true false) Panicked =
  [OUnblock 1 10 Panicked; OUnblockTransferred 1 10 Panicked].
Proof. reflexivity. Qed.

(* everybody is running again at the end and nothing is left in the graph *)
Example ex_cycle_final :
  match run 20 ex_cycle init with
  | ROk s => (edges (dg s) 1, edges (dg s) 2, wres (dg s) 1, wres (dg s) 2,
              transferred (dg s) 20, sync s 10,
              map fst (notified (dg s)))
  | RErr _ => (None, None, None, None, None, None, [])
  end = (None, None, None, None, None, None, [2; 1]).
Proof. vm_compute. reflexivity. Qed.

(* the re-rooting branch of transfer_lock (dependency_graph.rs:279-325):
   a = 10, d = 20, c = 30, b = 40, all on thread 1;
   d -> b, a -> d, c -> a, then d -> c must be rewritten to  c -> a -> b, d -> c *)
Definition ex_reroot : list op :=
  [ OClaim 1 10 true; OClaim 1 20 true; OClaim 1 30 true; OClaim 1 40 true;
    OMarkTarget 1 40; OTransfer 1 20 40 (OThread 1);        (* d -> b *)
    OClaim 1 20 true;                                       (* reclaim d (claimed_twice) *)
    OMarkTarget 1 20; OTransfer 1 10 20 (OThread 1);        (* a -> d *)
    OMarkTarget 1 10; OTransfer 1 30 10 OTransferred;       (* c -> a *)
    OMarkTarget 1 30; OTransfer 1 20 30 OTransferred ].     (* d -> c: Occupied + re-root *)

Example ex_reroot_valid : valid_client 20 ex_reroot.
Proof. apply validb_valid. vm_compute. reflexivity. Qed.

Example ex_reroot_final :
  match run 20 ex_reroot init with
  | ROk s => (option_map snd (transferred (dg s) 30), option_map snd (transferred (dg s) 10),
              option_map snd (transferred (dg s) 20), option_map snd (transferred (dg s) 40),
              tdeps (dg s) 40, tdeps (dg s) 30, tdeps (dg s) 20, tdeps (dg s) 10)
  | RErr _ => (None, None, None, None, None, None, None, None)
  end = (Some 10, Some 40, Some 30, None, Some [10], Some [20], Some [], Some [30]).
Proof. vm_compute. reflexivity. Qed.

(* the Vacant branch has no re-rooting: a client that violates [transfer_pre] there really does
   create a cycle in [transferred] — the precondition is necessary, not an artefact.
   c -> a -> d exist, d has no entry, and d is transferred to c. *)
Definition ex_vacant_cycle : list op :=
  [ OClaim 1 10 true; OClaim 1 20 true; OClaim 1 30 true;
    OMarkTarget 1 20; OTransfer 1 10 20 (OThread 1);        (* a -> d *)
    OMarkTarget 1 10; OTransfer 1 30 10 OTransferred;       (* c -> a *)
    OMarkTarget 1 30; OTransfer 1 20 30 OTransferred ].     (* d -> c, Vacant: closes a cycle *)

Example ex_vacant_cycle_not_valid : validb 20 init ex_vacant_cycle = false.
Proof. vm_compute. reflexivity. Qed.

Example ex_vacant_cycle_runs_into_cycle :
  match run 20 ex_vacant_cycle init with
  | ROk s => (option_map snd (transferred (dg s) 20), option_map snd (transferred (dg s) 30),
              option_map snd (transferred (dg s) 10))
  | RErr _ => (None, None, None)
  end = (Some 30, Some 10, Some 20).
Proof. vm_compute. reflexivity. Qed.

(* a plain wait: t2 waits for a@t1, t1 completes, t2 is woken with Completed *)
Definition ex_wait : list op :=
  [ OClaim 1 10 true; OClaim 2 10 true; OBlockOn 2 10 1;
    ORemove 1 10; OUnblock 1 10 Completed; OReceive 2 ].

Example ex_wait_valid : valid_client 20 ex_wait.
Proof. apply validb_valid. vm_compute. reflexivity. Qed.

(* reachable states used as witnesses next to the theorems in Props/C19.v *)
Lemma reachable_prefix fuel l s :
  validb fuel init l = true -> run fuel l init = ROk s -> reachable fuel s.
Proof.
  intros V R. eapply valid_from_reachable; [constructor | apply validb_valid; exact V | exact R].
Qed.

(* state after t1 blocked on b@t2 (prefix of ex_cycle): the next claim reports the cycle *)
Definition ex_blocked_state : state :=
  match run 20 (firstn 4 ex_cycle) init with ROk s => s | RErr _ => init end.

Example ex_blocked_reachable : reachable 20 ex_blocked_state.
Proof. eapply reachable_prefix with (l := firstn 4 ex_cycle); vm_compute; reflexivity. Qed.

Example ex_blocked_cycle_outcome :
  option_map snd (match step 20 ex_blocked_state (OBlockOn 2 10 1) with
                  | ROk r => Some r | RErr _ => None end) = Some (XBlock BCycle).
Proof. vm_compute. reflexivity. Qed.

(* state before the transfer (prefix of length 6): the transfer wakes t1 and blocks t2 *)
Definition ex_before_transfer : state :=
  match run 20 (firstn 6 ex_cycle) init with ROk s => s | RErr _ => init end.

Example ex_before_transfer_reachable : reachable 20 ex_before_transfer.
Proof. eapply reachable_prefix with (l := firstn 6 ex_cycle); vm_compute; reflexivity. Qed.

Example ex_before_transfer_pre : pre ex_before_transfer (OTransfer 2 20 10 (OThread 1)).
Proof. eapply (preb_pre 20). vm_compute. reflexivity. Qed.

Example ex_transfer_step :
  match step 20 ex_before_transfer (OTransfer 2 20 10 (OThread 1)) with
  | ROk (s', out) => (out, edges (dg s') 1, wres (dg s') 1, edges (dg s') 2, notified (dg s'))
  | RErr _ => (XUnit, None, None, None, [])
  end = (XTransfer true, None, Some Completed, Some (1, 10), [(1, Completed)]).
Proof. vm_compute. reflexivity. Qed.

(* state before the panicking release (prefix of length 11) *)
Definition ex_before_unblock : state :=
  match run 20 (firstn 11 ex_cycle) init with ROk s => s | RErr _ => init end.

Example ex_before_unblock_reachable : reachable 20 ex_before_unblock.
Proof. eapply reachable_prefix with (l := firstn 11 ex_cycle); vm_compute; reflexivity. Qed.

Example ex_unblock_step :
  match step 20 ex_before_unblock (OUnblock 1 10 Panicked) with
  | ROk (s', _) => (edges (dg s') 2, wres (dg s') 2, qdeps (dg s') 10)
  | RErr _ => (None, None, [])
  end = (None, Some Panicked, []).
Proof. vm_compute. reflexivity. Qed.

(* the same as a statement about the invariant: without the Vacant-branch part of
   [transfer_pre], a client that otherwise follows the documented discipline (every caller is
   running and owns what it releases; debug_asserts of transfer_lock hold) breaks I3 *)
Lemma ex_vacant_cycle_breaks_I3 :
  exists s, run 20 ex_vacant_cycle init = ROk s /\ ~ tinv (dg s).
Proof.
  destruct (run 20 ex_vacant_cycle init) as [s|e] eqn:E; [|vm_compute in E; discriminate].
  exists s. split; auto. intros [G _ _].
  assert (T : tproj_f (transferred (dg s)) 20 = Some 30 /\
              tproj_f (transferred (dg s)) 30 = Some 10 /\
              tproj_f (transferred (dg s)) 10 = Some 20)
    by (vm_compute in E; injection E as <-; repeat split; reflexivity).
  destruct T as (T20 & T30 & T10).
  eapply (grounded_no_cycle _ 20 30 G T20).
  econstructor; [exact T30|]. econstructor; [exact T10|]. constructor.
Qed.

(* every step of that trace passes the documented-discipline check except the last one, whose
   only failing conjunct is the Vacant-branch condition *)
Example ex_vacant_cycle_prefix_valid : validb 20 init (firstn 8 ex_vacant_cycle) = true.
Proof. vm_compute. reflexivity. Qed.

(* the debug_assert of update_transferred_edges (dependency_graph.rs:422-425) is a genuine
   obligation in a client model that is free to choose whom a thread blocks on: thread 2 waits
   behind two dependents (3 and 4) of the transferred query 10; only the first one is woken,
   re-pointing the second one at thread 2 would close  2 -> 4 -> 2. *)
Definition ex_edge_assert : list op :=
  [ OClaim 1 10 true; OClaim 2 20 true;
    OBlockOn 3 10 1;                 (* 3 waits for 10@1 *)
    OBlockOn 4 10 3;                 (* 4 waits for 10, registered as blocked on 3 *)
    OBlockOn 2 30 4;                 (* 2 -> 4 -> 3 -> 1 *)
    OMarkTarget 1 20;
    OTransfer 1 10 20 (OThread 2) ].

Example ex_edge_assert_fires :
  match run 20 ex_edge_assert init with ROk _ => None | RErr e => Some e end = Some EEdgeCycle.
Proof. vm_compute. reflexivity. Qed.

(* state before the recursive release of the transfer target 10 (prefix of length 12) *)
Definition ex_before_unblock_transferred : state :=
  match run 20 (firstn 12 ex_cycle) init with ROk s => s | RErr _ => init end.

Example ex_before_unblock_transferred_reachable : reachable 20 ex_before_unblock_transferred.
Proof. eapply reachable_prefix with (l := firstn 12 ex_cycle); vm_compute; reflexivity. Qed.

Example ex_unblock_transferred_step :
  match step 20 ex_before_unblock_transferred (OUnblockTransferred 1 10 Panicked) with
  | ROk (s', _) => (transferred (dg ex_before_unblock_transferred) 20,
                    transferred (dg s') 20, tdeps (dg s') 10)
  | RErr _ => (None, None, None)
  end = (Some (1, 10), None, None).
Proof. vm_compute. reflexivity. Qed.
