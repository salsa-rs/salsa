(* Proto/ProofsWake.v — I4/I5: who is woken by which function, with which result, how often.
   Everything here follows from the mere success ([ROk]) of the model functions. *)
From Salsa Require Import Base.
From Salsa.Proto Require Import Model ProofsGraph ProofsList ProofsInv.

(* the key a thread is blocked on (ghost component of its edge) *)
Definition wait_key (g : dgraph) (t : thread) : option key := option_map snd (edges g t).

Lemma wait_key_none g t : wait_key g t = None <-> edges g t = None.
Proof. unfold wait_key. destruct (edges g t); cbn; split; congruence. Qed.

(* [wkW r W g g']: going from [g] to [g'], exactly the threads in [W] (all blocked in [g]) were
   removed from [edges], each got the wait result [r] and one [notify] — in this order —
   and no other thread's blocked-on key or wait result changed. *)
Definition wkW (r : wait_result) (W : list thread) (g g' : dgraph) : Prop :=
  NoDup W /\
  notified g' = List.rev (map (fun t => (t, r)) W) ++ notified g /\
  (forall t, In t W -> edges g t <> None /\ edges g' t = None /\ wres g' t = Some r) /\
  (forall t, ~ In t W -> wait_key g' t = wait_key g t /\ wres g' t = wres g t).

Definition wk (r : wait_result) (g g' : dgraph) : Prop := exists W, wkW r W g g'.

Lemma wkW_nil r g g' :
  (forall t, wait_key g' t = wait_key g t) -> wres g' = wres g -> notified g' = notified g ->
  wkW r [] g g'.
Proof.
  intros K Wr Nt. split; [constructor|]. split; [now rewrite Nt|]. split; [intros t []|].
  intros t _. split; auto. now rewrite Wr.
Qed.

Lemma wkW_refl r g : wkW r [] g g.
Proof. now apply wkW_nil. Qed.

Lemma NoDup_app_intro {A} (l1 l2 : list A) :
  NoDup l1 -> NoDup l2 -> (forall x, In x l1 -> ~ In x l2) -> NoDup (l1 ++ l2).
Proof.
  induction l1 as [|a l1 IH]; intros N1 N2 D; cbn; auto.
  inversion N1; subst. constructor.
  - rewrite in_app_iff. intros [H|H]; [contradiction|]. eapply D; [now left | exact H].
  - apply IH; auto. intros x Hx. apply D. now right.
Qed.

Lemma wkW_trans r W1 W2 g1 g2 g3 :
  wkW r W1 g1 g2 -> wkW r W2 g2 g3 -> wkW r (W1 ++ W2) g1 g3.
Proof.
  intros (N1 & L1 & A1 & B1) (N2 & L2 & A2 & B2).
  assert (D : forall x, In x W1 -> ~ In x W2).
  { intros x H1 H2. destruct (A1 _ H1) as (_ & E & _). destruct (A2 _ H2) as (E' & _). auto. }
  split; [now apply NoDup_app_intro|]. split.
  { rewrite L2, L1, map_app, rev_app_distr, app_assoc. reflexivity. }
  split.
  - intros t Ht. apply in_app_or in Ht as [Ht|Ht].
    + destruct (A1 _ Ht) as (E0 & E1 & Wr). split; auto.
      destruct (B2 t (D _ Ht)) as [K Wr']. split.
      * apply wait_key_none. rewrite K. now apply wait_key_none.
      * congruence.
    + destruct (A2 _ Ht) as (E0 & E1 & Wr). split; auto.
      assert (Hn : ~ In t W1) by (intros H1; eapply D; eauto).
      destruct (B1 t Hn) as [K _]. intros E. apply E0. apply wait_key_none.
      rewrite K. now apply wait_key_none.
  - intros t Ht. rewrite in_app_iff in Ht.
    destruct (B1 t) as [K1 R1]; [tauto|]. destruct (B2 t) as [K2 R2]; [tauto|].
    split; congruence.
Qed.

Lemma unblock_runtime_wkW g id r g' :
  unblock_runtime g id r = ROk g' -> wkW r [id] g g'.
Proof.
  intros H. apply unblock_runtime_ok in H as ((u & k & E) & ->).
  split; [repeat constructor; intros []|]. split; [reflexivity|]. split.
  - intros t [<-|[]]. cbn. rewrite !updN_same. split; [congruence | auto].
  - intros t Ht. assert (id <> t) by (intros ->; apply Ht; now left).
    unfold wait_key; cbn. rewrite !updN_other by auto. auto.
Qed.

Lemma unblock_fold_wkW r l : forall g g',
  foldM (fun g' from_id => unblock_runtime g' from_id r) l g = ROk g' -> wkW r l g g'.
Proof.
  induction l as [|d l IH]; intros g g'; cbn [foldM].
  - intros [= <-]. apply wkW_refl.
  - intros H. apply bind_ok in H as (g1 & H1 & H2).
    apply unblock_runtime_wkW in H1. apply IH in H2.
    exact (wkW_trans _ [d] l _ _ _ H1 H2).
Qed.

(* I5, first half: releasing [k] wakes exactly the dependents of [k], all of them *)
Lemma unblock_on_wkW g k r g' :
  unblock_runtimes_blocked_on g k r = ROk g' -> wkW r (qdeps g k) g g' /\ qdeps g' k = [].
Proof.
  unfold unblock_runtimes_blocked_on. intros H.
  pose proof (unblock_on_qdeps _ _ _ _ H) as Q. apply unblock_fold_wkW in H as H0.
  split.
  - exact H0.
  - rewrite Q. apply updN_same.
Qed.

Lemma set_T_wkW r g tr td :
  wkW r [] g (set_tdeps (set_transferred g tr) td).
Proof. apply wkW_nil; reflexivity. Qed.

Lemma unblock_recursive_wk r : forall fuel g q g',
  unblock_recursive fuel g q r = ROk g' -> wk r g g'.
Proof.
  induction fuel as [|f IH]; intros g q g'; cbn [unblock_recursive]; [discriminate|].
  set (g2 := set_tdeps _ _).
  assert (H2 : wk r g g2) by (exists []; apply set_T_wkW).
  clearbody g2. generalize (match tdeps (set_transferred g (updN (transferred g) q None)) q with
                            | Some l => l | None => [] end).
  intros l. revert g2 H2. induction l as [|c l IHl]; intros g2 H2; cbn [foldM].
  - intros [= <-]. auto.
  - intros H. apply bind_ok in H as (g3 & H3 & H). apply bind_ok in H3 as (g4 & H4 & H3).
    apply unblock_on_wkW in H4 as [H4 _]. apply IH in H3 as [W3 H3].
    destruct H2 as [W2 H2]. eapply IHl; [|exact H].
    exists ((W2 ++ qdeps g2 c) ++ W3). eapply wkW_trans; [|exact H3]. eapply wkW_trans; eauto.
Qed.

Lemma undo_transfer_lock_wkW r g k g' : undo_transfer_lock g k = ROk g' -> wkW r [] g g'.
Proof.
  intros H. apply undo_transfer_lock_inv in H as [(A & B & C & D) _].
  apply wkW_nil; auto. intros t. unfold wait_key. now rewrite A.
Qed.

Lemma unblock_transferred_wk fuel g k r g' :
  unblock_transferred_queries_owned_by fuel g k r = ROk g' -> wk r g g'.
Proof.
  unfold unblock_transferred_queries_owned_by. intros H.
  apply bind_ok in H as (g1 & H1 & H). apply undo_transfer_lock_wkW with (r := r) in H1.
  apply unblock_recursive_wk in H as [W H]. exists ([] ++ W). eapply wkW_trans; eauto.
Qed.
