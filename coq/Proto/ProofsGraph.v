(* Proto/ProofsGraph.v — functional graphs [N -> option N]: chains, groundedness, reachability.
   The proof device of DESIGN §7 C19: acyclicity is stated as GROUNDEDNESS. *)
From Salsa Require Import Base.

Definition gmap := N -> option N.

(* following the edges from [t] ends at [r], which has no edge *)
Inductive chain (e : gmap) : N -> N -> Prop :=
| ch_root t : e t = None -> chain e t t
| ch_step t u r : e t = Some u -> chain e u r -> chain e t r.

Definition grounded (e : gmap) : Prop := forall t, exists r, chain e t r.

(* reflexive-transitive closure of the edge relation *)
Inductive reaches (e : gmap) : N -> N -> Prop :=
| re_refl t : reaches e t t
| re_step t u v : e t = Some u -> reaches e u v -> reaches e t v.

Lemma chain_fun e t r r' : chain e t r -> chain e t r' -> r = r'.
Proof.
  intros H; revert r'; induction H as [t Ht | t u r Ht Hc IH]; intros r' H'.
  - inversion H' as [t' Hn | t' u' r'' Hs Hc']; subst; congruence.
  - inversion H' as [t' Hn | t' u' r'' Hs Hc']; subst; try congruence.
    rewrite Ht in Hs; injection Hs as <-. now apply IH.
Qed.

Lemma chain_root_none e t r : chain e t r -> e r = None.
Proof. induction 1; auto. Qed.

Lemma chain_reaches e t r : chain e t r -> reaches e t r.
Proof. induction 1; [constructor | econstructor; eauto]. Qed.

Lemma reaches_trans e x y z : reaches e x y -> reaches e y z -> reaches e x z.
Proof. induction 1; auto. intros; econstructor; eauto. Qed.

Lemma reaches_step_r e x y z : reaches e x y -> e y = Some z -> reaches e x z.
Proof. intros H Hy; eapply reaches_trans; [exact H|]. econstructor; [exact Hy | constructor]. Qed.

Lemma reaches_chain e t u r : reaches e t u -> chain e u r -> chain e t r.
Proof. induction 1; auto. intros; econstructor; eauto. Qed.

Lemma chain_after_reaches e t u r : chain e t r -> reaches e t u -> chain e u r.
Proof.
  intros Hc Hr; revert r Hc; induction Hr as [t | t u v Ht Hr IH]; intros r Hc; auto.
  apply IH. inversion Hc as [t' Hn | t' u' r' Hs Hc']; subst; [congruence|].
  rewrite Ht in Hs; injection Hs as <-; auto.
Qed.

Lemma reaches_from_root e t u : e t = None -> reaches e t u -> u = t.
Proof. intros Hn H; inversion H; subst; auto; congruence. Qed.

(* a node with a chain to a root is not on a cycle *)
Lemma no_cycle e x r y : chain e x r -> e x = Some y -> reaches e y x -> False.
Proof.
  intros Hc; revert y; induction Hc as [x Hx | x u r Hx Hc IH]; intros y Hy Hr; [congruence|].
  rewrite Hx in Hy; injection Hy as <-.
  inversion Hr as [t | t w v Hu Hr']; subst.
  - eapply IH; [exact Hx | constructor].
  - eapply IH; [exact Hu|]. eapply reaches_step_r; eauto.
Qed.

Lemma grounded_no_cycle e x y : grounded e -> e x = Some y -> ~ reaches e y x.
Proof. intros G Hx Hr. destruct (G x) as [r Hc]. eapply no_cycle; eauto. Qed.

Lemma grounded_no_self e x : grounded e -> e x <> Some x.
Proof. intros G Hx. eapply grounded_no_cycle; eauto. constructor. Qed.

(* pointwise-equal maps *)
Lemma chain_ext e e' t r : (forall x, e x = e' x) -> chain e t r -> chain e' t r.
Proof.
  intros E; induction 1 as [t Ht | t u r Ht Hc IH].
  - constructor. now rewrite <- E.
  - econstructor; eauto. now rewrite <- E.
Qed.

Lemma grounded_ext e e' : (forall x, e x = e' x) -> grounded e -> grounded e'.
Proof. intros E G t. destruct (G t) as [r Hc]. exists r. eapply chain_ext; eauto. Qed.

Lemma reaches_ext e e' x y : (forall z, e z = e' z) -> reaches e x y -> reaches e' x y.
Proof.
  intros E; induction 1; [constructor|]. econstructor; eauto. now rewrite <- E.
Qed.

(* updates away from a chain / path *)
Lemma chain_upd_other e a v t r :
  chain e t r -> ~ reaches e t a -> chain (updN e a v) t r.
Proof.
  induction 1 as [t Ht | t u r Ht Hc IH]; intros Hn.
  - constructor. rewrite updN_other; auto. intros ->; apply Hn; constructor.
  - econstructor.
    + rewrite updN_other; eauto. intros ->; apply Hn; constructor.
    + apply IH. intros Hr; apply Hn. econstructor; eauto.
Qed.

(* a path to [a] survives any change of [a]'s own edge *)
Lemma reaches_upd_target e a v x : reaches e x a -> reaches (updN e a v) x a.
Proof.
  induction 1 as [t | t u w Ht Hr IH]; [constructor|].
  destruct (N.eq_dec t w) as [->|Hne]; [constructor|].
  econstructor; [|exact IH]. rewrite updN_other; auto.
Qed.

(* paths that do not pass [a] are not affected by a change at [a] *)
Lemma reaches_upd_inv e a v x y :
  ~ reaches e x a -> reaches (updN e a v) x y -> reaches e x y.
Proof.
  intros Hn H; induction H as [t | t u w Ht Hr IH]; [constructor|].
  assert (Hta : a <> t) by (intros ->; apply Hn; constructor).
  rewrite updN_other in Ht by auto.
  econstructor; [exact Ht|]. apply IH. intros Hr'; apply Hn; econstructor; eauto.
Qed.

(* removing edges only removes paths *)
Lemma reaches_sub e e' x y :
  (forall t, e' t = e t \/ e' t = None) -> reaches e' x y -> reaches e x y.
Proof.
  intros S; induction 1 as [t | t u w Ht Hr IH]; [constructor|].
  econstructor; [|exact IH]. destruct (S t) as [E|E]; congruence.
Qed.

(* I1 kernel: adding / redirecting the edge of [a] to [b] when [b] does not reach [a] *)
Lemma upd_grounded e a b :
  grounded e -> ~ reaches e b a -> grounded (updN e a (Some b)).
Proof.
  intros G Hn.
  assert (Hb : exists r, chain (updN e a (Some b)) b r).
  { destruct (G b) as [r Hc]. exists r. now apply chain_upd_other. }
  destruct Hb as [rb Hb].
  assert (Ha : chain (updN e a (Some b)) a rb).
  { econstructor; [apply updN_same | exact Hb]. }
  intros t. destruct (G t) as [r Hc].
  induction Hc as [t Ht | t u r Ht Hc IH].
  - destruct (N.eq_dec t a) as [->|Hne]; [eauto|].
    exists t. constructor. rewrite updN_other; auto.
  - destruct (N.eq_dec t a) as [->|Hne]; [eauto|].
    destruct IH as [r' Hr']. exists r'. econstructor; [|exact Hr'].
    rewrite updN_other; auto.
Qed.

(* removing edges keeps groundedness (unblocking, undoing a transfer) *)
Lemma sub_grounded e e' :
  (forall t, e' t = e t \/ e' t = None) -> grounded e -> grounded e'.
Proof.
  intros S G t. destruct (G t) as [r Hc].
  induction Hc as [t Ht | t u r Ht Hc IH].
  - exists t. constructor. destruct (S t); congruence.
  - destruct (S t) as [E|E].
    + destruct IH as [r' Hr']. exists r'. econstructor; [|exact Hr']. congruence.
    + exists t. now constructor.
Qed.

Lemma del_grounded e a : grounded e -> grounded (updN e a None).
Proof.
  apply sub_grounded. intros t. destruct (N.eq_dec a t) as [->|Hne].
  - right. apply updN_same.
  - left. now apply updN_other.
Qed.

(* I6 kernel: every thread transitively waits on a thread that is not blocked *)
Lemma someone_runs e : grounded e -> forall t, exists r, reaches e t r /\ e r = None.
Proof.
  intros G t. destruct (G t) as [r Hc]. exists r. split.
  - now apply chain_reaches.
  - eapply chain_root_none; eauto.
Qed.

(* finite formulation: a non-empty set of threads closed under "blocked on" contains a
   thread that is not blocked *)
Lemma not_all_blocked e (live : N -> Prop) :
  grounded e ->
  (forall t u, live t -> e t = Some u -> live u) ->
  forall t, live t -> exists r, live r /\ e r = None.
Proof.
  intros G Cl t Lt. destruct (G t) as [r Hc].
  induction Hc as [t Ht | t u r Ht Hc IH]; eauto.
Qed.

Lemma reaches_linear e x a b :
  reaches e x a -> reaches e x b -> reaches e a b \/ reaches e b a.
Proof.
  intros Ha; revert b; induction Ha as [x | x u a Hx Ha IH]; intros b Hb; [now left|].
  inversion Hb as [|t u' v Hx' Hb']; subst.
  - right. econstructor; eauto.
  - rewrite Hx in Hx'; injection Hx' as <-. now apply IH.
Qed.

Lemma reaches_frame e e' x c :
  reaches e x c ->
  (forall z, reaches e x z -> reaches e z c -> z <> c -> e' z = e z) ->
  reaches e' x c.
Proof.
  induction 1 as [x | x u c Hx Hr IH]; intros F; [constructor|].
  destruct (N.eq_dec x c) as [->|Hne]; [constructor|].
  econstructor.
  - rewrite F; [exact Hx | constructor | econstructor; eauto | exact Hne].
  - apply IH. intros z Hz1 Hz2 Hz3. apply F; auto. econstructor; eauto.
Qed.

Lemma reaches_last e x q :
  reaches e x q -> x <> q -> exists c, reaches e x c /\ e c = Some q.
Proof.
  induction 1 as [x | x u q Hx Hr IH]; intros Hne; [congruence|].
  destruct (N.eq_dec u q) as [->|Hu].
  - exists x. split; [constructor | exact Hx].
  - destruct (IH Hu) as (c & Hc & Ec). exists c. split; auto. econstructor; eauto.
Qed.

(* two different children of the same root-less parent have disjoint subtrees *)
Lemma siblings_disjoint e q c p x :
  e q = None -> e c = Some q -> e p = Some q -> c <> p ->
  reaches e x c -> reaches e x p -> False.
Proof.
  intros Hq Hc Hp Hne Hxc Hxp.
  assert (K : forall a b, e a = Some q -> e b = Some q -> a <> b -> reaches e a b -> False).
  { intros a b Ha Hb Hab Hr. inversion Hr as [|t u v Ht Hr']; subst; [congruence|].
    rewrite Ha in Ht; injection Ht as <-. apply reaches_from_root in Hr'; auto. congruence. }
  destruct (reaches_linear _ _ _ _ Hxc Hxp) as [H|H];
    [eapply (K c p) | eapply (K p c)]; eauto.
Qed.

(* walking from [x] to [a] without ever stepping INTO [q] *)
Inductive path_av (e : gmap) (q : N) : N -> N -> Prop :=
| pa_refl x : path_av e q x x
| pa_step x u a : e x = Some u -> u <> q -> path_av e q u a -> path_av e q x a.

Lemma path_av_reaches e q x a : path_av e q x a -> reaches e x a.
Proof. induction 1; [constructor | econstructor; eauto]. Qed.

Lemma path_av_to_q e q x a :
  path_av e q x a -> x <> q -> reaches e x q -> reaches e a q.
Proof.
  induction 1 as [x | x u a Hx Hu Hp IH]; intros Hne Hr; auto.
  apply IH; auto. inversion Hr as [t | t u' v Hx' Hr']; subst; [congruence|].
  rewrite Hx in Hx'; injection Hx' as <-; auto.
Qed.

(* the walk only reads nodes different from [q] and from its end point [a] (whose edge goes to q) *)
Lemma path_av_ext e e' q x a :
  path_av e q x a -> x <> q -> e a = Some q ->
  (forall z, z <> q -> z <> a -> e' z = e z) -> path_av e' q x a.
Proof.
  induction 1 as [x | x u a Hx Hu Hp IH]; intros Hne Ha E; [constructor|].
  econstructor; [| exact Hu | apply IH; auto].
  rewrite E; auto. intros ->. congruence.
Qed.

Lemma path_av_end_ne e q x a : path_av e q x a -> x <> q -> a <> q.
Proof. induction 1; auto. Qed.

Lemma updN_comm {A} (m : N -> A) a b va vb x :
  a <> b -> updN (updN m a va) b vb x = updN (updN m b vb) a va x.
Proof.
  intros Hne. unfold updN.
  destruct (N.eqb_spec b x), (N.eqb_spec a x); subst; congruence.
Qed.

Lemma updN_eq {A} (m : N -> A) k v x : updN m k v x = if k =? x then v else m x.
Proof. reflexivity. Qed.
