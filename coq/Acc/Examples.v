From Salsa Require Import Base.
From Salsa.Kern Require Import CoreK.
From Salsa.Acc Require Import Model Spec ProofsDfs ProofsSpec ProofsLoop.

(* Acc/Examples.v — a concrete, non-trivial instance of every hypothesis of the loop theorems
   of Acc/ProofsLoop.v, the view [acc_view] included: a DAG with a shared callee, a repeated
   call, a never-changing dependency whose edge is not recorded, and a sub-tree that the loop
   skips because its flag is Empty. *)

Definition q0 : qkey := (0,0). Definition q1 : qkey := (0,1). Definition q2 : qkey := (0,2).
Definition q3 : qkey := (0,3). Definition q4 : qkey := (0,4). Definition q5 : qkey := (0,5).
Definition q6 : qkey := (0,6).

(* q4 (root): push 7; call q2; call q3; call q2 again; call q5; push 8
   q2: call q1; push 20      q3: call q1 (shared); call q0 (constant, never-change, no pushes)
   q1: read input (0,0), push its value      q0: Ret 5
   q5: read input (0,1); call q6 (no pushes below: sub-tree skipped)     q6: read input (0,2) *)
Definition tbl : list (qkey * nat * body) :=
  [ (q0, 0%nat, Ret 5);
    (q1, 0%nat, RdIn (0,0) (fun a => Accum a (Ret a)));
    (q2, 1%nat, CallQ q1 (fun a => Accum 20 (Ret a)));
    (q3, 1%nat, CallQ q1 (fun a => CallQ q0 (fun b => Ret b)));
    (q6, 0%nat, RdIn (0,2) (fun a => Ret a));
    (q5, 1%nat, RdIn (0,1) (fun a => CallQ q6 (fun b => Ret a)));
    (q4, 2%nat, Accum 7 (CallQ q2 (fun a => CallQ q3 (fun b => CallQ q2 (fun c => CallQ q5 (fun d => Accum 8 (Ret a))))))) ].

Fixpoint look (t : list (qkey * nat * body)) (q : qkey) : nat * body :=
  match t with
  | [] => (0%nat, Ret 0)
  | (k, r, b) :: t' => if key_eqb k q then (r, b) else look t' q
  end.

Definition prog (q : qkey) : body := snd (look tbl q).
Definition rank (q : qkey) : nat := fst (look tbl q).
Definition noeq (_ : qkey) := false.
Definition iv (i : ikey) : val := match snd i with 0 => 3 | 1 => 4 | _ => 9 end.
Definition s_init := init iv (fun _ => 0) (fun _ => {| lru_cap := None; lru_set := [] |}).
Definition L := level false prog noeq 5.
Definition s0 := fst (step false prog noeq [] 5 100 s_init (OAccumulated q4)).
Definition r0 := snd (step false prog noeq [] 5 100 s_init (OAccumulated q4)).

(* the state in which the theorems are exercised: after a first `accumulated`, and after the
   `fetch` that starts the second one *)
Definition s1 := fst (fetch false prog noeq L q4 s0).

Definition U : list qkey := [q0; q1; q2; q3; q4; q5; q6].
Definition gsucc (q : qkey) : list edge := match d_memo s1 q with Some m => m_edges m | None => [] end.
Definition gflag (q : qkey) : bool := match d_memo s1 q with Some m => m_accin m | None => false end.
(* nothing is pushed at or below q0, q5, q6; input fields never push *)
Definition dead (k : edge) : bool :=
  match k with
  | EIn _ => true
  | EQ q => existsb (key_eqb q) [q0; q5; q6]
  end.
Definition sn := snap_of s0.
Definition NR := 3%nat.

Example ex_first_result : r0 = Ok (OL [7; 8; 20; 3]).
Proof. vm_compute. reflexivity. Qed.

Example ex_spec : spec_acc prog NR sn q4 = [7; 8; 20; 3].
Proof. vm_compute. reflexivity. Qed.

(* the edge q3 -> q0 (never-changing, nothing accumulated) is not recorded; q5's flag is Empty
   although it has edges; q1 is reachable twice; q2 is called twice *)
Example ex_shapes :
  gsucc q3 = [EQ q1] /\ gflag q5 = false /\ gsucc q5 = [EIn (0,1); EQ q6] /\
  gsucc q4 = [EQ q2; EQ q3; EQ q5] /\
  sem_succ prog NR sn q4 = [EQ q2; EQ q3; EQ q2; EQ q5] /\ sem_succ prog NR sn q3 = [EQ q1; EQ q0].
Proof. vm_compute. repeat split. Qed.

Lemma look_cases q : In q U \/ look tbl q = (0%nat, Ret 0).
Proof.
  unfold tbl, look.
  repeat match goal with
         | |- context [key_eqb ?k q] =>
             destruct (key_eqb_spec k q) as [<-|_]; [left; unfold U; cbn; tauto|]
         end.
  now right.
Qed.

Example ex_acyclic : calls_below prog rank.
Proof.
  intros q q' H. unfold prog in H. unfold rank at 2.
  destruct (look_cases q) as [Hq|Hq].
  - unfold U in Hq. cbn in Hq.
    (* for each function of U: invert [calls] down to the call sites of its body *)
    repeat (destruct Hq as [<-|Hq];
            [cbn in H;
             repeat match goal with
                    | H : calls _ _ |- _ => cbn in H; inversion H; clear H; subst
                    end;
             vm_compute; lia|]).
    destruct Hq.
  - rewrite Hq in H. cbn in H. inversion H.
Qed.

Example ex_rank_bound : forall q, (rank q < NR)%nat.
Proof.
  intros q. unfold rank. destruct (look_cases q) as [Hq|Hq].
  - unfold U in Hq. cbn in Hq.
    repeat (destruct Hq as [<-|Hq]; [vm_compute; lia|]). destruct Hq.
  - rewrite Hq. cbn. unfold NR. lia.
Qed.

Lemma dead_cases q : dead (EQ q) = true -> q = q0 \/ q = q5 \/ q = q6.
Proof.
  cbn. rewrite !orb_true_iff, !key_eqb_eq. intuition congruence.
Qed.

Lemma refresh_s1 q : In q U ->
  exists m v, refresh false prog noeq L q s1 = (s1, Ok (m, v)) /\
              d_memo s1 q = Some m /\ m_acc m = sem_own prog NR sn q.
Proof.
  intros Hq. unfold U in Hq. cbn in Hq.
  repeat (destruct Hq as [<-|Hq]; [eexists; eexists; vm_compute; repeat split|]). destruct Hq.
Qed.

Example ex_view : acc_view false prog noeq L NR sn dead gsucc gflag U (fun s => s = s1).
Proof.
  constructor.
  - intros q Hq. destruct (dead_cases q Hq) as [->|[->| ->]]; vm_compute; reflexivity.
  - intros q Hq. destruct (dead_cases q Hq) as [->|[->| ->]]; vm_compute; repeat constructor.
  - intros s q s' m v -> Hq R.
    destruct (refresh_s1 q Hq) as (m' & v' & R' & Hm & Ha). rewrite R' in R.
    pose proof (f_equal fst R) as E1. pose proof (f_equal snd R) as E2. cbn [fst snd] in E1, E2.
    injection E2 as <- <-. subst s'. split; [reflexivity|]. split; [exact Ha|].
    unfold gflag, gsucc. rewrite Hm. split; [reflexivity|]. intros _. exists m'. split; reflexivity.
  - intros q c Hq _ Hc. unfold U in Hq. cbn in Hq.
    repeat (destruct Hq as [<-|Hq];
            [vm_compute in Hc; repeat (destruct Hc as [Hc|Hc]; [try discriminate; injection Hc as <-; unfold U; cbn; tauto|]);
             destruct Hc|]).
    destruct Hq.
  - intros q Hq Hf. unfold U in Hq. cbn in Hq.
    repeat (destruct Hq as [<-|Hq]; [vm_compute in Hf; first [discriminate Hf | vm_compute; repeat constructor]|]). destruct Hq.
  - intros q Hq Hd. unfold U in Hq. cbn in Hq.
    repeat (destruct Hq as [<-|Hq]; [vm_compute in Hd; first [discriminate Hd | vm_compute; reflexivity]|]). destruct Hq.
  - intros q Hq Hd. unfold U in Hq. cbn in Hq.
    repeat (destruct Hq as [<-|Hq]; [vm_compute in Hd; first [discriminate Hd | vm_compute; repeat constructor]|]). destruct Hq.
Qed.

(* the loop started in s1 returns the specification, as [acc_loop_spec] says *)
Example ex_loop_runs :
  snd (acc_loop false prog noeq L 100 [EQ q4] [] [] s1) = Ok [7; 8; 20; 3].
Proof. vm_compute. reflexivity. Qed.

Example ex_theorem_applies : forall s' l,
  acc_loop false prog noeq L 100 [EQ q4] [] [] s1 = (s', Ok l) -> l = spec_acc prog NR sn q4.
Proof.
  intros s' l H.
  eapply (acc_loop_spec false prog noeq L NR sn rank ex_acyclic ex_rank_bound dead gsucc gflag U
            (fun s => s = s1) ex_view 100 q4 s1 s' l); [reflexivity | unfold U; cbn; tauto | exact H].
Qed.

(* and the whole operation, started in s0 *)
Example ex_accumulated_by_applies : forall s' l,
  accumulated_by false prog noeq L 100 q4 s0 = (s', Ok l) -> l = spec_acc prog NR sn q4.
Proof.
  intros s' l H.
  eapply (accumulated_by_spec false prog noeq L NR sn rank ex_acyclic ex_rank_bound dead gsucc gflag U
            (fun s => s = s1) ex_view 100 q4 s0 s' l); [unfold U; cbn; tauto | | exact H].
  intros s2 r F. unfold s1. now rewrite F.
Qed.

Example ex_accumulated_by_runs :
  snd (accumulated_by false prog noeq L 100 q4 s0) = Ok [7; 8; 20; 3].
Proof. vm_compute. reflexivity. Qed.
