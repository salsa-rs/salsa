(* Acc/AInv.v — the invariant of the Acc model (C11): the durability invariant of Core/DInv.v
   stated for Acc/Model.v, with the accumulator clauses: a memo's accumulated values are the
   from-scratch pushes of its query at verified_at ([mo_acc]); an Empty accumulated_inputs flag
   means that nothing is pushed below any function it calls ([mo_flag]); the recorded edges are
   the first occurrences of the from-scratch reads, in order, minus never-changing entries below
   which nothing is pushed ([mo_esub]: the record_input and discard_edges exceptions). *)
From Salsa Require Import Base.
From Salsa.Kern Require Import CoreK CoreKFacts.
From Salsa.Core Require DurSem.
From Salsa.Acc Require Import Model Spec ProofsDfs ProofsSpec AInvBase ADurSem.

Definition store (s : db) (q : qkey) (m : memo) : db := set_memo s (upd (d_memo s) q (Some m)).

Lemma cur_store s q m : cur (store s q m) = cur s.
Proof. reflexivity. Qed.

Section AInv.
Variable prog : qkey -> body.
Variable rank : qkey -> nat.
Hypothesis Hrank : calls_below prog rank.
Variable NF : nat.
Hypothesis Hbound : forall q, (rank q < NF)%nat.
Notation E := (E prog NF).
Notation tr := (tr prog NF).
Notation durge := (ADurSem.durge prog NF).
Notation clos := (clos prog NF).
Notation deadq := (deadq prog NF).
Notation psh := (psh prog NF).

Definition lcs (s : db) (k : dur) : rev := last_changed (d_revs s) k.

(* the stamp c is at most the current stamp of the read x (an untracked read is stamped with
   the revision of the run, which bounds every stamp) *)
Definition sle (s : db) (c : rev) (x : rd) : Prop :=
  match x with
  | RIn i => c <= f_changed (d_in s i)
  | RQ d => exists md, d_memo s d = Some md /\ c <= m_changed md
  | _ => True
  end.

Lemma sle_mono s s' c c' x :
  c' <= c -> (forall i, f_changed (d_in s i) <= f_changed (d_in s' i)) ->
  (forall d md, d_memo s d = Some md ->
     exists md', d_memo s' d = Some md' /\ m_changed md <= m_changed md') ->
  sle s c x -> sle s' c' x.
Proof.
  intros Hc Hi Hm. destruct x as [i | d | c0 |]; cbn; try tauto.
  - specialize (Hi i). lia.
  - intros (md & Hmd & Hle). destruct (Hm d md Hmd) as (md' & Hmd' & Hle').
    exists md'. split; [exact Hmd' | lia].
Qed.

(* the provenance clause of a memo or frame ([mo_stamp], [cv_stamp]) *)
Lemma stamp_mono s s' c c' (l : list rd) :
  c' <= c -> (forall i, f_changed (d_in s i) <= f_changed (d_in s' i)) ->
  (forall d md, d_memo s d = Some md ->
     exists md', d_memo s' d = Some md' /\ m_changed md <= m_changed md') ->
  c <= 1 \/ (exists x, In x l /\ sle s c x) -> c' <= 1 \/ (exists x, In x l /\ sle s' c' x).
Proof.
  intros Hc Hi Hm [A | (x & Hx & Hs)]; [left; lia | right].
  exists x. split; [exact Hx | apply (sle_mono s s' c c'); assumption].
Qed.

Lemma store_mono s q m :
  (forall m0, d_memo s q = Some m0 -> m_changed m0 <= m_changed m) ->
  forall d md, d_memo s d = Some md ->
    exists md', d_memo (store s q m) d = Some md' /\ m_changed md <= m_changed md'.
Proof.
  intros Hmono d md Hmd. unfold store; cbn. unfold upd.
  destruct (key_eqb_spec q d) as [<- | Hne].
  - exists m. split; [reflexivity | apply Hmono, Hmd].
  - exists md. split; [exact Hmd | lia].
Qed.

(* an entry of the from-scratch reads that may be missing from the recorded edges: a
   never-changing input, or a never-changing function below which nothing is pushed *)
Definition rmok (H : hist) (D : dhist) (v : rev) (e : edge) : Prop :=
  match e with
  | EIn i => D v i = 3
  | EQ d => durge H D v 3 d /\ deadq H v d
  end.

(* when the observer clause fires for an observer verified at v and d's memo md *)
Definition obs_pre (H : hist) (D : dhist) (s : db) (v : rev) (d : qkey) (md : memo) : Prop :=
  m_changed md <= v \/ exists k, durge H D v k d /\ lcs s k <= v.

(* Durability levels and revisions appear as numbers: 0 is LOW (the level an untracked read
   forces, [mo_untr]), 3 is NEVER_CHANGE ([D_NEVER]; entries at that level may be missing from
   the recorded edges), 1 is the first revision ([REV_START], [mo_order], [mo_stamp]). *)
Record amemo_ok (H : hist) (D : dhist) (s : db) (q : qkey) (m : memo) : Prop := {
  mo_order : 1 <= m_verified m /\ m_changed m <= m_verified m /\ m_verified m <= cur s;
  mo_val : forall x, m_val m = Some x -> x = E H (m_verified m) q;
  mo_reads_in : forall i, In (RIn i) (tr H (m_verified m) q) ->
                In (EIn i) (m_edges m) \/ D (m_verified m) i = 3;
  mo_reads_q : forall d, In (RQ d) (tr H (m_verified m) q) ->
               In (EQ d) (m_edges m) \/ durge H D (m_verified m) 3 d;
  mo_reads_cell : forall x, In x (tr H (m_verified m) q) -> untr x -> m_untracked m = true;
  mo_edges_q : forall d, In (EQ d) (m_edges m) -> In (RQ d) (tr H (m_verified m) q);
  mo_untr : m_untracked m = true -> m_dur m = 0;
  mo_durge : durge H D (m_verified m) (m_dur m) q;
  mo_dur3 : m_dur m <= 3;
  (* changed_at is bounded by the current stamp of something the verified run reads *)
  mo_stamp : m_changed m <= 1 \/
             exists x, In x (tr H (m_verified m) q) /\ sle s (m_changed m) x;
  (* the accumulator clauses *)
  mo_acc : m_acc m = psh H (m_verified m) q;
  mo_flag : m_accin m = false -> forall d, In (RQ d) (tr H (m_verified m) q) -> deadq H (m_verified m) d;
  mo_esub : sub_rm (rmok H D (m_verified m)) (m_edges m) (dd [] (redges (tr H (m_verified m) q)));
  mo_obs : forall d, clos H (m_verified m) q d ->
           exists md, d_memo s d = Some md /\
             (obs_pre H D s (m_verified m) d md ->
              E H (m_verified m) d = E H (m_verified md) d /\ m_dur m <= m_dur md)
}.

Record AInv (H : hist) (D : dhist) (s : db) : Prop := {
  inv_cur : 1 <= cur s;
  inv_revs : revs_ok (d_revs s);
  inv_in : forall i r, f_changed (d_in s i) <= r -> r <= cur s -> sn_in (H r) i = f_val (d_in s i);
  inv_dur : forall i r, f_changed (d_in s i) <= r -> r <= cur s -> D r i = f_dur (d_in s i);
  inv_in_le : forall i, f_changed (d_in s i) <= cur s;
  inv_cell : forall c, sn_cell (H (cur s)) c = d_cell s c;
  inv_dur3 : forall r i, D r i <= 3;
  (* the write rule: an input whose level had not been written after r is the same at r+1 *)
  inv_wr : forall r i, r < cur s -> lcs s (D r i) <= r ->
           sn_in (H (r + 1)) i = sn_in (H r) i /\ D (r + 1) i = D r i;
  inv_memo : forall q m, d_memo s q = Some m -> amemo_ok H D s q m
}.

Lemma inv_in_cur H D s i : AInv H D s -> sn_in (H (cur s)) i = f_val (d_in s i).
Proof. intros HI. apply (inv_in _ _ _ HI); [apply (inv_in_le _ _ _ HI) | lia]. Qed.

Lemma inv_dur_cur H D s i : AInv H D s -> D (cur s) i = f_dur (d_in s i).
Proof. intros HI. apply (inv_dur _ _ _ HI); [apply (inv_in_le _ _ _ HI) | lia]. Qed.

(* a level whose last write lies before the current revision is not LOW: every revision
   writes at LOW *)
Lemma lcs_pos s k a : lcs s k <= a -> a < cur s -> 1 <= k.
Proof.
  intros Hlc Ha. destruct (N.eq_dec k 0) as [-> | H0]; [|lia].
  unfold lcs in Hlc. rewrite DurSem.lc_zero in Hlc. unfold cur in Ha. lia.
Qed.

(* ---------------------------------------------------------------- stability from the write rule *)
Lemma lcs_anti H D s k k' : AInv H D s -> k <= k' -> lcs s k' <= lcs s k.
Proof. intros HI. apply DurSem.lc_anti. apply (inv_revs _ _ _ HI). Qed.

Lemma lcs_le_cur H D s k : AInv H D s -> lcs s k <= cur s.
Proof. intros HI. apply DurSem.lc_le_cur. apply (inv_revs _ _ _ HI). Qed.

Lemma stable_now H D s k a : AInv H D s -> lcs s k <= a -> wstable H D k a (cur s).
Proof.
  intros HI Hlc i Hi.
  assert (Hn : forall n r, r = a + N.of_nat n -> r <= cur s ->
                 sn_in (H r) i = sn_in (H a) i /\ D r i = D a i).
  { induction n as [|n IH]; intros r Hr Hle.
    - replace r with a by lia. split; reflexivity.
    - assert (Hr' : a + N.of_nat n <= cur s) by lia.
      destruct (IH (a + N.of_nat n) eq_refl Hr') as [A B].
      destruct (inv_wr _ _ _ HI (a + N.of_nat n) i) as [A' B'].
      + lia.
      + rewrite B. pose proof (lcs_anti H D s k (D a i) HI Hi). lia.
      + replace r with (a + N.of_nat n + 1) by lia. split; congruence. }
  intros r Ha Hb. apply (Hn (N.to_nat (r - a))); [lia | exact Hb].
Qed.

(* level 3 (NEVER_CHANGE) is stable from any revision on *)
Lemma stable_never H D s a : AInv H D s -> 1 <= a -> wstable H D 3 a (cur s).
Proof.
  intros HI Ha. apply (stable_now H D s 3 a HI).
  unfold lcs. rewrite DurSem.lc_never by lia. exact Ha.
Qed.

(* ---------------------------------------------------------------- extension within a revision *)
(* What a level function may do to the state between two API operations: revisions, inputs and
   cells stay; a memo with a value verified now stays as it is ([ext_valid]: this is what keeps
   the graph walked by the accumulated_by loop fixed); a memo verified now stays verified now
   and its durability can only grow ([ext_vcur]); changed_at only grows ([ext_mono]). *)
Record dext (s s' : db) : Prop := {
  ext_revs : d_revs s' = d_revs s;
  ext_in : d_in s' = d_in s;
  ext_cell : d_cell s' = d_cell s;
  ext_pcell : d_pcell s' = d_pcell s;
  ext_valid : forall q m, d_memo s q = Some m -> m_verified m = cur s -> m_val m <> None ->
              d_memo s' q = Some m;
  ext_vcur : forall q m, d_memo s q = Some m -> m_verified m = cur s ->
             exists m', d_memo s' q = Some m' /\ m_verified m' = cur s /\ m_dur m <= m_dur m';
  ext_mono : forall q m, d_memo s q = Some m ->
             exists m', d_memo s' q = Some m' /\ m_changed m <= m_changed m'
}.

Lemma dext_refl s : dext s s.
Proof.
  constructor; auto.
  - intros q m Hm Hv. exists m. split; [exact Hm|]. split; [exact Hv | lia].
  - intros q m Hm. exists m. split; [exact Hm | lia].
Qed.

Lemma dext_cur s s' : dext s s' -> cur s' = cur s.
Proof. intros [Hr _ _ _ _ _ _]. unfold cur. rewrite Hr. reflexivity. Qed.

Lemma dext_trans s1 s2 s3 : dext s1 s2 -> dext s2 s3 -> dext s1 s3.
Proof.
  intros H12 H23. pose proof (dext_cur _ _ H12) as Hc.
  destruct H12 as [a1 b1 c1 d1 e1 f1 h1], H23 as [a2 b2 c2 d2 e2 f2 h2].
  constructor; try congruence; auto.
  - intros q m Hm Hv Hx. apply e2; [apply e1; assumption | rewrite Hc; exact Hv | exact Hx].
  - intros q m Hm Hv. destruct (f1 q m Hm Hv) as (m' & Hm' & Hv' & Hd').
    destruct (f2 q m' Hm') as (m'' & Hm'' & Hv'' & Hd''); [rewrite Hc; exact Hv'|].
    exists m''. split; [exact Hm''|]. split; [rewrite <- Hc; exact Hv'' | lia].
  - intros q m Hm. destruct (h1 q m Hm) as (m' & Hm' & Hc').
    destruct (h2 q m' Hm') as (m'' & Hm'' & Hc'').
    exists m''. split; [exact Hm''|]. lia.
Qed.

(* a computation for a query of rank < k leaves memos of rank >= k alone *)
Definition dtouch_below (s s' : db) (k : nat) : Prop :=
  forall p, (k <= rank p)%nat -> d_memo s' p = d_memo s p.

Lemma dtouch_refl s k : dtouch_below s s k.
Proof. intros p _; reflexivity. Qed.

(* ---------------------------------------------------------------- the part of the state that matters *)
Definition dcore_eq (s s' : db) : Prop :=
  d_revs s' = d_revs s /\ d_in s' = d_in s /\ d_cell s' = d_cell s /\ d_memo s' = d_memo s.

Lemma dcore_eq_cur s s' : dcore_eq s s' -> cur s' = cur s.
Proof. intros (Hr & _). unfold cur; rewrite Hr; reflexivity. Qed.

Lemma obs_pre_core_eq H D s s' v d md :
  d_revs s' = d_revs s -> obs_pre H D s v d md -> obs_pre H D s' v d md.
Proof. intros Hr. unfold obs_pre, lcs. rewrite Hr. auto. Qed.

Lemma amemo_ok_same H D s s' q m :
  d_revs s' = d_revs s -> d_in s' = d_in s -> d_memo s' = d_memo s ->
  amemo_ok H D s q m -> amemo_ok H D s' q m.
Proof.
  intros Hr Hi Hmm Hm.
  assert (Hcur : cur s' = cur s) by (unfold cur; rewrite Hr; reflexivity).
  destruct Hm as [a b c d e f g h i k k1 k2 k3 j].
  constructor; rewrite ?Hcur; auto.
  - (* mo_stamp *) apply (stamp_mono s s' _ _ _ (N.le_refl _)) in k; [exact k | intros i0; rewrite Hi; lia |].
    intros d0 md Hmd. exists md. rewrite Hmm. split; [exact Hmd | lia].
  - (* mo_obs *) intros d0 Hd0. destruct (j d0 Hd0) as (md & Hmd & Hobs).
    exists md. split; [rewrite Hmm; exact Hmd|].
    intros Hp. apply Hobs. apply (obs_pre_core_eq H D s' s); [congruence | exact Hp].
Qed.

(* the invariant looks at the cells only in [inv_cell], at the log, the stack and the LRU
   lists not at all *)
Lemma AInv_same H D s s' :
  d_revs s' = d_revs s -> d_in s' = d_in s -> d_memo s' = d_memo s ->
  (forall c, sn_cell (H (cur s')) c = d_cell s' c) ->
  AInv H D s -> AInv H D s'.
Proof.
  intros Hr Hi Hm Hce HI.
  assert (Hcur : cur s' = cur s) by (unfold cur; rewrite Hr; reflexivity).
  destruct HI as [a a' b b' c d e f g].
  constructor; unfold lcs in *; rewrite ?Hcur, ?Hi, ?Hm, ?Hr; auto.
  - (* inv_cell *) rewrite <- Hcur. exact Hce.
  - (* inv_memo *) intros q m Hq. apply (amemo_ok_same H D s); [exact Hr | exact Hi | exact Hm | apply g; exact Hq].
Qed.

Lemma AInv_core_eq H D s s' : dcore_eq s s' -> AInv H D s -> AInv H D s'.
Proof.
  intros Hc HI. pose proof (dcore_eq_cur _ _ Hc) as Hcur. destruct Hc as (Hr & Hi & Hce & Hm).
  apply (AInv_same H D s); try assumption.
  intros c. rewrite Hcur, Hce. apply (inv_cell _ _ _ HI).
Qed.

Lemma lcs_store s q m k : lcs (store s q m) k = lcs s k.
Proof. reflexivity. Qed.

(* The frame rule: store a memo verified now.  Besides the new memo being ok, every other memo
   that observes q must be served by the new memo, and a memo of q already verified now must
   not be contradicted ([ext_valid], [ext_vcur], [ext_mono]). *)
Lemma AInv_store H D s q m :
  AInv H D s ->
  m_verified m = cur s ->
  amemo_ok H D (store s q m) q m ->
  (forall g mg, d_memo s g = Some mg -> g <> q -> clos H (m_verified mg) g q ->
     obs_pre H D s (m_verified mg) q m ->
     E H (m_verified mg) q = E H (cur s) q /\ m_dur mg <= m_dur m) ->
  (forall m0, d_memo s q = Some m0 -> m_verified m0 = cur s ->
     (m_val m0 <> None -> m0 = m) /\ m_dur m0 <= m_dur m) ->
  (forall m0, d_memo s q = Some m0 -> m_changed m0 <= m_changed m) ->
  AInv H D (store s q m) /\ dext s (store s q m).
Proof.
  intros HI Hv Hok Hobs Hsame Hmono.
  destruct HI as [a a' b b' c d e f g].
  split.
  - constructor; rewrite ?cur_store; auto.
    intros p mp Hp. unfold store in Hp; cbn in Hp. unfold upd in Hp.
    destruct (key_eqb_spec q p) as [<- | Hne].
    + injection Hp as <-. exact Hok.
    + specialize (g p mp Hp). destruct g as [g1 g2 g3 g4 g5 g6 g7 g8 g9 g11 g12 g13 g14 g10].
      constructor; rewrite ?cur_store; auto.
      { apply (stamp_mono s (store s q m) _ _ _ (N.le_refl _)) in g11;
          [exact g11 | intros i0; cbn; lia | apply store_mono, Hmono]. }
      intros d0 Hd0. destruct (g10 d0 Hd0) as (md & Hmd & Hmdo).
      unfold store; cbn. unfold upd. destruct (key_eqb_spec q d0) as [<- | Hne0].
      * exists m. split; [reflexivity|]. intros Hp0. rewrite Hv.
        apply (Hobs p mp Hp); [congruence | exact Hd0 | exact Hp0].
      * exists md. split; [exact Hmd | exact Hmdo].
  - constructor; try reflexivity; try (intros Hev0; exact Hev0).
    + intros p mp Hp Hvp Hxp. unfold store; cbn. unfold upd.
      destruct (key_eqb_spec q p) as [<- | Hne]; [|exact Hp].
      destruct (Hsame mp Hp Hvp) as [Heq _]. rewrite (Heq Hxp). reflexivity.
    + intros p mp Hp Hvp. unfold store; cbn. unfold upd.
      destruct (key_eqb_spec q p) as [<- | Hne].
      * exists m. split; [reflexivity|]. split; [exact Hv|].
        destruct (Hsame mp Hp Hvp) as [_ Hle]. exact Hle.
      * exists mp. split; [exact Hp|]. split; [exact Hvp | lia].
    + apply store_mono, Hmono.
Qed.

Lemma dtouch_store s q m k : (rank q < k)%nat -> dtouch_below s (store s q m) k.
Proof.
  intros Hk p Hp. assert (Hne : q <> p) by (intros ->; lia).
  unfold store; cbn. apply upd_other; exact Hne.
Qed.

(* ---------------------------------------------------------------- panics that may escape a request *)
Definition dallowed (s : db) (p : panic) : Prop :=
  p = PInjected /\ exists c, d_pcell s c <> 0.

Lemma dallowed_ext s s' p : d_pcell s' = d_pcell s -> dallowed s' p -> dallowed s p.
Proof. intros He [-> (c & Hc)]. split; [reflexivity|]. exists c. rewrite <- He. exact Hc. Qed.

End AInv.
