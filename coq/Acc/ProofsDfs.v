(* Acc/ProofsDfs.v — pure facts about the depth-first collection of accumulated values.

   [dfs succ v ks o]: visiting the roots [ks] in order, starting with the visited set [v],
   first-visits exactly the nodes [o], in this order (recursive pre-order DFS).
   [ploop]: the stack loop of accumulated_by over a fixed graph.

   - ploop_dfs        the stack loop computes the recursive pre-order
   - dfs_fun          the visiting order is unique
   - dfs_nodup/new    every node is visited at most once, and only if it was not visited before
   - dfs_closed       every root and every successor of a visited node ends up visited
   - dfs_reach        every visited node is reachable from a root
   - dfs_dd           repeated entries of a successor list are irrelevant
   - dfs_live         the live nodes of a traversal are the traversal of the live sub-graph
   - dfs_dead         successor lists may lose or gain *dead* entries (nodes below which no
                      value is pushed) without changing the collected values: this is the
                      soundness of skipping a sub-tree whose flag is Empty and of not recording
                      a never-changing dependency that has no accumulated values            *)
From Salsa Require Import Base.
From Salsa.Acc Require Import Model.

Lemma edge_eqb_eq a b : edge_eqb a b = true <-> a = b.
Proof.
  destruct a as [i|p], b as [j|q]; cbn; try (split; congruence).
  - rewrite key_eqb_eq; split; congruence.
  - rewrite key_eqb_eq; split; congruence.
Qed.

Lemma edge_eqb_refl a : edge_eqb a a = true.
Proof. now apply edge_eqb_eq. Qed.

Lemma edge_eq_dec (a b : edge) : {a = b} + {a <> b}.
Proof.
  destruct (edge_eqb a b) eqn:E.
  - left; now apply edge_eqb_eq.
  - right; intros H; apply edge_eqb_eq in H; congruence.
Qed.

Definition mem (k : edge) (l : list edge) : bool := existsb (edge_eqb k) l.

Lemma mem_In k l : mem k l = true <-> In k l.
Proof.
  unfold mem; rewrite existsb_exists; split.
  - intros (x & Hx & E). apply edge_eqb_eq in E. now subst.
  - intros H. exists k. split; [exact H | apply edge_eqb_refl].
Qed.

Lemma mem_nIn k l : mem k l = false <-> ~ In k l.
Proof. rewrite <- mem_In. destruct (mem k l); split; congruence. Qed.

Definition seteq (v w : list edge) : Prop := forall k, In k v <-> In k w.

Lemma seteq_refl v : seteq v v. Proof. intros k. reflexivity. Qed.
Lemma seteq_sym v w : seteq v w -> seteq w v. Proof. intros E k. symmetry. apply E. Qed.
Lemma seteq_trans u v w : seteq u v -> seteq v w -> seteq u w.
Proof. intros A B k. rewrite (A k). apply B. Qed.
Lemma seteq_cons k v w : seteq v w -> seteq (k :: v) (k :: w).
Proof. intros E x. cbn. rewrite (E x). reflexivity. Qed.
Lemma seteq_app o v w : seteq v w -> seteq (o ++ v) (o ++ w).
Proof. intros E x. rewrite !in_app_iff, (E x). reflexivity. Qed.

(* The visited set after a node is finished, as the traversal builds it (the node, then what
   was first-visited below it, then what was first-visited after it) and as the stack loop
   sees it (latest first). *)
Lemma seteq_visit1 k o v : seteq ((k :: o) ++ v) (o ++ k :: v).
Proof. intros x. cbn. rewrite !in_app_iff. cbn. tauto. Qed.

Lemma seteq_swap a b v : seteq ((a ++ b) ++ v) (b ++ a ++ v).
Proof. intros x. rewrite !in_app_iff. tauto. Qed.

Lemma seteq_visit2 k o1 o2 v : seteq ((k :: o1 ++ o2) ++ v) (o2 ++ o1 ++ k :: v).
Proof.
  apply (seteq_trans _ _ _ (seteq_swap (k :: o1) o2 v)), seteq_app, seteq_visit1.
Qed.

Lemma nodup_app {A} (a b : list A) :
  NoDup a -> NoDup b -> (forall x, In x a -> In x b -> False) -> NoDup (a ++ b).
Proof.
  induction 1 as [|x a Hx _ IH]; intros Hb Hd; cbn; [exact Hb|].
  constructor.
  - rewrite in_app_iff. intros [H|H]; [now apply Hx | apply (Hd x); [now left | exact H]].
  - apply IH; [exact Hb|]. intros y Hy. apply Hd. now right.
Qed.

(* values contributed by a node *)
Definition oown (own : qkey -> list val) (k : edge) : list val :=
  match k with EIn _ => [] | EQ q => own q end.
Definition outs (own : qkey -> list val) (o : list edge) : list val := flat_map (oown own) o.

Lemma outs_app own a b : outs own (a ++ b) = outs own a ++ outs own b.
Proof. unfold outs. apply flat_map_app. Qed.

Section Graph.
Variable succ : qkey -> list edge.

(* ---------------------------------------------------------------- the recursive DFS *)
Inductive dfs : list edge -> list edge -> list edge -> Prop :=
| dfs_nil v : dfs v [] []
| dfs_seen v k ks o : In k v -> dfs v ks o -> dfs v (k :: ks) o
| dfs_in v i ks o : ~ In (EIn i) v -> dfs (EIn i :: v) ks o -> dfs v (EIn i :: ks) (EIn i :: o)
| dfs_q v q ks o1 o2 : ~ In (EQ q) v ->
    dfs (EQ q :: v) (succ q) o1 -> dfs (o1 ++ EQ q :: v) ks o2 ->
    dfs v (EQ q :: ks) (EQ q :: o1 ++ o2).

Lemma dfs_seteq v ks o : dfs v ks o -> forall w, seteq v w -> dfs w ks o.
Proof.
  induction 1 as [v|v k ks o Hin _ IH|v i ks o Hn _ IH|v q ks o1 o2 Hn _ IH1 _ IH2]; intros w E.
  - constructor.
  - apply dfs_seen; [now apply E | now apply IH].
  - apply dfs_in; [rewrite <- (E (EIn i)); exact Hn | apply IH, seteq_cons, E].
  - apply dfs_q; [rewrite <- (E (EQ q)); exact Hn | apply IH1, seteq_cons, E |].
    apply IH2, seteq_app, seteq_cons, E.
Qed.

(* the visiting order is a function of the start *)
Lemma dfs_fun v ks o : dfs v ks o -> forall o', dfs v ks o' -> o = o'.
Proof.
  induction 1 as [v|v k ks o Hin _ IH|v i ks o Hn _ IH|v q ks o1 o2 Hn _ IH1 _ IH2]; intros o' D.
  - inversion D; reflexivity.
  - inversion D; subst; try contradiction. now apply IH.
  - inversion D; subst; try contradiction. f_equal. now apply IH.
  - inversion D as [| |  | v' q' ks' p1 p2 Hn' D1 D2]; subst; try contradiction.
    apply IH1 in D1. subst p1. apply IH2 in D2. now subst p2.
Qed.

Lemma dfs_app_inv a : forall v b o, dfs v (a ++ b) o ->
  exists o1 o2, dfs v a o1 /\ dfs (o1 ++ v) b o2 /\ o = o1 ++ o2.
Proof.
  induction a as [|k a IH]; intros v b o D; cbn in D.
  - exists [], o. repeat split; [constructor | exact D].
  - inversion D as [|v' k' ks' o' Hin D'|v' i ks' o' Hn D'|v' q ks' p1 p2 Hn D1 D2]; subst.
    + destruct (IH _ _ _ D') as (o1 & o2 & A & B & E).
      exists o1, o2. repeat split; [now apply dfs_seen | exact B | exact E].
    + destruct (IH _ _ _ D') as (o1 & o2 & A & B & E).
      exists (EIn i :: o1), o2. repeat split.
      * now apply dfs_in.
      * apply (dfs_seteq _ _ _ B), seteq_sym, seteq_visit1.
      * cbn. now rewrite E.
    + destruct (IH _ _ _ D2) as (o1 & o2 & A & B & E).
      exists (EQ q :: p1 ++ o1), o2. repeat split.
      * now apply dfs_q.
      * apply (dfs_seteq _ _ _ B), seteq_sym, seteq_visit2.
      * cbn. rewrite E. now rewrite app_assoc.
Qed.

Lemma dfs_app v a o1 : dfs v a o1 -> forall b o2, dfs (o1 ++ v) b o2 -> dfs v (a ++ b) (o1 ++ o2).
Proof.
  induction 1 as [v|v k ks o Hin _ IH|v i ks o Hn _ IH|v q ks p1 p2 Hn D1 _ _ IH2]; intros b o2 D; cbn.
  - exact D.
  - apply dfs_seen; [exact Hin | now apply IH].
  - apply dfs_in; [exact Hn|]. apply IH, (dfs_seteq _ _ _ D), seteq_visit1.
  - rewrite <- app_assoc. apply dfs_q; [exact Hn | exact D1 |].
    apply IH2, (dfs_seteq _ _ _ D), seteq_visit2.
Qed.

(* ---------------------------------------------------------------- each node once *)
Lemma dfs_new v ks o : dfs v ks o -> forall k, In k o -> ~ In k v.
Proof.
  induction 1 as [v|v k ks o Hin _ IH|v i ks o Hn _ IH|v q ks o1 o2 Hn _ IH1 _ IH2]; intros x Hx.
  - destruct Hx.
  - now apply IH.
  - destruct Hx as [<-|Hx]; [exact Hn|]. intros Hv. apply (IH _ Hx). now right.
  - destruct Hx as [<-|Hx]; [exact Hn|]. apply in_app_iff in Hx. destruct Hx as [Hx|Hx].
    + intros Hv. apply (IH1 _ Hx). now right.
    + intros Hv. apply (IH2 _ Hx). apply in_app_iff. right. now right.
Qed.

Lemma dfs_nodup v ks o : dfs v ks o -> NoDup o.
Proof.
  induction 1 as [v|v k ks o Hin _ IH|v i ks o Hn D IH|v q ks o1 o2 Hn D1 IH1 D2 IH2].
  - constructor.
  - exact IH.
  - constructor; [|exact IH]. intros Hx. apply (dfs_new _ _ _ D _ Hx). now left.
  - constructor.
    + intros Hx. apply in_app_iff in Hx. destruct Hx as [Hx|Hx].
      * apply (dfs_new _ _ _ D1 _ Hx). now left.
      * apply (dfs_new _ _ _ D2 _ Hx). apply in_app_iff. right. now left.
    + apply nodup_app; [exact IH1 | exact IH2 |].
      intros x H1 H2. apply (dfs_new _ _ _ D2 _ H2). apply in_app_iff. now left.
Qed.

(* ---------------------------------------------------------------- closure and reachability *)
Lemma dfs_roots v ks o : dfs v ks o -> forall k, In k ks -> In k (o ++ v).
Proof.
  induction 1 as [v|v k ks o Hin _ IH|v i ks o Hn _ IH|v q ks o1 o2 Hn _ IH1 _ IH2]; intros x Hx.
  - destruct Hx.
  - destruct Hx as [<-|Hx]; [apply in_app_iff; now right | now apply IH].
  - destruct Hx as [<-|Hx]; [now left|]. apply (seteq_visit1 (EIn i) o v x), IH, Hx.
  - destruct Hx as [<-|Hx]; [now left|]. apply (seteq_visit2 (EQ q) o1 o2 v x), IH2, Hx.
Qed.

Lemma dfs_closed v ks o : dfs v ks o ->
  forall q c, In (EQ q) o -> In c (succ q) -> In c (o ++ v).
Proof.
  induction 1 as [v|v k ks o Hin _ IH|v i ks o Hn _ IH|v q ks o1 o2 Hn D1 IH1 D2 IH2]; intros p c Hp Hc.
  - destruct Hp.
  - now apply (IH p c).
  - destruct Hp as [Hp|Hp]; [discriminate|]. apply (seteq_visit1 (EIn i) o v c), (IH p c Hp Hc).
  - apply (seteq_visit2 (EQ q) o1 o2 v c). destruct Hp as [Hp|Hp].
    + injection Hp as <-. apply in_or_app. right. exact (dfs_roots _ _ _ D1 c Hc).
    + apply in_app_iff in Hp. destruct Hp as [Hp|Hp].
      * apply in_or_app. right. exact (IH1 p c Hp Hc).
      * exact (IH2 p c Hp Hc).
Qed.

Inductive reach : edge -> edge -> Prop :=
| reach_refl k : reach k k
| reach_step q c k : In c (succ q) -> reach c k -> reach (EQ q) k.

Lemma dfs_reach v ks o : dfs v ks o -> forall k, In k o -> exists r, In r ks /\ reach r k.
Proof.
  induction 1 as [v|v k ks o Hin _ IH|v i ks o Hn _ IH|v q ks o1 o2 Hn _ IH1 _ IH2]; intros x Hx.
  - destruct Hx.
  - destruct (IH _ Hx) as (r & Hr & R). exists r. split; [now right | exact R].
  - destruct Hx as [<-|Hx]; [exists (EIn i); split; [now left | constructor]|].
    destruct (IH _ Hx) as (r & Hr & R). exists r. split; [now right | exact R].
  - destruct Hx as [<-|Hx]; [exists (EQ q); split; [now left | constructor]|].
    apply in_app_iff in Hx. destruct Hx as [Hx|Hx].
    + destruct (IH1 _ Hx) as (r & Hr & R). exists (EQ q). split; [now left | eapply reach_step; eauto].
    + destruct (IH2 _ Hx) as (r & Hr & R). exists r. split; [now right | exact R].
Qed.

(* ---------------------------------------------------------------- repeated entries *)
(* first occurrences of [l] that are not in [seen] *)
Fixpoint dd (seen l : list edge) : list edge :=
  match l with
  | [] => []
  | k :: l' => if mem k seen then dd seen l' else k :: dd (k :: seen) l'
  end.

Lemma dfs_tail k l l' v o :
  (forall v' o', (forall x, In x v -> In x v') -> In k v' -> dfs v' l o' -> dfs v' l' o') ->
  dfs v (k :: l) o -> dfs v (k :: l') o.
Proof.
  intros T D.
  inversion D as [|v' k' ks' o' Hin D'|v' i ks' o' Hn D'|v' q ks' p1 p2 Hn D1 D2]; subst.
  - apply dfs_seen; [exact Hin|]. apply T; [auto | exact Hin | exact D'].
  - apply dfs_in; [exact Hn|]. apply T; [intros x Hx; now right | now left | exact D'].
  - apply dfs_q; [exact Hn | exact D1 |]. apply T; [| | exact D2].
    + intros x Hx. apply in_or_app. right. now right.
    + apply in_or_app. right. now left.
Qed.

Lemma dfs_dd l : forall seen v o, (forall k, In k seen -> In k v) ->
  (dfs v l o <-> dfs v (dd seen l) o).
Proof.
  induction l as [|k l IH]; intros seen v o S; cbn; [tauto|].
  destruct (mem k seen) eqn:M.
  - apply mem_In in M. pose proof (S _ M) as Hv. rewrite <- (IH seen v o S). split.
    + intros D. inversion D; subst; try contradiction. assumption.
    + intros D. now apply dfs_seen.
  - assert (S' : forall v', (forall x, In x v -> In x v') -> In k v' ->
                   forall x, In x (k :: seen) -> In x v').
    { intros v' Hv Hk x [<-|Hx]; [exact Hk | apply Hv, S, Hx]. }
    split; apply dfs_tail; intros v' o' Hv Hk; apply (IH (k :: seen) v' o' (S' v' Hv Hk)).
Qed.

(* ---------------------------------------------------------------- the stack loop *)
Variable own : qkey -> list val.
Local Notation outs := (outs own).

Fixpoint ploop (n : nat) (stack vis : list edge) (out : list val) : option (list val) :=
  match n with
  | O => None
  | S n' =>
      match stack with
      | [] => Some out
      | k :: st =>
          if mem k vis then ploop n' st vis out
          else match k with
               | EIn _ => ploop n' st (k :: vis) out
               | EQ q => ploop n' (succ q ++ st) (k :: vis) (out ++ own q)
               end
      end
  end.

Theorem ploop_dfs n : forall stack vis out r,
  ploop n stack vis out = Some r -> exists o, dfs vis stack o /\ r = out ++ outs o.
Proof.
  induction n as [|n IH]; intros stack vis out r H; cbn in H; [discriminate|].
  destruct stack as [|k st].
  - injection H as <-. exists []. split; [constructor | cbn; now rewrite app_nil_r].
  - destruct (mem k vis) eqn:M.
    + apply IH in H. destruct H as (o & D & E). exists o. split; [|exact E].
      apply dfs_seen; [now apply mem_In | exact D].
    + apply mem_nIn in M. destruct k as [i|q].
      * apply IH in H. destruct H as (o & D & E). exists (EIn i :: o). split; [now apply dfs_in|].
        cbn. exact E.
      * apply IH in H. destruct H as (o & D & E).
        apply dfs_app_inv in D. destruct D as (o1 & o2 & D1 & D2 & ->).
        exists (EQ q :: o1 ++ o2). split; [now apply dfs_q|].
        cbn. rewrite E. now rewrite <- app_assoc.
Qed.

(* the loop only tests membership in the visited list *)
Lemma ploop_seteq n : forall st v w out r,
  seteq v w -> ploop n st v out = Some r -> ploop n st w out = Some r.
Proof.
  induction n as [|n IHn]; intros st v w out r E H; cbn in *; [discriminate|].
  destruct st as [|k st]; [exact H|].
  assert (Hm : mem k w = mem k v).
  { destruct (mem k v) eqn:A; [apply mem_In, E, mem_In, A|].
    apply mem_nIn. rewrite <- (E k). now apply mem_nIn. }
  rewrite Hm. destruct (mem k v); [eapply IHn; eauto|].
  destruct k; (eapply IHn; [apply seteq_cons, E | exact H]).
Qed.

(* conversely the loop terminates with the recursive order, given enough iterations *)
Theorem dfs_ploop v ks o : dfs v ks o ->
  forall st out, exists n0, forall n r, ploop n st (o ++ v) (out ++ outs o) = Some r ->
    ploop (n0 + n) (ks ++ st) v out = Some r.
Proof.
  induction 1 as [v|v k ks o Hin _ IH|v i ks o Hn _ IH|v q ks o1 o2 Hn _ IH1 _ IH2]; intros st out.
  - exists O. intros n r H. cbn in *. now rewrite app_nil_r in H.
  - destruct (IH st out) as (n0 & Hn0). exists (S n0). intros n r H. cbn.
    apply mem_In in Hin. rewrite Hin. now apply Hn0.
  - destruct (IH st out) as (n0 & Hn0). exists (S n0). intros n r H. cbn.
    apply mem_nIn in Hn. rewrite Hn. apply Hn0.
    change (outs (EIn i :: o)) with (outs o) in H.
    exact (ploop_seteq _ _ _ _ _ _ (seteq_visit1 _ _ _) H).
  - destruct (IH2 st (out ++ own q ++ outs o1)) as (n2 & Hn2).
    destruct (IH1 (ks ++ st) (out ++ own q)) as (n1 & Hn1).
    exists (S (n1 + n2)). intros n r H. cbn.
    apply mem_nIn in Hn. rewrite Hn.
    replace (n1 + n2 + n)%nat with (n1 + (n2 + n))%nat by lia.
    apply Hn1. rewrite <- app_assoc. apply Hn2.
    change (outs (EQ q :: o1 ++ o2)) with (own q ++ outs (o1 ++ o2)) in H. rewrite outs_app in H.
    rewrite <- ?app_assoc. rewrite <- ?app_assoc in H.
    exact (ploop_seteq _ _ _ _ _ _ (seteq_visit2 _ _ _ _) H).
Qed.

End Graph.

(* ---------------------------------------------------------------- dead entries *)
Section Dead.
Variable own : qkey -> list val.
Variable dead : edge -> bool.
Hypothesis dead_own : forall q, dead (EQ q) = true -> own q = [].

Definition live (k : edge) : bool := negb (dead k).
Definition alldead (l : list edge) : Prop := Forall (fun k => dead k = true) l.

(* visited sets that agree on live nodes *)
Definition eqv (v w : list edge) : Prop := forall k, dead k = false -> (In k v <-> In k w).

Lemma filter_live_cons k l :
  filter live (k :: l) = if dead k then filter live l else k :: filter live l.
Proof. cbn. unfold live. destruct (dead k); reflexivity. Qed.

Lemma filter_live_alldead l : alldead l -> filter live l = [].
Proof.
  induction 1 as [|k l Hk _ IH]; [reflexivity|]. rewrite filter_live_cons, Hk. exact IH.
Qed.

(* agreeing on live nodes is having the same live members; the facts about [eqv] below are
   those about [seteq] read through this *)
Lemma eqv_filter v w : eqv v w <-> seteq (filter live v) (filter live w).
Proof.
  split.
  - intros E k. rewrite !filter_In. unfold live. destruct (dead k) eqn:Dk; cbn.
    + split; intros [_ A]; discriminate A.
    + rewrite (E k Dk). reflexivity.
  - intros E k Dk. specialize (E k). rewrite !filter_In in E. unfold live in E. rewrite Dk in E.
    split; intros A; apply E; (split; [exact A | reflexivity]).
Qed.

Lemma eqv_refl v : eqv v v. Proof. apply eqv_filter, seteq_refl. Qed.
Lemma eqv_sym v w : eqv v w -> eqv w v.
Proof. intros E. apply eqv_filter, seteq_sym, eqv_filter, E. Qed.
Lemma eqv_trans u v w : eqv u v -> eqv v w -> eqv u w.
Proof.
  intros A B. apply eqv_filter, (seteq_trans _ (filter live v)); apply eqv_filter; assumption.
Qed.
Lemma eqv_cons k v w : eqv v w -> eqv (k :: v) (k :: w).
Proof.
  intros E. apply eqv_filter. rewrite !filter_live_cons.
  destruct (dead k); [|apply seteq_cons]; apply eqv_filter, E.
Qed.
Lemma eqv_dead_app o v : alldead o -> eqv (o ++ v) v.
Proof.
  intros A. apply eqv_filter. rewrite filter_app, (filter_live_alldead _ A). apply seteq_refl.
Qed.
Lemma eqv_app o v w : eqv v w -> eqv (o ++ v) (o ++ w).
Proof. intros E. apply eqv_filter. rewrite !filter_app. apply seteq_app, eqv_filter, E. Qed.

Lemma eqv_dead_cons k v : dead k = true -> eqv (k :: v) v.
Proof. intros Hk. apply (eqv_dead_app [k]). now constructor. Qed.

Lemma eqv_live_app o v : eqv (filter live o ++ v) (o ++ v).
Proof.
  intros k Hk. rewrite !in_app_iff, filter_In. unfold live. rewrite Hk.
  split; [intros [[A _]|A]; auto | intros [A|A]; auto].
Qed.

Lemma outs_live o : outs own (filter live o) = outs own o.
Proof.
  induction o as [|k o IH]; [reflexivity|]. rewrite filter_live_cons.
  destruct (dead k) eqn:Dk.
  - rewrite IH. destruct k as [i|q]; [reflexivity|].
    change (outs own (EQ q :: o)) with (own q ++ outs own o). now rewrite (dead_own q Dk).
  - change (oown own k ++ outs own (filter live o) = oown own k ++ outs own o). now rewrite IH.
Qed.

Section OneGraph.
Variable succ : qkey -> list edge.
Hypothesis dead_closed : forall q, dead (EQ q) = true -> alldead (succ q).

Lemma dfs_alldead v ks o : dfs succ v ks o -> alldead ks -> alldead o.
Proof.
  induction 1 as [v|v k ks o Hin _ IH|v i ks o Hn _ IH|v q ks o1 o2 Hn _ IH1 _ IH2]; intros A.
  - constructor.
  - inversion A; subst. now apply IH.
  - inversion A; subst. constructor; [assumption | now apply IH].
  - inversion A as [|? ? Hq A']; subst. constructor; [exact Hq|].
    apply Forall_app. split; [apply IH1, dead_closed, Hq | now apply IH2].
Qed.

Lemma dfs_live g : (forall q, dead (EQ q) = false -> g q = filter live (succ q)) ->
  forall v ks o, dfs succ v ks o ->
  forall w, eqv v w -> dfs g w (filter live ks) (filter live o).
Proof.
  intros Hg.
  induction 1 as [v|v k ks o Hin _ IH|v i ks o Hn _ IH|v q ks o1 o2 Hn D1 IH1 _ IH2]; intros w E.
  - constructor.
  - rewrite filter_live_cons. destruct (dead k) eqn:Dk; [now apply IH|].
    apply dfs_seen; [now apply (E k Dk) | now apply IH].
  - rewrite !filter_live_cons. destruct (dead (EIn i)) eqn:Dk.
    + apply IH, (eqv_trans _ v); [now apply eqv_dead_cons | exact E].
    + apply dfs_in; [now rewrite <- (E _ Dk) | apply IH, eqv_cons, E].
  - rewrite !filter_live_cons, filter_app. destruct (dead (EQ q)) eqn:Dk.
    + (* its whole sub-tree is dead *)
      pose proof (dfs_alldead _ _ _ D1 (dead_closed q Dk)) as A1.
      rewrite (filter_live_alldead _ A1). apply IH2.
      apply (eqv_trans _ (EQ q :: v)); [now apply eqv_dead_app|].
      apply (eqv_trans _ v); [now apply eqv_dead_cons | exact E].
    + apply dfs_q.
      * now rewrite <- (E _ Dk).
      * rewrite (Hg q Dk). apply IH1, eqv_cons, E.
      * apply IH2, (eqv_trans _ (o1 ++ EQ q :: w)); [apply eqv_app, eqv_cons, E|].
        apply eqv_sym, eqv_live_app.
Qed.
End OneGraph.

Variable succ1 succ2 : qkey -> list edge.
Hypothesis dead_closed1 : forall q, dead (EQ q) = true -> alldead (succ1 q).
Hypothesis dead_closed2 : forall q, dead (EQ q) = true -> alldead (succ2 q).
Hypothesis same_live : forall q, dead (EQ q) = false -> filter live (succ1 q) = filter live (succ2 q).

(* both traversals project onto a traversal of the common live sub-graph, which is unique *)
Theorem dfs_dead v ks o : dfs succ1 v ks o ->
  forall w ks2 p, eqv v w -> filter live ks = filter live ks2 -> dfs succ2 w ks2 p ->
    outs own o = outs own p /\ eqv (o ++ v) (p ++ w).
Proof.
  intros D1 w ks2 p E F D2.
  pose proof (dfs_live succ1 dead_closed1 (fun q => filter live (succ2 q))
                (fun q Hq => eq_sym (same_live q Hq)) _ _ _ D1 w E) as L1.
  pose proof (dfs_live succ2 dead_closed2 (fun q => filter live (succ2 q))
                (fun _ _ => eq_refl) _ _ _ D2 w (eqv_refl w)) as L2.
  rewrite F in L1. pose proof (dfs_fun _ _ _ _ L1 _ L2) as Ho.
  split.
  - rewrite <- (outs_live o), <- (outs_live p), Ho. reflexivity.
  - apply (eqv_trans _ (filter live o ++ v)); [apply eqv_sym, eqv_live_app|].
    rewrite Ho. apply (eqv_trans _ (filter live p ++ w)); [apply eqv_app, E | apply eqv_live_app].
Qed.

End Dead.

(* every node is visited once, only if new, the roots and all successors of visited nodes end
   up visited, and nothing unreachable from the roots is visited *)
Theorem dfs_each_once succ v ks o : dfs succ v ks o ->
  NoDup o /\ (forall k, In k o -> ~ In k v) /\
  (forall k, In k ks -> In k (o ++ v)) /\
  (forall q c, In (EQ q) o -> In c (succ q) -> In c (o ++ v)) /\
  (forall k, In k o -> exists r, In r ks /\ reach succ r k).
Proof.
  intros D. split; [eapply dfs_nodup; eauto|]. split; [eapply dfs_new; eauto|].
  split; [eapply dfs_roots; eauto|]. split; [eapply dfs_closed; eauto | eapply dfs_reach; eauto].
Qed.
