(* Acc/AInvExamples.v — non-vacuity of the theorem over histories ([all_ok_init],
   [accumulated_full]): a concrete program and history that satisfy its hypotheses, in which a
   callee starts pushing after a write while its value stays equal, so its caller (which has
   own pushes) is only deep-verified: the verification recomputes and stores the caller's
   accumulated_inputs flag (Empty -> Any), and `accumulated` returns the from-scratch list.
   (A `deep_verify_edges` that does not refresh the flag of a memo with own pushes returns [3]
   instead of [3; 7] here.) *)
From Salsa Require Import Base.
From Salsa.Kern Require Import CoreK.
From Salsa.Acc Require Import Model Spec Statement AInvTop AInvFull.

(* d = 1, pushing 7 when the input a = (0,0) is >= 5;  f = d + 1, pushing 3 first *)
Definition ad_body : body := RdIn (0, 0) (fun a => if a <? 5 then Ret 1 else Accum 7 (Ret 1)).
Definition af_body : body := Accum 3 (CallQ (1, 0) (fun v => Ret (v + 1))).
Definition ax_prog (q : qkey) : body :=
  if key_eqb q (1, 0) then ad_body else if key_eqb q (0, 0) then af_body else Ret 0.
Definition ax_rank (q : qkey) : nat := if key_eqb q (0, 0) then 1%nat else 0%nat.
Definition ax_iv (i : ikey) : val := if key_eqb i (0, 0) then 4 else 0.
Definition ax_idur (_ : ikey) : dur := D_LOW.
Definition ax_lru (_ : N) : lru_state := {| lru_cap := None; lru_set := [] |}.
Definition ax_noeq (_ : qkey) : bool := false.
Definition ax_init : db := init ax_iv ax_idur ax_lru.

Definition ax_ops : list op :=
  [ OAccumulated (0, 0);     (* [3]: d pushes nothing, f's flag is Empty *)
    OSet (0, 0) 9 None;      (* a: 4 -> 9: d keeps the value 1 but now pushes 7 *)
    OAccumulated (0, 0);     (* d executes again (equal value, backdated); f is only validated,
                                its flag becomes Any; the loop descends into d: [3; 7] *)
    OGet (0, 0);
    OSet (0, 0) 2 None;      (* d stops pushing *)
    OAccumulated (0, 0) ].   (* [3] *)

Lemma ax_calls_below : calls_below ax_prog ax_rank.
Proof.
  intros q q' Hc. unfold ax_prog in Hc.
  destruct (key_eqb_spec q (1, 0)) as [-> | H1].
  { unfold ad_body in Hc. inversion Hc as [| | ? ? v ? Hc' | | | |]; subst.
    destruct (v <? 5); inversion Hc' as [| | | | | | ? ? ? Hc'']; subst. inversion Hc''. }
  destruct (key_eqb_spec q (0, 0)) as [-> | H0].
  { unfold af_body in Hc. inversion Hc as [| | | | | | ? ? ? Hc']; subst.
    inversion Hc' as [| ? ? v ? Hc'' | | | | |]; subst.
    - cbn. lia.
    - inversion Hc''. }
  inversion Hc.
Qed.

Lemma ax_bound : forall q, (ax_rank q < 2)%nat.
Proof. intros q. unfold ax_rank. destruct (key_eqb q (0, 0)); lia. Qed.

Lemma ax_dur_ops : Forall dur_op ax_ops.
Proof. repeat constructor. Qed.

Lemma ax_wf : wf_ops false ax_ops.
Proof. cbn. repeat split. Qed.

(* the hypotheses of the theorem hold, hence its conclusion (both builds) *)
Example ax_accumulated persist :
  exists afuel0, forall afuel, (afuel0 <= afuel)%nat ->
    all_ok persist ax_prog ax_noeq [] 2 2 afuel ax_init ax_ops.
Proof.
  apply (all_ok_init persist ax_prog ax_noeq [] ax_rank ax_calls_below 2 ax_bound 2 ax_bound
           ax_iv ax_idur ax_lru ax_ops); [intros i; unfold ax_idur, D_LOW; lia | exact ax_dur_ops | exact ax_wf].
Qed.

(* ... and by computation *)
Definition ax_run (n : nat) : db * list out := run_ops false ax_prog ax_noeq [] 2 20 ax_init (firstn n ax_ops).

Example ax_values :
  snd (ax_run 6) = [Ok (OL [3]); Ok (OV 0); Ok (OL [3; 7]); Ok (OV 2); Ok (OV 0); Ok (OL [3])] /\
  spec_acc ax_prog 2 (snap_of (fst (ax_run 0))) (0, 0) = [3] /\
  spec_acc ax_prog 2 (snap_of (fst (ax_run 2))) (0, 0) = [3; 7] /\
  spec_acc ax_prog 2 (snap_of (fst (ax_run 5))) (0, 0) = [3].
Proof. vm_compute. repeat split. Qed.

(* the second `accumulated` executes d again and only validates f, whose flag flips to Any *)
Example ax_deep_verified :
  d_log (fst (ax_run 1)) = [EvExec (1, 0); EvExec (0, 0)] /\
  d_log (fst (ax_run 3)) = [EvValidate (0, 0); EvExec (1, 0); EvExec (1, 0); EvExec (0, 0)] /\
  option_map (fun m => (m_verified m, m_acc m, m_accin m)) (d_memo (fst (ax_run 1)) (0, 0)) = Some (1, [3], false) /\
  option_map (fun m => (m_verified m, m_acc m, m_accin m)) (d_memo (fst (ax_run 3)) (0, 0)) = Some (2, [3], true) /\
  option_map (fun m => (m_changed m, m_acc m)) (d_memo (fst (ax_run 3)) (1, 0)) = Some (1, [7]).
Proof. vm_compute. repeat split. Qed.
