(* Acc/AInvSem.v — the semantic heart of the Acc invariant: when may a memo be marked verified
   now (edge walk, with the recomputed accumulated_inputs flag, or durability short-cut), and
   when is a freshly computed memo ok.  The counterpart of Core/DInvSem.v, with the accumulator
   clauses. *)
From Salsa Require Import Base.
From Salsa.Kern Require Import CoreK CoreKFacts.
From Salsa.Core Require DurSem.
From Salsa.Acc Require Import Model Spec ProofsDfs ProofsSpec AInvBase ADurSem AInv.

Section Sem.
Variable persist : bool.
Variable prog : qkey -> body.
Variable rank : qkey -> nat.
Hypothesis Hrank : calls_below prog rank.
Variable NF : nat.
Hypothesis Hbound : forall q, (rank q < NF)%nat.
Notation E := (E prog NF).
Notation tr := (tr prog NF).
Notation psh := (psh prog NF).
Notation envat := (envat prog NF).
Notation durge := (ADurSem.durge prog NF).
Notation clos := (clos prog NF).
Notation deadq := (deadq prog NF).
Notation AInv := (AInv prog NF).
Notation obs_pre := (obs_pre prog NF).
Notation rmok := (rmok prog NF).

(* a memo verified now serves the whole closure of its query *)
Lemma obs_of_callee H D s d1 md1 d :
  AInv H D s -> d_memo s d1 = Some md1 -> m_verified md1 = cur s -> clos H (cur s) d1 d ->
  exists md, d_memo s d = Some md /\ E H (cur s) d = E H (m_verified md) d /\ m_dur md1 <= m_dur md.
Proof.
  intros HI Hm1 Hv1 Hc.
  pose proof (inv_memo _ _ _ _ _ HI d1 md1 Hm1) as Hok1.
  rewrite <- Hv1 in Hc. destruct (mo_obs _ _ _ _ _ _ _ Hok1 d Hc) as (md & Hmd & Hobs).
  exists md. split; [exact Hmd|]. rewrite <- Hv1. apply Hobs.
  left. pose proof (mo_order _ _ _ _ _ _ _ (inv_memo _ _ _ _ _ HI d md Hmd)) as (_ & A & B).
  rewrite Hv1. lia.
Qed.

(* never-change callees stay what they are *)
Lemma never_now H D s a d :
  AInv H D s -> 1 <= a -> a <= cur s -> durge H D a 3 d ->
  tr H (cur s) d = tr H a d /\ E H (cur s) d = E H a d /\ psh H (cur s) d = psh H a d /\
  durge H D (cur s) 3 d.
Proof.
  intros HI Ha Hle Hd.
  apply (durge_stable prog rank Hrank NF Hbound H D 3 a (cur s) d (cur s));
    [lia | apply (stable_never prog NF H D s a HI Ha) | exact Hd | exact Hle | lia].
Qed.

Lemma never_dead H D s a d :
  AInv H D s -> 1 <= a -> a <= cur s -> durge H D a 3 d -> deadq H a d -> deadq H (cur s) d.
Proof.
  intros HI Ha Hle Hd Hdq.
  apply (deadq_stable prog rank Hrank NF Hbound H D 3 a (cur s) (cur s));
    [lia | apply (stable_never prog NF H D s a HI Ha) | exact Hle | lia | exact Hdq | exact Hd].
Qed.

Lemma rmok_now H D s a e :
  AInv H D s -> 1 <= a -> a <= cur s -> rmok H D a e -> rmok H D (cur s) e.
Proof.
  intros HI Ha Hle. destruct e as [i | d]; cbn.
  - intros H3. destruct (stable_never prog NF H D s a HI Ha i) with (r := cur s) as [_ B]; [lia | exact Hle | lia|].
    rewrite B. exact H3.
  - intros [Hd Hdq]. split.
    + apply (never_now H D s a d HI Ha Hle Hd).
    + apply (never_dead H D s a d HI Ha Hle Hd Hdq).
Qed.

(* [lcs s k <= m_verified mg]: nothing at level k was written since mg was verified *)
Lemma obs_stable H D s g mg k d0 d :
  AInv H D s -> d_memo s g = Some mg -> 1 <= k -> lcs s k <= m_verified mg ->
  clos H (m_verified mg) g d0 -> durge H D (m_verified mg) k d0 -> clos H (cur s) d0 d ->
  exists md, d_memo s d = Some md /\ E H (cur s) d = E H (m_verified md) d /\ m_dur mg <= m_dur md.
Proof.
  intros HI Hg Hk Hlc Hcl Hdg Hd.
  pose proof (inv_memo _ _ _ _ _ HI g mg Hg) as Hok.
  pose proof (mo_order _ _ _ _ _ _ _ Hok) as (_ & _ & Ho3).
  pose proof (stable_now prog NF H D s k (m_verified mg) HI Hlc) as Hw.
  apply (clos_stable prog rank Hrank NF Hbound H D k (m_verified mg) (cur s) d0 (cur s) Hk Hw Hdg Ho3 (N.le_refl _)) in Hd.
  pose proof (durge_clos _ _ _ _ _ _ _ _ Hdg Hd) as Hdd.
  destruct (mo_obs _ _ _ _ _ _ _ Hok d (clos_trans _ _ _ _ _ _ _ Hcl Hd)) as (md & Hmd & Hobs).
  exists md. split; [exact Hmd|].
  destruct Hobs as [A B]; [right; exists k; split; assumption|].
  split; [|exact B]. rewrite <- A.
  apply (durge_stable prog rank Hrank NF Hbound H D k (m_verified mg) (cur s) d (cur s) Hk Hw Hdd Ho3 (N.le_refl _)).
Qed.

(* a memo whose flags say "nothing accumulated here or below" *)
Lemma ufm_dead H D s d md :
  AInv H D s -> d_memo s d = Some md -> ufm md = false -> deadq H (m_verified md) d.
Proof.
  intros HI Hmd Hu. pose proof (inv_memo _ _ _ _ _ HI d md Hmd) as Hok.
  unfold ufm, has_acc in Hu. destruct (m_acc md) eqn:Ha; [|discriminate].
  constructor.
  - rewrite <- (mo_acc _ _ _ _ _ _ _ Hok). exact Ha.
  - apply (mo_flag _ _ _ _ _ _ _ Hok). exact Hu.
Qed.

(* ---------------------------------------------------------------- marking a memo verified now *)
Lemma with_accin_same m : with_accin m (m_accin m) = m.
Proof. destruct m; reflexivity. Qed.

(* [fl] is the accumulated_inputs flag stored with the verification: recomputed by an edge walk,
   or left as it is by the short-cut.  The premise about the functions below q gives [mo_obs]
   of the re-stamped memo. *)
Lemma revalidate_ok H D s q m fl :
  AInv H D s -> d_memo s q = Some m ->
  agree_on (envat H (m_verified m)) (envat H (cur s)) (tr H (m_verified m) q) ->
  (forall i, In (RIn i) (tr H (m_verified m) q) -> D (cur s) i = D (m_verified m) i) ->
  durge H D (cur s) (m_dur m) q ->
  (forall d, clos H (cur s) q d -> d <> q ->
     exists md, d_memo s d = Some md /\ E H (cur s) d = E H (m_verified md) d /\ m_dur m <= m_dur md) ->
  (fl = false -> forall d, In (RQ d) (tr H (m_verified m) q) -> deadq H (cur s) d) ->
  m_verified m <> cur s ->
  let m' := with_verified (with_accin m fl) (cur s) in
  AInv H D (store s q m') /\ dext s (store s q m') /\ E H (cur s) q = E H (m_verified m) q.
Proof.
  intros HI Hm Hag HDin Hdg Hclos Hfl Hvne m'.
  pose proof (inv_memo _ _ _ _ _ HI q m Hm) as Hok.
  destruct (trace_determined (prog q) _ _ Hag) as (Htr & Hrun & Hpsh & _).
  assert (HE : E H (cur s) q = E H (m_verified m) q).
  { rewrite !(E_unfold prog rank Hrank NF Hbound). exact Hrun. }
  assert (Htr' : tr H (cur s) q = tr H (m_verified m) q) by exact Htr.
  assert (Hpsh' : psh H (cur s) q = psh H (m_verified m) q) by exact Hpsh.
  pose proof (mo_order _ _ _ _ _ _ _ Hok) as (Ho1 & Ho2 & Ho3).
  assert (Hfin : AInv H D (store s q m') /\ dext s (store s q m')).
  { apply (AInv_store prog NF H D s q m' HI); [reflexivity | | | |].
    - destruct Hok as [a b c d e f g h i k k1 k2 k3 j].
      constructor; cbn [m' with_verified with_accin m_val m_verified m_changed m_dur m_untracked m_edges m_acc m_accin];
        rewrite ?cur_store, ?Htr', ?Hpsh'; auto.
      + pose proof (inv_cur _ _ _ _ _ HI). lia.
      + intros x Hx. rewrite HE. apply b; exact Hx.
      + intros i0 Hi0. destruct (c i0 Hi0) as [A | A]; [left; exact A | right].
        rewrite (HDin i0 Hi0). exact A.
      + intros d0 Hd0. destruct (d d0 Hd0) as [A | A]; [left; exact A | right].
        apply (never_now H D s (m_verified m) d0 HI Ho1 Ho3 A).
      + apply (stamp_mono s (store s q m') _ _ _ (N.le_refl _)) in k; [exact k | intros i0; cbn; lia |].
        apply store_mono. intros m0 Hm0. rewrite Hm in Hm0. injection Hm0 as <-. cbn. lia.
      + apply (sub_rm_mono_in (rmok H D (m_verified m))); [|exact k3].
        intros x _ Hx. apply (rmok_now H D s (m_verified m) x HI Ho1 Ho3 Hx).
      + intros d0 Hd0. destruct (key_eqb_spec q d0) as [<- | Hne].
        * exists m'. split; [unfold store; cbn; apply upd_same|].
          intros _. split; [reflexivity | cbn; lia].
        * destruct (Hclos d0 Hd0) as (md & Hmd & HEd & Hdd); [congruence|].
          exists md. split; [unfold store; cbn; rewrite upd_other by exact Hne; exact Hmd|].
          intros _. split; assumption.
    - intros g mg Hg Hne Hcl Hpre.
      pose proof (inv_memo _ _ _ _ _ HI g mg Hg) as Hokg.
      destruct (mo_obs _ _ _ _ _ _ _ Hokg q Hcl) as (md & Hmd & Hobs).
      rewrite Hm in Hmd. injection Hmd as <-.
      destruct Hobs as [A B]; [exact Hpre|].
      split; [rewrite A; symmetry; exact HE | exact B].
    - intros m0 Hm0 Hv0. rewrite Hm in Hm0. injection Hm0 as <-. contradiction.
    - intros m0 Hm0. rewrite Hm in Hm0. injection Hm0 as <-. cbn. lia. }
  destruct Hfin as [A B]. split; [exact A|]. split; [exact B | exact HE].
Qed.

Lemma shortcut_ok H D s q m :
  AInv H D s -> d_memo s q = Some m -> m_verified m <> cur s ->
  lcs s (m_dur m) <= m_verified m ->
  let m' := with_verified m (cur s) in
  AInv H D (store s q m') /\ dext s (store s q m') /\ E H (cur s) q = E H (m_verified m) q.
Proof.
  intros HI Hm Hne Hlc. cbv zeta.
  assert (R : let m' := with_verified (with_accin m (m_accin m)) (cur s) in
              AInv H D (store s q m') /\ dext s (store s q m') /\ E H (cur s) q = E H (m_verified m) q);
    [|rewrite with_accin_same in R; exact R].
  pose proof (inv_memo _ _ _ _ _ HI q m Hm) as Hok.
  pose proof (mo_order _ _ _ _ _ _ _ Hok) as (Ho1 & Ho2 & Ho3).
  assert (Hk : 1 <= m_dur m) by (apply (lcs_pos s _ _ Hlc); lia).
  pose proof (stable_now prog NF H D s (m_dur m) (m_verified m) HI Hlc) as Hw.
  pose proof (mo_durge _ _ _ _ _ _ _ Hok) as Hdg.
  assert (Hst : forall d, durge H D (m_verified m) (m_dur m) d ->
            tr H (cur s) d = tr H (m_verified m) d /\ E H (cur s) d = E H (m_verified m) d /\
            psh H (cur s) d = psh H (m_verified m) d /\ durge H D (cur s) (m_dur m) d).
  { intros d Hd.
    apply (durge_stable prog rank Hrank NF Hbound H D (m_dur m) (m_verified m) (cur s) d (cur s));
      [exact Hk | exact Hw | exact Hd | exact Ho3 | lia]. }
  apply (revalidate_ok H D s q m (m_accin m) HI Hm).
  - intros x Hx. destruct x as [i | d | c |]; cbn.
    + symmetry. apply (Hw i); [apply (durge_in _ _ _ _ _ _ _ _ Hdg Hx) | lia | lia].
    + symmetry. apply (Hst d). apply (durge_q _ _ _ _ _ _ _ _ Hdg Hx).
    + exfalso. assert (m_dur m = 0); [|lia].
      apply (durge_untr _ _ _ _ _ _ _ _ Hdg Hx). right; eauto.
    + reflexivity.
  - intros i Hi. apply (Hw i); [apply (durge_in _ _ _ _ _ _ _ _ Hdg Hi) | lia | lia].
  - apply (Hst q Hdg).
  - intros d Hd _. apply (obs_stable H D s q m (m_dur m) q d HI Hm Hk Hlc (clos_refl _ _ _ _ _) Hdg Hd).
  - intros Hfl d Hd.
    apply (deadq_stable prog rank Hrank NF Hbound H D (m_dur m) (m_verified m) (cur s) (cur s) Hk Hw Ho3 (N.le_refl _)).
    + apply (mo_flag _ _ _ _ _ _ _ Hok Hfl d Hd).
    + apply (durge_q _ _ _ _ _ _ _ _ Hdg Hd).
  - exact Hne.
Qed.

(* ---------------------------------------------------------------- frames *)
(* why an entry of the reads so far has no edge in the frame: it was not recorded, and would not
   be recorded if it were read again *)
Definition omit_ok (s : db) (e : edge) : Prop :=
  persist = false /\
  match e with
  | EIn i => f_dur (d_in s i) = 3
  | EQ d => exists md, d_memo s d = Some md /\ m_verified md = cur s /\ m_val md <> None /\
                       m_dur md = 3 /\ ufm md = false
  end.

(* The frame [fr] of a running body accounts for the reads [pre] made so far: each has its
   edge or is never-changing, and its stamp and level are folded into the frame ([cv_in],
   [cv_q], [cv_cell]).  [cv_lb] is the converse bound on the level: the frame starts at
   NEVER_CHANGE and only takes minima, so [fr_dur] is at least any level k that bounds
   everything read; [frame_dur_lb] uses it to compare an observer's durability with the frame. *)
Record covers (H : hist) (D : dhist) (s : db) (pre : list rd) (fr : frame) : Prop := {
  cv_in : forall i, In (RIn i) pre ->
          (In (EIn i) (fr_edges fr) \/ f_dur (d_in s i) = 3) /\
          f_changed (d_in s i) <= fr_changed fr /\ fr_dur fr <= f_dur (d_in s i);
  cv_q : forall d, In (RQ d) pre ->
         exists md, d_memo s d = Some md /\ m_verified md = cur s /\ m_val md <> None /\
                    m_changed md <= fr_changed fr /\ fr_dur fr <= m_dur md /\
                    (In (EQ d) (fr_edges fr) \/ m_dur md = 3);
  cv_cell : forall x, In x pre -> untr x ->
            fr_untracked fr = true /\ fr_changed fr = cur s /\ fr_dur fr = 0;
  cv_edges_q : forall d, In (EQ d) (fr_edges fr) -> In (RQ d) pre;
  cv_le : fr_changed fr <= cur s;
  cv_ge1 : 1 <= fr_changed fr;
  cv_stamp : fr_changed fr <= 1 \/ exists x, In x pre /\ sle s (fr_changed fr) x;
  cv_dur3 : fr_dur fr <= 3;
  cv_untr : fr_untracked fr = true -> fr_dur fr = 0;
  cv_lb : forall k, k <= 3 ->
          (forall i, In (RIn i) pre -> k <= f_dur (d_in s i)) ->
          (forall d, In (RQ d) pre -> forall md, d_memo s d = Some md -> k <= m_dur md) ->
          (forall x, In x pre -> untr x -> k = 0) ->
          k <= fr_dur fr;
  (* the accumulator clauses *)
  cv_flag : fr_accin fr = false -> forall d, In (RQ d) pre -> deadq H (cur s) d;
  cv_esub : sub_rm (rmok H D (cur s)) (fr_edges fr) (dd [] (redges pre));
  cv_omit : forall e, In e (redges pre) -> ~ In e (fr_edges fr) -> omit_ok s e
}.

Lemma covers_frame0 H D s : 1 <= cur s -> covers H D s [] frame0.
Proof.
  intros Hc. constructor.
  - intros i [].
  - intros d [].
  - intros x [].
  - intros d [].
  - exact Hc.
  - cbn. unfold REV_START. lia.
  - left. cbn. unfold REV_START. lia.
  - cbn. unfold D_NEVER. lia.
  - discriminate.
  - intros k Hk _ _ _. exact Hk.
  - intros _ d [].
  - constructor.
  - intros e [].
Qed.

(* the memo built by execute from a completed frame *)
Definition fresh_memo (v : val) (now : rev) (ch : rev) (fr : frame) : memo :=
  {| m_val := Some v; m_verified := now; m_changed := ch; m_dur := fr_dur fr;
     m_untracked := fr_untracked fr;
     m_edges := if negb persist && (fr_dur fr =? D_NEVER) && negb (fr_untracked fr) && negb (fr_accin fr)
                then [] else fr_edges fr;
     m_acc := fr_acc fr; m_accin := fr_accin fr |}.

(* discard_edges_if_never_change *)
Lemma fresh_edges v now ch fr :
  (m_edges (fresh_memo v now ch fr) = [] /\ fr_dur fr = 3 /\ fr_accin fr = false) \/
  m_edges (fresh_memo v now ch fr) = fr_edges fr.
Proof.
  cbn. destruct (negb persist && (fr_dur fr =? D_NEVER) && negb (fr_untracked fr) && negb (fr_accin fr)) eqn:Hb;
    [left | right; reflexivity].
  apply andb_true_iff in Hb. destruct Hb as [Hb Hai].
  apply andb_true_iff in Hb. destruct Hb as [Hb _].
  apply andb_true_iff in Hb. destruct Hb as [_ Hb].
  apply N.eqb_eq in Hb. apply negb_true_iff in Hai. repeat split; assumption.
Qed.

(* [m_dur mg] bounds everything below g ([mo_durge] for inputs and cells, [mo_obs] for callees,
   whose premise [obs_pre] is the last hypothesis), and the frame's level is the greatest such
   bound ([cv_lb]).  This is the durability half of the observer premise of [AInv_store]. *)
Lemma frame_dur_lb H D s q fr g mg :
  AInv H D s -> covers H D s (tr H (cur s) q) fr ->
  d_memo s g = Some mg -> clos H (m_verified mg) g q ->
  tr H (cur s) q = tr H (m_verified mg) q ->
  (forall i, In (RIn i) (tr H (cur s) q) -> D (cur s) i = D (m_verified mg) i) ->
  (forall d md, In (RQ d) (tr H (cur s) q) -> d_memo s d = Some md ->
                obs_pre H D s (m_verified mg) d md) ->
  m_dur mg <= fr_dur fr.
Proof.
  intros HI Hcv Hg Hcl Htr HDi Hpre.
  pose proof (inv_memo _ _ _ _ _ HI g mg Hg) as Hokg.
  pose proof (durge_clos _ _ _ _ _ _ _ _ (mo_durge _ _ _ _ _ _ _ Hokg) Hcl) as Hdq.
  apply (cv_lb _ _ _ _ _ Hcv).
  - apply (mo_dur3 _ _ _ _ _ _ _ Hokg).
  - intros i Hi.
    rewrite <- (inv_dur_cur prog NF H D s i HI).
    rewrite (HDi i Hi). rewrite Htr in Hi. apply (durge_in _ _ _ _ _ _ _ _ Hdq Hi).
  - intros d Hd md Hmd. pose proof Hd as Hd'. rewrite Htr in Hd'.
    pose proof (clos_right _ _ _ _ _ _ _ Hcl Hd') as Hcd.
    destruct (mo_obs _ _ _ _ _ _ _ Hokg d Hcd) as (md0 & Hmd0 & Hobs).
    rewrite Hmd in Hmd0. injection Hmd0 as <-.
    apply Hobs. apply Hpre; assumption.
  - intros x Hx Hu. rewrite Htr in Hx. apply (durge_untr _ _ _ _ _ _ _ _ Hdq Hx Hu).
Qed.

Lemma seen_same_run H D s q fr g mg :
  AInv H D s -> covers H D s (tr H (cur s) q) fr -> d_memo s g = Some mg ->
  clos H (m_verified mg) g q -> fr_changed fr <= m_verified mg ->
  agree_on (envat H (cur s)) (envat H (m_verified mg)) (tr H (cur s) q).
Proof.
  intros HI Hcv Hg Hcl Hle.
  pose proof (inv_memo _ _ _ _ _ HI g mg Hg) as Hokg.
  pose proof (mo_order _ _ _ _ _ _ _ Hokg) as (Hg1 & Hg2 & Hg3).
  apply agree_common. intros x Hx Hx'. destruct x as [i | d | c |]; cbn.
  - destruct (cv_in _ _ _ _ _ Hcv i Hx) as (_ & Hst & _).
    rewrite (inv_in_cur prog NF H D s i HI).
    rewrite (inv_in _ _ _ _ _ HI i (m_verified mg)); [reflexivity | lia | lia].
  - destruct (cv_q _ _ _ _ _ Hcv d Hx) as (md & Hmd & Hvd & _ & Hcd & _).
    pose proof (clos_right _ _ _ _ _ _ _ Hcl Hx') as Hcd'.
    destruct (mo_obs _ _ _ _ _ _ _ Hokg d Hcd') as (md0 & Hmd0 & Hobs).
    rewrite Hmd in Hmd0. injection Hmd0 as <-.
    destruct Hobs as [A _]; [left; lia|]. unfold AInvBase.E in A. rewrite A, Hvd. reflexivity.
  - destruct (cv_cell _ _ _ _ _ Hcv (RCell c) Hx) as (_ & Hcc & _); [right; eauto|].
    replace (m_verified mg) with (cur s) by lia. reflexivity.
  - reflexivity.
Qed.

(* changed_at never decreases: were the old stamp above every stamp of the frame, the old memo
   would have seen this very run, and its stamp is one of the run's *)
Lemma frame_changed_lb H D s q fr o :
  AInv H D s -> covers H D s (tr H (cur s) q) fr -> d_memo s q = Some o ->
  m_changed o <= fr_changed fr.
Proof.
  intros HI Hcv Ho.
  pose proof (inv_memo _ _ _ _ _ HI q o Ho) as Hok.
  pose proof (mo_order _ _ _ _ _ _ _ Hok) as (Ho1 & Ho2 & Ho3).
  destruct (N.le_gt_cases (m_changed o) (fr_changed fr)) as [L | Hgt]; [exact L | exfalso].
  assert (Hle : fr_changed fr <= m_verified o) by lia.
  pose proof (seen_same_run H D s q fr q o HI Hcv Ho (clos_refl _ _ _ _ _) Hle) as Hag.
  destruct (trace_determined _ _ _ Hag) as (Htr & _).
  assert (Htr' : tr H (m_verified o) q = tr H (cur s) q) by exact Htr.
  destruct (mo_stamp _ _ _ _ _ _ _ Hok) as [A | (x & Hx & Hs)].
  { pose proof (cv_ge1 _ _ _ _ _ Hcv). lia. }
  rewrite Htr' in Hx. destruct x as [i | d | c |]; cbn in Hs.
  - destruct (cv_in _ _ _ _ _ Hcv i Hx) as (_ & A & _). lia.
  - destruct Hs as (md & Hmd & Hle').
    destruct (cv_q _ _ _ _ _ Hcv d Hx) as (md0 & Hmd0 & _ & _ & A & _).
    rewrite Hmd in Hmd0. injection Hmd0 as <-. lia.
  - destruct (cv_cell _ _ _ _ _ Hcv (RCell c) Hx) as (_ & A & _); [right; eauto | lia].
  - destruct (cv_cell _ _ _ _ _ Hcv RTouch Hx) as (_ & A & _); [left; reflexivity | lia].
Qed.

Lemma covers_callee H D s q fr d :
  AInv H D s -> covers H D s (tr H (cur s) q) fr -> In (RQ d) (tr H (cur s) q) ->
  exists md, d_memo s d = Some md /\ m_verified md = cur s /\
             m_changed md <= fr_changed fr /\ fr_dur fr <= m_dur md /\
             durge H D (cur s) (m_dur md) d.
Proof.
  intros HI Hcv Hd. destruct (cv_q _ _ _ _ _ Hcv d Hd) as (md & Hmd & Hvd & _ & Hcd & Hdd & _).
  exists md. conj; auto. rewrite <- Hvd.
  apply (mo_durge _ _ _ _ _ _ _ (inv_memo _ _ _ _ _ HI d md Hmd)).
Qed.

Lemma covers_durge H D s q fr :
  AInv H D s -> covers H D s (tr H (cur s) q) fr -> durge H D (cur s) (fr_dur fr) q.
Proof.
  intros HI Hcv. constructor.
  - intros i Hi. rewrite (inv_dur_cur prog NF H D s i HI). apply (cv_in _ _ _ _ _ Hcv i Hi).
  - intros d Hd. destruct (covers_callee H D s q fr d HI Hcv Hd) as (md & _ & _ & _ & Hle & Hdd).
    eapply durge_mono; [exact Hle | exact Hdd].
  - intros x Hx Hu. apply (cv_cell _ _ _ _ _ Hcv x Hx Hu).
Qed.

Lemma covers_never H D s q fr :
  AInv H D s -> covers H D s (tr H (cur s) q) fr -> fr_dur fr = 3 ->
  (forall i, In (RIn i) (tr H (cur s) q) -> D (cur s) i = 3) /\
  (forall d, In (RQ d) (tr H (cur s) q) -> durge H D (cur s) 3 d).
Proof.
  intros HI Hcv H3. pose proof (covers_durge H D s q fr HI Hcv) as Hdg. rewrite H3 in Hdg. split.
  - intros i Hi. pose proof (durge_in _ _ _ _ _ _ _ _ Hdg Hi). pose proof (inv_dur3 _ _ _ _ _ HI (cur s) i). lia.
  - intros d Hd. apply (durge_q _ _ _ _ _ _ _ _ Hdg Hd).
Qed.

Lemma fresh_memo_ok H D s q fr v ch :
  AInv H D s -> covers H D s (tr H (cur s) q) fr ->
  v = E H (cur s) q -> fr_acc fr = psh H (cur s) q -> ch <= fr_changed fr ->
  let m' := fresh_memo v (cur s) ch fr in
  (forall m0, d_memo s q = Some m0 -> m_changed m0 <= m_changed m') ->
  amemo_ok prog NF H D (store s q m') q m'.
Proof.
  intros HI Hcv Hv Hacc Hle m' Hmono.
  pose proof (inv_cur _ _ _ _ _ HI) as Hcur1. pose proof (cv_le _ _ _ _ _ Hcv) as Hfrle.
  pose proof (fresh_edges v (cur s) ch fr) as Hedges. fold m' in Hedges.
  constructor; cbn [m' fresh_memo m_val m_verified m_changed m_dur m_untracked m_acc m_accin]; rewrite ?cur_store.
  - lia.
  - intros x Hx. injection Hx as <-. exact Hv.
  - intros i Hi. destruct Hedges as [(_ & H3 & _) | ->].
    + right. apply (covers_never H D s q fr HI Hcv H3), Hi.
    + rewrite (inv_dur_cur prog NF H D s i HI). apply (cv_in _ _ _ _ _ Hcv i Hi).
  - intros d Hd. destruct Hedges as [(_ & H3 & _) | ->].
    + right. apply (covers_never H D s q fr HI Hcv H3), Hd.
    + destruct (cv_q _ _ _ _ _ Hcv d Hd) as (md & Hmd & Hvd & _ & _ & _ & [Hin | H3]); [left; exact Hin | right].
      rewrite <- H3, <- Hvd. apply (mo_durge _ _ _ _ _ _ _ (inv_memo _ _ _ _ _ HI d md Hmd)).
  - intros x Hx Hu. apply (cv_cell _ _ _ _ _ Hcv x Hx Hu).
  - intros d Hd. destruct Hedges as [(He & _) | He]; rewrite He in Hd; [destruct Hd|].
    apply (cv_edges_q _ _ _ _ _ Hcv d Hd).
  - apply (cv_untr _ _ _ _ _ Hcv).
  - exact (covers_durge H D s q fr HI Hcv).
  - apply (cv_dur3 _ _ _ _ _ Hcv).
  - apply (stamp_mono s (store s q m') _ _ _ Hle (fun i0 => N.le_refl _) (store_mono s q m' Hmono)).
    apply (cv_stamp _ _ _ _ _ Hcv).
  - exact Hacc.
  - apply (cv_flag _ _ _ _ _ Hcv).
  - destruct Hedges as [(-> & H3 & Hai) | ->]; [|apply (cv_esub _ _ _ _ _ Hcv)].
    destruct (covers_never H D s q fr HI Hcv H3) as [Nin Nq].
    apply sub_rm_all. intros e He. apply dd_In in He. destruct He as [He _].
    apply redges_In in He. destruct e as [i | d]; cbn in He |- *.
    + apply Nin, He.
    + split; [apply Nq, He | apply (cv_flag _ _ _ _ _ Hcv Hai d He)].
  - intros d Hd. destruct (key_eqb_spec q d) as [<- | Hne].
    + exists m'. split; [unfold store; cbn; apply upd_same|].
      intros _. split; [reflexivity | cbn; lia].
    + destruct (clos_first prog NF H (cur s) q d Hd (not_eq_sym Hne)) as (d1 & Hin1 & Hd1).
      destruct (covers_callee H D s q fr d1 HI Hcv Hin1) as (md1 & Hmd1 & Hvd1 & _ & Hle1 & _).
      destruct (obs_of_callee H D s d1 md1 d HI Hmd1 Hvd1 Hd1) as (md & Hmd & HEd & Hdd).
      exists md. split; [unfold store; cbn; rewrite upd_other by exact Hne; exact Hmd|].
      intros _. split; [exact HEd | lia].
Qed.

(* What an observer g of q is owed by the fresh memo.  Either g was verified now; or nothing at
   some level of q was written since g was verified; or the memo is backdated to the old one,
   which served g; or every read of the new run carries a stamp that g has already seen, so the
   new run is the run g knows. *)
Lemma fresh_observed H D s q fr v ch (old : option memo) :
  AInv H D s -> covers H D s (tr H (cur s) q) fr -> v = E H (cur s) q -> d_memo s q = old ->
  (ch = fr_changed fr \/
   exists o ov, old = Some o /\ m_val o = Some ov /\ ov = v /\ ch = m_changed o /\
                m_dur o <= fr_dur fr /\ m_changed o <= fr_changed fr) ->
  let m' := fresh_memo v (cur s) ch fr in
  forall g mg, d_memo s g = Some mg -> clos H (m_verified mg) g q ->
    obs_pre H D s (m_verified mg) q m' ->
    E H (m_verified mg) q = E H (cur s) q /\ m_dur mg <= m_dur m'.
Proof.
  intros HI Hcv Hv Hold Hch m' g mg Hg Hcl Hpre.
  pose proof (inv_memo _ _ _ _ _ HI g mg Hg) as Hokg.
  pose proof (mo_order _ _ _ _ _ _ _ Hokg) as (Hg1 & Hg2 & Hg3).
  destruct (N.eq_dec (m_verified mg) (cur s)) as [Heq | Hnow].
  { split; [rewrite Heq; reflexivity|].
    apply (frame_dur_lb H D s q fr g mg HI Hcv Hg Hcl); rewrite ?Heq; auto.
    intros d md _ Hmd. left.
    pose proof (mo_order _ _ _ _ _ _ _ (inv_memo _ _ _ _ _ HI d md Hmd)). lia. }
  destruct Hpre as [Hle | (k & Hdk & Hlck)].
  2:{ assert (Hk : 1 <= k) by (apply (lcs_pos s _ _ Hlck); lia).
      pose proof (stable_now prog NF H D s k (m_verified mg) HI Hlck) as Hw.
      destruct (durge_stable prog rank Hrank NF Hbound H D k (m_verified mg) (cur s) q (cur s) Hk Hw Hdk Hg3 (N.le_refl _))
        as (Htr & HE & _).
      split; [symmetry; exact HE|].
      apply (frame_dur_lb H D s q fr g mg HI Hcv Hg Hcl Htr).
      - intros i Hi. rewrite Htr in Hi.
        apply (Hw i); [apply (durge_in _ _ _ _ _ _ _ _ Hdk Hi) | lia | lia].
      - intros d md Hd _. rewrite Htr in Hd. right. exists k.
        split; [apply (durge_q _ _ _ _ _ _ _ _ Hdk Hd) | exact Hlck]. }
  cbn [m' fresh_memo m_changed] in Hle.
  destruct Hch as [-> | (o & ov & Ho & Hov & Heq & -> & Hdo & _)].
  - pose proof (seen_same_run H D s q fr g mg HI Hcv Hg Hcl Hle) as Hag.
    destruct (trace_determined _ _ _ Hag) as (Htr & Hrun & _).
    assert (Htr' : tr H (cur s) q = tr H (m_verified mg) q) by (symmetry; exact Htr).
    split; [rewrite !(E_unfold prog rank Hrank NF Hbound); exact Hrun|].
    apply (frame_dur_lb H D s q fr g mg HI Hcv Hg Hcl Htr').
    + intros i Hi. destruct (cv_in _ _ _ _ _ Hcv i Hi) as (_ & Hst & _).
      rewrite (inv_dur_cur prog NF H D s i HI). symmetry. apply (inv_dur _ _ _ _ _ HI); lia.
    + intros d md Hd Hmd. destruct (cv_q _ _ _ _ _ Hcv d Hd) as (md0 & Hmd0 & _ & _ & Hcd & _).
      rewrite Hmd in Hmd0. injection Hmd0 as <-. left. lia.
  - subst old.
    destruct (mo_obs _ _ _ _ _ _ _ Hokg q Hcl) as (md0 & Hmd0 & Hobs).
    rewrite Ho in Hmd0. injection Hmd0 as <-.
    destruct Hobs as [A B]; [left; exact Hle|].
    split; [|cbn; lia].
    rewrite A. rewrite <- (mo_val _ _ _ _ _ _ _ (inv_memo _ _ _ _ _ HI q o Ho) ov Hov).
    rewrite Heq. exact Hv.
Qed.

(* A freshly computed memo may be stored: it is ok, and every observer is served. *)
Lemma fresh_store_ok H D s q fr v ch (old : option memo) :
  AInv H D s ->
  covers H D s (tr H (cur s) q) fr ->
  v = E H (cur s) q ->
  fr_acc fr = psh H (cur s) q ->
  d_memo s q = old ->
  (forall m0, old = Some m0 -> m_verified m0 = cur s -> m_val m0 = None) ->
  (ch = fr_changed fr \/
   exists o ov, old = Some o /\ m_val o = Some ov /\ ov = v /\ ch = m_changed o /\
                m_dur o <= fr_dur fr /\ m_changed o <= fr_changed fr) ->
  let m' := fresh_memo v (cur s) ch fr in
  AInv H D (store s q m') /\ dext s (store s q m').
Proof.
  intros HI Hcv Hv Hacc Hold Hnv Hch m'.
  assert (Hle : ch <= fr_changed fr).
  { destruct Hch as [-> | (o & ov & _ & _ & _ & -> & _ & A)]; [lia | exact A]. }
  assert (Hmono : forall m0, d_memo s q = Some m0 -> m_changed m0 <= m_changed m').
  { intros m0 Hm0. cbn [m' fresh_memo m_changed].
    destruct Hch as [-> | (o & ov & Ho & _ & _ & -> & _ & _)].
    - apply (frame_changed_lb H D s q fr m0 HI Hcv Hm0).
    - subst old. rewrite Hm0 in Ho. injection Ho as <-. lia. }
  apply (AInv_store prog NF H D s q m' HI); [reflexivity | | | | exact Hmono].
  - exact (fresh_memo_ok H D s q fr v ch HI Hcv Hv Hacc Hle Hmono).
  - intros g mg Hg _ Hcl Hpre.
    exact (fresh_observed H D s q fr v ch old HI Hcv Hv Hold Hch g mg Hg Hcl Hpre).
  - (* the query's own memo, if it was verified now (and evicted) *)
    intros m0 Hm0 Hv0.
    split; [intros Hx; exfalso; apply Hx; apply Hnv; [congruence | exact Hv0]|].
    cbn [m' fresh_memo m_dur].
    apply (frame_dur_lb H D s q fr q m0 HI Hcv Hm0); rewrite ?Hv0; auto.
    + apply clos_refl.
    + intros d md _ Hmd. left.
      pose proof (mo_order _ _ _ _ _ _ _ (inv_memo _ _ _ _ _ HI d md Hmd)). lia.
Qed.

(* ---------------------------------------------------------------- the edge walk succeeded *)
Lemma deep_ok H D s q m fl :
  AInv H D s -> d_memo s q = Some m -> m_untracked m = false -> m_verified m <> cur s ->
  (forall e, In e (m_edges m) ->
     match e with
     | EIn i => f_changed (d_in s i) <= m_verified m
     | EQ d => E H (m_verified m) d = E H (cur s) d /\ durge H D (cur s) (m_dur m) d /\
               (exists md, d_memo s d = Some md /\ m_verified md = cur s /\ m_dur m <= m_dur md) /\
               (fl = false -> deadq H (cur s) d)
     end) ->
  let m' := with_verified (with_accin m fl) (cur s) in
  AInv H D (store s q m') /\ dext s (store s q m') /\ E H (cur s) q = E H (m_verified m) q.
Proof.
  intros HI Hm Hu Hvne Hc.
  pose proof (inv_memo _ _ _ _ _ HI q m Hm) as Hok.
  pose proof (mo_order _ _ _ _ _ _ _ Hok) as (Ho1 & Ho2 & Ho3).
  pose proof (mo_durge _ _ _ _ _ _ _ Hok) as Hdg.
  pose proof (stable_never prog NF H D s (m_verified m) HI Ho1) as Hw3.
  assert (Hin_same : forall i, In (RIn i) (tr H (m_verified m) q) ->
            sn_in (H (cur s)) i = sn_in (H (m_verified m)) i /\ D (cur s) i = D (m_verified m) i).
  { intros i Hi. destruct (mo_reads_in _ _ _ _ _ _ _ Hok i Hi) as [He | H3].
    - pose proof (Hc _ He) as Hle. cbn in Hle. split.
      + rewrite (inv_in _ _ _ _ _ HI i (m_verified m) Hle Ho3).
        apply (inv_in_cur prog NF H D s i HI).
      + rewrite (inv_dur _ _ _ _ _ HI i (m_verified m) Hle Ho3).
        apply (inv_dur_cur prog NF H D s i HI).
    - apply (Hw3 i); [lia | exact Ho3 | lia]. }
  assert (Hag : agree_on (envat H (m_verified m)) (envat H (cur s)) (tr H (m_verified m) q)).
  { intros x Hx. destruct x as [i | d | c |]; cbn.
    - symmetry. apply (Hin_same i Hx).
    - destruct (mo_reads_q _ _ _ _ _ _ _ Hok d Hx) as [He | H3].
      + exact (proj1 (Hc _ He)).
      + symmetry. apply (never_now H D s (m_verified m) d HI Ho1 Ho3 H3).
    - rewrite (mo_reads_cell _ _ _ _ _ _ _ Hok (RCell c) Hx) in Hu; [discriminate | right; eauto].
    - reflexivity. }
  destruct (trace_determined (prog q) _ _ Hag) as (Htr & _).
  assert (Htr' : tr H (cur s) q = tr H (m_verified m) q) by exact Htr.
  apply (revalidate_ok H D s q m fl HI Hm Hag).
  - intros i Hi. apply (Hin_same i Hi).
  - constructor; rewrite Htr'.
    + intros i Hi. rewrite (proj2 (Hin_same i Hi)). apply (durge_in _ _ _ _ _ _ _ _ Hdg Hi).
    + intros d Hd. destruct (mo_reads_q _ _ _ _ _ _ _ Hok d Hd) as [He | H3].
      * exact (proj1 (proj2 (Hc _ He))).
      * eapply durge_mono; [apply (mo_dur3 _ _ _ _ _ _ _ Hok)|].
        apply (never_now H D s (m_verified m) d HI Ho1 Ho3 H3).
    + intros x Hx Hux. apply (durge_untr _ _ _ _ _ _ _ _ Hdg Hx Hux).
  - intros d Hd Hdq.
    destruct (clos_first prog NF H (cur s) q d Hd Hdq) as (d1 & Hin1 & Hd1). rewrite Htr' in Hin1.
    destruct (mo_reads_q _ _ _ _ _ _ _ Hok d1 Hin1) as [He | H3].
    + destruct (Hc _ He) as (_ & _ & (md1 & Hmd1 & Hvd1 & Hle1) & _).
      destruct (obs_of_callee H D s d1 md1 d HI Hmd1 Hvd1 Hd1) as (md & Hmd & HEd & Hdd).
      exists md. split; [exact Hmd|]. split; [exact HEd | lia].
    + apply (obs_stable H D s q m 3 d1 d HI Hm); [lia | | apply clos_one, Hin1 | exact H3 | exact Hd1].
      unfold lcs. rewrite DurSem.lc_never by lia. exact Ho1.
  - (* the recomputed flag *)
    intros Hfl d Hd.
    destruct (in_dec edge_eq_dec (EQ d) (m_edges m)) as [He | Hne].
    + destruct (Hc _ He) as (_ & _ & _ & Hdead). apply Hdead. exact Hfl.
    + assert (Hin : In (EQ d) (dd [] (redges (tr H (m_verified m) q)))).
      { apply dd_In. split; [apply (redges_In (EQ d)); exact Hd | intros []]. }
      destruct (sub_rm_missing _ _ _ _ (mo_esub _ _ _ _ _ _ _ Hok) Hin Hne) as [H3 Hdq].
      apply (never_dead H D s (m_verified m) d HI Ho1 Ho3 H3 Hdq).
  - exact Hvne.
Qed.

End Sem.
