(* Acc/AInvOps.v — every level function of the Acc model preserves the invariant [AInv] and
   meets its specification (weakest-precondition proofs, then one induction on the level).
   Differences from Core/DInvOps.v: verification results carry the accumulated flag,
   deep verification recomputes and stores it, reads report it, frames collect pushed values. *)
From Salsa Require Import Base.
From Salsa.Kern Require Import CoreK CoreKFacts.
From Salsa.Core Require DurSem.
From Salsa.Acc Require Import Model Spec ProofsDfs ProofsSpec AInvBase ADurSem AInv AInvSem.

Section Ops.
Variable persist : bool.
Variable prog : qkey -> body.
Variable noeq : qkey -> bool.
Variable rank : qkey -> nat.
Hypothesis Hrank : calls_below prog rank.
Variable NF : nat.
Hypothesis Hbound : forall q, (rank q < NF)%nat.
Variable H : hist.
Variable D : dhist.
Notation E := (E prog NF H).
Notation tr := (tr prog NF H).
Notation psh := (psh prog NF H).
Notation envat := (envat prog NF H).
Notation durge := (ADurSem.durge prog NF H D).
Notation deadq := (deadq prog NF H).
Notation AInv := (AInv prog NF H D).
Notation dtouch_below := (dtouch_below rank).
Notation covers := (AInvSem.covers persist prog NF H D).
Notation fresh_memo := (AInvSem.fresh_memo persist).

Definition stack_above (s : db) (n : nat) : Prop :=
  forall p, In p (d_stack s) -> (n <= rank p)%nat.

Lemma stack_above_mono s n n' : (n' <= n)%nat -> stack_above s n -> stack_above s n'.
Proof. intros Hn Hst p Hp. specialize (Hst p Hp). lia. Qed.

Lemma stack_above_nil s n : d_stack s = [] -> stack_above s n.
Proof. intros Hs p Hp. rewrite Hs in Hp. destruct Hp. Qed.

Lemma dext_of_core_eq s s' : dcore_eq s s' -> d_pcell s' = d_pcell s -> dext s s'.
Proof.
  intros (Hr & Hi & Hce & Hm) Hp. constructor; auto.
  - intros q m Hq _ _. rewrite Hm. exact Hq.
  - intros q m Hq Hv. exists m. rewrite Hm. split; [exact Hq|]. split; [exact Hv | lia].
  - intros q m Hq. exists m. rewrite Hm. split; [exact Hq | lia].
Qed.

Lemma dtouch_of_core_eq s s' k : dcore_eq s s' -> dtouch_below s s' k.
Proof. intros (_ & _ & _ & Hm) p _. rewrite Hm; reflexivity. Qed.

(* what every level function does to the state; [k] bounds the rank of the memos touched *)
Definition keeps (k : nat) (s s' : db) : Prop :=
  AInv s' /\ dext s s' /\ dtouch_below s s' k /\ d_stack s' = d_stack s.

Lemma keeps_refl k s : AInv s -> keeps k s s.
Proof.
  intros HI. split; [exact HI|]. split; [apply dext_refl|]. split; [apply dtouch_refl | reflexivity].
Qed.

Lemma keeps_le k k' s s' : (k <= k')%nat -> keeps k s s' -> keeps k' s s'.
Proof.
  intros Hk (I & E & T & S). split; [exact I|]. split; [exact E|]. split; [|exact S].
  intros p Hp. apply T. lia.
Qed.

Lemma keeps_trans k s1 s2 s3 : keeps k s1 s2 -> keeps k s2 s3 -> keeps k s1 s3.
Proof.
  intros (_ & E1 & T1 & S1) (I2 & E2 & T2 & S2).
  split; [exact I2|]. split; [eapply dext_trans; eassumption|].
  split; [intros p Hp; rewrite (T2 p Hp); apply T1, Hp | congruence].
Qed.

Lemma keeps_cur k s s' : keeps k s s' -> cur s' = cur s.
Proof. intros (_ & He & _). apply dext_cur, He. Qed.

Lemma keeps_memo k s s' p : keeps k s s' -> (k <= rank p)%nat -> d_memo s' p = d_memo s p.
Proof. intros (_ & _ & Ht & _). apply Ht. Qed.

(* a change to a part of the state the invariant does not speak of (the log, the LRU lists) *)
Lemma keeps_frame k s s' :
  AInv s -> dcore_eq s s' -> d_pcell s' = d_pcell s -> d_stack s' = d_stack s -> keeps k s s'.
Proof.
  intros HI Hc Hp Hs.
  split; [apply (AInv_core_eq prog NF H D s); assumption|].
  split; [apply dext_of_core_eq; assumption|].
  split; [apply dtouch_of_core_eq; exact Hc | exact Hs].
Qed.

Lemma keeps_store k s q m :
  (rank q < k)%nat -> AInv (store s q m) -> dext s (store s q m) -> keeps k s (store s q m).
Proof.
  intros Hk HI He. split; [exact HI|]. split; [exact He|].
  split; [apply dtouch_store; exact Hk | reflexivity].
Qed.

Lemma AInv_set_stack s l : AInv s -> AInv (set_stack s l).
Proof. apply AInv_core_eq. repeat split. Qed.

Lemma keeps_claimed k q s s2 :
  keeps k (set_stack s (q :: d_stack s)) s2 -> keeps k s (set_stack s2 (tl (d_stack s2))).
Proof.
  intros (I2 & E2 & T2 & S2).
  split; [apply AInv_set_stack, I2|].
  split; [|split; [exact T2 | cbn; rewrite S2; reflexivity]].
  destruct E2 as [a b c d e f g]. constructor; assumption.
Qed.

(* what holds when a panic unwinds a computation started in [s0] *)
Definition XP (s0 : db) : panic -> db -> Prop :=
  fun p s' => dallowed s0 p /\ AInv s' /\ dext s0 s'.

Lemma XP_trans s0 s1 p s' : dext s0 s1 -> XP s1 p s' -> XP s0 p s'.
Proof.
  intros He (Ha & HI & He'). split; [apply (dallowed_ext s0 s1); [apply (ext_pcell _ _ He) | exact Ha]|].
  split; [exact HI|]. eapply dext_trans; eassumption.
Qed.

(* Running [m], specified from the state it starts in, inside a computation whose panics are
   judged from the earlier state [s0]: first as a step that is followed by [f], then as the
   last step. *)
Lemma wp_call {A B} (m : M A) (f : A -> M B) k s0 s (P : A -> db -> Prop) (R : B -> db -> Prop) :
  dext s0 s ->
  wp m (fun a s1 => keeps k s s1 /\ P a s1) (XP s) s ->
  (forall a s1, keeps k s s1 -> P a s1 -> wp (f a) R (XP s0) s1) ->
  wp (bind m f) R (XP s0) s.
Proof.
  intros He Hm Hf. apply wp_bind.
  eapply wp_conseq; [exact Hm | | intros p s1 Hx; apply (XP_trans s0 s); assumption].
  intros a s1 [K HP]. apply Hf; assumption.
Qed.

Lemma wp_last {A} (m : M A) k s0 s (P Q : A -> db -> Prop) :
  dext s0 s ->
  wp m (fun a s1 => keeps k s s1 /\ P a s1) (XP s) s ->
  (forall a s1, keeps k s s1 -> P a s1 -> Q a s1) ->
  wp m Q (XP s0) s.
Proof.
  intros He Hm HQ.
  eapply wp_conseq; [exact Hm | | intros p s1 Hx; apply (XP_trans s0 s); assumption].
  intros a s1 [K HP]. apply HQ; assumption.
Qed.

(* ---------------------------------------------------------------- mark_verified *)
Lemma mark_verified_ok q mm s :
  AInv (store s q (with_verified mm (cur s))) -> dext s (store s q (with_verified mm (cur s))) ->
  wp (mark_verified q mm)
     (fun m' s' => keeps (S (rank q)) s s' /\ m' = with_verified mm (cur s) /\ d_memo s' q = Some m')
     (XP s) s.
Proof.
  intros HI He. unfold mark_verified.
  apply wp_bind, wp_get. apply wp_bind, wp_emit.
  apply wp_bind. unfold set_memo_at. apply wp_modify. apply wp_ret.
  set (s1 := store s q (with_verified mm (cur s))) in *.
  change (set_memo _ _) with (set_log s1 (EvValidate q :: d_log s)).
  split; [|split; [reflexivity | apply upd_same]].
  apply (keeps_trans _ s s1); [apply keeps_store; [apply le_n | exact HI | exact He]|].
  apply keeps_frame; [exact HI | repeat split | reflexivity | reflexivity].
Qed.

(* ---------------------------------------------------------------- shallow verification *)
Lemma shallow_cases s m :
  match shallow_verify s m with
  | ShVerified => m_verified m = cur s
  | ShHigher => m_verified m <> cur s /\ lcs s (m_dur m) <= m_verified m
  | ShNo => m_verified m <> cur s
  end.
Proof.
  unfold shallow_verify.
  destruct (N.eqb_spec (m_verified m) (cur s)) as [Heq | Hne]; [exact Heq|].
  destruct (shallow_ok (last_changed (d_revs s) (m_dur m)) (m_verified m)) eqn:Hsh; [|exact Hne].
  split; [exact Hne|]. apply shallow_ok_spec in Hsh. exact Hsh.
Qed.

Definition reverified (s0 : db) (q : qkey) (m m' : memo) (s' : db) : Prop :=
  d_memo s' q = Some m' /\ m_verified m' = cur s0 /\ m_val m' = m_val m /\
  m_dur m' = m_dur m /\ m_changed m' = m_changed m /\ E (cur s0) q = E (m_verified m) q.

Lemma update_shallow_ok q m s u :
  AInv s -> d_memo s q = Some m -> shallow_verify s m = u -> u <> ShNo ->
  wp (update_shallow q m u) (fun m' s' => keeps (S (rank q)) s s' /\ reverified s q m m' s') (XP s) s.
Proof.
  intros HI Hm Hu Hne.
  pose proof (shallow_cases s m) as Hc. rewrite Hu in Hc.
  destruct u; [| |contradiction]; cbn [update_shallow].
  - apply wp_ret. split; [apply keeps_refl, HI|]. unfold reverified. rewrite Hc. conj; auto.
  - destruct Hc as [Hvne Hlc].
    destruct (shortcut_ok prog rank Hrank NF Hbound H D s q m HI Hm Hvne Hlc) as (HI' & He & HE).
    eapply wp_conseq; [apply (mark_verified_ok q m s HI' He) | | intros; assumption].
    intros m' s' (K & -> & Hm'). split; [exact K|]. unfold reverified. conj; auto.
Qed.

(* the hot path of verify_memo, fetch_hot and maybe_changed_after *)
Lemma shallow_then {B} q m s (f : memo -> B) (cold : M B) (Q : B -> db -> Prop) :
  AInv s -> d_memo s q = Some m ->
  (forall m' s', keeps (S (rank q)) s s' -> reverified s q m m' s' -> Q (f m') s') ->
  (m_verified m <> cur s -> wp cold Q (XP s) s) ->
  wp (match shallow_verify s m with
      | ShNo => cold
      | u => m' <- update_shallow q m u ;; ret (f m')
      end) Q (XP s) s.
Proof.
  intros HI Hm Hhot Hcold.
  assert (Hgot : forall u, shallow_verify s m = u -> u <> ShNo ->
            wp (m' <- update_shallow q m u ;; ret (f m')) Q (XP s) s).
  { intros u Hu Hne.
    eapply wp_call; [apply dext_refl | apply (update_shallow_ok q m s u HI Hm Hu Hne) |].
    intros m' s' K Hv. apply wp_ret. apply Hhot; assumption. }
  pose proof (shallow_cases s m) as Hc.
  destruct (shallow_verify s m).
  - apply Hgot; [reflexivity | discriminate].
  - apply Hgot; [reflexivity | discriminate].
  - apply Hcold, Hc.
Qed.

(* ---------------------------------------------------------------- specifications of a level *)
Definition fetch_post (s0 : db) (q : qkey) (r : qres) (s' : db) : Prop :=
  keeps (S (rank q)) s0 s' /\
  fst (fst (fst r)) = E (cur s0) q /\
  exists m, d_memo s' q = Some m /\ m_verified m = cur s0 /\ m_val m = Some (fst (fst (fst r))) /\
            m_dur m = snd (fst (fst r)) /\ m_changed m = snd (fst r) /\ ufm m = snd r.

Definition fetch_spec (L : lower) (n : nat) : Prop :=
  forall q s, (rank q < n)%nat -> AInv s -> stack_above s (S (rank q)) ->
    wp (l_fetch L q) (fetch_post s q) (XP s) s.

Definition mca_post (s0 : db) (q : qkey) (since : rev) (b : vres) (s' : db) : Prop :=
  keeps (S (rank q)) s0 s' /\
  (forall a, b = VUnchanged a ->
     exists m, d_memo s' q = Some m /\ m_verified m = cur s0 /\ m_changed m <= since /\ a = ufm m).

Definition mca_spec (L : lower) (n : nat) : Prop :=
  forall q since s, (rank q < n)%nat -> AInv s -> stack_above s (S (rank q)) ->
    wp (l_mca L q since) (mca_post s q since) (XP s) s.

(* ---------------------------------------------------------------- deep verification *)
(* what the walk of q's memo [m] knows of an edge that answered "unchanged"; [fl] is the or of
   the flags reported so far *)
Definition walked (s : db) (m : memo) (fl : bool) (e : edge) : Prop :=
  match e with
  | EIn i => f_changed (d_in s i) <= m_verified m
  | EQ d => E (m_verified m) d = E (cur s) d /\ durge (cur s) (m_dur m) d /\
            (exists md, d_memo s d = Some md /\ m_verified md = cur s /\ m_dur m <= m_dur md) /\
            (fl = false -> deadq (cur s) d)
  end.

Lemma walked_ext s s' m fl fl' e :
  dext s s' -> (fl' = false -> fl = false) -> walked s m fl e -> walked s' m fl' e.
Proof.
  intros He Hfl. destruct e as [i | d]; cbn; rewrite ?(ext_in _ _ He), ?(dext_cur _ _ He); [auto|].
  intros (HE & Hdg & (md & Hmd & Hvd & Hdd) & Hdead). conj; auto.
  destruct (ext_vcur _ _ He d md Hmd Hvd) as (md' & Hmd' & Hvd' & Hdd').
  exists md'. split; [exact Hmd'|]. split; [exact Hvd' | lia].
Qed.

(* d has at least m's durability because m observes d ([mo_obs]) *)
Lemma edge_unchanged s q m d md :
  AInv s -> d_memo s q = Some m -> In (RQ d) (tr (m_verified m) q) ->
  d_memo s d = Some md -> m_verified md = cur s -> m_changed md <= m_verified m ->
  walked s m (ufm md) (EQ d).
Proof.
  intros HI Hm Hin Hmd Hvd Hcd.
  pose proof (inv_memo _ _ _ _ _ HI q m Hm) as Hok.
  pose proof (inv_memo _ _ _ _ _ HI d md Hmd) as Hokd.
  destruct (mo_obs _ _ _ _ _ _ _ Hok d (clos_one _ _ _ _ _ _ Hin)) as (md0 & Hmd0 & Hobs).
  rewrite Hmd in Hmd0. injection Hmd0 as <-.
  destruct Hobs as [HEd Hdd]; [left; exact Hcd|].
  rewrite Hvd in HEd. split; [exact HEd|]. split; [|split].
  - eapply durge_mono; [exact Hdd|]. rewrite <- Hvd. apply (mo_durge _ _ _ _ _ _ _ Hokd).
  - exists md. conj; auto.
  - intros Hu. rewrite <- Hvd. apply (ufm_dead prog NF H D s d md HI Hmd Hu).
Qed.

Lemma walk_edges_ok L n q m (HM : mca_spec L n) : forall es s inputs,
  AInv s -> d_memo s q = Some m ->
  (forall d, In (EQ d) es -> (rank d < n)%nat /\ (rank d < rank q)%nat /\
                             In (RQ d) (tr (m_verified m) q)) ->
  stack_above s (rank q) ->
  wp (walk_edges L es (m_verified m) inputs)
     (fun r s' => keeps (rank q) s s' /\
        (forall fl, r = Some fl -> (fl = false -> inputs = false) /\
                                   forall e, In e es -> walked s' m fl e)) (XP s) s.
Proof.
  induction es as [|e es IH]; intros s inputs HI Hm Hes Hst; cbn [walk_edges].
  - apply wp_ret. split; [apply keeps_refl, HI|].
    intros fl Hfl. injection Hfl as <-. split; [auto | intros e []].
  - destruct e as [i | d].
    + apply wp_bind, wp_get.
      destruct (changed_after (f_changed (d_in s i)) (m_verified m)) eqn:Hca.
      * apply wp_ret. split; [apply keeps_refl, HI | intros fl Hfl; discriminate].
      * apply changed_after_false in Hca.
        eapply wp_conseq; [apply (IH s inputs HI Hm) | |intros; assumption].
        -- intros d Hd. apply Hes. right; exact Hd.
        -- exact Hst.
        -- intros r s' (K & Hb). split; [exact K|].
           intros fl Hfl. destruct (Hb fl Hfl) as [A B]. split; [exact A|].
           intros e [<- | He']; [|apply B; assumption].
           apply (walked_ext s s' m fl fl (EIn i)); [apply K | auto | exact Hca].
    + destruct (Hes d (or_introl eq_refl)) as (Hdn & Hdq & Hind).
      eapply wp_call; [apply dext_refl | apply (HM d (m_verified m) s Hdn HI) |].
      { eapply stack_above_mono; [|exact Hst]. lia. }
      intros c s1 K1 Hc. pose proof K1 as (HI1 & He1 & _ & Hs1).
      assert (Hm1 : d_memo s1 q = Some m) by (rewrite (keeps_memo _ _ _ q K1) by lia; exact Hm).
      destruct c as [|a].
      * apply wp_ret. split; [|intros fl Hfl; discriminate].
        exact (keeps_le _ _ _ _ Hdq K1).
      * destruct (Hc a eq_refl) as (md & Hmd & Hvd & Hcd & ->).
        rewrite <- (keeps_cur _ _ _ K1) in Hvd.
        pose proof (edge_unchanged s1 q m d md HI1 Hm1 Hind Hmd Hvd Hcd) as Hw.
        eapply wp_last; [exact He1 | apply (IH s1 (inputs || ufm md) HI1 Hm1) | ].
        -- intros d' Hd'. apply (Hes d' (or_intror Hd')).
        -- intros p Hp. rewrite Hs1 in Hp. apply Hst, Hp.
        -- intros r s' K2 Hb.
           split; [exact (keeps_trans _ s s1 s' (keeps_le _ _ _ _ Hdq K1) K2)|].
           intros fl Hfl. destruct (Hb fl Hfl) as [A B].
           assert (Hor : fl = false -> inputs = false /\ ufm md = false).
           { intros F. apply orb_false_iff. apply A. exact F. }
           split; [intros F; apply (Hor F)|].
           intros e [<- | He']; [|apply B; exact He'].
           apply (walked_ext s1 s' m (ufm md) fl (EQ d)); [apply K2 | intros F; apply (Hor F) | exact Hw].
Qed.

Definition verify_post (s0 : db) (q : qkey) (m : memo) (r : bool * memo) (s' : db) : Prop :=
  keeps (S (rank q)) s0 s' /\
  (fst r = true -> reverified s0 q m (snd r) s') /\
  (fst r = false -> d_memo s' q = d_memo s0 q).

Lemma deep_verify_ok L n q m s (HM : mca_spec L n) :
  (rank q <= n)%nat -> AInv s -> d_memo s q = Some m -> m_verified m <> cur s ->
  stack_above s (rank q) ->
  wp (deep_verify L q m) (verify_post s q m) (XP s) s.
Proof.
  intros Hn HI Hm Hvne Hst. unfold deep_verify.
  pose proof (inv_memo _ _ _ _ _ HI q m Hm) as Hok.
  destruct (m_untracked m) eqn:Hu.
  - apply wp_ret. split; [apply keeps_refl, HI|]. split; [discriminate | reflexivity].
  - eapply wp_call; [apply dext_refl | apply (walk_edges_ok L n q m HM (m_edges m) s false HI Hm) | ].
    { intros d Hd. pose proof (mo_edges_q _ _ _ _ _ _ _ Hok d Hd) as Hin.
      pose proof (tr_calls prog rank Hrank NF H _ _ _ Hin). conj; [lia | lia | exact Hin]. }
    { exact Hst. }
    intros c s1 K1 Hc. pose proof K1 as (HI1 & He1 & _).
    pose proof (keeps_cur _ _ _ K1) as Hcur1.
    assert (Hm1 : d_memo s1 q = Some m) by (rewrite (keeps_memo _ _ _ q K1) by lia; exact Hm).
    destruct c as [fl|].
    + destruct (Hc fl eq_refl) as [_ Hfacts].
      destruct (deep_ok prog rank Hrank NF Hbound H D s1 q m fl HI1 Hm1 Hu) as (HI2 & He2 & HE);
        [rewrite Hcur1; exact Hvne | exact Hfacts |].
      eapply wp_call; [exact He1 | apply (mark_verified_ok q (with_accin m fl) s1 HI2 He2) |].
      intros m' s2 K2 (-> & Hm2). apply wp_ret.
      split; [exact (keeps_trans _ s s1 s2 (keeps_le _ _ _ _ (le_S _ _ (le_n _)) K1) K2)|].
      split; [|discriminate]. intros _. unfold reverified. rewrite <- Hcur1. conj; auto.
    + apply wp_ret.
      split; [exact (keeps_le _ _ _ _ (le_S _ _ (le_n _)) K1)|].
      split; [discriminate|]. intros _. congruence.
Qed.

Lemma verify_memo_ok L n q m s (HM : mca_spec L n) :
  (rank q <= n)%nat -> AInv s -> d_memo s q = Some m -> stack_above s (rank q) ->
  wp (verify_memo L q m) (verify_post s q m) (XP s) s.
Proof.
  intros Hn HI Hm Hst. unfold verify_memo.
  apply wp_bind, wp_get.
  apply (shallow_then q m s (fun m' => (true, m')) (deep_verify L q m)); [exact HI | exact Hm | |].
  - intros m' s' K Hv. split; [exact K|]. split; [intros _; exact Hv | discriminate].
  - intros Hc. apply (deep_verify_ok L n q m s HM Hn HI Hm Hc Hst).
Qed.

(* ---------------------------------------------------------------- frames while running a body *)
Lemma In_add_edge e' es e : In e' (add_edge es e) <-> In e' es \/ e' = e.
Proof.
  unfold add_edge. destruct (existsb (edge_eqb e) es) eqn:Hex.
  - split; [auto|]. intros [Hin | ->]; [exact Hin|]. apply mem_In. exact Hex.
  - rewrite in_app_iff. cbn. intuition.
Qed.

Lemma sle_ext s s' c x : dext s s' -> sle s c x -> sle s' c x.
Proof.
  intros He. apply (sle_mono s s' c c x (N.le_refl _)); [|apply (ext_mono _ _ He)].
  intros i. rewrite (ext_in _ _ He). lia.
Qed.

Lemma omit_ok_ext s s' e : dext s s' -> omit_ok persist s e -> omit_ok persist s' e.
Proof.
  intros He [Hp Hx]. split; [exact Hp|]. destruct e as [i | d].
  - rewrite (ext_in _ _ He). exact Hx.
  - destruct Hx as (md & Hmd & Hv & Hx & Hd & Hu).
    exists md. rewrite (dext_cur _ _ He). conj; auto. apply (ext_valid _ _ He); assumption.
Qed.

Lemma covers_ext s s' pre fr : dext s s' -> covers s pre fr -> covers s' pre fr.
Proof.
  intros He [a b c d f f1 f2 g h i j1 j2 j3]. pose proof (dext_cur _ _ He) as Hc.
  constructor; rewrite ?Hc, ?(ext_in _ _ He); auto.
  - intros d0 Hd0. destruct (b d0 Hd0) as (md & Hmd & Hv & Hx & Hrest).
    exists md. split; [apply (ext_valid _ _ He); assumption|]. split; [exact Hv|]. split; assumption.
  - destruct f2 as [A | (x & Hx & Hs)]; [left; exact A | right].
    exists x. split; [exact Hx | apply (sle_ext s s'); assumption].
  - intros k Hk Hki Hkq Hku. apply i; try assumption.
    intros d0 Hd0 md Hmd. destruct (b d0 Hd0) as (md0 & Hmd0 & Hv & Hx & _).
    rewrite Hmd in Hmd0. injection Hmd0 as <-.
    apply (Hkq d0 Hd0). apply (ext_valid _ _ He); assumption.
  - intros e He0 Hne. apply (omit_ok_ext s s' e He). apply j3; assumption.
Qed.

(* the edge part of a read: [rec] says whether the read is recorded *)
Lemma edges_step s pre es e (x : rd) (rec : bool) :
  redges [x] = [e] ->
  sub_rm (rmok prog NF H D (cur s)) es (dd [] (redges pre)) ->
  (forall e0, In e0 (redges pre) -> ~ In e0 es -> omit_ok persist s e0) ->
  (rec = true -> ~ omit_ok persist s e) ->
  (rec = false -> omit_ok persist s e /\ rmok prog NF H D (cur s) e) ->
  let es' := if rec then add_edge es e else es in
  sub_rm (rmok prog NF H D (cur s)) es' (dd [] (redges (pre ++ [x]))) /\
  (forall e0, In e0 (redges (pre ++ [x])) -> ~ In e0 es' -> omit_ok persist s e0).
Proof.
  intros Hx Hsub Homit Hrec Hnrec es'.
  rewrite redges_app, Hx, dd_snoc. change (mem e []) with false. cbn [orb].
  assert (Hsubset : forall e0, In e0 es -> In e0 (redges pre)).
  { intros e0 He0. apply (sub_rm_In _ _ _ _ Hsub) in He0. apply dd_In in He0. apply He0. }
  destruct rec; unfold es'.
  - (* recorded *)
    assert (Hno : ~ omit_ok persist s e) by (apply Hrec; reflexivity).
    split.
    + destruct (mem e (redges pre)) eqn:Hmem.
      * apply mem_In in Hmem. rewrite app_nil_r.
        assert (Hin : In e es).
        { destruct (in_dec edge_eq_dec e es) as [A | A]; [exact A|].
          exfalso. apply Hno. apply Homit; assumption. }
        unfold add_edge. apply mem_In in Hin. unfold mem in Hin. rewrite Hin. exact Hsub.
      * apply mem_nIn in Hmem.
        assert (Hnin : ~ In e es) by (intros A; apply Hmem; apply Hsubset; exact A).
        unfold add_edge. apply mem_nIn in Hnin. unfold mem in Hnin. rewrite Hnin.
        apply sub_rm_snoc_keep. exact Hsub.
    + intros e0 He0 Hn0. apply in_app_iff in He0. destruct He0 as [He0 | [<- | []]].
      * apply Homit; [exact He0|]. intros A. apply Hn0. apply In_add_edge. left; exact A.
      * exfalso. apply Hn0. apply In_add_edge. right; reflexivity.
  - (* not recorded *)
    destruct (Hnrec eq_refl) as [Hom Hrm].
    split.
    + destruct (mem e (redges pre)); [rewrite app_nil_r; exact Hsub|].
      apply sub_rm_snoc_drop; assumption.
    + intros e0 He0 Hn0. apply in_app_iff in He0. destruct He0 as [He0 | [<- | []]].
      * apply Homit; assumption.
      * exact Hom.
Qed.

(* what the tables say about a tracked read: its edge, durability, stamp and accumulated flag *)
Inductive tracked (s : db) : rd -> edge -> dur -> rev -> bool -> Prop :=
| tracked_in i : tracked s (RIn i) (EIn i) (f_dur (d_in s i)) (f_changed (d_in s i)) false
| tracked_q d md : d_memo s d = Some md -> m_verified md = cur s -> m_val md <> None ->
    tracked s (RQ d) (EQ d) (m_dur md) (m_changed md) (ufm md).

Lemma covers_add_read s pre fr x e dd cc ai :
  AInv s -> covers s pre fr -> tracked s x e dd cc ai ->
  covers s (pre ++ [x]) (add_read persist fr e dd cc ai).
Proof.
  intros HI [a b c d e0 e1 e2 f g h j1 j2 j3] Htr.
  assert (Hcc : cc <= cur s).
  { destruct Htr as [i | d0 md Hmd Hv Hx]; [apply (inv_in_le _ _ _ _ _ HI)|].
    pose proof (mo_order _ _ _ _ _ _ _ (inv_memo _ _ _ _ _ HI d0 md Hmd)). lia. }
  assert (Hsle : sle s cc x).
  { destruct Htr as [i | d0 md Hmd Hv Hx]; cbn; [lia | exists md; split; [exact Hmd | lia]]. }
  assert (Hdead : ai = false -> forall d0, x = RQ d0 -> deadq (cur s) d0).
  { destruct Htr as [i | d1 md Hmd Hv Hx]; intros Hai d0 Ex; [discriminate | injection Ex as <-].
    rewrite <- Hv. apply (ufm_dead prog NF H D s d1 md HI Hmd Hai). }
  set (rec := persist || negb (dd =? D_NEVER) || ai).
  assert (Hrec3 : rec = false -> persist = false /\ dd = 3 /\ ai = false).
  { intros Hr. unfold rec in Hr. apply orb_false_iff in Hr. destruct Hr as [Hr Hu].
    apply orb_false_iff in Hr. destruct Hr as [Hp H3].
    apply negb_false_iff in H3. apply N.eqb_eq in H3. conj; assumption. }
  assert (Hdd3 : dd = 3 -> persist = false -> ai = false -> rec = false).
  { intros -> -> ->. reflexivity. }
  destruct (edges_step s pre (fr_edges fr) e x rec) as [Hsub' Homit']; try assumption.
  { destruct Htr; reflexivity. }
  { (* a recorded read would be recorded again *)
    intros Hr Hom. rewrite Hdd3 in Hr; [discriminate | | apply Hom |];
      destruct Htr as [i | d0 md Hmd Hv Hx]; destruct Hom as [Hp Hom]; cbn in Hom; try exact Hom; try reflexivity.
    - destruct Hom as (md0 & Hmd0 & _ & _ & H3 & _). congruence.
    - destruct Hom as (md0 & Hmd0 & _ & _ & _ & Hu). congruence. }
  { intros Hr. destruct (Hrec3 Hr) as (Hp & H3 & Hai).
    destruct Htr as [i | d0 md Hmd Hv Hx]; cbn.
    - split; [split; [exact Hp | exact H3]|]. rewrite (inv_dur_cur prog NF H D s i HI). exact H3.
    - split; [split; [exact Hp|]; exists md; conj; auto|].
      split; [|apply (Hdead Hai d0 eq_refl)].
      rewrite <- H3, <- Hv. apply (mo_durge _ _ _ _ _ _ _ (inv_memo _ _ _ _ _ HI d0 md Hmd)). }
  assert (Hkeep : forall e1, In e1 (fr_edges fr) -> In e1 (if rec then add_edge (fr_edges fr) e else fr_edges fr)).
  { intros e1' He1. destruct rec; [apply In_add_edge; left; exact He1 | exact He1]. }
  assert (Hnew : dd <> 3 -> In e (if rec then add_edge (fr_edges fr) e else fr_edges fr)).
  { intros Hn3. destruct rec eqn:Hr; [apply In_add_edge; right; reflexivity|].
    destruct (Hrec3 eq_refl) as (_ & H3 & _). contradiction. }
  unfold add_read, dur_min, rev_max. fold rec.
  constructor; cbn [fr_dur fr_changed fr_edges fr_untracked fr_acc fr_accin].
  - intros j Hj. apply in_app_iff in Hj. destruct Hj as [Hj | [Hj | []]].
    + destruct (a j Hj) as (A & B & C). split; [|split; lia].
      destruct A as [A | A]; [left; apply Hkeep; exact A | right; exact A].
    + destruct Htr as [i | d0 md Hmd Hv Hx]; [|discriminate]. injection Hj as Ej. rewrite <- Ej.
      split; [|split; lia].
      destruct (N.eq_dec (f_dur (d_in s i)) 3) as [H3 | Hn3]; [right; exact H3 | left; apply Hnew, Hn3].
  - intros d0 Hd0. apply in_app_iff in Hd0. destruct Hd0 as [Hd0 | [Hd0 | []]].
    + destruct (b d0 Hd0) as (md0 & A & B & C & D0 & E0 & F).
      exists md0. conj; auto; try lia.
      destruct F as [F | F]; [left; apply Hkeep; exact F | right; exact F].
    + destruct Htr as [i | d1 md Hmd Hv Hx]; [discriminate|]. injection Hd0 as Ed. rewrite <- Ed.
      exists md. conj; auto; try lia.
      destruct (N.eq_dec (m_dur md) 3) as [H3 | Hn3]; [right; exact H3 | left; apply Hnew, Hn3].
  - intros y Hy Hk. apply in_app_iff in Hy. destruct Hy as [Hy | [Hy | []]].
    + destruct (c y Hy Hk) as (A & B & C). split; [exact A|]. split; lia.
    + subst y. destruct Htr; destruct Hk as [Hk | (c0 & Hk)]; discriminate.
  - intros d0 Hd0. apply in_app_iff.
    destruct rec; [|left; apply d; exact Hd0].
    apply In_add_edge in Hd0. destruct Hd0 as [Hd0 | Hd0]; [left; apply d; exact Hd0 | right; left].
    destruct Htr; [discriminate | congruence].
  - lia.
  - lia.
  - destruct (N.max_spec (fr_changed fr) cc) as [[Hlt ->] | [Hge ->]].
    + right. exists x. split; [apply in_app_iff; right; left; reflexivity | exact Hsle].
    + destruct e2 as [A | (y & Hy & Hs)]; [left; exact A | right].
      exists y. split; [apply in_app_iff; left; exact Hy | exact Hs].
  - lia.
  - intros Hu. rewrite (g Hu). lia.
  - intros k Hk Hki Hkq Hku.
    assert (k <= fr_dur fr).
    { apply h; [exact Hk | | |].
      - intros j Hj. apply Hki. apply in_app_iff; left; exact Hj.
      - intros d0 Hd0. apply Hkq. apply in_app_iff; left; exact Hd0.
      - intros y Hy. apply Hku. apply in_app_iff; left; exact Hy. }
    assert (k <= dd); [|lia].
    destruct Htr as [i | d0 md Hmd Hv Hx].
    + apply Hki. apply in_app_iff; right; left; reflexivity.
    + apply (Hkq d0); [apply in_app_iff; right; left; reflexivity | exact Hmd].
  - intros Hai d0 Hd0. apply orb_false_iff in Hai. destruct Hai as [Hai Hu].
    apply in_app_iff in Hd0. destruct Hd0 as [Hd0 | [Hd0 | []]].
    + apply j1; assumption.
    + apply (Hdead Hu d0 Hd0).
  - exact Hsub'.
  - exact Homit'.
Qed.

Lemma covers_add_in s pre fr i :
  AInv s -> covers s pre fr ->
  covers s (pre ++ [RIn i])
         (add_read_simple persist fr (EIn i) (f_dur (d_in s i)) (f_changed (d_in s i))).
Proof.
  intros HI Hcv.
  replace (add_read_simple persist fr (EIn i) (f_dur (d_in s i)) (f_changed (d_in s i)))
    with (add_read persist fr (EIn i) (f_dur (d_in s i)) (f_changed (d_in s i)) false)
    by (unfold add_read, add_read_simple; rewrite !orb_false_r; reflexivity).
  apply (covers_add_read s pre fr _ _ _ _ _ HI Hcv). apply tracked_in.
Qed.

Lemma covers_add_untracked s pre fr x :
  AInv s -> covers s pre fr -> untr x ->
  covers s (pre ++ [x]) (add_untracked fr (cur s)).
Proof.
  intros HI [a b c d e e1 e2 f g h j1 j2 j3] Hx.
  assert (Hre : redges (pre ++ [x]) = redges pre).
  { rewrite redges_app. destruct Hx as [-> | (c0 & ->)]; cbn; apply app_nil_r. }
  unfold add_untracked, D_LOW.
  constructor; cbn [fr_dur fr_changed fr_edges fr_untracked fr_acc fr_accin]; rewrite ?Hre.
  - intros j Hj. apply in_app_iff in Hj. destruct Hj as [Hj | [Hj | []]].
    + destruct (a j Hj) as (A & B & C). conj; auto; [apply (inv_in_le _ _ _ _ _ HI) | lia].
    + subst x. destruct Hx as [Hx | (c0 & Hx)]; discriminate.
  - intros d0 Hd0. apply in_app_iff in Hd0. destruct Hd0 as [Hd0 | [Hd0 | []]].
    + destruct (b d0 Hd0) as (md0 & A & B & C & D0 & E0 & F).
      pose proof (mo_order _ _ _ _ _ _ _ (inv_memo _ _ _ _ _ HI d0 md0 A)).
      exists md0. conj; auto; try lia.
    + subst x. destruct Hx as [Hx | (c0 & Hx)]; discriminate.
  - intros y Hy Hk. conj; reflexivity.
  - intros d0 Hd0. apply in_app_iff. left. apply d; exact Hd0.
  - lia.
  - apply (inv_cur _ _ _ _ _ HI).
  - right. exists x. split; [apply in_app_iff; right; left; reflexivity|].
    destruct Hx as [-> | (c0 & ->)]; exact I.
  - lia.
  - intros _; reflexivity.
  - intros k Hk Hki Hkq Hku.
    assert (k = 0); [|lia]. apply (Hku x); [apply in_app_iff; right; left; reflexivity | exact Hx].
  - intros Hai d0 Hd0. apply in_app_iff in Hd0. destruct Hd0 as [Hd0 | [Hd0 | []]].
    + apply j1; assumption.
    + subst x. destruct Hx as [Hx | (c0 & Hx)]; discriminate.
  - exact j2.
  - exact j3.
Qed.

Lemma covers_add_acc s pre fr v : covers s pre fr -> covers s pre (add_acc fr v).
Proof. intros [a b c d e e1 e2 f g h j1 j2 j3]. constructor; auto. Qed.

(* ---------------------------------------------------------------- running a body *)
Lemma run_body_ok L n q c0 (HF : fetch_spec L n) : forall b pre fr s,
  cur s = c0 ->
  tr c0 q = pre ++ trace (envat c0) b ->
  E c0 q = run (envat c0) b ->
  psh c0 q = fr_acc fr ++ pushes (envat c0) b ->
  (forall d, calls b d -> (rank d < n)%nat /\ (rank d < rank q)%nat) ->
  AInv s -> covers s pre fr -> stack_above s (rank q) ->
  wp (run_body persist L b fr)
     (fun r s' => keeps (rank q) s s' /\
                  fst r = E c0 q /\ covers s' (tr c0 q) (snd r) /\ fr_acc (snd r) = psh c0 q) (XP s) s.
Proof.
  induction b as [v | i k IH | d k IH | c k IH | k IH | pc k IH | av k IH];
    intros pre fr s Hc Htr HE Hps Hcalls HI Hcv Hst; cbn [run_body]; cbn [trace run pushes] in Htr, HE, Hps.
  - (* Ret *)
    apply wp_ret. rewrite app_nil_r in Htr, Hps.
    split; [apply keeps_refl, HI|]. cbn [fst snd].
    split; [congruence|]. split; [rewrite Htr; exact Hcv | congruence].
  - (* RdIn *)
    apply wp_bind, wp_get.
    assert (Hval : e_in (envat c0) i = f_val (d_in s i)).
    { cbn. rewrite <- Hc. apply (inv_in_cur prog NF H D s i HI). }
    rewrite Hval in Htr, HE, Hps.
    apply (IH (f_val (d_in s i)) (pre ++ [RIn i]) _ s Hc); try assumption.
    + rewrite <- app_assoc. exact Htr.
    + intros d Hd. apply Hcalls. eapply calls_in_rdin; exact Hd.
    + apply covers_add_in; assumption.
  - (* CallQ *)
    destruct (Hcalls d (calls_here d k)) as [Hdn Hdq].
    eapply wp_call; [apply dext_refl | apply (HF d s Hdn HI) |].
    { eapply stack_above_mono; [|exact Hst]. lia. }
    intros [[[v dd] cd] ai] s1 K1 (Hv & (md & Hmd & Hvd & Hxd & Hdd & Hcd & Hai)).
    cbn [fst snd] in *. pose proof K1 as (HI1 & He1 & _ & Hs1).
    pose proof (keeps_cur _ _ _ K1) as Hc1.
    assert (Hval : e_q (envat c0) d = v).
    { cbn. rewrite Hv, Hc. reflexivity. }
    rewrite Hval in Htr, HE, Hps.
    eapply wp_last; [exact He1 | apply (IH v (pre ++ [RQ d]) _ s1) |]; try assumption.
    + congruence.
    + rewrite <- app_assoc. exact Htr.
    + intros d' Hd'. apply Hcalls. eapply calls_in_call; exact Hd'.
    + subst dd cd ai. apply covers_add_read; [exact HI1 | eapply covers_ext; eassumption|].
      apply tracked_q; [exact Hmd | congruence | rewrite Hxd; discriminate].
    + intros p Hp. rewrite Hs1 in Hp. apply Hst, Hp.
    + intros r s2 K2 Hr.
      split; [exact (keeps_trans _ s s1 s2 (keeps_le _ _ _ _ Hdq K1) K2) | exact Hr].
  - (* RdCell *)
    apply wp_bind, wp_get.
    assert (Hval : e_cell (envat c0) c = d_cell s c).
    { cbn. rewrite <- Hc. apply (inv_cell _ _ _ _ _ HI). }
    rewrite Hval in Htr, HE, Hps.
    apply (IH (d_cell s c) (pre ++ [RCell c]) _ s Hc); try assumption.
    + rewrite <- app_assoc. exact Htr.
    + intros d Hd. apply Hcalls. eapply calls_in_cell; exact Hd.
    + apply covers_add_untracked; [assumption | assumption | right; eauto].
  - (* Touch *)
    apply wp_bind, wp_get.
    apply (IH (pre ++ [RTouch]) _ s Hc); try assumption.
    + rewrite <- app_assoc. exact Htr.
    + intros d Hd. apply Hcalls. eapply calls_in_touch; exact Hd.
    + apply covers_add_untracked; [assumption | assumption | left; reflexivity].
  - (* PanicIf *)
    apply wp_bind, wp_get.
    destruct (d_pcell s pc =? 0) eqn:Hpc.
    + apply (IH pre fr s Hc); try assumption.
      intros d Hd. apply Hcalls. eapply calls_in_panicif; exact Hd.
    + apply wp_fail. split; [split; [reflexivity | exists pc; apply N.eqb_neq; exact Hpc]|].
      split; [exact HI | apply dext_refl].
  - (* Accum *)
    apply (IH pre (add_acc fr av) s Hc); try assumption.
    + cbn [add_acc fr_acc]. rewrite <- app_assoc. exact Hps.
    + intros d Hd. apply Hcalls. eapply calls_in_accum; exact Hd.
    + apply covers_add_acc. exact Hcv.
Qed.

(* ---------------------------------------------------------------- execute *)
Definition exec_post (s0 : db) (q : qkey) (m : memo) (s' : db) : Prop :=
  keeps (S (rank q)) s0 s' /\
  d_memo s' q = Some m /\ m_verified m = cur s0 /\ m_val m = Some (E (cur s0) q).

Definition not_valid_with_value (s : db) (q : qkey) : Prop :=
  forall m0, d_memo s q = Some m0 -> m_verified m0 = cur s -> m_val m0 = None.

Lemma execute_ok L n q s (HF : fetch_spec L n) :
  (rank q <= n)%nat -> AInv s -> not_valid_with_value s q -> stack_above s (rank q) ->
  wp (execute persist prog noeq L q (d_memo s q)) (exec_post s q) (XP s) s.
Proof.
  intros Hn HI Hnv Hst. unfold execute.
  apply wp_bind, wp_emit.
  set (s1 := set_log s (EvExec q :: d_log s)).
  assert (K01 : keeps (rank q) s s1) by (apply keeps_frame; [exact HI | repeat split | reflexivity | reflexivity]).
  pose proof K01 as (HI1 & He01 & _).
  eapply wp_call; [exact He01 | apply (run_body_ok L n q (cur s) HF (prog q) [] frame0 s1) |];
    try reflexivity; try assumption.
  - apply (E_unfold prog rank Hrank NF Hbound).
  - intros d Hd. pose proof (Hrank q d Hd). split; lia.
  - apply covers_frame0. apply (inv_cur _ _ _ _ _ HI1).
  - intros [v fr] s2 K12 (Hv & Hcv & Hacc). cbn [fst snd] in *.
    pose proof (keeps_trans _ s s1 s2 K01 K12) as K02.
    pose proof K02 as (HI2 & He02 & _).
    pose proof (keeps_cur _ _ _ K02) as Hc2.
    apply wp_bind, wp_get.
    assert (Hold2 : d_memo s2 q = d_memo s q) by (apply (keeps_memo _ _ _ q K02); lia).
    assert (Hnv2 : forall m0, d_memo s q = Some m0 -> m_verified m0 = cur s2 -> m_val m0 = None).
    { intros m0 A B. apply Hnv; [exact A | congruence]. }
    rewrite <- Hc2 in Hcv, Hv, Hacc.
    assert (Hfin : forall ch,
      (ch = fr_changed fr \/
       exists o ov, d_memo s q = Some o /\ m_val o = Some ov /\ ov = v /\ ch = m_changed o /\
                    m_dur o <= fr_dur fr /\ m_changed o <= fr_changed fr) ->
      wp (set_memo_at q (fresh_memo v (cur s2) ch fr) ;;; ret (fresh_memo v (cur s2) ch fr))
         (exec_post s q) (XP s) s2).
    { intros ch Hch. apply wp_bind. unfold set_memo_at. apply wp_modify. apply wp_ret.
      change (set_memo s2 _) with (store s2 q (fresh_memo v (cur s2) ch fr)).
      destruct (fresh_store_ok persist prog rank Hrank NF Hbound H D s2 q fr v ch (d_memo s q)
                  HI2 Hcv Hv Hacc Hold2 Hnv2 Hch) as [HI3 He3].
      split; [apply (keeps_trans _ s s2); [exact (keeps_le _ _ _ _ (le_S _ _ (le_n _)) K02)|];
              apply keeps_store; [apply le_n | exact HI3 | exact He3]|].
      split; [apply upd_same|]. split; [exact Hc2 | cbn; rewrite Hv, Hc2; reflexivity]. }
    unfold AInvSem.fresh_memo in Hfin.
    destruct (d_memo s q) as [o|] eqn:Hold; [|apply Hfin; left; reflexivity].
    destruct (m_val o) as [ov|] eqn:Hov; [|apply Hfin; left; reflexivity].
    destruct (can_backdate_dur (fr_dur fr) (m_dur o) && negb (noeq q) && (ov =? v)) eqn:Hbk;
      [|apply Hfin; left; reflexivity].
    apply andb_true_iff in Hbk. destruct Hbk as [Hbk Hbd].
    apply andb_true_iff in Hbk. destruct Hbk as [Hbk _]. apply can_backdate_dur_spec in Hbk.
    apply N.eqb_eq in Hbd.
    pose proof (frame_changed_lb persist prog NF H D s2 q fr o HI2 Hcv Hold2) as Hlb.
    destruct (changed_after (m_changed o) (fr_changed fr)) eqn:Hca.
    + exfalso. apply changed_after_spec in Hca. lia.
    + apply Hfin. right. exists o, ov. conj; auto.
Qed.

(* ---------------------------------------------------------------- claims, refresh, fetch *)
Lemma claimed_ok {B} q s (m : M B) (Q : B -> db -> Prop) :
  AInv s -> stack_above s (S (rank q)) ->
  (let s1 := set_stack s (q :: d_stack s) in
   AInv s1 -> dext s s1 -> stack_above s1 (rank q) -> wp m Q (XP s) s1) ->
  wp (claim q ;;; m) Q (XP s) s.
Proof.
  intros HI Hst Hm. apply wp_bind. unfold claim. apply wp_bind, wp_get.
  destruct (existsb (key_eqb q) (d_stack s)) eqn:Hex.
  - exfalso. apply existsb_exists in Hex. destruct Hex as (x & Hx & Heq).
    apply key_eqb_eq in Heq. subst x. specialize (Hst q Hx). lia.
  - apply wp_modify. apply Hm.
    + apply AInv_set_stack, HI.
    + apply dext_of_core_eq; [repeat split | reflexivity].
    + intros p [<- | Hp]; [lia | specialize (Hst p Hp); lia].
Qed.

Definition got (s0 : db) (q : qkey) (mv : memo * val) (s' : db) : Prop :=
  keeps (S (rank q)) s0 s' /\
  d_memo s' q = Some (fst mv) /\ m_verified (fst mv) = cur s0 /\
  m_val (fst mv) = Some (snd mv) /\ snd mv = E (cur s0) q.

Lemma fetch_cold_ok L n q s (HF : fetch_spec L n) (HM : mca_spec L n) :
  (rank q <= n)%nat -> AInv s -> stack_above s (S (rank q)) -> not_valid_with_value s q ->
  wp (fetch_cold persist prog noeq L q) (got s q) (XP s) s.
Proof.
  intros Hn HI Hst Hnv. unfold fetch_cold.
  apply claimed_ok; [exact HI | exact Hst|]. intros s1 HI1 He01 Hst1.
  apply wp_bind, wp_get. change (d_memo s1 q) with (d_memo s q).
  assert (Hleave : forall mv s2, keeps (S (rank q)) s1 s2 ->
            d_memo s2 q = Some (fst mv) -> m_verified (fst mv) = cur s ->
            m_val (fst mv) = Some (snd mv) -> snd mv = E (cur s) q ->
            wp (release q ;;; ret mv) (got s q) (XP s) s2).
  { intros mv s2 K Hm2 Hv2 Hx2 HE2. apply wp_bind. unfold release. apply wp_modify. apply wp_ret.
    split; [apply (keeps_claimed _ q), K|]. conj; assumption. }
  assert (Hexec : forall old s2, d_memo s q = old -> keeps (S (rank q)) s1 s2 -> d_memo s2 q = old ->
            wp (m <- execute persist prog noeq L q old ;;
                release q ;;;
                match m_val m with Some v => ret (m, v) | None => nofuel end)
               (got s q) (XP s) s2).
  { intros old s2 Hold K12 Hm2. pose proof K12 as (HI2 & He2 & _ & Hs2).
    pose proof (keeps_cur _ _ _ K12) as Hc2. change (cur s1) with (cur s) in Hc2.
    rewrite <- Hm2.
    eapply wp_call; [eapply dext_trans; [exact He01 | exact He2] | apply (execute_ok L n q s2 HF Hn HI2) |].
    - intros m0 A B. apply Hnv; congruence.
    - intros p Hp. rewrite Hs2 in Hp. apply Hst1, Hp.
    - intros m s3 K23 (Hm3 & Hv3 & Hx3). rewrite Hx3.
      apply (Hleave (m, E (cur s2) q)); cbn [fst snd]; try congruence.
      exact (keeps_trans _ s1 s2 s3 K12 K23). }
  destruct (d_memo s q) as [m|] eqn:Hm.
  - destruct (m_val m) as [v|] eqn:Hv.
    + apply wp_bind.
      eapply wp_call; [exact He01 | apply (verify_memo_ok L n q m s1 HM Hn HI1 Hm Hst1) |].
      intros [b m'] s2 K12 (Htrue & Hfalse). cbn [fst snd] in *. apply wp_ret.
      destruct b.
      * destruct (Htrue eq_refl) as (Hm' & Hv' & Hval' & _ & _ & HE).
        apply (Hleave (m', v) s2 K12); cbn [fst snd]; [exact Hm' | exact Hv' | congruence |].
        change (cur s1) with (cur s) in HE. rewrite HE.
        apply (mo_val _ _ _ _ _ _ _ (inv_memo _ _ _ _ _ HI q m Hm)); exact Hv.
      * apply (Hexec (Some m)); [reflexivity | exact K12 | rewrite (Hfalse eq_refl); exact Hm].
    + apply wp_bind, wp_ret. apply (Hexec (Some m)); [reflexivity | apply keeps_refl, HI1 | exact Hm].
  - apply wp_bind, wp_ret. apply (Hexec None); [reflexivity | apply keeps_refl, HI1 | exact Hm].
Qed.

Lemma not_valid_of_ne s q m : d_memo s q = Some m -> m_verified m <> cur s -> not_valid_with_value s q.
Proof. intros Hm Hne m0 Hm0 Hv0. congruence. Qed.

Lemma fetch_hot_ok q s :
  AInv s ->
  wp (fetch_hot q)
     (fun hot s' => match hot with
                    | Some mv => got s q mv s'
                    | None => s' = s /\ not_valid_with_value s q
                    end) (XP s) s.
Proof.
  intros HI. unfold fetch_hot. apply wp_bind, wp_get.
  destruct (d_memo s q) as [m|] eqn:Hm; [|apply wp_ret; split; [reflexivity | intros m0 Hm0; congruence]].
  destruct (m_val m) as [v|] eqn:Hv; [|apply wp_ret; split; [reflexivity | intros m0 Hm0 _; congruence]].
  apply (shallow_then q m s (fun m' => Some (m', v)) (ret None)); [exact HI | exact Hm | |].
  - intros m' s' K (Hm' & Hv' & Hval' & _ & _ & HE).
    split; [exact K|]. cbn [fst snd]. conj; try congruence.
    rewrite HE. apply (mo_val _ _ _ _ _ _ _ (inv_memo _ _ _ _ _ HI q m Hm)); exact Hv.
  - intros Hc. apply wp_ret. split; [reflexivity|]. eapply not_valid_of_ne; eassumption.
Qed.

(* refresh_memo: what the accumulated_by loop calls on every function it pops *)
Lemma refresh_ok L n (HF : fetch_spec L n) (HM : mca_spec L n) :
  forall q s, (rank q <= n)%nat -> AInv s -> stack_above s (S (rank q)) ->
    wp (refresh persist prog noeq L q) (got s q) (XP s) s.
Proof.
  intros q s Hn HI Hst. unfold refresh.
  apply wp_bind.
  eapply wp_conseq; [apply (fetch_hot_ok q s HI) | |intros; assumption].
  intros hot s1 Hhot.
  destruct hot as [mv|].
  - apply wp_ret. exact Hhot.
  - destruct Hhot as [-> Hnv].
    apply (fetch_cold_ok L n q s HF HM Hn HI Hst Hnv).
Qed.

Lemma fetch_ok L n (HF : fetch_spec L n) (HM : mca_spec L n) :
  forall q s, (rank q <= n)%nat -> AInv s -> stack_above s (S (rank q)) ->
    wp (fetch persist prog noeq L q) (fetch_post s q) (XP s) s.
Proof.
  intros q s Hn HI Hst. unfold fetch.
  eapply wp_call; [apply dext_refl | apply (refresh_ok L n HF HM q s Hn HI Hst) |].
  intros [m v] s2 K (Hm & Hv & Hval & HE). cbn [fst snd] in *.
  apply wp_bind, wp_modify, wp_ret.
  split; [apply (keeps_trans _ s s2); [exact K|];
          apply keeps_frame; [apply K | repeat split | reflexivity | reflexivity]|].
  cbn [fst snd]. split; [exact HE|]. exists m. conj; auto.
Qed.

(* ---------------------------------------------------------------- maybe_changed_after *)
Definition mca_answer (m : memo) (since : rev) : vres :=
  if changed_after (m_changed m) since then VChanged else VUnchanged (ufm m).

Lemma mca_answer_ok s' s q m since a :
  d_memo s' q = Some m -> m_verified m = cur s -> mca_answer m since = VUnchanged a ->
  exists m', d_memo s' q = Some m' /\ m_verified m' = cur s /\ m_changed m' <= since /\ a = ufm m'.
Proof.
  unfold mca_answer. intros Hm Hv Ha.
  destruct (changed_after (m_changed m) since) eqn:Hca; [discriminate|].
  injection Ha as <-. apply changed_after_false in Hca. exists m. conj; auto.
Qed.

Lemma mca_cold_ok L n q since s (HF : fetch_spec L n) (HM : mca_spec L n) :
  (rank q <= n)%nat -> AInv s -> stack_above s (S (rank q)) -> not_valid_with_value s q ->
  wp (mca_cold persist prog noeq L q since) (mca_post s q since) (XP s) s.
Proof.
  intros Hn HI Hst Hnv. unfold mca_cold.
  apply claimed_ok; [exact HI | exact Hst|]. intros s1 HI1 He01 Hst1.
  apply wp_bind, wp_get. change (d_memo s1 q) with (d_memo s q).
  assert (Hleave : forall b s2, keeps (S (rank q)) s1 s2 ->
            (forall a, b = VUnchanged a ->
               exists m, d_memo s2 q = Some m /\ m_verified m = cur s /\ m_changed m <= since /\ a = ufm m) ->
            wp (release q ;;; ret b) (mca_post s q since) (XP s) s2).
  { intros b s2 K Hb. apply wp_bind. unfold release. apply wp_modify. apply wp_ret.
    split; [apply (keeps_claimed _ q), K | exact Hb]. }
  destruct (d_memo s q) as [old|] eqn:Hm;
    [|apply Hleave; [apply keeps_refl, HI1 | discriminate]].
  eapply wp_call; [exact He01 | apply (verify_memo_ok L n q old s1 HM Hn HI1 Hm Hst1) |].
  intros [b m'] s2 K12 (Htrue & Hfalse). cbn [fst snd] in *.
  destruct b.
  - destruct (Htrue eq_refl) as (Hm' & Hv' & _).
    apply Hleave; [exact K12|]. intros a. apply (mca_answer_ok s2 s q m' since a Hm' Hv').
  - specialize (Hfalse eq_refl). change (d_memo s1 q) with (d_memo s q) in Hfalse.
    destruct (m_val old) as [ov|] eqn:Hov; [|apply Hleave; [exact K12 | discriminate]].
    pose proof K12 as (HI2 & He2 & _ & Hs2).
    pose proof (keeps_cur _ _ _ K12) as Hc2. change (cur s1) with (cur s) in Hc2.
    rewrite <- Hm, <- Hfalse.
    eapply wp_call; [eapply dext_trans; [exact He01 | exact He2] | apply (execute_ok L n q s2 HF Hn HI2) |].
    + intros m0 A B. apply Hnv; congruence.
    + intros p Hp. rewrite Hs2 in Hp. apply Hst1, Hp.
    + intros mnew s3 K23 (Hm3 & Hv3 & _).
      apply Hleave; [exact (keeps_trans _ s1 s2 s3 K12 K23)|].
      intros a. apply (mca_answer_ok s3 s q mnew since a Hm3). congruence.
Qed.

Lemma mca_ok L n (HF : fetch_spec L n) (HM : mca_spec L n) :
  forall q since s, (rank q <= n)%nat -> AInv s -> stack_above s (S (rank q)) ->
    wp (mca persist prog noeq L q since) (mca_post s q since) (XP s) s.
Proof.
  intros q since s Hn HI Hst. unfold mca.
  apply wp_bind, wp_get.
  destruct (d_memo s q) as [m|] eqn:Hm;
    [|apply wp_ret; split; [apply keeps_refl, HI | discriminate]].
  apply (shallow_then q m s (fun m' => mca_answer m' since) (mca_cold persist prog noeq L q since));
    [exact HI | exact Hm | |].
  - intros m' s' K (Hm' & Hv' & _).
    split; [exact K|]. intros a. apply (mca_answer_ok s' s q m' since a Hm' Hv').
  - intros Hc. apply (mca_cold_ok L n q since s HF HM Hn HI Hst).
    eapply not_valid_of_ne; eassumption.
Qed.

(* level n+1 calls level n for its callees *)
Theorem alevel_ok : forall n,
  fetch_spec (level persist prog noeq n) n /\ mca_spec (level persist prog noeq n) n.
Proof.
  induction n as [|n [IHF IHM]].
  - split; intros q; intros; lia.
  - split.
    + intros q s Hq HI Hst. cbn [level l_fetch].
      apply (fetch_ok (level persist prog noeq n) n IHF IHM q s); [lia | exact HI | exact Hst].
    + intros q since s Hq HI Hst. cbn [level l_mca].
      apply (mca_ok (level persist prog noeq n) n IHF IHM q since s); [lia | exact HI | exact Hst].
Qed.

End Ops.
