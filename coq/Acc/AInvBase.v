(* Acc/AInvBase.v — groundwork for the invariant of the Acc model (C11): read traces of
   bodies, "a run is a function of the answers to its reads" (value, pushes, callees), the
   from-scratch semantics over a history of snapshots, and the weakest-precondition calculus
   for the Acc monad.  The counterpart for Acc/Model.v (bodies have the extra constructor
   [Accum]) of Core/SpecProofs.v, Core/Wp.v and the first part of Core/Inv.v. *)
From Salsa Require Import Base.
From Salsa.Kern Require Import CoreK CoreKFacts.
From Salsa.Acc Require Import Model Spec ProofsDfs ProofsSpec.

Ltac conj := repeat match goal with |- _ /\ _ => split end.

(* ---------------------------------------------------------------- traces *)
Inductive rd := RIn (i : ikey) | RQ (q : qkey) | RCell (c : cell) | RTouch.

Fixpoint trace (e : env) (b : body) : list rd :=
  match b with
  | Ret _ => []
  | RdIn i k => RIn i :: trace e (k (e_in e i))
  | CallQ q k => RQ q :: trace e (k (e_q e q))
  | RdCell c k => RCell c :: trace e (k (e_cell e c))
  | Touch k => RTouch :: trace e k
  | PanicIf _ k => trace e k
  | Accum _ k => trace e k
  end.

Definition answer (e : env) (r : rd) : val :=
  match r with
  | RIn i => e_in e i
  | RQ q => e_q e q
  | RCell c => e_cell e c
  | RTouch => 0
  end.

Definition agree_on (e e' : env) (l : list rd) : Prop :=
  forall r, In r l -> answer e r = answer e' r.

Definition untr (x : rd) : Prop := x = RTouch \/ exists c, x = RCell c.

Fixpoint rq_of (l : list rd) : list qkey :=
  match l with
  | [] => []
  | RQ q :: l' => q :: rq_of l'
  | _ :: l' => rq_of l'
  end.

(* [reads b r k]: the body [b] starts with the read [r] and goes on as [k] of the answer.
   Field getters, calls, cell reads and bare untracked reads only differ in what is asked. *)
Inductive reads : body -> rd -> (val -> body) -> Prop :=
| reads_in i k : reads (RdIn i k) (RIn i) k
| reads_q q k : reads (CallQ q k) (RQ q) k
| reads_cell c k : reads (RdCell c k) (RCell c) k
| reads_touch k : reads (Touch k) RTouch (fun _ => k).

Lemma reads_step b r k e : reads b r k ->
  trace e b = r :: trace e (k (answer e r)) /\ run e b = run e (k (answer e r)) /\
  pushes e b = pushes e (k (answer e r)) /\
  callees e b = rq_of [r] ++ callees e (k (answer e r)).
Proof. destruct 1; repeat split. Qed.

Lemma body_reads_ind (P : body -> Prop) :
  (forall v, P (Ret v)) ->
  (forall b r k, reads b r k -> (forall x, P (k x)) -> P b) ->
  (forall c k, P k -> P (PanicIf c k)) ->
  (forall v k, P k -> P (Accum v k)) ->
  forall b, P b.
Proof.
  intros HR HS HP HA. induction b as [v | i k IH | q k IH | c k IH | k IH | c k IH | v k IH].
  - apply HR.
  - apply (HS _ _ _ (reads_in i k) IH).
  - apply (HS _ _ _ (reads_q q k) IH).
  - apply (HS _ _ _ (reads_cell c k) IH).
  - apply (HS _ _ _ (reads_touch k)). intros _. exact IH.
  - apply HP, IH.
  - apply HA, IH.
Qed.

(* A body's run is a function of the answers to the reads it performs. *)
Lemma trace_determined (b : body) : forall e e',
  agree_on e e' (trace e b) ->
  trace e' b = trace e b /\ run e' b = run e b /\ pushes e' b = pushes e b /\
  callees e' b = callees e b.
Proof.
  induction b as [v | b r k Hb IH | c k IH | a k IH] using body_reads_ind; intros e e' H.
  - repeat split.
  - destruct (reads_step b r k e Hb) as (T & R & P & C).
    destruct (reads_step b r k e' Hb) as (T' & R' & P' & C').
    rewrite T in H. rewrite T, R, P, C, T', R', P', C', <- (H r (or_introl eq_refl)).
    destruct (IH (answer e r) e e') as (A1 & A2 & A3 & A4); [intros x Hx; apply H; right; exact Hx|].
    rewrite A1, A2, A3, A4. repeat split.
  - apply IH; exact H.
  - destruct (IH e e' H) as (A1 & A2 & A3 & A4). cbn [trace run pushes callees].
    rewrite A1, A2, A3, A4. repeat split.
Qed.

Lemma first_changed_is_read_again (b : body) : forall e e',
  (agree_on e e' (trace e b)) \/
  (exists pre r post, trace e b = pre ++ r :: post /\ agree_on e e' pre /\
                      answer e r <> answer e' r /\
                      exists post', trace e' b = pre ++ r :: post').
Proof.
  induction b as [v | b r k Hb IH | c k IH | a k IH] using body_reads_ind; intros e e'.
  - left; intros r [].
  - destruct (reads_step b r k e Hb) as (T & _), (reads_step b r k e' Hb) as (T' & _).
    rewrite T, T'.
    destruct (N.eq_dec (answer e r) (answer e' r)) as [Heq | Hne].
    + rewrite <- Heq.
      destruct (IH (answer e r) e e') as [Hag | (pre & x & post & Ht & Hpre & Hne & post' & Ht')].
      * left; intros y [<- | Hy]; [exact Heq | apply Hag; exact Hy].
      * right; exists (r :: pre), x, post; repeat split.
        -- cbn; rewrite Ht; reflexivity.
        -- intros y [<- | Hy]; [exact Heq | apply Hpre; exact Hy].
        -- exact Hne.
        -- exists post'; cbn; rewrite Ht'; reflexivity.
    + right; exists [], r, (trace e (k (answer e r))); repeat split.
      * intros y [].
      * exact Hne.
      * exists (trace e' (k (answer e' r))); reflexivity.
  - apply IH.
  - apply IH.
Qed.

Lemma agree_common b e e' :
  (forall x, In x (trace e b) -> In x (trace e' b) -> answer e x = answer e' x) ->
  agree_on e e' (trace e b).
Proof.
  intros Hsame.
  destruct (first_changed_is_read_again b e e')
    as [Hag | (pre & x & post & Ht & _ & Hne & post' & Ht')]; [exact Hag|].
  exfalso. apply Hne. apply Hsame; [rewrite Ht | rewrite Ht']; apply in_or_app; right; left; reflexivity.
Qed.

(* the calls of a run are the tracked-function reads of its trace, in order *)
Lemma callees_trace e b : callees e b = rq_of (trace e b).
Proof.
  induction b as [v | b r k Hb IH | c k IH | a k IH] using body_reads_ind;
    try exact IH; [reflexivity|].
  destruct (reads_step b r k e Hb) as (T & _ & _ & C). rewrite T, C, IH.
  destruct r; reflexivity.
Qed.

Lemma rq_of_In l q : In q (rq_of l) <-> In (RQ q) l.
Proof.
  induction l as [|x l IH]; cbn; [tauto|].
  destruct x as [i | d | c |]; cbn; rewrite IH; split; intros Hx; try tauto;
    try (destruct Hx as [Hx | Hx]; [discriminate | exact Hx]).
  - destruct Hx as [-> | Hx]; [left; reflexivity | right; exact Hx].
  - destruct Hx as [Hx | Hx]; [injection Hx as ->; left; reflexivity | right; exact Hx].
Qed.

Lemma calls_of_trace e b q : In (RQ q) (trace e b) -> calls b q.
Proof. intros Hx. apply (callees_calls e). rewrite callees_trace. apply rq_of_In. exact Hx. Qed.

Lemma env_ext b e e' :
  (forall i, e_in e i = e_in e' i) -> (forall c, e_cell e c = e_cell e' c) ->
  (forall d, calls b d -> e_q e d = e_q e' d) ->
  trace e' b = trace e b /\ run e' b = run e b /\ pushes e' b = pushes e b /\
  callees e' b = callees e b.
Proof.
  intros Hi Hc Hq. apply trace_determined.
  intros r Hr. destruct r as [i | d | c |]; cbn; auto.
  apply Hq. apply (calls_of_trace e). exact Hr.
Qed.

Lemma rank_ind (rank : qkey -> nat) (P : qkey -> Prop) :
  (forall q, (forall d, (rank d < rank q)%nat -> P d) -> P q) -> forall q, P q.
Proof.
  intros IH.
  assert (Hn : forall n q, (rank q < n)%nat -> P q).
  { induction n as [|n IHn]; intros q Hq; [lia|]. apply IH. intros d Hd. apply IHn. lia. }
  intros q. apply (Hn (S (rank q))). lia.
Qed.

Section Rank.
Variable prog : qkey -> body.
Variable rank : qkey -> nat.
Hypothesis Hrank : calls_below prog rank.

Lemma eval_fuel_irrelevant sn : forall n m q,
  (rank q < n)%nat -> (rank q < m)%nat -> eval prog n sn q = eval prog m sn q.
Proof.
  induction n as [|n IH]; intros m q Hn Hm; [inversion Hn|].
  destruct m as [|m]; [inversion Hm|].
  symmetry. apply env_ext; cbn; try reflexivity.
  intros d Hd. apply Hrank in Hd. apply IH; lia.
Qed.
End Rank.

(* ---------------------------------------------------------------- semantics over a history *)
Section Hist.
Variable prog : qkey -> body.
Variable rank : qkey -> nat.
Hypothesis Hrank : calls_below prog rank.
Variable NF : nat.
Hypothesis Hbound : forall q, (rank q < NF)%nat.

(* ghost histories: the snapshot (inputs and cells) and the durability of every input at every
   revision; the invariant relates the memos verified at r to [H r] and [D r] *)
Definition hist := rev -> snapshot.
Definition dhist := rev -> ikey -> dur.

Definition E (H : hist) (r : rev) (q : qkey) : val := eval prog NF (H r) q.

Definition envat (H : hist) (r : rev) : env := env_of prog NF (H r).

Definition tr (H : hist) (r : rev) (q : qkey) : list rd := trace (envat H r) (prog q).
Definition psh (H : hist) (r : rev) (q : qkey) : list val := pushes (envat H r) (prog q).

Lemma E_unfold H r q : E H r q = run (envat H r) (prog q).
Proof.
  unfold E. pose proof (Hbound q) as Hq.
  destruct NF as [|n] eqn:HN; [inversion Hq|].
  symmetry. apply env_ext; cbn; try reflexivity.
  intros d Hd. apply Hrank in Hd.
  rewrite HN. apply (eval_fuel_irrelevant prog rank Hrank); lia.
Qed.

Lemma tr_calls H r q d : In (RQ d) (tr H r q) -> (rank d < rank q)%nat.
Proof. intros Hx. apply calls_of_trace in Hx. apply Hrank in Hx. exact Hx. Qed.

Lemma E_hist_eq H H' r q : H' r = H r -> E H' r q = E H r q.
Proof. unfold E. intros ->. reflexivity. Qed.

Lemma tr_hist_eq H H' r q : H' r = H r -> tr H' r q = tr H r q.
Proof. unfold tr, envat. intros ->. reflexivity. Qed.

Lemma psh_hist_eq H H' r q : H' r = H r -> psh H' r q = psh H r q.
Proof. unfold psh, envat. intros ->. reflexivity. Qed.

End Hist.

(* snapshots up to pointwise equality *)
Definition snap_eq (a b : snapshot) : Prop :=
  (forall i, sn_in a i = sn_in b i) /\ (forall c, sn_cell a c = sn_cell b c).

Lemma eval_snap_eq prog a b : snap_eq a b -> forall n q, eval prog n a q = eval prog n b q.
Proof.
  intros [Hi Hc]. induction n as [|n IH]; intros q; [reflexivity|].
  symmetry. apply env_ext; cbn; auto.
Qed.

Lemma env_snap_eq prog n a b : snap_eq a b -> forall b0,
  trace (env_of prog n b) b0 = trace (env_of prog n a) b0 /\
  pushes (env_of prog n b) b0 = pushes (env_of prog n a) b0 /\
  callees (env_of prog n b) b0 = callees (env_of prog n a) b0.
Proof.
  intros Hs b0. destruct (env_ext b0 (env_of prog n a) (env_of prog n b)) as (A & _ & C & D0);
    [apply Hs | apply Hs | intros d _; apply eval_snap_eq, Hs | repeat split; assumption].
Qed.

(* ---------------------------------------------------------------- weakest preconditions *)
Definition wp {A} (m : M A) (Q : A -> db -> Prop) (X : panic -> db -> Prop) (s : db) : Prop :=
  match m s with
  | (s', Ok a) => Q a s'
  | (s', Panic p) => X p s'
  | (_, Fuel) => False
  end.

Lemma wp_ret {A} (a : A) (Q : A -> db -> Prop) (X : panic -> db -> Prop) s : Q a s -> wp (ret a) Q X s.
Proof. intros H; exact H. Qed.

Lemma wp_bind {A B} (m : M A) (f : A -> M B) (Q : B -> db -> Prop) (X : panic -> db -> Prop) s :
  wp m (fun a s' => wp (f a) Q X s') X s -> wp (bind m f) Q X s.
Proof. unfold wp, bind. destruct (m s) as [s' [a | p |]]; intros H; exact H. Qed.

Lemma wp_get (Q : db -> db -> Prop) (X : panic -> db -> Prop) s : Q s s -> wp get Q X s.
Proof. intros H; exact H. Qed.

Lemma wp_modify f (Q : unit -> db -> Prop) (X : panic -> db -> Prop) s : Q tt (f s) -> wp (modify f) Q X s.
Proof. intros H; exact H. Qed.

Lemma wp_fail {A} p (Q : A -> db -> Prop) (X : panic -> db -> Prop) s : X p s -> wp (fail p) Q X s.
Proof. intros H; exact H. Qed.

Lemma wp_emit e (Q : unit -> db -> Prop) (X : panic -> db -> Prop) s :
  Q tt (set_log s (e :: d_log s)) -> wp (emit e) Q X s.
Proof. intros H; exact H. Qed.

Lemma wp_conseq {A} (m : M A) (Q Q' : A -> db -> Prop) (X X' : panic -> db -> Prop) s :
  wp m Q X s -> (forall a s', Q a s' -> Q' a s') -> (forall p s', X p s' -> X' p s') -> wp m Q' X' s.
Proof. unfold wp. destruct (m s) as [s' [a | p |]]; intros H HQ HX; auto. Qed.

Lemma wp_and {A} (m : M A) (Q Q' : A -> db -> Prop) (X X' : panic -> db -> Prop) s :
  wp m Q X s -> wp m Q' X' s ->
  wp m (fun a s' => Q a s' /\ Q' a s') (fun p s' => X p s' /\ X' p s') s.
Proof. unfold wp. destruct (m s) as [s' [a | p |]]; tauto. Qed.
