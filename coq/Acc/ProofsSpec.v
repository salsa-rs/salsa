(* Acc/ProofsSpec.v — the specification [spec_acc] is the recursive pre-order DFS over the
   from-scratch call graph: well defined (the order exists and is unique) for acyclic programs. *)
From Salsa Require Import Base.
From Salsa.Acc Require Import Model Spec ProofsDfs.

Lemma existsb_key_In q vis : existsb (key_eqb q) vis = true <-> In q vis.
Proof.
  rewrite existsb_exists. split.
  - intros (x & Hx & E). apply key_eqb_eq in E. now subst.
  - intros H. exists q. split; [exact H | apply key_eqb_refl].
Qed.

Lemma In_EQ_map q vis : In (EQ q) (map EQ vis) <-> In q vis.
Proof.
  rewrite in_map_iff. split.
  - intros (x & E & Hx). injection E as ->. exact Hx.
  - intros H. exists q. split; [reflexivity | exact H].
Qed.

Lemma In_EIn_map i vis : ~ In (EIn i) (map EQ vis).
Proof. rewrite in_map_iff. intros (x & E & _). discriminate. Qed.

Section VisitDfs.
Variable succ : qkey -> list qkey.
Variable own : qkey -> list val.
Variable rank : qkey -> nat.
Hypothesis rank_succ : forall q c, In c (succ q) -> (rank c < rank q)%nat.

Definition esucc (q : qkey) : list edge := map EQ (succ q).

Definition vstep (n : nat) (acc : list qkey * list val) (c : qkey) : list qkey * list val :=
  let '(vis', o) := visit succ own n (fst acc) c in (vis', snd acc ++ o).

Lemma visit_S n vis q :
  visit succ own (S n) vis q =
  if existsb (key_eqb q) vis then (vis, [])
  else fold_left (vstep n) (succ q) (q :: vis, own q).
Proof. reflexivity. Qed.

Definition visit_ok (n : nat) : Prop :=
  forall vis q vis' o, (rank q < n)%nat -> visit succ own n vis q = (vis', o) ->
    exists ord, dfs esucc (map EQ vis) [EQ q] ord /\ o = outs own ord /\
                seteq (map EQ vis') (ord ++ map EQ vis).

Lemma fold_dfs n : visit_ok n ->
  forall cs vis0 out0 vis' o, (forall c, In c cs -> (rank c < n)%nat) ->
    fold_left (vstep n) cs (vis0, out0) = (vis', o) ->
    exists ord, dfs esucc (map EQ vis0) (map EQ cs) ord /\ o = out0 ++ outs own ord /\
                seteq (map EQ vis') (ord ++ map EQ vis0).
Proof.
  intros Hn. induction cs as [|c cs IH]; intros vis0 out0 vis' o Hr H; cbn in H.
  - injection H as <- <-. exists []. repeat split; [constructor | cbn; now rewrite app_nil_r | tauto | tauto].
  - unfold vstep at 2 in H. cbn [fst snd] in H.
    destruct (visit succ own n vis0 c) as [v1 o1] eqn:V.
    destruct (Hn _ _ _ _ (Hr c (or_introl eq_refl)) V) as (ord1 & D1 & -> & S1).
    destruct (IH v1 (out0 ++ outs own ord1) vis' o) as (ord2 & D2 & -> & S2);
      [intros x Hx; apply Hr; now right | exact H |].
    exists (ord1 ++ ord2). split; [|split].
    + change (map EQ (c :: cs)) with ([EQ c] ++ map EQ cs). eapply dfs_app; [exact D1|].
      eapply dfs_seteq; [exact D2 | exact S1].
    + rewrite outs_app. now rewrite app_assoc.
    + apply (seteq_trans _ _ _ S2), (seteq_trans _ _ _ (seteq_app ord2 _ _ S1)), seteq_sym, seteq_swap.
Qed.

Lemma visit_ok_all n : visit_ok n.
Proof.
  induction n as [|n IH]; intros vis q vis' o Hr H; [lia|].
  rewrite visit_S in H. destruct (existsb (key_eqb q) vis) eqn:M.
  - injection H as <- <-. exists []. repeat split; try tauto.
    apply dfs_seen; [|constructor]. apply In_EQ_map. now apply existsb_key_In.
  - assert (Hq : ~ In (EQ q) (map EQ vis)).
    { rewrite In_EQ_map, <- existsb_key_In. congruence. }
    destruct (fold_dfs n IH (succ q) (q :: vis) (own q) vis' o) as (ord & D & -> & S);
      [intros c Hc; pose proof (rank_succ _ _ Hc); lia | exact H |].
    exists (EQ q :: ord ++ []). split; [|split].
    + apply dfs_q; [exact Hq | exact D | constructor].
    + rewrite app_nil_r. reflexivity.
    + rewrite app_nil_r. apply (seteq_trans _ _ _ S), seteq_sym, (seteq_visit1 (EQ q) ord (map EQ vis)).
Qed.

End VisitDfs.

(* ---------------------------------------------------------------- the from-scratch call graph *)
Lemma callees_calls e b c : In c (callees e b) -> calls b c.
Proof.
  induction b as [v|i k IH|q k IH|c0 k IH|k IH|c0 k IH|v k IH]; cbn; intros H.
  - destruct H.
  - eapply calls_in_rdin, IH, H.
  - destruct H as [<-|H]; [constructor | eapply calls_in_call, IH, H].
  - eapply calls_in_cell, IH, H.
  - apply calls_in_touch, IH, H.
  - apply calls_in_panicif, IH, H.
  - apply calls_in_accum, IH, H.
Qed.

Section SpecAcc.
Variable prog : qkey -> body.
Variable rank : qkey -> nat.
Hypothesis acyclic : calls_below prog rank.
Variable n : nat.
Hypothesis rank_bound : forall q, (rank q < n)%nat.
Variable sn : snapshot.

Definition sem_succ (q : qkey) : list edge := map EQ (spec_succ prog (env_of prog n sn) q).
Definition sem_own (q : qkey) : list val := spec_own prog (env_of prog n sn) q.

(* spec_acc is the value list of the (unique) pre-order DFS of the from-scratch call graph *)
Theorem spec_acc_dfs q :
  exists ord, dfs sem_succ [] [EQ q] ord /\ spec_acc prog n sn q = outs sem_own ord.
Proof.
  unfold spec_acc.
  destruct (visit (spec_succ prog (env_of prog n sn)) (spec_own prog (env_of prog n sn)) n [] q)
    as [vis' o] eqn:V.
  destruct (visit_ok_all (spec_succ prog (env_of prog n sn)) (spec_own prog (env_of prog n sn)) rank
              (fun q c Hc => acyclic q c (callees_calls _ _ _ Hc)) n [] q vis' o (rank_bound q) V)
    as (ord & D & -> & _).
  exists ord. split; [exact D | reflexivity].
Qed.

Theorem spec_acc_unique q ord :
  dfs sem_succ [] [EQ q] ord -> spec_acc prog n sn q = outs sem_own ord.
Proof.
  intros D. destruct (spec_acc_dfs q) as (ord' & D' & ->).
  now rewrite (dfs_fun _ _ _ _ D' _ D).
Qed.

End SpecAcc.
