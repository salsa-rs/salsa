(* Acc/AInvTop.v — the Acc invariant across API operations (new revisions, writes that report
   the OLD durability, synthetic writes, eviction).  The counterpart for Acc/Model.v of
   Core/InvTop.v (eviction facts) and Core/DInvTop.v.  What the reads of a history return is
   stated in Acc/AInvFull.v. *)
From Salsa Require Import Base.
From Salsa.Kern Require Import CoreK CoreKFacts.
From Salsa.Core Require DurSem.
From Salsa.Acc Require Import Model Spec ProofsDfs ProofsSpec AInvBase ADurSem AInv AInvSem AInvOps.

(* ---------------------------------------------------------------- histories *)
Definition extend (H : hist) (c : rev) (sn : snapshot) : hist :=
  fun r => if r =? c then sn else H r.

Lemma extend_same H c sn : extend H c sn c = sn.
Proof. unfold extend. rewrite N.eqb_refl. reflexivity. Qed.

Lemma extend_other H c sn r : r <> c -> extend H c sn r = H r.
Proof. unfold extend. intros Hne. apply N.eqb_neq in Hne. rewrite Hne. reflexivity. Qed.

(* ---------------------------------------------------------------- eviction only forgets values *)
Definition evicted_from (mm mm' : qkey -> option memo) : Prop :=
  forall q, mm' q = mm q \/ exists m, mm q = Some m /\ mm' q = Some (evict_memo m).

Lemma evict_memo_idem m : evict_memo (evict_memo m) = evict_memo m.
Proof. unfold evict_memo. destruct (m_untracked m) eqn:Hu; [rewrite Hu; reflexivity | reflexivity]. Qed.

Lemma evicted_refl mm : evicted_from mm mm.
Proof. intros q; left; reflexivity. Qed.

Lemma evicted_trans a b c : evicted_from a b -> evicted_from b c -> evicted_from a c.
Proof.
  intros Hab Hbc q. destruct (Hab q) as [Hq | (m & Hm & Hq)], (Hbc q) as [Hq' | (m' & Hm' & Hq')].
  - left; congruence.
  - right. exists m'. split; congruence.
  - right. exists m. split; congruence.
  - right. exists m. split; [exact Hm|]. rewrite Hq', Hq in *. injection Hm' as <-.
    rewrite evict_memo_idem. reflexivity.
Qed.

Lemma evict_keys_evicted fam ks : forall mm, evicted_from mm (evict_keys fam ks mm).
Proof.
  unfold evict_keys. induction ks as [|k ks IH]; intros mm; cbn [fold_left].
  - apply evicted_refl.
  - eapply evicted_trans; [|apply IH].
    intros q. destruct (mm (fam, k)) as [m|] eqn:Hm; [|left; reflexivity].
    unfold upd. destruct (key_eqb_spec (fam, k) q) as [<- | Hne]; [|left; reflexivity].
    right. exists m. split; [exact Hm | reflexivity].
Qed.

Record same_but_memos (s s' : db) : Prop := {
  sb_revs : d_revs s' = d_revs s;
  sb_in : d_in s' = d_in s;
  sb_cell : d_cell s' = d_cell s;
  sb_stack : d_stack s' = d_stack s;
  sb_memo : evicted_from (d_memo s) (d_memo s')
}.

Lemma sbm_refl s : same_but_memos s s.
Proof. constructor; auto using evicted_refl. Qed.

Lemma sbm_trans a b c : same_but_memos a b -> same_but_memos b c -> same_but_memos a c.
Proof.
  intros [a1 a2 a3 a4 a5] [b1 b2 b3 b4 b5]. constructor; try congruence.
  eapply evicted_trans; eassumption.
Qed.

Lemma evict_all_sbm : forall fs s, same_but_memos s (evict_all fs s).
Proof.
  unfold evict_all. induction fs as [|f fs IH]; intros s; cbn [fold_left].
  - apply sbm_refl.
  - eapply sbm_trans; [|apply IH].
    destruct (lru_evict (d_lru s f)) as [ev l'].
    constructor; try reflexivity. cbn. apply evict_keys_evicted.
Qed.

Section Top.
Variable persist : bool.
Variable prog : qkey -> body.
Variable noeq : qkey -> bool.
Variable fams : list N.
Variable rank : qkey -> nat.
Hypothesis Hrank : calls_below prog rank.
Variable NF : nat.
Hypothesis Hbound : forall q, (rank q < NF)%nat.
Notation E := (E prog NF).
Notation durge := (ADurSem.durge prog NF).
Notation amemo_ok := (amemo_ok prog NF).
Notation AInv := (AInv prog NF).
Notation rmok := (rmok prog NF).

(* ---------------------------------------------------------------- durability histories *)
Definition extendD (D : dhist) (c : rev) (f : ikey -> dur) : dhist :=
  fun r => if r =? c then f else D r.

Lemma extendD_same D c f : extendD D c f c = f.
Proof. unfold extendD. rewrite N.eqb_refl. reflexivity. Qed.

Lemma extendD_other D c f r : r <> c -> extendD D c f r = D r.
Proof. unfold extendD. intros Hne. apply N.eqb_neq in Hne. rewrite Hne. reflexivity. Qed.

Definition durs_of (s : db) : ikey -> dur := fun i => f_dur (d_in s i).

(* ---------------------------------------------------------------- eviction keeps everything but values *)
Definition memo_sim (m m' : memo) : Prop :=
  m_verified m' = m_verified m /\ m_changed m' = m_changed m /\ m_dur m' = m_dur m /\
  m_untracked m' = m_untracked m /\ m_edges m' = m_edges m /\
  m_acc m' = m_acc m /\ m_accin m' = m_accin m /\
  (forall x, m_val m' = Some x -> m_val m = Some x).

Lemma memo_sim_refl m : memo_sim m m.
Proof. repeat split; auto. Qed.

Lemma memo_sim_evict m : memo_sim m (evict_memo m).
Proof.
  unfold evict_memo. destruct (m_untracked m) eqn:Hu; [apply memo_sim_refl|].
  repeat split; cbn; auto. discriminate.
Qed.

Lemma evicted_fwd mm mm' q m : evicted_from mm mm' -> mm q = Some m ->
  exists m', mm' q = Some m' /\ memo_sim m m'.
Proof.
  intros Hev Hm. destruct (Hev q) as [Heq | (m0 & Hm0 & Heq)].
  - exists m. split; [congruence | apply memo_sim_refl].
  - rewrite Hm in Hm0. injection Hm0 as <-. exists (evict_memo m). split; [exact Heq | apply memo_sim_evict].
Qed.

Lemma evicted_bwd mm mm' q m' : evicted_from mm mm' -> mm' q = Some m' ->
  exists m, mm q = Some m /\ memo_sim m m'.
Proof.
  intros Hev Hm'. destruct (Hev q) as [Heq | (m0 & Hm0 & Heq)].
  - exists m'. split; [congruence | apply memo_sim_refl].
  - rewrite Heq in Hm'. injection Hm' as <-. exists m0. split; [exact Hm0 | apply memo_sim_evict].
Qed.

Lemma amemo_ok_sim H D s q m m' : memo_sim m m' -> amemo_ok H D s q m -> amemo_ok H D s q m'.
Proof.
  (* every clause of [amemo_ok] reads m through the fields [memo_sim] keeps equal, except
     [mo_val], which needs the value of m' to be one of m *)
  intros (S1 & S2 & S3 & S4 & S5 & S7 & S8 & S6) [a b c d e f g h i k k1 k2 k3 j].
  constructor; rewrite ?S1, ?S2, ?S3, ?S4, ?S5, ?S7, ?S8; auto.
Qed.

(* ---------------------------------------------------------------- the invariant modulo cells *)
Definition AInv_d (H : hist) (D : dhist) (s : db) : Prop :=
  AInv H D (set_cell s (sn_cell (H (cur s)))).

(* The general transfer lemma: from (dirty) s under (H, D) to s' under (H', D'). *)
Lemma AInv_transfer H D H' D' s s' :
  AInv_d H D s ->
  cur s <= cur s' -> 1 <= cur s' -> revs_ok (d_revs s') ->
  (forall k, lcs s k <= lcs s' k) ->
  evicted_from (d_memo s) (d_memo s') ->
  (forall i, f_changed (d_in s i) <= f_changed (d_in s' i)) ->
  (* the past is kept wherever a memo was verified *)
  (forall q m, d_memo s q = Some m ->
     H' (m_verified m) = H (m_verified m) /\ forall i, D' (m_verified m) i = D (m_verified m) i) ->
  (forall i r, f_changed (d_in s' i) <= r -> r <= cur s' -> sn_in (H' r) i = f_val (d_in s' i)) ->
  (forall i r, f_changed (d_in s' i) <= r -> r <= cur s' -> D' r i = f_dur (d_in s' i)) ->
  (forall i, f_changed (d_in s' i) <= cur s') ->
  (forall c, sn_cell (H' (cur s')) c = d_cell s' c) ->
  (forall r i, D' r i <= 3) ->
  (forall r i, r < cur s' -> lcs s' (D' r i) <= r ->
     sn_in (H' (r + 1)) i = sn_in (H' r) i /\ D' (r + 1) i = D' r i) ->
  AInv H' D' s'.
Proof.
  intros HI Hc H1 Hrv Hlc Hev Hfc Hpast Hin Hdur Hinle Hcell Hd3 Hwr.
  unfold AInv_d in HI. destruct HI as [a a' b b' c d e f g].
  change (cur (set_cell s _)) with (cur s) in *.
  change (d_memo (set_cell s _)) with (d_memo s) in *.
  assert (Hok : forall q m m', d_memo s q = Some m -> memo_sim m m' -> amemo_ok H' D' s' q m').
  { intros q m m' Hm Hsim. apply (amemo_ok_sim H' D' s' q m m' Hsim). specialize (g q m Hm).
    destruct g as [a0 b0 c0 d0 e0 f0 g0 h0 i0 k0 k1 k2 k3 j0].
    destruct (Hpast q m Hm) as [HHv HDv].
    assert (Hdg : forall k x, durge H D (m_verified m) k x -> durge H' D' (m_verified m) k x).
    { intros k x. apply (durge_hist_eq prog NF H D H' D'); assumption. }
    assert (Hdg' : forall k x, durge H' D' (m_verified m) k x -> durge H D (m_verified m) k x).
    { intros k x. apply (durge_hist_eq prog NF H' D' H D); [symmetry; exact HHv | intros i; symmetry; apply HDv]. }
    constructor; rewrite ?(tr_hist_eq prog NF H H' _ q HHv), ?(psh_hist_eq prog NF H H' _ q HHv); auto.
    - change (cur (set_cell s _)) with (cur s) in a0. lia.
    - intros x Hx. rewrite (E_hist_eq prog NF H H' _ q HHv). apply b0. exact Hx.
    - intros i Hi. rewrite HDv. apply c0; exact Hi.
    - intros d1 Hd1. destruct (d0 d1 Hd1) as [A | A]; [left; exact A | right; apply Hdg; exact A].
    - apply (stamp_mono _ s' _ _ _ (N.le_refl _)) in k0; [exact k0 | exact Hfc |].
      intros d1 md Hmd. destruct (evicted_fwd _ _ d1 md Hev Hmd) as (md' & Hmd' & (_ & T2 & _)).
      exists md'. split; [exact Hmd' | lia].
    - intros Hai d1 Hd1. apply (deadq_hist_eq prog NF H H'); [exact HHv | apply k2; assumption].
    - apply (sub_rm_mono (rmok H D (m_verified m))); [|exact k3].
      intros x Hx. destruct x as [i1 | d1]; cbn in Hx |- *.
      + rewrite HDv. exact Hx.
      + destruct Hx as [A B]. split; [apply Hdg; exact A | apply (deadq_hist_eq prog NF H H'); assumption].
    - intros d1 Hd1. apply (clos_hist_eq prog NF H' H) in Hd1; [|symmetry; exact HHv].
      destruct (j0 d1 Hd1) as (md & Hmd & Hobs).
      change (d_memo (set_cell s _) d1) with (d_memo s d1) in Hmd.
      destruct (evicted_fwd _ _ d1 md Hev Hmd) as (md' & Hmd' & (T1 & T2 & T3 & _)).
      exists md'. split; [exact Hmd'|].
      intros Hp. rewrite T1, T3.
      destruct (Hpast d1 md Hmd) as [HHd _].
      rewrite (E_hist_eq prog NF H H' _ d1 HHv), (E_hist_eq prog NF H H' _ d1 HHd).
      apply Hobs. destruct Hp as [Hp | (k & Hk & Hlk)].
      + left. rewrite <- T2. exact Hp.
      + right. exists k. split; [apply Hdg'; exact Hk|].
        change (lcs (set_cell s _) k) with (lcs s k). specialize (Hlc k). lia. }
  constructor; auto.
  intros q m' Hm'. destruct (evicted_bwd _ _ q m' Hev Hm') as (m & Hm & Hsim).
  apply (Hok q m m' Hm Hsim).
Qed.

Lemma AInv_to_d H D s : AInv H D s -> AInv_d H D s.
Proof. apply AInv_same; try reflexivity. Qed.

Lemma AInv_d_facts H D s : AInv_d H D s ->
  1 <= cur s /\ revs_ok (d_revs s) /\
  (forall q m, d_memo s q = Some m -> m_verified m <= cur s) /\
  (forall i r, f_changed (d_in s i) <= r -> r <= cur s -> sn_in (H r) i = f_val (d_in s i)) /\
  (forall i r, f_changed (d_in s i) <= r -> r <= cur s -> D r i = f_dur (d_in s i)) /\
  (forall i, f_changed (d_in s i) <= cur s) /\ (forall r i, D r i <= 3) /\
  (forall r i, r < cur s -> lcs s (D r i) <= r ->
     sn_in (H (r + 1)) i = sn_in (H r) i /\ D (r + 1) i = D r i).
Proof.
  unfold AInv_d. intros [a a' b b' c d e f g].
  split; [exact a|]. split; [exact a'|]. split.
  - intros q m Hm. pose proof (mo_order _ _ _ _ _ _ _ (g q m Hm)) as (_ & _ & Hv). exact Hv.
  - split; [exact b|]. split; [exact b'|]. split; [exact c|]. split; [exact e | exact f].
Qed.

(* ---------------------------------------------------------------- "ok" states *)
Definition OK (s : db) : Prop := exists H D, AInv H D s.
Definition OK_d (s : db) : Prop := exists H D, AInv_d H D s.

Lemma OK_to_d s : OK s -> OK_d s.
Proof. intros (H & D & HI). exists H, D. apply AInv_to_d; exact HI. Qed.

Lemma AInv_snap H D s : AInv H D s -> snap_eq (H (cur s)) (snap_of s).
Proof.
  intros HI. split; cbn.
  - intros i. apply (inv_in_cur prog NF H D s i HI).
  - apply (inv_cell _ _ _ _ _ HI).
Qed.

Lemma AInv_keep H D s s' :
  AInv_d H D s -> cur s' = cur s -> revs_ok (d_revs s') -> (forall k, lcs s k <= lcs s' k) ->
  d_in s' = d_in s -> evicted_from (d_memo s) (d_memo s') ->
  (forall c, sn_cell (H (cur s')) c = d_cell s' c) -> AInv H D s'.
Proof.
  intros HI Hc Hrv Hlc Hi Hev Hce.
  destruct (AInv_d_facts H D s HI) as (F1 & F2 & F3 & F4 & F5 & F6 & F7 & F8).
  apply (AInv_transfer H D H D s s'); rewrite ?Hc, ?Hi; auto; try lia.
  - rewrite <- Hc. exact Hce.
  - intros r i Hlt Hl. apply F8; [exact Hlt|]. specialize (Hlc (D r i)). lia.
Qed.

(* changes that keep the revision vector, the inputs and (up to eviction) the memos *)
Lemma OK_d_same s s' :
  OK_d s -> d_revs s' = d_revs s -> d_in s' = d_in s ->
  evicted_from (d_memo s) (d_memo s') -> OK_d s'.
Proof.
  intros (H & D & HI) Hr Hi Hev. exists H, D.
  apply (AInv_keep H D s); try assumption; try reflexivity.
  - unfold cur; cbn. rewrite Hr. reflexivity.
  - cbn. rewrite Hr. apply (AInv_d_facts H D s HI).
  - intros k. unfold lcs; cbn. rewrite Hr. lia.
Qed.

Lemma OK_keep s s' :
  OK s -> cur s' = cur s -> revs_ok (d_revs s') -> (forall k, lcs s k <= lcs s' k) ->
  d_in s' = d_in s -> d_cell s' = d_cell s -> evicted_from (d_memo s) (d_memo s') -> OK s'.
Proof.
  intros (H & D & HI) Hc Hrv Hlc Hi Hce Hev. exists H, D.
  apply (AInv_keep H D s); try assumption; [apply AInv_to_d, HI|].
  rewrite Hc, Hce. apply (inv_cell _ _ _ _ _ HI).
Qed.

Lemma OK_same s s' :
  OK s -> d_revs s' = d_revs s -> d_in s' = d_in s -> d_cell s' = d_cell s ->
  evicted_from (d_memo s) (d_memo s') -> OK s'.
Proof.
  intros HI Hr Hi Hce Hev.
  apply (OK_keep s); unfold cur, lcs; rewrite ?Hr; try assumption; try reflexivity.
  destruct HI as (H & D & HI). apply (inv_revs _ _ _ _ _ HI).
Qed.

(* a state in which nothing has been verified at the current revision yet *)
Definition fresh (s : db) : Prop :=
  forall q m, d_memo s q = Some m -> m_verified m < cur s.

(* A new slot of the histories: they get the snapshot and the durabilities of [s'] at [cur s'];
   what remains to be shown is the write rule for the step into that slot. *)
Lemma AInv_new_slot H D s s' :
  AInv_d H D s -> cur s <= cur s' -> cur s' <= cur s + 1 -> revs_ok (d_revs s') ->
  (forall k, lcs s k <= lcs s' k) ->
  evicted_from (d_memo s) (d_memo s') ->
  (forall q m, d_memo s q = Some m -> m_verified m < cur s') ->
  (forall i, d_in s' i = d_in s i \/ f_changed (d_in s' i) = cur s') ->
  (forall i, f_dur (d_in s' i) <= 3) ->
  (forall r i, r + 1 = cur s' -> lcs s' (D r i) <= r ->
     f_val (d_in s' i) = sn_in (H r) i /\ f_dur (d_in s' i) = D r i) ->
  AInv (extend H (cur s') (snap_of s')) (extendD D (cur s') (durs_of s')) s'.
Proof.
  intros HI Hc Hc1 Hrv Hlc Hev Hfresh Hin Hd3 Hstep.
  destruct (AInv_d_facts H D s HI) as (F1 & F2 & F3 & F4 & F5 & F6 & F7 & F8).
  assert (Hold : forall i r, f_changed (d_in s' i) <= r -> r <= cur s' -> r <> cur s' ->
            d_in s' i = d_in s i /\ r <= cur s).
  { intros i r Hle Hrc Hne. destruct (Hin i) as [A | A]; [split; [exact A | lia] | lia]. }
  apply (AInv_transfer H D _ _ s s'); auto; try lia.
  - intros i. destruct (Hin i) as [-> | ->]; [lia | specialize (F6 i); lia].
  - intros q m Hm. specialize (Hfresh q m Hm).
    split; [apply extend_other; lia | intros i; rewrite extendD_other by lia; reflexivity].
  - intros i r Hle Hrc. destruct (N.eq_dec r (cur s')) as [-> | Hne].
    + rewrite extend_same. reflexivity.
    + rewrite extend_other by exact Hne. destruct (Hold i r Hle Hrc Hne) as [E Hr].
      rewrite E in Hle |- *. apply F4; assumption.
  - intros i r Hle Hrc. destruct (N.eq_dec r (cur s')) as [-> | Hne].
    + rewrite extendD_same. reflexivity.
    + rewrite extendD_other by exact Hne. destruct (Hold i r Hle Hrc Hne) as [E Hr].
      rewrite E in Hle |- *. apply F5; assumption.
  - intros i. destruct (Hin i) as [-> | ->]; [specialize (F6 i); lia | lia].
  - intros c. rewrite extend_same. reflexivity.
  - intros r i. unfold extendD. destruct (r =? cur s'); [apply Hd3 | apply F7].
  - intros r i Hlt Hl. rewrite extendD_other in Hl by lia.
    destruct (N.eq_dec (r + 1) (cur s')) as [Heq | Hne].
    + rewrite Heq, extend_same, extendD_same, extend_other, extendD_other by lia.
      apply (Hstep r i Heq Hl).
    + rewrite !extend_other, !extendD_other by lia.
      apply F8; [lia|]. specialize (Hlc (D r i)). lia.
Qed.

(* starting a new revision: the current-revision slot moves, nothing else *)
Lemma OK_advance s s' :
  OK_d s ->
  d_revs s' = {| r_cur := r_cur (d_revs s) + 1; r_med := r_med (d_revs s); r_high := r_high (d_revs s) |} ->
  d_in s' = d_in s ->
  evicted_from (d_memo s) (d_memo s') ->
  OK s' /\ fresh s'.
Proof.
  intros (H & D & HI) Hr Hi Hev.
  destruct (AInv_d_facts H D s HI) as (F1 & F2 & F3 & F4 & F5 & F6 & F7 & F8).
  assert (Hc : cur s' = cur s + 1) by (unfold cur; rewrite Hr; reflexivity).
  assert (Hfresh : forall q m, d_memo s q = Some m -> m_verified m < cur s').
  { intros q m Hm. specialize (F3 q m Hm). lia. }
  split.
  - exists (extend H (cur s') (snap_of s')), (extendD D (cur s') (durs_of s')).
    apply (AInv_new_slot H D s s'); try assumption; try lia.
    + destruct F2 as (A & B & C). rewrite Hr. unfold revs_ok; cbn. lia.
    + intros k. unfold lcs. rewrite Hr.
      destruct (DurSem.lc_cases (d_revs s) k) as [[-> ->] | [[-> ->] | [[-> ->] | [Hk ->]]]]; cbn; try lia.
      rewrite DurSem.lc_never by exact Hk. lia.
    + intros i. left. rewrite Hi. reflexivity.
    + intros i. rewrite Hi, <- (F5 i (cur s)); [apply F7 | apply F6 | lia].
    + intros r i Hr1 _. assert (r = cur s) by lia. subst r.
      rewrite Hi. split; symmetry; [apply F4 | apply F5]; try apply F6; lia.
  - intros q m' Hm'. destruct (evicted_bwd _ _ q m' Hev Hm') as (m & Hm & (S1 & _)).
    rewrite S1. apply (Hfresh q m Hm).
Qed.

(* the write rule: rewriting ONE input inside a fresh revision, reporting its OLD durability *)
Lemma OK_write s i v nd :
  OK s -> fresh s -> f_dur (d_in s i) <> 3 -> nd <= 3 ->
  let od := f_dur (d_in s i) in
  let r1 := if od =? D_LOW then d_revs s else report_write (d_revs s) od in
  let f' := {| f_val := v; f_changed := cur s; f_dur := nd |} in
  OK (set_in (set_revs s r1) (upd (d_in s) i f')).
Proof.
  intros (H & D & HI) Hfresh Hod Hnd od r1 f'.
  set (s' := set_in (set_revs s r1) (upd (d_in s) i f')).
  destruct (AInv_d_facts H D s (AInv_to_d H D s HI)) as (F1 & F2 & F3 & F4 & F5 & F6 & F7 & F8).
  assert (HDcur : forall j, D (cur s) j = f_dur (d_in s j)).
  { intros j. apply F5; [apply F6 | lia]. }
  assert (Hod3 : od < 3).
  { unfold od. pose proof (F7 (cur s) i) as A. rewrite HDcur in A. lia. }
  assert (Hc : cur s' = cur s).
  { unfold cur, s', r1; cbn. destruct (od =? D_LOW); reflexivity. }
  assert (Hlc : forall k, lcs s k <= lcs s' k).
  { intros k. unfold lcs, s'; cbn. unfold r1. destruct (od =? D_LOW); [lia|].
    apply DurSem.lc_report_write_ge; exact F2. }
  assert (Hlc_od : forall k, k <= od -> lcs s' k = cur s).
  { intros k Hk. unfold lcs, s'; cbn. unfold r1.
    destruct (N.eqb_spec od D_LOW) as [H0 | H0].
    - unfold D_LOW in H0. replace k with 0 by lia. apply DurSem.lc_zero.
    - rewrite DurSem.lc_report_write.
      destruct (N.eqb_spec k 0) as [-> | Hk0]; [reflexivity|].
      destruct (N.leb_spec k od) as [_ | Hx]; [|lia].
      destruct (N.ltb_spec k 3) as [_ | Hx]; [|lia]. reflexivity. }
  assert (Hin' : forall j, j <> i -> d_in s' j = d_in s j).
  { intros j Hj. unfold s'; cbn. apply upd_other. congruence. }
  assert (Hin_i : d_in s' i = f') by (unfold s'; cbn; apply upd_same).
  exists (extend H (cur s') (snap_of s')), (extendD D (cur s') (durs_of s')).
  apply (AInv_new_slot H D s s'); try lia.
  - apply AInv_to_d; exact HI.
  - unfold s'; cbn. unfold r1.
    destruct (od =? D_LOW); [exact F2 | apply DurSem.revs_ok_report_write; exact F2].
  - exact Hlc.
  - apply evicted_refl.
  - intros q m Hm. rewrite Hc. apply (Hfresh q m Hm).
  - intros j. destruct (key_eqb_spec j i) as [-> | Hji];
      [right; rewrite Hin_i, Hc; reflexivity | left; apply (Hin' j Hji)].
  - intros j. destruct (key_eqb_spec j i) as [-> | Hji]; [rewrite Hin_i; exact Hnd|].
    rewrite (Hin' j Hji), <- HDcur. apply F7.
  - (* the step into the rewritten revision: the written input's level was reported, so the
       rule does not fire for it; the others are as they were *)
    intros r j Hr1 Hl. rewrite Hc in Hr1.
    destruct (F8 r j) as [A B]; [lia | specialize (Hlc (D r j)); lia|].
    rewrite Hr1 in A, B. rewrite HDcur in B.
    destruct (key_eqb_spec j i) as [-> | Hji].
    + exfalso. fold od in B. rewrite <- B, Hlc_od in Hl by lia. lia.
    + rewrite (Hin' j Hji), <- A, <- B. split; [symmetry; apply F4; [apply F6 | lia] | reflexivity].
Qed.

Lemma new_revision_facts s :
  d_revs (new_revision fams s) =
    {| r_cur := r_cur (d_revs s) + 1; r_med := r_med (d_revs s); r_high := r_high (d_revs s) |} /\
  d_in (new_revision fams s) = d_in s /\ d_cell (new_revision fams s) = d_cell s /\
  d_stack (new_revision fams s) = d_stack s /\
  evicted_from (d_memo s) (d_memo (new_revision fams s)).
Proof.
  unfold new_revision. set (s1 := set_ccount _ 0).
  destruct (evict_all_sbm fams s1) as [a b c d e].
  rewrite a, b, c, d. repeat split; auto.
Qed.

(* the durabilities an operation may install: the four levels *)
Definition dur_op (o : op) : Prop :=
  match o with OSet _ _ (Some d) => d <= 3 | _ => True end.

Definition state_ok (dirty : bool) (s : db) : Prop :=
  (if dirty then OK_d s else OK s) /\ d_stack s = [].

Lemma state_ok_d dirty s : state_ok dirty s -> OK_d s.
Proof. destruct dirty; intros [A _]; [exact A | apply OK_to_d; exact A]. Qed.

Lemma state_ok_same dirty s s' :
  state_ok dirty s -> d_revs s' = d_revs s -> d_in s' = d_in s -> d_cell s' = d_cell s ->
  evicted_from (d_memo s) (d_memo s') -> d_stack s' = d_stack s -> state_ok dirty s'.
Proof.
  intros [A Hst] Hr Hi Hc Hev Hs. split; [|congruence].
  destruct dirty; [apply (OK_d_same s) | apply (OK_same s)]; assumption.
Qed.

Lemma state_ok_new_revision dirty s :
  state_ok dirty s -> state_ok false (new_revision fams s) /\ fresh (new_revision fams s).
Proof.
  intros Hok. destruct (new_revision_facts s) as (A & B & _ & C & F).
  destruct (OK_advance s (new_revision fams s) (state_ok_d dirty s Hok) A B F) as [Hn Hf].
  split; [split; [exact Hn | rewrite C; apply Hok] | exact Hf].
Qed.

Lemma state_ok_zalsa_mut dirty s : state_ok dirty s -> state_ok dirty (zalsa_mut fams s).
Proof.
  intros Hok. unfold zalsa_mut. destruct (d_ccount s =? 255).
  - destruct (state_ok_new_revision dirty s Hok) as [[Hn Hst] _].
    split; [destruct dirty; [apply OK_to_d|]; exact Hn | exact Hst].
  - apply (state_ok_same dirty s); auto. apply evicted_refl.
Qed.

(* every operation that is not a read keeps the state ok *)
Lemma step_other_ok fuel afuel dirty s o :
  dur_op o -> state_ok dirty s ->
  match o with
  | OGet _ | OAccumulated _ => True
  | OSetCell _ _ => state_ok true (fst (step persist prog noeq fams fuel afuel s o))
  | OSet _ _ _ | OSynth _ => state_ok false (fst (step persist prog noeq fams fuel afuel s o))
  | _ => state_ok dirty (fst (step persist prog noeq fams fuel afuel s o))
  end.
Proof.
  intros Hdop Hok.
  destruct (state_ok_new_revision _ _ (state_ok_zalsa_mut _ _ Hok)) as [Hok1 Hfresh].
  destruct o as [i v d | d | c v | c v | q | q | fam n |]; cbn [step fst].
  - (* OSet *)
    set (s1 := new_revision fams (zalsa_mut fams s)) in *.
    destruct (f_dur (d_in s1 i) =? D_NEVER) eqn:Hnever; cbn [fst]; [exact Hok1|].
    destruct Hok1 as [Hn Hst1]. split; [|exact Hst1].
    apply N.eqb_neq in Hnever. unfold D_NEVER in Hnever.
    assert (Hnd : match d with Some d' => d' | None => f_dur (d_in s1 i) end <= 3).
    { destruct d as [d'|]; [exact Hdop|].
      destruct Hn as (H1 & D1 & HI1).
      rewrite <- (inv_dur_cur prog NF H1 D1 s1 i HI1). apply (inv_dur3 _ _ _ _ _ HI1). }
    exact (OK_write s1 i v _ Hn Hfresh Hnever Hnd).
  - (* OSynth *)
    set (s1 := new_revision fams (zalsa_mut fams s)) in *.
    destruct (d =? D_NEVER); cbn [fst]; [exact Hok1|].
    destruct Hok1 as [Hn Hst1]. split; [|exact Hst1].
    assert (Hrv1 : revs_ok (d_revs s1)) by (destruct Hn as (H1 & D1 & HI1); apply (inv_revs _ _ _ _ _ HI1)).
    (* a revision-vector change alone: levels only move forward *)
    apply (OK_keep s1); auto.
    + cbn. apply DurSem.revs_ok_report_write; exact Hrv1.
    + intros k. unfold lcs; cbn. apply DurSem.lc_report_write_ge; exact Hrv1.
    + apply evicted_refl.
  - (* OSetCell *)
    split; [|apply Hok]. apply (OK_d_same s); auto; [apply (state_ok_d dirty s Hok) | apply evicted_refl].
  - (* OSetPanic *)
    apply (state_ok_same dirty s); auto. apply evicted_refl.
  - exact I.
  - exact I.
  - (* OSetLru *)
    apply (state_ok_same dirty (zalsa_mut fams s)); auto; [apply state_ok_zalsa_mut, Hok | apply evicted_refl].
  - (* OEvict *)
    destruct (evict_all_sbm fams (zalsa_mut fams s)) as [A1 A2 A3 A4 A5].
    apply (state_ok_same dirty (zalsa_mut fams s)); auto. apply state_ok_zalsa_mut, Hok.
Qed.

Lemma init_ok_dur iv idur lru0 : (forall i, idur i <= 3) -> state_ok false (init iv idur lru0).
Proof.
  intros Hid. split; [|reflexivity].
  exists (fun _ => snap_of (init iv idur lru0)), (fun _ => idur).
  constructor.
  - cbn. unfold REV_START. lia.
  - cbn. unfold DurSem.revs_ok, REV_START; cbn. lia.
  - intros i r _ _. reflexivity.
  - intros i r _ _. reflexivity.
  - intros i. cbn. unfold REV_START. lia.
  - intros c. reflexivity.
  - intros r i. apply Hid.
  - intros r i _ _. split; reflexivity.
  - intros q m Hm. discriminate.
Qed.

End Top.
