(* Acc/ProofsLoop.v — from the executable accumulated_by loop to the specification, relative to
   a view of the memo tables.

   [acc_view] says what `refresh_memo` shows of the memo tables during the loop: a fixed
   recorded graph whose nodes carry the from-scratch pushes, whose flags are sound, and whose
   edges are the from-scratch calls up to dead entries.  Given a view, the loop returns
   [spec_acc] ([acc_loop_spec], [accumulated_by_spec]) for every program, state, visiting order
   and fuel.  Nothing here shows that `fetch` leaves the tables with a view; Acc/Examples.v
   exhibits one concrete view.  The theorem without a view hypothesis, [accumulated_full] of
   Acc/AInvFull.v, does not go through [acc_view]: it runs the loop over the states of the
   invariant [AInv] directly, and uses of this file only [ploop_spec] and [alldead_dd]. *)
From Salsa Require Import Base.
From Salsa.Acc Require Import Model Spec ProofsDfs ProofsSpec.

Section Loop.
Variable persist : bool.
Variable prog : qkey -> body.
Variable noeq : qkey -> bool.
Variable L : lower.

(* a fixed recorded graph *)
Variable gsucc : qkey -> list edge.     (* origin edges of the memo *)
Variable gown : qkey -> list val.       (* its accumulated values *)
Variable gflag : qkey -> bool.          (* its accumulated_inputs flag *)
Variable U : list qkey.                 (* the functions the loop may touch *)
Variable P : db -> Prop.                (* the states the loop may be in *)

Definition fsucc (q : qkey) : list edge := if gflag q then gsucc q else [].

Definition refresh_shows : Prop :=
  forall s q s' m v, P s -> In q U -> refresh persist prog noeq L q s = (s', Ok (m, v)) ->
    P s' /\ m_acc m = gown q /\ m_accin m = gflag q /\
    (gflag q = true -> exists m2, d_memo s' q = Some m2 /\ m_edges m2 = gsucc q).

Definition closedU : Prop :=
  forall q c, In q U -> gflag q = true -> In (EQ c) (gsucc q) -> In c U.

Definition inU (l : list edge) : Prop := forall c, In (EQ c) l -> In c U.

Lemma acc_loop_ploop (HR : refresh_shows) (HU : closedU) n :
  forall stack vis out s s' l, P s -> inU stack ->
    acc_loop persist prog noeq L n stack vis out s = (s', Ok l) ->
    ploop fsucc gown n stack vis out = Some l /\ P s'.
Proof.
  induction n as [|n IH]; intros stack vis out s s' l HP HS H; cbn in H; [discriminate|].
  cbn [ploop]. destruct stack as [|k st].
  - unfold ret in H. injection H as <- <-. split; [reflexivity | exact HP].
  - assert (HSt : inU st) by (intros c Hc; apply HS; now right).
    change (existsb (edge_eqb k) vis) with (mem k vis) in H.
    destruct (mem k vis) eqn:M.
    + now apply (IH st vis out s).
    + destruct k as [i|q].
      * now apply (IH st (EIn i :: vis) out s).
      * assert (Hq : In q U) by (apply HS; now left).
        unfold bind at 1 in H.
        destruct (refresh persist prog noeq L q s) as [s1 [[m v]|p|]] eqn:R; try discriminate.
        destruct (HR _ _ _ _ _ HP Hq R) as (HP1 & Ha & Hf & He).
        cbn [fst] in H. rewrite Ha in H. unfold fsucc.
        destruct (m_accin m) eqn:Fm; rewrite <- Hf; cbn [negb] in H.
        -- unfold bind at 1, get in H.
           destruct (He (eq_sym Hf)) as (m2 & Hm2 & Hed). rewrite Hm2, Hed in H.
           apply (IH (gsucc q ++ st) (EQ q :: vis) (out ++ gown q) s1); [exact HP1| |exact H].
           intros c Hc. apply in_app_iff in Hc. destruct Hc as [Hc|Hc]; [|now apply HSt].
           apply (HU q c Hq); [now rewrite <- Hf | exact Hc].
        -- now apply (IH st (EQ q :: vis) (out ++ gown q) s1).
Qed.

End Loop.

Section View.
Variable persist : bool.
Variable prog : qkey -> body.
Variable noeq : qkey -> bool.
Variable L : lower.
Variable n : nat.                       (* rank bound / evaluation fuel of the specification *)
Variable sn : snapshot.                 (* the current inputs and cells *)

Record acc_view (dead : edge -> bool) (gsucc : qkey -> list edge) (gflag : qkey -> bool)
                (U : list qkey) (P : db -> Prop) : Prop := {
  (* [dead]: a set of nodes below which nothing is pushed *)
  av_dead_own : forall q, dead (EQ q) = true -> sem_own prog n sn q = [];
  av_dead_closed : forall q, dead (EQ q) = true -> alldead dead (sem_succ prog n sn q);
  (* what refresh_memo shows: the from-scratch pushes, a fixed flag and fixed edges *)
  av_refresh : refresh_shows persist prog noeq L gsucc (sem_own prog n sn) gflag U P;
  av_closed : closedU gsucc gflag U;
  (* flag soundness: an Empty flag means every recorded edge is dead *)
  av_flag : forall q, In q U -> gflag q = false -> alldead dead (gsucc q);
  (* the recorded edges are the from-scratch calls (first occurrences), up to dead entries *)
  av_edges : forall q, In q U -> dead (EQ q) = false ->
      filter (live dead) (gsucc q) = filter (live dead) (dd [] (sem_succ prog n sn q));
  av_edges_dead : forall q, In q U -> dead (EQ q) = true -> alldead dead (gsucc q)
}.

Variable rank : qkey -> nat.
Hypothesis acyclic : calls_below prog rank.
Hypothesis rank_bound : forall q, (rank q < n)%nat.

(* the two graphs, made total: outside U the recorded graph is taken to be the from-scratch one *)
Definition view_graph (gsucc : qkey -> list edge) (gflag : qkey -> bool) (U : list qkey) (q : qkey)
  : list edge :=
  if existsb (key_eqb q) U then fsucc gsucc gflag q else dd [] (sem_succ prog n sn q).

Lemma alldead_dd dead seen l : alldead dead l -> alldead dead (dd seen l).
Proof.
  revert seen. induction l as [|k l IH]; intros seen A; cbn; [constructor|].
  inversion A; subst. destruct (mem k seen); [now apply IH|]. constructor; [assumption | now apply IH].
Qed.

Lemma dfs_dd_graph succ v ks o : dfs succ v ks o -> dfs (fun p => dd [] (succ p)) v ks o.
Proof.
  induction 1 as [v|v k ks o Hin _ IH|v i ks o Hn _ IH|v p ks p1 p2 Hn _ IH1 _ IH2].
  - constructor.
  - now apply dfs_seen.
  - now apply dfs_in.
  - apply dfs_q; [exact Hn | | exact IH2].
    apply (dfs_dd (fun p => dd [] (succ p)) (succ p) []); [intros k []|exact IH1].
Qed.

Lemma ploop_ext (s1 s2 : qkey -> list edge) own U m :
  (forall q, In q U -> s1 q = s2 q) ->
  (forall q c, In q U -> In (EQ c) (s1 q) -> In c U) ->
  forall stack vis out, (forall c, In (EQ c) stack -> In c U) ->
    ploop s1 own m stack vis out = ploop s2 own m stack vis out.
Proof.
  intros E C. induction m as [|m IH]; intros stack vis out HS; [reflexivity|]. cbn.
  destruct stack as [|k st]; [reflexivity|].
  assert (HSt : forall c, In (EQ c) st -> In c U) by (intros c Hc; apply HS; now right).
  destruct (mem k vis); [now apply IH|]. destruct k as [i|q]; [now apply IH|].
  assert (Hq : In q U) by (apply HS; now left).
  rewrite <- (E q Hq). apply IH. intros c Hc. apply in_app_iff in Hc.
  destruct Hc as [Hc|Hc]; [now apply (C q c Hq) | now apply HSt].
Qed.

(* the loop is the recursive traversal of its graph, the specification that of the from-scratch
   graph (first occurrences), and dead entries do not matter *)
Lemma ploop_spec dead G :
  (forall q, dead (EQ q) = true -> sem_own prog n sn q = []) ->
  (forall q, dead (EQ q) = true -> alldead dead (sem_succ prog n sn q)) ->
  (forall q, dead (EQ q) = true -> alldead dead (G q)) ->
  (forall q, dead (EQ q) = false ->
     filter (live dead) (G q) = filter (live dead) (dd [] (sem_succ prog n sn q))) ->
  forall m q l, ploop G (sem_own prog n sn) m [EQ q] [] [] = Some l -> l = spec_acc prog n sn q.
Proof.
  intros Hown Hclosed HG Hlive m q l PL.
  apply ploop_dfs in PL. destruct PL as (o2 & D2 & ->). cbn [app].
  destruct (spec_acc_dfs prog rank acyclic n rank_bound sn q) as (o1 & D1 & ->).
  pose proof (dfs_dd_graph _ _ _ _ D1) as D1'.
  destruct (dfs_dead (sem_own prog n sn) dead Hown (fun p => dd [] (sem_succ prog n sn p)) G) with
      (v := @nil edge) (ks := [EQ q]) (o := o1) (w := @nil edge) (ks2 := [EQ q]) (p := o2) as (O & _).
  - intros p Hp. apply alldead_dd. now apply Hclosed.
  - exact HG.
  - intros p Hp. symmetry. now apply Hlive.
  - exact D1'.
  - apply eqv_refl.
  - reflexivity.
  - exact D2.
  - symmetry. exact O.
Qed.

Theorem acc_loop_spec dead gsucc gflag U P :
  acc_view dead gsucc gflag U P ->
  forall afuel q s s' l, P s -> In q U ->
    acc_loop persist prog noeq L afuel [EQ q] [] [] s = (s', Ok l) ->
    l = spec_acc prog n sn q.
Proof.
  intros V afuel q s s' l HP Hq H.
  destruct (acc_loop_ploop persist prog noeq L gsucc (sem_own prog n sn) gflag U P
              (av_refresh _ _ _ _ _ V) (av_closed _ _ _ _ _ V) afuel [EQ q] [] [] s s' l HP) as (PL & _);
    [intros c [E|[]]; injection E as <-; exact Hq | exact H |].
  (* the loop over the recorded graph is the loop over its total extension [view_graph] *)
  assert (CU : forall q c, In q U -> In (EQ c) (fsucc gsucc gflag q) -> In c U).
  { intros p c Hp Hc. unfold fsucc in Hc. destruct (gflag p) eqn:F; [|destruct Hc].
    exact (av_closed _ _ _ _ _ V p c Hp F Hc). }
  rewrite (ploop_ext (fsucc gsucc gflag) (view_graph gsucc gflag U) (sem_own prog n sn) U afuel) in PL;
    [| intros p Hp; unfold view_graph; apply existsb_key_In in Hp; now rewrite Hp
     | exact CU
     | intros c [E|[]]; injection E as <-; exact Hq].
  apply (ploop_spec dead (view_graph gsucc gflag U)) in PL; [exact PL | | | |].
  - apply (av_dead_own _ _ _ _ _ V).
  - apply (av_dead_closed _ _ _ _ _ V).
  - intros p Hp. unfold view_graph. destruct (existsb (key_eqb p) U) eqn:M.
    + apply existsb_key_In in M. unfold fsucc. destruct (gflag p); [|constructor].
      now apply (av_edges_dead _ _ _ _ _ V).
    + apply alldead_dd. now apply (av_dead_closed _ _ _ _ _ V).
  - intros p Hp. unfold view_graph. destruct (existsb (key_eqb p) U) eqn:M; [|reflexivity].
    apply existsb_key_In in M. unfold fsucc. destruct (gflag p) eqn:F.
    + now apply (av_edges _ _ _ _ _ V).
    + rewrite <- (av_edges _ _ _ _ _ V p M Hp).
      now rewrite (filter_live_alldead dead _ (av_flag _ _ _ _ _ V p M F)).
Qed.

(* accumulated_by = fetch, then the loop *)
Theorem accumulated_by_spec dead gsucc gflag U P :
  acc_view dead gsucc gflag U P ->
  forall afuel q s s' l, In q U ->
    (forall s1 r, fetch persist prog noeq L q s = (s1, Ok r) -> P s1) ->
    accumulated_by persist prog noeq L afuel q s = (s', Ok l) ->
    l = spec_acc prog n sn q.
Proof.
  intros V afuel q s s' l Hq HF H. unfold accumulated_by, bind at 1 in H.
  destruct (fetch persist prog noeq L q s) as [s1 [r|p|]] eqn:F; try discriminate.
  eapply acc_loop_spec; [exact V | eapply HF; eauto | exact Hq | exact H].
Qed.

End View.
