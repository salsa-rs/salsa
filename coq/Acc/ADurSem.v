(* Acc/ADurSem.v — the semantic layer of the Acc invariant: durability levels of a query over
   a history, call closure, constancy over write-free windows (value, trace, pushes), queries
   below which nothing is pushed ([deadq]), and the list algebra relating recorded edges to
   the from-scratch reads ([sub_rm], [dd]).  [durge], [clos], [wstable] are the definitions of
   the same names in Core/DurSem.v (explained there), restated over the Acc traces. *)
From Salsa Require Import Base.
From Salsa.Kern Require Import CoreK CoreKFacts.
From Salsa.Core Require DurSem.
From Salsa.Acc Require Import Model Spec ProofsDfs ProofsSpec AInvBase.

Notation revs_ok := DurSem.revs_ok.

Section ADurSem.
Variable prog : qkey -> body.
Variable rank : qkey -> nat.
Hypothesis Hrank : calls_below prog rank.
Variable NF : nat.
Hypothesis Hbound : forall q, (rank q < NF)%nat.
Notation E := (E prog NF).
Notation tr := (tr prog NF).
Notation psh := (psh prog NF).
Notation envat := (envat prog NF).

Section Hist.
Variable H : hist.
Variable D : dhist.

(* [durge r k q]: at revision r, every input the from-scratch evaluation of q reads
   (transitively) has durability >= k, and unless k = 0 it performs no untracked read *)
Inductive durge (r : rev) (k : dur) : qkey -> Prop :=
| durge_intro q :
    (forall i, In (RIn i) (tr H r q) -> k <= D r i) ->
    (forall d, In (RQ d) (tr H r q) -> durge r k d) ->
    (forall x, In x (tr H r q) -> untr x -> k = 0) ->
    durge r k q.

Lemma durge_in r k q i : durge r k q -> In (RIn i) (tr H r q) -> k <= D r i.
Proof. intros [q0 A _ _]. apply A. Qed.

Lemma durge_q r k q d : durge r k q -> In (RQ d) (tr H r q) -> durge r k d.
Proof. intros [q0 _ B _]. apply B. Qed.

Lemma durge_untr r k q x : durge r k q -> In x (tr H r q) -> untr x -> k = 0.
Proof. intros [q0 _ _ C]. apply C. Qed.

Lemma durge_mono r k k' q : k' <= k -> durge r k q -> durge r k' q.
Proof.
  intros Hk Hd. induction Hd as [q A B IH C]. constructor.
  - intros i Hi. specialize (A i Hi). lia.
  - exact IH.
  - intros x Hx Hu. specialize (C x Hx Hu). lia.
Qed.

Lemma durge_zero r q : durge r 0 q.
Proof.
  induction q as [q IH] using (rank_ind rank). constructor.
  - intros i _. lia.
  - intros d Hd. apply IH. apply (tr_calls prog rank Hrank NF H _ _ _ Hd).
  - intros x _ _. reflexivity.
Qed.

(* the semantic call closure of f at r *)
Inductive clos (r : rev) : qkey -> qkey -> Prop :=
| clos_refl f : clos r f f
| clos_step f d e : In (RQ d) (tr H r f) -> clos r d e -> clos r f e.

Lemma clos_trans r f d e : clos r f d -> clos r d e -> clos r f e.
Proof.
  intros Hfd Hde. induction Hfd as [f | f d0 d Hin Hd0 IH]; [exact Hde|].
  eapply clos_step; [exact Hin | apply IH; exact Hde].
Qed.

Lemma clos_right r f d e : clos r f d -> In (RQ e) (tr H r d) -> clos r f e.
Proof.
  intros Hfd Hin. eapply clos_trans; [exact Hfd|].
  eapply clos_step; [exact Hin | apply clos_refl].
Qed.

Lemma clos_one r f d : In (RQ d) (tr H r f) -> clos r f d.
Proof. intros Hin. eapply clos_step; [exact Hin | apply clos_refl]. Qed.

Lemma clos_first r f d : clos r f d -> d <> f -> exists d1, In (RQ d1) (tr H r f) /\ clos r d1 d.
Proof. intros [f0 | f0 d1 e Hin Hd1] Hne; [contradiction | exists d1; split; assumption]. Qed.

Lemma clos_rank r f d : clos r f d -> (rank d <= rank f)%nat.
Proof.
  intros Hc. induction Hc as [f | f d0 d Hin Hd0 IH]; [lia|].
  pose proof (tr_calls prog rank Hrank NF H _ _ _ Hin). lia.
Qed.

Lemma durge_clos r k f d : durge r k f -> clos r f d -> durge r k d.
Proof.
  intros Hd Hc. induction Hc as [f | f d0 d Hin Hd0 IH]; [exact Hd|].
  apply IH. eapply durge_q; eassumption.
Qed.

(* nothing is pushed by q or by anything it (transitively) calls, at revision r *)
Inductive deadq (r : rev) : qkey -> Prop :=
| deadq_intro q :
    psh H r q = [] -> (forall d, In (RQ d) (tr H r q) -> deadq r d) -> deadq r q.

Lemma deadq_own r q : deadq r q -> psh H r q = [].
Proof. intros [q0 A _]. exact A. Qed.

Lemma deadq_q r q d : deadq r q -> In (RQ d) (tr H r q) -> deadq r d.
Proof. intros [q0 _ B]. apply B. Qed.

(* a window [a, b] in which no input of level >= k was written (value or durability) *)
Definition wstable (k : dur) (a b : rev) : Prop :=
  forall i, k <= D a i -> forall r, a <= r -> r <= b ->
    sn_in (H r) i = sn_in (H a) i /\ D r i = D a i.

Lemma durge_stable k a b q r : 1 <= k -> wstable k a b -> durge a k q -> a <= r -> r <= b ->
  tr H r q = tr H a q /\ E H r q = E H a q /\ psh H r q = psh H a q /\ durge r k q.
Proof.
  intros Hk Hw Hd Ha Hb. revert Hd. induction q as [q IH] using (rank_ind rank). intros Hd.
  assert (Hcallee : forall d, In (RQ d) (tr H a q) ->
            tr H r d = tr H a d /\ E H r d = E H a d /\ psh H r d = psh H a d /\ durge r k d).
  { intros d Hx. apply (IH d); [apply (tr_calls prog rank Hrank NF H _ _ _ Hx) | eapply durge_q; eassumption]. }
  assert (Hag : agree_on (envat H a) (envat H r) (tr H a q)).
  { intros x Hx. destruct x as [i | d | c |]; cbn.
    - symmetry. apply (Hw i); [eapply durge_in; eassumption | exact Ha | exact Hb].
    - symmetry. apply (Hcallee d Hx).
    - exfalso. assert (k = 0) by (eapply durge_untr; [exact Hd | exact Hx | right; eauto]). lia.
    - reflexivity. }
  destruct (trace_determined (prog q) _ _ Hag) as (Htr & Hrun & Hpsh & _).
  assert (Htr' : tr H r q = tr H a q) by exact Htr.
  split; [exact Htr'|]. split; [|split; [exact Hpsh|]].
  - rewrite !(E_unfold prog rank Hrank NF Hbound). exact Hrun.
  - constructor; rewrite Htr'.
    + intros i Hi. pose proof (durge_in _ _ _ _ Hd Hi) as Hki.
      destruct (Hw i Hki r Ha Hb) as [_ ->]. exact Hki.
    + intros d Hx. apply (Hcallee d Hx).
    + intros x Hx Hu. eapply durge_untr; eassumption.
Qed.

Lemma clos_stable k a b f r : 1 <= k -> wstable k a b -> durge a k f -> a <= r -> r <= b ->
  forall d, clos r f d <-> clos a f d.
Proof.
  intros Hk Hw Hd Ha Hb d. split; intros Hc.
  - revert Hd. induction Hc as [f | f d0 d Hin Hd0 IH]; intros Hd; [apply clos_refl|].
    destruct (durge_stable k a b f r Hk Hw Hd Ha Hb) as (Htr & _ & _).
    rewrite Htr in Hin. eapply clos_step; [exact Hin|]. apply IH. eapply durge_q; eassumption.
  - revert Hd. induction Hc as [f | f d0 d Hin Hd0 IH]; intros Hd; [apply clos_refl|].
    destruct (durge_stable k a b f r Hk Hw Hd Ha Hb) as (Htr & _ & _).
    eapply clos_step; [rewrite Htr; exact Hin|]. apply IH. eapply durge_q; eassumption.
Qed.

Lemma deadq_stable k a b r : 1 <= k -> wstable k a b -> a <= r -> r <= b ->
  forall q, deadq a q -> durge a k q -> deadq r q.
Proof.
  intros Hk Hw Ha Hb q Hdq. induction Hdq as [q Hown Hq IH]. intros Hd.
  destruct (durge_stable k a b q r Hk Hw Hd Ha Hb) as (Htr & _ & Hp & _).
  constructor.
  - rewrite Hp. exact Hown.
  - intros d Hx. rewrite Htr in Hx. apply (IH d Hx). eapply durge_q; eassumption.
Qed.

End Hist.

Lemma durge_hist_eq H D H' D' r k q :
  H' r = H r -> (forall i, D' r i = D r i) -> durge H D r k q -> durge H' D' r k q.
Proof.
  intros HH HD Hd. induction Hd as [q A B IH C].
  pose proof (tr_hist_eq prog NF H H' r q HH) as Htr.
  constructor; rewrite Htr.
  - intros i Hi. rewrite HD. apply A; exact Hi.
  - exact IH.
  - exact C.
Qed.

Lemma clos_hist_eq H H' r f d : H' r = H r -> clos H r f d -> clos H' r f d.
Proof.
  intros HH Hc. induction Hc as [f | f d0 d Hin Hd0 IH]; [apply clos_refl|].
  eapply clos_step; [|exact IH]. rewrite (tr_hist_eq prog NF H H' r f HH). exact Hin.
Qed.

Lemma deadq_hist_eq H H' r q : H' r = H r -> deadq H r q -> deadq H' r q.
Proof.
  intros HH Hd. induction Hd as [q A B IH]. constructor.
  - rewrite (psh_hist_eq prog NF H H' r q HH). exact A.
  - intros d Hx. rewrite (tr_hist_eq prog NF H H' r q HH) in Hx. apply IH; exact Hx.
Qed.

End ADurSem.

(* ---------------------------------------------------------------- edge lists *)
(* the edges of a read trace, in order (untracked reads leave no edge) *)
Fixpoint redges (l : list rd) : list edge :=
  match l with
  | [] => []
  | RIn i :: l' => EIn i :: redges l'
  | RQ q :: l' => EQ q :: redges l'
  | _ :: l' => redges l'
  end.

Lemma redges_app a b : redges (a ++ b) = redges a ++ redges b.
Proof.
  induction a as [|x a IH]; cbn; [reflexivity|].
  destruct x; cbn; rewrite IH; reflexivity.
Qed.

Definition rd_of (e : edge) : rd := match e with EIn i => RIn i | EQ d => RQ d end.

Lemma redges_In e l : In e (redges l) <-> In (rd_of e) l.
Proof.
  induction l as [|x l IH]; cbn; [tauto|].
  destruct x as [j | d0 | c |]; cbn; rewrite IH.
  - (* RIn: an edge is recorded *)
    split; (intros [A | A]; [left; destruct e; cbn in *; congruence | right; exact A]).
  - (* RQ: an edge is recorded *)
    split; (intros [A | A]; [left; destruct e; cbn in *; congruence | right; exact A]).
  - (* RCell: no edge *)
    split; [intros A; right; exact A | intros [A | A]; [destruct e; discriminate A | exact A]].
  - (* RTouch: no edge *)
    split; [intros A; right; exact A | intros [A | A]; [destruct e; discriminate A | exact A]].
Qed.

Lemma dd_In seen l e : In e (dd seen l) <-> In e l /\ ~ In e seen.
Proof.
  revert seen. induction l as [|k l IH]; intros seen; cbn; [tauto|].
  destruct (mem k seen) eqn:Hm.
  - rewrite IH. apply mem_In in Hm. split; [tauto|]. intros [[-> | A] B]; [contradiction | tauto].
  - apply mem_nIn in Hm. cbn. rewrite IH. cbn. split.
    + intros [-> | [A B]]; [tauto|]. split; [tauto|]. intros C. apply B. right; exact C.
    + intros [[-> | A] B]; [left; reflexivity|].
      destruct (edge_eq_dec k e) as [-> | Hne]; [left; reflexivity | right].
      split; [exact A|]. intros [C | C]; [contradiction | contradiction].
Qed.

Lemma dd_snoc l : forall seen x,
  dd seen (l ++ [x]) = dd seen l ++ (if mem x seen || mem x l then [] else [x]).
Proof.
  induction l as [|k l IH]; intros seen x; cbn [app dd].
  - change (mem x []) with false. rewrite orb_false_r. destruct (mem x seen); reflexivity.
  - destruct (mem k seen) eqn:Hk.
    + rewrite IH. f_equal.
      assert (Hm : mem x (k :: l) = edge_eqb x k || mem x l) by reflexivity.
      rewrite Hm. destruct (edge_eqb x k) eqn:Hxk; cbn [orb]; [|reflexivity].
      apply edge_eqb_eq in Hxk. subst k. rewrite Hk. reflexivity.
    + rewrite IH. cbn [app]. f_equal. f_equal.
      assert (Hm : mem x (k :: l) = edge_eqb x k || mem x l) by reflexivity.
      assert (Hm' : mem x (k :: seen) = edge_eqb x k || mem x seen) by reflexivity.
      rewrite Hm, Hm'. destruct (edge_eqb x k), (mem x seen), (mem x l); reflexivity.
Qed.

(* [sub_rm R l1 l2]: l1 is l2 with some elements removed, each satisfying R; order kept *)
Inductive sub_rm (R : edge -> Prop) : list edge -> list edge -> Prop :=
| sr_nil : sub_rm R [] []
| sr_keep x l1 l2 : sub_rm R l1 l2 -> sub_rm R (x :: l1) (x :: l2)
| sr_drop x l1 l2 : R x -> sub_rm R l1 l2 -> sub_rm R l1 (x :: l2).

Lemma sub_rm_refl (R : edge -> Prop) l : sub_rm R l l.
Proof. induction l; constructor; assumption. Qed.

Lemma sub_rm_In (R : edge -> Prop) l1 l2 x : sub_rm R l1 l2 -> In x l1 -> In x l2.
Proof.
  induction 1 as [| y l1 l2 _ IH | y l1 l2 _ _ IH]; cbn; [tauto | |].
  - intros [-> | Hx]; [left; reflexivity | right; apply IH; exact Hx].
  - intros Hx. right. apply IH; exact Hx.
Qed.

Lemma sub_rm_missing (R : edge -> Prop) l1 l2 x : sub_rm R l1 l2 -> In x l2 -> ~ In x l1 -> R x.
Proof.
  induction 1 as [| y l1 l2 _ IH | y l1 l2 Hy _ IH]; cbn; [tauto | |].
  - intros [-> | Hx] Hn; [exfalso; apply Hn; left; reflexivity|].
    apply IH; [exact Hx | intros C; apply Hn; right; exact C].
  - intros [-> | Hx] Hn; [exact Hy | apply IH; assumption].
Qed.

Lemma sub_rm_mono (R R' : edge -> Prop) l1 l2 :
  (forall x, R x -> R' x) -> sub_rm R l1 l2 -> sub_rm R' l1 l2.
Proof. intros HR. induction 1; constructor; auto. Qed.

Lemma sub_rm_mono_in (R R' : edge -> Prop) l1 l2 :
  (forall x, In x l2 -> R x -> R' x) -> sub_rm R l1 l2 -> sub_rm R' l1 l2.
Proof.
  intros HR Hs. induction Hs as [| y l1 l2 _ IH | y l1 l2 Hy _ IH].
  - constructor.
  - constructor. apply IH. intros x Hx. apply HR. right; exact Hx.
  - apply sr_drop; [apply HR; [left; reflexivity | exact Hy]|].
    apply IH. intros x Hx. apply HR. right; exact Hx.
Qed.

Lemma sub_rm_snoc_keep (R : edge -> Prop) l1 l2 e : sub_rm R l1 l2 -> sub_rm R (l1 ++ [e]) (l2 ++ [e]).
Proof. induction 1; cbn; constructor; try assumption. constructor. Qed.

Lemma sub_rm_snoc_drop (R : edge -> Prop) l1 l2 e : R e -> sub_rm R l1 l2 -> sub_rm R l1 (l2 ++ [e]).
Proof.
  intros He. induction 1; cbn.
  - apply sr_drop; [exact He | constructor].
  - constructor; assumption.
  - apply sr_drop; assumption.
Qed.

Lemma sub_rm_all (R : edge -> Prop) l : (forall x, In x l -> R x) -> sub_rm R [] l.
Proof.
  induction l as [|x l IH]; intros Hall; [constructor|].
  apply sr_drop; [apply Hall; left; reflexivity | apply IH; intros y Hy; apply Hall; right; exact Hy].
Qed.

Lemma sub_rm_filter (R : edge -> Prop) (f : edge -> bool) l1 l2 :
  (forall x, R x -> f x = false) -> sub_rm R l1 l2 -> filter f l1 = filter f l2.
Proof.
  intros HR. induction 1 as [| y l1 l2 _ IH | y l1 l2 Hy _ IH]; cbn.
  - reflexivity.
  - rewrite IH. reflexivity.
  - rewrite (HR y Hy). exact IH.
Qed.

(* interleaved input edges do not disturb the first-occurrence order of the callee edges *)
Lemma dd_redges_filter (f : edge -> bool) :
  (forall i, f (EIn i) = false) ->
  forall l seen1 seen2, (forall q, mem (EQ q) seen1 = mem (EQ q) seen2) ->
    filter f (dd seen1 (redges l)) = filter f (dd seen2 (map EQ (rq_of l))).
Proof.
  intros Hf. induction l as [|x l IH]; intros seen1 seen2 Hs; [reflexivity|].
  destruct x as [i | d | c |]; cbn [redges rq_of map dd].
  - destruct (mem (EIn i) seen1).
    + apply IH; exact Hs.
    + cbn [filter]. rewrite Hf. apply IH. intros q.
      assert (A : mem (EQ q) (EIn i :: seen1) = edge_eqb (EQ q) (EIn i) || mem (EQ q) seen1) by reflexivity.
      rewrite A. cbn [edge_eqb orb]. apply Hs.
  - pose proof (Hs d) as Hsd. destruct (mem (EQ d) seen2) eqn:Hm2; rewrite Hsd.
    + apply IH; exact Hs.
    + cbn [filter]. rewrite (IH (EQ d :: seen1) (EQ d :: seen2)); [reflexivity|].
      intros q. assert (A : forall sn, mem (EQ q) (EQ d :: sn) = edge_eqb (EQ q) (EQ d) || mem (EQ q) sn) by reflexivity.
      rewrite !A, Hs. reflexivity.
  - apply IH; exact Hs.
  - apply IH; exact Hs.
Qed.
