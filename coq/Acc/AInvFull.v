(* Acc/AInvFull.v — C11 over whole histories of the Acc model.

   First the accumulated_by loop over a state satisfying the invariant: it terminates within a
   bound computed from the from-scratch call tree, keeps the invariant, and returns [spec_acc]
   of the current snapshot.  The graph the loop walks is the one recorded in the memos it
   refreshes (which stay put once verified in the current revision), and that graph equals the
   from-scratch call graph up to entries below which nothing is pushed.

   Then every state reachable from the initial database (inputs and writes of every
   durability, both builds): every `accumulated` call returns [spec_acc] of the current
   snapshot and every Get returns [eval] — or unwinds with an injected panic; never out of fuel
   once the loop bound exceeds that number. *)
From Salsa Require Import Base.
From Salsa.Kern Require Import CoreK CoreKFacts.
From Salsa.Core Require DurSem.
From Salsa.Acc Require Import Model Spec ProofsDfs ProofsSpec ProofsLoop Statement
     AInvBase ADurSem AInv AInvSem AInvOps AInvTop.

Section Loop.
Variable persist : bool.
Variable prog : qkey -> body.
Variable noeq : qkey -> bool.
Variable rank : qkey -> nat.
Hypothesis Hrank : calls_below prog rank.
Variable NF : nat.
Hypothesis Hbound : forall q, (rank q < NF)%nat.
Variable H : hist.
Variable D : dhist.
Notation tr := (tr prog NF H).
Notation psh := (psh prog NF H).
Notation deadq := (deadq prog NF H).
Notation AInv := (AInv prog NF H D).
Notation XP := (XP prog NF H D).
Notation fetch_spec := (fetch_spec prog rank NF H D).
Notation mca_spec := (mca_spec prog rank NF H D).

Variable L : lower.
Variable nl : nat.
Hypothesis HF : fetch_spec L nl.
Hypothesis HM : mca_spec L nl.
Hypothesis Hnl : forall q, (rank q <= nl)%nat.

Variable c : rev.          (* the revision the loop runs in *)

(* ---------------------------------------------------------------- a bound on the iterations *)
Definition edges_at (q : qkey) : list edge := redges (tr c q).

Fixpoint tsize (n : nat) (q : qkey) : nat :=
  match n with
  | O => O
  | S n' => list_sum (map (fun e => S (match e with EIn _ => O | EQ d => tsize n' d end)) (edges_at q))
  end.

Definition wgt (n : nat) (e : edge) : nat := S (match e with EIn _ => O | EQ d => tsize n d end).
Definition phi (n : nat) (l : list edge) : nat := list_sum (map (wgt n) l).

Lemma tsize_S n q : tsize (S n) q = phi n (edges_at q).
Proof. reflexivity. Qed.

Lemma edges_at_rank q d : In (EQ d) (edges_at q) -> (rank d < rank q)%nat.
Proof. intros Hd. apply (redges_In (EQ d)) in Hd. apply (tr_calls prog rank Hrank NF H _ _ _ Hd). Qed.

Lemma tsize_fuel : forall n m q, (rank q < n)%nat -> (rank q < m)%nat -> tsize n q = tsize m q.
Proof.
  induction n as [|n IH]; intros m q Hn Hm; [lia|].
  destruct m as [|m]; [lia|].
  rewrite !tsize_S. unfold phi. f_equal. apply map_ext_in.
  intros e He. unfold wgt. destruct e as [i | d]; [reflexivity|].
  f_equal. pose proof (edges_at_rank q d He). apply IH; lia.
Qed.

Definition T (q : qkey) : nat := tsize NF q.
Definition W (e : edge) : nat := wgt NF e.
Definition Phi (l : list edge) : nat := phi NF l.

Lemma T_unfold q : T q = Phi (edges_at q).
Proof.
  unfold T, Phi. pose proof (Hbound q) as Hq. destruct NF as [|n] eqn:HN; [lia|].
  rewrite tsize_S. unfold phi. f_equal. apply map_ext_in.
  intros e He. unfold wgt. destruct e as [i | d]; [reflexivity|].
  f_equal. pose proof (edges_at_rank q d He). pose proof (Hbound d). apply tsize_fuel; lia.
Qed.

Lemma Phi_cons e l : Phi (e :: l) = (W e + Phi l)%nat.
Proof. reflexivity. Qed.

Lemma Phi_app a b : Phi (a ++ b) = (Phi a + Phi b)%nat.
Proof. unfold Phi, phi. rewrite map_app, list_sum_app. reflexivity. Qed.

Lemma W_pos e : (1 <= W e)%nat.
Proof. unfold W, wgt. lia. Qed.

Lemma Phi_sub (R : edge -> Prop) l1 l2 : sub_rm R l1 l2 -> (Phi l1 <= Phi l2)%nat.
Proof. induction 1; rewrite ?Phi_cons; [cbn; lia | lia | lia]. Qed.

Lemma Phi_dd l : forall seen, (Phi (dd seen l) <= Phi l)%nat.
Proof.
  induction l as [|k l IH]; intros seen; cbn [dd]; [lia|].
  destruct (mem k seen); rewrite ?Phi_cons; [specialize (IH seen); lia | specialize (IH (k :: seen)); lia].
Qed.

(* ---------------------------------------------------------------- the loop *)
Definition validm (s : db) (q : qkey) (m : memo) : Prop :=
  d_memo s q = Some m /\ m_verified m = cur s /\ m_val m <> None.

Definition fsucc_m (m : memo) : list edge := if m_accin m then m_edges m else [].

(* a graph that shows, for every function valid in s, what its memo records *)
Definition compat (s : db) (G : qkey -> list edge) : Prop :=
  forall q m, validm s q m -> G q = fsucc_m m.

Definition own (q : qkey) : list val := psh c q.

Lemma validm_ext s s' q m : dext s s' -> validm s q m -> validm s' q m.
Proof.
  intros He (A & B & C). split; [apply (ext_valid _ _ He); assumption|].
  split; [rewrite (dext_cur _ _ He); exact B | exact C].
Qed.

(* The loop refreshes memos while it runs, so the graph it walks is only known at the end:
   the conclusion says that for EVERY graph G showing what the memos valid in the final state
   record, the loop computed the pure traversal [ploop] of G.  Memos valid on the way stay as
   they are ([dext]), so they are valid in s' and G agrees with what the loop saw.  Phi bounds
   the iterations left for the stack. *)
Lemma loop_ok : forall n stack vis out s,
  cur s = c -> AInv s -> d_stack s = [] -> (Phi stack < n)%nat ->
  wp (acc_loop persist prog noeq L n stack vis out)
     (fun l s' => AInv s' /\ dext s s' /\ d_stack s' = [] /\
                  forall G, compat s' G -> ploop G own n stack vis out = Some l) (XP s) s.
Proof.
  induction n as [|n IH]; intros stack vis out s Hc HI Hst Hphi; [lia|].
  cbn [acc_loop]. destruct stack as [|k st].
  - apply wp_ret. split; [exact HI|]. split; [apply dext_refl|]. split; [exact Hst|].
    intros G _. reflexivity.
  - rewrite Phi_cons in Hphi. pose proof (W_pos k) as HW.
    change (existsb (edge_eqb k) vis) with (mem k vis).
    destruct (mem k vis) eqn:Hmem.
    + eapply wp_conseq; [apply (IH st vis out s Hc HI Hst); lia | | intros; assumption].
      intros l s' (A & B & C & Hp). split; [exact A|]. split; [exact B|]. split; [exact C|].
      intros G HG. cbn [ploop]. rewrite Hmem. apply Hp; exact HG.
    + destruct k as [i | q].
      * eapply wp_conseq; [apply (IH st (EIn i :: vis) out s Hc HI Hst); lia | | intros; assumption].
        intros l s' (A & B & C & Hp). split; [exact A|]. split; [exact B|]. split; [exact C|].
        intros G HG. cbn [ploop]. rewrite Hmem. apply Hp; exact HG.
      * pose proof (stack_above_nil rank s (S (rank q)) Hst) as Hso.
        apply wp_bind.
        eapply wp_conseq; [apply (refresh_ok persist prog noeq rank Hrank NF Hbound H D L nl HF HM q s (Hnl q) HI Hso) | | intros; assumption].
        intros [m v] s1 ((HI1 & He1 & _ & Hs1) & Hm1 & Hv1 & Hval1 & _). cbn [fst snd] in *.
        pose proof (dext_cur _ _ He1) as Hc1.
        assert (Hvalid1 : validm s1 q m).
        { split; [exact Hm1|]. split; [congruence | rewrite Hval1; discriminate]. }
        pose proof (inv_memo _ _ _ _ _ HI1 q m Hm1) as Hok.
        assert (Hown : m_acc m = own q).
        { unfold own. rewrite (mo_acc _ _ _ _ _ _ _ Hok). congruence. }
        assert (Hst1 : d_stack s1 = []) by congruence.
        assert (Hcs1 : cur s1 = c) by congruence.
        unfold W, wgt in Hphi. fold (T q) in Hphi.
        assert (Hle : (Phi (fsucc_m m) <= T q)%nat).
        { unfold fsucc_m. destruct (m_accin m); [|cbn; lia].
          rewrite T_unfold. unfold edges_at.
          pose proof (mo_esub _ _ _ _ _ _ _ Hok) as Hsub.
          replace (m_verified m) with c in Hsub by congruence.
          pose proof (Phi_sub _ _ _ Hsub). pose proof (Phi_dd (redges (tr c q)) []). lia. }
        (* whichever way the successors are obtained, the loop goes on with what the memo shows *)
        assert (Hnext : wp (acc_loop persist prog noeq L n (fsucc_m m ++ st) (EQ q :: vis) (out ++ m_acc m))
                  (fun l s' => AInv s' /\ dext s s' /\ d_stack s' = [] /\
                     forall G, compat s' G -> ploop G own (S n) (EQ q :: st) vis out = Some l) (XP s) s1).
        { eapply wp_conseq; [apply (IH (fsucc_m m ++ st) (EQ q :: vis) (out ++ m_acc m) s1 Hcs1 HI1 Hst1);
                             rewrite Phi_app; lia | |].
          - intros l s' (A & B & C & Hp). split; [exact A|]. split; [eapply dext_trans; eassumption|].
            split; [exact C|].
            intros G HG. cbn [ploop]. rewrite Hmem, (HG q m (validm_ext s1 s' q m B Hvalid1)), <- Hown.
            apply Hp; exact HG.
          - intros p s' Hx. eapply XP_trans; eassumption. }
        unfold fsucc_m in Hnext.
        destruct (m_accin m); cbn [negb]; [apply wp_bind, wp_get; rewrite Hm1|]; exact Hnext.
Qed.

(* ---------------------------------------------------------------- nothing pushed below: as a boolean *)
Fixpoint deadb (n : nat) (q : qkey) : bool :=
  match n with
  | O => true
  | S n' => match psh c q with
            | [] => forallb (deadb n') (rq_of (tr c q))
            | _ => false
            end
  end.

Lemma deadb_deadq : forall n q, (rank q < n)%nat -> (deadb n q = true <-> deadq c q).
Proof.
  induction n as [|n IH]; intros q Hq; [lia|]. cbn [deadb]. split.
  - destruct (psh c q) eqn:Hp; [|discriminate]. intros Hall. constructor; [exact Hp|].
    intros d Hd. rewrite forallb_forall in Hall.
    apply IH; [pose proof (tr_calls prog rank Hrank NF H _ _ _ Hd); lia|].
    apply Hall. apply rq_of_In. exact Hd.
  - intros Hd. rewrite (deadq_own _ _ _ _ _ Hd). apply forallb_forall.
    intros d Hin. apply rq_of_In in Hin.
    apply IH; [pose proof (tr_calls prog rank Hrank NF H _ _ _ Hin); lia|].
    apply (deadq_q _ _ _ _ _ _ Hd Hin).
Qed.

Definition dead (e : edge) : bool := match e with EIn _ => true | EQ q => deadb NF q end.

Lemma dead_q q : dead (EQ q) = true <-> deadq c q.
Proof. apply deadb_deadq. apply Hbound. Qed.

(* ---------------------------------------------------------------- the two graphs *)
Definition ssucc (q : qkey) : list edge := sem_succ prog NF (H c) q.

Lemma ssucc_tr q : ssucc q = map EQ (rq_of (tr c q)).
Proof. unfold ssucc, sem_succ, spec_succ. rewrite callees_trace. reflexivity. Qed.

Definition g2 (s : db) (q : qkey) : list edge :=
  match d_memo s q with
  | Some m => if (m_verified m =? cur s) && (match m_val m with Some _ => true | None => false end)
              then fsucc_m m else dd [] (ssucc q)
  | None => dd [] (ssucc q)
  end.

Lemma compat_g2 s : compat s (g2 s).
Proof.
  intros q m (Hm & Hv & Hx). unfold g2. rewrite Hm, Hv, N.eqb_refl.
  destruct (m_val m); [reflexivity | contradiction].
Qed.

Lemma g2_cases s q :
  (exists m, validm s q m /\ g2 s q = fsucc_m m) \/ g2 s q = dd [] (ssucc q).
Proof.
  unfold g2. destruct (d_memo s q) as [m|] eqn:Hm; [|right; reflexivity].
  destruct (N.eqb_spec (m_verified m) (cur s)) as [Hv | Hv]; cbn [andb]; [|right; reflexivity].
  destruct (m_val m) as [v|] eqn:Hx; [|right; reflexivity].
  left. exists m. split; [|reflexivity]. split; [exact Hm|]. split; [exact Hv | rewrite Hx; discriminate].
Qed.

Lemma alldead_ssucc q : deadq c q -> alldead dead (ssucc q).
Proof.
  intros Hd. rewrite ssucc_tr. apply Forall_forall.
  intros e He. apply in_map_iff in He. destruct He as (d & <- & Hin). apply rq_of_In in Hin.
  apply dead_q. apply (deadq_q _ _ _ _ _ _ Hd Hin).
Qed.

(* the loop over a state with the invariant returns the specification *)
Theorem acc_loop_correct q s n :
  cur s = c -> AInv s -> d_stack s = [] -> (S (T q) < n)%nat ->
  wp (acc_loop persist prog noeq L n [EQ q] [] [])
     (fun l s' => AInv s' /\ dext s s' /\ d_stack s' = [] /\ l = spec_acc prog NF (H c) q) (XP s) s.
Proof.
  intros Hc HI Hst Hn.
  eapply wp_conseq; [apply (loop_ok n [EQ q] [] [] s Hc HI Hst) | | intros; assumption].
  { rewrite Phi_cons. unfold W, wgt. fold (T q). unfold Phi, phi. cbn. lia. }
  intros l s' (HI' & He & Hst' & Hp). split; [exact HI'|]. split; [exact He|]. split; [exact Hst'|].
  pose proof (Hp (g2 s') (compat_g2 s')) as PL.
  pose proof (dext_cur _ _ He) as Hc'.
  apply (ploop_spec prog NF (H c) rank Hrank Hbound dead (g2 s')) in PL; [exact PL | | | |].
  - intros p Hp0. apply dead_q in Hp0. apply (deadq_own _ _ _ _ _ Hp0).
  - intros p Hp0. apply dead_q in Hp0. apply alldead_ssucc; exact Hp0.
  - intros p Hp0. apply dead_q in Hp0.
    destruct (g2_cases s' p) as [(m & (Hm & Hv & Hx) & ->) | ->]; [|apply alldead_dd, alldead_ssucc; exact Hp0].
    unfold fsucc_m. destruct (m_accin m); [|constructor].
    pose proof (inv_memo _ _ _ _ _ HI' p m Hm) as Hok.
    apply Forall_forall. intros e He0. destruct e as [i | d]; [reflexivity|].
    apply dead_q. pose proof (mo_edges_q _ _ _ _ _ _ _ Hok d He0) as Hin.
    replace (m_verified m) with c in Hin by congruence.
    apply (deadq_q _ _ _ _ _ _ Hp0 Hin).
  - intros p Hp0.
    destruct (g2_cases s' p) as [(m & (Hm & Hv & Hx) & ->) | ->]; [|reflexivity].
    pose proof (inv_memo _ _ _ _ _ HI' p m Hm) as Hok.
    assert (Hvc : m_verified m = c) by congruence.
    assert (Hnotdead : forall e, rmok prog NF H D c e -> live dead e = false).
    { intros e He0. unfold live. destruct e as [i | d]; [reflexivity|].
      destruct He0 as [_ Hdq]. apply dead_q in Hdq. rewrite Hdq. reflexivity. }
    unfold fsucc_m. destruct (m_accin m) eqn:Hai.
    + pose proof (mo_esub _ _ _ _ _ _ _ Hok) as Hsub. rewrite Hvc in Hsub.
      rewrite (sub_rm_filter _ (live dead) _ _ Hnotdead Hsub).
      fold (ssucc p). rewrite ssucc_tr.
      apply (dd_redges_filter (live dead)); [intros i; reflexivity | intros x; reflexivity].
    + cbn [filter]. symmetry. apply filter_live_alldead. apply alldead_dd.
      fold (ssucc p). rewrite ssucc_tr.
      apply Forall_forall. intros e He0. apply in_map_iff in He0. destruct He0 as (d & <- & Hin).
      apply rq_of_In in Hin. apply dead_q.
      pose proof (mo_flag _ _ _ _ _ _ _ Hok Hai d) as Hfl. rewrite Hvc in Hfl. apply Hfl. exact Hin.
Qed.

End Loop.

(* ---------------------------------------------------------------- the specification only sees the snapshot *)
Lemma fold_left_ext {A B} (f g : A -> B -> A) l : forall a,
  (forall a b, In b l -> f a b = g a b) -> fold_left f l a = fold_left g l a.
Proof.
  induction l as [|x l IH]; intros a Hfg; cbn; [reflexivity|].
  rewrite (Hfg a x (or_introl eq_refl)). apply IH. intros a' b Hb. apply Hfg. right; exact Hb.
Qed.

Lemma visit_ext succ succ' own own' :
  (forall q, succ q = succ' q) -> (forall q, own q = own' q) ->
  forall n vis q, visit succ own n vis q = visit succ' own' n vis q.
Proof.
  intros Hs Ho. induction n as [|n IH]; intros vis q; cbn [visit]; [reflexivity|].
  destruct (existsb (key_eqb q) vis); [reflexivity|].
  rewrite <- Hs, <- Ho. apply fold_left_ext. intros a b _. rewrite IH. reflexivity.
Qed.

Lemma spec_acc_snap_eq prog n a b q : snap_eq a b -> spec_acc prog n a q = spec_acc prog n b q.
Proof.
  intros Hs. unfold spec_acc. f_equal. apply visit_ext.
  - intros p. unfold spec_succ. symmetry. apply (env_snap_eq prog n a b Hs (prog p)).
  - intros p. unfold spec_own. symmetry. apply (env_snap_eq prog n a b Hs (prog p)).
Qed.

(* the loop bound as a function of the snapshot *)
Definition need (prog : qkey -> body) (NF : nat) (sn : snapshot) (q : qkey) : nat :=
  S (S (T prog NF (fun _ => sn) 0 q)).

Lemma tsize_snap prog NF (H : hist) c sn : snap_eq (H c) sn ->
  forall n q, tsize prog NF H c n q = tsize prog NF (fun _ => sn) 0 n q.
Proof.
  intros Hs.
  assert (He : forall q, edges_at prog NF H c q = edges_at prog NF (fun _ => sn) 0 q).
  { intros q. unfold edges_at, tr, envat. f_equal. symmetry. apply (env_snap_eq prog NF (H c) sn Hs (prog q)). }
  induction n as [|n IH]; intros q; cbn [tsize]; [reflexivity|].
  rewrite He. f_equal. apply map_ext. intros e. destruct e as [i | d]; [reflexivity|]. rewrite IH. reflexivity.
Qed.

(* more iterations do not change the outcome of a loop that did not run out of fuel *)
Lemma acc_loop_mono persist prog noeq L : forall n stack vis out s s' r,
  acc_loop persist prog noeq L n stack vis out s = (s', r) -> r <> Fuel ->
  acc_loop persist prog noeq L (S n) stack vis out s = (s', r).
Proof.
  induction n as [|n IH]; intros stack vis out s s' r Hrun Hr.
  - cbn in Hrun. unfold nofuel in Hrun. injection Hrun as <- <-. contradiction.
  - cbn [acc_loop] in Hrun. cbn [acc_loop]. destruct stack as [|k st]; [exact Hrun|].
    destruct (existsb (edge_eqb k) vis); [apply IH; assumption|].
    destruct k as [i | q]; [apply IH; assumption|].
    unfold bind at 1 in Hrun. unfold bind at 1.
    destruct (refresh persist prog noeq L q s) as [s1 [mv | p |]]; [| exact Hrun | exact Hrun].
    destruct (negb (m_accin (fst mv))); [apply IH; assumption|].
    unfold bind at 1, get in Hrun. unfold bind at 1, get.
    destruct (d_memo s1 q); apply IH; assumption.
Qed.

Lemma acc_loop_mono_le persist prog noeq L n m stack vis out s s' r :
  (n <= m)%nat -> acc_loop persist prog noeq L n stack vis out s = (s', r) -> r <> Fuel ->
  acc_loop persist prog noeq L m stack vis out s = (s', r).
Proof.
  intros Hle Hrun Hr. induction Hle as [|m Hle IH]; [exact Hrun|].
  apply acc_loop_mono; assumption.
Qed.

Section Full.
Variable persist : bool.
Variable prog : qkey -> body.
Variable noeq : qkey -> bool.
Variable fams : list N.
Variable rank : qkey -> nat.
Hypothesis Hrank : calls_below prog rank.
Variable NF : nat.
Hypothesis Hbound : forall q, (rank q < NF)%nat.
Notation AInv := (AInv prog NF).
Notation state_ok := (state_ok prog NF).
Notation step := (step persist prog noeq fams).

(* the outcome of a read: the from-scratch answer, or an injected panic while a switch is on *)
Definition read_ok (s : db) (o : op) (r : out) : Prop :=
  match o with
  | OGet q => r = Ok (OV (eval prog NF (snap_of s) q)) \/ exists p, r = Panic p /\ dallowed s p
  | OAccumulated q => r = Ok (OL (spec_acc prog NF (snap_of s) q)) \/ exists p, r = Panic p /\ dallowed s p
  | _ => True
  end.

Fixpoint all_ok (fuel afuel : nat) (s : db) (os : list op) : Prop :=
  match os with
  | [] => True
  | o :: os' => read_ok s o (snd (step fuel afuel s o)) /\ all_ok fuel afuel (fst (step fuel afuel s o)) os'
  end.

Lemma step_get_ok fuel afuel s q :
  (forall p, (rank p < fuel)%nat) -> state_ok false s ->
  read_ok s (OGet q) (snd (step fuel afuel s (OGet q))) /\ state_ok false (fst (step fuel afuel s (OGet q))).
Proof.
  intros Hfuel [(H & D & HI) Hst]. cbn [Model.step read_ok].
  destruct (alevel_ok persist prog noeq rank Hrank NF Hbound H D fuel) as [HF HM].
  pose proof (stack_above_nil rank s (S (rank q)) Hst) as Hso.
  assert (Hq : (rank q <= fuel)%nat) by (specialize (Hfuel q); lia).
  pose proof (fetch_ok persist prog noeq rank Hrank NF Hbound H D (level persist prog noeq fuel) fuel HF HM q s Hq HI Hso) as Hwp.
  unfold wp in Hwp.
  destruct (fetch persist prog noeq (level persist prog noeq fuel) q s) as [s' [[[[v d] c] ai] | p |]] eqn:Hf.
  - cbn [fst snd].
    destruct Hwp as ((HI' & He & _ & Hs') & Hv & _). cbn [fst snd] in Hv.
    split.
    + left. f_equal. f_equal. rewrite Hv. unfold AInvBase.E.
      apply (eval_snap_eq prog). apply (AInv_snap prog NF H D); exact HI.
    + split; [exists H, D; exact HI' | congruence].
  - cbn [fst snd]. destruct Hwp as (Ha & HI' & _).
    split; [right; exists p; split; [reflexivity | exact Ha]|].
    split; [|reflexivity].
    exists H, D. apply (AInv_core_eq prog NF H D s'); [repeat split | exact HI'].
  - destruct Hwp.
Qed.

Lemma step_acc_ok fuel afuel s q :
  (forall p, (rank p < fuel)%nat) -> state_ok false s ->
  (need prog NF (snap_of s) q <= afuel)%nat ->
  read_ok s (OAccumulated q) (snd (step fuel afuel s (OAccumulated q))) /\
  state_ok false (fst (step fuel afuel s (OAccumulated q))).
Proof.
  intros Hfuel [(H & D & HI) Hst] Hneed. cbn [Model.step read_ok].
  destruct (alevel_ok persist prog noeq rank Hrank NF Hbound H D fuel) as [HF HM].
  set (L := level persist prog noeq fuel) in *.
  assert (Hnl : forall p, (rank p <= fuel)%nat) by (intros p; specialize (Hfuel p); lia).
  pose proof (stack_above_nil rank s (S (rank q)) Hst) as Hso.
  assert (Hsnap : snap_eq (H (cur s)) (snap_of s)) by (apply (AInv_snap prog NF H D); exact HI).
  assert (Hwp : wp (accumulated_by persist prog noeq L afuel q)
                   (fun l s' => AInv H D s' /\ d_stack s' = [] /\ l = spec_acc prog NF (snap_of s) q)
                   (XP prog NF H D s) s).
  { unfold accumulated_by. apply wp_bind.
    eapply wp_conseq; [apply (fetch_ok persist prog noeq rank Hrank NF Hbound H D L fuel HF HM q s (Hnl q) HI Hso) | | intros; assumption].
    intros r s1 ((HI1 & He1 & _ & Hs1) & _).
    pose proof (dext_cur _ _ He1) as Hc1.
    eapply wp_conseq; [apply (acc_loop_correct persist prog noeq rank Hrank NF Hbound H D L fuel HF HM Hnl (cur s) q s1 afuel Hc1 HI1) | |].
    - congruence.
    - unfold need in Hneed. unfold T in *. rewrite (tsize_snap prog NF H (cur s) (snap_of s) Hsnap). lia.
    - intros l s' (A & _ & C & ->). split; [exact A|]. split; [exact C|].
      apply spec_acc_snap_eq. exact Hsnap.
    - intros p s' Hx. eapply XP_trans; eassumption. }
  unfold wp in Hwp.
  destruct (accumulated_by persist prog noeq L afuel q s) as [s' [l | p |]] eqn:Hf.
  - cbn [fst snd]. destruct Hwp as (HI' & Hs' & ->).
    split; [left; reflexivity|]. split; [exists H, D; exact HI' | exact Hs'].
  - cbn [fst snd]. destruct Hwp as (Ha & HI' & _).
    split; [right; exists p; split; [reflexivity | exact Ha]|].
    split; [|reflexivity].
    exists H, D. apply (AInv_core_eq prog NF H D s'); [repeat split | exact HI'].
  - destruct Hwp.
Qed.

(* the step of an `accumulated` call does not depend on the loop bound once it is large enough *)
Lemma step_acc_stable fuel afuel s q :
  (forall p, (rank p < fuel)%nat) -> state_ok false s ->
  (need prog NF (snap_of s) q <= afuel)%nat ->
  step fuel afuel s (OAccumulated q) = step fuel (need prog NF (snap_of s) q) s (OAccumulated q).
Proof.
  intros Hfuel Hok Hle.
  destruct (step_acc_ok fuel (need prog NF (snap_of s) q) s q Hfuel Hok (le_n _)) as [Hr _].
  cbn [Model.step read_ok] in *. unfold accumulated_by, bind in *.
  destruct (fetch persist prog noeq (level persist prog noeq fuel) q s) as [s1 [r1 | p |]]; [| reflexivity | reflexivity].
  destruct (acc_loop persist prog noeq (level persist prog noeq fuel) (need prog NF (snap_of s) q) [EQ q] [] [] s1)
    as [s2 r2] eqn:Hrun.
  assert (Hnf : r2 <> Fuel).
  { intros ->. cbn in Hr. destruct Hr as [Hr | (p & Hr & _)]; discriminate. }
  rewrite (acc_loop_mono_le persist prog noeq _ _ afuel _ _ _ _ _ _ Hle Hrun Hnf). reflexivity.
Qed.

(* ---------------------------------------------------------------- whole histories *)
Theorem all_ok_reachable fuel :
  (forall p, (rank p < fuel)%nat) ->
  forall ops dirty s, Forall dur_op ops -> wf_ops dirty ops -> state_ok dirty s ->
  exists afuel0, forall afuel, (afuel0 <= afuel)%nat -> all_ok fuel afuel s ops.
Proof.
  intros Hfuel. induction ops as [|o ops IH]; intros dirty s Hdur Hwf Hok.
  - exists 0%nat. intros afuel _. exact I.
  - inversion Hdur as [|? ? Hdo Hdurs]; subst.
    assert (Hother : forall dirty', (forall afuel, read_ok s o (snd (step fuel afuel s o))) ->
              (forall afuel, step fuel afuel s o = step fuel 0 s o) ->
              wf_ops dirty' ops -> state_ok dirty' (fst (step fuel 0 s o)) ->
              exists afuel0, forall afuel, (afuel0 <= afuel)%nat -> all_ok fuel afuel s (o :: ops)).
    { intros dirty' Hread Hindep Hwf' Hok'.
      destruct (IH dirty' _ Hdurs Hwf' Hok') as (a0 & Ha0).
      exists a0. intros afuel Hle. cbn [all_ok]. split; [apply Hread|].
      rewrite Hindep. apply Ha0; exact Hle. }
    (* the six operations that are not reads do not look at the loop bound *)
    pose proof (step_other_ok persist prog noeq fams NF fuel 0 dirty s o Hdo Hok) as Hs.
    destruct o as [i v d | d | c v | c v | q | q | fam n |];
      try (eapply Hother; [intros; exact I | intros; reflexivity | exact Hwf | exact Hs]).
    + destruct Hwf as [-> Hwf].
      apply (Hother false); [| intros; reflexivity | exact Hwf |].
      * intros afuel. apply (step_get_ok fuel afuel s q Hfuel Hok).
      * apply (step_get_ok fuel 0 s q Hfuel Hok).
    + destruct Hwf as [-> Hwf].
      set (N0 := need prog NF (snap_of s) q).
      destruct (step_acc_ok fuel N0 s q Hfuel Hok (le_n _)) as [Hr0 Hs0].
      destruct (IH false _ Hdurs Hwf Hs0) as (a0 & Ha0).
      exists (Nat.max N0 a0). intros afuel Hle. cbn [all_ok].
      rewrite (step_acc_stable fuel afuel s q Hfuel Hok); [|fold N0; lia]. fold N0.
      split; [exact Hr0|]. apply Ha0. lia.
Qed.

Theorem all_ok_init fuel :
  (forall p, (rank p < fuel)%nat) ->
  forall iv idur lru0 ops, (forall i, idur i <= 3) -> Forall dur_op ops -> wf_ops false ops ->
  exists afuel0, forall afuel, (afuel0 <= afuel)%nat -> all_ok fuel afuel (init iv idur lru0) ops.
Proof.
  intros Hfuel iv idur lru0 ops Hid Hdur Hwf.
  apply (all_ok_reachable fuel Hfuel ops false _ Hdur Hwf). apply init_ok_dur. exact Hid.
Qed.

(* [all_ok] implies [acc_outs_ok] of Acc/Statement.v, which only looks at the `accumulated`
   calls and does not say which panics may escape *)
Lemma all_ok_acc_outs_ok fuel afuel : forall ops s,
  all_ok fuel afuel s ops -> acc_outs_ok persist prog noeq fams NF fuel afuel s ops.
Proof.
  induction ops as [|o ops IH]; intros s Hx; [exact I|].
  cbn [all_ok acc_outs_ok] in *. destruct Hx as [A B]. split; [|apply IH; exact B].
  destruct o; try exact I. cbn [read_ok] in A. unfold acc_ok.
  destruct A as [A | (p & A & _)]; [left; exact A | right; exists p; exact A].
Qed.

Theorem accumulated_full fuel :
  (forall p, (rank p < fuel)%nat) ->
  forall iv idur lru0 ops, (forall i, idur i <= 3) -> Forall dur_op ops -> wf_ops false ops ->
  exists afuel0, forall afuel, (afuel0 <= afuel)%nat ->
    acc_outs_ok persist prog noeq fams NF fuel afuel (init iv idur lru0) ops.
Proof.
  intros Hfuel iv idur lru0 ops Hid Hdur Hwf.
  destruct (all_ok_init fuel Hfuel iv idur lru0 ops Hid Hdur Hwf) as (a0 & Ha0).
  exists a0. intros afuel Hle. apply all_ok_acc_outs_ok. apply Ha0; exact Hle.
Qed.

End Full.
