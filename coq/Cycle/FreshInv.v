(* Cycle/FreshInv.v — Fixpoint rings (C12_fresh): the class of programs, the semantic facts the
   ring development (Cycle/RingInv.v) asks for, with [kleene] as the target and the least fixpoint
   of the program cut at the running head as what reads see meanwhile, and the invariant
   written out with these ([Inv]; FreshExec.Inv_ring shows it is the ring invariant at the
   instance FreshOps.fresh_sem). *)
From Coq Require Import PeanoNat.
From Salsa Require Import Base.
From Salsa.Kern Require Import CoreK.
From Salsa.Core Require Import Spec.
From Salsa.Cycle Require Import StampK Model Spec SpecProofs Cert FreshSem FreshBase.

Definition fixy_of (strat : N -> strategy) (q : qkey) : Prop :=
  strat_of strat q = SFix \/ strat_of strat q = SFixJoin.

(* [RingInv.ring_ok] (explained there) at the nodes that use a Fixpoint strategy, written out *)
Definition ring_ok_of (prog : qkey -> body) (strat : N -> strategy) (sn : snapshot) (ns : list qkey)
           (lvl : qkey -> nat) (nxt : qkey -> option qkey) : Prop :=
  (forall q d, In q ns -> In d (succs prog sn q) -> In d ns /\ ((lvl d < lvl q)%nat \/ nxt q = Some d)) /\
  (forall q d, nxt q = Some d -> lvl d = lvl q /\ fixy_of strat q /\ fixy_of strat d) /\
  (forall a b c, nxt a = Some c -> nxt b = Some c -> a = b) /\
  (forall q d, nxt q = Some d -> In d (succs prog sn q)).

Class fctx : Type := {
  fprog : qkey -> body;
  fstrat : N -> strategy;
  fcinit : qkey -> val;
  fiv : ikey -> val;
  fidur : ikey -> dur;
  fns : list qkey;
  flvl : qkey -> nat;
  fnxt : qkey -> option qkey;
  fmono : monotone_prog fprog (csnap_of (cinit_db fiv fidur));
  ffits : fits8 fprog (csnap_of (cinit_db fiv fidur));
  fdet : input_determined fprog (csnap_of (cinit_db fiv fidur));
  fring : ring_ok_of fprog fstrat (csnap_of (cinit_db fiv fidur)) fns flvl fnxt;
  finit : forall q, fcinit q = 0
}.

Section Fresh.
Context {C : fctx}.
Notation prog := (@fprog C).
Notation strat := (@fstrat C).
Notation cinit := (@fcinit C).
Notation iv := (@fiv C).
Notation idur := (@fidur C).
Notation ns := (@fns C).
Notation lvl := (@flvl C).
Notation nxt := (@fnxt C).

Definition s0 : cdb := cinit_db iv idur.
Definition sn : snapshot := csnap_of s0.

Notation K := (kleene prog sn ns).
Notation KC := (Kc prog sn ns).
Notation GG := (G prog sn ns).
Notation sc := (succs prog sn).

Definition fixy (q : qkey) : Prop := fixy_of strat q.

(* the fields of [fctx] at the section's notations, used below like section hypotheses *)
Lemma Hmono : monotone_prog prog sn.
Proof. exact fmono. Qed.
Lemma Hfits : fits8 prog sn.
Proof. exact ffits. Qed.
Lemma Hdet : input_determined prog sn.
Proof. exact fdet. Qed.
Lemma Hring : ring_ok_of prog strat sn ns lvl nxt.
Proof. exact fring. Qed.
Lemma Hinit : forall q, cinit q = 0.
Proof. exact finit. Qed.

Lemma k_lt q : K q < 256.
Proof. apply K_lt, Hfits. Qed.
Lemma kc_lt h x q : x < 256 -> KC h x q < 256.
Proof. apply Kc_lt, Hfits. Qed.
Lemma k_fix q : In q ns -> F prog sn K q = K q.
Proof. apply K_fix; [apply Hmono | apply Hfits]. Qed.
Lemma kc_head h x : x < 256 -> In h ns -> KC h x h = x.
Proof. apply Kc_head; [apply Hmono | apply Hfits]. Qed.
Lemma kc_fix h x d : x < 256 -> In d ns -> d <> h -> F prog sn (KC h x) d = KC h x d.
Proof. apply Kc_fix; [apply Hmono | apply Hfits]. Qed.
Lemma kc_below h x : le_bits x (K h) -> env_le (KC h x) K.
Proof. apply Kc_below; [apply Hmono | apply Hfits]. Qed.
Lemma kc_conv h x : x < 256 -> In h ns -> le_bits x (K h) -> le_bits (F prog sn (KC h x) h) x ->
  forall p, KC h x p = K p.
Proof. apply Kc_converged; [apply Hmono | apply Hfits]. Qed.
Lemma g_mono h x x' : x' < 256 -> In h ns -> le_bits x x' -> le_bits (GG h x) (GG h x').
Proof. apply G_mono; [apply Hmono | apply Hfits]. Qed.
Lemma g_below h x : In h ns -> le_bits x (K h) -> le_bits (GG h x) (K h).
Proof. apply G_below; [apply Hmono | apply Hfits]. Qed.
Lemma g_lt h x : x < 256 -> GG h x < 256.
Proof. apply G_lt, Hfits. Qed.
(* a path of same-level calls *)
Inductive npath : qkey -> qkey -> Prop :=
| np_one q h : nxt q = Some h -> npath q h
| np_step q d h : nxt q = Some d -> npath d h -> npath q h.

Lemma npath_trans a b c : npath a b -> npath b c -> npath a c.
Proof.
  induction 1 as [a b Hab | a d b Had _ IH]; intros Hbc.
  - now apply (np_step a b c).
  - apply (np_step a d c Had). now apply IH.
Qed.

(* each frame was called by the one under it *)
Fixpoint chain (st : list qkey) : Prop :=
  match st with
  | q :: ((q' :: _) as r) => In q (sc q') /\ chain r
  | _ => True
  end.

Definition own (q : qkey) (m : cmemo) : Prop :=
  cm_final m = false /\ cm_extra m = true /\ cm_heads m = [(q, cm_iter m)].
Definition part (q h : qkey) (it : stamp) (m : cmemo) : Prop :=
  cm_final m = false /\ cm_extra m = true /\ cm_heads m = [(h, it)] /\ h <> q.

Definition hv (s : cdb) (h : qkey) : val :=
  match c_memo s h with
  | Some m => match cm_val m with Some v => v | None => 0 end
  | None => 0
  end.

(* final, or provisional under a head that is final at the recorded stamp *)
Definition done (s : cdb) (d : qkey) : Prop :=
  exists m, c_memo s d = Some m /\
    (cm_final m = true \/
     exists h it mh, part d h it m /\ c_memo s h = Some mh /\ cm_final mh = true /\ iter_of mh = it).

Definition partat (s : cdb) (d h : qkey) (it : stamp) : Prop :=
  exists md, c_memo s d = Some md /\ part d h it md.

Definition recv (q : qkey) (a b : val) : val := recover strat q a b.

(* progress measure of a head's provisional memo *)
Definition hpot (m : cmemo) : N :=
  match cm_val m with
  | Some v => N.of_nat (8 - bc v) + cm_dur m + (if cm_untracked m then 0 else 1)
  | None => 0
  end.

Definition kind_final (st : list qkey) (s : cdb) (q : qkey) (m : cmemo) : Prop :=
  cm_final m = true /\ cm_val m = Some (K q) /\ ~ In q st /\ iter_of m <= 15 /\
  (forall d, In d (sc q) -> done s d).

Definition kind_own (st : list qkey) (s : cdb) (q : qkey) (m : cmemo) : Prop :=
  own q m /\ bottom lvl st q /\ fixy q /\ cm_dur m <= 3 /\ cm_iter m + hpot m <= 12 /\
  (npath q q /\ forall x, npath q x -> npath x q) /\
  exists v, cm_val m = Some v /\ le_bits v (K q) /\ le_bits v (recv q v (GG q v)).

Definition kind_part (st : list qkey) (s : cdb) (q : qkey) (m : cmemo) : Prop :=
  exists h it mh, part q h it m /\ npath q h /\ c_memo s h = Some mh /\
    (own h mh \/ cm_final mh = true) /\ it <= iter_of mh /\ it <= 12 /\ cm_iter m <= it + 1 /\
    (iter_of mh = it -> cm_final mh = false ->
       cm_val m = Some (KC h (hv s h) q) /\ ~ In q st /\
       forall d, In d (sc q) -> done s d \/ d = h \/ partat s d h it) /\
    (iter_of mh = it -> cm_final mh = true ->
       cm_val m = Some (K q) /\ ~ In q st /\ forall d, In d (sc q) -> done s d).

Record memo_ok (st : list qkey) (s : cdb) (q : qkey) (m : cmemo) : Prop := {
  mo_ns : In q ns;
  mo_ver : cm_verified m = REV_START;
  mo_chg : cm_changed m = REV_START;
  mo_val : exists v, cm_val m = Some v /\ v < 256;
  mo_kind : kind_final st s q m \/ kind_own st s q m \/ kind_part st s q m
}.

Definition held (s : cdb) (q : qkey) : Prop :=
  exists y, c_sync s q = Some y /\ sy_trans y = false.

Record Inv (hl st : list qkey) (s : cdb) : Prop := {
  iv_in : c_in s = c_in s0;
  iv_cell : c_cell s = c_cell s0;
  iv_pcell : c_pcell s = c_pcell s0;
  iv_revs : c_revs s = c_revs s0;
  iv_cc : c_ccount s = 0;
  iv_nd : NoDup st;
  iv_incl : incl st ns;
  iv_chain : chain st;
  iv_sync : forall q, In q hl <-> held s q;
  iv_twice : forall q y, c_sync s q = Some y -> sy_twice y = true -> sy_trans y = false;
  iv_memo : forall q m, c_memo s q = Some m -> memo_ok st s q m
}.

End Fresh.
