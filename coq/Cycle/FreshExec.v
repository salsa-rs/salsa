(* Cycle/FreshExec.v — Fixpoint rings: the invariant of Cycle/FreshInv.v is the ring invariant
   (Cycle/RingInv.v) at the instance [fresh_sem], and the assignment the reads of the running
   frame are answered from, written out for [kleene]. *)
From Coq Require Import PeanoNat.
From Salsa Require Import Base.
From Salsa.Kern Require Import CoreK.
From Salsa.Core Require Import Spec.
From Salsa.Cycle Require Import StampK Model Spec SpecProofs Cert FreshSem FreshBase FreshInv FreshOps.
From Salsa.Cycle Require RingInv RingTop.

Section Exec.
Context {C : fctx}.
Notation prog := (@fprog C).
Notation cinit := (@fcinit C).
Notation ns := (@fns C).
Notation lvl := (@flvl C).
Notation nxt := (@fnxt C).
Notation K := (kleene prog sn ns).
Notation KC := (Kc prog sn ns).

Lemma npath_ring q h : npath q h <-> RingInv.npath_of nxt q h.
Proof.
  split; induction 1 as [q h H | q d h H _ IH].
  - now apply RingInv.np_one.
  - now apply (RingInv.np_step q d h).
  - now apply np_one.
  - now apply (np_step q d h).
Qed.

(* [cycle_initial] is 0, so a head without a memo holds 0 in both readings *)
Lemma hv_ring s h : RingInv.hv (R := fresh_sem) s h = hv s h.
Proof.
  unfold RingInv.hv, hv. cbn [RingInv.rcinit fresh_sem].
  destruct (c_memo s h) as [m |]; [destruct (cm_val m) |]; try reflexivity; apply Hinit.
Qed.

(* both directions are the same argument: the two readings differ by [npath_ring] and [hv_ring] *)
Lemma memo_ok_ring st s q m : memo_ok st s q m <-> RingInv.memo_ok (R := fresh_sem) st s q m.
Proof.
  split; intros [Hns Hver Hchg Hval Hkind]; (constructor; [exact Hns | exact Hver | exact Hchg | exact Hval |]);
    (destruct Hkind as [Hf | [Ho | Hp]]; [left; exact Hf | right; left | right; right]).
  (* four goals: own and participant memos, for each direction.  The two own cases: *)
  1, 3: destruct Ho as (H1 & H2 & H3 & H4 & H5 & (Hqq & Hr) & Hv);
    repeat (split; [assumption |]); (split; [| exact Hv]);
    (split; [now apply npath_ring |]); intros x Hx; apply npath_ring, Hr, npath_ring, Hx.
  (* the two participant cases: *)
  all: destruct Hp as (h & it & mh & H1 & H2 & H3 & H4 & H5 & H6 & H7 & Hlive & Hset);
    exists h, it, mh; (split; [exact H1 |]); (split; [now apply npath_ring |]);
    repeat (split; [assumption |]); (split; [| exact Hset]);
    intros He Hnf; destruct (Hlive He Hnf) as (Hv & Hrest); (split; [| exact Hrest]);
    rewrite Hv; cbn [RingInv.live fresh_sem]; now rewrite hv_ring.
Qed.

Lemma Inv_ring hl st s : Inv hl st s <-> RingInv.Inv (R := fresh_sem) hl st s.
Proof.
  split; intros [H1 H2 H3 H4 H5 H6 H7 H8 H9 H10 H11]; constructor; try assumption;
    intros q m Hm; apply memo_ok_ring, H11, Hm.
Qed.

(* the assignment every read of the top frame is answered from *)
Definition rho_of (st : list qkey) (s : cdb) : qkey -> val :=
  match botof lvl st with
  | Some b => KC b (hv s b)
  | None => K
  end.

Lemma rho_ring st s d : RingTop.rho_of (R := fresh_sem) st s d = rho_of st s d.
Proof.
  unfold RingTop.rho_of, rho_of. cbn [RingInv.rlvl RingInv.live RingInv.tgt fresh_sem].
  destruct (botof lvl st); [now rewrite hv_ring | reflexivity].
Qed.

Lemma rho_lt hl st s d : Inv hl st s -> rho_of st s d < 256.
Proof.
  intros HI. unfold rho_of. destruct (botof lvl st) as [b |]; [| apply k_lt].
  apply kc_lt. unfold hv. destruct (c_memo s b) as [m |] eqn:Hm; [| lia].
  destruct (mo_val _ _ _ _ (iv_memo _ _ _ HI b m Hm)) as (v & -> & Hv). exact Hv.
Qed.

End Exec.
