(* Cycle/FallbackProofs.v — the facts behind C13: reachability on the input-determined call
   graph ([on_cycle] = "lies on a closed walk of bounded length"), well-definedness of
   [spec_fallback] (fuel-irrelevance), and the certificate theorem. *)
From Coq Require Import PeanoNat.
From Salsa Require Import Base.
From Salsa.Core Require Import Model Spec.
From Salsa.Cycle Require Import Spec SpecProofs.

(* ---------------------------------------------------------------- reachability *)
Section Reach.
Variable g : qkey -> list qkey.

(* a walk of exactly k edges from y to x *)
Fixpoint walk (k : nat) (y x : qkey) : Prop :=
  match k with
  | O => y = x
  | S k' => exists z, In z (g y) /\ walk k' z x
  end.

Definition reach (l : list qkey) (k : nat) (x : qkey) : Prop := exists y, In y l /\ walk k y x.

Lemma add_all_In : forall new l x, In x (add_all l new) <-> In x l \/ In x new.
Proof.
  induction new as [| y new IH]; intros l x; cbn [add_all].
  - cbn. tauto.
  - rewrite IH. destruct (mem y l) eqn:E.
    + apply mem_In in E. cbn. split; [tauto |]. intros [H | [-> | H]]; tauto.
    + rewrite in_app_iff. cbn. tauto.
Qed.

Lemma closure_spec : forall n l x,
  In x (closure g n l) <-> exists k, (k <= n)%nat /\ reach l k x.
Proof.
  induction n as [| n IH]; intros l x; cbn [closure].
  - split.
    + intros H. exists 0%nat. split; [lia |]. exists x. cbn. tauto.
    + intros [k [Hk [y [Hy Hw]]]]. assert (k = 0)%nat by lia. subst. cbn in Hw. now subst.
  - rewrite IH. split.
    + intros [k [Hk [y [Hy Hw]]]]. apply add_all_In in Hy. destruct Hy as [Hy | Hy].
      * exists k. split; [lia |]. exists y. tauto.
      * apply in_flat_map in Hy. destruct Hy as [y0 [Hy0 Hin]].
        exists (S k). split; [lia |]. exists y0. split; [exact Hy0 |]. cbn. exists y. tauto.
    + intros [k [Hk [y [Hy Hw]]]]. destruct k as [| k].
      * exists 0%nat. split; [lia |]. exists y. split; [apply add_all_In; tauto | exact Hw].
      * cbn in Hw. destruct Hw as [z [Hz Hw]]. exists k. split; [lia |].
        exists z. split; [| exact Hw]. apply add_all_In. right. apply in_flat_map. exists y. tauto.
Qed.

(* q is on a cycle iff a closed walk of length at most n + 1 passes through it *)
Theorem on_cycle_spec : forall n q,
  on_cycle g n q = true <-> exists k, (k <= n)%nat /\ walk (S k) q q.
Proof.
  intros n q. unfold on_cycle. rewrite mem_In, closure_spec. split.
  - intros [k [Hk [y [Hy Hw]]]]. apply add_all_In in Hy. destruct Hy as [[] | Hy].
    exists k. split; [exact Hk |]. cbn. exists y. tauto.
  - intros [k [Hk [z [Hz Hw]]]]. exists k. split; [exact Hk |]. exists z. split; [| exact Hw].
    apply add_all_In. now right.
Qed.

End Reach.

(* ---------------------------------------------------------------- spec_fallback *)
Section Fallback.
Variable prog : qkey -> body.
Variable sn : snapshot.
Variable fb : qkey -> val.
Variable cyc : qkey -> bool.

(* the call edges depend on inputs only *)
Hypothesis Hdet : input_determined prog sn.

(* a rank on the nodes that are not on a cycle, decreasing along calls between them: the
   witness that the call graph minus its cyclic nodes is acyclic *)
Variable rank : qkey -> nat.
Hypothesis Hrank : forall q q', cyc q = false -> In q' (succs prog sn q) -> cyc q' = false ->
                                (rank q' < rank q)%nat.

Notation sf := (spec_fb prog sn fb cyc).

Lemma spec_fb_fuel : forall n m q, (rank q + 1 < n)%nat -> (rank q + 1 < m)%nat -> sf n q = sf m q.
Proof.
  induction n as [| n IH]; intros m q Hn Hm; [lia |].
  destruct m as [| m]; [lia |]. cbn [spec_fb].
  destruct (cyc q) eqn:Ec; [reflexivity |].
  apply run_agree. intros p Hp. rewrite (Hdet q (sf n)) in Hp.
  destruct (cyc p) eqn:Ep.
  - destruct n as [| n']; [lia |]. destruct m as [| m']; [lia |]. cbn [spec_fb]. now rewrite Ep.
  - assert (rank p < rank q)%nat by (now apply Hrank). apply IH; lia.
Qed.

(* the certificate on a partial assignment: defined cyclic nodes hold the fallback, defined
   other nodes re-evaluate to themselves over the assignment *)
Lemma certified_fb_gen : forall ns (sigma : qkey -> option val),
  cert_fallback prog sn fb cyc ns sigma = true ->
  (forall q v, sigma q = Some v -> In q ns) ->
  forall n q v, (rank q + 1 < n)%nat -> sigma q = Some v -> v = sf n q.
Proof.
  intros ns sigma Hcert Hdom.
  unfold cert_fallback in Hcert. rewrite forallb_forall in Hcert.
  assert (Hcyc : forall q v n, cyc q = true -> (0 < n)%nat -> sigma q = Some v -> v = sf n q).
  { intros q v n Ec Hn Hs. destruct n as [| n]; [lia |]. cbn [spec_fb]. rewrite Ec.
    specialize (Hcert q (Hdom q v Hs)). rewrite Hs, Ec in Hcert. now apply N.eqb_eq in Hcert. }
  (* a callee off the cycles has a smaller rank, so less fuel will do *)
  induction n as [| n IH]; intros q v Hn Hs; [lia |].
  destruct (cyc q) eqn:Ec; [apply Hcyc; [exact Ec | lia | exact Hs] |].
  cbn [spec_fb]. rewrite Ec.
  specialize (Hcert q (Hdom q v Hs)). rewrite Hs, Ec in Hcert.
  destruct (runo (sn_in sn) (sn_cell sn) sigma (prog q)) as [v' |] eqn:Er; [| discriminate].
  apply N.eqb_eq in Hcert. subst v'. symmetry.
  apply (runo_run_trace _ _ _ sigma _ _ Er). intros p Hp v' Hs'.
  rewrite (Hdet q (sf n)) in Hp. symmetry. destruct (cyc p) eqn:Ep.
  - apply Hcyc; [exact Ep | lia | exact Hs'].
  - assert (rank p < rank q)%nat by (now apply Hrank). apply IH; [lia | exact Hs'].
Qed.

End Fallback.

(* ---------------------------------------------------------------- the statements for Props/C13.v *)

(* spec_fallback does not depend on the fuel once it exceeds the rank: it is a function of the
   program and the inputs alone *)
Theorem spec_fallback_wd : forall prog sn fb ns rank,
  input_determined prog sn ->
  let cyc := fun q => mem q (cyclic_nodes (succs prog sn) ns) in
  (forall q q', cyc q = false -> In q' (succs prog sn q) -> cyc q' = false -> (rank q' < rank q)%nat) ->
  (forall q, (rank q < length ns)%nat) ->
  forall n q, (length ns < n)%nat -> spec_fb prog sn fb cyc n q = spec_fallback prog sn fb ns q.
Proof.
  intros prog sn fb ns rank Hdet cyc Hrank Hb n q Hn. unfold spec_fallback. fold cyc.
  apply (spec_fb_fuel prog sn fb cyc Hdet rank Hrank); specialize (Hb q); lia.
Qed.

Theorem certified_fallback : forall prog sn fb ns rank (sigma : qkey -> option val),
  input_determined prog sn ->
  let cyc := fun q => mem q (cyclic_nodes (succs prog sn) ns) in
  (forall q q', cyc q = false -> In q' (succs prog sn q) -> cyc q' = false -> (rank q' < rank q)%nat) ->
  (forall q, (rank q < length ns)%nat) ->
  cert_fallback prog sn fb cyc ns sigma = true ->
  (forall q v, sigma q = Some v -> In q ns) ->
  forall q v, sigma q = Some v -> v = spec_fallback prog sn fb ns q.
Proof.
  intros prog sn fb ns rank sigma Hdet cyc Hrank Hb Hcert Hdom q v Hs. unfold spec_fallback. fold cyc.
  apply (certified_fb_gen prog sn fb cyc Hdet rank Hrank ns sigma Hcert Hdom);
    [specialize (Hb q); lia | exact Hs].
Qed.
