(* Cycle/FreshOps.v — Fixpoint rings: what the cycle function does to a head's provisional value
   (it stays below the least fixpoint, climbs, and the number of clear bits left bounds the trips),
   and with it the instance of the ring development for [kleene]. *)
From Coq Require Import PeanoNat.
From Salsa Require Import Base.
From Salsa.Kern Require Import CoreK.
From Salsa.Core Require Import Spec.
From Salsa.Cycle Require Import StampK Model Spec SpecProofs Cert FreshSem FreshBase FreshInv.
From Salsa.Cycle Require RingInv.

Definition memo_eq (s s' : cdb) : Prop := forall x, c_memo s' x = c_memo s x.

Lemma bc_0 : bc 0 = 0%nat.
Proof. reflexivity. Qed.

Section Ops.
Context {C : fctx}.
Notation prog := (@fprog C).
Notation strat := (@fstrat C).
Notation cinit := (@fcinit C).
Notation ns := (@fns C).
Notation lvl := (@flvl C).
Notation nxt := (@fnxt C).
Notation K := (kleene prog sn ns).
Notation KC := (Kc prog sn ns).
Notation GG := (G prog sn ns).

Lemma recv_le_K q lv : fixy q -> In q ns -> le_bits lv (K q) -> le_bits (recv q lv (GG q lv)) (K q).
Proof.
  intros Hfix Hq Hle. assert (Hg := g_below q lv Hq Hle).
  unfold recv, recover. destruct Hfix as [Hs | Hs]; rewrite Hs; [exact Hg | now apply lor_lub].
Qed.

Lemma recv_lt q lv : fixy q -> lv < 256 -> recv q lv (GG q lv) < 256.
Proof.
  intros Hfix Hlv. assert (Hg := g_lt q lv Hlv).
  unfold recv, recover. destruct Hfix as [Hs | Hs]; rewrite Hs; [exact Hg | now apply lor_lt256].
Qed.

Lemma recv_next q lv : fixy q -> In q ns -> lv < 256 -> le_bits lv (recv q lv (GG q lv)) ->
  le_bits (recv q lv (GG q lv)) (recv q (recv q lv (GG q lv)) (GG q (recv q lv (GG q lv)))).
Proof.
  intros Hfix Hq Hlv. unfold recv, recover. destruct Hfix as [Hs | Hs]; rewrite Hs.
  - intros Hle. apply g_mono; [now apply g_lt | exact Hq | exact Hle].
  - intros _. apply lor_ub_l.
Qed.

Lemma recv_conv q lv : fixy q -> recv q lv (GG q lv) = lv -> le_bits (F prog sn (KC q lv) q) lv.
Proof.
  unfold recv, recover. intros [Hs | Hs]; rewrite Hs; intros He.
  - change (F prog sn (KC q lv) q) with (GG q lv). rewrite He. apply le_bits_refl.
  - change (F prog sn (KC q lv) q) with (GG q lv). now apply lor_eq_le.
Qed.

Lemma next_val_fixy q lv v : fixy q -> RingInv.next_val strat cinit q lv v = recv q lv v.
Proof. unfold RingInv.next_val, recv. intros [Hs | Hs]; rewrite Hs; reflexivity. Qed.

Lemma val_conv_fixy q lv v : fixy q -> RingInv.val_conv strat q lv v = (recv q lv v =? lv).
Proof. unfold RingInv.val_conv, recv. intros [Hs | Hs]; rewrite Hs; reflexivity. Qed.

Definition fresh_headok (q : qkey) (v : val) : Prop :=
  le_bits v (K q) /\ le_bits v (recv q v (GG q v)).

Definition fresh_pot (v : val) : N := N.of_nat (8 - bc v).

#[export] Instance fresh_sem : RingInv.ring.
Proof.
  refine {| RingInv.rprog := prog; RingInv.rstrat := strat; RingInv.rcinit := cinit;
            RingInv.riv := @fiv C; RingInv.ridur := @fidur C; RingInv.rns := ns;
            RingInv.rlvl := lvl; RingInv.rnxt := nxt;
            RingInv.rfixy := fixy; RingInv.tgt := K; RingInv.live := KC;
            RingInv.vok := fun v => v < 256; RingInv.headok := fresh_headok;
            RingInv.pot := fresh_pot; RingInv.bound := 12 |}.
  - exact Hdet.
  - exact Hring.
  - intros q [Hs | Hs]; rewrite Hs; reflexivity.
  - lia.
  - exact k_lt.
  - exact kc_lt.
  - intros q Hq _. now apply k_fix.
  - intros h x p. apply Kc_indep, Hdet.
  - intros h x Hh _ Hx _. now apply kc_head.
  - intros b x q Hq Hfix Hne _ Hx. unfold RingInv.part_val.
    destruct Hfix as [Hs | Hs]; rewrite Hs; now apply kc_fix.
  - intros d _ _ _. rewrite Hinit. split; [lia |]. split; [split; apply le_bits_0 | cbn; lia].
  - intros q lv Hq Hfix _ Hlv [HleK Hclimb]. cbv zeta. rewrite (next_val_fixy q lv _ Hfix).
    change (F prog (RingInv.snap0 fiv fidur) (KC q lv) q) with (GG q lv).
    split; [now apply recv_lt |]. split; [split; [now apply recv_le_K | now apply recv_next] |].
    destruct (N.eq_dec (recv q lv (GG q lv)) lv) as [He | Hne]; [now left | right].
    assert (Hlt := bc_lt lv _ Hclimb Hlv (recv_lt q lv Hfix Hlv) (fun H => Hne (eq_sym H))).
    assert (H8 := bc_le8 (recv q lv (GG q lv))). unfold fresh_pot. lia.
  - intros q lv Hq Hfix _ Hlv [HleK _]. rewrite (val_conv_fixy q lv _ Hfix), (next_val_fixy q lv _ Hfix).
    intros He. apply N.eqb_eq in He. split; [exact He |].
    apply kc_conv; [exact Hlv | exact Hq | exact HleK | now apply recv_conv].
Defined.

End Ops.
