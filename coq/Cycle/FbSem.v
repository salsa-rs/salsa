(* Cycle/FbSem.v — facts about [spec_fallback] used by the fresh-revision theorem for fallback
   cycles (C13_fresh). *)
From Coq Require Import PeanoNat.
From Salsa Require Import Base.
From Salsa.Core Require Import Model Spec.
From Salsa.Cycle Require Import Spec SpecProofs FallbackProofs FreshBase RingInv.

Section FbSem.
Variable prog : qkey -> body.
Variable sn : snapshot.
Variable fb : qkey -> val.
Variable ns : list qkey.
Variable rank : qkey -> nat.

Notation g := (succs prog sn).
Definition cycn (q : qkey) : bool := mem q (cyclic_nodes g ns).
Notation SV := (spec_fallback prog sn fb ns).

Hypothesis Hdet : input_determined prog sn.
Hypothesis Hrank : forall q q', cycn q = false -> In q' (g q) -> cycn q' = false -> (rank q' < rank q)%nat.
Hypothesis Hrb : forall q, (rank q < length ns)%nat.

Lemma SV_cyc q : cycn q = true -> SV q = fb q.
Proof. intros H. unfold spec_fallback. cbn [spec_fb]. fold (cycn q). now rewrite H. Qed.

Lemma SV_body q : cycn q = false -> SV q = F prog sn SV q.
Proof.
  intros H.
  rewrite <- (spec_fallback_wd prog sn fb ns rank Hdet Hrank Hrb (S (S (length ns))) q) by lia.
  cbn [spec_fb]. fold (cycn q). rewrite H. reflexivity.
Qed.

Lemma cycn_walk q : cycn q = true <-> In q ns /\ exists k, (k <= length ns)%nat /\ walk g (S k) q q.
Proof.
  unfold cycn, cyclic_nodes. rewrite mem_In, filter_In, on_cycle_spec. reflexivity.
Qed.

End FbSem.

Section RingCyc.
Variable prog : qkey -> body.
Variable sn : snapshot.
Variable ns : list qkey.
Variable nxt : qkey -> option qkey.

Notation g := (succs prog sn).
Hypothesis Hreal : forall q d, nxt q = Some d -> In d (g q).
Hypothesis Hclosed : forall q d, In q ns -> In d (g q) -> In d ns.

Inductive ntrace : qkey -> list qkey -> qkey -> Prop :=
| nt_one x y : nxt x = Some y -> ntrace x [y] y
| nt_step x d l y : nxt x = Some d -> ntrace d l y -> ntrace x (d :: l) y.

Lemma ntrace_suffix l1 : forall x a l2 y, ntrace x (l1 ++ a :: l2) y -> (l2 = [] /\ a = y) \/ ntrace a l2 y.
Proof.
  induction l1 as [| b l1 IH]; intros x a l2 y H; cbn in H.
  - inversion H; subst; [now left | now right].
  - inversion H as [| x' d l y' _ Hd]; subst; [destruct l1; discriminate | now apply (IH b)].
Qed.

Lemma NoDup_suffix (l1 l2 : list qkey) : NoDup (l1 ++ l2) -> NoDup l2.
Proof. induction l1 as [| a l1 IH]; intros H; [exact H | inversion H; auto]. Qed.

(* cutting the loops out of a path: every node is visited once *)
Lemma npath_trace x y : npath_of nxt x y -> exists l, ntrace x l y /\ NoDup l.
Proof.
  induction 1 as [x y Hxy | x d y Hxd _ (l & Hl & Hnd)].
  - exists [y]. split; [now constructor | repeat constructor; intros []].
  - destruct (in_dec (fun a b => reflect_dec _ _ (key_eqb_spec a b)) d l) as [Hin | Hnin].
    + apply in_split in Hin as (l1 & l2 & ->).
      destruct (ntrace_suffix l1 d d l2 y Hl) as [[-> <-] | Hl2].
      * exists [d]. split; [now constructor | repeat constructor; intros []].
      * exists (d :: l2). split; [now apply nt_step | now apply NoDup_suffix in Hnd].
    + exists (d :: l). split; [now apply nt_step | now constructor].
Qed.

Lemma ntrace_walk x l y : ntrace x l y -> In x ns -> walk g (length l) x y /\ incl l ns.
Proof.
  induction 1 as [x y Hxy | x d l y Hxd _ IH]; intros Hx.
  - split; [exists y; split; [now apply Hreal | reflexivity] |].
    intros z [<- | []]. apply (Hclosed x); [exact Hx | now apply Hreal].
  - assert (Hd : In d ns) by (apply (Hclosed x); [exact Hx | now apply Hreal]).
    destruct (IH Hd) as [Hw Hi]. split; [exists d; split; [now apply Hreal | exact Hw] |].
    intros z [<- | Hz]; [exact Hd | now apply Hi].
Qed.

Lemma npath_cyc x : In x ns -> npath_of nxt x x -> cycn prog sn ns x = true.
Proof.
  intros Hx Hp. destruct (npath_trace x x Hp) as (l & Hl & Hnd).
  destruct (ntrace_walk x l x Hl Hx) as [Hw Hi].
  apply cycn_walk. split; [exact Hx |].
  assert (Hlen := NoDup_incl_length Hnd Hi).
  destruct l as [| a l]; [inversion Hl |]. exists (length l). split; [cbn in Hlen; lia | exact Hw].
Qed.

End RingCyc.
