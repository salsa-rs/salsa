(* Cycle/LockTop.v — the claim discipline is an invariant of every run of the Cycle model.

   Every level function keeps the claim invariant: whatever the program, the strategies, the memo
   table and the outcome (value or panic), a fetch or a maybe_changed_after leaves exactly the
   claims and the query stack it found.  The traversal is done once, for the claim invariant
   together with the soundness of what memos and frames record relative to a relation [rel] on
   keys: the open claims form a chain of [rel], every recorded query edge is in [rel], every
   recorded cycle head is [rel]-reachable and [rel]-related to itself.  [rel] is any transitive
   relation that contains the direct calls of the program.  With the full relation the soundness
   part is empty and the claim invariant alone remains; Cycle/HeadInv.v takes reachability in the
   static call graph.

   Then, for all programs, strategies, cycle_initial/cycle_result functions and histories (writes
   of any durability, cell changes, fault switches, cancellation bumps, Gets that return or
   panic): between two operations no claim is held and the query stack is empty.  (An operation
   that runs out of the model's fuel is excluded: no guard runs then.) *)
From Coq Require Import PeanoNat Lia.
From Salsa Require Import Base.
From Salsa.Kern Require Import CoreK.
From Salsa.Core Require Import Spec.
From Salsa.Cycle Require Import StampK Model LockInv LockOps.

Definition msim (s s' : cdb) : Prop := c_memo s' = c_memo s.
Definition qsim (s s' : cdb) : Prop := lksim s s' /\ c_memo s' = c_memo s.

Lemma msim_refl s : msim s s.
Proof. reflexivity. Qed.
Lemma msim_trans a b c : msim a b -> msim b c -> msim a c.
Proof. unfold msim. congruence. Qed.
Lemma qsim_refl s : qsim s s.
Proof. split; [apply lksim_refl | reflexivity]. Qed.
Lemma qsim_trans a b c : qsim a b -> qsim b c -> qsim a c.
Proof. intros [A1 A2] [B1 B2]. split; [exact (lksim_trans a b c A1 B1) | congruence]. Qed.

Lemma msim_try_claim q allow : pres msim (try_claim q allow).
Proof. apply (pres_try_claim msim msim_refl msim_trans). reflexivity. Qed.
Lemma msim_drop_guard q mode : pres msim (drop_guard q mode).
Proof. apply (pres_drop_guard msim msim_refl msim_trans); reflexivity. Qed.
Lemma msim_release_panicking q s : msim s (fst (release_panicking q s)).
Proof. apply (pres_release_panicking msim msim_refl msim_trans); reflexivity. Qed.

Lemma qsim_peek q : pres qsim (peek_claim q).
Proof.
  intros s. split; [apply lks_peek_claim |].
  apply (pres_peek_claim msim msim_refl msim_trans). reflexivity.
Qed.
Lemma qsim_emit e : pres qsim (cemit e).
Proof. apply pres_modify. intros s. split; [apply lksim_fields |]; reflexivity. Qed.
Lemma qsim_vsi q m : pres qsim (validate_same_iteration q m).
Proof. exact (pres_vsi qsim qsim_refl qsim_trans qsim_peek q m). Qed.
Lemma qsim_outer_cycle heads me : pres qsim (outer_cycle heads me).
Proof. exact (pres_outer_cycle qsim qsim_refl qsim_trans qsim_peek heads me). Qed.

Lemma peek_claim_ok q hl stk s : K hl stk s ->
  awp (peek_claim q) (fun pk s' => K hl stk s' /\ (pk = PkCycle false -> In q hl)) (K hl stk) s.
Proof.
  intros HK. pose proof (awp_lks (peek_claim q) hl stk s (lks_peek_claim q) HK) as H.
  unfold awp in *. destruct (peek_claim q s) as [s' [pk | p |]] eqn:E; [| exact H | exact I].
  split; [apply H |]. intros ->. apply (lk_held _ _ (proj1 HK)).
  revert E. unfold peek_claim, cbind, cget. destruct (c_sync s q) as [y |] eqn:Ey; [| discriminate].
  destruct (sy_trans y) eqn:Et.
  - destruct (trans_get (c_trans s) q); discriminate.
  - intros _. exists y. split; assumption.
Qed.

Lemma find_claimed_ok me hl stk : forall hs s, K hl stk s -> (forall h, In h hs -> fst h <> me) ->
  awp (find_claimed_head hs) (fun o s' => K hl stk s' /\ forall oc, o = Some oc -> In oc hl /\ oc <> me)
      (K hl stk) s.
Proof.
  induction hs as [| h hs IH]; intros s HK Hne; cbn [find_claimed_head].
  - apply awp_ret. split; [exact HK | intros oc A; discriminate].
  - eapply awp_seq; [apply (peek_claim_ok (fst h) hl stk s HK) |].
    intros pk s' [HK' Hpk].
    assert (Hrest : awp (find_claimed_head hs)
              (fun o s'' => K hl stk s'' /\ forall oc, o = Some oc -> In oc hl /\ oc <> me) (K hl stk) s').
    { apply IH; [exact HK' | intros x Hx; apply Hne; right; exact Hx]. }
    destruct pk as [| [|]]; try exact Hrest.
    apply awp_ret. split; [exact HK' |]. intros oc A. injection A as <-.
    split; [apply Hpk; reflexivity | apply Hne; left; reflexivity].
Qed.

Lemma outer_cycle_ok heads me hl stk s : K hl stk s ->
  awp (outer_cycle heads me) (fun o s' => K hl stk s' /\ forall oc, o = Some oc -> In oc hl /\ oc <> me)
      (K hl stk) s.
Proof.
  intros HK. unfold outer_cycle. apply awp_bind, awp_get.
  destruct (find (fun k => negb (key_eqb k me) && heads_contains heads k) (List.rev (c_qstack s))) as [k |] eqn:Ef.
  - apply awp_ret. split; [exact HK |]. intros oc A. injection A as <-.
    apply find_some in Ef. destruct Ef as [Hin Hc]. apply andb_true_iff in Hc. destruct Hc as [Hc _].
    split.
    + apply (lk_stack _ _ (proj1 HK)). apply in_rev. exact Hin.
    + intros ->. rewrite key_eqb_refl in Hc. discriminate.
  - apply find_claimed_ok; [exact HK |]. intros h Hh. apply in_rev in Hh.
    unfold heads_not_eq in Hh. apply filter_In in Hh. destruct Hh as [_ Hc].
    intros A. apply negb_true_iff in Hc. apply key_eqb_neq in Hc. contradiction.
Qed.

Section Rel.
Variable prog : qkey -> body.
Variable strat : N -> strategy.
Variable cinit : qkey -> val.
Variable rel : qkey -> qkey -> Prop.
Hypothesis rel_trans : forall a b c, rel a b -> rel b c -> rel a c.
Hypothesis rel_calls : forall p d, calls (prog p) d -> rel p d.

Definition relR (p d : qkey) : Prop := p = d \/ rel p d.

Lemma relR_trans a b c : relR a b -> relR b c -> relR a c.
Proof.
  intros [<- | H] H'; [exact H' |]. right. destruct H' as [<- | H']; [exact H | exact (rel_trans a b c H H')].
Qed.

Definition hsound (p : qkey) (hs : list head) : Prop :=
  forall h, In h hs -> relR p (fst h) /\ rel (fst h) (fst h).
Definition esound (p : qkey) (es : list edge) : Prop :=
  forall d, In (EQ d) es -> rel p d.

(* a memo of key p; a completed frame of key p, before the value is filled in.  The heads of a
   memo without a value are not constrained: a poisoned memo ([Model.poison], left behind when a
   head's loop panics) names its own key as head, on a cycle or not *)
Definition msound (p : qkey) (m : cmemo) : Prop :=
  esound p (cm_edges m) /\ (cm_val m <> None -> hsound p (raw_heads m)).
Definition rsound (p : qkey) (m : cmemo) : Prop :=
  esound p (cm_edges m) /\ hsound p (raw_heads m).

Definition MS (s : cdb) : Prop := forall p m, c_memo s p = Some m -> msound p m.

(* the open claims, innermost first: each was requested by the next one *)
Fixpoint chain (hl : list qkey) : Prop :=
  match hl with
  | a :: ((b :: _) as r) => rel b a /\ chain r
  | _ => True
  end.

Definition asks (hl : list qkey) (d : qkey) : Prop := forall k r, hl = k :: r -> rel k d.

Definition KS (hl stk : list qkey) (s : cdb) : Prop := K hl stk s /\ chain hl /\ MS s.

Lemma chain_tail a hl : chain (a :: hl) -> chain hl.
Proof. destruct hl as [| b r]; [intros _; exact I | intros [_ H]; exact H]. Qed.

Lemma chain_push hl d : chain hl -> asks hl d -> chain (d :: hl).
Proof. intros Hc Hr. destruct hl as [| k r]; [exact I |]. split; [apply (Hr k r eq_refl) | exact Hc]. Qed.

Lemma chain_reach : forall hl a x, chain (a :: hl) -> In x hl -> rel x a.
Proof.
  induction hl as [| b r IH]; intros a x Hc Hx; [destruct Hx |].
  destruct Hc as [Hba Hc]. destruct Hx as [<- | Hx]; [exact Hba |].
  apply (rel_trans x b a); [apply (IH b x Hc Hx) | exact Hba].
Qed.

Lemma reentry hl q : chain hl -> asks hl q -> In q hl -> rel q q.
Proof.
  intros Hc Hr Hq. destruct hl as [| k r]; [destruct Hq |].
  pose proof (Hr k r eq_refl) as Hkq. destruct Hq as [<- | Hq]; [exact Hkq |].
  apply (rel_trans q k q); [apply (chain_reach r k q Hc Hq) | exact Hkq].
Qed.

Lemma MS_eq s s' : c_memo s' = c_memo s -> MS s -> MS s'.
Proof. intros He H p m Hm. rewrite He in Hm. exact (H p m Hm). Qed.

Lemma KS_sim hl stk s s' : lksim s s' -> c_memo s' = c_memo s -> KS hl stk s -> KS hl stk s'.
Proof.
  intros Hs Hm (HK & Hc & HM). split; [apply (K_sim hl stk s s' Hs HK) |]. split; [exact Hc | apply (MS_eq s s' Hm HM)].
Qed.

Lemma ks_quiet {A} (m : CM A) hl stk s : pres qsim m -> KS hl stk s ->
  awp m (fun _ s' => KS hl stk s') (KS hl stk) s.
Proof.
  intros Hm HK. unfold awp. destruct (Hm s) as [A1 A2].
  destruct (m s) as [s1 [a | p |]]; cbn [fst] in *; [| | exact I]; apply (KS_sim hl stk s s1 A1 A2 HK).
Qed.

Lemma MS_put s q m : MS s -> msound q m -> MS (cset_memo s (upd (c_memo s) q (Some m))).
Proof.
  intros H Hm p mp. cbn. unfold upd. destruct (key_eqb_spec q p) as [<- | Hne].
  - intros A. injection A as <-. exact Hm.
  - apply H.
Qed.

Lemma KS_put hl stk s q m : KS hl stk s -> msound q m ->
  KS hl stk (cset_memo s (upd (c_memo s) q (Some m))).
Proof.
  intros (HK & Hc & HM) Hm. split; [apply (K_sim hl stk s); [apply lksim_fields; reflexivity | exact HK] |].
  split; [exact Hc | apply MS_put; assumption].
Qed.

Lemma hsound_update p hs k it : hsound p hs -> hsound p (heads_update hs k it).
Proof.
  intros H h Hh. unfold heads_update in Hh. apply in_map_iff in Hh. destruct Hh as (x & Hx & Hin).
  destruct (key_eqb (fst x) k); subst h; cbn [fst]; apply (H x Hin).
Qed.

Lemma hsound_reach p d hs : relR p d -> hsound d hs -> hsound p hs.
Proof. intros Hpd H h Hh. destruct (H h Hh) as [A B]. split; [exact (relR_trans p d _ Hpd A) | exact B]. Qed.

Lemma msound_with_verified p m r : msound p m -> msound p (with_verified m r).
Proof. intros H. exact H. Qed.
Lemma msound_with_final p m b : msound p m -> msound p (with_final m b).
Proof. intros H. exact H. Qed.
Lemma msound_with_iteration_count p m k it : msound p m -> msound p (with_iteration_count m k it).
Proof.
  intros [A B]. unfold with_iteration_count. destruct (cm_extra m) eqn:Ee; [| split; assumption].
  split; [exact A |]. cbn [cm_val]. intros Hv. unfold raw_heads. cbn [cm_extra cm_heads].
  apply hsound_update. specialize (B Hv). unfold raw_heads in B. rewrite Ee in B. exact B.
Qed.

Lemma put_ks q m hl stk s : KS hl stk s -> msound q m ->
  awp (put_memo q m) (fun _ s' => KS hl stk s' /\ c_memo s' q = Some m) (KS hl stk) s.
Proof.
  intros HK Hm. unfold put_memo. apply awp_modify. split; [apply KS_put; assumption |]. cbn. apply upd_same.
Qed.

Lemma mark_verified_ks q m hl stk s : KS hl stk s -> msound q m ->
  awp (cmark_verified q m) (fun m' s' => KS hl stk s' /\ msound q m') (KS hl stk) s.
Proof.
  intros HK Hm. unfold cmark_verified. apply awp_bind, awp_get. eapply awp_seq; [apply (ks_quiet _ hl stk s (qsim_emit _) HK) |].
  intros ? s1 HK1. eapply awp_seq; [apply (put_ks q _ hl stk s1 HK1 (msound_with_verified q m _ Hm)) |].
  intros ? s2 [HK2 _]. apply awp_ret. split; [exact HK2 | exact Hm].
Qed.

Lemma update_shallow_ks q m u hl stk s : KS hl stk s -> msound q m ->
  awp (cupdate_shallow q m u) (fun m' s' => KS hl stk s' /\ msound q m') (KS hl stk) s.
Proof.
  intros HK Hm. destruct u; cbn [cupdate_shallow]; [apply awp_ret; split; assumption | apply mark_verified_ks; assumption | apply awp_ret; split; assumption].
Qed.

Lemma validate_provisional_ks q m hl stk s : KS hl stk s -> msound q m ->
  awp (validate_provisional q m) (fun r s' => KS hl stk s' /\ msound q (snd r)) (KS hl stk) s.
Proof.
  intros HK Hm. unfold validate_provisional. apply awp_bind, awp_get.
  destruct (heads_all_final s (cm_verified m) (heads_of m)); [| apply awp_ret; split; assumption].
  eapply awp_seq; [apply (put_ks q _ hl stk s HK (msound_with_final q m true Hm)) |].
  intros ? s1 [HK1 _]. apply awp_ret. split; [exact HK1 | exact Hm].
Qed.

Lemma vmbp_ks q m hl stk s : KS hl stk s -> msound q m ->
  awp (validate_may_be_provisional q m) (fun r s' => KS hl stk s' /\ msound q (snd r)) (KS hl stk) s.
Proof.
  intros HK Hm. unfold validate_may_be_provisional.
  destruct (cm_final m); [apply awp_ret; split; assumption |].
  destruct (heads_of m); [apply awp_ret; split; assumption |].
  apply awp_bind, awp_get.
  destruct (negb (stamp_ccount (iter_of m) =? c_ccount s)); [apply awp_ret; split; assumption |].
  eapply awp_seq; [apply (validate_provisional_ks q m hl stk s HK Hm) |].
  intros r s1 [HK1 Hr]. destruct (fst r); [apply awp_ret; split; assumption |].
  eapply awp_seq; [apply (ks_quiet _ hl stk s1 (qsim_vsi q m) HK1) |].
  intros b s2 HK2. apply awp_ret. split; assumption.
Qed.

Definition acc_ks (q : qkey) (acc : coll) : Prop := hsound q (fst (fst acc)).

Lemma collect_rec_ks s q qh : MS s ->
  forall n cur acc, relR q cur -> acc_ks q acc ->
    exists r, collect_recursive n cur q qh acc s = (s, r) /\ forall acc', r = COk acc' -> acc_ks q acc'.
Proof.
  intros HM. induction n as [| n IH]; intros cur acc Hcur Hacc.
  - eexists. split; [reflexivity | intros acc' H; discriminate].
  - rewrite collect_recursive_S. destruct (key_eqb cur q).
    { destruct acc as [[missing mx] dep]. eexists. split; [reflexivity |]. intros acc' H. injection H as <-. exact Hacc. }
    unfold key_status. destruct (c_memo s cur) as [mh |] eqn:Hmh; [| eexists; split; [reflexivity | intros acc' H; discriminate]].
    unfold status_of. destruct (cm_val mh) as [v |] eqn:Hv.
    2: { (* a memo without a value: the closure panics *)
         destruct (cm_final mh); (eexists; split; [reflexivity | intros acc' H; discriminate]). }
    destruct (cm_final mh) eqn:Hf; [eexists; split; [reflexivity | intros acc' H; discriminate] |].
    (* the heads of a provisional memo of a key q reaches are sound for q *)
    apply (collect_heads_reads _ qh s (fun h => relR q (fst h) /\ rel (fst h) (fst h)) (acc_ks q)).
    + intros missing mx dep h Ha _. exact Ha.
    + intros missing mx dep h Ha Hh. apply IH; [apply Hh |].
      intros x Hx. cbn [fst] in Hx. apply in_app_or in Hx as [Hx | [<- | []]]; [apply Ha; exact Hx | exact Hh].
    + unfold heads_of. rewrite Hf. apply (hsound_reach q cur _ Hcur). apply (proj2 (HM cur mh Hmh)). congruence.
    + exact Hacc.
Qed.

Lemma collect_ks n heads0 q hl stk s : KS hl stk s -> hsound q heads0 ->
  awp (collect_all_cycle_heads n heads0 q) (fun r s' => KS hl stk s' /\ hsound q (fst (fst r))) (KS hl stk) s.
Proof.
  intros HK Hh0. pose proof (proj2 (proj2 HK)) as HM.
  destruct (collect_all_reads n heads0 q s (fun h => relR q (fst h) /\ rel (fst h) (fst h)) (fun _ => True) (acc_ks q))
    as (r & Hr & Hres).
  - intros h acc Hh Ha. destruct (collect_rec_ks s q heads0 HM n (fst h) acc (proj1 Hh) Ha) as (r1 & Hr1 & Hres1).
    exists r1. split; [exact Hr1 |]. intros acc' E. split; [exact (Hres1 acc' E) | exact I].
  - exact Hh0.
  - intros x [].
  - unfold awp. rewrite Hr. destruct r as [[[hs mx] dep] | p |]; [| exact HK | exact I].
    destruct (Hres hs mx dep eq_refl) as (missing & Hm & Hins & _). split; [exact HK |]. cbn [fst]. intros x Hx.
    destruct (insert_missing_in missing heads0 hs Hins x Hx) as [A | A]; [apply Hh0; exact A | apply Hm; exact A].
Qed.

Lemma fold_add_esound q : forall es acc, esound q acc -> esound q es ->
  esound q (fold_left (fun es0 e => add_edge es0 e) es acc).
Proof.
  induction es as [| e es IH]; intros acc Ha He; cbn [fold_left]; [exact Ha |].
  apply IH; [| intros d Hd; apply He; right; exact Hd].
  intros d Hd. apply In_add_edge' in Hd. destruct Hd as [Hd | Hd]; [apply Ha; exact Hd | apply He; left; now symmetry].
Qed.

Lemma flatten_fn_ks s q : MS s -> forall n d acc, rel q d -> esound q (fst acc) ->
  esound q (fst (flatten_fn strat n s d acc)).
Proof.
  intros HM. induction n as [| n IH]; intros d acc Hd Ha; cbn [flatten_fn]; [exact Ha |].
  destruct (c_memo s d) as [m |] eqn:Hm; [| exact Ha].
  destruct (cm_final m).
  { cbn [fst]. intros e He. apply In_add_edge' in He. destruct He as [He | He]; [apply Ha; exact He | injection He as ->; exact Hd]. }
  destruct (existsb (key_eqb d) (snd acc)); [exact Ha |].
  assert (Hme : esound q (cm_edges m)).
  { intros e He. apply (rel_trans q d e Hd). apply (proj1 (HM d m Hm)). exact He. }
  destruct (recovers (strat_of strat d)).
  - cbn [fst snd]. apply fold_add_esound; assumption.
  - generalize (fst acc, d :: snd acc) (Ha : esound q (fst (fst acc, d :: snd acc))).
    revert Hme. generalize (cm_edges m). induction l as [| e es IHes]; intros Hes a Haa; cbn [fold_left]; [exact Haa |].
    apply IHes; [intros x Hx; apply Hes; right; exact Hx |].
    destruct e as [i | d'].
    + cbn [fst]. intros x Hx. apply In_add_edge' in Hx. destruct Hx as [Hx | Hx]; [apply Haa; exact Hx | discriminate].
    + apply IH; [apply Hes; left; reflexivity | exact Haa].
Qed.

Lemma flatten_esound s q n es : MS s -> esound q es -> esound q (flatten_edges strat n s es).
Proof.
  intros HM He. unfold flatten_edges.
  assert (H : forall l a, esound q l -> esound q (fst a) ->
            esound q (fst (fold_left (fun a e => match e with
                             | EIn _ => (add_edge (fst a) e, snd a)
                             | EQ d => flatten_fn strat n s d a
                             end) l a))).
  { induction l as [| e l IH]; intros a Hl Ha; cbn [fold_left]; [exact Ha |].
    apply IH; [intros x Hx; apply Hl; right; exact Hx |].
    destruct e as [i | d].
    - cbn [fst]. intros x Hx. apply In_add_edge' in Hx. destruct Hx as [Hx | Hx]; [apply Ha; exact Hx | discriminate].
    - apply (flatten_fn_ks s q HM); [apply Hl; left; reflexivity | exact Ha]. }
  apply H; [exact He | intros d []].
Qed.

Lemma map_hsound f heads me hl stk s : KS hl stk s ->
  (forall p m, msound p m -> msound p (f p m)) ->
  awp (map_heads_memos f heads me) (fun _ s' => KS hl stk s') (KS hl stk) s.
Proof.
  intros (HK & Hc & HM) Hf. unfold map_heads_memos. apply awp_modify.
  split; [apply (K_sim hl stk s); [apply lksim_fields; reflexivity | exact HK] |]. split; [exact Hc |].
  unfold MS. cbn [c_memo cset_memo].
  generalize (heads_not_eq heads me). intros l. revert HM. unfold MS. generalize (c_memo s).
  induction l as [| h l IH]; intros mm Hmm; cbn [fold_left]; [exact Hmm |].
  apply IH. cbv beta. match goal with |- context [match ?x with _ => _ end] => destruct x as [m |] eqn:Em end; [| exact Hmm].
  intros p mp. unfold upd.
  match goal with |- context [if ?c then _ else _] => destruct c eqn:Ek end.
  - intros A. injection A as <-. apply key_eqb_eq in Ek. subst p. apply Hf. apply (Hmm _ m Em).
  - apply Hmm.
Qed.

Lemma poison_ks q hl stk s : KS hl stk s -> KS hl stk (fst (poison q s)).
Proof.
  intros HK. unfold poison. cbn [fst]. apply KS_put; [exact HK |].
  split; [intros d [] | intros Hv; exfalso; apply Hv; reflexivity].
Qed.

Lemma initial_ks q v now it : rel q q -> msound q (initial_memo q v now it).
Proof.
  intros Hc. split; [intros d [] |]. intros _ h Hh. cbn in Hh. destruct Hh as [<- | []]. cbn [fst].
  split; [left; reflexivity | exact Hc].
Qed.

Lemma fetch_cold_cycle_ks q hl stk s : KS hl stk s -> rel q q ->
  awp (fetch_cold_cycle strat cinit q) (fun m s' => KS hl stk s' /\ msound q m) (KS hl stk) s.
Proof.
  intros HK Hc. unfold fetch_cold_cycle. destruct (negb (recovers (strat_of strat q))); [apply awp_fail; exact HK |].
  apply awp_bind, awp_get.
  assert (Hf : forall it, awp (put_memo q (initial_memo q (Some (cinit q)) (ccur s) it) ;;;
                               cret (initial_memo q (Some (cinit q)) (ccur s) it))
                          (fun m s' => KS hl stk s' /\ msound q m) (KS hl stk) s).
  { intros it. eapply awp_seq; [apply (put_ks q _ hl stk s HK (initial_ks q _ _ it Hc)) |].
    intros ? s1 [HK1 _]. apply awp_ret. split; [exact HK1 | apply initial_ks; exact Hc]. }
  destruct (c_memo s q) as [m |] eqn:Em; [| apply Hf].
  destruct (cm_val m) eqn:Ev.
  - destruct ((cm_verified m =? ccur s) && (stamp_ccount (iter_of m) =? c_ccount s)); [| apply Hf].
    destruct (heads_contains (raw_heads m) q); [| apply Hf].
    pose proof (proj2 (proj2 HK) q m Em) as [Hme Hmh].
    match goal with |- awp (cbind (put_memo q ?mm) _) _ _ _ => assert (Hm' : msound q mm) end.
    { destruct (cm_extra m) eqn:Ee; [| split; assumption]. split; [exact Hme |].
      intros _ h Hh. assert (Hv : cm_val m <> None) by congruence. unfold raw_heads in Hh. cbn [cm_extra cm_heads] in Hh.
      apply filter_In in Hh. destruct Hh as [Hh _]. apply (Hmh Hv). unfold raw_heads. rewrite Ee. exact Hh. }
    eapply awp_seq; [apply (put_ks q _ hl stk s HK Hm') |].
    intros ? s1 [HK1 _]. apply awp_ret. split; [exact HK1 | exact Hm'].
  - destruct (negb (cm_final m) && (cm_verified m =? ccur s) && (stamp_ccount (iter_of m) =? c_ccount s));
      [apply awp_fail; exact HK | apply Hf].
Qed.

Lemma fetch_hot_ks q hl stk s : KS hl stk s ->
  awp (cfetch_hot q) (fun hot s' => KS hl stk s' /\ forall m, hot = Some m -> msound q m) (KS hl stk) s.
Proof.
  intros HK. unfold cfetch_hot. apply awp_bind, awp_get.
  assert (Hn : awp (cret (@None cmemo)) (fun hot s' => KS hl stk s' /\ forall m, hot = Some m -> msound q m) (KS hl stk) s).
  { apply awp_ret. split; [exact HK | intros m A; discriminate]. }
  destruct (c_memo s q) as [m |] eqn:Em; [| exact Hn].
  destruct (cm_val m); [| exact Hn].
  pose proof (proj2 (proj2 HK) q m Em) as Hm.
  assert (Hu : forall u, awp (if cm_final m then m' <- cupdate_shallow q m u ;; cret (Some m') else cret None)
                 (fun hot s' => KS hl stk s' /\ forall m0, hot = Some m0 -> msound q m0) (KS hl stk) s).
  { intros u. destruct (cm_final m); [| exact Hn].
    eapply awp_seq; [apply (update_shallow_ks q m u hl stk s HK Hm) |].
    intros m' s1 [HK1 Hm']. apply awp_ret. split; [exact HK1 |]. intros m0 A. injection A as <-. exact Hm'. }
  destruct (cshallow_verify s m); [apply Hu | apply Hu | exact Hn].
Qed.

Lemma outer_cycle_ks heads me hl stk s : KS hl stk s ->
  awp (outer_cycle heads me) (fun o s' => KS hl stk s' /\ forall oc, o = Some oc -> In oc hl /\ oc <> me)
      (KS hl stk) s.
Proof.
  intros HK.
  pose proof (awp_and _ _ _ _ _ s (outer_cycle_ok heads me hl stk s (proj1 HK))
                (ks_quiet _ hl stk s (qsim_outer_cycle heads me) HK)) as H.
  eapply awp_conseq; [exact H | intros o s' [[_ A] B]; split; assumption | intros s' [_ B]; exact B].
Qed.

Lemma try_claim_allow_not_inner q s : snd (try_claim q true s) <> COk (ClCycle true).
Proof.
  unfold try_claim, cbind, cget. destruct (c_sync s q) as [y |]; cbn; [| discriminate].
  destruct (sy_trans y); cbn; [| discriminate].
  destruct (trans_get (c_trans s) q); cbn; [| discriminate].
  destruct (sy_twice y); cbn; discriminate.
Qed.

Lemma try_claim_ks q allow hl stk s : KS hl stk s -> asks hl q ->
  awp (try_claim q allow)
      (fun r s' => match r with
                   | Claimed mode => KS (q :: hl) stk s' /\ ~ In q hl /\ (mode = RDefault \/ mode = RSelfOnly)
                   | ClCycle inner => KS hl stk s' /\ (inner = false -> rel q q) /\ (allow = true -> inner = false)
                   end)
      (fun _ => False) s.
Proof.
  intros (HK & Hc & HM) Hr.
  pose proof (awp_and _ _ _ _ _ s (try_claim_ok q allow hl stk s HK) (awp_pres msim _ s (msim_try_claim q allow))) as H.
  assert (H3 : awp (try_claim q allow) (fun r _ => allow = true -> r <> ClCycle true) (fun _ => True) s).
  { unfold awp. destruct (try_claim q allow s) as [s' [r | p |]] eqn:E; [| exact I | exact I].
    intros -> ->. apply (try_claim_allow_not_inner q s). rewrite E. reflexivity. }
  pose proof (awp_and _ _ _ _ _ s H H3) as H4.
  eapply awp_conseq; [exact H4 | | intros s' [[[] _] _]].
  intros r s' [[A B] Cc]. destruct r as [mode | inner].
  - destruct A as (A1 & A2 & A3). split; [| split; assumption].
    split; [exact A1 |]. split; [apply chain_push; assumption | apply (MS_eq s s' B HM)].
  - destruct A as (A1 & A2). split; [split; [exact A1 |]; split; [exact Hc | apply (MS_eq s s' B HM)] |].
    split; [intros Hi; apply (reentry hl q Hc Hr (A2 Hi)) |].
    intros Ha. destruct inner; [exfalso; apply (Cc Ha); reflexivity | reflexivity].
Qed.

Lemma drop_guard_ks q mode hl stk s : KS (q :: hl) stk s -> ~ In q stk -> mode_ok hl mode ->
  awp (drop_guard q mode) (fun _ s' => KS hl stk s') (fun _ => False) s.
Proof.
  intros (HK & Hc & HM) Hnq Hm.
  pose proof (awp_and _ _ _ _ _ s (drop_guard_ok q mode hl stk s HK Hnq Hm) (awp_pres msim _ s (msim_drop_guard q mode))) as H.
  eapply awp_conseq; [exact H | | intros s' [[] _]].
  intros r s' [A B]. split; [exact A |]. split; [apply (chain_tail q hl Hc) | apply (MS_eq s s' B HM)].
Qed.

Lemma release_panicking_ks q hl stk s : ~ In q stk -> ~ In q hl -> chain hl ->
  KS (q :: hl) stk s \/ KS hl stk s -> KS hl stk (fst (release_panicking q s)).
Proof.
  intros Hnq Hnh Hc HK.
  assert (HM : MS s) by (destruct HK as [HK | HK]; apply HK).
  split; [apply (release_panicking_ok q hl stk s Hnq Hnh); destruct HK as [HK | HK]; [left | right]; apply HK |].
  split; [exact Hc | apply (MS_eq s _ (msim_release_panicking q s) HM)].
Qed.

Definition fsound (q : qkey) (fr : cframe) : Prop :=
  esound q (fr_edges fr) /\ hsound q (fr_heads fr).

Lemma cadd_read_ks q fr d du ch hs fr' : fsound q fr -> rel q d -> hsound d hs ->
  cadd_read fr (EQ d) du ch hs = Some fr' -> fsound q fr'.
Proof.
  intros [He Hh] Hd Hhs. unfold cadd_read. destruct (heads_extend (fr_heads fr) hs) as [hs' |] eqn:Ex; [| discriminate].
  intros A. injection A as <-. split; cbn [fr_edges fr_heads].
  - destruct (negb (du =? D_NEVER) || negb match hs with [] => true | _ => false end); [| exact He].
    intros e Hx. apply In_add_edge' in Hx. destruct Hx as [Hx | Hx]; [apply He; exact Hx | injection Hx as ->; exact Hd].
  - intros h Hx. destruct (heads_extend_in hs _ _ Ex h Hx) as [A | A]; [apply Hh; exact A |].
    apply (hsound_reach q d hs (or_intror Hd) Hhs h A).
Qed.

Lemma cadd_simple_ks q fr i du ch : fsound q fr -> fsound q (cadd_read_simple fr (EIn i) du ch).
Proof.
  intros [He Hh]. split; cbn [cadd_read_simple fr_edges fr_heads]; [| exact Hh].
  destruct (du =? D_NEVER); [exact He |]. intros e Hx. apply In_add_edge' in Hx.
  destruct Hx as [Hx | Hx]; [apply He; exact Hx | discriminate].
Qed.

Definition Lf_ks (L : clower) : Prop :=
  forall d hl stk s, KS hl stk s -> asks hl d ->
    awp (cl_fetch L d) (fun r s' => KS hl stk s' /\ hsound d (snd r)) (KS hl stk) s.
Definition Lm_ks (L : clower) : Prop :=
  forall d since hl stk s, KS hl stk s -> asks hl d ->
    awp (cl_mca L d since) (fun _ s' => KS hl stk s') (KS hl stk) s.

Section Level.
Variable L : clower.
Hypothesis HF : Lf_ks L.
Hypothesis HM : Lm_ks L.
Variable nn : nat.

Lemma asks_top q hl0 d : rel q d -> asks (q :: hl0) d.
Proof. intros H k r A. injection A as <- _. exact H. Qed.

Lemma walk_edges_ks q hl0 stk since : forall es s, KS (q :: hl0) stk s -> esound q es ->
  awp (cwalk_edges L es since) (fun _ s' => KS (q :: hl0) stk s') (KS (q :: hl0) stk) s.
Proof.
  induction es as [| [i | d] es IH]; intros s HK He; cbn [cwalk_edges].
  - apply awp_ret. exact HK.
  - apply awp_bind, awp_get. destruct (changed_after _ since); [apply awp_ret; exact HK |].
    apply IH; [exact HK | intros x Hx; apply He; right; exact Hx].
  - eapply awp_seq; [apply (HM d since _ stk s HK); apply asks_top; apply He; left; reflexivity |].
    intros c s' HK'. destruct c; [apply awp_ret; exact HK' |].
    apply IH; [exact HK' | intros x Hx; apply He; right; exact Hx].
Qed.

Lemma deep_verify_ks q m hl0 stk s : KS (q :: hl0) stk s -> msound q m ->
  awp (cdeep_verify strat L q m) (fun r s' => KS (q :: hl0) stk s' /\ msound q (snd r)) (KS (q :: hl0) stk) s.
Proof.
  intros HK Hm. unfold cdeep_verify.
  destruct (cm_untracked m); [apply awp_ret; split; assumption |].
  destruct (negb (cm_final m)); [apply awp_ret; split; assumption |].
  destruct (negb (recovers (strat_of strat q)) && negb match raw_heads m with [] => true | _ => false end);
    [apply awp_ret; split; assumption |].
  eapply awp_seq; [apply (walk_edges_ks q hl0 stk _ _ s HK (proj1 Hm)) |].
  intros c s' HK'. destruct c; [apply awp_ret; split; assumption |].
  eapply awp_seq; [apply (mark_verified_ks q m _ stk s' HK' Hm) |].
  intros m' s'' [HK'' Hm']. apply awp_ret. split; assumption.
Qed.

Lemma verify_memo_ks q m hl0 stk s : KS (q :: hl0) stk s -> msound q m ->
  awp (cverify_memo strat L q m) (fun r s' => KS (q :: hl0) stk s' /\ msound q (snd r)) (KS (q :: hl0) stk) s.
Proof.
  intros HK Hm. unfold cverify_memo. apply awp_bind, awp_get.
  assert (Hsh : awp (r <- validate_may_be_provisional q m ;;
                     if fst r then m' <- cupdate_shallow q (snd r) (cshallow_verify s m) ;; cret (true, m')
                     else cdeep_verify strat L q (snd r))
                    (fun r s' => KS (q :: hl0) stk s' /\ msound q (snd r)) (KS (q :: hl0) stk) s).
  { eapply awp_seq; [apply (vmbp_ks q m _ stk s HK Hm) |].
    intros r s' [HK' Hr]. destruct (fst r); [| apply deep_verify_ks; assumption].
    eapply awp_seq; [apply (update_shallow_ks q (snd r) _ _ stk s' HK' Hr) |].
    intros m' s'' [HK'' Hm']. apply awp_ret. split; assumption. }
  destruct (cshallow_verify s m) eqn:Esh; [exact Hsh | exact Hsh | apply deep_verify_ks; assumption].
Qed.

Lemma run_body_ks q hl0 stk : forall b fr s, KS (q :: hl0) stk s ->
  (forall d, calls b d -> rel q d) -> fsound q fr ->
  awp (crun_body L b fr) (fun r s' => KS (q :: hl0) stk s' /\ fsound q (snd r)) (KS (q :: hl0) stk) s.
Proof.
  induction b as [v | i k IH | d k IH | c k IH | k IH | c k IH]; intros fr s HK Hc Hfr; cbn [crun_body].
  - apply awp_ret. split; assumption.
  - apply awp_bind, awp_get. apply IH; [exact HK | intros d Hd; apply Hc; econstructor; exact Hd | apply cadd_simple_ks; exact Hfr].
  - assert (Hd : rel q d) by (apply Hc; constructor).
    eapply awp_seq; [apply (HF d _ stk s HK (asks_top q hl0 d Hd)) |].
    intros [[[v du] ch] hs] s' [HK' Hhs]. cbn [snd] in Hhs.
    destruct (cadd_read fr (EQ d) du ch hs) as [fr' |] eqn:Ea; [| apply awp_fail; exact HK'].
    apply IH; [exact HK' | intros d' Hd'; apply Hc; econstructor; exact Hd' | apply (cadd_read_ks q fr d du ch hs fr' Hfr Hd Hhs Ea)].
  - apply awp_bind, awp_get. apply IH; [exact HK | intros d Hd; apply Hc; econstructor; exact Hd | exact Hfr].
  - apply awp_bind, awp_get. apply IH; [exact HK | intros d Hd; apply Hc; constructor; exact Hd | exact Hfr].
  - apply awp_bind, awp_get. destruct (c_pcell s c =? 0); [| apply awp_fail; exact HK].
    apply IH; [exact HK | intros d Hd; apply Hc; constructor; exact Hd | exact Hfr].
Qed.

Lemma KS_push q hl stk s : KS hl stk s -> In q hl -> KS hl (q :: stk) (cset_qstack s (q :: c_qstack s)).
Proof. intros (HK & Hc & HMm) Hq. split; [apply push_ok; assumption |]. split; [exact Hc | exact HMm]. Qed.
Lemma KS_pop q hl stk s : KS hl (q :: stk) s -> KS hl stk (cset_qstack s (tl (c_qstack s))).
Proof. intros (HK & Hc & HMm). split; [apply (pop_ok q hl stk s HK) |]. split; [exact Hc | exact HMm]. Qed.

Lemma run_query_ks q seed hl0 stk s : KS (q :: hl0) stk s ->
  awp (run_query prog L q seed) (fun r s' => KS (q :: hl0) (q :: stk) s' /\ fsound q (snd r)) (KS (q :: hl0) stk) s.
Proof.
  intros HK. unfold run_query. apply awp_bind, awp_get.
  apply awp_bind. unfold push_query. apply awp_modify.
  apply awp_bind. apply awp_modify.
  apply awp_on_panic.
  assert (HK1 : KS (q :: hl0) (q :: stk) (cset_runs (cset_qstack s (q :: c_qstack s)) (q :: c_runs (cset_qstack s (q :: c_qstack s))))).
  { apply (KS_sim _ _ (cset_qstack s (q :: c_qstack s))); [apply lksim_fields; reflexivity | reflexivity |].
    apply KS_push; [exact HK | left; reflexivity]. }
  eapply awp_conseq; [apply (run_body_ks q hl0 (q :: stk) _ _ _ HK1) | intros a s' B; exact B |].
  - intros d Hd. apply rel_calls. exact Hd.
  - split; [| intros h Hh]; destruct seed as [m |]; try (destruct (negb (cm_final m) && (cm_verified m =? ccur s)));
      cbn in *; try (intros d []); try destruct Hh.
  - intros s' B. unfold pop_query, cmodify. cbn [fst]. apply (KS_pop q _ stk s' B).
Qed.

Lemma complete_ks q fr it hl stk s : KS hl (q :: stk) s -> esound q (fr_edges fr) ->
  awp (complete_cycle_query strat nn fr it)
      (fun rv s' => KS hl stk s' /\ esound q (cm_edges rv) /\ raw_heads rv = []) (KS hl stk) s.
Proof.
  intros HK He. unfold complete_cycle_query. apply awp_bind, awp_get.
  apply awp_bind. unfold pop_query. apply awp_modify, awp_ret.
  split; [apply (KS_pop q hl stk s HK) |]. split.
  - cbn [complete_frame cm_edges]. apply flatten_esound; [apply HK | exact He].
  - unfold raw_heads, complete_frame. cbn. reflexivity.
Qed.

Definition out_ks (q : qkey) (hl0 stk : list qkey) (r : round_out) (s' : cdb) : Prop :=
  KS (q :: hl0) stk s' /\
  match r with
  | RDone _ rv mode => mode_ok hl0 mode /\ rsound q rv
  | RIterate _ _ rv heads => rsound q rv /\ hsound q heads
  end.

Lemma rsound_heads q rv heads it b : esound q (cm_edges rv) -> hsound q heads ->
  rsound q (with_final (with_heads rv heads it) b).
Proof. intros He Hh. split; [exact He |]. unfold raw_heads. cbn. exact Hh. Qed.

Lemma round_ks q ls hl0 stk s : KS (q :: hl0) stk s ->
  awp (round prog strat cinit nn L q ls) (out_ks q hl0 stk) (KS (q :: hl0) stk) s.
Proof.
  intros HK. unfold round. set (hl := q :: hl0) in *.
  eapply awp_seq; [apply (run_query_ks q _ hl0 stk s HK) |].
  intros [v fr] s1 [HK1 [Hfe Hfh]]. cbn [snd] in Hfe, Hfh.
  destruct (fr_heads fr) as [| h0 hs0] eqn:Efh.
  - destruct (if stamp_is_initial (ls_iter ls) then Some stamp_default else stamp_increment (ls_iter ls)) as [it' |].
    + apply awp_bind. unfold pop_query. apply awp_modify, awp_ret. split; [apply (KS_pop q hl stk s1 HK1) |].
      split; [exact I |]. split; [exact Hfe |]. unfold raw_heads, complete_frame. cbn.
      destruct (negb (stamp_is_default it')); cbn; intros h [].
    + apply awp_on_panic. apply awp_fail. unfold pop_query, cmodify. cbn [fst]. apply (KS_pop q hl stk s1 HK1).
  - apply awp_bind. apply awp_on_panic.
    eapply awp_conseq with
      (Q := fun d s' => KS hl (q :: stk) s' /\
              match d with
              | inl (heads, oc, _) => In oc hl0 /\ hsound q heads
              | inr (heads, _, outer, _, _) => (forall oc, outer = Some oc -> In oc hl0) /\ hsound q heads
              end)
      (X := KS hl (q :: stk)).
    + eapply awp_seq; [apply (collect_ks nn (h0 :: hs0) q hl (q :: stk) s1 HK1 Hfh) |].
      intros [[heads hm] dep] s2 [HK2 Hhd]. cbn [fst] in Hhd.
      eapply awp_seq; [apply (outer_cycle_ks heads q hl (q :: stk) s2 HK2) |].
      intros outer s3 [HK3 Hout].
      assert (Hout' : forall oc, outer = Some oc -> In oc hl0).
      { intros oc A. destruct (Hout oc A) as [[B | B] C]; [congruence | exact B]. }
      destruct (negb dep).
      * destruct outer as [oc |]; [| apply awp_fail; exact HK3].
        destruct (stamp_increment (ls_iter ls)); [| apply awp_fail; exact HK3].
        apply awp_ret. split; [exact HK3 |]. split; [apply Hout'; reflexivity | exact Hhd].
      * apply awp_bind, awp_get.
        destruct (match ls_last ls with Some m => Some m | None => c_memo s3 q end) as [last |]; [| apply awp_fail; exact HK3].
        destruct (cm_val last); [| apply awp_fail; exact HK3].
        apply awp_ret. split; [exact HK3 |]. split; [exact Hout' | exact Hhd].
    + intros d s2 [HK2 Hd]. destruct d as [[[heads oc] it'] | [[[[heads hm] outer] last] lv]].
      * destruct Hd as [Hoc Hhd].
        eapply awp_seq; [apply (complete_ks q fr it' hl stk s2 HK2 Hfe) |].
        intros rev0 s3 (HK3 & He3 & _). apply awp_ret. split; [exact HK3 |]. split; [exact Hoc |].
        apply rsound_heads; assumption.
      * destruct Hd as [Hoc Hhd].
        destruct (match strat_of strat q with SFallback => (cinit q, true)
                  | _ => (recover strat q lv v, recover strat q lv v =? lv) end) as [v' vc].
        eapply awp_seq; [apply (complete_ks q fr (ls_iter ls) hl stk s2 HK2 Hfe) |].
        intros rev0 s3 (HK3 & He3 & Hh3).
        assert (Hrv0 : rsound q rev0) by (split; [exact He3 | rewrite Hh3; intros h []]).
        destruct outer as [oc |].
        -- apply awp_ret. split; [exact HK3 |]. split; [apply Hoc; reflexivity |].
           split; [exact He3 |]. unfold raw_heads. cbn. exact Hhd.
        -- apply awp_bind, awp_get.
           destruct (_ && others_converged s3 heads q).
           ++ eapply awp_seq; [apply (map_hsound _ heads q hl stk s3 HK3) |].
              { intros p m Hm. apply msound_with_final. exact Hm. }
              intros ? s4 HK4. eapply awp_seq; [apply (ks_quiet _ hl stk s4 (qsim_emit _) HK4) |].
              intros ? s5 HK5. apply awp_ret. split; [exact HK5 |]. split; [exact I | exact Hrv0].
           ++ apply awp_ret. split; [exact HK3 |]. split; [exact Hrv0 | exact Hhd].
    + intros s' B. unfold pop_query, cmodify. cbn [fst]. apply (KS_pop q hl stk s' B).
Qed.

Definition res_ks (q : qkey) (hl0 stk : list qkey) (r : val * cmemo * rmode) (s' : cdb) : Prop :=
  KS (q :: hl0) stk s' /\ mode_ok hl0 (snd r) /\ rsound q (snd (fst r)).

Lemma iter_loop_ks q hl0 stk : forall k ls s, KS (q :: hl0) stk s ->
  awp (iter_loop prog strat cinit k nn L q ls) (res_ks q hl0 stk) (KS (q :: hl0) stk) s.
Proof.
  induction k as [| k IH]; intros ls s HK; cbn [iter_loop]; [apply awp_nofuel |].
  eapply awp_seq; [apply (round_ks q ls hl0 stk s HK) |].
  intros r s1 [HK1 Hr]. destruct r as [v rv mode | hm v rv heads].
  - apply awp_ret. split; [exact HK1 | exact Hr].
  - destruct Hr as [Hrv Hhd].
    destruct (stamp_increment (N.max (ls_iter ls) hm)) as [it' |]; [| apply awp_fail; exact HK1].
    eapply awp_seq; [apply (ks_quiet _ _ stk s1 (qsim_emit _) HK1) |].
    intros ? s2 HK2. eapply awp_seq; [apply (map_hsound _ heads q _ stk s2 HK2) |].
    { intros p m Hm. apply msound_with_iteration_count. exact Hm. }
    intros ? s3 HK3. apply awp_bind, awp_get. eapply awp_seq; [apply (put_ks q _ _ stk s3 HK3) |].
    { split; [exact (proj1 Hrv) |]. intros _. unfold raw_heads. cbn. apply hsound_update. exact Hhd. }
    intros ? s4 [HK4 _]. apply IH. exact HK4.
Qed.

Lemma execute_iterate_ks q old hl0 stk s : KS (q :: hl0) stk s ->
  awp (execute_iterate prog strat cinit nn L q old) (res_ks q hl0 stk) (KS (q :: hl0) stk) s.
Proof.
  intros HK. destruct (execute_iterate_start prog strat cinit nn L q old s) as [(ls & E & _) | E].
  - apply (awp_eq _ _ _ _ s E). apply awp_on_panic.
    eapply awp_conseq; [apply (iter_loop_ks q hl0 stk LOOP_FUEL ls s HK) | intros a s' B; exact B |].
    intros s' B. apply poison_ks. exact B.
  - unfold awp. rewrite E. exact HK.
Qed.

Lemma execute_panic_ks q old hl0 stk s : KS (q :: hl0) stk s ->
  awp (execute_panic prog L q old) (fun r s' => KS (q :: hl0) stk s' /\ rsound q (snd (fst r))) (KS (q :: hl0) stk) s.
Proof.
  intros HK. unfold execute_panic. eapply awp_seq; [apply (run_query_ks q old hl0 stk s HK) |].
  intros [v fr] s1 [HK1 [Hfe Hfh]]. cbn [snd] in Hfe, Hfh.
  apply awp_bind. unfold pop_query. apply awp_modify, awp_ret.
  split; [apply (KS_pop q _ stk s1 HK1) |]. cbn [fst snd].
  destruct (fr_heads fr) as [| h hs] eqn:Eh.
  - split; [exact Hfe |]. unfold raw_heads, complete_frame. cbn. intros x [].
  - split; [exact Hfe |]. unfold raw_heads. cbn. exact Hfh.
Qed.

Lemma cbackdate_ks q old v rv rv1 : rsound q rv -> cbackdate old v rv = COk rv1 -> rsound q rv1.
Proof.
  intros H. unfold cbackdate. destruct old as [o |]; [| intros A; injection A as <-; exact H].
  destruct (_ && _); [| intros A; injection A as <-; exact H].
  destruct (changed_after (cm_changed o) (cm_changed rv)); [discriminate |]. intros A. injection A as <-. exact H.
Qed.

Lemma discard_ks q rv : rsound q rv -> rsound q (cdiscard_edges rv).
Proof.
  intros [A B]. unfold cdiscard_edges. destruct (_ && _); [| split; assumption].
  split; [intros d [] | exact B].
Qed.

Lemma cexecute_ks q mode0 old hl0 stk s : KS (q :: hl0) stk s -> ~ In q stk -> mode_ok hl0 mode0 ->
  awp (cexecute prog strat cinit nn L q mode0 old) (fun m s' => KS hl0 stk s' /\ msound q m) (KS (q :: hl0) stk) s.
Proof.
  intros HK Hnq Hm0. unfold cexecute.
  eapply awp_seq; [apply (ks_quiet _ _ stk s (qsim_emit _) HK) |].
  intros ? s1 HK1. apply awp_bind.
  eapply awp_conseq with (Q := res_ks q hl0 stk) (X := KS (q :: hl0) stk).
  - destruct (recovers (strat_of strat q)).
    + apply (execute_iterate_ks q old hl0 stk s1 HK1).
    + eapply awp_seq; [apply (execute_panic_ks q old hl0 stk s1 HK1) |].
      intros [[v rv] md] s2 [HK2 Hrv]. apply awp_ret. split; [exact HK2 |]. split; [exact Hm0 | exact Hrv].
  - intros [[v rv] mode] s2 (HK2 & Hm & Hrv). cbn [fst snd] in Hm, Hrv.
    destruct (cbackdate old v rv) as [rv1 | p |] eqn:Eb; [| apply awp_fail; exact HK2 | apply awp_nofuel].
    pose proof (discard_ks q rv1 (cbackdate_ks q old v rv rv1 Hrv Eb)) as Hd.
    apply awp_bind, awp_get. eapply awp_seq; [apply (put_ks q _ _ stk s2 HK2) |].
    { split; [exact (proj1 Hd) | intros _; exact (proj2 Hd)]. }
    intros ? s3 [HK3 _]. apply awp_bind.
    eapply awp_conseq; [apply (drop_guard_ks q mode hl0 stk s3 HK3 Hnq Hm) | | intros s' []].
    intros ? s4 HK4. apply awp_ret. split; [exact HK4 |].
    split; [exact (proj1 Hd) | intros _; exact (proj2 Hd)].
  - intros s' B. exact B.
Qed.

Lemma cfetch_cold_ks q hl stk s : KS hl stk s -> asks hl q ->
  awp (cfetch_cold prog strat cinit nn L q) (fun m s' => KS hl stk s' /\ msound q m) (KS hl stk) s.
Proof.
  intros HK Hr. unfold cfetch_cold. apply awp_bind.
  eapply awp_conseq; [apply (try_claim_ks q true hl stk s HK Hr) | | intros s' []].
  intros c s1 Hc. destruct c as [mode | inner].
  - destruct Hc as (HK1 & Hnq & Hmode).
    assert (Hns : ~ In q stk).
    { intros Hin. apply Hnq. apply (lk_stack _ _ (proj1 (proj1 HK))). rewrite (proj2 (proj1 HK)). exact Hin. }
    assert (Hmo : mode_ok hl mode) by (destruct Hmode as [-> | ->]; exact I).
    apply awp_on_panic.
    eapply awp_conseq with (Q := fun m s' => KS hl stk s' /\ msound q m) (X := fun s' => KS (q :: hl) stk s' \/ KS hl stk s').
    + apply awp_bind, awp_get. apply awp_bind.
      eapply awp_conseq with (Q := fun ok s' => KS (q :: hl) stk s' /\ forall m, ok = Some m -> msound q m)
                             (X := fun s' => KS (q :: hl) stk s' \/ KS hl stk s').
      * destruct (c_memo s1 q) as [m |] eqn:Em; [| apply awp_ret; split; [exact HK1 | intros m A; discriminate]].
        destruct (cm_val m); [| apply awp_ret; split; [exact HK1 | intros m0 A; discriminate]].
        apply awp_bind. eapply awp_conseq; [apply (verify_memo_ks q m hl stk s1 HK1 (proj2 (proj2 HK1) q m Em)) | | intros s' B; left; exact B].
        intros r s2 [HK2 Hr2]. apply awp_ret. split; [exact HK2 |].
        intros m0 A. destruct (fst r); [injection A as <-; exact Hr2 | discriminate].
      * intros ok s2 [HK2 Hok]. destruct ok as [m |].
        -- apply awp_bind. eapply awp_conseq; [apply (drop_guard_ks q mode hl stk s2 HK2 Hns Hmo) | | intros s' []].
           intros ? s3 HK3. apply awp_ret. split; [exact HK3 | apply Hok; reflexivity].
        -- eapply awp_conseq; [apply (cexecute_ks q mode _ hl stk s2 HK2 Hns Hmo) | intros a s' B; exact B | intros s' B; left; exact B].
      * intros s' B. exact B.
    + intros a s' B. exact B.
    + intros s' B. apply (release_panicking_ks q hl stk s' Hns Hnq (proj1 (proj2 HK)) B).
  - destruct Hc as (HK1 & Hcy & Hin).
    apply (fetch_cold_cycle_ks q hl stk s1 HK1 (Hcy (Hin eq_refl))).
Qed.

Lemma cfetch_ks q hl stk s : KS hl stk s -> asks hl q ->
  awp (cfetch prog strat cinit nn L q) (fun r s' => KS hl stk s' /\ hsound q (snd r)) (KS hl stk) s.
Proof.
  intros HK Hr. unfold cfetch. eapply awp_seq; [apply (fetch_hot_ks q hl stk s HK) |].
  intros hot s1 [HK1 Hhot]. apply awp_bind.
  eapply awp_conseq with (Q := fun m s' => KS hl stk s' /\ msound q m) (X := KS hl stk).
  - destruct hot as [m |]; [apply awp_ret; split; [exact HK1 | apply Hhot; reflexivity] |].
    apply (cfetch_cold_ks q hl stk s1 HK1 Hr).
  - intros m s2 [HK2 Hm]. destruct (cm_val m) eqn:Ev; [| apply awp_fail; exact HK2].
    apply awp_ret. split; [exact HK2 |]. cbn [snd]. unfold heads_of.
    destruct (cm_final m); [intros h [] | apply (proj2 Hm); congruence].
  - intros s' B. exact B.
Qed.

Lemma cmca_cold_ks q since hl stk s : KS hl stk s -> asks hl q ->
  awp (cmca_cold prog strat cinit nn L q since) (fun _ s' => KS hl stk s') (KS hl stk) s.
Proof.
  intros HK Hr. unfold cmca_cold. apply awp_bind.
  eapply awp_conseq; [apply (try_claim_ks q false hl stk s HK Hr) | | intros s' []].
  intros c s1 Hc. destruct c as [mode | inner].
  - destruct Hc as (HK1 & Hnq & Hmode).
    assert (Hns : ~ In q stk).
    { intros Hin. apply Hnq. apply (lk_stack _ _ (proj1 (proj1 HK))). rewrite (proj2 (proj1 HK)). exact Hin. }
    assert (Hmo : mode_ok hl mode) by (destruct Hmode as [-> | ->]; exact I).
    assert (Hdrop : forall (b : bool) s2, KS (q :: hl) stk s2 ->
              awp (drop_guard q mode ;;; cret b) (fun _ s' => KS hl stk s') (fun s' => KS (q :: hl) stk s' \/ KS hl stk s') s2).
    { intros b s2 HK2. apply awp_bind.
      eapply awp_conseq; [apply (drop_guard_ks q mode hl stk s2 HK2 Hns Hmo) | | intros s' []].
      intros ? s3 HK3. apply awp_ret. exact HK3. }
    apply awp_on_panic.
    eapply awp_conseq with (Q := fun _ s' => KS hl stk s') (X := fun s' => KS (q :: hl) stk s' \/ KS hl stk s').
    + apply awp_bind, awp_get.
      destruct (c_memo s1 q) as [old |] eqn:Em; [| apply Hdrop; exact HK1].
      apply awp_bind. eapply awp_conseq; [apply (verify_memo_ks q old hl stk s1 HK1 (proj2 (proj2 HK1) q old Em)) | | intros s' B; left; exact B].
      intros r s2 [HK2 _]. destruct (fst r); [apply Hdrop; exact HK2 |].
      destruct (negb (cm_final (snd r))); [apply Hdrop; exact HK2 |].
      destruct (cm_val old); [| apply Hdrop; exact HK2].
      apply awp_bind.
      eapply awp_conseq; [apply (cexecute_ks q mode _ hl stk s2 HK2 Hns Hmo) | | intros s' B; left; exact B].
      intros mnew s3 [HK3 _]. apply awp_ret. exact HK3.
    + intros a s' B. exact B.
    + intros s' B. apply (release_panicking_ks q hl stk s' Hns Hnq (proj1 (proj2 HK)) B).
  - destruct Hc as (HK1 & _). destruct (recovers (strat_of strat q)); [apply awp_ret; exact HK1 | apply awp_fail; exact HK1].
Qed.

Lemma cmca_ks q since hl stk s : KS hl stk s -> asks hl q ->
  awp (cmca prog strat cinit nn L q since) (fun _ s' => KS hl stk s') (KS hl stk) s.
Proof.
  intros HK Hr. unfold cmca. apply awp_bind, awp_get.
  destruct (c_memo s q) as [m |] eqn:Em; [| apply awp_ret; exact HK].
  assert (Hhot : forall u, awp (if cm_final m then m' <- cupdate_shallow q m u ;; cret (changed_after (cm_changed m') since)
                                else cmca_cold prog strat cinit nn L q since) (fun _ s' => KS hl stk s') (KS hl stk) s).
  { intros u. destruct (cm_final m); [| apply cmca_cold_ks; assumption].
    eapply awp_seq; [apply (update_shallow_ks q m u hl stk s HK (proj2 (proj2 HK) q m Em)) |].
    intros m' s' [HK' _]. apply awp_ret. exact HK'. }
  destruct (cshallow_verify s m); [apply Hhot | apply Hhot | apply cmca_cold_ks; assumption].
Qed.

End Level.

Theorem clevel_ks nodes : forall n, Lf_ks (clevel prog strat cinit nodes n) /\ Lm_ks (clevel prog strat cinit nodes n).
Proof.
  induction n as [| n [IHF IHM]].
  - split; [intros q hl stk s _ _ | intros q since hl stk s _ _]; exact I.
  - split.
    + intros q hl stk s HK Hr. cbn [clevel cl_fetch]. apply (cfetch_ks _ IHF IHM nodes q hl stk s HK Hr).
    + intros q since hl stk s HK Hr. cbn [clevel cl_mca]. apply (cmca_ks _ IHF IHM nodes q since hl stk s HK Hr).
Qed.

End Rel.

Section Fetch.
Variable prog : qkey -> body.
Variable strat : N -> strategy.
Variable cinit : qkey -> val.

Definition full (_ _ : qkey) : Prop := True.

Lemma K_KS hl stk s : K hl stk s -> KS full hl stk s.
Proof.
  intros HK. split; [exact HK |]. split.
  - clear HK. induction hl as [| a hl IH]; [exact I |]. destruct hl as [| b r]; [exact I | split; [exact I | exact IH]].
  - intros p m _. split; [intros d _; exact I |]. intros _ h _. split; [right |]; exact I.
Qed.

Definition Lf_ok : clower -> Prop := Lf_ks full.
Definition Lm_ok : clower -> Prop := Lm_ks full.

Lemma full_asks hl d : asks full hl d.
Proof. intros k r _. exact I. Qed.

Section LevelFull.
Variable L : clower.
Hypothesis HF : Lf_ok L.
Hypothesis HM : Lm_ok L.
Variable nn : nat.

Lemma cfetch_lk q hl stk s : K hl stk s ->
  awp (cfetch prog strat cinit nn L q) (fun _ s' => K hl stk s') (K hl stk) s.
Proof.
  intros HK.
  eapply awp_conseq; [apply (cfetch_ks prog strat cinit full (fun _ _ _ _ _ => I) (fun _ _ _ => I) L HF HM nn q hl stk s
           (K_KS hl stk s HK) (full_asks hl q))
    | intros r s' H; exact (proj1 (proj1 H)) | intros s' H; exact (proj1 H)].
Qed.

End LevelFull.

Theorem clevel_lk nodes : forall n, Lf_ok (clevel prog strat cinit nodes n) /\ Lm_ok (clevel prog strat cinit nodes n).
Proof. exact (clevel_ks prog strat cinit full (fun _ _ _ _ _ => I) (fun _ _ _ => I) nodes). Qed.

End Fetch.

Section Reachable.
Variable prog : qkey -> body.
Variable strat : N -> strategy.
Variable cinit : qkey -> val.
Variable rel : qkey -> qkey -> Prop.
Hypothesis rel_trans : forall a b c, rel a b -> rel b c -> rel a c.
Hypothesis rel_calls : forall p d, calls (prog p) d -> rel p d.

Definition sidle (s : cdb) : Prop := KS rel [] [] s.

Lemma sidle_fields s s' : c_sync s' = c_sync s -> c_qstack s' = c_qstack s -> c_memo s' = c_memo s ->
  sidle s -> sidle s'.
Proof. intros A B C. apply KS_sim; [apply lksim_fields; assumption | exact C]. Qed.

Lemma sidle_new_revision s : sidle s -> sidle (cnew_revision s).
Proof. apply sidle_fields; reflexivity. Qed.
Lemma sidle_zalsa_mut s : sidle s -> sidle (czalsa_mut s).
Proof. unfold czalsa_mut. destruct (c_ccount s =? 255); [apply sidle_new_revision | apply sidle_fields; reflexivity]. Qed.

Lemma sidle_step nodes fuel s o : sidle s ->
  snd (cstep prog strat cinit nodes fuel s o) <> CFuel -> sidle (fst (cstep prog strat cinit nodes fuel s o)).
Proof.
  intros Hi. destruct o as [i v d | d | c v | c v | q |]; cbn [cstep].
  - pose proof (sidle_new_revision _ (sidle_zalsa_mut s Hi)) as H1.
    destruct (f_dur (c_in (cnew_revision (czalsa_mut s)) i) =? D_NEVER); cbn [fst]; intros _; [exact H1 |].
    eapply sidle_fields; [| | | exact H1]; reflexivity.
  - pose proof (sidle_new_revision _ (sidle_zalsa_mut s Hi)) as H1.
    destruct (d =? D_NEVER); cbn [fst]; intros _; [exact H1 |]. eapply sidle_fields; [| | | exact H1]; reflexivity.
  - intros _. cbn [fst]. eapply sidle_fields; [| | | exact Hi]; reflexivity.
  - intros _. cbn [fst]. eapply sidle_fields; [| | | exact Hi]; reflexivity.
  - destruct (clevel_ks prog strat cinit rel rel_trans rel_calls nodes fuel) as [HF HM].
    assert (Hr : asks rel [] q) by (intros k r A; discriminate).
    pose proof (cfetch_ks prog strat cinit rel rel_trans rel_calls _ HF HM nodes q [] [] s Hi Hr) as H. unfold awp in H.
    destruct (cfetch prog strat cinit nodes (clevel prog strat cinit nodes fuel) q s) as [s' [[[[v du] ch] hs] | p |]];
      cbn [fst snd]; intros Hne; [exact (proj1 H) | exact H | congruence].
  - intros _. cbn [fst]. apply sidle_zalsa_mut. exact Hi.
Qed.

Theorem sidle_reachable nodes fuel : forall ops s, sidle s ->
  Forall (fun r => r <> CFuel) (snd (crun_ops prog strat cinit nodes fuel s ops)) ->
  sidle (fst (crun_ops prog strat cinit nodes fuel s ops)).
Proof.
  induction ops as [| o ops IH]; intros s Hi Hall; [exact Hi |].
  cbn [crun_ops] in *. pose proof (sidle_step nodes fuel s o Hi) as Hs.
  destruct (cstep prog strat cinit nodes fuel s o) as [s1 r]. cbn [fst snd] in Hs.
  specialize (IH s1).
  destruct (crun_ops prog strat cinit nodes fuel s1 ops) as [s2 rs]. cbn [fst snd] in *.
  inversion Hall as [| ? ? Hr Hrs]; subst. apply IH; [apply Hs; exact Hr | exact Hrs].
Qed.

End Reachable.

Section Top.
Variable prog : qkey -> body.
Variable strat : N -> strategy.
Variable cinit : qkey -> val.

Definition idle (s : cdb) : Prop := K [] [] s.

(* what [idle] says in plain terms *)
Lemma idle_plain s : idle s <->
  c_qstack s = [] /\ forall q y, c_sync s q = Some y -> sy_trans y = true /\ sy_twice y = false.
Proof.
  split.
  - intros [[a b c d] Hq]. split; [exact Hq |]. intros q y Hy.
    assert (Ht : sy_trans y = true).
    { destruct (sy_trans y) eqn:Et; [reflexivity |]. exfalso. apply (proj2 (b q)). exists y. split; assumption. }
    split; [exact Ht |]. destruct (sy_twice y) eqn:Etw; [| reflexivity]. pose proof (c q y Hy Etw). congruence.
  - intros [Hq Hall]. split; [| exact Hq]. constructor.
    + constructor.
    + intros q. split; [intros [] |]. intros (y & Hy & Ht). destruct (Hall q y Hy). congruence.
    + intros q y Hy Htw. destruct (Hall q y Hy). congruence.
    + rewrite Hq. intros x [].
Qed.

Lemma idle_init iv idur : idle (cinit_db iv idur).
Proof. apply idle_plain. split; [reflexivity |]. intros q y Hy. discriminate. Qed.

Theorem idle_reachable nodes fuel ops s : idle s ->
  Forall (fun r => r <> CFuel) (snd (crun_ops prog strat cinit nodes fuel s ops)) ->
  idle (fst (crun_ops prog strat cinit nodes fuel s ops)).
Proof.
  intros Hi Hall.
  exact (proj1 (sidle_reachable prog strat cinit full (fun _ _ _ _ _ => I) (fun _ _ _ => I) nodes fuel ops s (K_KS [] [] s Hi) Hall)).
Qed.

End Top.

(* ---------------------------------------------------------------- the sync table's assertions *)
Lemma try_claim_never_panics q allow hl s : LK hl s -> forall p, snd (try_claim q allow s) <> CPanic p.
Proof.
  intros HL p Hp. pose proof (try_claim_ok q allow hl (c_qstack s) s (conj HL eq_refl)) as H.
  unfold awp in H. destruct (try_claim q allow s) as [s' [r | p' |]]; [discriminate | exact H | discriminate].
Qed.

Lemma try_claim_cycle_exact q allow hl s : LK hl s ->
  (snd (try_claim q allow s) = COk (ClCycle false) <-> In q hl).
Proof.
  intros HL. split.
  - intros Hr. pose proof (try_claim_ok q allow hl (c_qstack s) s (conj HL eq_refl)) as H.
    unfold awp in H. destruct (try_claim q allow s) as [s' [r | p' |]]; cbn [snd] in Hr; try discriminate.
    injection Hr as ->. apply H. reflexivity.
  - intros Hq. destruct (proj1 (lk_held _ _ HL q) Hq) as (y & Hy & Ht).
    unfold try_claim, cbind, cget. rewrite Hy, Ht. reflexivity.
Qed.

Lemma drop_guard_never_panics q mode hl s :
  LK (q :: hl) s -> ~ In q (c_qstack s) -> mode_ok hl mode -> forall p, snd (drop_guard q mode s) <> CPanic p.
Proof.
  intros HL Hnq Hm p Hp. pose proof (drop_guard_ok q mode hl (c_qstack s) s (conj HL eq_refl) Hnq Hm) as H.
  unfold awp in H. destruct (drop_guard q mode s) as [s' [r | p' |]]; [discriminate | exact H | discriminate].
Qed.
