(* Cycle/HeadFetch.v — head soundness is an invariant of every run of the Cycle model: all programs,
   strategies and histories.  Every level function keeps the invariant of Cycle/HeadInv.v (the
   traversal of Cycle/LockTop.v, taken at reachability in the static call graph); hence every cycle
   head recorded in a valued memo is a key on a cycle of the static call graph that the memo's key
   can reach, every recorded query edge is a transitive callee, and functions from which no cycle
   can be reached never take part in cycle handling. *)
From Coq Require Import PeanoNat Lia.
From Salsa Require Import Base.
From Salsa.Kern Require Import CoreK.
From Salsa.Core Require Import Spec.
From Salsa.Cycle Require Import StampK Model LockInv LockOps LockTop HeadInv.

Section Fetch.
Variable prog : qkey -> body.
Variable strat : N -> strategy.
Variable cinit : qkey -> val.
Notation rev_hok := (rev_hok prog).

Lemma rev_hok_conv q rv b : rev_hok q rv -> rev_hok q (with_conv rv b).
Proof. intros H. exact H. Qed.

End Fetch.

Section Sound.
Variable prog : qkey -> body.
Variable strat : N -> strategy.
Variable cinit : qkey -> val.

Definition Lf_hok (L : clower) : Prop :=
  forall d hl stk s, KH prog hl stk s -> req prog hl d ->
    awp (cl_fetch L d) (fun r s' => KH prog hl stk s' /\ heads_hok prog d (snd r)) (KH prog hl stk) s.
Definition Lm_hok (L : clower) : Prop :=
  forall d since hl stk s, KH prog hl stk s -> req prog hl d ->
    awp (cl_mca L d since) (fun _ s' => KH prog hl stk s') (KH prog hl stk) s.

Theorem clevel_hk nodes : forall n,
  Lf_hok (clevel prog strat cinit nodes n) /\ Lm_hok (clevel prog strat cinit nodes n).
Proof. exact (clevel_ks prog strat cinit (reach prog) (reach_trans prog) (r_one prog) nodes). Qed.

Definition hidle (s : cdb) : Prop := KH prog [] [] s.

Lemma hidle_init iv idur : hidle (cinit_db iv idur).
Proof. split; [apply idle_init |]. split; [exact I | intros p m Hm; discriminate]. Qed.

Theorem hidle_reachable nodes fuel : forall ops s, hidle s ->
  Forall (fun r => r <> CFuel) (snd (crun_ops prog strat cinit nodes fuel s ops)) ->
  hidle (fst (crun_ops prog strat cinit nodes fuel s ops)).
Proof. exact (sidle_reachable prog strat cinit (reach prog) (reach_trans prog) (r_one prog) nodes fuel). Qed.

(* the invariant in plain terms, at every reachable state *)
Theorem heads_sound nodes fuel iv idur ops :
  let s := fst (crun_ops prog strat cinit nodes fuel (cinit_db iv idur) ops) in
  Forall (fun r => r <> CFuel) (snd (crun_ops prog strat cinit nodes fuel (cinit_db iv idur) ops)) ->
  forall p m, c_memo s p = Some m ->
    (forall d, In (EQ d) (cm_edges m) -> reach prog p d) /\
    (cm_val m <> None -> forall h, In h (raw_heads m) ->
       (p = fst h \/ reach prog p (fst h)) /\ reach prog (fst h) (fst h)).
Proof.
  intros s Hall p m Hm.
  pose proof (hidle_reachable nodes fuel ops _ (hidle_init iv idur) Hall) as (_ & _ & HM).
  exact (HM p m Hm).
Qed.

(* a function from which no cycle of the call graph can be reached never records a cycle head:
   its valued memo never names it a cycle participant or a head *)
Corollary no_cycle_no_heads nodes fuel iv idur ops p :
  (forall h, p = h \/ reach prog p h -> ~ reach prog h h) ->
  let s := fst (crun_ops prog strat cinit nodes fuel (cinit_db iv idur) ops) in
  Forall (fun r => r <> CFuel) (snd (crun_ops prog strat cinit nodes fuel (cinit_db iv idur) ops)) ->
  forall m, c_memo s p = Some m -> cm_val m <> None -> raw_heads m = [] /\ heads_of m = [].
Proof.
  intros Hac s Hall m Hm Hv.
  destruct (heads_sound nodes fuel iv idur ops Hall p m Hm) as [_ Hh].
  assert (Hr : raw_heads m = []).
  { destruct (raw_heads m) as [| h hs] eqn:E; [reflexivity |]. exfalso.
    destruct (Hh Hv h (or_introl eq_refl)) as [A B]. exact (Hac (fst h) A B). }
  split; [exact Hr |]. unfold heads_of. rewrite Hr. destruct (cm_final m); reflexivity.
Qed.

End Sound.
