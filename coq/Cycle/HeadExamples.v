(* Cycle/HeadExamples.v — head soundness on the nested examples: by the theorem every recorded head
   lies on a cycle of the call graph; by computation heads are recorded on the way. *)
From Coq Require Import PeanoNat Lia.
From Salsa Require Import Base.
From Salsa.Kern Require Import CoreK.
From Salsa.Core Require Import Spec.
From Salsa.Cycle Require Import StampK Model Examples FreshExamples FbExamples HeadInv HeadFetch.

Example exc_heads_sound : forall ops,
  Forall (fun r => r <> CFuel) (snd (exc_run ops)) ->
  forall p m, c_memo (fst (exc_run ops)) p = Some m -> cm_val m <> None ->
  forall h, In h (raw_heads m) -> (p = fst h \/ reach exc_prog p (fst h)) /\ reach exc_prog (fst h) (fst h).
Proof.
  intros ops Hall p m Hm Hv.
  exact (proj2 (heads_sound exc_prog ex_strat ex_cinit 3 6 exb_iv (fun _ => 0) ops Hall p m Hm) Hv).
Qed.

(* two fallback cycles through one node, entered at g2: the memos of g0 and g1 (g1 was a nested
   head that became a participant) really record heads; all of them lie on cycles *)
Example exc_heads_recorded :
  let s := fst (exc_run [COGet (3, 2)]) in
  map (fun q => match c_memo s q with Some m => map fst (raw_heads m) | None => [] end) exc_ns
  = [[(3, 1)]; [(3, 1); (3, 2)]; []].
Proof. vm_compute. reflexivity. Qed.

(* nested Fixpoint heads, entered at a2 *)
Example exn_heads_recorded :
  let s := fst (crun_ops exn_prog ex_strat cinit0 3 6 (cinit_db exf_iv (fun _ => 0)) [COGet (1, 2)]) in
  map (fun q => match c_memo s q with Some m => map fst (raw_heads m) | None => [] end) exn_ns
  = [[(1, 1)]; [(1, 1); (1, 2)]; []].
Proof. vm_compute. reflexivity. Qed.
