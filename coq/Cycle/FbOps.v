From Salsa Require Import Base.
From Salsa.Cycle Require Import Model.

Definition memo_eq (s s' : cdb) : Prop := forall x, c_memo s' x = c_memo s x.
