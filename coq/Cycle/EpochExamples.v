(* Cycle/EpochExamples.v — the hypothesis [same_epoch_rounds c] of C15_bounded_partial is too strong
   for c <> 0: a single-head cycle reports hm = stamp_default (cancellation count 0) whatever the
   epoch is. *)
From Salsa Require Import Base.
From Salsa.Kern Require Import CoreK.
From Salsa.Cycle Require Import StampK Model ModelProofs Examples EpochInv EpochTop.

(* after one cancellation-count bump, node (1,0) of the two-node cycle holds its claim *)
Definition exe_state : cdb := fst (try_claim (1, 0) true (czalsa_mut (cinit_db ex12_iv (fun _ => 0)))).
Definition exe_ls : lstate := {| ls_iter := stamp_initial 1; ls_last := None; ls_old := None |}.

Example exe_round :
  exists s' rv,
    round ex12_prog ex_strat ex_cinit 12 (clevel ex12_prog ex_strat ex_cinit 12 12) (1, 0) exe_ls exe_state
    = (s', COk (RIterate 0 7 rv [((1, 0), 256)])).
Proof. vm_compute. eexists. eexists. reflexivity. Qed.

Example exe_state_ok : c_ccount exe_state = 1 /\ loop_inv 1 exe_ls.
Proof. split; [reflexivity |]. split; [split; vm_compute; congruence | reflexivity]. Qed.

Example same_epoch_rounds_too_strong :
  ~ same_epoch_rounds ex12_prog ex_strat ex_cinit 12 (clevel ex12_prog ex_strat ex_cinit 12 12) (1, 0) 1.
Proof.
  intros H. destruct exe_round as (s' & rv & Hr).
  destruct (H exe_ls exe_state s' 0 7 rv _ Hr) as [_ Hc]. vm_compute in Hc. discriminate.
Qed.
