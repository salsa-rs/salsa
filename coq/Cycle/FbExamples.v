(* Cycle/FbExamples.v — non-vacuity of the fresh-revision theorem for fallback cycles
   (Cycle/FbThm.v): a 3-node ring of fallback functions (non-monotone bodies) over a plain leaf,
   under a fallback function that is NOT on a cycle and a plain caller, satisfies every hypothesis;
   runs entered at each member; a program with two cycles through one node (outside the proved
   class) checked by computation. *)
From Coq Require Import PeanoNat.
From Salsa Require Import Base.
From Salsa.Kern Require Import CoreK.
From Salsa.Core Require Spec.
From Salsa.Cycle Require Import StampK Model Spec Cert SpecProofs FallbackProofs Examples FbInv FbThm.

(* ring (family 3, cycle_result = 0xA5):  f0 = in(0,0) | (f1 & leaf) ;  f1 = f2 + 1 ;  f2 = f0 xor 7
   leaf (family 0):  leaf = in(0,1) + 3
   f3 (family 3, on no cycle):  f3 = f0 + 2         top (family 0):  top = 2 * f3 *)
Definition exb_prog (q : qkey) : body :=
  if key_eqb q (3, 0) then
    RdIn (0, 0) (fun a => CallQ (3, 1) (fun b => CallQ (0, 0) (fun c => Ret (N.lor a (N.land b c)))))
  else if key_eqb q (3, 1) then CallQ (3, 2) (fun b => Ret (b + 1))
  else if key_eqb q (3, 2) then CallQ (3, 0) (fun b => Ret (N.lxor b 7))
  else if key_eqb q (0, 0) then RdIn (0, 1) (fun a => Ret (a + 3))
  else if key_eqb q (3, 3) then CallQ (3, 0) (fun b => Ret (b + 2))
  else if key_eqb q (0, 1) then CallQ (3, 3) (fun b => Ret (2 * b))
  else Ret 0.

Definition exb_ns : list qkey := [(3, 0); (3, 1); (3, 2); (0, 0); (3, 3); (0, 1)].
Definition exb_lvl (q : qkey) : nat :=
  if key_eqb q (0, 0) then 0 else if key_eqb q (3, 3) then 2 else if key_eqb q (0, 1) then 3 else 1.
Definition exb_nxt (q : qkey) : option qkey :=
  if key_eqb q (3, 0) then Some (3, 1)
  else if key_eqb q (3, 1) then Some (3, 2)
  else if key_eqb q (3, 2) then Some (3, 0)
  else None.
Definition exb_rank (q : qkey) : nat :=
  if key_eqb q (3, 3) then 1 else if key_eqb q (0, 1) then 2 else 0.
Definition exb_iv (i : ikey) : val := if key_eqb i (0, 0) then 8 else if key_eqb i (0, 1) then 4 else 0.
Definition exb_sn := csnap_of (cinit_db exb_iv (fun _ => 0)).

Lemma exb_cases (P : qkey -> Prop) :
  P (3, 0) -> P (3, 1) -> P (3, 2) -> P (0, 0) -> P (3, 3) -> P (0, 1) ->
  (forall q, exb_prog q = Ret 0 -> exb_nxt q = None -> P q) -> forall q, P q.
Proof.
  intros H0 H1 H2 H3 H4 H5 Hr q. unfold exb_prog, exb_nxt in Hr.
  destruct (key_eqb_spec q (3, 0)) as [-> | N0]; [exact H0 |].
  destruct (key_eqb_spec q (3, 1)) as [-> | N1]; [exact H1 |].
  destruct (key_eqb_spec q (3, 2)) as [-> | N2]; [exact H2 |].
  destruct (key_eqb_spec q (0, 0)) as [-> | N3]; [exact H3 |].
  destruct (key_eqb_spec q (3, 3)) as [-> | N4]; [exact H4 |].
  destruct (key_eqb_spec q (0, 1)) as [-> | N5]; [exact H5 |].
  apply Hr.
  - apply key_eqb_neq in N0, N1, N2, N3, N4, N5. now rewrite N0, N1, N2, N3, N4, N5.
  - apply key_eqb_neq in N0, N1, N2. now rewrite N0, N1, N2.
Qed.

Example exb_determined sn : input_determined exb_prog sn.
Proof.
  intros q ans. revert q. apply exb_cases; unfold succs; try (intros q Hq _; rewrite Hq); reflexivity.
Qed.

Example exb_ring sn : fbring_ok_of exb_prog ex_strat sn exb_ns exb_lvl exb_nxt.
Proof.
  split; [| split; [| split]].
  - intros q d Hq Hd. unfold exb_ns in Hq. cbn [In] in Hq.
    destruct Hq as [<- | [<- | [<- | [<- | [<- | [<- | []]]]]]]; cbn in Hd;
      repeat (destruct Hd as [<- | Hd]; [split; [cbn; tauto | cbn; first [left; lia | right; reflexivity]] |]);
      contradiction.
  - intros q. pattern q. apply exb_cases; try (intros q0 _ Hn d Hd; rewrite Hn in Hd; discriminate);
      intros d Hd; cbn in Hd; first [discriminate Hd | injection Hd as <-; (split; [reflexivity |]); split; reflexivity].
  - intros a. pattern a. apply exb_cases; try (intros a0 _ Hn b c Ha; rewrite Hn in Ha; discriminate);
      intros b; pattern b; apply exb_cases; try (intros b0 _ Hn c _ Hb; rewrite Hn in Hb; discriminate);
      intros c Ha Hb; cbn in Ha, Hb; first [discriminate Ha | discriminate Hb | congruence].
  - intros q. pattern q. apply exb_cases; try (intros q0 _ Hn d Hd; rewrite Hn in Hd; discriminate);
      intros d Hd; cbn in Hd; first [discriminate Hd | injection Hd as <-; cbn; tauto].
Qed.

(* the cyclic nodes of the example are exactly the ring *)
Example exb_cyclic : cyclic_nodes (succs exb_prog exb_sn) exb_ns = [(3, 0); (3, 1); (3, 2)].
Proof. vm_compute. reflexivity. Qed.

Example exb_rank_ok :
  let cyc := fun q => mem q (cyclic_nodes (succs exb_prog exb_sn) exb_ns) in
  (forall q q', cyc q = false -> In q' (succs exb_prog exb_sn q) -> cyc q' = false -> (exb_rank q' < exb_rank q)%nat) /\
  (forall q, (exb_rank q < length exb_ns)%nat).
Proof.
  split.
  - intros q. pattern q. apply exb_cases;
      try (intros q0 Hq _ q' _ Hin; unfold succs in Hin; rewrite Hq in Hin; contradiction);
      intros q' Hc Hin; vm_compute in Hc; try discriminate Hc; cbn in Hin;
      repeat (destruct Hin as [<- | Hin]; [intros Hc'; vm_compute in Hc'; try discriminate Hc'; vm_compute; lia |]);
      contradiction.
  - intros q. unfold exb_rank. destruct (key_eqb q (3, 3)); [cbn; lia |]. destruct (key_eqb q (0, 1)); cbn; lia.
Qed.

(* the theorem applies: whatever the entry order, subset or repetition *)
Example exb_fresh : forall (qs : list qkey), (forall q, In q qs -> In q exb_ns) ->
  exists s',
    crun_ops exb_prog ex_strat ex_cinit 6 6 (cinit_db exb_iv (fun _ => 0)) (map COGet qs)
      = (s', map (fun q => COk (spec_fallback exb_prog exb_sn ex_cinit exb_ns q)) qs) /\
    is_fallback_state exb_prog ex_cinit exb_ns s' = true.
Proof.
  intros qs Hqs. destruct exb_rank_ok as [Hk1 Hk2].
  apply (fallback_ring exb_prog ex_strat ex_cinit exb_iv (fun _ => 0) exb_ns exb_lvl exb_nxt exb_rank 6 6 qs).
  - apply exb_determined.
  - apply exb_ring.
  - exact Hk1.
  - exact Hk2.
  - lia.
  - cbn. lia.
  - exact Hqs.
Qed.

Definition exb_outs (ops : list cop) : list cout :=
  snd (crun_ops exb_prog ex_strat ex_cinit 6 6 (cinit_db exb_iv (fun _ => 0)) ops).

(* the specification: fallback on the ring, bodies elsewhere (leaf = 7, f3 = 165 + 2, top = 334) *)
Example exb_spec :
  map (spec_fallback exb_prog exb_sn ex_cinit exb_ns) exb_ns = [165; 165; 165; 7; 167; 334].
Proof. vm_compute. reflexivity. Qed.

(* the ring entered at each member first, and from above *)
Example exb_enter_each :
  exb_outs [COGet (3, 0); COGet (3, 1); COGet (3, 2)] = [COk 165; COk 165; COk 165] /\
  exb_outs [COGet (3, 1); COGet (3, 2); COGet (3, 0)] = [COk 165; COk 165; COk 165] /\
  exb_outs [COGet (3, 2); COGet (3, 0); COGet (3, 1)] = [COk 165; COk 165; COk 165] /\
  exb_outs [COGet (0, 1); COGet (3, 2); COGet (3, 3); COGet (0, 0); COGet (3, 1)]
    = [COk 334; COk 165; COk 167; COk 7; COk 165].
Proof. vm_compute. repeat split; reflexivity. Qed.

(* two cycles through one node (outside the class the theorem is proved for): g0 <-> g1 and
   g1 <-> g2; entered at each of the three nodes the run returns the fallback for all three,
   and the certificate holds of the last run's final state *)
Definition exc_prog (q : qkey) : body :=
  if key_eqb q (3, 0) then RdIn (0, 0) (fun a => CallQ (3, 1) (fun b => Ret (a + b)))
  else if key_eqb q (3, 1) then CallQ (3, 0) (fun a => CallQ (3, 2) (fun b => Ret (N.lxor a b)))
  else if key_eqb q (3, 2) then CallQ (3, 1) (fun a => Ret (a + 1))
  else Ret 0.
Definition exc_ns : list qkey := [(3, 0); (3, 1); (3, 2)].
Definition exc_run (ops : list cop) :=
  crun_ops exc_prog ex_strat ex_cinit 3 6 (cinit_db exb_iv (fun _ => 0)) ops.

Example exc_two_cycles :
  snd (exc_run [COGet (3, 0); COGet (3, 1); COGet (3, 2)]) = [COk 165; COk 165; COk 165] /\
  snd (exc_run [COGet (3, 1); COGet (3, 2); COGet (3, 0)]) = [COk 165; COk 165; COk 165] /\
  snd (exc_run [COGet (3, 2); COGet (3, 0); COGet (3, 1)]) = [COk 165; COk 165; COk 165] /\
  is_fallback_state exc_prog ex_cinit exc_ns (fst (exc_run [COGet (3, 2); COGet (3, 0); COGet (3, 1)])) = true.
Proof. vm_compute. repeat split; reflexivity. Qed.
