(* Cycle/SpecProofs.v — the lattice-theoretic facts behind C12 (kleene is the least fixpoint,
   reached within height x nodes rounds; chaotic iteration; the certificate) . *)
From Coq Require Import PeanoNat.
From Salsa Require Import Base.
From Salsa.Core Require Import Model Spec.
From Salsa.Cycle Require Import Spec.

(* ---------------------------------------------------------------- the order *)
Lemma le_bits_refl a : le_bits a a.
Proof. unfold le_bits. apply N.land_diag. Qed.

Lemma le_bits_0 a : le_bits 0 a.
Proof. unfold le_bits. apply N.land_0_l. Qed.

Lemma le_bits_trans a b c : le_bits a b -> le_bits b c -> le_bits a c.
Proof.
  unfold le_bits. intros Hab Hbc.
  transitivity (N.land (N.land a b) c); [now rewrite Hab |].
  rewrite <- N.land_assoc, Hbc. exact Hab.
Qed.

Lemma le_bits_antisym a b : le_bits a b -> le_bits b a -> a = b.
Proof. unfold le_bits. intros Hab Hba. rewrite <- Hab. rewrite N.land_comm. exact Hba. Qed.

Lemma le_bits_below_0 a : le_bits a 0 -> a = 0.
Proof. unfold le_bits. rewrite N.land_0_r. congruence. Qed.

Lemma le_bits_testbit a b i : le_bits a b -> N.testbit a i = true -> N.testbit b i = true.
Proof.
  unfold le_bits. intros H Ha. rewrite <- H in Ha. rewrite N.land_spec in Ha.
  apply andb_true_iff in Ha. tauto.
Qed.

Lemma lor_mono a a' b b' : le_bits a a' -> le_bits b b' -> le_bits (N.lor a b) (N.lor a' b').
Proof.
  intros Ha Hb. unfold le_bits. apply N.bits_inj. intros n.
  rewrite N.land_spec, !N.lor_spec.
  assert (Ha' := le_bits_testbit a a' n Ha). assert (Hb' := le_bits_testbit b b' n Hb).
  destruct (N.testbit a n) eqn:Ea; destruct (N.testbit b n) eqn:Eb; cbn.
  - rewrite (Ha' eq_refl). reflexivity.
  - rewrite (Ha' eq_refl). reflexivity.
  - rewrite (Hb' eq_refl). now rewrite orb_true_r.
  - reflexivity.
Qed.

Lemma land_mono a a' b b' : le_bits a a' -> le_bits b b' -> le_bits (N.land a b) (N.land a' b').
Proof.
  intros Ha Hb. unfold le_bits. apply N.bits_inj. intros n.
  rewrite !N.land_spec.
  assert (Ha' := le_bits_testbit a a' n Ha). assert (Hb' := le_bits_testbit b b' n Hb).
  destruct (N.testbit a n) eqn:Ea; destruct (N.testbit b n) eqn:Eb; cbn; try reflexivity.
  rewrite (Ha' eq_refl), (Hb' eq_refl). reflexivity.
Qed.

Lemma testbit_high a n : a < 256 -> 8 <= n -> N.testbit a n = false.
Proof.
  intros Ha Hn. destruct (N.eq_dec a 0) as [-> | Hz]; [apply N.bits_0 |].
  apply N.bits_above_log2.
  assert (N.log2 a < 8); [| lia].
  apply N.log2_lt_pow2; [lia |]. exact Ha.
Qed.

Lemma lt256_bits x : (forall n, 8 <= n -> N.testbit x n = false) -> x < 256.
Proof.
  intros H. destruct (N.lt_ge_cases x 256) as [Hlt | Hge]; [exact Hlt | exfalso].
  assert (Hx : x <> 0) by lia.
  assert (Hl : 8 <= N.log2 x) by (apply (N.log2_le_pow2 x 8); lia).
  assert (Hb := N.bit_log2 x Hx). rewrite (H _ Hl) in Hb. discriminate.
Qed.

Lemma lor_lt256 a b : a < 256 -> b < 256 -> N.lor a b < 256.
Proof.
  intros Ha Hb. apply lt256_bits. intros n Hn.
  rewrite N.lor_spec, (testbit_high a n Ha Hn), (testbit_high b n Hb Hn). reflexivity.
Qed.

Lemma land_lt256 a b : a < 256 -> N.land a b < 256.
Proof.
  intros Ha. apply lt256_bits. intros n Hn.
  rewrite N.land_spec, (testbit_high a n Ha Hn). reflexivity.
Qed.

Lemma mem_In q l : mem q l = true <-> In q l.
Proof.
  unfold mem. rewrite existsb_exists. split.
  - intros [x [Hin Hx]]. apply key_eqb_eq in Hx. now subst.
  - intros H. exists q. split; [exact H | apply key_eqb_refl].
Qed.

Lemma run_agree : forall b ein ecell rho rho',
  (forall p, In p (call_trace ein ecell rho b) -> rho p = rho' p) ->
  run {| e_in := ein; e_cell := ecell; e_q := rho |} b =
  run {| e_in := ein; e_cell := ecell; e_q := rho' |} b.
Proof.
  induction b as [v | i k IH | q k IH | c k IH | k IH | c k IH]; intros ein ecell rho rho' H; cbn in *.
  - reflexivity.
  - apply IH, H.
  - rewrite <- (H q (or_introl eq_refl)). apply IH. intros p Hp. apply H. now right.
  - apply IH, H.
  - apply IH, H.
  - apply IH, H.
Qed.

Lemma run_ext : forall b ein ecell rho rho',
  (forall p, rho p = rho' p) ->
  run {| e_in := ein; e_cell := ecell; e_q := rho |} b =
  run {| e_in := ein; e_cell := ecell; e_q := rho' |} b.
Proof. intros b ein ecell rho rho' H. apply run_agree. intros p _. apply H. Qed.

Lemma runo_run_trace : forall b ein ecell (sigma : qkey -> option val) rho v,
  runo ein ecell sigma b = Some v ->
  (forall p, In p (call_trace ein ecell rho b) -> forall v', sigma p = Some v' -> rho p = v') ->
  run {| e_in := ein; e_cell := ecell; e_q := rho |} b = v.
Proof.
  induction b as [v0 | i k IH | q k IH | c k IH | k IH | c k IH]; intros ein ecell sigma rho v H Hag; cbn in *.
  - congruence.
  - eapply IH; eassumption.
  - destruct (sigma q) as [v' |] eqn:E; [| discriminate].
    assert (Hq : rho q = v') by (apply Hag; [now left | exact E]).
    rewrite Hq in *. eapply IH; [eassumption |]. intros p Hp. apply Hag. now right.
  - eapply IH; eassumption.
  - eapply IH; eassumption.
  - eapply IH; eassumption.
Qed.

Lemma runo_run : forall b ein ecell (sigma : qkey -> option val) rho v,
  runo ein ecell sigma b = Some v ->
  (forall q v', sigma q = Some v' -> rho q = v') ->
  run {| e_in := ein; e_cell := ecell; e_q := rho |} b = v.
Proof. intros b ein ecell sigma rho v H Hag. apply (runo_run_trace b ein ecell sigma rho v H). intros p _. apply Hag. Qed.

Section Kleene.
Variable prog : qkey -> body.
Variable sn : snapshot.
Variable ns : list qkey.

Notation Fq := (F prog sn).

Lemma F_ext rho rho' q : (forall p, rho p = rho' p) -> Fq rho q = Fq rho' q.
Proof. intros H. unfold F. now apply run_ext. Qed.

(* the semantic iterates: listed nodes re-evaluated, everything else 0 *)
Fixpoint R (n : nat) : qkey -> val :=
  match n with
  | O => fun _ => 0
  | S n' => fun q => if mem q ns then Fq (R n') q else 0
  end.

Lemma tlookup_tbl0 l q : tlookup (tbl0 l) q = 0.
Proof. induction l as [| x l IH]; cbn; [reflexivity |]. destruct (key_eqb x q); [reflexivity | exact IH]. Qed.

Lemma tlookup_kround_gen t l q :
  tlookup (map (fun q' => (q', Fq (tlookup t) q')) l) q = if mem q l then Fq (tlookup t) q else 0.
Proof.
  induction l as [| x l IH]; cbn; [reflexivity |].
  destruct (key_eqb x q) eqn:E.
  - apply key_eqb_eq in E. subst x. unfold mem. cbn. rewrite key_eqb_refl. reflexivity.
  - rewrite IH. unfold mem. cbn.
    assert (E' : key_eqb q x = false).
    { apply key_eqb_neq. apply key_eqb_neq in E. congruence. }
    rewrite E'. reflexivity.
Qed.

Lemma tlookup_kround t q :
  tlookup (kround prog sn ns t) q = if mem q ns then Fq (tlookup t) q else 0.
Proof. apply tlookup_kround_gen. Qed.

Lemma kiter_S n : forall t, kiter prog sn ns (S n) t = kround prog sn ns (kiter prog sn ns n t).
Proof.
  induction n as [| n IH]; intros t; [reflexivity |].
  change (kiter prog sn ns (S (S n)) t) with (kiter prog sn ns (S n) (kround prog sn ns t)).
  rewrite IH. reflexivity.
Qed.

Lemma kiter_R n : forall q, tlookup (kiter prog sn ns n (tbl0 ns)) q = R n q.
Proof.
  induction n as [| n IH]; intros q.
  - cbn. apply tlookup_tbl0.
  - rewrite kiter_S, tlookup_kround. cbn [R]. destruct (mem q ns); [| reflexivity].
    apply F_ext, IH.
Qed.

(* ---- early exit computes the same table ---- *)
Lemma tbl_eqb_eq : forall a b, tbl_eqb a b = true -> a = b.
Proof.
  induction a as [| x a IH]; intros [| y b] H; cbn in H; try discriminate; [reflexivity |].
  apply andb_true_iff in H. destruct H as [H Hab]. apply andb_true_iff in H. destruct H as [Hk Hv].
  apply key_eqb_eq in Hk. apply N.eqb_eq in Hv. destruct x, y. cbn in *. subst. f_equal. now apply IH.
Qed.

Lemma kiter_stable n : forall t, kround prog sn ns t = t -> kiter prog sn ns n t = t.
Proof. induction n as [| n IH]; intros t H; cbn; [reflexivity |]. rewrite H. now apply IH. Qed.

Lemma kfix_kiter n : forall t, kfix prog sn ns n t = kiter prog sn ns n t.
Proof.
  induction n as [| n IH]; intros t; cbn; [reflexivity |].
  destruct (tbl_eqb t (kround prog sn ns t)) eqn:E.
  - apply tbl_eqb_eq in E. rewrite <- E. symmetry. apply kiter_stable. now symmetry.
  - apply IH.
Qed.

Lemma kleene_R q : kleene prog sn ns q = R (krounds ns) q.
Proof. unfold kleene, kleene_tbl. rewrite kfix_kiter. apply kiter_R. Qed.

Lemma R_out n q : mem q ns = false -> R n q = 0.
Proof. destruct n; cbn; intros H; [reflexivity | now rewrite H]. Qed.

(* ---------------------------------------------------------------- monotone chain *)
Hypothesis Hmono : monotone_prog prog sn.

Lemma R_mono n : env_le (R n) (R (S n)).
Proof.
  induction n as [| n IH]; intros p.
  - apply le_bits_0.
  - cbn [R]. destruct (mem p ns); [| apply le_bits_refl]. apply Hmono. exact IH.
Qed.

Lemma R_mono_le n m : (n <= m)%nat -> env_le (R n) (R m).
Proof.
  induction 1 as [| m Hle IH]; intros p; [apply le_bits_refl |].
  eapply le_bits_trans; [apply IH | apply R_mono].
Qed.

Lemma R_below sigma : is_prefixpoint prog sn ns sigma -> forall n, env_le (R n) sigma.
Proof.
  intros Hpre. induction n as [| n IH]; intros p; [apply le_bits_0 |].
  cbn [R]. destruct (mem p ns) eqn:E; [| apply le_bits_0].
  eapply le_bits_trans; [apply Hmono, IH | apply Hpre, mem_In, E].
Qed.

(* ---------------------------------------------------------------- stabilisation *)
Hypothesis Hfits : fits8 prog sn.

Lemma R_lt n : forall q, R n q < 256.
Proof.
  induction n as [| n IH]; intros q; cbn; [lia |].
  destruct (mem q ns); [apply Hfits, IH | lia].
Qed.

Definition bits8 : list N := [0; 1; 2; 3; 4; 5; 6; 7].
Definition bc (a : val) : nat := length (filter (N.testbit a) bits8).

Lemma flen_le {A} (p p' : A -> bool) l :
  (forall i, In i l -> p i = true -> p' i = true) ->
  (length (filter p l) <= length (filter p' l))%nat.
Proof.
  induction l as [| x l IH]; intros H; cbn; [lia |].
  assert (IH' := IH (fun i Hi => H i (or_intror Hi))).
  destruct (p x) eqn:E.
  - rewrite (H x (or_introl eq_refl) E). cbn. lia.
  - destruct (p' x); cbn; lia.
Qed.

Lemma flen_lt {A} (p p' : A -> bool) l :
  (forall i, In i l -> p i = true -> p' i = true) ->
  (exists i, In i l /\ p i = false /\ p' i = true) ->
  (length (filter p l) < length (filter p' l))%nat.
Proof.
  induction l as [| x l IH]; intros H [i [Hin [Hp Hp']]]; [destruct Hin |].
  cbn. assert (Hle := flen_le p p' l (fun i Hi => H i (or_intror Hi))).
  destruct Hin as [-> | Hin].
  - rewrite Hp, Hp'. cbn. lia.
  - assert (IH' := IH (fun i Hi => H i (or_intror Hi)) (ex_intro _ i (conj Hin (conj Hp Hp')))).
    destruct (p x) eqn:E.
    + rewrite (H x (or_introl eq_refl) E). cbn. lia.
    + destruct (p' x); cbn; lia.
Qed.

Lemma forallb_false_ex {A} (f : A -> bool) l :
  forallb f l = false -> exists x, In x l /\ f x = false.
Proof.
  induction l as [| x l IH]; cbn; [discriminate |].
  destruct (f x) eqn:E; cbn; intros H.
  - destruct (IH H) as [y [Hy Hf]]. exists y. tauto.
  - exists x. tauto.
Qed.

Lemma in_bits8 n : n < 8 -> In n bits8.
Proof.
  intros H. change bits8 with (map N.of_nat (seq 0 8)). rewrite <- (N2Nat.id n).
  apply in_map, in_seq. lia.
Qed.

Lemma eq8 a b : a < 256 -> b < 256 ->
  (forall i, In i bits8 -> N.testbit a i = N.testbit b i) -> a = b.
Proof.
  intros Ha Hb H. apply N.bits_inj. intros n.
  destruct (N.lt_ge_cases n 8) as [Hlt | Hge]; [exact (H n (in_bits8 n Hlt)) |].
  rewrite (testbit_high a n Ha Hge), (testbit_high b n Hb Hge). reflexivity.
Qed.

Lemma bc_le a b : le_bits a b -> (bc a <= bc b)%nat.
Proof. intros H. apply flen_le. intros i _. now apply le_bits_testbit. Qed.

Lemma bc_lt a b : le_bits a b -> a < 256 -> b < 256 -> a <> b -> (bc a < bc b)%nat.
Proof.
  intros Hle Ha Hb Hne. apply flen_lt; [intros i _; now apply le_bits_testbit |].
  destruct (forallb (fun i => Bool.eqb (N.testbit a i) (N.testbit b i)) bits8) eqn:E.
  - exfalso. apply Hne. apply eq8; try assumption. intros i Hi.
    rewrite forallb_forall in E. specialize (E i Hi). now apply Bool.eqb_prop in E.
  - destruct (forallb_false_ex _ _ E) as [i [Hi Hf]]. exists i. split; [exact Hi |].
    destruct (N.testbit a i) eqn:Ea.
    + rewrite (le_bits_testbit a b i Hle Ea) in Hf. discriminate.
    + destruct (N.testbit b i); [tauto | discriminate].
Qed.

Lemma bc_le8 a : (bc a <= 8)%nat.
Proof.
  unfold bc. change 8%nat with (length bits8).
  generalize bits8. induction l as [| x l IH]; cbn; [lia |]. destruct (N.testbit a x); cbn; lia.
Qed.

Definition weight (n : nat) : nat := list_sum (map (fun q => bc (R n q)) ns).

Lemma list_sum_le {A} (f g : A -> nat) l :
  (forall q, In q l -> (f q <= g q)%nat) -> (list_sum (map f l) <= list_sum (map g l))%nat.
Proof.
  induction l as [| x l IH]; intros H; [cbn; lia |].
  change (f x + list_sum (map f l) <= g x + list_sum (map g l))%nat.
  assert (f x <= g x)%nat by (apply H; now left).
  assert (list_sum (map f l) <= list_sum (map g l))%nat by (apply IH; intros; apply H; now right). lia.
Qed.

Lemma list_sum_lt {A} (f g : A -> nat) l :
  (forall q, In q l -> (f q <= g q)%nat) -> (exists q, In q l /\ (f q < g q)%nat) ->
  (list_sum (map f l) < list_sum (map g l))%nat.
Proof.
  induction l as [| x l IH]; intros H [q [Hin Hlt]]; [destruct Hin |].
  change (f x + list_sum (map f l) < g x + list_sum (map g l))%nat.
  assert (Hx : (f x <= g x)%nat) by (apply H; now left).
  assert (Hl : (list_sum (map f l) <= list_sum (map g l))%nat) by (apply list_sum_le; intros; apply H; now right).
  destruct Hin as [-> | Hin]; [lia |].
  assert (list_sum (map f l) < list_sum (map g l))%nat; [| lia].
  apply IH; [intros; apply H; now right | exists q; tauto].
Qed.

Lemma list_sum_bound {A} (f : A -> nat) c l :
  (forall q, (f q <= c)%nat) -> (list_sum (map f l) <= c * length l)%nat.
Proof.
  intros H. induction l as [| x l IH]; [cbn; lia |].
  change (f x + list_sum (map f l) <= c * S (length l))%nat.
  rewrite Nat.mul_succ_r. specialize (H x). lia.
Qed.

Lemma weight_bound n : (weight n <= 8 * length ns)%nat.
Proof. unfold weight. apply list_sum_bound. intros q. apply bc_le8. Qed.

Definition stable (n : nat) : bool := forallb (fun q => R (S n) q =? R n q) ns.

Lemma stable_eq n : stable n = true -> forall p, R (S n) p = R n p.
Proof.
  intros H p. destruct (mem p ns) eqn:E.
  - unfold stable in H. rewrite forallb_forall in H. apply N.eqb_eq. apply H. now apply mem_In.
  - now rewrite !R_out.
Qed.

Lemma step_eq n : (forall p, R (S n) p = R n p) -> forall p, R (S (S n)) p = R (S n) p.
Proof.
  intros H p. cbn [R]. destruct (mem p ns); [| reflexivity]. apply F_ext. intros p'.
  change (R (S n) p' = R n p'). apply H.
Qed.

Lemma stable_step n : stable n = true -> forall m, (n <= m)%nat -> forall p, R (S m) p = R m p.
Proof. intros H m Hle. induction Hle as [| m Hle IH]; [exact (stable_eq n H) | exact (step_eq m IH)]. Qed.

Lemma stable_forever n : stable n = true -> forall m, (n <= m)%nat -> forall p, R m p = R n p.
Proof.
  intros H m Hle. induction Hle as [| m Hle IH]; intros p; [reflexivity |].
  rewrite (stable_step n H m Hle p). apply IH.
Qed.

Lemma unstable_weight n : stable n = false -> (weight n < weight (S n))%nat.
Proof.
  intros H. unfold stable in H. destruct (forallb_false_ex _ _ H) as [q [Hq Hne]].
  apply N.eqb_neq in Hne. unfold weight. apply list_sum_lt.
  - intros p _. apply bc_le, R_mono.
  - exists q. split; [exact Hq |]. apply bc_lt; [apply R_mono | apply R_lt | apply R_lt | congruence].
Qed.

Lemma no_stable_weight n : (forall k, (k < n)%nat -> stable k = false) -> (n <= weight n)%nat.
Proof.
  induction n as [| n IH]; intros H; [lia |].
  assert (n <= weight n)%nat by (apply IH; intros; apply H; lia).
  assert (weight n < weight (S n))%nat by (apply unstable_weight, H; lia). lia.
Qed.

Lemma stable_or_not n :
  (exists k, (k < n)%nat /\ stable k = true) \/ (forall k, (k < n)%nat -> stable k = false).
Proof.
  induction n as [| n [[k [Hk Hs]] | Hnone]].
  - right. intros k Hk. lia.
  - left. exists k. split; [lia | exact Hs].
  - destruct (stable n) eqn:E.
    + left. exists n. split; [lia | exact E].
    + right. intros k Hk. destruct (Nat.eq_dec k n) as [-> | Hne]; [exact E | apply Hnone; lia].
Qed.

(* reached within height x nodes rounds *)
Lemma stabilises : exists k, (k <= 8 * length ns)%nat /\ stable k = true.
Proof.
  destruct (stable_or_not (S (8 * length ns))) as [[k [Hk Hs]] | Hnone].
  - exists k. split; [lia | exact Hs].
  - exfalso. assert (H1 := no_stable_weight _ Hnone). assert (H2 := weight_bound (S (8 * length ns))). lia.
Qed.

Lemma kleene_is_fixpoint : is_fixpoint prog sn ns (kleene prog sn ns).
Proof.
  destruct stabilises as [k [Hk Hs]]. intros q Hq.
  (* the rounds have stopped moving by round [krounds ns]: one more changes nothing ... *)
  assert (Hstop : R (S (krounds ns)) q = R (krounds ns) q).
  { unfold krounds. rewrite (stable_forever k Hs (S (S (8 * length ns)))) by lia.
    now rewrite (stable_forever k Hs (S (8 * length ns))) by lia. }
  (* ... and for a node of [ns] one more round is one application of F *)
  cbn [R] in Hstop. rewrite (proj2 (mem_In q ns) Hq) in Hstop.
  rewrite kleene_R, <- Hstop. apply F_ext. intros p. apply kleene_R.
Qed.

Lemma kleene_least sigma : is_prefixpoint prog sn ns sigma -> env_le (kleene prog sn ns) sigma.
Proof. intros H p. rewrite kleene_R. now apply R_below. Qed.

Lemma kleene_rounds : exists k, (k <= 8 * length ns)%nat /\
  forall m, (k <= m)%nat -> forall q, tlookup (kiter prog sn ns m (tbl0 ns)) q = kleene prog sn ns q.
Proof.
  destruct stabilises as [k [Hk Hs]]. exists k. split; [exact Hk |]. intros m Hm q.
  rewrite kiter_R, kleene_R. rewrite (stable_forever k Hs m Hm).
  symmetry. apply stable_forever; [exact Hs | unfold krounds; lia].
Qed.

(* least fixpoint, reached within height x nodes rounds *)
Theorem kleene_lfp :
  is_fixpoint prog sn ns (kleene prog sn ns) /\
  (forall sigma, is_prefixpoint prog sn ns sigma -> env_le (kleene prog sn ns) sigma) /\
  (exists k, (k <= 8 * length ns)%nat /\
     forall m, (k <= m)%nat -> forall q, tlookup (kiter prog sn ns m (tbl0 ns)) q = kleene prog sn ns q).
Proof. split; [apply kleene_is_fixpoint | split; [apply kleene_least | apply kleene_rounds]]. Qed.

(* chaotic iteration: whatever the evaluation order was, a state that only holds values below
   the least fixpoint and satisfies every equation IS the least fixpoint *)
Theorem chaotic : forall sigma,
  env_le sigma (kleene prog sn ns) -> is_fixpoint prog sn ns sigma ->
  forall q, sigma q = kleene prog sn ns q.
Proof.
  intros sigma Hbelow Hfix q. apply le_bits_antisym; [apply Hbelow |].
  apply kleene_least. intros p Hp. rewrite (Hfix p Hp). apply le_bits_refl.
Qed.

(* ---------------------------------------------------------------- the certificate *)
(* a partial assignment read off a final state that re-evaluates to itself and lies below the
   least fixpoint equals the least fixpoint wherever it is defined *)
Theorem certified_fix : forall sigma : qkey -> option val,
  cert_fix prog sn ns sigma = true ->
  (forall q v, sigma q = Some v -> le_bits v (kleene prog sn ns q)) ->
  forall q v, In q ns -> sigma q = Some v -> v = kleene prog sn ns q.
Proof.
  intros sigma Hcert Hbelow q v Hq Hs.
  set (tau := fun p => match sigma p with Some x => x | None => kleene prog sn ns p end).
  assert (Htau_le : env_le tau (kleene prog sn ns)).
  { intros p. unfold tau. destruct (sigma p) eqn:E; [now apply Hbelow | apply le_bits_refl]. }
  assert (Hpre : is_prefixpoint prog sn ns tau).
  { intros p Hp. unfold tau at 2. destruct (sigma p) as [x |] eqn:E.
    - unfold cert_fix in Hcert. rewrite forallb_forall in Hcert. specialize (Hcert p Hp).
      rewrite E in Hcert. destruct (runo (sn_in sn) (sn_cell sn) sigma (prog p)) as [x' |] eqn:Er; [| discriminate].
      apply N.eqb_eq in Hcert. subst x'.
      unfold F. rewrite (runo_run _ _ _ sigma tau x Er); [apply le_bits_refl |].
      intros p' v' E'. unfold tau. now rewrite E'.
    - rewrite <- (kleene_is_fixpoint p Hp). apply Hmono, Htau_le. }
  apply le_bits_antisym; [now apply Hbelow |].
  assert (H := kleene_least tau Hpre q). unfold tau in H. now rewrite Hs in H.
Qed.

End Kleene.
