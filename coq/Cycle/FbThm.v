(* Cycle/FbThm.v — the fresh-revision theorem for fallback cycles (C13_fresh) with every
   hypothesis spelled out.  Class of programs: the call graph of the snapshot is input-determined,
   layered by [lvl]; the only same-level call of a node goes to [nxt] of it, [nxt] is injective and
   its edges are real calls; nodes with a same-level call are functions with cycle_result
   (strategy SFallback).  So every strongly connected component is a simple ring of fallback
   functions, entered at any member; everything else is acyclic, with any strategy.  [rank] is the
   usual witness (as in C13_spec_fallback_wd_partial) that the graph minus its cyclic nodes is
   acyclic.  No monotonicity, no bound on the values. *)
From Coq Require Import PeanoNat.
From Salsa Require Import Base.
From Salsa.Kern Require Import CoreK.
From Salsa.Core Require Import Spec.
From Salsa.Cycle Require Import StampK Model Spec SpecProofs FallbackProofs Cert FreshBase FbSem FbInv.
From Salsa.Cycle Require RingInv RingTop.

Lemma fallback_certificate (C : bctx) s :
  RingInv.Inv (R := fb_sem) [] [] s -> is_fallback_state fprog fcinit fns s = true.
Proof.
  intros HI. unfold is_fallback_state. rewrite (RingTop.csnap_inv s HI). unfold cert_fallback.
  apply forallb_forall. intros q Hq.
  destruct (final_val s q) as [v |] eqn:Hfv; [| reflexivity].
  destruct (RingTop.settled_vals s q v HI Hfv) as [Hv Hsucc]. subst v.
  cbn [RingInv.tgt RingInv.riv RingInv.ridur RingInv.rprog fb_sem] in *. change (RingInv.snap0 fiv fidur) with (@sn C) in *.
  fold (cycn fprog sn fns q). destruct (cycn fprog sn fns q) eqn:Hc.
  - rewrite (sv_cyc q Hc). apply N.eqb_refl.
  - rewrite (RingTop.runo_of_run (fprog q) (sn_in sn) (sn_cell sn) (spec_fallback fprog sn fcinit fns) (final_val s)).
    + change (run _ (fprog q)) with (F fprog sn (spec_fallback fprog sn fcinit fns) q).
      rewrite <- (sv_body q Hc). apply N.eqb_refl.
    + intros d Hdd. rewrite (Hdet q _) in Hdd. now apply Hsucc.
Qed.

Theorem fallback_ring :
  forall (prog : qkey -> body) (strat : N -> strategy) (cinit : qkey -> val)
         (iv : ikey -> val) (idur : ikey -> dur) (ns : list qkey)
         (lvl : qkey -> nat) (nxt : qkey -> option qkey) (rank : qkey -> nat)
         (nodes fuel : nat) (qs : list qkey),
  let sn := csnap_of (cinit_db iv idur) in
  let cyc := fun q => mem q (cyclic_nodes (succs prog sn) ns) in
  input_determined prog sn ->
  fbring_ok_of prog strat sn ns lvl nxt ->
  (forall q q', cyc q = false -> In q' (succs prog sn q) -> cyc q' = false -> (rank q' < rank q)%nat) ->
  (forall q, (rank q < length ns)%nat) ->
  (1 <= nodes)%nat -> (length ns <= fuel)%nat -> (forall q, In q qs -> In q ns) ->
  exists s',
    crun_ops prog strat cinit nodes fuel (cinit_db iv idur) (map COGet qs)
      = (s', map (fun q => COk (spec_fallback prog sn cinit ns q)) qs) /\
    is_fallback_state prog cinit ns s' = true.
Proof.
  intros prog strat cinit iv idur ns lvl nxt rank nodes fuel qs sn cyc Hd Hr Hk1 Hk2 Hn Hfuel Hin.
  set (C := {| fprog := prog; fstrat := strat; fcinit := cinit; fiv := iv; fidur := idur; fns := ns;
               flvl := lvl; fnxt := nxt; frank := rank; fdet := Hd; fring := Hr; frank1 := Hk1; frank2 := Hk2 |}).
  destruct nodes as [| nn']; [lia |].
  destruct (@RingTop.ring_gets (@fb_sem C) nn' fuel Hfuel qs (@s0 C) (@RingTop.Inv_init (@fb_sem C)) Hin)
    as (s' & Hrun & HI).
  exists s'. split; [exact Hrun | exact (fallback_certificate C s' HI)].
Qed.

Print Assumptions fallback_ring.
