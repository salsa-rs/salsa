(* Cycle/FreshThm.v — the fresh-revision theorem (C12_fresh) with every hypothesis
   spelled out.  Class of programs: the call graph of the snapshot is input-determined, layered by
   [lvl]; the only same-level call of a node goes to [nxt] of it, [nxt] is injective and its edges
   are real calls; nodes with a same-level call use Fixpoint (default or joining cycle_fn) with
   cycle_initial = 0.  So every strongly connected component is a simple ring, entered at any
   member; rings at different levels may call each other downwards; everything else is acyclic. *)
From Coq Require Import PeanoNat.
From Salsa Require Import Base.
From Salsa.Kern Require Import CoreK.
From Salsa.Core Require Import Spec.
From Salsa.Cycle Require Import StampK Model Spec SpecProofs Cert FreshSem FreshBase FreshInv FreshOps.
From Salsa.Cycle Require RingInv RingTop.

Lemma fresh_certificate (C : fctx) s :
  RingInv.Inv (R := fresh_sem) [] [] s -> is_fixpoint_state fprog fns s = true.
Proof.
  intros HI. unfold is_fixpoint_state. rewrite (RingTop.csnap_inv s HI). unfold cert_fix.
  apply forallb_forall. intros q Hq.
  destruct (final_val s q) as [v |] eqn:Hfv; [| reflexivity].
  destruct (RingTop.settled_vals s q v HI Hfv) as [Hv Hsucc]. subst v.
  cbn [RingInv.tgt RingInv.riv RingInv.ridur RingInv.rprog fresh_sem] in *. change (RingInv.snap0 fiv fidur) with (@sn C) in *.
  rewrite (RingTop.runo_of_run (fprog q) (sn_in sn) (sn_cell sn) (kleene fprog sn fns) (final_val s)).
  - change (run _ (fprog q)) with (F fprog sn (kleene fprog sn fns) q). rewrite (k_fix q Hq). apply N.eqb_refl.
  - intros d Hdd. rewrite (Hdet q _) in Hdd. now apply Hsucc.
Qed.

Theorem fresh_ring :
  forall (prog : qkey -> body) (strat : N -> strategy) (cinit : qkey -> val)
         (iv : ikey -> val) (idur : ikey -> dur) (ns : list qkey)
         (lvl : qkey -> nat) (nxt : qkey -> option qkey) (nodes fuel : nat) (qs : list qkey),
  let sn := csnap_of (cinit_db iv idur) in
  monotone_prog prog sn -> fits8 prog sn -> input_determined prog sn ->
  ring_ok_of prog strat sn ns lvl nxt -> (forall q, cinit q = 0) ->
  (1 <= nodes)%nat -> (length ns <= fuel)%nat -> (forall q, In q qs -> In q ns) ->
  exists s',
    crun_ops prog strat cinit nodes fuel (cinit_db iv idur) (map COGet qs)
      = (s', map (fun q => COk (kleene prog sn ns q)) qs) /\
    is_fixpoint_state prog ns s' = true.
Proof.
  intros prog strat cinit iv idur ns lvl nxt nodes fuel qs sn Hm Hf Hd Hr Hi Hn Hfuel Hin.
  set (C := {| fprog := prog; fstrat := strat; fcinit := cinit; fiv := iv; fidur := idur; fns := ns;
               flvl := lvl; fnxt := nxt; fmono := Hm; ffits := Hf; fdet := Hd; fring := Hr; finit := Hi |}).
  destruct nodes as [| nn']; [lia |].
  destruct (@RingTop.ring_gets (@fresh_sem C) nn' fuel Hfuel qs (@s0 C) (@RingTop.Inv_init (@fresh_sem C)) Hin)
    as (s' & Hrun & HI).
  exists s'. split; [exact Hrun | exact (fresh_certificate C s' HI)].
Qed.

Print Assumptions fresh_ring.
