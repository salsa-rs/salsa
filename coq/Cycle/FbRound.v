From Salsa Require Import Base.
From Salsa.Cycle Require Import Model FbInv.

Lemma hv_eq s s' h : c_memo s' = c_memo s -> hv s' h = hv s h.
Proof. intros He. unfold hv. now rewrite He. Qed.
