(* Cycle/LockOps.v — the sync-table operations against the claim invariant of Cycle/LockInv.v:
   claiming, the three ways of dropping a guard, releasing while unwinding, pushing and popping
   the query stack; each re-establishes the invariant and none of their internal assertions can
   fire.  (That everything else between a claim and its release leaves the claim state alone is
   [lks] in LockInv.v and [qsim] in LockTop.v.) *)
From Coq Require Import PeanoNat Lia.
From Salsa Require Import Base.
From Salsa.Kern Require Import CoreK.
From Salsa.Cycle Require Import StampK Model LockInv.

(* ---------------------------------------------------------------- claiming *)
Lemma LK_push hl s s' q y' :
  LK hl s -> ~ held s q -> c_qstack s' = c_qstack s ->
  c_sync s' = upd (c_sync s) q (Some y') -> sy_trans y' = false -> LK (q :: hl) s'.
Proof.
  intros [a b c d] Hnh Hq Hs Ht. constructor.
  - constructor; [rewrite b; exact Hnh | exact a].
  - intros p. unfold held. rewrite Hs. unfold upd. destruct (key_eqb_spec q p) as [<- | Hne].
    + split; [intros _; exists y'; split; [reflexivity | exact Ht] | intros _; left; reflexivity].
    + cbn [In]. rewrite b. unfold held. split; [intros [A | A]; [congruence | exact A] | intros A; right; exact A].
  - intros p y. rewrite Hs. unfold upd. destruct (key_eqb_spec q p) as [<- | Hne].
    + intros A _. injection A as <-. exact Ht.
    + apply c.
  - rewrite Hq. intros x Hx. right. apply d. exact Hx.
Qed.

Lemma LK_pop hl s s' q y' :
  LK (q :: hl) s -> ~ In q (c_qstack s) -> c_qstack s' = c_qstack s ->
  c_sync s' = upd (c_sync s) q y' ->
  (forall y, y' = Some y -> sy_trans y = true /\ sy_twice y = false) -> LK hl s'.
Proof.
  intros [a b c d] Hnq Hq Hs Hy. inversion a as [| ? ? Hnin Hnd]; subst. constructor.
  - exact Hnd.
  - intros p. unfold held. rewrite Hs. unfold upd. destruct (key_eqb_spec q p) as [<- | Hne].
    + split; [intros A; contradiction |]. intros (y & A & B). destruct (Hy y A) as [C _]. congruence.
    + specialize (b p). cbn [In] in b. unfold held in b. rewrite <- b. split; [intros A; right; exact A | intros [A | A]; [congruence | exact A]].
  - intros p y. rewrite Hs. unfold upd. destruct (key_eqb_spec q p) as [<- | Hne].
    + intros A B. destruct (Hy y A) as [_ C]. congruence.
    + apply c.
  - rewrite Hq. intros x Hx. destruct (d x Hx) as [<- | A]; [contradiction | exact A].
Qed.

Lemma try_claim_ok q allow hl stk s : K hl stk s ->
  awp (try_claim q allow)
      (fun r s' => match r with
                   | Claimed mode => K (q :: hl) stk s' /\ ~ In q hl /\ (mode = RDefault \/ mode = RSelfOnly)
                   | ClCycle inner => K hl stk s' /\ (inner = false -> In q hl)
                   end)
      (fun _ => False) s.
Proof.
  intros [HL Hstk]. unfold try_claim. apply awp_bind, awp_get.
  assert (Hclaim : forall y0 mode, ~ held s q -> sy_trans y0 = false -> (mode = RDefault \/ mode = RSelfOnly) ->
            awp (set_sync q (Some y0) ;;; cret (Claimed mode))
                (fun r s' => match r with
                   | Claimed mode => K (q :: hl) stk s' /\ ~ In q hl /\ (mode = RDefault \/ mode = RSelfOnly)
                   | ClCycle inner => K hl stk s' /\ (inner = false -> In q hl)
                   end) (fun _ => False) s).
  { intros y0 mode Hnh Ht Hm. apply awp_bind. unfold set_sync. apply awp_modify, awp_ret.
    split; [split; [apply (LK_push hl s _ q y0 HL Hnh); [reflexivity | reflexivity | exact Ht] | exact Hstk] |].
    split; [rewrite (lk_held _ _ HL); exact Hnh | exact Hm]. }
  destruct (c_sync s q) as [y |] eqn:Ey.
  - destruct (sy_trans y) eqn:Et.
    + assert (Hnh : ~ held s q) by (intros (y1 & A & B); congruence).
      destruct (trans_get (c_trans s) q).
      * destruct allow.
        -- destruct (sy_twice y) eqn:Etw.
           ++ exfalso. pose proof (lk_twice _ _ HL q y Ey Etw). congruence.
           ++ apply (Hclaim _ RSelfOnly Hnh); [reflexivity | now right].
        -- apply awp_ret. split; [split; assumption | discriminate].
      * apply (Hclaim _ RDefault Hnh); [reflexivity | now left].
    + apply awp_bind. unfold set_sync. apply awp_modify, awp_ret.
      split.
      * apply (K_sim hl stk s); [| split; assumption].
        apply (lks_set_sync_flags q y); [exact (eq_sym Et) | reflexivity | exact Ey].
      * intros _. apply (lk_held _ _ HL). exists y. split; assumption.
  - assert (Hnh : ~ held s q) by (intros (y1 & A & B); congruence).
    apply (Hclaim _ RDefault Hnh); [reflexivity | now left].
Qed.

(* ---------------------------------------------------------------- releasing *)
Lemma lks_release_state q y : lks (release_state q y).
Proof. apply (pres_release_state lksim lksim_refl lksim_trans). intros s x. apply lksim_fields; reflexivity. Qed.

Lemma held_head hl s q : LK (q :: hl) s -> exists y, c_sync s q = Some y /\ sy_trans y = false.
Proof. intros HL. apply (lk_held _ _ HL). left; reflexivity. Qed.

Lemma release_returns q y' y s : snd ((set_sync q y' ;;; release_state q y) s) = COk tt.
Proof.
  unfold cbind, set_sync, cmodify, release_state. destruct (sy_wait y); cbn; [| reflexivity].
  destruct (sy_twice y), (sy_target y); reflexivity.
Qed.

Lemma release_from q y' y hl stk s : K hl stk (cset_sync s (upd (c_sync s) q y')) ->
  awp (set_sync q y' ;;; release_state q y) (fun _ s' => K hl stk s') (fun _ => False) s.
Proof.
  intros HK1.
  pose proof (awp_lks (release_state q y) hl stk _ (lks_release_state q y) HK1) as H.
  pose proof (release_returns q y' y s) as E. unfold awp in *. unfold cbind at 1 in E. unfold cbind at 1.
  change (set_sync q y' s) with (cset_sync s (upd (c_sync s) q y'), @COk unit tt) in *. cbv iota beta in *.
  destruct (release_state q y (cset_sync s (upd (c_sync s) q y'))) as [s' [a | p |]]; [apply H | discriminate | exact I].
Qed.

Lemma release_then q y' y hl stk s :
  K (q :: hl) stk s -> ~ In q stk ->
  (forall y0, y' = Some y0 -> sy_trans y0 = true /\ sy_twice y0 = false) ->
  awp (set_sync q y' ;;; release_state q y) (fun _ s' => K hl stk s') (fun _ => False) s.
Proof.
  intros [HL Hstk] Hnq Hy. apply release_from. split; [| exact Hstk].
  apply (LK_pop hl s _ q y' HL); [rewrite Hstk; exact Hnq | reflexivity | reflexivity | exact Hy].
Qed.

Lemma release_default_ok q hl stk s : K (q :: hl) stk s -> ~ In q stk ->
  awp (release_default q) (fun _ s' => K hl stk s') (fun _ => False) s.
Proof.
  intros HK Hnq. unfold release_default. apply awp_bind, awp_get.
  destruct (held_head hl s q (proj1 HK)) as (y & Ey & Et). rewrite Ey.
  apply (release_then q None y hl stk s HK Hnq). intros y0 A. discriminate.
Qed.

Lemma release_self_ok q hl stk s : K (q :: hl) stk s -> ~ In q stk ->
  awp (release_self q) (fun _ s' => K hl stk s') (fun _ => False) s.
Proof.
  intros HK Hnq. unfold release_self. apply awp_bind, awp_get.
  destruct (held_head hl s q (proj1 HK)) as (y & Ey & Et). rewrite Ey.
  destruct (sy_twice y) eqn:Etw.
  - unfold set_sync. apply awp_modify. destruct HK as [HL Hstk]. split; [| exact Hstk].
    eapply LK_pop; [exact HL | rewrite Hstk; exact Hnq | reflexivity | reflexivity |].
    intros y0 A. injection A as <-. split; reflexivity.
  - apply (release_then q None y hl stk s HK Hnq). intros y0 A. discriminate.
Qed.

Lemma transfer_ok q o hl stk s : K (q :: hl) stk s -> ~ In q stk -> In o hl ->
  awp (transfer q o) (fun _ s' => K hl stk s') (fun _ => False) s.
Proof.
  intros [HL Hstk] Hnq Ho. unfold transfer. apply awp_bind, awp_get.
  assert (Hoq : o <> q). { intros ->. pose proof (lk_nd _ _ HL) as Hnd. inversion Hnd; contradiction. }
  destruct (proj1 (lk_held _ _ HL o) (or_intror Ho)) as (yo & Eo & Eto). rewrite Eo.
  apply awp_bind. unfold set_sync at 1. apply awp_modify.
  set (s1 := cset_sync s _).
  assert (Hsim : lksim s s1).
  { apply (lks_set_sync_flags o yo); [reflexivity | reflexivity | exact Eo]. }
  assert (HK1 : K (q :: hl) stk s1) by (apply (K_sim _ _ s); [exact Hsim | split; assumption]).
  apply awp_bind, awp_get.
  destruct (held_head hl s1 q (proj1 HK1)) as (y & Ey & Et). rewrite Ey.
  apply awp_bind. unfold set_sync. apply awp_modify.
  rewrite Eto. cbn [andb].
  apply awp_modify. destruct HK1 as [HL1 Hstk1]. split; [| exact Hstk1].
  eapply LK_pop; [exact HL1 | rewrite Hstk1; exact Hnq | reflexivity | reflexivity |].
  intros y0 A. injection A as <-. split; reflexivity.
Qed.

Definition mode_ok (hl : list qkey) (m : rmode) : Prop :=
  match m with RTransfer o => In o hl | _ => True end.

Lemma drop_guard_ok q mode hl stk s : K (q :: hl) stk s -> ~ In q stk -> mode_ok hl mode ->
  awp (drop_guard q mode) (fun _ s' => K hl stk s') (fun _ => False) s.
Proof.
  intros HK Hnq Hm. destruct mode as [| | o]; cbn [drop_guard].
  - apply release_default_ok; assumption.
  - apply release_self_ok; assumption.
  - apply transfer_ok; assumption.
Qed.

(* the guard dropped while unwinding: whether or not it had been dropped already *)
Lemma release_panicking_ok q hl stk s : ~ In q stk -> ~ In q hl ->
  K (q :: hl) stk s \/ K hl stk s -> K hl stk (fst (release_panicking q s)).
Proof.
  intros Hnq Hnh HK. unfold release_panicking.
  destruct (c_sync s q) as [y |] eqn:Ey.
  - assert (H : awp (set_sync q None ;;; release_state q y) (fun _ s' => K hl stk s') (fun _ => False) s).
    { destruct HK as [HK | [HL Hstk]].
      - apply (release_then q None y hl stk s HK Hnq). intros y0 A. discriminate.
      - (* the guard had been dropped already: q's entry is a transferred one *)
        apply release_from. split; [| exact Hstk]. destruct HL as [a b c d]. constructor.
        + exact a.
        + intros p. unfold held. cbn. unfold upd. destruct (key_eqb_spec q p) as [<- | Hne].
          * split; [intros A; contradiction | intros (y0 & A & _); discriminate].
          * apply b.
        + intros p y0. cbn. unfold upd. destruct (key_eqb_spec q p) as [<- | Hne]; [discriminate | apply c].
        + exact d. }
    pose proof (release_returns q None y s) as E. unfold awp in H.
    destruct ((set_sync q None;;; release_state q y) s) as [s' [u | p |]]; [exact H | discriminate | discriminate].
  - cbn [fst]. destruct HK as [HK | HK]; [| exact HK].
    exfalso. destruct (held_head hl s q (proj1 HK)) as (y & A & _). congruence.
Qed.

(* ---------------------------------------------------------------- the query stack *)
Lemma push_ok q hl stk s : K hl stk s -> In q hl -> K hl (q :: stk) (cset_qstack s (q :: c_qstack s)).
Proof.
  intros [[a b c d] Hstk] Hq. split; [| cbn; now rewrite Hstk]. constructor; try assumption.
  cbn. intros x [<- | Hx]; [exact Hq | apply d; exact Hx].
Qed.

Lemma pop_ok q hl stk s : K hl (q :: stk) s -> K hl stk (cset_qstack s (tl (c_qstack s))).
Proof.
  intros [[a b c d] Hstk]. split; [| cbn; now rewrite Hstk]. constructor; try assumption.
  cbn. rewrite Hstk. cbn. intros x Hx. apply d. rewrite Hstk. right; exact Hx.
Qed.
