(* Cycle/RingInv.v — the invariant of the Cycle model inside the first revision, for programs
   whose (input-determined) call graph is layered by [lvl] and whose only same-level calls follow
   an injective successor map [nxt] (every strongly connected component is a simple ring).
   The development is shared by the Fixpoint rings (values: the least fixpoint [kleene]) and the
   FallbackImmediate rings (values: [spec_fallback]); what it needs to know about the values is
   collected in the class [ring]. *)
From Coq Require Import PeanoNat.
From Salsa Require Import Base.
From Salsa.Kern Require Import CoreK.
From Salsa.Core Require Import Spec.
From Salsa.Cycle Require Import StampK Model Spec SpecProofs Cert FreshBase.

Definition snap0 (iv : ikey -> val) (idur : ikey -> dur) : snapshot := csnap_of (cinit_db iv idur).

(* the call graph (for this snapshot) is layered by [lvl]; the only same-level call of a node goes
   to its [nxt], which is injective and a real call; nodes with a same-level call have a strategy
   in [fixy] *)
Definition ring_ok (fixy : qkey -> Prop) (prog : qkey -> body) (sn : snapshot) (ns : list qkey)
           (lvl : qkey -> nat) (nxt : qkey -> option qkey) : Prop :=
  (forall q d, In q ns -> In d (succs prog sn q) -> In d ns /\ ((lvl d < lvl q)%nat \/ nxt q = Some d)) /\
  (forall q d, nxt q = Some d -> lvl d = lvl q /\ fixy q /\ fixy d) /\
  (forall a b c, nxt a = Some c -> nxt b = Some c -> a = b) /\
  (forall q d, nxt q = Some d -> In d (succs prog sn q)).

Inductive npath_of (nxt : qkey -> option qkey) : qkey -> qkey -> Prop :=
| np_one q h : nxt q = Some h -> npath_of nxt q h
| np_step q d h : nxt q = Some d -> npath_of nxt d h -> npath_of nxt q h.
Arguments np_one {nxt}.
Arguments np_step {nxt}.

(* what Model.round makes of a body's result [v]: the next provisional value of a head whose last
   value was [lv], whether that counts as converged, and the value a participant stores *)
Section Strategy.
Variable strat : N -> strategy.
Variable cinit : qkey -> val.

Definition next_val (q : qkey) (lv v : val) : val :=
  match strat_of strat q with SFallback => cinit q | _ => recover strat q lv v end.
Definition val_conv (q : qkey) (lv v : val) : bool :=
  match strat_of strat q with SFallback => true | _ => recover strat q lv v =? lv end.
Definition part_val (q : qkey) (v : val) : val :=
  match strat_of strat q with SFallback => cinit q | _ => v end.

Lemma round_vals q lv v :
  match strat_of strat q with
  | SFallback => (cinit q, true)
  | _ => (recover strat q lv v, recover strat q lv v =? lv)
  end = (next_val q lv v, val_conv q lv v).
Proof. unfold next_val, val_conv. destruct (strat_of strat q); reflexivity. Qed.

Lemma val_conv_false q lv v : val_conv q lv v = false -> next_val q lv v <> lv.
Proof.
  unfold next_val, val_conv. destruct (strat_of strat q); try discriminate; intros H; now apply N.eqb_neq.
Qed.

End Strategy.

(* The programs, and what the proof knows of the values.  [tgt] is the value every member ends
   with; [live h x] is what reads are answered from while the head [h] of the running ring holds
   the provisional value [x]; [vok] bounds the values, [headok h x] says that [x] is an
   acceptable provisional value of [h], and [pot] is the part of the loop's progress measure
   that depends on it ([bound] is the total, at the first trip).
   In the laws below the premise [npath_of rnxt q q] says that q lies on a ring: following [rnxt]
   from q leads back to q. *)
Class ring : Type := {
  rprog : qkey -> body;
  (* strategies are given per family: node q uses [strat_of rstrat q = rstrat (fst q)] *)
  rstrat : N -> strategy;
  (* as in Model: cycle_initial of a Fixpoint function, cycle_result of a fallback function *)
  rcinit : qkey -> val;
  riv : ikey -> val;
  ridur : ikey -> dur;
  (* every node there is: closed under calls ([r_ring]), and the keys that may be fetched *)
  rns : list qkey;
  rlvl : qkey -> nat;
  rnxt : qkey -> option qkey;
  (* which nodes may lie on a ring.  The Fixpoint rings take the nodes with a Fixpoint strategy,
     the fallback rings those with cycle_result; all the development knows of it is [r_rec] *)
  rfixy : qkey -> Prop;
  tgt : qkey -> val;
  live : qkey -> val -> qkey -> val;
  vok : val -> Prop;
  headok : qkey -> val -> Prop;
  pot : val -> N;
  (* an instance takes the largest [pot (rcinit d)] + 4 ([head_init]); it must not exceed 12 *)
  bound : N;
  r_det : input_determined rprog (snap0 riv ridur);
  r_ring : ring_ok rfixy rprog (snap0 riv ridur) rns rlvl rnxt;
  (* so a re-entered ring member becomes a provisional head instead of a cycle panic *)
  r_rec : forall q, rfixy q -> recovers (strat_of rstrat q) = true;
  (* so iteration stamps stay below 16: far from Model's limit of 200 trips and from the 256 at
     which a stamp would spill into the cancellation count *)
  r_bound : bound <= 12;
  tgt_ok : forall q, vok (tgt q);
  live_ok : forall h x q, vok x -> vok (live h x q);
  (* off the cycles the target satisfies its own equation *)
  tgt_fix : forall q, In q rns ->
    ~ (exists d, In d (succs rprog (snap0 riv ridur) q) /\
                 reaches rprog (snap0 riv ridur) d q) ->
    F rprog (snap0 riv ridur) tgt q = tgt q;
  (* nodes that cannot reach the head do not see its provisional value *)
  live_indep : forall h x p, ~ reaches rprog (snap0 riv ridur) p h -> live h x p = tgt p;
  (* the running head itself is read at its provisional value *)
  live_head : forall h x, In h rns -> npath_of rnxt h h -> vok x -> headok h x -> live h x h = x;
  (* the other members of the ring store what the reads of the next trip expect *)
  live_part : forall b x q, In q rns -> rfixy q -> q <> b -> npath_of rnxt q q -> vok x ->
    part_val rstrat rcinit q (F rprog (snap0 riv ridur) (live b x) q) = live b x q;
  (* the first provisional memo holds [cycle_initial], with durability 3 and no untracked read:
     4 units of potential beside the value's *)
  head_init : forall d, In d rns -> rfixy d -> npath_of rnxt d d ->
    vok (rcinit d) /\ headok d (rcinit d) /\ pot (rcinit d) + 4 <= bound;
  (* one more trip keeps the provisional value acceptable, and either leaves it unchanged (the
     trip converges) or lowers the potential: with [head_init] and [r_bound] this is termination *)
  head_step : forall q lv, In q rns -> rfixy q -> npath_of rnxt q q -> vok lv -> headok q lv ->
    let v := next_val rstrat rcinit q lv (F rprog (snap0 riv ridur) (live q lv) q) in
    vok v /\ headok q v /\ (v = lv \/ pot v + 1 <= pot lv);
  (* a converged head has reached the target, and so has everything that read it *)
  head_conv : forall q lv, In q rns -> rfixy q -> npath_of rnxt q q -> vok lv -> headok q lv ->
    val_conv rstrat q lv (F rprog (snap0 riv ridur) (live q lv) q) = true ->
    next_val rstrat rcinit q lv (F rprog (snap0 riv ridur) (live q lv) q) = lv /\
    forall p, live q lv p = tgt p
}.

Section Ring.
Context {R : ring}.
Notation prog := (@rprog R).
Notation strat := (@rstrat R).
Notation cinit := (@rcinit R).
Notation iv := (@riv R).
Notation idur := (@ridur R).
Notation ns := (@rns R).
Notation lvl := (@rlvl R).
Notation nxt := (@rnxt R).

Notation sn := (snap0 iv idur).

Definition s0 : cdb := cinit_db iv idur.

Notation sc := (succs prog sn).
Notation fixy := (@rfixy R).
Notation npath := (npath_of nxt).
Notation T := (@tgt R).
Notation LV := (@live R).

(* the class fields and the four clauses of [ring_ok] at the section's notations; they carry
   hypothesis-like names because the lemmas below use them like section hypotheses *)
Lemma Hdet : input_determined prog sn.
Proof. exact r_det. Qed.
Lemma Hring : ring_ok fixy prog sn ns lvl nxt.
Proof. exact r_ring. Qed.

Lemma Hcalls q d : In q ns -> In d (sc q) -> In d ns /\ ((lvl d < lvl q)%nat \/ nxt q = Some d).
Proof. apply Hring. Qed.
Lemma Hnxt q d : nxt q = Some d -> lvl d = lvl q /\ fixy q /\ fixy d.
Proof. apply Hring. Qed.
Lemma Hinj a b c : nxt a = Some c -> nxt b = Some c -> a = b.
Proof. apply Hring. Qed.
Lemma Hreal q d : nxt q = Some d -> In d (sc q).
Proof. apply Hring. Qed.

Lemma f_ext_succs rho rho' q : (forall d, In d (sc q) -> rho d = rho' d) -> F prog sn rho q = F prog sn rho' q.
Proof. apply F_ext_succs, Hdet. Qed.

Lemma npath_lvl q h : npath q h -> lvl h = lvl q.
Proof.
  induction 1 as [q h H | q d h H _ IH].
  - apply (Hnxt q h H).
  - rewrite IH. apply (Hnxt q d H).
Qed.

Lemma npath_split q a : npath q a -> forall c, npath q c -> a = c \/ npath a c \/ npath c a.
Proof.
  induction 1 as [q a Ha | q d a Hd Hda IH]; intros c Hc.
  - inversion Hc as [q' c' Hqc | q' d' c' Hqd Hdc]; subst.
    + left. congruence.
    + right; left. rewrite Ha in Hqd. injection Hqd as <-. exact Hdc.
  - inversion Hc as [q' c' Hqc | q' d' c' Hqd Hdc]; subst.
    + right; right. rewrite Hd in Hqc. injection Hqc as <-. exact Hda.
    + rewrite Hd in Hqd. injection Hqd as <-. now apply IH.
Qed.

Lemma npath_trans a b c : npath a b -> npath b c -> npath a c.
Proof.
  induction 1 as [a b Hab | a d b Had _ IH]; intros Hbc.
  - now apply (np_step a b c).
  - apply (np_step a d c Had). now apply IH.
Qed.

(* each frame was called by the one under it *)
Fixpoint chain (st : list qkey) : Prop :=
  match st with
  | q :: ((q' :: _) as r) => In q (sc q') /\ chain r
  | _ => True
  end.

Lemma chain_mono st : incl st ns -> chain st -> mono lvl st.
Proof.
  induction st as [| q r IH]; intros Hin Hc; [exact I |].
  assert (Hr : incl r ns) by (intros x Hx; apply Hin; now right).
  destruct r as [| q' r'].
  - split; [intros x [] | exact I].
  - destruct Hc as [Hq Hc]. specialize (IH Hr Hc). split; [| exact IH].
    assert (Hle : (lvl q <= lvl q')%nat).
    { destruct (Hcalls q' q (Hr q' (or_introl eq_refl)) Hq) as [_ [Hlt | Hn]]; [lia |].
      destruct (Hnxt q' q Hn) as [He _]. lia. }
    intros x [<- | Hx]; [exact Hle |].
    destruct IH as [Hq' _]. specialize (Hq' x Hx). lia.
Qed.

Definition own (q : qkey) (m : cmemo) : Prop :=
  cm_final m = false /\ cm_extra m = true /\ cm_heads m = [(q, cm_iter m)].
Definition part (q h : qkey) (it : stamp) (m : cmemo) : Prop :=
  cm_final m = false /\ cm_extra m = true /\ cm_heads m = [(h, it)] /\ h <> q.

(* the provisional value of a head: what its memo holds, or what its first trip starts from *)
Definition hv (s : cdb) (h : qkey) : val :=
  match c_memo s h with
  | Some m => match cm_val m with Some v => v | None => cinit h end
  | None => cinit h
  end.

Definition done (s : cdb) (d : qkey) : Prop :=
  exists m, c_memo s d = Some m /\
    (cm_final m = true \/
     exists h it mh, part d h it m /\ c_memo s h = Some mh /\ cm_final mh = true /\ iter_of mh = it).

Definition partat (s : cdb) (d h : qkey) (it : stamp) : Prop :=
  exists md, c_memo s d = Some md /\ part d h it md.

(* progress measure of a head's provisional memo *)
Definition hpot (m : cmemo) : N :=
  match cm_val m with
  | Some v => pot v + cm_dur m + (if cm_untracked m then 0 else 1)
  | None => 0
  end.

(* Every memo is of one of three kinds.  Final: it holds the target, its node has left the
   stack and all its callees are done.  Own: the provisional memo of a head, which is on the stack
   as the entry of its level's segment and whose ring is closed.  Participant: provisional under
   a single head [h] of its ring at stamp [it]; while [h] still holds that stamp it is live (its
   value is what [h]'s current provisional value gives, its callees are done, [h] itself, or
   participants of the same trip), once [h] is final at that stamp it is settled (it holds the
   target), and at any other stamp it is stale and says nothing.
   Termination is the clause [cm_iter m + hpot m <= bound] of an own memo: a trip that does not
   converge adds one to the iteration count and takes at least one from the potential
   ([head_step]; durability and the untracked flag only fall).  So a head's stamp never exceeds
   [bound] <= 12; the constants 13 to 15 met later allow for the increments that completing a
   cycle adds. *)
Definition kind_final (st : list qkey) (s : cdb) (q : qkey) (m : cmemo) : Prop :=
  cm_final m = true /\ cm_val m = Some (T q) /\ ~ In q st /\ iter_of m <= 15 /\
  (forall d, In d (sc q) -> done s d).

Definition kind_own (st : list qkey) (s : cdb) (q : qkey) (m : cmemo) : Prop :=
  own q m /\ bottom lvl st q /\ fixy q /\ cm_dur m <= 3 /\ cm_iter m + hpot m <= bound /\
  (npath q q /\ forall x, npath q x -> npath x q) /\
  exists v, cm_val m = Some v /\ headok q v.

Definition kind_part (st : list qkey) (s : cdb) (q : qkey) (m : cmemo) : Prop :=
  exists h it mh, part q h it m /\ npath q h /\ c_memo s h = Some mh /\
    (own h mh \/ cm_final mh = true) /\ it <= iter_of mh /\ it <= bound /\ cm_iter m <= it + 1 /\
    (iter_of mh = it -> cm_final mh = false ->
       cm_val m = Some (LV h (hv s h) q) /\ ~ In q st /\
       forall d, In d (sc q) -> done s d \/ d = h \/ partat s d h it) /\
    (iter_of mh = it -> cm_final mh = true ->
       cm_val m = Some (T q) /\ ~ In q st /\ forall d, In d (sc q) -> done s d).

Record memo_ok (st : list qkey) (s : cdb) (q : qkey) (m : cmemo) : Prop := {
  mo_ns : In q ns;
  mo_ver : cm_verified m = REV_START;
  mo_chg : cm_changed m = REV_START;
  mo_val : exists v, cm_val m = Some v /\ vok v;
  mo_kind : kind_final st s q m \/ kind_own st s q m \/ kind_part st s q m
}.

Definition held (s : cdb) (q : qkey) : Prop :=
  exists y, c_sync s q = Some y /\ sy_trans y = false.

(* [hl]: the keys whose claim guard is open.  [st]: the nodes being fetched, innermost first — a
   ghost stack, not [c_qstack] (which no clause mentions: [Inv_set_qstack]); between two Gets both
   are empty, inside the theorem's induction they coincide.
   The first five fields: inputs, cells and revisions are those of the initial database and no
   cancellation has happened.  [iv_twice] is the sync table's own rule that an entry claimed a
   second time is not flagged transferred (try_claim asserts it). *)
Record Inv (hl st : list qkey) (s : cdb) : Prop := {
  iv_in : c_in s = c_in s0;
  iv_cell : c_cell s = c_cell s0;
  iv_pcell : c_pcell s = c_pcell s0;
  iv_revs : c_revs s = c_revs s0;
  iv_cc : c_ccount s = 0;
  iv_nd : NoDup st;
  iv_incl : incl st ns;
  iv_chain : chain st;
  iv_sync : forall q, In q hl <-> held s q;
  iv_twice : forall q y, c_sync s q = Some y -> sy_twice y = true -> sy_trans y = false;
  iv_memo : forall q m, c_memo s q = Some m -> memo_ok st s q m
}.

Lemma ccur_inv hl st s : Inv hl st s -> ccur s = REV_START.
Proof. intros H. unfold ccur. rewrite (iv_revs _ _ _ H). reflexivity. Qed.

Lemma own_not_part q m h it : own q m -> part q h it m -> False.
Proof.
  intros (_ & _ & Ho) (_ & _ & Hp & Hne). rewrite Ho in Hp. injection Hp as <- _. now apply Hne.
Qed.

Lemma done_val hl st s d : Inv hl st s -> done s d ->
  exists m, c_memo s d = Some m /\ cm_val m = Some (T d) /\ ~ In d st /\
            forall e, In e (sc d) -> done s e.
Proof.
  intros HI (m & Hm & Hd). exists m. split; [exact Hm |].
  destruct (mo_kind _ _ _ _ (iv_memo _ _ _ HI d m Hm)) as [Hf | [Ho | Hp]].
  - destruct Hf as (_ & Hv & Hn & _ & Hs). now repeat split.
  - exfalso. destruct Ho as ((Hnf & _ & Hh) & _). destruct Hd as [Hf | (h & it & mh & Hp & _)]; [congruence |].
    destruct Hp as (_ & _ & Hp & Hne). rewrite Hh in Hp. injection Hp as <- _. now apply Hne.
  - destruct Hp as (h & it & mh & Hp & _ & Hmh & _ & _ & _ & _ & _ & Hset).
    destruct Hd as [Hf | (h' & it' & mh' & Hp' & Hmh' & Hf' & Hit')].
    + destruct Hp as (Hnf & _). congruence.
    + destruct Hp as (_ & _ & Hh & _). destruct Hp' as (_ & _ & Hh' & _).
      rewrite Hh in Hh'. injection Hh' as <- <-. rewrite Hmh in Hmh'. injection Hmh' as <-.
      destruct (Hset Hit' Hf') as (Hv & Hn & Hs). now repeat split.
Qed.

Lemma done_not_stack hl st s d : Inv hl st s -> done s d -> ~ In d st.
Proof. intros HI Hd. now destruct (done_val _ _ _ _ HI Hd) as (m & _ & _ & Hn & _). Qed.

Lemma done_reach hl st s f h : Inv hl st s -> reaches prog sn f h -> done s f -> done s h.
Proof.
  intros HI Hr. induction Hr as [p | p d h Hd _ IH]; intros Hf; [exact Hf |].
  apply IH. destruct (done_val _ _ _ _ HI Hf) as (m & _ & _ & _ & Hs). now apply Hs.
Qed.

Lemma done_indep hl st s d b x : Inv hl st s -> done s d -> In b st -> LV b x d = T d.
Proof.
  intros HI Hd Hb. apply live_indep.
  intros Hr. apply (done_not_stack _ _ _ _ HI (done_reach _ _ _ _ _ HI Hr Hd)). exact Hb.
Qed.

(* A memo that is good in s stays good in s' when done nodes stay done and, if it is a participant
   under head h, one of three things happened to h's memo: it is unchanged (with its value and
   its live participants); it advanced to a later stamp (p is stale now); or it was finalised at
   the same stamp with its live assignment equal to the target (p is settled now). *)
Lemma memo_ok_transfer st st' s s' p m :
  memo_ok st s p m ->
  (~ In p st -> ~ In p st') ->
  (own p m -> bottom lvl st' p) ->
  (forall d, done s d -> done s' d) ->
  (forall h it, part p h it m -> forall mh, c_memo s h = Some mh ->
      (c_memo s' h = Some mh /\ hv s' h = hv s h /\
       (iter_of mh = it -> cm_final mh = false -> forall d, partat s d h it -> partat s' d h it))
      \/ (exists mh', c_memo s' h = Some mh' /\ (own h mh' \/ cm_final mh' = true) /\ iter_of mh < iter_of mh')
      \/ (exists mh', c_memo s' h = Some mh' /\ cm_final mh' = true /\ cm_final mh = false /\
            iter_of mh' = iter_of mh /\ (forall p', LV h (hv s h) p' = T p') /\ done s' h /\
            (forall d, partat s d h (iter_of mh) -> done s' d))) ->
  memo_ok st' s' p m.
Proof.
  intros [Hns Hver Hchg Hval Hkind] Hst Hbot Hdone Hhead.
  constructor; try assumption.
  destruct Hkind as [Hf | [Ho | Hp]].
  - left. destruct Hf as (Hfin & Hv & Hn & Hit & Hs).
    split; [exact Hfin |]. split; [exact Hv |]. split; [now apply Hst |].
    split; [exact Hit |]. intros d Hd. apply Hdone, Hs, Hd.
  - right; left. destruct Ho as (Hown & Hb & Hrest). split; [exact Hown |]. split; [now apply Hbot | exact Hrest].
  - right; right. destruct Hp as (h & it & mh & Hp & Hnp & Hmh & Hk & Hle & Hit12 & Hmi & Hlive & Hset).
    destruct (Hhead h it Hp mh Hmh) as [(Hmh' & Hhv & Hpa) | [(mh' & Hmh' & Hown' & Hlt) | (mh' & Hmh' & Hf' & Hnf & Hit' & HK & Hdh & Hpd)]].
    + exists h, it, mh. split; [exact Hp |]. split; [exact Hnp |]. split; [exact Hmh' |].
      split; [exact Hk |]. split; [exact Hle |]. split; [exact Hit12 |]. split; [exact Hmi |].
      split.
      * intros He Hnf. destruct (Hlive He Hnf) as (Hv & Hn & Hs).
        split; [rewrite Hhv; exact Hv |]. split; [now apply Hst |].
        intros d Hd. destruct (Hs d Hd) as [H1 | [H1 | H1]].
        -- left. now apply Hdone.
        -- right; left. exact H1.
        -- right; right. now apply Hpa.
      * intros He Hf. destruct (Hset He Hf) as (Hv & Hn & Hs).
        split; [exact Hv |]. split; [now apply Hst |].
        intros d Hd. apply Hdone, Hs, Hd.
    + exists h, it, mh'. split; [exact Hp |]. split; [exact Hnp |]. split; [exact Hmh' |].
      split; [exact Hown' |]. split; [lia |]. split; [exact Hit12 |]. split; [exact Hmi |].
      split.
      * intros Heq. lia.
      * intros Heq. lia.
    + exists h, it, mh'. split; [exact Hp |]. split; [exact Hnp |]. split; [exact Hmh' |].
      split; [now right |]. split; [lia |]. split; [exact Hit12 |]. split; [exact Hmi |].
      split.
      * intros _ Hf. congruence.
      * intros Heq _. rewrite Hit' in Heq. destruct (Hlive Heq Hnf) as (Hv & Hn & Hs).
        split; [rewrite Hv, HK; reflexivity |]. split; [now apply Hst |].
        intros d Hd. destruct (Hs d Hd) as [H1 | [H1 | H1]].
        -- now apply Hdone.
        -- subst d. exact Hdh.
        -- apply Hpd. rewrite Heq. exact H1.
Qed.

Definition mupd (s s' : cdb) (q : qkey) (m' : cmemo) : Prop :=
  c_in s' = c_in s /\ c_cell s' = c_cell s /\ c_pcell s' = c_pcell s /\ c_revs s' = c_revs s /\
  c_ccount s' = c_ccount s /\ c_sync s' = c_sync s /\
  (forall p, c_memo s' p = if key_eqb q p then Some m' else c_memo s p).

Lemma mupd_same s s' q m' : mupd s s' q m' -> c_memo s' q = Some m'.
Proof. intros (_ & _ & _ & _ & _ & _ & H). rewrite H, key_eqb_refl. reflexivity. Qed.

Lemma mupd_other s s' q m' p : mupd s s' q m' -> p <> q -> c_memo s' p = c_memo s p.
Proof.
  intros (_ & _ & _ & _ & _ & _ & H) Hne. rewrite H.
  destruct (key_eqb_spec q p) as [-> | _]; [congruence | reflexivity].
Qed.

Lemma mupd_put s q m' : mupd s (cset_memo s (upd (c_memo s) q (Some m'))) q m'.
Proof. unfold mupd. cbn. repeat split. Qed.

Lemma hv_other s s' q m' p : mupd s s' q m' -> p <> q -> hv s' p = hv s p.
Proof. intros H Hne. unfold hv. now rewrite (mupd_other _ _ _ _ _ H Hne). Qed.

Lemma part_inj q h it h' it' m : part q h it m -> part q h' it' m -> h = h' /\ it = it'.
Proof.
  intros (_ & _ & H1 & _) (_ & _ & H2 & _). rewrite H1 in H2. injection H2 as <- <-. now split.
Qed.

Lemma done_upd s s' q m' d : mupd s s' q m' -> ~ done s q -> done s d -> done s' d.
Proof.
  intros Hu Hnq (m & Hm & Hd).
  assert (Hdq : d <> q). { intros ->. apply Hnq. now exists m. }
  exists m. split; [now rewrite (mupd_other _ _ _ _ _ Hu Hdq) |].
  destruct Hd as [Hf | (h & it & mh & Hp & Hmh & Hf & Hit)]; [now left |].
  right. exists h, it, mh. split; [exact Hp |]. split; [| now split].
  assert (Hhq : h <> q). { intros ->. apply Hnq. exists mh. split; [exact Hmh | now left]. }
  now rewrite (mupd_other _ _ _ _ _ Hu Hhq).
Qed.

Lemma partat_upd s s' q m' d h it : mupd s s' q m' -> d <> q -> partat s d h it -> partat s' d h it.
Proof.
  intros Hu Hne (md & Hmd & Hp). exists md. split; [| exact Hp]. now rewrite (mupd_other _ _ _ _ _ Hu Hne).
Qed.

Lemma memo_ok_head st s p m h it : memo_ok st s p m -> part p h it m ->
  exists mh, c_memo s h = Some mh /\ (own h mh \/ cm_final mh = true) /\ it <= iter_of mh /\
    (iter_of mh = it -> cm_final mh = false -> ~ In p st).
Proof.
  intros Hok Hp. destruct (mo_kind _ _ _ _ Hok) as [Hf | [Ho | Hk]].
  - destruct Hf as (Hf & _). destruct Hp as (Hnf & _). congruence.
  - destruct Ho as (Ho & _). exfalso. eapply own_not_part; eassumption.
  - destruct Hk as (h' & it' & mh & Hp' & _ & Hmh & Hk & Hle & _ & _ & Hlive & _).
    destruct (part_inj _ _ _ _ _ _ Hp Hp') as [-> ->].
    exists mh. split; [exact Hmh |]. split; [exact Hk |]. split; [exact Hle |].
    intros He Hnf. now destruct (Hlive He Hnf) as (_ & Hn & _).
Qed.

Definition idle (s : cdb) (q : qkey) : Prop :=
  match c_memo s q with
  | None => True
  | Some m => exists h it mh, part q h it m /\ c_memo s h = Some mh /\ iter_of mh <> it
  end.

Lemma idle_not_done s q : idle s q -> ~ done s q.
Proof.
  unfold idle. intros Hi (m & Hm & Hd). rewrite Hm in Hi.
  destruct Hi as (h & it & mh & Hp & Hmh & Hne).
  destruct Hd as [Hf | (h' & it' & mh' & Hp' & Hmh' & Hf' & Hit')].
  - destruct Hp as (Hnf & _). congruence.
  - destruct (part_inj _ _ _ _ _ _ Hp Hp') as [<- <-]. rewrite Hmh in Hmh'. injection Hmh' as <-. contradiction.
Qed.

Lemma idle_not_head s q h mh : idle s q -> c_memo s h = Some mh -> (own h mh \/ cm_final mh = true) -> h <> q.
Proof.
  unfold idle. intros Hi Hmh Hk ->. rewrite Hmh in Hi. destruct Hi as (h' & it & mh' & Hp & _).
  destruct Hk as [Ho | Hf].
  - eapply own_not_part; eassumption.
  - destruct Hp as (Hnf & _). congruence.
Qed.

Lemma others_idle hl st st' s s' q m' :
  Inv hl st s -> mupd s s' q m' -> idle s q ->
  (forall x, In x st' -> In x st) ->
  (forall h, h <> q -> bottom lvl st h -> bottom lvl st' h) ->
  forall p m, p <> q -> c_memo s p = Some m -> memo_ok st' s' p m.
Proof.
  intros HI Hu Hidle Hst Hbot p m Hpq Hm.
  assert (Hok := iv_memo _ _ _ HI p m Hm).
  apply (memo_ok_transfer st st' s s' p m Hok (fun Hn Hx => Hn (Hst _ Hx))).
  - intros Ho. apply Hbot; [exact Hpq |].
    destruct (mo_kind _ _ _ _ Hok) as [Hf | [Hk | Hk]].
    + destruct Hf as (Hf & _). destruct Ho as (Hnf & _). congruence.
    + now destruct Hk as (_ & Hb & _).
    + destruct Hk as (h & it & mh & Hp & _). exfalso. eapply own_not_part; eassumption.
  - intros d. apply (done_upd _ _ _ _ _ Hu). now apply idle_not_done.
  - intros h it Hp mh Hmh. left.
    destruct (memo_ok_head _ _ _ _ _ _ Hok Hp) as (mh0 & Hmh0 & Hk & _).
    assert (Hhq : h <> q) by (eapply idle_not_head; eassumption).
    split; [now rewrite (mupd_other _ _ _ _ _ Hu Hhq) |].
    split; [now apply (hv_other _ _ _ _ _ Hu) |].
    intros He Hnf d Hpa. apply (partat_upd _ _ _ _ _ _ _ Hu); [| exact Hpa].
    intros ->. destruct Hpa as (md & Hmd & Hpd). unfold idle in Hidle. rewrite Hmd in Hidle.
    destruct Hidle as (h' & it' & mh' & Hp' & Hmh' & Hne).
    destruct (part_inj _ _ _ _ _ _ Hpd Hp') as [<- <-]. rewrite Hmh in Hmh'. injection Hmh' as <-. contradiction.
Qed.

Lemma Inv_upd hl st st' s s' q m' :
  Inv hl st s -> mupd s s' q m' -> NoDup st' -> incl st' ns -> chain st' ->
  memo_ok st' s' q m' ->
  (forall p m, p <> q -> c_memo s p = Some m -> memo_ok st' s' p m) ->
  Inv hl st' s'.
Proof.
  intros HI Hu Hnd Hin Hch Hq Hoth.
  assert (Hu' := Hu). destruct Hu' as (H1 & H2 & H3 & H4 & H5 & H6 & H7).
  constructor.
  - rewrite H1. apply (iv_in _ _ _ HI).
  - rewrite H2. apply (iv_cell _ _ _ HI).
  - rewrite H3. apply (iv_pcell _ _ _ HI).
  - rewrite H4. apply (iv_revs _ _ _ HI).
  - rewrite H5. apply (iv_cc _ _ _ HI).
  - exact Hnd.
  - exact Hin.
  - exact Hch.
  - intros x. unfold held. rewrite H6. apply (iv_sync _ _ _ HI).
  - intros x y. rewrite H6. apply (iv_twice _ _ _ HI).
  - intros p m Hm. destruct (key_eqb_spec p q) as [-> | Hne].
    + rewrite (mupd_same _ _ _ _ Hu) in Hm. injection Hm as <-. exact Hq.
    + rewrite (mupd_other _ _ _ _ _ Hu Hne) in Hm. now apply Hoth.
Qed.

Lemma own_not_done hl st s q m : Inv hl st s -> c_memo s q = Some m -> own q m -> ~ done s q.
Proof.
  intros HI Hm Ho (m' & Hm' & Hd). rewrite Hm in Hm'. injection Hm' as <-.
  destruct Hd as [Hf | (h & it & mh & Hp & _)].
  - destruct Ho as (Hnf & _). congruence.
  - eapply own_not_part; eassumption.
Qed.

Lemma kind_of_own st s q m : memo_ok st s q m -> own q m -> kind_own st s q m.
Proof.
  intros Hok Ho. destruct (mo_kind _ _ _ _ Hok) as [Hf | [Hk | Hk]].
  - destruct Hf as (Hf & _). destruct Ho as (Hnf & _). congruence.
  - exact Hk.
  - destruct Hk as (h & it & mh & Hp & _). exfalso. eapply own_not_part; eassumption.
Qed.

(* the memo of a head q is replaced (next iteration, or finalised) *)
Lemma others_own hl st st' s s' q mq m' :
  Inv hl st s -> mupd s s' q m' -> c_memo s q = Some mq -> own q mq ->
  (forall x, In x st' -> In x st) ->
  (forall h, h <> q -> bottom lvl st h -> bottom lvl st' h) ->
  (((own q m' \/ cm_final m' = true) /\ iter_of mq < iter_of m') \/
   (cm_final m' = true /\ iter_of m' = iter_of mq /\ (forall p', LV q (hv s q) p' = T p'))) ->
  forall p m, p <> q -> c_memo s p = Some m -> memo_ok st' s' p m.
Proof.
  intros HI Hu Hmq Hoq Hst Hbot Hcase p m Hpq Hm.
  assert (Hok := iv_memo _ _ _ HI p m Hm).
  assert (Hnd : ~ done s q) by (eapply own_not_done; eassumption).
  apply (memo_ok_transfer st st' s s' p m Hok (fun Hn Hx => Hn (Hst _ Hx))).
  - intros Ho. apply Hbot; [exact Hpq |]. now destruct (kind_of_own _ _ _ _ Hok Ho) as (_ & Hb & _).
  - intros d. now apply (done_upd _ _ _ _ _ Hu).
  - intros h it Hp mh Hmh.
    assert (Hpa : forall d it', partat s d h it' -> d <> q).
    { intros d it' (md & Hmd & Hpd) ->. rewrite Hmq in Hmd. injection Hmd as <-.
      eapply own_not_part; eassumption. }
    destruct (key_eqb_spec h q) as [-> | Hhq].
    + rewrite Hmq in Hmh. injection Hmh as <-.
      destruct Hcase as [(Ho' & Hlt) | (Hf' & Hit' & HK)].
      * right; left. exists m'. split; [apply (mupd_same _ _ _ _ Hu) |]. now split.
      * right; right. exists m'. split; [apply (mupd_same _ _ _ _ Hu) |]. split; [exact Hf' |].
        split; [apply Hoq |]. split; [exact Hit' |]. split; [exact HK |].
        split.
        -- exists m'. split; [apply (mupd_same _ _ _ _ Hu) | now left].
        -- intros d Hd. assert (Hdq := Hpa d _ Hd). destruct Hd as (md & Hmd & Hpd).
           exists md. split; [now rewrite (mupd_other _ _ _ _ _ Hu Hdq) |].
           right. exists q, (iter_of mq), m'. split; [exact Hpd |].
           split; [apply (mupd_same _ _ _ _ Hu) |]. now split.
    + left. split; [now rewrite (mupd_other _ _ _ _ _ Hu Hhq) |].
      split; [now apply (hv_other _ _ _ _ _ Hu) |].
      intros _ _ d Hd. apply (partat_upd _ _ _ _ _ _ _ Hu); [| exact Hd]. eapply Hpa; eassumption.
Qed.

(* a settled memo gets its final flag *)
Lemma others_settle hl st s s' q m hq itq mhq :
  Inv hl st s -> mupd s s' q (with_final m true) -> c_memo s q = Some m ->
  part q hq itq m -> c_memo s hq = Some mhq -> cm_final mhq = true -> iter_of mhq = itq ->
  forall p mp, p <> q -> c_memo s p = Some mp -> memo_ok st s' p mp.
Proof.
  intros HI Hu Hmq Hpq Hmhq Hfq Hitq p mp Hne Hmp.
  assert (Hok := iv_memo _ _ _ HI p mp Hmp).
  assert (Hnh : forall h mh, c_memo s h = Some mh -> (own h mh \/ cm_final mh = true) -> h <> q).
  { intros h mh Hmh Hk ->. rewrite Hmq in Hmh. injection Hmh as <-. destruct Hk as [Ho | Hf].
    - eapply own_not_part; eassumption.
    - destruct Hpq as (Hnf & _). congruence. }
  assert (Hhq : hq <> q) by (eapply Hnh; [exact Hmhq | now right]).
  assert (Hdone : forall d, done s d -> done s' d).
  { intros d (md & Hmd & Hd). destruct (key_eqb_spec d q) as [-> | Hdq].
    - exists (with_final m true). split; [apply (mupd_same _ _ _ _ Hu) | now left].
    - exists md. split; [now rewrite (mupd_other _ _ _ _ _ Hu Hdq) |].
      destruct Hd as [Hf | (h & it & mh & Hp & Hmh & Hf & Hit)]; [now left |].
      right. exists h, it, mh. split; [exact Hp |]. split; [| now split].
      assert (Hh : h <> q) by (eapply Hnh; [exact Hmh | now right]).
      now rewrite (mupd_other _ _ _ _ _ Hu Hh). }
  apply (memo_ok_transfer st st s s' p mp Hok (fun H => H)).
  - intros Ho. now destruct (kind_of_own _ _ _ _ Hok Ho) as (_ & Hb & _).
  - exact Hdone.
  - intros h it Hp mh Hmh. left.
    destruct (memo_ok_head _ _ _ _ _ _ Hok Hp) as (mh0 & Hmh0 & Hk & _).
    assert (Hh : h <> q) by (eapply Hnh; eassumption).
    split; [now rewrite (mupd_other _ _ _ _ _ Hu Hh) |].
    split; [now apply (hv_other _ _ _ _ _ Hu) |].
    intros He Hnf d Hpa. apply (partat_upd _ _ _ _ _ _ _ Hu); [| exact Hpa].
    intros ->. destruct Hpa as (md & Hmd & Hpd). rewrite Hmq in Hmd. injection Hmd as <-.
    destruct (part_inj _ _ _ _ _ _ Hpd Hpq) as [-> ->]. rewrite Hmhq in Hmh. injection Hmh as <-. congruence.
Qed.

Lemma settle_new hl st s s' q m hq itq mhq :
  Inv hl st s -> mupd s s' q (with_final m true) -> c_memo s q = Some m ->
  part q hq itq m -> c_memo s hq = Some mhq -> cm_final mhq = true -> iter_of mhq = itq ->
  memo_ok st s' q (with_final m true).
Proof.
  intros HI Hu Hmq Hpq Hmhq Hfq Hitq.
  assert (Hok := iv_memo _ _ _ HI q m Hmq).
  assert (Hd : done s q).
  { exists m. split; [exact Hmq |]. right. exists hq, itq, mhq. split; [exact Hpq |]. split; [exact Hmhq |]. now split. }
  destruct (done_val _ _ _ _ HI Hd) as (m1 & Hm1 & Hv & Hn & Hs). rewrite Hmq in Hm1. injection Hm1 as <-.
  destruct Hok as [Hns Hver Hchg Hval Hkind].
  constructor; try assumption.
  left. split; [reflexivity |]. split; [exact Hv |]. split; [exact Hn |]. split.
  - destruct Hkind as [Hf | [Hk | Hk]].
    + destruct Hf as (Hf & _). destruct Hpq as (Hnf & _). congruence.
    + destruct Hk as (Ho & _). exfalso. eapply own_not_part; eassumption.
    + destruct Hk as (h & it & mh & Hp & _ & _ & _ & _ & Hit12 & Hmi & _).
      destruct Hp as (_ & He & _). unfold iter_of. cbn. rewrite He. assert (HB := @r_bound R). lia.
  - intros d Hdd. specialize (Hs d Hdd).
    destruct Hs as (md & Hmd & Hk). destruct (key_eqb_spec d q) as [-> | Hdq].
    + exists (with_final m true). split; [apply (mupd_same _ _ _ _ Hu) | now left].
    + exists md. split; [now rewrite (mupd_other _ _ _ _ _ Hu Hdq) |].
      destruct Hk as [Hf | (h & it & mh & Hp & Hmh & Hf & Hit)]; [now left |].
      right. exists h, it, mh. split; [exact Hp |]. split; [| now split].
      assert (Hh : h <> q).
      { intros ->. rewrite Hmq in Hmh. injection Hmh as <-. destruct Hpq as (Hnf & _). congruence. }
      now rewrite (mupd_other _ _ _ _ _ Hu Hh).
Qed.

Lemma stack_idle hl st s q : Inv hl st s -> In q st ->
  (forall m, c_memo s q = Some m -> ~ own q m) -> idle s q.
Proof.
  intros HI Hq Hno. unfold idle. destruct (c_memo s q) as [m |] eqn:Hm; [| exact I].
  destruct (mo_kind _ _ _ _ (iv_memo _ _ _ HI q m Hm)) as [Hf | [Hk | Hk]].
  - destruct Hf as (_ & _ & Hn & _). contradiction.
  - destruct Hk as (Ho & _). exfalso. now apply (Hno m).
  - destruct Hk as (h & it & mh & Hp & _ & Hmh & _ & _ & _ & _ & Hlive & Hset).
    exists h, it, mh. split; [exact Hp |]. split; [exact Hmh |]. intros He.
    destruct (cm_final mh) eqn:Hf.
    + now destruct (Hset He eq_refl) as (_ & Hn & _).
    + now destruct (Hlive He eq_refl) as (_ & Hn & _).
Qed.

Lemma memo_ok_ext st s s' p m : (forall x, c_memo s' x = c_memo s x) -> memo_ok st s p m -> memo_ok st s' p m.
Proof.
  intros He Hok. apply (memo_ok_transfer st st s s' p m Hok (fun H => H)).
  - intros Ho. now destruct (kind_of_own _ _ _ _ Hok Ho) as (_ & Hb & _).
  - intros d (md & Hmd & Hd). exists md. split; [now rewrite He |].
    destruct Hd as [Hf | (h & it & mh & Hp & Hmh & Hr)]; [now left |].
    right. exists h, it, mh. split; [exact Hp |]. split; [now rewrite He | exact Hr].
  - intros h it _ mh Hmh. left. split; [now rewrite He |]. split; [unfold hv; now rewrite He |].
    intros _ _ d (md & Hmd & Hp). exists md. split; [now rewrite He | exact Hp].
Qed.

Lemma Inv_sync hl hl' st s s' :
  Inv hl st s -> (forall x, c_memo s' x = c_memo s x) ->
  c_in s' = c_in s -> c_cell s' = c_cell s -> c_pcell s' = c_pcell s -> c_revs s' = c_revs s ->
  c_ccount s' = c_ccount s ->
  (forall q, In q hl' <-> held s' q) ->
  (forall q y, c_sync s' q = Some y -> sy_twice y = true -> sy_trans y = false) ->
  Inv hl' st s'.
Proof.
  intros HI Hm H1 H2 H3 H4 H5 Hh Ht. constructor.
  - rewrite H1. apply (iv_in _ _ _ HI).
  - rewrite H2. apply (iv_cell _ _ _ HI).
  - rewrite H3. apply (iv_pcell _ _ _ HI).
  - rewrite H4. apply (iv_revs _ _ _ HI).
  - rewrite H5. apply (iv_cc _ _ _ HI).
  - apply (iv_nd _ _ _ HI).
  - apply (iv_incl _ _ _ HI).
  - apply (iv_chain _ _ _ HI).
  - exact Hh.
  - exact Ht.
  - intros q m Hq. rewrite Hm in Hq. apply (memo_ok_ext st s s' q m Hm). now apply (iv_memo _ _ _ HI).
Qed.

Lemma Inv_same hl st s s' :
  Inv hl st s -> (forall x, c_memo s' x = c_memo s x) -> c_sync s' = c_sync s ->
  c_in s' = c_in s -> c_cell s' = c_cell s -> c_pcell s' = c_pcell s -> c_revs s' = c_revs s ->
  c_ccount s' = c_ccount s -> Inv hl st s'.
Proof.
  intros HI Hm Hs H1 H2 H3 H4 H5. apply (Inv_sync hl hl st s s' HI Hm H1 H2 H3 H4 H5).
  - intros q. unfold held. rewrite Hs. apply (iv_sync _ _ _ HI).
  - intros q y. rewrite Hs. apply (iv_twice _ _ _ HI).
Qed.

(* q starts executing *)
Lemma Inv_push hl st s q :
  Inv hl st s -> ~ In q st -> In q ns -> chain (q :: st) -> idle s q -> Inv hl (q :: st) s.
Proof.
  intros HI Hnq Hqn Hch Hidle. constructor; try apply HI.
  - constructor; [exact Hnq | apply (iv_nd _ _ _ HI)].
  - intros x [<- | Hx]; [exact Hqn | now apply (iv_incl _ _ _ HI)].
  - exact Hch.
  - intros p m Hm. assert (Hok := iv_memo _ _ _ HI p m Hm).
    destruct (key_eqb_spec p q) as [-> | Hpq].
    + unfold idle in Hidle. rewrite Hm in Hidle. destruct Hidle as (h & it & mh & Hp & Hmh & Hne).
      destruct Hok as [Hns Hver Hchg Hval Hkind]. constructor; try assumption.
      right; right. destruct Hkind as [Hf | [Hk | Hk]].
      * destruct Hf as (Hf & _). destruct Hp as (Hnf & _). congruence.
      * destruct Hk as (Ho & _). exfalso. eapply own_not_part; eassumption.
      * destruct Hk as (h' & it' & mh' & Hp' & Hnp & Hmh' & Hk & Hle & Hit12 & Hmi & _).
        destruct (part_inj _ _ _ _ _ _ Hp Hp') as [<- <-]. rewrite Hmh in Hmh'. injection Hmh' as <-.
        exists h, it, mh. split; [exact Hp |]. split; [exact Hnp |]. split; [exact Hmh |].
        split; [exact Hk |]. split; [exact Hle |]. split; [exact Hit12 |]. split; [exact Hmi |].
        split; intros He; contradiction.
    + apply (memo_ok_transfer st (q :: st) s s p m Hok).
      * intros Hn [Heq | Hx]; [congruence | contradiction].
      * intros Ho. apply bottom_push; [congruence |]. now destruct (kind_of_own _ _ _ _ Hok Ho) as (_ & Hb & _).
      * intros d Hd. exact Hd.
      * intros h it _ mh Hmh. left. split; [exact Hmh |]. split; [reflexivity |]. intros _ _ d Hd. exact Hd.
Qed.

Lemma below_chain st d : chain st -> In d st ->
  match below st d with [] => True | d' :: _ => In d (sc d') end.
Proof.
  induction st as [| x r IH]; intros Hc Hd; [contradiction |].
  cbn [below]. destruct (key_eqb_spec x d) as [-> | Hne].
  - destruct r as [| x' r']; [exact I |]. now destruct Hc as [Hc _].
  - destruct Hd as [Heq | Hd]; [congruence |]. apply IH; [| exact Hd].
    destruct r as [| x' r']; [exact I | now destruct Hc as [_ Hc]].
Qed.

Lemma mono_below_mono st d : mono lvl st -> mono lvl (below st d).
Proof.
  induction st as [| x r IH]; intros Hm; [exact I |].
  cbn [below]. destruct Hm as [_ Hm]. destruct (key_eqb x d); [exact Hm | now apply IH].
Qed.

Lemma chain_above q r y : chain (q :: r) -> In y r -> exists y', In y' (q :: r) /\ In y' (sc y).
Proof.
  revert q. induction r as [| y1 r' IH]; intros q Hc Hy; [contradiction |].
  destruct Hc as [Hq Hc]. destruct Hy as [<- | Hy].
  - exists q. split; [now left | exact Hq].
  - destruct (IH y1 Hc Hy) as (y' & Hin & Hs). exists y'. split; [now right | exact Hs].
Qed.

Lemma stack_callback hl st s q r d :
  Inv hl st s -> st = q :: r -> In d (sc q) -> In d st ->
  nxt q = Some d /\ bottom lvl st d /\ lvl d = lvl q.
Proof.
  intros HI -> Hd Hin.
  assert (Hm := chain_mono _ (iv_incl _ _ _ HI) (iv_chain _ _ _ HI)).
  assert (Hqn : In q ns) by (apply (iv_incl _ _ _ HI); now left).
  assert (Hle : (lvl q <= lvl d)%nat).
  { destruct Hin as [<- | Hin]; [lia |]. destruct Hm as [Hm _]. now apply Hm. }
  destruct (Hcalls q d Hqn Hd) as [_ [Hlt | Hn]]; [lia |].
  destruct (Hnxt q d Hn) as (Hl & _).
  split; [exact Hn |]. split; [| exact Hl].
  split; [exact Hin |]. intros q' Hq'.
  assert (Hbc := below_chain _ d (iv_chain _ _ _ HI) Hin).
  assert (Hbm := mono_below_mono _ d Hm).
  assert (Hbi := below_incl (q :: r) d).
  destruct (below (q :: r) d) as [| d' b'] eqn:Eb; [contradiction |].
  assert (Hd'n : In d' ns) by (apply (iv_incl _ _ _ HI), Hbi; now left).
  assert (Hlt : (lvl d < lvl d')%nat).
  { destruct (Hcalls d' d Hd'n Hbc) as [_ [Hlt | Hn']]; [exact Hlt |].
    exfalso. assert (Heq := Hinj _ _ _ Hn' Hn). subst d'.
    assert (Hnd := iv_nd _ _ _ HI). apply NoDup_cons_iff in Hnd as [Hnq _]. apply Hnq.
    cbn [below] in Eb. destruct (key_eqb q d).
    - rewrite Eb. now left.
    - apply (below_incl r d). rewrite Eb. now left. }
  destruct Hq' as [<- | Hq']; [exact Hlt |].
  destruct Hbm as [Hbm _]. specialize (Hbm q' Hq'). lia.
Qed.

Lemma stack_closed hl st s q r d :
  Inv hl st s -> st = q :: r -> In d (sc q) -> In d st -> forall x, npath d x -> In x st.
Proof.
  intros HI Hst Hd Hin.
  destruct (stack_callback _ _ _ _ _ _ HI Hst Hd Hin) as (Hn & _ & Hl). subst st.
  assert (Hm := chain_mono _ (iv_incl _ _ _ HI) (iv_chain _ _ _ HI)).
  assert (Hstep : forall y z, In y (q :: r) -> lvl y = lvl q -> nxt y = Some z -> In z (q :: r) /\ lvl z = lvl q).
  { intros y z Hy Hly Hyz. destruct Hy as [<- | Hy].
    - rewrite Hn in Hyz. injection Hyz as <-. now split.
    - destruct (chain_above q r y (iv_chain _ _ _ HI) Hy) as (y' & Hy' & Hs).
      assert (Hyn : In y ns) by (apply (iv_incl _ _ _ HI); now right).
      assert (Hge : (lvl q <= lvl y')%nat).
      { destruct Hy' as [<- | Hy']; [lia |]. destruct Hm as [Hm _]. now apply Hm. }
      destruct (Hcalls y y' Hyn Hs) as [_ [Hlt | Hn']]; [lia |].
      rewrite Hn' in Hyz. injection Hyz as <-. split; [exact Hy' |].
      destruct (Hnxt y y' Hn') as (He & _). lia. }
  assert (Hgen : forall y x, npath y x -> In y (q :: r) -> lvl y = lvl q -> In x (q :: r)).
  { intros y x Hp. induction Hp as [y h Hyh | y z h Hyz _ IH]; intros Hy Hly.
    - now destruct (Hstep y h Hy Hly Hyh).
    - destruct (Hstep y z Hy Hly Hyz) as [Hz Hlz]. now apply IH. }
  intros x Hp. now apply (Hgen d x Hp).
Qed.

Lemma done_npath hl st s x y : Inv hl st s -> npath x y -> done s x -> done s y.
Proof.
  intros HI Hp. induction Hp as [x y Hxy | x d y Hxd _ IH]; intros Hd.
  - destruct (done_val _ _ _ _ HI Hd) as (m & _ & _ & _ & Hs). apply Hs, Hreal, Hxy.
  - apply IH. destruct (done_val _ _ _ _ HI Hd) as (m & _ & _ & _ & Hs). apply Hs, Hreal, Hxd.
Qed.

Lemma own_ring hl st s b mb : Inv hl st s -> c_memo s b = Some mb -> own b mb ->
  npath b b /\ forall x, npath b x -> npath x b.
Proof.
  intros HI Hmb Ho. now destruct (kind_of_own _ _ _ _ (iv_memo _ _ _ HI b mb Hmb) Ho) as (_ & _ & _ & _ & _ & Hr & _).
Qed.

Lemma own_ring_not_done hl st s b mb x : Inv hl st s -> c_memo s b = Some mb -> own b mb ->
  (npath x b \/ npath b x) -> ~ done s x.
Proof.
  intros HI Hmb Ho Hx Hd.
  destruct (own_ring _ _ _ _ _ HI Hmb Ho) as [_ Hc].
  assert (Hxb : npath x b) by (destruct Hx as [H | H]; [exact H | now apply Hc]).
  apply (own_not_done _ _ _ _ _ HI Hmb Ho). eapply done_npath; eassumption.
Qed.

Lemma stack_reaches t : forall st', incl st' ns -> chain st' -> forall q' r', st' = q' :: r' ->
  npath q' t -> forall y, In y st' -> lvl y = lvl q' -> npath y t.
Proof.
  induction st' as [| a r IH]; intros Hin Hc q' r' Heq Ht y Hy Hl; [discriminate |].
  injection Heq as -> ->. destruct Hy as [<- | Hy]; [exact Ht |].
  destruct r' as [| y1 r'']; [contradiction |].
  assert (Hm := chain_mono _ Hin Hc). destruct Hm as [Hq' Hm].
  assert (Hr : incl (y1 :: r'') ns) by (intros x Hx; apply Hin; now right).
  destruct Hc as [Hcall Hc].
  assert (Hl1 : lvl y1 = lvl q').
  { assert (H1 := Hq' y1 (or_introl eq_refl)). assert (H2 := Hq' y Hy).
    destruct Hy as [<- | Hy]; [exact Hl |]. destruct Hm as [Hm1 _]. specialize (Hm1 y Hy). lia. }
  assert (Hn1 : nxt y1 = Some q').
  { destruct (Hcalls y1 q' (Hr y1 (or_introl eq_refl)) Hcall) as [_ [Hlt | Hn]]; [lia | exact Hn]. }
  apply (IH Hr Hc y1 r'' eq_refl); [now apply (np_step y1 q' t) | exact Hy | lia].
Qed.

Lemma stack_cycle hl st s q r d :
  Inv hl st s -> st = q :: r -> In d (sc q) -> In d st ->
  npath d d /\ forall x, npath d x -> npath x d.
Proof.
  intros HI Hst Hd Hin.
  destruct (stack_callback _ _ _ _ _ _ HI Hst Hd Hin) as (Hn & _ & Hl).
  assert (Hall : forall y, In y st -> lvl y = lvl q -> npath y d).
  { intros y Hy Hly. apply (stack_reaches d st (iv_incl _ _ _ HI) (iv_chain _ _ _ HI) q r Hst); [now constructor | exact Hy | exact Hly]. }
  split.
  - apply Hall; [exact Hin | exact Hl].
  - intros x Hx. apply Hall.
    + eapply stack_closed; eassumption.
    + rewrite (npath_lvl _ _ Hx). exact Hl.
Qed.

Lemma part_npath hl st s d m h it : Inv hl st s -> c_memo s d = Some m -> part d h it m -> npath d h.
Proof.
  intros HI Hm Hp. destruct (mo_kind _ _ _ _ (iv_memo _ _ _ HI d m Hm)) as [Hf | [Hk | Hk]].
  - destruct Hf as (Hf & _). destruct Hp as (Hnf & _). congruence.
  - destruct Hk as (Ho & _). exfalso. eapply own_not_part; eassumption.
  - destruct Hk as (h' & it' & mh & Hp' & Hnp & _). destruct (part_inj _ _ _ _ _ _ Hp Hp') as [-> _]. exact Hnp.
Qed.

Lemma callback_memo hl st s q r d :
  Inv hl st s -> st = q :: r -> In d (sc q) -> In d st ->
  c_memo s d = None \/ exists m, c_memo s d = Some m /\ own d m.
Proof.
  intros HI Hst Hd Hin. destruct (c_memo s d) as [m |] eqn:Hm; [| now left]. right.
  exists m. split; [reflexivity |].
  destruct (stack_callback _ _ _ _ _ _ HI Hst Hd Hin) as (Hn & Hb & Hl).
  destruct (mo_kind _ _ _ _ (iv_memo _ _ _ HI d m Hm)) as [Hf | [Hk | Hk]].
  - destruct Hf as (_ & _ & Hnin & _). contradiction.
  - now destruct Hk as (Ho & _).
  - exfalso. destruct Hk as (h & it & mh & Hp & Hnp & Hmh & Hk & _).
    destruct Hk as [Ho | Hf].
    + destruct (kind_of_own _ _ _ _ (iv_memo _ _ _ HI h mh Hmh) Ho) as (_ & Hbh & _).
      assert (Heq : h = d).
      { apply (bottom_unique lvl st h d Hbh Hb). now apply npath_lvl. }
      destruct Hp as (_ & _ & _ & Hne). contradiction.
    + assert (Hdn : done s h) by (exists mh; split; [exact Hmh | now left]).
      apply (done_not_stack _ _ _ _ HI Hdn). eapply stack_closed; eassumption.
Qed.

Lemma stack_down : forall st', incl st' ns -> chain st' -> forall q' r', st' = q' :: r' ->
  forall y, In y st' -> lvl y = lvl q' -> y = q' \/ npath y q'.
Proof.
  induction st' as [| a r IH]; intros Hin Hc q' r' Heq y Hy Hl; [discriminate |].
  injection Heq as -> ->. destruct Hy as [<- | Hy]; [now left |]. right.
  destruct r' as [| y1 r'']; [contradiction |].
  assert (Hm := chain_mono _ Hin Hc). destruct Hm as [Hq' Hm].
  assert (Hr : incl (y1 :: r'') ns) by (intros x Hx; apply Hin; now right).
  destruct Hc as [Hcall Hc].
  assert (Hl1 : lvl y1 = lvl q').
  { assert (H1 := Hq' y1 (or_introl eq_refl)). assert (H2 := Hq' y Hy).
    destruct Hy as [<- | Hy]; [exact Hl |]. destruct Hm as [Hm1 _]. specialize (Hm1 y Hy). lia. }
  assert (Hn1 : nxt y1 = Some q').
  { destruct (Hcalls y1 q' (Hr y1 (or_introl eq_refl)) Hcall) as [_ [Hlt | Hn]]; [lia | exact Hn]. }
  destruct (IH Hr Hc y1 r'' eq_refl y Hy) as [-> | Hp]; [lia | now constructor |].
  apply (npath_trans y y1 q' Hp). now constructor.
Qed.

Lemma hv_ok hl st s b m : Inv hl st s -> c_memo s b = Some m -> vok (hv s b).
Proof.
  intros HI Hm. unfold hv. rewrite Hm.
  destruct (mo_val _ _ _ _ (iv_memo _ _ _ HI b m Hm)) as (v & -> & Hv). exact Hv.
Qed.

Lemma Inv_set_sync hl hl' st s q yo :
  Inv hl st s ->
  (forall x, In x hl' <-> (if key_eqb q x then (exists y, yo = Some y /\ sy_trans y = false) else In x hl)) ->
  (forall y, yo = Some y -> sy_twice y = true -> sy_trans y = false) ->
  Inv hl' st (cset_sync s (upd (c_sync s) q yo)).
Proof.
  intros HI Hh Ht. apply (Inv_sync hl hl' st s _ HI); try reflexivity.
  - intros x. rewrite Hh. unfold held. cbn. unfold upd.
    destruct (key_eqb q x); [reflexivity | apply (iv_sync _ _ _ HI)].
  - intros x y. cbn. unfold upd. destruct (key_eqb q x).
    + intros Hy. now apply Ht.
    + apply (iv_twice _ _ _ HI).
Qed.

Lemma Inv_keep_held hl st s q y :
  Inv hl st s -> In q hl -> sy_trans y = false -> Inv hl st (cset_sync s (upd (c_sync s) q (Some y))).
Proof.
  intros HI Hq Hy. apply (Inv_set_sync hl hl st s q _ HI).
  - intros x. destruct (key_eqb_spec q x) as [<- | Hne]; [| reflexivity].
    split; [intros _; now exists y | intros _; exact Hq].
  - intros y' Hy' _. now injection Hy' as <-.
Qed.

Lemma Inv_set_trans hl st s l : Inv hl st s -> Inv hl st (cset_trans s l).
Proof. intros HI. apply (Inv_same hl st s _ HI); reflexivity. Qed.

Lemma Inv_set_log hl st s l : Inv hl st s -> Inv hl st (cset_log s l).
Proof. intros HI. apply (Inv_same hl st s _ HI); reflexivity. Qed.

Lemma Inv_set_runs hl st s l : Inv hl st s -> Inv hl st (cset_runs s l).
Proof. intros HI. apply (Inv_same hl st s _ HI); reflexivity. Qed.

Lemma Inv_set_qstack hl st s l : Inv hl st s -> Inv hl st (cset_qstack s l).
Proof. intros HI. apply (Inv_same hl st s _ HI); reflexivity. Qed.

Lemma try_claim_held hl st s q :
  Inv hl st s -> In q hl ->
  cwp (try_claim q true) (fun s' r => r = ClCycle false /\ Inv hl st s' /\ c_memo s' = c_memo s) s.
Proof.
  intros HI Hq. destruct (proj1 (iv_sync _ _ _ HI q) Hq) as (y & Hy & Hty).
  unfold cwp, try_claim, cbind, cget. rewrite Hy, Hty. cbn.
  split; [reflexivity |]. split; [| reflexivity].
  now apply Inv_keep_held.
Qed.

Lemma try_claim_free hl st s q :
  Inv hl st s -> ~ In q hl ->
  cwp (try_claim q true)
      (fun s' r => (r = Claimed RDefault \/ r = Claimed RSelfOnly) /\ Inv (q :: hl) st s' /\ c_memo s' = c_memo s) s.
Proof.
  intros HI Hq.
  assert (Hset : forall y, sy_trans y = false -> (sy_twice y = true -> sy_trans y = false) ->
            Inv (q :: hl) st (cset_sync s (upd (c_sync s) q (Some y)))).
  { intros y Hy Htw. apply (Inv_set_sync hl (q :: hl) st s q _ HI).
    - intros x. destruct (key_eqb_spec q x) as [<- | Hne].
      + split; [intros _; exists y; now split | intros _; now left].
      + split; [intros [Heq | Hx]; [congruence | exact Hx] | intros Hx; now right].
    - intros y' Hy' Ht. injection Hy' as <-. exact Hy. }
  unfold cwp, try_claim, cbind, cget.
  destruct (c_sync s q) as [y |] eqn:Hy.
  - destruct (sy_trans y) eqn:Hty.
    + destruct (trans_get (c_trans s) q) as [o |].
      * destruct (sy_twice y) eqn:Htw.
        -- exfalso. assert (H := iv_twice _ _ _ HI q y Hy Htw). congruence.
        -- cbn. split; [now right |]. split; [| reflexivity]. apply Hset; reflexivity.
      * cbn. split; [now left |]. split; [| reflexivity]. apply Hset; reflexivity.
    + exfalso. apply Hq. apply (iv_sync _ _ _ HI q). exists y. now split.
  - cbn. split; [now left |]. split; [| reflexivity]. apply Hset; reflexivity.
Qed.

Lemma peek_claim_held hl st s h :
  Inv hl st s -> In h hl ->
  cwp (peek_claim h) (fun s' r => r = PkCycle false /\ Inv hl st s' /\ c_memo s' = c_memo s) s.
Proof.
  intros HI Hq. destruct (proj1 (iv_sync _ _ _ HI h) Hq) as (y & Hy & Hty).
  unfold cwp, peek_claim, cbind, cget. rewrite Hy, Hty. cbn.
  split; [reflexivity |]. split; [| reflexivity].
  now apply Inv_keep_held.
Qed.

Lemma peek_claim_any hl st s h :
  Inv hl st s ->
  cwp (peek_claim h) (fun s' r => Inv hl st s' /\ c_memo s' = c_memo s /\ (In h hl -> r = PkCycle false)) s.
Proof.
  intros HI. unfold cwp, peek_claim, cbind, cget.
  destruct (c_sync s h) as [y |] eqn:Hy.
  - destruct (sy_trans y) eqn:Hty.
    + assert (Hnh : ~ In h hl).
      { intros Hh. destruct (proj1 (iv_sync _ _ _ HI h) Hh) as (y' & Hy' & Hty'). congruence. }
      destruct (trans_get (c_trans s) h); cbn; (split; [exact HI |]; split; [reflexivity | intros Hh; contradiction]).
    + assert (Hh : In h hl) by (apply (iv_sync _ _ _ HI h); exists y; now split).
      cbn. split; [| split; [reflexivity | reflexivity]].
      now apply Inv_keep_held.
  - cbn. split; [exact HI |]. split; [reflexivity |]. intros Hh.
    destruct (proj1 (iv_sync _ _ _ HI h) Hh) as (y' & Hy' & _). congruence.
Qed.

Lemma release_state_ok hl st s q y :
  Inv hl st s -> cwp (release_state q y) (fun s' _ => Inv hl st s' /\ c_memo s' = c_memo s) s.
Proof.
  intros HI. unfold cwp, release_state.
  destruct (sy_wait y); [| cbn; now split].
  unfold cbind. destruct (sy_twice y); cbn; destruct (sy_target y); cbn;
    (split; [| reflexivity]); repeat apply Inv_set_trans; exact HI.
Qed.

Lemma remove_held hl st s q :
  Inv (q :: hl) st s -> ~ In q hl -> forall yo,
  (forall y, yo = Some y -> sy_trans y = true /\ sy_twice y = false) ->
  Inv hl st (cset_sync s (upd (c_sync s) q yo)).
Proof.
  intros HI Hq yo Hyo. apply (Inv_set_sync (q :: hl) hl st s q yo HI).
  - intros x. destruct (key_eqb_spec q x) as [<- | Hne].
    + split; [intros Hx; contradiction |].
      intros (y & -> & Hy). destruct (Hyo y eq_refl) as [Ht _]. congruence.
    + split; [intros Hx; now right | intros [Heq | Hx]; [congruence | exact Hx]].
  - intros y Hy Htw. destruct (Hyo y Hy) as [_ Hf]. congruence.
Qed.

Lemma drop_guard_ok hl st s q mode :
  Inv (q :: hl) st s -> ~ In q hl ->
  (forall o, mode = RTransfer o -> In o hl) ->
  cwp (drop_guard q mode) (fun s' _ => Inv hl st s' /\ c_memo s' = c_memo s) s.
Proof.
  intros HI Hq Hmode.
  destruct (proj1 (iv_sync _ _ _ HI q) (or_introl eq_refl)) as (y & Hy & Hty).
  destruct mode as [| | o]; unfold drop_guard.
  - unfold release_default. apply cwp_bind, cwp_get. rewrite Hy.
    apply cwp_bind. unfold set_sync. apply cwp_modify.
    eapply cwp_conseq.
    { apply (release_state_ok hl st). apply (remove_held hl st s q HI Hq None). intros y' Hy'. discriminate. }
    intros s' a [H1 H2]. split; [exact H1 | exact H2].
  - unfold release_self. apply cwp_bind, cwp_get. rewrite Hy.
    destruct (sy_twice y).
    + unfold set_sync. apply cwp_modify. split; [| reflexivity].
      apply (remove_held hl st s q HI Hq). intros y' Hy'. injection Hy' as <-. now split.
    + apply cwp_bind. unfold set_sync. apply cwp_modify.
      eapply cwp_conseq.
    { apply (release_state_ok hl st). apply (remove_held hl st s q HI Hq None). intros y' Hy'. discriminate. }
    intros s' a [H1 H2]. split; [exact H1 | exact H2].
  - assert (Ho : In o hl) by (now apply Hmode).
    assert (Hoq : o <> q) by (intros ->; contradiction).
    destruct (proj1 (iv_sync _ _ _ HI o) (or_intror Ho)) as (yo & Hyo & Htyo).
    unfold transfer. apply cwp_bind, cwp_get. rewrite Hyo.
    apply cwp_bind. unfold set_sync. apply cwp_modify.
    apply cwp_bind, cwp_get. cbn [c_sync cset_sync]. rewrite (upd_other _ o q _ Hoq), Hy.
    apply cwp_bind. apply cwp_modify.
    rewrite Htyo. cbn [andb]. apply cwp_modify. split; [| reflexivity].
    apply Inv_set_trans.
    set (s1 := cset_sync s (upd (c_sync s) o (Some {| sy_trans := false; sy_wait := true; sy_target := true; sy_twice := sy_twice yo |}))).
    assert (HI1 : Inv (q :: hl) st s1).
    { apply Inv_keep_held; [exact HI | now right | reflexivity]. }
    apply (remove_held hl st s1 q HI1 Hq). intros y' Hy'. injection Hy' as <-. now split.
Qed.

Lemma memo_val hl st s d m : Inv hl st s -> c_memo s d = Some m -> exists v, cm_val m = Some v /\ vok v.
Proof. intros HI Hm. apply (mo_val _ _ _ _ (iv_memo _ _ _ HI d m Hm)). Qed.

Lemma memo_verified hl st s d m : Inv hl st s -> c_memo s d = Some m -> cm_verified m =? ccur s = true.
Proof.
  intros HI Hm. rewrite (ccur_inv _ _ _ HI), (mo_ver _ _ _ _ (iv_memo _ _ _ HI d m Hm)). reflexivity.
Qed.

Lemma shallow_verified hl st s d m : Inv hl st s -> c_memo s d = Some m -> cshallow_verify s m = CShVerified.
Proof. intros HI Hm. unfold cshallow_verify. now rewrite (memo_verified _ _ _ _ _ HI Hm). Qed.

Lemma memo_iter_small hl st s d m : Inv hl st s -> c_memo s d = Some m -> iter_of m <= 15.
Proof.
  intros HI Hm. assert (HB := @r_bound R). destruct (mo_kind _ _ _ _ (iv_memo _ _ _ HI d m Hm)) as [Hf | [Hk | Hk]].
  - now destruct Hf as (_ & _ & _ & Hi & _).
  - destruct Hk as ((_ & He & _) & _ & _ & _ & Hi & _). unfold iter_of. rewrite He. lia.
  - destruct Hk as (h & it & mh & (_ & He & _) & _ & _ & _ & _ & Hi & Hmi & _).
    unfold iter_of. rewrite He. lia.
Qed.

Lemma cfetch_hot_ok hl st s d :
  Inv hl st s ->
  cwp (cfetch_hot d)
      (fun s' r => s' = s /\
                   r = match c_memo s d with
                       | Some m => if cm_final m then Some m else None
                       | None => None
                       end) s.
Proof.
  intros HI. unfold cfetch_hot. apply cwp_bind, cwp_get.
  destruct (c_memo s d) as [m |] eqn:Hm; [| apply cwp_ret; now split].
  destruct (memo_val _ _ _ _ _ HI Hm) as (v & Hv & _). rewrite Hv.
  rewrite (shallow_verified _ _ _ _ _ HI Hm).
  destruct (cm_final m); [| apply cwp_ret; now split].
  cbn [cupdate_shallow]. apply cwp_bind, cwp_ret, cwp_ret. now split.
Qed.

Lemma status_of_val m v : cm_val m = Some v ->
  status_of m = if cm_final m then PsFinal (iter_of m) (cm_verified m)
                else PsProvisional (iter_of m) (cm_verified m) (heads_of m).
Proof. intros Hv. unfold status_of. rewrite Hv. destruct (cm_final m); reflexivity. Qed.

Lemma part_heads d h it m : part d h it m -> heads_of m = [(h, it)] /\ iter_of m = cm_iter m.
Proof.
  intros (Hnf & He & Hh & _). unfold heads_of, raw_heads, iter_of. rewrite Hnf, He, Hh. now split.
Qed.

Lemma same_iteration_ok hl st s h it mh :
  Inv hl st s -> c_memo s h = Some mh ->
  cwp (same_iteration_heads REV_START [(h, it)])
      (fun s' r => Inv hl st s' /\ c_memo s' = c_memo s /\
                   (r = true -> iter_of mh = it) /\ (iter_of mh = it -> In h hl -> r = true)) s.
Proof.
  intros HI Hmh. cbn [same_iteration_heads fst snd]. eapply cwp_seq; [apply (peek_claim_any hl st s h HI) |].
  intros s1 pk (HI1 & Hm1 & Hpk).
  assert (Hmh1 : c_memo s1 h = Some mh) by (now rewrite Hm1).
  destruct (memo_val _ _ _ _ _ HI1 Hmh1) as (v & Hv & _).
  assert (Hver : cm_verified mh = REV_START) by apply (mo_ver _ _ _ _ (iv_memo _ _ _ HI1 h mh Hmh1)).
  assert (Hcont : cwp (s2 <- cget ;;
                       match key_status s2 h with
                       | None => cassert
                       | Some (PsPoisoned it0 v0) =>
                           if (v0 =? ccur s2) && (stamp_ccount it0 =? c_ccount s2) then propagated else cret false
                       | Some (PsProvisional it0 v0 _) | Some (PsFinal it0 v0) =>
                           if negb (v0 =? REV_START) then cret false
                           else if negb (it =? it0) then cret false else cret true
                       end)
                      (fun s' r => Inv hl st s' /\ c_memo s' = c_memo s /\
                                   (r = true -> iter_of mh = it) /\ (iter_of mh = it -> r = true)) s1).
  { apply cwp_bind, cwp_get. unfold key_status. rewrite Hmh1, (status_of_val mh v Hv).
    assert (Hb : cwp (if negb (cm_verified mh =? REV_START) then cret false
                      else if negb (it =? iter_of mh) then cret false else cret true)
                     (fun s' r => Inv hl st s' /\ c_memo s' = c_memo s /\
                                  (r = true -> iter_of mh = it) /\ (iter_of mh = it -> r = true)) s1).
    { rewrite Hver. cbn [N.eqb Pos.eqb negb]. destruct (N.eqb_spec it (iter_of mh)) as [He | Hne]; cbn [negb]; apply cwp_ret.
      - split; [exact HI1 |]. split; [exact Hm1 |]. split; [intros _; now symmetry | reflexivity].
      - split; [exact HI1 |]. split; [exact Hm1 |]. split; [discriminate | intros He; congruence]. }
    destruct (cm_final mh); exact Hb. }
  destruct pk as [| inner].
  - apply cwp_ret. split; [exact HI1 |]. split; [exact Hm1 |]. split; [discriminate |].
    intros _ Hh. specialize (Hpk Hh). discriminate.
  - eapply cwp_conseq; [exact Hcont |]. intros s2 r (H1 & H2 & H3 & H4).
    split; [exact H1 |]. split; [exact H2 |]. split; [exact H3 | intros He _; now apply H4].
Qed.

Lemma own_in_stack hl st s h mh : Inv hl st s -> c_memo s h = Some mh -> own h mh -> In h st.
Proof.
  intros HI Hmh Ho.
  destruct (kind_of_own _ _ _ _ (iv_memo _ _ _ HI h mh Hmh) Ho) as (_ & (Hin & _) & _). exact Hin.
Qed.

Lemma vsi_part hl st s d m h it mh :
  Inv hl st s -> c_memo s d = Some m -> part d h it m -> c_memo s h = Some mh ->
  cwp (validate_same_iteration d m)
      (fun s' r => Inv hl st s' /\ c_memo s' = c_memo s /\
                   (r = true -> iter_of mh = it) /\ (iter_of mh = it -> In h hl -> r = true)) s.
Proof.
  intros HI Hm Hp Hmh. destruct (part_heads _ _ _ _ Hp) as [Hh _].
  unfold validate_same_iteration. apply cwp_bind, cwp_get.
  rewrite (memo_verified _ _ _ _ _ HI Hm). cbn [negb]. rewrite Hh.
  assert (Hne : key_eqb h d = false) by (apply key_eqb_neq; apply Hp).
  cbn [heads_not_eq filter fst]. rewrite Hne. cbn [negb].
  rewrite (mo_ver _ _ _ _ (iv_memo _ _ _ HI d m Hm)).
  now apply same_iteration_ok.
Qed.

Lemma cverify_part hl st s L d m h it mh :
  Inv hl st s -> incl st hl -> c_memo s d = Some m -> part d h it m -> c_memo s h = Some mh ->
  cwp (cverify_memo strat L d m)
      (fun s' r =>
         Inv hl st s' /\
         ((cm_final mh = true /\ iter_of mh = it /\ r = (true, with_final m true) /\
           mupd s s' d (with_final m true))
          \/ (cm_final mh = false /\ iter_of mh = it /\ r = (true, m) /\ c_memo s' = c_memo s)
          \/ (iter_of mh <> it /\ fst r = false /\ c_memo s' = c_memo s))) s.
Proof.
  intros HI Hsub Hm Hp Hmh.
  assert (Hok := iv_memo _ _ _ HI d m Hm).
  destruct (part_heads _ _ _ _ Hp) as [Hh Hit].
  assert (Hnf : cm_final m = false) by apply Hp.
  destruct (memo_ok_head _ _ _ _ _ _ Hok Hp) as (mh0 & Hmh0 & Hk & _).
  rewrite Hmh in Hmh0. injection Hmh0 as <-.
  destruct (memo_val _ _ _ _ _ HI Hmh) as (vh & Hvh & _).
  assert (Hverh : cm_verified mh = REV_START) by apply (mo_ver _ _ _ _ (iv_memo _ _ _ HI h mh Hmh)).
  assert (Hverm : cm_verified m = REV_START) by apply (mo_ver _ _ _ _ Hok).
  set (Q := fun (s' : cdb) (r : bool * cmemo) =>
         Inv hl st s' /\
         ((cm_final mh = true /\ iter_of mh = it /\ r = (true, with_final m true) /\
           mupd s s' d (with_final m true))
          \/ (cm_final mh = false /\ iter_of mh = it /\ r = (true, m) /\ c_memo s' = c_memo s)
          \/ (iter_of mh <> it /\ fst r = false /\ c_memo s' = c_memo s))).
  set (Kont := fun r : bool * cmemo =>
         if fst r then m' <- cupdate_shallow d (snd r) CShVerified ;; cret (true, m')
         else cdeep_verify strat L d (snd r)).
  (* what happens once validate_provisional said no *)
  assert (Hslow : (cm_final mh = false \/ iter_of mh <> it) ->
            cwp (b <- validate_same_iteration d m ;; cret (b, m)) (fun s' r => cwp (Kont r) Q s') s).
  { intros Hcase. eapply cwp_seq; [apply (vsi_part hl st s d m h it mh HI Hm Hp Hmh) |].
    intros s2 b (HI2 & Hm2 & Hb1 & Hb2). apply cwp_ret. unfold Kont. cbn [fst snd].
    destruct b.
    - cbn [cupdate_shallow]. apply cwp_bind, cwp_ret, cwp_ret. split; [exact HI2 |].
      right; left. specialize (Hb1 eq_refl). destruct Hcase as [Hc | Hc]; [| contradiction].
      split; [exact Hc |]. split; [exact Hb1 |]. split; [reflexivity | exact Hm2].
    - unfold cdeep_verify. rewrite Hnf. cbn [negb].
      assert (Hr : cwp (cret (false, m)) Q s2).
      { apply cwp_ret. split; [exact HI2 |]. right; right.
        split; [| now split]. intros He. destruct Hcase as [Hc | Hc]; [| contradiction].
        assert (Hin : In h hl).
        { apply Hsub. destruct Hk as [Ho | Hf]; [| congruence]. exact (own_in_stack hl st s h mh HI Hmh Ho). }
        specialize (Hb2 He Hin). discriminate. }
      destruct (cm_untracked m); exact Hr. }
  unfold cverify_memo. apply cwp_bind, cwp_get. rewrite (shallow_verified _ _ _ _ _ HI Hm).
  cbv iota. fold Kont. apply cwp_bind.
  unfold validate_may_be_provisional. rewrite Hnf, Hh. cbv iota.
  assert (Hcc : negb (stamp_ccount (iter_of m) =? c_ccount s) = false).
  { rewrite (iv_cc _ _ _ HI), stamp_ccount_small; [reflexivity |].
    assert (H := memo_iter_small _ _ _ _ _ HI Hm). lia. }
  apply cwp_bind, cwp_get. rewrite Hcc. apply cwp_bind.
  unfold validate_provisional. apply cwp_bind, cwp_get.
  rewrite Hh. cbn [heads_all_final fst snd]. unfold key_status. rewrite Hmh, (status_of_val mh vh Hvh).
  destruct (cm_final mh) eqn:Hfh.
  - rewrite Hverh, Hverm. cbn [N.eqb Pos.eqb andb]. rewrite Bool.andb_true_r.
    destruct (N.eqb_spec (iter_of mh) it) as [He | Hne].
    + (* settled *)
      apply cwp_bind. unfold put_memo. apply cwp_modify, cwp_ret. cbn [fst]. apply cwp_ret.
      unfold Kont. cbn [fst snd cupdate_shallow]. apply cwp_bind, cwp_ret, cwp_ret.
      set (s' := cset_memo s (upd (c_memo s) d (Some (with_final m true)))).
      assert (Hu : mupd s s' d (with_final m true)) by apply mupd_put.
      split.
      * apply (Inv_upd hl st st s s' d (with_final m true) HI Hu); try apply HI.
        -- eapply settle_new; eassumption.
        -- eapply others_settle; eassumption.
      * left. split; [reflexivity |]. split; [exact He |]. split; [reflexivity | exact Hu].
    + apply cwp_ret. cbn [fst]. apply Hslow. now right.
  - apply cwp_ret. cbn [fst]. apply Hslow. now left.
Qed.

Lemma own_filter_eq d m : own d m ->
  {| cm_val := cm_val m; cm_verified := cm_verified m; cm_changed := cm_changed m;
     cm_dur := cm_dur m; cm_untracked := cm_untracked m; cm_edges := cm_edges m;
     cm_final := cm_final m; cm_extra := true; cm_iter := cm_iter m;
     cm_heads := filter (fun h => key_eqb (fst h) d) (cm_heads m);
     cm_conv := cm_conv m |} = m.
Proof.
  intros (_ & He & Hh). destruct m; cbn in *. subst. cbn. rewrite key_eqb_refl. reflexivity.
Qed.

Lemma initial_ok hl st s s' d :
  Inv hl st s -> c_memo s d = None -> In d ns -> bottom lvl st d -> fixy d ->
  (npath d d /\ forall x, npath d x -> npath x d) ->
  mupd s s' d (initial_memo d (Some (cinit d)) REV_START 0) -> Inv hl st s'.
Proof.
  intros HI Hm Hdn Hb Hfx Hcyc Hu.
  destruct (head_init d Hdn Hfx (proj1 Hcyc)) as (Hvok & Hhead & Hpot).
  apply (Inv_upd hl st st s s' d _ HI Hu); try apply HI.
  - constructor; try reflexivity; try exact Hdn.
    + exists (cinit d). split; [reflexivity | exact Hvok].
    + right; left. split; [repeat split |]. split; [exact Hb |]. split; [exact Hfx |].
      split; [unfold initial_memo, D_NEVER; cbn; lia |].
      split; [unfold hpot, initial_memo, D_NEVER; cbn; lia |].
      split; [exact Hcyc |].
      exists (cinit d). split; [reflexivity | exact Hhead].
  - apply (others_idle hl st st s s' d _ HI Hu).
    + unfold idle. now rewrite Hm.
    + intros x Hx. exact Hx.
    + intros h _ Hh. exact Hh.
Qed.

Lemma fetch_cold_cycle_ok hl st s q r d :
  Inv hl st s -> st = q :: r -> In d (sc q) -> In d st ->
  cwp (fetch_cold_cycle strat cinit d)
      (fun s' m => Inv hl st s' /\ c_memo s' d = Some m /\ own d m /\ c_sync s' = c_sync s /\
                   (forall p, p <> d -> c_memo s' p = c_memo s p) /\
                   (forall m0, c_memo s d = Some m0 -> m = m0) /\
                   (c_memo s d = None -> m = initial_memo d (Some (cinit d)) REV_START 0)) s.
Proof.
  intros HI Hst Hd Hin.
  destruct (stack_callback _ _ _ _ _ _ HI Hst Hd Hin) as (Hn & Hb & Hl).
  destruct (Hnxt q d Hn) as (_ & _ & Hfx).
  assert (Hdn : In d ns) by (now apply (iv_incl _ _ _ HI)).
  unfold fetch_cold_cycle.
  assert (Hrec : recovers (strat_of strat d) = true).
  { now apply r_rec. }
  rewrite Hrec. cbn [negb]. apply cwp_bind, cwp_get.
  destruct (callback_memo _ _ _ _ _ _ HI Hst Hd Hin) as [Hnone | (m & Hm & Ho)].
  - rewrite Hnone. rewrite (iv_cc _ _ _ HI), (ccur_inv _ _ _ HI).
    change (stamp_initial 0) with 0.
    apply cwp_bind. unfold put_memo. apply cwp_modify, cwp_ret.
    set (s' := cset_memo s _).
    assert (Hu : mupd s s' d (initial_memo d (Some (cinit d)) REV_START 0)) by apply mupd_put.
    split; [eapply initial_ok; try eassumption; eapply stack_cycle; eassumption |].
    split; [apply (mupd_same _ _ _ _ Hu) |]. split; [repeat split |]. split; [reflexivity |].
    split; [intros p Hp; now apply (mupd_other _ _ _ _ _ Hu) |].
    split; [intros m0 Hm0; congruence | reflexivity].
  - rewrite Hm. assert (He : cm_extra m = true) by apply Ho. rewrite He.
    rewrite (own_filter_eq d m Ho).
    destruct (memo_val _ _ _ _ _ HI Hm) as (v & Hv & _). rewrite Hv.
    rewrite (memo_verified _ _ _ _ _ HI Hm).
    assert (Hep : stamp_ccount (iter_of m) =? c_ccount s = true).
    { rewrite (iv_cc _ _ _ HI), stamp_ccount_small; [reflexivity |].
      assert (H := memo_iter_small _ _ _ _ _ HI Hm). lia. }
    rewrite Hep. cbn [andb].
    assert (Hhc : heads_contains (raw_heads m) d = true).
    { destruct Ho as (_ & _ & Hh). unfold raw_heads. rewrite He, Hh. cbn. now rewrite key_eqb_refl. }
    rewrite Hhc.
    apply cwp_bind. unfold put_memo. apply cwp_modify, cwp_ret.
    set (s' := cset_memo s _).
    assert (Hpt : forall x, c_memo s' x = c_memo s x).
    { intros x. unfold s'. cbn. unfold upd. destruct (key_eqb_spec d x) as [<- | _]; [now rewrite Hm | reflexivity]. }
    split; [apply (Inv_same hl st s s' HI Hpt); reflexivity |].
    split; [now rewrite Hpt |]. split; [exact Ho |]. split; [reflexivity |].
    split; [intros p _; apply Hpt |]. split; [intros m0 Hm0; congruence | intros Hx; congruence].
Qed.

End Ring.
