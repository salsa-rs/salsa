(* Cycle/FreshSem.v — semantic facts used by the fresh-revision theorem (C12_fresh):
   the "cut" program (one node replaced by a constant), its least fixpoint [Kc h x], and how it
   relates to the least fixpoint [kleene] of the program itself.  No model here. *)
From Coq Require Import PeanoNat.
From Salsa Require Import Base.
From Salsa.Core Require Import Model Spec.
From Salsa.Cycle Require Import Spec SpecProofs FreshBase.

Lemma lor_ub_l a b : le_bits a (N.lor a b).
Proof.
  unfold le_bits. apply N.bits_inj. intros n. rewrite N.land_spec, N.lor_spec.
  destruct (N.testbit a n), (N.testbit b n); reflexivity.
Qed.

Lemma lor_ub_r a b : le_bits b (N.lor a b).
Proof.
  unfold le_bits. apply N.bits_inj. intros n. rewrite N.land_spec, N.lor_spec.
  destruct (N.testbit a n), (N.testbit b n); reflexivity.
Qed.

Lemma lor_lub a b c : le_bits a c -> le_bits b c -> le_bits (N.lor a b) c.
Proof.
  intros Ha Hb. unfold le_bits. apply N.bits_inj. intros n.
  rewrite N.land_spec, N.lor_spec.
  assert (Ha' := le_bits_testbit a c n Ha). assert (Hb' := le_bits_testbit b c n Hb).
  destruct (N.testbit a n) eqn:Ea; destruct (N.testbit b n) eqn:Eb; cbn;
    try (rewrite (Ha' eq_refl)); try (rewrite (Hb' eq_refl)); reflexivity.
Qed.

Lemma lor_eq_le a b : N.lor a b = a -> le_bits b a.
Proof. intros H. rewrite <- H. apply lor_ub_r. Qed.

Section Cut.
Variable prog : qkey -> body.
Variable sn : snapshot.
Variable ns : list qkey.
Hypothesis Hmono : monotone_prog prog sn.
Hypothesis Hfits : fits8 prog sn.
Hypothesis Hdet : input_determined prog sn.

Notation K := (kleene prog sn ns).

Lemma K_lt q : K q < 256.
Proof. rewrite kleene_R. apply R_lt; assumption. Qed.

Lemma K_fix q : In q ns -> F prog sn K q = K q.
Proof. apply kleene_is_fixpoint; assumption. Qed.

(* the program with node h replaced by the constant x *)
Definition cutp (h : qkey) (x : val) (q : qkey) : body := if key_eqb q h then Ret x else prog q.
Definition Kc (h : qkey) (x : val) : qkey -> val := kleene (cutp h x) sn ns.

Lemma F_cut_h h x rho : F (cutp h x) sn rho h = x.
Proof. unfold F, cutp. rewrite key_eqb_refl. reflexivity. Qed.

Lemma F_cut_other h x rho q : q <> h -> F (cutp h x) sn rho q = F prog sn rho q.
Proof. intros Hne. unfold F, cutp. apply key_eqb_neq in Hne. rewrite Hne. reflexivity. Qed.

Lemma cut_mono h x : monotone_prog (cutp h x) sn.
Proof.
  intros q rho rho' Hle. destruct (key_eqb_spec q h) as [-> | Hne].
  - rewrite !F_cut_h. apply le_bits_refl.
  - rewrite !F_cut_other by exact Hne. apply Hmono, Hle.
Qed.

Lemma cut_fits h x : x < 256 -> fits8 (cutp h x) sn.
Proof.
  intros Hx q rho Hrho. destruct (key_eqb_spec q h) as [-> | Hne].
  - rewrite F_cut_h. exact Hx.
  - rewrite F_cut_other by exact Hne. apply Hfits, Hrho.
Qed.

Lemma Kc_lt h x q : x < 256 -> Kc h x q < 256.
Proof. intros Hx. unfold Kc. rewrite kleene_R. apply R_lt. apply cut_fits, Hx. Qed.

Lemma Kc_head h x : x < 256 -> In h ns -> Kc h x h = x.
Proof.
  intros Hx Hh. unfold Kc.
  rewrite <- (kleene_is_fixpoint (cutp h x) sn ns (cut_mono h x) (cut_fits h x Hx) h Hh).
  apply F_cut_h.
Qed.

Lemma Kc_fix h x d : x < 256 -> In d ns -> d <> h -> F prog sn (Kc h x) d = Kc h x d.
Proof.
  intros Hx Hd Hne. rewrite <- (F_cut_other h x _ d Hne).
  apply (kleene_is_fixpoint (cutp h x) sn ns (cut_mono h x) (cut_fits h x Hx) d Hd).
Qed.

Lemma Kc_below h x : le_bits x (K h) -> env_le (Kc h x) K.
Proof.
  intros Hx. unfold Kc. apply kleene_least; [apply cut_mono |].
  intros q Hq. destruct (key_eqb_spec q h) as [-> | Hne].
  - rewrite F_cut_h. exact Hx.
  - rewrite F_cut_other by exact Hne. rewrite (K_fix q Hq). apply le_bits_refl.
Qed.

Lemma Kc_mono h x x' : x' < 256 -> In h ns -> le_bits x x' -> env_le (Kc h x) (Kc h x').
Proof.
  intros Hx' Hh Hle. unfold Kc at 1. apply kleene_least; [apply cut_mono |].
  intros q Hq. destruct (key_eqb_spec q h) as [-> | Hne].
  - rewrite F_cut_h. rewrite (Kc_head h x' Hx' Hh). exact Hle.
  - rewrite F_cut_other by exact Hne. rewrite (Kc_fix h x' q Hx' Hq Hne). apply le_bits_refl.
Qed.

Lemma Kc_converged h x : x < 256 -> In h ns -> le_bits x (K h) ->
  le_bits (F prog sn (Kc h x) h) x -> forall p, Kc h x p = K p.
Proof.
  intros Hx Hh Hle Hconv p. apply le_bits_antisym; [apply Kc_below, Hle |].
  apply kleene_least; [exact Hmono |].
  intros q Hq. destruct (key_eqb_spec q h) as [-> | Hne].
  - rewrite (Kc_head h x Hx Hh). exact Hconv.
  - rewrite (Kc_fix h x q Hx Hq Hne). apply le_bits_refl.
Qed.

(* the head's transfer function *)
Definition G (h : qkey) (x : val) : val := F prog sn (Kc h x) h.

Lemma G_mono h x x' : x' < 256 -> In h ns -> le_bits x x' -> le_bits (G h x) (G h x').
Proof. intros Hx' Hh Hle. unfold G. apply Hmono. now apply Kc_mono. Qed.

Lemma G_below h x : In h ns -> le_bits x (K h) -> le_bits (G h x) (K h).
Proof.
  intros Hh Hle. unfold G. rewrite <- (K_fix h Hh). apply Hmono. now apply Kc_below.
Qed.

Lemma G_lt h x : x < 256 -> G h x < 256.
Proof. intros Hx. unfold G. apply Hfits. intros p. now apply Kc_lt. Qed.

Lemma R_cut_indep h x n : forall p, ~ reaches prog sn p h ->
  R (cutp h x) sn ns n p = R prog sn ns n p.
Proof.
  induction n as [| n IH]; intros p Hnr; cbn [R]; [reflexivity |].
  destruct (mem p ns); [| reflexivity].
  assert (Hne : p <> h). { intros ->. apply Hnr. constructor. }
  rewrite (F_cut_other h x _ p Hne).
  apply (F_ext_succs prog sn _ _ p Hdet). intros d Hd. apply IH.
  intros Hr. apply Hnr. econstructor; eassumption.
Qed.

Lemma Kc_indep h x p : ~ reaches prog sn p h -> Kc h x p = K p.
Proof.
  intros Hnr. unfold Kc. rewrite !kleene_R. now apply R_cut_indep.
Qed.

End Cut.
