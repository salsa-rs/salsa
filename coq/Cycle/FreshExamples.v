(* Cycle/FreshExamples.v — non-vacuity of the fresh-revision theorem (Cycle/FreshThm.v): a program
   with a 3-node Fixpoint ring over a 2-node joining ring over a plain leaf satisfies every
   hypothesis; runs entered at each member; a nested-cycle program (outside the proved class)
   checked by computation. *)
From Coq Require Import PeanoNat.
From Salsa Require Import Base.
From Salsa.Kern Require Import CoreK.
From Salsa.Core Require Spec.
From Salsa.Cycle Require Import StampK Model Spec Cert SpecProofs Examples FreshInv FreshThm.

Definition cinit0 (q : qkey) : val := 0.

(* ring A (family 1, default cycle_fn):   a0 = in(0,0) | a1 | b0 ;  a1 = a2 | 1 ;  a2 = (a0 & 6) | 8
   ring B (family 2, joining cycle_fn):   b0 = b1 | 16 ;  b1 = (b0 & 48) | leaf
   leaf   (family 0, no cycle recovery):  leaf = in(0,1) & 64 *)
Definition exf_prog (q : qkey) : body :=
  if key_eqb q (1, 0) then
    RdIn (0, 0) (fun a => CallQ (1, 1) (fun b => CallQ (2, 0) (fun c => Ret (N.lor a (N.lor b c)))))
  else if key_eqb q (1, 1) then CallQ (1, 2) (fun b => Ret (N.lor b 1))
  else if key_eqb q (1, 2) then CallQ (1, 0) (fun b => Ret (N.lor (N.land b 6) 8))
  else if key_eqb q (2, 0) then CallQ (2, 1) (fun b => Ret (N.lor b 16))
  else if key_eqb q (2, 1) then CallQ (2, 0) (fun b => CallQ (0, 0) (fun c => Ret (N.lor (N.land b 48) c)))
  else if key_eqb q (0, 0) then RdIn (0, 1) (fun a => Ret (N.land a 64))
  else Ret 0.

Definition exf_ns : list qkey := [(1, 0); (1, 1); (1, 2); (2, 0); (2, 1); (0, 0)].
Definition exf_lvl (q : qkey) : nat := match fst q with 1%N => 2%nat | 2%N => 1%nat | _ => 0%nat end.
Definition exf_nxt (q : qkey) : option qkey :=
  if key_eqb q (1, 0) then Some (1, 1)
  else if key_eqb q (1, 1) then Some (1, 2)
  else if key_eqb q (1, 2) then Some (1, 0)
  else if key_eqb q (2, 0) then Some (2, 1)
  else if key_eqb q (2, 1) then Some (2, 0)
  else None.
Definition exf_iv (i : ikey) : val := if key_eqb i (0, 0) then 5 else if key_eqb i (0, 1) then 64 else 0.

Lemma exf_cases (P : qkey -> Prop) :
  P (1, 0) -> P (1, 1) -> P (1, 2) -> P (2, 0) -> P (2, 1) -> P (0, 0) ->
  (forall q, exf_prog q = Ret 0 -> exf_nxt q = None -> P q) -> forall q, P q.
Proof.
  intros H0 H1 H2 H3 H4 H5 Hr q. unfold exf_prog, exf_nxt in Hr.
  destruct (key_eqb_spec q (1, 0)) as [-> | N0]; [exact H0 |].
  destruct (key_eqb_spec q (1, 1)) as [-> | N1]; [exact H1 |].
  destruct (key_eqb_spec q (1, 2)) as [-> | N2]; [exact H2 |].
  destruct (key_eqb_spec q (2, 0)) as [-> | N3]; [exact H3 |].
  destruct (key_eqb_spec q (2, 1)) as [-> | N4]; [exact H4 |].
  destruct (key_eqb_spec q (0, 0)) as [-> | N5]; [exact H5 |].
  apply Hr.
  - apply key_eqb_neq in N0, N1, N2, N3, N4, N5. now rewrite N0, N1, N2, N3, N4, N5.
  - apply key_eqb_neq in N0, N1, N2, N3, N4. now rewrite N0, N1, N2, N3, N4.
Qed.

Example exf_monotone sn : monotone_prog exf_prog sn.
Proof.
  intros q rho rho' Hle. revert q. apply exf_cases; unfold F;
    try (intros q Hq _; rewrite Hq); cbn;
    repeat (first [apply le_bits_refl | apply Hle | apply lor_mono | apply land_mono]).
Qed.

Example exf_fits sn : (forall i, Salsa.Core.Spec.sn_in sn i < 256) -> fits8 exf_prog sn.
Proof.
  intros Hin q rho Hrho. revert q. apply exf_cases; unfold F;
    try (intros q Hq _; rewrite Hq); cbn;
    repeat (first [apply Hin | apply Hrho | apply lor_lt256 | apply land_lt256 | lia]).
Qed.

Example exf_determined sn : input_determined exf_prog sn.
Proof.
  intros q ans. revert q. apply exf_cases; unfold succs; try (intros q Hq _; rewrite Hq); reflexivity.
Qed.

Example exf_ring sn : ring_ok_of exf_prog ex_strat sn exf_ns exf_lvl exf_nxt.
Proof.
  split; [| split; [| split]].
  - intros q d Hq Hd. unfold exf_ns in Hq. cbn [In] in Hq.
    destruct Hq as [<- | [<- | [<- | [<- | [<- | [<- | []]]]]]]; cbn in Hd;
      repeat (destruct Hd as [<- | Hd]; [split; [cbn; tauto | cbn; first [left; lia | right; reflexivity]] |]);
      contradiction.
  - intros q. pattern q. apply exf_cases; try (intros q0 _ Hn d Hd; rewrite Hn in Hd; discriminate);
      intros d Hd; cbn in Hd; first [discriminate Hd | injection Hd as <-; (split; [reflexivity |]);
      split; first [left; reflexivity | right; reflexivity]].
  - intros a. pattern a. apply exf_cases; try (intros a0 _ Hn b c Ha; rewrite Hn in Ha; discriminate);
      intros b; pattern b; apply exf_cases; try (intros b0 _ Hn c _ Hb; rewrite Hn in Hb; discriminate);
      intros c Ha Hb; cbn in Ha, Hb; first [discriminate Ha | discriminate Hb | congruence].
  - intros q. pattern q. apply exf_cases; try (intros q0 _ Hn d Hd; rewrite Hn in Hd; discriminate);
      intros d Hd; cbn in Hd; first [discriminate Hd | injection Hd as <-; cbn; tauto].
Qed.

(* the theorem applies: whatever the entry order, subset or repetition *)
Example exf_fresh : forall (qs : list qkey), (forall q, In q qs -> In q exf_ns) ->
  let sn := csnap_of (cinit_db exf_iv (fun _ => 0)) in
  exists s',
    crun_ops exf_prog ex_strat cinit0 6 6 (cinit_db exf_iv (fun _ => 0)) (map COGet qs)
      = (s', map (fun q => COk (kleene exf_prog sn exf_ns q)) qs) /\
    is_fixpoint_state exf_prog exf_ns s' = true.
Proof.
  intros qs Hqs sn.
  apply (fresh_ring exf_prog ex_strat cinit0 exf_iv (fun _ => 0) exf_ns exf_lvl exf_nxt 6 6 qs).
  - apply exf_monotone.
  - apply exf_fits. intros i. cbn. unfold exf_iv.
    destruct (key_eqb i (0, 0)); [lia |]. destruct (key_eqb i (0, 1)); lia.
  - apply exf_determined.
  - apply exf_ring.
  - reflexivity.
  - lia.
  - cbn. lia.
  - exact Hqs.
Qed.

Definition exf_outs (ops : list cop) : list cout :=
  snd (crun_ops exf_prog ex_strat cinit0 6 6 (cinit_db exf_iv (fun _ => 0)) ops).
Definition exf_sn := csnap_of (cinit_db exf_iv (fun _ => 0)).

(* the least fixpoint of the example *)
Example exf_kleene :
  map (kleene exf_prog exf_sn exf_ns) exf_ns = [93; 13; 12; 80; 80; 64].
Proof. vm_compute. reflexivity. Qed.

(* the 3-node ring entered at each member first (then everything else, with repeats) *)
Example exf_enter_each :
  exf_outs [COGet (1, 0); COGet (1, 1); COGet (1, 2)] = [COk 93; COk 13; COk 12] /\
  exf_outs [COGet (1, 1); COGet (1, 2); COGet (1, 0)] = [COk 13; COk 12; COk 93] /\
  exf_outs [COGet (1, 2); COGet (1, 0); COGet (1, 1)] = [COk 12; COk 93; COk 13] /\
  exf_outs [COGet (2, 1); COGet (1, 2); COGet (0, 0); COGet (2, 0); COGet (1, 2); COGet (1, 0)]
    = [COk 80; COk 12; COk 64; COk 80; COk 12; COk 93].
Proof. vm_compute. repeat split; reflexivity. Qed.

(* nested cycles (outside the class the theorem is proved for): a0 -> a1 -> a0 and a1 -> a2 -> a1;
   checked by computation for every entry point *)
Definition exn_prog (q : qkey) : body :=
  if key_eqb q (1, 0) then RdIn (0, 0) (fun a => CallQ (1, 1) (fun b => Ret (N.lor a b)))
  else if key_eqb q (1, 1) then CallQ (1, 0) (fun a => CallQ (1, 2) (fun b => Ret (N.lor (N.land a 6) b)))
  else if key_eqb q (1, 2) then CallQ (1, 1) (fun a => Ret (N.lor (N.land a 12) 16))
  else Ret 0.
Definition exn_ns : list qkey := [(1, 0); (1, 1); (1, 2)].
Definition exn_outs (ops : list cop) : list cout :=
  snd (crun_ops exn_prog ex_strat cinit0 3 6 (cinit_db exf_iv (fun _ => 0)) ops).

Example exn_nested :
  map (kleene exn_prog exf_sn exn_ns) exn_ns = [21; 20; 20] /\
  exn_outs [COGet (1, 0); COGet (1, 1); COGet (1, 2)] = [COk 21; COk 20; COk 20] /\
  exn_outs [COGet (1, 1); COGet (1, 2); COGet (1, 0)] = [COk 20; COk 20; COk 21] /\
  exn_outs [COGet (1, 2); COGet (1, 0); COGet (1, 1)] = [COk 20; COk 21; COk 20].
Proof. vm_compute. repeat split; reflexivity. Qed.
