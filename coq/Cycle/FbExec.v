From Salsa Require Import Base.
From Salsa.Cycle Require Import Model FreshBase FbInv.

Section Exec.
Context {C : bctx}.
Notation lvl := (@flvl C).

Lemma botof_in st b : botof lvl st = Some b -> In b st.
Proof.
  destruct st as [| q r]; [discriminate |]. cbn. intros H. injection H as <-. apply botof_from_in.
Qed.

End Exec.
