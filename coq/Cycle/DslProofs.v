(* Cycle/DslProofs.v — the hypotheses of the C12 theorems hold for EVERY program the `cycles`
   profile can generate: expressions built from byte literals, input reads, union, intersection,
   calls whose key is computed from inputs only and branches whose condition is computed from
   inputs only compile (Core/Dsl.v) to monotone, byte-valued bodies. *)
From Salsa Require Import Base.
From Salsa.Core Require Import Model Spec Dsl.
From Salsa.Cycle Require Import Spec SpecProofs DslSpec.

(* the CPS compiler computes the direct-style value *)
Lemma comp_run : forall nk x e k, run e (comp nk x k) = run e (k (deval nk e x)).
Proof.
  induction x as [v | i f | fam ke IH | c | | c | o a IHa b IHb | c IHc a IHa b IHb]; intros e k; cbn [comp deval].
  - reflexivity.
  - reflexivity.
  - rewrite IH. reflexivity.
  - reflexivity.
  - reflexivity.
  - reflexivity.
  - rewrite IHa, IHb. reflexivity.
  - rewrite IHc. destruct (deval nk e c =? 0); [apply IHb | apply IHa].
Qed.

Lemma run_compile nk x e : run e (compile nk x) = deval nk e x.
Proof. unfold compile. now rewrite comp_run. Qed.

Lemma deval_input_only nk x : input_only x = true ->
  forall ein ecell rho rho',
    deval nk {| e_in := ein; e_cell := ecell; e_q := rho |} x =
    deval nk {| e_in := ein; e_cell := ecell; e_q := rho' |} x.
Proof.
  induction x as [v | i f | fam ke IH | c | | c | o a IHa b IHb | c IHc a IHa b IHb];
    intros H ein ecell rho rho'; cbn [deval input_only e_in e_cell e_q] in *; try reflexivity; try discriminate.
  - apply andb_true_iff in H. destruct H as [Ha Hb]. now rewrite (IHa Ha ein ecell rho rho'), (IHb Hb ein ecell rho rho').
  - apply andb_true_iff in H. destruct H as [H Hb]. apply andb_true_iff in H. destruct H as [Hc Ha].
    now rewrite (IHc Hc ein ecell rho rho'), (IHa Ha ein ecell rho rho'), (IHb Hb ein ecell rho rho').
Qed.

Lemma deval_mono nk x : mono_expr x = true ->
  forall ein ecell rho rho', env_le rho rho' ->
    le_bits (deval nk {| e_in := ein; e_cell := ecell; e_q := rho |} x)
            (deval nk {| e_in := ein; e_cell := ecell; e_q := rho' |} x).
Proof.
  induction x as [v | i f | fam ke IH | c | | c | o a IHa b IHb | c IHc a IHa b IHb];
    intros H ein ecell rho rho' Hle; cbn [deval mono_expr e_in e_cell e_q] in *; try discriminate.
  - apply le_bits_refl.
  - apply le_bits_refl.
  - rewrite (deval_input_only nk ke H ein ecell rho rho'). apply Hle.
  - destruct o; try discriminate; apply andb_true_iff in H; destruct H as [Ha Hb]; cbn [binop_eval].
    + apply land_mono; [now apply IHa | now apply IHb].
    + apply lor_mono; [now apply IHa | now apply IHb].
  - apply andb_true_iff in H. destruct H as [H Hb]. apply andb_true_iff in H. destruct H as [Hc Ha].
    rewrite (deval_input_only nk c Hc ein ecell rho rho').
    destruct (deval nk _ c =? 0); [now apply IHb | now apply IHa].
Qed.

Lemma deval_lt256 nk x : mono_expr x = true ->
  forall ein ecell rho, (forall i, ein i < 256) -> (forall p, rho p < 256) ->
    deval nk {| e_in := ein; e_cell := ecell; e_q := rho |} x < 256.
Proof.
  induction x as [v | i f | fam ke IH | c | | c | o a IHa b IHb | c IHc a IHa b IHb];
    intros H ein ecell rho Hin Hrho; cbn [deval mono_expr e_in e_cell e_q] in *; try discriminate.
  - now apply N.ltb_lt.
  - apply Hin.
  - apply Hrho.
  - destruct o; try discriminate; apply andb_true_iff in H; destruct H as [Ha Hb]; cbn [binop_eval].
    + apply land_lt256. now apply IHa.
    + apply lor_lt256; [now apply IHa | now apply IHb].
  - apply andb_true_iff in H. destruct H as [H Hb]. apply andb_true_iff in H. destruct H as [Hc Ha].
    destruct (deval nk _ c =? 0); [now apply IHb | now apply IHa].
Qed.

Lemma lookup_mono tbl q : mono_table tbl = true -> mono_expr (lookup_node tbl q) = true.
Proof.
  induction tbl as [| [q' x] tbl IH]; cbn; [reflexivity |].
  intros H. apply andb_true_iff in H. destruct H as [Hx Ht].
  destruct (key_eqb q' q); [exact Hx | now apply IH].
Qed.

Theorem dsl_monotone : forall nk tbl sn, mono_table tbl = true -> monotone_prog (prog_of nk tbl) sn.
Proof.
  intros nk tbl sn Ht q rho rho' Hle. unfold F, prog_of. rewrite !run_compile.
  apply deval_mono; [now apply lookup_mono | exact Hle].
Qed.

Theorem dsl_fits8 : forall nk tbl sn, mono_table tbl = true -> (forall i, sn_in sn i < 256) ->
  fits8 (prog_of nk tbl) sn.
Proof.
  intros nk tbl sn Ht Hin q rho Hrho. unfold F, prog_of. rewrite run_compile.
  apply deval_lt256; [now apply lookup_mono | exact Hin | exact Hrho].
Qed.
