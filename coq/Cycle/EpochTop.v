(* Cycle/EpochTop.v — the epoch invariant holds of every reachable state of the Cycle model (all
   programs, strategies and histories); consequences for the fixpoint loop (C15): the maximum a
   trip reports is a stamp of the loop's own epoch (or nothing), so the loop's counter is bounded. *)
From Coq Require Import PeanoNat.
From Salsa Require Import Base.
From Salsa.gen Require Import Kernels.
From Salsa.Kern Require Import CoreK K4_Stamp.
From Salsa.Cycle Require Import StampK Model ModelProofs LockInv EpochInv EpochOps.

Section Top.
Context {E : ectx}.
Notation prog := (@eprog E).
Notation strat := (@estrat E).
Notation cinit := (@ecinit E).

(* ---------------------------------------------------------------- reachable states *)
Lemma SI_init iv idur : SI (cinit_db iv idur).
Proof. split; [cbn; lia |]. intros p m Hm. discriminate. Qed.

Lemma SI_new_revision s : SI s -> SI (cnew_revision s).
Proof.
  intros [Hlt Hall]. split; [cbn; lia |]. intros p m Hm. cbn in Hm.
  destruct (Hall p m Hm) as [H1 H2 H3 H4 H5].
  assert (Hcur : ccur (cnew_revision s) = ccur s + 1) by reflexivity.
  constructor.
  - exact H1.
  - rewrite Hcur. lia.
  - intros _ Hv. rewrite Hcur in Hv. lia.
  - exact H4.
  - intros [Hv _]. rewrite Hcur in Hv. lia.
Qed.

Lemma SI_zalsa_mut s : SI s -> SI (czalsa_mut s).
Proof.
  intros HS. unfold czalsa_mut. destruct (N.eqb_spec (c_ccount s) 255) as [He | Hne]; [now apply SI_new_revision |].
  destruct HS as [Hlt Hall]. split; [cbn; lia |]. intros p m Hm. cbn in Hm.
  destruct (Hall p m Hm) as [H1 H2 H3 H4 H5].
  constructor.
  - exact H1.
  - exact H2.
  - intros Hf Hv. cbn. specialize (H3 Hf Hv). lia.
  - exact H4.
  - intros [Hv Hc] Hf. cbn in Hc. specialize (H3 Hf Hv). lia.
Qed.

Lemma SI_step nodes fuel s o : SI s -> SI (fst (cstep prog strat cinit nodes fuel s o)).
Proof.
  intros HS. destruct o as [i v d | d | c v | c v | q |]; cbn [cstep].
  - assert (H1 := SI_new_revision _ (SI_zalsa_mut s HS)).
    set (s1 := cnew_revision (czalsa_mut s)) in *.
    destruct (f_dur (c_in s1 i) =? D_NEVER); [exact H1 |]. cbn [fst].
    apply (SI_fields s1); try reflexivity; [| exact H1].
    unfold ccur. cbn. match goal with |- context [if ?b then _ else _] => destruct b end; reflexivity.
  - assert (H1 := SI_new_revision _ (SI_zalsa_mut s HS)).
    set (s1 := cnew_revision (czalsa_mut s)) in *.
    destruct (d =? D_NEVER); [exact H1 |]. cbn [fst].
    apply (SI_fields s1); try reflexivity. exact H1.
  - cbn [fst]. apply (SI_fields s); try reflexivity. exact HS.
  - cbn [fst]. apply (SI_fields s); try reflexivity. exact HS.
  - destruct (clevel_ok nodes fuel) as [HLf HLm].
    destruct (gwp_fetch (clevel prog strat cinit nodes fuel) HLf HLm nodes q s s HS (ext_refl s)) as (H1 & _ & _).
    destruct (cfetch prog strat cinit nodes (clevel prog strat cinit nodes fuel) q s) as [s' [[[[v du] ch] hs] | p |]];
      exact H1.
  - cbn [fst]. now apply SI_zalsa_mut.
Qed.

Theorem SI_reachable nodes fuel : forall ops s, SI s ->
  SI (fst (crun_ops prog strat cinit nodes fuel s ops)).
Proof.
  induction ops as [| o ops IH]; intros s HS; [exact HS |].
  cbn [crun_ops]. assert (H1 := SI_step nodes fuel s o HS).
  destruct (cstep prog strat cinit nodes fuel s o) as [s1 r]. cbn [fst] in H1.
  specialize (IH s1 H1). destruct (crun_ops prog strat cinit nodes fuel s1 ops) as [s2 rs]. exact IH.
Qed.

(* ---------------------------------------------------------------- the loop's counter *)
Section Loop.
Variable L : clower.
Hypothesis HLf : Lfetch_ok L.
Hypothesis HLm : Lmca_ok L.
Variable n : nat.
Variable q : qkey.
Hypothesis Hrq : rcv q.

Lemma iter_unfold k ls s s1 hm v rv hs it' :
  round prog strat cinit n L q ls s = (s1, COk (RIterate hm v rv hs)) ->
  stamp_increment (N.max (ls_iter ls) hm) = Some it' ->
  iter_loop prog strat cinit (S k) n L q ls s
  = iter_loop prog strat cinit k n L q (next_ls q s1 ls hs it' v rv) (next_state q s1 hs it' v rv).
Proof.
  intros Hr Hi. cbn [iter_loop]. unfold cbind at 1. rewrite Hr, Hi. reflexivity.
Qed.

(* what a trip from an invariant state yields *)
Lemma round_facts ls s : SI s -> loop_inv (c_ccount s) ls ->
  SI (fst (round prog strat cinit n L q ls s)) /\
  c_ccount (fst (round prog strat cinit n L q ls s)) = c_ccount s /\
  forall out, snd (round prog strat cinit n L q ls s) = COk out ->
    round_epost q (fst (round prog strat cinit n L q ls s)) out.
Proof.
  intros HS Hinv. destruct (gwp_round L HLf n q s ls s HS (ext_refl s) Hinv) as (H1 & H2 & H3).
  split; [exact H1 |]. split; [apply H2 | exact H3].
Qed.

Definition trip_inv (ls : lstate) (s : cdb) : Prop := SI s /\ loop_inv (c_ccount s) ls.

Lemma trip_next ls s s1 hm v rv hs it' : trip_inv ls s ->
  round prog strat cinit n L q ls s = (s1, COk (RIterate hm v rv hs)) ->
  stamp_increment (N.max (ls_iter ls) hm) = Some it' ->
  exists ls2 s2,
    (forall k, iter_loop prog strat cinit (S k) n L q ls s = iter_loop prog strat cinit k n L q ls2 s2) /\
    trip_inv ls2 s2 /\ (trips_left ls2 < trips_left ls)%nat.
Proof.
  intros [HS Hinv] Hr Hi.
  destruct (round_facts ls s HS Hinv) as (HS1 & Hcc1 & Hpost). rewrite Hr in *. cbn [fst snd] in *.
  assert (Hinv1 : loop_inv (c_ccount s1) ls) by (now rewrite Hcc1).
  specialize (Hpost _ eq_refl).
  destruct (goodst_max_inv s1 ls hm Hinv1 (proj1 Hpost)) as (Hmw & _ & Hge).
  destruct (next_state_ok q Hrq s1 ls hm v rv hs it' HS1 Hinv1 Hpost Hi) as (HS4 & _ & Hinv4).
  exists (next_ls q s1 ls hs it' v rv), (next_state q s1 hs it' v rv).
  split; [intros k; exact (iter_unfold k ls s s1 hm v rv hs it' Hr Hi) |]. split; [split; assumption |].
  exact (trips_decrease ls (next_ls q s1 ls hs it' v rv) _ Hmw Hge Hi).
Qed.

(* the loop never reports out-of-fuel unless a trip does *)
Theorem loop_bounded_epoch :
  (forall ls1 s1, SI s1 -> snd (round prog strat cinit n L q ls1 s1) <> CFuel) ->
  forall k ls s, SI s -> loop_inv (c_ccount s) ls -> (trips_left ls < k)%nat ->
  snd (iter_loop prog strat cinit k n L q ls s) <> CFuel.
Proof.
  intros Hnf k ls s HS Hinv.
  exact (loop_bounded_inv prog strat cinit n L q trip_inv trip_next
           (fun ls1 s1 H => Hnf ls1 s1 (proj1 H)) k ls s (conj HS Hinv)).
Qed.

(* trips that never converge end in the too-many-iterations panic *)
Theorem loop_diverging_epoch :
  (forall ls1 s1, SI s1 -> exists s' hm v rv hs,
      round prog strat cinit n L q ls1 s1 = (s', COk (RIterate hm v rv hs))) ->
  forall k ls s, SI s -> loop_inv (c_ccount s) ls -> (trips_left ls < k)%nat ->
  exists s', iter_loop prog strat cinit k n L q ls s = (s', CPanic (PB PTooMany)).
Proof.
  intros Hdiv k ls s HS Hinv.
  exact (loop_diverging_inv prog strat cinit n L q trip_inv trip_next
           (fun ls1 s1 H => Hdiv ls1 s1 (proj1 H)) k ls s (conj HS Hinv)).
Qed.

(* execute: the only place a loop is started; its own fuel (LOOP_FUEL) is never the problem *)
Theorem execute_iterate_bounded old s :
  SI s -> (forall o, old = Some o -> stamp_wf (iter_of o)) ->
  (forall ls1 s1, SI s1 -> snd (round prog strat cinit n L q ls1 s1) <> CFuel) ->
  snd (execute_iterate prog strat cinit n L q old s) <> CFuel.
Proof.
  intros HS Hold Hnf.
  destruct (execute_iterate_start prog strat cinit n L q old s) as [(ls & Eq & Hls) | Eq]; rewrite Eq; [| discriminate].
  assert (H := loop_bounded_epoch Hnf LOOP_FUEL ls s HS (start_loop_inv old s ls HS Hold Hls) (loop_fuel_enough ls)).
  unfold on_panic. destruct (iter_loop prog strat cinit LOOP_FUEL n L q ls s) as [s' [a | p |]]; cbn [snd] in *; try discriminate.
  contradiction.
Qed.

End Loop.

End Top.

(* ---------------------------------------------------------------- statements without the class *)
Definition epoch_inv (strat : N -> strategy) (s : cdb) : Prop :=
  @SI {| eprog := fun _ => Ret 0; estrat := strat; ecinit := fun _ => 0 |} s.

Lemma SI_any_prog (E1 E2 : ectx) s : @estrat E1 = @estrat E2 -> @SI E1 s -> @SI E2 s.
Proof.
  intros Hs [Hlt Hall]. split; [exact Hlt |]. intros p m Hm. destruct (Hall p m Hm) as [H1 H2 H3 H4 H5].
  constructor; try assumption.
  intros Hc Hf hd Hin. destruct (H5 Hc Hf hd Hin) as (Hw & Hcc & Hr & mh & Hmh & Hok).
  split; [exact Hw |]. split; [exact Hcc |]. split; [unfold rcv in *; now rewrite <- Hs |].
  exists mh. split; [exact Hmh | exact Hok].
Qed.

Lemma SI_epoch (E0 : ectx) s : @SI E0 s <-> epoch_inv (@estrat E0) s.
Proof. unfold epoch_inv. split; apply SI_any_prog; reflexivity. Qed.

Theorem epoch_inv_reachable : forall prog strat cinit nodes fuel iv idur ops,
  epoch_inv strat (fst (crun_ops prog strat cinit nodes fuel (cinit_db iv idur) ops)).
Proof.
  intros prog strat cinit nodes fuel iv idur ops. unfold epoch_inv.
  apply (SI_any_prog {| eprog := prog; estrat := strat; ecinit := cinit |}); [reflexivity |].
  apply (@SI_reachable {| eprog := prog; estrat := strat; ecinit := cinit |}). apply SI_init.
Qed.

Theorem epoch_inv_step : forall prog strat cinit nodes fuel s o,
  epoch_inv strat s -> epoch_inv strat (fst (cstep prog strat cinit nodes fuel s o)).
Proof.
  intros prog strat cinit nodes fuel s o HS. unfold epoch_inv in *.
  apply (SI_epoch {| eprog := prog; estrat := strat; ecinit := cinit |}).
  apply (@SI_step {| eprog := prog; estrat := strat; ecinit := cinit |}).
  now apply (SI_epoch {| eprog := prog; estrat := strat; ecinit := cinit |}).
Qed.

Theorem epoch_loop_bounded : forall prog strat cinit nodes fuel q,
  recovers (strat_of strat q) = true ->
  (forall ls1 s1, epoch_inv strat s1 ->
     snd (round prog strat cinit nodes (clevel prog strat cinit nodes fuel) q ls1 s1) <> CFuel) ->
  forall k ls s, epoch_inv strat s -> loop_inv (c_ccount s) ls -> (trips_left ls < k)%nat ->
  snd (iter_loop prog strat cinit k nodes (clevel prog strat cinit nodes fuel) q ls s) <> CFuel.
Proof.
  intros prog strat cinit nodes fuel q Hr Hnf k ls s HS Hinv Hk.
  set (E0 := {| eprog := prog; estrat := strat; ecinit := cinit |}).
  destruct (@clevel_ok E0 nodes fuel) as [HLf HLm].
  apply (@loop_bounded_epoch E0 _ HLf nodes q Hr).
  - intros ls1 s1 HS1. apply Hnf. now apply (SI_epoch E0).
  - now apply (SI_epoch E0).
  - exact Hinv.
  - exact Hk.
Qed.

Theorem epoch_loop_diverging : forall prog strat cinit nodes fuel q,
  recovers (strat_of strat q) = true ->
  (forall ls1 s1, epoch_inv strat s1 -> exists s' hm v rv hs,
     round prog strat cinit nodes (clevel prog strat cinit nodes fuel) q ls1 s1 = (s', COk (RIterate hm v rv hs))) ->
  forall k ls s, epoch_inv strat s -> loop_inv (c_ccount s) ls -> (trips_left ls < k)%nat ->
  exists s', iter_loop prog strat cinit k nodes (clevel prog strat cinit nodes fuel) q ls s = (s', CPanic (PB PTooMany)).
Proof.
  intros prog strat cinit nodes fuel q Hr Hdiv k ls s HS Hinv Hk.
  set (E0 := {| eprog := prog; estrat := strat; ecinit := cinit |}).
  destruct (@clevel_ok E0 nodes fuel) as [HLf HLm].
  apply (@loop_diverging_epoch E0 _ HLf nodes q Hr).
  - intros ls1 s1 HS1. apply Hdiv. now apply (SI_epoch E0).
  - now apply (SI_epoch E0).
  - exact Hinv.
  - exact Hk.
Qed.

Theorem epoch_execute_bounded : forall prog strat cinit nodes fuel q old s,
  recovers (strat_of strat q) = true ->
  epoch_inv strat s -> (old = None \/ old = c_memo s q) ->
  (forall ls1 s1, epoch_inv strat s1 ->
     snd (round prog strat cinit nodes (clevel prog strat cinit nodes fuel) q ls1 s1) <> CFuel) ->
  snd (execute_iterate prog strat cinit nodes (clevel prog strat cinit nodes fuel) q old s) <> CFuel.
Proof.
  intros prog strat cinit nodes fuel q old s Hr HS Hold Hnf.
  set (E0 := {| eprog := prog; estrat := strat; ecinit := cinit |}).
  destruct (@clevel_ok E0 nodes fuel) as [HLf HLm].
  assert (HS0 : @SI E0 s) by (now apply (SI_epoch E0)).
  apply (@execute_iterate_bounded E0 _ HLf nodes q Hr old s HS0).
  - intros o Ho. destruct Hold as [-> | ->]; [discriminate |]. apply (tbl_memo_of s q o HS0 Ho).
  - intros ls1 s1 HS1. apply Hnf. now apply (SI_epoch E0).
Qed.

Print Assumptions epoch_inv_reachable.
Print Assumptions epoch_loop_bounded.
Print Assumptions epoch_loop_diverging.
Print Assumptions epoch_execute_bounded.
