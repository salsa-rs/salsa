(* Cycle/EpochInv.v — the epoch invariant of the Cycle model (for C15): every stamp the fixpoint
   loop can meet is a well-formed stamp of the current cancellation epoch.  Definitions and the
   lemmas about replacing one memo.  No restriction on programs, strategies or histories. *)
From Coq Require Import PeanoNat.
From Salsa Require Import Base.
From Salsa.gen Require Import Kernels.
From Salsa.Kern Require Import CoreK K4_Stamp.
From Salsa.Cycle Require Import StampK Model ModelProofs.

(* the three arguments every function of Model takes.  The invariant [SI] reads only [estrat]
   (through [rcv]); [eprog] and [ecinit] are there for the lemmas about Model's functions *)
Class ectx : Type := { eprog : qkey -> body; estrat : N -> strategy; ecinit : qkey -> val }.

Lemma stamp_default_wf : stamp_wf stamp_default.
Proof. unfold stamp_wf, stamp_default, stamp_iteration, MAX_ITERATIONS. cbn. lia. Qed.

Lemma stamp_initial_wf c : c < 256 -> stamp_wf (stamp_initial c) /\ stamp_ccount (stamp_initial c) = c.
Proof.
  intros Hc. destruct (k_stamp_initial_parts c Hc) as [Hi Hcc].
  unfold stamp_wf, stamp_initial, stamp_ccount, stamp_iteration, MAX_ITERATIONS.
  rewrite Hi, Hcc, k_MAX_ITERATIONS_val. split; [split; [| lia] | reflexivity].
  unfold k_stamp_initial. apply k_stamp_new_range; lia.
Qed.

Lemma stamp_ccount_default : stamp_ccount stamp_default = 0.
Proof. reflexivity. Qed.

Section Epoch.
Context {E : ectx}.
Notation prog := (@eprog E).
Notation strat := (@estrat E).
Notation cinit := (@ecinit E).

Definition rcv (q : qkey) : Prop := recovers (strat_of strat q) = true.

(* a memo of the current revision and cancellation epoch *)
Definition cur_memo (s : cdb) (m : cmemo) : Prop :=
  cm_verified m = ccur s /\ stamp_ccount (iter_of m) = c_ccount s.

(* what the memo of a cycle head may be: final, poisoned, or current *)
Definition head_memo_ok (s : cdb) (mh : cmemo) : Prop :=
  cm_final mh = true \/ cm_val mh = None \/ cur_memo s mh.

Definition hd_ok (s : cdb) (hd : head) : Prop :=
  stamp_wf (snd hd) /\ stamp_ccount (snd hd) = c_ccount s /\ rcv (fst hd) /\
  exists mh, c_memo s (fst hd) = Some mh /\ head_memo_ok s mh.

Definition heads_ok (s : cdb) (hs : list head) : Prop := forall hd, In hd hs -> hd_ok s hd.

Record memo_si (s : cdb) (m : cmemo) : Prop := {
  ms_wf : stamp_wf (iter_of m);
  ms_ver : cm_verified m <= ccur s;
  ms_cc : cm_final m = false -> cm_verified m = ccur s -> stamp_ccount (iter_of m) <= c_ccount s;
  ms_ne : cm_final m = false -> raw_heads m <> [];
  ms_heads : cur_memo s m -> cm_final m = false -> heads_ok s (raw_heads m)
}.

Definition SI (s : cdb) : Prop :=
  c_ccount s < 256 /\ forall p m, c_memo s p = Some m -> memo_si s m.

(* a good maximum: nothing met yet, or a stamp of this epoch *)
Definition goodst (s : cdb) (x : stamp) : Prop :=
  x = stamp_default \/ (stamp_wf x /\ stamp_ccount x = c_ccount s).

Lemma goodst_max s a b : goodst s a -> goodst s b -> goodst s (N.max a b).
Proof.
  intros [-> | [Ha Hca]] [-> | [Hb Hcb]].
  - left. reflexivity.
  - right. unfold stamp_default. rewrite N.max_0_l. now split.
  - right. unfold stamp_default. rewrite N.max_0_r. now split.
  - right. destruct (stamp_max_wf a b Ha Hb) as (Hw & Hc & _); [congruence |]. split; [exact Hw | congruence].
Qed.

(* how states evolve inside one Get: a recovering head keeps an acceptable memo, possibly another one *)
Definition ext (s s' : cdb) : Prop :=
  ccur s' = ccur s /\ c_ccount s' = c_ccount s /\
  forall h mh, c_memo s h = Some mh -> rcv h -> head_memo_ok s mh ->
    exists mh', c_memo s' h = Some mh' /\ head_memo_ok s' mh'.

Lemma ext_refl s : ext s s.
Proof. split; [reflexivity |]. split; [reflexivity |]. intros h mh Hm _ Hok. now exists mh. Qed.

Lemma ext_trans s1 s2 s3 : ext s1 s2 -> ext s2 s3 -> ext s1 s3.
Proof.
  intros (A1 & A2 & A3) (B1 & B2 & B3). split; [congruence |]. split; [congruence |].
  intros h mh Hm Hr Hok. destruct (A3 h mh Hm Hr Hok) as (mh' & Hm' & Hok'). now apply (B3 h mh').
Qed.

Lemma hd_ok_ext s s' hd : ext s s' -> hd_ok s hd -> hd_ok s' hd.
Proof.
  intros (A1 & A2 & A3) (Hw & Hc & Hr & mh & Hm & Hok).
  split; [exact Hw |]. split; [congruence |]. split; [exact Hr |]. now apply (A3 _ mh).
Qed.

Lemma heads_ok_ext s s' hs : ext s s' -> heads_ok s hs -> heads_ok s' hs.
Proof. intros He H hd Hin. apply (hd_ok_ext s s' hd He), H, Hin. Qed.

Lemma goodst_ext s s' x : ext s s' -> goodst s x -> goodst s' x.
Proof. intros (_ & A2 & _) [-> | [Hw Hc]]; [now left | right; split; [exact Hw | congruence]]. Qed.

(* states that differ outside the memo table, the revision and the cancellation count *)
Definition same_core (s s' : cdb) : Prop :=
  c_memo s' = c_memo s /\ c_revs s' = c_revs s /\ c_ccount s' = c_ccount s.

Lemma same_core_refl s : same_core s s.
Proof. now repeat split. Qed.

Lemma same_core_trans s1 s2 s3 : same_core s1 s2 -> same_core s2 s3 -> same_core s1 s3.
Proof. intros (A1 & A2 & A3) (B1 & B2 & B3). repeat split; congruence. Qed.

Lemma head_memo_ok_fields s s' m : ccur s' = ccur s -> c_ccount s' = c_ccount s ->
  head_memo_ok s m -> head_memo_ok s' m.
Proof.
  intros Hcur Hc [H | [H | [H1 H2]]]; [now left | right; now left | right; right; split; congruence].
Qed.

Lemma hd_ok_fields s s' hd : c_memo s' = c_memo s -> ccur s' = ccur s -> c_ccount s' = c_ccount s ->
  hd_ok s hd -> hd_ok s' hd.
Proof.
  intros Hm Hcur Hc (Hw & Hcc & Hrc & mh & Hmh & Hok). split; [exact Hw |]. split; [congruence |].
  split; [exact Hrc |]. exists mh. split; [now rewrite Hm | exact (head_memo_ok_fields s s' mh Hcur Hc Hok)].
Qed.

Lemma SI_fields s s' : c_memo s' = c_memo s -> ccur s' = ccur s -> c_ccount s' = c_ccount s -> SI s -> SI s'.
Proof.
  intros Hm Hcur Hc [Hlt Hall]. split; [congruence |]. intros p m Hp. rewrite Hm in Hp.
  destruct (Hall p m Hp) as [H1 H2 H3 H4 H5]. constructor.
  - exact H1.
  - now rewrite Hcur.
  - rewrite Hcur, Hc. exact H3.
  - exact H4.
  - intros [Hv Hcc] Hf hd Hin. apply (hd_ok_fields s s' hd Hm Hcur Hc).
    apply H5; [split; congruence | exact Hf | exact Hin].
Qed.

Lemma same_core_SI s s' : same_core s s' -> SI s -> SI s' /\ ext s s'.
Proof.
  intros (Hm & Hr & Hc) HS.
  assert (Hcur : ccur s' = ccur s) by (unfold ccur; now rewrite Hr).
  split; [exact (SI_fields s s' Hm Hcur Hc HS) |].
  split; [exact Hcur |]. split; [exact Hc |]. intros h mh Hmh _ Hok. exists mh.
  split; [now rewrite Hm | exact (head_memo_ok_fields s s' mh Hcur Hc Hok)].
Qed.

(* ---------------------------------------------------------------- replacing one memo *)
Definition put (s : cdb) (q : qkey) (m : cmemo) : cdb := cset_memo s (upd (c_memo s) q (Some m)).

Lemma put_ext s q m : (rcv q -> head_memo_ok s m) -> ext s (put s q m).
Proof.
  intros Hq. split; [reflexivity |]. split; [reflexivity |].
  intros h mh Hm Hr Hok. cbn. unfold upd. destruct (key_eqb_spec q h) as [<- | Hne].
  - exists m. split; [reflexivity | now apply Hq].
  - exists mh. split; [exact Hm | exact Hok].
Qed.

Lemma put_SI s q m :
  SI s -> stamp_wf (iter_of m) -> cm_verified m <= ccur s ->
  (cm_final m = false -> cm_verified m = ccur s -> stamp_ccount (iter_of m) <= c_ccount s) ->
  (cm_final m = false -> raw_heads m <> []) ->
  (cur_memo s m -> cm_final m = false -> heads_ok (put s q m) (raw_heads m)) ->
  (rcv q -> head_memo_ok s m) ->
  SI (put s q m) /\ ext s (put s q m).
Proof.
  intros [Hlt Hall] Hwf Hver Hcc Hnonempty Hheads Hq.
  assert (He := put_ext s q m Hq). split; [| exact He].
  split; [exact Hlt |]. intros p mp Hp. cbn in Hp. unfold upd in Hp.
  destruct (key_eqb_spec q p) as [<- | Hne].
  - injection Hp as <-. constructor; assumption.
  - destruct (Hall p mp Hp) as [H1 H2 H3 H4 H5]. constructor; try assumption.
    intros Hcu Hf. apply (heads_ok_ext s _ _ He). now apply H5.
Qed.

Lemma put_SI_cur s q m :
  SI s -> stamp_wf (iter_of m) -> cur_memo s m ->
  (cm_final m = false -> raw_heads m <> []) ->
  (cm_final m = false -> heads_ok (put s q m) (raw_heads m)) ->
  SI (put s q m) /\ ext s (put s q m).
Proof.
  intros HS Hw [Hv Hc] Hne Hh. apply (put_SI s q m HS Hw).
  - rewrite Hv. apply N.le_refl.
  - intros _ _. rewrite Hc. apply N.le_refl.
  - exact Hne.
  - intros _. exact Hh.
  - intros _. right; right. now split.
Qed.

Lemma head_memo_ok_put s q m m' : head_memo_ok s m' -> head_memo_ok (put s q m) m'.
Proof. intros H. exact H. Qed.

Lemma hd_ok_put_self s q m it :
  stamp_wf it -> stamp_ccount it = c_ccount s -> rcv q -> head_memo_ok s m -> hd_ok (put s q m) (q, it).
Proof.
  intros Hw Hc Hr Hok. split; [exact Hw |]. split; [exact Hc |]. split; [exact Hr |].
  exists m. split; [cbn; unfold upd; now rewrite key_eqb_refl | exact Hok].
Qed.

End Epoch.
