(* Cycle/RingTop.v — the fresh-revision theorem over a ring (Cycle/RingInv.v).  From the initial
   database, every sequence of Gets at nodes of [ns] returns the target values, never runs out of
   fuel, never panics, and leaves a state whose settled memos hold the target values of nodes all
   of whose callees are settled too (what the certificates of Cycle/Cert.v check). *)
From Coq Require Import PeanoNat.
From Salsa Require Import Base.
From Salsa.Kern Require Import CoreK.
From Salsa.Core Require Import Spec.
From Salsa.Cycle Require Import StampK Model Spec SpecProofs Cert FreshBase RingInv.

Section Top.
Context {R : ring}.
Notation prog := (@rprog R).
Notation strat := (@rstrat R).
Notation cinit := (@rcinit R).
Notation ns := (@rns R).
Notation lvl := (@rlvl R).
Notation nxt := (@rnxt R).
Notation sn := (snap0 (@riv R) (@ridur R)).
Notation sc := (succs prog sn).
Notation fixy := (@rfixy R).
Notation npath := (npath_of nxt).
Notation T := (@tgt R).
Notation LV := (@live R).

(* the assignment every read of the top frame is answered from *)
Definition rho_of (st : list qkey) (s : cdb) : qkey -> val :=
  match botof lvl st with
  | Some b => LV b (hv s b)
  | None => T
  end.

Definition callable (st : list qkey) (d : qkey) : Prop :=
  match st with
  | [] => In d ns
  | q :: _ => In d (sc q)
  end.

(* what a sub-computation leaves alone *)
Definition pres (st : list qkey) (s s' : cdb) : Prop :=
  (forall d, done s d -> done s' d) /\
  (forall p, In p st -> forall m, c_memo s p = Some m -> c_memo s' p = Some m) /\
  (forall p, In p st -> c_memo s p = None ->
     c_memo s' p = None \/
     (botof lvl st = Some p /\ c_memo s' p = Some (initial_memo p (Some (cinit p)) REV_START 0))) /\
  (forall d h it mh, In h st -> partat s d h it -> c_memo s h = Some mh -> own h mh -> cm_iter mh = it ->
     partat s' d h it).

Lemma pres_refl st s : pres st s s.
Proof.
  split; [intros d H; exact H |]. split; [intros p _ m H; exact H |].
  split; [intros p _ H; now left |]. intros d h it mh _ H _ _ _. exact H.
Qed.

Lemma pres_trans st s s1 s2 : pres st s s1 -> pres st s1 s2 -> pres st s s2.
Proof.
  intros (A1 & A2 & A3 & A4) (B1 & B2 & B3 & B4).
  split; [intros d H; apply B1, A1, H |].
  split; [intros p Hp m H; apply B2, A2, H; exact Hp |].
  split.
  - intros p Hp H. destruct (A3 p Hp H) as [H1 | [Hb H1]].
    + now apply B3.
    + right. split; [exact Hb | now apply B2].
  - intros d h it mh Hh Hpa Hmh Ho Hit.
    apply (B4 d h it mh Hh); [now apply (A4 d h it mh) | now apply A2 | exact Ho | exact Hit].
Qed.

Lemma botof_pop q r0 p : botof lvl (q :: r0) = Some p -> p <> q -> botof lvl r0 = Some p.
Proof.
  destruct r0 as [| a r]; cbn; intros H Hne.
  - injection H as <-. congruence.
  - destruct (Nat.eqb (lvl a) (lvl q)); injection H as <-; [reflexivity | congruence].
Qed.

Lemma pres_pop q r0 s s' : ~ In q r0 -> pres (q :: r0) s s' -> pres r0 s s'.
Proof.
  intros Hnq (A1 & A2 & A3 & A4). split; [exact A1 |].
  split; [intros p Hp; apply A2; now right |].
  split.
  - intros p Hp Hn. destruct (A3 p (or_intror Hp) Hn) as [H1 | [Hb H1]]; [now left |].
    right. split; [| exact H1]. apply (botof_pop q r0 p Hb). intros ->. contradiction.
  - intros d h it mh Hh. apply A4. now right.
Qed.

Lemma hv_pres st s s' b : pres st s s' -> In b st -> hv s' b = hv s b.
Proof.
  intros (_ & A2 & A3 & _) Hb. unfold hv. destruct (c_memo s b) as [m |] eqn:Hm.
  - now rewrite (A2 b Hb m Hm).
  - destruct (A3 b Hb Hm) as [-> | [_ ->]]; reflexivity.
Qed.

Lemma botof_in st b : botof lvl st = Some b -> In b st.
Proof.
  destruct st as [| q r]; [discriminate |]. cbn. intros H. injection H as <-. apply botof_from_in.
Qed.

Lemma rho_pres st s s' : pres st s s' -> forall d, rho_of st s' d = rho_of st s d.
Proof.
  intros Hp d. unfold rho_of. destruct (botof lvl st) as [b |] eqn:Hb; [| reflexivity].
  now rewrite (hv_pres st s s' b Hp (botof_in _ _ Hb)).
Qed.

Definition fetch_post (st : list qkey) (s : cdb) (d : qkey) (s' : cdb) (r : cqres) : Prop :=
  let '(v, du, ch, hs) := r in
  Inv st st s' /\ pres st s s' /\ ch = REV_START /\ v = rho_of st s d /\
  ((hs = [] /\ done s' d /\ (forall p, In p st -> c_memo s' p = c_memo s p)) \/
   (exists b it mb, botof lvl st = Some b /\ hs = [(b, it)] /\ c_memo s' b = Some mb /\ own b mb /\
                    cm_iter mb = it /\ (d = b \/ partat s' d b it))).

(* [L] is a level function with fuel n.  The fuel premise: more fuel is left than there are nodes
   off the stack.  A nested fetch pushes a node that is not yet on the duplicate-free stack
   [st] within [ns] and runs one level lower, so the premise passes down and the fuel never runs out. *)
Definition fetch_spec (L : clower) (n : nat) : Prop :=
  forall st s d, Inv st st s -> callable st d -> (length ns < n + length st)%nat ->
                 cwp (cl_fetch L d) (fetch_post st s d) s.

(* what the running frame knows about the reads so far *)
Definition FrOK (st : list qkey) (s : cdb) (fr : cframe) (reads : list qkey) : Prop :=
  fr_changed fr = REV_START /\
  ((fr_heads fr = [] /\ forall e, In e reads -> done s e) \/
   (exists b it mb, botof lvl st = Some b /\ fr_heads fr = [(b, it)] /\ c_memo s b = Some mb /\ own b mb /\
                    cm_iter mb = it /\ (exists e, In e reads /\ (e = b \/ partat s e b it)) /\
                    forall e, In e reads -> done s e \/ e = b \/ partat s e b it)).

Lemma FrOK_pres st s s' fr reads : Inv st st s -> pres st s s' -> FrOK st s fr reads -> FrOK st s' fr reads.
Proof.
  intros HI (A1 & A2 & A3 & A4) (Hc & Hk). split; [exact Hc |].
  destruct Hk as [(Hh & Hr) | (b & it & mb & Hb & Hh & Hmb & Ho & Hit & (e0 & He0 & Hw) & Hr)].
  - left. split; [exact Hh |]. intros e He. apply A1, Hr, He.
  - right. exists b, it, mb. split; [exact Hb |]. split; [exact Hh |].
    assert (Hbs : In b st) by (eapply own_in_stack; eassumption).
    split; [now apply A2 |]. split; [exact Ho |]. split; [exact Hit |].
    split.
    { exists e0. split; [exact He0 |]. destruct Hw as [Hw | Hw]; [now left | right; now apply (A4 e0 b it mb Hbs)]. }
    intros e He. destruct (Hr e He) as [H1 | [H1 | H1]].
    + left. now apply A1.
    + right; left. exact H1.
    + right; right. now apply (A4 e b it mb Hbs).
Qed.

Lemma add_read_ok st s s1 fr reads d du hs :
  FrOK st s1 fr reads ->
  ((hs = [] /\ done s1 d /\ (forall p, In p st -> c_memo s1 p = c_memo s p)) \/
   (exists b it mb, botof lvl st = Some b /\ hs = [(b, it)] /\ c_memo s1 b = Some mb /\ own b mb /\
                    cm_iter mb = it /\ (d = b \/ partat s1 d b it))) ->
  exists fr', cadd_read fr (EQ d) du REV_START hs = Some fr' /\
    FrOK st s1 fr' (reads ++ [d]) /\ fr_dur fr' <= fr_dur fr /\ fr_untracked fr' = fr_untracked fr /\
    (fr_heads fr' = [] -> fr_heads fr = [] /\ forall p, In p st -> c_memo s1 p = c_memo s p).
Proof.
  intros (Hchg & Hk) Hhs.
  unfold cadd_read.
  destruct Hhs as [(-> & Hdd & Hsame) | (b & it & mb & Hb & -> & Hmb & Ho & Hit & Hdb)].
  - cbn [heads_extend]. eexists. split; [reflexivity |]. cbn [fr_changed fr_dur fr_untracked fr_heads].
    split; [| split; [unfold dur_min; lia | split; [reflexivity | intros H; split; [exact H | exact Hsame]]]].
    split; [rewrite Hchg; reflexivity |].
    destruct Hk as [(Hh & Hr) | (b & it & mb & Hb & Hh & Hmb & Ho & Hit & (e0 & He0 & Hw) & Hr)].
    + left. split; [exact Hh |]. intros e He. apply in_app_or in He as [He | [<- | []]]; [now apply Hr | exact Hdd].
    + right. exists b, it, mb. split; [exact Hb |]. split; [exact Hh |]. split; [exact Hmb |].
      split; [exact Ho |]. split; [exact Hit |].
      split; [exists e0; split; [apply in_or_app; now left | exact Hw] |].
      intros e He. apply in_app_or in He as [He | [<- | []]]; [now apply Hr | now left].
  - destruct Hk as [(Hh & Hr) | (b' & it' & mb' & Hb' & Hh & Hmb' & Ho' & Hit' & _ & Hr)].
    + rewrite Hh. cbn [heads_extend]. unfold heads_insert. cbn [heads_find fst snd app].
      eexists. split; [reflexivity |]. cbn [fr_changed fr_dur fr_untracked fr_heads].
      split; [| split; [unfold dur_min; lia | split; [reflexivity | intros H; discriminate]]].
      split; [rewrite Hchg; reflexivity |].
      right. exists b, it, mb. split; [exact Hb |]. split; [reflexivity |]. split; [exact Hmb |].
      split; [exact Ho |]. split; [exact Hit |].
      split; [exists d; split; [apply in_or_app; right; now left | exact Hdb] |].
      intros e He. apply in_app_or in He as [He | [<- | []]]; [left; now apply Hr | right; exact Hdb].
    + rewrite Hb in Hb'. injection Hb' as <-. rewrite Hmb in Hmb'. injection Hmb' as <-.
      rewrite Hit in Hit'. subst it'. rewrite Hh. cbn [heads_extend]. unfold heads_insert. cbn [heads_find fst snd app].
      rewrite key_eqb_refl, N.eqb_refl.
      eexists. split; [reflexivity |]. cbn [fr_changed fr_dur fr_untracked fr_heads].
      split; [| split; [unfold dur_min; lia | split; [reflexivity | intros H; discriminate]]].
      split; [rewrite Hchg; reflexivity |].
      right. exists b, it, mb. split; [exact Hb |]. split; [reflexivity |]. split; [exact Hmb |].
      split; [exact Ho |]. split; [exact Hit |].
      split; [exists d; split; [apply in_or_app; right; now left | exact Hdb] |].
      intros e He. apply in_app_or in He as [He | [<- | []]]; [now apply Hr | right; exact Hdb].
Qed.

Definition env_of (rho : qkey -> val) : env := {| e_in := sn_in sn; e_cell := sn_cell sn; e_q := rho |}.

Lemma in_val hl st s i : Inv hl st s -> f_val (c_in s i) = sn_in sn i /\ f_changed (c_in s i) = REV_START.
Proof. intros HI. rewrite (iv_in _ _ _ HI). split; reflexivity. Qed.

Lemma cell_val hl st s c : Inv hl st s -> c_cell s c = sn_cell sn c.
Proof. intros HI. rewrite (iv_cell _ _ _ HI). reflexivity. Qed.

Lemma pcell_val hl st s c : Inv hl st s -> c_pcell s c = 0.
Proof. intros HI. rewrite (iv_pcell _ _ _ HI). reflexivity. Qed.

(* the frame of [q] on top of the stack [st], run against a lower level [L] that keeps its promise;
   [rho] is the assignment its reads are answered from *)
Section Body.
Variable L : clower.
Variable n : nat.
Variable st : list qkey.
Variable q : qkey.
Variable r0 : list qkey.
Hypothesis Hst : st = q :: r0.
Hypothesis HL : fetch_spec L n.
Hypothesis Hfuel : (length ns < n + length st)%nat.
Variable rho : qkey -> val.

Definition body_post (s : cdb) (fr : cframe) (reads : list qkey) (b : body) (s' : cdb) (r : val * cframe) : Prop :=
  Inv st st s' /\ pres st s s' /\ fst r = run (env_of rho) b /\
  FrOK st s' (snd r) (reads ++ call_trace (sn_in sn) (sn_cell sn) rho b) /\
  fr_dur (snd r) <= fr_dur fr /\ (fr_untracked fr = true -> fr_untracked (snd r) = true) /\
  (fr_heads (snd r) = [] -> fr_heads fr = [] /\ forall p, In p st -> c_memo s' p = c_memo s p).

Lemma crun_body_ok : forall b fr s reads,
  Inv st st s -> rho_of st s = rho -> FrOK st s fr reads ->
  incl (call_trace (sn_in sn) (sn_cell sn) rho b) (sc q) ->
  cwp (crun_body L b fr) (body_post s fr reads b) s.
Proof.
  induction b as [v | i k IH | d k IH | c k IH | k IH | c k IH]; intros fr s reads HI Hrho Hfr Hinc;
    cbn [crun_body].
  - apply cwp_ret. split; [exact HI |]. split; [apply pres_refl |]. split; [reflexivity |].
    cbn [call_trace snd]. rewrite app_nil_r. split; [exact Hfr |]. split; [lia |].
    split; [intros H; exact H |]. intros H. split; [exact H | reflexivity].
  - apply cwp_bind, cwp_get. destruct (in_val _ _ _ i HI) as [Hv Hc]. rewrite Hv.
    eapply cwp_conseq.
    + apply (IH (sn_in sn i) _ s reads HI Hrho); [| exact Hinc].
      destruct Hfr as (Hch & Hk). split; [| exact Hk].
      cbn [cadd_read_simple fr_changed]. rewrite Hch, Hc. reflexivity.
    + intros s' [v' fr'] (H1 & H2 & H3 & H4 & H5 & H6 & H7). split; [exact H1 |]. split; [exact H2 |].
      split; [exact H3 |]. split; [exact H4 |]. cbn [snd cadd_read_simple fr_dur fr_untracked fr_heads] in *.
      split; [unfold dur_min in H5; lia |]. split; [exact H6 | exact H7].
  - (* a call *)
    assert (Hd : In d (sc q)) by (apply Hinc; now left).
    assert (Hcall : callable st d) by (rewrite Hst; exact Hd).
    eapply cwp_seq; [apply (HL st s d HI Hcall Hfuel) |].
    intros s1 [[[v du] ch] hs] (HI1 & Hp1 & Hch & Hv & Hhs).
    rewrite Hrho in Hv. subst v ch.
    assert (Hfr1 := FrOK_pres st s s1 fr reads HI Hp1 Hfr).
    assert (Hrho1 : rho_of st s1 = rho).
    { rewrite <- Hrho. unfold rho_of. destruct (botof lvl st) as [b |] eqn:Hb; [| reflexivity].
      now rewrite (hv_pres st s s1 b Hp1 (botof_in _ _ Hb)). }
    destruct (add_read_ok st s s1 fr reads d du hs Hfr1 Hhs) as (fr' & Hfr' & Hok' & Hdur' & Hun' & Hhd'). rewrite Hfr'.
    eapply cwp_conseq.
    + apply (IH (rho d) fr' s1 (reads ++ [d]) HI1 Hrho1 Hok').
      intros x Hx. apply Hinc. cbn [call_trace]. now right.
    + intros s2 [v2 fr2] (H1 & H2 & H3 & H4 & H5 & H6 & H7). split; [exact H1 |].
      split; [eapply pres_trans; eassumption |]. split; [exact H3 |].
      cbn [call_trace]. rewrite <- app_assoc in H4. split; [exact H4 |].
      cbn [snd] in *. split; [lia |]. split; [intros Hu; apply H6; now rewrite Hun' |].
      intros Hn. destruct (H7 Hn) as [Hn' Hs2]. destruct (Hhd' Hn') as [Hn0 Hs1].
      split; [exact Hn0 |]. intros p Hp. rewrite (Hs2 p Hp). now apply Hs1.
  - apply cwp_bind, cwp_get. rewrite (cell_val _ _ _ c HI).
    eapply cwp_conseq.
    + apply (IH (sn_cell sn c) _ s reads HI Hrho); [| exact Hinc].
      destruct Hfr as (Hch & Hk). split; [| exact Hk].
      cbn [cadd_untracked fr_changed]. apply (ccur_inv _ _ _ HI).
    + intros s' [v' fr'] (H1 & H2 & H3 & H4 & H5 & H6 & H7). split; [exact H1 |]. split; [exact H2 |].
      split; [exact H3 |]. split; [exact H4 |]. cbn [snd cadd_untracked fr_dur fr_untracked fr_heads] in *.
      split; [unfold D_LOW in H5; lia |]. split; [intros _; now apply H6 | exact H7].
  - apply cwp_bind, cwp_get.
    eapply cwp_conseq.
    + apply (IH _ s reads HI Hrho); [| exact Hinc].
      destruct Hfr as (Hch & Hk). split; [| exact Hk].
      cbn [cadd_untracked fr_changed]. apply (ccur_inv _ _ _ HI).
    + intros s' [v' fr'] (H1 & H2 & H3 & H4 & H5 & H6 & H7). split; [exact H1 |]. split; [exact H2 |].
      split; [exact H3 |]. split; [exact H4 |]. cbn [snd cadd_untracked fr_dur fr_untracked fr_heads] in *.
      split; [unfold D_LOW in H5; lia |]. split; [intros _; now apply H6 | exact H7].
  - apply cwp_bind, cwp_get. rewrite (pcell_val _ _ _ c HI). cbn [N.eqb].
    apply (IH fr s reads HI Hrho Hfr Hinc).
Qed.

Definition seed_frame (s : cdb) (seed : option cmemo) : cframe :=
  match seed with
  | Some m => if negb (cm_final m) && (cm_verified m =? ccur s) then cseed m else cframe0
  | None => cframe0
  end.

Definition run_post (s : cdb) (seed : option cmemo) (s' : cdb) (r : val * cframe) : Prop :=
  Inv st st s' /\ pres st s s' /\ fst r = F prog sn (rho_of st s) q /\ FrOK st s' (snd r) (sc q) /\
  fr_dur (snd r) <= fr_dur (seed_frame s seed) /\
  (fr_untracked (seed_frame s seed) = true -> fr_untracked (snd r) = true) /\
  (fr_heads (snd r) = [] -> forall p, In p st -> c_memo s' p = c_memo s p).

End Body.

Lemma run_query_ok L n st q r0 s seed :
  st = q :: r0 -> fetch_spec L n -> (length ns < n + length st)%nat ->
  Inv st st s -> (forall m, seed = Some m -> cm_changed m = REV_START) ->
  cwp (run_query prog L q seed) (run_post st q s seed) s.
Proof.
  intros Hst HL Hfuel HI Hseed. unfold run_query. apply cwp_bind, cwp_get.
  apply cwp_bind. unfold push_query. apply cwp_modify. apply cwp_bind, cwp_modify.
  apply cwp_on_panic. fold (seed_frame s seed).
  set (s1 := cset_runs _ _).
  assert (HI1 : Inv st st s1) by (apply Inv_set_runs, Inv_set_qstack, HI).
  eapply cwp_conseq.
  - apply (crun_body_ok L n st q r0 Hst HL Hfuel (rho_of st s) (prog q) (seed_frame s seed) s1 [] HI1).
    + reflexivity.
    + split.
      * unfold seed_frame. destruct seed as [m |]; [| reflexivity].
        destruct (negb (cm_final m) && (cm_verified m =? ccur s)); [| reflexivity].
        cbn [cseed fr_changed]. rewrite (Hseed m eq_refl). reflexivity.
      * left. split; [| intros e []].
        unfold seed_frame. destruct seed as [m |]; [| reflexivity].
        destruct (negb (cm_final m) && (cm_verified m =? ccur s)); reflexivity.
    + rewrite (Hdet q). apply incl_refl.
  - intros s' r (H1 & H2 & H3 & H4 & H5 & H6 & H7).
    split; [exact H1 |]. split; [exact H2 |]. split; [exact H3 |].
    rewrite (Hdet q) in H4. split; [exact H4 |]. split; [exact H5 |]. split; [exact H6 |].
    intros Hn. destruct (H7 Hn) as [_ H8]. exact H8.
Qed.

Lemma own_heads b mb : own b mb -> heads_of mb = [(b, cm_iter mb)] /\ iter_of mb = cm_iter mb.
Proof.
  intros (Hnf & He & Hh). unfold heads_of, raw_heads, iter_of. rewrite Hnf, He, Hh. now split.
Qed.

Lemma collect_single hl st s n' b it q mb :
  Inv hl st s -> c_memo s b = Some mb -> own b mb -> cm_iter mb = it ->
  cwp (collect_all_cycle_heads (S n') [(b, it)] q)
      (fun s' r => s' = s /\
                   r = if key_eqb b q then ([(b, it)], 0, true) else ([(b, it)], it, false)) s.
Proof.
  intros HI Hmb Ho Hit. destruct (own_heads _ _ Ho) as [Hh Hio].
  destruct (memo_val _ _ _ _ _ HI Hmb) as (v & Hv & _).
  unfold collect_all_cycle_heads. apply cwp_bind. apply cwp_bind.
  cbn [collect_recursive fst snd].
  destruct (key_eqb b q) eqn:Hbq.
  - apply cwp_ret, cwp_ret. cbn [insert_missing]. apply cwp_ret. now split.
  - apply cwp_bind, cwp_get. unfold key_status. rewrite Hmb, (status_of_val mb v Hv).
    assert (Hnf : cm_final mb = false) by apply Ho. rewrite Hnf, Hh, Hit.
    cbn [heads_contains existsb fst snd]. rewrite key_eqb_refl. cbn [orb].
    apply cwp_ret, cwp_ret. cbn [insert_missing]. apply cwp_ret. split; [reflexivity |].
    unfold stamp_default. rewrite N.max_0_l. reflexivity.
Qed.

Lemma find_self_none q it l :
  find (fun k => negb (key_eqb k q) && heads_contains [(q, it)] k) l = None.
Proof.
  induction l as [| k l IH]; [reflexivity |]. cbn [find heads_contains existsb fst].
  destruct (key_eqb_spec k q) as [-> | Hne]; cbn [negb andb]; [exact IH |].
  destruct (key_eqb_spec q k) as [-> | _]; [congruence |]. cbn [orb]. exact IH.
Qed.

Lemma outer_self (s : cdb) q it :
  cwp (outer_cycle [(q, it)] q) (fun s' r => s' = s /\ r = None) s.
Proof.
  unfold outer_cycle. apply cwp_bind, cwp_get. rewrite find_self_none.
  cbn [heads_not_eq filter fst]. rewrite key_eqb_refl. cbn [negb List.rev find_claimed_head].
  apply cwp_ret. now split.
Qed.

Lemma find_other_some b it q l k :
  find (fun k => negb (key_eqb k q) && heads_contains [(b, it)] k) l = Some k -> k = b.
Proof.
  intros H. apply find_some in H as [_ H]. apply andb_true_iff in H as [_ H].
  cbn [heads_contains existsb fst] in H. rewrite Bool.orb_false_r in H.
  apply key_eqb_eq in H. now symmetry.
Qed.

Lemma outer_other hl st s b it q :
  Inv hl st s -> In b hl -> b <> q ->
  cwp (outer_cycle [(b, it)] q) (fun s' r => Inv hl st s' /\ c_memo s' = c_memo s /\ r = Some b) s.
Proof.
  intros HI Hb Hne. unfold outer_cycle. apply cwp_bind, cwp_get.
  destruct (find (fun k => negb (key_eqb k q) && heads_contains [(b, it)] k) (List.rev (c_qstack s))) as [k |] eqn:Hf.
  - apply find_other_some in Hf. subst k. apply cwp_ret. split; [exact HI |]. split; reflexivity.
  - cbn [heads_not_eq filter fst]. apply key_eqb_neq in Hne. rewrite Hne. cbn [negb List.rev app find_claimed_head fst].
    eapply cwp_seq; [apply (peek_claim_held hl st s b HI Hb) |].
    intros s1 pk (-> & HI1 & Hm1). apply cwp_ret. split; [exact HI1 |]. split; [exact Hm1 | reflexivity].
Qed.

Lemma own_succ_not_done hl st s q mq : Inv hl st s -> c_memo s q = Some mq -> own q mq ->
  exists x, In x (sc q) /\ ~ done s x.
Proof.
  intros HI Hm Ho. destruct (own_ring _ _ _ _ _ HI Hm Ho) as [Hqq _].
  inversion Hqq as [a h Hn | a d h Hn Hd]; subst.
  - exists q. split; [now apply Hreal |]. eapply own_not_done; eassumption.
  - exists d. split; [now apply Hreal |]. eapply own_ring_not_done; try eassumption. now left.
Qed.

Lemma done_grow s s' : (forall p m, c_memo s p = Some m -> c_memo s' p = Some m) ->
  forall d, done s d -> done s' d.
Proof.
  intros Hg d (m & Hm & Hd). exists m. split; [now apply Hg |].
  destruct Hd as [Hf | (h & it & mh & Hp & Hmh & Hr)]; [now left |].
  right. exists h, it, mh. split; [exact Hp |]. split; [now apply Hg | exact Hr].
Qed.

Lemma partat_grow s s' : (forall p m, c_memo s p = Some m -> c_memo s' p = Some m) ->
  forall d h it, partat s d h it -> partat s' d h it.
Proof. intros Hg d h it (m & Hm & Hp). exists m. split; [now apply Hg | exact Hp]. Qed.

Lemma done_eq s s' d : c_memo s' = c_memo s -> done s d -> done s' d.
Proof. intros He. apply done_grow. intros p m. now rewrite He. Qed.
Lemma partat_eq s s' d h it : c_memo s' = c_memo s -> partat s d h it -> partat s' d h it.
Proof. intros He. apply partat_grow. intros p m. now rewrite He. Qed.
Lemma hv_eq s s' h : c_memo s' = c_memo s -> hv s' h = hv s h.
Proof. intros He. unfold hv. now rewrite He. Qed.
Lemma pres_eq_r st s s1 s2 : c_memo s2 = c_memo s1 -> pres st s s1 -> pres st s s2.
Proof.
  intros He (A1 & A2 & A3 & A4). unfold pres, done, partat in *. rewrite He. now repeat split.
Qed.

(* one trip of the loop of [q] on top of the stack [st], against a lower level [L] of fuel [n];
   [S nn'] is the model's [nodes] argument (the fuel of its head collection and edge flattening) *)
Section RoundMain.
Variable L : clower.
Variable n nn' : nat.
Variable st : list qkey.
Variable q : qkey.
Variable r0 : list qkey.
Hypothesis Hst : st = q :: r0.
Hypothesis HL : fetch_spec L n.
Hypothesis Hfuel : (length ns < n + length st)%nat.

(* the loop state before the first trip ([LIA]: no provisional memo of this loop yet, the stamp
   continues the old memo's) and after a trip that asked for another ([LIB]: the last provisional
   memo is in the table, owned by q, at the loop's stamp) *)
Definition LIA (s : cdb) (ls : lstate) : Prop :=
  ls_last ls = None /\ ls_old ls = c_memo s q /\
  (forall m, c_memo s q = Some m -> ~ own q m /\ ls_iter ls = iter_of m) /\
  (c_memo s q = None -> ls_iter ls = 0).
Definition LIB (s : cdb) (ls : lstate) : Prop :=
  exists m, ls_last ls = Some m /\ c_memo s q = Some m /\ own q m /\ cm_iter m = ls_iter ls.
Definition LI (s : cdb) (ls : lstate) : Prop := LIA s ls \/ LIB s ls.

Definition completed_out (s : cdb) (ls : lstate) (s' : cdb) (v : val) (rev : cmemo) (mode : rmode) : Prop :=
  mode = RDefault /\ cm_final rev = true /\ raw_heads rev = [] /\ cm_changed rev = REV_START /\
  v = T q /\ iter_of rev <= 14 /\ LIA s ls /\
  (forall p, In p st -> c_memo s' p = c_memo s p) /\ (forall d, In d (sc q) -> done s' d).

Definition participant_out (ls : lstate) (s' : cdb) (v : val) (rev : cmemo) (mode : rmode) : Prop :=
  exists b it mb, b <> q /\ mode = RTransfer b /\ In b st /\ cm_final rev = false /\ cm_extra rev = true /\
    cm_heads rev = [(b, it)] /\ cm_iter rev <= it + 1 /\ cm_changed rev = REV_START /\
    c_memo s' b = Some mb /\ own b mb /\ cm_iter mb = it /\ v = LV b (hv s' b) q /\ npath q b /\
    (forall m, c_memo s' q = Some m -> ~ own q m) /\
    (forall d, In d (sc q) -> done s' d \/ d = b \/ partat s' d b it).

Definition head_common (ls : lstate) (s' : cdb) (mq : cmemo) (lv v : val) (rev : cmemo) : Prop :=
  c_memo s' q = Some mq /\ own q mq /\ cm_iter mq = ls_iter ls /\ cm_val mq = Some lv /\
  v = next_val strat cinit q lv (F prog sn (LV q lv) q) /\
  cm_final rev = true /\ cm_extra rev = true /\ cm_iter rev = ls_iter ls /\ cm_heads rev = [] /\
  cm_changed rev = REV_START /\ cm_dur rev <= cm_dur mq /\
  (cm_untracked mq = true -> cm_untracked rev = true) /\
  (forall d, In d (sc q) -> done s' d \/ d = q \/ partat s' d q (cm_iter mq)).

Definition round_post (s : cdb) (ls : lstate) (s' : cdb) (out : round_out) : Prop :=
  Inv st st s' /\ pres st s s' /\
  match out with
  | RDone v rev mode =>
      completed_out s ls s' v rev mode \/ participant_out ls s' v rev mode \/
      (exists mq lv, head_common ls s' mq lv v rev /\ mode = RDefault /\
                     val_conv strat q lv (F prog sn (LV q lv) q) = true /\
                     cm_dur rev = cm_dur mq /\ cm_untracked rev = cm_untracked mq)
  | RIterate hm v rev heads =>
      hm = 0 /\ heads = [(q, ls_iter ls)] /\
      exists mq lv, head_common ls s' mq lv v rev /\
                    (val_conv strat q lv (F prog sn (LV q lv) q) = false \/
                     cm_dur rev <> cm_dur mq \/ cm_untracked rev <> cm_untracked mq)
  end.

Lemma LI_seed s ls : Inv st st s -> LI s ls ->
  forall m, (match ls_last ls with Some m => Some m | None => ls_old ls end) = Some m -> cm_changed m = REV_START.
Proof.
  intros HI [(Hl & Ho & _) | (m0 & Hl & Hm0 & _)] m Hm; rewrite Hl in Hm.
  - rewrite Ho in Hm. apply (mo_chg _ _ _ _ (iv_memo _ _ _ HI q m Hm)).
  - injection Hm as <-. apply (mo_chg _ _ _ _ (iv_memo _ _ _ HI q m0 Hm0)).
Qed.

Lemma q_in_st : In q st.
Proof. rewrite Hst. now left. Qed.

Lemma LI_iter s ls : Inv st st s -> LI s ls -> ls_iter ls <= 13.
Proof.
  assert (HB := @r_bound R).
  intros HI [(Hl & Ho & Hsome & Hnone) | (m0 & Hl & Hm0 & Hown & Hit)].
  - destruct (c_memo s q) as [m |] eqn:Hm.
    + destruct (Hsome m eq_refl) as [Hno ->].
      destruct (mo_kind _ _ _ _ (iv_memo _ _ _ HI q m Hm)) as [Hf | [Hk | Hk]].
      * destruct Hf as (_ & _ & Hn & _). exfalso. apply Hn, q_in_st.
      * destruct Hk as (Hw & _). contradiction.
      * destruct Hk as (h & it & mh & (_ & He & _) & _ & _ & _ & _ & Hi & Hmi & _).
        unfold iter_of. rewrite He. lia.
    + rewrite (Hnone eq_refl). lia.
  - destruct (kind_of_own _ _ _ _ (iv_memo _ _ _ HI q m0 Hm0) Hown) as (_ & _ & _ & _ & Hp & _). lia.
Qed.

(* reads answered from done nodes: the node lies on no cycle and the body computed its value *)
Lemma completed_value s s1 : Inv st st s -> Inv st st s1 -> pres st s s1 ->
  (forall e, In e (sc q) -> done s1 e) -> F prog sn (rho_of st s) q = T q.
Proof.
  intros HI HI1 Hp Hd.
  assert (Hfix : F prog sn T q = T q).
  { apply (tgt_fix q (iv_incl _ _ _ HI q q_in_st)). intros (d & Hdq & Hr).
    apply (done_not_stack _ _ _ _ HI1 (done_reach _ _ _ _ _ HI1 Hr (Hd d Hdq))), q_in_st. }
  rewrite <- Hfix. apply f_ext_succs. intros d Hdq. rewrite <- (rho_pres st s s1 Hp d). unfold rho_of.
  destruct (botof lvl st) as [b |] eqn:Hb; [| reflexivity].
  apply (done_indep _ _ _ _ _ _ HI1 (Hd d Hdq) (botof_in _ _ Hb)).
Qed.

Lemma complete_frame_iter fr es it : iter_of (complete_frame fr es it false) = it.
Proof.
  unfold iter_of, complete_frame. cbn. rewrite stamp_is_default_eq.
  destruct (N.eqb_spec it 0) as [-> | Hne]; reflexivity.
Qed.

Lemma complete_frame_raw fr es it b : raw_heads (complete_frame fr es it b) = [].
Proof. unfold raw_heads, complete_frame. cbn. destruct (b || negb (stamp_is_default it)); reflexivity. Qed.

Lemma botof_top_level b : botof lvl st = Some b -> lvl b = lvl q.
Proof. rewrite Hst. cbn. intros H. injection H as <-. apply botof_from_lvl. Qed.

Lemma own_is_botof hl s h mh : Inv hl st s -> c_memo s h = Some mh -> own h mh -> lvl h = lvl q ->
  botof lvl st = Some h.
Proof.
  intros HI Hmh Ho Hl.
  destruct (kind_of_own _ _ _ _ (iv_memo _ _ _ HI h mh Hmh) Ho) as (_ & Hb & _).
  assert (Hm := chain_mono _ (iv_incl _ _ _ HI) (iv_chain _ _ _ HI)).
  destruct (botof lvl st) as [b |] eqn:Hbo; [| rewrite Hst in Hbo; discriminate].
  destruct (botof_bottom lvl st b Hm (iv_nd _ _ _ HI) Hbo) as [Hbb Hlb].
  f_equal. apply (bottom_unique lvl st b h Hbb Hb). rewrite (Hlb q r0 Hst). now symmetry.
Qed.

Lemma part_old_bound s1 b it mb old :
  Inv st st s1 -> c_memo s1 b = Some mb -> own b mb -> cm_iter mb = it -> b <> q -> npath q b ->
  (forall m, c_memo s1 q = Some m -> ~ own q m) ->
  c_memo s1 q = Some old -> iter_of old <= it.
Proof.
  intros HI1 Hmb Ho Hit Hbq Hqb Hnown Hold.
  destruct (mo_kind _ _ _ _ (iv_memo _ _ _ HI1 q old Hold)) as [Hf | [Hk | Hk]].
  - destruct Hf as (_ & _ & Hn & _). exfalso. apply Hn, q_in_st.
  - destruct Hk as (Hw & _). exfalso. now apply (Hnown old).
  - destruct Hk as (h & ito & mh & Hp & Hnp & Hmh & Hk & Hle & _ & Hmi & Hlive & _).
    assert (Hio : iter_of old = cm_iter old).
    { destruct Hp as (_ & He & _). unfold iter_of. now rewrite He. }
    rewrite Hio. destruct Hk as [Hown | Hfin].
    + assert (Hhb : botof lvl st = Some h).
      { eapply own_is_botof; try eassumption. now apply npath_lvl. }
      assert (Hbb : botof lvl st = Some b).
      { eapply own_is_botof; try eassumption. now apply npath_lvl. }
      rewrite Hhb in Hbb. injection Hbb as ->. rewrite Hmb in Hmh. injection Hmh as <-.
      destruct (own_heads _ _ Ho) as [_ Hiob]. rewrite Hiob, Hit in Hle.
      destruct (N.eq_dec ito it) as [-> | Hne]; [| lia].
      exfalso. assert (Hnf : cm_final mb = false) by apply Ho.
      rewrite Hiob, Hit in Hlive. destruct (Hlive eq_refl Hnf) as (_ & Hn & _). apply Hn, q_in_st.
    + exfalso. assert (Hdh : done s1 h) by (exists mh; split; [exact Hmh | now left]).
      destruct (npath_split _ _ Hnp _ Hqb) as [Heq | [Hhb | Hbh]].
      * subst h. rewrite Hmb in Hmh. injection Hmh as <-. destruct Ho as (Hnf & _). congruence.
      * eapply (own_ring_not_done st st s1 b mb h); try eassumption. now left.
      * eapply (own_ring_not_done st st s1 b mb h); try eassumption. now right.
Qed.

(* the head's memo after a body run is the one the loop state remembers (or the first one, put
   there by the callback), and the seeded frame starts from its metadata *)
Lemma head_last s ls s1 mb : Inv st st s -> LI s ls -> pres st s s1 -> c_memo s1 q = Some mb -> own q mb ->
  match ls_last ls with Some m => Some m | None => c_memo s1 q end = Some mb /\
  ls_iter ls = cm_iter mb /\
  fr_dur (seed_frame s (match ls_last ls with Some m => Some m | None => ls_old ls end)) <= cm_dur mb /\
  (cm_untracked mb = true ->
   fr_untracked (seed_frame s (match ls_last ls with Some m => Some m | None => ls_old ls end)) = true).
Proof.
  intros HI HLI Hp1 Hmb Ho.
  destruct HLI as [(Hl & Hold & Hsome & Hnone) | (m0 & Hl & Hm0 & Hown & Hi)]; rewrite Hl.
  - split; [exact Hmb |]. destruct Hp1 as (_ & P2 & P3 & _).
    destruct (c_memo s q) as [mo |] eqn:Hmo.
    + exfalso. rewrite (P2 q q_in_st mo Hmo) in Hmb. injection Hmb as <-. now destruct (Hsome mo eq_refl).
    + rewrite (Hnone eq_refl), Hold.
      destruct (P3 q q_in_st Hmo) as [Hx | [_ Hx]]; rewrite Hx in Hmb; [discriminate |].
      injection Hmb as <-. split; [reflexivity |]. cbn. split; [unfold D_NEVER; lia | discriminate].
  - destruct Hp1 as (_ & P2 & _). rewrite (P2 q q_in_st m0 Hm0) in Hmb. injection Hmb as <-.
    split; [reflexivity |]. split; [now rewrite <- Hi |].
    unfold seed_frame. assert (Hnf : cm_final m0 = false) by apply Hown. rewrite Hnf.
    rewrite (memo_verified _ _ _ _ _ HI Hm0). cbn [negb andb cseed fr_dur fr_untracked].
    split; [unfold dur_min; lia | intros H; exact H].
Qed.

Lemma round_ok s ls : Inv st st s -> LI s ls ->
  cwp (round prog strat cinit (S nn') L q ls) (round_post s ls) s.
Proof.
  intros HI HLI. assert (Hit13 := LI_iter s ls HI HLI).
  assert (Hqn : In q ns) by (apply (iv_incl _ _ _ HI), q_in_st).
  unfold round. eapply cwp_seq; [apply (run_query_ok L n st q r0 s _ Hst HL Hfuel HI (LI_seed s ls HI HLI)) |].
  intros s1 [v fr] (HI1 & Hp1 & Hv & (Hchg & Hk) & Hdur & Hun & Hsame). cbn [fst snd] in *.
  destruct Hk as [(Hh & Hr) | (b & it & mb & Hb & Hh & Hmb & Ho & Hitb & (e0 & He0 & Hw) & Hr)]; rewrite Hh.
  - (* completed *)
    specialize (Hsame Hh).
    assert (HA : LIA s ls).
    { destruct HLI as [HA | (m0 & Hl & Hm0 & Hown & Hi)]; [exact HA |]. exfalso.
      assert (Hm1 : c_memo s1 q = Some m0) by (rewrite (Hsame q q_in_st); exact Hm0).
      destruct (own_succ_not_done _ _ _ _ _ HI1 Hm1 Hown) as (x & Hx & Hnd). apply Hnd, Hr, Hx. }
    rewrite (stamp_is_initial_small (ls_iter ls)) by lia.
    assert (HvK : v = T q) by (rewrite Hv; eapply completed_value; eassumption).
    assert (Hfin : forall it', it' <= 14 ->
       cwp (pop_query ;;; cret (RDone v (complete_frame fr (fr_edges fr) it' false) RDefault)) (round_post s ls) s1).
    { intros it' Hit'. apply cwp_bind. unfold pop_query. apply cwp_modify, cwp_ret.
      split; [apply Inv_set_qstack, HI1 |]. split; [exact Hp1 |]. left.
      split; [reflexivity |]. split; [reflexivity |]. split; [apply complete_frame_raw |].
      split; [exact Hchg |]. split; [exact HvK |]. split; [rewrite complete_frame_iter; exact Hit' |].
      split; [exact HA |]. split; [exact Hsame | exact Hr]. }
    destruct (N.eqb_spec (ls_iter ls) 0) as [He | Hne].
    + apply Hfin. unfold stamp_default. lia.
    + rewrite stamp_increment_small by lia. apply Hfin. lia.
  - assert (Hbst : In b st) by (eapply own_in_stack; eassumption).
    apply cwp_bind. apply cwp_on_panic. eapply cwp_seq; [apply (collect_single st st s1 nn' b it q mb HI1 Hmb Ho Hitb) |].
    intros s2 c [-> ->]. destruct (key_eqb_spec b q) as [Hbq | Hbq].
    + (* the head itself *)
      subst b. cbv iota beta. eapply cwp_seq; [apply outer_self |].
      intros s2 o [-> ->]. cbn [negb]. apply cwp_bind, cwp_get.
      destruct (head_last s ls s1 mb HI HLI Hp1 Hmb Ho) as (Hlast & Hiter & Hsd & Hsu). rewrite Hitb in Hiter.
      rewrite Hlast.
      destruct (memo_val _ _ _ _ _ HI1 Hmb) as (lv & Hlv & Hlv256). rewrite Hlv. apply cwp_ret.
      cbv iota beta.
      destruct (kind_of_own _ _ _ _ (iv_memo _ _ _ HI1 q mb Hmb) Ho) as (_ & _ & Hfix & _).
      rewrite (round_vals strat cinit q lv v). cbv iota beta.
      assert (HvG : v = F prog sn (LV q lv) q).
      { rewrite Hv. unfold rho_of. rewrite Hb. rewrite <- (hv_pres st s s1 q Hp1 q_in_st).
        unfold hv at 1. rewrite Hmb, Hlv. reflexivity. }
      unfold complete_cycle_query. apply cwp_bind, cwp_bind, cwp_get.
      apply cwp_bind. unfold pop_query. apply cwp_modify, cwp_ret. apply cwp_bind, cwp_get.
      set (s2 := cset_qstack s1 (tl (c_qstack s1))).
      set (es := flatten_edges strat (S nn') s1 (fr_edges fr)).
      set (rev0 := complete_frame fr es (ls_iter ls) true).
      assert (Hoc : others_converged s2 [(q, it)] q = true).
      { unfold others_converged. cbn [heads_not_eq filter fst]. rewrite key_eqb_refl. reflexivity. }
      rewrite Hoc, Bool.andb_true_r.
      assert (Hcc : cm_changed mb =? cm_changed rev0 = true).
      { rewrite (mo_chg _ _ _ _ (iv_memo _ _ _ HI1 q mb Hmb)). cbn. rewrite Hchg. reflexivity. }
      rewrite Hcc, Bool.andb_true_r.
      assert (Hcommon : head_common ls s2 mb lv (next_val strat cinit q lv v) rev0).
      { split; [exact Hmb |]. split; [exact Ho |]. split; [now rewrite Hitb |]. split; [exact Hlv |].
        split; [now rewrite HvG |]. split; [reflexivity |]. split; [reflexivity |]. split; [reflexivity |].
        split; [reflexivity |]. split; [exact Hchg |]. split; [cbn; lia |].
        split; [intros Hu; cbn; apply Hun, Hsu, Hu |]. rewrite Hitb. exact Hr. }
      destruct (val_conv strat q lv v && ((cm_dur mb =? cm_dur rev0) && eqb (cm_untracked mb) (cm_untracked rev0))) eqn:Hconv.
      * (* converged *)
        apply andb_true_iff in Hconv as [Hc1 Hc2]. apply andb_true_iff in Hc2 as [Hc2 Hc3].
        apply N.eqb_eq in Hc2. apply Bool.eqb_prop in Hc3.
        apply cwp_bind. unfold map_heads_memos. cbn [heads_not_eq filter fst]. rewrite key_eqb_refl.
        cbn [negb fold_left]. apply cwp_modify. apply cwp_bind, cwp_emit, cwp_ret.
        split.
        { apply Inv_set_log. apply (Inv_same st st s2 _ (Inv_set_qstack _ _ _ _ HI1)); try reflexivity. }
        split; [exact Hp1 |]. right; right. exists mb, lv. split; [exact Hcommon |].
        split; [reflexivity |]. split; [now rewrite <- HvG |]. split; [now symmetry | now symmetry].
      * apply cwp_ret. split; [apply Inv_set_qstack, HI1 |]. split; [exact Hp1 |].
        split; [reflexivity |]. split; [now rewrite Hiter |]. exists mb, lv. split; [exact Hcommon |].
        apply andb_false_iff in Hconv as [Hc | Hc].
        { left. now rewrite <- HvG. }
        apply andb_false_iff in Hc as [Hc | Hc].
        { right; left. apply N.eqb_neq in Hc. congruence. }
        right; right. intros He. rewrite He in Hc. now rewrite Bool.eqb_reflx in Hc.
    + (* a participant under b *)
      cbv iota beta. eapply cwp_seq; [apply (outer_other st st s1 b it q HI1 Hbst Hbq) |].
      intros s2 o (HI2 & Hm2 & ->). cbn [negb].
      assert (Hlb : lvl b = lvl q) by (now apply botof_top_level).
      assert (Hle0 : lvl e0 = lvl q).
      { destruct Hw as [-> | (md & Hmd & Hpd)]; [exact Hlb |].
        rewrite <- Hlb. symmetry. apply npath_lvl. exact (part_npath _ _ _ _ _ _ _ HI1 Hmd Hpd). }
      assert (Hnq : nxt q = Some e0).
      { destruct (Hcalls q e0 Hqn He0) as [_ [Hlt | Hn]]; [lia | exact Hn]. }
      destruct (Hnxt q e0 Hnq) as (_ & Hfix & _).
      assert (Hqb : npath q b).
      { destruct Hw as [-> | (md & Hmd & Hpd)]; [now constructor |].
        apply (np_step q e0 b Hnq). exact (part_npath _ _ _ _ _ _ _ HI1 Hmd Hpd). }
      assert (Hnown : forall m, c_memo s1 q = Some m -> ~ own q m).
      { intros m Hm Hown. assert (Hbq' : botof lvl st = Some q) by (exact (own_is_botof st s1 q m HI1 Hm Hown eq_refl)).
        rewrite Hb in Hbq'. injection Hbq' as ->. now apply Hbq. }
      assert (Hiter : ls_iter ls <= it).
      { destruct HLI as [(Hl & Hold & Hsome & Hnone) | (m0 & Hl & Hm0 & Hown & Hi)].
        - destruct (c_memo s q) as [mo |] eqn:Hmo.
          + destruct (Hsome mo eq_refl) as [_ ->]. destruct Hp1 as (_ & P2 & _).
            apply (part_old_bound s1 b it mb mo HI1 Hmb Ho Hitb Hbq Hqb Hnown). apply P2; [apply q_in_st | exact Hmo].
          + rewrite (Hnone eq_refl). lia.
        - exfalso. destruct Hp1 as (_ & P2 & _). apply (Hnown m0); [apply P2; [apply q_in_st | exact Hm0] | exact Hown]. }
      assert (Hit12 : it <= 12).
      { assert (HB := @r_bound R). destruct (kind_of_own _ _ _ _ (iv_memo _ _ _ HI1 b mb Hmb) Ho) as (_ & _ & _ & _ & Hp & _). lia. }
      rewrite stamp_increment_small by lia. apply cwp_ret. cbv iota beta.
      unfold complete_cycle_query. apply cwp_bind, cwp_bind, cwp_get.
      apply cwp_bind. unfold pop_query. apply cwp_modify, cwp_ret, cwp_ret.
      set (s3 := cset_qstack s2 (tl (c_qstack s2))).
      assert (Hm3 : c_memo s3 = c_memo s1) by exact Hm2.
      split; [apply Inv_set_qstack, HI2 |]. split; [apply (pres_eq_r st s s1 s3 Hm3 Hp1) |].
      right; left. exists b, it, mb.
      split; [exact Hbq |]. split; [reflexivity |]. split; [exact Hbst |]. split; [reflexivity |].
      split; [reflexivity |]. split; [reflexivity |]. split; [cbn; lia |]. split; [exact Hchg |].
      split; [now rewrite Hm3 |]. split; [exact Ho |]. split; [exact Hitb |].
      split.
      { fold (part_val strat cinit q v). rewrite Hv. unfold rho_of. rewrite Hb. rewrite (hv_eq s1 s3 b Hm3).
        rewrite <- (hv_pres st s s1 b Hp1 Hbst).
        apply live_part; [exact Hqn | exact Hfix | congruence | | eapply hv_ok; eassumption].
        destruct (stack_down st (iv_incl _ _ _ HI1) (iv_chain _ _ _ HI1) q r0 Hst b Hbst Hlb) as [Heq | Hbq'];
          [congruence | exact (npath_trans _ _ _ Hqb Hbq')]. }
      split; [exact Hqb |]. split; [intros m Hm; apply Hnown; now rewrite <- Hm3 |].
      intros d Hd. destruct (Hr d Hd) as [H1 | [H1 | H1]].
      * left. now apply (done_eq s1 s3).
      * right; left. exact H1.
      * right; right. now apply (partat_eq s1 s3).
Qed.

End RoundMain.

Lemma head_converged hl st s q mq lv :
  Inv hl st s -> c_memo s q = Some mq -> own q mq -> cm_val mq = Some lv ->
  val_conv strat q lv (F prog sn (LV q lv) q) = true ->
  next_val strat cinit q lv (F prog sn (LV q lv) q) = lv /\ (forall p, LV q lv p = T p) /\ lv = T q.
Proof.
  intros HI Hmq Hown Hlv Hconv. assert (Hok := iv_memo _ _ _ HI q mq Hmq).
  destruct (kind_of_own _ _ _ _ Hok Hown) as (_ & _ & Hfix & _ & _ & (Hqq & _) & (lv' & Hlv' & Hhead)).
  rewrite Hlv in Hlv'. injection Hlv' as <-.
  destruct (mo_val _ _ _ _ Hok) as (lv' & Hlv' & Hlvok). rewrite Hlv in Hlv'. injection Hlv' as <-.
  destruct (head_conv q lv (mo_ns _ _ _ _ Hok) Hfix Hqq Hlvok Hhead Hconv) as [Hnext HT].
  split; [exact Hnext |]. split; [exact HT |].
  rewrite <- (HT q). symmetry. now apply live_head; [apply (mo_ns _ _ _ _ Hok) | | |].
Qed.

(* the potential strictly decreases on a non-converged trip: the value moved up, or it stayed
   and the metadata moved *)
Lemma hpot_decrease pl pv dl dv (ul uv : bool) :
  dv <= dl -> (ul = true -> uv = true) ->
  (pv + 1 <= pl \/ (pv = pl /\ (dv <> dl \/ uv <> ul))) ->
  pv + dv + (if uv then 0 else 1) + 1 <= pl + dl + (if ul then 0 else 1).
Proof.
  intros Hd Hu Hne.
  destruct ul, uv; try (specialize (Hu eq_refl); discriminate);
    destruct Hne as [H | [-> [H | H]]]; try congruence; lia.
Qed.

Definition next_memo (q : qkey) (ls : lstate) (v : val) (rev : cmemo) : cmemo :=
  with_value (with_final (with_heads rev (heads_update [(q, ls_iter ls)] q (ls_iter ls + 1)) (ls_iter ls + 1)) false)
             (Some v) REV_START.

Lemma iterate_step st q r0 s1 ls mq lv v rev s2 :
  st = q :: r0 -> Inv st st s1 -> head_common q ls s1 mq lv v rev ->
  (val_conv strat q lv (F prog sn (LV q lv) q) = false \/
   cm_dur rev <> cm_dur mq \/ cm_untracked rev <> cm_untracked mq) ->
  mupd s1 s2 q (next_memo q ls v rev) ->
  Inv st st s2 /\ pres r0 s1 s2 /\
  LIB q s2 {| ls_iter := ls_iter ls + 1; ls_last := Some (next_memo q ls v rev); ls_old := ls_old ls |}.
Proof.
  intros Hst HI1 (Hmq & Hown & Hitq & Hlv & Hv & Hf & He & Hir & Hhr & Hcr & Hdr & Hur & Hsucc) Hnc Hu.
  assert (Hok := iv_memo _ _ _ HI1 q mq Hmq).
  destruct (kind_of_own _ _ _ _ Hok Hown) as (_ & Hbot & Hfix & Hd3 & Hpot & Hring & (lv' & Hlv' & Hhead)).
  rewrite Hlv in Hlv'. injection Hlv' as <-.
  destruct (mo_val _ _ _ _ Hok) as (lv'' & Hlv'' & Hlvok). rewrite Hlv in Hlv''. injection Hlv'' as <-.
  assert (Hqn : In q ns) by apply (mo_ns _ _ _ _ Hok).
  destruct (head_step q lv Hqn Hfix (proj1 Hring) Hlvok Hhead) as (Hvok & Hvhead & Hvpot).
  rewrite <- Hv in Hvok, Hvhead, Hvpot.
  set (m' := next_memo q ls v rev).
  assert (Hown' : own q m').
  { unfold m', next_memo. split; [reflexivity |]. split; [reflexivity |]. cbn. now rewrite key_eqb_refl. }
  assert (Hiter' : cm_iter m' = ls_iter ls + 1) by reflexivity.
  assert (Hnq : ~ In q r0).
  { assert (Hnd := iv_nd _ _ _ HI1). rewrite Hst in Hnd. now apply NoDup_cons_iff in Hnd as [Hn _]. }
  split; [| split].
  - apply (Inv_upd st st st s1 s2 q m' HI1 Hu); try apply HI1.
    + constructor.
      * exact Hqn.
      * reflexivity.
      * exact Hcr.
      * exists v. split; [reflexivity | exact Hvok].
      * right; left. split; [exact Hown' |]. split; [exact Hbot |]. split; [exact Hfix |].
        split; [cbn; lia |]. split.
        { rewrite Hiter'. unfold hpot in *. rewrite Hlv in Hpot. cbn [m' next_memo with_value with_final with_heads cm_val cm_dur cm_untracked].
          assert (Hdec := hpot_decrease (pot lv) (pot v) (cm_dur mq) (cm_dur rev) (cm_untracked mq) (cm_untracked rev) Hdr Hur).
          assert (Hmoved : pot v + 1 <= pot lv \/
                           (pot v = pot lv /\ (cm_dur rev <> cm_dur mq \/ cm_untracked rev <> cm_untracked mq))).
          { destruct Hvpot as [Heq | Hlt]; [right | now left]. split; [now rewrite Heq |].
            destruct Hnc as [Hc | Hmeta]; [| exact Hmeta].
            exfalso. apply (val_conv_false strat cinit q lv _ Hc). now rewrite <- Hv. }
          specialize (Hdec Hmoved). lia. }
        split; [exact Hring |].
        exists v. split; [reflexivity | exact Hvhead].
    + apply (others_own st st st s1 s2 q mq m' HI1 Hu Hmq Hown).
      * intros x Hx. exact Hx.
      * intros h _ Hh. exact Hh.
      * left. split; [now left |]. destruct (own_heads _ _ Hown) as [_ Hio]. rewrite Hio.
        destruct (own_heads _ _ Hown') as [_ Hio']. rewrite Hio', Hiter', Hitq. lia.
  - split; [intros d; apply (done_upd _ _ _ _ _ Hu); eapply own_not_done; eassumption |].
    split.
    { intros p Hp m Hm. rewrite (mupd_other _ _ _ _ _ Hu); [exact Hm | intros ->; contradiction]. }
    split.
    { intros p Hp Hm. left. rewrite (mupd_other _ _ _ _ _ Hu); [exact Hm | intros ->; contradiction]. }
    intros d h it mh _ Hpa _ _ _. apply (partat_upd _ _ _ _ _ _ _ Hu); [| exact Hpa].
    intros ->. destruct Hpa as (md & Hmd & Hpd). rewrite Hmq in Hmd. injection Hmd as <-.
    exact (own_not_part _ _ _ _ Hown Hpd).
  - exists m'. split; [reflexivity |]. split; [apply (mupd_same _ _ _ _ Hu) |]. split; [exact Hown' | exact Hiter'].
Qed.

Lemma pres_head_same st q r0 s s1 mq :
  st = q :: r0 -> Inv st st s1 -> pres st s s1 -> c_memo s1 q = Some mq -> own q mq ->
  forall p, In p r0 -> c_memo s1 p = c_memo s p.
Proof.
  intros Hst HI1 (_ & P2 & P3 & _) Hmq Hown p Hp.
  assert (Hb : botof lvl st = Some q) by (apply (own_is_botof st q r0 Hst st s1 q mq HI1 Hmq Hown eq_refl)).
  assert (Hpq : p <> q).
  { intros ->. assert (Hnd := iv_nd _ _ _ HI1). rewrite Hst in Hnd. apply NoDup_cons_iff in Hnd as [Hn _]. contradiction. }
  assert (Hps : In p st) by (rewrite Hst; now right).
  destruct (c_memo s p) as [m |] eqn:Hm.
  - now apply P2.
  - destruct (P3 p Hps Hm) as [H1 | [H1 _]]; [exact H1 |]. rewrite Hb in H1. injection H1 as ->. congruence.
Qed.

Definition loop_post (st : list qkey) (q : qkey) (r0 : list qkey) (s s' : cdb) (out : val * cmemo * rmode) : Prop :=
  let '(v, rev, mode) := out in
  Inv st st s' /\ pres r0 s s' /\ cm_changed rev = REV_START /\
  ((mode = RDefault /\ cm_final rev = true /\ raw_heads rev = [] /\ v = T q /\ iter_of rev <= 14 /\
    (forall m, c_memo s' q = Some m -> ~ own q m) /\ (forall p, In p r0 -> c_memo s' p = c_memo s p) /\
    (forall d, In d (sc q) -> done s' d))
   \/ participant_out st q {| ls_iter := 0; ls_last := None; ls_old := None |} s' v rev mode
   \/ (exists mq, c_memo s' q = Some mq /\ own q mq /\ mode = RDefault /\ cm_final rev = true /\
         cm_extra rev = true /\ cm_heads rev = [] /\ cm_iter rev = cm_iter mq /\ cm_val mq = Some v /\
         val_conv strat q v (F prog sn (LV q v) q) = true /\ (forall p, In p r0 -> c_memo s' p = c_memo s p) /\
         (forall d, In d (sc q) -> done s' d \/ d = q \/ partat s' d q (cm_iter mq)))).

Lemma iter_loop_ok L n nn' st q r0 :
  st = q :: r0 -> fetch_spec L n -> (length ns < n + length st)%nat ->
  forall k s ls, Inv st st s -> LI q s ls -> (14 - N.to_nat (ls_iter ls) <= k)%nat ->
  cwp (iter_loop prog strat cinit k (S nn') L q ls) (loop_post st q r0 s) s.
Proof.
  intros Hst HL Hfuel. induction k as [| k IH]; intros s ls HI HLI Hk.
  - exfalso. assert (H := LI_iter n st q r0 Hst Hfuel s ls HI HLI). lia.
  - assert (Hit13 := LI_iter n st q r0 Hst Hfuel s ls HI HLI).
    assert (Hnq : ~ In q r0).
    { assert (Hnd := iv_nd _ _ _ HI). rewrite Hst in Hnd. now apply NoDup_cons_iff in Hnd as [Hn _]. }
    cbn [iter_loop]. eapply cwp_seq; [apply (round_ok L n nn' st q r0 Hst HL Hfuel s ls HI HLI) |].
    intros s1 out (HI1 & Hp1 & Hout).
    assert (Hp1' : pres r0 s s1) by (rewrite Hst in Hp1; now apply (pres_pop q r0)).
    destruct out as [v rev mode | hm v rev heads].
    + apply cwp_ret. split; [exact HI1 |]. split; [exact Hp1' |].
      destruct Hout as [Hc | [Hpt | (mq & lv & Hcom & Hmode & Hvl & Hdl & Hul)]].
      * destruct Hc as (Hmode & Hf & Hrh & Hchg & HvK & Hi & (Hl & Hold & Hsome & Hnone) & Hsame & Hd).
        split; [exact Hchg |]. left. split; [exact Hmode |]. split; [exact Hf |]. split; [exact Hrh |].
        split; [exact HvK |]. split; [exact Hi |].
        split.
        { intros m Hm. rewrite (Hsame q (q_in_st st q r0 Hst)) in Hm. now destruct (Hsome m Hm). }
        split; [| exact Hd]. intros p Hp. apply Hsame. rewrite Hst. now right.
      * assert (Hchg : cm_changed rev = REV_START).
        { destruct Hpt as (b & it & mb & _ & _ & _ & _ & _ & _ & _ & Hchg & _). exact Hchg. }
        split; [exact Hchg |]. right; left.
        destruct Hpt as (b & it & mb & Hx). exists b, it, mb. exact Hx.
      * destruct Hcom as (Hmq & Hown & Hitq & Hlv & Hv & Hf & He & Hir & Hhr & Hcr & Hdr & Hur & Hsucc).
        split; [exact Hcr |]. right; right. exists mq. split; [exact Hmq |]. split; [exact Hown |].
        split; [exact Hmode |]. split; [exact Hf |]. split; [exact He |]. split; [exact Hhr |].
        destruct (head_converged _ _ _ _ _ _ HI1 Hmq Hown Hlv Hvl) as (Hnl & _). rewrite Hnl in Hv. subst v.
        split; [congruence |]. split; [exact Hlv |]. split; [exact Hvl |].
        split; [eapply pres_head_same; eassumption | exact Hsucc].
    + destruct Hout as (-> & -> & mq & lv & Hcom & Hnc).
      rewrite N.max_0_r. rewrite stamp_increment_small by lia.
      apply cwp_bind, cwp_emit. apply cwp_bind. unfold map_heads_memos.
      cbn [heads_not_eq filter fst]. rewrite key_eqb_refl. cbn [negb fold_left].
      apply cwp_modify. apply cwp_bind, cwp_get. apply cwp_bind. unfold put_memo. apply cwp_modify.
      set (s1' := cset_memo (cset_log s1 _) _).
      assert (Hcur : ccur s1' = REV_START) by apply (ccur_inv _ _ _ HI1).
      rewrite Hcur. fold (next_memo q ls v rev).
      set (s2 := cset_memo s1' _).
      assert (Hu : mupd s1 s2 q (next_memo q ls v rev)).
      { unfold mupd. split; [reflexivity |]. split; [reflexivity |]. split; [reflexivity |].
        split; [reflexivity |]. split; [reflexivity |]. split; [reflexivity |]. intros p. reflexivity. }
      destruct (iterate_step st q r0 s1 ls mq lv v rev s2 Hst HI1 Hcom Hnc Hu) as (HI2 & Hp2 & HLB).
      eapply cwp_conseq.
      * apply (IH s2 _ HI2 (or_intror HLB)). cbn [ls_iter]. lia.
      * intros s3 [[v3 rev3] mode3] (HI3 & Hp3 & Hchg3 & Hcases).
        assert (Hmq := proj1 Hcom). assert (Hown := proj1 (proj2 Hcom)).
        assert (Hsame1 : forall p, In p r0 -> c_memo s1 p = c_memo s p) by (eapply pres_head_same; eassumption).
        assert (Hsame2 : forall p, In p r0 -> c_memo s2 p = c_memo s p).
        { intros p Hp. rewrite <- (Hsame1 p Hp). apply (mupd_other _ _ _ _ _ Hu). intros ->. contradiction. }
        split; [exact HI3 |]. split; [exact (pres_trans _ _ _ _ Hp1' (pres_trans _ _ _ _ Hp2 Hp3)) |].
        split; [exact Hchg3 |].
        destruct Hcases as [(H1 & H2 & H3 & H4 & H5 & H6 & H7 & H8) | [Hpt | (mq3 & H1 & H2 & H3 & H4 & H5 & H6 & H7 & H8 & H9 & H10 & H11)]].
        -- left. split; [exact H1 |]. split; [exact H2 |]. split; [exact H3 |]. split; [exact H4 |].
           split; [exact H5 |]. split; [exact H6 |]. split; [| exact H8].
           intros p Hp. rewrite (H7 p Hp). now apply Hsame2.
        -- right; left. exact Hpt.
        -- right; right. exists mq3. split; [exact H1 |]. split; [exact H2 |]. split; [exact H3 |].
           split; [exact H4 |]. split; [exact H5 |]. split; [exact H6 |]. split; [exact H7 |].
           split; [exact H8 |]. split; [exact H9 |]. split; [| exact H11].
           intros p Hp. rewrite (H10 p Hp). now apply Hsame2.
Qed.

Lemma stack_tail hl q r0 s : Inv hl (q :: r0) s -> NoDup r0 /\ incl r0 ns /\ chain r0 /\ ~ In q r0.
Proof.
  intros HI. assert (Hnd := iv_nd _ _ _ HI). apply NoDup_cons_iff in Hnd as [Hn Hnd].
  split; [exact Hnd |]. split; [intros x Hx; apply (iv_incl _ _ _ HI); now right |].
  split; [| exact Hn]. assert (Hc := iv_chain _ _ _ HI). destruct r0 as [| a r]; [exact I | now destruct Hc].
Qed.

Lemma pres_put_idle q r0 s1 s2 m' : ~ In q r0 -> mupd s1 s2 q m' -> ~ done s1 q ->
  (forall h it mh, In h r0 -> partat s1 q h it -> c_memo s1 h = Some mh -> own h mh -> cm_iter mh = it -> False) ->
  pres r0 s1 s2.
Proof.
  intros Hnq Hu Hnd Hnl.
  split; [intros d; now apply (done_upd _ _ _ _ _ Hu) |].
  split.
  { intros p Hp m Hm. rewrite (mupd_other _ _ _ _ _ Hu); [exact Hm | intros ->; contradiction]. }
  split.
  { intros p Hp Hm. left. rewrite (mupd_other _ _ _ _ _ Hu); [exact Hm | intros ->; contradiction]. }
  intros d h it mh Hh Hpa Hmh Ho Hit. apply (partat_upd _ _ _ _ _ _ _ Hu); [| exact Hpa].
  intros ->. eapply Hnl; eassumption.
Qed.

Lemma idle_not_live s q h it mh : idle s q -> partat s q h it -> c_memo s h = Some mh -> iter_of mh = it -> False.
Proof.
  unfold idle. intros Hi (md & Hmd & Hp) Hmh He. rewrite Hmd in Hi.
  destruct Hi as (h' & it' & mh' & Hp' & Hmh' & Hne).
  destruct (part_inj _ _ _ _ _ _ Hp Hp') as [<- <-]. rewrite Hmh in Hmh'. injection Hmh' as <-. contradiction.
Qed.

Lemma finish_completed q r0 s1 s2 m :
  Inv (q :: r0) (q :: r0) s1 -> (forall m0, c_memo s1 q = Some m0 -> ~ own q m0) ->
  mupd s1 s2 q m ->
  cm_final m = true -> cm_val m = Some (T q) -> cm_verified m = REV_START -> cm_changed m = REV_START ->
  iter_of m <= 15 -> (forall d, In d (sc q) -> done s1 d) ->
  Inv (q :: r0) r0 s2 /\ pres r0 s1 s2 /\ done s2 q.
Proof.
  intros HI1 Hnown Hu Hf Hv Hver Hchg Hit Hsucc.
  destruct (stack_tail _ _ _ _ HI1) as (Hnd & Hin & Hch & Hnq).
  assert (Hidle : idle s1 q) by (apply (stack_idle _ _ _ _ HI1 (or_introl eq_refl) Hnown)).
  assert (Hndone := idle_not_done _ _ Hidle).
  assert (Hqn : In q ns) by (apply (iv_incl _ _ _ HI1); now left).
  split; [| split].
  - apply (Inv_upd (q :: r0) (q :: r0) r0 s1 s2 q m HI1 Hu Hnd Hin Hch).
    + constructor; try assumption.
      * exists (T q). split; [exact Hv | apply tgt_ok].
      * left. split; [exact Hf |]. split; [exact Hv |]. split; [exact Hnq |]. split; [exact Hit |].
        intros d Hd. apply (done_upd _ _ _ _ _ Hu Hndone), Hsucc, Hd.
    + apply (others_idle (q :: r0) (q :: r0) r0 s1 s2 q m HI1 Hu Hidle).
      * intros x Hx. now right.
      * intros h Hh Hb. apply (bottom_pop lvl r0 h q); [congruence | exact Hb].
  - apply (pres_put_idle q r0 s1 s2 m Hnq Hu Hndone).
    intros h it mh _ Hpa Hmh Ho Hi. destruct (own_heads _ _ Ho) as [_ Hio].
    eapply idle_not_live; try eassumption. now rewrite Hio.
  - exists m. split; [apply (mupd_same _ _ _ _ Hu) | now left].
Qed.

Lemma finish_participant q r0 s1 s2 m b it mb v :
  Inv (q :: r0) (q :: r0) s1 -> (forall m0, c_memo s1 q = Some m0 -> ~ own q m0) ->
  mupd s1 s2 q m ->
  part q b it m -> cm_val m = Some v -> cm_verified m = REV_START -> cm_changed m = REV_START ->
  cm_iter m <= it + 1 -> c_memo s1 b = Some mb -> own b mb -> cm_iter mb = it -> npath q b ->
  v = LV b (hv s1 b) q ->
  (forall d, In d (sc q) -> done s1 d \/ d = b \/ partat s1 d b it) ->
  Inv (q :: r0) r0 s2 /\ pres r0 s1 s2 /\ partat s2 q b it /\ c_memo s2 b = Some mb.
Proof.
  intros HI1 Hnown Hu Hp Hv Hver Hchg Hmi Hmb Ho Hitb Hqb HvK Hsucc.
  destruct (stack_tail _ _ _ _ HI1) as (Hnd & Hin & Hch & Hnq).
  assert (Hidle : idle s1 q) by (apply (stack_idle _ _ _ _ HI1 (or_introl eq_refl) Hnown)).
  assert (Hndone := idle_not_done _ _ Hidle).
  assert (Hqn : In q ns) by (apply (iv_incl _ _ _ HI1); now left).
  assert (Hbq : b <> q) by apply Hp.
  assert (Hmb2 : c_memo s2 b = Some mb) by (now rewrite (mupd_other _ _ _ _ _ Hu Hbq)).
  destruct (kind_of_own _ _ _ _ (iv_memo _ _ _ HI1 b mb Hmb) Ho) as (_ & Hbb & _ & _ & Hpot & _).
  destruct (own_heads _ _ Ho) as [_ Hio].
  assert (Hvok : vok v) by (rewrite HvK; apply live_ok; eapply hv_ok; eassumption).
  split; [| split; [| split]].
  - apply (Inv_upd (q :: r0) (q :: r0) r0 s1 s2 q m HI1 Hu Hnd Hin Hch).
    + constructor; try assumption.
      * exists v. split; [exact Hv | exact Hvok].
      * right; right. exists b, it, mb. split; [exact Hp |]. split; [exact Hqb |]. split; [exact Hmb2 |].
        split; [now left |]. split; [rewrite Hio; lia |]. split; [lia |]. split; [exact Hmi |].
        split.
        { intros _ _. split; [rewrite Hv, HvK, (hv_other _ _ _ _ _ Hu Hbq); reflexivity |].
          split; [exact Hnq |]. intros d Hd. destruct (Hsucc d Hd) as [H1 | [H1 | H1]].
          - left. now apply (done_upd _ _ _ _ _ Hu Hndone).
          - right; left. exact H1.
          - right; right. destruct (key_eqb_spec d q) as [-> | Hdq].
            + exists m. split; [apply (mupd_same _ _ _ _ Hu) | exact Hp].
            + now apply (partat_upd _ _ _ _ _ _ _ Hu). }
        { intros _ Hf. destruct Ho as (Hnf & _). congruence. }
    + apply (others_idle (q :: r0) (q :: r0) r0 s1 s2 q m HI1 Hu Hidle).
      * intros x Hx. now right.
      * intros h Hh Hb. apply (bottom_pop lvl r0 h q); [congruence | exact Hb].
  - apply (pres_put_idle q r0 s1 s2 m Hnq Hu Hndone).
    intros h it' mh _ Hpa Hmh Ho' Hi. destruct (own_heads _ _ Ho') as [_ Hio'].
    eapply idle_not_live; try eassumption. now rewrite Hio'.
  - exists m. split; [apply (mupd_same _ _ _ _ Hu) | exact Hp].
  - exact Hmb2.
Qed.

Lemma finish_head q r0 s1 s2 m mq v :
  Inv (q :: r0) (q :: r0) s1 -> c_memo s1 q = Some mq -> own q mq -> cm_val mq = Some v ->
  val_conv strat q v (F prog sn (LV q v) q) = true ->
  mupd s1 s2 q m ->
  cm_final m = true -> cm_val m = Some v -> cm_verified m = REV_START -> cm_changed m = REV_START ->
  iter_of m = cm_iter mq ->
  (forall d, In d (sc q) -> done s1 d \/ d = q \/ partat s1 d q (cm_iter mq)) ->
  Inv (q :: r0) r0 s2 /\ pres r0 s1 s2 /\ done s2 q /\ v = T q.
Proof.
  intros HI1 Hmq Hown Hlv Hconv Hu Hf Hv Hver Hchg Hit Hsucc.
  destruct (stack_tail _ _ _ _ HI1) as (Hnd & Hin & Hch & Hnq).
  assert (Hok := iv_memo _ _ _ HI1 q mq Hmq).
  destruct (kind_of_own _ _ _ _ Hok Hown) as (_ & Hbot & Hfix & _ & Hpot & _).
  destruct (mo_val _ _ _ _ Hok) as (v'' & Hv'' & Hvok). rewrite Hlv in Hv''. injection Hv'' as <-.
  assert (Hqn : In q ns) by apply (mo_ns _ _ _ _ Hok).
  assert (Hndone : ~ done s1 q) by (eapply own_not_done; eassumption).
  destruct (head_converged _ _ _ _ _ _ HI1 Hmq Hown Hlv Hconv) as (_ & HK & HvK).
  assert (HB := @r_bound R).
  destruct (own_heads _ _ Hown) as [_ Hio].
  assert (Hdq : done s2 q) by (exists m; split; [apply (mupd_same _ _ _ _ Hu) | now left]).
  assert (Hhv : hv s1 q = v) by (unfold hv; now rewrite Hmq, Hlv).
  split; [| split; [| split]].
  - apply (Inv_upd (q :: r0) (q :: r0) r0 s1 s2 q m HI1 Hu Hnd Hin Hch).
    + constructor; try assumption.
      * exists v. split; [exact Hv | exact Hvok].
      * left. split; [exact Hf |]. split; [now rewrite Hv, HvK |]. split; [exact Hnq |].
        split; [rewrite Hit; lia |].
        intros d Hd. destruct (Hsucc d Hd) as [H1 | [H1 | H1]].
        -- now apply (done_upd _ _ _ _ _ Hu Hndone).
        -- subst d. exact Hdq.
        -- destruct H1 as (md & Hmd & Hpd). assert (Hdq' : d <> q).
           { intros ->. rewrite Hmq in Hmd. injection Hmd as <-. exact (own_not_part _ _ _ _ Hown Hpd). }
           exists md. split; [now rewrite (mupd_other _ _ _ _ _ Hu Hdq') |].
           right. exists q, (cm_iter mq), m. split; [exact Hpd |]. split; [apply (mupd_same _ _ _ _ Hu) |].
           now split.
    + apply (others_own (q :: r0) (q :: r0) r0 s1 s2 q mq m HI1 Hu Hmq Hown).
      * intros x Hx. now right.
      * intros h Hh Hb. apply (bottom_pop lvl r0 h q); [congruence | exact Hb].
      * right. split; [exact Hf |]. split; [now rewrite Hit, Hio |]. now rewrite Hhv.
  - apply (pres_put_idle q r0 s1 s2 m Hnq Hu Hndone).
    intros h it mh _ (md & Hmd & Hpd) _ _ _. rewrite Hmq in Hmd. injection Hmd as <-.
    exact (own_not_part _ _ _ _ Hown Hpd).
  - exact Hdq.
  - exact HvK.
Qed.

Lemma execute_iterate_ok L n nn' st q r0 s :
  st = q :: r0 -> fetch_spec L n -> (length ns < n + length st)%nat ->
  Inv st st s -> (forall m, c_memo s q = Some m -> ~ own q m) ->
  cwp (execute_iterate prog strat cinit (S nn') L q (c_memo s q)) (loop_post st q r0 s) s.
Proof.
  intros Hst HL Hfuel HI Hnown. unfold execute_iterate. apply cwp_bind, cwp_get. apply cwp_bind.
  assert (Hq : In q st) by (rewrite Hst; now left).
  assert (Hidle := stack_idle _ _ _ _ HI Hq Hnown).
  destruct (c_memo s q) as [o |] eqn:Ho.
  - rewrite (memo_verified _ _ _ _ _ HI Ho).
    assert (Hcc : negb (stamp_ccount (iter_of o) =? c_ccount s) = false).
    { rewrite (iv_cc _ _ _ HI), stamp_ccount_small; [reflexivity |].
      assert (H := memo_iter_small _ _ _ _ _ HI Ho). lia. }
    rewrite Hcc. destruct (memo_val _ _ _ _ _ HI Ho) as (v & Hv & _). rewrite Hv.
    unfold idle in Hidle. rewrite Ho in Hidle.
    destruct Hidle as (h & it & mh & Hp & Hmh & Hne).
    destruct (part_heads _ _ _ _ Hp) as [Hh _]. rewrite Hh.
    assert (Hhq : key_eqb h q = false) by (apply key_eqb_neq; apply Hp).
    cbn [heads_contains existsb fst]. rewrite Hhq. cbn [orb].
    apply cwp_ret. apply cwp_on_panic.
    apply (iter_loop_ok L n nn' st q r0 Hst HL Hfuel LOOP_FUEL s _ HI).
    + left. split; [reflexivity |]. split; [cbn; now rewrite Ho |]. split.
      * intros m Hm. rewrite Ho in Hm. injection Hm as <-. split; [exact (Hnown o eq_refl) | reflexivity].
      * intros Hn. congruence.
    + unfold LOOP_FUEL. lia.
  - apply cwp_ret. apply cwp_on_panic.
    apply (iter_loop_ok L n nn' st q r0 Hst HL Hfuel LOOP_FUEL s _ HI).
    + left. split; [reflexivity |]. split; [cbn; now rewrite Ho |]. split.
      * intros m Hm. congruence.
      * intros _. cbn. now rewrite (iv_cc _ _ _ HI).
    + unfold LOOP_FUEL. lia.
Qed.

Lemma execute_panic_ok L n st q r0 s :
  st = q :: r0 -> fetch_spec L n -> (length ns < n + length st)%nat ->
  Inv st st s -> (forall m, c_memo s q = Some m -> ~ own q m) ->
  recovers (strat_of strat q) = false ->
  cwp (execute_panic prog L q (c_memo s q)) (loop_post st q r0 s) s.
Proof.
  intros Hst HL Hfuel HI Hnown Hrec. unfold execute_panic. apply cwp_bind.
  assert (Hq : In q st) by (rewrite Hst; now left).
  assert (Hqn : In q ns) by (now apply (iv_incl _ _ _ HI)).
  assert (Hseed : forall m, c_memo s q = Some m -> cm_changed m = REV_START).
  { intros m Hm. apply (mo_chg _ _ _ _ (iv_memo _ _ _ HI q m Hm)). }
  eapply cwp_conseq; [apply (run_query_ok L n st q r0 s _ Hst HL Hfuel HI Hseed) |].
  intros s1 [v fr] (HI1 & Hp1 & Hv & (Hchg & Hk) & Hdur & Hun & Hsame). cbn [fst snd] in *.
  destruct Hk as [(Hh & Hr) | (b & it & mb & Hb & Hh & Hmb & Ho & Hitb & (e0 & He0 & Hw) & Hr)].
  - specialize (Hsame Hh). apply cwp_bind. unfold pop_query. apply cwp_modify. rewrite Hh. apply cwp_ret.
    assert (Hnq : ~ In q r0).
    { assert (Hnd := iv_nd _ _ _ HI). rewrite Hst in Hnd. now apply NoDup_cons_iff in Hnd as [Hn _]. }
    split; [apply Inv_set_qstack, HI1 |].
    split; [rewrite Hst in Hp1; apply (pres_pop q r0 s _ Hnq Hp1) |]. split; [exact Hchg |].
    left. split; [reflexivity |]. split; [reflexivity |]. split; [apply complete_frame_raw |].
    split; [rewrite Hv; eapply completed_value; eassumption |].
    split; [rewrite complete_frame_iter; unfold stamp_default; lia |].
    split; [intros m Hm; apply Hnown; rewrite <- (Hsame q Hq); exact Hm |].
    split; [intros p Hp; apply Hsame; rewrite Hst; now right | exact Hr].
  - exfalso.
    assert (Hlb : lvl b = lvl q) by (eapply botof_top_level; eassumption).
    assert (Hle0 : lvl e0 = lvl q).
    { destruct Hw as [-> | (md & Hmd & Hpd)]; [exact Hlb |].
      rewrite <- Hlb. symmetry. apply npath_lvl. exact (part_npath _ _ _ _ _ _ _ HI1 Hmd Hpd). }
    destruct (Hcalls q e0 Hqn He0) as [_ [Hlt | Hn]]; [lia |].
    destruct (Hnxt q e0 Hn) as (_ & Hs & _). rewrite (r_rec q Hs) in Hrec. discriminate.
Qed.

Definition fin_memo (rv : cmemo) (v : val) (r : rev) : cmemo := with_value (cdiscard_edges rv) (Some v) r.

Lemma fin_memo_fields rv v r :
  cm_final (fin_memo rv v r) = cm_final rv /\ cm_extra (fin_memo rv v r) = cm_extra rv /\
  cm_iter (fin_memo rv v r) = cm_iter rv /\ cm_heads (fin_memo rv v r) = cm_heads rv /\
  cm_changed (fin_memo rv v r) = cm_changed rv /\ cm_val (fin_memo rv v r) = Some v /\
  cm_verified (fin_memo rv v r) = r.
Proof.
  unfold fin_memo, cdiscard_edges.
  destruct ((cm_dur rv =? D_NEVER) && negb (cm_untracked rv) && match raw_heads rv with [] => true | _ => false end);
    repeat split.
Qed.

Lemma cbackdate_noop old v rv :
  (forall o, old = Some o -> cm_final o = false) -> cbackdate old v rv = COk rv.
Proof.
  intros Ho. destruct old as [o |]; [| reflexivity]. unfold cbackdate. rewrite (Ho o eq_refl).
  rewrite Bool.andb_false_r. reflexivity.
Qed.

Definition exec_post (q : qkey) (r0 : list qkey) (s s' : cdb) (m : cmemo) : Prop :=
  Inv r0 r0 s' /\ pres r0 s s' /\ c_memo s' q = Some m /\ cm_changed m = REV_START /\
  exists v, cm_val m = Some v /\
    ((cm_final m = true /\ v = T q /\ done s' q /\ forall p, In p r0 -> c_memo s' p = c_memo s p) \/
     (exists b it mb, part q b it m /\ botof lvl (q :: r0) = Some b /\ In b r0 /\ c_memo s' b = Some mb /\
                      own b mb /\ cm_iter mb = it /\ v = LV b (hv s' b) q)).

Lemma cexecute_ok L n nn' q r0 s mode0 :
  fetch_spec L n -> (length ns < n + length (q :: r0))%nat ->
  Inv (q :: r0) (q :: r0) s -> (forall m, c_memo s q = Some m -> ~ own q m) ->
  (mode0 = RDefault \/ mode0 = RSelfOnly) ->
  cwp (cexecute prog strat cinit (S nn') L q mode0 (c_memo s q)) (exec_post q r0 s) s.
Proof.
  intros HL Hfuel HI Hnown Hmode0. unfold cexecute.
  set (st := q :: r0) in *.
  assert (Hst : st = q :: r0) by reflexivity.
  destruct (stack_tail _ _ _ _ HI) as (Hnd & Hin & Hch & Hnq).
  assert (Hidle : idle s q) by (apply (stack_idle _ _ _ _ HI (or_introl eq_refl) Hnown)).
  assert (Hold : forall o, c_memo s q = Some o -> cm_final o = false).
  { intros o Ho. unfold idle in Hidle. rewrite Ho in Hidle. destruct Hidle as (h & it & mh & Hp & _). apply Hp. }
  apply cwp_bind, cwp_emit.
  set (se := cset_log s _).
  assert (HIe : Inv st st se) by (apply Inv_set_log, HI).
  (* the execution proper *)
  assert (Hrun : cwp (if recovers (strat_of strat q)
                      then execute_iterate prog strat cinit (S nn') L q (c_memo s q)
                      else x <- execute_panic prog L q (c_memo s q) ;;
                           let '(v, rv, _) := x in cret (v, rv, mode0))
                     (fun s1 out => let '(v, rv, mode) := out in
                        loop_post st q r0 s s1 (v, rv, mode) \/
                        (loop_post st q r0 s s1 (v, rv, RDefault) /\ mode = mode0 /\ cm_final rv = true)) se).
  { destruct (recovers (strat_of strat q)) eqn:Hrec.
    - eapply cwp_conseq; [apply (execute_iterate_ok L n nn' st q r0 se Hst HL Hfuel HIe Hnown) |].
      intros s1 [[v rv] mode] H. left. exact H.
    - eapply cwp_seq; [apply (execute_panic_ok L n st q r0 se Hst HL Hfuel HIe Hnown Hrec) |].
      intros s1 [[v rv] mode] H. apply cwp_ret. right. 
      destruct H as (H1 & H2 & H3 & Hc).
      destruct Hc as [(Hm & Hf & Hrest) | [Hpt | (mq & Hmq & Hown & Hrest)]].
      + subst mode. split; [| split; [reflexivity | exact Hf]].
        split; [exact H1 |]. split; [exact H2 |]. split; [exact H3 |]. left. split; [reflexivity |]. split; assumption.
      + exfalso. destruct Hpt as (b & it & mb & _ & _ & Hb & _ & _ & _ & _ & _ & Hmb & Ho & _ & _ & Hqb & _).
        inversion Hqb as [a h Hn | a d h Hn _]; subst;
          destruct (Hnxt q _ Hn) as (_ & Hs & _); rewrite (r_rec q Hs) in Hrec; discriminate.
      + exfalso. destruct (kind_of_own _ _ _ _ (iv_memo _ _ _ H1 q mq Hmq) Hown) as (_ & _ & Hs & _).
        rewrite (r_rec q Hs) in Hrec. discriminate. }
  eapply cwp_seq; [exact Hrun |]. clear Hrun.
  intros s1 [[v rv] mode] Hout.
  rewrite (cbackdate_noop (c_memo s q) v rv Hold).
  apply cwp_bind, cwp_get. fold (fin_memo rv v (ccur s1)).
  assert (Hcases : exists mode', loop_post st q r0 s s1 (v, rv, mode') /\
                     (mode = mode' \/ (mode' = RDefault /\ mode = mode0 /\ cm_final rv = true))).
  { destruct Hout as [H | (H & Hm & Hf)]; [exists mode; split; [exact H | now left] |].
    exists RDefault. split; [exact H |]. right. now repeat split. }
  destruct Hcases as (mode' & (HI1 & Hp1 & Hchg & Hc) & Hmode).
  rewrite (ccur_inv _ _ _ HI1).
  destruct (fin_memo_fields rv v REV_START) as (F1 & F2 & F3 & F4 & F5 & F6 & F7).
  set (m := fin_memo rv v REV_START) in *.
  apply cwp_bind. unfold put_memo. apply cwp_modify.
  set (s2 := cset_memo s1 _).
  assert (Hu : mupd s1 s2 q m) by apply mupd_put.
  assert (Hio : iter_of m = iter_of rv) by (unfold iter_of; now rewrite F2, F3).
  assert (Hrel : forall mode'', (mode'' = RDefault \/ mode'' = RSelfOnly) ->
            forall o, mode'' = RTransfer o -> In o r0) by (intros mm [-> | ->] o Ho; discriminate).
  (* a final memo: release the claim and return it *)
  assert (Hfinal : mode' = RDefault -> cm_final rv = true -> v = T q ->
            (forall p, In p r0 -> c_memo s1 p = c_memo s p) ->
            Inv (q :: r0) r0 s2 -> pres r0 s1 s2 -> done s2 q ->
            cwp (drop_guard q mode ;;; cret m) (exec_post q r0 s) s2).
  { intros Hm' Hf HvK Hsame HI2 Hp2 Hd2.
    assert (Hmode_ok : forall o, mode = RTransfer o -> In o r0).
    { destruct Hmode as [-> | (_ & -> & _)]; [subst mode'; intros o Ho; discriminate | now apply Hrel]. }
    eapply cwp_seq; [apply (drop_guard_ok r0 r0 s2 q mode HI2 Hnq Hmode_ok) |].
    intros s3 [] (HI3 & Hm3). apply cwp_ret.
    split; [exact HI3 |]. split; [apply (pres_eq_r r0 s s2 s3 Hm3), (pres_trans _ _ _ _ Hp1 Hp2) |].
    split; [rewrite Hm3; apply (mupd_same _ _ _ _ Hu) |]. split; [congruence |].
    exists v. split; [exact F6 |]. left. split; [congruence |]. split; [exact HvK |].
    split; [now apply (done_eq s2 s3) |].
    intros p Hp. rewrite Hm3. rewrite (mupd_other _ _ _ _ _ Hu); [now apply Hsame | intros ->; contradiction]. }
  destruct Hc as [(Hm' & Hf & Hrh & HvK & Hi & Hno & Hsame & Hsucc) | [Hpt | (mq & Hmq & Hown & Hm' & Hf & He & Hh & Hit & Hlv & Hconv & Hsame & Hsucc)]].
  - (* completed *)
    destruct (finish_completed q r0 s1 s2 m HI1 Hno Hu) as (HI2 & Hp2 & Hd2); try assumption; try congruence.
    { rewrite Hio. lia. }
    apply Hfinal; assumption.
  - (* participant *)
    destruct Hpt as (b & it & mb & Hbq & Hmt & Hbst & Hf & He & Hh & Hmi & Hchg' & Hmb & Ho & Hitb & Hv & Hqb & Hno & Hsucc).
    assert (Hpart : part q b it m).
    { split; [congruence |]. split; [congruence |]. split; [congruence | exact Hbq]. }
    destruct (finish_participant q r0 s1 s2 m b it mb v HI1 Hno Hu Hpart F6 F7) as (HI2 & Hp2 & Hpa2 & Hmb2);
      try assumption; try congruence.
    assert (Hbr : In b r0) by (destruct Hbst as [Hx | Hx]; [congruence | exact Hx]).
    assert (Hmode_eq : mode = RTransfer b).
    { destruct Hmode as [-> | (_ & _ & Hfr)]; [exact Hmt | congruence]. }
    eapply cwp_seq; [apply (drop_guard_ok r0 r0 s2 q mode HI2 Hnq) |].
    { intros o Ho'. rewrite Hmode_eq in Ho'. injection Ho' as <-. exact Hbr. }
    intros s3 [] (HI3 & Hm3). apply cwp_ret.
    split; [exact HI3 |]. split; [apply (pres_eq_r r0 s s2 s3 Hm3), (pres_trans _ _ _ _ Hp1 Hp2) |].
    split; [rewrite Hm3; apply (mupd_same _ _ _ _ Hu) |]. split; [congruence |].
    exists v. split; [exact F6 |]. right. exists b, it, mb. split; [exact Hpart |].
    split; [apply (own_is_botof st q r0 Hst st s1 b mb HI1 Hmb Ho); now apply npath_lvl |].
    split; [exact Hbr |]. split; [now rewrite Hm3 |]. split; [exact Ho |]. split; [exact Hitb |].
    rewrite Hv. rewrite (hv_eq s2 s3 b Hm3), (hv_other _ _ _ _ _ Hu Hbq). reflexivity.
  - (* head, converged *)
    destruct (finish_head q r0 s1 s2 m mq v HI1 Hmq Hown Hlv Hconv Hu) as (HI2 & Hp2 & Hd2 & HvK);
      try assumption; try congruence.
    { rewrite Hio. unfold iter_of. now rewrite He, Hit. }
    apply Hfinal; assumption.
Qed.

Lemma callable_ns st s d : Inv st st s -> callable st d -> In d ns.
Proof.
  intros HI Hc. destruct st as [| q r]; [exact Hc |].
  apply (Hcalls q d); [apply (iv_incl _ _ _ HI); now left | exact Hc].
Qed.

Lemma rho_done st s d : Inv st st s -> done s d -> rho_of st s d = T d.
Proof.
  intros HI Hd. unfold rho_of. destruct (botof lvl st) as [b |] eqn:Hb; [| reflexivity].
  apply (done_indep _ _ _ _ _ _ HI Hd (botof_in _ _ Hb)).
Qed.

Lemma stack_level_ge st s q r h : Inv st st s -> st = q :: r -> In h st -> (lvl q <= lvl h)%nat.
Proof.
  intros HI Hst Hh. assert (Hm := chain_mono _ (iv_incl _ _ _ HI) (iv_chain _ _ _ HI)).
  rewrite Hst in *. destruct Hh as [<- | Hh]; [lia |]. destruct Hm as [Hm _]. now apply Hm.
Qed.

Definition memo_post (st : list qkey) (s : cdb) (d : qkey) (s' : cdb) (m : cmemo) : Prop :=
  exists v, cm_val m = Some v /\ fetch_post st s d s' (v, cm_dur m, cm_changed m, heads_of m).

Lemma final_post st s s' d m :
  Inv st st s -> Inv st st s' -> pres st s s' -> c_memo s' d = Some m -> cm_final m = true ->
  (forall p, In p st -> c_memo s' p = c_memo s p) ->
  memo_post st s d s' m.
Proof.
  intros HI HI' Hp Hm Hf Hsame.
  assert (Hd : done s' d) by (exists m; split; [exact Hm | now left]).
  destruct (done_val _ _ _ _ HI' Hd) as (m1 & Hm1 & Hv & _). rewrite Hm in Hm1. injection Hm1 as <-.
  exists (T d). split; [exact Hv |]. unfold fetch_post.
  split; [exact HI' |]. split; [exact Hp |].
  split; [apply (mo_chg _ _ _ _ (iv_memo _ _ _ HI' d m Hm)) |].
  split; [rewrite <- (rho_pres st s s' Hp d); symmetry; now apply rho_done |].
  left. split; [unfold heads_of; now rewrite Hf |]. split; [exact Hd | exact Hsame].
Qed.

(* the callee is on the stack: it becomes (or is) a cycle head *)
Lemma cold_callback st s d nn' L :
  Inv st st s -> callable st d -> In d st ->
  cwp (cfetch_cold prog strat cinit (S nn') L d) (memo_post st s d) s.
Proof.
  intros HI Hc Hd. destruct st as [| q r] eqn:Hst; [contradiction |]. cbn [callable] in Hc.
  rewrite <- Hst in *.
  unfold cfetch_cold. eapply cwp_seq; [apply (try_claim_held st st s d HI Hd) |].
  intros s1 c (-> & HI1 & Hm1).
  assert (Hd1 : In d (sc q)) by exact Hc.
  eapply cwp_conseq; [apply (fetch_cold_cycle_ok st st s1 q r d HI1 Hst Hd1 Hd) |].
  intros s2 m (HI2 & Hm2 & Hown & _ & Hoth & Hsome & Hnone).
  destruct (memo_val _ _ _ _ _ HI2 Hm2) as (v & Hv & Hv256).
  exists v. split; [exact Hv |]. unfold fetch_post.
  assert (Hgrow : forall p mp, c_memo s p = Some mp -> c_memo s2 p = Some mp).
  { intros p mp Hp. rewrite <- Hm1 in Hp. destruct (key_eqb_spec p d) as [-> | Hne].
    - rewrite Hm2. f_equal. now apply Hsome.
    - now rewrite (Hoth p Hne). }
  assert (Hlvl : lvl d = lvl q).
  { destruct (stack_callback _ _ _ _ _ _ HI Hst Hd1 Hd) as (_ & _ & Hl). exact Hl. }
  assert (Hbot : botof lvl st = Some d).
  { apply (own_is_botof st q r Hst st s2 d m HI2 Hm2 Hown Hlvl). }
  assert (Hpres : pres st s s2).
  { split; [apply (done_grow s s2 Hgrow) |]. split; [intros p _ mp Hp; now apply Hgrow |].
    split.
    - intros p Hp Hn. rewrite <- Hm1 in Hn. destruct (key_eqb_spec p d) as [-> | Hne].
      + right. split; [exact Hbot |]. rewrite Hm2. f_equal. now apply Hnone.
      + left. now rewrite (Hoth p Hne).
    - intros x h it mh _ Hpa _ _ _. now apply (partat_grow s s2 Hgrow). }
  split; [exact HI2 |]. split; [exact Hpres |].
  split; [apply (mo_chg _ _ _ _ (iv_memo _ _ _ HI2 d m Hm2)) |].
  split.
  { unfold rho_of. rewrite Hbot.
    assert (Hhv : hv s d = v).
    { rewrite <- (hv_pres st s s2 d Hpres Hd). unfold hv. now rewrite Hm2, Hv. }
    destruct (kind_of_own _ _ _ _ (iv_memo _ _ _ HI2 d m Hm2) Hown) as (_ & _ & _ & _ & _ & (Hdd & _) & (v' & Hv' & Hhead)).
    rewrite Hv in Hv'. injection Hv' as <-.
    rewrite Hhv. symmetry. apply live_head; [now apply (iv_incl _ _ _ HI) | exact Hdd | exact Hv256 | exact Hhead]. }
  right. exists d, (cm_iter m), m. destruct (own_heads _ _ Hown) as [Hh _].
  split; [exact Hbot |]. split; [exact Hh |]. split; [exact Hm2 |]. split; [exact Hown |].
  split; [reflexivity | now left].
Qed.

Lemma pres_of_memo_eq st s s' : c_memo s' = c_memo s -> pres st s s'.
Proof. intros He. apply (pres_eq_r st s s s' He), pres_refl. Qed.

Lemma exec_to_memo_post st s s1 s' d m :
  Inv st st s -> ~ In d st -> c_memo s1 = c_memo s -> exec_post d st s1 s' m -> memo_post st s d s' m.
Proof.
  intros HI Hnd Hm1 (HI' & Hp' & Hm & Hchg & v & Hv & Hc).
  assert (Hp : pres st s s') by (apply (pres_trans _ _ _ _ (pres_of_memo_eq st s s1 Hm1) Hp')).
  destruct Hc as [(Hf & HvK & Hd & Hsame) | (b & it & mb & Hpart & Hbot & Hb & Hmb & Ho & Hit & HvK)].
  - apply (final_post st s s' d m HI HI' Hp Hm Hf). intros p Hpin. rewrite (Hsame p Hpin). now rewrite Hm1.
  - exists v. split; [exact Hv |]. unfold fetch_post.
    assert (Hbd : b <> d) by (intros ->; contradiction).
    assert (Hbot' : botof lvl st = Some b) by (apply (botof_pop d st b Hbot Hbd)).
    split; [exact HI' |]. split; [exact Hp |]. split; [exact Hchg |].
    split; [unfold rho_of; rewrite Hbot', <- (hv_pres st s s' b Hp Hb); exact HvK |].
    right. exists b, it, mb. destruct (part_heads _ _ _ _ Hpart) as [Hh _].
    split; [exact Hbot' |]. split; [exact Hh |]. split; [exact Hmb |]. split; [exact Ho |].
    split; [exact Hit |]. right. exists m. split; [exact Hm | exact Hpart].
Qed.

Lemma cold_free st s d n nn' L :
  fetch_spec L n -> (length ns < S n + length st)%nat ->
  Inv st st s -> callable st d -> ~ In d st ->
  (forall m, c_memo s d = Some m -> cm_final m = false) ->
  cwp (cfetch_cold prog strat cinit (S nn') L d) (memo_post st s d) s.
Proof.
  intros HL Hfuel HI Hc Hnd Hnf.
  assert (Hdn : In d ns) by (eapply callable_ns; eassumption).
  assert (Hchain : chain (d :: st)).
  { assert (Hch := iv_chain _ _ _ HI). destruct st as [| q r]; [exact I |]. split; [exact Hc | exact Hch]. }
  unfold cfetch_cold. eapply cwp_seq; [apply (try_claim_free st st s d HI Hnd) |].
  intros s1 c (Hcl & HI1 & Hm1).
  assert (Hmode : exists mode, c = Claimed mode /\ (mode = RDefault \/ mode = RSelfOnly)).
  { destruct Hcl as [-> | ->]; eexists; split; try reflexivity; [now left | now right]. }
  destruct Hmode as (mode & -> & Hmode). apply cwp_on_panic. apply cwp_bind, cwp_get.
  (* the execution path *)
  assert (Hexec : forall s1', Inv (d :: st) st s1' -> c_memo s1' = c_memo s -> idle s1' d ->
            cwp (cexecute prog strat cinit (S nn') L d mode (c_memo s1 d)) (memo_post st s d) s1').
  { intros s1' HI1' Hm1' Hidle.
    assert (HIp : Inv (d :: st) (d :: st) s1') by (apply Inv_push; assumption).
    assert (Hnown : forall m, c_memo s1' d = Some m -> ~ own d m).
    { intros m Hm Ho. unfold idle in Hidle. rewrite Hm in Hidle. destruct Hidle as (h & it & mh & Hp & _).
      exact (own_not_part _ _ _ _ Ho Hp). }
    replace (c_memo s1 d) with (c_memo s1' d) by (now rewrite Hm1, Hm1').
    eapply cwp_conseq.
    - apply (cexecute_ok L n nn' d st s1' mode HL); [cbn [length]; lia | exact HIp | exact Hnown | exact Hmode].
    - intros s' m Hex. eapply exec_to_memo_post; eassumption. }
  destruct (c_memo s1 d) as [m |] eqn:Hm.
  - destruct (memo_val _ _ _ _ _ HI1 Hm) as (v0 & Hv0 & _). rewrite Hv0.
    assert (Hms : c_memo s d = Some m) by (now rewrite <- Hm1).
    destruct (mo_kind _ _ _ _ (iv_memo _ _ _ HI1 d m Hm)) as [Hf | [Hk | Hk]].
    + destruct Hf as (Hf & _). rewrite (Hnf m Hms) in Hf. discriminate.
    + destruct Hk as (_ & (Hin & _) & _). contradiction.
    + destruct Hk as (h & it & mh & Hp & Hnp & Hmh & Hkind & Hle & _ & _ & Hlive & Hset).
      apply cwp_bind. eapply cwp_seq.
      { apply (cverify_part (d :: st) st s1 L d m h it mh HI1); [intros x Hx; now right | exact Hm | exact Hp | exact Hmh]. }
      intros s2 r (HI2 & Hcase). apply cwp_ret.
      destruct Hcase as [(Hfh & Hit & -> & Hu) | [(Hfh & Hit & -> & Hm2) | (Hne & Hfalse & Hm2)]]; cbn [fst snd].
      * (* settled: now final *)
        eapply cwp_seq; [apply (drop_guard_ok st st s2 d mode HI2 Hnd) |].
        { intros o Ho. destruct Hmode as [-> | ->]; discriminate. }
        intros s3 [] (HI3 & Hm3). apply cwp_ret.
        assert (Hgrow : forall p mp, p <> d -> c_memo s p = Some mp -> c_memo s3 p = Some mp).
        { intros p mp Hpd Hpm. rewrite Hm3, (mupd_other _ _ _ _ _ Hu Hpd), Hm1. exact Hpm. }
        assert (Hsame : forall p, In p st -> c_memo s3 p = c_memo s p).
        { intros p Hp'. rewrite Hm3, (mupd_other _ _ _ _ _ Hu), Hm1; [reflexivity | intros ->; contradiction]. }
        apply (final_post st s s3 d (with_final m true) HI HI3); [| rewrite Hm3; apply (mupd_same _ _ _ _ Hu) | reflexivity | exact Hsame].
        split.
        { intros x (mx & Hmx & Hdx). destruct (key_eqb_spec x d) as [-> | Hxd].
          - exists (with_final m true). split; [rewrite Hm3; apply (mupd_same _ _ _ _ Hu) | now left].
          - exists mx. split; [now apply Hgrow |].
            destruct Hdx as [Hfx | (hx & itx & mhx & Hpx & Hmhx & Hrx)]; [now left |].
            right. exists hx, itx, mhx. split; [exact Hpx |]. split; [| exact Hrx].
            apply Hgrow; [| exact Hmhx]. intros ->. rewrite Hms in Hmhx. injection Hmhx as <-.
            destruct Hrx as [Hrx _]. destruct Hp as (Hnfm & _). congruence. }
        split; [intros p Hp' mp Hpm; rewrite (Hsame p Hp'); exact Hpm |].
        split; [intros p Hp' Hpn; left; rewrite (Hsame p Hp'); exact Hpn |].
        intros x hx itx mhx Hhx (mx & Hmx & Hpx) Hmhx Hox Hitx.
        exists mx. split; [| exact Hpx]. apply Hgrow; [| exact Hmx].
        intros ->. rewrite Hms in Hmx. injection Hmx as <-.
        destruct (part_inj _ _ _ _ _ _ Hp Hpx) as [<- <-]. rewrite <- Hm1 in Hmhx. rewrite Hmh in Hmhx.
        injection Hmhx as <-. destruct Hox as (Hnfh & _). congruence.
      * (* live *)
        eapply cwp_seq; [apply (drop_guard_ok st st s2 d mode HI2 Hnd) |].
        { intros o Ho. destruct Hmode as [-> | ->]; discriminate. }
        intros s3 [] (HI3 & Hm3). apply cwp_ret.
        assert (Hm3s : c_memo s3 = c_memo s) by (now rewrite Hm3, Hm2, Hm1).
        assert (Hown : own h mh) by (destruct Hkind as [Ho | Hf]; [exact Ho | congruence]).
        destruct (Hlive Hit Hfh) as (Hv & _ & _).
        destruct (own_heads _ _ Hown) as [_ Hio].
        assert (Hhst : In h st) by (exact (own_in_stack _ _ _ _ _ HI1 Hmh Hown)).
        destruct st as [| q r] eqn:Hst; [contradiction |]. rewrite <- Hst in *.
        assert (Hlq : lvl h = lvl q).
        { assert (Hge := stack_level_ge st s q r h HI Hst Hhst).
          assert (Hlh := npath_lvl _ _ Hnp).
          assert (Hqs : In q st) by (rewrite Hst; now left).
          assert (Hc' : In d (sc q)) by (rewrite Hst in Hc; exact Hc).
          destruct (Hcalls q d (iv_incl _ _ _ HI q Hqs) Hc') as [_ [Hlt | Hn]]; [lia |].
          destruct (Hnxt q d Hn) as (He & _). lia. }
        assert (Hmhs : c_memo s h = Some mh) by (now rewrite <- Hm1).
        assert (Hbot : botof lvl st = Some h) by (apply (own_is_botof st q r Hst st s h mh HI Hmhs Hown Hlq)).
        exists (LV h (hv s1 h) d). split; [exact Hv |]. unfold fetch_post.
        split; [exact HI3 |]. split; [now apply pres_of_memo_eq |].
        split; [apply (mo_chg _ _ _ _ (iv_memo _ _ _ HI1 d m Hm)) |].
        split; [unfold rho_of; rewrite Hbot, (hv_eq s s1 h Hm1); reflexivity |].
        right. exists h, it, mh. destruct (part_heads _ _ _ _ Hp) as [Hh _].
        split; [exact Hbot |]. split; [exact Hh |]. split; [now rewrite Hm3s |]. split; [exact Hown |].
        split; [now rewrite <- Hio |]. right. exists m. split; [now rewrite Hm3s | exact Hp].
      * (* stale: execute *)
        destruct r as [b m']. cbn [fst] in Hfalse. subst b. cbn [fst].
        apply (Hexec s2 HI2); [now rewrite Hm2 |].
        unfold idle. rewrite Hm2, Hm. exists h, it, mh. split; [exact Hp |]. split; [exact Hmh | exact Hne].
  - apply cwp_bind, cwp_ret. apply (Hexec s1 HI1 Hm1). unfold idle. now rewrite Hm.
Qed.

Lemma in_st_dec (d : qkey) (st : list qkey) : In d st \/ ~ In d st.
Proof.
  induction st as [| a r IH]; [right; intros [] |].
  destruct (key_eqb_spec a d) as [-> | Hne]; [left; now left |].
  destruct IH as [H | H]; [left; now right | right; intros [Heq | Hin]; [congruence | contradiction]].
Qed.

Lemma cfetch_step L n nn' : fetch_spec L n ->
  forall st s d, Inv st st s -> callable st d -> (length ns < S n + length st)%nat ->
  cwp (cfetch prog strat cinit (S nn') L d) (fetch_post st s d) s.
Proof.
  intros HL st s d HI Hc Hfuel. unfold cfetch. eapply cwp_seq; [apply (cfetch_hot_ok st st s d HI) |].
  intros s1 hot (-> & ->).
  assert (Hfin : forall s' m, memo_post st s d s' m ->
            cwp (match cm_val m with
                 | Some v => cret (v, cm_dur m, cm_changed m, heads_of m)
                 | None => cassert
                 end) (fetch_post st s d) s').
  { intros s' m (v & Hv & Hpost). rewrite Hv. apply cwp_ret. exact Hpost. }
  assert (Hcold : cwp (cfetch_cold prog strat cinit (S nn') L d) (memo_post st s d) s ->
            cwp (m <- cfetch_cold prog strat cinit (S nn') L d ;;
                 match cm_val m with
                 | Some v => cret (v, cm_dur m, cm_changed m, heads_of m)
                 | None => cassert
                 end) (fetch_post st s d) s).
  { intros H. eapply cwp_seq; [exact H |]. exact Hfin. }
  assert (Hgo : (forall m, c_memo s d = Some m -> cm_final m = false) ->
            cwp (cfetch_cold prog strat cinit (S nn') L d) (memo_post st s d) s).
  { intros Hnf. destruct (in_st_dec d st) as [Hin | Hnin].
    - now apply cold_callback.
    - now apply (cold_free st s d n nn' L). }
  destruct (c_memo s d) as [m |] eqn:Hm.
  - destruct (cm_final m) eqn:Hf.
    + apply cwp_bind, cwp_ret. apply Hfin.
      apply (final_post st s s d m HI HI (pres_refl st s) Hm Hf). intros p _. reflexivity.
    + apply Hcold, Hgo. intros m' Hm'. injection Hm' as <-. exact Hf.
  - apply Hcold, Hgo. intros m' Hm'. discriminate.
Qed.

Lemma clevel_spec nn' : forall n, fetch_spec (clevel prog strat cinit (S nn') n) n.
Proof.
  induction n as [| n IH].
  - intros st s d HI _ Hfuel. exfalso.
    assert (H := NoDup_incl_length (iv_nd _ _ _ HI) (iv_incl _ _ _ HI)). cbn in Hfuel. lia.
  - intros st s d HI Hc Hfuel. cbn [clevel cl_fetch]. now apply (cfetch_step _ n nn' IH).
Qed.

Lemma Inv_init : Inv [] [] s0.
Proof.
  constructor.
  - reflexivity.
  - reflexivity.
  - reflexivity.
  - reflexivity.
  - reflexivity.
  - constructor.
  - intros x [].
  - exact I.
  - intros q. split; [intros [] |]. intros (y & Hy & _). discriminate.
  - intros q y Hy. discriminate.
  - intros q m Hm. discriminate.
Qed.

Lemma get_step nn' fuel s q :
  (length ns <= fuel)%nat -> Inv [] [] s -> In q ns ->
  exists s', cstep prog strat cinit (S nn') fuel s (COGet q) = (s', COk (T q)) /\ Inv [] [] s'.
Proof.
  intros Hfuel HI Hq. cbn [cstep].
  assert (H := cfetch_step (clevel prog strat cinit (S nn') fuel) fuel nn' (clevel_spec nn' fuel) [] s q HI Hq).
  cbn [length] in H. specialize (H ltac:(lia)).
  apply cwp_inv in H as (s' & [[[v du] ch] hs] & Heq & Hpost). rewrite Heq.
  destruct Hpost as (HI' & _ & _ & Hv & _). exists s'. split; [| exact HI'].
  rewrite Hv. reflexivity.
Qed.

Theorem ring_gets nn' fuel : (length ns <= fuel)%nat ->
  forall qs s, Inv [] [] s -> (forall q, In q qs -> In q ns) ->
  exists s', crun_ops prog strat cinit (S nn') fuel s (map COGet qs) = (s', map (fun q => COk (T q)) qs) /\
             Inv [] [] s'.
Proof.
  intros Hfuel. induction qs as [| q qs IH]; intros s HI Hin.
  - exists s. split; [reflexivity | exact HI].
  - destruct (get_step nn' fuel s q Hfuel HI (Hin q (or_introl eq_refl))) as (s1 & Hs1 & HI1).
    destruct (IH s1 HI1 (fun x Hx => Hin x (or_intror Hx))) as (s2 & Hs2 & HI2).
    exists s2. split; [| exact HI2].
    cbn [map crun_ops]. rewrite Hs1, Hs2. reflexivity.
Qed.

Lemma runo_of_run : forall b ein ecell (rho : qkey -> val) (sigma : qkey -> option val),
  (forall d, In d (call_trace ein ecell rho b) -> sigma d = Some (rho d)) ->
  runo ein ecell sigma b = Some (run {| e_in := ein; e_cell := ecell; e_q := rho |} b).
Proof.
  induction b as [v | i k IH | d k IH | c k IH | k IH | c k IH]; intros ein ecell rho sigma Hs; cbn.
  - reflexivity.
  - apply IH. exact Hs.
  - cbn in Hs. rewrite (Hs d (or_introl eq_refl)). apply IH. intros x Hx. apply Hs. now right.
  - apply IH. exact Hs.
  - apply IH. exact Hs.
  - apply IH. exact Hs.
Qed.

Lemma settled_done s q m : Inv [] [] s -> c_memo s q = Some m -> settled s m = true -> done s q.
Proof.
  intros HI Hm Hs. exists m. split; [exact Hm |].
  unfold settled in Hs. apply andb_true_iff in Hs as [_ Hs].
  destruct (cm_final m) eqn:Hf; [now left |]. cbn [orb] in Hs. right.
  destruct (mo_kind _ _ _ _ (iv_memo _ _ _ HI q m Hm)) as [Hk | [Hk | Hk]].
  - destruct Hk as (Hf' & _). congruence.
  - destruct Hk as (_ & (Hin & _) & _). contradiction.
  - destruct Hk as (h & it & mh & Hp & _ & Hmh & _). exists h, it, mh.
    split; [exact Hp |]. split; [exact Hmh |].
    destruct (part_heads _ _ _ _ Hp) as [Hh _]. rewrite Hh in Hs.
    cbn [heads_all_final fst snd] in Hs. unfold key_status in Hs. rewrite Hmh in Hs.
    destruct (memo_val _ _ _ _ _ HI Hmh) as (v & Hv & _). rewrite (status_of_val mh v Hv) in Hs.
    destruct (cm_final mh); [| discriminate].
    apply andb_true_iff in Hs as [Hs _]. apply andb_true_iff in Hs as [_ Hs]. apply N.eqb_eq in Hs.
    now split.
Qed.

Lemma done_final_val s q : Inv [] [] s -> done s q -> final_val s q = Some (T q).
Proof.
  intros HI Hd. destruct (done_val _ _ _ _ HI Hd) as (m & Hm & Hv & _).
  unfold final_val. rewrite Hm.
  assert (Hs : settled s m = true).
  { unfold settled. rewrite (memo_verified _ _ _ _ _ HI Hm). cbn [andb].
    destruct Hd as (m' & Hm' & Hk). rewrite Hm in Hm'. injection Hm' as <-.
    destruct Hk as [Hf | (h & it & mh & Hp & Hmh & Hfh & Hit)]; [now rewrite Hf |].
    assert (Hnf : cm_final m = false) by apply Hp. rewrite Hnf. cbn [orb].
    destruct (part_heads _ _ _ _ Hp) as [Hh _]. rewrite Hh.
    cbn [heads_all_final fst snd]. unfold key_status. rewrite Hmh.
    destruct (memo_val _ _ _ _ _ HI Hmh) as (v & Hvh & _). rewrite (status_of_val mh v Hvh), Hfh.
    rewrite (mo_ver _ _ _ _ (iv_memo _ _ _ HI h mh Hmh)), (mo_ver _ _ _ _ (iv_memo _ _ _ HI q m Hm)).
    rewrite Hit, !N.eqb_refl. reflexivity. }
  rewrite Hs. exact Hv.
Qed.

Lemma csnap_inv s : Inv [] [] s -> csnap_of s = sn.
Proof.
  intros HI. unfold snap0, csnap_of. rewrite (iv_in _ _ _ HI), (iv_cell _ _ _ HI). reflexivity.
Qed.

(* what the certificates look at: a memo that counts as settled holds the target value, and
   the callees of its node are settled with theirs *)
Lemma settled_vals s q v : Inv [] [] s -> final_val s q = Some v ->
  v = T q /\ forall d, In d (sc q) -> final_val s d = Some (T d).
Proof.
  intros HI Hfv.
  assert (Hd : done s q).
  { unfold final_val in Hfv. destruct (c_memo s q) as [m |] eqn:Hm; [| discriminate].
    destruct (settled s m) eqn:Hs; [| discriminate]. eapply settled_done; eassumption. }
  rewrite (done_final_val s q HI Hd) in Hfv. injection Hfv as <-. split; [reflexivity |].
  destruct (done_val _ _ _ _ HI Hd) as (m & _ & _ & _ & Hsucc).
  intros d Hdd. apply done_final_val; [exact HI | now apply Hsucc].
Qed.

End Top.
