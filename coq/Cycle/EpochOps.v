(* Cycle/EpochOps.v — every step of the Cycle model preserves the epoch invariant (Cycle/EpochInv.v),
   whatever its outcome (value, panic, out-of-fuel), at every fuel level; the maximum stamp a trip
   reports is a stamp of the current epoch. *)
From Coq Require Import PeanoNat.
From Salsa Require Import Base.
From Salsa.gen Require Import Kernels.
From Salsa.Kern Require Import CoreK K4_Stamp.
From Salsa.Cycle Require Import StampK Model ModelProofs LockInv EpochInv.

(* ---------------------------------------------------------------- a wp for all outcomes *)
Section Wp.
Context {E : ectx}.

(* the reference state [s0] is kept apart from the current state [s] so that the judgement passes
   through a bind unchanged; under [ext s0 s] it may be replaced by [s] ([gwp_ref]). *)
Definition gwp {A} (s0 : cdb) (m : CM A) (R : cdb -> A -> Prop) (s : cdb) : Prop :=
  SI (fst (m s)) /\ ext s0 (fst (m s)) /\ forall a, snd (m s) = COk a -> R (fst (m s)) a.

Lemma gwp_ret {A} s0 (a : A) (R : cdb -> A -> Prop) s : SI s -> ext s0 s -> R s a -> gwp s0 (cret a) R s.
Proof. intros H1 H2 H3. split; [exact H1 |]. split; [exact H2 |]. intros a' Ha. injection Ha as <-. exact H3. Qed.

Lemma gwp_fail {A} s0 p (R : cdb -> A -> Prop) s : SI s -> ext s0 s -> gwp s0 (cfail p) R s.
Proof. intros H1 H2. split; [exact H1 |]. split; [exact H2 |]. intros a Ha. discriminate. Qed.

Lemma gwp_nofuel {A} s0 (R : cdb -> A -> Prop) s : SI s -> ext s0 s -> gwp s0 cnofuel R s.
Proof. intros H1 H2. split; [exact H1 |]. split; [exact H2 |]. intros a Ha. discriminate. Qed.

Lemma gwp_bind {A B} s0 (m : CM A) (f : A -> CM B) (R1 : cdb -> A -> Prop) (R : cdb -> B -> Prop) s :
  gwp s0 m R1 s ->
  (forall s1 a, SI s1 -> ext s0 s1 -> R1 s1 a -> gwp s0 (f a) R s1) ->
  gwp s0 (cbind m f) R s.
Proof.
  unfold gwp, cbind. intros (H1 & H2 & H3) Hf. destruct (m s) as [s1 [a | p |]]; cbn [fst snd] in *.
  - apply (Hf s1 a H1 H2 (H3 a eq_refl)).
  - split; [exact H1 |]. split; [exact H2 |]. intros b Hb. discriminate.
  - split; [exact H1 |]. split; [exact H2 |]. intros b Hb. discriminate.
Qed.

Lemma gwp_get s0 (R : cdb -> cdb -> Prop) s : SI s -> ext s0 s -> R s s -> gwp s0 cget R s.
Proof. intros H1 H2 H3. split; [exact H1 |]. split; [exact H2 |]. intros a Ha. injection Ha as <-. exact H3. Qed.

Lemma gwp_modify s0 f (R : cdb -> unit -> Prop) s : SI (f s) -> ext s0 (f s) -> R (f s) tt -> gwp s0 (cmodify f) R s.
Proof. intros H1 H2 H3. split; [exact H1 |]. split; [exact H2 |]. intros a Ha. injection Ha as <-. exact H3. Qed.

Lemma gwp_bind_get {B} s0 (f : cdb -> CM B) (R : cdb -> B -> Prop) s :
  gwp s0 (f s) R s -> gwp s0 (cbind cget f) R s.
Proof. intros H. exact H. Qed.

Lemma gwp_bind_modify {B} s0 g (f : unit -> CM B) (R : cdb -> B -> Prop) s :
  gwp s0 (f tt) R (g s) -> gwp s0 (cbind (cmodify g) f) R s.
Proof. intros H. exact H. Qed.

Lemma gwp_conseq {A} s0 (m : CM A) (R R' : cdb -> A -> Prop) s :
  gwp s0 m R s -> (forall s' a, SI s' -> ext s0 s' -> R s' a -> R' s' a) -> gwp s0 m R' s.
Proof.
  intros (H1 & H2 & H3) HR. split; [exact H1 |]. split; [exact H2 |]. intros a Ha. apply HR; auto.
Qed.

Lemma gwp_on_panic {A} s0 (m : CM A) h (R : cdb -> A -> Prop) s :
  gwp s0 m R s ->
  (forall s1, SI s1 -> ext s0 s1 -> SI (fst (h s1)) /\ ext s0 (fst (h s1))) ->
  gwp s0 (on_panic m h) R s.
Proof.
  unfold gwp, on_panic. intros (H1 & H2 & H3) Hh. destruct (m s) as [s1 [a | p |]]; cbn [fst snd] in *.
  - split; [exact H1 |]. split; [exact H2 | exact H3].
  - destruct (Hh s1 H1 H2) as [H4 H5]. split; [exact H4 |]. split; [exact H5 |]. intros b Hb. discriminate.
  - split; [exact H1 |]. split; [exact H2 |]. intros b Hb. discriminate.
Qed.

Lemma gwp_eq {A} s0 (m m' : CM A) (R : cdb -> A -> Prop) s : m s = m' s -> gwp s0 m' R s -> gwp s0 m R s.
Proof. unfold gwp. intros ->. exact (fun H => H). Qed.

(* changing the reference state *)
Lemma gwp_ref {A} s0 s0' (m : CM A) (R : cdb -> A -> Prop) s :
  ext s0' s0 -> gwp s0 m R s -> gwp s0' m R s.
Proof.
  intros He (H1 & H2 & H3). split; [exact H1 |]. split; [eapply ext_trans; eassumption | exact H3].
Qed.

(* ---------------------------------------------------------------- steps outside the memo table *)
(* the frame property of Cycle/LockInv.v for [same_core] *)
Definition corep {A} (m : CM A) : Prop := forall s, same_core s (fst (m s)).

Lemma gwp_corep {A} s0 (m : CM A) s : corep m -> SI s -> ext s0 s ->
  gwp s0 m (fun s' _ => same_core s s') s.
Proof.
  intros Hc HS He. destruct (same_core_SI s _ (Hc s) HS) as [H1 H2].
  split; [exact H1 |]. split; [eapply ext_trans; eassumption |]. intros a _. apply Hc.
Qed.

Lemma gwp_corep_res {A} s0 (m : CM A) (P : A -> Prop) s : corep m -> SI s -> ext s0 s ->
  (forall a, snd (m s) = COk a -> P a) ->
  gwp s0 m (fun s' a => same_core s s' /\ P a) s.
Proof.
  intros Hc HS He HP. destruct (same_core_SI s _ (Hc s) HS) as [H1 H2].
  split; [exact H1 |]. split; [eapply ext_trans; eassumption |]. intros a Ha. split; [apply Hc | now apply HP].
Qed.

Lemma same_core_sync s x : same_core s (cset_sync s x).
Proof. now repeat split. Qed.
Lemma same_core_transfers s x : same_core s (cset_trans s x).
Proof. now repeat split. Qed.

Lemma corep_try_claim q allow : corep (try_claim q allow).
Proof. exact (pres_try_claim same_core same_core_refl same_core_trans same_core_sync q allow). Qed.
Lemma corep_peek_claim q : corep (peek_claim q).
Proof. exact (pres_peek_claim same_core same_core_refl same_core_trans same_core_sync q). Qed.
Lemma corep_drop_guard q m : corep (drop_guard q m).
Proof. exact (pres_drop_guard same_core same_core_refl same_core_trans same_core_transfers same_core_sync q m). Qed.
Lemma core_release_panicking q s : same_core s (fst (release_panicking q s)).
Proof. exact (pres_release_panicking same_core same_core_refl same_core_trans same_core_transfers same_core_sync q s). Qed.
Lemma corep_vsi q m : corep (validate_same_iteration q m).
Proof. exact (pres_vsi same_core same_core_refl same_core_trans corep_peek_claim q m). Qed.
Lemma corep_outer_cycle heads me : corep (outer_cycle heads me).
Proof. exact (pres_outer_cycle same_core same_core_refl same_core_trans corep_peek_claim heads me). Qed.

Lemma corep_push q : corep (push_query q).
Proof. apply (pres_modify same_core). intros s. now repeat split. Qed.
Lemma corep_pop : corep pop_query.
Proof. apply (pres_modify same_core). intros s. now repeat split. Qed.
Lemma corep_emit e : corep (cemit e).
Proof. apply (pres_modify same_core). intros s. now repeat split. Qed.

End Wp.

(* ---------------------------------------------------------------- steps that write memos *)
Section Memo.
Context {E : ectx}.
Notation prog := (@eprog E).
Notation strat := (@estrat E).
Notation cinit := (@ecinit E).

Lemma gwp_put s0 q m (R : cdb -> unit -> Prop) s :
  SI s -> ext s0 s -> stamp_wf (iter_of m) -> cm_verified m <= ccur s ->
  (cm_final m = false -> cm_verified m = ccur s -> stamp_ccount (iter_of m) <= c_ccount s) ->
  (cm_final m = false -> raw_heads m <> []) ->
  (cur_memo s m -> cm_final m = false -> heads_ok (put s q m) (raw_heads m)) ->
  (rcv q -> head_memo_ok s m) ->
  R (put s q m) tt -> gwp s0 (put_memo q m) R s.
Proof.
  intros HS He H1 H2 H3 H4 H4' H5 HR. destruct (put_SI s q m HS H1 H2 H3 H4 H4' H5) as [HS' He'].
  unfold put_memo. apply gwp_modify; [exact HS' | eapply ext_trans; eassumption | exact HR].
Qed.

Lemma gwp_put_cur s0 q m (R : cdb -> unit -> Prop) s :
  SI s -> ext s0 s -> stamp_wf (iter_of m) -> cur_memo s m ->
  (cm_final m = false -> raw_heads m <> []) ->
  (cm_final m = false -> heads_ok (put s q m) (raw_heads m)) ->
  R (put s q m) tt -> gwp s0 (put_memo q m) R s.
Proof.
  intros HS He Hw Hcm Hne Hh HR. destruct (put_SI_cur s q m HS Hw Hcm Hne Hh) as [HS' He'].
  unfold put_memo. apply gwp_modify; [exact HS' | eapply ext_trans; eassumption | exact HR].
Qed.

(* putting a final memo *)
Lemma gwp_put_final s0 q m (R : cdb -> unit -> Prop) s :
  SI s -> ext s0 s -> cm_final m = true -> stamp_wf (iter_of m) -> cm_verified m <= ccur s ->
  R (put s q m) tt -> gwp s0 (put_memo q m) R s.
Proof.
  intros HS He Hf Hw Hv HR. apply gwp_put; try assumption.
  - intros H. congruence.
  - intros H. congruence.
  - intros _ H. congruence.
  - intros _. now left.
Qed.

Lemma iter_of_with_verified m r : iter_of (with_verified m r) = iter_of m.
Proof. reflexivity. Qed.
Lemma iter_of_with_final m b : iter_of (with_final m b) = iter_of m.
Proof. reflexivity. Qed.

Lemma same_core_cur s s' : same_core s s' -> ccur s' = ccur s /\ c_ccount s' = c_ccount s.
Proof. intros (_ & Hr & Hc). unfold ccur. now rewrite Hr. Qed.

Lemma gwp_mark_verified s0 q m s :
  SI s -> ext s0 s -> cm_final m = true -> stamp_wf (iter_of m) ->
  gwp s0 (cmark_verified q m) (fun s' m' => cm_final m' = true /\ stamp_wf (iter_of m')) s.
Proof.
  intros HS He Hf Hw. unfold cmark_verified. apply gwp_bind_get.
  unfold cemit. apply gwp_bind_modify.
  set (s2 := cset_log s _).
  assert (Hc2 : same_core s s2) by (now repeat split).
  destruct (same_core_SI s s2 Hc2 HS) as [HS2 He2'].
  assert (He2 : ext s0 s2) by (eapply ext_trans; eassumption).
  eapply gwp_bind.
  { apply (gwp_put_final s0 q (with_verified m (ccur s)) (fun _ _ => True) s2 HS2 He2 Hf Hw); [| exact I].
    cbn. apply N.le_refl. }
  intros s3 [] HS3 He3 _. apply gwp_ret; [exact HS3 | exact He3 |]. now split.
Qed.

Lemma gwp_update_shallow s0 q m u s :
  SI s -> ext s0 s -> cm_final m = true -> stamp_wf (iter_of m) ->
  gwp s0 (cupdate_shallow q m u) (fun s' m' => cm_final m' = true /\ stamp_wf (iter_of m')) s.
Proof.
  intros HS He Hf Hw. destruct u; cbn [cupdate_shallow].
  - apply gwp_ret; [exact HS | exact He | now split].
  - now apply gwp_mark_verified.
  - apply gwp_ret; [exact HS | exact He | now split].
Qed.

Lemma vsi_true q m s : snd (validate_same_iteration q m s) = COk true -> cm_verified m = ccur s.
Proof.
  unfold validate_same_iteration, cbind, cget. destruct (N.eqb_spec (cm_verified m) (ccur s)) as [He | Hne]; [intros _; exact He |].
  cbn. intros H. discriminate.
Qed.

Lemma heads_of_final m : cm_final m = true -> heads_of m = [].
Proof. intros H. unfold heads_of. now rewrite H. Qed.
Lemma heads_of_prov m : cm_final m = false -> heads_of m = raw_heads m.
Proof. intros H. unfold heads_of. now rewrite H. Qed.

Lemma heads_ok_nil s : heads_ok s [].
Proof. intros hd []. Qed.

Lemma gwp_validate_provisional s0 q m s :
  SI s -> ext s0 s -> stamp_wf (iter_of m) -> cm_verified m <= ccur s ->
  gwp s0 (validate_provisional q m)
      (fun s' r => stamp_wf (iter_of (snd r)) /\ cm_verified (snd r) = cm_verified m /\
                   (fst r = true -> cm_final (snd r) = true) /\ (fst r = false -> snd r = m)) s.
Proof.
  intros HS He Hw Hv. unfold validate_provisional. apply gwp_bind_get.
  destruct (heads_all_final s (cm_verified m) (heads_of m)).
  - eapply gwp_bind.
    { apply (gwp_put_final s0 q (with_final m true) (fun _ _ => True) s HS He); try reflexivity; assumption || exact I. }
    intros s2 [] HS2 He2 _. apply gwp_ret; [exact HS2 | exact He2 |]. cbn.
    split; [exact Hw |]. split; [reflexivity |]. split; [reflexivity | discriminate].
  - apply gwp_ret; [exact HS | exact He |]. cbn.
    split; [exact Hw |]. split; [reflexivity |]. split; [discriminate | reflexivity].
Qed.

(* what the table guarantees about a memo read from it *)
Definition tbl_memo (s : cdb) (m : cmemo) : Prop :=
  stamp_wf (iter_of m) /\ cm_verified m <= ccur s /\ (cm_final m = false -> raw_heads m <> []) /\
  (cur_memo s m -> cm_final m = false -> heads_ok s (raw_heads m)).

Lemma tbl_memo_of s q m : SI s -> c_memo s q = Some m -> tbl_memo s m.
Proof.
  intros [_ H] Hm. destruct (H q m Hm) as [H1 H2 H3 H4 H5].
  split; [exact H1 |]. split; [exact H2 |]. split; [exact H4 | exact H5].
Qed.

(* The clause "final or verified now" of an accepted memo is there for the caller that goes on
   with [CShHigher]: that outcome means the memo was NOT verified now, so the accepted memo is
   final, which is what [cupdate_shallow] needs. *)
Lemma gwp_vmbp s0 q m s :
  SI s -> ext s0 s -> tbl_memo s m ->
  gwp s0 (validate_may_be_provisional q m)
      (fun s' r => stamp_wf (iter_of (snd r)) /\ cm_verified (snd r) = cm_verified m /\
                   (fst r = true -> heads_ok s' (heads_of (snd r)) /\
                                    (cm_final (snd r) = true \/ cm_verified (snd r) = ccur s')) /\
                   (fst r = false -> snd r = m)) s.
Proof.
  intros HS He0 (Hw & Hv & Hne & Hh). apply (gwp_ref s s0 _ _ _ He0). assert (He := ext_refl s).
  unfold validate_may_be_provisional.
  destruct (cm_final m) eqn:Hf.
  { apply gwp_ret; [exact HS | exact He |]. cbn. split; [exact Hw |]. split; [reflexivity |]. split; [| discriminate].
    intros _. split; [rewrite (heads_of_final m Hf); apply heads_ok_nil | now left]. }
  rewrite (heads_of_prov m Hf). destruct (raw_heads m) as [| h0 hs0] eqn:Hrh; [now destruct (Hne eq_refl) |].
  apply gwp_bind_get.
  destruct (N.eqb_spec (stamp_ccount (iter_of m)) (c_ccount s)) as [Hcc | Hcc]; cbn [negb].
  2: { (* another cancellation epoch: rejected, the memo is returned as it was *)
       apply gwp_ret; [exact HS | exact He |]. cbn. split; [exact Hw |]. split; [reflexivity |]. split; [discriminate | reflexivity]. }
  eapply gwp_bind; [apply (gwp_validate_provisional s q m s HS He Hw Hv) |].
  intros s1 [b m1] HS1 He1 (Hw1 & Hv1 & Ht1 & Hf1). cbn [fst snd] in *.
  destruct b.
  - apply gwp_ret; [exact HS1 | exact He1 |]. cbn. split; [exact Hw1 |]. split; [exact Hv1 |]. split; [| discriminate].
    intros _. specialize (Ht1 eq_refl). split; [rewrite (heads_of_final m1 Ht1); apply heads_ok_nil | now left].
  - specialize (Hf1 eq_refl). subst m1.
    eapply gwp_bind.
    { apply (gwp_corep_res s (validate_same_iteration q m) (fun b => b = true -> cm_verified m = ccur s1) s1
               (corep_vsi q m) HS1 He1).
      intros b Hb ->. now apply (vsi_true q m s1). }
    intros s2 b HS2 He2 (Hc2 & Hb). apply gwp_ret; [exact HS2 | exact He2 |]. cbn [fst snd].
    split; [exact Hw |]. split; [reflexivity |]. split; [| reflexivity]. intros ->. specialize (Hb eq_refl).
    destruct (same_core_cur _ _ Hc2) as [Hcur2 Hcc2].
    assert (Hcur1 : ccur s1 = ccur s) by apply He1.
    split; [| right; congruence].
    rewrite (heads_of_prov m Hf), Hrh. apply (heads_ok_ext s s2 _ He2). apply Hh; [| reflexivity].
    split; [congruence | exact Hcc].
Qed.

(* ---------------------------------------------------------------- given the lower level *)
Definition Lfetch_ok (L : clower) : Prop :=
  forall s0 q s, SI s -> ext s0 s -> gwp s0 (cl_fetch L q) (fun s' r => heads_ok s' (snd r)) s.
Definition Lmca_ok (L : clower) : Prop :=
  forall s0 q since s, SI s -> ext s0 s -> gwp s0 (cl_mca L q since) (fun _ _ => True) s.

Section Lower.
Variable L : clower.
Hypothesis HLf : Lfetch_ok L.
Hypothesis HLm : Lmca_ok L.

Lemma gwp_walk_edges s0 es since : forall s, SI s -> ext s0 s ->
  gwp s0 (cwalk_edges L es since) (fun _ _ => True) s.
Proof.
  induction es as [| e es IH]; intros s HS He; cbn [cwalk_edges].
  - apply gwp_ret; [exact HS | exact He | exact I].
  - destruct e as [i | q].
    + apply gwp_bind_get. destruct (changed_after (f_changed (c_in s i)) since).
      * apply gwp_ret; [exact HS | exact He | exact I].
      * now apply IH.
    + eapply gwp_bind; [apply (HLm s0 q since s HS He) |]. intros s1 c HS1 He1 _.
      destruct c; [apply gwp_ret; [exact HS1 | exact He1 | exact I] | now apply IH].
Qed.

Lemma gwp_deep_verify s0 q m s :
  SI s -> ext s0 s -> stamp_wf (iter_of m) ->
  gwp s0 (cdeep_verify strat L q m)
      (fun s' r => stamp_wf (iter_of (snd r)) /\ (fst r = true -> cm_final (snd r) = true)) s.
Proof.
  intros HS He Hw. unfold cdeep_verify.
  assert (Hno : gwp s0 (cret (false, m))
                  (fun s' r => stamp_wf (iter_of (snd r)) /\ (fst r = true -> cm_final (snd r) = true)) s).
  { apply gwp_ret; [exact HS | exact He |]. cbn. split; [exact Hw | discriminate]. }
  destruct (cm_untracked m); [exact Hno |].
  destruct (cm_final m) eqn:Hf; cbn [negb]; [| exact Hno].
  destruct (negb (recovers (strat_of strat q)) && negb match raw_heads m with [] => true | _ :: _ => false end); [exact Hno |].
  eapply gwp_bind; [apply (gwp_walk_edges s0 (cm_edges m) (cm_verified m) s HS He) |].
  intros s1 c HS1 He1 _. destruct c.
  - apply gwp_ret; [exact HS1 | exact He1 |]. cbn. split; [exact Hw | discriminate].
  - eapply gwp_bind; [apply (gwp_mark_verified s0 q m s1 HS1 He1 Hf Hw) |].
    intros s2 m' HS2 He2 (Hf' & Hw'). apply gwp_ret; [exact HS2 | exact He2 |]. cbn. now split.
Qed.

Lemma shallow_higher s m : cshallow_verify s m = CShHigher -> cm_verified m <> ccur s.
Proof.
  unfold cshallow_verify. destruct (N.eqb_spec (cm_verified m) (ccur s)) as [He | Hne]; [discriminate | intros _; exact Hne].
Qed.

Lemma gwp_upd_sh s0 q m1 u s :
  SI s -> ext s0 s -> stamp_wf (iter_of m1) -> heads_ok s (heads_of m1) ->
  (u = CShHigher -> cm_final m1 = true) ->
  gwp s0 (cupdate_shallow q m1 u) (fun s' m' => stamp_wf (iter_of m') /\ heads_ok s' (heads_of m')) s.
Proof.
  intros HS He Hw Hh Hu. destruct u; cbn [cupdate_shallow].
  - apply gwp_ret; [exact HS | exact He | now split].
  - eapply gwp_conseq; [apply (gwp_mark_verified s0 q m1 s HS He (Hu eq_refl) Hw) |].
    intros s' m' _ _ (Hf & Hw'). split; [exact Hw' |]. rewrite (heads_of_final _ Hf). apply heads_ok_nil.
  - apply gwp_ret; [exact HS | exact He | now split].
Qed.

Lemma gwp_verify_memo s0 q m s :
  SI s -> ext s0 s -> tbl_memo s m ->
  gwp s0 (cverify_memo strat L q m)
      (fun s' r => stamp_wf (iter_of (snd r)) /\ (fst r = true -> heads_ok s' (heads_of (snd r)))) s.
Proof.
  intros HS He0 Ht. apply (gwp_ref s s0 _ _ _ He0). assert (He := ext_refl s).
  assert (Hw : stamp_wf (iter_of m)) by apply Ht.
  unfold cverify_memo. apply gwp_bind_get.
  assert (Hdeep : forall s1 m1, SI s1 -> ext s s1 -> stamp_wf (iter_of m1) ->
            gwp s (cdeep_verify strat L q m1)
              (fun s' r => stamp_wf (iter_of (snd r)) /\ (fst r = true -> heads_ok s' (heads_of (snd r)))) s1).
  { intros s1 m1 HS1 He1 Hw1. eapply gwp_conseq; [apply (gwp_deep_verify s q m1 s1 HS1 He1 Hw1) |].
    intros s' r _ _ (H1 & H2). split; [exact H1 |]. intros Hb. rewrite (heads_of_final _ (H2 Hb)). apply heads_ok_nil. }
  assert (Hval : forall u, (u = CShHigher -> cm_verified m <> ccur s) ->
            gwp s (r <- validate_may_be_provisional q m ;;
                   if fst r then m' <- cupdate_shallow q (snd r) u ;; cret (true, m')
                   else cdeep_verify strat L q (snd r))
              (fun s' r => stamp_wf (iter_of (snd r)) /\ (fst r = true -> heads_ok s' (heads_of (snd r)))) s).
  { intros u Hu. eapply gwp_bind; [apply (gwp_vmbp s q m s HS He Ht) |].
    intros s1 [b m1] HS1 He1 (Hw1 & Hv1 & Ht1 & Hf1). cbn [fst snd] in *. destruct b.
    - destruct (Ht1 eq_refl) as [Hh1 Hk1].
      eapply gwp_bind.
      { apply (gwp_upd_sh s q m1 u s1 HS1 He1 Hw1 Hh1). intros ->.
        destruct Hk1 as [Hk1 | Hk1]; [exact Hk1 |]. exfalso. apply (Hu eq_refl).
        rewrite <- Hv1, Hk1. apply He1. }
      intros s2 m2 HS2 He2 (Hw2 & Hh2). apply gwp_ret; [exact HS2 | exact He2 |]. cbn. now split.
    - apply Hdeep; assumption. }
  destruct (cshallow_verify s m) eqn:Hsh.
  - apply Hval. discriminate.
  - apply Hval. intros _. now apply shallow_higher.
  - now apply Hdeep.
Qed.

Lemma gwp_fetch_hot s0 q s :
  SI s -> ext s0 s ->
  gwp s0 (cfetch_hot q) (fun s' r => forall m, r = Some m -> stamp_wf (iter_of m) /\ cm_final m = true) s.
Proof.
  intros HS He. unfold cfetch_hot. apply gwp_bind_get.
  assert (Hnone : gwp s0 (cret None)
                    (fun s' r => forall m, r = Some m -> stamp_wf (iter_of m) /\ cm_final m = true) s).
  { apply gwp_ret; [exact HS | exact He |]. intros m Hm. discriminate. }
  destruct (c_memo s q) as [m |] eqn:Hm; [| exact Hnone].
  destruct (cm_val m); [| exact Hnone].
  assert (Hw : stamp_wf (iter_of m)) by apply (tbl_memo_of s q m HS Hm).
  destruct (cshallow_verify s m); try exact Hnone; (destruct (cm_final m) eqn:Hf; [| exact Hnone]).
  - eapply gwp_bind; [apply (gwp_update_shallow s0 q m CShVerified s HS He Hf Hw) |].
    intros s1 m' HS1 He1 (Hf' & Hw'). apply gwp_ret; [exact HS1 | exact He1 |].
    intros m0 Hm0. injection Hm0 as <-. now split.
  - eapply gwp_bind; [apply (gwp_update_shallow s0 q m CShHigher s HS He Hf Hw) |].
    intros s1 m' HS1 He1 (Hf' & Hw'). apply gwp_ret; [exact HS1 | exact He1 |].
    intros m0 Hm0. injection Hm0 as <-. now split.
Qed.

(* ---------------------------------------------------------------- running a body *)
Lemma gwp_run_body : forall b s0 fr s, SI s -> ext s0 s -> heads_ok s (fr_heads fr) ->
  gwp s0 (crun_body L b fr) (fun s' r => heads_ok s' (fr_heads (snd r))) s.
Proof.
  induction b as [v | i k IH | d k IH | c k IH | k IH | c k IH]; intros s0 fr s HS He0 Hfr;
    apply (gwp_ref s s0 _ _ _ He0); assert (He := ext_refl s); cbn [crun_body].
  - apply gwp_ret; [exact HS | exact He | exact Hfr].
  - apply gwp_bind_get. apply IH; [exact HS | exact He | exact Hfr].
  - eapply gwp_bind; [apply (HLf s d s HS He) |].
    intros s1 [[[v du] ch] hs] HS1 He1 Hhs. cbn [snd] in Hhs.
    destruct (cadd_read fr (EQ d) du ch hs) as [fr' |] eqn:Hadd; [| apply gwp_fail; assumption].
    apply IH; [exact HS1 | exact He1 |].
    unfold cadd_read in Hadd. destruct (heads_extend (fr_heads fr) hs) as [hs' |] eqn:Hx; [| discriminate].
    injection Hadd as <-. cbn [fr_heads]. intros x Hxin.
    destruct (heads_extend_in _ _ _ Hx x Hxin) as [H1 | H1].
    + apply (hd_ok_ext s s1 x He1), Hfr, H1.
    + now apply Hhs.
  - apply gwp_bind_get. apply IH; [exact HS | exact He | exact Hfr].
  - apply gwp_bind_get. apply IH; [exact HS | exact He | exact Hfr].
  - apply gwp_bind_get. destruct (c_pcell s c =? 0); [apply IH; [exact HS | exact He | exact Hfr] | apply gwp_fail; assumption].
Qed.

Lemma gwp_run_query s0 q seed s : SI s -> ext s0 s ->
  gwp s0 (run_query prog L q seed) (fun s' r => heads_ok s' (fr_heads (snd r))) s.
Proof.
  intros HS He. unfold run_query. apply gwp_bind_get.
  unfold push_query. apply gwp_bind_modify. apply gwp_bind_modify.
  set (s1 := cset_runs _ _).
  assert (Hc1 : same_core s s1) by (now repeat split).
  destruct (same_core_SI s s1 Hc1 HS) as [HS1 He1'].
  assert (He1 : ext s0 s1) by (eapply ext_trans; eassumption).
  apply gwp_on_panic.
  - apply gwp_run_body; [exact HS1 | exact He1 |].
    destruct seed as [m |]; [destruct (negb (cm_final m) && (cm_verified m =? ccur s)) |]; apply heads_ok_nil.
  - intros s2 HS2 He2. destruct (same_core_SI s2 _ (corep_pop s2) HS2) as [H1 H2].
    split; [exact H1 | eapply ext_trans; eassumption].
Qed.

End Lower.

End Memo.

Section Fetch.
Context {E : ectx}.
Notation prog := (@eprog E).
Notation strat := (@estrat E).
Notation cinit := (@ecinit E).

Definition live_key (s : cdb) (me k : qkey) : Prop :=
  k = me \/ exists m, c_memo s k = Some m /\ cm_final m = false /\ cur_memo s m.

Definition acc_ok (s : cdb) (acc : coll) : Prop :=
  let '(missing, mx, dep) := acc in heads_ok s missing /\ goodst s mx.

Definition acc_live (s : cdb) (me : qkey) (old : list head) (acc : coll) : Prop :=
  let '(missing, mx, dep) := acc in forall hd, In hd missing -> In hd old \/ live_key s me (fst hd).

Lemma hd_goodst s hd : hd_ok s hd -> goodst s (snd hd).
Proof. intros (Hw & Hc & _). right. now split. Qed.

Lemma collect_rec_ok s me query_heads : SI s ->
  forall n cur_head acc,
    (cur_head = me \/ exists it0, hd_ok s (cur_head, it0)) -> acc_ok s acc ->
    exists r, collect_recursive n cur_head me query_heads acc s = (s, r) /\
    forall acc', r = COk acc' ->
      acc_ok s acc' /\ live_key s me cur_head /\ acc_live s me (fst (fst acc)) acc'.
Proof.
  intros HS. induction n as [| n IH]; intros cur_head acc Hcur Hacc.
  - eexists. split; [reflexivity | intros acc' H; discriminate].
  - rewrite collect_recursive_S. destruct (key_eqb_spec cur_head me) as [Heq | Hne].
    + destruct acc as [[missing mx] dep]. eexists. split; [reflexivity |]. intros acc' H. injection H as <-.
      split; [exact Hacc |]. split; [now left |]. intros hd Hhd. now left.
    + destruct Hcur as [Heq | (it0 & Hw & Hc & Hr & mh & Hmh & Hok)]; [contradiction |]. cbn [fst] in *.
      unfold key_status. rewrite Hmh. unfold status_of.
      destruct (cm_val mh) as [v |] eqn:Hv.
      2: { (* a memo without a value: the closure panics *)
           destruct (cm_final mh); (eexists; split; [reflexivity | intros acc' H; discriminate]). }
      destruct (cm_final mh) eqn:Hf; [eexists; split; [reflexivity | intros acc' H; discriminate] |].
      assert (Hcm : cur_memo s mh).
      { destruct Hok as [Hx | [Hx | Hx]]; [congruence | congruence | exact Hx]. }
      assert (Hlive : live_key s me cur_head).
      { right. exists mh. split; [exact Hmh |]. split; [exact Hf | exact Hcm]. }
      (* over the heads of the memo: the accumulator stays good, and what it gained is live *)
      destruct (collect_heads_reads (fun k a => collect_recursive n k me query_heads a) query_heads s (hd_ok s)
                  (fun a => acc_ok s a /\ acc_live s me (fst (fst acc)) a)) with (hs := heads_of mh) (acc := acc)
        as (r & Hrun & Hres).
      * intros missing mx dep h [[Hm Hg] Hlv] Hh. split; [| exact Hlv].
        split; [exact Hm | apply goodst_max; [exact Hg | now apply hd_goodst]].
      * intros missing mx dep h [[Hm Hg] Hlv] Hh.
        destruct (IH (fst h) (missing ++ [h], N.max mx (snd h), dep)) as (r1 & Hr1 & Hres1).
        { right. exists (snd h). destruct h. exact Hh. }
        { split; [| apply goodst_max; [exact Hg | now apply hd_goodst]].
          intros x Hx. apply in_app_or in Hx as [Hx | [<- | []]]; [now apply Hm | exact Hh]. }
        exists r1. split; [exact Hr1 |]. intros acc1 Ha. destruct (Hres1 acc1 Ha) as (Hok1 & Hlk1 & Hlv1).
        split; [exact Hok1 |]. destruct acc1 as [[missing1 mx1] dep1]. intros hd Hhd.
        destruct (Hlv1 hd Hhd) as [Hin | Hl]; [| now right].
        cbn [fst] in Hin. apply in_app_or in Hin as [Hin | [<- | []]]; [now apply Hlv | now right].
      * rewrite (heads_of_prov mh Hf). destruct HS as [_ Hall]. now apply (ms_heads _ _ (Hall cur_head mh Hmh)).
      * split; [exact Hacc |]. destruct acc as [[missing mx] dep]. intros hd Hhd. now left.
      * exists r. split; [exact Hrun |]. intros acc' Ha. destruct (Hres acc' Ha) as [H1 H2].
        split; [exact H1 |]. split; [exact Hlive | exact H2].
Qed.

Lemma heads_insert_nonempty hs q it hs' : heads_insert hs q it = Some hs' -> hs' <> [].
Proof.
  unfold heads_insert. destruct (heads_find hs q) as [it' |] eqn:Hf.
  - destruct (it' =? it); [| discriminate]. intros H. injection H as <-.
    destruct hs; [discriminate | discriminate].
  - intros H. injection H as <-. destruct hs; discriminate.
Qed.

Lemma insert_missing_nonempty missing : forall hs hs', insert_missing hs missing = Some hs' ->
  hs <> [] -> hs' <> [].
Proof.
  induction missing as [| h o IH]; intros hs hs' H Hne; cbn [insert_missing] in H.
  - injection H as <-. exact Hne.
  - destruct (heads_insert hs (fst h) (snd h)) as [hs1 |] eqn:Hi; [| discriminate].
    apply (IH hs1 hs' H). eapply heads_insert_nonempty; eassumption.
Qed.

Definition collect_post (s : cdb) (me : qkey) (heads0 : list head) (r : list head * stamp * bool) : Prop :=
  let '(heads, hm, dep) := r in
  heads_ok s heads /\ goodst s hm /\ (heads0 <> [] -> heads <> []) /\
  (forall hd, In hd heads -> live_key s me (fst hd)).

Lemma collect_all_ok s n heads0 me : SI s -> heads_ok s heads0 ->
  exists r, collect_all_cycle_heads n heads0 me s = (s, r) /\
            forall x, r = COk x -> collect_post s me heads0 x.
Proof.
  intros HS Hh0.
  destruct (collect_all_reads n heads0 me s (hd_ok s) (fun h => live_key s me (fst h))
              (fun a => acc_ok s a /\ forall hd, In hd (fst (fst a)) -> live_key s me (fst hd)))
    as (r & Hr & Hres).
  - intros h acc Hh [Hacc Hlv].
    destruct (collect_rec_ok s me heads0 HS n (fst h) acc) as (r1 & Hr1 & Hres1).
    { right. exists (snd h). destruct h. exact Hh. }
    { exact Hacc. }
    exists r1. split; [exact Hr1 |]. intros acc1 Ha. destruct (Hres1 acc1 Ha) as (Hok1 & Hlk1 & Hlv1).
    split; [| exact Hlk1]. split; [exact Hok1 |]. destruct acc1 as [[m1 x1] d1]. cbn [fst]. intros hd Hhd.
    destruct (Hlv1 hd Hhd) as [Hin | Hx]; [now apply Hlv | exact Hx].
  - exact Hh0.
  - split; [split; [apply heads_ok_nil | now left] | intros hd []].
  - exists r. split; [exact Hr |]. intros [[hs mx] dep] Hx.
    destruct (Hres hs mx dep Hx) as (missing & [[Hm Hg] Hlm] & Hins & Hl0). cbn [fst] in Hlm.
    split; [| split; [exact Hg | split]].
    + intros hd Hhd. destruct (insert_missing_in _ _ _ Hins hd Hhd) as [H1 | H1]; [now apply Hh0 | now apply Hm].
    + intros Hne. eapply insert_missing_nonempty; eassumption.
    + intros hd Hhd. destruct (insert_missing_in _ _ _ Hins hd Hhd) as [H1 | H1]; [now apply Hl0 | now apply Hlm].
Qed.

Lemma gwp_collect s0 n heads0 me s : SI s -> ext s0 s -> heads_ok s heads0 ->
  gwp s0 (collect_all_cycle_heads n heads0 me) (fun s' r => s' = s /\ collect_post s me heads0 r) s.
Proof.
  intros HS He Hh. destruct (collect_all_ok s n heads0 me HS Hh) as (r & Hr & Hres).
  unfold gwp. rewrite Hr. cbn [fst snd]. split; [exact HS |]. split; [exact He |].
  intros a Ha. split; [reflexivity | now apply Hres].
Qed.

Lemma corep_complete n fr it : corep (complete_cycle_query strat n fr it).
Proof.
  unfold complete_cycle_query. apply (pres_bind same_core same_core_trans); [apply (pres_get same_core same_core_refl) |].
  intros s. apply (pres_bind same_core same_core_trans); [apply corep_pop | intros; apply (pres_ret same_core same_core_refl)].
Qed.

Definition mstep (f : qkey -> cmemo -> cmemo) (mm : qkey -> option cmemo) (h : head) : qkey -> option cmemo :=
  match mm (fst h) with
  | Some m => upd mm (fst h) (Some (f (fst h) m))
  | None => mm
  end.

Lemma cset_memo_id s : cset_memo s (c_memo s) = s.
Proof. destruct s; reflexivity. Qed.

Lemma fold_final l : forall s, SI s ->
  SI (cset_memo s (fold_left (mstep (fun _ m => with_final m true)) l (c_memo s))) /\
  ext s (cset_memo s (fold_left (mstep (fun _ m => with_final m true)) l (c_memo s))).
Proof.
  induction l as [| h l IH]; intros s HS; cbn [fold_left].
  - rewrite cset_memo_id. split; [exact HS | apply ext_refl].
  - destruct (c_memo s (fst h)) as [m |] eqn:Hm.
    + assert (Hstep : mstep (fun _ m => with_final m true) (c_memo s) h
                      = upd (c_memo s) (fst h) (Some (with_final m true))) by (unfold mstep; now rewrite Hm).
      rewrite Hstep.
      destruct (tbl_memo_of s (fst h) m HS Hm) as (Hw & Hv & _).
      destruct (put_SI s (fst h) (with_final m true) HS Hw Hv) as [HS1 He1].
      * intros H. discriminate.
      * intros H. discriminate.
      * intros _ H. discriminate.
      * intros _. now left.
      * destruct (IH (put s (fst h) (with_final m true)) HS1) as [H1 H2].
        split; [exact H1 | eapply ext_trans; [exact He1 | exact H2]].
    + assert (Hstep : mstep (fun _ m => with_final m true) (c_memo s) h = c_memo s) by (unfold mstep; now rewrite Hm).
      rewrite Hstep. now apply IH.
Qed.

Definition live_rcv (s : cdb) (k : qkey) : Prop :=
  rcv k /\ exists m, c_memo s k = Some m /\ cm_final m = false /\ cur_memo s m.

Lemma heads_update_in hs k it x : In x (heads_update hs k it) ->
  x = (k, it) \/ In x hs.
Proof.
  unfold heads_update. intros H. apply in_map_iff in H as (y & Hy & Hin).
  destruct (key_eqb_spec (fst y) k) as [Hk | Hk]; [left; rewrite <- Hy, Hk; reflexivity | right; now rewrite <- Hy].
Qed.

Lemma step_iter s k m it' :
  SI s -> stamp_wf it' -> stamp_ccount it' = c_ccount s -> rcv k ->
  c_memo s k = Some m -> cm_final m = false -> cur_memo s m ->
  SI (put s k (with_iteration_count m k it')) /\ ext s (put s k (with_iteration_count m k it')) /\
  cm_final (with_iteration_count m k it') = false /\ cur_memo s (with_iteration_count m k it').
Proof.
  intros HS Hw Hc Hr Hm Hf Hcm.
  destruct HS as [Hlt Hall]. assert (HS : SI s) by (split; assumption).
  destruct (Hall k m Hm) as [M1 M2 M3 M4 M5].
  set (m2 := with_iteration_count m k it').
  assert (Hf2 : cm_final m2 = false).
  { unfold m2, with_iteration_count. destruct (cm_extra m); [exact Hf | exact Hf]. }
  assert (Hv2 : cm_verified m2 = cm_verified m).
  { unfold m2, with_iteration_count. destruct (cm_extra m); reflexivity. }
  assert (Hi2 : iter_of m2 = it' \/ (m2 = m)).
  { unfold m2, with_iteration_count, iter_of. destruct (cm_extra m); [now left | now right]. }
  assert (Hcm2 : cur_memo s m2).
  { destruct Hcm as [Hc1 Hc2]. split; [congruence |]. destruct Hi2 as [-> | ->]; [exact Hc | exact Hc2]. }
  destruct (put_SI_cur s k m2 HS) as [HS1 He1].
  - destruct Hi2 as [-> | ->]; [exact Hw | exact M1].
  - exact Hcm2.
  - intros _. unfold m2, with_iteration_count, raw_heads. destruct (cm_extra m) eqn:He.
    + cbn. specialize (M4 Hf). unfold raw_heads in M4. rewrite He in M4.
      destruct (cm_heads m); [contradiction | discriminate].
    + specialize (M4 Hf). unfold raw_heads in M4. rewrite He in M4. contradiction.
  - intros _ x Hx. unfold m2, with_iteration_count, raw_heads in Hx. destruct (cm_extra m) eqn:He.
    + cbn in Hx. destruct (heads_update_in _ _ _ _ Hx) as [-> | Hin].
      * apply hd_ok_put_self; [assumption | assumption | assumption | right; right; exact Hcm2].
      * apply (hd_ok_ext s _ _ (put_ext s k m2 (fun _ => or_intror (or_intror Hcm2)))).
        apply (M5 Hcm Hf). unfold raw_heads. now rewrite He.
    + rewrite He in Hx. contradiction.
  - split; [exact HS1 |]. split; [exact He1 |]. split; [exact Hf2 | exact Hcm2].
Qed.

Lemma fold_iter it' l : forall s, SI s -> stamp_wf it' -> stamp_ccount it' = c_ccount s ->
  (forall h, In h l -> live_rcv s (fst h)) ->
  SI (cset_memo s (fold_left (mstep (fun h m => with_iteration_count m h it')) l (c_memo s))) /\
  ext s (cset_memo s (fold_left (mstep (fun h m => with_iteration_count m h it')) l (c_memo s))).
Proof.
  induction l as [| h l IH]; intros s HS Hw Hc Hl; cbn [fold_left].
  - rewrite cset_memo_id. split; [exact HS | apply ext_refl].
  - destruct (Hl h (or_introl eq_refl)) as (Hr & m & Hm & Hf & Hcm).
    assert (Hstep : mstep (fun h m => with_iteration_count m h it') (c_memo s) h
                    = upd (c_memo s) (fst h) (Some (with_iteration_count m (fst h) it'))) by (unfold mstep; now rewrite Hm).
    rewrite Hstep.
    destruct (step_iter s (fst h) m it' HS Hw Hc Hr Hm Hf Hcm) as (HS1 & He1 & Hf2 & Hcm2).
    destruct (IH (put s (fst h) (with_iteration_count m (fst h) it')) HS1 Hw Hc) as [H1 H2].
    + intros x Hx. destruct (Hl x (or_intror Hx)) as (Hrx & mx & Hmx & Hfx & Hcx).
      split; [exact Hrx |]. cbn. unfold upd. destruct (key_eqb_spec (fst h) (fst x)) as [Hk | Hk].
      * eexists. split; [reflexivity |]. split; [exact Hf2 | exact Hcm2].
      * exists mx. split; [exact Hmx |]. split; [exact Hfx | exact Hcx].
    + split; [exact H1 | eapply ext_trans; [exact He1 | exact H2]].
Qed.

Definition rev_ok (s : cdb) (rv : cmemo) : Prop :=
  stamp_wf (iter_of rv) /\
  (cm_final rv = false -> raw_heads rv <> [] /\ heads_ok s (raw_heads rv) /\ stamp_ccount (iter_of rv) <= c_ccount s).

Definition round_epost (q : qkey) (s' : cdb) (out : round_out) : Prop :=
  match out with
  | RDone v rv mode => rev_ok s' rv /\ (cm_final rv = false -> stamp_ccount (iter_of rv) = c_ccount s')
  | RIterate hm v rv heads =>
      goodst s' hm /\ heads_ok s' heads /\ heads <> [] /\
      (forall hd, In hd heads -> live_key s' q (fst hd))
  end.

Lemma complete_frame_wf fr es it b : stamp_wf it -> stamp_wf (iter_of (complete_frame fr es it b)).
Proof.
  intros Hw. unfold iter_of, complete_frame. cbn.
  destruct (b || negb (stamp_is_default it)); [exact Hw | apply stamp_default_wf].
Qed.

Lemma rev_ok_final s rv : cm_final rv = true -> stamp_wf (iter_of rv) -> rev_ok s rv.
Proof. intros Hf Hw. split; [exact Hw | intros H; congruence]. Qed.

Lemma same_core_heads s s' hs : same_core s s' -> SI s -> heads_ok s hs -> heads_ok s' hs.
Proof. intros Hc HS. destruct (same_core_SI s s' Hc HS) as [_ He]. now apply heads_ok_ext. Qed.

Lemma live_key_core q s s' k : same_core s s' -> live_key s q k -> live_key s' q k.
Proof.
  intros (Hm & Hr & Hc) [-> | (m & Hk & Hf & Hcu & Hcc)]; [now left |]. right. exists m.
  split; [now rewrite Hm |]. split; [exact Hf |]. split; [unfold ccur; now rewrite Hr | congruence].
Qed.

Lemma goodst_max_inv s ls hm : loop_inv (c_ccount s) ls -> goodst s hm ->
  stamp_wf (N.max (ls_iter ls) hm) /\ stamp_ccount (N.max (ls_iter ls) hm) = c_ccount s /\
  stamp_iteration (ls_iter ls) <= stamp_iteration (N.max (ls_iter ls) hm).
Proof.
  intros [Hw Hc] [-> | [Hgw Hgc]].
  - unfold stamp_default. rewrite N.max_0_r. split; [exact Hw |]. split; [exact Hc | apply N.le_refl].
  - destruct (stamp_max_wf (ls_iter ls) hm Hw Hgw) as (H1 & H2 & H3); [congruence |].
    split; [exact H1 |]. split; [congruence | exact H3].
Qed.

Lemma heads_update_nonempty hs k it : hs <> [] -> heads_update hs k it <> [].
Proof. destruct hs; [intros H; contradiction | intros _; discriminate]. Qed.

Lemma poison_ok s0 q s : SI s -> ext s0 s -> rcv q -> SI (fst (poison q s)) /\ ext s0 (fst (poison q s)).
Proof.
  intros HS He Hr. unfold poison. cbn [fst].
  destruct HS as [Hlt Hall]. assert (HS : SI s) by (split; assumption).
  destruct (stamp_initial_wf (c_ccount s) Hlt) as [Hw Hc].
  set (m := initial_memo q None (ccur s) (stamp_initial (c_ccount s))).
  assert (Hok : head_memo_ok s m) by (right; left; reflexivity).
  destruct (put_SI_cur s q m HS Hw) as [H1 H2].
  - split; [reflexivity | exact Hc].
  - intros _. discriminate.
  - intros _ x [<- | []]. now apply hd_ok_put_self.
  - split; [exact H1 | eapply ext_trans; eassumption].
Qed.

Section Next.
Variable q : qkey.
Hypothesis Hrq : rcv q.

Definition next_memo (s3 : cdb) (hs : list head) (it' : stamp) (v : val) (rv : cmemo) : cmemo :=
  with_value (with_final (with_heads rv (heads_update hs q it') it') false) (Some v) (ccur s3).
Definition next_mid (s1 : cdb) (hs : list head) (it' : stamp) : cdb :=
  let s2 := cset_log s1 (CEvIterate q (stamp_iteration it') :: c_log s1) in
  cset_memo s2 (fold_left (mstep (fun h m => with_iteration_count m h it')) (heads_not_eq hs q) (c_memo s2)).
Definition next_state (s1 : cdb) (hs : list head) (it' : stamp) (v : val) (rv : cmemo) : cdb :=
  put (next_mid s1 hs it') q (next_memo (next_mid s1 hs it') hs it' v rv).
Definition next_ls (s1 : cdb) (ls : lstate) (hs : list head) (it' : stamp) (v : val) (rv : cmemo) : lstate :=
  {| ls_iter := it'; ls_last := Some (next_memo (next_mid s1 hs it') hs it' v rv); ls_old := ls_old ls |}.

Lemma next_state_ok s1 ls hm v rv hs it' :
  SI s1 -> loop_inv (c_ccount s1) ls -> round_epost q s1 (RIterate hm v rv hs) ->
  stamp_increment (N.max (ls_iter ls) hm) = Some it' ->
  SI (next_state s1 hs it' v rv) /\ ext s1 (next_state s1 hs it' v rv) /\
  loop_inv (c_ccount (next_state s1 hs it' v rv)) (next_ls s1 ls hs it' v rv).
Proof.
  intros HS1 Hinv (Hg & Hho & Hnn & Hlv) Hi.
  destruct (goodst_max_inv s1 ls hm Hinv Hg) as (Hmw & Hmc & _).
  destruct (stamp_increment_wf _ _ Hmw Hi) as (Hw' & Hc' & _).
  unfold next_state, next_mid.
  set (s2 := cset_log s1 _).
  assert (Hc2 : same_core s1 s2) by (now repeat split).
  destruct (same_core_SI s1 s2 Hc2 HS1) as [HS2 He12].
  destruct (fold_iter it' (heads_not_eq hs q) s2 HS2 Hw') as [HS3 He23].
  { change (c_ccount s2) with (c_ccount s1). congruence. }
  { intros h Hh. unfold heads_not_eq in Hh. apply filter_In in Hh as [Hin Hne].
    apply Bool.negb_true_iff, key_eqb_neq in Hne.
    split; [apply (Hho h Hin) |].
    destruct (live_key_core q s1 s2 (fst h) Hc2 (Hlv h Hin)) as [Heq | Hx]; [contradiction | exact Hx]. }
  set (s3 := cset_memo s2 _) in *.
  assert (He13 : ext s1 s3) by (exact (ext_trans _ _ _ He12 He23)).
  assert (Hho3 : heads_ok s3 hs) by (apply (heads_ok_ext s1 s3 _ He13), Hho).
  assert (Hcc3 : c_ccount s3 = c_ccount s1) by apply He13.
  set (m := next_memo s3 hs it' v rv).
  assert (Hcm : cur_memo s3 m) by (split; [reflexivity | change (stamp_ccount it' = c_ccount s3); congruence]).
  destruct (put_SI_cur s3 q m HS3 Hw' Hcm) as [HS4 He34].
  - intros _. unfold m, next_memo. cbn. now apply heads_update_nonempty.
  - intros _ x Hx. unfold m, next_memo in Hx. cbn in Hx. destruct (heads_update_in _ _ _ _ Hx) as [-> | Hin].
    + apply hd_ok_put_self; [exact Hw' | congruence | exact Hrq | right; right; exact Hcm].
    + apply (hd_ok_ext s3 _ _ (put_ext s3 q m (fun _ => or_intror (or_intror Hcm)))). now apply Hho3.
  - split; [exact HS4 |]. split; [exact (ext_trans _ _ _ He13 He34) |].
    split; cbn [next_ls ls_iter]; [exact Hw' |].
    change (stamp_ccount it' = c_ccount s3). congruence.
Qed.

End Next.

Section Level.
Variable L : clower.
Hypothesis HLf : Lfetch_ok L.
Hypothesis HLm : Lmca_ok L.
Variable n : nat.

Lemma gwp_round q s0 ls s :
  SI s -> ext s0 s -> loop_inv (c_ccount s) ls ->
  gwp s0 (round prog strat cinit n L q ls) (round_epost q) s.
Proof.
  intros HS He0 [Hlw Hlc]. apply (gwp_ref s s0 _ _ _ He0). assert (He := ext_refl s).
  unfold round.
  eapply gwp_bind; [apply (gwp_run_query L HLf s q _ s HS He) |].
  intros s1 [v fr] HS1 He1 Hfr. cbn [snd] in Hfr.
  assert (Hcc1 : c_ccount s1 = c_ccount s) by apply He1.
  assert (Hpop : forall s2, SI s2 -> ext s s2 -> SI (fst (pop_query s2)) /\ ext s (fst (pop_query s2))).
  { intros s2 HS2 He2. destruct (same_core_SI s2 _ (corep_pop s2) HS2) as [H1 H2].
    split; [exact H1 | eapply ext_trans; eassumption]. }
  destruct (fr_heads fr) as [| h0 hs0] eqn:Hh.
  - (* no heads *)
    assert (Hfin : forall it', stamp_wf it' ->
              gwp s (pop_query ;;; cret (RDone v (complete_frame fr (fr_edges fr) it' false) RDefault)) (round_epost q) s1).
    { intros it' Hw'. eapply gwp_bind; [apply (gwp_corep s pop_query s1 corep_pop HS1 He1) |].
      intros s2 [] HS2 He2 _. apply gwp_ret; [exact HS2 | exact He2 |]. cbn.
      split; [apply rev_ok_final; [reflexivity | now apply complete_frame_wf] | intros H; discriminate]. }
    destruct (stamp_is_initial (ls_iter ls)).
    + apply Hfin, stamp_default_wf.
    + destruct (stamp_increment (ls_iter ls)) as [it' |] eqn:Hi.
      * apply Hfin. now destruct (stamp_increment_wf _ _ Hlw Hi).
      * apply gwp_on_panic; [apply gwp_fail; assumption | exact Hpop].
  - (* heads *)
    rewrite <- Hh in *.
    set (R1 := fun (s' : cdb) (d : list head * qkey * stamp + list head * stamp * option qkey * cmemo * val) =>
                 match d with
                 | inl (heads, oc, it') =>
                     heads_ok s' heads /\ heads <> [] /\ stamp_wf it' /\ stamp_ccount it' = c_ccount s'
                 | inr (heads, hm, outer, last, lv) =>
                     heads_ok s' heads /\ heads <> [] /\ goodst s' hm /\
                     (forall hd, In hd heads -> live_key s' q (fst hd))
                 end).
    eapply (gwp_bind s _ _ R1).
    + apply gwp_on_panic; [| exact Hpop].
      eapply gwp_bind; [apply (gwp_collect s n (fr_heads fr) q s1 HS1 He1 Hfr) |].
      intros s2 [[heads hm] dep] HS2 He2 (-> & Hho & Hg & Hne & Hlv).
      assert (Hnn : heads <> []) by (apply Hne; rewrite Hh; discriminate).
      eapply gwp_bind; [apply (gwp_corep s (outer_cycle heads q) s1 (corep_outer_cycle heads q) HS1 He1) |].
      intros s3 outer HS3 He3 Hc3. cbv beta in Hc3.
      assert (Hho3 : heads_ok s3 heads) by (eapply same_core_heads; eassumption).
      assert (Hcc3 : c_ccount s3 = c_ccount s1) by apply Hc3.
      destruct dep; cbn [negb].
      * apply gwp_bind_get.
        destruct (match ls_last ls with Some m => Some m | None => c_memo s3 q end) as [last |]; [| apply gwp_fail; assumption].
        destruct (cm_val last) as [lv |]; [| apply gwp_fail; assumption].
        apply gwp_ret; [exact HS3 | exact He3 |]. cbn.
        split; [exact Hho3 |]. split; [exact Hnn |].
        split; [destruct Hg as [-> | [Hgw Hgc]]; [now left | right; split; [exact Hgw | congruence]] |].
        intros hd Hhd. apply (live_key_core q s1 s3 _ Hc3). now apply Hlv.
      * destruct outer as [oc |]; [| apply gwp_fail; assumption].
        destruct (stamp_increment (ls_iter ls)) as [it' |] eqn:Hi; [| apply gwp_fail; assumption].
        destruct (stamp_increment_wf _ _ Hlw Hi) as (Hw' & Hc' & _).
        apply gwp_ret; [exact HS3 | exact He3 |]. cbn.
        split; [exact Hho3 |]. split; [exact Hnn |]. split; [exact Hw' | congruence].
    + intros s2 d HS2 He2 Hd.
      assert (Hcomplete : forall it, gwp s (complete_cycle_query strat n fr it)
                 (fun s' rv => same_core s2 s' /\ exists es, rv = complete_frame fr es it true) s2).
      { intros it. apply (gwp_corep_res s _ (fun rv => exists es, rv = complete_frame fr es it true) s2
                            (corep_complete n fr it) HS2 He2).
        intros a Ha. unfold complete_cycle_query, cbind, cget, pop_query, cmodify, cret in Ha. cbn in Ha.
        injection Ha as <-. eexists. reflexivity. }
      destruct d as [[[heads oc] it'] | [[[[heads hm] outer] last] lv]]; cbn in Hd.
      * destruct Hd as (Hho & Hnn & Hw' & Hc').
        eapply gwp_bind; [apply (Hcomplete it') |].
        intros s3 rv HS3 He3 (Hc3 & es & ->).
        destruct (same_core_cur _ _ Hc3) as [_ Hcc3].
        assert (Heq : stamp_ccount it' = c_ccount s3) by congruence.
        assert (Hle : stamp_ccount it' <= c_ccount s3) by (rewrite Heq; apply N.le_refl).
        apply gwp_ret; [exact HS3 | exact He3 |].
        split; [split; [exact Hw' |] | intros _; exact Heq].
        intros _. split; [exact Hnn |]. split; [eapply same_core_heads; eassumption | exact Hle].
      * destruct Hd as (Hho & Hnn & Hg & Hlv).
        destruct (match strat_of strat q with
                  | SFallback => (cinit q, true)
                  | _ => let nv := recover strat q lv v in (nv, nv =? lv)
                  end) as [v' vconv].
        eapply gwp_bind; [apply (Hcomplete (ls_iter ls)) |].
        intros s3 rv HS3 He3 (Hc3 & es & ->).
        destruct (same_core_cur _ _ Hc3) as [_ Hcc3].
        assert (Hho3 : heads_ok s3 heads) by (eapply same_core_heads; eassumption).
        assert (Hcc2 : c_ccount s2 = c_ccount s) by apply He2.
        destruct outer as [oc |].
        -- assert (Heq : stamp_ccount (ls_iter ls) = c_ccount s3) by congruence.
           assert (Hle : stamp_ccount (ls_iter ls) <= c_ccount s3) by (rewrite Heq; apply N.le_refl).
           apply gwp_ret; [exact HS3 | exact He3 |].
           split; [split; [exact Hlw |] | intros _; exact Heq].
           intros _. split; [exact Hnn |]. split; [exact Hho3 | exact Hle].
        -- apply gwp_bind_get.
           destruct (vconv && _ && others_converged s3 heads q).
           ++ unfold map_heads_memos. apply gwp_bind_modify.
              destruct (fold_final (heads_not_eq heads q) s3 HS3) as [HS4 He4].
              set (s4 := cset_memo s3 _) in *.
              eapply gwp_bind.
              { apply (gwp_corep s (cemit (CEvFinalize q (stamp_iteration (N.max (ls_iter ls) hm)))) s4 (corep_emit _) HS4).
                eapply ext_trans; eassumption. }
              intros s5 [] HS5 He5 _. apply gwp_ret; [exact HS5 | exact He5 |]. cbn.
              split; [apply rev_ok_final; [reflexivity | now apply complete_frame_wf] | intros H; discriminate].
           ++ apply gwp_ret; [exact HS3 | exact He3 |]. cbn.
              split; [destruct Hg as [-> | [Hgw Hgc]]; [now left | right; split; [exact Hgw | congruence]] |].
              split; [exact Hho3 |]. split; [exact Hnn |].
              intros hd Hhd. apply (live_key_core q s2 s3 _ Hc3). now apply Hlv.
Qed.

(* what the loop returns: the [RDone] clause of [round_epost], on the loop's result triple *)
Definition out_epost (s' : cdb) (out : val * cmemo * rmode) : Prop :=
  let '(v, rv, mode) := out in
  rev_ok s' rv /\ (cm_final rv = false -> stamp_ccount (iter_of rv) = c_ccount s').

Lemma gwp_iter_loop q (Hrq : rcv q) : forall k s0 ls s,
  SI s -> ext s0 s -> loop_inv (c_ccount s) ls ->
  gwp s0 (iter_loop prog strat cinit k n L q ls) out_epost s.
Proof.
  induction k as [| k IH]; intros s0 ls s HS He0 Hinv; cbn [iter_loop].
  - apply gwp_nofuel; assumption.
  - apply (gwp_ref s s0 _ _ _ He0). assert (He := ext_refl s).
    eapply gwp_bind; [apply (gwp_round q s ls s HS He Hinv) |].
    intros s1 out HS1 He1 Hout. destruct out as [v rv mode | hm v rv heads].
    + apply gwp_ret; [exact HS1 | exact He1 | exact Hout].
    + assert (Hinv1 : loop_inv (c_ccount s1) ls) by (now rewrite (proj1 (proj2 He1))).
      destruct (stamp_increment (N.max (ls_iter ls) hm)) as [it' |] eqn:Hi; [| apply gwp_fail; assumption].
      destruct (next_state_ok q Hrq s1 ls hm v rv heads it' HS1 Hinv1 Hout Hi) as (HS4 & He4 & Hinv4).
      (* the rest of this trip only computes the next configuration *)
      change (gwp s (iter_loop prog strat cinit k n L q (next_ls q s1 ls heads it' v rv)) out_epost
                  (next_state q s1 heads it' v rv)).
      apply IH; [exact HS4 | exact (ext_trans _ _ _ He1 He4) | exact Hinv4].
Qed.

Lemma start_loop_inv old s ls :
  SI s -> (forall o, old = Some o -> stamp_wf (iter_of o)) ->
  ls_iter ls = stamp_initial (c_ccount s) \/
  (exists o, old = Some o /\ ls_iter ls = iter_of o /\ stamp_ccount (iter_of o) = c_ccount s) ->
  loop_inv (c_ccount s) ls.
Proof.
  intros [Hlt _] Hold [Hi | (o & Ho & Hi & Hc)]; unfold loop_inv; rewrite Hi.
  - apply (stamp_initial_wf (c_ccount s) Hlt).
  - split; [exact (Hold o Ho) | exact Hc].
Qed.

Lemma gwp_execute_iterate q old s0 s :
  rcv q -> SI s -> ext s0 s -> (forall o, old = Some o -> stamp_wf (iter_of o)) ->
  gwp s0 (execute_iterate prog strat cinit n L q old) out_epost s.
Proof.
  intros Hrq HS He Hold.
  destruct (execute_iterate_start prog strat cinit n L q old s) as [(ls & Eq & Hls) | Eq].
  - apply (gwp_eq s0 _ _ _ s Eq). apply gwp_on_panic.
    + apply gwp_iter_loop; [exact Hrq | exact HS | exact He | exact (start_loop_inv old s ls HS Hold Hls)].
    + intros s1 HS1 He1. now apply poison_ok.
  - unfold gwp. rewrite Eq. split; [exact HS |]. split; [exact He |]. intros a Ha. discriminate.
Qed.

Lemma gwp_execute_panic q old s0 s :
  SI s -> ext s0 s ->
  gwp s0 (execute_panic prog L q old)
      (fun s' out => let '(v, rv, mode) := out in rev_ok s' rv) s.
Proof.
  intros HS He0. apply (gwp_ref s s0 _ _ _ He0). assert (He := ext_refl s).
  unfold execute_panic.
  eapply gwp_bind; [apply (gwp_run_query L HLf s q old s HS He) |].
  intros s1 [v fr] HS1 He1 Hfr. cbn [snd] in Hfr.
  eapply gwp_bind; [apply (gwp_corep s pop_query s1 corep_pop HS1 He1) |].
  intros s2 [] HS2 He2 Hc2. cbv beta in Hc2.
  apply gwp_ret; [exact HS2 | exact He2 |].
  destruct (fr_heads fr) as [| h0 hs0] eqn:Hh.
  - apply rev_ok_final; [reflexivity | apply complete_frame_wf, stamp_default_wf].
  - split; [apply stamp_default_wf |]. intros _.
    split; [discriminate |]. split; [| apply N.le_0_l].
    exact (same_core_heads s1 s2 _ Hc2 HS1 Hfr).
Qed.

Lemma cbackdate_fields old v rv rv1 : cbackdate old v rv = COk rv1 ->
  iter_of rv1 = iter_of rv /\ cm_final rv1 = cm_final rv /\ raw_heads rv1 = raw_heads rv.
Proof.
  unfold cbackdate. destruct old as [o |]; [| intros H; injection H as <-; now repeat split].
  destruct (_ && _ && _ && _).
  - destruct (changed_after (cm_changed o) (cm_changed rv)); [discriminate |].
    intros H. injection H as <-. now repeat split.
  - intros H. injection H as <-. now repeat split.
Qed.

Lemma out_memo_fields rv v r :
  iter_of (with_value (cdiscard_edges rv) (Some v) r) = iter_of rv /\
  cm_final (with_value (cdiscard_edges rv) (Some v) r) = cm_final rv /\
  raw_heads (with_value (cdiscard_edges rv) (Some v) r) = raw_heads rv /\
  cm_verified (with_value (cdiscard_edges rv) (Some v) r) = r.
Proof.
  unfold cdiscard_edges.
  destruct ((cm_dur rv =? D_NEVER) && negb (cm_untracked rv) && match raw_heads rv with [] => true | _ => false end);
    now repeat split.
Qed.

Definition memo_epost (s' : cdb) (m : cmemo) : Prop :=
  stamp_wf (iter_of m) /\ heads_ok s' (heads_of m).

Lemma gwp_cexecute q mode0 old s0 s :
  SI s -> ext s0 s -> (forall o, old = Some o -> stamp_wf (iter_of o)) ->
  gwp s0 (cexecute prog strat cinit n L q mode0 old) memo_epost s.
Proof.
  intros HS He0 Hold. apply (gwp_ref s s0 _ _ _ He0). assert (He := ext_refl s).
  unfold cexecute. unfold cemit. apply gwp_bind_modify.
  set (s1 := cset_log s _).
  assert (Hc1 : same_core s s1) by (now repeat split).
  destruct (same_core_SI s s1 Hc1 HS) as [HS1 He1].
  set (R1 := fun (s' : cdb) (out : val * cmemo * rmode) =>
               let '(v, rv, mode) := out in
               rev_ok s' rv /\ (rcv q -> cm_final rv = false -> stamp_ccount (iter_of rv) = c_ccount s')).
  eapply (gwp_bind s _ _ R1).
  - destruct (recovers (strat_of strat q)) eqn:Hrec.
    + eapply gwp_conseq; [apply (gwp_execute_iterate q old s s1 Hrec HS1 He1 Hold) |].
      intros s' [[v rv] mode] _ _ [H1 H2]. split; [exact H1 | intros _; exact H2].
    + eapply gwp_bind; [apply (gwp_execute_panic q old s s1 HS1 He1) |].
      intros s2 [[v rv] mode] HS2 He2 Hrv. apply gwp_ret; [exact HS2 | exact He2 |].
      split; [exact Hrv |]. intros Hr. unfold rcv in Hr. congruence.
  - intros s2 [[v rv] mode] HS2 He2 [Hrv Hrc].
    destruct (cbackdate old v rv) as [rv1 | p |] eqn:Hbd; [| apply gwp_fail; assumption | apply gwp_nofuel; assumption].
    destruct (cbackdate_fields _ _ _ _ Hbd) as (Hi1 & Hf1 & Hh1).
    apply gwp_bind_get.
    destruct (out_memo_fields rv1 v (ccur s2)) as (Fi & Ff & Fh & Fv).
    set (m := with_value (cdiscard_edges rv1) (Some v) (ccur s2)) in *.
    destruct Hrv as [Hw Hnf].
    assert (Hio : iter_of m = iter_of rv) by congruence.
    assert (Hfo : cm_final m = cm_final rv) by congruence.
    assert (Hho : raw_heads m = raw_heads rv) by congruence.
    assert (Hok : rcv q -> head_memo_ok s2 m).
    { intros Hr. destruct (cm_final m) eqn:Hb; [now left |]. right; right. split; [exact Fv |].
      rewrite Hio. apply Hrc; [exact Hr | congruence]. }
    assert (Hep := put_ext s2 q m Hok).
    assert (Hhp : cm_final m = false -> heads_ok (put s2 q m) (raw_heads m)).
    { intros Hb. rewrite Hho. rewrite Hfo in Hb. destruct (Hnf Hb) as (_ & Hh & _).
      now apply (heads_ok_ext s2 _ _ Hep). }
    eapply gwp_bind.
    { apply (gwp_put s q m (fun s' _ => s' = put s2 q m) s2 HS2 He2).
      - rewrite Hio. exact Hw.
      - rewrite Fv. apply N.le_refl.
      - intros Hf _. rewrite Hio. rewrite Hfo in Hf. now destruct (Hnf Hf) as (_ & _ & Hle).
      - intros Hf. rewrite Hho. rewrite Hfo in Hf. now destruct (Hnf Hf).
      - intros _ Hf. now apply Hhp.
      - exact Hok.
      - reflexivity. }
    intros s3 [] HS3 He3 ->.
    eapply gwp_bind; [apply (gwp_corep s (drop_guard q mode) _ (corep_drop_guard q mode) HS3 He3) |].
    intros s4 [] HS4 He4 Hc4. cbv beta in Hc4.
    apply gwp_ret; [exact HS4 | exact He4 |].
    split; [rewrite Hio; exact Hw |].
    destruct (cm_final m) eqn:Hb.
    + rewrite (heads_of_final m Hb). apply heads_ok_nil.
    + rewrite (heads_of_prov m Hb). exact (same_core_heads _ s4 _ Hc4 HS3 (Hhp eq_refl)).
Qed.

Lemma gwp_fetch_cold_cycle q s0 s :
  SI s -> ext s0 s -> gwp s0 (fetch_cold_cycle strat cinit q) memo_epost s.
Proof.
  intros HS He0. apply (gwp_ref s s0 _ _ _ He0). assert (He := ext_refl s).
  unfold fetch_cold_cycle. destruct (recovers (strat_of strat q)) eqn:Hrec; cbn [negb]; [| apply gwp_fail; assumption].
  apply gwp_bind_get.
  destruct HS as [Hlt Hall]. assert (HS : SI s) by (split; assumption).
  destruct (stamp_initial_wf (c_ccount s) Hlt) as [Hiw Hic].
  assert (Hfresh : forall it, stamp_wf it -> stamp_ccount it = c_ccount s ->
            gwp s (put_memo q (initial_memo q (Some (cinit q)) (ccur s) it) ;;; cret (initial_memo q (Some (cinit q)) (ccur s) it))
                memo_epost s).
  { intros it Hw Hc. set (m := initial_memo q (Some (cinit q)) (ccur s) it).
    assert (Hcm : cur_memo s m) by (split; [reflexivity | exact Hc]).
    assert (Hok : head_memo_ok s m) by (right; right; exact Hcm).
    eapply gwp_bind.
    { apply (gwp_put_cur s q m (fun s' _ => s' = put s q m) s HS He Hw Hcm).
      - intros _. discriminate.
      - intros _ x [<- | []]. now apply hd_ok_put_self.
      - reflexivity. }
    intros s1 [] HS1 He1 ->. apply gwp_ret; [exact HS1 | exact He1 |].
    split; [exact Hw |]. intros x [<- | []]. now apply hd_ok_put_self. }
  destruct (c_memo s q) as [m |] eqn:Hm; [| now apply Hfresh].
  destruct (Hall q m Hm) as [M1 M2 M3 M4 M5].
  destruct (cm_val m) as [v |].
  - destruct (N.eqb_spec (cm_verified m) (ccur s)) as [Hv | Hv]; cbn [andb]; [| now apply Hfresh].
    destruct (N.eqb_spec (stamp_ccount (iter_of m)) (c_ccount s)) as [Hc | Hc]; [| now apply Hfresh].
    destruct (heads_contains (raw_heads m) q) eqn:Hhc; [| now apply Hfresh].
    (* keep only q's own entries *)
    destruct (cm_extra m) eqn:Hex.
    2: { (* a memo without the extra block has no heads, so q is not among them *)
         unfold raw_heads in Hhc. rewrite Hex in Hhc. discriminate. }
    set (m' := {| cm_val := Some v; cm_verified := cm_verified m; cm_changed := cm_changed m;
                  cm_dur := cm_dur m; cm_untracked := cm_untracked m; cm_edges := cm_edges m;
                  cm_final := cm_final m; cm_extra := true; cm_iter := cm_iter m;
                  cm_heads := filter (fun h => key_eqb (fst h) q) (cm_heads m);
                  cm_conv := cm_conv m |}).
    assert (Hio : iter_of m' = iter_of m) by (unfold iter_of, m'; cbn; now rewrite Hex).
    assert (Hcm : cur_memo s m) by (split; assumption).
    assert (Hcm' : cur_memo s m') by (split; [exact Hv | now rewrite Hio]).
    assert (Hsub : forall x, In x (raw_heads m') -> In x (raw_heads m)).
    { intros x Hx. unfold raw_heads, m' in Hx. cbn in Hx. apply filter_In in Hx as [Hx _].
      unfold raw_heads. now rewrite Hex. }
    assert (Hne' : raw_heads m' <> []).
    { unfold raw_heads, m'. cbn. unfold raw_heads in Hhc. rewrite Hex in Hhc. unfold heads_contains in Hhc.
      apply existsb_exists in Hhc as (x & Hx & Hk). intros Hn.
      assert (Hin : In x (filter (fun h => key_eqb (fst h) q) (cm_heads m))) by (apply filter_In; now split).
      rewrite Hn in Hin. contradiction. }
    assert (Hok : head_memo_ok s m') by (right; right; exact Hcm').
    assert (Hep := put_ext s q m' (fun _ => Hok)).
    assert (Hhp : cm_final m' = false -> heads_ok (put s q m') (raw_heads m')).
    { intros Hf x Hx. apply (hd_ok_ext s _ _ Hep). apply (M5 Hcm Hf). now apply Hsub. }
    eapply gwp_bind.
    { apply (gwp_put_cur s q m' (fun s' _ => s' = put s q m') s HS He); [rewrite Hio; exact M1 | exact Hcm' | | exact Hhp |].
      - intros _. exact Hne'.
      - reflexivity. }
    intros s1 [] HS1 He1 ->. apply gwp_ret; [exact HS1 | exact He1 |].
    split; [rewrite Hio; exact M1 |].
    destruct (cm_final m') eqn:Hf; [rewrite (heads_of_final m' Hf); apply heads_ok_nil |].
    rewrite (heads_of_prov m' Hf). now apply Hhp.
  - destruct (negb (cm_final m) && (cm_verified m =? ccur s) && (stamp_ccount (iter_of m) =? c_ccount s));
      [apply gwp_fail; assumption | now apply Hfresh].
Qed.

Lemma panic_release q s0 : forall s1, SI s1 -> ext s0 s1 ->
  SI (fst (release_panicking q s1)) /\ ext s0 (fst (release_panicking q s1)).
Proof.
  intros s1 HS1 He1. destruct (same_core_SI s1 _ (core_release_panicking q s1) HS1) as [H1 H2].
  split; [exact H1 | eapply ext_trans; eassumption].
Qed.

Lemma gwp_fetch_cold q s0 s :
  SI s -> ext s0 s -> gwp s0 (cfetch_cold prog strat cinit n L q) memo_epost s.
Proof.
  intros HS He0. apply (gwp_ref s s0 _ _ _ He0). assert (He := ext_refl s).
  unfold cfetch_cold.
  eapply gwp_bind; [apply (gwp_corep s (try_claim q true) s (corep_try_claim q true) HS He) |].
  intros s1 c HS1 He1 Hc1. destruct c as [mode | inner]; [| now apply gwp_fetch_cold_cycle].
  apply gwp_on_panic; [| apply panic_release].
  apply gwp_bind_get.
  set (R1 := fun (s' : cdb) (ok : option cmemo) => forall m, ok = Some m -> memo_epost s' m).
  eapply (gwp_bind s _ _ R1).
  - destruct (c_memo s1 q) as [m |] eqn:Hm.
    + destruct (cm_val m).
      * eapply gwp_bind; [apply (gwp_verify_memo L HLm s q m s1 HS1 He1 (tbl_memo_of s1 q m HS1 Hm)) |].
        intros s2 [b m'] HS2 He2 (Hw & Hb). cbn [fst snd] in *.
        apply gwp_ret; [exact HS2 | exact He2 |]. intros m0 Hm0. destruct b; [| discriminate].
        injection Hm0 as <-. split; [exact Hw | now apply Hb].
      * apply gwp_ret; [exact HS1 | exact He1 |]. intros m0 Hm0. discriminate.
    + apply gwp_ret; [exact HS1 | exact He1 |]. intros m0 Hm0. discriminate.
  - intros s2 ok HS2 He2 Hok. destruct ok as [m |].
    + destruct (Hok m eq_refl) as [Hw Hh].
      eapply gwp_bind; [apply (gwp_corep s (drop_guard q mode) s2 (corep_drop_guard q mode) HS2 He2) |].
      intros s3 [] HS3 He3 Hc3. cbv beta in Hc3. apply gwp_ret; [exact HS3 | exact He3 |].
      split; [exact Hw | exact (same_core_heads s2 s3 _ Hc3 HS2 Hh)].
    + apply gwp_cexecute; [exact HS2 | exact He2 |].
      intros o Ho. apply (tbl_memo_of s1 q o HS1 Ho).
Qed.

Lemma gwp_fetch q s0 s :
  SI s -> ext s0 s -> gwp s0 (cfetch prog strat cinit n L q) (fun s' r => heads_ok s' (snd r)) s.
Proof.
  intros HS He. unfold cfetch.
  eapply gwp_bind; [apply (gwp_fetch_hot s0 q s HS He) |].
  intros s1 hot HS1 He1 Hhot.
  eapply gwp_bind with (R1 := memo_epost).
  - destruct hot as [m |].
    + destruct (Hhot m eq_refl) as [Hw Hf]. apply gwp_ret; [exact HS1 | exact He1 |].
      split; [exact Hw |]. rewrite (heads_of_final m Hf). apply heads_ok_nil.
    + now apply gwp_fetch_cold.
  - intros s2 m HS2 He2 [Hw Hh]. destruct (cm_val m); [| apply gwp_fail; assumption].
    apply gwp_ret; [exact HS2 | exact He2 | exact Hh].
Qed.

Lemma gwp_mca_cold q since s0 s :
  SI s -> ext s0 s -> gwp s0 (cmca_cold prog strat cinit n L q since) (fun _ _ => True) s.
Proof.
  intros HS He0. apply (gwp_ref s s0 _ _ _ He0). assert (He := ext_refl s).
  unfold cmca_cold.
  eapply gwp_bind; [apply (gwp_corep s (try_claim q false) s (corep_try_claim q false) HS He) |].
  intros s1 c HS1 He1 Hc1. destruct c as [mode | inner].
  2: { (* the claim reports a cycle: an answer or the cycle panic, state unchanged *)
       destruct (recovers (strat_of strat q)); [apply gwp_ret | apply gwp_fail]; try assumption. exact I. }
  apply gwp_on_panic; [| apply panic_release].
  apply gwp_bind_get.
  assert (Hdrop : forall s2 (b : bool), SI s2 -> ext s s2 ->
            gwp s (drop_guard q mode ;;; cret b) (fun _ _ => True) s2).
  { intros s2 b HS2 He2.
    eapply gwp_bind; [apply (gwp_corep s (drop_guard q mode) s2 (corep_drop_guard q mode) HS2 He2) |].
    intros s3 [] HS3 He3 _. apply gwp_ret; [exact HS3 | exact He3 | exact I]. }
  destruct (c_memo s1 q) as [old |] eqn:Hm; [| now apply Hdrop].
  eapply gwp_bind; [apply (gwp_verify_memo L HLm s q old s1 HS1 He1 (tbl_memo_of s1 q old HS1 Hm)) |].
  intros s2 [b m'] HS2 He2 _. cbn [fst snd].
  destruct b; [now apply Hdrop |].
  destruct (negb (cm_final m')); [now apply Hdrop |].
  destruct (cm_val old); [| now apply Hdrop].
  eapply gwp_bind.
  { apply (gwp_cexecute q mode (Some old) s s2 HS2 He2).
    intros o Ho. injection Ho as <-. apply (tbl_memo_of s1 q old HS1 Hm). }
  intros s3 mnew HS3 He3 _. apply gwp_ret; [exact HS3 | exact He3 | exact I].
Qed.

Lemma gwp_mca q since s0 s :
  SI s -> ext s0 s -> gwp s0 (cmca prog strat cinit n L q since) (fun _ _ => True) s.
Proof.
  intros HS He. unfold cmca. apply gwp_bind_get.
  destruct (c_memo s q) as [m |] eqn:Hm; [| apply gwp_ret; [exact HS | exact He | exact I]].
  assert (Hw : stamp_wf (iter_of m)) by apply (tbl_memo_of s q m HS Hm).
  assert (Hhot : forall u, cm_final m = true ->
            gwp s0 (m' <- cupdate_shallow q m u ;; cret (changed_after (cm_changed m') since)) (fun _ _ => True) s).
  { intros u Hf. eapply gwp_bind; [apply (gwp_update_shallow s0 q m u s HS He Hf Hw) |].
    intros s1 m' HS1 He1 _. apply gwp_ret; [exact HS1 | exact He1 | exact I]. }
  destruct (cshallow_verify s m).
  - destruct (cm_final m) eqn:Hf; [now apply Hhot | now apply gwp_mca_cold].
  - destruct (cm_final m) eqn:Hf; [now apply Hhot | now apply gwp_mca_cold].
  - now apply gwp_mca_cold.
Qed.

End Level.

Lemma clevel_ok n : forall k, Lfetch_ok (clevel prog strat cinit n k) /\ Lmca_ok (clevel prog strat cinit n k).
Proof.
  induction k as [| k [IHf IHm]].
  - split.
    + intros s0 q s HS He. cbn. now apply gwp_nofuel.
    + intros s0 q since s HS He. cbn. now apply gwp_nofuel.
  - split.
    + intros s0 q s HS He. cbn [clevel cl_fetch]. now apply gwp_fetch.
    + intros s0 q since s HS He. cbn [clevel cl_mca]. now apply gwp_mca.
Qed.

End Fetch.
