(* Cycle/FbInv.v — FallbackImmediate rings (C13_fresh): programs whose (input-determined) call
   graph is layered by [lvl] and whose only same-level calls follow an injective successor map
   [nxt] between functions with cycle_result (every strongly connected component is a simple ring
   of fallback functions), and the semantic facts the ring development (Cycle/RingInv.v) asks for:
   the target is [spec_fallback], which is also what every read sees meanwhile, since a ring
   member's value never depends on what it read. *)
From Coq Require Import PeanoNat.
From Salsa Require Import Base.
From Salsa.Kern Require Import CoreK.
From Salsa.Core Require Import Spec.
From Salsa.Cycle Require Import StampK Model Spec SpecProofs FallbackProofs Cert FreshBase FbSem.
From Salsa.Cycle Require RingInv.

Definition fby_of (strat : N -> strategy) (q : qkey) : Prop := strat_of strat q = SFallback.

(* [RingInv.ring_ok] (explained there) at the functions with cycle_result, written out *)
Definition fbring_ok_of (prog : qkey -> body) (strat : N -> strategy) (sn : snapshot) (ns : list qkey)
           (lvl : qkey -> nat) (nxt : qkey -> option qkey) : Prop :=
  (forall q d, In q ns -> In d (succs prog sn q) -> In d ns /\ ((lvl d < lvl q)%nat \/ nxt q = Some d)) /\
  (forall q d, nxt q = Some d -> lvl d = lvl q /\ fby_of strat q /\ fby_of strat d) /\
  (forall a b c, nxt a = Some c -> nxt b = Some c -> a = b) /\
  (forall q d, nxt q = Some d -> In d (succs prog sn q)).

(* the hypotheses of C13_fresh.  [frank], [frank1], [frank2]: the witness asked for by
   [spec_fallback_wd] that the call graph minus its cyclic nodes is acyclic *)
Class bctx : Type := {
  fprog : qkey -> body;
  fstrat : N -> strategy;
  fcinit : qkey -> val;
  fiv : ikey -> val;
  fidur : ikey -> dur;
  fns : list qkey;
  flvl : qkey -> nat;
  fnxt : qkey -> option qkey;
  frank : qkey -> nat;
  fdet : input_determined fprog (csnap_of (cinit_db fiv fidur));
  fring : fbring_ok_of fprog fstrat (csnap_of (cinit_db fiv fidur)) fns flvl fnxt;
  frank1 : forall q q', cycn fprog (csnap_of (cinit_db fiv fidur)) fns q = false ->
             In q' (succs fprog (csnap_of (cinit_db fiv fidur)) q) ->
             cycn fprog (csnap_of (cinit_db fiv fidur)) fns q' = false -> (frank q' < frank q)%nat;
  frank2 : forall q, (frank q < length fns)%nat
}.

Section Fb.
Context {C : bctx}.
Notation prog := (@fprog C).
Notation strat := (@fstrat C).
Notation cinit := (@fcinit C).
Notation iv := (@fiv C).
Notation idur := (@fidur C).
Notation ns := (@fns C).
Notation lvl := (@flvl C).
Notation nxt := (@fnxt C).

Definition s0 : cdb := cinit_db iv idur.
Definition sn : snapshot := csnap_of s0.

Notation SV := (spec_fallback prog sn cinit ns).
Notation cyc := (cycn prog sn ns).
Notation sc := (succs prog sn).

Definition fixy (q : qkey) : Prop := fby_of strat q.

(* the fields of [bctx] at the section's notations, used below like section hypotheses *)
Lemma Hdet : input_determined prog sn.
Proof. exact fdet. Qed.
Lemma Hring : fbring_ok_of prog strat sn ns lvl nxt.
Proof. exact fring. Qed.

Lemma sv_cyc q : cyc q = true -> SV q = cinit q.
Proof. apply SV_cyc. Qed.
Lemma sv_body q : cyc q = false -> SV q = F prog sn SV q.
Proof. apply (SV_body prog sn cinit ns (@frank C)); [apply Hdet | apply frank1 | apply frank2]. Qed.
Lemma f_ext_succs rho rho' q : (forall d, In d (sc q) -> rho d = rho' d) -> F prog sn rho q = F prog sn rho' q.
Proof.
  intros H. unfold F. apply run_agree. intros d Hd. apply H. rewrite <- (Hdet q rho). exact Hd.
Qed.

Definition hv (s : cdb) (h : qkey) : val :=
  match c_memo s h with
  | Some m => match cm_val m with Some v => v | None => 0 end
  | None => 0
  end.

Lemma ring_cyc x : In x ns -> RingInv.npath_of nxt x x -> SV x = cinit x.
Proof.
  intros Hx Hp. apply sv_cyc. apply (npath_cyc prog sn ns nxt); [apply Hring | | exact Hx | exact Hp].
  intros q d Hq Hd. now apply (proj1 Hring q d Hq Hd).
Qed.

#[export] Instance fb_sem : RingInv.ring.
Proof.
  refine {| RingInv.rprog := prog; RingInv.rstrat := strat; RingInv.rcinit := cinit;
            RingInv.riv := iv; RingInv.ridur := idur; RingInv.rns := ns;
            RingInv.rlvl := lvl; RingInv.rnxt := nxt;
            RingInv.rfixy := fixy; RingInv.tgt := SV; RingInv.live := fun _ _ => SV;
            RingInv.vok := fun _ => True; RingInv.headok := fun q v => v = cinit q;
            RingInv.pot := fun _ => 0; RingInv.bound := 4 |}.
  - exact Hdet.
  - exact Hring.
  - intros q Hs. unfold fixy, fby_of in Hs. now rewrite Hs.
  - lia.
  - exact (fun _ => I).
  - exact (fun _ _ _ _ => I).
  - intros q Hq Hnc. symmetry. apply sv_body. destruct (cyc q) eqn:Hc; [exfalso | reflexivity].
    apply (cycn_walk prog sn ns q) in Hc as (_ & k & _ & z & Hz & Hw).
    apply Hnc. exists z. split; [exact Hz | now apply (walk_reaches prog sn k)].
  - reflexivity.
  - intros h x Hh Hhh _ ->. now apply ring_cyc.
  - intros b x q Hq Hfix _ Hqq _. unfold RingInv.part_val. unfold fixy, fby_of in Hfix. rewrite Hfix.
    symmetry. now apply ring_cyc.
  - intros d _ _ _. split; [exact I |]. split; [reflexivity | lia].
  - intros q lv _ Hfix _ _ ->. unfold RingInv.next_val. unfold fixy, fby_of in Hfix. rewrite Hfix.
    split; [exact I |]. split; [reflexivity | now left].
  - intros q lv _ Hfix _ _ -> _. unfold RingInv.next_val. unfold fixy, fby_of in Hfix. rewrite Hfix.
    split; reflexivity.
Defined.

End Fb.
