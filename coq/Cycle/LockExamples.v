(* Cycle/LockExamples.v — the claim discipline on the nested-cycle examples (which lie outside the
   classes C12_fresh / C13_fresh are proved for): by the theorem no claim survives an operation;
   by computation the transferred-lock table is exercised (keys are transferred to an outer head
   and re-claimed by their owner) on the way. *)
From Coq Require Import PeanoNat Lia.
From Salsa Require Import Base.
From Salsa.Kern Require Import CoreK.
From Salsa.Cycle Require Import StampK Model Examples FreshExamples FbExamples LockInv LockOps LockTop.

(* nested Fixpoint heads, every entry order: all runs end idle (by the theorem) *)
Example exn_idle : forall ops,
  Forall (fun r => r <> CFuel) (snd (crun_ops exn_prog ex_strat cinit0 3 6 (cinit_db exf_iv (fun _ => 0)) ops)) ->
  idle (fst (crun_ops exn_prog ex_strat cinit0 3 6 (cinit_db exf_iv (fun _ => 0)) ops)).
Proof. intros ops. apply idle_reachable. apply idle_init. Qed.

(* two fallback cycles through one node *)
Example exc_idle : forall ops,
  Forall (fun r => r <> CFuel) (snd (exc_run ops)) -> idle (fst (exc_run ops)).
Proof. intros ops. apply idle_reachable. apply idle_init. Qed.

(* the runs do transfer locks: after the nested run, keys are left flagged as transferred (their
   entries in the sync table are not claims) and the dependency graph's table is empty again *)
Example exn_transfers_happen :
  let s := fst (crun_ops exn_prog ex_strat cinit0 3 6 (cinit_db exf_iv (fun _ => 0)) [COGet (1, 0)]) in
  c_qstack s = [] /\ c_trans s = [] /\
  map (fun q => match c_sync s q with Some y => Some (sy_trans y, sy_twice y) | None => None end) exn_ns
  = [None; Some (true, false); Some (true, false)].
Proof. vm_compute. repeat split; reflexivity. Qed.
