(* Cycle/ModelProofs.v — facts about the executable Cycle model (Cycle/Model.v):
   C14: re-entering a node whose function has no cycle recovery panics with the cycle error —
        never a value, never out-of-fuel;
   C15: the fixpoint loop of one `execute` makes at most MAX_ITERATIONS + 1 trips; a loop that
        never converges ends in the too-many-iterations panic. *)
From Coq Require Import PeanoNat.
From Salsa Require Import Base.
From Salsa.gen Require Import Kernels.
From Salsa.Kern Require Import CoreK K4_Stamp.
From Salsa.Cycle Require Import StampK Model.

(* ---------------------------------------------------------------- C14 *)
Section C14.
Variable prog : qkey -> body.
Variable strat : N -> strategy.
Variable cinit : qkey -> val.

(* q's lock is held by this thread (claimed, not transferred): q is being verified or executed *)
Definition held (s : cdb) (q : qkey) : Prop :=
  exists y, c_sync s q = Some y /\ sy_trans y = false.

(* the state after the failed claim: only the anyone_waiting flag of q's lock is set *)
Definition mark_waiting (s : cdb) (q : qkey) : cdb :=
  match c_sync s q with
  | Some y => cset_sync s (upd (c_sync s) q
                (Some {| sy_trans := false; sy_wait := true; sy_target := sy_target y; sy_twice := sy_twice y |}))
  | None => s
  end.

Lemma try_claim_held q allow s : held s q -> try_claim q allow s = (mark_waiting s q, COk (ClCycle false)).
Proof. intros [y [Hy Ht]]. unfold try_claim, cbind, cget, mark_waiting. rewrite Hy, Ht. reflexivity. Qed.

Lemma reenter_fetch_cold_panics : forall n L q s,
  strat (fst q) = SPanic -> held s q ->
  cfetch_cold prog strat cinit n L q s = (mark_waiting s q, CPanic (PB PCycle)).
Proof.
  intros n L q s Hst Hh. unfold cfetch_cold, cbind. rewrite (try_claim_held q true s Hh).
  unfold fetch_cold_cycle, strat_of. rewrite Hst. reflexivity.
Qed.

Lemma reenter_mca_cold_panics : forall n L q since s,
  strat (fst q) = SPanic -> held s q ->
  cmca_cold prog strat cinit n L q since s = (mark_waiting s q, CPanic (PB PCycle)).
Proof.
  intros n L q since s Hst Hh. unfold cmca_cold, cbind. rewrite (try_claim_held q false s Hh).
  unfold strat_of. rewrite Hst. reflexivity.
Qed.

(* a first claim on a free key takes the lock: the entry half of "re-entered while executing".
   (What happens to the lock between the claim and the drop of its guard is the subject of
   Cycle/LockInv.v, LockOps.v and LockTop.v.) *)
Lemma first_claim_holds : forall q s,
  c_sync s q = None ->
  exists s', try_claim q true s = (s', COk (Claimed RDefault)) /\ held s' q.
Proof.
  intros q s H. unfold try_claim, cbind, cget. rewrite H. unfold set_sync, cmodify, cret. cbn.
  eexists. split; [reflexivity |]. exists sync0. cbn. rewrite upd_same. split; reflexivity.
Qed.

(* the whole fetch: when the hot path does not answer (no memo, no value, not verifiable, or
   provisional), a held Panic-strategy key panics *)
Theorem C14_panics_fetch : forall n L q s,
  strat (fst q) = SPanic -> held s q ->
  cfetch_hot q s = (s, COk None) ->
  cfetch prog strat cinit n L q s = (mark_waiting s q, CPanic (PB PCycle)).
Proof.
  intros n L q s Hst Hh Hhot. unfold cfetch, cbind. rewrite Hhot.
  rewrite (reenter_fetch_cold_panics n L q s Hst Hh). reflexivity.
Qed.

End C14.

(* ---------------------------------------------------------------- C15: stamps *)
Definition stamp_wf (s : stamp) : Prop := s < 65536 /\ stamp_iteration s <= MAX_ITERATIONS.

Lemma stamp_max_wf a b : stamp_wf a -> stamp_wf b -> stamp_ccount a = stamp_ccount b ->
  stamp_wf (N.max a b) /\ stamp_ccount (N.max a b) = stamp_ccount a /\
  stamp_iteration a <= stamp_iteration (N.max a b).
Proof.
  intros [Ha1 Ha2] [Hb1 Hb2] Hc.
  destruct (N.max_spec a b) as [[Hlt ->] | [Hle ->]].
  - split; [split; assumption |]. split; [now symmetry |].
    unfold stamp_ccount, stamp_iteration in *.
    apply (k_stamp_order a b Ha1 Hb1) in Hlt. lia.
  - split; [split; assumption |]. split; [reflexivity | lia].
Qed.

Lemma stamp_increment_wf m it' : stamp_wf m -> stamp_increment m = Some it' ->
  stamp_wf it' /\ stamp_ccount it' = stamp_ccount m /\ stamp_iteration it' = stamp_iteration m + 1.
Proof.
  intros [Hm1 Hm2] H. unfold stamp_increment, stamp_wf, stamp_ccount, stamp_iteration, MAX_ITERATIONS in *.
  destruct (k_stamp_increment_some m it' Hm1 Hm2 H) as [Heq [Hi [Hc Hle]]].
  assert (Hr := k_stamp_iteration_range m). rewrite k_MAX_ITERATIONS_val in *.
  repeat split; try assumption.
  exact (k_stamp_increment_lt m it' H).
Qed.

Lemma stamp_increment_none m : stamp_wf m -> stamp_increment m = None -> stamp_iteration m = MAX_ITERATIONS.
Proof.
  intros [Hm1 Hm2] H. unfold stamp_increment, stamp_iteration, MAX_ITERATIONS in *.
  now apply (k_stamp_increment_none_iff m Hm1 Hm2).
Qed.

(* ---------------------------------------------------------------- C15: the loop *)
Definition loop_inv (c : N) (st : lstate) : Prop :=
  stamp_wf (ls_iter st) /\ stamp_ccount (ls_iter st) = c.

(* trips still possible from iteration byte i *)
Definition trips_left (st : lstate) : nat := N.to_nat (MAX_ITERATIONS + 1 - stamp_iteration (ls_iter st)).

(* [m] is the maximum the trip reported *)
Lemma trips_decrease st st2 m : stamp_wf m -> stamp_iteration (ls_iter st) <= stamp_iteration m ->
  stamp_increment m = Some (ls_iter st2) -> (trips_left st2 < trips_left st)%nat.
Proof.
  intros Hm Hle Hi. destruct (stamp_increment_wf _ _ Hm Hi) as [[_ Hw2] [_ Hi']].
  unfold trips_left, MAX_ITERATIONS in *. rewrite k_MAX_ITERATIONS_val in *. lia.
Qed.

Section Trips.
Variable prog : qkey -> body.
Variable strat : N -> strategy.
Variable cinit : qkey -> val.
Variable n : nat.
Variable L : clower.
Variable q : qkey.
Notation round_ := (round prog strat cinit n L q).
Notation loop_ := (fun k => iter_loop prog strat cinit k n L q).

Variable Inv : lstate -> cdb -> Prop.
Hypothesis Hnext : forall st s s1 hm v rev hs it', Inv st s ->
  round_ st s = (s1, COk (RIterate hm v rev hs)) ->
  stamp_increment (N.max (ls_iter st) hm) = Some it' ->
  exists st2 s2, (forall k, loop_ (S k) st s = loop_ k st2 s2) /\ Inv st2 s2 /\
                 (trips_left st2 < trips_left st)%nat.

(* with the loop's own fuel above the number of trips left, the loop never reports out-of-fuel
   unless a trip itself does: it ends with a value or a panic after at most
   MAX_ITERATIONS + 1 - iteration trips *)
Theorem loop_bounded_inv :
  (forall st s, Inv st s -> snd (round_ st s) <> CFuel) ->
  forall k st s, Inv st s -> (trips_left st < k)%nat -> snd (loop_ k st s) <> CFuel.
Proof.
  intros Hnf. induction k as [| k IH]; intros st s Hinv Hk; [lia |].
  destruct (round_ st s) as [s1 [r | p |]] eqn:Hr.
  - destruct r as [v rev mode | hm v rev hs].
    + cbn [iter_loop]. unfold cbind. rewrite Hr. cbn. discriminate.
    + destruct (stamp_increment (N.max (ls_iter st) hm)) as [it' |] eqn:Hi.
      * destruct (Hnext st s s1 hm v rev hs it' Hinv Hr Hi) as (st2 & s2 & Heq & Hinv2 & Hlt).
        rewrite Heq. apply IH; [exact Hinv2 | lia].
      * cbn [iter_loop]. unfold cbind. rewrite Hr, Hi. cbn. discriminate.
  - cbn [iter_loop]. unfold cbind. rewrite Hr. cbn. discriminate.
  - exfalso. apply (Hnf st s Hinv). now rewrite Hr.
Qed.

(* a loop whose trips never converge (always "iterate again") and never panic by themselves ends
   in the too-many-iterations panic *)
Theorem loop_diverging_inv :
  (forall st s, Inv st s -> exists s' hm v rev hs, round_ st s = (s', COk (RIterate hm v rev hs))) ->
  forall k st s, Inv st s -> (trips_left st < k)%nat ->
  exists s', loop_ k st s = (s', CPanic (PB PTooMany)).
Proof.
  intros Hdiv. induction k as [| k IH]; intros st s Hinv Hk; [lia |].
  destruct (Hdiv st s Hinv) as [s1 [hm [v [rev [hs Hr]]]]].
  destruct (stamp_increment (N.max (ls_iter st) hm)) as [it' |] eqn:Hi.
  - destruct (Hnext st s s1 hm v rev hs it' Hinv Hr Hi) as (st2 & s2 & Heq & Hinv2 & Hlt).
    rewrite Heq. apply IH; [exact Hinv2 | lia].
  - cbn [iter_loop]. unfold cbind. rewrite Hr, Hi. cbn. eexists. reflexivity.
Qed.

End Trips.

Section C15.
Variable prog : qkey -> body.
Variable strat : N -> strategy.
Variable cinit : qkey -> val.
Variable n : nat.
Variable L : clower.
Variable q : qkey.

Notation round_ := (round prog strat cinit n L q).
Notation loop_ := (fun k => iter_loop prog strat cinit k n L q).

(* the epoch hypothesis: the stamps of the heads met by a trip are well-formed stamps of the
   loop's own cancellation epoch.  It is not proved of any epoch, and it FAILS
   for c <> 0: a trip whose only head is the loop's own node reports [stamp_default], of count 0
   ([EpochExamples.same_epoch_rounds_too_strong]).  Cycle/EpochTop.v proves the two theorems below
   from an invariant of the model instead. *)
Definition same_epoch_rounds (c : N) : Prop :=
  forall st s s' hm v rev hs,
    round_ st s = (s', COk (RIterate hm v rev hs)) ->
    stamp_wf hm /\ stamp_ccount hm = c.

Lemma loop_step_iterate : forall st s s1 hm v rev hs it',
  round_ st s = (s1, COk (RIterate hm v rev hs)) ->
  stamp_increment (N.max (ls_iter st) hm) = Some it' ->
  exists s2 m, forall k,
    loop_ (S k) st s = loop_ k {| ls_iter := it'; ls_last := Some m; ls_old := ls_old st |} s2.
Proof.
  intros st s s1 hm v rev hs it' Hr Hi. eexists. eexists. intros k.
  cbn [iter_loop]. unfold cbind at 1. rewrite Hr. rewrite Hi. reflexivity.
Qed.

Lemma same_epoch_next c : same_epoch_rounds c ->
  forall st s s1 hm v rev hs it', loop_inv c st ->
  round_ st s = (s1, COk (RIterate hm v rev hs)) ->
  stamp_increment (N.max (ls_iter st) hm) = Some it' ->
  exists st2 s2, (forall k, loop_ (S k) st s = loop_ k st2 s2) /\ loop_inv c st2 /\
                 (trips_left st2 < trips_left st)%nat.
Proof.
  intros Hep st s s1 hm v rev hs it' [Hwf Hc] Hr Hi.
  destruct (Hep st s s1 hm v rev hs Hr) as [Hhm Hhc].
  destruct (stamp_max_wf (ls_iter st) hm Hwf Hhm) as [Hmwf [Hmc Hmi]]; [congruence |].
  destruct (loop_step_iterate st s s1 hm v rev hs it' Hr Hi) as [s2 [m Heq]].
  exists {| ls_iter := it'; ls_last := Some m; ls_old := ls_old st |}, s2. split; [exact Heq |]. split.
  - destruct (stamp_increment_wf _ _ Hmwf Hi) as [Hw' [Hc' _]]. split; [exact Hw' | cbn; congruence].
  - exact (trips_decrease st {| ls_iter := it'; ls_last := Some m; ls_old := ls_old st |} _ Hmwf Hmi Hi).
Qed.

Theorem loop_bounded : forall c,
  same_epoch_rounds c ->
  (forall st s, snd (round_ st s) <> CFuel) ->
  forall k st s, loop_inv c st -> (trips_left st < k)%nat ->
  snd (loop_ k st s) <> CFuel.
Proof.
  intros c Hep Hnf.
  exact (loop_bounded_inv prog strat cinit n L q (fun st _ => loop_inv c st) (same_epoch_next c Hep) (fun st s _ => Hnf st s)).
Qed.

Theorem loop_diverging_panics : forall c,
  same_epoch_rounds c ->
  (forall st s, exists s' hm v rev hs, round_ st s = (s', COk (RIterate hm v rev hs))) ->
  forall k st s, loop_inv c st -> (trips_left st < k)%nat ->
  exists s', loop_ k st s = (s', CPanic (PB PTooMany)).
Proof.
  intros c Hep Hdiv.
  exact (loop_diverging_inv prog strat cinit n L q (fun st _ => loop_inv c st) (same_epoch_next c Hep) (fun st s _ => Hdiv st s)).
Qed.

End C15.

Lemma loop_fuel_enough st : (trips_left st < LOOP_FUEL)%nat.
Proof.
  unfold trips_left, LOOP_FUEL, MAX_ITERATIONS. rewrite k_MAX_ITERATIONS_val. lia.
Qed.
