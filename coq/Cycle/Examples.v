(* Cycle/Examples.v — concrete programs and runs of the executable Cycle model: non-vacuity
   witnesses for the hypotheses of the C12–C15 theorems, and the refutation witness of the
   history-independence clause of C13. *)
From Salsa Require Import Base.
From Salsa.Kern Require Import CoreK.
From Salsa.Core Require Spec.
From Salsa.Cycle Require Import StampK Model Spec Cert SpecProofs.

(* families as in the harness: 0 plain, 1 fix, 2 fixjoin, 3 fallback (0xA5), 4 nocycle *)
Definition ex_strat (fam : N) : strategy :=
  match fam with 1 => SFix | 2 => SFixJoin | 3 => SFallback | _ => SPanic end.
Definition ex_cinit (q : qkey) : val := if fst q =? 3 then 165 else 0.

Definition outs_of (prog : qkey -> body) (iv : ikey -> val) (ops : list cop) : list cout :=
  snd (crun_ops prog ex_strat ex_cinit 12 12 (cinit_db iv (fun _ => 0)) ops).
Definition final_of (prog : qkey -> body) (iv : ikey -> val) (ops : list cop) : cdb :=
  fst (crun_ops prog ex_strat ex_cinit 12 12 (cinit_db iv (fun _ => 0)) ops).

(* ---------------------------------------------------------------- C12 *)
(* x0 = in(0,0) | x1 ;  x1 = 2 | (x0 & 6)      (family 1: cycle_initial = 0, default cycle_fn) *)
Definition ex12_prog (q : qkey) : body :=
  if key_eqb q (1, 0) then RdIn (0, 0) (fun a => CallQ (1, 1) (fun b => Ret (N.lor a b)))
  else if key_eqb q (1, 1) then CallQ (1, 0) (fun b => Ret (N.lor 2 (N.land b 6)))
  else Ret 0.
Definition ex12_ns : list qkey := [(1, 0); (1, 1)].
Definition ex12_iv (i : ikey) : val := if key_eqb i (0, 0) then 5 else 0.

(* entered at either node, in a fresh revision or after a write: the least fixpoint *)
Example ex12_run :
  outs_of ex12_prog ex12_iv [COGet (1, 0); COGet (1, 1); COSet (0, 0) 8 None; COGet (1, 1); COGet (1, 0)]
  = [COk 7; COk 6; COk 0; COk 2; COk 10].
Proof. vm_compute. reflexivity. Qed.

Example ex12_kleene :
  let s := final_of ex12_prog ex12_iv [COGet (1, 0); COGet (1, 1); COSet (0, 0) 8 None; COGet (1, 1); COGet (1, 0)] in
  kleene ex12_prog (csnap_of s) ex12_ns (1, 0) = 10 /\ kleene ex12_prog (csnap_of s) ex12_ns (1, 1) = 2 /\
  is_fixpoint_state ex12_prog ex12_ns s = true /\
  final_val s (1, 0) = Some 10 /\ final_val s (1, 1) = Some 2.
Proof. vm_compute. repeat split; reflexivity. Qed.

(* the hypotheses of the C12 theorems hold of the example, for every snapshot with byte inputs *)
Example ex12_monotone sn : monotone_prog ex12_prog sn.
Proof.
  intros q rho rho' Hle. unfold F, ex12_prog.
  destruct (key_eqb q (1, 0)); [| destruct (key_eqb q (1, 1))];
    cbn [Salsa.Core.Spec.run Salsa.Core.Spec.e_q Salsa.Core.Spec.e_in Salsa.Core.Spec.e_cell].
  - apply lor_mono; [apply le_bits_refl | apply Hle].
  - apply lor_mono; [apply le_bits_refl |]. apply land_mono; [apply Hle | apply le_bits_refl].
  - apply le_bits_refl.
Qed.

Example ex12_fits sn : (forall i, Salsa.Core.Spec.sn_in sn i < 256) -> fits8 ex12_prog sn.
Proof.
  intros Hin q rho Hrho. unfold F, ex12_prog.
  destruct (key_eqb q (1, 0)); [| destruct (key_eqb q (1, 1))];
    cbn [Salsa.Core.Spec.run Salsa.Core.Spec.e_q Salsa.Core.Spec.e_in Salsa.Core.Spec.e_cell].
  - apply lor_lt256; [apply Hin | apply Hrho].
  - apply lor_lt256; [lia |]. apply land_lt256, Hrho.
  - lia.
Qed.

(* ---------------------------------------------------------------- C13 *)
(* f0 = 4 & (in(0,0) | f1) ;  f1 = f0          (family 3: cycle_result = 0xA5) *)
Definition ex13_prog (q : qkey) : body :=
  if key_eqb q (3, 0) then RdIn (0, 0) (fun a => CallQ (3, 1) (fun b => Ret (N.land 4 (N.lor a b))))
  else if key_eqb q (3, 1) then CallQ (3, 0) Ret
  else Ret 0.
Definition ex13_ns : list qkey := [(3, 0); (3, 1)].
Definition ex13_iv (i : ikey) : val := if key_eqb i (0, 1) then 7 else 0.

(* fresh database, either entry: both members return the fallback *)
Example ex13_fresh :
  outs_of ex13_prog ex13_iv [COGet (3, 0); COGet (3, 1)] = [COk 165; COk 165] /\
  outs_of ex13_prog ex13_iv [COGet (3, 1); COGet (3, 0)] = [COk 165; COk 165].
Proof. vm_compute. split; reflexivity. Qed.

Example ex13_spec :
  let s := final_of ex13_prog ex13_iv [COGet (3, 0); COGet (3, 1)] in
  spec_fallback ex13_prog (csnap_of s) ex_cinit ex13_ns (3, 0) = 165 /\
  spec_fallback ex13_prog (csnap_of s) ex_cinit ex13_ns (3, 1) = 165 /\
  is_fallback_state ex13_prog ex_cinit ex13_ns s = true.
Proof. vm_compute. repeat split; reflexivity. Qed.

(* the refutation witness: enter at f1, write an UNRELATED input field, ask for f0 *)
Definition ex13_hist : list cop := [COGet (3, 1); COSet (0, 1) 9 None; COGet (3, 0)].

Lemma ex13_refuted_run :
  outs_of ex13_prog ex13_iv ex13_hist = [COk 165; COk 0; COk 4] /\
  spec_fallback ex13_prog (csnap_of (final_of ex13_prog ex13_iv ex13_hist)) ex_cinit ex13_ns (3, 0) = 165.
Proof. vm_compute. split; reflexivity. Qed.

(* ---------------------------------------------------------------- C14 *)
(* n0 = if in(0,0) then n1 else 7 ;  n1 = in(1,0) | n0     (family 4: no recovery) *)
Definition ex14_prog (q : qkey) : body :=
  if key_eqb q (4, 0) then RdIn (0, 0) (fun a => if a =? 0 then Ret 7 else CallQ (4, 1) Ret)
  else if key_eqb q (4, 1) then RdIn (1, 0) (fun a => CallQ (4, 0) (fun b => Ret (N.lor a b)))
  else if key_eqb q (0, 0) then RdIn (1, 0) Ret
  else Ret 0.
Definition ex14_iv (i : ikey) : val := if key_eqb i (0, 0) then 1 else if key_eqb i (1, 0) then 2 else 0.

(* cycle panic from either entry, an unrelated function is fine in between, and once the input
   breaks the cycle the same functions return their from-scratch values *)
Example ex14_run :
  outs_of ex14_prog ex14_iv
    [COGet (4, 0); COGet (0, 0); COGet (4, 1); COSet (0, 0) 0 None; COGet (4, 1); COGet (4, 0)]
  = [CPanic (PB PCycle); COk 2; CPanic (PB PCycle); COk 0; COk 7; COk 7].
Proof. vm_compute. reflexivity. Qed.

(* ---------------------------------------------------------------- C15 *)
(* d0 = if in(0,0) then 1 + d1 else 7 ;  d1 = in(1,0) | d0     (family 1: never stabilises) *)
Definition ex15_prog (q : qkey) : body :=
  if key_eqb q (1, 0) then RdIn (0, 0) (fun a => if a =? 0 then Ret 7
                                                 else CallQ (1, 1) (fun b => Ret ((1 + b) mod 256)))
  else if key_eqb q (1, 1) then RdIn (1, 0) (fun a => CallQ (1, 0) (fun b => Ret (N.lor a b)))
  else if key_eqb q (0, 0) then RdIn (1, 0) Ret
  else Ret 0.

Definition count_runs (q : qkey) (s : cdb) : nat := length (filter (key_eqb q) (c_runs s)).

(* the first Get runs the loop to its end; it is evaluated once, for what it returns, how often the
   head's body ran, and the rest of the history from the state it leaves *)
Lemma ex15_eval :
  let r1 := cstep ex15_prog ex_strat ex_cinit 12 12 (cinit_db ex14_iv (fun _ => 0)) (COGet (1, 0)) in
  snd r1 = CPanic (PB PTooMany) /\ count_runs (1, 0) (fst r1) = 201%nat /\
  snd (crun_ops ex15_prog ex_strat ex_cinit 12 12 (fst r1)
         [COGet (0, 0); COSet (0, 0) 0 None; COGet (1, 1); COGet (1, 0)])
  = [COk 2; COk 0; COk 7; COk 7].
Proof. vm_compute. repeat split; reflexivity. Qed.

Lemma outs_cons prog iv o os :
  outs_of prog iv (o :: os)
  = snd (cstep prog ex_strat ex_cinit 12 12 (cinit_db iv (fun _ => 0)) o)
    :: snd (crun_ops prog ex_strat ex_cinit 12 12 (fst (cstep prog ex_strat ex_cinit 12 12 (cinit_db iv (fun _ => 0)) o)) os).
Proof.
  unfold outs_of. cbn [crun_ops]. destruct (cstep prog ex_strat ex_cinit 12 12 (cinit_db iv (fun _ => 0)) o) as [s1 r].
  cbn [fst snd]. destruct (crun_ops prog ex_strat ex_cinit 12 12 s1 os) as [s2 rs]. reflexivity.
Qed.

Lemma final_one prog iv o :
  final_of prog iv [o] = fst (cstep prog ex_strat ex_cinit 12 12 (cinit_db iv (fun _ => 0)) o).
Proof.
  unfold final_of. cbn [crun_ops]. destruct (cstep prog ex_strat ex_cinit 12 12 (cinit_db iv (fun _ => 0)) o) as [s1 r].
  reflexivity.
Qed.

Example ex15_run :
  outs_of ex15_prog ex14_iv
    [COGet (1, 0); COGet (0, 0); COSet (0, 0) 0 None; COGet (1, 1); COGet (1, 0)]
  = [CPanic (PB PTooMany); COk 2; COk 0; COk 7; COk 7].
Proof. destruct ex15_eval as (H1 & _ & H2). rewrite outs_cons, H1, H2. reflexivity. Qed.

(* the head ran its body exactly MAX_ITERATIONS + 1 times before the panic *)
Example ex15_runs :
  count_runs (1, 0) (final_of ex15_prog ex14_iv [COGet (1, 0)]) = 201%nat.
Proof. rewrite final_one. exact (proj1 (proj2 ex15_eval)). Qed.
