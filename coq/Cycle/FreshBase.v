(* Cycle/FreshBase.v — tools for the fresh-revision theorems; [cwp] is a total-correctness wp for
   the Cycle model's monad. *)
From Coq Require Import PeanoNat.
From Salsa Require Import Base.
From Salsa.Kern Require Import CoreK.
From Salsa.Core Require Import Spec.
From Salsa.Cycle Require Import StampK Model Spec SpecProofs FallbackProofs.

Definition cwp {A} (m : CM A) (Q : cdb -> A -> Prop) (s : cdb) : Prop :=
  match m s with
  | (s', COk a) => Q s' a
  | _ => False
  end.

Lemma cwp_ret {A} (a : A) (Q : cdb -> A -> Prop) s : Q s a -> cwp (cret a) Q s.
Proof. intros H. exact H. Qed.

Lemma cwp_bind {A B} (m : CM A) (f : A -> CM B) (Q : cdb -> B -> Prop) s :
  cwp m (fun s' a => cwp (f a) Q s') s -> cwp (cbind m f) Q s.
Proof.
  unfold cwp, cbind. destruct (m s) as [s' [a | p |]]; intros H; try contradiction. exact H.
Qed.

Lemma cwp_get (Q : cdb -> cdb -> Prop) s : Q s s -> cwp cget Q s.
Proof. intros H. exact H. Qed.

Lemma cwp_modify f (Q : cdb -> unit -> Prop) s : Q (f s) tt -> cwp (cmodify f) Q s.
Proof. intros H. exact H. Qed.

Lemma cwp_conseq {A} (m : CM A) (Q Q' : cdb -> A -> Prop) s :
  cwp m Q s -> (forall s' a, Q s' a -> Q' s' a) -> cwp m Q' s.
Proof.
  unfold cwp. destruct (m s) as [s' [a | p |]]; intros H HQ; try contradiction. now apply HQ.
Qed.

Lemma cwp_seq {A B} (m : CM A) (f : A -> CM B) (Q : cdb -> A -> Prop) (Q' : cdb -> B -> Prop) s :
  cwp m Q s -> (forall s' a, Q s' a -> cwp (f a) Q' s') -> cwp (cbind m f) Q' s.
Proof. intros H HQ. apply cwp_bind. eapply cwp_conseq; [exact H | exact HQ]. Qed.

Lemma cwp_on_panic {A} (m : CM A) h (Q : cdb -> A -> Prop) s : cwp m Q s -> cwp (on_panic m h) Q s.
Proof.
  unfold cwp, on_panic. destruct (m s) as [s' [a | p |]]; intros H; try contradiction. exact H.
Qed.

Lemma cwp_inv {A} (m : CM A) (Q : cdb -> A -> Prop) s : cwp m Q s -> exists s' a, m s = (s', COk a) /\ Q s' a.
Proof.
  unfold cwp. destruct (m s) as [s' [a | p |]]; intros H; try contradiction. now exists s', a.
Qed.

Lemma cwp_intro {A} (m : CM A) (Q : cdb -> A -> Prop) s s' a : m s = (s', COk a) -> Q s' a -> cwp m Q s.
Proof. unfold cwp. intros -> H. exact H. Qed.

Lemma cwp_emit e (Q : cdb -> unit -> Prop) s : Q (cset_log s (e :: c_log s)) tt -> cwp (cemit e) Q s.
Proof. intros H. exact H. Qed.

Lemma stamp_initial_0 : stamp_initial 0 = 0.
Proof. reflexivity. Qed.

Lemma stamp_ccount_small n : n < 256 -> stamp_ccount n = 0.
Proof.
  intros H. unfold stamp_ccount, Kernels.k_stamp_cancellation_count.
  rewrite N.div_small by exact H. reflexivity.
Qed.

Lemma stamp_iteration_small n : n < 256 -> stamp_iteration n = n.
Proof. intros H. unfold stamp_iteration, Kernels.k_stamp_iteration. now apply N.mod_small. Qed.

Lemma stamp_is_initial_small n : n < 256 -> stamp_is_initial n = (n =? 0).
Proof.
  intros H. unfold stamp_is_initial, Kernels.k_stamp_is_initial_iteration, Kernels.k_stamp_iteration.
  rewrite N.mod_small by exact H. reflexivity.
Qed.

Lemma stamp_is_default_eq n : stamp_is_default n = (n =? 0).
Proof. reflexivity. Qed.

Lemma stamp_increment_small n : n < 200 -> stamp_increment n = Some (n + 1).
Proof.
  intros H. unfold stamp_increment, Kernels.k_stamp_increment_iteration, Kernels.k_stamp_iteration,
    Kernels.k_MAX_ITERATIONS.
  rewrite (N.mod_small (n + 1) 65536) by lia.
  rewrite (N.mod_small (n + 1) 256) by lia.
  destruct (N.leb_spec (n + 1) 200); [reflexivity | lia].
Qed.

Section Stack.
Variable lvl : qkey -> nat.

(* what lies under the first occurrence of h *)
Fixpoint below (st : list qkey) (h : qkey) : list qkey :=
  match st with
  | [] => []
  | q :: r => if key_eqb q h then r else below r h
  end.

Lemma below_incl st h : incl (below st h) st.
Proof.
  induction st as [| q r IH]; cbn; [intros x Hx; exact Hx |].
  destruct (key_eqb q h).
  - intros x Hx. now right.
  - intros x Hx. right. now apply IH.
Qed.

Lemma below_either st h h' : In h st -> In h' st -> h <> h' ->
  In h' (below st h) \/ In h (below st h').
Proof.
  induction st as [| q r IH]; intros Hh Hh' Hne; [contradiction |].
  cbn. destruct (key_eqb_spec q h) as [-> | Hqh].
  - left. destruct Hh' as [Heq | Hin]; [congruence | exact Hin].
  - destruct (key_eqb_spec q h') as [-> | Hqh'].
    + right. destruct Hh as [Heq | Hin]; [congruence | exact Hin].
    + destruct Hh as [Heq | Hh]; [congruence |]. destruct Hh' as [Heq | Hh']; [congruence |].
      now apply IH.
Qed.

(* levels never decrease going down the stack *)
Fixpoint mono (st : list qkey) : Prop :=
  match st with
  | [] => True
  | q :: r => (forall q', In q' r -> (lvl q <= lvl q')%nat) /\ mono r
  end.

Lemma mono_below st h : mono st -> In h st -> forall q', In q' (below st h) -> (lvl h <= lvl q')%nat.
Proof.
  induction st as [| q r IH]; intros Hm Hh q' Hq'; [contradiction |].
  cbn in Hq'. destruct Hm as [Hq Hm]. destruct (key_eqb_spec q h) as [-> | Hne].
  - now apply Hq.
  - destruct Hh as [Heq | Hh]; [congruence |]. now apply IH.
Qed.

(* h is the entry of its level: everything under it is strictly higher *)
Definition bottom (st : list qkey) (h : qkey) : Prop :=
  In h st /\ forall q', In q' (below st h) -> (lvl h < lvl q')%nat.

Lemma bottom_unique st h h' : bottom st h -> bottom st h' -> lvl h = lvl h' -> h = h'.
Proof.
  intros [Hh Hb] [Hh' Hb'] Hl. destruct (key_eqb_spec h h') as [-> | Hne]; [reflexivity |].
  destruct (below_either st h h' Hh Hh' Hne) as [Hin | Hin].
  - apply Hb in Hin. lia.
  - apply Hb' in Hin. lia.
Qed.

Lemma bottom_push st h d : d <> h -> bottom st h -> bottom (d :: st) h.
Proof.
  intros Hne [Hh Hb]. split; [now right |]. cbn. apply key_eqb_neq in Hne. rewrite Hne. exact Hb.
Qed.

Lemma bottom_pop st h d : d <> h -> bottom (d :: st) h -> bottom st h.
Proof.
  intros Hne [Hh Hb]. cbn in Hb. apply key_eqb_neq in Hne. rewrite Hne in Hb.
  split; [| exact Hb]. destruct Hh as [Heq | Hh]; [| exact Hh]. apply key_eqb_neq in Hne. congruence.
Qed.

(* the entry of the top segment *)
Fixpoint botof_from (cur : qkey) (r : list qkey) : qkey :=
  match r with
  | [] => cur
  | q' :: r' => if Nat.eqb (lvl q') (lvl cur) then botof_from q' r' else cur
  end.

Definition botof (st : list qkey) : option qkey :=
  match st with
  | [] => None
  | q :: r => Some (botof_from q r)
  end.

Lemma botof_from_lvl r : forall cur, lvl (botof_from cur r) = lvl cur.
Proof.
  induction r as [| q' r' IH]; intros cur; cbn; [reflexivity |].
  destruct (Nat.eqb_spec (lvl q') (lvl cur)) as [He | Hne]; [| reflexivity].
  rewrite IH. exact He.
Qed.

Lemma botof_from_in r : forall cur, In (botof_from cur r) (cur :: r).
Proof.
  induction r as [| q' r' IH]; intros cur; cbn; [now left |].
  destruct (Nat.eqb (lvl q') (lvl cur)); [| now left].
  right. apply IH.
Qed.

Lemma botof_from_bottom r : forall cur, mono (cur :: r) -> NoDup (cur :: r) ->
  forall q', In q' (below (cur :: r) (botof_from cur r)) -> (lvl cur < lvl q')%nat.
Proof.
  induction r as [| q1 r' IH]; intros cur Hm Hnd q' Hq'.
  - cbn in Hq'. rewrite key_eqb_refl in Hq'. contradiction.
  - cbn [botof_from] in Hq'. destruct (Nat.eqb_spec (lvl q1) (lvl cur)) as [He | Hne].
    + cbn [below] in Hq'.
      destruct (key_eqb_spec cur (botof_from q1 r')) as [Heq | Hneq].
      * exfalso. apply NoDup_cons_iff in Hnd as [Hnin Hnd']. apply Hnin. rewrite Heq. apply botof_from_in.
      * rewrite <- He. destruct Hm as [_ Hm]. apply NoDup_cons_iff in Hnd as [Hnin Hnd'].
        now apply IH.
    + cbn [below] in Hq'. rewrite key_eqb_refl in Hq'.
      destruct Hm as [Hc Hm]. destruct Hq' as [<- | Hq'].
      * assert (H1 := Hc q1 (or_introl eq_refl)). lia.
      * destruct Hm as [Hq1 _]. assert (H1 := Hc q1 (or_introl eq_refl)).
        assert (H2 := Hq1 q' Hq'). lia.
Qed.

Lemma botof_bottom st b : mono st -> NoDup st -> botof st = Some b ->
  bottom st b /\ (forall q r, st = q :: r -> lvl b = lvl q).
Proof.
  intros Hm Hnd Hb. destruct st as [| q r]; [discriminate |]. cbn in Hb. injection Hb as <-.
  split.
  - split; [apply botof_from_in |]. intros q' Hq'. rewrite botof_from_lvl.
    now apply (botof_from_bottom r q Hm Hnd).
  - intros q0 r0 Heq. injection Heq as <- <-. apply botof_from_lvl.
Qed.

Lemma botof_push_same d q r : lvl d = lvl q -> botof (d :: q :: r) = botof (q :: r).
Proof. intros H. cbn. rewrite H, Nat.eqb_refl. reflexivity. Qed.

Lemma botof_push_new d q r : lvl d <> lvl q -> botof (d :: q :: r) = Some d.
Proof. intros H. cbn. destruct (Nat.eqb_spec (lvl q) (lvl d)); [congruence | reflexivity]. Qed.

End Stack.

Section Calls.
Variable prog : qkey -> body.
Variable sn : snapshot.

Inductive reaches : qkey -> qkey -> Prop :=
| reaches_refl p : reaches p p
| reaches_step p d h : In d (succs prog sn p) -> reaches d h -> reaches p h.

Lemma walk_reaches k : forall x y, walk (succs prog sn) k x y -> reaches x y.
Proof.
  induction k as [| k IH]; intros x y Hw; cbn in Hw.
  - subst. constructor.
  - destruct Hw as (z & Hz & Hw). apply (reaches_step x z y Hz). now apply IH.
Qed.

Lemma F_ext_succs rho rho' q : input_determined prog sn ->
  (forall d, In d (succs prog sn q) -> rho d = rho' d) -> F prog sn rho q = F prog sn rho' q.
Proof.
  intros Hdet H. unfold F. apply run_agree. intros d Hd. apply H. rewrite <- (Hdet q rho). exact Hd.
Qed.

End Calls.
