(* Cycle/HeadInv.v — cycle heads are sound, for ALL programs, strategies and histories: every head
   recorded in a valued memo (and every head collected in a frame) is a key that the memo's (the
   frame's) key can reach in the static call graph and that lies on a cycle of it; every recorded
   query edge is a transitive callee.  Definitions and the invariant: the one of Cycle/LockTop.v
   over reachability in the call graph, i.e. the claim invariant of Cycle/LockInv.v with the extra
   fact that the open claims form a chain of calls. *)
From Coq Require Import PeanoNat Lia.
From Salsa Require Import Base.
From Salsa.Kern Require Import CoreK.
From Salsa.Core Require Import Spec.
From Salsa.Cycle Require Import StampK Model LockInv LockOps LockTop.

Section HeadInv.
Variable prog : qkey -> body.

(* the static call graph: p may call d, under some answers *)
Inductive reach : qkey -> qkey -> Prop :=
| r_one p d : calls (prog p) d -> reach p d
| r_step p d e : calls (prog p) d -> reach d e -> reach p e.

Lemma reach_trans a b c : reach a b -> reach b c -> reach a c.
Proof.
  induction 1 as [p d H | p d e H _ IH]; intros Hc.
  - exact (r_step p d c H Hc).
  - exact (r_step p d c H (IH Hc)).
Qed.

Definition reachR (p d : qkey) : Prop := p = d \/ reach p d.
Definition cyc (h : qkey) : Prop := reach h h.

Definition heads_hok (p : qkey) (hs : list head) : Prop :=
  forall h, In h hs -> reachR p (fst h) /\ cyc (fst h).
Definition edges_hok (p : qkey) (es : list edge) : Prop :=
  forall d, In (EQ d) es -> reach p d.

(* a memo of key p *)
Definition memo_hok (p : qkey) (m : cmemo) : Prop :=
  edges_hok p (cm_edges m) /\ (cm_val m <> None -> heads_hok p (raw_heads m)).
(* a completed frame of key p, before the value is filled in *)
Definition rev_hok (p : qkey) (m : cmemo) : Prop :=
  edges_hok p (cm_edges m) /\ heads_hok p (raw_heads m).

Definition MH (s : cdb) : Prop := forall p m, c_memo s p = Some m -> memo_hok p m.

(* the open claims, innermost first: each was requested by the next one *)
Fixpoint chn (hl : list qkey) : Prop :=
  match hl with
  | a :: ((b :: _) as r) => reach b a /\ chn r
  | _ => True
  end.

(* who asks: the innermost open claim reaches the requested key *)
Definition req (hl : list qkey) (d : qkey) : Prop := forall k r, hl = k :: r -> reach k d.

Definition KH (hl stk : list qkey) (s : cdb) : Prop := K hl stk s /\ chn hl /\ MH s.

(* These are the notions of Cycle/LockTop.v at [reach]: [KH hl stk s] unfolds to [KS reach hl stk s],
   [chn] to [chain reach], [req] to [asks reach], [memo_hok] to [msound reach]. *)

(* a key with an open claim that is requested again lies on a cycle *)
Lemma reentry_cyc hl q : chn hl -> req hl q -> In q hl -> cyc q.
Proof. exact (reentry reach reach_trans hl q). Qed.

Lemma rev_memo_hok p m : rev_hok p m -> memo_hok p m.
Proof. intros [A B]. split; [exact A | intros _; exact B]. Qed.

(* ---------------------------------------------------------------- quiet computations *)
(* claim state, stack and memo table are as they were, whatever the outcome *)
Definition quiet {A} (m : CM A) : Prop :=
  forall s, lksim s (fst (m s)) /\ c_memo (fst (m s)) = c_memo s.

Lemma quiet_nofuel {A} : quiet (@cnofuel A).
Proof. exact (pres_nofuel qsim qsim_refl). Qed.
Lemma quiet_lks {A} (m : CM A) : quiet m -> lks m.
Proof. intros H s. apply H. Qed.

End HeadInv.
