(* Cycle/LockInv.v — the claim discipline of the Cycle model (one thread), for ALL programs,
   strategies and histories: which keys are held by an open claim guard, that the query stack only
   holds such keys, and that a key claimed a second time is not at the same time transferred.
   A weakest precondition for every outcome except out-of-fuel (which is a model artefact: no
   guard runs).  What comes before the invariant (the rules of that weakest precondition, [pres],
   facts about Model's own functions) is used by every other invariant of the model too. *)
From Coq Require Import PeanoNat Lia.
From Salsa Require Import Base.
From Salsa.Kern Require Import CoreK.
From Salsa.Cycle Require Import StampK Model.

(* ---------------------------------------------------------------- a wp for values and panics *)
Definition awp {A} (m : CM A) (Q : A -> cdb -> Prop) (X : cdb -> Prop) (s : cdb) : Prop :=
  match m s with
  | (s', COk a) => Q a s'
  | (s', CPanic _) => X s'
  | (_, CFuel) => True
  end.

Lemma awp_ret {A} (a : A) (Q : A -> cdb -> Prop) (X : cdb -> Prop) s : Q a s -> awp (cret a) Q X s.
Proof. intros H; exact H. Qed.
Lemma awp_fail {A} p (Q : A -> cdb -> Prop) (X : cdb -> Prop) s : X s -> awp (cfail p) Q X s.
Proof. intros H; exact H. Qed.
Lemma awp_nofuel {A} (Q : A -> cdb -> Prop) (X : cdb -> Prop) s : awp cnofuel Q X s.
Proof. exact I. Qed.
Lemma awp_get (Q : cdb -> cdb -> Prop) (X : cdb -> Prop) s : Q s s -> awp cget Q X s.
Proof. intros H; exact H. Qed.
Lemma awp_modify f (Q : unit -> cdb -> Prop) (X : cdb -> Prop) s : Q tt (f s) -> awp (cmodify f) Q X s.
Proof. intros H; exact H. Qed.
Lemma awp_bind {A B} (m : CM A) (f : A -> CM B) (Q : B -> cdb -> Prop) (X : cdb -> Prop) s :
  awp m (fun a s' => awp (f a) Q X s') X s -> awp (cbind m f) Q X s.
Proof. unfold awp, cbind. destruct (m s) as [s' [a | p |]]; intros H; exact H. Qed.
Lemma awp_conseq {A} (m : CM A) (Q Q' : A -> cdb -> Prop) (X X' : cdb -> Prop) s :
  awp m Q X s -> (forall a s', Q a s' -> Q' a s') -> (forall s', X s' -> X' s') -> awp m Q' X' s.
Proof. unfold awp. destruct (m s) as [s' [a | p |]]; intros H HQ HX; auto. Qed.
Lemma cbind_ret {A B} (a : A) (f : A -> CM B) s : cbind (cret a) f s = f a s.
Proof. reflexivity. Qed.

Lemma awp_eq {A} (m m' : CM A) (Q : A -> cdb -> Prop) (X : cdb -> Prop) s :
  m s = m' s -> awp m' Q X s -> awp m Q X s.
Proof. unfold awp. intros ->. exact (fun H => H). Qed.
Lemma awp_seq {A B} (m : CM A) (f : A -> CM B) (Q1 : A -> cdb -> Prop) (Q : B -> cdb -> Prop) (X : cdb -> Prop) s :
  awp m Q1 X s -> (forall a s', Q1 a s' -> awp (f a) Q X s') -> awp (cbind m f) Q X s.
Proof. intros H Hf. apply awp_bind. exact (awp_conseq m Q1 _ X X s H Hf (fun _ B => B)). Qed.
Lemma awp_and {A} (m : CM A) (Q1 Q2 : A -> cdb -> Prop) (X1 X2 : cdb -> Prop) s :
  awp m Q1 X1 s -> awp m Q2 X2 s -> awp m (fun a s' => Q1 a s' /\ Q2 a s') (fun s' => X1 s' /\ X2 s') s.
Proof. unfold awp. destruct (m s) as [s' [a | p |]]; auto. Qed.
Lemma awp_on_panic {A} (m : CM A) h (Q : A -> cdb -> Prop) (X : cdb -> Prop) s :
  awp m Q (fun s' => X (fst (h s'))) s -> awp (on_panic m h) Q X s.
Proof. unfold awp, on_panic. destruct (m s) as [s' [a | p |]]; intros H; exact H. Qed.

(* [pres R m]: whatever the outcome (also out-of-fuel), the state after [m] is R-related to the
   state before.  With R a preorder that forgets the fields [m] writes, this is a frame property. *)
Section Frame.
Variable R : cdb -> cdb -> Prop.
Hypothesis R_refl : forall s, R s s.
Hypothesis R_trans : forall a b c, R a b -> R b c -> R a c.

Definition pres {A} (m : CM A) : Prop := forall s, R s (fst (m s)).

Lemma awp_pres {A} (m : CM A) s : pres m -> awp m (fun _ s' => R s s') (R s) s.
Proof. intros H. unfold awp. specialize (H s). destruct (m s) as [s' [a | p |]]; cbn [fst] in H; auto. Qed.

Lemma pres_ret {A} (a : A) : pres (cret a).
Proof. intros s. apply R_refl. Qed.
Lemma pres_fail {A} p : pres (@cfail A p).
Proof. intros s. apply R_refl. Qed.
Lemma pres_nofuel {A} : pres (@cnofuel A).
Proof. intros s. apply R_refl. Qed.
Lemma pres_get : pres cget.
Proof. intros s. apply R_refl. Qed.
Lemma pres_modify f : (forall s, R s (f s)) -> pres (cmodify f).
Proof. intros H s. apply H. Qed.
Lemma pres_bind {A B} (m : CM A) (f : A -> CM B) : pres m -> (forall a, pres (f a)) -> pres (cbind m f).
Proof.
  intros Hm Hf s. unfold cbind. specialize (Hm s). destruct (m s) as [s1 [a | p |]]; cbn [fst] in *; try exact Hm.
  eapply R_trans; [exact Hm | apply Hf].
Qed.
Lemma pres_on_panic {A} (m : CM A) h : pres m -> pres h -> pres (on_panic m h).
Proof.
  intros Hm Hh s. unfold on_panic. specialize (Hm s). destruct (m s) as [s1 [a | p |]]; cbn [fst] in *; try exact Hm.
  eapply R_trans; [exact Hm | apply Hh].
Qed.

(* code that only reads the state, except that peek_claim sets a flag *)
Section Readers.
Hypothesis R_peek : forall q, pres (peek_claim q).

Lemma pres_same_iteration_heads ver : forall hs, pres (same_iteration_heads ver hs).
Proof.
  induction hs as [| h hs IH]; cbn [same_iteration_heads]; [apply pres_ret |].
  apply pres_bind; [apply R_peek |]. intros pk. destruct pk; [apply pres_ret |].
  apply pres_bind; [apply pres_get |]. intros s.
  destruct (key_status s (fst h)) as [[it v hs0 | it v | it v] |]; try apply pres_fail.
  - destruct (negb (v =? ver)); [apply pres_ret |]. destruct (negb (snd h =? it)); [apply pres_ret | apply IH].
  - destruct ((v =? ccur s) && (stamp_ccount it =? c_ccount s)); [apply pres_fail | apply pres_ret].
  - destruct (negb (v =? ver)); [apply pres_ret |]. destruct (negb (snd h =? it)); [apply pres_ret | apply IH].
Qed.

Lemma pres_vsi q m : pres (validate_same_iteration q m).
Proof.
  unfold validate_same_iteration. apply pres_bind; [apply pres_get |]. intros s.
  destruct (negb (cm_verified m =? ccur s)); [apply pres_ret |].
  destruct (heads_not_eq (heads_of m) q); [apply pres_ret | apply pres_same_iteration_heads].
Qed.

Lemma pres_find_claimed : forall hs, pres (find_claimed_head hs).
Proof.
  induction hs as [| h hs IH]; cbn [find_claimed_head]; [apply pres_ret |].
  apply pres_bind; [apply R_peek |]. intros pk. destruct pk as [| [|]]; try apply IH. apply pres_ret.
Qed.

Lemma pres_outer_cycle heads me : pres (outer_cycle heads me).
Proof.
  unfold outer_cycle. apply pres_bind; [apply pres_get |]. intros s.
  destruct (find (fun k => negb (key_eqb k me) && heads_contains heads k) (List.rev (c_qstack s)));
    [apply pres_ret | apply pres_find_claimed].
Qed.
End Readers.

(* the sync-table operations only write the sync table and the transfer map *)
Section Sync.
Hypothesis R_tr : forall s x, R s (cset_trans s x).

Lemma pres_release_state q y : pres (release_state q y).
Proof.
  unfold release_state. destruct (sy_wait y); [| apply pres_ret].
  apply pres_bind.
  - destruct (sy_twice y); [apply pres_modify; intros s; apply R_tr | apply pres_ret].
  - intros _. destruct (sy_target y); [apply pres_modify; intros s; apply R_tr | apply pres_ret].
Qed.

Hypothesis R_sync : forall s x, R s (cset_sync s x).

Lemma pres_set_sync q y : pres (set_sync q y).
Proof. apply pres_modify. intros s. apply R_sync. Qed.

Lemma pres_peek_claim q : pres (peek_claim q).
Proof.
  unfold peek_claim. apply pres_bind; [apply pres_get |]. intros s.
  destruct (c_sync s q) as [y |]; [| apply pres_ret].
  destruct (sy_trans y).
  - destruct (trans_get (c_trans s) q); apply pres_ret.
  - apply pres_bind; [apply pres_set_sync | intros; apply pres_ret].
Qed.

Lemma pres_try_claim q allow : pres (try_claim q allow).
Proof.
  unfold try_claim. apply pres_bind; [apply pres_get |]. intros s.
  destruct (c_sync s q) as [y |].
  - destruct (sy_trans y).
    + destruct (trans_get (c_trans s) q).
      * destruct allow; [| apply pres_ret]. destruct (sy_twice y); [apply pres_fail |].
        apply pres_bind; [apply pres_set_sync | intros; apply pres_ret].
      * apply pres_bind; [apply pres_set_sync | intros; apply pres_ret].
    + apply pres_bind; [apply pres_set_sync | intros; apply pres_ret].
  - apply pres_bind; [apply pres_set_sync | intros; apply pres_ret].
Qed.

Lemma pres_release_default q : pres (release_default q).
Proof.
  unfold release_default. apply pres_bind; [apply pres_get |]. intros s.
  destruct (c_sync s q) as [y |]; [| apply pres_fail].
  apply pres_bind; [apply pres_set_sync | intros; apply pres_release_state].
Qed.

Lemma pres_drop_guard q mode : pres (drop_guard q mode).
Proof.
  destruct mode as [| | o]; cbn [drop_guard].
  - apply pres_release_default.
  - unfold release_self. apply pres_bind; [apply pres_get |]. intros s.
    destruct (c_sync s q) as [y |]; [| apply pres_fail].
    destruct (sy_twice y); [apply pres_set_sync |].
    apply pres_bind; [apply pres_set_sync | intros; apply pres_release_state].
  - unfold transfer. apply pres_bind; [apply pres_get |]. intros s.
    destruct (c_sync s o) as [yo |].
    + apply pres_bind; [apply pres_set_sync |]. intros _. apply pres_bind; [apply pres_get |]. intros s1.
      destruct (c_sync s1 q) as [y |]; [| apply pres_fail].
      apply pres_bind; [apply pres_set_sync |]. intros _.
      destruct (sy_trans yo && match trans_get (c_trans s1) o with None => true | Some _ => false end);
        [apply pres_fail | apply pres_modify; intros s2; apply R_tr].
    + apply pres_bind; [apply pres_release_default | intros; apply pres_fail].
Qed.

Lemma pres_release_panicking q s : R s (fst (release_panicking q s)).
Proof.
  unfold release_panicking. destruct (c_sync s q) as [y |]; [| apply R_refl].
  apply (pres_bind (set_sync q None) (fun _ => release_state q y)); [apply pres_set_sync | intros; apply pres_release_state].
Qed.
End Sync.
End Frame.

Lemma heads_insert_in hs q it hs' : heads_insert hs q it = Some hs' ->
  forall x, In x hs' -> In x hs \/ x = (q, it).
Proof.
  unfold heads_insert. destruct (heads_find hs q) as [it' |].
  - destruct (it' =? it); [| discriminate]. intros H. injection H as <-. intros x Hx. now left.
  - intros H. injection H as <-. intros x Hx. apply in_app_or in Hx as [Hx | [<- | []]]; [now left | now right].
Qed.

Lemma heads_extend_in other : forall hs hs', heads_extend hs other = Some hs' ->
  forall x, In x hs' -> In x hs \/ In x other.
Proof.
  induction other as [| h o IH]; intros hs hs' H x Hx; cbn [heads_extend] in H.
  - injection H as <-. now left.
  - destruct (heads_insert hs (fst h) (snd h)) as [hs1 |] eqn:Hi; [| discriminate].
    destruct (IH hs1 hs' H x Hx) as [H1 | H1]; [| right; now right].
    destruct (heads_insert_in _ _ _ _ Hi x H1) as [H2 | H2]; [now left |].
    right; left. destruct h. exact (eq_sym H2).
Qed.

Lemma insert_missing_in missing : forall hs hs', insert_missing hs missing = Some hs' ->
  forall x, In x hs' -> In x hs \/ In x missing.
Proof.
  induction missing as [| h o IH]; intros hs hs' H x Hx; cbn [insert_missing] in H.
  - injection H as <-. now left.
  - destruct (heads_insert hs (fst h) (snd h)) as [hs1 |] eqn:Hi; [| discriminate].
    destruct (IH hs1 hs' H x Hx) as [H1 | H1]; [| right; now right].
    destruct (heads_insert_in _ _ _ _ Hi x H1) as [H2 | H2]; [now left |].
    right; left. destruct h. exact (eq_sym H2).
Qed.

Lemma In_add_edge' e' es e : In e' (add_edge es e) -> In e' es \/ e' = e.
Proof.
  unfold add_edge, Salsa.Core.Model.add_edge. destruct (existsb (edge_eqb e) es); [now left |].
  intros H. apply in_app_or in H. destruct H as [H | [H | []]]; [now left | right; now symmetry].
Qed.

(* the loop of collect_recursive over the heads of one memo, the recursive call a parameter *)
Fixpoint collect_heads (rec : qkey -> coll -> CM coll) (qh hs : list head) (acc : coll) : CM coll :=
  match hs with
  | [] => cret acc
  | h :: hs' =>
      let '(missing, mx, dep) := acc in
      let mx1 := N.max mx (snd h) in
      if heads_contains qh (fst h) then collect_heads rec qh hs' (missing, mx1, dep)
      else if existsb (fun x => key_eqb (fst x) (fst h) && (snd x =? snd h)) missing
           then collect_heads rec qh hs' (missing, mx1, dep)
      else acc' <- rec (fst h) (missing ++ [h], mx1, dep) ;; collect_heads rec qh hs' acc'
  end.

Lemma collect_recursive_S n cur me qh acc s :
  collect_recursive (S n) cur me qh acc s =
  if key_eqb cur me then (s, COk (let '(missing, mx, dep) := acc in (missing, mx, true)))
  else match key_status s cur with
       | Some (PsProvisional _ _ hs) =>
           collect_heads (fun k a => collect_recursive n k me qh a) qh hs acc s
       | Some (PsPoisoned _ _) => (s, CPanic (PB PPropagated))
       | _ => (s, CPanic PAssert)
       end.
Proof.
  cbn [collect_recursive]. destruct (key_eqb cur me); [destruct acc as [[missing mx] dep]; reflexivity |].
  unfold cbind at 1, cget at 1. destruct (key_status s cur) as [[it v hs | it v | it v] |]; try reflexivity.
  revert acc s. induction hs as [| h hs IH]; intros acc s; [reflexivity |].
  destruct acc as [[missing mx] dep]. cbn [collect_heads]. cbv zeta.
  destruct (heads_contains qh (fst h)); [apply IH |].
  destruct (existsb (fun x => key_eqb (fst x) (fst h) && (snd x =? snd h)) missing); [apply IH |].
  unfold cbind. destruct (collect_recursive n (fst h) me qh (missing ++ [h], N.max mx (snd h), dep) s) as [s1 [a | p |]];
    [apply IH | reflexivity | reflexivity].
Qed.

(* an invariant [A] of the accumulator, given what is known ([Hd]) of the heads met: the loop
   leaves the state alone and keeps [A], if the recursive call does *)
Lemma collect_heads_reads rec qh s (Hd : head -> Prop) (A : coll -> Prop) :
  (forall missing mx dep h, A (missing, mx, dep) -> Hd h -> A (missing, N.max mx (snd h), dep)) ->
  (forall missing mx dep h, A (missing, mx, dep) -> Hd h ->
     exists r, rec (fst h) (missing ++ [h], N.max mx (snd h), dep) s = (s, r) /\
               forall acc', r = COk acc' -> A acc') ->
  forall hs acc, (forall h, In h hs -> Hd h) -> A acc ->
  exists r, collect_heads rec qh hs acc s = (s, r) /\ forall acc', r = COk acc' -> A acc'.
Proof.
  intros Hskip Hrec. induction hs as [| h hs IH]; intros acc Hhs Hacc.
  - eexists. split; [reflexivity |]. intros acc' H. injection H as <-. exact Hacc.
  - destruct acc as [[missing mx] dep]. cbn [collect_heads]. cbv zeta.
    assert (Hh : Hd h) by (apply Hhs; left; reflexivity).
    assert (Hhs' : forall x, In x hs -> Hd x) by (intros x Hx; apply Hhs; right; exact Hx).
    destruct (heads_contains qh (fst h)); [apply IH; [exact Hhs' | apply Hskip; assumption] |].
    destruct (existsb (fun x => key_eqb (fst x) (fst h) && (snd x =? snd h)) missing);
      [apply IH; [exact Hhs' | apply Hskip; assumption] |].
    unfold cbind. destruct (Hrec missing mx dep h Hacc Hh) as (r1 & Hr1 & Hres). rewrite Hr1.
    destruct r1 as [acc1 | p |]; try (eexists; split; [reflexivity | intros acc' H; discriminate]).
    apply IH; [exact Hhs' | apply Hres; reflexivity].
Qed.

(* collect_all_cycle_heads: the closure from every head of the frame ([P] is what a finished call
   says of its head), then the missing heads are added *)
Lemma collect_all_reads n heads me s (Hd P : head -> Prop) (A : coll -> Prop) :
  (forall h acc, Hd h -> A acc ->
     exists r, collect_recursive n (fst h) me heads acc s = (s, r) /\
               forall acc', r = COk acc' -> A acc' /\ P h) ->
  (forall h, In h heads -> Hd h) -> A ([], stamp_default, false) ->
  exists r, collect_all_cycle_heads n heads me s = (s, r) /\
    forall hs mx dep, r = COk (hs, mx, dep) ->
      exists missing, A (missing, mx, dep) /\ insert_missing heads missing = Some hs /\
                      forall h, In h heads -> P h.
Proof.
  intros Hrec Hhd HA. unfold collect_all_cycle_heads. unfold cbind at 1.
  (* Model writes the loop over [heads] as a local [fix]; call it [g].  Its invariant: it leaves
     the state alone, keeps [A], and every head it has passed satisfies [P] *)
  match goal with |- context [?g heads ([], stamp_default, false) s] =>
    assert (Hgo : forall l acc, (forall h, In h l -> Hd h) -> A acc ->
              exists r, g l acc s = (s, r) /\
                        forall acc', r = COk acc' -> A acc' /\ forall h, In h l -> P h)
  end.
  { induction l as [| h l IH]; intros acc Hl Hacc.
    - eexists. split; [reflexivity |]. intros acc' H. injection H as <-. split; [exact Hacc | intros h []].
    - unfold cbind at 1. destruct (Hrec h acc (Hl h (or_introl eq_refl)) Hacc) as (r1 & Hr1 & Hres1). rewrite Hr1.
      destruct r1 as [acc1 | p |]; try (eexists; split; [reflexivity | intros acc' H; discriminate]).
      destruct (Hres1 acc1 eq_refl) as [Ha1 Hp].
      destruct (IH acc1 (fun x Hx => Hl x (or_intror Hx)) Ha1) as (r2 & Hr2 & Hres2).
      exists r2. split; [exact Hr2 |]. intros acc' Ha. destruct (Hres2 acc' Ha) as [H1 H2].
      split; [exact H1 |]. intros x [<- | Hx]; [exact Hp | apply H2; exact Hx]. }
  destruct (Hgo heads ([], stamp_default, false) Hhd HA) as (r & Hr & Hres). rewrite Hr.
  destruct r as [[[missing mx] dep] | p |]; try (eexists; split; [reflexivity | intros ? ? ? H; discriminate]).
  destruct (Hres _ eq_refl) as [Ha Hp].
  destruct (insert_missing heads missing) as [hs' |] eqn:Hins;
    [| eexists; split; [reflexivity | intros ? ? ? H; discriminate]].
  eexists. split; [reflexivity |]. intros hs mx' dep' H. injection H as <- <- <-.
  exists missing. split; [exact Ha |]. split; [exact Hins | exact Hp].
Qed.

Lemma execute_iterate_start prog strat cinit n L q old s :
  (exists ls, execute_iterate prog strat cinit n L q old s
              = on_panic (iter_loop prog strat cinit LOOP_FUEL n L q ls) (poison q) s /\
              (ls_iter ls = stamp_initial (c_ccount s) \/
               exists o, old = Some o /\ ls_iter ls = iter_of o /\ stamp_ccount (iter_of o) = c_ccount s)) \/
  execute_iterate prog strat cinit n L q old s = (s, CPanic (PB PPropagated)).
Proof.
  (* LOOP_FUEL stays folded: every step below is a rewrite, none a conversion through the loop *)
  remember (execute_iterate prog strat cinit n L q old s) as r eqn:Er.
  unfold execute_iterate in Er. unfold cbind at 1, cget at 1 in Er.
  assert (Hinit : forall lo,
            r = (st <- cret {| ls_iter := stamp_initial (c_ccount s); ls_last := None; ls_old := lo |} ;;
                 on_panic (iter_loop prog strat cinit LOOP_FUEL n L q st) (poison q)) s ->
            exists ls, r = on_panic (iter_loop prog strat cinit LOOP_FUEL n L q ls) (poison q) s /\
              (ls_iter ls = stamp_initial (c_ccount s) \/
               exists o, old = Some o /\ ls_iter ls = iter_of o /\ stamp_ccount (iter_of o) = c_ccount s)).
  { intros lo H. rewrite cbind_ret in H. eexists. split; [exact H | left; reflexivity]. }
  destruct old as [o |]; [| left; exact (Hinit _ Er)].
  destruct (cm_verified o =? ccur s); [| left; exact (Hinit _ Er)].
  destruct (N.eqb_spec (stamp_ccount (iter_of o)) (c_ccount s)) as [Hcc | Hcc]; cbn [negb] in Er; [| left; exact (Hinit _ Er)].
  destruct (cm_val o); [| right; exact Er].
  rewrite cbind_ret in Er.
  left. eexists. split; [exact Er |]. right. exists o. split; [reflexivity |]. split; [reflexivity | exact Hcc].
Qed.

(* The invariant.  [hl] lists, without repetition, the keys with an open claim guard: exactly the
   keys whose sync entry is not flagged transferred ([lk_held]).  [lk_twice] is the sync table's
   own rule (an entry claimed a second time is not flagged transferred), and the query stack
   holds claimed keys only. *)
Definition held (s : cdb) (q : qkey) : Prop := exists y, c_sync s q = Some y /\ sy_trans y = false.

Record LK (hl : list qkey) (s : cdb) : Prop := {
  lk_nd : NoDup hl;
  lk_held : forall q, In q hl <-> held s q;
  lk_twice : forall q y, c_sync s q = Some y -> sy_twice y = true -> sy_trans y = false;
  lk_stack : incl (c_qstack s) hl
}.

(* what the invariant reads off a state *)
Definition ssim (a b : option sync) : Prop :=
  match a, b with
  | None, None => True
  | Some y, Some y' => sy_trans y' = sy_trans y /\ sy_twice y' = sy_twice y
  | _, _ => False
  end.

Definition lksim (s s' : cdb) : Prop :=
  c_qstack s' = c_qstack s /\ forall q, ssim (c_sync s q) (c_sync s' q).

Lemma ssim_refl a : ssim a a.
Proof. destruct a; cbn; auto. Qed.
Lemma ssim_trans a b c : ssim a b -> ssim b c -> ssim a c.
Proof.
  destruct a, b, c; cbn; try tauto. intros [A1 A2] [B1 B2]. split; congruence.
Qed.
Lemma lksim_refl s : lksim s s.
Proof. split; [reflexivity | intros q; apply ssim_refl]. Qed.
Lemma lksim_trans a b c : lksim a b -> lksim b c -> lksim a c.
Proof. intros [A1 A2] [B1 B2]. split; [congruence |]. intros q. eapply ssim_trans; [apply A2 | apply B2]. Qed.

Lemma held_sim s s' q : lksim s s' -> held s q -> held s' q.
Proof.
  intros [_ H] (y & Hy & Ht). specialize (H q). rewrite Hy in H.
  destruct (c_sync s' q) as [y' |] eqn:Ey'; [| destruct H]. destruct H as [A _]. exists y'. split; [exact Ey' | congruence].
Qed.
Lemma lksim_sym s s' : lksim s s' -> lksim s' s.
Proof.
  intros [A B]. split; [congruence |]. intros q. specialize (B q).
  destruct (c_sync s q), (c_sync s' q); cbn in *; try tauto. destruct B; split; congruence.
Qed.

Lemma LK_sim hl s s' : lksim s s' -> LK hl s -> LK hl s'.
Proof.
  intros Hs [a b c d]. constructor.
  - exact a.
  - intros q. rewrite b. split; apply held_sim; [exact Hs | apply lksim_sym; exact Hs].
  - intros q y' Hy' Ht. destruct Hs as [_ Hq]. specialize (Hq q). rewrite Hy' in Hq.
    destruct (c_sync s q) as [y |] eqn:Ey; [| destruct Hq]. destruct Hq as [A B].
    rewrite A. apply (c q y Ey). congruence.
  - destruct Hs as [Hq _]. rewrite Hq. exact d.
Qed.

(* a state component other than the sync table and the query stack changes *)
Lemma lksim_fields s s' : c_sync s' = c_sync s -> c_qstack s' = c_qstack s -> lksim s s'.
Proof. intros A B. split; [exact B |]. intros q. rewrite A. apply ssim_refl. Qed.

(* the claim state and stack expected at a program point *)
Definition K (hl stk : list qkey) (s : cdb) : Prop := LK hl s /\ c_qstack s = stk.

Lemma K_sim hl stk s s' : lksim s s' -> K hl stk s -> K hl stk s'.
Proof. intros Hs [A B]. split; [apply (LK_sim hl s s' Hs A) | destruct Hs; congruence]. Qed.

(* ---------------------------------------------------------------- lock-silent computations *)
(* every outcome (also out-of-fuel) leaves the claim state and the stack as they were *)
Definition lks {A} (m : CM A) : Prop := forall s, lksim s (fst (m s)).

Lemma lks_on_panic {A} (m : CM A) h : lks m -> lks h -> lks (on_panic m h).
Proof. exact (pres_on_panic lksim lksim_trans m h). Qed.

Lemma awp_lks {A} (m : CM A) hl stk s : lks m -> K hl stk s ->
  awp m (fun _ s' => K hl stk s' /\ lksim s s') (fun s' => K hl stk s') s.
Proof.
  intros Hm HK. unfold awp. specialize (Hm s). destruct (m s) as [s1 [a | p |]]; cbn [fst] in Hm.
  - split; [apply (K_sim hl stk s s1 Hm HK) | exact Hm].
  - apply (K_sim hl stk s s1 Hm HK).
  - exact I.
Qed.

Lemma lks_set_sync_flags q y y' : sy_trans y' = sy_trans y -> sy_twice y' = sy_twice y ->
  forall s, c_sync s q = Some y -> lksim s (fst (set_sync q (Some y') s)).
Proof.
  intros A B s Hy. split; [reflexivity |]. intros p. cbn. unfold upd.
  destruct (key_eqb_spec q p) as [<- | Hne]; [rewrite Hy; cbn; split; assumption | apply ssim_refl].
Qed.

(* peek_claim only sets the anyone_waiting flag *)
Lemma lks_peek_claim q : lks (peek_claim q).
Proof.
  intros s. unfold peek_claim, cbind, cget. cbn.
  destruct (c_sync s q) as [y |] eqn:Ey; [| apply lksim_refl].
  destruct (sy_trans y) eqn:Et.
  - destruct (trans_get (c_trans s) q); apply lksim_refl.
  - cbn. apply (lks_set_sync_flags q y); [exact (eq_sym Et) | reflexivity | exact Ey].
Qed.
