(* Life/ProofsExcl.v — the operations that need `&mut db`: new revision, LRU eviction, input
   write, and dropping the database. *)
From Salsa Require Import Base.
From Salsa.gen Require Import Kernels.
From Salsa.Life Require Import Model ProofsBase ProofsStep ProofsOps.

(* ---------------------------------------------------------------- eviction: value dropped in place *)

Lemma InvC_set_val nt nc cells slots del c cl :
  InvC nt nc cells slots del -> cells c = Some cl ->
  InvC nt nc (updN cells c (Some (mk_cell (c_state cl) (c_slot cl) (c_fn cl) None (c_frees cl)))) slots del.
Proof.
  intros [D L T D1 D2 ND FR] Ec. constructor; auto.
  - intros c0. unfold updN. destruct (N.eqb_spec c c0) as [<-|]; [|apply D].
    split; [intros _; apply D; congruence | discriminate].
  - intros c0 cl0. unfold updN. destruct (N.eqb_spec c c0) as [<-|]; [|apply L].
    intros H. injection H as <-. cbn. exact (L c cl Ec).
  - intros j sl f c0 Es Em. destruct (T j sl f c0 Es Em) as (cl0 & Ec0 & H). unfold updN.
    destruct (N.eqb_spec c c0) as [<-|]; [|eauto]. rewrite Ec in Ec0. injection Ec0 as <-.
    eexists. split; [reflexivity|]. exact H.
  - intros c0 Hc. destruct (D1 c0 Hc) as (cl0 & Ec0 & R). unfold updN.
    destruct (N.eqb_spec c c0) as [<-|]; [|eauto]. rewrite Ec in Ec0. injection Ec0 as <-.
    eexists. split; [reflexivity|]. exact R.
  - intros c0 cl0. unfold updN. destruct (N.eqb_spec c c0) as [<-|]; [|apply D2].
    intros H. injection H as <-. cbn. exact (D2 c cl Ec).
  - intros c0 cl0. unfold updN. destruct (N.eqb_spec c c0) as [<-|]; [|apply FR].
    intros H. injection H as <-. cbn. exact (FR c cl Ec).
Qed.

Definition Quiet (st : lstate) : Prop := Inv st /\ l_refs st = [].

Lemma evict_one_quiet st e : Quiet st -> Quiet (evict_one st e).
Proof.
  intros (HI & HR). destruct e as [[i f] can]. unfold evict_one.
  destruct (loc st i) as [j|] eqn:El; [|split; assumption].
  destruct (loc_slot _ _ _ (inv_s _ HI) El) as (sl & Es). rewrite Es.
  destruct (s_memos sl f) as [c|] eqn:Em; [|split; assumption].
  destruct (ic_table _ _ _ _ _ (inv_c _ HI) j sl f c Es Em) as (cl & Ec & L & _). rewrite Ec, L.
  destruct can; [|split; assumption].
  split; [|exact HR].
  destruct HI as [HL HE HC HS HF HRf HQ]. constructor; simpl_st; auto.
  - rewrite <- L. apply InvC_set_val; auto.
  - rewrite HR. apply InvR_nil.
Qed.

Lemma evict_all_quiet evs : forall st, Quiet st -> Quiet (fold_left evict_one evs st).
Proof.
  induction evs as [|e evs IH]; intros st H; [exact H|]. cbn. apply IH. now apply evict_one_quiet.
Qed.

(* ---------------------------------------------------------------- deleted_entries.clear() *)

Lemma InvC_free_deleted nt nc cells cells' slots del :
  InvC nt nc cells slots del ->
  (forall c, In c del -> exists cl, cells c = Some cl /\ cells' c = Some (freed_of cl)) ->
  (forall c, ~ In c del -> cells' c = cells c) ->
  InvC nt nc cells' slots [].
Proof.
  intros [D L T D1 D2 ND FR] HX HN.
  assert (forall c, {In c del} + {~ In c del}) as Xdec by (intros c; apply in_dec, N.eq_dec).
  constructor.
  - intros c. rewrite <- D. destruct (Xdec c) as [Hc|Hc].
    + destruct (HX c Hc) as (cl & E1 & E2). rewrite E1, E2. split; discriminate.
    + now rewrite HN.
  - intros c cl Ec Hl. destruct (Xdec c) as [Hc|Hc].
    + destruct (HX c Hc) as (cl0 & _ & E2). rewrite E2 in Ec. injection Ec as <-. discriminate.
    + rewrite HN in Ec by assumption. eauto.
  - intros j sl f c Es Em. destruct (T j sl f c Es Em) as (cl & Ec & Hl & H). exists cl.
    split; [|auto]. rewrite HN; [exact Ec|]. intros Hc. destruct (D1 c Hc) as (cl' & Ec' & R). congruence.
  - intros c [].
  - intros c cl Ec R. destruct (Xdec c) as [Hc|Hc].
    + destruct (HX c Hc) as (cl0 & _ & E2). rewrite E2 in Ec. injection Ec as <-. discriminate.
    + rewrite HN in Ec by assumption. exfalso. apply Hc. eapply D2; eauto.
  - constructor.
  - intros c cl Ec. destruct (Xdec c) as [Hc|Hc].
    + destruct (HX c Hc) as (cl0 & E1 & E2). rewrite E2 in Ec. injection Ec as <-.
      destruct (D1 c Hc) as (cl' & Ec' & R). rewrite E1 in Ec'. injection Ec' as <-.
      cbn. rewrite (FR c cl0 E1), R. reflexivity.
    + rewrite HN in Ec by assumption. eauto.
Qed.

Lemma free_deleted_quiet st : Quiet st -> Quiet (set_deleted (free_cells (l_deleted st) st) []).
Proof.
  intros (HI & HR).
  destruct (free_cells_spec (l_deleted st) st) as (cells' & -> & HX & HN).
  { apply (ic_nodup _ _ _ _ _ (inv_c _ HI)). }
  { intros c Hc. destruct (ic_del1 _ _ _ _ _ (inv_c _ HI) c Hc) as (cl & Ec & _). congruence. }
  split; [|exact HR].
  destruct HI as [HL HE HC HS HF HRf HQ]. constructor; simpl_st; auto.
  - eapply InvC_free_deleted; eauto.
  - rewrite HR. apply InvR_nil.
Qed.

Lemma reset_all_quiet st evs : Quiet st -> Quiet (reset_all st evs).
Proof.
  intros H. unfold reset_all. apply free_deleted_quiet. now apply evict_all_quiet.
Qed.

Lemma clear_refs_quiet st : Inv st -> Quiet (set_refs st []).
Proof. intros H. split; [now apply Inv_clear_refs | reflexivity]. Qed.

(* ---------------------------------------------------------------- new revision *)

Lemma evict_one_cur st e : l_cur (evict_one st e) = l_cur st.
Proof.
  destruct e as [[i f] can]. unfold evict_one.
  destruct (loc st i); [|reflexivity]. destruct (l_slots st n); [|reflexivity].
  destruct (s_memos s f); [|reflexivity]. destruct (l_cells st n0); [|reflexivity].
  destruct (c_state m); try reflexivity; destruct can; reflexivity.
Qed.

Lemma evict_all_cur evs : forall st, l_cur (fold_left evict_one evs st) = l_cur st.
Proof.
  induction evs as [|e evs IH]; intros st; [reflexivity|]. cbn. now rewrite IH, evict_one_cur.
Qed.

Lemma reset_all_cur st evs : l_cur (reset_all st evs) = l_cur st.
Proof. unfold reset_all. simpl_st. now rewrite free_cells_cur, evict_all_cur. Qed.

Lemma newrev_inv st evs : Inv st -> Inv (fst (step_excl st (ONewRevision evs))).
Proof.
  intros HI. cbn [step_excl fst].
  destruct (reset_all_quiet (set_refs st []) evs (clear_refs_quiet st HI)) as (H & HR).
  pose proof (reset_all_cur (set_refs st []) evs) as Ecur.
  destruct H as [HL HE HC HS HF HRf HQ]. constructor; simpl_st; auto.
  - rewrite HR. apply InvR_nil.
  - destruct HQ as (Hc & Hq). rewrite Ecur in *. simpl_st. split; [lia|]. intros g.
    destruct (Hq g) as (Hl & Hin). split; [exact Hl|]. intros x Hx. apply Hin in Hx. lia.
Qed.

Lemma evictlru_inv st evs : Inv st -> Inv (fst (step_excl st (OEvictLru evs))).
Proof.
  intros HI. cbn [step_excl fst]. apply (reset_all_quiet (set_refs st []) evs (clear_refs_quiet st HI)).
Qed.

(* ---------------------------------------------------------------- input write *)

Lemma setinput_inv st i v : Inv st -> Inv (fst (step_excl st (OSetInput i v))).
Proof.
  intros HI0. cbn [step_excl].
  pose proof (Inv_clear_refs st HI0) as HI. set (st1 := set_refs st []) in *.
  apply with_slot_inv; [exact HI|]. intros j sl Es.
  destruct (s_kind sl) eqn:K; cbn [is_kind negb]; try exact HI. cbn [fst].
  apply (Inv_put_slot st1 j sl); simpl_sl; auto; [discriminate | | apply InvR_nil].
  eapply not_free_of_stamp; [apply (inv_f _ HI) | exact Es | right; congruence].
Qed.

(* ---------------------------------------------------------------- dropping the database *)

Lemma drop_slot_spec st j sl :
  InvC (l_ntypes st) (l_ncells st) (l_cells st) (l_slots st) [] -> l_slots st j = Some sl ->
  l_deleted st = [] ->
  exists cells',
    drop_slot st j = put_slot (set_cells st (l_ncells st) cells') j
                              (set_fields (set_memos sl no_memos) None) /\
    InvC (l_ntypes st) (l_ncells st) cells'
         (updN (l_slots st) j (Some (set_fields (set_memos sl no_memos) None))) [].
Proof.
  intros HC Es Ed. unfold drop_slot. rewrite Es. rewrite <- Ed in HC.
  change (free_cells (table_cells (l_ntypes st) (s_memos sl)) st) with (clear_memos st sl).
  destruct (clear_memos_spec st j sl HC Es) as (cells' & -> & HX & HN).
  exists cells'. split; [reflexivity|]. rewrite Ed in HC. eapply InvC_clear; eauto.
Qed.

(* Page::drop over the initialised locations *)
Lemma drop_loop ids : forall st,
  NoDup ids -> (forall j, In j ids -> l_slots st j <> None) ->
  InvC (l_ntypes st) (l_ncells st) (l_cells st) (l_slots st) [] -> l_deleted st = [] ->
  exists cells' slots',
    fold_left drop_slot ids st = set_slots (set_cells st (l_ncells st) cells') slots' /\
    InvC (l_ntypes st) (l_ncells st) cells' slots' [] /\
    (forall j, In j ids -> exists sl, slots' j = Some sl /\
                                      s_fields sl = None /\ forall f, s_memos sl f = None) /\
    (forall j, ~ In j ids -> slots' j = l_slots st j).
Proof.
  induction ids as [|j ids IH]; intros st ND Hex HC Ed.
  - exists (l_cells st), (l_slots st). split; [destruct st; reflexivity|]. split; [exact HC|].
    split; [intros j [] | reflexivity].
  - apply NoDup_cons_iff in ND. destruct ND as (Hj & ND).
    destruct (l_slots st j) as [sl|] eqn:Es; [|exfalso; apply (Hex j); [now left | exact Es]].
    destruct (drop_slot_spec st j sl HC Es Ed) as (cells1 & E1 & C1).
    cbn [fold_left]. rewrite E1.
    destruct (IH (put_slot (set_cells st (l_ncells st) cells1) j
                           (set_fields (set_memos sl no_memos) None)) ND)
      as (cells' & slots' & E2 & C2 & F9 & F10); simpl_st.
    { intros j0 Hj0. rewrite updN_other; [apply Hex; now right | intros <-; contradiction]. }
    { exact C1. }
    { exact Ed. }
    exists cells', slots'. split; [exact E2|]. split; [exact C2|]. split.
    + intros j0 [<-|Hj0]; [|now apply F9].
      rewrite F10 by assumption. rewrite updN_same. eexists. split; [reflexivity|]. simpl_sl. auto.
    + intros j0 Hn. rewrite F10 by (intros H; apply Hn; now right).
      apply updN_other. intros <-. apply Hn. now left.
Qed.

Lemma drop_final st : Inv st -> Final (fst (step_excl st ODropDb)).
Proof.
  intros HI0. cbn [step_excl fst].
  destruct (free_deleted_quiet (set_refs st []) (clear_refs_quiet st HI0)) as (HI & HR).
  set (st1 := set_deleted (free_cells (l_deleted (set_refs st [])) (set_refs st [])) []) in *.
  assert (l_deleted st1 = []) as Ed by reflexivity.
  pose proof (inv_c _ HI) as HC. rewrite Ed in HC.
  pose proof (inv_s _ HI) as HS.
  destruct (drop_loop (l_slotids st1) st1 (is_nodup _ _ _ _ HS))
    as (cells' & slots' & -> & C2 & F9 & F10); auto.
  { intros j Hj. now apply (is_dom _ _ _ _ HS). }
  assert (forall j sl, slots' j = Some sl -> s_fields sl = None /\ forall f, s_memos sl f = None) as Hsl.
  { intros j sl Es. destruct (in_dec N.eq_dec j (l_slotids st1)) as [Hin|Hn].
    - destruct (F9 j Hin) as (sl' & Es' & H). rewrite Es in Es'. injection Es' as <-. exact H.
    - rewrite F10 in Es by assumption. exfalso. apply Hn. apply (is_dom _ _ _ _ HS). congruence. }
  constructor; simpl_st.
  - reflexivity.
  - apply (inv_err _ HI).
  - apply (ic_dom _ _ _ _ _ C2).
  - intros c cl Ec.
    destruct (c_state cl) eqn:S.
    + destruct (ic_live _ _ _ _ _ C2 c cl Ec S) as (_ & sl & Es & Em).
      destruct (Hsl _ _ Es) as (_ & Hm). rewrite Hm in Em. discriminate.
    + destruct (ic_del2 _ _ _ _ _ C2 c cl Ec S).
    + split; [reflexivity|]. rewrite (ic_frees _ _ _ _ _ C2 c cl Ec), S. reflexivity.
  - exact Hsl.
  - intros j. rewrite <- (is_dom _ _ _ _ HS j).
    destruct (in_dec N.eq_dec j (l_slotids st1)) as [Hin|Hn].
    + destruct (F9 j Hin) as (sl' & Es' & _). rewrite Es'. apply (is_dom _ _ _ _ HS) in Hin.
      split; [intros _; exact Hin | discriminate].
    + now rewrite F10.
  - apply (is_bounds _ _ _ _ HS).
  - split; [apply (is_pages _ _ _ _ HS) | apply (is_alloc _ _ _ _ HS)].
  - exact HR.
  - exact Ed.
Qed.
