(* Life/ProofsBase.v — list / map lemmas, the projections of updated states and the effect of the
   cell-freeing primitives of Life/Model.v. *)
From Salsa Require Import Base.
From Salsa.gen Require Import Kernels.
From Salsa.Life Require Import Model.
From Coq Require Import FinFun.

(* ---------------------------------------------------------------- lists *)

Lemma In_range n x : In x (range n) <-> x < n.
Proof.
  unfold range. rewrite in_map_iff. split.
  - intros (k & <- & Hk). apply in_seq in Hk. lia.
  - intros H. exists (N.to_nat x). split; [apply N2Nat.id|]. apply in_seq. lia.
Qed.

Lemma NoDup_range n : NoDup (range n).
Proof.
  unfold range. apply Injective_map_NoDup; [|apply seq_NoDup].
  intros a b H. now apply Nat2N.inj.
Qed.

Lemma NoDup_app_intro {A} (l1 l2 : list A) :
  NoDup l1 -> NoDup l2 -> (forall x, In x l1 -> ~ In x l2) -> NoDup (l1 ++ l2).
Proof.
  induction l1 as [|a l1 IH]; intros H1 H2 Hd; [exact H2|].
  inversion H1 as [|? ? Ha Hl1]; subst. cbn. constructor.
  - rewrite in_app_iff. intros [H|H]; [contradiction|]. apply (Hd a); [now left|exact H].
  - apply IH; auto. intros x Hx. apply Hd. now right.
Qed.

Lemma NoDup_app_elim {A} (l1 l2 : list A) :
  NoDup (l1 ++ l2) -> NoDup l1 /\ NoDup l2 /\ (forall x, In x l1 -> ~ In x l2).
Proof.
  induction l1 as [|a l1 IH]; cbn; intros H.
  - repeat split; auto. constructor.
  - inversion H as [|? ? Ha Hl]; subst. destruct (IH Hl) as (N1 & N2 & D).
    rewrite in_app_iff in Ha. repeat split; auto.
    + constructor; tauto.
    + intros x [<-|Hx]; [tauto | now apply D].
Qed.

Lemma NoDup_flat_map {A B} (f : A -> list B) l :
  NoDup l -> (forall a, In a l -> NoDup (f a)) ->
  (forall a b x, In a l -> In b l -> In x (f a) -> In x (f b) -> a = b) ->
  NoDup (flat_map f l).
Proof.
  induction l as [|a l IH]; intros Hl Hf Hd; cbn; [constructor|].
  inversion Hl as [|? ? Ha Hl']; subst.
  apply NoDup_app_intro.
  - apply Hf. now left.
  - apply IH; auto.
    + intros b Hb. apply Hf. now right.
    + intros b c x Hb Hc. apply Hd; now right.
  - intros x Hx Hx'. apply in_flat_map in Hx'. destruct Hx' as (b & Hb & Hxb).
    assert (a = b) by (apply (Hd a b x); [now left | now right | auto | auto]). subst. contradiction.
Qed.

Lemma In_table_cells n m c : In c (table_cells n m) <-> exists f, f < n /\ m f = Some c.
Proof.
  unfold table_cells. rewrite in_flat_map. split.
  - intros (f & Hf & Hc). apply In_range in Hf. destruct (m f) eqn:E; [|destruct Hc].
    destruct Hc as [<-|[]]. eauto.
  - intros (f & Hf & E). exists f. split; [now apply In_range|]. rewrite E. now left.
Qed.

Lemma NoDup_table_cells n m :
  (forall f g c, m f = Some c -> m g = Some c -> f = g) -> NoDup (table_cells n m).
Proof.
  intros Hinj. unfold table_cells. apply NoDup_flat_map.
  - apply NoDup_range.
  - intros f _. destruct (m f); repeat constructor. intros [].
  - intros f g x _ _ Hf Hg. destruct (m f) eqn:Ef; [|destruct Hf]. destruct (m g) eqn:Eg; [|destruct Hg].
    destruct Hf as [<-|[]]. destruct Hg as [->|[]]. eapply Hinj; eauto.
Qed.

Lemma table_cells_no_memos n : table_cells n no_memos = [].
Proof.
  unfold table_cells, no_memos. induction (range n) as [|a l IH]; [reflexivity | exact IH].
Qed.

(* computes the projections of states built with the setters; a setter that is not under a
   projection stays folded *)
Ltac simpl_st :=
  cbn [l_cur l_ntypes l_ncells l_cells l_npages l_ping l_palloc l_slots l_slotids l_free
       l_deleted l_queue l_refs l_dropped l_err
       push_ref put_slot set_cur set_cells set_pages set_slots set_slotids set_free
       set_deleted set_queue set_refs set_dropped set_err] in *.

Ltac simpl_sl :=
  cbn [s_kind s_ing s_gen s_stamp s_reusable s_fields s_memos
       set_stamp set_reusable set_fields set_memos set_gen] in *.

Lemma set_free_same st : set_free st (l_free st) = st.
Proof. destruct st; reflexivity. Qed.

Definition freed_of (cl : mcell) : mcell :=
  mk_cell Freed (c_slot cl) (c_fn cl) None (c_frees cl + 1).

Lemma free_cells_frame cs : forall st, exists cells' err',
  free_cells cs st =
  mk_l (l_cur st) (l_ntypes st) (l_ncells st) cells' (l_npages st) (l_ping st) (l_palloc st)
       (l_slots st) (l_slotids st) (l_free st) (l_deleted st) (l_queue st) (l_refs st)
       (l_dropped st) err'.
Proof.
  induction cs as [|a cs IH]; intros st.
  - exists (l_cells st), (l_err st). destruct st; reflexivity.
  - change (free_cells (a :: cs) st) with (free_cells cs (free_cell a st)).
    destruct (IH (free_cell a st)) as (c & e & ->). unfold free_cell.
    destruct (l_cells st a); eexists; eexists; reflexivity.
Qed.

Lemma free_cells_free cs st : l_free (free_cells cs st) = l_free st.
Proof. destruct (free_cells_frame cs st) as (c & e & ->). reflexivity. Qed.

Lemma free_cells_refs cs st : l_refs (free_cells cs st) = l_refs st.
Proof. destruct (free_cells_frame cs st) as (c & e & ->). reflexivity. Qed.

Lemma free_cells_cur cs st : l_cur (free_cells cs st) = l_cur st.
Proof. destruct (free_cells_frame cs st) as (c & e & ->). reflexivity. Qed.

Lemma free_cells_spec cs : forall st,
  NoDup cs -> (forall c, In c cs -> l_cells st c <> None) ->
  exists cells',
    free_cells cs st = set_cells st (l_ncells st) cells' /\
    (forall c, In c cs -> exists cl, l_cells st c = Some cl /\ cells' c = Some (freed_of cl)) /\
    (forall c, ~ In c cs -> cells' c = l_cells st c).
Proof.
  induction cs as [|a cs IH]; intros st Hnd Hex.
  - exists (l_cells st). split; [destruct st; reflexivity|]. split; [intros c [] | reflexivity].
  - inversion Hnd as [|? ? Ha Hnd']; subst.
    destruct (l_cells st a) as [cl|] eqn:Ea; [|exfalso; apply (Hex a); [now left | exact Ea]].
    change (free_cells (a :: cs) st) with (free_cells cs (free_cell a st)).
    set (st1 := set_cells st (l_ncells st) (updN (l_cells st) a (Some (freed_of cl)))).
    replace (free_cell a st) with st1 by (unfold free_cell; now rewrite Ea).
    destruct (IH st1 Hnd') as (cells' & E & HX & HN); unfold st1 in *; simpl_st.
    { intros c Hc. rewrite updN_other; [apply Hex; now right | intros ->; contradiction]. }
    exists cells'. split; [exact E|]. split.
    + intros c [<-|Hc].
      * exists cl. split; [exact Ea|]. rewrite HN by assumption. apply updN_same.
      * destruct (HX c Hc) as (cl' & E1 & E2). exists cl'. split; [|exact E2].
        rewrite updN_other in E1; [exact E1 | intros ->; contradiction].
    + intros c Hc. rewrite HN by (intros H; apply Hc; now right).
      apply updN_other. intros ->. apply Hc. now left.
Qed.
