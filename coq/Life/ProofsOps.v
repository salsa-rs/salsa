(* Life/ProofsOps.v — the operations under `&db`, one preservation lemma each. *)
From Salsa Require Import Base.
From Salsa.gen Require Import Kernels.
From Salsa.Kern Require Import K9_Retention.
From Salsa.Life Require Import Model ProofsBase ProofsStep.

(* what the references need ([InvR]) is left to the caller *)
Lemma Inv_put_slot st j sl sl' :
  Inv st -> l_slots st j = Some sl ->
  (forall f, s_memos sl' f = s_memos sl f) -> s_fields sl' <> None ->
  (forall g, ~ In j (l_free st g)) ->
  InvR (l_cur st) (l_cells st) (updN (l_slots st) j (Some sl')) (l_free st) (l_refs st) ->
  Inv (put_slot st j sl').
Proof.
  intros [HL HE HC HS HF HR HQ] E M F NF HR'. constructor; simpl_st; auto.
  - eapply InvC_slot_meta; eauto.
  - eapply InvS_slot_meta; eauto.
  - apply InvF_slot_meta; auto.
Qed.

Lemma Inv_slot_meta st j sl sl' :
  Inv st -> l_slots st j = Some sl ->
  (forall f, s_memos sl' f = s_memos sl f) -> s_fields sl' = s_fields sl ->
  (s_stamp sl <> None \/ s_kind sl <> KTracked) ->
  (lock_ok (l_cur st) (l_free st) j sl -> lock_ok (l_cur st) (l_free st) j sl') ->
  Inv (put_slot st j sl').
Proof.
  intros HI E M F NF LK. apply (Inv_put_slot st j sl); auto.
  - rewrite F. eapply is_fields; [apply (inv_s _ HI) | eauto].
  - eapply not_free_of_stamp; [apply (inv_f _ HI) | eauto ..].
  - eapply InvR_slot_meta; eauto. apply (inv_r _ HI).
Qed.

Lemma Inv_access st j sl sl1 :
  Inv st -> l_slots st j = Some sl -> memos_access (l_cur st) sl = Some sl1 ->
  Inv (put_slot st j sl1).
Proof.
  intros HI Es EA. destruct (memos_access_spec _ _ _ EA) as (K & I & G & R & F & M & T & NT).
  apply (Inv_slot_meta _ j sl);
    [exact HI | exact Es | intros f0; now rewrite M | exact F | | eapply access_lock_mono; eauto].
  destruct (s_kind sl) eqn:Ks; [right; congruence | left; apply T; reflexivity | right; congruence].
Qed.

Lemma Inv_push_ref st t v :
  Inv st -> ref_ok (l_cur st) (l_cells st) (l_slots st) (l_free st) (mk_ref t (l_cur st) v) ->
  Inv (push_ref st t v).
Proof.
  intros [HL HE HC HS HF HR HQ] H. constructor; simpl_st; auto.
  intros r [<-|Hr]; auto.
Qed.

Lemma Inv_qrecord st g :
  Inv st -> exists q', qrecord st g = set_queue st q' /\ Inv (set_queue st q').
Proof.
  intros [HL HE HC HS HF HR HQ]. destruct (qrecord_eq st g HQ) as (q' & -> & HQ').
  exists q'. split; [reflexivity|]. constructor; simpl_st; auto.
Qed.

Lemma Inv_clear_refs st : Inv st -> Inv (set_refs st []).
Proof.
  intros [HL HE HC HS HF HR HQ]. constructor; simpl_st; auto. apply InvR_nil.
Qed.

(* ---------------------------------------------------------------- OReadRef *)

(* a kept reference reads the value it was handed out with *)
Lemma readref_value st n r :
  Inv st -> nth_error (l_refs st) n = Some r ->
  exists x, step_shared st (OReadRef n) = (st, LOk (Some x) (Some (r_val r))).
Proof.
  intros HI E. cbn [step_shared]. rewrite E.
  apply nth_error_In in E. destruct (inv_r _ HI r E) as (_ & Ht).
  destruct (r_tgt r) as [c|j].
  - destruct Ht as (cl & Ec & Hs & Hv & _). rewrite Ec. exists c.
    destruct (c_state cl); try congruence; now rewrite Hv.
  - destruct Ht as (sl & Es & Hf & _). rewrite Es, Hf. now exists j.
Qed.

Lemma readref_ok st n : Inv st -> fst (step_shared st (OReadRef n)) = st.
Proof.
  intros HI. destruct (nth_error (l_refs st) n) as [r|] eqn:E.
  - destruct (readref_value st n r HI E) as (x & ->). reflexivity.
  - cbn [step_shared]. now rewrite E.
Qed.

(* ---------------------------------------------------------------- OPushPage *)

Lemma pushpage_inv st ing : Inv st -> Inv (fst (step_shared st (OPushPage ing))).
Proof.
  intros HI. cbn [step_shared]. destruct (N.ltb_spec (l_npages st) MAX_PAGES) as [Hlt|]; [|exact HI].
  cbn [fst]. destruct HI as [HL HE HC HS HF HR HQ]. constructor; simpl_st; auto.
  destruct HS as [D ND B P A FI]. constructor; auto.
  - intros j. rewrite B. split; intros (p & k & -> & Hp & Hk); exists p, k.
    + split; [reflexivity|]. split; [lia|]. rewrite updN_other by lia. exact Hk.
    + split; [reflexivity|]. unfold updN in Hk. destruct (N.eqb_spec (l_npages st) p); [lia|].
      split; [lia | exact Hk].
  - lia.
  - intros p. unfold updN. destruct (l_npages st =? p); [unfold PAGE_LEN; lia | apply A].
Qed.

(* ---------------------------------------------------------------- OReadField *)

Lemma readfield_inv st i : Inv st -> Inv (fst (step_shared st (OReadField i))).
Proof.
  intros HI. cbn [step_shared].
  apply with_slot_inv; [exact HI|]. intros j sl Es.
  destruct (memos_access (l_cur st) sl) as [sl1|] eqn:EA; [|exact HI].
  destruct (contract_ok (l_cur st) sl1) eqn:EC; cbn [negb]; [|exact HI].
  destruct (memos_access_spec _ _ _ EA) as (K & I & G & R & F & M & T & NT).
  pose proof (Inv_access st j sl sl1 HI Es EA) as HI1.
  pose proof (is_fields _ _ _ _ (inv_s _ HI) j sl Es) as Hf. rewrite <- F in Hf.
  destruct (s_fields sl1) as [v|] eqn:Ef; [|congruence]. cbn [fst].
  apply Inv_push_ref; [exact HI1|]. split; [reflexivity|]. cbn [r_tgt r_val].
  exists sl1. simpl_st. rewrite updN_same. repeat split; auto.
  eapply access_lock_ok; eauto.
Qed.

(* ---------------------------------------------------------------- OFetchMemo *)

Lemma fetch_inv st i f : Inv st -> Inv (fst (step_shared st (OFetchMemo i f))).
Proof.
  intros HI. cbn [step_shared]. destruct (f <? l_ntypes st); cbn [negb]; [|exact HI].
  apply with_slot_inv; [exact HI|]. intros j sl Es.
  destruct (memos_access (l_cur st) sl) as [sl1|] eqn:EA; [|exact HI].
  destruct (contract_ok (l_cur st) sl1) eqn:EC; cbn [negb]; [|exact HI].
  destruct (memos_access_spec _ _ _ EA) as (K & I & G & R & F & M & T & NT).
  pose proof (Inv_access st j sl sl1 HI Es EA) as HI1.
  destruct (s_memos sl1 f) as [c|] eqn:Em; [|exact HI1].
  rewrite M in Em.
  destruct (ic_table _ _ _ _ _ (inv_c _ HI) j sl f c Es Em) as (cl & Ec & L & S & Fn).
  replace (l_cells (put_slot st j sl1) c) with (l_cells st c) by reflexivity.
  rewrite Ec, L. destruct (c_val cl) as [v|] eqn:Ev; [|exact HI1]. cbn [fst].
  apply Inv_push_ref; [exact HI1|]. split; [reflexivity|]. cbn [r_tgt r_val].
  exists cl. simpl_st. repeat split; auto; [congruence|]. intros _.
  exists sl1. rewrite S, updN_same. split; [reflexivity|]. eapply access_lock_ok; eauto.
Qed.

(* ---------------------------------------------------------------- OInternHit / OInternMca *)

Lemma internhit_inv st i raise : Inv st -> Inv (fst (step_shared st (OInternHit i raise))).
Proof.
  intros HI. cbn [step_shared].
  apply with_slot_inv; [exact HI|]. intros j sl Es.
  destruct (s_kind sl) eqn:K; cbn [is_kind negb]; try exact HI. cbn [fst].
  destruct (Inv_qrecord st (s_ing sl) HI) as (q' & -> & HI0).
  apply (Inv_slot_meta _ j sl);
    [exact HI0 | exact Es | intros f; reflexivity | reflexivity | right; congruence |].
  simpl_st. unfold lock_ok. simpl_sl. rewrite K. intros [H|(l & H1 & H2)].
  - left. rewrite H. reflexivity.
  - right. rewrite H1. exists (N.max l (l_cur st)). split; [reflexivity | lia].
Qed.

Lemma internmca_inv st i g : Inv st -> Inv (fst (step_shared st (OInternMca i g))).
Proof.
  intros HI. cbn [step_shared].
  apply with_slot_inv; [exact HI|]. intros j sl Es.
  destruct (s_kind sl) eqn:K; cbn [is_kind negb]; try exact HI.
  destruct (Inv_qrecord st (s_ing sl) HI) as (q' & -> & HI0).
  destruct (g <? s_gen sl); [exact HI0|]. cbn [fst].
  apply (Inv_slot_meta _ j sl);
    [exact HI0 | exact Es | intros f; reflexivity | reflexivity | right; congruence |].
  simpl_st. unfold lock_ok. simpl_sl. rewrite K. intros [H|_]; [now left|].
    right. exists (l_cur st). split; [reflexivity | lia].
Qed.

(* ---------------------------------------------------------------- a fresh location *)

Lemma InvC_slot_fresh nt nc cells slots del j sl :
  InvC nt nc cells slots del -> slots j = None -> (forall f, s_memos sl f = None) ->
  InvC nt nc cells (updN slots j (Some sl)) del.
Proof.
  intros [D L T D1 D2 ND FR] E M. constructor; auto.
  - intros c cl Ec Hl. destruct (L c cl Ec Hl) as (Hf & sl0 & Es & Em). split; [exact Hf|].
    exists sl0. rewrite updN_other; [auto | congruence].
  - intros j0 sl0 f c. unfold updN. destruct (N.eqb_spec j j0) as [<-|Hne]; [|apply T].
    intros H. injection H as <-. rewrite M. discriminate.
Qed.

Lemma InvF_slot_fresh slots free j sl :
  InvF slots free -> slots j = None -> InvF (updN slots j (Some sl)) free.
Proof.
  intros [S ND] E. constructor; auto. intros g j0 Hin.
  destruct (S g j0 Hin) as (sl0 & Es & H). exists sl0. rewrite updN_other; [auto | congruence].
Qed.

Lemma InvR_slot_fresh cur cells slots free refs j sl :
  InvR cur cells slots free refs -> slots j = None -> InvR cur cells (updN slots j (Some sl)) free refs.
Proof.
  intros H E r Hr. destruct (H r Hr) as (Hrev & Ht). split; [exact Hrev|].
  destruct (r_tgt r) as [c|j0].
  - destruct Ht as (cl & Ec & Hs & Hv & Hl). exists cl. repeat split; auto. intros Hlive.
    destruct (Hl Hlive) as (sl0 & Es & Hk). exists sl0. rewrite updN_other; [auto | congruence].
  - destruct Ht as (sl0 & Es & Hf & Hk). exists sl0. rewrite updN_other; [auto | congruence].
Qed.

Lemma newslot_inv st k p v reusable : Inv st -> Inv (fst (step_shared st (ONewSlot k p v reusable))).
Proof.
  intros HI. cbn [step_shared].
  destruct (N.ltb_spec p (l_npages st)) as [Hp|]; [|exact HI].
  destruct (N.ltb_spec (l_palloc st p) PAGE_LEN) as [Hk|]; [|exact HI]. cbn [fst].
  (* the interned case also records the revision: the queue map changes, nothing else *)
  assert (exists q', match k with KInterned => qrecord st (l_ping st p) | _ => st end
                     = set_queue st q' /\ InvQ (l_cur st) q') as (q' & -> & HQ').
  { destruct k; try (exists (l_queue st); split; [destruct st; reflexivity | apply (inv_q _ HI)]).
    apply qrecord_eq, (inv_q _ HI). }
  set (j := make_id p (l_palloc st p)).
  pose proof (inv_s _ HI) as HS.
  pose proof (is_pages _ _ _ _ HS) as HP.
  assert (~ In j (l_slotids st)) as Hfresh.
  { intros Hin. apply (is_bounds _ _ _ _ HS) in Hin. destruct Hin as (p' & k' & Ej & Hp' & Hk').
    pose proof (is_alloc _ _ _ _ HS p') as HA.
    apply make_id_inj in Ej; try lia. destruct Ej as (<- & <-). lia. }
  assert (l_slots st j = None) as Enone.
  { destruct (l_slots st j) eqn:E; [|reflexivity]. exfalso. apply Hfresh.
    apply (is_dom _ _ _ _ HS). congruence. }
  destruct HI as [HL HE HC HS0 HF HR HQ]. constructor; simpl_st; auto.
  - apply InvC_slot_fresh; auto.
  - destruct HS as [D ND B P A FI]. constructor; auto.
    + intros j0. unfold updN. destruct (N.eqb_spec j j0) as [<-|Hne].
      * split; [intros _; now left | discriminate].
      * rewrite D. split; [now right | intros [H|H]; [congruence | exact H]].
    + constructor; auto.
    + intros j0. split.
      * intros [<-|Hin].
        -- exists p, (l_palloc st p). split; [reflexivity|]. split; [exact Hp|]. rewrite updN_same. lia.
        -- apply B in Hin. destruct Hin as (p' & k' & -> & Hp' & Hk'). exists p', k'.
           split; [reflexivity|]. split; [exact Hp'|]. unfold updN. destruct (N.eqb_spec p p') as [<-|]; lia.
      * intros (p' & k' & -> & Hp' & Hk'). unfold updN in Hk'.
        destruct (N.eqb_spec p p') as [<-|Hne].
        -- destruct (N.eq_dec k' (l_palloc st p)) as [->|Hk2]; [now left|]. right. apply B.
           exists p, k'. split; [reflexivity|]. split; [exact Hp | lia].
        -- right. apply B. exists p', k'. auto.
    + intros p'. unfold updN. destruct (N.eqb_spec p p') as [<-|]; [lia | apply A].
    + intros j0 sl0. unfold updN. destruct (N.eqb_spec j j0) as [<-|]; [|apply FI].
      intros H. injection H as <-. discriminate.
  - apply InvF_slot_fresh; auto.
  - apply InvR_slot_fresh; auto.
Qed.

(* ---------------------------------------------------------------- OReuseStruct *)

Lemma reuse_inv st g v : Inv st -> Inv (fst (step_shared st (OReuseStruct g v))).
Proof.
  intros HI. cbn [step_shared]. destruct (l_free st g) as [|i rest] eqn:Efree; [exact HI|].
  set (st0 := set_free st (updN (l_free st) g rest)).
  pose proof (inv_f _ HI) as HF. pose proof (inv_s _ HI) as HS.
  destruct (if_slot _ _ HF g i) as (sl & Es & K & Ig & St & M); [rewrite Efree; now left|].
  pose proof (if_nodup _ _ HF g) as NDg. rewrite Efree in NDg. apply NoDup_cons_iff in NDg. destruct NDg as (Hni & NDrest).
  assert (forall g0 j0, In j0 (updN (l_free st) g rest g0) -> In j0 (l_free st g0)) as Hsub.
  { intros g0 j0. unfold updN. destruct (N.eqb_spec g g0) as [<-|]; [|auto].
    rewrite Efree. intros H. now right. }
  assert (forall g0, ~ In i (updN (l_free st) g rest g0)) as Hnoti.
  { intros g0. unfold updN. destruct (N.eqb_spec g g0) as [<-|Hne]; [exact Hni|].
    intros Hin. destruct (if_slot _ _ HF g0 i Hin) as (sl' & Es' & _ & Ig' & _).
    rewrite Es in Es'. injection Es' as <-. congruence. }
  assert (Inv st0) as HI0.
  { unfold st0. destruct HI as [HL HE HC HS' HF' HR HQ]. constructor; simpl_st; auto.
    - constructor.
      + intros g0 j0 Hin. apply (if_slot _ _ HF g0 j0). now apply Hsub.
      + intros g0. unfold updN. destruct (N.eqb_spec g g0) as [<-|]; [exact NDrest | apply (if_nodup _ _ HF)].
    - intros r Hr. destruct (HR r Hr) as (Hrev & Ht). split; [exact Hrev|].
      assert (forall j0 sl0, lock_ok (l_cur st) (l_free st) j0 sl0 ->
                             lock_ok (l_cur st) (updN (l_free st) g rest) j0 sl0) as Hmono.
      { intros j0 sl0. unfold lock_ok. destruct (s_kind sl0); auto.
        intros [H|(H1 & H2)]; [now left | right; split; [exact H1|]]. intros Hin. apply H2. now apply Hsub. }
      destruct (r_tgt r) as [c|j0].
      + destruct Ht as (cl & Ec & Hs & Hv & Hl). exists cl. repeat split; auto. intros Hlive.
        destruct (Hl Hlive) as (sl0 & Es0 & Hk). eauto.
      + destruct Ht as (sl0 & Es0 & Hf & Hk). eauto. }
  assert (loc st0 i = Some i) as Eloc.
  { apply (loc_self st0); [apply (inv_s _ HI0) | unfold st0; simpl_st; rewrite Es; discriminate]. }
  unfold with_slot. rewrite Eloc. replace (l_slots st0 i) with (l_slots st i) by reflexivity. rewrite Es.
  destruct (next_generation (s_gen sl)) as [g'|]; [|exact HI0].
  rewrite St. cbn [fst].
  apply (Inv_put_slot st0 i sl); unfold st0; simpl_st; auto; [discriminate|].
  eapply InvR_kill_slot with (cells := l_cells st) (free := l_free st); eauto.
  - apply (inv_r _ HI).
  - unfold lock_ok. rewrite K, St, Ig. intros [H|(_ & H)]; [discriminate|].
    apply H. rewrite Efree. now left.
  - intros j0 g0 Hne. unfold updN. destruct (N.eqb_spec g g0) as [<-|]; [|tauto].
    rewrite Efree. split; [intros H; now right | intros [H|H]; [congruence | exact H]].
Qed.

(* ---------------------------------------------------------------- clearing the memos of an
   unprotected slot under `&db` and overwriting the slot *)

Lemma Inv_clear_slot st j sl sl' free' :
  Inv st -> l_slots st j = Some sl -> ~ lock_ok (l_cur st) (l_free st) j sl ->
  s_fields sl' <> None -> (forall f, s_memos sl' f = None) ->
  InvF (updN (l_slots st) j (Some sl')) free' ->
  (forall j0 g, j0 <> j -> (In j0 (free' g) <-> In j0 (l_free st g))) ->
  Inv (set_free (put_slot (clear_memos st sl) j sl') free').
Proof.
  intros HI Es NL Hf M HF' Hfree.
  destruct (clear_memos_spec st j sl (inv_c _ HI) Es) as (cells' & -> & HX & HN).
  destruct HI as [HL HE HC HS HF HR HQ]. constructor; simpl_st; auto.
  - eapply InvC_clear; eauto.
  - eapply InvS_slot_meta; eauto.
  - eapply InvR_kill_slot; eauto. eapply clear_keeps_others; eauto.
Qed.

Lemma Inv_clear_slot_same_free st j sl sl' :
  Inv st -> l_slots st j = Some sl -> ~ lock_ok (l_cur st) (l_free st) j sl ->
  (forall g, ~ In j (l_free st g)) ->
  s_fields sl' <> None -> (forall f, s_memos sl' f = None) ->
  Inv (put_slot (clear_memos st sl) j sl').
Proof.
  intros HI Es NL NF Hf M.
  assert (l_free (put_slot (clear_memos st sl) j sl') = l_free st) as E
    by (simpl_st; apply free_cells_free).
  rewrite <- (set_free_same (put_slot (clear_memos st sl) j sl')), E.
  apply (Inv_clear_slot st j sl sl' (l_free st) HI Es NL Hf M); [|tauto].
  apply InvF_slot_meta; [apply (inv_f _ HI) | exact NF].
Qed.

(* a struct whose stamp is an older revision is not protected *)
Lemma tracked_old_unprotected cur free j sl r :
  s_kind sl = KTracked -> s_stamp sl = Some r -> r <> cur -> ~ lock_ok cur free j sl.
Proof.
  intros K S Hr. unfold lock_ok. rewrite K, S. intros [H|(H & _)]; [|discriminate]. congruence.
Qed.

(* ---------------------------------------------------------------- OUpdateStruct *)

Lemma update_inv st i v idchg : Inv st -> Inv (fst (step_shared st (OUpdateStruct i v idchg))).
Proof.
  intros HI. cbn [step_shared].
  apply with_slot_inv; [exact HI|]. intros j sl Es.
  destruct (s_kind sl) eqn:K; cbn [is_kind negb]; try exact HI.
  destruct (s_stamp sl) as [r|] eqn:S; [|exact HI].
  destruct (N.eqb_spec r (l_cur st)) as [|Hr]; [exact HI|].
  destruct (next_generation (s_gen sl)) as [g'|]; [|exact HI].
  pose proof (tracked_old_unprotected (l_cur st) (l_free st) j sl r K S Hr) as NL.
  assert (forall g, ~ In j (l_free st g)) as NF.
  { eapply not_free_of_stamp; [apply (inv_f _ HI) | exact Es | left; congruence]. }
  destruct idchg; cbn [fst].
  - apply (Inv_clear_slot_same_free st j sl _ HI Es NL NF); simpl_sl; [discriminate | reflexivity].
  - apply (Inv_put_slot st j sl); simpl_sl; auto; [discriminate|].
    eapply InvR_kill_slot with (cells := l_cells st) (free := l_free st); eauto;
      [apply (inv_r _ HI) | tauto].
Qed.

(* ---------------------------------------------------------------- ODeleteEntity *)

Lemma delete_inv st i cb : Inv st -> Inv (fst (step_shared st (ODeleteEntity i cb))).
Proof.
  intros HI. cbn [step_shared].
  apply with_slot_inv; [exact HI|]. intros j sl Es.
  destruct (s_kind sl) eqn:K; cbn [is_kind negb]; try exact HI.
  destruct (s_stamp sl) as [r|] eqn:S; [|exact HI].
  assert (forall g, ~ In j (l_free st g)) as NF.
  { eapply not_free_of_stamp; [apply (inv_f _ HI) | exact Es | left; congruence]. }
  destruct (N.eqb_spec r (l_cur st)) as [->|Hr]; cbn [fst].
  - (* read-locked in this revision: the swap has happened, then the panic *)
    apply (Inv_slot_meta st j sl); auto.
    + left. congruence.
    + unfold lock_ok. simpl_sl. rewrite K. intros _. right. split; [reflexivity | apply NF].
  - pose proof (tracked_old_unprotected (l_cur st) (l_free st) j sl r K S Hr) as NL.
    destruct cb; cbn [fst].
    + apply (Inv_clear_slot_same_free st j sl _ HI Es NL NF); simpl_sl; [|reflexivity].
      eapply is_fields; [apply (inv_s _ HI) | eauto].
    + replace (l_free (put_slot (clear_memos st sl) j (set_memos (set_stamp sl None) no_memos)))
        with (l_free st) by (simpl_st; symmetry; apply free_cells_free).
      apply (Inv_clear_slot st j sl _ _ HI Es NL); simpl_sl.
      * eapply is_fields; [apply (inv_s _ HI) | eauto].
      * reflexivity.
      * constructor.
        -- intros g j0 Hin.
           assert (In j0 (l_free st g) \/ (j0 = j /\ g = s_ing sl)) as Hc.
           { unfold updN in Hin. destruct (N.eqb_spec (s_ing sl) g) as [<-|Hg]; [|now left].
             apply in_app_iff in Hin. destruct Hin as [H|[<-|[]]]; [now left | right; auto]. }
           destruct Hc as [Hin'|(-> & ->)].
           ++ destruct (if_slot _ _ (inv_f _ HI) _ _ Hin') as (sl0 & Es0 & H). exists sl0.
              rewrite updN_other; [auto|]. intros <-. exact (NF _ Hin').
           ++ rewrite updN_same. eexists. split; [reflexivity|]. cbn. auto.
        -- intros g. unfold updN. destruct (N.eqb_spec (s_ing sl) g) as [<-|Hg]; [|apply (if_nodup _ _ (inv_f _ HI))].
           apply NoDup_app_intro; [apply (if_nodup _ _ (inv_f _ HI)) | repeat constructor; intros [] |].
           intros x Hx [<-|[]]. exact (NF _ Hx).
      * intros j0 g Hne. unfold updN. destruct (N.eqb_spec (s_ing sl) g) as [<-|Hg]; [|tauto].
        rewrite in_app_iff. split; [intros [H|[H|[]]]; [exact H | congruence] | intros H; now left].
Qed.

(* ---------------------------------------------------------------- OInternReuse *)

Lemma internreuse_inv st i v reusable : Inv st -> Inv (fst (step_shared st (OInternReuse i v reusable))).
Proof.
  intros HI. cbn [step_shared].
  apply with_slot_inv; [exact HI|]. intros j sl Es.
  destruct (s_kind sl) eqn:K; cbn [is_kind negb]; try exact HI.
  destruct (Inv_qrecord st (s_ing sl) HI) as (q' & -> & HI0).
  set (st0 := set_queue st q') in *.
  destruct (s_reusable sl) eqn:R; cbn [andb negb]; [|exact HI0].
  destruct (s_stamp sl) as [l|] eqn:S; cbn [negb]; [|exact HI0].
  destruct (k_rq_is_stale (l_queue st0 (s_ing sl)) l) eqn:Stale; cbn [negb]; [|exact HI0].
  destruct (next_generation (s_gen sl)) as [g'|]; [|exact HI0]. cbn [fst].
  pose proof (stale_lt_cur _ _ _ _ (inv_q _ HI0) Stale) as Hlt.
  apply (Inv_clear_slot_same_free st0 j sl _ HI0); unfold st0 in *; simpl_st.
  - exact Es.
  - unfold lock_ok. rewrite K, R, S. intros [H|(l0 & H1 & H2)]; [discriminate|].
    injection H1 as <-. lia.
  - eapply not_free_of_stamp; [apply (inv_f _ HI) | exact Es | right; congruence].
  - simpl_sl. discriminate.
  - reflexivity.
Qed.

Lemma InvC_next_fresh nt nc cells slots del : InvC nt nc cells slots del -> cells nc = None.
Proof.
  intros HC. destruct (cells nc) eqn:E; [|reflexivity].
  assert (nc < nc) by (apply (ic_dom _ _ _ _ _ HC); congruence). lia.
Qed.

Definition retired_of (cl : mcell) : mcell :=
  mk_cell Retired (c_slot cl) (c_fn cl) (c_val cl) (c_frees cl).

(* The hypotheses come in three pairs, each "the new value at one point, agreement elsewhere";
   pointwise agreement rather than [updN] lets the callers pass the state their setters produce
   as it is. *)
Lemma InvC_insert nt nc cells cells' slots slots' del j sl sl' f ov :
  InvC nt nc cells slots del -> slots j = Some sl -> f < nt -> s_memos sl f = None ->
  cells' nc = Some (mk_cell Live j f ov 0) -> (forall c, c <> nc -> cells' c = cells c) ->
  slots' j = Some sl' -> (forall j0, j0 <> j -> slots' j0 = slots j0) ->
  s_memos sl' f = Some nc -> (forall f0, f0 <> f -> s_memos sl' f0 = s_memos sl f0) ->
  InvC nt (nc + 1) cells' slots' del.
Proof.
  intros HC Es Hf Eold Cn Co Sj So Mf Mo. pose proof (InvC_next_fresh _ _ _ _ _ HC) as Enc.
  destruct HC as [D L T D1 D2 ND FR].
  assert (forall c cl, cells c = Some cl -> cells' c = Some cl) as Keep.
  { intros c cl Ec. rewrite Co; [exact Ec | congruence]. }
  constructor.
  - intros c. destruct (N.eq_dec c nc) as [->|Hne].
    + rewrite Cn. split; [lia | discriminate].
    + rewrite Co, D by exact Hne. lia.
  - intros c cl. destruct (N.eq_dec c nc) as [->|Hne].
    + rewrite Cn. intros H _. injection H as <-. cbn. split; [exact Hf | eauto].
    + rewrite Co by exact Hne. intros Ec Hl.
      destruct (L c cl Ec Hl) as (Hfn & sl0 & Es0 & Em). split; [exact Hfn|].
      destruct (N.eq_dec (c_slot cl) j) as [Heq|Hnj]; [|exists sl0; rewrite So by exact Hnj; auto].
      rewrite Heq in *. rewrite Es in Es0. injection Es0 as <-. exists sl'. split; [exact Sj|].
      rewrite Mo; [exact Em | congruence].
  - intros j0 sl0 f0 c Es0 Em. destruct (N.eq_dec j0 j) as [->|Hnj].
    + rewrite Sj in Es0. injection Es0 as <-. destruct (N.eq_dec f0 f) as [->|Hnf].
      * rewrite Mf in Em. injection Em as <-. eexists. split; [exact Cn|]. repeat split.
      * rewrite Mo in Em by exact Hnf. destruct (T j sl f0 c Es Em) as (cl & Ec & H).
        exists cl. split; [now apply Keep | exact H].
    + rewrite So in Es0 by exact Hnj. destruct (T j0 sl0 f0 c Es0 Em) as (cl & Ec & H).
      exists cl. split; [now apply Keep | exact H].
  - intros c Hc. destruct (D1 c Hc) as (cl & Ec & R). exists cl. split; [now apply Keep | exact R].
  - intros c cl. destruct (N.eq_dec c nc) as [->|Hne].
    + rewrite Cn. intros H. injection H as <-. discriminate.
    + rewrite Co by exact Hne. apply D2.
  - exact ND.
  - intros c cl. destruct (N.eq_dec c nc) as [->|Hne].
    + rewrite Cn. intros H. injection H as <-. reflexivity.
    + rewrite Co by exact Hne. apply FR.
Qed.

Lemma InvC_retire nt nc cells slots del j sl f old clo :
  InvC nt nc cells slots del -> slots j = Some sl -> s_memos sl f = Some old ->
  cells old = Some clo ->
  InvC nt nc (updN cells old (Some (retired_of clo)))
       (updN slots j (Some (set_memos sl (updN (s_memos sl) f None)))) (old :: del).
Proof.
  intros HC Es Eold Eclo. pose proof HC as [D L T D1 D2 ND FR].
  destruct (T j sl f old Es Eold) as (clo' & Eclo' & Lo & So & Fo).
  rewrite Eclo in Eclo'. injection Eclo' as <-.
  constructor.
  - intros c. unfold updN. destruct (N.eqb_spec old c) as [<-|]; [|apply D].
    split; [intros _; apply D; congruence | discriminate].
  - intros c cl. unfold updN at 1. destruct (N.eqb_spec old c) as [<-|Ho].
    + intros H. injection H as <-. discriminate.
    + intros Ec Hl. destruct (L c cl Ec Hl) as (Hfn & sl0 & Es0 & Em). split; [exact Hfn|].
      unfold updN at 1. destruct (N.eqb_spec j (c_slot cl)) as [Heq|Hnj]; [|eauto].
      eexists. split; [reflexivity|]. simpl_sl. rewrite <- Heq, Es in Es0. injection Es0 as <-.
      unfold updN. destruct (N.eqb_spec f (c_fn cl)) as [->|]; [congruence | exact Em].
  - intros j0 sl0 f0 c. unfold updN at 1. destruct (N.eqb_spec j j0) as [<-|Hnj].
    + intros H. injection H as <-. simpl_sl. unfold updN at 1.
      destruct (N.eqb_spec f f0) as [<-|Hnf]; [discriminate|].
      intros Em. destruct (T j sl f0 c Es Em) as (cl & Ec & Hl & Hs & Hfn).
      exists cl. rewrite updN_other; [auto|]. intros <-. congruence.
    + intros Es0 Em. destruct (T j0 sl0 f0 c Es0 Em) as (cl & Ec & Hl & Hs & Hfn).
      exists cl. rewrite updN_other; [auto|]. intros <-. congruence.
  - intros c [<-|Hc].
    + exists (retired_of clo). rewrite updN_same. split; reflexivity.
    + destruct (D1 c Hc) as (cl & Ec & R). exists cl. rewrite updN_other; [auto|].
      intros <-. congruence.
  - intros c cl. unfold updN. destruct (N.eqb_spec old c) as [<-|Ho]; [intros _ _; now left|].
    intros Ec R. right. eapply D2; eauto.
  - constructor; [|exact ND]. intros Hin. destruct (D1 old Hin) as (cl & Ec & R). congruence.
  - intros c cl. unfold updN. destruct (N.eqb_spec old c) as [<-|Ho]; [|apply FR].
    intros H. injection H as <-. cbn. rewrite (FR old clo Eclo), Lo. reflexivity.
Qed.

(* references: existing ones keep denoting what they denoted (a replaced cell is Retired, still
   allocated, value untouched) *)
Lemma InvR_insert cur cells cells' slots free refs j sl sl1 m :
  InvR cur cells slots free refs -> slots j = Some sl ->
  (forall c cl, cells c = Some cl -> cells' c = Some cl \/ cells' c = Some (retired_of cl)) ->
  s_kind sl1 = s_kind sl -> s_ing sl1 = s_ing sl -> s_fields sl1 = s_fields sl ->
  (lock_ok cur free j sl -> lock_ok cur free j sl1) ->
  InvR cur cells' (updN slots j (Some (set_memos sl1 m))) free refs.
Proof.
  intros H Es HC K I F LK r Hr. destruct (H r Hr) as (Hrev & Ht). split; [exact Hrev|].
  assert (forall j0 sl0, slots j0 = Some sl0 -> lock_ok cur free j0 sl0 ->
          exists sl2, updN slots j (Some (set_memos sl1 m)) j0 = Some sl2 /\ lock_ok cur free j0 sl2 /\
                      s_fields sl2 = s_fields sl0) as Hslot.
  { intros j0 sl0 Es0 Hk. unfold updN. destruct (N.eqb_spec j j0) as [<-|]; [|eauto].
    rewrite Es in Es0. injection Es0 as <-. eexists. split; [reflexivity|]. split; [|exact F].
    apply LK in Hk. unfold lock_ok in *. simpl_sl. exact Hk. }
  destruct (r_tgt r) as [c|j0].
  - destruct Ht as (cl & Ec & Hs & Hv & Hl). destruct (HC c cl Ec) as [E'|E'].
    + exists cl. repeat split; auto. intros Hlive.
      destruct (Hl Hlive) as (sl0 & Es0 & Hk). destruct (Hslot _ _ Es0 Hk) as (sl2 & E2 & K2 & _). eauto.
    + exists (retired_of cl). repeat split; auto; discriminate.
  - destruct Ht as (sl0 & Es0 & Hf & Hk). destruct (Hslot _ _ Es0 Hk) as (sl2 & E2 & K2 & F2).
    exists sl2. repeat split; auto. congruence.
Qed.

Lemma lock_ok_set_memos cur free j sl m :
  lock_ok cur free j (set_memos sl m) <-> lock_ok cur free j sl.
Proof. unfold lock_ok. simpl_sl. tauto. Qed.

Lemma retire_cell_live st c cl :
  l_cells st c = Some cl -> c_state cl = Live ->
  retire_cell st c =
  set_deleted (set_cells st (l_ncells st) (updN (l_cells st) c (Some (retired_of cl))))
              (c :: l_deleted st).
Proof. intros E L. unfold retire_cell. rewrite E, L. reflexivity. Qed.

Lemma insert_inv st i f ov : Inv st -> Inv (fst (step_shared st (OInsertMemo i f ov))).
Proof.
  intros HI. cbn [step_shared].
  destruct (N.ltb_spec f (l_ntypes st)) as [Hf|]; cbn [negb]; [|exact HI].
  apply with_slot_inv; [exact HI|]. intros j sl Es.
  destruct (memos_access (l_cur st) sl) as [sl1|] eqn:EA; [|exact HI].
  destruct (contract_ok (l_cur st) sl1) eqn:EC; cbn [negb]; [|exact HI].
  destruct (memos_access_spec _ _ _ EA) as (K & I & G & R & F & M & T & NT).
  pose proof (access_not_free _ _ _ _ _ _ (inv_f _ HI) Es EA) as NF.
  pose proof (access_lock_ok (l_cur st) (l_free st) j sl sl1 EA EC) as LK1.
  pose proof (access_lock_mono (l_cur st) (l_free st) j sl sl1 EA) as LK.
  pose proof (InvC_next_fresh _ _ _ _ _ (inv_c _ HI)) as Enc.
  assert (s_fields sl1 <> None) as Hfld.
  { rewrite F. eapply is_fields; [apply (inv_s _ HI) | eauto]. }
  assert (forall f0, s_memos sl1 f0 = s_memos sl f0) as M' by (intros f0; now rewrite M).
  cbn [fst].
  (* the reference to the new cell is handed out last *)
  assert (forall s, Inv s ->
            l_cur s = l_cur st -> l_free s = l_free st ->
            l_cells s (l_ncells st) = Some (mk_cell Live j f ov 0) ->
            l_slots s j = Some (set_memos sl1 (updN (s_memos sl1) f (Some (l_ncells st)))) ->
            Inv (match ov with Some v => push_ref s (TCell (l_ncells st)) v | None => s end)) as Hpush.
  { intros s Hs Ecur Efree Ec Esl. destruct ov as [v|]; [|exact Hs].
    apply Inv_push_ref; [exact Hs|]. split; [reflexivity|]. cbn [r_tgt r_val].
    eexists. split; [exact Ec|]. cbn. repeat split; [discriminate|]. intros _.
    eexists. split; [exact Esl|]. rewrite Ecur, Efree. apply lock_ok_set_memos. exact LK1. }
  destruct (s_memos sl1 f) as [old|] eqn:Eold.
  - (* an older memo is replaced and retired *)
    assert (s_memos sl f = Some old) as Eold' by (now rewrite <- M).
    destruct (ic_table _ _ _ _ _ (inv_c _ HI) j sl f old Es Eold') as (clo & Eclo & Lo & So & Fo).
    assert (old <> l_ncells st) as Hon by congruence.
    rewrite (retire_cell_live _ old clo); [|simpl_st; rewrite updN_other by congruence; exact Eclo | exact Lo].
    apply Hpush; simpl_st; try reflexivity;
      [|rewrite updN_other by congruence; apply updN_same | apply updN_same].
    destruct HI as [HL HE HC HS HF HR HQ]. constructor; simpl_st; auto.
    + (* retire the old memo, then insert into the emptied entry *)
      pose proof (InvC_retire _ _ _ _ _ j sl f old clo HC Es Eold' Eclo) as HC1.
      eapply (InvC_insert _ _ _ _ _ _ _ j (set_memos sl (updN (s_memos sl) f None)) _ f ov HC1);
        auto using updN_same; simpl_sl; auto using updN_same.
      * rewrite updN_other by congruence. apply updN_same.
      * intros c Hc. unfold updN. destruct (old =? c); [reflexivity|].
        destruct (N.eqb_spec (l_ncells st) c); [congruence | reflexivity].
      * intros j0 Hj. rewrite !updN_other by congruence. reflexivity.
      * intros f0 Hf0. rewrite !updN_other by congruence. apply M'.
    + eapply InvS_slot_meta; eauto.
    + apply InvF_slot_meta; auto.
    + eapply InvR_insert; eauto. intros c cl Ec. unfold updN.
      destruct (N.eqb_spec old c) as [<-|]; [right; congruence|].
      destruct (N.eqb_spec (l_ncells st) c) as [<-|]; [congruence | now left].
  - assert (s_memos sl f = None) as Eold' by (now rewrite <- M).
    apply Hpush; simpl_st; try reflexivity; try apply updN_same.
    destruct HI as [HL HE HC HS HF HR HQ]. constructor; simpl_st; auto.
    + eapply (InvC_insert _ _ _ _ _ _ _ j sl _ f ov HC Es); auto using updN_same, updN_other;
        simpl_sl; auto using updN_same.
      intros f0 Hf0. rewrite updN_other by congruence. apply M'.
    + eapply InvS_slot_meta; eauto.
    + apply InvF_slot_meta; auto.
    + eapply InvR_insert; eauto. intros c cl Ec. left. rewrite updN_other by congruence. exact Ec.
Qed.
