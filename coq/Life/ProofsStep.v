(* Life/ProofsStep.v — the invariant of the lifetime machine, split into parts that each depend on
   a few components of the state, with the frame lemmas of each part. *)
From Salsa Require Import Base.
From Salsa.gen Require Import Kernels.
From Salsa.Kern Require Import K9_Retention.
From Salsa.Life Require Import Model ProofsBase.

(* ---------------------------------------------------------------- parts *)

(* C: cells, memo tables, deleted_entries.  Cells are allocated in order, [ncells] is the next
   index ([ic_dom]).  Live cells and memo-table entries are in bijection ([ic_live], [ic_table]:
   the cell knows the slot and ingredient whose entry points to it); Retired cells are exactly
   those parked in `deleted_entries`, once each ([ic_del1], [ic_del2], [ic_nodup]); [ic_frees]
   is "no double free": the free counter is 1 on Freed cells and 0 elsewhere. *)
Record InvC (ntypes ncells : N) (cells : N -> option mcell) (slots : N -> option slot)
            (deleted : list N) : Prop := {
  ic_dom : forall c, cells c <> None <-> c < ncells;
  ic_live : forall c cl, cells c = Some cl -> c_state cl = Live ->
      c_fn cl < ntypes /\ exists sl, slots (c_slot cl) = Some sl /\ s_memos sl (c_fn cl) = Some c;
  ic_table : forall j sl f c, slots j = Some sl -> s_memos sl f = Some c ->
      exists cl, cells c = Some cl /\ c_state cl = Live /\ c_slot cl = j /\ c_fn cl = f;
  ic_del1 : forall c, In c deleted -> exists cl, cells c = Some cl /\ c_state cl = Retired;
  ic_del2 : forall c cl, cells c = Some cl -> c_state cl = Retired -> In c deleted;
  ic_nodup : NoDup deleted;
  ic_frees : forall c cl, cells c = Some cl ->
      c_frees cl = match c_state cl with Freed => 1 | _ => 0 end
}.

(* S: pages, initialised locations, fields *)
Record InvS (npages : N) (palloc : N -> N) (slots : N -> option slot) (slotids : list N) : Prop := {
  is_dom : forall j, slots j <> None <-> In j slotids;
  is_nodup : NoDup slotids;
  is_bounds : forall j, In j slotids <-> exists p k, j = make_id p k /\ p < npages /\ k < palloc p;
  is_pages : npages <= MAX_PAGES;
  is_alloc : forall p, palloc p <= PAGE_LEN;
  is_fields : forall j sl, slots j = Some sl -> s_fields sl <> None
}.

(* F: free lists of tracked-struct ingredients *)
Record InvF (slots : N -> option slot) (free : N -> list N) : Prop := {
  if_slot : forall g j, In j (free g) -> exists sl, slots j = Some sl /\ s_kind sl = KTracked /\
      s_ing sl = g /\ s_stamp sl = None /\ forall f, s_memos sl f = None;
  if_nodup : forall g, NoDup (free g)
}.

(* the stamp protects what a reference into slot j denotes *)
Definition lock_ok (cur : N) (free : N -> list N) (j : N) (sl : slot) : Prop :=
  match s_kind sl with
  | KInput => True
  | KTracked => s_stamp sl = Some cur \/ (s_stamp sl = None /\ ~ In j (free (s_ing sl)))
  | KInterned => s_reusable sl = false \/ exists l, s_stamp sl = Some l /\ cur <= l
  end.

Definition ref_ok (cur : N) (cells : N -> option mcell) (slots : N -> option slot)
                  (free : N -> list N) (r : lref) : Prop :=
  r_rev r = cur /\
  match r_tgt r with
  | TCell c => exists cl, cells c = Some cl /\ c_state cl <> Freed /\ c_val cl = Some (r_val r) /\
                 (c_state cl = Live -> exists sl, slots (c_slot cl) = Some sl /\
                                                  lock_ok cur free (c_slot cl) sl)
  | TField j => exists sl, slots j = Some sl /\ s_fields sl = Some (r_val r) /\ lock_ok cur free j sl
  end.

(* R: every outstanding reference was handed out in the current revision, its target still holds
   the value handed out, and the slot it points into (for a memo: the slot owning the Live cell)
   is protected by its stamp, so no shared operation may clear or reuse it *)
Definition InvR cur cells slots free (refs : list lref) : Prop :=
  forall r, In r refs -> ref_ok cur cells slots free r.

(* Q: revision queues.  The bound is 2^64: a queue's length is a `usize`, and the translated
   retention kernel (Kern/K9_Retention.v) computes its indices modulo 2^64; [qlen_ok] assumes the
   bound of the configured lengths and no operation changes a queue's length. *)
Definition InvQ (cur : N) (queue : N -> list N) : Prop :=
  1 <= cur /\ forall g, k_len (queue g) < 18446744073709551616 /\
                        forall x, In x (queue g) -> 1 <= x <= cur.

Record Inv (st : lstate) : Prop := {
  inv_live : l_dropped st = false;
  inv_err : l_err st = false;
  inv_c : InvC (l_ntypes st) (l_ncells st) (l_cells st) (l_slots st) (l_deleted st);
  inv_s : InvS (l_npages st) (l_palloc st) (l_slots st) (l_slotids st);
  inv_f : InvF (l_slots st) (l_free st);
  inv_r : InvR (l_cur st) (l_cells st) (l_slots st) (l_free st) (l_refs st);
  inv_q : InvQ (l_cur st) (l_queue st)
}.

(* after drop *)
Record Final (st : lstate) : Prop := {
  fin_dropped : l_dropped st = true;
  fin_err : l_err st = false;
  fin_dom : forall c, l_cells st c <> None <-> c < l_ncells st;
  fin_cells : forall c cl, l_cells st c = Some cl -> c_state cl = Freed /\ c_frees cl = 1;
  fin_slots : forall j sl, l_slots st j = Some sl -> s_fields sl = None /\ forall f, s_memos sl f = None;
  fin_s_dom : forall j, l_slots st j <> None <-> In j (l_slotids st);
  fin_bounds : forall j, In j (l_slotids st) <->
                         exists p k, j = make_id p k /\ p < l_npages st /\ k < l_palloc st p;
  fin_pages : l_npages st <= MAX_PAGES /\ forall p, l_palloc st p <= PAGE_LEN;
  fin_refs : l_refs st = [];
  fin_deleted : l_deleted st = []
}.

Definition Good (st : lstate) : Prop := Inv st \/ Final st.

(* ---------------------------------------------------------------- small facts *)

Lemma cstate_dec (a b : cstate) : {a = b} + {a <> b}.
Proof. decide equality. Qed.

Lemma lock_ok_free_ext cur free free' j sl :
  (forall g, In j (free' g) <-> In j (free g)) -> lock_ok cur free j sl -> lock_ok cur free' j sl.
Proof.
  unfold lock_ok. intros H. destruct (s_kind sl); auto.
  intros [E|[E N]]; [now left | right; split; [exact E|]]. now rewrite H.
Qed.

Lemma free_stamp_none slots free g j sl :
  InvF slots free -> In j (free g) -> slots j = Some sl -> s_kind sl = KTracked /\ s_stamp sl = None.
Proof.
  intros HF Hin E. destruct (if_slot _ _ HF g j Hin) as (sl' & E' & K & _ & S & _).
  rewrite E in E'. injection E' as <-. auto.
Qed.

Lemma not_free_of_stamp slots free j sl :
  InvF slots free -> slots j = Some sl -> (s_stamp sl <> None \/ s_kind sl <> KTracked) ->
  forall g, ~ In j (free g).
Proof.
  intros HF E H g Hin. destruct (free_stamp_none _ _ _ _ _ HF Hin E) as (K & S).
  destruct H; congruence.
Qed.

(* ---------------------------------------------------------------- frame lemmas: a slot's
   meta data (stamp, fields, reusable, generation) changes, its memo table does not *)

Lemma InvC_slot_meta nt nc cells slots del j sl sl' :
  InvC nt nc cells slots del -> slots j = Some sl -> (forall f, s_memos sl' f = s_memos sl f) ->
  InvC nt nc cells (updN slots j (Some sl')) del.
Proof.
  intros H E M. destruct H as [D L T D1 D2 ND FR]. constructor; auto.
  - intros c cl Ec Hl. destruct (L c cl Ec Hl) as (Hf & sl0 & Es & Em). split; [exact Hf|].
    unfold updN. destruct (N.eqb_spec j (c_slot cl)) as [Heq|Hne].
    + exists sl'. split; [reflexivity|]. rewrite M. rewrite <- Heq in Es. rewrite E in Es.
      now injection Es as <-.
    + eauto.
  - intros j0 sl0 f c. unfold updN. destruct (N.eqb_spec j j0) as [<-|Hne].
    + intros Es Em. injection Es as <-. rewrite M in Em. eapply T; eauto.
    + apply T.
Qed.

Lemma InvS_slot_meta np pa slots ids j sl sl' :
  InvS np pa slots ids -> slots j = Some sl -> s_fields sl' <> None ->
  InvS np pa (updN slots j (Some sl')) ids.
Proof.
  intros H E F. destruct H as [D ND B P A FI]. constructor; auto.
  - intros j0. unfold updN. destruct (N.eqb_spec j j0) as [<-|Hne]; [|apply D].
    split; [intros _; apply D; congruence | discriminate].
  - intros j0 sl0. unfold updN. destruct (N.eqb_spec j j0) as [<-|Hne]; [|apply FI].
    intros H. now injection H as <-.
Qed.

Lemma InvF_slot_meta slots free j sl' :
  InvF slots free -> (forall g, ~ In j (free g)) -> InvF (updN slots j (Some sl')) free.
Proof.
  intros [S ND] Hn. constructor; auto.
  intros g j0 Hin. rewrite updN_other; [apply (S g j0 Hin)|]. intros ->. exact (Hn g Hin).
Qed.

Lemma InvR_slot_meta cur cells slots free refs j sl sl' :
  InvR cur cells slots free refs -> slots j = Some sl ->
  s_fields sl' = s_fields sl ->
  (lock_ok cur free j sl -> lock_ok cur free j sl') ->
  InvR cur cells (updN slots j (Some sl')) free refs.
Proof.
  intros H E F L r Hr. destruct (H r Hr) as (Hrev & Ht). split; [exact Hrev|].
  destruct (r_tgt r) as [c|j0].
  - destruct Ht as (cl & Ec & Hs & Hv & Hl). exists cl. repeat split; auto.
    intros Hlive. destruct (Hl Hlive) as (sl0 & Es & Hk).
    unfold updN. destruct (N.eqb_spec j (c_slot cl)) as [Heq|Hne].
    + exists sl'. split; [reflexivity|]. rewrite <- Heq in *. rewrite E in Es. injection Es as <-. auto.
    + eauto.
  - destruct Ht as (sl0 & Es & Hf & Hk). unfold updN. destruct (N.eqb_spec j j0) as [<-|Hne].
    + rewrite E in Es. injection Es as <-. exists sl'. split; [reflexivity|]. split; [congruence | auto].
    + eauto.
Qed.

(* references survive when only the cells that are Live and owned by an unprotected slot j change,
   and j itself is overwritten *)
Lemma InvR_kill_slot cur cells cells' slots free free' refs j sl sl' :
  InvR cur cells slots free refs -> slots j = Some sl -> ~ lock_ok cur free j sl ->
  (forall c cl, cells c = Some cl -> ~ (c_state cl = Live /\ c_slot cl = j) -> cells' c = Some cl) ->
  (forall j0 g, j0 <> j -> (In j0 (free' g) <-> In j0 (free g))) ->
  InvR cur cells' (updN slots j (Some sl')) free' refs.
Proof.
  intros H E NL HC HF r Hr. destruct (H r Hr) as (Hrev & Ht). split; [exact Hrev|].
  destruct (r_tgt r) as [c|j0].
  - destruct Ht as (cl & Ec & Hs & Hv & Hl). exists cl.
    destruct (cstate_dec (c_state cl) Live) as [Hlive|Hnl].
    + destruct (Hl Hlive) as (sl0 & Es & Hk).
      assert (c_slot cl <> j) as Hne.
      { intros Heq. rewrite Heq in *. rewrite E in Es. injection Es as <-. contradiction. }
      split; [apply HC; [exact Ec | tauto]|]. repeat split; auto. intros _.
      exists sl0. rewrite updN_other by congruence. split; [exact Es|].
      eapply lock_ok_free_ext; [|exact Hk]. intros g. now apply HF.
    + split; [apply HC; [exact Ec | tauto]|]. repeat split; auto. intros; contradiction.
  - destruct Ht as (sl0 & Es & Hf & Hk).
    assert (j0 <> j) as Hne.
    { intros ->. rewrite E in Es. injection Es as <-. contradiction. }
    exists sl0. rewrite updN_other by congruence. repeat split; auto.
    eapply lock_ok_free_ext; [|exact Hk]. intros g. now apply HF.
Qed.

Lemma InvR_nil cur cells slots free : InvR cur cells slots free [].
Proof. intros r []. Qed.

(* ---------------------------------------------------------------- queue *)

Lemma In_removelast {A} (l : list A) x : In x (removelast l) -> In x l.
Proof.
  induction l as [|a l IH]; [auto|]. destruct l as [|b l]; [intros []|].
  change (removelast (a :: b :: l)) with (a :: removelast (b :: l)).
  intros [<-|H]; [now left | right; auto].
Qed.

Lemma InvQ_record cur queue g :
  InvQ cur queue -> queue g <> [] -> InvQ cur (updN queue g (k_rq_record (queue g) cur)).
Proof.
  intros (Hc & H) Hne. split; [exact Hc|]. intros g0. unfold updN.
  destruct (N.eqb_spec g g0) as [<-|Hg]; [|apply H].
  destruct (H g) as (Hlen & Hin). split.
  - rewrite k_rq_record_length; auto.
  - intros x. rewrite k_rq_record_spec by assumption.
    destruct (cur <=? k_nth (queue g) 0); [apply Hin|].
    intros [<-|Hx]; [lia|]. apply Hin. now apply In_removelast.
Qed.

Lemma qrecord_eq st g :
  InvQ (l_cur st) (l_queue st) ->
  exists q', qrecord st g = set_queue st q' /\ InvQ (l_cur st) q'.
Proof.
  intros HQ. unfold qrecord. destruct (l_queue st g) as [|x t] eqn:E.
  - exists (l_queue st). split; [destruct st; reflexivity | exact HQ].
  - eexists. split; [reflexivity|]. rewrite <- E. apply InvQ_record; [exact HQ | congruence].
Qed.

(* a stale stamp is older than the current revision *)
Lemma stale_lt_cur cur queue g l :
  InvQ cur queue -> k_rq_is_stale (queue g) l = true -> l < cur.
Proof.
  intros (Hc & H) Hs. destruct (H g) as (_ & Hin).
  apply k_rq_is_stale_iff in Hs.
  - destruct Hs as (_ & o & Eo & Hlt). rewrite k_last_spec in Eo.
    destruct (queue g) as [|x t] eqn:E; [discriminate|]. injection Eo as <-.
    assert (In (last (x :: t) 0) (x :: t)) as Hl.
    { destruct (exists_last (l := x :: t) ltac:(discriminate)) as (l' & a & El).
      rewrite El, last_last. apply in_or_app. right. now left. }
    apply Hin in Hl. change (l < last (x :: t) 0) in Hlt. lia.
  - apply Forall_forall. intros x Hx. change k_rev_start with 1. apply Hin in Hx. lia.
Qed.

(* ---------------------------------------------------------------- locations *)

Lemma loc_some st i j :
  loc st i = Some j ->
  exists p k, split_id i = (p, k) /\ j = make_id p k /\ p < l_npages st /\ k < l_palloc st p.
Proof.
  unfold loc. destruct (split_id i) as [p k].
  destruct (N.ltb_spec p (l_npages st)) as [Hp|Hp]; cbn [andb]; [|discriminate].
  destruct (N.ltb_spec k (l_palloc st p)) as [Hk|Hk]; [|discriminate].
  intros E. injection E as <-. exists p, k. repeat split; assumption.
Qed.

Lemma loc_slot st i j :
  InvS (l_npages st) (l_palloc st) (l_slots st) (l_slotids st) ->
  loc st i = Some j -> exists sl, l_slots st j = Some sl.
Proof.
  intros HS H. destruct (loc_some _ _ _ H) as (p & k & _ & -> & Hp & Hk).
  assert (In (make_id p k) (l_slotids st)) as Hin by (apply (is_bounds _ _ _ _ HS); eauto).
  apply (is_dom _ _ _ _ HS) in Hin. destruct (l_slots st (make_id p k)); [eauto | congruence].
Qed.

Lemma loc_make_id st p k :
  p < l_npages st -> k < l_palloc st p -> l_npages st <= MAX_PAGES -> l_palloc st p <= PAGE_LEN ->
  loc st (make_id p k) = Some (make_id p k).
Proof.
  intros Hp Hk HP HA. unfold loc. rewrite split_make_id by lia.
  destruct (N.ltb_spec p (l_npages st)); [|lia].
  destruct (N.ltb_spec k (l_palloc st p)); [|lia]. reflexivity.
Qed.

Lemma loc_self st j :
  InvS (l_npages st) (l_palloc st) (l_slots st) (l_slotids st) ->
  l_slots st j <> None -> loc st j = Some j.
Proof.
  intros HS H. apply (is_dom _ _ _ _ HS) in H. apply (is_bounds _ _ _ _ HS) in H.
  destruct H as (p & k & -> & Hp & Hk).
  apply loc_make_id; [exact Hp | exact Hk | apply (is_pages _ _ _ _ HS) | apply (is_alloc _ _ _ _ HS)].
Qed.

Lemma with_slot_inv st i (k : N -> slot -> lstate * lout) :
  Inv st -> (forall j sl, l_slots st j = Some sl -> Inv (fst (k j sl))) ->
  Inv (fst (with_slot st i k)).
Proof.
  intros HI H. unfold with_slot. destruct (loc st i) as [j|] eqn:E; [|exact HI].
  destruct (loc_slot _ _ _ (inv_s _ HI) E) as (sl & Es). rewrite Es. now apply H.
Qed.

(* ---------------------------------------------------------------- memo-table access *)

Lemma memos_access_spec cur sl sl1 :
  memos_access cur sl = Some sl1 ->
  s_kind sl1 = s_kind sl /\ s_ing sl1 = s_ing sl /\ s_gen sl1 = s_gen sl /\
  s_reusable sl1 = s_reusable sl /\ s_fields sl1 = s_fields sl /\ s_memos sl1 = s_memos sl /\
  (s_kind sl = KTracked -> s_stamp sl <> None /\ s_stamp sl1 = Some cur) /\
  (s_kind sl <> KTracked -> sl1 = sl).
Proof.
  unfold memos_access. destruct (s_kind sl) eqn:K.
  - intros H. injection H as <-. repeat split; auto; congruence.
  - destruct (s_stamp sl) eqn:S; [|discriminate]. intros H. injection H as <-. simpl_sl.
    repeat split; auto; congruence.
  - intros H. injection H as <-. repeat split; auto; congruence.
Qed.

Lemma access_lock_mono cur free j sl sl1 :
  memos_access cur sl = Some sl1 -> lock_ok cur free j sl -> lock_ok cur free j sl1.
Proof.
  intros H. destruct (memos_access_spec _ _ _ H) as (K & I & _ & R & _ & _ & T & NT).
  unfold lock_ok. rewrite K. destruct (s_kind sl) eqn:Ks.
  - auto.
  - intros _. left. apply T. reflexivity.
  - rewrite NT by congruence. auto.
Qed.

Lemma access_lock_ok cur free j sl sl1 :
  memos_access cur sl = Some sl1 -> contract_ok cur sl1 = true -> lock_ok cur free j sl1.
Proof.
  intros H C. destruct (memos_access_spec _ _ _ H) as (K & I & _ & R & _ & _ & T & NT).
  unfold lock_ok, contract_ok in *. rewrite K in *. destruct (s_kind sl) eqn:Ks.
  - exact Logic.I.
  - left. apply T. reflexivity.
  - apply orb_true_iff in C. destruct C as [C|C].
    + left. now apply negb_true_iff in C.
    + right. destruct (s_stamp sl1) as [l|]; [|discriminate]. exists l. split; [reflexivity|].
      now apply N.leb_le.
Qed.

Lemma access_not_free slots free j sl sl1 cur :
  InvF slots free -> slots j = Some sl -> memos_access cur sl = Some sl1 ->
  forall g, ~ In j (free g).
Proof.
  intros HF E H. eapply not_free_of_stamp; eauto.
  destruct (memos_access_spec _ _ _ H) as (_ & _ & _ & _ & _ & _ & T & _).
  destruct (s_kind sl) eqn:K; [right; congruence | left; apply T; reflexivity | right; congruence].
Qed.

(* ---------------------------------------------------------------- clearing a memo table *)

Lemma table_cells_ext n m m' : (forall f, m f = m' f) -> table_cells n m = table_cells n m'.
Proof.
  intros H. unfold table_cells. induction (range n) as [|a l IH]; [reflexivity|].
  cbn. now rewrite IH, H.
Qed.

Lemma table_inj nt nc cells slots del j sl :
  InvC nt nc cells slots del -> slots j = Some sl ->
  forall f g c, s_memos sl f = Some c -> s_memos sl g = Some c -> f = g.
Proof.
  intros HC E f g c Hf Hg.
  destruct (ic_table _ _ _ _ _ HC j sl f c E Hf) as (cl & Ec & _ & _ & F1).
  destruct (ic_table _ _ _ _ _ HC j sl g c E Hg) as (cl' & Ec' & _ & _ & F2).
  congruence.
Qed.

Lemma InvC_clear nt nc cells cells' slots del j sl sl' :
  InvC nt nc cells slots del -> slots j = Some sl ->
  (forall f, s_memos sl' f = None) ->
  (forall c, In c (table_cells nt (s_memos sl)) ->
             exists cl, cells c = Some cl /\ cells' c = Some (freed_of cl)) ->
  (forall c, ~ In c (table_cells nt (s_memos sl)) -> cells' c = cells c) ->
  InvC nt nc cells' (updN slots j (Some sl')) del.
Proof.
  intros HC E M HX HN. set (X := table_cells nt (s_memos sl)) in *.
  assert (forall c, In c X -> exists cl, cells c = Some cl /\ c_state cl = Live /\ c_slot cl = j) as XL.
  { intros c Hc. apply In_table_cells in Hc. destruct Hc as (f & _ & Hf).
    destruct (ic_table _ _ _ _ _ HC j sl f c E Hf) as (cl & Ec & L & S & _). eauto. }
  assert (forall c, {In c X} + {~ In c X}) as Xdec by (intros c; apply in_dec, N.eq_dec).
  constructor.
  - intros c. rewrite <- (ic_dom _ _ _ _ _ HC c). destruct (Xdec c) as [Hc|Hc].
    + destruct (HX c Hc) as (cl & E1 & E2). rewrite E1, E2. split; discriminate.
    + now rewrite HN.
  - intros c cl Ec Hl. destruct (Xdec c) as [Hc|Hc].
    + destruct (HX c Hc) as (cl0 & _ & E2). rewrite E2 in Ec. injection Ec as <-. discriminate.
    + rewrite HN in Ec by assumption.
      destruct (ic_live _ _ _ _ _ HC c cl Ec Hl) as (Hf & sl0 & Es & Em). split; [exact Hf|].
      assert (c_slot cl <> j) as Hne.
      { intros Heq. apply Hc. apply In_table_cells. exists (c_fn cl). split; [exact Hf|].
        rewrite Heq in Es. rewrite E in Es. now injection Es as <-. }
      exists sl0. rewrite updN_other by congruence. auto.
  - intros j0 sl0 f c. unfold updN. destruct (N.eqb_spec j j0) as [<-|Hne].
    + intros H. injection H as <-. rewrite M. discriminate.
    + intros Es Em. destruct (ic_table _ _ _ _ _ HC j0 sl0 f c Es Em) as (cl & Ec & L & S & F).
      exists cl. repeat split; auto. rewrite HN; [exact Ec|].
      intros Hc. destruct (XL c Hc) as (cl' & Ec' & _ & S'). congruence.
  - intros c Hc. destruct (ic_del1 _ _ _ _ _ HC c Hc) as (cl & Ec & R). exists cl. split; [|exact R].
    rewrite HN; [exact Ec|]. intros Hx. destruct (XL c Hx) as (cl' & Ec' & L & _). congruence.
  - intros c cl Ec R. destruct (Xdec c) as [Hc|Hc].
    + destruct (HX c Hc) as (cl0 & _ & E2). rewrite E2 in Ec. injection Ec as <-. discriminate.
    + rewrite HN in Ec by assumption. eapply ic_del2; eauto.
  - apply (ic_nodup _ _ _ _ _ HC).
  - intros c cl Ec. destruct (Xdec c) as [Hc|Hc].
    + destruct (HX c Hc) as (cl0 & E1 & E2). rewrite E2 in Ec. injection Ec as <-.
      destruct (XL c Hc) as (cl' & Ec' & L & _). rewrite E1 in Ec'. injection Ec' as <-.
      cbn. rewrite (ic_frees _ _ _ _ _ HC c cl0 E1), L. reflexivity.
    + rewrite HN in Ec by assumption. eapply ic_frees; eauto.
Qed.

Lemma clear_memos_spec st j sl :
  InvC (l_ntypes st) (l_ncells st) (l_cells st) (l_slots st) (l_deleted st) ->
  l_slots st j = Some sl ->
  exists cells',
    clear_memos st sl = set_cells st (l_ncells st) cells' /\
    (forall c, In c (table_cells (l_ntypes st) (s_memos sl)) ->
               exists cl, l_cells st c = Some cl /\ cells' c = Some (freed_of cl)) /\
    (forall c, ~ In c (table_cells (l_ntypes st) (s_memos sl)) -> cells' c = l_cells st c).
Proof.
  intros HC E. unfold clear_memos. apply free_cells_spec.
  - apply NoDup_table_cells. eapply table_inj; eauto.
  - intros c Hc. apply In_table_cells in Hc. destruct Hc as (f & _ & Hf).
    destruct (ic_table _ _ _ _ _ HC j sl f c E Hf) as (cl & Ec & _). congruence.
Qed.

(* A cell that is not a Live memo of slot j is not in j's memo table ([ic_table]), so an update
   of the cells that only touches that table leaves it as it is.  This is the premise about cells
   of [InvR_kill_slot], which carries the references over the clearing of an unprotected slot. *)
Lemma clear_keeps_others nt nc cells cells' slots del j sl :
  InvC nt nc cells slots del -> slots j = Some sl ->
  (forall c, ~ In c (table_cells nt (s_memos sl)) -> cells' c = cells c) ->
  forall c cl, cells c = Some cl -> ~ (c_state cl = Live /\ c_slot cl = j) -> cells' c = Some cl.
Proof.
  intros HC E HN c cl Ec Hn. rewrite HN; [exact Ec|]. intros Hc. apply Hn.
  apply In_table_cells in Hc. destruct Hc as (f & _ & Hf).
  destruct (ic_table _ _ _ _ _ HC j sl f c E Hf) as (cl' & Ec' & L & S & _).
  rewrite Ec in Ec'. injection Ec' as <-. auto.
Qed.
