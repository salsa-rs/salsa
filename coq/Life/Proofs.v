(* Life/Proofs.v — the invariant holds in every reachable state; the C23 lemmas. *)
From Salsa Require Import Base.
From Salsa.gen Require Import Kernels.
From Salsa.Kern Require Import K9_Retention.
From Salsa.Life Require Import Model ProofsBase ProofsStep ProofsOps ProofsExcl.

(* fewer than 2^64 retained revisions per interned ingredient (REVISIONS is a usize) *)
Definition qlen_ok (ql : N -> nat) : Prop := forall g, N.of_nat (ql g) < 18446744073709551616.

Lemma init_inv nt ql : qlen_ok ql -> Inv (linit nt ql).
Proof.
  intros Hq. unfold linit. constructor; cbn.
  - reflexivity.
  - reflexivity.
  - constructor.
    + intros c. split; [congruence | lia].
    + intros; discriminate.
    + intros; discriminate.
    + intros c [].
    + intros; discriminate.
    + constructor.
    + intros; discriminate.
  - constructor.
    + intros j. split; [congruence | intros []].
    + constructor.
    + intros j. split; [intros [] | intros (p & k & _ & Hp & _); lia].
    + unfold MAX_PAGES. lia.
    + intros p. unfold PAGE_LEN. lia.
    + intros; discriminate.
  - constructor; [intros g j [] | intros g; constructor].
  - apply InvR_nil.
  - split; [unfold REV_START; lia|]. intros g. split.
    + rewrite k_len_length, repeat_length. apply Hq.
    + intros x Hx. apply repeat_spec in Hx. subst. unfold REV_START. lia.
Qed.

Lemma step_shared_inv st o : Inv st -> is_excl o = false -> Inv (fst (step_shared st o)).
Proof.
  intros HI He. destruct o; try discriminate.
  - now apply pushpage_inv.
  - now apply newslot_inv.
  - now apply reuse_inv.
  - now apply update_inv.
  - now apply delete_inv.
  - now apply readfield_inv.
  - now apply fetch_inv.
  - now apply insert_inv.
  - now apply internhit_inv.
  - now apply internmca_inv.
  - now apply internreuse_inv.
  - rewrite readref_ok; auto.
Qed.

Lemma step_good st o : Good st -> Good (fst (lstep st o)).
Proof.
  intros [HI|HF]; unfold lstep.
  - rewrite (inv_live _ HI). destruct (is_excl o) eqn:He.
    + destruct o; try discriminate.
      * left. now apply newrev_inv.
      * left. now apply evictlru_inv.
      * left. now apply setinput_inv.
      * right. now apply drop_final.
    + left. now apply step_shared_inv.
  - rewrite (fin_dropped _ HF). right. exact HF.
Qed.

Lemma run_good ops : forall st, Good st -> Good (lrun st ops).
Proof.
  induction ops as [|o ops IH]; intros st H; [exact H|]. cbn. apply IH. now apply step_good.
Qed.

Lemma reach_good nt ql ops : qlen_ok ql -> Good (lrun (linit nt ql) ops).
Proof. intros Hq. apply run_good. left. now apply init_inv. Qed.

(* ---------------------------------------------------------------- references persist under `&db` *)

Lemma qrecord_refs st g : l_refs (qrecord st g) = l_refs st.
Proof. unfold qrecord. destruct (l_queue st g); reflexivity. Qed.

Lemma retire_cell_refs st c : l_refs (retire_cell st c) = l_refs st.
Proof. unfold retire_cell. destruct (l_cells st c); reflexivity. Qed.

Lemma with_slot_refs st i k :
  (forall j sl, incl (l_refs st) (l_refs (fst (k j sl)))) ->
  incl (l_refs st) (l_refs (fst (with_slot st i k))).
Proof.
  intros H. unfold with_slot. destruct (loc st i); [|apply incl_refl].
  destruct (l_slots st n); [apply H | apply incl_refl].
Qed.

(* Only [push_ref] writes [l_refs] in a shared step, and it conses: every branch below ends
   with the references unchanged ([incl_refl]) or with one more ([incl_tl]). *)
Lemma shared_keeps_refs st o :
  is_excl o = false -> incl (l_refs st) (l_refs (fst (step_shared st o))).
Proof.
  intros He. destruct o; try discriminate He; cbn [step_shared].
  - destruct (l_npages st <? MAX_PAGES); apply incl_refl.
  - destruct (p <? l_npages st); [|apply incl_refl]. destruct (l_palloc st p <? PAGE_LEN); [|apply incl_refl].
    cbn [fst]. simpl_st. destruct k; try apply incl_refl. rewrite qrecord_refs. apply incl_refl.
  - destruct (l_free st g); [apply incl_refl|].
    apply (with_slot_refs (set_free st (updN (l_free st) g l))). intros j sl.
    destruct (next_generation (s_gen sl)); [|apply incl_refl]. destruct (s_stamp sl); apply incl_refl.
  - apply with_slot_refs. intros j sl. destruct (negb (is_kind (s_kind sl) KTracked)); [apply incl_refl|].
    destruct (s_stamp sl); [|apply incl_refl]. destruct (n =? l_cur st); [apply incl_refl|].
    destruct (next_generation (s_gen sl)); [|apply incl_refl].
    destruct idchg; cbn [fst]; simpl_st; [|apply incl_refl].
    unfold clear_memos. rewrite free_cells_refs. apply incl_refl.
  - apply with_slot_refs. intros j sl. destruct (negb (is_kind (s_kind sl) KTracked)); [apply incl_refl|].
    destruct (s_stamp sl); [|apply incl_refl]. destruct (n =? l_cur st); [apply incl_refl|].
    destruct cb_panics; cbn [fst]; simpl_st; unfold clear_memos; rewrite free_cells_refs; apply incl_refl.
  - apply with_slot_refs. intros j sl. destruct (memos_access (l_cur st) sl); [|apply incl_refl].
    destruct (negb (contract_ok (l_cur st) s)); [apply incl_refl|].
    destruct (s_fields s); cbn [fst]; simpl_st; [apply incl_tl|]; apply incl_refl.
  - destruct (negb (f <? l_ntypes st)); [apply incl_refl|].
    apply with_slot_refs. intros j sl. destruct (memos_access (l_cur st) sl); [|apply incl_refl].
    destruct (negb (contract_ok (l_cur st) s)); [apply incl_refl|].
    destruct (s_memos s f); [|apply incl_refl].
    destruct (l_cells (put_slot st j s) n); [|apply incl_refl].
    destruct (c_state m); try apply incl_refl; destruct (c_val m); cbn [fst]; simpl_st;
      try apply incl_refl; apply incl_tl, incl_refl.
  - destruct (negb (f <? l_ntypes st)); [apply incl_refl|].
    apply with_slot_refs. intros j sl. destruct (memos_access (l_cur st) sl); [|apply incl_refl].
    destruct (negb (contract_ok (l_cur st) s)); [apply incl_refl|]. cbn [fst].
    destruct (s_memos s f); destruct ov; simpl_st; rewrite ?retire_cell_refs; simpl_st;
      try apply incl_refl; apply incl_tl, incl_refl.
  - apply with_slot_refs. intros j sl. destruct (negb (is_kind (s_kind sl) KInterned)); [apply incl_refl|].
    cbn [fst]. simpl_st. rewrite qrecord_refs. apply incl_refl.
  - apply with_slot_refs. intros j sl. destruct (negb (is_kind (s_kind sl) KInterned)); [apply incl_refl|].
    destruct (g <? s_gen sl); cbn [fst]; simpl_st; rewrite qrecord_refs; apply incl_refl.
  - apply with_slot_refs. intros j sl. destruct (negb (is_kind (s_kind sl) KInterned)); [apply incl_refl|].
    match goal with |- context [if ?b then _ else _] => destruct b end;
      [cbn [fst]; rewrite qrecord_refs; apply incl_refl|].
    destruct (next_generation (s_gen sl)); cbn [fst]; simpl_st; unfold clear_memos;
      rewrite ?free_cells_refs, qrecord_refs; apply incl_refl.
  - destruct (nth_error (l_refs st) n); [|apply incl_refl].
    destruct (r_tgt l).
    + destruct (l_cells st c); [|apply incl_refl]. destruct (c_state m); apply incl_refl.
    + destruct (l_slots st j); [|apply incl_refl]. destruct (s_fields s); apply incl_refl.
Qed.

Lemma lstep_keeps_refs st o :
  is_excl o = false -> incl (l_refs st) (l_refs (fst (lstep st o))).
Proof.
  intros He. unfold lstep. destruct (l_dropped st); [apply incl_refl|]. rewrite He.
  now apply shared_keeps_refs.
Qed.

Lemma lrun_keeps_refs ops : forall st,
  Forall (fun o => is_excl o = false) ops -> incl (l_refs st) (l_refs (lrun st ops)).
Proof.
  induction ops as [|o ops IH]; intros st H; [apply incl_refl|].
  inversion H as [|? ? Ho Hops]; subst. cbn.
  eapply incl_tran; [apply (lstep_keeps_refs st o Ho) | apply IH; exact Hops].
Qed.

(* ---------------------------------------------------------------- what a reference denotes *)

Definition denotes (st : lstate) (r : lref) : Prop :=
  match r_tgt r with
  | TCell c => exists cl, l_cells st c = Some cl /\
                          (c_state cl = Live \/ c_state cl = Retired) /\ c_val cl = Some (r_val r)
  | TField j => exists sl, l_slots st j = Some sl /\ s_fields sl = Some (r_val r)
  end.

Lemma good_refs st r : Good st -> In r (l_refs st) -> r_rev r = l_cur st /\ denotes st r.
Proof.
  intros [HI|HF] Hr.
  - destruct (inv_r _ HI r Hr) as (Hrev & Ht). split; [exact Hrev|]. unfold denotes.
    destruct (r_tgt r) as [c|j].
    + destruct Ht as (cl & Ec & Hs & Hv & _). exists cl. repeat split; auto.
      destruct (c_state cl); auto. congruence.
    + destruct Ht as (sl & Es & Hf & _). eauto.
  - rewrite (fin_refs _ HF) in Hr. destruct Hr.
Qed.

Lemma good_err st : Good st -> l_err st = false.
Proof. intros [HI|HF]; [apply (inv_err _ HI) | apply (fin_err _ HF)]. Qed.

Lemma C23_no_uaf_lemma nt ql : qlen_ok ql -> forall ops,
  let st := lrun (linit nt ql) ops in
  (* no operation of the history read or wrote a freed cell, dropped fields or an
     uninitialised slot *)
  l_err st = false /\
  (* every outstanding reference was handed out in the current revision and still denotes an
     allocated (Live or Retired) cell, or the fields of an initialised slot, holding the value it
     was handed out with *)
  (forall r, In r (l_refs st) -> r_rev r = l_cur st /\ denotes st r) /\
  (* ... and stays outstanding, valid and unmodified across any further operations under `&db`,
     i.e. until the database is next borrowed mutably *)
  (forall ops', Forall (fun o => is_excl o = false) ops' ->
     forall r, In r (l_refs st) ->
       In r (l_refs (lrun st ops')) /\ denotes (lrun st ops') r /\ l_err (lrun st ops') = false) /\
  (* dereferencing the n-th outstanding reference yields the recorded value *)
  (forall n r, nth_error (l_refs st) n = Some r ->
     exists x, lstep st (OReadRef n) = (st, LOk (Some x) (Some (r_val r)))).
Proof.
  intros Hq ops st. pose proof (reach_good nt ql ops Hq) as HG. fold st in HG.
  split; [now apply good_err|]. split; [intros r Hr; now apply good_refs|]. split.
  - intros ops' Hs r Hr. pose proof (run_good ops' st HG) as HG'.
    assert (In r (l_refs (lrun st ops'))) as Hr' by (apply (lrun_keeps_refs ops' st Hs); exact Hr).
    split; [exact Hr'|]. split; [apply (good_refs _ _ HG' Hr') | now apply good_err].
  - intros n r E. destruct HG as [HI|HF].
    + unfold lstep. rewrite (inv_live _ HI). cbn [is_excl]. now apply readref_value.
    + rewrite (fin_refs _ HF) in E. destruct n; discriminate.
Qed.

Lemma C23_no_double_free_lemma nt ql : qlen_ok ql -> forall ops c cl,
  l_cells (lrun (linit nt ql) ops) c = Some cl ->
  c_frees cl <= 1 /\ (c_frees cl = 1 <-> c_state cl = Freed).
Proof.
  intros Hq ops c cl Ec. destruct (reach_good nt ql ops Hq) as [HI|HF].
  - rewrite (ic_frees _ _ _ _ _ (inv_c _ HI) c cl Ec). destruct (c_state cl); split; try lia;
      split; intros; try discriminate; try lia; reflexivity.
  - destruct (fin_cells _ HF c cl Ec) as (S & F). rewrite S, F. split; [lia | tauto].
Qed.

Lemma C23_drop_frees_lemma nt ql : qlen_ok ql -> forall ops,
  let st := lrun (linit nt ql) ops in
  (* dropping is always possible ... *)
  (l_dropped st = false -> l_dropped (fst (lstep st ODropDb)) = true) /\
  (* ... and once the database has been dropped, every cell ever allocated has been freed
     exactly once, every slot's fields have been dropped, nothing is parked or referenced *)
  (l_dropped st = true ->
     (forall c, c < l_ncells st ->
        exists cl, l_cells st c = Some cl /\ c_state cl = Freed /\ c_frees cl = 1) /\
     (forall j sl, l_slots st j = Some sl -> s_fields sl = None /\ forall f, s_memos sl f = None) /\
     l_deleted st = [] /\ l_refs st = [] /\ l_err st = false).
Proof.
  intros Hq ops st. pose proof (reach_good nt ql ops Hq) as HG. fold st in HG. split.
  - intros Hd. destruct HG as [HI|HF]; [|rewrite (fin_dropped _ HF) in Hd; discriminate].
    unfold lstep. rewrite Hd. cbn [is_excl]. apply (fin_dropped _ (drop_final st HI)).
  - intros Hd. destruct HG as [HI|HF]; [rewrite (inv_live _ HI) in Hd; discriminate|].
    split; [|split; [apply (fin_slots _ HF) | split; [apply (fin_deleted _ HF) | split;
              [apply (fin_refs _ HF) | apply (fin_err _ HF)]]]].
    intros c Hc. apply (fin_dom _ HF) in Hc. destruct (l_cells st c) as [cl|] eqn:E; [|congruence].
    exists cl. destruct (fin_cells _ HF c cl E). auto.
Qed.

Lemma C23_in_bounds_lemma nt ql : qlen_ok ql -> forall ops,
  let st := lrun (linit nt ql) ops in
  (* the initialised locations are exactly the slots below each page's `allocated` *)
  (forall j, l_slots st j <> None <->
             exists p k, j = make_id p k /\ p < l_npages st /\ k < l_palloc st p) /\
  (* `allocated` never exceeds the page length, the page count never exceeds MAX_PAGES (so that
     make_id's `Id::from_index` precondition holds and split_id inverts make_id) *)
  (l_npages st <= MAX_PAGES /\ forall p, l_palloc st p <= PAGE_LEN) /\
  (* the bounds check of Table::get accepts every initialised location and leads back to it *)
  (forall j, l_slots st j <> None -> loc st j = Some j) /\
  (* whatever passes the bounds check is initialised *)
  (forall i j, loc st i = Some j -> l_slots st j <> None) /\
  (* the ids salsa stores internally are initialised locations: owners of allocated memo cells,
     free-list entries, targets of outstanding field references *)
  (l_dropped st = false ->
     (forall c cl, l_cells st c = Some cl -> c_state cl = Live ->
                   l_slots st (c_slot cl) <> None /\ c_fn cl < l_ntypes st) /\
     (forall g j, In j (l_free st g) -> l_slots st j <> None) /\
     (forall r j, In r (l_refs st) -> r_tgt r = TField j -> l_slots st j <> None)).
Proof.
  intros Hq ops st. pose proof (reach_good nt ql ops Hq) as HG. fold st in HG.
  assert (InvS_core : (forall j, l_slots st j <> None <-> In j (l_slotids st)) /\
                      (forall j, In j (l_slotids st) <->
                         exists p k, j = make_id p k /\ p < l_npages st /\ k < l_palloc st p) /\
                      l_npages st <= MAX_PAGES /\ (forall p, l_palloc st p <= PAGE_LEN)).
  { destruct HG as [HI|HF].
    - destruct (inv_s _ HI) as [D ND B P A FI]. auto.
    - destruct (fin_pages _ HF). split; [apply (fin_s_dom _ HF)|]. split; [apply (fin_bounds _ HF)|]. auto. }
  destruct InvS_core as (D & B & P & A).
  assert (forall j, l_slots st j <> None -> loc st j = Some j) as Hself.
  { intros j Hj. apply D in Hj. apply B in Hj. destruct Hj as (p & k & -> & Hp & Hk).
    now apply loc_make_id. }
  split; [intros j; rewrite D; apply B|]. split; [auto|]. split; [exact Hself|]. split.
  - intros i j Hl. destruct (loc_some _ _ _ Hl) as (p & k & _ & -> & Hp & Hk).
    apply D. apply B. eauto.
  - intros Hd. destruct HG as [HI|HF]; [|rewrite (fin_dropped _ HF) in Hd; discriminate].
    split; [|split].
    + intros c cl Ec L. destruct (ic_live _ _ _ _ _ (inv_c _ HI) c cl Ec L) as (Hf & sl & Es & _).
      split; [congruence | exact Hf].
    + intros g j Hin. destruct (if_slot _ _ (inv_f _ HI) g j Hin) as (sl & Es & _). congruence.
    + intros r j Hr Et. destruct (inv_r _ HI r Hr) as (_ & Ht). rewrite Et in Ht.
      destruct Ht as (sl & Es & _). congruence.
Qed.

Lemma C23_protocol_lemma nt ql : qlen_ok ql -> forall ops,
  let st := lrun (linit nt ql) ops in
  l_err st = false /\
  (forall r, In r (l_refs st) -> r_rev r = l_cur st /\ denotes st r) /\
  (forall c cl, l_cells st c = Some cl -> c_frees cl <= 1 /\ (c_frees cl = 1 <-> c_state cl = Freed)) /\
  (forall j, l_slots st j <> None <->
             exists p k, j = make_id p k /\ p < l_npages st /\ k < l_palloc st p) /\
  (l_dropped st = true ->
     forall c, c < l_ncells st ->
       exists cl, l_cells st c = Some cl /\ c_state cl = Freed /\ c_frees cl = 1).
Proof.
  intros Hq ops st.
  destruct (C23_no_uaf_lemma nt ql Hq ops) as (U1 & U2 & _).
  destruct (C23_drop_frees_lemma nt ql Hq ops) as (_ & D2).
  destruct (C23_in_bounds_lemma nt ql Hq ops) as (B1 & _).
  split; [exact U1|]. split; [exact U2|]. split; [apply (C23_no_double_free_lemma nt ql Hq ops)|].
  split; [exact B1|]. intros Hd. apply (D2 Hd).
Qed.
