(* Intern/ProofsStep.v — what one operation does to the state, as a relation with one
   constructor per shape of step. *)
From Salsa Require Import Base.
From Salsa.Intern Require Import RetK Model ProofsBase ProofsInv.

Local Open Scope N_scope.

Section Step.
Variable shard_of : val -> N.
Variable c : cfg.

Notation Inv := (Inv shard_of c).
Notation SInv := (SInv shard_of c).

Definition fast_lia (s : st) (sl : slot) : rev :=
  if s_lia sl <? st_cur s then st_cur s else s_lia sl.

Definition fast_dur (sl : slot) (sp : stamp) : dur :=
  match sp with InQuery d => N.max (s_dur sl) d | Outside => s_dur sl end.

(* The shapes a step can have: the three paths of `intern_id`, a revalidation, a step
   that neither returns nor revalidates a handle, and the start of a new revision.  The
   proofs about traces argue from these shapes. *)
Inductive step_res (s s' : st) : op -> outcome -> Prop :=
| SR_fast t v sp fr idx sl :
    key_find v (st_keys s (shard_of v)) = Some idx ->
    st_slots s idx = Some sl ->
    st_cur s' = st_cur s ->
    st_queue s' = record_active c s ->
    st_keys s' = st_keys s ->
    st_slots s' = updN (st_slots s) idx
      (Some (mkSlot (s_val sl) (s_gen sl) (fast_lia s sl) (fast_dur sl sp) (s_shard sl))) ->
    step_res s s' (OIntern t v sp fr) (RIntern idx (s_gen sl) PFast)
| SR_cold t v sp fr :
    key_find v (st_keys s (shard_of v)) = None ->
    st_slots s fr = None ->
    st_cur s' = st_cur s ->
    st_queue s' = record_active c s ->
    st_keys s' = updN (st_keys s) (shard_of v) ((v, fr) :: st_keys s (shard_of v)) ->
    st_slots s' = updN (st_slots s) fr
      (Some (mkSlot v 0 (snd (stamp_vals (st_cur s) sp)) (fst (stamp_vals (st_cur s) sp))
                    (shard_of v))) ->
    step_res s s' (OIntern t v sp fr) (RIntern fr 0 PCold)
| SR_reuse t v sp fr idx sl :
    key_find v (st_keys s (shard_of v)) = None ->
    In idx (st_lru s (shard_of v)) ->
    st_slots s idx = Some sl ->
    rq_is_primed (record_active c s) = true ->
    rq_is_stale (record_active c s) (s_lia sl) = true ->
    st_cur s' = st_cur s ->
    st_queue s' = record_active c s ->
    st_keys s' = updN (st_keys s) (shard_of v)
                   ((v, idx) :: key_remove_idx idx (st_keys s (shard_of v))) ->
    st_slots s' = updN (st_slots s) idx
      (Some (mkSlot v (s_gen sl + 1) (snd (stamp_vals (st_cur s) sp))
                    (fst (stamp_vals (st_cur s) sp)) (shard_of v))) ->
    step_res s s' (OIntern t v sp fr) (RIntern idx (s_gen sl + 1) PReuse)
| SR_mca t idx gen since sl :
    st_slots s idx = Some sl ->
    s_gen sl <= gen ->
    st_cur s' = st_cur s ->
    st_queue s' = record_active c s ->
    st_keys s' = st_keys s ->
    st_slots s' = updN (st_slots s) idx
      (Some (mkSlot (s_val sl) (s_gen sl) (st_cur s) (s_dur sl) (s_shard sl))) ->
    step_res s s' (OMca t idx gen since) (RMca false)
| SR_idle o out :
    st_cur s' = st_cur s ->
    (* [is_activity] looks at the operation only: revision and events of the entry are
       placeholders, and [step_res_queue] lets its caller choose them *)
    st_queue s' = (if is_activity (mkEntry 0 o out []) then record_active c s else st_queue s) ->
    st_keys s' = st_keys s ->
    st_slots s' = st_slots s ->
    (forall i g p, out <> RIntern i g p) -> out <> RMca false ->
    (forall t v sp fr, o = OIntern t v sp fr -> key_find v (st_keys s (shard_of v)) = None) ->
    step_res s s' o out
| SR_newrev :
    st_cur s' = st_cur s + 1 ->
    st_queue s' = st_queue s ->
    st_keys s' = st_keys s ->
    st_slots s' = st_slots s ->
    step_res s s' ONewRev RNewRev.

Lemma stamp_vals_eta cur sp :
  stamp_vals cur sp = (fst (stamp_vals cur sp), snd (stamp_vals cur sp)).
Proof. destruct (stamp_vals cur sp); reflexivity. Qed.

Lemma not_intern_bad i g p : RBad <> RIntern i g p.
Proof. discriminate. Qed.

Lemma intern_cold_spec s q sh lru0 ub pre t v sp fr s' out evs :
  Inv s -> sh = shard_of v -> q = record_active c s ->
  key_find v (st_keys s sh) = None ->
  lru_shrunk c s (st_lru s sh) lru0 ->
  intern_cold c s q sh lru0 ub pre v sp fr = (s', out, evs) ->
  step_res s s' (OIntern t v sp fr) out /\ Inv s'.
Proof.
  intros [Hcur [HS HQ]] -> -> Hf Hshr. unfold intern_cold.
  destruct (st_slots s fr) as [sl0|] eqn:Efr.
  - intros [= <- <- <-]. split.
    + apply SR_idle; try reflexivity; [apply not_intern_bad|discriminate|].
      intros ? ? ? ? E; inversion E; now subst.
    + split; [exact Hcur|]. split.
      * eapply SInv_lru_only with (s := s) (sh := shard_of v) (lru0 := lru0);
          try reflexivity; assumption.
      * cbn [st_cur st_queue]. now apply queue_ok_record.
  - rewrite (stamp_vals_eta (st_cur s) sp).
    intros [= <- <- <-]. split.
    + apply SR_cold; try reflexivity; assumption.
    + split; [exact Hcur|]. split.
      * pose proof Hshr as [Hnd0 [Hsub _]].
        eapply (SInv_new shard_of c s _ v sp fr 0 (st_keys s (shard_of v)) lru0 lru0
                  HS (proj1 Hcur) Hf Hshr);
          [congruence| |apply HS|apply HS| |exact Hnd0|lia
          |reflexivity|reflexivity|reflexivity|reflexivity].
        -- (* fr is not a slot, so no key-map entry and no LRU entry refers to it *)
           intros v0 i. split; [|tauto]. intros Hin. split; [assumption|]. intros ->.
           destruct (si_key_slot _ _ s HS _ _ _ Hin) as [sl0 [Hs0 _]]. congruence.
        -- intros i. split; [|tauto]. intros Hin. split; [assumption|]. intros ->.
           destruct (si_lru_slot _ _ s HS _ _ (Hsub _ Hin)) as [sl0 [Hs0 _]]. congruence.
      * cbn [st_cur st_queue]. now apply queue_ok_record.
Qed.

Lemma intern_spec s t v sp fr s' out evs :
  Inv s ->
  intern shard_of c s v sp fr = (s', out, evs) ->
  step_res s s' (OIntern t v sp fr) out /\ Inv s'.
Proof.
  intros HI. pose proof HI as [Hcur [HS HQ]]. unfold intern.
  pose proof (queue_ok_record c s (proj1 Hcur) HQ) as HQ'.
  destruct (key_find v (st_keys s (shard_of v))) as [idx|] eqn:Ef.
  - (* fast path *)
    pose proof (key_find_In _ _ _ Ef) as Hk.
    destruct (si_key_slot _ _ s HS _ _ _ Hk) as [sl [Hsl [Hv [Hsh _]]]].
    rewrite Hsl. intros [= <- <- <-]. split.
    + eapply SR_fast; try reflexivity; eassumption.
    + split; [exact Hcur|]. split; [|exact HQ'].
      rewrite <- Hsh.
      pose proof (fast_lru_props shard_of (immortal c) (s_lia sl <? st_cur s) (s_dur sl) sp idx
                    (st_lru s (s_shard sl)) (si_lru_nd _ _ s HS _)) as P.
      cbv zeta in P.
      destruct P as [Pnd [Poth [Pin Pkeep]]].
      { intros Hin. destruct (si_lru_slot _ _ s HS _ _ Hin) as [sl1 [Hs1 [_ Hr1]]].
        rewrite Hsl in Hs1; inversion Hs1; now subst. }
      eapply (SInv_touch shard_of c s _ idx sl);
        [exact HS|exact Hsl|reflexivity|reflexivity|reflexivity|intros sh; reflexivity
        | |exact Pnd|exact Poth|exact Pin| |exact Pkeep].
      * destruct (si_lia _ _ s HS _ _ Hsl) as [L1 L2].
        destruct (N.ltb_spec (s_lia sl) (st_cur s)); [lia|auto].
      * destruct sp; [auto|apply reusable_max].
  - (* not interned yet *)
    destruct (rq_is_primed (record_active c s)) eqn:Epr; cbn [negb].
    + destruct (find_reusable_slot c (record_active c s) (st_slots s) (st_lru s (shard_of v)))
        as [[lru0 leaked] found] eqn:Efind.
      pose proof (find_reusable_shrunk shard_of c s _ _ _ _ _ HS Efind) as Hshr.
      destruct (find_reusable_spec c _ _ _ _ _ _ Efind) as [_ [_ Hfound]].
      destruct found as [[[idx og] ng]|].
      * destruct Hfound as [sl [Hin0 [Hsl [Hog [Hng [Hlt Hst]]]]]].
        rewrite (stamp_vals_eta (st_cur s) sp).
        assert (Hin : In idx (st_lru s (shard_of v))) by (now apply Hshr).
        destruct (si_lru_slot _ _ s HS _ _ Hin) as [sl1 [Hs1 [Hsh1 Hr1]]].
        rewrite Hsl in Hs1; inversion Hs1; subst sl1; clear Hs1.
        pose proof (si_slot_key _ _ s HS _ _ Hsl) as Hk. rewrite Hsh1 in Hk.
        assert (Hhas : key_has_idx idx (st_keys s (shard_of v)) = true).
        { apply key_has_idx_true. eauto. }
        rewrite Hhas; cbn [negb].
        subst og ng. intros [= <- <- <-]. split.
        -- eapply SR_reuse; try reflexivity; eassumption.
        -- split; [exact Hcur|]. split; [|exact HQ'].
           eapply (SInv_new shard_of c s _ v sp idx (s_gen sl + 1)
                     (key_remove_idx idx (st_keys s (shard_of v))) lru0 (lru_remove idx lru0)
                     HS (proj1 Hcur) Ef Hshr);
             [congruence|intros v0 i; apply key_remove_idx_In
             |apply NoDup_map_filter, HS|apply NoDup_map_filter, HS
             |intros i; apply lru_remove_In|apply lru_remove_NoDup, Hshr|lia
             |reflexivity|reflexivity|reflexivity|reflexivity].
      * intros H. eapply intern_cold_spec; eauto.
    + intros H. eapply intern_cold_spec; eauto.
      apply lru_shrunk_refl. apply (si_lru_nd _ _ s HS).
Qed.

Lemma mca_spec s t idx gen since s' out evs :
  Inv s -> mca c s idx gen since = (s', out, evs) ->
  step_res s s' (OMca t idx gen since) out /\ Inv s'.
Proof.
  intros [Hcur [HS HQ]]. unfold mca.
  pose proof (queue_ok_record c s (proj1 Hcur) HQ) as HQ'.
  assert (Hidle : forall out, (forall i g p, out <> RIntern i g p) -> out <> RMca false ->
            step_res s (set_queue s (record_active c s)) (OMca t idx gen since) out /\
            Inv (set_queue s (record_active c s))).
  { intros out0 H1 H2. split; [now apply SR_idle|].
    split; [exact Hcur|]. split; [|exact HQ'].
    eapply SInv_same; eauto; try reflexivity; cbn [set_queue st_cur]; lia. }
  destruct (st_slots s idx) as [sl|] eqn:Hsl.
  - destruct (N.ltb_spec gen (s_gen sl)) as [Hlt|Hge].
    + intros [= <- <- <-]. apply Hidle; discriminate.
    + intros [= <- <- <-]. split.
      * eapply SR_mca; eauto.
      * split; [exact Hcur|]. split; [|exact HQ'].
        eapply (SInv_touch shard_of c s _ idx sl _ _ (st_lru s (s_shard sl)));
          [exact HS|exact Hsl|reflexivity|reflexivity|reflexivity|intros sh; apply updN_id
          |lia|apply HS|tauto| |auto|auto].
        intros Hin. destruct (si_lru_slot _ _ s HS _ _ Hin) as [sl1 [Hs1 [_ Hr1]]].
        rewrite Hsl in Hs1; inversion Hs1; now subst.
  - intros [= <- <- <-]. apply Hidle; discriminate.
Qed.

Lemma step_spec s o s' out evs :
  Inv s -> step shard_of c s o = (s', out, evs) -> step_res s s' o out /\ Inv s'.
Proof.
  intros HI. destruct o as [t v sp fr|t idx gen since|t idx|]; cbn [step].
  - now apply intern_spec.
  - now apply mca_spec.
  - unfold read_fields. destruct (st_slots s idx); intros [= <- <- <-];
      (split; [apply SR_idle; try reflexivity; discriminate|exact HI]).
  - destruct HI as [Hcur [HS HQ]]. unfold new_revision.
    destruct (N.ltb_spec (st_cur s) REV_MAX) as [Hlt|Hge]; intros [= <- <- <-].
    + split; [now apply SR_newrev|]. unfold Inv. cbn [st_cur st_queue].
      split; [lia|]. split.
      * eapply SInv_same; eauto; try reflexivity; cbn [st_cur]; lia.
      * eapply queue_ok_mono; [|exact HQ]. lia.
    + split; [apply SR_idle; try reflexivity; discriminate|]. split; [exact Hcur|]. split; assumption.
Qed.

Lemma step_res_cur s s' o out :
  step_res s s' o out -> st_cur s' = st_cur s \/ (o = ONewRev /\ st_cur s' = st_cur s + 1).
Proof. destruct 1; auto. Qed.

Lemma step_res_queue s s' o out r evs :
  step_res s s' o out ->
  st_queue s' = if is_activity (mkEntry r o out evs) then record_active c s else st_queue s.
Proof. destruct 1; assumption. Qed.

Lemma step_res_hit s s' t v sp fr out idx sl :
  step_res s s' (OIntern t v sp fr) out ->
  key_find v (st_keys s (shard_of v)) = Some idx -> st_slots s idx = Some sl ->
  out = RIntern idx (s_gen sl) PFast.
Proof.
  intros Hres Hk Hsl.
  inversion Hres as [? ? ? ? idx0 sl0 Hf Hs0| ? ? ? ? Hf| ? ? ? ? ? ? Hf| |? ? ? ? ? ? ? ? Hf|]; subst.
  - rewrite Hk in Hf. inversion Hf; subst idx0. rewrite Hsl in Hs0. now inversion Hs0.
  - congruence.
  - congruence.
  - specialize (Hf _ _ _ _ eq_refl). congruence.
Qed.

Lemma fast_lia_ge s sl : s_lia sl <= fast_lia s sl /\ st_cur s <= fast_lia s sl.
Proof. unfold fast_lia. destruct (N.ltb_spec (s_lia sl) (st_cur s)); lia. Qed.

Lemma fast_dur_ge sl sp : s_dur sl <= fast_dur sl sp.
Proof. unfold fast_dur. destruct sp; lia. Qed.

Lemma stamp_lia_ge s sp :
  st_cur s <= REV_MAX -> st_cur s <= snd (stamp_vals (st_cur s) sp).
Proof. destruct sp; cbn [stamp_vals snd]; lia. Qed.

Lemma key_find_insert (keys : N -> list (val * N)) v idx l v0 i :
  key_find v (keys (shard_of v)) = None ->
  key_find v0 (keys (shard_of v0)) = Some i ->
  (key_find v0 (keys (shard_of v)) = Some i -> key_find v0 l = Some i) ->
  key_find v0 (updN keys (shard_of v) ((v, idx) :: l) (shard_of v0)) = Some i.
Proof.
  intros Hv Hk Hl. unfold updN.
  destruct (N.eqb_spec (shard_of v) (shard_of v0)) as [E|_]; [|exact Hk].
  cbn [key_find]. destruct (N.eqb_spec v0 v) as [->|_]; [congruence|].
  apply Hl. now rewrite E.
Qed.

(* either the slot keeps its handle, or it was stale and reusable and now carries the next
   generation *)
Definition slot_evolves (s s' : st) (i : N) (sl sl' : slot) : Prop :=
  (s_gen sl' = s_gen sl /\ s_val sl' = s_val sl /\
   (s_lia sl' = s_lia sl \/ st_cur s <= s_lia sl') /\ s_dur sl <= s_dur sl' /\
   forall v, key_find v (st_keys s (shard_of v)) = Some i ->
             key_find v (st_keys s' (shard_of v)) = Some i)
  \/ (s_gen sl' = s_gen sl + 1 /\ rq_is_stale (record_active c s) (s_lia sl) = true /\
      reusable (immortal c) (s_dur sl) = true).

Lemma slot_evolves_refl s s' i sl :
  (forall v, key_find v (st_keys s (shard_of v)) = Some i ->
             key_find v (st_keys s' (shard_of v)) = Some i) ->
  slot_evolves s s' i sl sl.
Proof. intros H. left. repeat split; auto. lia. Qed.

Lemma slot_step s s' o out i sl :
  Inv s -> step_res s s' o out -> st_slots s i = Some sl ->
  exists sl', st_slots s' i = Some sl' /\ slot_evolves s s' i sl sl'.
Proof.
  intros [_ [HS _]] Hres Hsl.
  (* the fast path and a revalidation *)
  assert (Htouch : forall idx sl0 lia d,
    st_slots s idx = Some sl0 -> st_keys s' = st_keys s ->
    st_slots s' = updN (st_slots s) idx
      (Some (mkSlot (s_val sl0) (s_gen sl0) lia d (s_shard sl0))) ->
    s_lia sl0 = lia \/ st_cur s <= lia -> s_dur sl0 <= d ->
    exists sl', st_slots s' i = Some sl' /\ slot_evolves s s' i sl sl').
  { intros idx sl0 lia d Hs0 Ekeys Eslots Hlia Hd. rewrite Eslots.
    destruct (N.eq_dec idx i) as [->|Hne].
    - rewrite Hsl in Hs0; inversion Hs0; subst sl0. rewrite updN_same.
      eexists; split; [reflexivity|]. left. rewrite Ekeys. cbn [s_gen s_val s_lia s_dur].
      repeat split; auto. destruct Hlia; auto.
    - rewrite updN_other by assumption. exists sl. split; [assumption|].
      apply slot_evolves_refl. now rewrite Ekeys. }
  destruct Hres as [t v sp fr idx sl0 Hf Hs0 Ecur Eq Ekeys Eslots
                   |t v sp fr Hf Hfr Ecur Eq Ekeys Eslots
                   |t v sp fr idx sl0 Hf Hin Hs0 Hpr Hst Ecur Eq Ekeys Eslots
                   |t idx gen since sl0 Hs0 Hg Ecur Eq Ekeys Eslots
                   |o out Ecur Eq Ekeys Eslots _ _ _
                   |Ecur Eq Ekeys Eslots].
  - apply (Htouch idx sl0 _ _ Hs0 Ekeys Eslots); [|apply fast_dur_ge].
    unfold fast_lia. destruct (s_lia sl0 <? st_cur s); [right; lia|now left].
  - exists sl. rewrite Eslots, updN_other by congruence. split; [assumption|].
    apply slot_evolves_refl. rewrite Ekeys. intros v0 Hk. apply key_find_insert; auto.
  - rewrite Eslots. destruct (N.eq_dec idx i) as [->|Hne].
    + rewrite Hsl in Hs0; inversion Hs0; subst sl0. rewrite updN_same.
      eexists; split; [reflexivity|]. right. cbn [s_gen]. repeat split; auto.
      destruct (si_lru_slot _ _ s HS _ _ Hin) as [sl1 [Hs1 [_ Hr1]]]. congruence.
    + rewrite updN_other by assumption. exists sl. split; [assumption|].
      apply slot_evolves_refl. rewrite Ekeys. intros v0 Hk. apply key_find_insert; auto.
      intros Hk'. apply key_find_remove_other; auto.
  - apply (Htouch idx sl0 _ _ Hs0 Ekeys Eslots); [right|]; lia.
  - exists sl. rewrite Eslots. split; [assumption|]. apply slot_evolves_refl. now rewrite Ekeys.
  - exists sl. rewrite Eslots. split; [assumption|]. apply slot_evolves_refl. now rewrite Ekeys.
Qed.

Definition held (s : st) (v : val) (idx g : N) (sl : slot) : Prop :=
  st_slots s idx = Some sl /\ s_gen sl = g /\ s_val sl = v /\
  key_find v (st_keys s (shard_of v)) = Some idx.

Lemma held_step s s' o out v idx g sl :
  Inv s -> step_res s s' o out -> held s v idx g sl ->
  ~ (rq_is_stale (record_active c s) (s_lia sl) = true /\
     reusable (immortal c) (s_dur sl) = true) ->
  (exists sl', held s' v idx g sl' /\
     (s_lia sl' = s_lia sl \/ st_cur s <= s_lia sl') /\ s_dur sl <= s_dur sl') /\
  (forall t sp fr, o = OIntern t v sp fr -> out = RIntern idx g PFast).
Proof.
  intros HI Hres [Hsl [Hg [Hv Hk]]] Hprot. split.
  - destruct (slot_step _ _ _ _ _ _ HI Hres Hsl)
      as [sl' [Hs' [[Eg [Ev [Hl [Hd Hkeys]]]]|[_ Hbad]]]]; [|contradiction].
    exists sl'. repeat split; auto; congruence.
  - intros t sp fr ->. now rewrite (step_res_hit _ _ _ _ _ _ _ _ _ Hres Hk Hsl), Hg.
Qed.

Lemma interned_now s s' t v sp fr i g p :
  Inv s -> step_res s s' (OIntern t v sp fr) (RIntern i g p) ->
  st_cur s' = st_cur s /\ exists sl', held s' v i g sl' /\ st_cur s <= s_lia sl'.
Proof.
  intros [[_ Hmax] [HS _]] Hres.
  pose proof (stamp_lia_ge s sp Hmax) as Hstamp.
  (* on every path slot i is rewritten *)
  assert (Hnew : forall n, st_cur s' = st_cur s ->
            st_slots s' = updN (st_slots s) i (Some n) ->
            s_gen n = g -> s_val n = v -> st_cur s <= s_lia n ->
            key_find v (st_keys s' (shard_of v)) = Some i ->
            st_cur s' = st_cur s /\ exists sl', held s' v i g sl' /\ st_cur s <= s_lia sl').
  { intros n Ecur Eslots Hg Hv Hl Hk. split; [exact Ecur|]. exists n.
    unfold held. rewrite Eslots, updN_same. auto. }
  inversion Hres as [? ? ? ? idx sl Hf Hsl Ecur _ Ekeys Eslots
                    |? ? ? ? Hf _ Ecur _ Ekeys Eslots
                    |? ? ? ? idx sl Hf _ Hsl _ _ Ecur _ Ekeys Eslots
                    | |? ? _ _ _ _ Hno|]; subst.
  - apply (Hnew _ Ecur Eslots); cbn [s_gen s_val s_lia]; auto.
    + destruct (si_key_slot _ _ s HS _ _ _ (key_find_In _ _ _ Hf)) as [sl0 [Hs0 [Hv _]]].
      congruence.
    + apply fast_lia_ge.
    + now rewrite Ekeys.
  - apply (Hnew _ Ecur Eslots); cbn [s_gen s_val s_lia]; auto.
    rewrite Ekeys, updN_same. apply key_find_head.
  - apply (Hnew _ Ecur Eslots); cbn [s_gen s_val s_lia]; auto.
    rewrite Ekeys, updN_same. apply key_find_head.
  - now destruct (Hno i g p).
Qed.

Lemma revalidated_now s s' t i g since :
  step_res s s' (OMca t i g since) (RMca false) ->
  st_cur s' = st_cur s /\
  exists sl', st_slots s' i = Some sl' /\ s_gen sl' <= g /\ st_cur s <= s_lia sl'.
Proof.
  intros Hres.
  inversion Hres as [| | |? ? ? ? sl Hsl Hg Ecur _ _ Eslots|? ? _ _ _ _ _ Hno|]; subst;
    [|now destruct Hno].
  split; [exact Ecur|]. rewrite Eslots, updN_same.
  eexists; split; [reflexivity|]. cbn [s_gen s_lia]. split; [assumption|lia].
Qed.

Lemma step_Inv s o s' out evs :
  Inv s -> step shard_of c s o = (s', out, evs) -> Inv s'.
Proof. intros HI H. now destruct (step_spec _ _ _ _ _ HI H). Qed.

(* the step case may assume that the state it starts from ends a run *)
Lemma exec_rev_app_ind (P : st -> list entry -> Prop) rops s tr :
  exec_rev shard_of c rops = (s, tr) -> P s tr ->
  (forall r o s0 tr0 s1 out evs,
     exec_rev shard_of c r = (s0, tr0) -> P s0 tr0 ->
     step shard_of c s0 o = (s1, out, evs) ->
     P s1 (mkEntry (st_cur s0) o out evs :: tr0)) ->
  forall rops' s' tr', exec_rev shard_of c (rops' ++ rops) = (s', tr') -> P s' tr'.
Proof.
  intros E H0 Hstep. induction rops' as [|o rest IH]; intros s' tr'; cbn [app exec_rev].
  - rewrite E. now intros [= <- <-].
  - destruct (exec_rev shard_of c (rest ++ rops)) as [s0 tr0] eqn:E0.
    destruct (step shard_of c s0 o) as [[s1 out] evs] eqn:Es.
    intros [= <- <-]. eapply Hstep; eauto.
Qed.

Lemma exec_rev_ind (P : st -> list entry -> Prop) :
  P (init c) [] ->
  (forall r o s0 tr0 s1 out evs,
     exec_rev shard_of c r = (s0, tr0) -> P s0 tr0 ->
     step shard_of c s0 o = (s1, out, evs) ->
     P s1 (mkEntry (st_cur s0) o out evs :: tr0)) ->
  forall rops s tr, exec_rev shard_of c rops = (s, tr) -> P s tr.
Proof.
  intros H0 Hstep rops s tr E.
  apply (exec_rev_app_ind P [] (init c) [] eq_refl H0 Hstep rops). now rewrite app_nil_r.
Qed.

Lemma exec_rev_Inv : cfg_ok c -> forall rops s tr,
  exec_rev shard_of c rops = (s, tr) -> Inv s.
Proof.
  intros Hc. apply (exec_rev_ind (fun s _ => Inv s)); [now apply Inv_init|].
  intros r o s0 tr0 s1 out evs _ HI Es. eapply step_Inv; eauto.
Qed.

Theorem run_Inv : cfg_ok c -> forall ops s tr, run shard_of c ops = (s, tr) -> Inv s.
Proof. intros Hc ops s tr. unfold run. apply exec_rev_Inv; assumption. Qed.

End Step.
