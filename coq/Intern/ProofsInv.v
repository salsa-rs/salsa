(* Intern/ProofsInv.v — the state invariant of the interned ingredient and its
   preservation by every operation:
     - per shard the key map is a bijection between the live values and the slots
       of that shard;
     - LRU membership <-> reusable (up to slots leaked at the maximum generation);
     - last_interned_at <= current revision (or Revision::max() for values interned
       outside any query);
     - the revision queue is sorted, free of duplicates above Revision::start(), of
       length REVISIONS, and its newest entry is <= the current revision. *)
From Salsa Require Import Base.
From Salsa.Intern Require Import RetK Model ProofsBase.

Local Open Scope N_scope.

Section Inv.
Variable shard_of : val -> N.
Variable c : cfg.

(* Configuration::REVISIONS is a NonZeroUsize *)
Definition cfg_ok : Prop := forall n, c_revisions c = Some n -> 1 <= n.

Definition queue_ok (cur : rev) (q : list rev) : Prop :=
  match c_revisions c with
  | None => q = []
  | Some n => length q = N.to_nat n /\ qdesc q /\ (forall h t, q = h :: t -> h <= cur)
  end.

Record SInv (s : st) : Prop := mkSInv {
  si_key_slot : forall sh v idx, In (v, idx) (st_keys s sh) ->
    exists sl, st_slots s idx = Some sl /\ s_val sl = v /\ s_shard sl = sh /\ shard_of v = sh;
  si_slot_key : forall idx sl, st_slots s idx = Some sl ->
    In (s_val sl, idx) (st_keys s (s_shard sl));
  si_nd_v : forall sh, NoDup (map fst (st_keys s sh));
  si_nd_i : forall sh, NoDup (map snd (st_keys s sh));
  si_lru_nd : forall sh, NoDup (st_lru s sh);
  si_lru_slot : forall sh idx, In idx (st_lru s sh) ->
    exists sl, st_slots s idx = Some sl /\ s_shard sl = sh /\
               reusable (immortal c) (s_dur sl) = true;
  si_slot_lru : forall idx sl, st_slots s idx = Some sl ->
    reusable (immortal c) (s_dur sl) = true ->
    In idx (st_lru s (s_shard sl)) \/ s_gen sl = c_gen_max c;
  si_lia : forall idx sl, st_slots s idx = Some sl ->
    1 <= s_lia sl /\ (s_lia sl <= st_cur s \/ s_lia sl = REV_MAX);
  si_gen : forall idx sl, st_slots s idx = Some sl -> s_gen sl <= c_gen_max c
}.

Definition Inv (s : st) : Prop :=
  (1 <= st_cur s /\ st_cur s <= REV_MAX) /\ SInv s /\ queue_ok (st_cur s) (st_queue s).

Lemma Inv_init : cfg_ok -> Inv (init c).
Proof.
  intros Hc. unfold Inv, init; cbn [st_cur st_queue]. split; [|split].
  - unfold REV_START, REV_MAX. lia.
  - constructor; cbn [st_keys st_slots st_lru]; intros;
      try discriminate; try contradiction; constructor.
  - unfold queue_ok. destruct (c_revisions c) as [n|] eqn:E; [|reflexivity].
    split; [apply rq_new_length|]. split; [apply qdesc_repeat|].
    intros h t Hq. unfold rq_new in Hq.
    destruct (N.to_nat n); cbn [repeat] in Hq; inversion Hq. unfold REV_START. lia.
Qed.

Lemma queue_ok_record s :
  1 <= st_cur s -> queue_ok (st_cur s) (st_queue s) ->
  queue_ok (st_cur s) (record_active c s).
Proof.
  unfold queue_ok, record_active, immortal.
  destruct (c_revisions c) as [n|]; [|auto].
  intros Hcur [Hlen [Hq Hhd]]. split; [|split].
  - now rewrite rq_record_length.
  - now apply rq_record_qdesc.
  - intros h t E. destruct (st_queue s) as [|h0 t0] eqn:Eq.
    + rewrite rq_record_unfold in E. discriminate.
    + destruct (rq_record_hd h0 t0 (st_cur s)) as [t' E'].
      rewrite E' in E. inversion E; subst. specialize (Hhd h0 t0 eq_refl). lia.
Qed.

Lemma queue_ok_mono cur cur' q : cur <= cur' -> queue_ok cur q -> queue_ok cur' q.
Proof.
  unfold queue_ok. destruct (c_revisions c); [|auto].
  intros Hle [Hlen [Hq Hhd]]. repeat split; auto.
  intros h t E. specialize (Hhd h t E). lia.
Qed.

(* a stale last_interned_at is strictly below the current revision *)
Lemma stale_lt_cur cur q r :
  queue_ok cur q -> rq_is_stale q r = true -> r < cur.
Proof.
  unfold queue_ok. intros Hq Hs.
  destruct (c_revisions c) as [n|].
  - destruct Hq as [_ [Hd Hhd]].
    destruct q as [|h t]; [discriminate|].
    pose proof (rq_stale_lt_hd h t r Hd Hs). specialize (Hhd h t eq_refl). lia.
  - subst. discriminate.
Qed.

Lemma stale_not_immortal cur q r :
  queue_ok cur q -> rq_is_stale q r = true -> immortal c = false.
Proof.
  unfold queue_ok, immortal. destruct (c_revisions c); [reflexivity|].
  intros -> H. discriminate.
Qed.

Lemma scan_back_spec q slots rl : forall rl' leaked r,
  scan_back c q slots rl = (rl', leaked, r) ->
  rl = leaked ++ rl' /\
  (forall i, In i leaked -> exists sl, slots i = Some sl /\ ~ (s_gen sl < c_gen_max c)) /\
  match r with
  | Some (idx, og, ng) =>
    exists sl rest, rl' = idx :: rest /\ slots idx = Some sl /\ og = s_gen sl /\
      ng = og + 1 /\ og < c_gen_max c /\ rq_is_stale q (s_lia sl) = true
  | None => True
  end.
Proof.
  induction rl as [|idx rest IH]; intros rl' leaked r; cbn [scan_back].
  - intros [= <- <- <-]. split; [reflexivity|]. split; [intros i []|exact I].
  - destruct (slots idx) as [sl|] eqn:Esl.
    + destruct (rq_is_stale q (s_lia sl)) eqn:Est; cbn [negb].
      * destruct (N.ltb_spec (s_gen sl) (c_gen_max c)) as [Hlt|Hge].
        -- intros [= <- <- <-]. split; [reflexivity|]. split; [intros i []|].
           exists sl, rest. auto 7.
        -- destruct (scan_back c q slots rest) as [[rl0 lk0] r0] eqn:Erec.
           intros [= <- <- <-].
           destruct (IH _ _ _ eq_refl) as [Happ [Hlk Hr]].
           split; [cbn [app]; now f_equal|]. split; [|assumption].
           intros i [<-|Hin]; [exists sl; split; [assumption|lia]|auto].
      * intros [= <- <- <-]. split; [reflexivity|]. split; [intros i []|exact I].
    + intros [= <- <- <-]. split; [reflexivity|]. split; [intros i []|exact I].
Qed.

Lemma find_reusable_spec q slots lru lru0 leaked r :
  find_reusable_slot c q slots lru = (lru0, leaked, r) ->
  lru = lru0 ++ List.rev leaked /\
  (forall i, In i leaked -> exists sl, slots i = Some sl /\ ~ (s_gen sl < c_gen_max c)) /\
  match r with
  | Some (idx, og, ng) =>
    exists sl, In idx lru0 /\ slots idx = Some sl /\ og = s_gen sl /\
      ng = og + 1 /\ og < c_gen_max c /\ rq_is_stale q (s_lia sl) = true
  | None => True
  end.
Proof.
  unfold find_reusable_slot.
  destruct (scan_back c q slots (List.rev lru)) as [[rl lk] r0] eqn:E.
  intros [= <- <- <-].
  destruct (scan_back_spec _ _ _ _ _ _ E) as [Happ [Hlk Hr]].
  split; [|split; [assumption|]].
  - rewrite <- (rev_involutive lru), Happ, rev_app_distr. reflexivity.
  - destruct r0 as [[[idx og] ng]|]; [|exact I].
    destruct Hr as [sl [rest [Erl [Hs [Hog [Hng [Hlt Hst]]]]]]].
    exists sl. repeat split; auto. rewrite Erl. rewrite <- in_rev. now left.
Qed.

(* what the invariant needs to know about an LRU list that lost leaked entries *)
Definition lru_shrunk (s : st) (lru lru0 : list N) : Prop :=
  NoDup lru0 /\ (forall i, In i lru0 -> In i lru) /\
  (forall i, In i lru -> ~ In i lru0 ->
     exists sl, st_slots s i = Some sl /\ s_gen sl = c_gen_max c).

Lemma lru_shrunk_refl s lru : NoDup lru -> lru_shrunk s lru lru.
Proof. intros H. split; [assumption|]. split; [auto|]. intros i Hi Hn. contradiction. Qed.

Lemma find_reusable_shrunk s q sh lru0 leaked r :
  SInv s ->
  find_reusable_slot c q (st_slots s) (st_lru s sh) = (lru0, leaked, r) ->
  lru_shrunk s (st_lru s sh) lru0.
Proof.
  intros HS E. destruct (find_reusable_spec _ _ _ _ _ _ E) as [Happ [Hlk _]].
  pose proof (si_lru_nd s HS sh) as Hnd. rewrite Happ in Hnd.
  split; [now apply NoDup_app_l in Hnd|]. split.
  - intros i Hi. rewrite Happ. apply in_or_app. now left.
  - intros i Hi Hn. rewrite Happ in Hi. apply in_app_or in Hi as [Hi|Hi]; [contradiction|].
    apply in_rev in Hi. destruct (Hlk i Hi) as [sl [Hs Hge]].
    exists sl. split; [assumption|]. pose proof (si_gen s HS i sl Hs). lia.
Qed.

Lemma reusable_max imm d d' :
  reusable imm (N.max d d') = true -> reusable imm d = true.
Proof.
  unfold reusable, D_LOW. destruct imm; [auto|].
  rewrite !N.eqb_eq. lia.
Qed.

Lemma fast_lru_props imm (refresh : bool) (dur : dur) (sp : stamp) (idx : N) (lru : list N) :
  let r0 := reusable imm dur in
  let move := refresh && r0 in
  let lru1 := if move then idx :: lru_remove idx lru else lru in
  let dur1 := match sp with InQuery d => N.max dur d | Outside => dur end in
  let demote := match sp with
                | InQuery _ => r0 && negb (reusable imm dur1)
                | Outside => false
                end in
  let lru2 := if demote then lru_remove idx lru1 else lru1 in
  NoDup lru -> (In idx lru -> r0 = true) ->
  NoDup lru2 /\
  (forall i, i <> idx -> (In i lru2 <-> In i lru)) /\
  (In idx lru2 -> reusable imm dur1 = true) /\
  (reusable imm dur1 = true -> In idx lru -> In idx lru2).
Proof.
  intros r0 move lru1 dur1 demote lru2 Hnd Hin.
  assert (Hr1 : reusable imm dur1 = true -> r0 = true).
  { subst dur1 r0. destruct sp; [auto|apply reusable_max]. }
  assert (Hnd1 : NoDup lru1).
  { subst lru1. destruct move; [now apply lru_push_NoDup|assumption]. }
  assert (H1 : forall i, i <> idx -> (In i lru1 <-> In i lru)).
  { intros i Hi. subst lru1. destruct move; [|tauto].
    cbn [In]. rewrite lru_remove_In. split; [intros [E|[H _]]; [congruence|assumption]|tauto]. }
  assert (H1i : In idx lru1 -> r0 = true).
  { subst lru1 move. destruct refresh, r0; cbn [andb]; auto. }
  assert (H1k : In idx lru -> In idx lru1).
  { subst lru1. destruct move; [now left|auto]. }
  subst lru2. destruct demote eqn:Ed.
  - split; [now apply lru_remove_NoDup|]. split; [|split].
    + intros i Hi. rewrite lru_remove_In. rewrite (H1 i Hi). tauto.
    + rewrite lru_remove_In. tauto.
    + intros Hr. subst demote. destruct sp; [discriminate|].
      rewrite Hr in Ed. rewrite andb_false_r in Ed. discriminate.
  - split; [assumption|]. split; [assumption|]. split; [|auto].
    intros Hi. specialize (H1i Hi). subst demote. destruct sp.
    + subst dur1. exact H1i.
    + rewrite H1i in Ed. cbn [andb] in Ed. now apply negb_false_iff in Ed.
Qed.

(* Every writing path of the ingredient rewrites one slot and replaces the key map and
   the LRU list of that slot's shard; [idx] may or may not have been a slot before. *)
Lemma SInv_upd s s' idx n ks lru :
  SInv s ->
  st_cur s' = st_cur s ->
  st_slots s' = updN (st_slots s) idx (Some n) ->
  (forall sh, st_keys s' sh = updN (st_keys s) (s_shard n) ks sh) ->
  (forall sh, st_lru s' sh = updN (st_lru s) (s_shard n) lru sh) ->
  (forall o, st_slots s idx = Some o -> s_shard o = s_shard n) ->
  shard_of (s_val n) = s_shard n ->
  (forall v i, In (v, i) ks <->
     (v, i) = (s_val n, idx) \/ (In (v, i) (st_keys s (s_shard n)) /\ i <> idx)) ->
  NoDup (map fst ks) -> NoDup (map snd ks) ->
  NoDup lru ->
  (forall i, In i lru ->
     (i = idx /\ reusable (immortal c) (s_dur n) = true) \/
     (i <> idx /\ In i (st_lru s (s_shard n)))) ->
  (reusable (immortal c) (s_dur n) = true -> In idx lru \/ s_gen n = c_gen_max c) ->
  (forall i, i <> idx -> In i (st_lru s (s_shard n)) ->
     In i lru \/ exists sl, st_slots s i = Some sl /\ s_gen sl = c_gen_max c) ->
  (1 <= s_lia n /\ (s_lia n <= st_cur s \/ s_lia n = REV_MAX)) ->
  s_gen n <= c_gen_max c ->
  SInv s'.
Proof.
  intros HS Ecur Eslots Ekeys Elru Hold Hsh Hks Hndv Hndi Hnd Hlin Hlnew Hlold Hlia Hgen.
  assert (Hoth : forall i sl, st_slots s i = Some sl -> s_shard sl <> s_shard n -> idx <> i).
  { intros i sl Hs Hne ->. apply Hne. now apply Hold. }
  constructor; rewrite ?Ecur, ?Eslots.
  - intros sh v i. rewrite Ekeys. unfold updN at 1.
    destruct (N.eqb_spec (s_shard n) sh) as [<-|Hne]; intros Hin.
    + apply Hks in Hin as [E|[Hin Hi]].
      * inversion E; subst v i. rewrite updN_same. eauto.
      * rewrite updN_other by congruence. now apply (si_key_slot s HS).
    + destruct (si_key_slot s HS _ _ _ Hin) as [sl [Hs H]].
      rewrite updN_other by (apply (Hoth _ _ Hs); destruct H as [_ [-> _]]; congruence). eauto.
  - intros i sl. unfold updN at 1. destruct (N.eqb_spec idx i) as [<-|Hne]; intros Hs.
    + inversion Hs; subst sl. rewrite Ekeys, updN_same. apply Hks. now left.
    + pose proof (si_slot_key s HS _ _ Hs) as Hin. rewrite Ekeys. unfold updN.
      destruct (N.eqb_spec (s_shard n) (s_shard sl)) as [E|_]; [|exact Hin].
      apply Hks. right. rewrite E. split; [exact Hin|congruence].
  - intros sh. rewrite Ekeys. unfold updN. destruct (s_shard n =? sh); [exact Hndv|apply HS].
  - intros sh. rewrite Ekeys. unfold updN. destruct (s_shard n =? sh); [exact Hndi|apply HS].
  - intros sh. rewrite Elru. unfold updN. destruct (s_shard n =? sh); [exact Hnd|apply HS].
  - intros sh i. rewrite Elru. unfold updN at 1.
    destruct (N.eqb_spec (s_shard n) sh) as [<-|Hne]; intros Hin.
    + destruct (Hlin _ Hin) as [[-> Hr]|[Hi Hin0]].
      * rewrite updN_same. eauto.
      * rewrite updN_other by congruence. now apply (si_lru_slot s HS).
    + destruct (si_lru_slot s HS _ _ Hin) as [sl [Hs H]].
      rewrite updN_other by (apply (Hoth _ _ Hs); destruct H as [-> _]; congruence). eauto.
  - intros i sl. unfold updN at 1. destruct (N.eqb_spec idx i) as [<-|Hne]; intros Hs Hr.
    + inversion Hs; subst sl. rewrite Elru, updN_same. auto.
    + destruct (si_slot_lru s HS _ _ Hs Hr) as [Hin|Hg]; [|now right]. rewrite Elru. unfold updN.
      destruct (N.eqb_spec (s_shard n) (s_shard sl)) as [E|_]; [|now left].
      rewrite <- E in Hin. destruct (Hlold i ltac:(congruence) Hin) as [Hi|[sl1 [Hs1 Hg]]];
        [now left|right; congruence].
  - intros i sl. unfold updN. destruct (idx =? i); intros Hs;
      [inversion Hs; now subst|now apply (si_lia s HS i)].
  - intros i sl. unfold updN. destruct (idx =? i); intros Hs;
      [inversion Hs; now subst|now apply (si_gen s HS i)].
Qed.

(* the fast path and revalidation *)
Lemma SInv_touch s s' idx sl lia1 dur1 lru2 :
  SInv s ->
  st_slots s idx = Some sl ->
  st_cur s' = st_cur s ->
  st_keys s' = st_keys s ->
  st_slots s' = updN (st_slots s) idx (Some (mkSlot (s_val sl) (s_gen sl) lia1 dur1 (s_shard sl))) ->
  (forall sh, st_lru s' sh = updN (st_lru s) (s_shard sl) lru2 sh) ->
  (1 <= lia1 /\ (lia1 <= st_cur s \/ lia1 = REV_MAX)) ->
  NoDup lru2 ->
  (forall i, i <> idx -> (In i lru2 <-> In i (st_lru s (s_shard sl)))) ->
  (In idx lru2 -> reusable (immortal c) dur1 = true) ->
  (reusable (immortal c) dur1 = true -> reusable (immortal c) (s_dur sl) = true) ->
  (reusable (immortal c) dur1 = true -> In idx (st_lru s (s_shard sl)) -> In idx lru2) ->
  SInv s'.
Proof.
  intros HS Hsl Ecur Ekeys Eslots Elru Hlia Hnd Hoth Hin Hr10 Hkeep.
  pose proof (si_slot_key s HS _ _ Hsl) as Hk.
  destruct (si_key_slot s HS _ _ _ Hk) as [_ [_ [_ [_ Hsh]]]].
  apply (SInv_upd s s' idx _ (st_keys s (s_shard sl)) lru2 HS Ecur Eslots);
    cbn [s_val s_gen s_lia s_dur s_shard]; auto; try apply HS.
  - intros sh. rewrite Ekeys. apply updN_id.
  - intros o Ho. congruence.
  - intros v i. split.
    + intros Hi. destruct (N.eq_dec i idx) as [->|Hne]; [left|now right].
      destruct (si_key_slot s HS _ _ _ Hi) as [sl0 [Hs0 [Hv _]]]. congruence.
    + intros [E|[Hi _]]; [now inversion E|exact Hi].
  - intros i Hi. destruct (N.eq_dec i idx) as [->|Hne]; [left|right]; split; auto.
    now apply Hoth.
  - intros Hr. destruct (si_slot_lru s HS _ _ Hsl (Hr10 Hr)); auto.
  - intros i Hne Hi. left. now apply Hoth.
  - now apply (si_gen s HS idx).
Qed.

(* the scan found nothing, or the call failed *)
Lemma SInv_lru_only s s' sh lru0 :
  SInv s ->
  st_cur s' = st_cur s -> st_keys s' = st_keys s -> st_slots s' = st_slots s ->
  st_lru s' = updN (st_lru s) sh lru0 ->
  lru_shrunk s (st_lru s sh) lru0 ->
  SInv s'.
Proof.
  intros HS Ecur Ekeys Eslots Elru [Hnd [Hsub Hleak]].
  constructor; rewrite ?Ecur, ?Ekeys, ?Eslots, ?Elru; try apply HS.
  - intros sh0. unfold updN. destruct (sh =? sh0); [assumption|apply HS].
  - intros sh0 i0. unfold updN. destruct (N.eqb_spec sh sh0) as [<-|_]; intros Hi0;
      apply HS; auto.
  - intros i0 sl0 Hs0 Hr. destruct (si_slot_lru s HS _ _ Hs0 Hr) as [Hi|Hg]; [|now right].
    unfold updN. destruct (N.eqb_spec sh (s_shard sl0)) as [->|_]; [|now left].
    destruct (in_dec N.eq_dec i0 lru0) as [Hin|Hnin]; [now left|].
    destruct (Hleak i0 Hi Hnin) as [sl1 [Hs1 Hg1]]. right. congruence.
Qed.

(* the cold path and the reuse path; [ks] and [l] are the key map and the shrunk LRU list of
   v's shard without the entries of [idx] *)
Lemma SInv_new s s' v sp idx g ks lru0 l :
  SInv s -> 1 <= st_cur s ->
  key_find v (st_keys s (shard_of v)) = None ->
  lru_shrunk s (st_lru s (shard_of v)) lru0 ->
  (forall o, st_slots s idx = Some o -> s_shard o = shard_of v) ->
  (forall v0 i, In (v0, i) ks <-> In (v0, i) (st_keys s (shard_of v)) /\ i <> idx) ->
  NoDup (map fst ks) -> NoDup (map snd ks) ->
  (forall i, In i l <-> In i lru0 /\ i <> idx) -> NoDup l ->
  g <= c_gen_max c ->
  st_cur s' = st_cur s ->
  let d := fst (stamp_vals (st_cur s) sp) in
  let lia := snd (stamp_vals (st_cur s) sp) in
  st_slots s' = updN (st_slots s) idx (Some (mkSlot v g lia d (shard_of v))) ->
  st_keys s' = updN (st_keys s) (shard_of v) ((v, idx) :: ks) ->
  st_lru s' = updN (st_lru s) (shard_of v) (if reusable (immortal c) d then idx :: l else l) ->
  SInv s'.
Proof.
  intros HS Hcur Hf [Hnd [Hsub Hleak]] Hold Hks Hndv Hndi Hl Hndl Hg Ecur d lia Eslots Ekeys Elru.
  apply (SInv_upd s s' idx _ ((v, idx) :: ks) (if reusable (immortal c) d then idx :: l else l)
           HS Ecur Eslots); cbn [s_val s_gen s_lia s_dur s_shard]; auto.
  - intros sh. now rewrite Ekeys.
  - intros sh. now rewrite Elru.
  - intros v0 i. cbn [In]. rewrite Hks. split; (intros [E|H]; [left; now inversion E|now right]).
  - cbn [map fst]. constructor; [|assumption]. intros Hin.
    apply in_map_iff in Hin as [[v0 i0] [Ev Hin]]. cbn [fst] in Ev; subst v0.
    apply Hks in Hin as [Hin _]. eapply key_find_None; eauto.
  - cbn [map snd]. constructor; [|assumption]. intros Hin.
    apply in_map_iff in Hin as [[v0 i0] [Ev Hin]]. cbn [snd] in Ev; subst i0.
    apply Hks in Hin. tauto.
  - destruct (reusable (immortal c) d); [constructor|]; auto. rewrite Hl. tauto.
  - intros i Hi.
    assert (Hi' : i = idx /\ reusable (immortal c) d = true \/ In i l).
    { destruct (reusable (immortal c) d); [destruct Hi as [<-|Hi]|]; auto. }
    destruct Hi' as [H|Hi']; [now left|]. apply Hl in Hi' as [Hi' Hne]. auto.
  - intros ->. left. now left.
  - intros i Hne Hi. destruct (in_dec N.eq_dec i lru0) as [Hin|Hnin]; [left|right; auto].
    assert (In i l) by (apply Hl; auto). destruct (reusable (immortal c) d); [now right|assumption].
  - subst lia. destruct sp; cbn [stamp_vals snd]; [unfold REV_MAX|]; lia.
Qed.

Lemma SInv_same s s' :
  SInv s -> st_cur s <= st_cur s' -> st_keys s' = st_keys s -> st_lru s' = st_lru s ->
  st_slots s' = st_slots s -> SInv s'.
Proof.
  intros HS Hcur Ekeys Elru Eslots.
  constructor; rewrite ?Ekeys, ?Eslots, ?Elru; try apply HS.
  intros i0 sl0 Hs0. destruct (si_lia s HS _ _ Hs0) as [H1 H2]. split; [assumption|].
  destruct H2; [left; lia|now right].
Qed.

End Inv.
