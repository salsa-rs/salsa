(* Intern/ProofsTrace.v — invariants relating the state to the trace of the run
   that produced it, and the trace lemmas under the C08 theorems of Theorems.v
   (canonical / readback / kept). *)
From Salsa Require Import Base.
From Salsa.Intern Require Import RetK Model ProofsBase ProofsInv ProofsStep.

Local Open Scope N_scope.

Lemma interns_inv r o out evs v idx gen :
  interns (mkEntry r o out evs) v idx gen ->
  exists t sp fr p, o = OIntern t v sp fr /\ out = RIntern idx gen p.
Proof. intros [t [sp [fr [p [H1 H2]]]]]. cbn in *. eauto 8. Qed.

Lemma revalidates_inv r o out evs idx gen :
  revalidates (mkEntry r o out evs) idx gen ->
  exists t since, o = OMca t idx gen since /\ out = RMca false.
Proof. intros [t [since [H1 H2]]]. cbn in *. eauto. Qed.

Lemma interns_fun e v v' i g i' g' :
  interns e v i g -> interns e v' i' g' -> v = v' /\ i = i' /\ g = g'.
Proof.
  intros [t [sp [fr [p [H1 H2]]]]] [t' [sp' [fr' [p' [H1' H2']]]]].
  rewrite H1 in H1'. rewrite H2 in H2'. inversion H1'; inversion H2'; auto.
Qed.

Lemma In_removelast {A} (x : A) l : In x (removelast l) -> In x l.
Proof.
  induction l as [|a l IH]; [auto|]. destruct l as [|b l]; [intros []|].
  change (removelast (a :: b :: l)) with (a :: removelast (b :: l)).
  intros [->|H]; [now left|right; auto].
Qed.

Lemma rq_record_In q r x : In x (rq_record q r) -> x = r \/ In x q.
Proof.
  rewrite rq_record_unfold. destruct q as [|h t]; [intros []|].
  destruct (r <=? h); [auto|]. intros [<-|H]; [now left|right]. now apply In_removelast.
Qed.

Lemma record_active_In c s x :
  In x (record_active c s) -> In x (st_queue s) \/ (x = st_cur s /\ immortal c = false).
Proof.
  unfold record_active. destruct (immortal c); [auto|].
  intros H. apply rq_record_In in H as [->|H]; auto.
Qed.

(* the trace is sorted by revision, newest first *)
Fixpoint mono (tr : list entry) : Prop :=
  match tr with
  | [] => True
  | e :: tr' => (forall e', In e' tr' -> e_rev e' <= e_rev e) /\ mono tr'
  end.

Lemma mono_app pre e post :
  mono (pre ++ e :: post) -> forall e', In e' post -> e_rev e' <= e_rev e.
Proof.
  induction pre as [|a pre IH]; cbn [app mono]; intros [H1 H2]; auto.
Qed.

Lemma mono_app_r pre post : mono (pre ++ post) -> mono post.
Proof. induction pre as [|a pre IH]; cbn [app mono]; [auto|]. intros [_ H]; auto. Qed.

Section Trace.
Variable shard_of : val -> N.
Variable c : cfg.

Notation Inv := (Inv shard_of c).
Notation SInv := (SInv shard_of c).

(* basic trace facts *)
Record TB (s : st) (tr : list entry) : Prop := mkTB {
  t_rev : forall e, In e tr -> 1 <= e_rev e /\ e_rev e <= st_cur s;
  t_mono : mono tr;
  t_qact : forall r, In r (st_queue s) ->
     r = REV_START \/ exists e, In e tr /\ is_activity e = true /\ e_rev e = r
}.

(* what handles in the trace denote *)
Record TD (s : st) (tr : list entry) : Prop := mkTD {
  (* a handle ever returned for v: its slot still holds v, or has a later generation *)
  t_den : forall e v idx gen, In e tr -> interns e v idx gen ->
     exists sl, st_slots s idx = Some sl /\
       (gen < s_gen sl \/ (gen = s_gen sl /\ s_val sl = v));
  (* a handle obtained in the current revision is protected from reuse *)
  t_cur_i : forall e v idx gen, In e tr -> e_rev e = st_cur s -> interns e v idx gen ->
     exists sl, held shard_of s v idx gen sl /\ st_cur s <= s_lia sl;
  (* so is a handle revalidated in the current revision *)
  t_cur_m : forall e idx gen, In e tr -> e_rev e = st_cur s -> revalidates e idx gen ->
     exists sl, st_slots s idx = Some sl /\ s_gen sl <= gen /\ st_cur s <= s_lia sl
}.

Lemma TB_init : TB (init c) [].
Proof.
  constructor; cbn; try tauto. intros r Hr. left.
  destruct (c_revisions c); [|destruct Hr]. unfold rq_new in Hr. now apply repeat_spec in Hr.
Qed.

Lemma TD_init : TD (init c) [].
Proof. constructor; cbn; intros; tauto. Qed.

Lemma TB_step s s' tr e :
  TB s tr -> 1 <= st_cur s -> st_cur s <= st_cur s' -> e_rev e = st_cur s ->
  (forall r, In r (st_queue s') ->
     In r (st_queue s) \/ (r = st_cur s /\ is_activity e = true)) ->
  TB s' (e :: tr).
Proof.
  intros [Hrev Hmono Hq] Hcur Hle He Hqueue. constructor.
  - intros e' [<-|Hin]; [lia|]. destruct (Hrev _ Hin). lia.
  - cbn [mono]. split; [|assumption]. intros e' Hin. destruct (Hrev _ Hin). lia.
  - intros r Hr. destruct (Hqueue r Hr) as [Hold|[-> Hact]].
    + destruct (Hq r Hold) as [->|[e' [Hin [Ha Hr']]]]; [now left|].
      right. exists e'. split; [now right|auto].
    + right. exists e. split; [now left|auto].
Qed.

Lemma TBD_step s tr o s' out evs :
  Inv s -> TB s tr -> TD s tr ->
  step shard_of c s o = (s', out, evs) ->
  TB s' (mkEntry (st_cur s) o out evs :: tr) /\ TD s' (mkEntry (st_cur s) o out evs :: tr).
Proof.
  intros HI HB HD Hstep. pose proof HI as [[Hmin Hmax] [HS HQ]].
  destruct (step_spec _ _ _ _ _ _ _ HI Hstep) as [Hres _].
  pose proof (step_res_cur _ _ _ _ _ _ Hres) as Hcur.
  assert (Hsame : forall e, In e tr -> e_rev e = st_cur s' -> st_cur s' = st_cur s).
  { intros e Hin Hr. destruct Hcur as [E|[_ E]]; [exact E|]. destruct (t_rev _ _ HB _ Hin). lia. }
  assert (Hfresh : forall r, st_cur s <= r -> rq_is_stale (record_active c s) r <> true).
  { intros r Hr Hst. pose proof (stale_lt_cur c _ _ _ (queue_ok_record c s Hmin HQ) Hst). lia. }
  split.
  - eapply TB_step; eauto; [destruct Hcur as [->|[_ ->]]; lia|].
    rewrite (step_res_queue _ _ _ _ _ _ (st_cur s) evs Hres). intros r Hr.
    destruct (is_activity _); [|now left].
    apply record_active_In in Hr as [Hr|[-> _]]; auto.
  - constructor.
    + intros e v i g [<-|Hin] Hi.
      * apply interns_inv in Hi as [t [sp [fr [p [-> ->]]]]].
        destruct (interned_now _ _ _ _ _ _ _ _ _ _ _ HI Hres) as [_ [sl' [[Hs' [Hg [Hv _]]] _]]].
        exists sl'. auto.
      * destruct (t_den _ _ HD _ _ _ _ Hin Hi) as [sl [Hsl Hg]].
        destruct (slot_step _ _ _ _ _ _ _ _ HI Hres Hsl)
          as [sl' [Hs' [[Eg [Ev _]]|[Eg _]]]]; exists sl'; (split; [assumption|]);
          rewrite Eg; [rewrite Ev; exact Hg|left; lia].
    + intros e v i g [<-|Hin] Hr Hi.
      * apply interns_inv in Hi as [t [sp [fr [p [-> ->]]]]].
        now destruct (interned_now _ _ _ _ _ _ _ _ _ _ _ HI Hres) as [-> H].
      * rewrite (Hsame _ Hin Hr) in Hr |- *.
        destruct (t_cur_i _ _ HD _ _ _ _ Hin Hr Hi) as [sl [Hh Hl]].
        destruct (held_step _ _ _ _ _ _ _ _ _ _ HI Hres Hh) as [[sl' [Hh' [Hl' _]]] _].
        { intros [Hst _]. now apply (Hfresh _ Hl). }
        exists sl'. split; [assumption|]. destruct Hl'; lia.
    + intros e i g [<-|Hin] Hr Hi.
      * apply revalidates_inv in Hi as [t [since [-> ->]]].
        now destruct (revalidated_now _ _ _ _ _ _ _ _ Hres) as [-> H].
      * rewrite (Hsame _ Hin Hr) in Hr |- *.
        destruct (t_cur_m _ _ HD _ _ _ Hin Hr Hi) as [sl [Hsl [Hg Hl]]].
        destruct (slot_step _ _ _ _ _ _ _ _ HI Hres Hsl)
          as [sl' [Hs' [[Eg [_ [Hl' _]]]|[_ [Hst _]]]]]; [|now destruct (Hfresh _ Hl)].
        exists sl'. split; [assumption|]. split; [congruence|]. destruct Hl'; lia.
Qed.

Lemma exec_rev_all : cfg_ok c -> forall rops s tr,
  exec_rev shard_of c rops = (s, tr) -> Inv s /\ TB s tr /\ TD s tr.
Proof.
  intros Hc. apply (exec_rev_ind shard_of c (fun s tr => Inv s /\ TB s tr /\ TD s tr)).
  - split; [now apply Inv_init|]. split; [apply TB_init|apply TD_init].
  - intros r o s0 tr0 s1 out evs _ [HI [HB HD]] Es.
    split; [eapply step_Inv; eauto|]. eapply TBD_step; eauto.
Qed.

(* a suffix of a trace is the trace of a run *)
Lemma exec_rev_suffix rops : forall s tr pre post,
  exec_rev shard_of c rops = (s, tr) -> tr = pre ++ post ->
  exists rops' s', exec_rev shard_of c rops' = (s', post).
Proof.
  induction rops as [|o rest IH]; intros s tr pre post; cbn [exec_rev].
  - intros H E. injection H as <- <-. destruct pre; [|discriminate]. cbn [app] in E.
    exists [], (init c). cbn [exec_rev]. now rewrite E.
  - destruct (exec_rev shard_of c rest) as [s0 tr0] eqn:E0.
    destruct (step shard_of c s0 o) as [[s1 out] evs] eqn:Es.
    intros H E. injection H as <- <-.
    destruct pre as [|a pre]; cbn [app] in E.
    + exists (o :: rest), s1. cbn [exec_rev]. now rewrite E0, Es, E.
    + injection E as _ E. eapply (IH s0 tr0 pre post); eauto.
Qed.

Definition canonical_on (tr : list entry) : Prop :=
  forall e1 e2 v1 i1 g1 v2 i2 g2,
    In e1 tr -> In e2 tr -> interns e1 v1 i1 g1 -> interns e2 v2 i2 g2 ->
    ((i1, g1) = (i2, g2) -> v1 = v2) /\
    (e_rev e1 = e_rev e2 -> v1 = v2 -> (i1, g1) = (i2, g2)).

Lemma canonical_new_old s e tr e2 v1 i1 g1 v2 i2 g2 :
  TD s (e :: tr) -> e_rev e = st_cur s ->
  In e2 tr -> interns e v1 i1 g1 -> interns e2 v2 i2 g2 ->
  ((i1, g1) = (i2, g2) -> v1 = v2) /\
  (e_rev e = e_rev e2 -> v1 = v2 -> (i1, g1) = (i2, g2)).
Proof.
  intros HD He Hin H1 H2.
  destruct (t_cur_i _ _ HD e v1 i1 g1 (or_introl eq_refl) He H1)
    as [sl [[Hsl [Hg [Hv Hk]]] _]].
  split.
  - intros E; inversion E; subst i2 g2.
    destruct (t_den _ _ HD e2 v2 i1 g1 (or_intror Hin) H2) as [sl2 [Hsl2 Hc]].
    rewrite Hsl in Hsl2; inversion Hsl2; subst sl2.
    destruct Hc as [Hlt|[_ Hv2]]; [lia|congruence].
  - intros Er Ev; subst v2.
    destruct (t_cur_i _ _ HD e2 v1 i2 g2 (or_intror Hin)) as [sl2 [[Hsl2 [Hg2 [_ Hk2]]] _]];
      [congruence|assumption|].
    rewrite Hk in Hk2; inversion Hk2; subst i2.
    rewrite Hsl in Hsl2; inversion Hsl2; subst sl2. congruence.
Qed.

Lemma step_cur_of_interns s o s' out evs v i g :
  Inv s -> step shard_of c s o = (s', out, evs) ->
  interns (mkEntry (st_cur s) o out evs) v i g -> st_cur s' = st_cur s.
Proof.
  intros HI Hstep Hi. apply interns_inv in Hi as [t [sp [fr [p [-> ->]]]]].
  destruct (step_spec _ _ _ _ _ _ _ HI Hstep) as [Hres _].
  now destruct (interned_now _ _ _ _ _ _ _ _ _ _ _ HI Hres).
Qed.

Lemma exec_rev_canonical : cfg_ok c -> forall rops s tr,
  exec_rev shard_of c rops = (s, tr) -> canonical_on tr.
Proof.
  intros Hc. apply (exec_rev_ind shard_of c (fun _ tr => canonical_on tr)).
  - intros e1 e2 ? ? ? ? ? ? [].
  - intros r o s0 tr0 s out evs E0 IH Es.
    destruct (exec_rev_all Hc _ _ _ E0) as [HI0 [HB0 HD0]].
    destruct (TBD_step _ _ _ _ _ _ HI0 HB0 HD0 Es) as [_ HD].
    intros e1 e2 v1 i1 g1 v2 i2 g2 [<-|Hin1] [<-|Hin2] H1 H2.
    + destruct (interns_fun _ _ _ _ _ _ _ H1 H2) as [-> [-> ->]]. auto.
    + eapply canonical_new_old; eauto. cbn [e_rev]. symmetry.
      eapply step_cur_of_interns; eauto.
    + destruct (canonical_new_old s (mkEntry (st_cur s0) o out evs) tr0 e1 v2 i2 g2 v1 i1 g1)
        as [A B]; auto.
      { cbn [e_rev]. symmetry. eapply step_cur_of_interns; eauto. }
      split; [intros E; symmetry; apply A; congruence|].
      intros Er Ev. symmetry. apply B; congruence.
    + eapply IH; eauto.
Qed.

Definition current_handle (tr : list entry) (cur : rev) (v : val) (idx gen : N) : Prop :=
  exists e, In e tr /\ e_rev e = cur /\
    (interns e v idx gen \/
     (revalidates e idx gen /\ exists e0, In e0 tr /\ interns e0 v idx gen)).

Lemma readback_state s tr v idx gen :
  TD s tr -> current_handle tr (st_cur s) v idx gen ->
  exists sl, st_slots s idx = Some sl /\ s_val sl = v /\ s_gen sl = gen /\
             st_cur s <= s_lia sl.
Proof.
  intros HD [e [Hin [Hr [Hi|[Hm [e0 [Hin0 Hi0]]]]]]].
  - destruct (t_cur_i _ _ HD _ _ _ _ Hin Hr Hi) as [sl [[Hsl [Hg [Hv _]]] Hl]]. eauto 6.
  - destruct (t_cur_m _ _ HD _ _ _ Hin Hr Hm) as [sl [Hsl [Hg Hl]]].
    destruct (t_den _ _ HD _ _ _ _ Hin0 Hi0) as [sl0 [Hsl0 Hc]].
    rewrite Hsl in Hsl0; inversion Hsl0; subst sl0.
    destruct Hc as [Hlt|[Hg0 Hv]]; [lia|]. exists sl. repeat split; auto.
Qed.

(* The queue is newest first; its head is [cur] once the current revision has been recorded.
   This is the newest recorded revision other than [cur]: a slot interned since then is not stale. *)
Definition prev_act (q : list rev) (cur : rev) : rev :=
  match q with
  | h :: y :: _ => if h =? cur then y else h
  | _ => 0
  end.

(* v is held at handle (i1, g1) and was interned in the previous active revision *)
Definition kept_at (s : st) (v : val) (i1 g1 : N) : Prop :=
  exists sl, held shard_of s v i1 g1 sl /\ prev_act (st_queue s) (st_cur s) <= s_lia sl.

(* [seg] is the part of the trace newer than [e1]; under this the slot of [v] is touched in each
   active revision *)
Definition covered (seg : list entry) (e1 : entry) (v : val) (bound : rev) : Prop :=
  forall e, In e seg -> is_activity e = true -> e_rev e < bound ->
    exists e' i g, In e' (seg ++ [e1]) /\ interns e' v i g /\ e_rev e' = e_rev e.

Lemma queue_two n (q : list rev) :
  c_revisions c = Some n -> n <> 1 -> cfg_ok c -> length q = N.to_nat n ->
  exists h y t, q = h :: y :: t.
Proof.
  intros Hn Hne Hc Hlen. specialize (Hc n Hn).
  destruct q as [|h [|y t]]; cbn [length] in Hlen; [lia|lia|eauto].
Qed.

Lemma queue_hd_le s h t : Inv s -> st_queue s = h :: t -> h <= st_cur s.
Proof.
  intros [_ [_ HQ]] Eq. unfold queue_ok in HQ.
  destruct (c_revisions c); [now apply (proj2 (proj2 HQ) h t)|]. rewrite HQ in Eq. discriminate.
Qed.

Lemma prev_act_le s :
  Inv s -> prev_act (st_queue s) (st_cur s) <= st_cur s.
Proof.
  intros [_ [_ HQ]]. unfold queue_ok in HQ. unfold prev_act.
  destruct (st_queue s) as [|h [|y t]] eqn:Eq; try lia.
  destruct (c_revisions c); [|discriminate].
  destruct HQ as [_ [Hd Hhd]]. specialize (Hhd h (y :: t) eq_refl).
  inversion Hd; subst. destruct (h =? st_cur s); lia.
Qed.

(* recording the current revision does not change the previous active revision *)
Lemma prev_act_record s :
  cfg_ok c -> c_revisions c <> Some 1 -> Inv s ->
  prev_act (record_active c s) (st_cur s) = prev_act (st_queue s) (st_cur s).
Proof.
  intros Hc Hne [_ [_ HQ]]. unfold record_active, immortal, queue_ok in *.
  destruct (c_revisions c) as [n|] eqn:En; [|reflexivity].
  destruct HQ as [Hlen [Hd Hhd]].
  destruct (queue_two n (st_queue s) En) as [h [y [t Eq]]]; auto; [congruence|].
  rewrite Eq in *. rewrite rq_record_unfold. specialize (Hhd h (y :: t) eq_refl).
  destruct (N.leb_spec (st_cur s) h).
  - reflexivity.
  - change (removelast (h :: y :: t)) with (h :: removelast (y :: t)).
    unfold prev_act. rewrite N.eqb_refl.
    destruct (N.eqb_spec h (st_cur s)); [lia|reflexivity].
Qed.

(* a slot stale w.r.t. the recorded queue is older than the previous active revision *)
Lemma stale_lt_prev_act s r :
  cfg_ok c -> c_revisions c <> Some 1 -> Inv s ->
  rq_is_stale (record_active c s) r = true -> r < prev_act (st_queue s) (st_cur s).
Proof.
  intros Hc Hne HI Hst. rewrite <- prev_act_record by assumption.
  pose proof HI as [[Hmin _] [_ HQ]].
  pose proof (queue_ok_record c s Hmin HQ) as HQ'. unfold queue_ok in HQ'.
  destruct (c_revisions c) as [n|] eqn:En; [|rewrite HQ' in Hst; discriminate].
  destruct HQ' as [Hlen [Hd _]].
  destruct (queue_two n (record_active c s) En) as [h [y [t Eq]]]; auto; [congruence|].
  rewrite Eq in Hst, Hd |- *. pose proof (rq_stale_lt_second h y t r Hd Hst) as Hlt.
  assert (Hh : h = st_cur s).
  { unfold record_active, immortal in Eq. rewrite En in Eq.
    destruct (st_queue s) as [|h0 t0] eqn:Eq0; [discriminate|].
    destruct (rq_record_hd h0 t0 (st_cur s)) as [t' E']. rewrite E' in Eq.
    pose proof (queue_hd_le s h0 t0 HI Eq0). inversion Eq; lia. }
  unfold prev_act. now rewrite Hh, N.eqb_refl.
Qed.

Lemma kept_step s tr o s' out evs v i1 g1 :
  cfg_ok c -> c_revisions c <> Some 1 ->
  Inv s -> TB s tr -> TD s tr ->
  step shard_of c s o = (s', out, evs) ->
  kept_at s v i1 g1 ->
  (* when the revision advances, v was interned in the revision that ends, if active *)
  (st_cur s' <> st_cur s ->
     forall h t, st_queue s = h :: t -> h = st_cur s ->
       exists e i g, In e tr /\ e_rev e = st_cur s /\ interns e v i g) ->
  kept_at s' v i1 g1 /\
  (forall t sp fr, o = OIntern t v sp fr -> exists p, out = RIntern i1 g1 p).
Proof.
  intros Hc Hne HI HB HD Hstep [sl [Hh Hpa]] Hadv.
  destruct (step_spec _ _ _ _ _ _ _ HI Hstep) as [Hres _].
  (* the slot is not stale, so it keeps its handle *)
  destruct (held_step _ _ _ _ _ _ _ _ _ _ HI Hres Hh) as [[sl' [Hh' [Hl _]]] Hret].
  { intros [Hst _]. pose proof (stale_lt_prev_act s _ Hc Hne HI Hst). lia. }
  split; [|intros t sp fr Eo; rewrite (Hret t sp fr Eo); eauto].
  exists sl'. split; [assumption|]. pose proof (prev_act_le s HI) as Hple.
  rewrite (step_res_queue _ _ _ _ _ _ 0 [] Hres).
  destruct (step_res_cur _ _ _ _ _ _ Hres) as [Ecur|[-> Ecur]]; rewrite Ecur.
  - destruct (is_activity _); [rewrite prev_act_record by assumption|];
      destruct Hl; lia.
  - (* new revision *)
    cbn [is_activity e_op]. unfold prev_act in *.
    destruct (st_queue s) as [|h [|y t]] eqn:Eq; try lia.
    pose proof (queue_hd_le s h (y :: t) HI Eq) as Hhc.
    destruct (N.eqb_spec h (st_cur s + 1)); [lia|].
    destruct (N.eqb_spec h (st_cur s)) as [Eh|Nh]; [|destruct Hl; lia].
    (* the revision that ends was active: v was interned in it *)
    destruct (Hadv ltac:(lia) h (y :: t) eq_refl Eh) as [e [i [g [Hin [Hr Hi]]]]].
    destruct (t_cur_i _ _ HD _ _ _ _ Hin Hr Hi) as [sl1 [[Hsl1 [_ [_ Hk1]]] Hl1]].
    destruct Hh as [Hsl [_ [_ Hk]]].
    rewrite Hk in Hk1; inversion Hk1; subst i.
    rewrite Hsl in Hsl1; inversion Hsl1; subst sl1. destruct Hl; lia.
Qed.

Lemma kept_segment : cfg_ok c -> c_revisions c <> Some 1 ->
  forall rops s tr, exec_rev shard_of c rops = (s, tr) ->
  forall seg e1 old v i1 g1,
    tr = seg ++ e1 :: old -> interns e1 v i1 g1 ->
    covered seg e1 v (st_cur s) ->
    kept_at s v i1 g1 /\
    (forall e i g, In e seg -> interns e v i g -> i = i1 /\ g = g1).
Proof.
  intros Hc Hne.
  apply (exec_rev_ind shard_of c (fun s tr => forall seg e1 old v i1 g1,
    tr = seg ++ e1 :: old -> interns e1 v i1 g1 -> covered seg e1 v (st_cur s) ->
    kept_at s v i1 g1 /\ (forall e i g, In e seg -> interns e v i g -> i = i1 /\ g = g1))).
  - intros seg ? ? ? ? ? Etr. destruct seg; discriminate.
  - intros rest o s0 tr0 s out evs E0 IH Es seg e1 old v i1 g1 Etr Hi1 Hcov.
    pose proof (exec_rev_all Hc _ _ _ E0) as [HI0 [HB0 HD0]].
    pose proof (step_Inv _ _ _ _ _ _ _ HI0 Es) as HI'.
    destruct (TBD_step _ _ _ _ _ _ HI0 HB0 HD0 Es) as [HB' HD'].
    destruct seg as [|e seg0]; cbn [app] in Etr; inversion Etr; subst.
    + (* the segment is empty: e1 is the newest entry *)
      split; [|intros e i g []].
      assert (Ecur : st_cur s = st_cur s0) by (eapply step_cur_of_interns; eauto).
      destruct (t_cur_i _ _ HD' _ v i1 g1 (or_introl eq_refl)) as [sl [Hh Hl]];
        [cbn [e_rev]; congruence|assumption|].
      exists sl. split; [assumption|].
      pose proof (prev_act_le s HI'). lia.
    + (* e is the newest entry of the segment *)
      assert (Hle : st_cur s0 <= st_cur s).
      { destruct (t_rev _ _ HB' (mkEntry (st_cur s0) o out evs) (or_introl eq_refl)).
        cbn [e_rev] in *. lia. }
      assert (Hcov0 : covered seg0 e1 v (st_cur s0)).
      { intros e' Hin Ha Hlt.
        destruct (Hcov e' (or_intror Hin) Ha ltac:(lia)) as [e'' [i [g [Hin' [Hi' Hr']]]]].
        cbn [app] in Hin'. destruct Hin' as [<-|Hin']; [cbn [e_rev] in Hr'; lia|].
        exists e'', i, g. auto. }
      destruct (IH seg0 e1 old v i1 g1 eq_refl Hi1 Hcov0) as [Hk0 Hall0].
      destruct (kept_step s0 (seg0 ++ e1 :: old) o s out evs v i1 g1 Hc Hne HI0 HB0 HD0 Es Hk0)
        as [Hk1 Hret].
      { intros Hadv h t Eq Eh.
        (* h = st_cur s0 is in the queue: some activity happened in that revision *)
        destruct (t_qact _ _ HB0 h) as [E1|[ea [Hina [Haa Hra]]]]; [rewrite Eq; now left| |].
        - (* st_cur s0 = 1: e1 itself ran in revision 1 *)
          exists e1, i1, g1. split; [apply in_or_app; right; now left|]. split; [|assumption].
          destruct (t_rev _ _ HB0 e1) as [A B]; [apply in_or_app; right; now left|].
          unfold REV_START in *. lia.
        - apply in_app_or in Hina as [Hina|Hina].
          + (* activity inside the segment: covered *)
            destruct (Hcov ea (or_intror Hina) Haa) as [e'' [i [g [Hin' [Hi' Hr']]]]].
            { assert (st_cur s0 < st_cur s) by lia. lia. }
            cbn [app] in Hin'. destruct Hin' as [<-|Hin'].
            * exfalso. apply Hadv. eapply step_cur_of_interns; eauto.
            * exists e'', i, g. split; [|split; [congruence|assumption]].
              apply in_app_or in Hin' as [Hin'|[<-|[]]]; apply in_or_app;
                [now left|right; now left].
          + (* activity at or before e1: then e1 ran in that revision too *)
            exists e1, i1, g1. split; [apply in_or_app; right; now left|]. split; [|assumption].
            destruct (t_rev _ _ HB0 e1) as [A B]; [apply in_or_app; right; now left|].
            destruct Hina as [<-|Hina]; [lia|].
            pose proof (mono_app _ _ _ (t_mono _ _ HB0) ea Hina). lia. }
      split; [assumption|].
      intros e' i g [<-|Hin] Hi'; [|eauto].
      apply interns_inv in Hi' as [t [sp [fr [p [Eo Eout]]]]]. subst o out.
      destruct (Hret _ _ _ eq_refl) as [p' Ep]. inversion Ep; auto.
Qed.

End Trace.
