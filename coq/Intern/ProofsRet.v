(* Intern/ProofsRet.v — the retention mechanics (revision queue, last_interned_at,
   recorded durability) related to the declarative history of the run, for the C09
   theorems of Theorems.v. *)
From Salsa Require Import Base.
From Salsa.Intern Require Import RetK Model ProofsBase ProofsInv ProofsStep ProofsTrace.

Local Open Scope N_scope.

Definition list_max (l : list N) : N := fold_right N.max 0 l.

Lemma list_max_cons a l : list_max (a :: l) = N.max a (list_max l).
Proof. reflexivity. Qed.

Lemma list_max_app l1 l2 : list_max (l1 ++ l2) = N.max (list_max l1) (list_max l2).
Proof.
  induction l1 as [|a l1 IH]; cbn [app].
  - change (list_max []) with 0. now rewrite N.max_0_l.
  - rewrite !list_max_cons, IH. now rewrite N.max_assoc.
Qed.

Lemma list_max_zero l : list_max l = 0 <-> Forall (fun d => d = 0) l.
Proof.
  induction l as [|a l IH]; [split; [constructor|reflexivity]|].
  rewrite list_max_cons. split.
  - intros H. constructor; [lia|]. apply IH. lia.
  - intros H. inversion H as [|? ? Ha Hl]; subst. apply IH in Hl. lia.
Qed.

Lemma firstn_repeat {A} (x : A) n m : firstn n (repeat x m) = repeat x (Nat.min n m).
Proof.
  revert m. induction n as [|n IH]; intros [|m]; cbn [firstn repeat Nat.min]; try reflexivity.
  now rewrite IH.
Qed.

Lemma rq_last_firstn (L : list rev) m :
  (S m <= length L)%nat -> rq_last (firstn (S m) L) = nth_error L m.
Proof.
  revert L. induction m as [|m IH]; intros [|a L] Hlen; cbn [length] in Hlen; try lia.
  - reflexivity.
  - destruct L as [|b L]; [cbn [length] in Hlen; lia|].
    change (firstn (S (S m)) (a :: b :: L)) with (a :: firstn (S m) (b :: L)).
    change (firstn (S m) (b :: L)) with (b :: firstn m L).
    rewrite rq_last_cons. change (b :: firstn m L) with (firstn (S m) (b :: L)).
    rewrite IH by (cbn [length] in *; lia). reflexivity.
Qed.

Lemma nth_error_app_pad (A : list rev) k n o :
  nth_error (A ++ repeat REV_START n) k = Some o -> o <> REV_START ->
  nth_error A k = Some o.
Proof.
  intros H Hne. destruct (Compare_dec.le_lt_dec (length A) k) as [Hge|Hlt].
  - rewrite nth_error_app2 in H by assumption.
    apply nth_error_In in H. apply repeat_spec in H. congruence.
  - now rewrite nth_error_app1 in H.
Qed.

(* recording into a queue that is a prefix of a longer list *)
Lemma record_firstn (L : list rev) h L0 m cur :
  L = h :: L0 -> (S m <= length L)%nat ->
  rq_record (firstn (S m) L) cur =
    if cur <=? h then firstn (S m) L else firstn (S m) (cur :: L).
Proof.
  intros -> Hlen. rewrite rq_record_unfold.
  change (firstn (S m) (h :: L0)) with (h :: firstn m L0). cbv beta iota.
  destruct (cur <=? h); [reflexivity|].
  change (h :: firstn m L0) with (firstn (S m) (h :: L0)).
  rewrite removelast_firstn by lia. reflexivity.
Qed.

Lemma touches_cons e tr idx gen :
  touches (e :: tr) idx gen =
    (if internsb e idx gen || revalidatesb e idx gen then [e_rev e] else [])
      ++ touches tr idx gen.
Proof.
  unfold touches. cbn [filter].
  destruct (internsb e idx gen || revalidatesb e idx gen); reflexivity.
Qed.

Lemma touches_In tr idx gen r :
  In r (touches tr idx gen) -> exists e, In e tr /\ e_rev e = r.
Proof.
  unfold touches. intros H. apply in_map_iff in H as [e [Hr Hin]].
  apply filter_In in Hin as [Hin _]. eauto.
Qed.

Lemma dur_hist_cons e tr idx gen :
  dur_hist (e :: tr) idx gen = dur_contrib e idx gen ++ dur_hist tr idx gen.
Proof. reflexivity. Qed.

Lemma internsb_true e idx gen :
  internsb e idx gen = true <-> exists v, interns e v idx gen.
Proof.
  unfold internsb, interns. split.
  - destruct (e_op e) as [t v sp fr| | |]; try discriminate.
    destruct (e_out e) as [i g p| | | |]; try discriminate.
    intros H. apply andb_true_iff in H as [H1 H2].
    apply N.eqb_eq in H1, H2. subst. eauto 8.
  - intros [v [t [sp [fr [p [-> ->]]]]]]. now rewrite !N.eqb_refl.
Qed.

Lemma revalidatesb_true e idx gen :
  revalidatesb e idx gen = true <-> revalidates e idx gen.
Proof.
  unfold revalidatesb, revalidates. split.
  - destruct (e_op e) as [|t i g since| |]; try discriminate.
    destruct (e_out e) as [| [|] | | |]; try discriminate.
    intros H. apply andb_true_iff in H as [H1 H2].
    apply N.eqb_eq in H1, H2. subst. eauto.
  - intros [t [since [-> ->]]]. now rewrite !N.eqb_refl.
Qed.

Lemma dur_contrib_interns e idx gen :
  dur_contrib e idx gen <> [] -> exists v, interns e v idx gen.
Proof.
  intros H. apply internsb_true. revert H. unfold dur_contrib, internsb.
  destruct (e_op e); try congruence. destruct (e_out e) as [i g p| | | |]; try congruence.
  destruct ((i =? idx) && (g =? gen)); congruence.
Qed.

Lemma dur_hist_nil tr idx gen :
  (forall e v, In e tr -> ~ interns e v idx gen) -> dur_hist tr idx gen = [].
Proof.
  induction tr as [|e tr IH]; intros H; [reflexivity|].
  rewrite dur_hist_cons, IH by (intros; apply H; now right).
  rewrite app_nil_r.
  destruct (dur_contrib e idx gen) eqn:E; [reflexivity|].
  destruct (dur_contrib_interns e idx gen) as [v Hv]; [congruence|].
  exfalso. eapply H; [now left|eauto].
Qed.

Lemma acts_cons_In e tr r :
  In r (acts (e :: tr)) <-> (is_activity e = true /\ e_rev e = r) \/ In r (acts tr).
Proof.
  cbn [acts]. destruct (is_activity e); [|split; [auto|intros [[H _]|H]; [discriminate|auto]]].
  destruct (acts tr) as [|r0 l]; [cbn [In]; tauto|].
  destruct (N.eqb_spec r0 (e_rev e)) as [<-|_]; cbn [In]; tauto.
Qed.

Lemma acts_In tr r :
  In r (acts tr) <-> exists e, In e tr /\ is_activity e = true /\ e_rev e = r.
Proof.
  induction tr as [|e tr IH]; [split; [intros []|intros [e [[] _]]]|].
  rewrite acts_cons_In, IH. split.
  - intros [[Ha Hr]|[e' [Hin H]]]; [exists e|exists e']; cbn [In]; auto.
  - intros [e' [[<-|Hin] H]]; [now left|right; eauto].
Qed.

(* `acts` is strictly decreasing on a trace sorted by revision *)
Lemma acts_sorted tr : mono tr -> forall r l, acts tr = r :: l -> forall x, In x l -> x < r.
Proof.
  induction tr as [|e tr IH]; cbn [acts mono]; [intros _ r l E; discriminate|].
  intros [Hle Hm] r l E x Hx.
  destruct (is_activity e) eqn:Ea; [|eauto].
  destruct (acts tr) as [|r0 l0] eqn:El.
  - inversion E; subst. destruct Hx.
  - assert (Hr0 : r0 <= e_rev e).
    { assert (Hin : In r0 (acts tr)) by (rewrite El; now left).
      apply acts_In in Hin as [e' [Hin [_ <-]]]. auto. }
    cbv beta iota in E. destruct (N.eqb_spec r0 (e_rev e)).
    + inversion E; subst. eapply IH; eauto.
    + inversion E; subst. destruct Hx as [<-|Hx]; [lia|].
      pose proof (IH Hm _ _ eq_refl x Hx). lia.
Qed.

(* every handle in an mca entry was returned by an earlier interning *)
Fixpoint wf_ids (tr : list entry) : Prop :=
  match tr with
  | [] => True
  | e :: tr' =>
    match e_op e with
    | OMca _ idx gen _ => exists e0 v, In e0 tr' /\ interns e0 v idx gen
    | _ => True
    end /\ wf_ids tr'
  end.

Section Ret.
Variable shard_of : val -> N.
Variable c : cfg.

Notation Inv := (Inv shard_of c).

Notation TD := (TD shard_of).

Definition pad (n : N) : list rev := repeat REV_START (N.to_nat n).

(* the queue is the REVISIONS newest active revisions, padded with Revision::start() *)
Definition LQ (s : st) (tr : list entry) : Prop :=
  forall n, c_revisions c = Some n ->
    st_queue s = firstn (N.to_nat n) (acts tr ++ pad n).

Record slot_hist (tr : list entry) (idx : N) (sl : slot) : Prop := mkSH {
  h_touch : forall r, In r (touches tr idx (s_gen sl)) -> r <= s_lia sl;
  h_dur : s_dur sl = list_max (dur_hist tr idx (s_gen sl));
  (* a revalidation stamps the slot whatever generation its handle names; that is a touch of
     the slot's own generation only if the handle came from an interning, hence [wf_ids] *)
  h_lia : wf_ids tr ->
     In (s_lia sl) (touches tr idx (s_gen sl)) \/ (s_lia sl = REV_MAX /\ s_dur sl <> D_LOW)
}.

Definition LD (s : st) (tr : list entry) : Prop :=
  forall idx sl, st_slots s idx = Some sl -> slot_hist tr idx sl.

Lemma LQ_init : LQ (init c) [].
Proof.
  intros n Hn. unfold init; cbn [st_queue acts app]. rewrite Hn.
  unfold pad, rq_new. rewrite firstn_repeat. f_equal. lia.
Qed.

Lemma LD_init : LD (init c) [].
Proof. intros idx sl H. discriminate. Qed.

Lemma acts_hd_le s tr r l : TB s tr -> acts tr = r :: l -> 1 <= r /\ r <= st_cur s.
Proof.
  intros HB E. assert (Hin : In r (acts tr)) by (rewrite E; now left).
  apply acts_In in Hin as [e [Hin [_ <-]]]. now apply (t_rev _ _ HB).
Qed.

Lemma LQ_activity s s' tr e :
  cfg_ok c -> TB s tr -> 1 <= st_cur s -> LQ s tr ->
  is_activity e = true -> e_rev e = st_cur s ->
  st_queue s' = record_active c s ->
  LQ s' (e :: tr).
Proof.
  intros Hc HB Hcur HL Ha Hr Eq n Hn. rewrite Eq.
  unfold record_active, immortal. rewrite Hn. rewrite (HL n Hn).
  specialize (Hc n Hn).
  destruct (N.to_nat n) as [|m] eqn:En; [lia|].
  cbn [acts]. rewrite Ha, Hr.
  assert (Hpad : pad n = REV_START :: repeat REV_START m).
  { unfold pad. rewrite En. reflexivity. }
  assert (Hlen : forall A : list rev, (S m <= length (A ++ pad n))%nat).
  { intros A. rewrite app_length. unfold pad. rewrite repeat_length. lia. }
  destruct (acts tr) as [|a A0] eqn:EA.
  - cbn [app]. rewrite Hpad.
    rewrite (record_firstn _ REV_START (repeat REV_START m) m (st_cur s) eq_refl)
      by (cbn [length]; rewrite repeat_length; lia).
    destruct (N.leb_spec (st_cur s) REV_START); [|reflexivity].
    assert (E1 : st_cur s = REV_START) by (unfold REV_START in *; lia). rewrite E1.
    change (REV_START :: REV_START :: repeat REV_START m) with (repeat REV_START (S (S m))).
    change (REV_START :: repeat REV_START m) with (repeat REV_START (S m)).
    rewrite !firstn_repeat. f_equal. lia.
  - destruct (acts_hd_le s tr a A0 HB EA) as [Ha1 Ha2].
    change ((a :: A0) ++ pad n) with (a :: (A0 ++ pad n)).
    rewrite (record_firstn _ a (A0 ++ pad n) m (st_cur s) eq_refl) by apply (Hlen (a :: A0)).
    destruct (N.eqb_spec a (st_cur s)) as [E|N0].
    + destruct (N.leb_spec (st_cur s) a); [reflexivity|lia].
    + destruct (N.leb_spec (st_cur s) a); [lia|reflexivity].
Qed.

Lemma LQ_same s s' tr e :
  LQ s tr -> is_activity e = false -> st_queue s' = st_queue s -> LQ s' (e :: tr).
Proof. intros HL Ha Eq n Hn. cbn [acts]. rewrite Ha, Eq. now apply HL. Qed.

Lemma wf_ids_tail e tr : wf_ids (e :: tr) -> wf_ids tr.
Proof. cbn [wf_ids]. tauto. Qed.

Definition silent_on (e : entry) (i : N) : Prop :=
  forall g, internsb e i g = false /\ revalidatesb e i g = false /\ dur_contrib e i g = [].

Lemma slot_hist_silent e tr i sl :
  silent_on e i -> slot_hist tr i sl -> slot_hist (e :: tr) i sl.
Proof.
  intros He [Ht Hd Hl]. destruct (He (s_gen sl)) as [Hi [Hm Hc]].
  constructor; rewrite ?touches_cons, ?dur_hist_cons, ?Hi, ?Hm, ?Hc; cbn [orb app]; auto.
  intros Hwf. eapply Hl, wf_ids_tail, Hwf.
Qed.

Lemma silent_intern r t v sp fr idx g p evs i :
  idx <> i -> silent_on (mkEntry r (OIntern t v sp fr) (RIntern idx g p) evs) i.
Proof.
  intros Hne g0. unfold internsb, revalidatesb, dur_contrib; cbn [e_op e_out].
  destruct (N.eqb_spec idx i); [contradiction|]. auto.
Qed.

Lemma silent_mca r t idx g since out evs i :
  idx <> i -> silent_on (mkEntry r (OMca t idx g since) out evs) i.
Proof.
  intros Hne g0. unfold internsb, revalidatesb, dur_contrib; cbn [e_op e_out].
  destruct (N.eqb_spec idx i); [contradiction|]. destruct out as [|[|]| | |]; auto.
Qed.

Lemma silent_idle r o out evs i :
  (forall i g p, out <> RIntern i g p) -> out <> RMca false ->
  silent_on (mkEntry r o out evs) i.
Proof.
  intros Hni Hnm g. unfold internsb, revalidatesb, dur_contrib; cbn [e_op e_out].
  destruct o; auto; destruct out as [i0 g0 p|[|]| | |]; auto;
    solve [now destruct (Hni i0 g0 p) | now destruct Hnm].
Qed.

Lemma internsb_new r t v sp fr i g p evs i0 g0 :
  internsb (mkEntry r (OIntern t v sp fr) (RIntern i g p) evs) i0 g0 = (i =? i0) && (g =? g0).
Proof. reflexivity. Qed.

Lemma revalidatesb_intern r t v sp fr out evs i0 g0 :
  revalidatesb (mkEntry r (OIntern t v sp fr) out evs) i0 g0 = false.
Proof. reflexivity. Qed.

Lemma hist_fast s tr t v sp fr idx sl evs :
  slot_hist tr idx sl ->
  slot_hist (mkEntry (st_cur s) (OIntern t v sp fr) (RIntern idx (s_gen sl) PFast) evs :: tr) idx
    (mkSlot (s_val sl) (s_gen sl) (fast_lia s sl) (fast_dur sl sp) (s_shard sl)).
Proof.
  intros [Ht Hd Hl]. destruct (fast_lia_ge s sl) as [Hl1 Hl2].
  constructor; cbn [s_gen s_lia s_dur];
    rewrite ?touches_cons, ?internsb_new, ?revalidatesb_intern, ?orb_false_r, ?N.eqb_refl;
    cbn [andb app e_rev].
  - intros r [<-|Hin]; [lia|]. specialize (Ht r Hin). lia.
  - rewrite dur_hist_cons. unfold dur_contrib; cbn [e_op e_out]. rewrite !N.eqb_refl. cbn [andb].
    rewrite list_max_app, <- Hd. unfold fast_dur.
    destruct sp; cbn [list_max fold_right]; lia.
  - intros Hwf. apply wf_ids_tail in Hwf. unfold fast_lia.
    destruct (N.ltb_spec (s_lia sl) (st_cur s)); [left; now left|].
    destruct (Hl Hwf) as [Hin|[Hm Hdur]]; [left; now right|right].
    split; [assumption|]. unfold fast_dur, D_LOW in *. destruct sp; lia.
Qed.

Lemma stamp_dur_hist sp p :
  p <> PFast ->
  list_max (match sp, p with
            | InQuery d, _ => [d]
            | Outside, PFast => []
            | Outside, _ => [DUR_MAX]
            end) = fst (stamp_vals 0 sp).
Proof. intros Hp. destruct sp, p; cbn; try congruence; lia. Qed.

(* cold path and reuse path: a handle (idx, gen) that never occurred before *)
Lemma hist_new s tr t v sp fr idx gen p evs :
  TB s tr -> st_cur s <= REV_MAX -> p <> PFast ->
  (forall e v0, In e tr -> ~ interns e v0 idx gen) ->
  slot_hist (mkEntry (st_cur s) (OIntern t v sp fr) (RIntern idx gen p) evs :: tr) idx
    (mkSlot v gen (snd (stamp_vals (st_cur s) sp)) (fst (stamp_vals (st_cur s) sp)) (shard_of v)).
Proof.
  intros HB Hmax Hp Hnew. pose proof (stamp_lia_ge s sp Hmax) as Hlia.
  constructor; cbn [s_gen s_lia s_dur];
    rewrite ?touches_cons, ?internsb_new, ?revalidatesb_intern, ?orb_false_r, ?N.eqb_refl;
    cbn [andb app e_rev].
  - intros r [<-|Hin]; [assumption|].
    apply touches_In in Hin as [e [Hin <-]]. destruct (t_rev _ _ HB _ Hin). lia.
  - rewrite dur_hist_cons. unfold dur_contrib; cbn [e_op e_out]. rewrite !N.eqb_refl. cbn [andb].
    rewrite (dur_hist_nil tr idx gen) by (intros e v0 Hin; now apply Hnew).
    rewrite app_nil_r.
    destruct sp, p; cbn [stamp_vals fst list_max fold_right]; try congruence; lia.
  - intros _. destruct sp; cbn [stamp_vals fst snd].
    + right. split; [reflexivity|]. unfold DUR_MAX, D_NEVER, D_LOW. lia.
    + left. now left.
Qed.

Lemma hist_mca s tr t idx gen since sl evs :
  TB s tr -> TD s tr -> st_slots s idx = Some sl -> s_gen sl <= gen ->
  slot_hist tr idx sl ->
  slot_hist (mkEntry (st_cur s) (OMca t idx gen since) (RMca false) evs :: tr) idx
    (mkSlot (s_val sl) (s_gen sl) (st_cur s) (s_dur sl) (s_shard sl)).
Proof.
  intros HB HD Hsl Hg [Ht Hd Hl].
  assert (Hm : forall g,
     touches (mkEntry (st_cur s) (OMca t idx gen since) (RMca false) evs :: tr) idx g =
     (if gen =? g then [st_cur s] else []) ++ touches tr idx g).
  { intros g. rewrite touches_cons. unfold internsb, revalidatesb; cbn [e_op e_out e_rev orb].
    now rewrite N.eqb_refl. }
  constructor; cbn [s_gen s_lia s_dur]; rewrite ?Hm.
  - intros r Hin. apply in_app_or in Hin as [Hin|Hin].
    + destruct (gen =? s_gen sl); [|destruct Hin]. destruct Hin as [<-|[]]. lia.
    + apply touches_In in Hin as [e [Hin <-]]. now destruct (t_rev _ _ HB _ Hin).
  - exact Hd.
  - (* the handle was returned by an earlier interning, so it is the slot's present one *)
    intros [[e0 [v0 [Hin0 Hi0]]] _]. left.
    destruct (t_den _ _ _ HD _ _ _ _ Hin0 Hi0) as [sl1 [Hs1 Hc]].
    rewrite Hsl in Hs1; inversion Hs1; subst sl1.
    assert (Eg : gen = s_gen sl) by (destruct Hc as [?|[? _]]; lia).
    rewrite Eg, N.eqb_refl. now left.
Qed.

Lemma L_step s tr o s' out evs :
  cfg_ok c -> Inv s -> TB s tr -> TD s tr -> LQ s tr -> LD s tr ->
  step shard_of c s o = (s', out, evs) ->
  LQ s' (mkEntry (st_cur s) o out evs :: tr) /\ LD s' (mkEntry (st_cur s) o out evs :: tr).
Proof.
  intros Hc HI HB HD HQ HL Hstep. pose proof HI as [[Hmin Hmax] _].
  destruct (step_spec _ _ _ _ _ _ _ HI Hstep) as [Hres _].
  pose proof (step_res_queue _ _ _ _ _ _ (st_cur s) evs Hres) as Eq.
  split.
  - destruct (is_activity _) eqn:Ha; [eapply LQ_activity|eapply LQ_same]; eauto.
  - intros i sl' Hs'.
    destruct Hres as [t v sp fr idx sl Hf Hsl _ _ _ Eslots
                     |t v sp fr Hf Hfr _ _ _ Eslots
                     |t v sp fr idx sl Hf _ Hsl _ _ _ _ _ Eslots
                     |t idx gen since sl Hsl Hg _ _ _ Eslots
                     |o out _ _ _ Eslots Hni Hnm _
                     |_ _ _ Eslots]; rewrite Eslots in Hs'.
    + apply updN_Some in Hs' as [[<- <-]|[Hne Hs']];
        [apply hist_fast|apply slot_hist_silent; [apply silent_intern|]]; auto.
    + apply updN_Some in Hs' as [[<- <-]|[Hne Hs']];
        [apply hist_new|apply slot_hist_silent; [apply silent_intern|]]; auto; [discriminate|].
      intros e v0 Hine Hi. destruct (t_den _ _ _ HD _ _ _ _ Hine Hi) as [sl1 [Hs1 _]]. congruence.
    + apply updN_Some in Hs' as [[<- <-]|[Hne Hs']];
        [apply hist_new|apply slot_hist_silent; [apply silent_intern|]]; auto; [discriminate|].
      intros e v0 Hine Hi. destruct (t_den _ _ _ HD _ _ _ _ Hine Hi) as [sl1 [Hs1 Hc1]].
      rewrite Hsl in Hs1; inversion Hs1; subst sl1. lia.
    + apply updN_Some in Hs' as [[<- <-]|[Hne Hs']];
        [apply hist_mca|apply slot_hist_silent; [apply silent_mca|]]; auto.
    + apply slot_hist_silent; [now apply silent_idle|auto].
    + apply slot_hist_silent; [apply silent_idle; discriminate|auto].
Qed.

Lemma exec_rev_L : cfg_ok c -> forall rops s tr,
  exec_rev shard_of c rops = (s, tr) -> LQ s tr /\ LD s tr.
Proof.
  intros Hc. apply (exec_rev_ind shard_of c (fun s tr => LQ s tr /\ LD s tr)).
  - split; [apply LQ_init|apply LD_init].
  - intros r o s0 tr0 s1 out evs E0 [HQ HL] Es.
    destruct (exec_rev_all shard_of c Hc _ _ _ E0) as [HI [HB HD]]. eapply L_step; eauto.
Qed.

(* Handle (idx, gen) may be reclaimed, as a function of the history only:
   the type is collectable, every interning recorded LOW durability, at least REVISIONS
   distinct revisions used the type, and the handle was neither interned nor
   revalidated in any of the REVISIONS most recent of them. *)
Definition collectable (tr : list entry) (idx gen : N) : Prop :=
  exists n o,
    c_revisions c = Some n /\
    Forall (fun d => d = D_LOW) (dur_hist tr idx gen) /\
    nth_error (acts tr) (N.to_nat n - 1) = Some o /\
    Forall (fun r => r < o) (touches tr idx gen).

(* the oldest entry of the queue is the REVISIONS-th newest active revision, once there
   have been that many *)
Lemma LQ_oldest s tr n o :
  cfg_ok c -> c_revisions c = Some n -> LQ s tr -> o <> REV_START ->
  (rq_last (st_queue s) = Some o <-> nth_error (acts tr) (N.to_nat n - 1) = Some o).
Proof.
  intros Hc Hn HQ Ho. rewrite (HQ n Hn). specialize (Hc n Hn).
  destruct (N.to_nat n) as [|m] eqn:En; [lia|].
  replace (S m - 1)%nat with m by lia.
  rewrite rq_last_firstn
    by (rewrite app_length; unfold pad; rewrite repeat_length; lia).
  split; [intros H; eapply nth_error_app_pad; eauto|].
  intros H. rewrite nth_error_app1; [assumption|]. apply nth_error_Some. congruence.
Qed.

Lemma stale_decl s tr n r :
  cfg_ok c -> c_revisions c = Some n -> LQ s tr -> 1 <= r ->
  (rq_is_stale (st_queue s) r = true <->
   exists o, nth_error (acts tr) (N.to_nat n - 1) = Some o /\ r < o).
Proof.
  intros Hc Hn HQ Hr. rewrite rq_is_stale_true.
  split; [intros [o [Ho [Hne Hlt]]]|intros [o [Ho Hlt]]]; exists o.
  - split; [|assumption]. now apply (LQ_oldest s tr n o Hc Hn HQ Hne).
  - assert (Hne : o <> REV_START) by (unfold REV_START; lia).
    repeat split; auto. now apply (LQ_oldest s tr n o Hc Hn HQ Hne).
Qed.

Lemma primed_decl s tr n :
  cfg_ok c -> c_revisions c = Some n -> LQ s tr ->
  rq_is_primed (st_queue s) = true ->
  exists o, nth_error (acts tr) (N.to_nat n - 1) = Some o /\ REV_START < o.
Proof.
  intros Hc Hn HQ. rewrite rq_is_primed_true.
  intros [o [Ho Hlt]]. exists o. split; [|assumption].
  apply (LQ_oldest s tr n o Hc Hn HQ); [lia|assumption].
Qed.

(* v is held by slot idx at generation g, and the slot can never be reclaimed *)
Definition pinned_at (s : st) (v : val) (idx g : N) : Prop :=
  exists sl, held shard_of s v idx g sl /\ reusable (immortal c) (s_dur sl) = false.

Lemma pinned_step s o s' out evs v idx g :
  Inv s -> step shard_of c s o = (s', out, evs) ->
  pinned_at s v idx g ->
  pinned_at s' v idx g /\
  (forall t sp fr, o = OIntern t v sp fr -> out = RIntern idx g PFast).
Proof.
  intros HI Hstep [sl [Hh Hnr]].
  destruct (step_spec _ _ _ _ _ _ _ HI Hstep) as [Hres _].
  (* the slot is not reusable, so it keeps its handle *)
  destruct (held_step _ _ _ _ _ _ _ _ _ _ HI Hres Hh) as [[sl' [Hh' [_ Hd]]] Hret];
    [intros [_ Hr]; congruence|].
  split; [|exact Hret]. exists sl'. split; [assumption|].
  revert Hnr. unfold reusable, D_LOW. destruct (immortal c); [auto|].
  rewrite !N.eqb_neq. lia.
Qed.

(* continuation of a run *)
Lemma exec_rev_app rops' : forall rops s tr s' tr',
  exec_rev shard_of c rops = (s, tr) ->
  exec_rev shard_of c (rops' ++ rops) = (s', tr') ->
  exists seg, tr' = seg ++ tr.
Proof.
  intros rops s tr s' tr' E.
  apply (exec_rev_app_ind shard_of c (fun _ tr' => exists seg, tr' = seg ++ tr) _ _ _ E);
    [now exists []|].
  intros r o s0 tr0 s1 out evs _ [seg ->] _. now eexists (_ :: seg).
Qed.

Lemma pinned_forever : cfg_ok c -> forall rops' rops s tr s' tr' v idx g,
  exec_rev shard_of c rops = (s, tr) ->
  exec_rev shard_of c (rops' ++ rops) = (s', tr') ->
  pinned_at s v idx g ->
  pinned_at s' v idx g /\
  exists seg, tr' = seg ++ tr /\
    forall e t sp fr, In e seg -> e_op e = OIntern t v sp fr -> e_out e = RIntern idx g PFast.
Proof.
  intros Hc rops' rops s tr s' tr' v idx g E E' Hp. revert rops' s' tr' E'.
  apply (exec_rev_app_ind shard_of c _ _ _ _ E).
  - split; [assumption|]. exists []. split; [reflexivity|]. intros e ? ? ? [].
  - intros r o s0 tr0 s1 out evs E0 [Hp0 [seg [-> Hall]]] Es.
    pose proof (exec_rev_Inv shard_of c Hc _ _ _ E0) as HI0.
    destruct (pinned_step _ _ _ _ _ _ _ _ HI0 Es Hp0) as [Hp1 Hret].
    split; [assumption|].
    eexists (_ :: seg). split; [reflexivity|].
    intros e t sp fr [<-|Hin] Eo; [cbn [e_op e_out] in *; eauto|eauto].
Qed.

End Ret.
