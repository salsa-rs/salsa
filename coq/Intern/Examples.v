(* Intern/Examples.v — non-vacuity witnesses for the hypotheses of the C08/C09
   theorems (concrete runs in which reuse fires, a HIGH-durability interning pins, an
   immortal type never reclaims, a revalidation refreshes, a slot at the maximum
   generation is leaked), and the two refutations found while proving:
     - kept_revisions1_refuted: with REVISIONS = 1 a value interned in every revision
       does NOT keep its identity;
     - outside_fast_path_does_not_pin: interning an already interned value outside any
       query does not pin it. *)
From Salsa Require Import Base.
From Salsa.Intern Require Import RetK Model ProofsBase ProofsInv ProofsStep ProofsTrace
  ProofsRet Theorems.

Local Open Scope N_scope.

Definition sh0 (v : val) : N := 0.            (* every value collides *)
Definition sh4 (v : val) : N := v mod 4.

Definition c1 := rust_cfg (Some 1).
Definition c2 := rust_cfg (Some 2).
Definition c3 := rust_cfg (Some 3).
Definition cimm := rust_cfg None.
Definition low := InQuery D_LOW.
Definition high := InQuery D_HIGH.

Definition outs (sh : val -> N) (c : cfg) (ops : list op) : list outcome :=
  map e_out (List.rev (snd (run sh c ops))).

Lemma cfg_ok_rust n : 1 <= n -> cfg_ok (rust_cfg (Some n)).
Proof. intros H m E. cbn in E. inversion E; now subst. Qed.

Lemma cfg_ok_imm : cfg_ok cimm.
Proof. intros m E. discriminate. Qed.

Definition ops_reuse : list op :=
  [OIntern 0 10 low 100; ONewRev; OIntern 1 11 low 101; ONewRev; OIntern 0 12 low 102].

Example ex_reuse_fires :
  outs sh0 c2 ops_reuse =
  [RIntern 100 0 PCold; RNewRev; RIntern 101 0 PCold; RNewRev; RIntern 100 1 PReuse].
Proof. vm_compute. reflexivity. Qed.

Example ex_reuse_events :
  e_evs (hd (mkEntry 0 ONewRev RBad []) (snd (run sh0 c2 ops_reuse))) =
  [EvEdge 100 1 0; EvClearMemos 100 0; EvReuse 100 1 3].
Proof. vm_compute. reflexivity. Qed.

(* the hypotheses of only_if / primed are satisfiable *)
Example ex_only_if_hyp :
  let s := fst (run sh0 c2 (firstn 4 ops_reuse)) in
  snd (fst (step sh0 c2 s (OIntern 0 12 low 102))) = RIntern 100 1 PReuse.
Proof. vm_compute. reflexivity. Qed.

(* reuse only looks in the shard of the NEW value *)
Example ex_reuse_is_per_shard :
  outs sh4 c1 [OIntern 0 4 low 100; ONewRev; OIntern 0 5 low 101; ONewRev;
               OIntern 0 9 low 102; OIntern 0 8 low 103] =
  [RIntern 100 0 PCold; RNewRev; RIntern 101 0 PCold; RNewRev;
   RIntern 101 1 PReuse; RIntern 100 1 PReuse].
Proof. vm_compute. reflexivity. Qed.

Definition ops_high : list op :=
  [OIntern 0 10 high 100; ONewRev; OIntern 0 11 low 101; ONewRev; OIntern 0 12 low 102;
   ONewRev; OIntern 0 13 low 103; ONewRev; OIntern 0 14 low 104; OIntern 0 10 low 105].

Example ex_high_pins :
  outs sh0 c1 ops_high =
  [RIntern 100 0 PCold; RNewRev; RIntern 101 0 PCold; RNewRev; RIntern 101 1 PReuse;
   RNewRev; RIntern 101 2 PReuse; RNewRev; RIntern 101 3 PReuse; RIntern 100 0 PFast].
Proof. vm_compute. reflexivity. Qed.

(* a LOW interning that is later joined by a HIGH one is pinned from then on *)
Example ex_raise_pins :
  outs sh0 c1 [OIntern 0 10 low 100; OIntern 1 10 high 999; ONewRev; OIntern 0 11 low 101;
               ONewRev; OIntern 0 12 low 102] =
  [RIntern 100 0 PCold; RIntern 100 0 PFast; RNewRev; RIntern 101 0 PCold; RNewRev;
   RIntern 101 1 PReuse].
Proof. vm_compute. reflexivity. Qed.

(* a query that interns before reading anything has durability NEVER; interning a new
   value outside any query has Durability::MAX and last_interned_at = Revision::max() *)
Example ex_outside_cold_pins :
  outs sh0 c1 [OIntern 0 10 Outside 100; ONewRev; OIntern 0 11 low 101; ONewRev;
               OIntern 0 12 low 102] =
  [RIntern 100 0 PCold; RNewRev; RIntern 101 0 PCold; RNewRev; RIntern 101 1 PReuse].
Proof. vm_compute. reflexivity. Qed.

Example ex_forever_hyp :
  exists s tr idx sl,
    run sh0 c1 (firstn 1 ops_high) = (s, tr) /\
    key_find 10 (st_keys s (sh0 10)) = Some idx /\ st_slots s idx = Some sl /\
    s_dur sl <> D_LOW.
Proof.
  exists (fst (run sh0 c1 (firstn 1 ops_high))), (snd (run sh0 c1 (firstn 1 ops_high))),
         100, (mkSlot 10 0 1 2 0).
  split; [apply surjective_pairing|]. repeat split; try (vm_compute; reflexivity).
  vm_compute. discriminate.
Qed.

Example ex_immortal :
  outs sh0 cimm [OIntern 0 10 low 100; ONewRev; OIntern 0 11 low 101; ONewRev;
                 OIntern 0 12 low 102; ONewRev; OIntern 0 13 low 103; OIntern 0 10 low 104] =
  [RIntern 100 0 PCold; RNewRev; RIntern 101 0 PCold; RNewRev; RIntern 102 0 PCold; RNewRev;
   RIntern 103 0 PCold; RIntern 100 0 PFast].
Proof. vm_compute. reflexivity. Qed.

Example ex_mca_refresh :
  outs sh0 c1 [OIntern 0 10 low 100; ONewRev; OMca 0 100 0 1; OIntern 0 11 low 101;
               ORead 0 100; ONewRev; OIntern 0 12 low 102; OMca 0 100 0 2] =
  [RIntern 100 0 PCold; RNewRev; RMca false; RIntern 101 0 PCold; RRead 10 true; RNewRev;
   RIntern 100 1 PReuse; RMca true].
Proof. vm_compute. reflexivity. Qed.

(* bursts of revisions in which the type is not used do not age anything *)
Example ex_empty_revisions :
  outs sh0 c2 [OIntern 0 10 low 100; ONewRev; ONewRev; ONewRev; ONewRev;
               OIntern 0 11 low 101; ONewRev; ONewRev; OIntern 0 12 low 102] =
  [RIntern 100 0 PCold; RNewRev; RNewRev; RNewRev; RNewRev; RIntern 101 0 PCold;
   RNewRev; RNewRev; RIntern 100 1 PReuse].
Proof. vm_compute. reflexivity. Qed.

Example ex_queue :
  st_queue (fst (run sh0 c3 [OIntern 0 10 low 100; ONewRev; ONewRev; OIntern 0 11 low 101;
                             ONewRev; ONewRev; ONewRev; OMca 0 100 0 1])) = [6; 3; 1]
  /\ acts (snd (run sh0 c3 [OIntern 0 10 low 100; ONewRev; ONewRev; OIntern 0 11 low 101;
                            ONewRev; ONewRev; ONewRev; OMca 0 100 0 1])) = [6; 3; 1].
Proof. split; vm_compute; reflexivity. Qed.

Example ex_canonical :
  outs sh4 c3 [OIntern 0 1 low 100; OIntern 1 2 high 101; OIntern 2 1 Outside 102;
               OIntern 3 5 low 103; OIntern 1 2 low 104] =
  [RIntern 100 0 PCold; RIntern 101 0 PCold; RIntern 100 0 PFast; RIntern 103 0 PCold;
   RIntern 101 0 PFast].
Proof. vm_compute. reflexivity. Qed.

Example ex_readback_hyp :
  let tr := snd (run sh0 c1 [OIntern 0 10 low 100; ONewRev; OMca 0 100 0 1]) in
  current_handle tr 2 10 100 0.
Proof.
  cbv zeta. exists (mkEntry 2 (OMca 0 100 0 1) (RMca false) [EvValidate 100 0 2]).
  split; [vm_compute; now left|]. split; [reflexivity|]. right. split.
  - exists 0, 1. split; reflexivity.
  - exists (mkEntry 1 (OIntern 0 10 low 100) (RIntern 100 0 PCold)
              [EvEdge 100 0 0; EvIntern 100 0 1]).
    split; [vm_compute; auto|]. exists 0, low, 100, PCold. split; reflexivity.
Qed.

Definition cleak := mkCfg (Some 1) 1.    (* generations overflow at 1 instead of u32::MAX *)

Definition ops_leak : list op :=
  [OIntern 0 10 low 100; ONewRev; OIntern 0 11 low 101; ONewRev; OIntern 0 12 low 102;
   ONewRev; OIntern 0 13 low 103].

Example ex_leak :
  outs sh0 cleak ops_leak =
  [RIntern 100 0 PCold; RNewRev; RIntern 100 1 PReuse; RNewRev; RIntern 102 0 PCold; RNewRev;
   RIntern 102 1 PReuse]
  /\ e_evs (nth 2 (snd (run sh0 cleak ops_leak)) (mkEntry 0 ONewRev RBad [])) =
     [EvLeak 100; EvEdge 102 0 0; EvIntern 102 0 3].
Proof. split; vm_compute; reflexivity. Qed.

(* Re-interning the value held by a leaked slot in a later revision goes through the
   fast path, which unlinks the slot from the LRU although it is not linked: the ghost
   flag st_ub records that (intrusive_collections' `CursorMut::remove` on an unlinked
   link).  Reachable only after u32::MAX reuses of one slot. *)
Example ex_leak_unlinked_remove :
  st_ub (fst (run sh0 cleak [OIntern 0 10 low 100; ONewRev; OIntern 0 11 low 101; ONewRev;
                            OIntern 0 12 low 102; ONewRev; OIntern 0 11 low 103])) = true.
Proof. vm_compute. reflexivity. Qed.

Definition kept_statement (c : cfg) (ops : list op) (differ : bool) : Prop :=
  exists s tr post e2 seg e1 old v i1 g1 i2 g2,
    cfg_ok c /\ run sh0 c ops = (s, tr) /\
    tr = post ++ e2 :: seg ++ e1 :: old /\
    interns e1 v i1 g1 /\ interns e2 v i2 g2 /\
    (forall e, In e (e2 :: seg) -> is_activity e = true ->
       exists e' i g, In e' (e2 :: seg ++ [e1]) /\ interns e' v i g /\ e_rev e' = e_rev e) /\
    if differ then (i2, g2) <> (i1, g1) else (i2, g2) = (i1, g1).

Ltac solve_interns := do 4 eexists; split; reflexivity.

(* the covering hypothesis of `kept`, as a computation *)
Definition covers (v : val) (all part : list entry) : bool :=
  forallb (fun e => negb (is_activity e) ||
     existsb (fun e' => match e_op e', e_out e' with
                        | OIntern _ v' _ _, RIntern _ _ _ => (v' =? v) && (e_rev e' =? e_rev e)
                        | _, _ => false
                        end) all) part.

Lemma covers_sound v all part :
  covers v all part = true ->
  forall e, In e part -> is_activity e = true ->
    exists e' i g, In e' all /\ interns e' v i g /\ e_rev e' = e_rev e.
Proof.
  unfold covers. rewrite forallb_forall. intros H e Hin Ha.
  specialize (H e Hin). rewrite Ha in H. apply existsb_exists in H as [e' [Hin' H]].
  destruct (e_op e') as [t v' sp fr| | |] eqn:Eo; try discriminate.
  destruct (e_out e') as [i g p| | | |] eqn:Eout; try discriminate.
  apply andb_true_iff in H as [Hv Hr]. apply N.eqb_eq in Hv, Hr. subst v'.
  exists e', i, g. split; [assumption|]. split; [|assumption]. now exists t, sp, fr, p.
Qed.

(* value 10 is interned in every revision in which the type is used; 11, 12, 13 are not *)
Definition ops_kept : list op :=
  [OIntern 0 10 low 100; OIntern 0 11 low 101; ONewRev;
   OIntern 0 12 low 102; OIntern 0 10 low 900; ONewRev;
   OIntern 0 13 low 103; OIntern 0 10 low 901].

Example ex_kept_outs :
  outs sh0 c2 ops_kept =
  [RIntern 100 0 PCold; RIntern 101 0 PCold; RNewRev; RIntern 102 0 PCold;
   RIntern 100 0 PFast; RNewRev; RIntern 101 1 PReuse; RIntern 100 0 PFast].
Proof. vm_compute. reflexivity. Qed.

(* REVISIONS = 2: the hypotheses of `kept` hold in a run in which another value is
   reclaimed, and the conclusion holds *)
Example ex_kept_hyp : kept_statement c2 ops_kept false.
Proof.
  pose (tr := snd (run sh0 c2 ops_kept)). pose (d := mkEntry 0 ONewRev RBad []).
  exists (fst (run sh0 c2 ops_kept)), tr, [], (hd d tr), (removelast (tl tr)), (last tr d), [],
         10, 100, 0, 100, 0.
  split; [apply cfg_ok_rust; lia|]. split; [apply surjective_pairing|].
  split; [vm_compute; reflexivity|].
  split; [vm_compute; solve_interns|]. split; [vm_compute; solve_interns|].
  split; [|reflexivity]. apply covers_sound. vm_compute. reflexivity.
Qed.

(* REVISIONS = 1: value 10 is interned in every revision in which the type is used and
   still loses its identity — its slot is taken by value 11 in revision 2 before 10 is
   interned again in revision 2 (with one recorded revision, "stale" means "not yet
   interned in the current revision"). *)
Definition ops_kept1 : list op :=
  [OIntern 0 10 low 100; ONewRev; OIntern 0 11 low 101; OIntern 0 10 low 102].

Example ex_kept1_outs :
  outs sh0 c1 ops_kept1 =
  [RIntern 100 0 PCold; RNewRev; RIntern 100 1 PReuse; RIntern 102 0 PCold].
Proof. vm_compute. reflexivity. Qed.

Theorem kept_revisions1_refuted : kept_statement c1 ops_kept1 true.
Proof.
  pose (tr := snd (run sh0 c1 ops_kept1)). pose (d := mkEntry 0 ONewRev RBad []).
  exists (fst (run sh0 c1 ops_kept1)), tr, [], (hd d tr), (removelast (tl tr)), (last tr d), [],
         10, 100, 0, 102, 0.
  split; [apply cfg_ok_rust; lia|]. split; [apply surjective_pairing|].
  split; [vm_compute; reflexivity|].
  split; [vm_compute; solve_interns|]. split; [vm_compute; solve_interns|].
  split; [|discriminate]. apply covers_sound. vm_compute. reflexivity.
Qed.

(* "interning outside any query pins the value" is true only when that interning
   creates the slot (cold / reuse path).  On the fast path an interning outside any
   query leaves the recorded durability alone: a value first interned by a LOW query,
   then interned again outside any query, is reclaimed as usual. *)
Definition ops_outside_fast : list op :=
  [OIntern 0 10 low 100; OIntern 0 10 Outside 999; ONewRev; OIntern 0 11 low 101].

Theorem outside_fast_path_does_not_pin :
  outs sh0 c1 ops_outside_fast =
  [RIntern 100 0 PCold; RIntern 100 0 PFast; RNewRev; RIntern 100 1 PReuse].
Proof. vm_compute. reflexivity. Qed.

(* the reuse of ops_reuse, cut inside `clear_memos` (DidDiscard) or in the DidReuse
   callback: the slot already carries the new value, the new generation and the new stamp,
   exactly as after the completed call (hypothesis of cut_commit_state) *)
Example ex_cut_reuse_commit :
  let s := fst (run sh0 c2 (firstn 4 ops_reuse)) in
  let '(s', out, _) := intern_cut sh0 c2 s 12 low 102 CutCallback in
  out = RIntern 100 1 PReuse /\
  option_map (fun sl => (s_val sl, s_gen sl, s_lia sl)) (st_slots s' 100) = Some (12, 1, 3) /\
  st_keys s' 0 = [(12, 100); (11, 101)] /\ st_lru s' 0 = [100; 101] /\
  s' = fst (fst (step sh0 c2 s (OIntern 0 12 low 102))).
Proof. vm_compute. repeat split; reflexivity. Qed.

(* the fast path cut in the DidValidateInternedValue callback: the stamp is refreshed, the
   LRU position is not (101 stays in front), the durability is not raised -- the state of a
   revalidation (cut_callback_is_step, second alternative) *)
Example ex_cut_fast_is_revalidation :
  let s := fst (run sh0 c2 (firstn 4 ops_reuse)) in
  let '(s', out, evs) := intern_cut sh0 c2 s 10 high 999 CutCallback in
  out = RIntern 100 0 PFast /\ evs = [EvValidate 100 0 3] /\
  option_map (fun sl => (s_lia sl, s_dur sl)) (st_slots s' 100) = Some (3, D_LOW) /\
  st_lru s' 0 = [101; 100] /\
  st_lru (fst (fst (step sh0 c2 s (OIntern 0 10 high 999)))) 0 = [101] /\
  s' = fst (fst (step sh0 c2 s (OMca 0 100 0 0))).
Proof. vm_compute. repeat split; reflexivity. Qed.

(* cut before the commit point (user Hash / Eq / assemble): only the revision queue moved *)
Example ex_cut_early :
  let s := fst (run sh0 c2 (firstn 4 ops_reuse)) in
  let s' := fst (fst (intern_cut sh0 c2 s 12 low 102 CutEarly)) in
  st_queue s = [2; 1] /\ st_queue s' = [3; 2] /\ st_keys s' 0 = st_keys s 0 /\
  st_lru s' 0 = st_lru s 0.
Proof. vm_compute. repeat split; reflexivity. Qed.
