(* Intern/Theorems.v — the statements about whole runs (arbitrary operation
   sequences, arbitrary shard function, arbitrary REVISIONS) that Props/C08.v and
   Props/C09.v re-export. *)
From Salsa Require Import Base.
From Salsa.Intern Require Import RetK Model ProofsBase ProofsInv ProofsStep ProofsTrace ProofsRet.

Local Open Scope N_scope.

Section Theorems.
Variable shard_of : val -> N.
Variable c : cfg.

Lemma run_all ops s tr :
  cfg_ok c -> run shard_of c ops = (s, tr) ->
  Inv shard_of c s /\ TB s tr /\ TD shard_of s tr /\ LQ c s tr /\ LD s tr.
Proof.
  intros Hc H. unfold run in H.
  destruct (exec_rev_all shard_of c Hc _ _ _ H) as [HI [HB HD]].
  destruct (exec_rev_L shard_of c Hc _ _ _ H) as [HQ HL]. auto.
Qed.

Theorem invariant ops s tr :
  cfg_ok c -> run shard_of c ops = (s, tr) -> Inv shard_of c s.
Proof. intros Hc H. exact (run_Inv shard_of c Hc _ _ _ H). Qed.

Theorem canonical ops s tr :
  cfg_ok c -> run shard_of c ops = (s, tr) ->
  forall e1 e2 v1 i1 g1 v2 i2 g2,
    In e1 tr -> In e2 tr -> interns e1 v1 i1 g1 -> interns e2 v2 i2 g2 ->
    e_rev e1 = e_rev e2 ->
    ((i1, g1) = (i2, g2) <-> v1 = v2).
Proof.
  intros Hc H e1 e2 v1 i1 g1 v2 i2 g2 H1 H2 I1 I2 Er.
  destruct (exec_rev_canonical shard_of c Hc _ _ _ H e1 e2 v1 i1 g1 v2 i2 g2 H1 H2 I1 I2)
    as [A B].
  split; auto.
Qed.

(* a handle denotes one value for ever, across revisions *)
Theorem handle_value ops s tr :
  cfg_ok c -> run shard_of c ops = (s, tr) ->
  forall e1 e2 v1 v2 i g,
    In e1 tr -> In e2 tr -> interns e1 v1 i g -> interns e2 v2 i g -> v1 = v2.
Proof.
  intros Hc H e1 e2 v1 v2 i g H1 H2 I1 I2.
  destruct (exec_rev_canonical shard_of c Hc _ _ _ H e1 e2 v1 i g v2 i g H1 H2 I1 I2)
    as [A _]. auto.
Qed.

Theorem readback ops s tr :
  cfg_ok c -> run shard_of c ops = (s, tr) ->
  forall v idx gen t,
    current_handle tr (st_cur s) v idx gen ->
    step shard_of c s (ORead t idx) = (s, RRead v true, []).
Proof.
  intros Hc H v idx gen t Hcur.
  destruct (run_all _ _ _ Hc H) as [_ [_ [HD _]]].
  destruct (readback_state shard_of s tr v idx gen HD Hcur) as [sl [Hsl [Hv [_ Hl]]]].
  cbn [step]. unfold read_fields. rewrite Hsl, Hv.
  destruct (N.leb_spec (st_cur s) (s_lia sl)); [|lia].
  now rewrite orb_true_r.
Qed.

Theorem kept ops s tr :
  cfg_ok c -> c_revisions c <> Some 1 -> run shard_of c ops = (s, tr) ->
  forall post e2 seg e1 old v i1 g1 i2 g2,
    tr = post ++ e2 :: seg ++ e1 :: old ->
    interns e1 v i1 g1 -> interns e2 v i2 g2 ->
    (forall e, In e (e2 :: seg) -> is_activity e = true ->
       exists e' i g, In e' (e2 :: seg ++ [e1]) /\ interns e' v i g /\ e_rev e' = e_rev e) ->
    (i2, g2) = (i1, g1).
Proof.
  intros Hc Hne H post e2 seg e1 old v i1 g1 i2 g2 Etr I1 I2 Hcov.
  unfold run in H.
  destruct (exec_rev_suffix shard_of c _ _ _ post (e2 :: seg ++ e1 :: old) H Etr)
    as [rops' [s' H']].
  destruct (kept_segment shard_of c Hc Hne rops' s' _ H' (e2 :: seg) e1 old v i1 g1
              eq_refl I1) as [_ Hall].
  { intros e Hin Ha _. now apply Hcov. }
  destruct (Hall e2 i2 g2 (or_introl eq_refl) I2) as [-> ->]. reflexivity.
Qed.

Theorem only_if ops s tr t v sp fr s' idx g evs :
  cfg_ok c -> run shard_of c ops = (s, tr) ->
  step shard_of c s (OIntern t v sp fr) = (s', RIntern idx g PReuse, evs) ->
  exists sl n o,
    st_slots s idx = Some sl /\ g = s_gen sl + 1 /\ s_val sl <> v /\
    s_dur sl = D_LOW /\ c_revisions c = Some n /\
    rq_is_primed (st_queue s') = true /\
    rq_last (st_queue s') = Some o /\ s_lia sl < o /\
    Forall (fun d => d = D_LOW) (dur_hist tr idx (s_gen sl)) /\
    nth_error (acts (mkEntry (st_cur s) (OIntern t v sp fr) (RIntern idx g PReuse) evs :: tr))
              (N.to_nat n - 1) = Some o /\
    Forall (fun r => r < o) (touches tr idx (s_gen sl)).
Proof.
  intros Hc H Hstep. destruct (run_all _ _ _ Hc H) as [HI [HB [HD [HQ HL]]]].
  destruct (L_step shard_of c _ _ _ _ _ _ Hc HI HB HD HQ HL Hstep) as [HQ' _].
  pose proof HI as [_ [HS _]].
  destruct (step_spec shard_of c _ _ _ _ _ HI Hstep) as [Hres HI'].
  inversion Hres as [| |? ? ? ? idx0 sl Hf Hin Hsl Hpr Hst Ecur Eq Ekeys Eslots| |? ? _ _ _ _ Hno|];
    subst; [|now destruct (Hno idx g PReuse)].
  destruct (si_lru_slot _ _ s HS _ _ Hin) as [sl1 [Hs1 [Hsh Hr]]].
  rewrite Hsl in Hs1; inversion Hs1; subst sl1; clear Hs1.
  unfold reusable, immortal in Hr.
  destruct (c_revisions c) as [n|] eqn:En; [|discriminate]. apply N.eqb_eq in Hr.
  rewrite <- Eq in Hst, Hpr.
  apply rq_is_stale_true in Hst as [o [Ho [Hne Hlo]]].
  exists sl, n, o. repeat split; auto.
  - intros Ev. pose proof (si_slot_key _ _ s HS _ _ Hsl) as Hk.
    rewrite Hsh, Ev in Hk. eapply key_find_None; eauto.
  - apply list_max_zero. rewrite <- (h_dur _ _ _ (HL _ _ Hsl)). exact Hr.
  - now apply (LQ_oldest c s' _ n o Hc En HQ' Hne).
  - apply Forall_forall. intros r Hr'. pose proof (h_touch _ _ _ (HL _ _ Hsl) r Hr'). lia.
Qed.

Theorem primed ops s tr t v sp fr s' idx g evs :
  cfg_ok c -> run shard_of c ops = (s, tr) ->
  step shard_of c s (OIntern t v sp fr) = (s', RIntern idx g PReuse, evs) ->
  exists n, c_revisions c = Some n /\
    (N.to_nat n <=
     length (acts (mkEntry (st_cur s) (OIntern t v sp fr) (RIntern idx g PReuse) evs :: tr)))%nat.
Proof.
  intros Hc H Hstep.
  destruct (only_if _ _ _ _ _ _ _ _ _ _ _ Hc H Hstep)
    as [sl [n [o [_ [_ [_ [_ [Hn [_ [_ [_ [_ [Hnth _]]]]]]]]]]]]].
  exists n. split; [assumption|].
  assert (Hlt : (N.to_nat n - 1 < length
     (acts (mkEntry (st_cur s) (OIntern t v sp fr) (RIntern idx g PReuse) evs :: tr)))%nat).
  { apply nth_error_Some. congruence. }
  specialize (Hc n Hn). lia.
Qed.

Theorem forever ops s tr :
  cfg_ok c -> run shard_of c ops = (s, tr) ->
  forall v idx sl,
    key_find v (st_keys s (shard_of v)) = Some idx -> st_slots s idx = Some sl ->
    (c_revisions c = None \/ s_dur sl <> D_LOW) ->
    forall ops' s' tr', run shard_of c (ops ++ ops') = (s', tr') ->
      (exists sl', st_slots s' idx = Some sl' /\ s_gen sl' = s_gen sl /\ s_val sl' = v /\
                   key_find v (st_keys s' (shard_of v)) = Some idx) /\
      exists seg, tr' = seg ++ tr /\
        forall e t sp fr, In e seg -> e_op e = OIntern t v sp fr ->
                          e_out e = RIntern idx (s_gen sl) PFast.
Proof.
  intros Hc H v idx sl Hk Hsl Hpin ops' s' tr' H'.
  destruct (run_all _ _ _ Hc H) as [[_ [HS _]] _].
  assert (Hp : pinned_at shard_of c s v idx (s_gen sl)).
  { exists sl. split; [repeat split; auto|].
    - destruct (si_key_slot _ _ s HS _ _ _ (key_find_In _ _ _ Hk)) as [sl0 [Hs0 [Hv _]]].
      congruence.
    - unfold reusable, immortal, D_LOW in *. destruct Hpin as [->|Hd]; [reflexivity|].
      destruct (c_revisions c); [now apply N.eqb_neq|reflexivity]. }
  unfold run in *. rewrite rev_app_distr in H'.
  destruct (pinned_forever shard_of c Hc _ _ _ _ _ _ _ _ _ H H' Hp)
    as [[sl' [[Hs' [Hg' [Hv' Hk']]] _]] Hseg].
  split; [eauto 8|assumption].
Qed.

(* the declarative retention rule is the queue mechanics *)
Theorem retention_rule ops s tr :
  cfg_ok c -> run shard_of c ops = (s, tr) -> wf_ids tr ->
  forall idx sl, st_slots s idx = Some sl ->
    (reusable (immortal c) (s_dur sl) && rq_is_stale (st_queue s) (s_lia sl) = true
     <-> collectable c tr idx (s_gen sl)).
Proof.
  intros Hc H Hwf idx sl Hsl. destruct (run_all _ _ _ Hc H) as [[_ [HS _]] [_ [_ [HQ HL]]]].
  destruct (si_lia _ _ s HS _ _ Hsl) as [Hl1 _].
  rewrite andb_true_iff. unfold reusable, immortal, collectable. split.
  - intros [Hr Hst]. destruct (c_revisions c) as [n|] eqn:En; [|discriminate].
    apply N.eqb_eq in Hr.
    apply (stale_decl c s tr n _ Hc En HQ Hl1) in Hst as [o [Ho Hlt]].
    exists n, o. repeat split; auto.
    + apply list_max_zero. rewrite <- (h_dur _ _ _ (HL _ _ Hsl)). exact Hr.
    + apply Forall_forall. intros r Hin. pose proof (h_touch _ _ _ (HL _ _ Hsl) r Hin). lia.
  - intros [n [o [En [Hd [Ho Ht]]]]]. rewrite En. split.
    + apply N.eqb_eq. rewrite (h_dur _ _ _ (HL _ _ Hsl)). now apply list_max_zero.
    + apply (stale_decl c s tr n _ Hc En HQ Hl1). exists o. split; [assumption|].
      destruct (h_lia _ _ _ (HL _ _ Hsl) Hwf) as [Hin|[_ Hdur]].
      * rewrite Forall_forall in Ht. now apply Ht.
      * exfalso. apply Hdur. rewrite (h_dur _ _ _ (HL _ _ Hsl)). now apply list_max_zero.
Qed.

(* the recorded durability is the maximum over the handle's interning history *)
Theorem durability_decl ops s tr :
  cfg_ok c -> run shard_of c ops = (s, tr) ->
  forall idx sl, st_slots s idx = Some sl ->
    s_dur sl = list_max (dur_hist tr idx (s_gen sl)).
Proof.
  intros Hc H. destruct (run_all _ _ _ Hc H) as [_ [_ [_ [_ HL]]]]. intros idx sl Hsl.
  apply (h_dur _ _ _ (HL _ _ Hsl)).
Qed.

Theorem queue_decl ops s tr :
  cfg_ok c -> run shard_of c ops = (s, tr) ->
  (forall n, c_revisions c = Some n ->
     st_queue s = firstn (N.to_nat n) (acts tr ++ repeat REV_START (N.to_nat n))) /\
  (forall r, In r (acts tr) <->
     exists e, In e tr /\ is_activity e = true /\ e_rev e = r) /\
  (forall r l, acts tr = r :: l -> forall x, In x l -> x < r).
Proof.
  intros Hc H. destruct (run_all _ _ _ Hc H) as [_ [HB [_ [HQ _]]]].
  split; [exact HQ|]. split; [intros r; apply acts_In|].
  apply acts_sorted. apply (t_mono _ _ HB).
Qed.

(* A call that unwinds out of the event callback leaves the state of an ordinary atomic
   operation of the model: the full interning on the cold and reuse paths (all writes come
   before the first callback), a `maybe_changed_after`-style revalidation of the slot on
   the fast path.  So a history with such calls is a history of `run`, and every theorem
   above applies to it. *)
Theorem cut_callback_is_step s v sp fr :
  exists o out evs,
    step shard_of c s o = (fst (fst (intern_cut shard_of c s v sp fr CutCallback)), out, evs) /\
    ((exists t, o = OIntern t v sp fr) \/ (exists t idx gen since, o = OMca t idx gen since)).
Proof.
  unfold intern_cut.
  destruct (intern shard_of c s v sp fr) as [[s' out] evs] eqn:E.
  assert (Hfull : exists o out0 evs0,
            step shard_of c s o = (s', out0, evs0) /\
            ((exists t, o = OIntern t v sp fr) \/
             (exists t idx gen since, o = OMca t idx gen since))).
  { exists (OIntern 0 v sp fr), out, evs. cbn [step]. split; [exact E|]. left. now exists 0. }
  destruct out as [idx gen p| | | |]; try exact Hfull.
  destruct p; try exact Hfull.
  destruct (st_slots s idx) as [sl|] eqn:Hsl; [|exact Hfull].
  destruct (s_lia sl <? st_cur s); [|exact Hfull].
  exists (OMca 0 idx (s_gen sl) 0). cbn [step fst]. unfold mca. rewrite Hsl, N.ltb_irrefl.
  do 2 eexists. split; [reflexivity|]. right. now exists 0, idx, (s_gen sl), 0.
Qed.

(* On the cold and reuse paths the state at the commit point (before `clear_memos` and the
   DidReuse / DidIntern callbacks) is the state of the completed call, whatever part of the
   trailing callbacks runs. *)
Theorem cut_commit_state s t v sp fr s' idx g p evs :
  step shard_of c s (OIntern t v sp fr) = (s', RIntern idx g p, evs) -> p <> PFast ->
  intern_cut shard_of c s v sp fr CutCallback = (s', RIntern idx g p, evs).
Proof.
  cbn [step]. intros E Hp. unfold intern_cut. rewrite E. destruct p; congruence.
Qed.

(* The invariant of C08/C09 holds after a cut interning, at whichever point it was cut. *)
Theorem cut_invariant ops s tr :
  cfg_ok c -> run shard_of c ops = (s, tr) ->
  forall v sp fr w, Inv shard_of c (fst (fst (intern_cut shard_of c s v sp fr w))).
Proof.
  intros Hc H v sp fr w. pose proof (invariant _ _ _ Hc H) as HI.
  destruct w.
  - cbn [intern_cut fst]. destruct HI as [Hcur [HS HQ]].
    split; [exact Hcur|]. split.
    + eapply SInv_same; eauto; try reflexivity; cbn [set_queue st_cur]; lia.
    + cbn [set_queue st_cur st_queue]. now apply queue_ok_record.
  - destruct (cut_callback_is_step s v sp fr) as [o [out [evs [Hstep _]]]].
    eapply step_Inv; eauto.
Qed.

(* ... and a call that unwinds before its commit point has only recorded the current
   revision in the queue: no slot, no key-map entry and no LRU position is touched. *)
Theorem cut_early_frame s v sp fr :
  let s' := fst (fst (intern_cut shard_of c s v sp fr CutEarly)) in
  st_cur s' = st_cur s /\ st_slots s' = st_slots s /\ st_keys s' = st_keys s /\
  st_lru s' = st_lru s /\ st_queue s' = record_active c s.
Proof. cbn [intern_cut fst set_queue st_cur st_slots st_keys st_lru st_queue]. auto. Qed.

End Theorems.
