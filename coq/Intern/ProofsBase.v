(* Intern/ProofsBase.v — container and revision-queue lemmas used by the Intern proofs. *)
From Salsa Require Import Base.
From Salsa.Intern Require Import RetK Model.

Local Open Scope N_scope.

Lemma updN_id {A} (m : N -> A) k k' : m k' = updN m k (m k) k'.
Proof. unfold updN. now destruct (N.eqb_spec k k') as [->|_]. Qed.

Lemma updN_Some {A} (m : N -> option A) k x k' y :
  updN m k (Some x) k' = Some y -> (k = k' /\ x = y) \/ (k <> k' /\ m k' = Some y).
Proof.
  unfold updN. destruct (N.eqb_spec k k'); intros H; [left|right]; split; congruence.
Qed.

Lemma key_find_head v i l : key_find v ((v, i) :: l) = Some i.
Proof. cbn [key_find]. now rewrite N.eqb_refl. Qed.

Lemma key_find_In v l i : key_find v l = Some i -> In (v, i) l.
Proof.
  induction l as [|[v' i'] l IH]; cbn [key_find]; [discriminate|].
  destruct (N.eqb_spec v v') as [->|Hne]; intros H.
  - inversion H; subst; now left.
  - right; auto.
Qed.

Lemma key_find_None v l : key_find v l = None -> forall i, ~ In (v, i) l.
Proof.
  induction l as [|[v' i'] l IH]; cbn [key_find]; intros H i Hin; [easy|].
  destruct (N.eqb_spec v v') as [->|Hne]; [discriminate|].
  destruct Hin as [Heq|Hin]; [inversion Heq; congruence|]. eapply IH; eauto.
Qed.

Lemma In_key_find v i l :
  NoDup (map fst l) -> In (v, i) l -> key_find v l = Some i.
Proof.
  induction l as [|[v' i'] l IH]; cbn [key_find map fst]; intros Hnd Hin; [easy|].
  inversion Hnd as [|? ? Hnotin Hnd']; subst.
  destruct Hin as [Heq|Hin].
  - inversion Heq; subst. now rewrite N.eqb_refl.
  - destruct (N.eqb_spec v v') as [->|Hne]; [|auto].
    exfalso; apply Hnotin. change v' with (fst (v', i)). now apply in_map.
Qed.

Lemma key_has_idx_true idx l :
  key_has_idx idx l = true <-> exists v, In (v, idx) l.
Proof.
  unfold key_has_idx. rewrite existsb_exists. split.
  - intros [[v i] [Hin Heq]]. cbn [snd] in Heq. apply N.eqb_eq in Heq; subst. eauto.
  - intros [v Hin]. exists (v, idx). split; [easy|]. cbn [snd]. apply N.eqb_refl.
Qed.

Lemma key_remove_idx_In idx l v i :
  In (v, i) (key_remove_idx idx l) <-> In (v, i) l /\ i <> idx.
Proof.
  unfold key_remove_idx. rewrite filter_In. cbn [snd].
  rewrite negb_true_iff, N.eqb_neq. tauto.
Qed.

Lemma key_find_remove_other v idx idx' l :
  key_find v l = Some idx -> idx <> idx' ->
  key_find v (key_remove_idx idx' l) = Some idx.
Proof.
  induction l as [|[v' i'] l IH]; cbn [key_find key_remove_idx filter snd]; [discriminate|].
  intros Hf Hne.
  destruct (N.eqb_spec v v') as [->|Hv].
  - inversion Hf; subst.
    destruct (N.eqb_spec idx idx'); [contradiction|]. cbn [negb key_find].
    now rewrite N.eqb_refl.
  - destruct (N.eqb_spec i' idx'); cbn [negb].
    + now apply IH.
    + cbn [key_find]. destruct (N.eqb_spec v v'); [contradiction|]. now apply IH.
Qed.

Lemma NoDup_map_filter {A B} (f : A -> B) (p : A -> bool) l :
  NoDup (map f l) -> NoDup (map f (filter p l)).
Proof.
  induction l as [|a l IH]; cbn [map filter]; intros Hnd; [constructor|].
  inversion Hnd as [|? ? Hnotin Hnd']; subst.
  destruct (p a); cbn [map]; [|auto].
  constructor; [|auto].
  intros Hin. apply Hnotin. apply in_map_iff in Hin as [x [Hx Hin]].
  apply filter_In in Hin as [Hin _]. apply in_map_iff. eauto.
Qed.

Lemma NoDup_app_l {A} (l l' : list A) : NoDup (l ++ l') -> NoDup l.
Proof.
  induction l as [|a l IH]; cbn [app]; intros H; [constructor|].
  inversion H as [|? ? Hn Hnd]; subst. constructor; [|auto].
  intros Hin. apply Hn. apply in_or_app. now left.
Qed.

Lemma lru_mem_true idx l : lru_mem idx l = true <-> In idx l.
Proof.
  unfold lru_mem. rewrite existsb_exists. split.
  - intros [x [Hin Heq]]. apply N.eqb_eq in Heq; now subst.
  - intros Hin. exists idx. split; [easy|apply N.eqb_refl].
Qed.

Lemma lru_remove_In idx l i : In i (lru_remove idx l) <-> In i l /\ i <> idx.
Proof.
  unfold lru_remove. rewrite filter_In, negb_true_iff, N.eqb_neq. tauto.
Qed.

Lemma lru_remove_NoDup idx l : NoDup l -> NoDup (lru_remove idx l).
Proof. apply NoDup_filter. Qed.

Lemma lru_push_NoDup idx l : NoDup l -> NoDup (idx :: lru_remove idx l).
Proof.
  intros H. constructor; [|now apply lru_remove_NoDup].
  rewrite lru_remove_In. tauto.
Qed.

(* sorted, newest first; duplicates only among the initial Revision::start() filling *)
Inductive qdesc : list rev -> Prop :=
| qd_nil : qdesc []
| qd_one x : 1 <= x -> qdesc [x]
| qd_cons x y l : 1 <= y -> y <= x -> (y = x -> y = 1) -> qdesc (y :: l) -> qdesc (x :: y :: l).

Lemma qdesc_hd_ge1 x l : qdesc (x :: l) -> 1 <= x.
Proof. inversion 1; subst; lia. Qed.

Lemma qdesc_tail x l : qdesc (x :: l) -> qdesc l.
Proof. inversion 1; subst; [constructor|assumption]. Qed.

Lemma qdesc_removelast q : qdesc q -> qdesc (removelast q).
Proof.
  induction 1 as [|x Hx|x y l Hy Hyx Heq Hq IH]; cbn [removelast]; try constructor.
  destruct l as [|z l].
  - cbn [removelast] in *. constructor. lia.
  - change (removelast (x :: y :: z :: l)) with (x :: removelast (y :: z :: l)).
    change (removelast (y :: z :: l)) with (y :: removelast (z :: l)) in *.
    constructor; assumption.
Qed.

Lemma rq_last_cons x y l : rq_last (x :: y :: l) = rq_last (y :: l).
Proof. reflexivity. Qed.

Lemma qdesc_last_le t : forall h o,
  qdesc (h :: t) -> rq_last (h :: t) = Some o -> 1 <= o /\ o <= h.
Proof.
  induction t as [|y t IH]; intros h o Hq L.
  - inversion L; subst. apply qdesc_hd_ge1 in Hq. lia.
  - rewrite rq_last_cons in L. inversion Hq; subst. destruct (IH y o); auto. lia.
Qed.

Lemma rq_last_Some_nonempty q : q <> [] -> exists o, rq_last q = Some o.
Proof.
  induction q as [|x q IH]; [congruence|]. intros _.
  destruct q as [|y q]; [now exists x|]. rewrite rq_last_cons. apply IH. congruence.
Qed.

Lemma rq_last_nth q : forall d, q <> [] -> rq_last q = Some (nth (length q - 1) q d).
Proof.
  induction q as [|x q IH]; intros d Hne; [congruence|].
  destruct q as [|y q]; [reflexivity|].
  rewrite rq_last_cons, (IH d) by congruence.
  cbn [length]. f_equal.
  replace (S (S (length q)) - 1)%nat with (S (length q)) by lia.
  replace (S (length q) - 1)%nat with (length q) by lia.
  reflexivity.
Qed.

Lemma rq_record_unfold q r :
  rq_record q r = match q with [] => [] | h :: _ => if r <=? h then q else r :: removelast q end.
Proof.
  destruct q as [|h t]; [reflexivity|]. unfold rq_record, rq_record_cold.
  destruct (r <=? h); reflexivity.
Qed.

Lemma rq_record_length q r : length (rq_record q r) = length q.
Proof.
  rewrite rq_record_unfold. destruct q as [|h t]; [reflexivity|].
  destruct (r <=? h); [reflexivity|].
  cbn [length]. rewrite removelast_firstn_len, firstn_length. cbn [length]. lia.
Qed.

Lemma rq_record_qdesc q r : qdesc q -> 1 <= r -> qdesc (rq_record q r).
Proof.
  intros Hq Hr. rewrite rq_record_unfold. destruct q as [|h t]; [constructor|].
  destruct (N.leb_spec r h); [assumption|].
  pose proof (qdesc_removelast _ Hq) as Hrl.
  pose proof (qdesc_hd_ge1 _ _ Hq) as Hh.
  destruct t as [|y t].
  - cbn [removelast]. constructor; lia.
  - change (removelast (h :: y :: t)) with (h :: removelast (y :: t)) in *.
    constructor; try lia. exact Hrl.
Qed.

Lemma rq_record_hd h t r : exists t', rq_record (h :: t) r = N.max h r :: t'.
Proof.
  rewrite rq_record_unfold. destruct (N.leb_spec r h); eexists; f_equal; lia.
Qed.

Lemma rq_is_stale_true q r :
  rq_is_stale q r = true <-> exists o, rq_last q = Some o /\ o <> REV_START /\ r < o.
Proof.
  unfold rq_is_stale. destruct (rq_last q) as [o|].
  - destruct (N.eqb_spec o REV_START) as [E|E].
    + split; [discriminate|]. intros [o' [Ho [Hne _]]]. inversion Ho; congruence.
    + rewrite N.ltb_lt. split.
      * intros H. exists o. auto.
      * intros [o' [Ho [_ Hlt]]]. inversion Ho; subst. assumption.
  - split; [discriminate|]. intros [o [Ho _]]. discriminate.
Qed.

Lemma rq_is_primed_true q :
  rq_is_primed q = true <-> exists o, rq_last q = Some o /\ REV_START < o.
Proof.
  unfold rq_is_primed. destruct (rq_last q) as [o|].
  - rewrite N.ltb_lt. split; [eauto|]. intros [o' [Ho H]]. inversion Ho; now subst.
  - split; [discriminate|]. intros [o [Ho _]]. discriminate.
Qed.

Lemma rq_stale_primed q r : rq_is_stale q r = true -> rq_is_primed q = true.
Proof.
  rewrite rq_is_stale_true, rq_is_primed_true. intros [o [Ho [Hne Hlt]]].
  exists o. split; [assumption|]. unfold REV_START in *. lia.
Qed.

(* a stale revision is below the newest recorded revision *)
Lemma rq_stale_lt_hd h t r :
  qdesc (h :: t) -> rq_is_stale (h :: t) r = true -> r < h.
Proof.
  intros Hq Hs. apply rq_is_stale_true in Hs as [o [Ho [_ Hlt]]].
  destruct (qdesc_last_le t h o Hq Ho). lia.
Qed.

(* with at least two entries, a stale revision is below the second newest *)
Lemma rq_stale_lt_second h y t r :
  qdesc (h :: y :: t) -> rq_is_stale (h :: y :: t) r = true -> r < y.
Proof.
  intros Hq Hs. apply (rq_stale_lt_hd y t); [now apply qdesc_tail in Hq|].
  unfold rq_is_stale in *. now rewrite rq_last_cons in Hs.
Qed.

Lemma rq_new_length n : length (rq_new n) = N.to_nat n.
Proof. unfold rq_new. apply repeat_length. Qed.

Lemma qdesc_repeat k : qdesc (repeat REV_START k).
Proof.
  induction k as [|k IH]; [constructor|].
  cbn [repeat]. destruct k as [|k]; cbn [repeat] in *.
  - constructor. unfold REV_START. lia.
  - constructor; unfold REV_START; try lia. assumption.
Qed.
