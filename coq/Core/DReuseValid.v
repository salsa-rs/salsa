(* Core/DReuseValid.v — frugality, the converse of "executions are justified" (C03): a query
   whose recorded dependency walk finds nothing changed is served without executing anything,
   only validation events are logged.  A second induction over the levels, beside the one of
   Core/LevelOps.v (whose specifications at [DInv] supply the state facts between two calls). *)
From Salsa Require Import Base.
From Salsa.Kern Require Import CoreK CoreKFacts.
From Salsa.Core Require Import Model Spec SpecProofs Wp Inv InvFrame InvSem InvTop DurSem DInv DInvSem DInvOps DInvTop
     ReuseProofs DReuse DReuseOps DReuseTop.

(* q is settled in s: it has a memo with a value that is verified in the current revision, or
   whose durability level saw no write since it was verified, or (tracked) all of whose
   recorded input edges are unwritten since it was verified and all of whose recorded callees
   are settled and have a changed_at stamp not later than its verified_at. *)
Inductive settled (s : db) : qkey -> Prop :=
| settled_now q m :
    d_memo s q = Some m -> m_val m <> None -> m_verified m = cur s -> settled s q
| settled_short q m :
    d_memo s q = Some m -> m_val m <> None ->
    last_changed (d_revs s) (m_dur m) <= m_verified m -> settled s q
| settled_deep q m :
    d_memo s q = Some m -> m_val m <> None -> m_untracked m = false ->
    (forall i, In (EIn i) (m_edges m) -> f_changed (d_in s i) <= m_verified m) ->
    (forall d, In (EQ d) (m_edges m) -> settled s d) ->
    (forall d, In (EQ d) (m_edges m) -> exists md, d_memo s d = Some md /\ m_changed md <= m_verified m) ->
    settled s q.

(* only validations happened between s and s' *)
Record MV (s s' : db) : Prop := {
  mv_revs : d_revs s' = d_revs s;
  mv_in : d_in s' = d_in s;
  mv_memo : forall d, d_memo s' d = d_memo s d \/
                      exists m, d_memo s d = Some m /\ d_memo s' d = Some (reverify m (cur s));
  mv_log : exists new, d_log s' = new ++ d_log s /\ forall x, ~ In (EvExec x) new
}.

Lemma MV_cur s s' : MV s s' -> cur s' = cur s.
Proof. intros HM. unfold cur. rewrite (mv_revs _ _ HM). reflexivity. Qed.

Lemma MV_refl s : MV s s.
Proof. constructor; auto. exists []. split; [reflexivity | intros x []]. Qed.

Lemma MV_trans s1 s2 s3 : MV s1 s2 -> MV s2 s3 -> MV s1 s3.
Proof.
  intros A B. pose proof (MV_cur _ _ A) as Hc.
  destruct (mv_log _ _ A) as (n12 & Hl12 & Hn12), (mv_log _ _ B) as (n23 & Hl23 & Hn23).
  constructor.
  - rewrite (mv_revs _ _ B). apply (mv_revs _ _ A).
  - rewrite (mv_in _ _ B). apply (mv_in _ _ A).
  - intros d. destruct (mv_memo _ _ B d) as [E2 | (m2 & Hm2 & E2)].
    + rewrite E2. apply (mv_memo _ _ A d).
    + destruct (mv_memo _ _ A d) as [E1 | (m1 & Hm1 & E1)].
      * right. exists m2. rewrite <- E1, <- Hc. split; assumption.
      * right. exists m1. split; [exact Hm1|]. rewrite E2. rewrite E1 in Hm2. injection Hm2 as <-.
        rewrite Hc. reflexivity.
  - exists (n23 ++ n12). split; [rewrite Hl23, Hl12, app_assoc; reflexivity|].
    intros x Hx. apply in_app_iff in Hx. destruct Hx as [Hx | Hx]; [apply (Hn23 x Hx) | apply (Hn12 x Hx)].
Qed.

Lemma MV_quiet s s1 :
  d_revs s1 = d_revs s -> d_in s1 = d_in s -> d_memo s1 = d_memo s -> d_log s1 = d_log s -> MV s s1.
Proof.
  intros Hr Hi Hm Hl. constructor; auto.
  - intros d. left. rewrite Hm. reflexivity.
  - exists []. split; [exact Hl | intros x []].
Qed.

Lemma MV_validate s s1 q :
  d_revs s1 = d_revs s -> d_in s1 = d_in s -> d_memo s1 = d_memo s ->
  d_log s1 = EvValidate q :: d_log s -> MV s s1.
Proof.
  intros Hr Hi Hm Hl. constructor; auto.
  - intros d. left. rewrite Hm. reflexivity.
  - exists [EvValidate q]. split; [exact Hl|]. intros x [Hx | []]. discriminate.
Qed.

Lemma MV_mark s q m : d_memo s q = Some m -> MV s (store s q (reverify m (cur s))).
Proof.
  intros Hm. constructor; try reflexivity.
  - intros d. destruct (key_eqb_spec q d) as [<- | Hne];
        [rewrite memo_store_same | rewrite memo_store_other by exact Hne]; [right | left; reflexivity].
    exists m. split; [exact Hm | reflexivity].
  - exists []. split; [reflexivity | intros x []].
Qed.

Lemma MV_stamp s s' d md : MV s s' -> d_memo s d = Some md ->
  exists md', d_memo s' d = Some md' /\ m_changed md' = m_changed md /\ m_val md' = m_val md.
Proof.
  intros HM Hmd. destruct (mv_memo _ _ HM d) as [E | (m & Hm & E)].
  - exists md. rewrite E. split; [exact Hmd | split; reflexivity].
  - rewrite Hmd in Hm. injection Hm as <-. exists (reverify md (cur s)). split; [exact E | split; reflexivity].
Qed.

Lemma settled_MV s s' q : MV s s' -> settled s q -> settled s' q.
Proof.
  intros HM Hs. pose proof (MV_cur _ _ HM) as Hc.
  induction Hs as [q m Hm Hx Hv | q m Hm Hx Hlc | q m Hm Hx Hu Hin Hq IH Hqc].
  - destruct (mv_memo _ _ HM q) as [E | (m0 & Hm0 & E)].
    + apply (settled_now s' q m); [rewrite E; exact Hm | exact Hx | congruence].
    + rewrite Hm in Hm0. injection Hm0 as <-.
      apply (settled_now s' q (reverify m (cur s))); [exact E | exact Hx | cbn; congruence].
  - destruct (mv_memo _ _ HM q) as [E | (m0 & Hm0 & E)].
    + apply (settled_short s' q m); [rewrite E; exact Hm | exact Hx | rewrite (mv_revs _ _ HM); exact Hlc].
    + rewrite Hm in Hm0. injection Hm0 as <-.
      apply (settled_now s' q (reverify m (cur s))); [exact E | exact Hx | cbn; congruence].
  - destruct (mv_memo _ _ HM q) as [E | (m0 & Hm0 & E)].
    + apply (settled_deep s' q m); [rewrite E; exact Hm | exact Hx | exact Hu | | exact IH |].
      * intros i Hi. rewrite (mv_in _ _ HM). apply Hin; exact Hi.
      * intros d Hd. destruct (Hqc d Hd) as (md & Hmd & Hle).
        destruct (MV_stamp s s' d md HM Hmd) as (md' & Hmd' & Hc' & _).
        exists md'. split; [exact Hmd' | lia].
    + rewrite Hm in Hm0. injection Hm0 as <-.
      apply (settled_now s' q (reverify m (cur s))); [exact E | exact Hx | cbn; congruence].
Qed.

Section VOps.
Variable prog : qkey -> body.
Variable noeq : qkey -> bool.
Variable rank : qkey -> nat.
Hypothesis Hrank : calls_below prog rank.
Variable NF : nat.
Hypothesis Hbound : forall q, (rank q < NF)%nat.
Variable H : hist.
Variable D : dhist.
Notation tr := (tr prog NF H).
Notation DInv := (DInv prog NF H D).
Notation stack_ok := (stack_ok rank).
Notation fetch_spec := (LevelOps.fetch_spec prog rank NF H DInv dext (dtouch_below rank) dallowed).
Notation mca_spec := (LevelOps.mca_spec rank DInv dext (dtouch_below rank) dallowed).

Lemma mark_verified_mv q m s :
  d_memo s q = Some m ->
  wp (mark_verified q m) (fun m' s' => m' = reverify m (cur s) /\ MV s s') XT s.
Proof.
  intros Hm. unfold mark_verified.
  apply wp_bind, wp_get. apply wp_bind. apply emit_rx.
  intros s1 Hr Hi Hce Hmm Hst Hl.
  apply wp_bind. unfold set_memo_at. apply wp_modify. apply wp_ret.
  split; [reflexivity|].
  assert (Hc1 : cur s1 = cur s) by (unfold cur; rewrite Hr; reflexivity).
  apply (MV_trans s s1).
  - apply (MV_validate s s1 q); assumption.
  - change (set_seen _ _) with (store s1 q (reverify m (cur s))). rewrite <- Hc1.
    apply MV_mark. rewrite Hmm. exact Hm.
Qed.

Lemma update_shallow_mv q m s u :
  d_memo s q = Some m ->
  wp (update_shallow q m u)
     (fun m' s' => MV s s' /\ m_changed m' = m_changed m) XT s.
Proof.
  intros Hm. destruct u; cbn [update_shallow]; try (apply wp_ret; split; [apply MV_refl | reflexivity]).
  eapply wp_conseq; [apply (mark_verified_mv q m s Hm) | | triv].
  intros m' s' [-> HR]. split; [exact HR | reflexivity].
Qed.

Definition fetch_nx (L : lower) (n : nat) : Prop :=
  forall q s, (rank q < n)%nat -> DInv s -> stack_ok s q -> settled s q ->
    wp (l_fetch L q) (fun _ s' => MV s s') XT s.

Definition mca_nx (L : lower) (n : nat) : Prop :=
  forall q since s, (rank q < n)%nat -> DInv s -> stack_ok s q -> settled s q ->
    wp (l_mca L q since)
       (fun b s' => MV s s' /\ forall m, d_memo s q = Some m -> b = changed_after (m_changed m) since) XT s.

Lemma walk_edges_nx L n q m (HM : mca_spec L n) (HM' : mca_nx L n) : forall es s,
  DInv s -> d_memo s q = Some m ->
  (forall d, In (EQ d) es -> (rank d < n)%nat /\ (rank d < rank q)%nat) ->
  (forall p, In p (d_stack s) -> (rank q <= rank p)%nat) ->
  (forall i, In (EIn i) es -> f_changed (d_in s i) <= m_verified m) ->
  (forall d, In (EQ d) es -> settled s d) ->
  (forall d, In (EQ d) es -> exists md, d_memo s d = Some md /\ m_changed md <= m_verified m) ->
  wp (walk_edges L es (m_verified m)) (fun b s' => MV s s' /\ b = false) XT s.
Proof.
  induction es as [|e es IH]; intros s HI Hm Hes Hst Hin Hset Hqc; cbn [walk_edges].
  - apply wp_ret. split; [apply MV_refl | reflexivity].
  - destruct e as [i | d].
    + apply wp_bind, wp_get.
      assert (Hca : changed_after (f_changed (d_in s i)) (m_verified m) = false).
      { apply changed_after_false. apply Hin. left; reflexivity. }
      rewrite Hca.
      apply (IH s HI Hm); try assumption.
      * intros d Hd. apply Hes. right; exact Hd.
      * intros j Hj. apply Hin. right; exact Hj.
      * intros d Hd. apply Hset. right; exact Hd.
      * intros d Hd. apply Hqc. right; exact Hd.
    + destruct (Hes d (or_introl eq_refl)) as (Hdn & Hdq).
      assert (Hsd : stack_ok s d) by (intros p Hp; specialize (Hst p Hp); lia).
      apply wp_bind.
      eapply wp_conseq; [apply wp_and;
        [apply (HM d (m_verified m) s Hdn HI Hsd)
        | apply (HM' d (m_verified m) s Hdn HI Hsd (Hset d (or_introl eq_refl)))] | | triv].
      intros c s1 ((HI1 & He1 & Ht1 & Hs1 & _) & (HR1 & Hc)).
      assert (Hm1 : d_memo s1 q = Some m) by (rewrite (Ht1 q) by lia; exact Hm).
      destruct (Hqc d (or_introl eq_refl)) as (md & Hmd & Hle).
      rewrite (Hc md Hmd).
      assert (Hca : changed_after (m_changed md) (m_verified m) = false) by (apply changed_after_false; exact Hle).
      rewrite Hca.
      eapply wp_conseq; [apply (IH s1 HI1 Hm1) | | triv].
      * intros d' Hd'. apply (Hes d' (or_intror Hd')).
      * rewrite Hs1. exact Hst.
      * intros j Hj. rewrite (mv_in _ _ HR1). apply Hin. right; exact Hj.
      * intros d' Hd'. apply (settled_MV s s1 d' HR1). apply Hset. right; exact Hd'.
      * intros d' Hd'. destruct (Hqc d' (or_intror Hd')) as (md' & Hmd' & Hle').
        destruct (MV_stamp s s1 d' md' HR1 Hmd') as (md'' & Hmd'' & Hc'' & _).
        exists md''. split; [exact Hmd'' | lia].
      * intros b s' (HR & Hb). split; [apply (MV_trans s s1 s'); assumption | exact Hb].
Qed.

Lemma verify_nx L n q m s (HM : mca_spec L n) (HM' : mca_nx L n) :
  (rank q <= n)%nat -> DInv s -> d_memo s q = Some m ->
  (forall p, In p (d_stack s) -> (rank q <= rank p)%nat) ->
  settled s q ->
  wp (verify_memo L q m) (fun r s' => MV s s' /\ fst r = true) XT s.
Proof.
  intros Hn HI Hm Hst Hset. unfold verify_memo.
  apply wp_bind, wp_get.
  destruct (shallow_verify s m) eqn:Hsh.
  - apply wp_bind.
    eapply wp_conseq; [apply (update_shallow_mv q m s ShVerified Hm) | | triv].
    intros m' s' [HR _]. apply wp_ret. split; [exact HR | reflexivity].
  - apply wp_bind.
    eapply wp_conseq; [apply (update_shallow_mv q m s ShHigher Hm) | | triv].
    intros m' s' [HR _]. apply wp_ret. split; [exact HR | reflexivity].
  - pose proof (shallow_cases s m) as Hc. rewrite Hsh in Hc.
    pose proof (inv_memo _ _ _ _ _ HI q m Hm) as Hok.
    destruct Hset as [q m0 Hm0 Hx Hv | q m0 Hm0 Hx Hlc | q m0 Hm0 Hx Hu Hin Hq Hqc];
      rewrite Hm in Hm0; injection Hm0 as <-.
    + contradiction.
    + exfalso. unfold shallow_verify in Hsh.
      destruct (m_verified m =? cur s); [discriminate|].
      apply shallow_ok_spec in Hlc. rewrite Hlc in Hsh. discriminate.
    + unfold deep_verify. rewrite Hu.
      assert (Hes : forall d, In (EQ d) (m_edges m) -> (rank d < n)%nat /\ (rank d < rank q)%nat).
      { intros d Hd. pose proof (mo_edges_q _ _ _ _ _ _ _ Hok d Hd) as Hind.
        pose proof (tr_calls prog rank Hrank NF H _ _ _ Hind). split; lia. }
      assert (Hes' : forall d, In (EQ d) (m_edges m) -> (rank d < n)%nat /\ (rank d < rank q)%nat /\
                                                        In (RQ d) (tr (m_verified m) q)).
      { intros d Hd. destruct (Hes d Hd). conj; auto. apply (mo_edges_q _ _ _ _ _ _ _ Hok d Hd). }
      apply wp_bind.
      eapply wp_conseq; [apply wp_and;
        [apply (walk_edges_ok prog noeq rank Hrank NF Hbound H D L n q m HM (m_edges m) s HI Hm Hes' Hst)
        | apply (walk_edges_nx L n q m HM HM' (m_edges m) s HI Hm Hes Hst Hin Hq Hqc)] | | triv].
      intros c s1 ((HI1 & He1 & Ht1 & Hs1 & _) & (HR1 & ->)).
      assert (Hm1 : d_memo s1 q = Some m) by (rewrite (Ht1 q) by lia; exact Hm).
      apply wp_bind.
      eapply wp_conseq; [apply (mark_verified_mv q m s1 Hm1) | | triv].
      intros m' s2 [_ HR2]. apply wp_ret.
      split; [apply (MV_trans s s1 s2); assumption | reflexivity].
Qed.

Lemma settled_memo s q : settled s q -> exists m v, d_memo s q = Some m /\ m_val m = Some v.
Proof.
  intros [q0 m Hm Hx _ | q0 m Hm Hx _ | q0 m Hm Hx _ _ _ _];
    (destruct (m_val m) as [v|] eqn:Hv; [exists m, v; split; assumption | contradiction]).
Qed.

Lemma MV_stack s l : MV s (set_stack s l).
Proof. apply MV_quiet; reflexivity. Qed.

Lemma MV_lru s l : MV s (set_lru s l).
Proof. apply MV_quiet; reflexivity. Qed.

Lemma fetch_nx_ok L n (HM : mca_spec L n) (HM' : mca_nx L n) :
  forall q s, (rank q <= n)%nat -> DInv s -> stack_ok s q -> settled s q ->
    wp (fetch prog noeq L q) (fun _ s' => MV s s') XT s.
Proof.
  intros q s Hn HI Hst Hset. unfold fetch.
  destruct (settled_memo s q Hset) as (m & v & Hm & Hv).
  assert (Hfin : forall (mv : memo * val) s2, MV s s2 ->
            wp (modify (fun s => set_lru s (updN (d_lru s) (fst q) (lru_record_use (d_lru s (fst q)) (snd q)))) ;;;
                ret (memo_qres (fst mv) (snd mv))) (fun _ s' => MV s s') XT s2).
  { intros mv s2 HR. apply wp_bind, wp_modify, wp_ret.
    apply (MV_trans s s2); [exact HR | apply MV_lru]. }
  apply wp_bind. unfold fetch_hot. apply wp_bind, wp_get. rewrite Hm, Hv.
  assert (Hgot : forall u,
            wp (m' <- update_shallow q m u ;; ret (Some (m', v)))
               (fun hot s' => wp (r <- match hot with Some mv => ret mv | None => fetch_cold prog noeq L q end ;;
                                  modify (fun s => set_lru s (updN (d_lru s) (fst q) (lru_record_use (d_lru s (fst q)) (snd q)))) ;;;
                                  ret (memo_qres (fst r) (snd r))) (fun _ s'' => MV s s'') XT s') XT s).
  { intros u. apply wp_bind.
    eapply wp_conseq; [apply (update_shallow_mv q m s u Hm) | | triv].
    intros m' s' [HR _]. apply wp_ret. apply wp_bind, wp_ret. apply Hfin. exact HR. }
  destruct (shallow_verify s m) eqn:Hsh; [apply Hgot | apply Hgot |].
  apply wp_ret. apply wp_bind.
  (* the cold path: verification succeeds *)
  unfold fetch_cold.
  apply wp_bind. apply (claim_ok rank); [exact Hst|].
  set (s1 := set_stack s (q :: d_stack s)).
  assert (Hce : dcore_eq s s1) by apply dcore_eq_stack.
  assert (HI1 : DInv s1) by (apply (DInv_core_eq prog NF H D s); assumption).
  assert (HR01 : MV s s1) by apply MV_stack.
  assert (Hst1 : forall p, In p (d_stack s1) -> (rank q <= rank p)%nat) by (apply stacked; exact Hst).
  assert (Hset1 : settled s1 q) by (apply (settled_MV s s1 q HR01 Hset)).
  apply wp_bind, wp_get. change (d_memo s1 q) with (d_memo s q). rewrite Hm, Hv.
  apply wp_bind. apply wp_bind.
  eapply wp_conseq; [apply (verify_nx L n q m s1 HM HM' Hn HI1 Hm Hst1 Hset1) | | triv].
  intros [b m'] s2 (HR12 & Hb). cbn [fst snd] in *. subst b.
  apply wp_ret. apply wp_bind. unfold release. apply wp_modify. apply wp_ret.
  apply Hfin.
  apply (MV_trans s s1); [exact HR01|]. apply (MV_trans s1 s2); [exact HR12 | apply MV_stack].
Qed.

Lemma mca_nx_ok L n (HM : mca_spec L n) (HM' : mca_nx L n) :
  forall q since s, (rank q <= n)%nat -> DInv s -> stack_ok s q -> settled s q ->
    wp (mca prog noeq L q since)
       (fun b s' => MV s s' /\ forall m, d_memo s q = Some m -> b = changed_after (m_changed m) since) XT s.
Proof.
  intros q since s Hn HI Hst Hset. unfold mca.
  destruct (settled_memo s q Hset) as (m & v & Hm & Hv).
  apply (wp_conseq _ (fun b s' => MV s s' /\ b = changed_after (m_changed m) since) _ XT XT);
    [| intros b s' [HR Hb]; split; [exact HR|];
       intros m0 Hm0; rewrite Hm in Hm0; injection Hm0 as <-; exact Hb | triv].
  apply wp_bind, wp_get. rewrite Hm.
  assert (Hgot : forall u,
            wp (m' <- update_shallow q m u ;; ret (changed_after (m_changed m') since))
               (fun b s' => MV s s' /\ b = changed_after (m_changed m) since) XT s).
  { intros u. apply wp_bind.
    eapply wp_conseq; [apply (update_shallow_mv q m s u Hm) | | triv].
    intros m' s' [HR Hc]. apply wp_ret. split; [exact HR|]. rewrite Hc. reflexivity. }
  destruct (shallow_verify s m) eqn:Hsh; [apply Hgot | apply Hgot |].
  unfold mca_cold.
  apply wp_bind. apply (claim_ok rank); [exact Hst|].
  set (s1 := set_stack s (q :: d_stack s)).
  assert (Hce : dcore_eq s s1) by apply dcore_eq_stack.
  assert (HI1 : DInv s1) by (apply (DInv_core_eq prog NF H D s); assumption).
  assert (HR01 : MV s s1) by apply MV_stack.
  assert (Hst1 : forall p, In p (d_stack s1) -> (rank q <= rank p)%nat) by (apply stacked; exact Hst).
  assert (Hset1 : settled s1 q) by (apply (settled_MV s s1 q HR01 Hset)).
  apply wp_bind, wp_get. change (d_memo s1 q) with (d_memo s q). rewrite Hm.
  apply wp_bind.
  eapply wp_conseq; [apply wp_and;
    [apply (verify_memo_ok prog noeq rank Hrank NF Hbound H D L n q m s1 HM Hn HI1 Hm Hst1)
    | apply (verify_nx L n q m s1 HM HM' Hn HI1 Hm Hst1 Hset1)] | | triv].
  intros [b m'] s2 ((_ & _ & _ & _ & Htrue & _) & (HR12 & Hb)). cbn [fst snd] in *. subst b.
  destruct (Htrue eq_refl) as (_ & _ & _ & _ & _ & _ & _ & _ & Hch & _).
  apply wp_bind. unfold release. apply wp_modify. apply wp_ret.
  split.
  - apply (MV_trans s s1); [exact HR01|]. apply (MV_trans s1 s2); [exact HR12 | apply MV_stack].
  - rewrite Hch. reflexivity.
Qed.

Theorem nlevel_ok : forall n,
  fetch_nx (level prog noeq n) n /\ mca_nx (level prog noeq n) n.
Proof.
  induction n as [|n [IHF IHM]].
  - split; intros q; intros; lia.
  - destruct (dlevel_full prog noeq rank Hrank NF Hbound H D n) as [HF HM].
    split.
    + intros q s Hq HI Hst Hset. cbn [level l_fetch].
      apply (fetch_nx_ok (level prog noeq n) n HM IHM q s); [lia | exact HI | exact Hst | exact Hset].
    + intros q since s Hq HI Hst Hset. cbn [level l_mca].
      apply (mca_nx_ok (level prog noeq n) n HM IHM q since s); [lia | exact HI | exact Hst | exact Hset].
Qed.

End VOps.

Section VTop.
Variable prog : qkey -> body.
Variable noeq : qkey -> bool.
Variable fams : list N.
Variable rank : qkey -> nat.
Hypothesis Hrank : calls_below prog rank.
Variable NF : nat.
Hypothesis Hbound : forall q, (rank q < NF)%nat.
Notation state_ok := (state_ok prog NF).

(* a Get of a settled query returns the from-scratch value and executes nothing *)
Definition unchanged_reused (s : db) (q : qkey) (s' : db) (r : out) : Prop :=
  settled s q -> forall v, r = Ok v ->
  v = eval prog NF (snap_of s) q /\
  exists new, d_log s' = new ++ d_log s /\ forall x, ~ In (EvExec x) new.

Lemma get_unchanged_reused fuel s q :
  (forall p, (rank p < fuel)%nat) -> state_ok false s ->
  unchanged_reused s q (fst (step prog noeq fams fuel s (OGet q))) (snd (step prog noeq fams fuel s (OGet q))).
Proof.
  intros Hfuel Hok Hset v Hr.
  destruct (step prog noeq fams fuel s (OGet q)) as [s' r] eqn:Hstep. cbn [fst snd] in *. subst r.
  destruct (get_rx prog noeq fams rank Hrank NF Hbound fuel s q s' v Hfuel Hok Hstep) as (_ & Hval & _).
  split; [exact Hval|].
  destruct Hok as [(H & D & HI) Hst]. cbn [step] in Hstep.
  destruct (dlevel_full prog noeq rank Hrank NF Hbound H D fuel) as [HF HM].
  destruct (nlevel_ok prog noeq rank Hrank NF Hbound H D fuel) as [_ HM'].
  assert (Hso : stack_ok rank s q) by (intros p Hp; rewrite Hst in Hp; destruct Hp).
  assert (Hq : (rank q <= fuel)%nat) by (specialize (Hfuel q); lia).
  pose proof (fetch_nx_ok prog noeq rank Hrank NF Hbound H D (level prog noeq fuel) fuel HM HM' q s Hq HI Hso Hset) as Hwp.
  unfold wp in Hwp.
  destruct (fetch prog noeq (level prog noeq fuel) q s) as [s1 [[[v1 d1] c1] | p |]] eqn:Hf;
    [|discriminate | discriminate].
  injection Hstep as <- <-. apply (mv_log _ _ Hwp).
Qed.

Theorem unchanged_reused_all fuel :
  (forall p, (rank p < fuel)%nat) ->
  forall ops dirty s, Forall dur_op ops -> wf_ops dirty ops -> state_ok dirty s ->
  gets_sat prog noeq fams unchanged_reused fuel s ops.
Proof.
  intros Hfuel. apply (gets_sat_reachable prog noeq fams rank Hrank NF Hbound unchanged_reused fuel Hfuel).
  intros s q Hok. apply get_unchanged_reused; assumption.
Qed.

Theorem unchanged_reused_init fuel :
  (forall p, (rank p < fuel)%nat) ->
  forall iv idur lru0 ops, (forall i, idur i <= 3) -> Forall dur_op ops -> wf_ops false ops ->
  gets_sat prog noeq fams unchanged_reused fuel (init iv idur lru0) ops.
Proof.
  intros Hfuel. apply (gets_sat_init prog noeq fams rank Hrank NF Hbound unchanged_reused fuel Hfuel).
  intros s q Hok. apply get_unchanged_reused; assumption.
Qed.

End VTop.
