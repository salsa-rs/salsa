(* Core/LevelOps.v — the level functions of the Core model (fetch, maybe_changed_after,
   verify_memo, execute, walk_edges, run_body) preserve an invariant and meet their
   specification, for ANY invariant [I] that comes with the facts collected in [level_facts]:
   one weakest-precondition proof per function, and one induction on the level ties the knot.
   Three instances supply the facts: Core/InvOps.v (LOW inputs, ghost [seen] sets),
   Core/DInvOps.v (all durabilities, observer clause), and Core/DReuseOps.v, where the
   extension relation also says what a computation does to the log -- which is why the facts
   speak of the two events and of whole executions, and why the specifications say what a
   "changed" answer and a failed verification mean.  (Core/DPartOps.v and Core/DCycleTerm.v walk
   the same functions on their own: without a rank the induction is on the claim stack, and
   the cycle panic is part of the specification.) *)
From Salsa Require Import Base.
From Salsa.Kern Require Import CoreK CoreKFacts.
From Salsa.Core Require Import Model Spec SpecProofs Wp Inv InvFrame InvSem.

Lemma shallow_cases s m :
  match shallow_verify s m with
  | ShVerified => m_verified m = cur s
  | ShHigher => m_verified m <> cur s /\ last_changed (d_revs s) (m_dur m) <= m_verified m
  | ShNo => m_verified m <> cur s
  end.
Proof.
  unfold shallow_verify.
  destruct (N.eqb_spec (m_verified m) (cur s)) as [Heq | Hne]; [exact Heq|].
  destruct (shallow_ok (last_changed (d_revs s) (m_dur m)) (m_verified m)) eqn:Hsh; [|exact Hne].
  split; [exact Hne|]. apply shallow_ok_spec in Hsh. exact Hsh.
Qed.

Definition not_valid_with_value (s : db) (q : qkey) : Prop :=
  forall m0, d_memo s q = Some m0 -> m_verified m0 = cur s -> m_val m0 = None.

Lemma not_valid_of_ne s q m : d_memo s q = Some m -> m_verified m <> cur s -> not_valid_with_value s q.
Proof. intros Hm Hne m0 Hm0 Hv0. congruence. Qed.

(* what the answer "maybe changed since" means for d, in the state s' in which it is given:
   d has no value, or a later stamp.  Only DReuseOps.v reads this half of [mca_post]. *)
Definition mca_true (s' : db) (d : qkey) (since : rev) : Prop :=
  (forall md, d_memo s' d = Some md -> m_val md = None) \/
  exists md', d_memo s' d = Some md' /\ since < m_changed md'.

(* a recorded edge that answers "changed": an input is judged in s, where the walk started (a
   walk does not write inputs), a callee in s', after it answered *)
Definition edge_changed (s s' : db) (since : rev) (e : edge) : Prop :=
  match e with
  | EIn i => since < f_changed (d_in s i)
  | EQ d => mca_true s' d since
  end.

(* why verify_memo answered false for the memo m: it becomes the reason [J] for executing *)
Definition verify_failed (s s' : db) (m : memo) : Prop :=
  m_untracked m = true \/ exists e, In e (m_edges m) /\ edge_changed s s' (m_verified m) e.

(* Why q is executed, judged in the state s in which the decision is taken; s' supplies the
   stamps of q's recorded callees after they were asked whether they changed.  In this file
   the two states coincide ([J s s q]: execute starts after the walk).  DReuse.v needs them
   apart, for the executions logged anywhere between s and s': "d has no value" is stated in
   the EARLIER state because values are not lost inside a revision, so it can be carried back
   to s, while a stamp only grows, so "later stamp" can be carried forward to s'
   (DReuse.J_post) -- unlike [mca_true], which speaks of one state. *)
Definition J (s s' : db) (q : qkey) : Prop :=
  not_valid_with_value s q /\
  (d_memo s q = None \/
   exists m, d_memo s q = Some m /\
     (m_val m = None \/ m_untracked m = true \/
      (exists i, In (EIn i) (m_edges m) /\ m_verified m < f_changed (d_in s i)) \/
      (exists d, In (EQ d) (m_edges m) /\
         ((forall md, d_memo s d = Some md -> m_val md = None) \/
          exists md', d_memo s' d = Some md' /\ m_verified m < m_changed md')))).

Section Level.
Variable prog : qkey -> body.
Variable noeq : qkey -> bool.
Variable rank : qkey -> nat.
Hypothesis Hrank : calls_below prog rank.
Variable NF : nat.
Hypothesis Hbound : forall q, (rank q < NF)%nat.
Variable H : hist.
Notation E := (E prog NF H).
Notation tr := (tr prog NF H).
Notation envat := (envat prog NF H).
Notation stack_ok := (stack_ok rank).

Definition stack_above (s : db) (q : qkey) : Prop :=
  forall p, In p (d_stack s) -> (rank q <= rank p)%nat.

Lemma claim_ok q s (Q : unit -> db -> Prop) (X : panic -> db -> Prop) :
  stack_ok s q -> Q tt (set_stack s (q :: d_stack s)) -> wp (claim q) Q X s.
Proof.
  intros Hst HQ. unfold claim. apply wp_bind, wp_get.
  destruct (existsb (key_eqb q) (d_stack s)) eqn:Hex.
  - exfalso. apply existsb_exists in Hex. destruct Hex as (x & Hx & Heq).
    apply key_eqb_eq in Heq. subst x. specialize (Hst q Hx). lia.
  - apply wp_modify. exact HQ.
Qed.

Lemma stacked s q : stack_ok s q -> stack_above (set_stack s (q :: d_stack s)) q.
Proof. intros Hst p [<- | Hp]; [lia | specialize (Hst p Hp); lia]. Qed.

Lemma stack_above_callee s q d : (rank d < rank q)%nat -> stack_above s q -> stack_ok s d.
Proof. intros Hd Hst p Hp. specialize (Hst p Hp). lia. Qed.

Variable I : db -> Prop.
Variable ext : db -> db -> Prop.                  (* what a sub-computation may change *)
Variable touch : db -> db -> nat -> Prop.         (* ... and only below a rank *)
Variable allowed : db -> panic -> Prop.           (* panics that may escape *)
Variable covers : db -> list rd -> frame -> Prop. (* the frame accounts for the reads so far *)
(* what the memo m of a walker q must know of a recorded callee d before the walk asks d, and
   what it has learnt once d answered "unchanged" *)
Variable edge_pre edge_done : db -> qkey -> memo -> qkey -> Prop.
(* Between two states, the execution of a query has run to its end.  No fact constrains it:
   [lf_fresh] produces it, [exec_post] hands it on, and only DReuseOps.v instantiates it (the
   event is in the log); InvOps.v and DInvOps.v take [fun _ _ _ => True]. *)
Variable executed : db -> db -> qkey -> Prop.

Definition walked (s : db) (q : qkey) (m : memo) (e : edge) : Prop :=
  match e with
  | EIn i => f_changed (d_in s i) <= m_verified m
  | EQ d => edge_done s q m d
  end.

Definition marked (s : db) (q : qkey) (m : memo) : Prop :=
  I (store s q (reverify m (cur s))) /\ ext s (store s q (reverify m (cur s))) /\
  E (cur s) q = E (m_verified m) q.

(* why the execution that replaces o by a memo with value v from frame fr cannot keep o's stamp *)
Definition not_backdated (q : qkey) (o : memo) (v : val) (fr : frame) : Prop :=
  noeq q = true \/ m_val o = None \/ fr_dur fr < m_dur o \/
  exists ov, m_val o = Some ov /\ ov <> v.

(* What an instance supplies.  [ext] is judged from the state in which a (sub-)computation
   starts; the postconditions below are [moved] plus what the function returns. *)
Record level_facts : Prop := {
  (* [I] ignores the log, the stack, the LRU lists and the fault switches (claim/release, LRU
     bookkeeping, emit) *)
  lf_core : forall s s', core_eq s s' -> I s -> I s';
  (* a step outside the core that keeps the log and arms no fault is an extension: claim,
     release, LRU bookkeeping, and the unwinding after an event fault *)
  lf_ext_core : forall s s', core_eq s s' -> d_log s' = d_log s -> d_pcell s' = d_pcell s ->
                (d_evfault s = None -> d_evfault s' = None) -> ext s s';
  (* The two steps that do write the log, one event each.  For InvOps.v and DInvOps.v [ext]
     does not read the log and these two repeat [lf_ext_core]; for DReuseOps.v [ext] demands
     a reason [J] for every logged execution, hence the premise -- always [J s s q], the
     reason is complete when execute starts. *)
  lf_ext_validate : forall s s' q, core_eq s s' -> d_log s' = EvValidate q :: d_log s ->
                    d_pcell s' = d_pcell s -> (d_evfault s = None -> d_evfault s' = None) -> ext s s';
  lf_ext_exec : forall s s' q, J s s q -> core_eq s s' -> d_log s' = EvExec q :: d_log s ->
                d_pcell s' = d_pcell s -> (d_evfault s = None -> d_evfault s' = None) -> ext s s';
  lf_touch_core : forall s s' k, core_eq s s' -> touch s s' k;
  (* [ext] is a preorder that fixes what a Get never writes: revisions (so [cur]), inputs, the
     fault switches (a fault may disarm itself, never arm) *)
  lf_ext_refl : forall s, ext s s;
  lf_ext_trans : forall s1 s2 s3, ext s1 s2 -> ext s2 s3 -> ext s1 s3;
  lf_ext_revs : forall s s', ext s s' -> d_revs s' = d_revs s;
  lf_ext_in : forall s s', ext s s' -> d_in s' = d_in s;
  lf_ext_pcell : forall s s', ext s s' -> d_pcell s' = d_pcell s;
  lf_ext_evfault : forall s s', ext s s' -> d_evfault s = None -> d_evfault s' = None;
  (* [touch s s' k]: only memos of rank below k differ.  This is what keeps a walker's or a
     caller's own memo in place while its callees run ([moved_memo]). *)
  lf_touch_refl : forall s k, touch s s k;
  lf_touch_trans : forall s1 s2 s3 k1 k2 k, (k1 <= k)%nat -> (k2 <= k)%nat ->
                   touch s1 s2 k1 -> touch s2 s3 k2 -> touch s1 s3 k;
  lf_touch_store : forall s q m k, (rank q < k)%nat -> touch s (store s q m) k;
  lf_touch_memo : forall s s' k p, touch s s' k -> (k <= rank p)%nat -> d_memo s' p = d_memo s p;
  (* Runs from the later state s' BACK to s: a panic of a sub-computation is judged where that
     one started, [XP s'], and has to be allowed where its caller started, [XP s]
     ([XP_trans]).  [allowed] reads the fault switches only, so the premises are the two
     equations [ext] gives, not [ext] itself. *)
  lf_allowed_ext : forall s s' p, d_pcell s' = d_pcell s ->
                   (d_evfault s = None -> d_evfault s' = None) -> allowed s' p -> allowed s p;
  (* an armed fault (PanicIf cell, event fault, the equality fault) may surface as PInjected *)
  lf_injected : forall s, (exists c, d_pcell s c <> 0) \/ d_evfault s <> None -> allowed s PInjected;
  (* What [I] says about the current revision; read by [run_body_ok], which replays the body
     against the specification environment [envat (cur s)].  An input unchanged since r has
     at r the value it has now. *)
  lf_in : forall s i r, I s -> f_changed (d_in s i) <= r -> r <= cur s ->
          sn_in (H r) i = f_val (d_in s i);
  lf_in_le : forall s i, I s -> f_changed (d_in s i) <= cur s;
  lf_cell : forall s c, I s -> sn_cell (H (cur s)) c = d_cell s c;
  (* a memoized value is the specification's, at the revision the memo was verified in: the
     value returned on a successful verification *)
  lf_val : forall s q m x, I s -> d_memo s q = Some m -> m_val m = Some x -> x = E (m_verified m) q;
  (* Verification.  The durability short-cut (ShHigher): nothing of m's durability was written
     since m was verified. *)
  lf_shortcut : forall s q m, I s -> d_memo s q = Some m -> m_verified m <> cur s ->
                last_changed (d_revs s) (m_dur m) <= m_verified m -> marked s q m;
  (* The edge walk.  A recorded callee has lower rank (so the level below answers for it) and
     satisfies [edge_pre] when the walk starts; both edge predicates survive the callees that
     run in between; an "unchanged" answer turns [edge_pre] into [edge_done]; when every edge
     is [walked], m may be marked. *)
  lf_edges : forall s q m d, I s -> d_memo s q = Some m -> In (EQ d) (m_edges m) ->
             (rank d < rank q)%nat /\ edge_pre s q m d;
  lf_pre_ext : forall s s' q m d, ext s s' -> edge_pre s q m d -> edge_pre s' q m d;
  lf_done_ext : forall s s' q m d, ext s s' -> edge_done s q m d -> edge_done s' q m d;
  lf_unchanged : forall s q m d md, I s -> d_memo s q = Some m -> edge_pre s q m d ->
                 d_memo s d = Some md -> m_verified md = cur s -> m_changed md <= m_verified m ->
                 edge_done s q m d;
  lf_deep : forall s q m, I s -> d_memo s q = Some m -> m_untracked m = false ->
            (forall e, In e (m_edges m) -> walked s q m e) -> marked s q m;
  (* Execution.  [covers s pre fr]: the frame fr accounts for the prefix pre of q's
     specification trace.  It starts empty, survives callees, and grows by one read per body
     constructor: RdIn, CallQ (the callee's memo is valid and has a value), RdCell/Touch. *)
  lf_cov0 : forall s, I s -> covers s [] frame0;
  lf_cov_ext : forall s s' pre fr, ext s s' -> covers s pre fr -> covers s' pre fr;
  lf_cov_in : forall s pre fr i, I s -> covers s pre fr ->
              covers s (pre ++ [RIn i]) (add_read fr (EIn i) (f_dur (d_in s i)) (f_changed (d_in s i)));
  lf_cov_q : forall s pre fr d md, I s -> covers s pre fr ->
             d_memo s d = Some md -> m_verified md = cur s -> m_val md <> None ->
             covers s (pre ++ [RQ d]) (add_read fr (EQ d) (m_dur md) (m_changed md));
  lf_cov_untracked : forall s pre fr x, I s -> covers s pre fr -> (x = RTouch \/ exists c, x = RCell c) ->
                     covers s (pre ++ [x]) (add_untracked fr (cur s));
  (* The whole of an execution of q, from s0 (where its event was logged, giving s1) to s (where
     the body has run and fr covers the whole trace): the fresh memo may be stored.  ch is the
     frame's stamp when backdating was impossible, or the old memo's when the value is
     unchanged.  The premises about s0, s1 and the log, and the conclusion [executed], are for
     DReuseOps.v, which has to show the execution in the log between s0 and the final state;
     InvOps.v and DInvOps.v use s and the last disjunction only. *)
  lf_fresh : forall s0 s1 s q fr v ch old,
             not_valid_with_value s0 q -> d_memo s0 q = old ->
             ext s0 s1 -> d_log s1 = EvExec q :: d_log s0 -> ext s1 s ->
             I s -> covers s (tr (cur s) q) fr -> v = E (cur s) q -> d_memo s q = old ->
             ((ch = fr_changed fr /\ forall o, old = Some o -> not_backdated q o v fr) \/
              exists o ov, old = Some o /\ m_val o = Some ov /\ ov = v /\ ch = m_changed o /\
                           m_dur o <= fr_dur fr /\ m_changed o <= fr_changed fr) ->
             I (store s q (fresh_memo v (cur s) ch fr)) /\ ext s0 (store s q (fresh_memo v (cur s) ch fr)) /\
             executed s0 (store s q (fresh_memo v (cur s) ch fr)) q;
  (* The backdate-violation assertion of execute fires in s, after the body; s0 stands for the
     state in which the panic is judged (where execute started) and is tied to s by nothing,
     because an instance either allows PBackdate in every state (InvOps.v) or shows from the
     premises about s that the assertion cannot fire (DInvOps.v: a covering frame's stamp is
     at least the old memo's). *)
  lf_backdate : forall s0 s q fr o, I s -> covers s (tr (cur s) q) fr -> d_memo s q = Some o ->
                fr_changed fr < m_changed o -> allowed s0 PBackdate
}.

Hypothesis F : level_facts.

(* from s to s': the invariant holds again, only memos below rank k moved, the stack is back.
   Every postcondition below begins with these four conjuncts, written out so that a client
   takes a post apart in one pattern; [moved_and] folds them. *)
Definition moved (s s' : db) (k : nat) : Prop :=
  I s' /\ ext s s' /\ touch s s' k /\ d_stack s' = d_stack s.

Lemma moved_and (P : Prop) s s' k :
  I s' /\ ext s s' /\ touch s s' k /\ d_stack s' = d_stack s /\ P <-> moved s s' k /\ P.
Proof.
  unfold moved. split.
  - intros (A & B & C & D & HP). exact (conj (conj A (conj B (conj C D))) HP).
  - intros ((A & B & C & D) & HP). exact (conj A (conj B (conj C (conj D HP)))).
Qed.

Lemma moved_refl s k : I s -> moved s s k.
Proof.
  intros HI. split; [exact HI|]. split; [apply (lf_ext_refl F)|].
  split; [apply (lf_touch_refl F) | reflexivity].
Qed.

Lemma moved_trans s1 s2 s3 k1 k2 k :
  (k1 <= k)%nat -> (k2 <= k)%nat -> moved s1 s2 k1 -> moved s2 s3 k2 -> moved s1 s3 k.
Proof.
  intros H1 H2 (_ & He1 & Ht1 & Hs1) (HI & He2 & Ht2 & Hs2).
  split; [exact HI|]. split; [apply (lf_ext_trans F s1 s2 s3 He1 He2)|].
  split; [apply (lf_touch_trans F s1 s2 s3 k1 k2 k H1 H2 Ht1 Ht2) | congruence].
Qed.

Lemma moved_up s s' k k' : (k <= k')%nat -> moved s s' k -> moved s s' k'.
Proof.
  intros Hk Hm. apply (moved_trans s s' s' k 0 k'); [exact Hk | lia | exact Hm|].
  apply moved_refl. apply Hm.
Qed.

Lemma moved_cur s s' k : moved s s' k -> cur s' = cur s.
Proof. intros (_ & He & _). unfold cur. rewrite (lf_ext_revs F _ _ He). reflexivity. Qed.

Lemma moved_memo s s' k p : moved s s' k -> (k <= rank p)%nat -> d_memo s' p = d_memo s p.
Proof. intros (_ & _ & Ht & _). apply (lf_touch_memo F). exact Ht. Qed.

Lemma moved_quiet s s' k :
  core_eq s s' -> d_log s' = d_log s -> d_pcell s' = d_pcell s ->
  (d_evfault s = None -> d_evfault s' = None) ->
  d_stack s' = d_stack s -> I s -> moved s s' k.
Proof.
  intros Hce Hl Hp Hev Hst HI. split; [apply (lf_core F s s' Hce HI)|].
  split; [apply (lf_ext_core F s s' Hce Hl Hp Hev)|].
  split; [apply (lf_touch_core F); exact Hce | exact Hst].
Qed.

Lemma moved_store s q m k :
  I (store s q m) -> ext s (store s q m) -> (rank q < k)%nat -> moved s (store s q m) k.
Proof.
  intros HI He Hk. split; [exact HI|]. split; [exact He|].
  split; [apply (lf_touch_store F); exact Hk | reflexivity].
Qed.

Lemma moved_claimed s q s2 k :
  moved (set_stack s (q :: d_stack s)) s2 k -> moved s (set_stack s2 (tl (d_stack s2))) k.
Proof.
  intros (HI & He & Ht & Hst).
  set (s1 := set_stack s (q :: d_stack s)) in *.
  assert (Hq : forall t l, ext t (set_stack t l)).
  { intros t l. apply (lf_ext_core F); [apply core_eq_stack | reflexivity | reflexivity | intros Hev; exact Hev]. }
  split; [apply (lf_core F s2); [apply core_eq_stack | exact HI]|].
  split.
  { apply (lf_ext_trans F s s1); [apply Hq|]. apply (lf_ext_trans F s1 s2); [exact He | apply Hq]. }
  split.
  { apply (lf_touch_trans F s s1 _ k k k); [lia | lia | apply (lf_touch_core F); apply core_eq_stack|].
    apply (lf_touch_trans F s1 s2 _ k k k);
      [lia | lia | exact Ht | apply (lf_touch_core F); apply core_eq_stack]. }
  cbn. rewrite Hst. reflexivity.
Qed.

Definition XP (s0 : db) : panic -> db -> Prop :=
  fun p s' => allowed s0 p /\ I s' /\ ext s0 s'.

Lemma XP_trans s0 s1 p s' : ext s0 s1 -> XP s1 p s' -> XP s0 p s'.
Proof.
  intros He (Ha & HI & He'). split.
  - apply (lf_allowed_ext F s0 s1); [apply (lf_ext_pcell F _ _ He) | apply (lf_ext_evfault F _ _ He) | exact Ha].
  - split; [exact HI | apply (lf_ext_trans F s0 s1 s' He He')].
Qed.

Lemma emit_ok e s s0 (Q : unit -> db -> Prop) :
  I s -> ext s0 s ->
  (forall s1, core_eq s s1 -> d_log s1 = e :: d_log s -> d_pcell s1 = d_pcell s ->
              (d_evfault s = None -> d_evfault s1 = None) -> ext s s1) ->
  (forall s1, core_eq s s1 -> moved s s1 0 -> d_log s1 = e :: d_log s -> Q tt s1) ->
  wp (emit e) Q (XP s0) s.
Proof.
  intros HI He Hext HQ. apply wp_emit.
  - (* the event is logged; the equations come in the order of [wp_emit]: revisions, inputs,
       cells, fault cells, memos, seen, stack, LRU, event fault, log *)
    intros s1 Hr Hi Hc Hp Hm Hs Hst Hl Hev Hlog.
    assert (Hce : core_eq s s1) by (repeat split; assumption).
    apply HQ; [exact Hce | | exact Hlog].
    split; [apply (lf_core F s s1 Hce HI)|]. split; [apply Hext; assumption|].
    split; [apply (lf_touch_core F); exact Hce | exact Hst].
  - (* the armed fault fires *)
    intros Hne.
    assert (Hce : core_eq s (set_evfault s None)) by (repeat split).
    split.
    + apply (lf_injected F). right. intros H0. apply Hne. apply (lf_ext_evfault F _ _ He). exact H0.
    + split; [apply (lf_core F s); assumption|].
      apply (lf_ext_trans F s0 s); [exact He|].
      apply (lf_ext_core F); [exact Hce | reflexivity | reflexivity | reflexivity].
Qed.

(* the caller says why, from any state that differs from s only outside the core, storing the
   re-verified memo is justified: an edge walk, or the durability short-cut *)
Lemma mark_verified_ok q m s s0 :
  ext s0 s -> I s ->
  (forall s1, core_eq s s1 -> moved s s1 0 -> marked s1 q m) ->
  wp (mark_verified q m)
     (fun m' s' => m' = reverify m (cur s) /\ moved s s' (S (rank q)) /\
                   d_memo s' q = Some m' /\ E (cur s) q = E (m_verified m) q) (XP s0) s.
Proof.
  intros He0 HI Hjust.
  unfold mark_verified.
  apply wp_bind, wp_get. apply wp_bind.
  apply (emit_ok _ s s0); [exact HI | exact He0 | intros s1; apply (lf_ext_validate F) |].
  intros s1 Hce Hmv1 _.
  apply wp_bind. unfold set_memo_at. apply wp_modify. apply wp_ret.
  change (set_seen _ _) with (store s1 q (reverify m (cur s))).
  destruct (Hjust s1 Hce Hmv1) as (HI2 & Hext & HE).
  rewrite (core_eq_cur _ _ Hce) in HI2, Hext, HE.
  split; [reflexivity|]. split.
  - apply (moved_trans s s1 _ 0 (S (rank q)) (S (rank q))); [lia | lia | exact Hmv1|].
    apply moved_store; [exact HI2 | exact Hext | lia].
  - split; [apply memo_store_same | exact HE].
Qed.

Definition verified_now (s0 : db) (q : qkey) (m : memo) (m' : memo) (s' : db) : Prop :=
  I s' /\ ext s0 s' /\ touch s0 s' (S (rank q)) /\ d_stack s' = d_stack s0 /\
  d_memo s' q = Some m' /\ m_verified m' = cur s0 /\ m_val m' = m_val m /\
  m_dur m' = m_dur m /\ m_changed m' = m_changed m /\ E (cur s0) q = E (m_verified m) q.

Lemma verified_now_marked s q m s' :
  moved s s' (S (rank q)) -> d_memo s' q = Some (reverify m (cur s)) ->
  E (cur s) q = E (m_verified m) q -> verified_now s q m (reverify m (cur s)) s'.
Proof.
  intros Hmv Hm' HE. apply moved_and. split; [exact Hmv|].
  split; [exact Hm'|]. split; [reflexivity|]. split; [reflexivity|].
  split; [reflexivity|]. split; [reflexivity | exact HE].
Qed.

Lemma update_shallow_ok q m s u s0 :
  ext s0 s ->
  I s -> d_memo s q = Some m -> shallow_verify s m = u -> u <> ShNo ->
  wp (update_shallow q m u) (fun m' s' => verified_now s q m m' s') (XP s0) s.
Proof.
  intros He0 HI Hm Hu Hne.
  pose proof (shallow_cases s m) as Hc. rewrite Hu in Hc.
  destruct u; [| | (* ShNo *) contradiction]; cbn [update_shallow].
  - (* ShVerified: nothing to do *)
    apply wp_ret. apply moved_and. split; [apply moved_refl; exact HI|].
    rewrite Hc. split; [exact Hm|]. repeat split.
  - (* ShHigher: the durability short-cut *)
    destruct Hc as [Hnow Hlc].
    eapply wp_conseq; [apply (mark_verified_ok q m s s0 He0 HI) | | intros; assumption].
    + intros s1 Hce Hmv1. apply (lf_shortcut F); [apply Hmv1 | | |].
      * rewrite (core_eq_memo _ _ Hce). exact Hm.
      * rewrite (core_eq_cur _ _ Hce). exact Hnow.
      * rewrite (core_eq_revs _ _ Hce). exact Hlc.
    + intros m' s' (-> & Hmv & Hm' & HE). apply verified_now_marked; assumption.
Qed.

Definition fetch_post (s0 : db) (q : qkey) (r : qres) (s' : db) : Prop :=
  I s' /\ ext s0 s' /\ touch s0 s' (S (rank q)) /\ d_stack s' = d_stack s0 /\
  fst (fst r) = E (cur s0) q /\
  exists m, d_memo s' q = Some m /\ m_verified m = cur s0 /\ m_val m = Some (fst (fst r)) /\
            m_dur m = snd (fst r) /\ m_changed m = snd r.

Definition fetch_spec (L : lower) (n : nat) : Prop :=
  forall q s, (rank q < n)%nat -> I s -> stack_ok s q ->
    wp (l_fetch L q) (fetch_post s q) (XP s) s.

Definition mca_post (s0 : db) (q : qkey) (since : rev) (b : bool) (s' : db) : Prop :=
  I s' /\ ext s0 s' /\ touch s0 s' (S (rank q)) /\ d_stack s' = d_stack s0 /\
  (b = false -> exists m, d_memo s' q = Some m /\ m_verified m = cur s0 /\ m_changed m <= since) /\
  (b = true -> mca_true s' q since).

Definition mca_spec (L : lower) (n : nat) : Prop :=
  forall q since s, (rank q < n)%nat -> I s -> stack_ok s q ->
    wp (l_mca L q since) (mca_post s q since) (XP s) s.

(* the walker q's memo m stays in the table during the walk: the walk only touches lower ranks *)
Lemma walk_edges_ok L n q m (HM : mca_spec L n) : forall es s,
  I s -> d_memo s q = Some m ->
  (forall d, In (EQ d) es -> (rank d < n)%nat /\ (rank d < rank q)%nat /\ edge_pre s q m d) ->
  stack_above s q ->
  wp (walk_edges L es (m_verified m))
     (fun b s' => I s' /\ ext s s' /\ touch s s' (rank q) /\ d_stack s' = d_stack s /\
        (b = false -> forall e, In e es -> walked s' q m e) /\
        (b = true -> exists e, In e es /\ edge_changed s s' (m_verified m) e)) (XP s) s.
Proof.
  induction es as [|e es IH]; intros s HI Hm Hes Hst; cbn [walk_edges].
  - apply wp_ret. apply moved_and. split; [apply moved_refl; exact HI|].
    split; [intros _ e [] | discriminate].
  - destruct e as [i | d].
    + apply wp_bind, wp_get.
      destruct (changed_after (f_changed (d_in s i)) (m_verified m)) eqn:Hca.
      * apply wp_ret. apply moved_and. split; [apply moved_refl; exact HI|].
        split; [discriminate|]. intros _. exists (EIn i). split; [left; reflexivity|].
        apply changed_after_spec. exact Hca.
      * apply changed_after_false in Hca.
        eapply wp_conseq; [apply (IH s HI Hm) | |intros; assumption].
        -- intros d Hd. apply Hes. right; exact Hd.
        -- exact Hst.
        -- intros b s' Hpost. apply moved_and in Hpost. destruct Hpost as (Hmv & Hb & Hbt).
           apply moved_and. split; [exact Hmv|]. split.
           ++ intros Hbf e [<- | He']; [|apply Hb; assumption].
              cbn. destruct Hmv as (_ & He & _). rewrite (lf_ext_in F _ _ He). exact Hca.
           ++ intros Hb1. destruct (Hbt Hb1) as (e & He & Hx). exists e. split; [right; exact He | exact Hx].
    + destruct (Hes d (or_introl eq_refl)) as (Hdn & Hdq & Hpre).
      apply wp_bind.
      eapply wp_conseq; [apply (HM d (m_verified m) s Hdn HI) | |intros; assumption].
      { apply (stack_above_callee s q d Hdq Hst). }
      intros c s1 Hpost. apply moved_and in Hpost. destruct Hpost as (Hmv1 & Hc & Hct).
      pose proof Hmv1 as (HI1 & He1 & _ & Hs1).
      assert (Hm1 : d_memo s1 q = Some m) by (rewrite (moved_memo _ _ _ q Hmv1) by lia; exact Hm).
      destruct c.
      * apply wp_ret. apply moved_and.
        split; [apply (moved_up s s1 (S (rank d))); [lia | exact Hmv1]|].
        split; [discriminate|]. intros _. exists (EQ d). split; [left; reflexivity | apply Hct; reflexivity].
      * destruct (Hc eq_refl) as (md & Hmd & Hvd & Hcd).
        rewrite <- (moved_cur _ _ _ Hmv1) in Hvd.
        assert (Hdone : edge_done s1 q m d).
        { apply (lf_unchanged F s1 q m d md HI1 Hm1); [|exact Hmd | exact Hvd | exact Hcd].
          apply (lf_pre_ext F s s1); assumption. }
        eapply wp_conseq; [apply (IH s1 HI1 Hm1) | |].
        -- intros d' Hd'. destruct (Hes d' (or_intror Hd')) as (A & B & C).
           split; [exact A|]. split; [exact B|]. apply (lf_pre_ext F s s1); assumption.
        -- intros p Hp. rewrite Hs1 in Hp. apply Hst; exact Hp.
        -- intros b s' Hpost. apply moved_and in Hpost. destruct Hpost as (Hmv & Hb & Hbt).
           apply moved_and. split.
           { apply (moved_trans s s1 s' (S (rank d)) (rank q)); [lia | lia | exact Hmv1 | exact Hmv]. }
           split.
           ++ intros Hbf e [<- | He']; [|apply Hb; assumption].
              cbn. destruct Hmv as (_ & He & _). apply (lf_done_ext F s1 s'); assumption.
           ++ intros Hb1. destruct (Hbt Hb1) as (e & He & Hx). exists e. split; [right; exact He|].
              destruct e as [i | d']; cbn in *; [rewrite <- (lf_ext_in F _ _ He1); exact Hx | exact Hx].
        -- intros p s' Hx. apply (XP_trans s s1); assumption.
Qed.

Definition verify_post (s0 : db) (q : qkey) (m : memo) (r : bool * memo) (s' : db) : Prop :=
  I s' /\ ext s0 s' /\ touch s0 s' (S (rank q)) /\ d_stack s' = d_stack s0 /\
  (fst r = true -> verified_now s0 q m (snd r) s') /\
  (fst r = false -> d_memo s' q = d_memo s0 q /\ verify_failed s0 s' m).

Lemma deep_verify_ok L n q m s (HM : mca_spec L n) :
  (rank q <= n)%nat -> I s -> d_memo s q = Some m -> stack_above s q ->
  wp (deep_verify L q m) (verify_post s q m) (XP s) s.
Proof.
  intros Hn HI Hm Hst. unfold deep_verify.
  destruct (m_untracked m) eqn:Hu.
  - apply wp_ret. apply moved_and. split; [apply moved_refl; exact HI|].
    split; [discriminate|]. intros _. split; [reflexivity | left; exact Hu].
  - apply wp_bind.
    eapply wp_conseq; [apply (walk_edges_ok L n q m HM (m_edges m) s HI Hm) | |intros; assumption].
    { intros d Hd. destruct (lf_edges F s q m d HI Hm Hd) as [Hdq Hpre].
      split; [lia|]. split; assumption. }
    { exact Hst. }
    intros c s1 Hpost. apply moved_and in Hpost. destruct Hpost as (Hmv1 & Hc & Hct).
    pose proof Hmv1 as (HI1 & He1 & _).
    pose proof (moved_cur _ _ _ Hmv1) as Hcur1.
    assert (Hm1 : d_memo s1 q = Some m) by (rewrite (moved_memo _ _ _ q Hmv1) by lia; exact Hm).
    destruct c.
    + apply wp_ret. apply moved_and. split; [apply (moved_up s s1 (rank q)); [lia | exact Hmv1]|].
      split; [discriminate|]. intros _. split; [congruence | right; apply Hct; reflexivity].
    + specialize (Hc eq_refl).
      apply wp_bind.
      eapply wp_conseq; [apply (mark_verified_ok q m s1 s He1 HI1) | |intros; assumption].
      * intros s2 Hce (HI2 & He2 & _).
        apply (lf_deep F s2 q m HI2); [rewrite (core_eq_memo _ _ Hce); exact Hm1 | exact Hu|].
        intros e He. specialize (Hc e He). destruct e as [i | d]; cbn in *.
        -- rewrite (lf_ext_in F _ _ He2). exact Hc.
        -- apply (lf_done_ext F s1 s2); assumption.
      * intros m' s2 (-> & Hmv2 & Hm2 & HE). rewrite Hcur1 in *.
        apply wp_ret.
        assert (Hmv : moved s s2 (S (rank q))).
        { apply (moved_trans s s1 s2 (rank q) (S (rank q))); [lia | lia | exact Hmv1 | exact Hmv2]. }
        apply moved_and. split; [exact Hmv|].
        split; [|discriminate]. intros _. apply verified_now_marked; assumption.
Qed.

Lemma verify_memo_ok L n q m s (HM : mca_spec L n) :
  (rank q <= n)%nat -> I s -> d_memo s q = Some m -> stack_above s q ->
  wp (verify_memo L q m) (verify_post s q m) (XP s) s.
Proof.
  intros Hn HI Hm Hst. unfold verify_memo.
  apply wp_bind, wp_get.
  assert (Hsh : forall u, shallow_verify s m = u -> u <> ShNo ->
            wp (m' <- update_shallow q m u ;; ret (true, m')) (verify_post s q m) (XP s) s).
  { intros u Hu Hne. apply wp_bind.
    eapply wp_conseq; [apply (update_shallow_ok q m s u s (lf_ext_refl F s) HI Hm Hu Hne) | |intros; assumption].
    intros m' s' Hv. apply wp_ret. pose proof Hv as Hv'.
    apply moved_and in Hv'. destruct Hv' as [Hmv _].
    apply moved_and. split; [exact Hmv|]. split; [intros _; exact Hv | discriminate]. }
  destruct (shallow_verify s m) eqn:Hs.
  - apply Hsh; [reflexivity | discriminate].
  - apply Hsh; [reflexivity | discriminate].
  - apply (deep_verify_ok L n q m s HM Hn HI Hm Hst).
Qed.

Lemma run_body_ok L n q c0 (HF : fetch_spec L n) : forall b pre fr s,
  cur s = c0 ->
  tr c0 q = pre ++ trace (envat c0) b ->
  E c0 q = run (envat c0) b ->
  (forall d, calls b d -> (rank d < n)%nat /\ (rank d < rank q)%nat) ->
  I s -> covers s pre fr -> stack_above s q ->
  wp (run_body L b fr)
     (fun r s' => I s' /\ ext s s' /\ touch s s' (rank q) /\ d_stack s' = d_stack s /\
                  fst r = E c0 q /\ covers s' (tr c0 q) (snd r)) (XP s) s.
Proof.
  induction b as [v | i k IH | d k IH | c k IH | k IH | pc k IH];
    intros pre fr s Hc Htr HE Hcalls HI Hcv Hst; cbn [run_body].
  - (* Ret *)
    apply wp_ret. cbn [trace run] in *. rewrite app_nil_r in Htr.
    apply moved_and. split; [apply moved_refl; exact HI|].
    cbn [fst snd]. split; [congruence|]. rewrite Htr. exact Hcv.
  - (* RdIn *)
    apply wp_bind, wp_get.
    assert (Hval : e_in (envat c0) i = f_val (d_in s i)).
    { cbn. apply (lf_in F s i c0 HI); [rewrite <- Hc; apply (lf_in_le F s i HI) | lia]. }
    cbn [trace run] in Htr, HE. rewrite Hval in Htr, HE.
    apply (IH (f_val (d_in s i)) (pre ++ [RIn i]) _ s Hc).
    + rewrite <- app_assoc. exact Htr.
    + exact HE.
    + intros d Hd. apply Hcalls. eapply calls_in_rdin; exact Hd.
    + exact HI.
    + apply (lf_cov_in F); assumption.
    + exact Hst.
  - (* CallQ *)
    destruct (Hcalls d (calls_here d k)) as [Hdn Hdq].
    apply wp_bind.
    eapply wp_conseq; [apply (HF d s Hdn HI) | |intros; assumption].
    { apply (stack_above_callee s q d Hdq Hst). }
    intros [[v dd] cd] s1 Hpost. apply moved_and in Hpost.
    destruct Hpost as (Hmv1 & Hv & (md & Hmd & Hvd & Hxd & Hdd & Hcd)).
    cbn [fst snd] in *.
    pose proof Hmv1 as (HI1 & He1 & _ & Hs1).
    pose proof (moved_cur _ _ _ Hmv1) as Hc1.
    assert (Hval : e_q (envat c0) d = v).
    { cbn. rewrite Hv, Hc. reflexivity. }
    cbn [trace run] in Htr, HE. rewrite Hval in Htr, HE.
    eapply wp_conseq; [apply (IH v (pre ++ [RQ d]) _ s1) | |].
    + congruence.
    + rewrite <- app_assoc. exact Htr.
    + exact HE.
    + intros d' Hd'. apply Hcalls. eapply calls_in_call; exact Hd'.
    + exact HI1.
    + subst dd cd. apply (lf_cov_q F); try assumption.
      * apply (lf_cov_ext F s s1); assumption.
      * congruence.
      * rewrite Hxd; discriminate.
    + intros p Hp. rewrite Hs1 in Hp. apply Hst; exact Hp.
    + intros r s2 Hpost. apply moved_and in Hpost. destruct Hpost as [Hmv2 Hr].
      apply moved_and. split; [|exact Hr].
      apply (moved_trans s s1 s2 (S (rank d)) (rank q)); [lia | lia | exact Hmv1 | exact Hmv2].
    + intros p s2 Hx. apply (XP_trans s s1); assumption.
  - (* RdCell *)
    apply wp_bind, wp_get.
    assert (Hval : e_cell (envat c0) c = d_cell s c).
    { cbn. rewrite <- Hc. apply (lf_cell F s c HI). }
    cbn [trace run] in Htr, HE. rewrite Hval in Htr, HE.
    apply (IH (d_cell s c) (pre ++ [RCell c]) _ s Hc).
    + rewrite <- app_assoc. exact Htr.
    + exact HE.
    + intros d Hd. apply Hcalls. eapply calls_in_cell; exact Hd.
    + exact HI.
    + apply (lf_cov_untracked F); [assumption | assumption | right; eauto].
    + exact Hst.
  - (* Touch *)
    apply wp_bind, wp_get.
    cbn [trace run] in Htr, HE.
    apply (IH (pre ++ [RTouch]) _ s Hc).
    + rewrite <- app_assoc. exact Htr.
    + exact HE.
    + intros d Hd. apply Hcalls. eapply calls_in_touch; exact Hd.
    + exact HI.
    + apply (lf_cov_untracked F); [assumption | assumption | left; reflexivity].
    + exact Hst.
  - (* PanicIf *)
    apply wp_bind, wp_get.
    cbn [trace run] in Htr, HE.
    destruct (d_pcell s pc =? 0) eqn:Hpc.
    + apply (IH pre fr s Hc); try assumption.
      intros d Hd. apply Hcalls. eapply calls_in_panicif; exact Hd.
    + apply wp_fail. split; [|split; [exact HI | apply (lf_ext_refl F)]].
      apply (lf_injected F). left. exists pc. apply N.eqb_neq. exact Hpc.
Qed.

Definition exec_post (s0 : db) (q : qkey) (m : memo) (s' : db) : Prop :=
  I s' /\ ext s0 s' /\ touch s0 s' (S (rank q)) /\ d_stack s' = d_stack s0 /\
  d_memo s' q = Some m /\ m_verified m = cur s0 /\ m_val m = Some (E (cur s0) q) /\
  executed s0 s' q.

Lemma execute_ok L n q s old (HF : fetch_spec L n) :
  (rank q <= n)%nat -> I s -> d_memo s q = old ->
  stack_above s q -> J s s q ->
  wp (execute prog noeq L q old) (exec_post s q) (XP s) s.
Proof.
  intros Hn HI Hold Hst HJ. unfold execute.
  apply wp_bind.
  apply (emit_ok _ s s); [exact HI | apply (lf_ext_refl F) | intros s1; apply (lf_ext_exec F); exact HJ |].
  intros s1 Hce Hmv01 Hlog1.
  pose proof Hmv01 as (HI1 & He01 & _ & Hst01).
  assert (Hcur01 : cur s1 = cur s) by (apply core_eq_cur; exact Hce).
  apply wp_bind.
  eapply wp_conseq; [apply (run_body_ok L n q (cur s) HF (prog q) [] frame0 s1) | |].
  - exact Hcur01.
  - reflexivity.
  - apply (E_unfold prog rank Hrank NF Hbound).
  - intros d Hd. pose proof (Hrank q d Hd). split; lia.
  - exact HI1.
  - apply (lf_cov0 F). exact HI1.
  - intros p Hp. rewrite Hst01 in Hp. apply Hst; exact Hp.
  - intros [v fr] s2 Hpost. apply moved_and in Hpost. destruct Hpost as (Hmv12 & Hv & Hcv).
    cbn [fst snd] in *.
    assert (Hmv02 : moved s s2 (rank q)).
    { apply (moved_trans s s1 s2 0 (rank q)); [lia | lia | exact Hmv01 | exact Hmv12]. }
    pose proof Hmv02 as (HI2 & He02 & _ & Hs2).
    pose proof (moved_cur _ _ _ Hmv02) as Hc2.
    apply wp_bind, wp_get.
    assert (Hold2 : d_memo s2 q = old) by (rewrite (moved_memo _ _ _ q Hmv02) by lia; exact Hold).
    rewrite <- Hc2 in Hcv, Hv.
    (* the common ending: store the fresh memo with stamp ch *)
    assert (Hfin : forall ch,
      ((ch = fr_changed fr /\ forall o, old = Some o -> not_backdated q o v fr) \/
       exists o ov, old = Some o /\ m_val o = Some ov /\ ov = v /\ ch = m_changed o /\
                    m_dur o <= fr_dur fr /\ m_changed o <= fr_changed fr) ->
      wp (set_memo_at q (fresh_memo v (cur s2) ch fr) ;;; ret (fresh_memo v (cur s2) ch fr))
         (exec_post s q) (XP s) s2).
    { intros ch Hch. apply wp_bind. unfold set_memo_at. apply wp_modify. apply wp_ret.
      change (set_seen _ _) with (store s2 q (fresh_memo v (cur s2) ch fr)).
      destruct (lf_fresh F s s1 s2 q fr v ch old (proj1 HJ) Hold He01 Hlog1 (proj1 (proj2 Hmv12))
                  HI2 Hcv Hv Hold2 Hch) as (HI3 & He3 & Hex3).
      apply moved_and. split.
      { split; [exact HI3|]. split; [exact He3|]. split; [|exact Hs2].
        destruct Hmv02 as (_ & _ & Ht02 & _).
        apply (lf_touch_trans F s s2 _ (rank q) (S (rank q))); [lia | lia | exact Ht02|].
        apply (lf_touch_store F). lia. }
      split; [apply memo_store_same|].
      split; [cbn; exact Hc2|]. split; [cbn; rewrite Hv, Hc2; reflexivity | exact Hex3]. }
    destruct old as [o|].
    + destruct (m_val o) as [ov|] eqn:Hov.
      * destruct (can_backdate_dur (fr_dur fr) (m_dur o) && negb (noeq q)) eqn:Hbk.
        -- apply andb_true_iff in Hbk. destruct Hbk as [Hbk _]. apply can_backdate_dur_spec in Hbk.
           destruct (d_pcell s2 EQ_FAULT =? 0) eqn:Hqf; cbn [negb].
           ++ destruct (ov =? v) eqn:Hbd.
              ** destruct (changed_after (m_changed o) (fr_changed fr)) eqn:Hca.
                 --- apply changed_after_spec in Hca. apply wp_fail.
                     split; [|split; [exact HI2 | exact He02]].
                     apply (lf_backdate F s s2 q fr o HI2 Hcv Hold2 Hca).
                 --- apply changed_after_false in Hca.
                     apply Hfin. right. exists o, ov. apply N.eqb_eq in Hbd. repeat split; assumption.
              ** apply Hfin. left. split; [reflexivity|]. intros o0 Ho0. injection Ho0 as <-.
                 right; right; right. exists ov. split; [exact Hov | apply N.eqb_neq; exact Hbd].
           ++ apply wp_fail. split; [|split; [exact HI2 | exact He02]].
              apply (lf_injected F). left. exists EQ_FAULT.
              rewrite <- (lf_ext_pcell F _ _ He02). apply N.eqb_neq. exact Hqf.
        -- apply Hfin. left. split; [reflexivity|]. intros o0 Ho0. injection Ho0 as <-.
           apply andb_false_iff in Hbk. destruct Hbk as [Hbk | Hbk].
           ++ right; right; left.
              destruct (N.le_gt_cases (m_dur o) (fr_dur fr)) as [Hle | Hgt]; [|exact Hgt].
              apply can_backdate_dur_spec in Hle. congruence.
           ++ left. apply negb_false_iff. exact Hbk.
      * apply Hfin. left. split; [reflexivity|]. intros o0 Ho0. injection Ho0 as <-.
        right; left. exact Hov.
    + apply Hfin. left. split; [reflexivity|]. intros o0 Ho0. discriminate.
  - intros p s' Hx. apply (XP_trans s s1); assumption.
Qed.

Definition got (s0 : db) (q : qkey) (mv : memo * val) (s' : db) : Prop :=
  I s' /\ ext s0 s' /\ touch s0 s' (S (rank q)) /\ d_stack s' = d_stack s0 /\
  d_memo s' q = Some (fst mv) /\ m_verified (fst mv) = cur s0 /\
  m_val (fst mv) = Some (snd mv) /\ snd mv = E (cur s0) q.

Lemma J_of_failed s1 s2 q m k :
  moved s1 s2 k -> not_valid_with_value s2 q -> d_memo s2 q = Some m ->
  verify_failed s1 s2 m -> J s2 s2 q.
Proof.
  intros (_ & He & _) Hnv Hm2 Hvf. split; [exact Hnv|].
  right. exists m. split; [exact Hm2|].
  destruct Hvf as [Hu | (e & He' & Hx)]; [right; left; exact Hu|].
  right; right. destruct e as [i | d]; cbn in Hx.
  - left. exists i. split; [exact He'|]. rewrite (lf_ext_in F _ _ He). exact Hx.
  - right. exists d. split; [exact He' | exact Hx].
Qed.

Lemma fetch_cold_ok L n q s (HF : fetch_spec L n) (HM : mca_spec L n) :
  (rank q <= n)%nat -> I s -> stack_ok s q -> not_valid_with_value s q ->
  wp (fetch_cold prog noeq L q) (got s q) (XP s) s.
Proof.
  intros Hn HI Hst Hnv. unfold fetch_cold.
  apply wp_bind. apply claim_ok; [exact Hst|].
  set (s1 := set_stack s (q :: d_stack s)).
  assert (Hce : core_eq s s1) by apply core_eq_stack.
  assert (HI1 : I s1) by (apply (lf_core F s); assumption).
  assert (He01 : ext s s1)
    by (apply (lf_ext_core F); [exact Hce | reflexivity | reflexivity | intros A; exact A]).
  assert (Hst1 : stack_above s1 q) by (apply stacked; exact Hst).
  apply wp_bind, wp_get. change (d_memo s1 q) with (d_memo s q).
  (* the execute branch, from any state s2 reached without touching q's memo *)
  assert (Hnvs : forall s2, moved s1 s2 (S (rank q)) -> d_memo s2 q = d_memo s q ->
            not_valid_with_value s2 q).
  { intros s2 Hmv2 Hm2 m0 A B. pose proof (moved_cur _ _ _ Hmv2) as Hc2.
    change (cur s1) with (cur s) in Hc2. apply Hnv; congruence. }
  assert (Hexec : forall s2, moved s1 s2 (S (rank q)) -> d_memo s2 q = d_memo s q -> J s2 s2 q ->
            wp (m <- execute prog noeq L q (d_memo s q) ;;
                release q ;;;
                match m_val m with Some v => ret (m, v) | None => nofuel end)
               (got s q) (XP s) s2).
  { intros s2 Hmv2 Hm2 HJ2. pose proof Hmv2 as (HI2 & He2 & _ & Hs2).
    pose proof (moved_cur _ _ _ Hmv2) as Hc2. change (cur s1) with (cur s) in Hc2.
    apply wp_bind.
    eapply wp_conseq; [apply (execute_ok L n q s2 (d_memo s q) HF Hn HI2 Hm2) | |].
    - intros p Hp. rewrite Hs2 in Hp. apply Hst1; exact Hp.
    - exact HJ2.
    - intros m s3 Hpost. apply moved_and in Hpost. destruct Hpost as (Hmv3 & Hm3 & Hv3 & Hx3 & _).
      apply wp_bind. unfold release. apply wp_modify.
      rewrite Hx3. apply wp_ret.
      apply moved_and. split.
      { apply (moved_claimed s q).
        apply (moved_trans s1 s2 s3 (S (rank q)) (S (rank q))); [lia | lia | exact Hmv2 | exact Hmv3]. }
      cbn [fst snd]. split; [exact Hm3|]. split; [congruence|]. split; [congruence | congruence].
    - intros p s3 Hx. apply (XP_trans s s2); [apply (lf_ext_trans F s s1 s2 He01 He2) | exact Hx]. }
  destruct (d_memo s q) as [m|] eqn:Hm.
  - destruct (m_val m) as [v|] eqn:Hv.
    + apply wp_bind. apply wp_bind.
      eapply wp_conseq; [apply (verify_memo_ok L n q m s1 HM Hn HI1 Hm Hst1) | |].
      * intros [b m'] s2 Hpost. apply moved_and in Hpost. destruct Hpost as (Hmv2 & Htrue & Hfalse).
        cbn [fst snd] in *.
        apply wp_ret.
        destruct b.
        -- destruct (Htrue eq_refl) as (_ & _ & _ & _ & Hm' & Hv' & Hval' & _ & _ & HE).
           apply wp_bind. unfold release. apply wp_modify. apply wp_ret.
           apply moved_and. split; [apply (moved_claimed s q); exact Hmv2|].
           cbn [fst snd].
           split; [exact Hm'|]. split; [exact Hv'|]. split; [congruence|].
           change (cur s1) with (cur s) in HE. rewrite HE.
           apply (lf_val F s q m v HI Hm Hv).
        -- destruct (Hfalse eq_refl) as [Hsame Hvf].
           assert (Hm2 : d_memo s2 q = Some m) by (rewrite Hsame; exact Hm).
           apply Hexec; [exact Hmv2 | exact Hm2|].
           apply (J_of_failed s1 s2 q m _ Hmv2 (Hnvs s2 Hmv2 Hm2) Hm2 Hvf).
      * intros p s2 Hx. apply (XP_trans s s1); assumption.
    + apply wp_bind, wp_ret.
      apply Hexec; [apply moved_refl; exact HI1 | exact Hm|].
      split; [apply (Hnvs s1 (moved_refl s1 _ HI1) Hm)|].
      right. exists m. split; [exact Hm | left; exact Hv].
  - apply wp_bind, wp_ret.
    apply Hexec; [apply moved_refl; exact HI1 | exact Hm|].
    split; [apply (Hnvs s1 (moved_refl s1 _ HI1) Hm) | left; exact Hm].
Qed.

Definition hot_post (s : db) (q : qkey) (hot : option (memo * val)) (s' : db) : Prop :=
  match hot with
  | Some mv => got s q mv s'
  | None => s' = s /\ not_valid_with_value s q
  end.

Lemma fetch_hot_ok q s : I s -> wp (fetch_hot q) (hot_post s q) (XP s) s.
Proof.
  intros HI. unfold fetch_hot. apply wp_bind, wp_get.
  destruct (d_memo s q) as [m|] eqn:Hm.
  - destruct (m_val m) as [v|] eqn:Hv.
    + assert (Hgot : forall u, shallow_verify s m = u -> u <> ShNo ->
                wp (m' <- update_shallow q m u ;; ret (Some (m', v))) (hot_post s q) (XP s) s).
      { intros u Hu Hne. apply wp_bind.
        eapply wp_conseq; [apply (update_shallow_ok q m s u s (lf_ext_refl F s) HI Hm Hu Hne) | |intros; assumption].
        intros m' s' Hvn. apply moved_and in Hvn.
        destruct Hvn as (Hmv & Hm' & Hv' & Hval' & _ & _ & HE).
        apply wp_ret. apply moved_and. split; [exact Hmv|]. cbn [fst snd].
        split; [exact Hm'|]. split; [exact Hv'|]. split; [congruence|].
        rewrite HE. apply (lf_val F s q m v HI Hm Hv). }
      destruct (shallow_verify s m) eqn:Hsh.
      * apply Hgot; [reflexivity | discriminate].
      * apply Hgot; [reflexivity | discriminate].
      * apply wp_ret. split; [reflexivity|].
        pose proof (shallow_cases s m) as Hc. rewrite Hsh in Hc.
        eapply not_valid_of_ne; eassumption.
    + apply wp_ret. split; [reflexivity|]. intros m0 Hm0 _. congruence.
  - apply wp_ret. split; [reflexivity|]. intros m0 Hm0. congruence.
Qed.

Lemma fetch_ok L n (HF : fetch_spec L n) (HM : mca_spec L n) :
  forall q s, (rank q <= n)%nat -> I s -> stack_ok s q ->
    wp (fetch prog noeq L q) (fetch_post s q) (XP s) s.
Proof.
  intros q s Hn HI Hst. unfold fetch.
  apply wp_bind.
  eapply wp_conseq; [apply (fetch_hot_ok q s HI) | |intros; assumption].
  intros hot s1 Hhot.
  assert (Hfin : forall mv s2, got s q mv s2 ->
            wp (modify (fun s => set_lru s (updN (d_lru s) (fst q) (lru_record_use (d_lru s (fst q)) (snd q)))) ;;;
                ret (memo_qres (fst mv) (snd mv))) (fetch_post s q) (XP s) s2).
  { intros [m v] s2 Hgot. apply moved_and in Hgot. destruct Hgot as (Hmv & Hm & Hv & Hval & HE).
    cbn [fst snd] in *.
    apply wp_bind, wp_modify, wp_ret.
    apply moved_and. split.
    { apply (moved_trans s s2 _ (S (rank q)) 0); [lia | lia | exact Hmv|].
      apply moved_quiet; [apply core_eq_lru | reflexivity | reflexivity | intros A; exact A | reflexivity | apply Hmv]. }
    unfold memo_qres; cbn [fst snd]. split; [exact HE|].
    exists m. repeat split; assumption. }
  apply wp_bind.
  destruct hot as [mv|].
  - apply wp_ret. apply Hfin. exact Hhot.
  - destruct Hhot as [-> Hnv].
    eapply wp_conseq; [apply (fetch_cold_ok L n q s HF HM Hn HI Hst Hnv) | |intros; assumption].
    intros mv s2 Hgot. apply Hfin. exact Hgot.
Qed.

Lemma mca_cold_ok L n q since s (HF : fetch_spec L n) (HM : mca_spec L n) :
  (rank q <= n)%nat -> I s -> stack_ok s q -> not_valid_with_value s q ->
  wp (mca_cold prog noeq L q since) (mca_post s q since) (XP s) s.
Proof.
  intros Hn HI Hst Hnv. unfold mca_cold.
  apply wp_bind. apply claim_ok; [exact Hst|].
  set (s1 := set_stack s (q :: d_stack s)).
  assert (Hce : core_eq s s1) by apply core_eq_stack.
  assert (HI1 : I s1) by (apply (lf_core F s); assumption).
  assert (He01 : ext s s1)
    by (apply (lf_ext_core F); [exact Hce | reflexivity | reflexivity | intros A; exact A]).
  assert (Hst1 : stack_above s1 q) by (apply stacked; exact Hst).
  apply wp_bind, wp_get. change (d_memo s1 q) with (d_memo s q).
  (* leaving: release and return b, from a state s2 *)
  assert (Hleave : forall b s2, moved s1 s2 (S (rank q)) ->
            (b = false -> exists m, d_memo s2 q = Some m /\ m_verified m = cur s /\ m_changed m <= since) ->
            (b = true -> mca_true s2 q since) ->
            wp (release q ;;; ret b) (mca_post s q since) (XP s) s2).
  { intros b s2 Hmv2 Hb Hbt.
    apply wp_bind. unfold release. apply wp_modify. apply wp_ret.
    apply moved_and. split; [apply (moved_claimed s q); exact Hmv2|]. split; [exact Hb | exact Hbt]. }
  (* what the answer means when it is computed from a memo m' stored for q *)
  assert (Hans : forall s2 m', d_memo s2 q = Some m' -> m_verified m' = cur s ->
            (changed_after (m_changed m') since = false ->
             exists m, d_memo s2 q = Some m /\ m_verified m = cur s /\ m_changed m <= since) /\
            (changed_after (m_changed m') since = true -> mca_true s2 q since)).
  { intros s2 m' Hm' Hv'. split; intros Hca.
    - apply changed_after_false in Hca. exists m'. split; [exact Hm'|]. split; [exact Hv' | exact Hca].
    - apply changed_after_spec in Hca. right. exists m'. split; [exact Hm' | exact Hca]. }
  destruct (d_memo s q) as [old|] eqn:Hm.
  - apply wp_bind.
    eapply wp_conseq; [apply (verify_memo_ok L n q old s1 HM Hn HI1 Hm Hst1) | |].
    + intros [b m'] s2 Hpost. apply moved_and in Hpost. destruct Hpost as (Hmv2 & Htrue & Hfalse).
      cbn [fst snd] in *.
      destruct b.
      * destruct (Htrue eq_refl) as (_ & _ & _ & _ & Hm' & Hv' & _).
        apply Hleave; [exact Hmv2 | apply (Hans s2 m' Hm' Hv') ..].
      * destruct (Hfalse eq_refl) as [Hsame Hvf]. change (d_memo s1 q) with (d_memo s q) in Hsame.
        assert (Hm2 : d_memo s2 q = Some old) by (rewrite Hsame; exact Hm).
        destruct (m_val old) as [ov|] eqn:Hov.
        -- apply wp_bind.
           pose proof Hmv2 as (HI2 & He2 & _ & Hs2).
           pose proof (moved_cur _ _ _ Hmv2) as Hc2. change (cur s1) with (cur s) in Hc2.
           eapply wp_conseq; [apply (execute_ok L n q s2 (Some old) HF Hn HI2 Hm2) | |].
           ++ intros p Hp. rewrite Hs2 in Hp. apply Hst1; exact Hp.
           ++ apply (J_of_failed s1 s2 q old _ Hmv2); [|exact Hm2 | exact Hvf].
              intros m0 A B. apply Hnv; congruence.
           ++ intros mnew s3 Hpost. apply moved_and in Hpost. destruct Hpost as (Hmv3 & Hm3 & Hv3 & _).
              apply Hleave; [|apply (Hans s3 mnew Hm3); congruence ..].
              apply (moved_trans s1 s2 s3 (S (rank q)) (S (rank q))); [lia | lia | exact Hmv2 | exact Hmv3].
           ++ intros p s3 Hx. apply (XP_trans s s2); [apply (lf_ext_trans F s s1 s2 He01 He2) | exact Hx].
        -- apply Hleave; [exact Hmv2 | discriminate|]. intros _. left.
           intros md Hmd. rewrite Hm2 in Hmd. injection Hmd as <-. exact Hov.
    + intros p s2 Hx. apply (XP_trans s s1); assumption.
  - apply Hleave; [apply moved_refl; exact HI1 | discriminate|]. intros _. left.
    intros md Hmd. change (d_memo s1 q) with (d_memo s q) in Hmd. congruence.
Qed.

Lemma mca_ok L n (HF : fetch_spec L n) (HM : mca_spec L n) :
  forall q since s, (rank q <= n)%nat -> I s -> stack_ok s q ->
    wp (mca prog noeq L q since) (mca_post s q since) (XP s) s.
Proof.
  intros q since s Hn HI Hst. unfold mca.
  apply wp_bind, wp_get.
  destruct (d_memo s q) as [m|] eqn:Hm.
  - assert (Hgot : forall u, shallow_verify s m = u -> u <> ShNo ->
              wp (m' <- update_shallow q m u ;; ret (changed_after (m_changed m') since))
                 (mca_post s q since) (XP s) s).
    { intros u Hu Hne. apply wp_bind.
      eapply wp_conseq; [apply (update_shallow_ok q m s u s (lf_ext_refl F s) HI Hm Hu Hne) | |intros; assumption].
      intros m' s' Hvn. apply moved_and in Hvn. destruct Hvn as (Hmv & Hm' & Hv' & _ & _ & Hch' & _).
      apply wp_ret. apply moved_and. split; [exact Hmv|]. split; intros Hca.
      - apply changed_after_false in Hca. exists m'. split; [exact Hm'|]. split; [exact Hv' | exact Hca].
      - apply changed_after_spec in Hca. right. exists m'. split; [exact Hm' | exact Hca]. }
    destruct (shallow_verify s m) eqn:Hsh.
    + apply Hgot; [reflexivity | discriminate].
    + apply Hgot; [reflexivity | discriminate].
    + apply (mca_cold_ok L n q since s HF HM Hn HI Hst).
      pose proof (shallow_cases s m) as Hc. rewrite Hsh in Hc.
      eapply not_valid_of_ne; eassumption.
  - apply wp_ret. apply moved_and. split; [apply moved_refl; exact HI|].
    split; [discriminate|]. intros _. left. intros md Hmd. congruence.
Qed.

Theorem level_ok : forall n,
  fetch_spec (level prog noeq n) n /\ mca_spec (level prog noeq n) n.
Proof.
  induction n as [|n [IHF IHM]].
  - split; intros q; intros; lia.
  - split.
    + intros q s Hq HI Hst. cbn [level l_fetch].
      apply (fetch_ok (level prog noeq n) n IHF IHM q s); [lia | exact HI | exact Hst].
    + intros q since s Hq HI Hst. cbn [level l_mca].
      apply (mca_ok (level prog noeq n) n IHF IHM q since s); [lia | exact HI | exact Hst].
Qed.

Corollary fetch_top n q s :
  (rank q <= n)%nat -> I s -> stack_ok s q ->
  wp (fetch prog noeq (level prog noeq n) q) (fetch_post s q) (XP s) s.
Proof.
  destruct (level_ok n) as [HF HM]. apply (fetch_ok (level prog noeq n) n HF HM).
Qed.

End Level.

(* an instance passes its facts; the invariant and the relations are read off their type *)
Arguments level_ok _ _ _ _ _ _ _ {_ _ _ _ _ _ _ _} _ _.
Arguments fetch_top _ _ _ _ _ _ _ {_ _ _ _ _ _ _ _} _ _ _ _.
Arguments execute_ok _ _ _ _ _ _ _ {_ _ _ _ _ _ _ _} _.
Arguments walk_edges_ok _ _ _ _ _ {_ _ _ _ _ _ _ _} _.
Arguments verify_memo_ok _ _ _ _ _ {_ _ _ _ _ _ _ _} _.
