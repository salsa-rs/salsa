(* Core/DurSem.v — the semantic side of the durability short-cut: durability levels of a
   query over a history (which inputs its from-scratch evaluation reads, transitively, and how
   durable they were), the call closure, and constancy over windows without writes at a level.
   No model state here: only histories. *)
From Salsa Require Import Base.
From Salsa.Kern Require Import CoreK CoreKFacts K2_WriteReport.
From Salsa.Core Require Import Model Spec SpecProofs Wp Inv.

Definition revs_ok (r : revs) : Prop := 1 <= r_high r /\ r_high r <= r_med r /\ r_med r <= r_cur r.

Lemma lc_cases r d :
  (d = 0 /\ last_changed r d = r_cur r) \/ (d = 1 /\ last_changed r d = r_med r) \/
  (d = 2 /\ last_changed r d = r_high r) \/ (3 <= d /\ last_changed r d = 1).
Proof.
  destruct (N.eq_dec d 0) as [-> | H0]; [left; split; reflexivity|].
  destruct (N.eq_dec d 1) as [-> | H1]; [right; left; split; reflexivity|].
  destruct (N.eq_dec d 2) as [-> | H2]; [right; right; left; split; reflexivity|].
  right; right; right. split; [lia|].
  unfold last_changed, Kernels.k_last_changed_revision, Kernels.k_dur_index.
  destruct (N.ltb_spec d 3) as [Hlt | Hge]; [lia | reflexivity].
Qed.

Lemma lc_anti r d d' : revs_ok r -> d <= d' -> last_changed r d' <= last_changed r d.
Proof.
  intros (A & B & C) Hd.
  destruct (lc_cases r d) as [[-> ->] | [[-> ->] | [[-> ->] | [Hd3 ->]]]];
    destruct (lc_cases r d') as [[-> ->] | [[-> ->] | [[-> ->] | [Hd3' ->]]]]; lia.
Qed.

Lemma lc_le_cur r d : revs_ok r -> last_changed r d <= r_cur r.
Proof.
  intros (A & B & C).
  destruct (lc_cases r d) as [[-> ->] | [[-> ->] | [[-> ->] | [Hd3 ->]]]]; lia.
Qed.

Lemma lc_ge1 r d : revs_ok r -> 1 <= last_changed r d.
Proof.
  intros (A & B & C).
  destruct (lc_cases r d) as [[-> ->] | [[-> ->] | [[-> ->] | [Hd3 ->]]]]; lia.
Qed.

Lemma lc_zero r : last_changed r 0 = r_cur r.
Proof. reflexivity. Qed.

Lemma lc_never r d : 3 <= d -> last_changed r d = 1.
Proof.
  intros Hd. destruct (lc_cases r d) as [[-> _] | [[-> _] | [[-> _] | [_ E]]]]; lia.
Qed.

(* report_tracked_write(d): exactly the levels <= d move to the current revision *)
Lemma lc_report_write r d k :
  last_changed (report_write r d) k =
  if (k =? 0) || ((k <=? d) && (k <? 3)) then r_cur r else last_changed r k.
Proof.
  destruct (lc_cases r k) as [[-> E] | [[-> E] | [[-> E] | [Hk E]]]]; rewrite E.
  - reflexivity.
  - rewrite last_changed_medium. cbn [report_write r_med].
    rewrite k_report_write_slot_spec. cbn [N.leb N.eqb orb N.ltb N.compare Pos.compare Pos.compare_cont andb].
    destruct (1 <=? d); reflexivity.
  - rewrite last_changed_high. cbn [report_write r_high].
    rewrite k_report_write_slot_spec.
    change (1 <=? 2) with true. cbn [andb].
    destruct (2 <=? d); reflexivity.
  - rewrite lc_never by exact Hk.
    destruct (N.eqb_spec k 0) as [-> | _]; [lia|].
    destruct (N.ltb_spec k 3) as [Hlt | _]; [lia|]. rewrite andb_false_r. reflexivity.
Qed.

Lemma revs_ok_report_write r d : revs_ok r -> revs_ok (report_write r d).
Proof.
  intros (A & B & C). unfold revs_ok. cbn [report_write r_cur r_med r_high].
  rewrite !k_report_write_slot_spec.
  change (1 <=? 1) with true. change (1 <=? 2) with true. cbn [andb].
  destruct (N.leb_spec 1 d), (N.leb_spec 2 d); lia.
Qed.

Lemma lc_report_write_ge r d k : revs_ok r -> last_changed r k <= last_changed (report_write r d) k.
Proof.
  intros Hr. rewrite lc_report_write.
  destruct ((k =? 0) || ((k <=? d) && (k <? 3))); [apply lc_le_cur; exact Hr | lia].
Qed.

(* untracked reads: report_untracked_read with or without an external cell *)
Definition untr (x : rd) : Prop := x = RTouch \/ exists c, x = RCell c.

Section DurSem.
Variable prog : qkey -> body.
Variable rank : qkey -> nat.
Hypothesis Hrank : calls_below prog rank.
Variable NF : nat.
Hypothesis Hbound : forall q, (rank q < NF)%nat.
Notation E := (E prog NF).
Notation tr := (tr prog NF).
Notation envat := (envat prog NF).

(* the durability of every input at every revision (ghost, like the snapshot history) *)
Definition dhist := rev -> ikey -> dur.

Section Hist.
Variable H : hist.
Variable D : dhist.

(* [durge r k q]: at revision r, every input the from-scratch evaluation of q reads
   (transitively) has durability >= k, and unless k = 0 it performs no untracked read *)
Inductive durge (r : rev) (k : dur) : qkey -> Prop :=
| durge_intro q :
    (forall i, In (RIn i) (tr H r q) -> k <= D r i) ->
    (forall d, In (RQ d) (tr H r q) -> durge r k d) ->
    (forall x, In x (tr H r q) -> untr x -> k = 0) ->
    durge r k q.

Lemma durge_in r k q i : durge r k q -> In (RIn i) (tr H r q) -> k <= D r i.
Proof. intros [q0 A _ _]. apply A. Qed.

Lemma durge_q r k q d : durge r k q -> In (RQ d) (tr H r q) -> durge r k d.
Proof. intros [q0 _ B _]. apply B. Qed.

Lemma durge_untr r k q x : durge r k q -> In x (tr H r q) -> untr x -> k = 0.
Proof. intros [q0 _ _ C]. apply C. Qed.

Lemma durge_mono r k k' q : k' <= k -> durge r k q -> durge r k' q.
Proof.
  intros Hk Hd. induction Hd as [q A B IH C]. constructor.
  - intros i Hi. specialize (A i Hi). lia.
  - exact IH.
  - intros x Hx Hu. specialize (C x Hx Hu). lia.
Qed.

Lemma durge_zero_n r : forall n q, (rank q < n)%nat -> durge r 0 q.
Proof.
  induction n as [|n IH]; intros q Hq; [inversion Hq|].
  constructor.
  - intros i _. lia.
  - intros d Hd. apply IH. pose proof (tr_calls prog rank Hrank NF H _ _ _ Hd). lia.
  - intros x _ _. reflexivity.
Qed.

Lemma durge_zero r q : durge r 0 q.
Proof. apply (durge_zero_n r (S (rank q))). lia. Qed.

(* the semantic call closure of f at r *)
Inductive clos (r : rev) : qkey -> qkey -> Prop :=
| clos_refl f : clos r f f
| clos_step f d e : In (RQ d) (tr H r f) -> clos r d e -> clos r f e.

Lemma clos_trans r f d e : clos r f d -> clos r d e -> clos r f e.
Proof.
  intros Hfd Hde. induction Hfd as [f | f d0 d Hin Hd0 IH]; [exact Hde|].
  eapply clos_step; [exact Hin | apply IH; exact Hde].
Qed.

Lemma clos_right r f d e : clos r f d -> In (RQ e) (tr H r d) -> clos r f e.
Proof.
  intros Hfd Hin. eapply clos_trans; [exact Hfd|].
  eapply clos_step; [exact Hin | apply clos_refl].
Qed.

Lemma clos_one r f d : In (RQ d) (tr H r f) -> clos r f d.
Proof. intros Hin. eapply clos_step; [exact Hin | apply clos_refl]. Qed.

Lemma clos_rank r f d : clos r f d -> (rank d <= rank f)%nat.
Proof.
  intros Hc. induction Hc as [f | f d0 d Hin Hd0 IH]; [lia|].
  pose proof (tr_calls prog rank Hrank NF H _ _ _ Hin). lia.
Qed.

Lemma clos_neq_rank r f d : clos r f d -> d <> f -> (rank d < rank f)%nat.
Proof.
  intros Hc Hne. destruct Hc as [f | f d0 d Hin Hd0]; [contradiction|].
  pose proof (tr_calls prog rank Hrank NF H _ _ _ Hin).
  pose proof (clos_rank _ _ _ Hd0). lia.
Qed.

Lemma durge_clos r k f d : durge r k f -> clos r f d -> durge r k d.
Proof.
  intros Hd Hc. induction Hc as [f | f d0 d Hin Hd0 IH]; [exact Hd|].
  apply IH. eapply durge_q; eassumption.
Qed.

(* a window [a, b] in which no input of level >= k was written (value or durability) *)
Definition wstable (k : dur) (a b : rev) : Prop :=
  forall i, k <= D a i -> forall r, a <= r -> r <= b ->
    sn_in (H r) i = sn_in (H a) i /\ D r i = D a i.

Lemma wstable_sub k a b b' : wstable k a b -> b' <= b -> wstable k a b'.
Proof. intros Hw Hb i Hi r Ha Hr. apply Hw; [exact Hi | exact Ha | lia]. Qed.

(* [good r q]: the total evaluation [E H r q] means something at q.  Under a rank every query is
   good; on programs that may be cyclic (Core/DPartSem.v) the listed queries whose from-scratch
   evaluation at the snapshot terminates are.  What the invariant needs of it: the fixpoint
   equation, that the callees of a good query are good and are not the query itself, and that
   goodness moves to another revision along with that of the callees. *)
Record goodness (good : rev -> qkey -> Prop) : Prop := {
  g_unfold : forall r q, good r q -> E H r q = run (envat H r) (prog q);
  g_callee : forall r q d, good r q -> In (RQ d) (tr H r q) -> good r d /\ d <> q;
  (* [good a q] contributes what does not depend on the revision (in Core/DPartSem.v: q is
     listed); the callees are those of the trace at r *)
  g_moves : forall a r q, good a q -> (forall d, In (RQ d) (tr H r q) -> good r d) -> good r q
}.

Lemma durge_stable_good good k a b : goodness good -> 1 <= k -> wstable k a b ->
  forall q, durge a k q -> good a q -> forall r, a <= r -> r <= b ->
    tr H r q = tr H a q /\ E H r q = E H a q /\ durge r k q /\ good r q.
Proof.
  intros HG Hk Hw q Hd. induction Hd as [q A B IH C]. intros Ha r Har Hrb.
  assert (Hcallee : forall d, In (RQ d) (tr H a q) ->
            tr H r d = tr H a d /\ E H r d = E H a d /\ durge r k d /\ good r d).
  { intros d Hx. apply (IH d Hx (proj1 (g_callee _ HG a q d Ha Hx)) r Har Hrb). }
  assert (Hag : agree_on (envat H a) (envat H r) (tr H a q)).
  { intros x Hx. destruct x as [i | d | c |]; cbn.
    - symmetry. apply (Hw i); [apply A; exact Hx | exact Har | exact Hrb].
    - symmetry. apply (Hcallee d Hx).
    - exfalso. assert (k = 0) by (apply (C (RCell c) Hx); right; eauto). lia.
    - reflexivity. }
  destruct (trace_determined (prog q) _ _ Hag) as [Htr Hrun].
  assert (Htr' : tr H r q = tr H a q) by exact Htr.
  assert (Har' : good r q).
  { apply (g_moves _ HG a r q Ha). intros d Hx. rewrite Htr' in Hx. apply (Hcallee d Hx). }
  split; [exact Htr' |]. split; [| split; [| exact Har']].
  - rewrite (g_unfold _ HG r q Har'), (g_unfold _ HG a q Ha). exact Hrun.
  - constructor; rewrite Htr'.
    + intros i Hi. pose proof (A i Hi) as Hki.
      destruct (Hw i Hki r Har Hrb) as [_ ->]. exact Hki.
    + intros d Hx. apply (Hcallee d Hx).
    + exact C.
Qed.

Lemma clos_good good r f d : goodness good -> good r f -> clos r f d -> good r d.
Proof.
  intros HG Ha Hc. induction Hc as [f | f d0 d Hin Hd0 IH]; [exact Ha |].
  apply IH. apply (g_callee _ HG r f d0 Ha Hin).
Qed.

Lemma clos_stable_good good k a b f r : goodness good -> 1 <= k -> wstable k a b ->
  durge a k f -> good a f -> a <= r -> r <= b -> forall d, clos r f d <-> clos a f d.
Proof.
  intros HG Hk Hw Hd Ha Har Hrb d. split; intros Hc.
  - revert Hd Ha. induction Hc as [f | f d0 d Hin Hd0 IH]; intros Hd Ha; [apply clos_refl |].
    destruct (durge_stable_good good k a b HG Hk Hw f Hd Ha r Har Hrb) as (Htr & _ & _).
    rewrite Htr in Hin. eapply clos_step; [exact Hin |].
    apply IH; [eapply durge_q; eassumption | apply (g_callee _ HG a f d0 Ha Hin)].
  - revert Hd Ha. induction Hc as [f | f d0 d Hin Hd0 IH]; intros Hd Ha; [apply clos_refl |].
    destruct (durge_stable_good good k a b HG Hk Hw f Hd Ha r Har Hrb) as (Htr & _ & _).
    eapply clos_step; [rewrite Htr; exact Hin |].
    apply IH; [eapply durge_q; eassumption | apply (g_callee _ HG a f d0 Ha Hin)].
Qed.

Lemma rank_goodness : goodness (fun _ _ => True).
Proof.
  split.
  - (* g_unfold *) intros r q _. apply (E_unfold prog rank Hrank NF Hbound).
  - (* g_callee *) intros r q d _ Hd. split; [exact I |]. intros ->.
    pose proof (tr_calls prog rank Hrank NF H _ _ _ Hd). lia.
  - (* g_moves *) auto.
Qed.

Lemma durge_stable k a b q r : 1 <= k -> wstable k a b -> durge a k q -> a <= r -> r <= b ->
  tr H r q = tr H a q /\ E H r q = E H a q /\ durge r k q.
Proof.
  intros Hk Hw Hd Ha Hb.
  destruct (durge_stable_good _ k a b rank_goodness Hk Hw q Hd I r Ha Hb) as (A & B & C & _).
  split; [exact A |]. split; [exact B | exact C].
Qed.

Lemma clos_stable k a b f r : 1 <= k -> wstable k a b -> durge a k f -> a <= r -> r <= b ->
  forall d, clos r f d <-> clos a f d.
Proof. intros Hk Hw Hd Ha Hb. exact (clos_stable_good _ k a b f r rank_goodness Hk Hw Hd I Ha Hb). Qed.

End Hist.

(* durge / clos at r only depend on the history at r *)
Lemma durge_hist_eq H D H' D' r k q :
  H' r = H r -> (forall i, D' r i = D r i) -> durge H D r k q -> durge H' D' r k q.
Proof.
  intros HH HD Hd. induction Hd as [q A B IH C].
  assert (Htr : tr H' r q = tr H r q).
  { unfold tr, Inv.tr, envat, Inv.envat, Inv.E. rewrite HH. reflexivity. }
  constructor; rewrite Htr.
  - intros i Hi. rewrite HD. apply A; exact Hi.
  - exact IH.
  - exact C.
Qed.

Lemma clos_hist_eq H H' r f d : H' r = H r -> clos H r f d -> clos H' r f d.
Proof.
  intros HH Hc. induction Hc as [f | f d0 d Hin Hd0 IH]; [apply clos_refl|].
  eapply clos_step; [|exact IH].
  unfold tr, Inv.tr, envat, Inv.envat, Inv.E. rewrite HH. exact Hin.
Qed.

End DurSem.
