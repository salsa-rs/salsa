(* Core/DReuseOps.v — every level function of the Core model relates the state before and
   after by [RX] (Core/DReuse.v): executions are justified, values are not lost, changed_at
   moves only when backdating is impossible.  The relation rides on the specifications of
   Core/LevelOps.v: it is carried next to [dext], as a second component of the extension
   relation, and the facts about [dext] come from Core/DInvOps.v. *)
From Salsa Require Import Base.
From Salsa.Kern Require Import CoreK CoreKFacts.
From Salsa.Core Require Import Model Spec SpecProofs Wp Inv InvFrame InvSem DurSem DInv DInvSem DInvOps ReuseProofs DReuse.

(* the relation is about what computations do, not about how they fail: no constraint on panics *)
Definition XT : panic -> db -> Prop := fun _ _ => True.
Ltac triv := intros; exact I.

Section ROps.
Variable prog : qkey -> body.
Variable noeq : qkey -> bool.
Variable rank : qkey -> nat.
Hypothesis Hrank : calls_below prog rank.
Variable NF : nat.
Hypothesis Hbound : forall q, (rank q < NF)%nat.
Variable H : hist.
Variable D : dhist.
Notation E := (E prog NF H).
Notation tr := (tr prog NF H).
Notation DInv := (DInv prog NF H D).
Notation dtouch_below := (dtouch_below rank).
Notation stack_ok := (stack_ok rank).
Notation RX := (RX noeq).

Lemma emit_rx e s (Q : unit -> db -> Prop) :
  (forall s1, d_revs s1 = d_revs s -> d_in s1 = d_in s -> d_cell s1 = d_cell s ->
              d_memo s1 = d_memo s -> d_stack s1 = d_stack s -> d_log s1 = e :: d_log s -> Q tt s1) ->
  wp (emit e) Q XT s.
Proof. intros HQ. apply wp_emit; [intros; apply HQ; assumption | triv]. Qed.

Definition rext (s s' : db) : Prop := dext s s' /\ RX s s'.

Definition executed (s s' : db) (q : qkey) : Prop :=
  forall new, d_log s' = new ++ d_log s -> In (EvExec q) new.

(* [dinv f]: the field f of the facts about [DInv] and [dext] (Core/DInvOps.v).  The fields
   that do not mention the extension relation are taken over; in the others [RX] is added. *)
Local Notation dinv f :=
  (f _ _ _ _ _ _ _ _ _ _ _ _ _ (DInv_level_facts prog noeq rank Hrank NF Hbound H D)).

Lemma RInv_level_facts :
  level_facts prog noeq rank NF H DInv rext dtouch_below dallowed DInvSem.covers
    (edge_pre prog NF H) (edge_done prog NF H D) executed.
Proof using Hrank Hbound.
  constructor.
  - (* lf_core *) apply (dinv lf_core).
  - (* lf_ext_core *) intros s s' Hce Hl Hp Hev. split; [apply (dinv lf_ext_core); assumption|].
    destruct Hce as (Hr & Hi & _ & Hm & _). apply RX_quiet; assumption.
  - (* lf_ext_validate *) intros s s' q Hce Hl Hp Hev. split; [apply (dinv lf_ext_validate s s' q); assumption|].
    destruct Hce as (Hr & Hi & _ & Hm & _).
    apply (RX_event noeq s s' (EvValidate q)); try assumption. intros q0 Heq; discriminate.
  - (* lf_ext_exec *) intros s s' q HJ Hce Hl Hp Hev. split; [apply (dinv lf_ext_exec s s' q); assumption|].
    destruct Hce as (Hr & Hi & _ & Hm & _).
    apply (RX_event noeq s s' (EvExec q)); try assumption. intros q0 Heq. injection Heq as <-. exact HJ.
  - (* lf_touch_core *) apply (dinv lf_touch_core).
  - (* lf_ext_refl *) intros s. split; [apply dext_refl | apply RX_refl].
  - (* lf_ext_trans *) intros s1 s2 s3 [A1 B1] [A2 B2]. split; [apply (dext_trans s1 s2 s3 A1 A2) | apply (RX_trans noeq s1 s2 s3 B1 B2)].
  - (* lf_ext_revs *) intros s s' [He _]. apply (dinv lf_ext_revs _ _ He).
  - (* lf_ext_in *) intros s s' [He _]. apply (dinv lf_ext_in _ _ He).
  - (* lf_ext_pcell *) intros s s' [He _]. apply (dinv lf_ext_pcell _ _ He).
  - (* lf_ext_evfault *) intros s s' [He _]. apply (dinv lf_ext_evfault _ _ He).
  - (* lf_touch_refl *) apply (dinv lf_touch_refl).
  - (* lf_touch_trans *) apply (dinv lf_touch_trans).
  - (* lf_touch_store *) apply (dinv lf_touch_store).
  - (* lf_touch_memo *) apply (dinv lf_touch_memo).
  - (* lf_allowed_ext *) apply (dinv lf_allowed_ext).
  - (* lf_injected *) apply (dinv lf_injected).
  - (* lf_in *) apply (dinv lf_in).
  - (* lf_in_le *) apply (dinv lf_in_le).
  - (* lf_cell *) apply (dinv lf_cell).
  - (* lf_val *) apply (dinv lf_val).
  - (* lf_shortcut *) intros s q m HI Hm Hne Hlc. destruct (dinv lf_shortcut s q m HI Hm Hne Hlc) as (A & B & C).
    split; [exact A|]. split; [|exact C]. split; [exact B | apply RX_mark; exact Hm].
  - (* lf_edges *) apply (dinv lf_edges).
  - (* lf_pre_ext *) intros s s' q m d [He _]. apply (dinv lf_pre_ext _ _ _ _ _ He).
  - (* lf_done_ext *) intros s s' q m d [He _]. apply (dinv lf_done_ext _ _ _ _ _ He).
  - (* lf_unchanged *) apply (dinv lf_unchanged).
  - (* lf_deep *) intros s q m HI Hm Hu Hc. destruct (dinv lf_deep s q m HI Hm Hu Hc) as (A & B & C).
    split; [exact A|]. split; [|exact C]. split; [exact B | apply RX_mark; exact Hm].
  - (* lf_cov0 *) apply (dinv lf_cov0).
  - (* lf_cov_ext *) intros s s' pre fr [He _]. apply (dinv lf_cov_ext _ _ _ _ He).
  - (* lf_cov_in *) apply (dinv lf_cov_in).
  - (* lf_cov_q *) apply (dinv lf_cov_q).
  - (* lf_cov_untracked *) apply (dinv lf_cov_untracked).
  - (* lf_fresh: the whole of an execution: the fresh memo is stored *)
    intros s0 s1 s q fr v ch old Hnv0 Hold0 [He01 HR01] Hlog [He1 HR1] HI Hcv Hv Hold Hch.
    destruct (dinv lf_fresh s0 s1 s q fr v ch old Hnv0 Hold0 He01 Hlog He1 HI Hcv Hv Hold Hch)
      as (HI3 & He3 & _).
    assert (HR0 : RX s0 s) by (apply (RX_trans noeq s0 s1 s); assumption).
    assert (Hex : executed s0 s q).
    { intros new Hnew. destruct (rx_log _ _ _ HR1) as (n1 & Hl1 & _).
      rewrite Hl1, Hlog in Hnew.
      assert (Hnew' : (n1 ++ [EvExec q]) ++ d_log s0 = new ++ d_log s0).
      { rewrite <- app_assoc. exact Hnew. }
      apply app_inv_tail in Hnew'. rewrite <- Hnew'. apply in_or_app; right; left; reflexivity. }
    split; [exact HI3|]. split; [split; [exact He3|] | exact Hex].
    apply (RX_finish noeq s0 s q); [exact HR0 | congruence | exact Hnv0 | exact Hex | | | |].
    + cbn. apply (rx_cur _ _ _ HR0).
    + cbn. discriminate.
    + intros o Ho. cbn [fresh_memo m_changed].
      destruct Hch as [[-> _] | (o' & ov & Ho' & _ & _ & -> & _ & _)].
      * apply (frame_changed_lb prog NF H D s q fr o HI Hcv). congruence.
      * assert (o' = o) by congruence. subst o'. lia.
    + intros o Ho Hne. cbn [fresh_memo m_changed] in Hne.
      destruct Hch as [[_ Hwhy] | (o' & ov & Ho' & _ & _ & -> & _ & _)].
      * destruct (Hwhy o) as [A | [A | [A | (ov & A & B)]]]; [congruence | left; exact A | right; left; exact A | |].
        -- right; right; left. exact A.
        -- right; right; right. exists ov, v. split; [exact A|]. split; [reflexivity | exact B].
      * exfalso. apply Hne. congruence.
  - (* lf_backdate *) apply (dinv lf_backdate).
Qed.

Definition rlevel_ok :=
  LevelOps.level_ok prog noeq rank Hrank NF Hbound H RInv_level_facts.
Definition rfetch_top :=
  LevelOps.fetch_top prog noeq rank Hrank NF Hbound H RInv_level_facts.
Definition rexecute_ok :=
  LevelOps.execute_ok prog noeq rank Hrank NF Hbound H RInv_level_facts.

Lemma wp_eq {A} (m : M A) (Q : A -> db -> Prop) (X : panic -> db -> Prop) s s' a :
  m s = (s', Ok a) -> Q a s' -> wp m Q X s.
Proof. intros Heq HQ. unfold wp. rewrite Heq. exact HQ. Qed.

Lemma fetch_untracked_rx L n q m s
      (HF : LevelOps.fetch_spec prog rank NF H DInv rext dtouch_below dallowed L n) :
  (rank q <= n)%nat -> DInv s -> stack_ok s q ->
  d_memo s q = Some m -> m_untracked m = true -> m_verified m < cur s ->
  wp (fetch prog noeq L q)
     (fun _ s' => forall new, d_log s' = new ++ d_log s -> In (EvExec q) new) XT s.
Proof.
  intros Hn HI Hst Hm Hu Hv.
  pose proof (inv_memo _ _ _ _ _ HI q m Hm) as Hok.
  pose proof (mo_untr _ _ _ _ _ _ _ Hok Hu) as Hd0.
  assert (Hsh : forall s0, cur s0 = cur s -> shallow_verify s0 m = ShNo).
  { intros s0 Hc0. apply ReuseProofs.low_never_shallow; [exact Hd0 | rewrite Hc0; exact Hv]. }
  unfold fetch.
  apply wp_bind.
  assert (Hhot : fetch_hot q s = (s, Ok None)).
  { unfold fetch_hot, bind, get. rewrite Hm. destruct (m_val m); [rewrite (Hsh s eq_refl)|]; reflexivity. }
  apply (wp_eq _ _ _ s s None Hhot).
  apply wp_bind. unfold fetch_cold.
  apply wp_bind. apply (claim_ok rank); [exact Hst|].
  set (s1 := set_stack s (q :: d_stack s)).
  assert (Hce : dcore_eq s s1) by apply dcore_eq_stack.
  assert (HI1 : DInv s1) by (apply (DInv_core_eq prog NF H D s); assumption).
  assert (Hst1 : forall p, In p (d_stack s1) -> (rank q <= rank p)%nat) by (apply stacked; exact Hst).
  assert (Hm1 : d_memo s1 q = Some m) by exact Hm.
  assert (Hnv1 : not_valid_with_value s1 q).
  { apply (not_valid_of_ne s1 q m Hm1). change (cur s1) with (cur s). lia. }
  assert (HJ1 : J s1 s1 q).
  { split; [exact Hnv1|]. right. exists m. split; [exact Hm1 | right; left; exact Hu]. }
  apply wp_bind, wp_get. change (d_memo s1 q) with (d_memo s q). rewrite Hm.
  assert (Hexec :
    wp (m0 <- execute prog noeq L q (Some m) ;;
        release q ;;;
        match m_val m0 with Some v => ret (m0, v) | None => nofuel end)
       (fun (mv : memo * val) s' =>
          wp (modify (fun s => set_lru s (updN (d_lru s) (fst q) (lru_record_use (d_lru s (fst q)) (snd q)))) ;;;
              ret (memo_qres (fst mv) (snd mv)))
             (fun _ s'' => forall new, d_log s'' = new ++ d_log s -> In (EvExec q) new) XT s') XT s1).
  { apply wp_bind.
    eapply wp_conseq; [apply (rexecute_ok L n q s1 (Some m) HF Hn HI1 Hm1 Hst1 HJ1) | | triv].
    intros m0 s3 (_ & _ & _ & _ & _ & _ & Hx3 & Hev3).
    apply wp_bind. unfold release. apply wp_modify. rewrite Hx3. apply wp_ret.
    apply wp_bind, wp_modify, wp_ret.
    intros new Hnew. apply Hev3. exact Hnew. }
  destruct (m_val m) as [v|] eqn:Hval.
  - apply wp_bind. apply wp_bind.
    assert (Hver : verify_memo L q m s1 = (s1, Ok (false, m))).
    { unfold verify_memo, bind, get. rewrite (Hsh s1 eq_refl).
      apply ReuseProofs.deep_verify_untracked. exact Hu. }
    apply (wp_eq _ _ _ s1 s1 (false, m) Hver).
    apply wp_ret. cbn [fst]. exact Hexec.
  - apply wp_bind, wp_ret. exact Hexec.
Qed.

End ROps.
