(* Core/LruProofs.v — the LRU policy of Core/Model.v (Lru::record_use, set_capacity,
   for_each_evicted over a linked hash set): bound, recency order, capacity zero. *)
From Salsa Require Import Base.
From Salsa.Core Require Import Model.

Lemma remove_key_not_in k l : ~ In k (remove_key k l).
Proof.
  unfold remove_key. intros Hin. apply filter_In in Hin. destruct Hin as [_ Hb].
  rewrite N.eqb_refl in Hb. discriminate.
Qed.

Lemma remove_key_in k x l : In x (remove_key k l) <-> In x l /\ x <> k.
Proof.
  unfold remove_key. rewrite filter_In. split; intros [A B]; split; auto.
  - intros ->. rewrite N.eqb_refl in B. discriminate.
  - apply negb_true_iff. apply N.eqb_neq. exact B.
Qed.

Lemma remove_key_nodup k l : NoDup l -> NoDup (remove_key k l).
Proof. unfold remove_key. apply NoDup_filter. Qed.

Lemma remove_key_length k l : (length (remove_key k l) <= length l)%nat.
Proof.
  unfold remove_key. induction l as [|x l IH]; cbn; [lia|].
  destruct (negb (x =? k)); cbn; lia.
Qed.

(* record_use keeps the set duplicate-free and puts the key at the most-recent end *)
Lemma nodup_app_single (l : list N) k : NoDup l -> ~ In k l -> NoDup (l ++ [k]).
Proof.
  induction l as [|x l IH]; intros Hnd Hnin; cbn.
  - constructor; [intros [] | constructor].
  - inversion Hnd as [|? ? Hx Hl]; subst. constructor.
    + rewrite in_app_iff. intros [H | [H | []]]; [contradiction | subst; apply Hnin; left; reflexivity].
    + apply IH; [exact Hl | intros H; apply Hnin; right; exact H].
Qed.

Lemma record_use_nodup l k : NoDup (lru_set l) -> NoDup (lru_set (lru_record_use l k)).
Proof.
  intros Hnd. unfold lru_record_use. destruct (lru_cap l); [|exact Hnd]. cbn.
  apply nodup_app_single; [apply remove_key_nodup; exact Hnd | apply remove_key_not_in].
Qed.

Lemma record_use_last l k c : lru_cap l = Some c ->
  exists pre, lru_set (lru_record_use l k) = pre ++ [k] /\ pre = remove_key k (lru_set l).
Proof. intros Hc. unfold lru_record_use. rewrite Hc. cbn. eexists; split; reflexivity. Qed.

(* capacity zero disables recording and clears the set *)
Lemma set_capacity_zero l : lru_set_capacity l 0 = {| lru_cap := None; lru_set := [] |}.
Proof. reflexivity. Qed.

Lemma record_use_disabled l k : lru_cap l = None -> lru_record_use l k = l.
Proof. intros Hc. unfold lru_record_use. rewrite Hc. reflexivity. Qed.

Lemma evict_disabled l : lru_cap l = None -> lru_evict l = ([], l).
Proof. intros Hc. unfold lru_evict. rewrite Hc. reflexivity. Qed.

(* the pop loop: evicted ++ kept = the old order (so the evicted keys are exactly the least
   recently used prefix), and at most cap keys are kept *)
Lemma pop_excess_split cap : forall fuel l ev rest,
  pop_excess cap l fuel = (ev, rest) -> l = ev ++ rest.
Proof.
  induction fuel as [|fuel IH]; intros l ev rest Hp; simpl pop_excess in Hp.
  - injection Hp as <- <-. reflexivity.
  - destruct (cap <? N.of_nat (length l)).
    + destruct l as [|x l].
      * injection Hp as <- <-. reflexivity.
      * destruct (pop_excess cap l fuel) as [ev' rest'] eqn:Hrec.
        injection Hp as <- <-. cbn. f_equal. apply IH. exact Hrec.
    + injection Hp as <- <-. reflexivity.
Qed.

Lemma pop_excess_bound cap : forall fuel l ev rest,
  (length l <= fuel)%nat ->
  pop_excess cap l fuel = (ev, rest) -> N.of_nat (length rest) <= cap.
Proof.
  induction fuel as [|fuel IH]; intros l ev rest Hf Hp; simpl pop_excess in Hp.
  - injection Hp as <- <-. destruct l; [cbn; lia | cbn in Hf; lia].
  - destruct (N.ltb_spec cap (N.of_nat (length l))) as [Hlt | Hge].
    + destruct l as [|x l].
      * injection Hp as <- <-. cbn. lia.
      * destruct (pop_excess cap l fuel) as [ev' rest'] eqn:Hrec.
        injection Hp as <- <-. apply (IH l ev' rest'); [cbn in Hf; lia | exact Hrec].
    + injection Hp as <- <-. exact Hge.
Qed.

(* pops happen only while the set is over capacity: nothing is evicted needlessly *)
Lemma pop_excess_minimal cap : forall fuel l ev rest,
  pop_excess cap l fuel = (ev, rest) ->
  ev = [] \/ cap < N.of_nat (length l).
Proof.
  intros fuel l ev rest Hp. destruct fuel as [|fuel]; simpl pop_excess in Hp.
  - injection Hp as <- <-. left; reflexivity.
  - destruct (N.ltb_spec cap (N.of_nat (length l))) as [Hlt | Hge].
    + right; exact Hlt.
    + injection Hp as <- <-. left; reflexivity.
Qed.

Theorem lru_evict_spec l c ev l' :
  lru_cap l = Some c -> lru_evict l = (ev, l') ->
  lru_set l = ev ++ lru_set l' /\ N.of_nat (length (lru_set l')) <= c /\ lru_cap l' = Some c.
Proof.
  intros Hc He. unfold lru_evict in He. rewrite Hc in He.
  destruct (pop_excess c (lru_set l) (length (lru_set l))) as [ev0 rest] eqn:Hp.
  inversion He; subst. cbn.
  split; [apply (pop_excess_split c _ _ _ _ Hp)|].
  split; [apply (pop_excess_bound c _ _ _ _ (le_n _) Hp) | reflexivity].
Qed.

(* eviction forgets only the value: stamps, origin and dependency edges are kept, and
   untracked memos are never evicted *)
Theorem evict_memo_keeps m :
  m_verified (evict_memo m) = m_verified m /\ m_changed (evict_memo m) = m_changed m /\
  m_dur (evict_memo m) = m_dur m /\ m_untracked (evict_memo m) = m_untracked m /\
  m_edges (evict_memo m) = m_edges m /\
  (m_untracked m = true -> evict_memo m = m) /\
  (m_untracked m = false -> m_val (evict_memo m) = None).
Proof.
  unfold evict_memo. destruct (m_untracked m) eqn:Hu; cbn; repeat split; auto; discriminate.
Qed.

Lemma evict_memo_idem m : evict_memo (evict_memo m) = evict_memo m.
Proof. unfold evict_memo. destruct (m_untracked m) eqn:Hu; [rewrite Hu; reflexivity | reflexivity]. Qed.

(* evict_keys replaces exactly the listed keys' memos by their evicted versions *)
Lemma evict_keys_spec fam : forall ks mm q,
  evict_keys fam ks mm q =
  if existsb (fun k => key_eqb (fam, k) q) ks then option_map evict_memo (mm q) else mm q.
Proof.
  unfold evict_keys. induction ks as [|k ks IH]; intros mm q; cbn [fold_left existsb]; [reflexivity|].
  rewrite IH.
  destruct (mm (fam, k)) as [m|] eqn:Hm.
  - unfold upd. destruct (key_eqb_spec (fam, k) q) as [<- | Hne]; cbn [orb].
    + rewrite Hm. cbn. destruct (existsb _ ks); cbn; [rewrite evict_memo_idem|]; reflexivity.
    + reflexivity.
  - destruct (key_eqb_spec (fam, k) q) as [<- | Hne]; cbn [orb]; [|reflexivity].
    rewrite Hm. destruct (existsb _ ks); reflexivity.
Qed.
