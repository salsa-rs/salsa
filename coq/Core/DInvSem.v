(* Core/DInvSem.v — the semantic lemmas of the durability proof: when may a memo be marked
   verified now (edge walk or durability short-cut), and when is a freshly computed memo ok —
   including what every observer of the query is owed.  Proved over a goodness predicate
   ([DurSem.goodness]); under a rank every query is good. *)
From Salsa Require Import Base.
From Salsa.Kern Require Import CoreK CoreKFacts.
From Salsa.Core Require Import Model Spec SpecProofs Wp Inv InvFrame InvSem DurSem DInv.

Section Sem.
Variable prog : qkey -> body.
Variable rank : qkey -> nat.
Hypothesis Hrank : calls_below prog rank.
Variable NF : nat.
Hypothesis Hbound : forall q, (rank q < NF)%nat.
Notation E := (E prog NF).
Notation tr := (tr prog NF).
Notation envat := (envat prog NF).
Notation durge := (durge prog NF).
Notation clos := (clos prog NF).
Notation dmemo_ok := (dmemo_ok prog NF).
Notation DInv := (DInv prog NF).
Notation obs_pre := (obs_pre prog NF).


(* a memo verified now serves the whole closure of its query *)
Lemma obs_of_callee H D s d1 md1 d :
  DInv H D s -> d_memo s d1 = Some md1 -> m_verified md1 = cur s -> clos H (cur s) d1 d ->
  exists md, d_memo s d = Some md /\ E H (cur s) d = E H (m_verified md) d /\ m_dur md1 <= m_dur md.
Proof.
  intros HI Hm1 Hv1 Hc.
  pose proof (inv_memo _ _ _ _ _ HI d1 md1 Hm1) as Hok1.
  rewrite <- Hv1 in Hc. destruct (mo_obs _ _ _ _ _ _ _ Hok1 d Hc) as (md & Hmd & Hobs).
  exists md. split; [exact Hmd|]. rewrite <- Hv1. apply Hobs.
  left. pose proof (mo_order _ _ _ _ _ _ _ (inv_memo _ _ _ _ _ HI d md Hmd)) as (_ & A & B).
  rewrite Hv1. lia.
Qed.

Lemma inv_dur_cur H D s i : DInv H D s -> D (cur s) i = f_dur (d_in s i).
Proof. intros HI. apply (inv_dur _ _ _ _ _ HI); [apply (inv_in_le _ _ _ _ _ HI) | lia]. Qed.

Lemma clos_first H r f d : clos H r f d -> d <> f ->
  exists d1, In (RQ d1) (tr H r f) /\ clos H r d1 d.
Proof. intros [f0 | f0 d1 e Hin Hd1] Hne; [contradiction | exists d1; split; assumption]. Qed.

Lemma sle_le s c c' x : c' <= c -> sle s c x -> sle s c' x.
Proof.
  intros Hc. destruct x as [i | d | c0 |]; cbn; auto; [lia |].
  intros (md & A & B). exists md. split; [exact A | lia].
Qed.

Lemma sle_store s q m c x : x <> RQ q -> sle s c x -> sle (store s q m) c x.
Proof.
  intros Hne. destruct x as [i | d | c0 |]; cbn; auto.
  intros (md & Hmd & Hle). exists md. split; [| exact Hle].
  rewrite upd_other; [exact Hmd | intros ->; now apply Hne].
Qed.

Lemma obs_store H D s q m' :
  m_verified m' = cur s ->
  (forall d, clos H (cur s) q d -> d <> q ->
     exists md, d_memo s d = Some md /\ E H (cur s) d = E H (m_verified md) d /\ m_dur m' <= m_dur md) ->
  forall d, clos H (m_verified m') q d ->
    exists md, d_memo (store s q m') d = Some md /\
      (obs_pre H D (store s q m') (m_verified m') d md ->
       E H (m_verified m') d = E H (m_verified md) d /\ m_dur m' <= m_dur md).
Proof.
  intros Hv Hclos d Hd. rewrite Hv in *. destruct (key_eqb_spec q d) as [<- | Hne].
  - exists m'. split; [apply memo_store_same |]. intros _. split; [now rewrite Hv | lia].
  - destruct (Hclos d Hd) as (md & Hmd & HEd & Hdd); [congruence |].
    exists md. split; [rewrite memo_store_other by exact Hne; exact Hmd |]. intros _. split; assumption.
Qed.

(* The proofs below do not look at the rank: they use a predicate [good] with the three
   properties of [DurSem.goodness] at every history.  Core/DPartInvSem.v takes them with
   "listed and acyclic at the snapshot"; here they are taken with [True] ([rank_good]). *)
Definition good_ok (good : hist -> rev -> qkey -> Prop) : Prop :=
  forall H, goodness prog NF H (good H).

Lemma good_unfold good H r q : good_ok good -> good H r q -> E H r q = run (envat H r) (prog q).
Proof. intros HG. apply (g_unfold _ _ _ _ (HG H)). Qed.

Lemma good_tr good H r q d : good_ok good ->
  good H r q -> In (RQ d) (tr H r q) -> good H r d /\ d <> q.
Proof. intros HG. apply (g_callee _ _ _ _ (HG H)). Qed.

Lemma rank_good : good_ok (fun _ _ _ => True).
Proof. intros H. exact (rank_goodness prog rank Hrank NF Hbound H). Qed.

(* never-change callees stay what they are *)
Lemma never_now_g good H D s a d : good_ok good ->
  DInv H D s -> 1 <= a -> a <= cur s -> durge H D a 3 d -> good H a d ->
  tr H (cur s) d = tr H a d /\ E H (cur s) d = E H a d /\ durge H D (cur s) 3 d /\ good H (cur s) d.
Proof.
  intros HG HI Ha Hle Hd Hg.
  apply (durge_stable_good prog NF H D (good H) 3 a (cur s) (HG H));
    [lia | apply (stable_never prog NF H D s a HI Ha) | exact Hd | exact Hg | exact Hle | lia].
Qed.

(* ---------------------------------------------------------------- marking a memo verified now *)
(* what has to be known of the current revision before q's memo may be marked verified in it *)
Definition reval_pre good H D s q m : Prop :=
  good H (cur s) q /\
  agree_on (envat H (m_verified m)) (envat H (cur s)) (tr H (m_verified m) q) /\
  (forall i, In (RIn i) (tr H (m_verified m) q) -> D (cur s) i = D (m_verified m) i) /\
  durge H D (cur s) (m_dur m) q /\
  (forall d, clos H (cur s) q d -> d <> q ->
     exists md, d_memo s d = Some md /\ E H (cur s) d = E H (m_verified md) d /\ m_dur m <= m_dur md).

Lemma revalidate_g good H D s q m : good_ok good ->
  DInv H D s -> d_memo s q = Some m -> good H (m_verified m) q -> reval_pre good H D s q m ->
  let m' := reverify m (cur s) in
  DInv H D (store s q m') /\ dext s (store s q m') /\ E H (cur s) q = E H (m_verified m) q.
Proof.
  intros HG HI Hm Hgv (Hgc & Hag & HDin & Hdg & Hclos) m'.
  pose proof (inv_memo _ _ _ _ _ HI q m Hm) as Hok.
  destruct (trace_determined (prog q) _ _ Hag) as [Htr Hrun].
  assert (HE : E H (cur s) q = E H (m_verified m) q).
  { rewrite (good_unfold good H _ q HG Hgc), (good_unfold good H _ q HG Hgv). exact Hrun. }
  assert (Htr' : tr H (cur s) q = tr H (m_verified m) q) by exact Htr.
  pose proof (mo_order _ _ _ _ _ _ _ Hok) as (Ho1 & Ho2 & Ho3).
  assert (Hfin : DInv H D (store s q m') /\ dext s (store s q m')).
  { apply (DInv_store prog NF H D s q m' HI); [reflexivity | | | |].
    - (* the re-verified memo is ok: the clauses of the old one, moved to the current revision *)
      destruct Hok as [Hord Hval Hrin Hrq Hrcell Hedg Huntr Hdurge Hdur3 Hstamp Hobs0].
      constructor; cbn [m' reverify m_val m_verified m_changed m_dur m_untracked m_edges];
        rewrite ?cur_store, ?Htr'; auto.
      + (* mo_order *) pose proof (inv_cur _ _ _ _ _ HI). lia.
      + (* mo_val *) intros x Hx. rewrite HE. apply Hval; exact Hx.
      + (* mo_reads_in *) intros i0 Hi0. destruct (Hrin i0 Hi0) as [A | A]; [left; exact A | right].
        rewrite (HDin i0 Hi0). exact A.
      + (* mo_reads_q *) intros d0 Hd0. destruct (Hrq d0 Hd0) as [A | A]; [left; exact A | right].
        apply (never_now_g good H D s (m_verified m) d0 HG HI Ho1 Ho3 A).
        apply (good_tr good H _ q d0 HG Hgv Hd0).
      + (* mo_stamp *) destruct Hstamp as [A | (x & Hx & Hs)]; [left; exact A | right].
        exists x. split; [exact Hx |]. apply sle_store; [| exact Hs].
        intros ->. exact (proj2 (good_tr good H _ q q HG Hgv Hx) eq_refl).
      + (* mo_obs *) exact (obs_store H D s q m' eq_refl Hclos).
    - (* the other observers of q were served by m, which has the same value and durability *)
      intros g mg Hg Hne Hcl Hpre.
      pose proof (inv_memo _ _ _ _ _ HI g mg Hg) as Hokg.
      destruct (mo_obs _ _ _ _ _ _ _ Hokg q Hcl) as (md & Hmd & Hobs).
      rewrite Hm in Hmd. injection Hmd as <-.
      destruct Hobs as [A B]; [exact Hpre|].
      split; [rewrite A; symmetry; exact HE | exact B].
    - intros m0 Hm0 Hv0. rewrite Hm in Hm0. injection Hm0 as <-.
      split; [|cbn; lia]. intros _. unfold m'. rewrite <- Hv0. symmetry. apply reverify_same.
    - intros m0 Hm0. rewrite Hm in Hm0. injection Hm0 as <-. cbn. lia. }
  destruct Hfin as [A B]. split; [exact A|]. split; [exact B | exact HE].
Qed.

(* The durability short-cut: nothing at the memo's level was written since it was verified. *)
Lemma shortcut_pre good H D s q m : good_ok good ->
  DInv H D s -> d_memo s q = Some m -> good H (m_verified m) q ->
  lcs s (m_dur m) <= m_verified m -> reval_pre good H D s q m.
Proof.
  intros HG HI Hm Hgv Hlc.
  pose proof (inv_memo _ _ _ _ _ HI q m Hm) as Hok.
  pose proof (mo_order _ _ _ _ _ _ _ Hok) as (Ho1 & Ho2 & Ho3).
  pose proof (mo_durge _ _ _ _ _ _ _ Hok) as Hdg.
  destruct (N.eq_dec (m_verified m) (cur s)) as [Heq | Hne].
  - (* already verified now: nothing moves *)
    split; [rewrite <- Heq; exact Hgv |]. split; [rewrite <- Heq; intros x _; reflexivity |].
    split; [rewrite <- Heq; intros i _; reflexivity |]. split; [rewrite <- Heq; exact Hdg |].
    intros d Hd _. exact (obs_of_callee H D s q m d HI Hm Heq Hd).
  - assert (Hk : 1 <= m_dur m).
    { destruct (N.eq_dec (m_dur m) 0) as [H0 | H0]; [|lia].
      rewrite H0 in Hlc. unfold lcs in Hlc. rewrite lc_zero in Hlc. unfold cur in *. lia. }
    pose proof (stable_now prog NF H D s (m_dur m) (m_verified m) HI Hlc) as Hw.
    assert (Hst : forall d, good H (m_verified m) d -> durge H D (m_verified m) (m_dur m) d ->
              tr H (cur s) d = tr H (m_verified m) d /\ E H (cur s) d = E H (m_verified m) d /\
              durge H D (cur s) (m_dur m) d /\ good H (cur s) d).
    { intros d Hgd Hd.
      apply (durge_stable_good prog NF H D (good H) (m_dur m) (m_verified m) (cur s) (HG H) Hk Hw d Hd Hgd);
        [exact Ho3 | lia]. }
    split; [apply (Hst q Hgv Hdg) |]. split; [| split; [| split; [apply (Hst q Hgv Hdg) |]]].
    + intros x Hx. destruct x as [i | d | c |]; cbn.
      * symmetry. apply (Hw i); [apply (durge_in _ _ _ _ _ _ _ _ Hdg Hx) | lia | lia].
      * symmetry. apply (Hst d); [apply (good_tr good H _ q d HG Hgv Hx) | apply (durge_q _ _ _ _ _ _ _ _ Hdg Hx)].
      * exfalso. assert (m_dur m = 0); [|lia].
        apply (durge_untr _ _ _ _ _ _ _ _ Hdg Hx). right; eauto.
      * reflexivity.
    + intros i Hi. apply (Hw i); [apply (durge_in _ _ _ _ _ _ _ _ Hdg Hi) | lia | lia].
    + intros d Hd Hdq.
      apply (clos_stable_good prog NF H D (good H) (m_dur m) (m_verified m) (cur s) q (cur s) (HG H) Hk Hw Hdg Hgv Ho3 (N.le_refl _)) in Hd.
      destruct (mo_obs _ _ _ _ _ _ _ Hok d Hd) as (md & Hmd & Hobs).
      pose proof (durge_clos _ _ _ _ _ _ _ _ Hdg Hd) as Hdd.
      exists md. split; [exact Hmd|].
      destruct Hobs as [A B]; [right; exists (m_dur m); split; assumption|].
      split; [|exact B]. rewrite <- A.
      apply (Hst d (clos_good prog NF H (good H) _ q d (HG H) Hgv Hd) Hdd).
Qed.

Lemma shortcut_ok H D s q m :
  DInv H D s -> d_memo s q = Some m ->
  lcs s (m_dur m) <= m_verified m ->
  let m' := reverify m (cur s) in
  DInv H D (store s q m') /\ dext s (store s q m') /\ E H (cur s) q = E H (m_verified m) q.
Proof.
  intros HI Hm Hlc.
  exact (revalidate_g _ H D s q m rank_good HI Hm I (shortcut_pre _ H D s q m rank_good HI Hm I Hlc)).
Qed.

(* ---------------------------------------------------------------- frames *)
Record covers (s : db) (pre : list rd) (fr : frame) : Prop := {
  cv_in : forall i, In (RIn i) pre ->
          (In (EIn i) (fr_edges fr) \/ f_dur (d_in s i) = 3) /\
          f_changed (d_in s i) <= fr_changed fr /\ fr_dur fr <= f_dur (d_in s i);
  cv_q : forall d, In (RQ d) pre ->
         exists md, d_memo s d = Some md /\ m_verified md = cur s /\ m_val md <> None /\
                    m_changed md <= fr_changed fr /\ fr_dur fr <= m_dur md /\
                    (In (EQ d) (fr_edges fr) \/ m_dur md = 3);
  cv_cell : forall x, In x pre -> untr x ->
            fr_untracked fr = true /\ fr_changed fr = cur s /\ fr_dur fr = 0;
  cv_edges_q : forall d, In (EQ d) (fr_edges fr) -> In (RQ d) pre;
  cv_le : fr_changed fr <= cur s;
  cv_ge1 : 1 <= fr_changed fr;
  (* the frame's stamp is the stamp of something that was read (or the start revision) *)
  cv_stamp : fr_changed fr <= 1 \/ exists x, In x pre /\ sle s (fr_changed fr) x;
  cv_dur3 : fr_dur fr <= 3;
  cv_untr : fr_untracked fr = true -> fr_dur fr = 0;
  (* the frame's durability is exactly the minimum over what was read *)
  cv_lb : forall k, k <= 3 ->
          (forall i, In (RIn i) pre -> k <= f_dur (d_in s i)) ->
          (forall d, In (RQ d) pre -> forall md, d_memo s d = Some md -> k <= m_dur md) ->
          (forall x, In x pre -> untr x -> k = 0) ->
          k <= fr_dur fr
}.

Lemma covers_frame0 s : 1 <= cur s -> covers s [] frame0.
Proof.
  intros Hc. constructor.
  - intros i [].
  - intros d [].
  - intros x [].
  - intros d [].
  - exact Hc.
  - cbn. unfold REV_START. lia.
  - left. cbn. unfold REV_START. lia.
  - cbn. unfold D_NEVER. lia.
  - discriminate.
  - intros k Hk _ _ _. exact Hk.
Qed.

(* what an observer g (or the query's own memo verified now) is owed about the frame's
   durability, when the new run reads what g saw *)
Lemma frame_dur_lb H D s q fr g mg :
  DInv H D s -> covers s (tr H (cur s) q) fr ->
  d_memo s g = Some mg -> clos H (m_verified mg) g q ->
  tr H (cur s) q = tr H (m_verified mg) q ->
  (forall i, In (RIn i) (tr H (cur s) q) -> D (cur s) i = D (m_verified mg) i) ->
  (forall d md, In (RQ d) (tr H (cur s) q) -> d_memo s d = Some md ->
                obs_pre H D s (m_verified mg) d md) ->
  m_dur mg <= fr_dur fr.
Proof.
  intros HI Hcv Hg Hcl Htr HDi Hpre.
  pose proof (inv_memo _ _ _ _ _ HI g mg Hg) as Hokg.
  pose proof (durge_clos _ _ _ _ _ _ _ _ (mo_durge _ _ _ _ _ _ _ Hokg) Hcl) as Hdq.
  apply (cv_lb _ _ _ Hcv).
  - apply (mo_dur3 _ _ _ _ _ _ _ Hokg).
  - intros i Hi.
    rewrite <- (inv_dur _ _ _ _ _ HI i (cur s)); [|apply (inv_in_le _ _ _ _ _ HI) | lia].
    rewrite (HDi i Hi). rewrite Htr in Hi. apply (durge_in _ _ _ _ _ _ _ _ Hdq Hi).
  - intros d Hd md Hmd. pose proof Hd as Hd'. rewrite Htr in Hd'.
    pose proof (clos_right _ _ _ _ _ _ _ Hcl Hd') as Hcd.
    destruct (mo_obs _ _ _ _ _ _ _ Hokg d Hcd) as (md0 & Hmd0 & Hobs).
    rewrite Hmd in Hmd0. injection Hmd0 as <-.
    apply Hobs. apply Hpre; assumption.
  - intros x Hx Hu. rewrite Htr in Hx. apply (durge_untr _ _ _ _ _ _ _ _ Hdq Hx Hu).
Qed.

(* A re-execution never yields a stamp below the old changed_at:
   either every read has the answer it had when the old memo was verified -- then the new run
   reads the same things, whose stamps bound the old changed_at -- or the first read with a
   different answer is read again, and its stamp is later than the old verified_at (an
   untracked read that is performed again stamps the frame with the current revision). *)
Lemma frame_changed_lb H D s q fr o :
  DInv H D s -> covers s (tr H (cur s) q) fr -> d_memo s q = Some o ->
  m_changed o <= fr_changed fr.
Proof.
  intros HI Hcv Ho.
  pose proof (inv_memo _ _ _ _ _ HI q o Ho) as Hok.
  pose proof (mo_order _ _ _ _ _ _ _ Hok) as (Ho1 & Ho2 & Ho3).
  assert (Hsle : forall x, In x (tr H (cur s) q) -> sle s (m_changed o) x ->
            m_changed o <= fr_changed fr).
  { intros x Hx Hs. destruct x as [i | d | c |]; cbn in Hs.
    - destruct (cv_in _ _ _ Hcv i Hx) as (_ & A & _). lia.
    - destruct Hs as (md & Hmd & Hle).
      destruct (cv_q _ _ _ Hcv d Hx) as (md0 & Hmd0 & _ & _ & A & _).
      rewrite Hmd in Hmd0. injection Hmd0 as <-. lia.
    - destruct (cv_cell _ _ _ Hcv (RCell c) Hx) as (_ & A & _); [right; eauto | lia].
    - destruct (cv_cell _ _ _ Hcv RTouch Hx) as (_ & A & _); [left; reflexivity | lia]. }
  destruct (first_changed_is_read_again (prog q) (envat H (m_verified o)) (envat H (cur s)))
    as [Hag | (pre & x & post & Ht & _ & Hnea & post' & Ht')].
  - destruct (trace_determined _ _ _ Hag) as [Htr _].
    assert (Htr' : tr H (cur s) q = tr H (m_verified o) q) by exact Htr.
    destruct (mo_stamp _ _ _ _ _ _ _ Hok) as [A | (x & Hx & Hs)].
    + pose proof (cv_ge1 _ _ _ Hcv). lia.
    + apply (Hsle x); [rewrite Htr'; exact Hx | exact Hs].
  - assert (Hx : In x (tr H (m_verified o) q)).
    { unfold tr, Inv.tr. rewrite Ht. apply in_or_app; right; left; reflexivity. }
    assert (Hx' : In x (tr H (cur s) q)).
    { unfold tr, Inv.tr. rewrite Ht'. apply in_or_app; right; left; reflexivity. }
    destruct x as [i | d | c |]; cbn in Hnea.
    + destruct (cv_in _ _ _ Hcv i Hx') as (_ & A & _).
      destruct (N.le_gt_cases (f_changed (d_in s i)) (m_verified o)) as [Hle | Hgt]; [|lia].
      exfalso. apply Hnea.
      rewrite (inv_in _ _ _ _ _ HI i (m_verified o) Hle Ho3).
      symmetry. apply (inv_in _ _ _ _ _ HI i (cur s)); [apply (inv_in_le _ _ _ _ _ HI) | lia].
    + destruct (cv_q _ _ _ Hcv d Hx') as (md & Hmd & Hvd & _ & A & _).
      destruct (N.le_gt_cases (m_changed md) (m_verified o)) as [Hle | Hgt]; [|lia].
      exfalso. apply Hnea.
      destruct (mo_obs _ _ _ _ _ _ _ Hok d (clos_one _ _ _ _ _ _ Hx)) as (md0 & Hmd0 & Hobs).
      rewrite Hmd in Hmd0. injection Hmd0 as <-.
      destruct Hobs as [B _]; [left; exact Hle|]. rewrite B, Hvd. reflexivity.
    + destruct (cv_cell _ _ _ Hcv (RCell c) Hx') as (_ & A & _); [right; eauto | lia].
    + exfalso. apply Hnea. reflexivity.
Qed.

Lemma covers_callee H D s q fr d :
  DInv H D s -> covers s (tr H (cur s) q) fr -> In (RQ d) (tr H (cur s) q) ->
  exists md, d_memo s d = Some md /\ m_verified md = cur s /\
             m_changed md <= fr_changed fr /\ fr_dur fr <= m_dur md /\
             durge H D (cur s) (m_dur md) d.
Proof.
  intros HI Hcv Hd. destruct (cv_q _ _ _ Hcv d Hd) as (md & Hmd & Hvd & _ & Hcd & Hdd & _).
  exists md. conj; auto. rewrite <- Hvd.
  apply (mo_durge _ _ _ _ _ _ _ (inv_memo _ _ _ _ _ HI d md Hmd)).
Qed.

Lemma covers_durge H D s q fr :
  DInv H D s -> covers s (tr H (cur s) q) fr -> durge H D (cur s) (fr_dur fr) q.
Proof.
  intros HI Hcv. constructor.
  - intros i Hi. rewrite (inv_dur_cur H D s i HI). apply (cv_in _ _ _ Hcv i Hi).
  - intros d Hd. destruct (covers_callee H D s q fr d HI Hcv Hd) as (md & _ & _ & _ & Hle & Hdd).
    eapply durge_mono; [exact Hle | exact Hdd].
  - intros x Hx Hu. apply (cv_cell _ _ _ Hcv x Hx Hu).
Qed.

Lemma fresh_memo_dok good H D s q fr v ch : good_ok good ->
  DInv H D s -> good H (cur s) q -> covers s (tr H (cur s) q) fr ->
  v = E H (cur s) q -> ch <= fr_changed fr ->
  let m' := fresh_memo v (cur s) ch fr in
  dmemo_ok H D (store s q m') q m'.
Proof.
  intros HG HI Hgc Hcv Hv Hle m'.
  pose proof (inv_cur _ _ _ _ _ HI) as Hcur1. pose proof (cv_le _ _ _ Hcv) as Hfrle.
  assert (Hnever : (fr_dur fr =? D_NEVER) && negb (fr_untracked fr) = true -> fr_dur fr = 3).
  { intros Hb. apply andb_true_iff in Hb. destruct Hb as [Hb _]. apply N.eqb_eq in Hb. exact Hb. }
  constructor; cbn [m' fresh_memo m_val m_verified m_changed m_dur m_untracked]; rewrite ?cur_store.
  - lia.
  - intros x Hx. injection Hx as <-. exact Hv.
  - intros i Hi. destruct (cv_in _ _ _ Hcv i Hi) as (Hin & _ & Hdi).
    rewrite (inv_dur_cur H D s i HI). cbn.
    destruct ((fr_dur fr =? D_NEVER) && negb (fr_untracked fr)) eqn:Hb; [right | exact Hin].
    pose proof (inv_dur3 _ _ _ _ _ HI (cur s) i) as H3. rewrite (inv_dur_cur H D s i HI) in H3.
    rewrite (Hnever eq_refl) in Hdi. lia.
  - intros d Hd. destruct (cv_q _ _ _ Hcv d Hd) as (md & Hmd & Hvd & _ & _ & Hdd & Hor).
    pose proof (inv_memo _ _ _ _ _ HI d md Hmd) as Hokd.
    assert (H3d : m_dur md = 3 -> durge H D (cur s) 3 d).
    { intros H3. rewrite <- H3, <- Hvd. apply (mo_durge _ _ _ _ _ _ _ Hokd). }
    cbn. destruct ((fr_dur fr =? D_NEVER) && negb (fr_untracked fr)) eqn:Hb.
    + right. apply H3d. pose proof (mo_dur3 _ _ _ _ _ _ _ Hokd). rewrite (Hnever eq_refl) in Hdd. lia.
    + destruct Hor as [Hin | H3]; [left; exact Hin | right; apply H3d; exact H3].
  - intros x Hx Hu. apply (cv_cell _ _ _ Hcv x Hx Hu).
  - intros d Hd. apply (cv_edges_q _ _ _ Hcv d). revert Hd. cbn.
    destruct ((fr_dur fr =? D_NEVER) && negb (fr_untracked fr)); [intros [] | auto].
  - apply (cv_untr _ _ _ Hcv).
  - exact (covers_durge H D s q fr HI Hcv).
  - apply (cv_dur3 _ _ _ Hcv).
  - destruct (cv_stamp _ _ _ Hcv) as [A | (x & Hx & Hs)]; [left; lia | right].
    exists x. split; [exact Hx |]. apply sle_store; [| exact (sle_le s _ ch x Hle Hs)].
    intros ->. exact (proj2 (good_tr good H _ q q HG Hgc Hx) eq_refl).
  - apply (obs_store H D s q m' eq_refl). intros d Hd Hdq.
    destruct (clos_first H (cur s) q d Hd Hdq) as (d1 & Hin1 & Hd1).
    destruct (covers_callee H D s q fr d1 HI Hcv Hin1) as (md1 & Hmd1 & Hvd1 & _ & Hle1 & _).
    destruct (obs_of_callee H D s d1 md1 d HI Hmd1 Hvd1 Hd1) as (md & Hmd & HEd & Hdd).
    exists md. split; [exact Hmd |]. split; [exact HEd | cbn; lia].
Qed.

Definition memos_good (good : hist -> rev -> qkey -> Prop) (H : hist) (s : db) : Prop :=
  forall p mp, d_memo s p = Some mp -> good H (m_verified mp) p.

(* what an observer g of q is owed by the fresh memo: g was verified now; or nothing at some level
   of q was written since g was verified; or every read of the new run carries a stamp that g
   has already seen; or the memo is backdated to the old one, which served g *)
Lemma fresh_observed good H D s q fr v ch (old : option memo) : good_ok good ->
  DInv H D s -> memos_good good H s -> good H (cur s) q ->
  covers s (tr H (cur s) q) fr -> v = E H (cur s) q -> d_memo s q = old ->
  (ch = fr_changed fr \/
   exists o ov, old = Some o /\ m_val o = Some ov /\ ov = v /\ ch = m_changed o /\
                m_dur o <= fr_dur fr /\ m_changed o <= fr_changed fr) ->
  let m' := fresh_memo v (cur s) ch fr in
  forall g mg, d_memo s g = Some mg -> clos H (m_verified mg) g q ->
    obs_pre H D s (m_verified mg) q m' ->
    E H (m_verified mg) q = E H (cur s) q /\ m_dur mg <= m_dur m'.
Proof.
  intros HG HI HM Hgc Hcv Hv Hold Hch m' g mg Hg Hcl Hpre.
  pose proof (inv_cur _ _ _ _ _ HI) as Hcur1.
  pose proof (inv_memo _ _ _ _ _ HI g mg Hg) as Hokg.
  pose proof (mo_order _ _ _ _ _ _ _ Hokg) as (Hg1 & Hg2 & Hg3).
  pose proof (clos_good prog NF H (good H) _ g q (HG H) (HM g mg Hg) Hcl) as Hgg.
  destruct (N.eq_dec (m_verified mg) (cur s)) as [Heq | Hnow].
  { (* g is verified now *)
    split; [rewrite Heq; reflexivity|].
    apply (frame_dur_lb H D s q fr g mg HI Hcv Hg Hcl); rewrite ?Heq; auto.
    intros d md _ Hmd. left.
    pose proof (mo_order _ _ _ _ _ _ _ (inv_memo _ _ _ _ _ HI d md Hmd)). lia. }
  assert (Hstable : (exists k, durge H D (m_verified mg) k q /\ lcs s k <= m_verified mg) ->
            E H (m_verified mg) q = E H (cur s) q /\ m_dur mg <= m_dur m').
  { (* q is stable since v_g at level k *)
    intros (k & Hdk & Hlck).
    assert (Hk : 1 <= k).
    { destruct (N.eq_dec k 0) as [-> | H0]; [|lia].
      unfold lcs in Hlck. rewrite lc_zero in Hlck. unfold cur in *. lia. }
    pose proof (stable_now prog NF H D s k (m_verified mg) HI Hlck) as Hw.
    destruct (durge_stable_good prog NF H D (good H) k (m_verified mg) (cur s) (HG H) Hk Hw q Hdk Hgg (cur s) Hg3 (N.le_refl _))
      as (Htr & HE & _).
    split; [symmetry; exact HE|].
    apply (frame_dur_lb H D s q fr g mg HI Hcv Hg Hcl Htr).
    - intros i Hi. rewrite Htr in Hi.
      apply (Hw i); [apply (durge_in _ _ _ _ _ _ _ _ Hdk Hi) | lia | lia].
    - intros d md Hd _. rewrite Htr in Hd. right. exists k.
      split; [apply (durge_q _ _ _ _ _ _ _ _ Hdk Hd) | exact Hlck]. }
  destruct Hpre as [Hle | Hst]; [|exact (Hstable Hst)].
  cbn [m' fresh_memo m_changed] in Hle.
  destruct Hch as [-> | (o & ov & Ho & Hov & Heq & -> & Hdo & _)].
  - (* not backdated: every read of the new run has a stamp <= v_g *)
    assert (Hsame_ans : forall x, In x (tr H (cur s) q) -> In x (tr H (m_verified mg) q) ->
              answer (envat H (cur s)) x = answer (envat H (m_verified mg)) x).
    { intros x Hx Hx'. destruct x as [i | d | c |]; cbn.
      - destruct (cv_in _ _ _ Hcv i Hx) as (_ & Hst & _).
        rewrite (inv_in _ _ _ _ _ HI i (cur s)); [|apply (inv_in_le _ _ _ _ _ HI) | lia].
        rewrite (inv_in _ _ _ _ _ HI i (m_verified mg)); [reflexivity | lia | lia].
      - destruct (cv_q _ _ _ Hcv d Hx) as (md & Hmd & Hvd & _ & Hcd & _).
        pose proof (clos_right _ _ _ _ _ _ _ Hcl Hx') as Hcd'.
        destruct (mo_obs _ _ _ _ _ _ _ Hokg d Hcd') as (md0 & Hmd0 & Hobs).
        rewrite Hmd in Hmd0. injection Hmd0 as <-.
        destruct Hobs as [A _]; [left; lia|]. rewrite A, Hvd. reflexivity.
      - destruct (cv_cell _ _ _ Hcv (RCell c) Hx) as (_ & Hcc & _); [right; eauto | lia].
      - reflexivity. }
    destruct (trace_determined _ _ _ (agree_on_common (prog q) _ _ Hsame_ans)) as [Htr Hrun].
    assert (Htr' : tr H (cur s) q = tr H (m_verified mg) q) by (symmetry; exact Htr).
    split; [rewrite (good_unfold good H _ q HG Hgg), (good_unfold good H _ q HG Hgc); exact Hrun|].
    apply (frame_dur_lb H D s q fr g mg HI Hcv Hg Hcl Htr').
    + intros i Hi. destruct (cv_in _ _ _ Hcv i Hi) as (_ & Hst & _).
      rewrite (inv_dur_cur H D s i HI). symmetry. apply (inv_dur _ _ _ _ _ HI); lia.
    + intros d md Hd Hmd. destruct (cv_q _ _ _ Hcv d Hd) as (md0 & Hmd0 & _ & _ & Hcd & _).
      rewrite Hmd in Hmd0. injection Hmd0 as <-. left. lia.
  - (* backdated: the value equals the old one, the durability did not decrease *)
    subst old.
    destruct (mo_obs _ _ _ _ _ _ _ Hokg q Hcl) as (md0 & Hmd0 & Hobs).
    rewrite Ho in Hmd0. injection Hmd0 as <-.
    destruct Hobs as [A B]; [left; exact Hle|].
    split; [|cbn; lia].
    rewrite A. rewrite <- (mo_val _ _ _ _ _ _ _ (inv_memo _ _ _ _ _ HI q o Ho) ov Hov).
    rewrite Heq. exact Hv.
Qed.

Lemma fresh_store_g good H D s q fr v ch (old : option memo) : good_ok good ->
  DInv H D s -> memos_good good H s -> good H (cur s) q ->
  covers s (tr H (cur s) q) fr ->
  v = E H (cur s) q ->
  d_memo s q = old ->
  (forall m0, old = Some m0 -> m_verified m0 = cur s -> m_val m0 = None) ->
  (ch = fr_changed fr \/
   exists o ov, old = Some o /\ m_val o = Some ov /\ ov = v /\ ch = m_changed o /\
                m_dur o <= fr_dur fr /\ m_changed o <= fr_changed fr) ->
  let m' := fresh_memo v (cur s) ch fr in
  DInv H D (store s q m') /\ dext s (store s q m').
Proof.
  intros HG HI HM Hgc Hcv Hv Hold Hnv Hch m'.
  assert (Hle : ch <= fr_changed fr).
  { destruct Hch as [-> | (o & ov & _ & _ & _ & -> & _ & A)]; [lia | exact A]. }
  apply (DInv_store prog NF H D s q m' HI); [reflexivity | | | |].
  - exact (fresh_memo_dok good H D s q fr v ch HG HI Hgc Hcv Hv Hle).
  - intros g mg Hg _ Hcl Hpre.
    exact (fresh_observed good H D s q fr v ch old HG HI HM Hgc Hcv Hv Hold Hch g mg Hg Hcl Hpre).
  - (* the query's own memo, if it was verified now (and evicted) *)
    intros m0 Hm0 Hv0.
    split; [intros Hx; exfalso; apply Hx; apply Hnv; [congruence | exact Hv0]|].
    cbn [m' fresh_memo m_dur].
    apply (frame_dur_lb H D s q fr q m0 HI Hcv Hm0); rewrite ?Hv0; auto.
    + apply clos_refl.
    + intros d md _ Hmd. left.
      pose proof (mo_order _ _ _ _ _ _ _ (inv_memo _ _ _ _ _ HI d md Hmd)). lia.
  - (* changed_at never decreases *)
    intros m0 Hm0. cbn [m' fresh_memo m_changed].
    destruct Hch as [-> | (o & ov & Ho & _ & _ & -> & _ & _)].
    + apply (frame_changed_lb H D s q fr m0 HI Hcv Hm0).
    + subst old. rewrite Hm0 in Ho. injection Ho as <-. lia.
Qed.

Lemma fresh_store_ok H D s q fr v ch (old : option memo) :
  DInv H D s ->
  covers s (tr H (cur s) q) fr ->
  v = E H (cur s) q ->
  d_memo s q = old ->
  (forall m0, old = Some m0 -> m_verified m0 = cur s -> m_val m0 = None) ->
  (* ch is either the frame's stamp, or the old memo's stamp when the value is unchanged and
     the durability did not decrease *)
  (ch = fr_changed fr \/
   exists o ov, old = Some o /\ m_val o = Some ov /\ ov = v /\ ch = m_changed o /\
                m_dur o <= fr_dur fr /\ m_changed o <= fr_changed fr) ->
  let m' := fresh_memo v (cur s) ch fr in
  DInv H D (store s q m') /\ dext s (store s q m').
Proof.
  intros HI. exact (fresh_store_g _ H D s q fr v ch old rank_good HI (fun _ _ _ => I) I).
Qed.

(* ---------------------------------------------------------------- the edge walk succeeded *)
(* Every recorded edge is unchanged since the memo was verified: the memo may be marked
   verified now.  Inputs and callees of level NEVER_CHANGE have no edge; they cannot move. *)
Lemma deep_pre good H D s q m : good_ok good ->
  DInv H D s -> memos_good good H s -> d_memo s q = Some m -> m_untracked m = false ->
  (forall e, In e (m_edges m) ->
     match e with
     | EIn i => f_changed (d_in s i) <= m_verified m
     | EQ d => E H (m_verified m) d = E H (cur s) d /\ durge H D (cur s) (m_dur m) d /\
               exists md, d_memo s d = Some md /\ m_verified md = cur s /\ m_dur m <= m_dur md
     end) ->
  reval_pre good H D s q m.
Proof.
  intros HG HI HM Hm Hu Hc.
  pose proof (inv_memo _ _ _ _ _ HI q m Hm) as Hok.
  pose proof (HM q m Hm) as Hgv.
  assert (Hcal : forall d, In (RQ d) (tr H (m_verified m) q) -> good H (m_verified m) d).
  { intros d Hx. apply (good_tr good H _ q d HG Hgv Hx). }
  pose proof (mo_order _ _ _ _ _ _ _ Hok) as (Ho1 & Ho2 & Ho3).
  pose proof (mo_durge _ _ _ _ _ _ _ Hok) as Hdg.
  pose proof (stable_never prog NF H D s (m_verified m) HI Ho1) as Hw3.
  assert (Hin_same : forall i, In (RIn i) (tr H (m_verified m) q) ->
            sn_in (H (cur s)) i = sn_in (H (m_verified m)) i /\ D (cur s) i = D (m_verified m) i).
  { intros i Hi. destruct (mo_reads_in _ _ _ _ _ _ _ Hok i Hi) as [He | H3].
    - pose proof (Hc _ He) as Hle. cbn in Hle. split.
      + rewrite (inv_in _ _ _ _ _ HI i (m_verified m) Hle Ho3).
        apply (inv_in _ _ _ _ _ HI i (cur s)); [apply (inv_in_le _ _ _ _ _ HI) | lia].
      + rewrite (inv_dur _ _ _ _ _ HI i (m_verified m) Hle Ho3). apply (inv_dur_cur H D s i HI).
    - apply (Hw3 i); [lia | exact Ho3 | lia]. }
  assert (Hnow : forall d, In (RQ d) (tr H (m_verified m) q) -> durge H D (m_verified m) 3 d ->
            tr H (cur s) d = tr H (m_verified m) d /\ E H (cur s) d = E H (m_verified m) d /\
            durge H D (cur s) 3 d /\ good H (cur s) d).
  { intros d Hx H3. apply (never_now_g good H D s (m_verified m) d HG HI Ho1 Ho3 H3 (Hcal d Hx)). }
  assert (Hag : agree_on (envat H (m_verified m)) (envat H (cur s)) (tr H (m_verified m) q)).
  { intros x Hx. destruct x as [i | d | c |]; cbn.
    - symmetry. apply (Hin_same i Hx).
    - destruct (mo_reads_q _ _ _ _ _ _ _ Hok d Hx) as [He | H3].
      + exact (proj1 (Hc _ He)).
      + symmetry. apply (Hnow d Hx H3).
    - rewrite (mo_reads_cell _ _ _ _ _ _ _ Hok (RCell c) Hx) in Hu; [discriminate | right; eauto].
    - reflexivity. }
  destruct (trace_determined (prog q) _ _ Hag) as [Htr _].
  assert (Htr' : tr H (cur s) q = tr H (m_verified m) q) by exact Htr.
  split; [| split; [exact Hag | split; [intros i Hi; apply (Hin_same i Hi) | split]]].
  - apply (g_moves _ _ _ _ (HG H) (m_verified m) (cur s) q Hgv). intros d Hd. rewrite Htr' in Hd.
    destruct (mo_reads_q _ _ _ _ _ _ _ Hok d Hd) as [He | H3].
    + destruct (Hc _ He) as (_ & _ & md & Hmd & Hvd & _).
      pose proof (HM d md Hmd) as Hgd. rewrite Hvd in Hgd. exact Hgd.
    + apply (Hnow d Hd H3).
  - constructor; rewrite Htr'.
    + intros i Hi. rewrite (proj2 (Hin_same i Hi)). apply (durge_in _ _ _ _ _ _ _ _ Hdg Hi).
    + intros d Hd. destruct (mo_reads_q _ _ _ _ _ _ _ Hok d Hd) as [He | H3].
      * exact (proj1 (proj2 (Hc _ He))).
      * eapply durge_mono; [apply (mo_dur3 _ _ _ _ _ _ _ Hok)|]. apply (Hnow d Hd H3).
    + intros x Hx Hux. apply (durge_untr _ _ _ _ _ _ _ _ Hdg Hx Hux).
  - intros d Hd Hdq.
    destruct (clos_first H (cur s) q d Hd Hdq) as (d1 & Hin1 & Hd1). rewrite Htr' in Hin1.
    destruct (mo_reads_q _ _ _ _ _ _ _ Hok d1 Hin1) as [He | H3].
    + destruct (Hc _ He) as (_ & _ & md1 & Hmd1 & Hvd1 & Hle1).
      destruct (obs_of_callee H D s d1 md1 d HI Hmd1 Hvd1 Hd1) as (md & Hmd & HEd & Hdd).
      exists md. split; [exact Hmd|]. split; [exact HEd | lia].
    + assert (H31 : (1 <= 3)) by lia.
      apply (clos_stable_good prog NF H D (good H) 3 (m_verified m) (cur s) d1 (cur s) (HG H) H31 Hw3 H3 (Hcal d1 Hin1) Ho3 (N.le_refl _)) in Hd1.
      pose proof (durge_clos _ _ _ _ _ _ _ _ H3 Hd1) as H3d.
      assert (Hcq : clos H (m_verified m) q d) by (eapply clos_step; eassumption).
      destruct (mo_obs _ _ _ _ _ _ _ Hok d Hcq) as (md & Hmd & Hobs).
      exists md. split; [exact Hmd|].
      destruct Hobs as [A B].
      { right. exists 3. split; [exact H3d|]. unfold lcs. rewrite lc_never by lia. exact Ho1. }
      split; [|exact B]. rewrite <- A.
      apply (never_now_g good H D s (m_verified m) d HG HI Ho1 Ho3 H3d).
      exact (clos_good prog NF H (good H) _ q d (HG H) (HM q m Hm) Hcq).
Qed.

Lemma deep_ok H D s q m :
  DInv H D s -> d_memo s q = Some m -> m_untracked m = false ->
  (forall e, In e (m_edges m) ->
     match e with
     | EIn i => f_changed (d_in s i) <= m_verified m
     | EQ d => E H (m_verified m) d = E H (cur s) d /\ durge H D (cur s) (m_dur m) d /\
               exists md, d_memo s d = Some md /\ m_verified md = cur s /\ m_dur m <= m_dur md
     end) ->
  let m' := reverify m (cur s) in
  DInv H D (store s q m') /\ dext s (store s q m') /\ E H (cur s) q = E H (m_verified m) q.
Proof.
  intros HI Hm Hu Hc.
  exact (revalidate_g _ H D s q m rank_good HI Hm I
           (deep_pre _ H D s q m rank_good HI (fun _ _ _ => I) Hm Hu Hc)).
Qed.

End Sem.
