(* Core/DCycleInv.v — the Core model inside its first revision on programs that may be CYCLIC
   (depending on the inputs), no cycle recovery: a fetch returns the from-scratch value, or unwinds
   with the cycle error exactly when the from-scratch evaluation re-enters an open call; in both
   cases the memo table only holds values of completed (acyclic) evaluations, so the database
   remains usable.  Exceptional postconditions as in Core/Wp.v.

   Also here, for every proof about the level functions on such programs: the claim stack as the
   measure of the recursion ([room], [level_serves]). *)
From Coq Require Import PeanoNat Lia.
From Salsa Require Import Base.
From Salsa.Kern Require Import CoreK.
From Salsa.Core Require Import Model Spec Wp DCycleSem.

Lemma wp_seq {A B} (m : M A) (f : A -> M B) (Q' : A -> db -> Prop) (Q : B -> db -> Prop)
    (X' X : panic -> db -> Prop) s :
  wp m Q' X' s -> (forall a s', Q' a s' -> wp (f a) Q X s') -> (forall p s', X' p s' -> X p s') ->
  wp (bind m f) Q X s.
Proof. intros Hm Hf HX. apply wp_bind. exact (wp_conseq m _ _ _ _ s Hm Hf HX). Qed.

Lemma wp_then {A B} (m : M A) (f : A -> M B) (Q' : A -> db -> Prop) (Q : B -> db -> Prop)
    (X : panic -> db -> Prop) s :
  wp m Q' X s -> (forall a s', Q' a s' -> wp (f a) Q X s') -> wp (bind m f) Q X s.
Proof. intros Hm Hf. exact (wp_seq m f Q' Q X X s Hm Hf (fun _ _ H => H)). Qed.

(* Below the memo fast paths every nested fetch / maybe_changed_after claims its key first, and a
   claimed key is refused.  So with the claimed keys [st] distinct and among the listed keys [ns],
   a level function of depth n is never asked to go deeper than it can as long as
   n + length st exceeds length ns: level 0 is never reached. *)
Section Claims.
Variable ns : list qkey.

Definition room (n : nat) (st : list qkey) : Prop :=
  NoDup st /\ incl st ns /\ (length ns < n + length st)%nat.

Lemma room_O st : ~ room 0 st.
Proof.
  intros (Hnd & Hin & Hlt). pose proof (NoDup_incl_length Hnd Hin) as Hle. cbn [Nat.add] in Hlt. lia.
Qed.

Lemma room_nil fuel : (length ns <= fuel)%nat -> room (S fuel) [].
Proof. intros Hf. split; [constructor |]. split; [apply incl_nil_l | cbn [length]; lia]. Qed.

Lemma room_push n q st : room (S n) st -> In q ns -> ~ In q st -> room n (q :: st).
Proof.
  intros (Hnd & Hin & Hlt) Hq Hnq. split; [constructor; assumption |]. split.
  - intros x [<- | Hx]; [exact Hq | exact (Hin x Hx)].
  - cbn [length]. lia.
Qed.

(* induction over the levels: [R L st] is what the lower level L provides under the claims st *)
Variable prog : qkey -> body.
Variable noeq : qkey -> bool.
Variable R : lower -> list qkey -> Prop.

Definition serves (L : lower) (n : nat) : Prop := forall st, room n st -> R L st.

Theorem level_serves :
  (forall L n, serves L n -> serves {| l_fetch := fetch prog noeq L; l_mca := mca prog noeq L |} (S n)) ->
  forall n, serves (level prog noeq n) n.
Proof.
  intros Hstep. induction n as [| n IH].
  - intros st Hr. destruct (room_O st Hr).
  - exact (Hstep _ n IH).
Qed.

End Claims.

Section CycleInv.
Variable prog : qkey -> body.
Variable noeq : qkey -> bool.
Variable sn : snapshot.
Variable ns : list qkey.

Notation qval := (qval prog sn).
Notation bval := (bval prog sn).
Notation qblk := (qblk prog sn).
Notation bblk := (bblk prog sn).

(* every key a listed query can ever call is listed *)
Definition closed_calls : Prop := forall q d, In q ns -> calls (prog q) d -> In d ns.
Hypothesis Hclosed : closed_calls.

(* the invariant (the stack is tracked separately) *)
Definition FI (s : db) : Prop :=
  (forall i, f_val (d_in s i) = sn_in sn i) /\
  (forall c, d_cell s c = sn_cell sn c) /\
  (forall c, d_pcell s c = 0) /\
  d_evfault s = None /\
  (forall q m, d_memo s q = Some m ->
     m_verified m = cur s /\ exists v, m_val m = Some v /\ qval q v).

Lemma FI_in s i : FI s -> f_val (d_in s i) = sn_in sn i.
Proof. intros HF. apply HF. Qed.
Lemma FI_cell s c : FI s -> d_cell s c = sn_cell sn c.
Proof. intros HF. apply HF. Qed.
Lemma FI_pcell s c : FI s -> d_pcell s c = 0.
Proof. intros HF. apply HF. Qed.
Lemma FI_evfault s : FI s -> d_evfault s = None.
Proof. intros HF. apply HF. Qed.
Lemma FI_memo s q m : FI s -> d_memo s q = Some m ->
  m_verified m = cur s /\ exists v, m_val m = Some v /\ qval q v.
Proof. intros HF. apply HF. Qed.

Lemma FI_eq s s' :
  d_revs s' = d_revs s -> d_in s' = d_in s -> d_cell s' = d_cell s -> d_pcell s' = d_pcell s ->
  (d_evfault s = None -> d_evfault s' = None) -> d_memo s' = d_memo s -> FI s -> FI s'.
Proof.
  intros Hr Hi Hc Hp He Hm (F1 & F2 & F3 & F4 & F5).
  unfold FI. rewrite Hi, Hc, Hp, Hm. replace (cur s') with (cur s) by (unfold cur; now rewrite Hr).
  split; [exact F1 |]. split; [exact F2 |]. split; [exact F3 |]. split; [exact (He F4) | exact F5].
Qed.

Lemma FI_store s q m v : FI s -> m_verified m = cur s -> m_val m = Some v -> qval q v ->
  FI (set_seen (set_memo s (upd (d_memo s) q (Some m))) ((q, m_verified m) :: d_seen s)).
Proof.
  intros (F1 & F2 & F3 & F4 & F5) Hver Hv Hq.
  split; [exact F1 |]. split; [exact F2 |]. split; [exact F3 |]. split; [exact F4 |].
  intros q' m'. cbn [d_memo set_seen set_memo]. unfold upd. destruct (key_eqb_spec q q') as [<- | Hne].
  - intros Hm'. injection Hm' as <-. split; [exact Hver |]. exists v. split; assumption.
  - exact (F5 q' m').
Qed.

Definition fserves (L : lower) (st : list qkey) : Prop :=
  forall s q, FI s -> d_stack s = st -> In q ns ->
    wp (l_fetch L q)
       (fun r s' => FI s' /\ d_stack s' = st /\ qval q (fst (fst r)))
       (fun p s' => FI s' /\ p = PCycle /\ qblk st q) s.

Notation fspec := (serves ns fserves).

Section Level.
Variable L : lower.
Variable st' : list qkey.
Hypothesis HL : fserves L st'.

(* the reads other than calls are answered by the snapshot, so [bval] / [bblk] of the body are
   those of the continuation by computation *)
Lemma run_body_ok : forall b fr s, FI s -> d_stack s = st' -> (forall d, calls b d -> In d ns) ->
  wp (run_body L b fr)
     (fun r s' => FI s' /\ d_stack s' = st' /\ bval b (fst r))
     (fun p s' => FI s' /\ p = PCycle /\ bblk st' b) s.
Proof.
  induction b as [v | i k IH | d k IH | c k IH | k IH | c k IH]; intros fr s HF Hs Hc; cbn [run_body].
  - apply wp_ret. split; [exact HF |]. split; [exact Hs |]. exists 0%nat. reflexivity.
  - apply wp_bind, wp_get. rewrite (FI_in s i HF).
    exact (IH _ _ s HF Hs (fun d Hd => Hc d (calls_in_rdin _ _ _ _ Hd))).
  - eapply wp_seq; [exact (HL s d HF Hs (Hc d (calls_here d k))) | |].
    + intros [[v du] ch] s1 (HF1 & Hs1 & Hv). cbn [fst] in Hv.
      eapply wp_conseq; [exact (IH v _ s1 HF1 Hs1 (fun d' Hd' => Hc d' (calls_in_call _ _ _ _ Hd'))) | |].
      * intros r s2 (H1 & H2 & H3). split; [exact H1 |]. split; [exact H2 |]. now apply (bval_call prog sn d k v).
      * intros p s2 (H1 & H2 & H3). split; [exact H1 |]. split; [exact H2 |]. now apply (bblk_call_value prog sn st' d k v).
    + intros p s1 (H1 & H2 & H3). split; [exact H1 |]. split; [exact H2 |]. now apply bblk_call_blocked.
  - apply wp_bind, wp_get. rewrite (FI_cell s c HF).
    exact (IH _ _ s HF Hs (fun d Hd => Hc d (calls_in_cell _ _ _ _ Hd))).
  - apply wp_bind, wp_get.
    exact (IH _ s HF Hs (fun d Hd => Hc d (calls_in_touch _ _ Hd))).
  - apply wp_bind, wp_get. rewrite (FI_pcell s c HF). cbn [N.eqb].
    exact (IH _ s HF Hs (fun d Hd => Hc d (calls_in_panicif _ _ _ Hd))).
Qed.

End Level.

(* executing q for the first time, q claimed on top of st *)
Lemma execute_ok L q st (HL : fserves L (q :: st)) s :
  FI s -> d_stack s = q :: st -> In q ns -> ~ In q st ->
  wp (execute prog noeq L q None)
     (fun m s' => FI s' /\ d_stack s' = q :: st /\ exists v, m_val m = Some v /\ qval q v)
     (fun p s' => FI s' /\ p = PCycle /\ qblk st q) s.
Proof.
  intros HF Hs Hq Hnq. unfold execute.
  apply wp_bind, wp_emit; [| intros Hne; destruct (Hne (FI_evfault s HF))].
  intros s1 Hr Hi Hc Hp Hm _ Hst _ Hev _.
  assert (HF1 : FI s1) by (apply (FI_eq s); assumption).
  eapply wp_seq.
  - apply (run_body_ok L (q :: st) HL (prog q) frame0 s1 HF1); [congruence | exact (fun d => Hclosed q d Hq)].
  - intros [v fr] s2 (HF2 & Hs2 & Hv). cbn [fst] in Hv. apply qval_of_body in Hv.
    apply wp_bind, wp_get. unfold set_memo_at. apply wp_bind, wp_modify, wp_ret.
    split; [apply (FI_store s2 q _ v HF2); [reflexivity | reflexivity | exact Hv] |].
    split; [exact Hs2 |]. exists v. split; [reflexivity | exact Hv].
  - intros p s2 (HF2 & Hp2 & Hb). split; [exact HF2 |]. split; [exact Hp2 |].
    exact (regress prog sn q st (notin_existsb q st Hnq) Hb).
Qed.

(* one level of fetch *)
Lemma fetch_ok L n (HL : fspec L n) : fspec {| l_fetch := fetch prog noeq L; l_mca := mca prog noeq L |} (S n).
Proof.
  intros st Hroom s q HF Hs Hq. cbn [l_fetch]. unfold fetch.
  assert (Hlru : forall s1 r, FI s1 -> d_stack s1 = st -> qval q (snd r) ->
     wp (modify (fun s => set_lru s (updN (d_lru s) (fst q) (lru_record_use (d_lru s (fst q)) (snd q)))) ;;;
         ret (memo_qres (fst r) (snd r)))
        (fun r s' => FI s' /\ d_stack s' = st /\ qval q (fst (fst r)))
        (fun p s' => FI s' /\ p = PCycle /\ qblk st q) s1).
  { intros s1 r HF1 Hs1 Hv. apply wp_bind, wp_modify, wp_ret.
    split; [apply (FI_eq s1); auto | split; [exact Hs1 | exact Hv]]. }
  apply wp_bind. unfold fetch_hot. apply wp_bind, wp_get.
  destruct (d_memo s q) as [m |] eqn:Hm.
  - (* a memo is verified now and has a value: the hot path *)
    destruct (FI_memo s q m HF Hm) as (Hver & v & Hv & Hqv).
    rewrite Hv. unfold shallow_verify. rewrite Hver, N.eqb_refl. cbn [update_shallow].
    apply wp_bind, wp_ret, wp_ret. apply wp_bind, wp_ret.
    exact (Hlru s (m, v) HF Hs Hqv).
  - apply wp_ret. apply wp_bind. unfold fetch_cold.
    apply wp_bind. unfold claim. apply wp_bind, wp_get. rewrite Hs.
    destruct (existsb (key_eqb q) st) eqn:Hex.
    + apply wp_fail. split; [exact HF |]. split; [reflexivity | exact (qblk_stacked prog sn st q Hex)].
    + apply existsb_in in Hex. apply wp_modify. apply wp_bind, wp_get. cbn [d_memo set_stack]. rewrite Hm.
      apply wp_bind, wp_ret. eapply wp_then.
      * apply (execute_ok L q st (HL (q :: st) (room_push ns n q st Hroom Hq Hex))
                 (set_stack s (q :: d_stack s)));
          [apply (FI_eq s); auto | cbn [d_stack set_stack]; now rewrite Hs | exact Hq | exact Hex].
      * intros m s2 (HF2 & Hs2 & v & Hv & Hqv). apply wp_bind. unfold release. apply wp_modify.
        rewrite Hv. apply wp_ret.
        apply (Hlru _ (m, v)); [apply (FI_eq s2); auto | cbn [d_stack set_stack]; now rewrite Hs2 | exact Hqv].
Qed.

Theorem level_spec : forall n, fspec (level prog noeq n) n.
Proof. apply level_serves. exact fetch_ok. Qed.

End CycleInv.
