(* Core/DPartSem.v — the specification side for programs that may be CYCLIC (depending on the
   inputs): the total from-scratch evaluation [eval prog NF] used by the invariant is meaningful
   exactly at the queries whose partial evaluation [evalo] terminates ("acyclic at the snapshot");
   there it satisfies the fixpoint equation, its read trace calls only acyclic queries, and the
   stability lemmas of Core/DurSem.v hold without any rank. *)
From Coq Require Import PeanoNat Lia.
From Salsa Require Import Base.
From Salsa.Kern Require Import CoreK CoreKFacts.
From Salsa.Core Require Import Model Spec SpecProofs Wp Inv DurSem DCycleSem.

Section PartSem.
Variable prog : qkey -> body.
Variable ns : list qkey.
Hypothesis Hclosed : forall q d, In q ns -> calls (prog q) d -> In d ns.
Variable NF : nat.
Hypothesis HNF : (length ns <= NF)%nat.

Notation E := (E prog NF).
Notation tr := (tr prog NF).
Notation envat := (envat prog NF).
Notation env_of := (env_of prog NF).

(* acyclic at a snapshot *)
Definition acs (sn : snapshot) (q : qkey) : Prop := exists n v, evalo prog n sn q = Some v.

(* a terminating partial run is the total run under any environment that extends the answers
   of the callees *)
Lemma runo_run : forall b (eqo : qkey -> option val) v e,
  runo (e_in e) (e_cell e) eqo b = Some v ->
  (forall d w, calls b d -> eqo d = Some w -> e_q e d = w) ->
  run e b = v /\ forall d, In (RQ d) (trace e b) -> exists w, eqo d = Some w.
Proof.
  induction b as [v0 | i k IH | d k IH | c k IH | k IH | pc k IH]; intros eqo v e Hr Hq;
    cbn [runo run trace] in *.
  - injection Hr as <-. split; [reflexivity | intros d []].
  - destruct (IH _ eqo v e Hr) as [A B].
    { intros d w Hd. apply Hq. econstructor; exact Hd. }
    split; [exact A |].
    intros d [Hd | Hd]; [discriminate | apply B; exact Hd].
  - destruct (eqo d) as [w |] eqn:Ed; [| discriminate]. rewrite (Hq d w (calls_here d k) Ed).
    destruct (IH _ eqo v e Hr) as [A B].
    { intros d' w' Hd. apply Hq. econstructor; exact Hd. }
    split; [exact A |].
    intros d' [Hd | Hd]; [injection Hd as <-; eauto | apply B; exact Hd].
  - destruct (IH _ eqo v e Hr) as [A B].
    { intros d w Hd. apply Hq. econstructor; exact Hd. }
    split; [exact A |].
    intros d [Hd | Hd]; [discriminate | apply B; exact Hd].
  - destruct (IH eqo v e Hr) as [A B].
    { intros d w Hd. apply Hq. constructor; exact Hd. }
    split; [exact A |].
    intros d [Hd | Hd]; [discriminate | apply B; exact Hd].
  - apply (IH eqo v e Hr). intros d w Hd. apply Hq. constructor; exact Hd.
Qed.

Lemma eval_evalo sn : forall n q v, evalo prog n sn q = Some v ->
  forall m, (n <= m)%nat -> eval prog m sn q = v.
Proof.
  induction n as [| n IH]; intros q v Hv m Hm; [discriminate |].
  destruct m as [| m]; [lia |]. cbn [evalo eval] in *.
  apply (runo_run (prog q) (evalo prog n sn) v
           {| e_in := sn_in sn; e_cell := sn_cell sn; e_q := eval prog m sn |} Hv).
  intros d w _ Hd. cbn. apply (IH d w Hd). lia.
Qed.

(* at a listed key, a value found with any fuel is the total evaluation's *)
Lemma evalo_eval sn n q v : In q ns -> evalo prog n sn q = Some v ->
  evalo prog NF sn q = Some v /\ eval prog NF sn q = v.
Proof.
  intros Hq Hv.
  assert (Hb : evalo prog NF sn q = Some v).
  { apply (evalo_mono prog sn (length ns) NF q v HNF).
    apply (evalo_bound prog sn ns Hclosed q v Hq). exists n. exact Hv. }
  split; [exact Hb |]. apply (eval_evalo sn NF q v Hb NF). lia.
Qed.

Lemma acs_value sn q : In q ns -> acs sn q -> evalo prog NF sn q = Some (eval prog NF sn q).
Proof.
  intros Hq (n & v & Hv). destruct (evalo_eval sn n q v Hq Hv) as [A B]. rewrite B. exact A.
Qed.

(* one unfolding of a terminating evaluation, against the total environment *)
Lemma evalo_step_run sn n q v : In q ns -> evalo prog (S n) sn q = Some v ->
  run (env_of sn) (prog q) = v /\
  forall d, In (RQ d) (trace (env_of sn) (prog q)) -> exists w, evalo prog n sn d = Some w.
Proof.
  intros Hq Hv. cbn [evalo] in Hv.
  apply (runo_run (prog q) (evalo prog n sn) v (env_of sn) Hv).
  intros d w Hc Hd. cbn. apply (evalo_eval sn n d w); [apply (Hclosed q d Hq Hc) | exact Hd].
Qed.

(* the fixpoint equation and the callees, at an acyclic query *)
Lemma acs_unfold sn q : In q ns -> acs sn q ->
  eval prog NF sn q = run (env_of sn) (prog q) /\
  forall d, In (RQ d) (trace (env_of sn) (prog q)) -> acs sn d /\ In d ns.
Proof.
  intros Hq (n & v & Hv). destruct (evalo_eval sn n q v Hq Hv) as [_ HE].
  destruct n as [| n]; [discriminate |].
  destruct (evalo_step_run sn n q v Hq Hv) as [A B].
  split; [congruence |]. intros d Hd. split.
  - destruct (B d Hd) as (w & Hw). exists n, w. exact Hw.
  - apply (Hclosed q d Hq). eapply calls_of_trace. exact Hd.
Qed.

(* an acyclic query does not call itself *)
Lemma acs_irrefl sn q : In q ns -> acs sn q -> ~ In (RQ q) (trace (env_of sn) (prog q)).
Proof.
  intros Hq (n & v & Hv) Hin. revert v Hv. induction n as [| n IH]; intros v Hv; [discriminate |].
  destruct (evalo_step_run sn n q v Hq Hv) as [_ B].
  destruct (B q Hin) as (w & Hw). exact (IH w Hw).
Qed.

(* conversely: a query all of whose reads (under the total environment) are acyclic is acyclic *)
Lemma acs_of_body sn : forall b,
  (forall d, In (RQ d) (trace (env_of sn) b) -> acs sn d /\ In d ns) ->
  exists n, runo (sn_in sn) (sn_cell sn) (evalo prog n sn) b = Some (run (env_of sn) b).
Proof.
  induction b as [v0 | i k IH | d k IH | c k IH | k IH | pc k IH]; intros Hall; cbn [runo run trace] in *.
  - exists 0%nat. reflexivity.
  - apply IH. intros d Hd. apply Hall. right; exact Hd.
  - destruct (Hall d (or_introl eq_refl)) as ((n1 & w & Hw) & Hdn).
    destruct (evalo_eval sn n1 d w Hdn Hw) as [_ Hew].
    destruct (IH (e_q (env_of sn) d)) as (n2 & H2).
    { intros d' Hd'. apply Hall. right; exact Hd'. }
    exists (max n1 n2).
    rewrite (evalo_mono prog sn n1 (max n1 n2) d w (Nat.le_max_l _ _) Hw).
    change (e_q (env_of sn) d) with (eval prog NF sn d) in *. rewrite Hew in *.
    apply (runo_mono sn _ (evalo prog n2 sn)); [| exact H2].
    intros q' w' Hq'. apply (evalo_mono prog sn n2); [apply Nat.le_max_r | exact Hq'].
  - apply IH. intros d Hd. apply Hall. right; exact Hd.
  - apply IH. intros d Hd. apply Hall. right; exact Hd.
  - apply IH. exact Hall.
Qed.

Lemma acs_of_trace sn q :
  (forall d, In (RQ d) (trace (env_of sn) (prog q)) -> acs sn d /\ In d ns) -> acs sn q.
Proof.
  intros Hall. destruct (acs_of_body sn (prog q) Hall) as (n & Hn).
  exists (S n), (run (env_of sn) (prog q)). exact Hn.
Qed.

(* ---------------------------------------------------------------- over a history *)
Definition ac (H : hist) (r : rev) (q : qkey) : Prop := acs (H r) q.

Lemma E_unfold' H r q : In q ns -> ac H r q -> E H r q = run (envat H r) (prog q).
Proof. intros Hq Ha. exact (proj1 (acs_unfold (H r) q Hq Ha)). Qed.

Lemma tr_ac H r q d : In q ns -> ac H r q -> In (RQ d) (tr H r q) -> ac H r d /\ In d ns /\ d <> q.
Proof.
  intros Hq Ha Hd. destruct (proj2 (acs_unfold (H r) q Hq Ha) d Hd) as [A B].
  split; [exact A |]. split; [exact B |]. intros ->. exact (acs_irrefl (H r) q Hq Ha Hd).
Qed.

Lemma ac_of_tr H r q : (forall d, In (RQ d) (tr H r q) -> ac H r d /\ In d ns) -> ac H r q.
Proof. apply acs_of_trace. Qed.

Lemma ac_hist_eq H H' r q : H' r = H r -> ac H r q -> ac H' r q.
Proof. unfold ac. intros ->. auto. Qed.

(* the listed queries that are acyclic at the snapshot are the good ones of Core/DurSem.v: the
   stability lemmas there hold of them without any rank *)
Definition acl (H : hist) (r : rev) (q : qkey) : Prop := ac H r q /\ In q ns.

Lemma ac_goodness H : goodness prog NF H (acl H).
Proof.
  split.
  - (* g_unfold *) intros r q [Ha Hq]. exact (E_unfold' H r q Hq Ha).
  - (* g_callee *) intros r q d [Ha Hq] Hd. destruct (tr_ac H r q d Hq Ha Hd) as (A & B & C). split; [split |]; assumption.
  - (* g_moves: of [acl H a q] only "listed" is used *)
    intros a r q [_ Hq] Hall. split; [apply ac_of_tr; intros d Hd; apply (Hall d Hd) | exact Hq].
Qed.

(* ---------------------------------------------------------------- prefixes of traces *)
Lemma runo_blocked_prefix : forall b e e' (eqo : qkey -> option val) pre d post,
  trace e b = pre ++ RQ d :: post -> agree_on e e' pre ->
  (forall c w, In (RQ c) pre -> eqo c = Some w -> w = e_q e' c) ->
  eqo d = None -> runo (e_in e') (e_cell e') eqo b = None.
Proof.
  induction b as [v0 | i k IH | c0 k IH | c k IH | k IH | pc k IH]; intros e e' eqo pre d post Ht Hag Hpre Hd;
    cbn [trace runo] in *.
  - destruct pre; discriminate.
  - destruct pre as [| y pre]; cbn [app] in *; [discriminate |]. injection Ht as <- Ht.
    assert (Hi : e_in e i = e_in e' i) by (apply (Hag (RIn i)); left; reflexivity). rewrite <- Hi.
    apply (IH _ e e' eqo pre d post Ht); [| | exact Hd].
    + intros y Hy. apply Hag. right; exact Hy.
    + intros c w Hc. apply Hpre. right; exact Hc.
  - destruct pre as [| y pre]; cbn [app] in *.
    + injection Ht as -> _. now rewrite Hd.
    + injection Ht as <- Ht. destruct (eqo c0) as [w |] eqn:Ec; [| reflexivity].
      rewrite (Hpre c0 w (or_introl eq_refl) Ec).
      assert (Hi : e_q e c0 = e_q e' c0) by (apply (Hag (RQ c0)); left; reflexivity). rewrite <- Hi.
      apply (IH _ e e' eqo pre d post Ht); [| | exact Hd].
      * intros y Hy. apply Hag. right; exact Hy.
      * intros c w' Hc. apply Hpre. right; exact Hc.
  - destruct pre as [| y pre]; cbn [app] in *; [discriminate |]. injection Ht as <- Ht.
    assert (Hi : e_cell e c = e_cell e' c) by (apply (Hag (RCell c)); left; reflexivity). rewrite <- Hi.
    apply (IH _ e e' eqo pre d post Ht); [| | exact Hd].
    + intros y Hy. apply Hag. right; exact Hy.
    + intros c' w Hc. apply Hpre. right; exact Hc.
  - destruct pre as [| y pre]; cbn [app] in *; [discriminate |]. injection Ht as <- Ht.
    apply (IH e e' eqo pre d post Ht); [| | exact Hd].
    + intros y Hy. apply Hag. right; exact Hy.
    + intros c' w Hc. apply Hpre. right; exact Hc.
  - apply (IH e e' eqo pre d post Ht Hag Hpre Hd).
Qed.

Lemma blk_of_prefix H v c q st pre d post : In q ns ->
  tr H v q = pre ++ RQ d :: post -> agree_on (envat H v) (envat H c) pre ->
  qblk prog (H c) (q :: st) d -> existsb (key_eqb q) st = false -> qblk prog (H c) st q.
Proof.
  intros Hq Ht Hag Hb Hex. refine (regress prog (H c) q st Hex _). intros n.
  apply (runo_blocked_prefix (prog q) (envat H v) (envat H c) (evaloa prog (H c) n (q :: st)) pre d post Ht Hag).
  - intros c0 w Hc0 Hw. apply evaloa_evalo in Hw.
    assert (Hc0n : In c0 ns).
    { apply (Hclosed q c0 Hq). apply (calls_of_trace (envat H v)).
      unfold tr, Inv.tr in Ht. rewrite Ht. apply in_or_app. left; exact Hc0. }
    symmetry. apply (evalo_eval (H c) n c0 w Hc0n Hw).
  - apply Hb.
Qed.

End PartSem.
