(* Core/DPartInvSem.v — the durability invariant on programs that may be cyclic: [DInv] (whose
   E / tr / clos are the total ones) together with [PM]: a memo exists only for a listed query
   that is acyclic at its verified_at, and its recorded edges are in the order of the reads of
   that (acyclic) evaluation.  The lemmas about [DInv] are those of Core/DInvSem.v, taken with
   the goodness predicate [acl] of Core/DPartSem.v in place of the rank; what is proved here is
   that [PM] follows along. *)
From Coq Require Import Lia.
From Salsa Require Import Base.
From Salsa.Kern Require Import CoreK CoreKFacts.
From Salsa.Core Require Import Model Spec SpecProofs Wp Inv InvFrame InvSem DurSem DInv DInvSem.
From Salsa.Core Require Import DCycleSem DPartSem.

Section Sem.
Variable prog : qkey -> body.
Variable ns : list qkey.
Hypothesis Hclosed : forall q d, In q ns -> calls (prog q) d -> In d ns.
Variable NF : nat.
Hypothesis HNF : (length ns <= NF)%nat.
Notation E := (E prog NF).
Notation tr := (tr prog NF).
Notation envat := (envat prog NF).
Notation durge := (durge prog NF).
Notation clos := (clos prog NF).
Notation dmemo_ok := (dmemo_ok prog NF).
Notation DInv := (DInv prog NF).
Notation obs_pre := (obs_pre prog NF).
Notation ac := (ac prog).
Notation covers := (DInvSem.covers).

(* recorded edges follow the order of the reads: before the first read of d, every tracked
   read has its edge earlier in the list (or can never change) *)
Definition eord (H : hist) (D : dhist) (v : rev) (q : qkey) (es : list edge) : Prop :=
  forall epre d epost, es = epre ++ EQ d :: epost ->
    exists tpre tpost, tr H v q = tpre ++ RQ d :: tpost /\
      (forall i, In (RIn i) tpre -> In (EIn i) epre \/ D v i = 3) /\
      (forall e, In (RQ e) tpre -> In (EQ e) epre \/ durge H D v 3 e).

Definition pmemo (H : hist) (D : dhist) (q : qkey) (m : memo) : Prop :=
  In q ns /\ ac H (m_verified m) q /\ eord H D (m_verified m) q (m_edges m).

Definition PM (H : hist) (D : dhist) (s : db) : Prop :=
  forall q m, d_memo s q = Some m -> pmemo H D q m.

Lemma PM_memo_eq H D s s' : d_memo s' = d_memo s -> PM H D s -> PM H D s'.
Proof. intros Hm HP q m Hq. rewrite Hm in Hq. exact (HP q m Hq). Qed.

Lemma PM_store H D s q m : PM H D s -> pmemo H D q m -> PM H D (store s q m).
Proof.
  intros HP Hm p mp. unfold store; cbn. unfold upd. destruct (key_eqb_spec q p) as [<- | Hne].
  - intros Hp. injection Hp as <-. exact Hm.
  - apply HP.
Qed.

Notation acl := (acl prog ns).

Lemma acl_ok : good_ok prog NF acl.
Proof. intros H. exact (ac_goodness prog ns Hclosed NF HNF H). Qed.

Lemma PM_good H D s : PM H D s -> memos_good acl H s.
Proof. intros HP p mp Hp. destruct (HP p mp Hp) as (A & B & _). split; assumption. Qed.

(* never-change callees stay what they are *)
Lemma never_now H D s a d :
  DInv H D s -> 1 <= a -> a <= cur s -> durge H D a 3 d -> In d ns -> ac H a d ->
  tr H (cur s) d = tr H a d /\ E H (cur s) d = E H a d /\ durge H D (cur s) 3 d /\ ac H (cur s) d.
Proof.
  intros HI Ha Hle Hd Hdn Had.
  destruct (never_now_g prog NF acl H D s a d acl_ok HI Ha Hle Hd (conj Had Hdn)) as (A & B & C & E0 & _).
  split; [exact A |]. split; [exact B |]. split; [exact C | exact E0].
Qed.

(* ---------------------------------------------------------------- marking a memo verified now *)
(* the recorded edges stay in the order of the reads: the reads are the same *)
Lemma PM_reverify H D s q m :
  DInv H D s -> PM H D s -> d_memo s q = Some m -> reval_pre prog NF acl H D s q m ->
  PM H D (store s q (reverify m (cur s))).
Proof.
  intros HI HP Hm ((Hacc & _) & Hag & HDin & _).
  destruct (HP q m Hm) as (Hqn & Hacv & Hord).
  destruct (trace_determined (prog q) _ _ Hag) as [Htr _].
  assert (Htr' : tr H (cur s) q = tr H (m_verified m) q) by exact Htr.
  pose proof (mo_order _ _ _ _ _ _ _ (inv_memo _ _ _ _ _ HI q m Hm)) as (Ho1 & _ & Ho3).
  apply PM_store; [exact HP |]. split; [exact Hqn |]. split; [exact Hacc |].
  cbn [reverify m_verified m_edges]. intros epre d0 epost Hes.
  destruct (Hord epre d0 epost Hes) as (tpre & tpost & Ht & Hin & Hq).
  assert (Hsub : forall x, In x tpre -> In x (tr H (m_verified m) q)).
  { intros x Hx. rewrite Ht. apply in_or_app. left; exact Hx. }
  exists tpre, tpost. split; [rewrite Htr'; exact Ht |]. split.
  - intros i Hi. destruct (Hin i Hi) as [A | A]; [left; exact A | right].
    rewrite (HDin i (Hsub _ Hi)). exact A.
  - intros e He. destruct (Hq e He) as [A | A]; [left; exact A | right].
    destruct (tr_ac prog ns Hclosed NF HNF H _ q e Hqn Hacv (Hsub _ He)) as (Ha0 & Hn0 & _).
    apply (never_now H D s (m_verified m) e HI Ho1 Ho3 A Hn0 Ha0).
Qed.

Lemma reverify_ok H D s q m :
  DInv H D s -> PM H D s -> d_memo s q = Some m -> reval_pre prog NF acl H D s q m ->
  let m' := reverify m (cur s) in
  DInv H D (store s q m') /\ PM H D (store s q m') /\ dext s (store s q m') /\
  E H (cur s) q = E H (m_verified m) q.
Proof.
  intros HI HP Hm Hpre m'.
  destruct (revalidate_g prog NF acl H D s q m acl_ok HI Hm (PM_good H D s HP q m Hm) Hpre) as (A & B & C).
  split; [exact A |]. split; [exact (PM_reverify H D s q m HI HP Hm Hpre) |]. split; [exact B | exact C].
Qed.

(* The durability short-cut: nothing at the memo's level was written since it was verified. *)
Lemma shortcut_ok H D s q m :
  DInv H D s -> PM H D s -> d_memo s q = Some m ->
  lcs s (m_dur m) <= m_verified m ->
  let m' := reverify m (cur s) in
  DInv H D (store s q m') /\ PM H D (store s q m') /\ dext s (store s q m') /\
  E H (cur s) q = E H (m_verified m) q.
Proof.
  intros HI HP Hm Hlc. apply (reverify_ok H D s q m HI HP Hm).
  exact (shortcut_pre prog NF acl H D s q m acl_ok HI Hm (PM_good H D s HP q m Hm) Hlc).
Qed.

(* A freshly computed memo may be stored: it is ok, and every observer is served. *)
Lemma fresh_store_ok H D s q fr v ch (old : option memo) :
  DInv H D s -> PM H D s -> In q ns -> ac H (cur s) q ->
  covers s (tr H (cur s) q) fr ->
  v = E H (cur s) q ->
  d_memo s q = old ->
  (forall m0, old = Some m0 -> m_verified m0 = cur s -> m_val m0 = None) ->
  (* ch is either the frame's stamp, or the old memo's stamp when the value is unchanged and
     the durability did not decrease *)
  (ch = fr_changed fr \/
   exists o ov, old = Some o /\ m_val o = Some ov /\ ov = v /\ ch = m_changed o /\
                m_dur o <= fr_dur fr /\ m_changed o <= fr_changed fr) ->
  let m' := fresh_memo v (cur s) ch fr in
  DInv H D (store s q m') /\ dext s (store s q m').
Proof.
  intros HI HP Hqn Hacc.
  exact (fresh_store_g prog NF acl H D s q fr v ch old acl_ok HI (PM_good H D s HP) (conj Hacc Hqn)).
Qed.

(* ---------------------------------------------------------------- the edge walk succeeded *)
(* Every recorded edge is unchanged since the memo was verified: the memo may be marked
   verified now.  Inputs and callees of level NEVER_CHANGE have no edge; they cannot move. *)
Lemma deep_ok H D s q m :
  DInv H D s -> PM H D s -> d_memo s q = Some m -> m_untracked m = false ->
  (forall e, In e (m_edges m) ->
     match e with
     | EIn i => f_changed (d_in s i) <= m_verified m
     | EQ d => E H (m_verified m) d = E H (cur s) d /\ durge H D (cur s) (m_dur m) d /\
               exists md, d_memo s d = Some md /\ m_verified md = cur s /\ m_dur m <= m_dur md
     end) ->
  let m' := reverify m (cur s) in
  DInv H D (store s q m') /\ PM H D (store s q m') /\ dext s (store s q m') /\
  E H (cur s) q = E H (m_verified m) q.
Proof.
  intros HI HP Hm Hu Hc. apply (reverify_ok H D s q m HI HP Hm).
  exact (deep_pre prog NF acl H D s q m acl_ok HI (PM_good H D s HP) Hm Hu Hc).
Qed.


(* ---------------------------------------------------------------- the order of a frame's edges *)
Definition cord (s : db) (pre : list rd) (fr : frame) : Prop :=
  forall epre d epost, fr_edges fr = epre ++ EQ d :: epost ->
    exists tpre tpost, pre = tpre ++ RQ d :: tpost /\
      (forall i, In (RIn i) tpre -> In (EIn i) epre \/ f_dur (d_in s i) = 3) /\
      (forall e, In (RQ e) tpre -> In (EQ e) epre \/
         exists md, d_memo s e = Some md /\ m_verified md = cur s /\ m_val md <> None /\ m_dur md = 3).

Lemma cord_frame0 s : cord s [] frame0.
Proof. intros epre d epost He. cbn in He. destruct epre; discriminate. Qed.

Lemma cord_ext s s' pre fr : dext s s' -> cord s pre fr -> cord s' pre fr.
Proof.
  intros He Hc epre d epost Hes. destruct (Hc epre d epost Hes) as (tpre & tpost & Hp & Hi & Hq).
  exists tpre, tpost. split; [exact Hp |]. split.
  - intros i Hin. rewrite (ext_in _ _ He). apply Hi; exact Hin.
  - intros e Hin. destruct (Hq e Hin) as [A | (md & Hmd & Hv & Hx & H3)]; [left; exact A | right].
    exists md. split; [apply (ext_valid _ _ He); assumption |].
    rewrite (dext_cur _ _ He). split; [exact Hv |]. split; assumption.
Qed.

Lemma snoc_split {T} (es : list T) x epre y epost :
  es ++ [x] = epre ++ y :: epost ->
  (exists epost', es = epre ++ y :: epost' /\ epost = epost' ++ [x]) \/
  (epre = es /\ y = x /\ epost = []).
Proof.
  revert epre. induction es as [| a es IH]; intros epre He; cbn [app] in He.
  - destruct epre as [| b epre]; cbn [app] in He.
    + injection He as <- <-. right. repeat split.
    + injection He as _ He. destruct epre; discriminate.
  - destruct epre as [| b epre]; cbn [app] in He.
    + injection He as <- <-. left. exists es. split; reflexivity.
    + injection He as <- He. destruct (IH epre He) as [(ep & A & B) | (A & B & C)].
      * left. exists ep. split; [cbn; now rewrite A | exact B].
      * right. subst. repeat split.
Qed.

(* the frame after one more read: the edge list is unchanged or grows at the end *)
Lemma cord_grow s pre fr x es' :
  cord s pre fr ->
  (es' = fr_edges fr \/
   (exists e, es' = fr_edges fr ++ [e] /\
      match e with
      | EIn _ => True
      | EQ d => x = RQ d /\
          (forall i, In (RIn i) pre -> In (EIn i) (fr_edges fr) \/ f_dur (d_in s i) = 3) /\
          (forall e0, In (RQ e0) pre -> In (EQ e0) (fr_edges fr) \/
             exists md, d_memo s e0 = Some md /\ m_verified md = cur s /\ m_val md <> None /\ m_dur md = 3)
      end)) ->
  forall fr', fr_edges fr' = es' -> cord s (pre ++ [x]) fr'.
Proof.
  intros Hc Hes fr' Hfr' epre d epost Hsplit. rewrite Hfr' in Hsplit.
  assert (Hold : forall epost0, fr_edges fr = epre ++ EQ d :: epost0 ->
            exists tpre tpost, pre ++ [x] = tpre ++ RQ d :: tpost /\
              (forall i, In (RIn i) tpre -> In (EIn i) epre \/ f_dur (d_in s i) = 3) /\
              (forall e, In (RQ e) tpre -> In (EQ e) epre \/
                 exists md, d_memo s e = Some md /\ m_verified md = cur s /\ m_val md <> None /\ m_dur md = 3)).
  { intros epost0 He0. destruct (Hc epre d epost0 He0) as (tpre & tpost & Hp & Hi & Hq).
    exists tpre, (tpost ++ [x]). split; [rewrite Hp, <- app_assoc; reflexivity |]. split; assumption. }
  destruct Hes as [-> | (e & -> & He)]; [apply (Hold epost Hsplit) |].
  destruct (snoc_split _ _ _ _ _ Hsplit) as [(ep & A & B) | (A & B & C)]; [apply (Hold ep A) |].
  subst epre epost. subst e. destruct He as (-> & Hi & Hq).
  exists pre, []. split; [reflexivity |]. split; assumption.
Qed.

Lemma cord_add_in s pre fr i du ch :
  cord s pre fr -> cord s (pre ++ [RIn i]) (add_read fr (EIn i) du ch).
Proof.
  intros Hc. apply (cord_grow s pre fr (RIn i) (fr_edges (add_read fr (EIn i) du ch)) Hc); [| reflexivity].
  cbn [add_read fr_edges]. destruct (du =? D_NEVER); [left; reflexivity |].
  unfold add_edge. destruct (existsb (edge_eqb (EIn i)) (fr_edges fr)); [left; reflexivity | right].
  exists (EIn i). split; [reflexivity | exact I].
Qed.

Lemma cord_add_q s pre fr d md :
  covers s pre fr -> cord s pre fr ->
  cord s (pre ++ [RQ d]) (add_read fr (EQ d) (m_dur md) (m_changed md)).
Proof.
  intros Hcv Hc. apply (cord_grow s pre fr (RQ d) (fr_edges (add_read fr (EQ d) (m_dur md) (m_changed md))) Hc); [| reflexivity].
  cbn [add_read fr_edges]. destruct (m_dur md =? D_NEVER); [left; reflexivity |].
  unfold add_edge. destruct (existsb (edge_eqb (EQ d)) (fr_edges fr)); [left; reflexivity | right].
  exists (EQ d). split; [reflexivity |]. split; [reflexivity |]. split.
  - intros i Hi. apply (cv_in _ _ _ Hcv i Hi).
  - intros e0 He0. destruct (cv_q _ _ _ Hcv e0 He0) as (md0 & A & B & C & _ & _ & F).
    destruct F as [F | F]; [left; exact F | right]. exists md0. repeat split; assumption.
Qed.

Lemma cord_add_untracked s pre fr x now :
  cord s pre fr -> cord s (pre ++ [x]) (add_untracked fr now).
Proof.
  intros Hc. apply (cord_grow s pre fr x (fr_edges fr) Hc); [left; reflexivity | reflexivity].
Qed.

(* the fresh memo's edges are ordered *)
Lemma eord_fresh H D s q fr v ch :
  DInv H D s -> covers s (tr H (cur s) q) fr -> cord s (tr H (cur s) q) fr ->
  eord H D (cur s) q (m_edges (fresh_memo v (cur s) ch fr)).
Proof.
  intros HI Hcv Hc epre d epost Hes. cbn [fresh_memo m_edges] in Hes.
  destruct ((fr_dur fr =? D_NEVER) && negb (fr_untracked fr)); [destruct epre; discriminate |].
  destruct (Hc epre d epost Hes) as (tpre & tpost & Hp & Hi & Hq).
  exists tpre, tpost. split; [exact Hp |]. split.
  - intros i Hin. destruct (Hi i Hin) as [A | A]; [left; exact A | right].
    rewrite (inv_dur_cur prog NF H D s i HI). exact A.
  - intros e Hin. destruct (Hq e Hin) as [A | (md & Hmd & Hv & _ & H3)]; [left; exact A | right].
    rewrite <- H3, <- Hv. apply (mo_durge _ _ _ _ _ _ _ (inv_memo _ _ _ _ _ HI e md Hmd)).
Qed.

End Sem.
