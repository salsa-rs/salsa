(* Core/DCycleExamples.v — non-vacuity of the cycle theorems (C14): a program that is cyclic
   while an input bit is set.  Gets of the cyclic nodes panic with the cycle error, an unrelated
   node is served; a write clears the bit; afterwards the formerly cyclic nodes return their
   from-scratch values.  And: the hypotheses of [gets_fresh] hold for this program, so its
   conclusion (which the run exhibits) is the theorem's. *)
From Coq Require Import PeanoNat Lia.
From Salsa Require Import Base.
From Salsa.Kern Require Import CoreK.
From Salsa.Core Require Import Model Spec DCycleSem DCycleInv DCycleTop DCycleTerm DCycleTermTop.

(* a = if bit then b else 7;  b = a + 1;  c = x + 1 (unrelated);  bit = input (0,0), x = input (0,1) *)
Definition cy_a : qkey := (1, 0).
Definition cy_b : qkey := (1, 1).
Definition cy_c : qkey := (1, 2).
Definition cy_a_body : body := RdIn (0, 0) (fun bit => if bit =? 0 then Ret 7 else CallQ cy_b (fun v => Ret v)).
Definition cy_b_body : body := CallQ cy_a (fun v => Ret (v + 1)).
Definition cy_c_body : body := RdIn (0, 1) (fun x => Ret (x + 1)).
Definition cy_prog (q : qkey) : body :=
  if key_eqb q cy_a then cy_a_body else if key_eqb q cy_b then cy_b_body
  else if key_eqb q cy_c then cy_c_body else Ret 0.
Definition cy_iv (i : ikey) : val := if key_eqb i (0, 0) then 1 else if key_eqb i (0, 1) then 4 else 0.
Definition cy_idur (_ : ikey) : dur := D_LOW.
Definition cy_lru (_ : N) : lru_state := {| lru_cap := None; lru_set := [] |}.
Definition cy_noeq (_ : qkey) : bool := false.
Definition cy_init : db := init cy_iv cy_idur cy_lru.
Definition cy_ns : list qkey := [cy_a; cy_b; cy_c].

Definition cy_ops : list op :=
  [ OGet cy_a;             (* a -> b -> a: cycle panic *)
    OGet cy_c;             (* unrelated: served *)
    OGet cy_b;             (* b -> a -> b: cycle panic *)
    OSet (0, 0) 0 None;    (* clear the bit *)
    OGet cy_b;             (* 8 *)
    OGet cy_a;             (* 7 *)
    OSet (0, 0) 1 None;    (* set it again *)
    OGet cy_b ].           (* cyclic again *)

(* the run *)
Example cy_run :
  snd (run_ops cy_prog cy_noeq [] 3 cy_init cy_ops)
  = [Panic PCycle; Ok 5; Panic PCycle; Ok 0; Ok 8; Ok 7; Ok 0; Panic PCycle].
Proof. vm_compute. reflexivity. Qed.

(* the from-scratch evaluation at the three snapshots *)
Example cy_spec_set :
  map (evalo cy_prog 3 (snap_of cy_init)) cy_ns = [None; None; Some 5].
Proof. vm_compute. reflexivity. Qed.

Example cy_spec_cleared :
  let s := fst (run_ops cy_prog cy_noeq [] 3 cy_init (firstn 4 cy_ops)) in
  map (evalo cy_prog 3 (snap_of s)) cy_ns = [Some 7; Some 8; Some 5].
Proof. vm_compute. reflexivity. Qed.

(* the hypotheses of the theorem *)
Lemma cy_closed : closed_calls cy_prog cy_ns.
Proof.
  intros q d Hq Hc. unfold cy_ns in Hq. cbn [In] in Hq.
  destruct Hq as [<- | [<- | [<- | []]]]; unfold cy_prog in Hc; cbn in Hc.
  - unfold cy_a_body in Hc. inversion Hc as [| | ? ? v ? Hc' | | |]; subst.
    destruct (v =? 0); [inversion Hc' |].
    inversion Hc' as [| ? ? w ? Hc'' | | | |]; subst; [right; left; reflexivity | inversion Hc''].
  - unfold cy_b_body in Hc. inversion Hc as [| ? ? w ? Hc' | | | |]; subst; [left; reflexivity | inversion Hc'].
  - unfold cy_c_body in Hc. inversion Hc as [| | ? ? v ? Hc' | | |]; subst. inversion Hc'.
Qed.

(* so, by the theorem (no computation of the model involved), on the initial revision: *)
Example cy_by_theorem : forall fuel, (3 <= fuel)%nat ->
  snd (run_ops cy_prog cy_noeq [] fuel cy_init (map OGet [cy_a; cy_c; cy_b; cy_c; cy_a]))
  = [Panic PCycle; Ok 5; Panic PCycle; Ok 5; Panic PCycle].
Proof.
  intros fuel Hf.
  destruct (gets_fresh cy_prog cy_noeq [] (snap_of cy_init) cy_ns cy_closed fuel Hf
              [cy_a; cy_c; cy_b; cy_c; cy_a] cy_init) as (_ & H).
  - intros x Hx. cbn [In] in Hx. unfold cy_ns. cbn [In]. intuition.
  - apply init_fresh.
  - remember (snd (run_ops cy_prog cy_noeq [] fuel cy_init (map OGet [cy_a; cy_c; cy_b; cy_c; cy_a]))) as outs.
    clear Heqouts.
    repeat match goal with
           | H : Forall2 _ (_ :: _) _ |- _ => inversion H; subst; clear H
           | H : Forall2 _ [] _ |- _ => inversion H; subst; clear H
           end.
    repeat match goal with
           | H : get_answer _ _ _ _ _ |- _ => unfold get_answer in H; vm_compute in H
           end.
    subst. reflexivity.
Qed.

Lemma cy_listed : Forall (op_listed cy_ns) cy_ops.
Proof. unfold cy_ops, cy_ns. repeat (apply Forall_cons; [cbn [op_listed In]; auto 6 |]). apply Forall_nil. Qed.

(* and over the whole history (writes included) no Get runs out of fuel, by [never_fuel] *)
Example cy_never_fuel : forall fuel, (3 <= fuel)%nat ->
  Forall (fun o => o <> Fuel) (snd (run_ops cy_prog cy_noeq [] fuel cy_init cy_ops)).
Proof.
  intros fuel Hf.
  exact (proj2 (never_fuel cy_prog cy_noeq [] cy_ns cy_closed fuel Hf cy_ops cy_init cy_listed (init_idle _ _ _ _))).
Qed.
