(* Core/DInv.v — the invariant of the Core model for inputs of ARBITRARY durability
   (soundness of the durability short-cut).  Definitions, basic facts, the frame rule for
   storing a memo.

   Compared with Core/Inv.v (LOW inputs) the ghost set of verification revisions is replaced
   by a state-defined observer clause [mo_obs]: a memo f verified at v_f "observes" every
   query d of its semantic call closure at v_f; whenever d's memo has a changed_at stamp
   <= v_f -- or d has provably been stable since v_f -- d's value at v_f is the value at d's
   own verified_at, and f's recorded durability is <= d's recorded durability.
   Two further clauses make changed_at stamps monotone over time ([mo_stamp], [ext_mono]);
   with them the debug-build backdate-violation assertion is unreachable. *)
From Salsa Require Import Base.
From Salsa.Kern Require Import CoreK CoreKFacts.
From Salsa.Core Require Import Model Spec SpecProofs Wp Inv InvFrame DurSem.

Section DInv.
Variable prog : qkey -> body.
Variable rank : qkey -> nat.
Hypothesis Hrank : calls_below prog rank.
Variable NF : nat.
Hypothesis Hbound : forall q, (rank q < NF)%nat.
Notation E := (E prog NF).
Notation tr := (tr prog NF).
Notation envat := (envat prog NF).
Notation durge := (durge prog NF).
Notation clos := (clos prog NF).
Notation wstable := (wstable).

Definition lcs (s : db) (k : dur) : rev := last_changed (d_revs s) k.

(* the stamp c is at most the current stamp of the read x (an untracked read is stamped with
   the revision of the run, which bounds every stamp) *)
Definition sle (s : db) (c : rev) (x : rd) : Prop :=
  match x with
  | RIn i => c <= f_changed (d_in s i)
  | RQ d => exists md, d_memo s d = Some md /\ c <= m_changed md
  | _ => True
  end.

(* when the observer clause fires for an observer verified at v and d's memo md *)
Definition obs_pre (H : hist) (D : dhist) (s : db) (v : rev) (d : qkey) (md : memo) : Prop :=
  m_changed md <= v \/ exists k, durge H D v k d /\ lcs s k <= v.

Record dmemo_ok (H : hist) (D : dhist) (s : db) (q : qkey) (m : memo) : Prop := {
  mo_order : 1 <= m_verified m /\ m_changed m <= m_verified m /\ m_verified m <= cur s;
  mo_val : forall x, m_val m = Some x -> x = E H (m_verified m) q;
  mo_reads_in : forall i, In (RIn i) (tr H (m_verified m) q) ->
                In (EIn i) (m_edges m) \/ D (m_verified m) i = 3;
  mo_reads_q : forall d, In (RQ d) (tr H (m_verified m) q) ->
               In (EQ d) (m_edges m) \/ durge H D (m_verified m) 3 d;
  mo_reads_cell : forall x, In x (tr H (m_verified m) q) -> untr x -> m_untracked m = true;
  mo_edges_q : forall d, In (EQ d) (m_edges m) -> In (RQ d) (tr H (m_verified m) q);
  mo_untr : m_untracked m = true -> m_dur m = 0;
  mo_durge : durge H D (m_verified m) (m_dur m) q;
  mo_dur3 : m_dur m <= 3;
  (* changed_at is bounded by the current stamp of something the verified run reads *)
  mo_stamp : m_changed m <= 1 \/
             exists x, In x (tr H (m_verified m) q) /\ sle s (m_changed m) x;
  mo_obs : forall d, clos H (m_verified m) q d ->
           exists md, d_memo s d = Some md /\
             (obs_pre H D s (m_verified m) d md ->
              E H (m_verified m) d = E H (m_verified md) d /\ m_dur m <= m_dur md)
}.

Record DInv (H : hist) (D : dhist) (s : db) : Prop := {
  inv_cur : 1 <= cur s;
  inv_revs : revs_ok (d_revs s);
  inv_in : forall i r, f_changed (d_in s i) <= r -> r <= cur s -> sn_in (H r) i = f_val (d_in s i);
  inv_dur : forall i r, f_changed (d_in s i) <= r -> r <= cur s -> D r i = f_dur (d_in s i);
  inv_in_le : forall i, f_changed (d_in s i) <= cur s;
  inv_cell : forall c, sn_cell (H (cur s)) c = d_cell s c;
  inv_dur3 : forall r i, D r i <= 3;
  (* the write rule: an input whose level had not been written after r is the same at r+1 *)
  inv_wr : forall r i, r < cur s -> lcs s (D r i) <= r ->
           sn_in (H (r + 1)) i = sn_in (H r) i /\ D (r + 1) i = D r i;
  inv_memo : forall q m, d_memo s q = Some m -> dmemo_ok H D s q m
}.

Lemma lcs_anti H D s k k' : DInv H D s -> k <= k' -> lcs s k' <= lcs s k.
Proof. intros HI. apply lc_anti. apply (inv_revs _ _ _ HI). Qed.

Lemma lcs_le_cur H D s k : DInv H D s -> lcs s k <= cur s.
Proof. intros HI. apply lc_le_cur. apply (inv_revs _ _ _ HI). Qed.

Lemma stable_now H D s k a : DInv H D s -> lcs s k <= a -> wstable H D k a (cur s).
Proof.
  intros HI Hlc i Hi.
  assert (Hn : forall n r, r = a + N.of_nat n -> r <= cur s ->
                 sn_in (H r) i = sn_in (H a) i /\ D r i = D a i).
  { induction n as [|n IH]; intros r Hr Hle.
    - replace r with a by lia. split; reflexivity.
    - assert (Hr' : a + N.of_nat n <= cur s) by lia.
      destruct (IH (a + N.of_nat n) eq_refl Hr') as [A B].
      destruct (inv_wr _ _ _ HI (a + N.of_nat n) i) as [A' B'].
      + lia.
      + rewrite B. pose proof (lcs_anti H D s k (D a i) HI Hi). lia.
      + replace r with (a + N.of_nat n + 1) by lia. split; congruence. }
  intros r Ha Hb. apply (Hn (N.to_nat (r - a))); [lia | exact Hb].
Qed.

(* level 3 (NEVER_CHANGE) is stable from any revision on *)
Lemma stable_never H D s a : DInv H D s -> 1 <= a -> wstable H D 3 a (cur s).
Proof.
  intros HI Ha. apply (stable_now H D s 3 a HI).
  unfold lcs. rewrite lc_never by lia. exact Ha.
Qed.

Record dext (s s' : db) : Prop := {
  ext_revs : d_revs s' = d_revs s;
  ext_in : d_in s' = d_in s;
  ext_cell : d_cell s' = d_cell s;
  ext_pcell : d_pcell s' = d_pcell s;
  ext_evfault : d_evfault s = None -> d_evfault s' = None;
  ext_valid : forall q m, d_memo s q = Some m -> m_verified m = cur s -> m_val m <> None ->
              d_memo s' q = Some m;
  ext_vcur : forall q m, d_memo s q = Some m -> m_verified m = cur s ->
             exists m', d_memo s' q = Some m' /\ m_verified m' = cur s /\ m_dur m <= m_dur m';
  ext_mono : forall q m, d_memo s q = Some m ->
             exists m', d_memo s' q = Some m' /\ m_changed m <= m_changed m'
}.

Lemma dext_refl s : dext s s.
Proof.
  constructor; auto.
  - intros q m Hm Hv. exists m. split; [exact Hm|]. split; [exact Hv | lia].
  - intros q m Hm. exists m. split; [exact Hm | lia].
Qed.

Lemma dext_cur s s' : dext s s' -> cur s' = cur s.
Proof. intros [Hr _ _ _ _ _ _ _]. unfold cur. rewrite Hr. reflexivity. Qed.

Lemma dext_trans s1 s2 s3 : dext s1 s2 -> dext s2 s3 -> dext s1 s3.
Proof.
  intros H12 H23. pose proof (dext_cur _ _ H12) as Hc.
  destruct H12 as [a1 b1 c1 d1 g1 e1 f1 h1], H23 as [a2 b2 c2 d2 g2 e2 f2 h2].
  constructor; try congruence; auto.
  - intros q m Hm Hv Hx. apply e2; [apply e1; assumption | rewrite Hc; exact Hv | exact Hx].
  - intros q m Hm Hv. destruct (f1 q m Hm Hv) as (m' & Hm' & Hv' & Hd').
    destruct (f2 q m' Hm') as (m'' & Hm'' & Hv'' & Hd''); [rewrite Hc; exact Hv'|].
    exists m''. split; [exact Hm''|]. split; [rewrite <- Hc; exact Hv'' | lia].
  - intros q m Hm. destruct (h1 q m Hm) as (m' & Hm' & Hc').
    destruct (h2 q m' Hm') as (m'' & Hm'' & Hc'').
    exists m''. split; [exact Hm''|]. lia.
Qed.

(* a computation for a query of rank < k leaves memos of rank >= k alone *)
Definition dtouch_below (s s' : db) (k : nat) : Prop :=
  forall p, (k <= rank p)%nat -> d_memo s' p = d_memo s p.

Lemma dtouch_refl s k : dtouch_below s s k.
Proof. intros p _; reflexivity. Qed.

Lemma dtouch_trans s1 s2 s3 k1 k2 k :
  (k1 <= k)%nat -> (k2 <= k)%nat ->
  dtouch_below s1 s2 k1 -> dtouch_below s2 s3 k2 -> dtouch_below s1 s3 k.
Proof.
  intros H1 H2 T1 T2 p Hp. rewrite (T2 p) by lia. apply T1. lia.
Qed.

Definition dcore_eq (s s' : db) : Prop :=
  d_revs s' = d_revs s /\ d_in s' = d_in s /\ d_cell s' = d_cell s /\ d_memo s' = d_memo s.

Lemma dcore_eq_cur s s' : dcore_eq s s' -> cur s' = cur s.
Proof. intros (Hr & _). unfold cur; rewrite Hr; reflexivity. Qed.

Lemma obs_pre_core_eq H D s s' v d md :
  d_revs s' = d_revs s -> obs_pre H D s v d md -> obs_pre H D s' v d md.
Proof. intros Hr. unfold obs_pre, lcs. rewrite Hr. auto. Qed.

Lemma dmemo_ok_core_eq H D s s' q m : dcore_eq s s' -> dmemo_ok H D s q m -> dmemo_ok H D s' q m.
Proof.
  intros Hc Hm. pose proof (dcore_eq_cur _ _ Hc) as Hcur.
  destruct Hc as (Hr & Hi & _ & Hmm).
  destruct Hm as [Hord Hval Hrin Hrq Hrcell Hedg Huntr Hdurge Hdur3 Hstamp Hobs0].
  (* the two clauses that read the state: stamps of what was read, and the observer clause *)
  constructor; rewrite ?Hcur; auto.
  - (* mo_stamp *) destruct Hstamp as [A | (x & Hx & Hs)]; [left; exact A | right].
    exists x. split; [exact Hx|]. destruct x as [i0 | d0 | c0 |]; cbn in *; rewrite ?Hi, ?Hmm; exact Hs.
  - (* mo_obs *) intros d0 Hd0. destruct (Hobs0 d0 Hd0) as (md & Hmd & Hobs).
    exists md. split; [rewrite Hmm; exact Hmd|].
    intros Hp. apply Hobs. apply (obs_pre_core_eq H D s' s); [congruence | exact Hp].
Qed.

Lemma DInv_core_eq H D s s' : dcore_eq s s' -> DInv H D s -> DInv H D s'.
Proof.
  intros Hc HI. pose proof (dcore_eq_cur _ _ Hc) as Hcur.
  pose proof Hc as (Hr & Hi & Hce & Hm).
  destruct HI as [Hcur1 Hrevs Hin Hdur Hinle Hcell Hd3 Hwr Hmemo].
  constructor; unfold lcs in *; rewrite ?Hcur, ?Hi, ?Hce, ?Hm, ?Hr; auto.
  (* inv_memo *)
  intros q m Hq. apply (dmemo_ok_core_eq H D s); [exact Hc | apply Hmemo; exact Hq].
Qed.

Lemma lcs_store s q m k : lcs (store s q m) k = lcs s k.
Proof. reflexivity. Qed.

(* The frame rule: store a memo verified now.  Besides the new memo being ok, every other
   memo that observes q must be served by the new memo.  The last two premises are about the
   memo m0 that q had: if m0 was verified now, the new memo is m0 itself when m0 had a value
   and is at least as durable in any case ([ext_valid], [ext_vcur]); and the stamp does not
   go down ([ext_mono], and [mo_stamp] of the memos that read q). *)
Lemma DInv_store H D s q m :
  DInv H D s ->
  m_verified m = cur s ->
  dmemo_ok H D (store s q m) q m ->
  (forall g mg, d_memo s g = Some mg -> g <> q -> clos H (m_verified mg) g q ->
     obs_pre H D s (m_verified mg) q m ->
     E H (m_verified mg) q = E H (cur s) q /\ m_dur mg <= m_dur m) ->
  (forall m0, d_memo s q = Some m0 -> m_verified m0 = cur s ->
     (m_val m0 <> None -> m0 = m) /\ m_dur m0 <= m_dur m) ->
  (forall m0, d_memo s q = Some m0 -> m_changed m0 <= m_changed m) ->
  DInv H D (store s q m) /\ dext s (store s q m).
Proof.
  intros HI Hv Hok Hobs Hsame Hmono.
  destruct HI as [Hcur1 Hrevs Hin Hdur Hinle Hcell Hd3 Hwr Hmemo].
  split.
  - (* DInv: only [inv_memo] reads the memo table *)
    constructor; rewrite ?cur_store; auto.
    intros p mp Hp. destruct (key_eqb_spec q p) as [<- | Hne];
      [rewrite memo_store_same in Hp | rewrite memo_store_other in Hp by exact Hne].
    + injection Hp as <-. exact Hok.
    + (* another key's memo: its stamp clause and its observer clause may mention q *)
      destruct (Hmemo p mp Hp) as [Hord Hval Hrin Hrq Hrcell Hedg Huntr Hdurge Hdur3 Hstamp Hobs0].
      constructor; rewrite ?cur_store; auto.
      { (* mo_stamp: q's stamp did not decrease *)
        destruct Hstamp as [A | (x & Hx & Hs)]; [left; exact A | right].
        exists x. split; [exact Hx|]. destruct x as [i0 | d0 | c0 |]; cbn in *; try exact Hs.
        destruct Hs as (md & Hmd & Hle). unfold upd.
        destruct (key_eqb_spec q d0) as [<- | Hne0].
        - exists m. split; [reflexivity|]. specialize (Hmono md Hmd). lia.
        - exists md. split; assumption. }
      (* mo_obs: where p observes q, the premise about observers serves it *)
      intros d0 Hd0. destruct (Hobs0 d0 Hd0) as (md & Hmd & Hmdo).
      destruct (key_eqb_spec q d0) as [<- | Hne0];
        [rewrite memo_store_same | rewrite memo_store_other by exact Hne0].
      * exists m. split; [reflexivity|]. intros Hp0. rewrite Hv.
        apply (Hobs p mp Hp); [congruence | exact Hd0 | exact Hp0].
      * exists md. split; [exact Hmd | exact Hmdo].
  - (* dext *) constructor; try reflexivity; try (intros Hev0; exact Hev0).
    + (* ext_valid *) intros p mp Hp Hvp Hxp. destruct (key_eqb_spec q p) as [<- | Hne];
        [rewrite memo_store_same | rewrite memo_store_other by exact Hne]; [|exact Hp].
      destruct (Hsame mp Hp Hvp) as [Heq _]. rewrite (Heq Hxp). reflexivity.
    + (* ext_vcur *) intros p mp Hp Hvp. destruct (key_eqb_spec q p) as [<- | Hne];
        [rewrite memo_store_same | rewrite memo_store_other by exact Hne].
      * exists m. split; [reflexivity|]. split; [exact Hv|].
        destruct (Hsame mp Hp Hvp) as [_ Hle]. exact Hle.
      * exists mp. split; [exact Hp|]. split; [exact Hvp | lia].
    + (* ext_mono *) intros p mp Hp. destruct (key_eqb_spec q p) as [<- | Hne];
        [rewrite memo_store_same | rewrite memo_store_other by exact Hne].
      * exists m. split; [reflexivity|]. apply Hmono; exact Hp.
      * exists mp. split; [exact Hp | lia].
Qed.

Lemma dtouch_store s q m k : (rank q < k)%nat -> dtouch_below s (store s q m) k.
Proof.
  intros Hk p Hp. assert (Hne : q <> p) by (intros ->; lia).
  apply memo_store_other; exact Hne.
Qed.

(* only an injected fault, and only while some fault switch is on: the backdate-violation
   assertion of debug builds is unreachable (changed_at stamps never decrease: [ext_mono]) *)
Definition dallowed (s : db) (p : panic) : Prop :=
  p = PInjected /\ ((exists c, d_pcell s c <> 0) \/ d_evfault s <> None).

Lemma dallowed_allowed s p : dallowed s p -> allowed s p.
Proof. intros Hx. right; exact Hx. Qed.

Lemma dallowed_ext s s' p :
  d_pcell s' = d_pcell s -> (d_evfault s = None -> d_evfault s' = None) ->
  dallowed s' p -> dallowed s p.
Proof.
  intros He Hf [-> [(c & Hc) | Hn]]; (split; [reflexivity|]).
  - left. exists c. rewrite <- He. exact Hc.
  - right. intros H0. apply Hn. apply Hf. exact H0.
Qed.

End DInv.
