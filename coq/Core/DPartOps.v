(* Core/DPartOps.v — the level functions on programs that may be cyclic: every level function
   preserves [DInv] and [PM], returns the from-scratch value when it returns, and unwinds with
   the cycle error only when the from-scratch evaluation at the current revision is blocked by
   the open calls (exceptional postcondition).  The rank discipline is replaced by the claim
   stack: fuel is bounded by the number of listed keys not yet claimed, and a nested computation
   leaves the valued memos of claimed keys alone. *)
From Coq Require Import Lia.
From Salsa Require Import Base.
From Salsa.Kern Require Import CoreK CoreKFacts.
From Salsa.Core Require Import Model Spec SpecProofs Wp Inv InvFrame InvSem DurSem DInv DInvSem DInvOps.
From Salsa.Core Require Import DCycleSem DCycleInv DPartSem DPartInvSem.

Section Ops.
Variable prog : qkey -> body.
Variable noeq : qkey -> bool.
Variable ns : list qkey.
Hypothesis Hclosed : forall q d, In q ns -> calls (prog q) d -> In d ns.
Variable NF : nat.
Hypothesis HNF : (length ns <= NF)%nat.
Variable H : hist.
Variable D : dhist.
Notation E := (E prog NF H).
Notation tr := (tr prog NF H).
Notation envat := (envat prog NF H).
Notation durge := (durge prog NF H D).
Notation DInv := (DInv prog NF H D).
Notation PM := (PM prog ns NF H D).
Notation ac := (ac prog H).
Notation covers := (DInvSem.covers).
Notation cord := (DPartInvSem.cord).
Notation blk := (fun (c : rev) st q => qblk prog (H c) st q).

Definition PInv (s : db) : Prop := DInv s /\ PM s.

Lemma PInv_core_eq s s' : dcore_eq s s' -> PInv s -> PInv s'.
Proof.
  intros Hc [HI HP]. split; [apply (DInv_core_eq prog NF H D s); assumption |].
  destruct Hc as (_ & _ & _ & Hm). exact (PM_memo_eq prog ns NF H D s s' Hm HP).
Qed.

(* ---------------------------------------------------------------- the stack frame *)
(* a memo is pinned while its key is claimed if it has a value or fails the shallow check: then
   no fast path can move it, and the slow paths are refused by the claim *)
Definition pin (s : db) (m : memo) : Prop := m_val m <> None \/ shallow_verify s m = ShNo.
Definition pinned (s : db) (p : qkey) : Prop := exists m, d_memo s p = Some m /\ pin s m.

Lemma pin_revs s s' m : d_revs s' = d_revs s -> pin s m -> pin s' m.
Proof. intros Hr [A | A]; [left; exact A | right]. unfold shallow_verify, cur in *. rewrite Hr. exact A. Qed.

Definition stf (st : list qkey) (s s' : db) : Prop :=
  d_revs s' = d_revs s /\
  forall p, In p st -> (pinned s p -> d_memo s' p = d_memo s p) /\ (pinned s' p -> pinned s p).

Lemma stf_refl st s : stf st s s.
Proof. split; [reflexivity |]. intros p _. split; auto. Qed.

Lemma pinned_eq s s' p : d_revs s' = d_revs s -> d_memo s' p = d_memo s p -> pinned s p -> pinned s' p.
Proof. intros Hr Hm (m & A & B). exists m. split; [congruence | apply (pin_revs s s' m Hr B)]. Qed.

Lemma stf_memo_eq st s s' : d_revs s' = d_revs s -> d_memo s' = d_memo s -> stf st s s'.
Proof.
  intros Hr Hm. split; [exact Hr |]. intros p _. split; [intros _; now rewrite Hm |].
  apply (pinned_eq s' s p); [congruence | now rewrite Hm].
Qed.

Lemma stf_trans st s1 s2 s3 : stf st s1 s2 -> stf st s2 s3 -> stf st s1 s3.
Proof.
  intros [Ar A] [Br B]. split; [congruence |]. intros p Hp.
  destruct (A p Hp) as [A1 A2], (B p Hp) as [B1 B2]. split.
  - intros Hv. rewrite <- (A1 Hv). apply B1. apply (pinned_eq s1 s2 p Ar (A1 Hv) Hv).
  - intros Hv. apply A2, B2, Hv.
Qed.

Lemma stf_sub st st' s s' : incl st st' -> stf st' s s' -> stf st s s'.
Proof. intros Hi [Ar A]. split; [exact Ar |]. intros p Hp. apply A, Hi, Hp. Qed.

Lemma stf_upd st s s' q m m' :
  d_revs s' = d_revs s ->
  d_memo s q = Some m -> d_memo s' = upd (d_memo s) q (Some m') ->
  (In q st -> ~ pin s m /\ ~ pin s' m') -> stf st s s'.
Proof.
  intros Hr Hm Hs' Hq. split; [exact Hr |]. intros p Hp.
  destruct (key_eqb_spec q p) as [<- | Hne].
  - destruct (Hq Hp) as [N1 N2]. split.
    + intros (m0 & A & B). rewrite Hm in A. injection A as <-. contradiction.
    + intros (m0 & A & B). rewrite Hs', upd_same in A. injection A as <-. contradiction.
  - assert (Hmp : d_memo s' p = d_memo s p) by (rewrite Hs'; apply upd_other; exact Hne).
    split; [intros _; exact Hmp | apply (pinned_eq s' s p); congruence].
Qed.

Lemma stf_upd_out st s s' q m' :
  d_revs s' = d_revs s -> ~ In q st -> d_memo s' = upd (d_memo s) q (Some m') -> stf st s s'.
Proof.
  intros Hr Hq Hs'. split; [exact Hr |]. intros p Hp.
  destruct (key_eqb_spec q p) as [<- | Hne]; [contradiction |].
  assert (Hmp : d_memo s' p = d_memo s p) by (rewrite Hs'; apply upd_other; exact Hne).
  split; [intros _; exact Hmp | apply (pinned_eq s' s p); congruence].
Qed.

Lemma stf_cons st s s' q m : stf st s s' -> d_memo s q = Some m -> pin s m -> d_memo s' q = Some m ->
  stf (q :: st) s s'.
Proof.
  intros [Hr Hf] Hm Hpin Hm'. split; [exact Hr |]. intros p [<- | Hp]; [| exact (Hf p Hp)].
  split; [intros _; congruence | intros _; exists m; split; assumption].
Qed.

(* claimed keys with a valued memo failed the shallow check when they were claimed *)
Definition SM (st : list qkey) (s : db) : Prop :=
  forall p m, In p st -> d_memo s p = Some m -> m_val m <> None -> shallow_verify s m = ShNo.

Lemma SM_stf st s s' : stf st s s' -> SM st s -> SM st s'.
Proof.
  intros [Hr Hf] HS p m Hp Hm Hv. destruct (Hf p Hp) as [A B].
  assert (Hpin : pinned s p) by (apply B; exists m; split; [exact Hm | left; exact Hv]).
  rewrite (A Hpin) in Hm. specialize (HS p m Hp Hm Hv).
  unfold shallow_verify, cur in *. rewrite Hr. exact HS.
Qed.

Definition ctx (st : list qkey) (s : db) : Prop := d_stack s = st /\ SM st s.

(* ---------------------------------------------------------------- exceptional postcondition *)
Definition XPc (s0 : db) (B : Prop) : panic -> db -> Prop :=
  fun p s' => (dallowed s0 p \/ (p = PCycle /\ B)) /\ PInv s' /\ dext s0 s'.

Lemma XPc_trans s0 s1 B p s' : dext s0 s1 -> XPc s1 B p s' -> XPc s0 B p s'.
Proof.
  intros He (Ha & HI & He'). split.
  - destruct Ha as [Ha | Ha]; [left | right; exact Ha].
    apply (dallowed_ext s0 s1); [apply (ext_pcell _ _ He) | apply (ext_evfault _ _ He) | exact Ha].
  - split; [exact HI |]. eapply dext_trans; eassumption.
Qed.

Lemma XPc_weaken s0 (B B' : Prop) p s' : (B -> B') -> XPc s0 B p s' -> XPc s0 B' p s'.
Proof.
  intros HB (Ha & HI & He). split; [| split; assumption].
  destruct Ha as [Ha | (Hp & Hb)]; [left; exact Ha | right; split; auto].
Qed.

Lemma emit_ok' e s s0 B (Q : unit -> db -> Prop) :
  PInv s -> dext s0 s ->
  (forall s1, dcore_eq s s1 -> PInv s1 -> dext s s1 -> d_stack s1 = d_stack s -> Q tt s1) ->
  wp (emit e) Q (XPc s0 B) s.
Proof.
  intros HI He HQ. apply wp_emit.
  - intros s1 Hr Hi Hc Hp Hm Hs Hst Hl Hev Hlog.
    assert (Hce : dcore_eq s s1) by (repeat split; assumption).
    apply HQ; try assumption.
    + apply (PInv_core_eq s); assumption.
    + apply dext_of_core_eq'; assumption.
  - intros Hne.
    assert (Hce : dcore_eq s (set_evfault s None)) by (repeat split).
    split.
    + left. split; [reflexivity|]. right. intros H0. apply Hne. apply (ext_evfault _ _ He). exact H0.
    + split; [apply (PInv_core_eq s); assumption|].
      eapply dext_trans; [exact He|]. apply dext_of_core_eq'; [exact Hce | reflexivity | reflexivity].
Qed.

(* ---------------------------------------------------------------- mark_verified *)
Definition verified_now' (s0 : db) (q : qkey) (m : memo) (m' : memo) (s' : db) : Prop :=
  PInv s' /\ dext s0 s' /\ d_stack s' = d_stack s0 /\
  (d_memo s' = d_memo s0 \/ d_memo s' = upd (d_memo s0) q (Some m')) /\
  d_memo s' q = Some m' /\ m_verified m' = cur s0 /\ m_val m' = m_val m /\
  m_dur m' = m_dur m /\ m_changed m' = m_changed m /\ E (cur s0) q = E (m_verified m) q.

(* the last premise: from any state that differs from s only outside the core, storing the
   re-verified memo is justified (by an edge walk or by the durability short-cut) *)
Lemma mark_verified_ok' q m s s0 B :
  dext s0 s -> PInv s -> d_memo s q = Some m ->
  (forall s1, dcore_eq s s1 -> PInv s1 ->
     DInv (store s1 q (reverify m (cur s))) /\ PM (store s1 q (reverify m (cur s))) /\
     dext s1 (store s1 q (reverify m (cur s))) /\ E (cur s) q = E (m_verified m) q) ->
  wp (mark_verified q m) (fun m' s' => verified_now' s q m m' s') (XPc s0 B) s.
Proof.
  intros He0 HI Hm Hjust. unfold mark_verified.
  apply wp_bind, wp_get. apply wp_bind. apply (emit_ok' _ s s0); [exact HI | exact He0|].
  intros s1 Hce HI1 He01 Hst1.
  apply wp_bind. unfold set_memo_at. apply wp_modify. apply wp_ret.
  change (set_seen _ _) with (store s1 q (reverify m (cur s))).
  destruct (Hjust s1 Hce HI1) as (HI2 & HP2 & Hext & HE).
  split; [exact (conj HI2 HP2)|]. split; [eapply dext_trans; [exact He01 | exact Hext] |].
  split; [exact Hst1 |]. split; [right; unfold store; cbn; destruct Hce as (_ & _ & _ & ->); reflexivity |].
  split; [unfold store; cbn; apply upd_same |]. repeat (split; [reflexivity |]). exact HE.
Qed.

Lemma update_shallow_ok' q m s u s0 B :
  dext s0 s -> PInv s -> d_memo s q = Some m -> shallow_verify s m = u -> u <> ShNo ->
  wp (update_shallow q m u) (fun m' s' => verified_now' s q m m' s') (XPc s0 B) s.
Proof.
  intros He0 HI Hm Hu Hne.
  pose proof (shallow_cases s m) as Hc. rewrite Hu in Hc.
  destruct u; [| | (* ShNo *) contradiction]; cbn [update_shallow].
  - (* ShVerified: nothing to do *)
    apply wp_ret. unfold verified_now'. rewrite Hc.
    split; [exact HI|]. split; [apply dext_refl|]. conj; auto.
  - (* ShHigher: the durability short-cut *)
    destruct Hc as [_ Hlc]. apply (mark_verified_ok' q m s s0 B He0 HI Hm).
    intros s1 Hce [HI1 HP1]. pose proof (dcore_eq_cur _ _ Hce) as Hc1.
    destruct Hce as (Hr & _ & _ & Hmm).
    rewrite <- Hc1.
    apply (shortcut_ok prog ns Hclosed NF HNF H D s1 q m HI1 HP1).
    + rewrite Hmm. exact Hm.
    + unfold lcs in *. rewrite Hr. exact Hlc.
Qed.

(* The callers of the shallow check have one shape: a successful check marks the memo verified
   if need be and goes on with it, a failed one takes the cold path. *)
Lemma shallow_path_ok {A} q m s (k : memo -> A) (cold : M A) (Q : A -> db -> Prop) B :
  PInv s -> d_memo s q = Some m ->
  (forall u m' s', shallow_verify s m = u -> u <> ShNo -> verified_now' s q m m' s' -> Q (k m') s') ->
  (shallow_verify s m = ShNo -> wp cold Q (XPc s B) s) ->
  wp (match shallow_verify s m with
      | ShNo => cold
      | u => m' <- update_shallow q m u ;; ret (k m')
      end) Q (XPc s B) s.
Proof.
  intros HI Hm Hhot Hcold.
  assert (Hgot : forall u, shallow_verify s m = u -> u <> ShNo ->
            wp (m' <- update_shallow q m u ;; ret (k m')) Q (XPc s B) s).
  { intros u Hu Hne.
    eapply wp_then; [apply (update_shallow_ok' q m s u s B (dext_refl s) HI Hm Hu Hne) |].
    intros m' s' Hvn. apply wp_ret. exact (Hhot u m' s' Hu Hne Hvn). }
  destruct (shallow_verify s m) eqn:Hsh;
    [apply Hgot; [reflexivity | discriminate] | apply Hgot; [reflexivity | discriminate] | exact (Hcold eq_refl)].
Qed.

(* from s0 to s' under the claims st: the invariant holds again, s' extends s0 within the revision,
   pinned memos of claimed keys are as they were, and the claims are the same *)
Definition moved (st : list qkey) (s0 s' : db) : Prop :=
  PInv s' /\ dext s0 s' /\ stf st s0 s' /\ d_stack s' = d_stack s0.

Lemma moved_refl st s : PInv s -> moved st s s.
Proof.
  intros HI. split; [exact HI |]. split; [apply dext_refl |]. split; [apply stf_refl | reflexivity].
Qed.

Lemma moved_trans st s0 s1 s2 : moved st s0 s1 -> moved st s1 s2 -> moved st s0 s2.
Proof.
  intros (_ & He1 & Ht1 & Hs1) (HI2 & He2 & Ht2 & Hs2). split; [exact HI2 |].
  split; [eapply dext_trans; eassumption |]. split; [eapply stf_trans; eassumption | congruence].
Qed.

Lemma moved_sub st st' s s' : incl st st' -> moved st' s s' -> moved st s s'.
Proof.
  intros Hi (HI & He & Ht & Hs). split; [exact HI |]. split; [exact He |].
  split; [exact (stf_sub st st' s s' Hi Ht) | exact Hs].
Qed.

Lemma moved_tail q st s s' : moved (q :: st) s s' -> moved st s s'.
Proof. apply moved_sub. intros x Hx. right; exact Hx. Qed.

Lemma moved_cur st s s' : moved st s s' -> cur s' = cur s.
Proof. intros (_ & He & _). exact (dext_cur _ _ He). Qed.

Lemma ctx_moved st s s' : ctx st s -> moved st s s' -> ctx st s'.
Proof. intros (A & D0) (_ & _ & Hf & Hs). split; [congruence | exact (SM_stf st s s' Hf D0)]. Qed.

Lemma moved_store st s0 s q m :
  moved st s0 s -> ~ In q st -> PInv (store s q m) -> dext s (store s q m) -> moved st s0 (store s q m).
Proof.
  intros Hmv Hnq HI He. apply (moved_trans st s0 s); [exact Hmv |].
  split; [exact HI |]. split; [exact He |].
  split; [exact (stf_upd_out st s (store s q m) q m eq_refl Hnq eq_refl) | reflexivity].
Qed.

Lemma moved_lru st s0 s l : moved st s0 s -> moved st s0 (set_lru s l).
Proof.
  intros (HI & He & Ht & Hs). split; [apply (PInv_core_eq s); [apply dcore_eq_lru | exact HI] |].
  split; [eapply dext_trans; [exact He | apply dext_of_core_eq; [apply dcore_eq_lru | reflexivity | reflexivity]] |].
  split; [eapply stf_trans; [exact Ht | apply stf_memo_eq; reflexivity] | exact Hs].
Qed.

Lemma moved_claimed st q s s2 :
  moved st (set_stack s (q :: d_stack s)) s2 -> moved st s (set_stack s2 (tl (d_stack s2))).
Proof.
  intros (HI & He & Ht & Hs). split; [apply (PInv_core_eq s2); [apply dcore_eq_stack | exact HI] |].
  split; [eapply dext_trans; [apply dext_set_stack |]; eapply dext_trans; [exact He | apply dext_set_stack] |].
  split.
  - eapply stf_trans; [apply (stf_memo_eq st s (set_stack s (q :: d_stack s))); reflexivity |].
    eapply stf_trans; [exact Ht | apply stf_memo_eq; reflexivity].
  - cbn [d_stack set_stack]. rewrite Hs. reflexivity.
Qed.

Lemma XPc_moved st s0 s1 B p s' : moved st s0 s1 -> XPc s1 B p s' -> XPc s0 B p s'.
Proof. intros (_ & He & _). exact (XPc_trans s0 s1 B p s' He). Qed.

(* ---------------------------------------------------------------- specifications of a level *)
Definition fetch_post (s0 : db) (q : qkey) (r : qres) (s' : db) : Prop :=
  moved (d_stack s0) s0 s' /\
  fst (fst r) = E (cur s0) q /\
  exists m, d_memo s' q = Some m /\ m_verified m = cur s0 /\ m_val m = Some (fst (fst r)) /\
            m_dur m = snd (fst r) /\ m_changed m = snd r.

Definition fetch_at (L : lower) (st : list qkey) : Prop :=
  forall q s, In q ns -> PInv s -> ctx st s ->
    wp (l_fetch L q) (fetch_post s q) (XPc s (blk (cur s) st q)) s.

Definition mca_post (s0 : db) (q : qkey) (since : rev) (b : bool) (s' : db) : Prop :=
  moved (d_stack s0) s0 s' /\
  (b = false -> exists m, d_memo s' q = Some m /\ m_verified m = cur s0 /\ m_changed m <= since).

Definition mca_at (L : lower) (st : list qkey) : Prop :=
  forall q since s, In q ns -> PInv s -> ctx st s ->
    wp (l_mca L q since) (mca_post s q since) (XPc s (blk (cur s) st q)) s.

Definition pserves (L : lower) (st : list qkey) : Prop := fetch_at L st /\ mca_at L st.

Lemma pinned_keep st s s' q m : moved st s s' -> In q st -> d_memo s q = Some m -> pin s m ->
  d_memo s' q = Some m /\ pin s' m.
Proof.
  intros (_ & _ & [Hr Hf] & _) Hq Hm Hv. destruct (Hf q Hq) as [A _]. split.
  - rewrite A; [exact Hm |]. exists m. split; assumption.
  - apply (pin_revs s s' m Hr Hv).
Qed.

(* ---------------------------------------------------------------- a blocked edge blocks the walker *)
Definition wfact (s : db) (v : rev) (e : edge) : Prop :=
  match e with
  | EIn i => f_changed (d_in s i) <= v
  | EQ d => E v d = E (cur s) d
  end.

Lemma wfact_ext s s' v e : dext s s' -> wfact s v e -> wfact s' v e.
Proof.
  intros He. destruct e as [i | d]; cbn.
  - rewrite (ext_in _ _ He). auto.
  - rewrite (dext_cur _ _ He). auto.
Qed.

Lemma walk_blocked s q m st epre d epost :
  PInv s -> d_memo s q = Some m -> m_untracked m = false ->
  m_edges m = epre ++ EQ d :: epost ->
  (forall e, In e epre -> wfact s (m_verified m) e) ->
  blk (cur s) (q :: st) d -> ~ In q st -> blk (cur s) st q.
Proof.
  intros [HI HP] Hm Hu Hes Hpre Hb Hnq.
  pose proof (inv_memo _ _ _ _ _ HI q m Hm) as Hok.
  destruct (HP q m Hm) as (Hqn & Hacv & Hord).
  pose proof (mo_order _ _ _ _ _ _ _ Hok) as (Ho1 & Ho2 & Ho3).
  pose proof (stable_never prog NF H D s (m_verified m) HI Ho1) as Hw3.
  destruct (Hord epre d epost Hes) as (tpre & tpost & Ht & Hi & Hq).
  assert (Hsub : forall x, In x tpre -> In x (tr (m_verified m) q)).
  { intros x Hx. rewrite Ht. apply in_or_app. left; exact Hx. }
  assert (Hag : agree_on (envat (m_verified m)) (envat (cur s)) tpre).
  { intros x Hx. destruct x as [i | e | c |]; cbn.
    - destruct (Hi i Hx) as [He | H3].
      + pose proof (Hpre _ He) as Hle. cbn in Hle.
        rewrite (inv_in _ _ _ _ _ HI i (m_verified m) Hle Ho3).
        symmetry. apply (inv_in _ _ _ _ _ HI i (cur s)); [apply (inv_in_le _ _ _ _ _ HI) | lia].
      + symmetry. apply (Hw3 i); [lia | exact Ho3 | lia].
    - destruct (Hq e Hx) as [He | H3].
      + exact (Hpre _ He).
      + destruct (tr_ac prog ns Hclosed NF HNF H _ q e Hqn Hacv (Hsub _ Hx)) as (Hae & Hen & _).
        symmetry. apply (never_now prog ns Hclosed NF HNF H D s (m_verified m) e HI Ho1 Ho3 H3 Hen Hae).
    - rewrite (mo_reads_cell _ _ _ _ _ _ _ Hok (RCell c) (Hsub _ Hx)) in Hu; [discriminate | right; eauto].
    - reflexivity. }
  apply (blk_of_prefix prog ns Hclosed NF HNF H (m_verified m) (cur s) q st tpre d tpost Hqn Ht Hag Hb).
  apply notin_existsb. exact Hnq.
Qed.

(* ---------------------------------------------------------------- deep verification *)
Lemma walk_edges_ok' L q m st (HM : mca_at L (q :: st)) (Hnq : ~ In q st) : forall es epre s,
  PInv s -> d_memo s q = Some m -> pin s m -> m_untracked m = false ->
  m_edges m = epre ++ es -> (forall e, In e epre -> wfact s (m_verified m) e) ->
  ctx (q :: st) s ->
  wp (walk_edges L es (m_verified m))
     (fun b s' => moved (q :: st) s s' /\
        (b = false -> forall e, In e es ->
           match e with
           | EIn i => f_changed (d_in s i) <= m_verified m
           | EQ d => E (m_verified m) d = E (cur s) d /\ durge (cur s) (m_dur m) d /\
                     exists md, d_memo s' d = Some md /\ m_verified md = cur s /\ m_dur m <= m_dur md
           end)) (XPc s (blk (cur s) st q)) s.
Proof.
  induction es as [|e es IH]; intros epre s HI Hm Hval Hu Hes Hpre Hctx; cbn [walk_edges].
  - apply wp_ret. split; [exact (moved_refl _ s HI) | intros _ e []].
  - assert (Hes' : m_edges m = (epre ++ [e]) ++ es) by (rewrite <- app_assoc; exact Hes).
    destruct e as [i | d].
    + apply wp_bind, wp_get.
      destruct (changed_after (f_changed (d_in s i)) (m_verified m)) eqn:Hca.
      * apply wp_ret. split; [exact (moved_refl _ s HI) | discriminate].
      * apply changed_after_false in Hca.
        eapply wp_conseq; [apply (IH (epre ++ [EIn i]) s HI Hm Hval Hu Hes') | |intros; assumption].
        -- intros e He. apply in_app_or in He. destruct He as [He | [<- | []]]; [apply Hpre; exact He | exact Hca].
        -- exact Hctx.
        -- intros b s' (Hmv & Hb). split; [exact Hmv |].
           intros Hbf e [<- | He']; [exact Hca | apply Hb; assumption].
    + destruct HI as [HI0 HP0].
      pose proof (inv_memo _ _ _ _ _ HI0 q m Hm) as Hok0.
      destruct (HP0 q m Hm) as (Hqn & Hacv & _).
      assert (Hed : In (EQ d) (m_edges m)) by (rewrite Hes; apply in_or_app; right; left; reflexivity).
      pose proof (mo_edges_q _ _ _ _ _ _ _ Hok0 d Hed) as Hind.
      destruct (tr_ac prog ns Hclosed NF HNF H _ q d Hqn Hacv Hind) as (_ & Hdn & _).
      eapply wp_seq; [apply (HM d (m_verified m) s Hdn (conj HI0 HP0) Hctx) | |
        (* the callee's cycle panic: d is blocked by the open calls, hence so is the walker *)
        intros p s1 Hx; eapply XPc_weaken; [| exact Hx]; intros Hb;
        apply (walk_blocked s q m st epre d es (conj HI0 HP0) Hm Hu Hes Hpre Hb Hnq)].
      intros c s1 (Hmv1 & Hc). rewrite (proj1 Hctx) in Hmv1.
      pose proof (moved_cur _ _ _ Hmv1) as Hcur1.
      destruct (pinned_keep (q :: st) s s1 q m Hmv1 (or_introl eq_refl) Hm Hval) as [Hm1 Hval1].
      destruct c; [apply wp_ret; split; [exact Hmv1 | discriminate] |].
      destruct (Hc eq_refl) as (md & Hmd & Hvd & Hcd).
      pose proof Hmv1 as ([HI1 HP1] & He1 & _).
      pose proof (inv_memo _ _ _ _ _ HI1 q m Hm1) as Hok.
      pose proof (inv_memo _ _ _ _ _ HI1 d md Hmd) as Hokd.
      destruct (mo_obs _ _ _ _ _ _ _ Hok d (clos_one _ _ _ _ _ _ Hind)) as (md0 & Hmd0 & Hobs).
      rewrite Hmd in Hmd0. injection Hmd0 as <-.
      destruct Hobs as [HEd Hdd]; [left; exact Hcd|].
      rewrite Hvd in HEd.
      assert (Hdgd : durge (cur s) (m_dur m) d).
      { eapply durge_mono; [exact Hdd|]. rewrite <- Hvd. apply (mo_durge _ _ _ _ _ _ _ Hokd). }
      eapply wp_conseq; [apply (IH (epre ++ [EQ d]) s1 (conj HI1 HP1) Hm1 Hval1 Hu Hes') | |].
      * intros e He. apply in_app_or in He. destruct He as [He | [<- | []]].
        -- apply (wfact_ext s s1 _ _ He1). apply Hpre; exact He.
        -- cbn. rewrite Hcur1. exact HEd.
      * exact (ctx_moved _ s s1 Hctx Hmv1).
      * intros b s' (Hmv & Hb). split; [exact (moved_trans _ s s1 s' Hmv1 Hmv) |].
        destruct Hmv as (_ & He & _).
        intros Hbf e [<- | He'].
        -- split; [exact HEd|]. split; [exact Hdgd|].
           destruct (ext_vcur _ _ He d md Hmd) as (md' & Hmd' & Hvd' & Hdd'); [congruence|].
           exists md'. split; [exact Hmd'|]. split; [congruence | lia].
        -- specialize (Hb Hbf e He'). destruct e as [i | d'].
           ++ rewrite (ext_in _ _ He1) in Hb. exact Hb.
           ++ rewrite Hcur1 in Hb. exact Hb.
      * intros p s' Hx. rewrite Hcur1 in Hx. exact (XPc_moved _ s s1 _ p s' Hmv1 Hx).
Qed.

Definition verify_post' (st : list qkey) (s0 : db) (q : qkey) (m : memo) (r : bool * memo) (s' : db) : Prop :=
  moved st s0 s' /\
  (fst r = true -> d_memo s' q = Some (snd r) /\ m_verified (snd r) = cur s0 /\
                   m_val (snd r) = m_val m /\ m_dur (snd r) = m_dur m /\
                   m_changed (snd r) = m_changed m /\ E (cur s0) q = E (m_verified m) q) /\
  (fst r = false -> d_memo s' q = Some m).

Lemma stf_after_upd st s s' q m' : dext s s' -> ~ In q st ->
  (d_memo s' = d_memo s \/ d_memo s' = upd (d_memo s) q (Some m')) -> stf st s s'.
Proof.
  intros He Hq [Hm | Hm].
  - apply stf_memo_eq; [apply (ext_revs _ _ He) | exact Hm].
  - apply (stf_upd_out st s s' q m' (ext_revs _ _ He) Hq Hm).
Qed.

Lemma deep_verify_ok' L q m st s (HM : mca_at L (q :: st)) (Hnq : ~ In q st) :
  PInv s -> d_memo s q = Some m -> pin s m -> ctx (q :: st) s ->
  wp (deep_verify L q m) (verify_post' st s q m) (XPc s (blk (cur s) st q)) s.
Proof.
  intros HI Hm Hpin Hctx. unfold deep_verify.
  destruct (m_untracked m) eqn:Hu.
  - apply wp_ret. split; [exact (moved_refl st s HI) |]. split; [discriminate | intros _; exact Hm].
  - eapply wp_then; [apply (walk_edges_ok' L q m st HM Hnq (m_edges m) [] s HI Hm Hpin Hu eq_refl) |];
      [intros e [] | exact Hctx |].
    intros c s1 (Hmv1 & Hc).
    pose proof (moved_cur _ _ _ Hmv1) as Hcur1.
    destruct (pinned_keep (q :: st) s s1 q m Hmv1 (or_introl eq_refl) Hm Hpin) as [Hm1 _].
    destruct c.
    + apply wp_ret. split; [exact (moved_tail q st s s1 Hmv1) |]. split; [discriminate | intros _; exact Hm1].
    + specialize (Hc eq_refl). pose proof Hmv1 as (HI1 & He1 & _).
      assert (Hjust : forall s2, dcore_eq s1 s2 -> PInv s2 ->
                DInv (store s2 q (reverify m (cur s1))) /\ PM (store s2 q (reverify m (cur s1))) /\
                dext s2 (store s2 q (reverify m (cur s1))) /\ E (cur s1) q = E (m_verified m) q).
      { intros s2 Hce [HI2 HP2]. pose proof (dcore_eq_cur _ _ Hce) as Hc2.
        destruct Hce as (Hr2 & Hi2 & _ & Hmm2).
        rewrite <- Hc2.
        apply (deep_ok prog ns Hclosed NF HNF H D s2 q m HI2 HP2); [rewrite Hmm2; exact Hm1 | exact Hu|].
        intros e He. specialize (Hc e He). destruct e as [i | d].
        - rewrite Hi2, (ext_in _ _ He1). exact Hc.
        - rewrite Hc2, Hcur1, Hmm2. exact Hc. }
      eapply wp_then; [apply (mark_verified_ok' q m s1 s (blk (cur s) st q) He1 HI1 Hm1 Hjust) |].
      intros m' s2 (HI2 & He2 & Hs2 & Hd2 & Hm2 & Hrest).
      apply wp_ret. split; [| split; [| discriminate]].
      * apply (moved_trans st s s1 s2 (moved_tail q st s s1 Hmv1)).
        split; [exact HI2 |]. split; [exact He2 |].
        split; [exact (stf_after_upd st s1 s2 q m' He2 Hnq Hd2) | exact Hs2].
      * intros _. cbn [fst snd]. rewrite Hcur1 in Hrest. exact (conj Hm2 Hrest).
Qed.

Lemma verify_memo_ok' L q m st s (HM : mca_at L (q :: st)) (Hnq : ~ In q st) :
  PInv s -> d_memo s q = Some m -> pin s m -> ctx (q :: st) s ->
  wp (verify_memo L q m) (verify_post' st s q m) (XPc s (blk (cur s) st q)) s.
Proof.
  intros HI Hm Hpin Hctx. unfold verify_memo. apply wp_bind, wp_get.
  apply (shallow_path_ok q m s (fun m' => (true, m'))); [exact HI | exact Hm | |].
  - intros u m' s' _ _ (A & B & C & D0 & E0 & F & G & I0 & J & K).
    split; [| split; [intros _; conj; auto | discriminate]].
    split; [exact A |]. split; [exact B |]. split; [exact (stf_after_upd st s s' q m' B Hnq D0) | exact C].
  - intros _. exact (deep_verify_ok' L q m st s HM Hnq HI Hm Hpin Hctx).
Qed.

(* ---------------------------------------------------------------- running a body *)
Lemma run_body_ok' L q c0 st (HF : fetch_at L (q :: st)) (Hnq : ~ In q st) : forall b pre fr s,
  cur s = c0 -> In q ns ->
  tr c0 q = pre ++ trace (envat c0) b ->
  (forall d, calls b d -> In d ns) ->
  PInv s -> covers s pre fr -> cord s pre fr -> ctx (q :: st) s ->
  wp (run_body L b fr)
     (fun r s' => moved (q :: st) s s' /\
                  fst r = run (envat c0) b /\ covers s' (tr c0 q) (snd r) /\ cord s' (tr c0 q) (snd r))
     (XPc s (blk c0 st q)) s.
Proof.
  induction b as [v | i k IH | d k IH | c k IH | k IH | pc k IH];
    intros pre fr s Hc Hqn Htr Hcalls HI Hcv Hco Hctx; cbn [run_body].
  - (* Ret *)
    apply wp_ret. cbn [trace run] in *. rewrite app_nil_r in Htr.
    split; [exact (moved_refl _ s HI) |]. cbn [fst snd]. split; [reflexivity|]. rewrite Htr. split; assumption.
  - (* RdIn *)
    apply wp_bind, wp_get.
    assert (Hval : e_in (envat c0) i = f_val (d_in s i)).
    { destruct HI as [HI HP]. cbn. apply (inv_in _ _ _ _ _ HI); [rewrite <- Hc; apply (inv_in_le _ _ _ _ _ HI) | lia]. }
    cbn [trace run] in Htr |- *. rewrite Hval in Htr |- *.
    apply (IH (f_val (d_in s i)) (pre ++ [RIn i]) _ s Hc Hqn); [| | exact HI | | | exact Hctx].
    + rewrite <- app_assoc. exact Htr.
    + intros d Hd. apply Hcalls. eapply calls_in_rdin; exact Hd.
    + apply (covers_add_in prog NF H D); [apply HI | assumption ..].
    + apply cord_add_in; assumption.
  - (* CallQ *)
    pose proof (Hcalls d (calls_here d k)) as Hdn.
    eapply wp_seq; [apply (HF d s Hdn HI Hctx) | |
      (* the callee's cycle panic: d is blocked and the trace of q reaches the call, so q is blocked *)
      intros p s1 Hx; eapply XPc_weaken; [| exact Hx]; intros Hb; rewrite Hc in Hb;
      cbn [trace] in Htr;
      apply (blk_of_prefix prog ns Hclosed NF HNF H c0 c0 q st pre d _ Hqn Htr (fun x _ => eq_refl) Hb);
      apply notin_existsb; exact Hnq].
    intros [[v dd] cd] s1 (Hmv1 & Hv & (md & Hmd & Hvd & Hxd & Hdd & Hcd)).
    cbn [fst snd] in *. rewrite (proj1 Hctx) in Hmv1.
    pose proof (moved_cur _ _ _ Hmv1) as Hc1. pose proof Hmv1 as (HI1 & He1 & _).
    assert (Hval : e_q (envat c0) d = v).
    { cbn. rewrite Hv, Hc. reflexivity. }
    cbn [trace run] in Htr |- *. rewrite Hval in Htr |- *.
    eapply wp_conseq; [apply (IH v (pre ++ [RQ d]) _ s1) | |].
    + congruence.
    + exact Hqn.
    + rewrite <- app_assoc. exact Htr.
    + intros d' Hd'. apply Hcalls. eapply calls_in_call; exact Hd'.
    + exact HI1.
    + subst dd cd. apply (covers_add_q prog NF H D); try assumption.
      * apply HI1.
      * eapply covers_ext; eassumption.
      * congruence.
      * rewrite Hxd; discriminate.
    + subst dd cd. apply cord_add_q; [eapply covers_ext; eassumption | eapply cord_ext; eassumption].
    + exact (ctx_moved _ s s1 Hctx Hmv1).
    + intros r s2 (Hmv2 & Hr). split; [exact (moved_trans _ s s1 s2 Hmv1 Hmv2) | exact Hr].
    + intros p s2 Hx. exact (XPc_moved _ s s1 _ p s2 Hmv1 Hx).
  - (* RdCell *)
    apply wp_bind, wp_get.
    assert (Hval : e_cell (envat c0) c = d_cell s c).
    { cbn. rewrite <- Hc. apply (inv_cell _ _ _ _ _ (proj1 HI)). }
    cbn [trace run] in Htr |- *. rewrite Hval in Htr |- *.
    apply (IH (d_cell s c) (pre ++ [RCell c]) _ s Hc Hqn); [| | exact HI | | | exact Hctx].
    + rewrite <- app_assoc. exact Htr.
    + intros d Hd. apply Hcalls. eapply calls_in_cell; exact Hd.
    + apply (covers_add_untracked prog NF H D); [apply HI | assumption | right; eauto].
    + apply cord_add_untracked; assumption.
  - (* Touch *)
    apply wp_bind, wp_get.
    cbn [trace run] in Htr |- *.
    apply (IH (pre ++ [RTouch]) _ s Hc Hqn); [| | exact HI | | | exact Hctx].
    + rewrite <- app_assoc. exact Htr.
    + intros d Hd. apply Hcalls. eapply calls_in_touch; exact Hd.
    + apply (covers_add_untracked prog NF H D); [apply HI | assumption | left; reflexivity].
    + apply cord_add_untracked; assumption.
  - (* PanicIf *)
    apply wp_bind, wp_get.
    cbn [trace run] in Htr |- *.
    destruct (d_pcell s pc =? 0) eqn:Hpc.
    + apply (IH pre fr s Hc Hqn); try assumption.
      intros d Hd. apply Hcalls. eapply calls_in_panicif; exact Hd.
    + apply wp_fail. split; [left; split; [reflexivity | left; exists pc; apply N.eqb_neq; exact Hpc]|].
      split; [exact HI | apply dext_refl].
Qed.

(* ---------------------------------------------------------------- execute *)
Definition exec_post' (st : list qkey) (s0 : db) (q : qkey) (m : memo) (s' : db) : Prop :=
  moved st s0 s' /\
  d_memo s' q = Some m /\ m_verified m = cur s0 /\ m_val m = Some (E (cur s0) q).

Lemma nvv_moved st s s' q : moved st s s' -> In q st ->
  not_valid_with_value s q -> not_valid_with_value s' q.
Proof.
  intros Hmv Hq Hnv m0 Hm0 Hv0. pose proof (moved_cur _ _ _ Hmv) as Hc.
  destruct Hmv as (_ & _ & [Hr Hf] & _). destruct (Hf q Hq) as [A B].
  destruct (m_val m0) as [v0 |] eqn:Ev0; [| reflexivity]. exfalso.
  assert (Hp : pinned s q) by (apply B; exists m0; split; [exact Hm0 | left; congruence]).
  rewrite (A Hp) in Hm0. rewrite Hc in Hv0. specialize (Hnv m0 Hm0 Hv0). congruence.
Qed.

Lemma execute_ok' L q st s old (HF : fetch_at L (q :: st)) (Hnq : ~ In q st) :
  In q ns -> PInv s -> ctx (q :: st) s ->
  (forall o ov, old = Some o -> m_val o = Some ov -> d_memo s q = Some o) ->
  not_valid_with_value s q ->
  wp (execute prog noeq L q old) (exec_post' st s q) (XPc s (blk (cur s) st q)) s.
Proof.
  intros Hqn HI Hctx Hold Hnv. unfold execute.
  apply wp_bind. apply (emit_ok' _ s s); [exact HI | apply dext_refl|].
  intros s1 Hce HI1 He01 Hst01.
  assert (Hcur01 : cur s1 = cur s) by (apply dcore_eq_cur; exact Hce).
  assert (Hmv01 : moved (q :: st) s s1).
  { split; [exact HI1 |]. split; [exact He01 |]. split; [| exact Hst01].
    destruct Hce as (Hr & _ & _ & Hm). apply stf_memo_eq; assumption. }
  eapply wp_seq; [apply (run_body_ok' L q (cur s) st HF Hnq (prog q) [] frame0 s1) | |].
  - exact Hcur01.
  - exact Hqn.
  - reflexivity.
  - intros d Hd. exact (Hclosed q d Hqn Hd).
  - exact HI1.
  - apply covers_frame0. apply (inv_cur _ _ _ _ _ (proj1 HI1)).
  - apply cord_frame0.
  - exact (ctx_moved _ s s1 Hctx Hmv01).
  - intros [v fr] s2 (Hmv12 & Hv & Hcv & Hco). cbn [fst snd] in *.
    pose proof (moved_trans _ s s1 s2 Hmv01 Hmv12) as Hmv02.
    pose proof (moved_cur _ _ _ Hmv02) as Hc2. pose proof Hmv02 as ([HI2 HP2] & He02 & _).
    apply wp_bind, wp_get.
    assert (Hold2 : forall o ov, old = Some o -> m_val o = Some ov -> d_memo s2 q = Some o).
    { intros o ov A B.
      apply (pinned_keep (q :: st) s s2 q o Hmv02 (or_introl eq_refl) (Hold o ov A B)). left; congruence. }
    pose proof (nvv_moved (q :: st) s s2 q Hmv02 (or_introl eq_refl) Hnv) as Hnv2.
    assert (Hcv' : covers s2 (tr (cur s2) q) fr) by (rewrite Hc2; exact Hcv).
    assert (Hco' : cord s2 (tr (cur s2) q) fr) by (rewrite Hc2; exact Hco).
    assert (Hacc : ac (cur s2) q).
    { apply (ac_of_tr prog ns Hclosed NF HNF). intros d Hd.
      destruct (cv_q _ _ _ Hcv' d Hd) as (md & Hmd & Hvd & _).
      destruct (HP2 d md Hmd) as (Hdn & Had & _). rewrite Hvd in Had. split; assumption. }
    assert (Hv' : v = E (cur s2) q).
    { rewrite Hv, <- Hc2. symmetry. apply (E_unfold' prog ns Hclosed NF HNF H (cur s2) q Hqn Hacc). }
    (* the common ending: store the fresh memo with stamp ch *)
    assert (Hfin : forall ch,
      (ch = fr_changed fr \/
       exists o ov, d_memo s2 q = Some o /\ m_val o = Some ov /\ ov = v /\ ch = m_changed o /\
                    m_dur o <= fr_dur fr /\ m_changed o <= fr_changed fr) ->
      wp (set_memo_at q (fresh_memo v (cur s2) ch fr) ;;; ret (fresh_memo v (cur s2) ch fr))
         (exec_post' st s q) (XPc s (blk (cur s) st q)) s2).
    { intros ch Hch. apply wp_bind. unfold set_memo_at. apply wp_modify. apply wp_ret.
      change (set_seen _ _) with (store s2 q (fresh_memo v (cur s2) ch fr)).
      destruct (fresh_store_ok prog ns Hclosed NF HNF H D s2 q fr v ch (d_memo s2 q) HI2 HP2 Hqn Hacc Hcv' Hv' eq_refl)
        as [HI3 He3]; [intros m0 A B; apply Hnv2; assumption | exact Hch |].
      split; [apply (moved_store st s s2 q _ (moved_tail q st s s2 Hmv02) Hnq) |].
      - split; [exact HI3 |]. apply PM_store; [exact HP2 |].
        split; [exact Hqn |]. split; [exact Hacc |].
        apply (eord_fresh prog NF H D s2 q fr v ch HI2 Hcv' Hco').
      - exact He3.
      - split; [unfold store; cbn; apply upd_same|].
        split; [cbn; exact Hc2 | cbn; rewrite Hv', Hc2; reflexivity]. }
    destruct old as [o|]; [| apply Hfin; left; reflexivity].
    destruct (m_val o) as [ov|] eqn:Hov; [| apply Hfin; left; reflexivity].
    pose proof (Hold2 o ov eq_refl Hov) as Ho2.
    destruct (can_backdate_dur (fr_dur fr) (m_dur o) && negb (noeq q)) eqn:Hbk; [| apply Hfin; left; reflexivity].
    apply andb_true_iff in Hbk. destruct Hbk as [Hbk _]. apply can_backdate_dur_spec in Hbk.
    destruct (d_pcell s2 EQ_FAULT =? 0) eqn:Hqf; cbn [negb].
    + destruct (ov =? v) eqn:Hbd; [| apply Hfin; left; reflexivity].
      destruct (changed_after (m_changed o) (fr_changed fr)) eqn:Hca.
      * (* the backdate-violation assertion is unreachable *)
        exfalso. apply changed_after_spec in Hca.
        pose proof (frame_changed_lb prog NF H D s2 q fr o HI2 Hcv' Ho2). lia.
      * apply changed_after_false in Hca.
        apply Hfin. right. exists o, ov. conj; auto. apply N.eqb_eq in Hbd. exact Hbd.
    + apply wp_fail. split; [|split; [exact (conj HI2 HP2) | exact He02]].
      left. split; [reflexivity|]. left. exists EQ_FAULT.
      rewrite <- (ext_pcell _ _ He02). apply N.eqb_neq. exact Hqf.
  - intros p s' Hx. exact (XPc_moved _ s s1 _ p s' Hmv01 Hx).
Qed.

(* ---------------------------------------------------------------- claims *)
Definition smq (s : db) (q : qkey) : Prop :=
  forall m, d_memo s q = Some m -> m_val m <> None -> shallow_verify s m = ShNo.

Lemma ctx_push q st s : ctx st s -> smq s q -> ctx (q :: st) (set_stack s (q :: d_stack s)).
Proof.
  intros (Hst & Hsm) Hsq. split; [cbn; now rewrite Hst |].
  intros p m [<- | Hp] Hm Hv; [apply (Hsq m Hm Hv) | apply (Hsm p m Hp Hm Hv)].
Qed.

Lemma claim_ok' q st s (Q : unit -> db -> Prop) :
  PInv s -> ctx st s -> smq s q ->
  (let s1 := set_stack s (q :: d_stack s) in
   ~ In q st -> PInv s1 -> dext s s1 -> ctx (q :: st) s1 -> Q tt s1) ->
  wp (claim q) Q (XPc s (blk (cur s) st q)) s.
Proof.
  intros HI Hctx Hsq HQ. unfold claim. apply wp_bind, wp_get. rewrite (proj1 Hctx).
  destruct (existsb (key_eqb q) st) eqn:Hex.
  - apply wp_fail. split; [| split; [exact HI | apply dext_refl]].
    right. split; [reflexivity | exact (qblk_stacked prog (H (cur s)) st q Hex)].
  - apply wp_modify. apply (HQ (existsb_in q st Hex)).
    + apply (PInv_core_eq s); [apply dcore_eq_stack | exact HI].
    + apply dext_set_stack.
    + exact (ctx_push q st s Hctx Hsq).
Qed.

Definition got' (st : list qkey) (s0 : db) (q : qkey) (mv : memo * val) (s' : db) : Prop :=
  moved st s0 s' /\
  d_memo s' q = Some (fst mv) /\ m_verified (fst mv) = cur s0 /\
  m_val (fst mv) = Some (snd mv) /\ snd mv = E (cur s0) q.

Lemma fetch_cold_ok' L n q st s (HL : serves ns pserves L n) (Hroom : room ns (S n) st) :
  In q ns -> PInv s -> ctx st s -> not_valid_with_value s q -> smq s q ->
  wp (fetch_cold prog noeq L q) (got' st s q) (XPc s (blk (cur s) st q)) s.
Proof.
  intros Hqn HI Hctx Hnv Hsq. unfold fetch_cold.
  apply wp_bind. apply (claim_ok' q st s _ HI Hctx Hsq). intros s1 Hnq HI1 He01 Hctx1.
  destruct (HL (q :: st) (room_push ns n q st Hroom Hqn Hnq)) as [HF HM].
  apply wp_bind, wp_get. change (d_memo s1 q) with (d_memo s q).
  (* the execute branch *)
  assert (Hexec : forall s2, moved st s1 s2 -> ctx (q :: st) s2 ->
            (forall o ov, d_memo s q = Some o -> m_val o = Some ov -> d_memo s2 q = Some o) ->
            not_valid_with_value s2 q ->
            wp (m <- execute prog noeq L q (d_memo s q) ;;
                release q ;;;
                match m_val m with Some v => ret (m, v) | None => nofuel end)
               (got' st s q) (XPc s (blk (cur s) st q)) s2).
  { intros s2 Hmv2 Hctx2 Hold2 Hnv2.
    pose proof (moved_cur _ _ _ Hmv2) as Hc2. change (cur s1) with (cur s) in Hc2.
    eapply wp_seq; [apply (execute_ok' L q st s2 (d_memo s q) HF Hnq Hqn (proj1 Hmv2) Hctx2 Hold2 Hnv2) | |].
    - intros m s3 (Hmv3 & Hm3 & Hv3 & Hx3).
      apply wp_bind. unfold release. apply wp_modify.
      rewrite Hx3. apply wp_ret.
      split; [exact (moved_claimed st q s s3 (moved_trans st s1 s2 s3 Hmv2 Hmv3)) |].
      cbn [fst snd]. split; [exact Hm3|]. split; [congruence|]. split; [congruence | congruence].
    - intros p s3 Hx. rewrite Hc2 in Hx.
      eapply XPc_trans; [eapply dext_trans; [exact He01 | apply Hmv2] | exact Hx]. }
  destruct (d_memo s q) as [m|] eqn:Hm.
  - destruct (m_val m) as [v|] eqn:Hv.
    + apply wp_bind.
      assert (Hpin : pin s1 m) by (left; congruence).
      eapply wp_seq; [apply (verify_memo_ok' L q m st s1 HM Hnq HI1 Hm Hpin Hctx1) | |].
      * intros [b m'] s2 (Hmv2 & Htrue & Hfalse). cbn [fst snd] in *.
        apply wp_ret.
        destruct b.
        -- destruct (Htrue eq_refl) as (Hm' & Hv' & Hval' & _ & _ & HE).
           apply wp_bind. unfold release. apply wp_modify. apply wp_ret.
           split; [exact (moved_claimed st q s s2 Hmv2) |]. cbn [fst snd].
           split; [exact Hm'|]. split; [exact Hv'|]. split; [congruence|].
           change (cur s1) with (cur s) in HE. rewrite HE.
           apply (mo_val _ _ _ _ _ _ _ (inv_memo _ _ _ _ _ (proj1 HI) q m Hm)); exact Hv.
        -- specialize (Hfalse eq_refl). pose proof Hmv2 as (HI2 & He2 & Ht2 & Hs2).
           apply Hexec; [exact Hmv2 | | |].
           ++ apply (ctx_moved (q :: st) s1 s2 Hctx1).
              split; [exact HI2 |]. split; [exact He2 |]. split; [exact (stf_cons st s1 s2 q m Ht2 Hm Hpin Hfalse) | exact Hs2].
           ++ intros o ov A B. injection A as <-. exact Hfalse.
           ++ intros m0 A B. rewrite Hfalse in A. injection A as <-.
              apply (Hnv m Hm). rewrite B. apply (dext_cur _ _ He2).
      * intros p s2 Hx. eapply XPc_trans; eassumption.
    + apply wp_bind, wp_ret.
      apply Hexec; [exact (moved_refl st s1 HI1) | exact Hctx1 | intros o ov A B; injection A as <-; exact Hm | exact Hnv].
  - apply wp_bind, wp_ret.
    apply Hexec; [exact (moved_refl st s1 HI1) | exact Hctx1 | intros o ov A B; discriminate | exact Hnv].
Qed.

(* ---------------------------------------------------------------- fast paths *)
Lemma shallow_now s m : m_verified m = cur s -> shallow_verify s m = ShVerified.
Proof. intros Hv. unfold shallow_verify. rewrite Hv, N.eqb_refl. reflexivity. Qed.

(* what a successful shallow check leaves behind is a frame over the claimed keys *)
Lemma moved_hot st s s' q m m' u :
  ctx st s -> d_memo s q = Some m -> shallow_verify s m = u -> u <> ShNo ->
  verified_now' s q m m' s' -> moved st s s'.
Proof.
  intros (_ & Hsm) Hm Hu Hne (HI & He & Hs & Hd & _ & Hv' & Hval' & _).
  split; [exact HI |]. split; [exact He |]. split; [| exact Hs].
  destruct Hd as [Hd | Hd]; [apply stf_memo_eq; [apply (ext_revs _ _ He) | exact Hd] |].
  apply (stf_upd st s s' q m m' (ext_revs _ _ He) Hm Hd). intros Hq.
  assert (Hnv : m_val m = None).
  { destruct (m_val m) as [v |] eqn:Ev; [| reflexivity]. exfalso. apply Hne. rewrite <- Hu.
    apply (Hsm q m Hq Hm). congruence. }
  split.
  - intros [A | A]; [congruence | congruence].
  - intros [A | A]; [congruence |].
    rewrite shallow_now in A; [discriminate |]. rewrite Hv'. symmetry. apply (dext_cur _ _ He).
Qed.

Lemma fetch_hot_ok' q st s B :
  PInv s -> ctx st s ->
  wp (fetch_hot q)
     (fun hot s' => match hot with
                    | Some mv => got' st s q mv s'
                    | None => s' = s /\ not_valid_with_value s q /\ smq s q
                    end) (XPc s B) s.
Proof.
  intros HI Hctx. unfold fetch_hot. apply wp_bind, wp_get.
  destruct (d_memo s q) as [m|] eqn:Hm.
  - destruct (m_val m) as [v|] eqn:Hv.
    + apply (shallow_path_ok q m s (fun m' => Some (m', v))); [exact HI | exact Hm | |].
      * intros u m' s' Hu Hne Hvn.
        split; [exact (moved_hot st s s' q m m' u Hctx Hm Hu Hne Hvn) |].
        destruct Hvn as (_ & _ & _ & _ & Hm' & Hv' & Hval' & _ & _ & HE). cbn [fst snd].
        split; [exact Hm' |]. split; [exact Hv' |]. split; [congruence |].
        rewrite HE. apply (mo_val _ _ _ _ _ _ _ (inv_memo _ _ _ _ _ (proj1 HI) q m Hm)); exact Hv.
      * intros Hsh. apply wp_ret. split; [reflexivity|].
        pose proof (shallow_cases s m) as Hc. rewrite Hsh in Hc. split.
        -- intros m0 Hm0 Hv0. congruence.
        -- intros m0 Hm0 _. congruence.
    + apply wp_ret. split; [reflexivity|]. split.
      * intros m0 Hm0 _. congruence.
      * intros m0 Hm0 Hx. congruence.
  - apply wp_ret. split; [reflexivity|]. split; intros m0 Hm0; congruence.
Qed.

Lemma fetch_ok' L n (HL : serves ns pserves L n) st (Hroom : room ns (S n) st) :
  forall q s, In q ns -> PInv s -> ctx st s ->
    wp (fetch prog noeq L q) (fetch_post s q) (XPc s (blk (cur s) st q)) s.
Proof.
  intros q s Hqn HI Hctx. unfold fetch.
  assert (Hstk : d_stack s = st) by apply Hctx.
  eapply wp_then; [apply (fetch_hot_ok' q st s (blk (cur s) st q) HI Hctx) |].
  intros hot s1 Hhot.
  assert (Hfin : forall mv s2, got' st s q mv s2 ->
            wp (modify (fun s => set_lru s (updN (d_lru s) (fst q) (lru_record_use (d_lru s (fst q)) (snd q)))) ;;;
                ret (memo_qres (fst mv) (snd mv))) (fetch_post s q) (XPc s (blk (cur s) st q)) s2).
  { intros [m v] s2 (Hmv & Hm & Hv & Hval & HE). cbn [fst snd] in *.
    apply wp_bind, wp_modify, wp_ret.
    split; [rewrite Hstk; exact (moved_lru st s s2 _ Hmv) |].
    unfold memo_qres; cbn [fst snd]. split; [exact HE|]. exists m. conj; auto. }
  apply wp_bind.
  destruct hot as [mv|].
  - apply wp_ret. apply Hfin. exact Hhot.
  - destruct Hhot as (-> & Hnv & Hsq).
    eapply wp_conseq; [apply (fetch_cold_ok' L n q st s HL Hroom Hqn HI Hctx Hnv Hsq) | |intros; assumption].
    intros mv s2 Hgot. apply Hfin. exact Hgot.
Qed.

(* ---------------------------------------------------------------- maybe_changed_after *)
Lemma mca_cold_ok' L n q st since s (HL : serves ns pserves L n) (Hroom : room ns (S n) st) :
  In q ns -> PInv s -> ctx st s -> not_valid_with_value s q ->
  (forall m, d_memo s q = Some m -> shallow_verify s m = ShNo) ->
  wp (mca_cold prog noeq L q since) (mca_post s q since) (XPc s (blk (cur s) st q)) s.
Proof.
  intros Hqn HI Hctx Hnv Hno. unfold mca_cold.
  assert (Hsq : smq s q) by (intros m Hm _; apply Hno; exact Hm).
  assert (Hstk : d_stack s = st) by apply Hctx.
  apply wp_bind. apply (claim_ok' q st s _ HI Hctx Hsq). intros s1 Hnq HI1 He01 Hctx1.
  destruct (HL (q :: st) (room_push ns n q st Hroom Hqn Hnq)) as [HF HM].
  apply wp_bind, wp_get. change (d_memo s1 q) with (d_memo s q).
  (* leaving: release and return b, from a state s2 *)
  assert (Hleave : forall b s2, moved st s1 s2 ->
            (b = false -> exists m, d_memo s2 q = Some m /\ m_verified m = cur s /\ m_changed m <= since) ->
            wp (release q ;;; ret b) (mca_post s q since) (XPc s (blk (cur s) st q)) s2).
  { intros b s2 Hmv2 Hb.
    apply wp_bind. unfold release. apply wp_modify. apply wp_ret.
    split; [rewrite Hstk; exact (moved_claimed st q s s2 Hmv2) | exact Hb]. }
  destruct (d_memo s q) as [old|] eqn:Hm; [| apply Hleave; [exact (moved_refl st s1 HI1) | discriminate]].
  assert (Hpin : pin s1 old) by (right; apply (Hno old eq_refl)).
  eapply wp_seq; [apply (verify_memo_ok' L q old st s1 HM Hnq HI1 Hm Hpin Hctx1) | |].
  - intros [b m'] s2 (Hmv2 & Htrue & Hfalse). cbn [fst snd] in *.
    destruct b.
    + destruct (Htrue eq_refl) as (Hm' & Hv' & _ & _ & Hch' & _).
      apply Hleave; [exact Hmv2 |].
      intros Hca. apply changed_after_false in Hca.
      exists m'. conj; auto; congruence.
    + specialize (Hfalse eq_refl).
      destruct (m_val old) as [ov|] eqn:Hov; [| apply Hleave; [exact Hmv2 | discriminate]].
      pose proof (moved_cur _ _ _ Hmv2) as Hc2. change (cur s1) with (cur s) in Hc2.
      pose proof Hmv2 as (HI2 & He2 & Ht2 & Hs2).
      assert (Hctx2 : ctx (q :: st) s2).
      { apply (ctx_moved (q :: st) s1 s2 Hctx1).
        split; [exact HI2 |]. split; [exact He2 |]. split; [exact (stf_cons st s1 s2 q old Ht2 Hm Hpin Hfalse) | exact Hs2]. }
      eapply wp_seq; [apply (execute_ok' L q st s2 (Some old) HF Hnq Hqn HI2 Hctx2) | |].
      * intros o ov' A B. injection A as <-. exact Hfalse.
      * intros m0 A B. rewrite Hfalse in A. injection A as <-.
        apply (Hnv old Hm). rewrite B. exact Hc2.
      * intros mnew s3 (Hmv3 & Hm3 & Hv3 & _).
        apply Hleave; [exact (moved_trans st s1 s2 s3 Hmv2 Hmv3) |].
        intros Hca. apply changed_after_false in Hca.
        exists mnew. conj; auto; congruence.
      * intros p s3 Hx. rewrite Hc2 in Hx.
        eapply XPc_trans; [eapply dext_trans; [exact He01 | exact He2] | exact Hx].
  - intros p s2 Hx. eapply XPc_trans; eassumption.
Qed.

Lemma mca_ok' L n (HL : serves ns pserves L n) st (Hroom : room ns (S n) st) :
  forall q since s, In q ns -> PInv s -> ctx st s ->
    wp (mca prog noeq L q since) (mca_post s q since) (XPc s (blk (cur s) st q)) s.
Proof.
  intros q since s Hqn HI Hctx. unfold mca.
  assert (Hstk : d_stack s = st) by apply Hctx.
  apply wp_bind, wp_get.
  destruct (d_memo s q) as [m|] eqn:Hm.
  - apply (shallow_path_ok q m s (fun m' => changed_after (m_changed m') since)); [exact HI | exact Hm | |].
    + intros u m' s' Hu Hne Hvn.
      split; [rewrite Hstk; exact (moved_hot st s s' q m m' u Hctx Hm Hu Hne Hvn) |].
      destruct Hvn as (_ & _ & _ & _ & Hm' & Hv' & _ & _ & Hch' & _).
      intros Hca. apply changed_after_false in Hca. exists m'. conj; auto; congruence.
    + intros Hsh. apply (mca_cold_ok' L n q st since s HL Hroom Hqn HI Hctx).
      * pose proof (shallow_cases s m) as Hc. rewrite Hsh in Hc.
        intros m0 Hm0 Hv0. congruence.
      * intros m0 Hm0. congruence.
  - apply wp_ret. split; [rewrite Hstk; exact (moved_refl st s HI) | discriminate].
Qed.

(* ---------------------------------------------------------------- tying the knot *)
Theorem plevel_ok : forall n, serves ns pserves (level prog noeq n) n.
Proof.
  apply level_serves. intros L n HL st Hroom.
  split; [exact (fetch_ok' L n HL st Hroom) | exact (mca_ok' L n HL st Hroom)].
Qed.

End Ops.
