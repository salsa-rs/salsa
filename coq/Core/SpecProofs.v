(* Core/SpecProofs.v — semantic lemmas about bodies and from-scratch evaluation. *)
From Salsa Require Import Base.
From Salsa.Core Require Import Model Spec.

(* what a read returns under an environment *)
Definition answer (e : env) (r : rd) : val :=
  match r with
  | RIn i => e_in e i
  | RQ q => e_q e q
  | RCell c => e_cell e c
  | RTouch => 0
  end.

Definition agree_on (e e' : env) (l : list rd) : Prop :=
  forall r, In r l -> answer e r = answer e' r.

(* A body's run is a function of the answers to the reads it performs. *)
Lemma trace_determined (b : body) : forall e e',
  agree_on e e' (trace e b) -> trace e' b = trace e b /\ run e' b = run e b.
Proof.
  induction b as [v | i k IH | q k IH | c k IH | k IH | pc k IH]; intros e e' H; cbn [trace run] in *.
  - split; reflexivity.
  - assert (Hi : e_in e i = e_in e' i) by (apply (H (RIn i)); left; reflexivity).
    rewrite <- Hi.
    destruct (IH (e_in e i) e e') as [Ht Hr].
    + intros r Hr; apply H; right; exact Hr.
    + rewrite Ht, Hr; split; reflexivity.
  - assert (Hq : e_q e q = e_q e' q) by (apply (H (RQ q)); left; reflexivity).
    rewrite <- Hq.
    destruct (IH (e_q e q) e e') as [Ht Hr].
    + intros r Hr; apply H; right; exact Hr.
    + rewrite Ht, Hr; split; reflexivity.
  - assert (Hc : e_cell e c = e_cell e' c) by (apply (H (RCell c)); left; reflexivity).
    rewrite <- Hc.
    destruct (IH (e_cell e c) e e') as [Ht Hr].
    + intros r Hr; apply H; right; exact Hr.
    + rewrite Ht, Hr; split; reflexivity.
  - destruct (IH e e') as [Ht Hr].
    + intros r Hr; apply H; right; exact Hr.
    + rewrite Ht, Hr; split; reflexivity.
  - apply IH; exact H.
Qed.

(* Walking the old trace in order: either every read has the same answer (and then the
   run is the same), or there is a first read with a different answer, and the new run
   performs that read too, after the same prefix. *)
Lemma first_changed_is_read_again (b : body) : forall e e',
  (agree_on e e' (trace e b)) \/
  (exists pre r post, trace e b = pre ++ r :: post /\ agree_on e e' pre /\
                      answer e r <> answer e' r /\
                      exists post', trace e' b = pre ++ r :: post').
Proof.
  induction b as [v | i k IH | q k IH | c k IH | k IH | pc k IH]; intros e e'; cbn [trace].
  - left; intros r [].
  - destruct (N.eq_dec (e_in e i) (e_in e' i)) as [Heq | Hne].
    + destruct (IH (e_in e i) e e') as [Hag | (pre & r & post & Ht & Hpre & Hne & post' & Ht')].
      * left; intros r [<- | Hr]; [exact Heq | apply Hag; exact Hr].
      * right; exists (RIn i :: pre), r, post; repeat split.
        -- cbn; rewrite Ht; reflexivity.
        -- intros r0 [<- | Hr0]; [exact Heq | apply Hpre; exact Hr0].
        -- exact Hne.
        -- exists post'; cbn; rewrite <- Heq, Ht'; reflexivity.
    + right; exists [], (RIn i), (trace e (k (e_in e i))); repeat split.
      * intros r [].
      * exact Hne.
      * exists (trace e' (k (e_in e' i))); reflexivity.
  - destruct (N.eq_dec (e_q e q) (e_q e' q)) as [Heq | Hne].
    + destruct (IH (e_q e q) e e') as [Hag | (pre & r & post & Ht & Hpre & Hne & post' & Ht')].
      * left; intros r [<- | Hr]; [exact Heq | apply Hag; exact Hr].
      * right; exists (RQ q :: pre), r, post; repeat split.
        -- cbn; rewrite Ht; reflexivity.
        -- intros r0 [<- | Hr0]; [exact Heq | apply Hpre; exact Hr0].
        -- exact Hne.
        -- exists post'; cbn; rewrite <- Heq, Ht'; reflexivity.
    + right; exists [], (RQ q), (trace e (k (e_q e q))); repeat split.
      * intros r [].
      * exact Hne.
      * exists (trace e' (k (e_q e' q))); reflexivity.
  - destruct (N.eq_dec (e_cell e c) (e_cell e' c)) as [Heq | Hne].
    + destruct (IH (e_cell e c) e e') as [Hag | (pre & r & post & Ht & Hpre & Hne & post' & Ht')].
      * left; intros r [<- | Hr]; [exact Heq | apply Hag; exact Hr].
      * right; exists (RCell c :: pre), r, post; repeat split.
        -- cbn; rewrite Ht; reflexivity.
        -- intros r0 [<- | Hr0]; [exact Heq | apply Hpre; exact Hr0].
        -- exact Hne.
        -- exists post'; cbn; rewrite <- Heq, Ht'; reflexivity.
    + right; exists [], (RCell c), (trace e (k (e_cell e c))); repeat split.
      * intros r [].
      * exact Hne.
      * exists (trace e' (k (e_cell e' c))); reflexivity.
  - destruct (IH e e') as [Hag | (pre & r & post & Ht & Hpre & Hne & post' & Ht')].
    + left; intros r [<- | Hr]; [reflexivity | apply Hag; exact Hr].
    + right; exists (RTouch :: pre), r, post; repeat split.
      * cbn; rewrite Ht; reflexivity.
      * intros r0 [<- | Hr0]; [reflexivity | apply Hpre; exact Hr0].
      * exact Hne.
      * exists post'; cbn; rewrite Ht'; reflexivity.
  - apply IH.
Qed.

Corollary agree_on_common (b : body) e e' :
  (forall r, In r (trace e b) -> In r (trace e' b) -> answer e r = answer e' r) ->
  agree_on e e' (trace e b).
Proof.
  intros Hc.
  destruct (first_changed_is_read_again b e e')
    as [Hag | (pre & r & post & Ht & _ & Hne & post' & Ht')]; [exact Hag|].
  exfalso. apply Hne.
  apply Hc; [rewrite Ht | rewrite Ht']; apply in_or_app; right; left; reflexivity.
Qed.

Lemma calls_of_trace e b q : In (RQ q) (trace e b) -> calls b q.
Proof.
  induction b as [v | i k IH | q0 k IH | c k IH | k IH | pc k IH]; cbn [trace]; intros H.
  - destruct H.
  - destruct H as [H | H]; [discriminate | eapply calls_in_rdin, IH, H].
  - destruct H as [H | H].
    + injection H as <-; constructor.
    + eapply calls_in_call, IH, H.
  - destruct H as [H | H]; [discriminate | eapply calls_in_cell, IH, H].
  - destruct H as [H | H]; [discriminate | eapply calls_in_touch, IH, H].
  - eapply calls_in_panicif, IH, H.
Qed.

Section Rank.
Variable prog : qkey -> body.
Variable rank : qkey -> nat.
Hypothesis Hrank : calls_below prog rank.

Lemma eval_fuel_irrelevant sn : forall n m q,
  (rank q < n)%nat -> (rank q < m)%nat -> eval prog n sn q = eval prog m sn q.
Proof.
  induction n as [|n IH]; intros m q Hn Hm; [inversion Hn|].
  destruct m as [|m]; [inversion Hm|].
  cbn [eval].
  set (e := {| e_in := sn_in sn; e_cell := sn_cell sn; e_q := eval prog n sn |}).
  set (e' := {| e_in := sn_in sn; e_cell := sn_cell sn; e_q := eval prog m sn |}).
  destruct (trace_determined (prog q) e e') as [_ Hr]; [|symmetry; exact Hr].
  intros r Hr; destruct r as [i | q' | c |]; cbn; try reflexivity.
  apply calls_of_trace in Hr. apply Hrank in Hr.
  apply IH; lia.
Qed.
End Rank.
