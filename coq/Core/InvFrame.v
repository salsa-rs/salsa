(* Core/InvFrame.v — how the invariant reacts to storing a memo. *)
From Salsa Require Import Base.
From Salsa.Kern Require Import CoreK CoreKFacts.
From Salsa.Core Require Import Model Spec SpecProofs Wp Inv.

Section Frame.
Variable prog : qkey -> body.
Variable rank : qkey -> nat.
Variable NF : nat.
Notation E := (E prog NF).
Notation tr := (tr prog NF).
Notation memo_ok := (memo_ok prog NF).
Notation Inv := (Inv prog NF).
Notation quiet := (quiet prog NF).

(* the part of the state the invariant talks about *)
Definition core_eq (s s' : db) : Prop :=
  d_revs s' = d_revs s /\ d_in s' = d_in s /\ d_cell s' = d_cell s /\
  d_memo s' = d_memo s /\ d_seen s' = d_seen s.

Lemma core_eq_cur s s' : core_eq s s' -> cur s' = cur s.
Proof. intros (Hr & _). unfold cur; rewrite Hr; reflexivity. Qed.

Lemma core_eq_revs s s' : core_eq s s' -> d_revs s' = d_revs s.
Proof. intros (Hr & _). exact Hr. Qed.

Lemma core_eq_memo s s' : core_eq s s' -> d_memo s' = d_memo s.
Proof. intros (_ & _ & _ & Hm & _). exact Hm. Qed.

Lemma core_eq_stack s l : core_eq s (set_stack s l).
Proof. repeat split. Qed.

Lemma core_eq_lru s l : core_eq s (set_lru s l).
Proof. repeat split. Qed.

Lemma memo_ok_core_eq H s s' q m : core_eq s s' -> memo_ok H s q m -> memo_ok H s' q m.
Proof.
  intros Hc Hm. pose proof (core_eq_cur _ _ Hc) as Hcur.
  destruct Hc as (_ & _ & _ & _ & Hs).
  destruct Hm as [Hord Hval Hrin Hrq Hrcell Hedg Hchg Huntr Hdur Hseen].
  constructor; unfold seen in *; rewrite ?Hs, ?Hcur; auto.
Qed.

Lemma Inv_core_eq H s s' : core_eq s s' -> Inv H s -> Inv H s'.
Proof.
  intros Hc HI. pose proof (core_eq_cur _ _ Hc) as Hcur.
  pose proof Hc as (Hr & Hi & Hce & Hm & Hs).
  destruct HI as [Hcur1 Hin Hinle Hcell Hlow Hmemo Hsn].
  constructor; unfold seen in *; rewrite ?Hcur, ?Hi, ?Hce, ?Hm, ?Hs; auto.
  (* inv_memo *)
  intros q m Hq. apply (memo_ok_core_eq H s); [exact Hc | apply Hmemo; exact Hq].
Qed.

(* storing a memo for q (and recording the ghost pair) *)
Definition store (s : db) (q : qkey) (m : memo) : db :=
  set_seen (set_memo s (upd (d_memo s) q (Some m))) ((q, m_verified m) :: d_seen s).

Lemma seen_store s q m p r : seen (store s q m) p r <-> (p = q /\ r = m_verified m) \/ seen s p r.
Proof.
  unfold seen, store; cbn. split.
  - intros [Heq | Hin]; [left; injection Heq; auto | right; exact Hin].
  - intros [[-> ->] | Hin]; [left; reflexivity | right; exact Hin].
Qed.

Lemma cur_store s q m : cur (store s q m) = cur s.
Proof. reflexivity. Qed.

Lemma memo_store_same s q m : d_memo (store s q m) q = Some m.
Proof. unfold store; cbn. apply upd_same. Qed.

Lemma memo_store_other s q m p : q <> p -> d_memo (store s q m) p = d_memo s p.
Proof. intros Hne. unfold store; cbn. apply upd_other; exact Hne. Qed.

Lemma memo_ok_store_other H s q m p mp :
  p <> q -> memo_ok H s p mp -> memo_ok H (store s q m) p mp.
Proof.
  intros Hne [Hord Hval Hrin Hrq Hrcell Hedg Hchg Huntr Hdur Hseen].
  (* the clauses that mention [seen] are left: the pair recorded by the store is q's, not p's *)
  constructor; rewrite ?cur_store; auto.
  - (* mo_edges_q *) intros d0 Hd0. destruct (Hedg d0 Hd0) as [Hin Hs]. split; [exact Hin|].
    apply seen_store; right; exact Hs.
  - (* mo_changed *) intros r Hr Hle. apply Hchg; [|exact Hle].
    apply seen_store in Hr. destruct Hr as [[Heq _] | Hr]; [contradiction | exact Hr].
  - (* mo_seen *) apply seen_store; right; exact Hseen.
Qed.

(* The frame rule: store a memo verified now. *)
Lemma Inv_store H s q m :
  Inv H s ->
  m_verified m = cur s ->
  memo_ok H (store s q m) q m ->
  (forall d, In (RQ d) (tr H (cur s) q) -> seen s d (cur s) \/ quiet d) ->
  (forall m0, d_memo s q = Some m0 -> m_verified m0 = cur s -> m_val m0 <> None -> m0 = m) ->
  Inv H (store s q m) /\ ext s (store s q m).
Proof.
  intros HI Hv Hok Hreads Hsame.
  destruct HI as [Hcur1 Hin Hinle Hcell Hlow Hmemo Hsn].
  split.
  - (* Inv *) constructor; rewrite ?cur_store; auto.
    + (* inv_memo *) intros p mp Hp. destruct (key_eqb_spec q p) as [<- | Hne];
      [rewrite memo_store_same in Hp | rewrite memo_store_other in Hp by exact Hne].
      * injection Hp as <-. exact Hok.
      * apply memo_ok_store_other; [congruence | apply Hmemo; exact Hp].
    + (* inv_seen: the new pair (q, cur s), then the old ones *) intros p r Hs. apply seen_store in Hs. destruct Hs as [[-> ->] | Hs].
      * rewrite Hv. split; [lia|]. split.
        -- exists m. split; [|lia]. apply memo_store_same.
        -- intros d0 Hd0. destruct (Hreads d0 Hd0) as [Hs0 | Hq]; [left | right; exact Hq].
           apply seen_store; right; exact Hs0.
      * destruct (Hsn p r Hs) as (Hle & (mp & Hmp & Hrv) & Hcl).
        split; [exact Hle|]. split.
        -- destruct (key_eqb_spec q p) as [<- | Hne];
        [rewrite memo_store_same | rewrite memo_store_other by exact Hne].
           ++ exists m. split; [reflexivity | lia].
           ++ exists mp. split; assumption.
        -- intros d0 Hd0. destruct (Hcl d0 Hd0) as [Hs0 | Hq]; [left | right; exact Hq].
           apply seen_store; right; exact Hs0.
  - (* ext *) constructor; try reflexivity; try (intros Hev0; exact Hev0).
    + (* ext_seen *) intros p r Hs. apply seen_store; right; exact Hs.
    + (* the clause about memos valid now with a value *) intros p mp Hp Hvp Hxp. destruct (key_eqb_spec q p) as [<- | Hne];
        [rewrite memo_store_same | rewrite memo_store_other by exact Hne]; [|exact Hp].
      rewrite (Hsame mp Hp Hvp Hxp). reflexivity.
Qed.

End Frame.
