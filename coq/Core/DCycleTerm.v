(* Core/DCycleTerm.v — the Core model never hangs, whatever happened before: for ALL programs
   (cyclic or not), ALL histories of operations (writes of any durability, synthetic writes,
   cell changes, fault injection, LRU changes, eviction, Gets), a Get with fuel at least the
   number of keys reachable ends with a value or with a panic — never out of fuel — and leaves no
   claim behind.  The reason is the claim stack: every nested fetch / maybe_changed_after below
   the memo fast paths first claims its key, a claimed key is refused (cycle panic), so the
   nesting depth is bounded by the number of distinct keys.  Values are not discussed here. *)
From Coq Require Import PeanoNat.
From Salsa Require Import Base.
From Salsa.Kern Require Import CoreK.
From Salsa.Core Require Import Model Spec Wp.
From Salsa.Core Require Import DCycleSem DCycleInv.

Section Term.
Variable prog : qkey -> body.
Variable noeq : qkey -> bool.
Variable ns : list qkey.
Hypothesis Hclosed : closed_calls prog ns.

Definition edges_in (es : list edge) : Prop := forall d, In (EQ d) es -> In d ns.

(* recorded dependencies of listed keys are listed keys *)
Definition EI (s : db) : Prop :=
  forall q m, In q ns -> d_memo s q = Some m -> edges_in (m_edges m).

Lemma EI_eq s s' : d_memo s' = d_memo s -> EI s -> EI s'.
Proof. intros Hm HE q m Hq Hqm. rewrite Hm in Hqm. exact (HE q m Hq Hqm). Qed.

Lemma EI_store s q m x : EI s -> edges_in (m_edges m) ->
  EI (set_seen (set_memo s (upd (d_memo s) q (Some m))) x).
Proof.
  intros HE Hm q' m' Hq'. cbn [d_memo set_seen set_memo]. unfold upd.
  destruct (key_eqb q q'); intros Hqm.
  - injection Hqm as <-. exact Hm.
  - exact (HE q' m' Hq' Hqm).
Qed.

Lemma add_read_edges fr e du c d :
  In (EQ d) (fr_edges (add_read fr e du c)) -> In (EQ d) (fr_edges fr) \/ e = EQ d.
Proof.
  cbn [add_read fr_edges]. destruct (du =? D_NEVER); [now left |].
  unfold add_edge. destruct (existsb (edge_eqb e) (fr_edges fr)); [now left |].
  intros H. apply in_app_or in H. destruct H as [H | [H | []]]; [now left | now right].
Qed.

Definition kept (st : list qkey) (s : db) : Prop := EI s /\ d_stack s = st.

Lemma kept_eq st s s' : d_memo s' = d_memo s -> d_stack s' = d_stack s -> kept st s -> kept st s'.
Proof. intros Hm Hs (HE & Hst). split; [exact (EI_eq s s' Hm HE) | congruence]. Qed.

Definition keeps {A} (m : M A) (st : list qkey) (s : db) : Prop :=
  wp m (fun _ s' => kept st s') (fun _ s' => EI s') s.

Lemma keeps_then {A B} (m : M A) (f : A -> M B) st1 st s :
  keeps m st1 s -> (forall a s', kept st1 s' -> keeps (f a) st s') -> keeps (bind m f) st s.
Proof. intros Hm Hf. exact (wp_then m f _ _ _ s Hm Hf). Qed.

Definition tserves (L : lower) (st : list qkey) : Prop :=
  forall s q, kept st s -> In q ns ->
    keeps (l_fetch L q) st s /\ forall since, keeps (l_mca L q since) st s.

Section Level.
Variable L : lower.
Variable st' : list qkey.
Hypothesis HL : tserves L st'.

Lemma run_body_t : forall b fr s, kept st' s -> (forall d, calls b d -> In d ns) ->
  edges_in (fr_edges fr) ->
  wp (run_body L b fr) (fun r s' => kept st' s' /\ edges_in (fr_edges (snd r))) (fun _ s' => EI s') s.
Proof.
  induction b as [v | i k IH | d k IH | c k IH | k IH | c k IH]; intros fr s Hk Hc Hfr; cbn [run_body].
  - apply wp_ret. split; [exact Hk | exact Hfr].
  - apply wp_bind, wp_get. apply IH; [exact Hk | |].
    + intros d Hd. apply Hc. econstructor; exact Hd.
    + intros d Hd. apply add_read_edges in Hd. destruct Hd as [Hd | Hd]; [now apply Hfr | discriminate].
  - eapply wp_then; [exact (proj1 (HL s d Hk (Hc d (calls_here d k)))) |].
    intros [[v du] ch] s1 Hk1. apply IH; [exact Hk1 | |].
    + intros d' Hd'. apply Hc. econstructor; exact Hd'.
    + intros d' Hd'. apply add_read_edges in Hd'. destruct Hd' as [Hd' | Hd']; [now apply Hfr |].
      injection Hd' as <-. apply Hc. constructor.
  - apply wp_bind, wp_get. apply IH; [exact Hk | | exact Hfr].
    intros d Hd. apply Hc. econstructor; exact Hd.
  - apply wp_bind, wp_get. apply IH; [exact Hk | | exact Hfr].
    intros d Hd. apply Hc. constructor; exact Hd.
  - apply wp_bind, wp_get. destruct (d_pcell s c =? 0).
    + apply IH; [exact Hk | | exact Hfr]. intros d Hd. apply Hc. constructor; exact Hd.
    + apply wp_fail. exact (proj1 Hk).
Qed.

Lemma walk_edges_t since : forall es s, kept st' s -> edges_in es -> keeps (walk_edges L es since) st' s.
Proof.
  induction es as [| [i | d] es IH]; intros s Hk Hes; cbn [walk_edges].
  - now apply wp_ret.
  - apply wp_bind, wp_get. destruct (changed_after (f_changed (d_in s i)) since).
    + now apply wp_ret.
    + apply IH; [exact Hk |]. intros d Hd. apply Hes. right; exact Hd.
  - eapply keeps_then; [exact (proj2 (HL s d Hk (Hes d (or_introl eq_refl))) since) |].
    intros c s1 Hk1. destruct c.
    + now apply wp_ret.
    + apply IH; [exact Hk1 |]. intros d' Hd'. apply Hes. right; exact Hd'.
Qed.

Lemma mark_verified_t q m s : kept st' s -> edges_in (m_edges m) -> keeps (mark_verified q m) st' s.
Proof.
  intros (HE & Hs) Hm. unfold mark_verified. apply wp_bind, wp_get. apply wp_bind, wp_emit.
  - intros s1 _ _ _ _ Hmm _ Hst _ _ _. unfold set_memo_at. apply wp_bind, wp_modify, wp_ret. split.
    + apply EI_store; [exact (EI_eq s s1 Hmm HE) | exact Hm].
    + cbn [d_stack set_seen set_memo]. now rewrite Hst.
  - intros _. apply (EI_eq s); [reflexivity | exact HE].
Qed.

Lemma verify_memo_t q m s : kept st' s -> edges_in (m_edges m) -> keeps (verify_memo L q m) st' s.
Proof.
  intros Hk Hm. unfold verify_memo. apply wp_bind, wp_get.
  assert (Hmark : forall s1, kept st' s1 -> keeps (m' <- mark_verified q m ;; ret (true, m')) st' s1).
  { intros s1 Hk1. eapply keeps_then; [exact (mark_verified_t q m s1 Hk1 Hm) |].
    intros m' s2 Hk2. now apply wp_ret. }
  destruct (shallow_verify s m); cbn [update_shallow].
  - apply wp_bind, wp_ret. now apply wp_ret.
  - exact (Hmark s Hk).
  - unfold deep_verify. destruct (m_untracked m); [now apply wp_ret |].
    eapply keeps_then; [exact (walk_edges_t (m_verified m) (m_edges m) s Hk Hm) |].
    intros c s1 Hk1. destruct c; [now apply wp_ret | exact (Hmark s1 Hk1)].
Qed.

Lemma execute_t q old s : In q ns -> kept st' s ->
  wp (execute prog noeq L q old) (fun m s' => kept st' s' /\ m_val m <> None) (fun _ s' => EI s') s.
Proof.
  intros Hq (HE & Hs). unfold execute. apply wp_bind, wp_emit.
  - intros s1 _ _ _ _ Hmm _ Hst _ _ _. eapply wp_then.
    + apply (run_body_t (prog q) frame0 s1).
      * split; [exact (EI_eq s s1 Hmm HE) | congruence].
      * intros d Hd. exact (Hclosed q d Hq Hd).
      * intros d Hd. destruct Hd.
    + intros [v fr] s2 ((HE2 & Hs2) & Hfr). cbn [snd] in Hfr. apply wp_bind, wp_get.
      match goal with |- wp (match ?bd with _ => _ end) _ _ _ => destruct bd as [ch | p |] eqn:Hbd end.
      * unfold set_memo_at. apply wp_bind, wp_modify, wp_ret. split; [split |].
        -- apply EI_store; [exact HE2 |]. cbn [m_edges].
           destruct ((fr_dur fr =? D_NEVER) && negb (fr_untracked fr)); [intros d [] | exact Hfr].
        -- exact Hs2.
        -- cbn [m_val]. discriminate.
      * apply wp_fail. exact HE2.
      * (* the backdating decision never runs out of fuel *)
        exfalso. destruct old as [o |]; [| discriminate]. destruct (m_val o); [| discriminate].
        destruct (can_backdate_dur (fr_dur fr) (m_dur o) && negb (noeq q)); [| discriminate].
        destruct (negb (d_pcell s2 EQ_FAULT =? 0)); [discriminate |].
        destruct (_ =? v); [| discriminate].
        destruct (changed_after (m_changed o) (fr_changed fr)); discriminate.
  - intros _. apply (EI_eq s); [reflexivity | exact HE].
Qed.

Lemma update_shallow_t q m u s : kept st' s -> edges_in (m_edges m) -> keeps (update_shallow q m u) st' s.
Proof.
  intros Hk Hm. destruct u; cbn [update_shallow];
    [now apply wp_ret | exact (mark_verified_t q m s Hk Hm) | now apply wp_ret].
Qed.

End Level.

Section Fetch.
Variable L : lower.
Variable n : nat.
Hypothesis HL : serves ns tserves L n.
Variable st : list qkey.
Variable q : qkey.
Hypothesis Hroom : room ns (S n) st.
Hypothesis Hq : In q ns.

Lemma claim_t s : kept st s ->
  wp (claim q) (fun _ s' => kept (q :: st) s' /\ ~ In q st) (fun _ s' => EI s') s.
Proof.
  intros (HE & Hs). unfold claim. apply wp_bind, wp_get.
  destruct (existsb (key_eqb q) (d_stack s)) eqn:Hex.
  - apply wp_fail. exact HE.
  - apply wp_modify. split; [split |].
    + apply (EI_eq s); [reflexivity | exact HE].
    + cbn [d_stack set_stack]. now rewrite Hs.
    + apply existsb_in. rewrite <- Hs. exact Hex.
Qed.

Lemma release_t s : kept (q :: st) s -> keeps (release q) st s.
Proof.
  intros (HE & Hs). unfold release. apply wp_modify. split; [apply (EI_eq s); [reflexivity | exact HE] |].
  cbn [d_stack set_stack]. now rewrite Hs.
Qed.

Lemma release_ret_t {A} (a : A) s : kept (q :: st) s -> keeps (release q ;;; ret a) st s.
Proof.
  intros Hk. eapply keeps_then; [exact (release_t s Hk) |]. intros ? s1 Hk1. now apply wp_ret.
Qed.

Section Claimed.
Hypothesis Hnq : ~ In q st.

Lemma HL' : tserves L (q :: st).
Proof. exact (HL (q :: st) (room_push ns n q st Hroom Hq Hnq)). Qed.

Lemma exec_release_t old s : kept (q :: st) s ->
  keeps (m <- execute prog noeq L q old ;; release q ;;;
         match m_val m with Some v => ret (m, v) | None => nofuel end) st s.
Proof.
  intros Hk. eapply wp_then; [exact (execute_t L (q :: st) HL' q old s Hq Hk) |].
  intros m s1 (Hk1 & Hv). destruct (m_val m) as [v |]; [exact (release_ret_t (m, v) s1 Hk1) | congruence].
Qed.

Lemma fetch_claimed_t s : kept (q :: st) s -> keeps
  (s1 <- get ;;
   ok <- match d_memo s1 q with
         | Some m =>
             match m_val m with
             | Some v => r <- verify_memo L q m ;; ret (if fst r then Some (snd r, v) else None)
             | None => ret None
             end
         | None => ret None
         end ;;
   match ok with
   | Some mv => release q ;;; ret mv
   | None =>
       m <- execute prog noeq L q (d_memo s1 q) ;; release q ;;;
       match m_val m with Some v => ret (m, v) | None => nofuel end
   end) st s.
Proof.
  intros Hk. apply wp_bind, wp_get. apply wp_bind.
  destruct (d_memo s q) as [m |] eqn:Hm; [destruct (m_val m) as [v |] eqn:Hv |].
  - eapply wp_then; [exact (verify_memo_t L (q :: st) HL' q m s Hk (proj1 Hk q m Hq Hm)) |].
    intros r s2 Hk2. apply wp_ret. destruct (fst r).
    + now apply release_ret_t.
    + now apply exec_release_t.
  - apply wp_ret. now apply exec_release_t.
  - apply wp_ret. now apply exec_release_t.
Qed.

Lemma mca_claimed_t since s : kept (q :: st) s -> keeps
  (s1 <- get ;;
   match d_memo s1 q with
   | None => release q ;;; ret true
   | Some old =>
       r <- verify_memo L q old ;;
       if fst r then release q ;;; ret (changed_after (m_changed (snd r)) since)
       else
         match m_val old with
         | None => release q ;;; ret true
         | Some _ =>
             mnew <- execute prog noeq L q (Some old) ;; release q ;;;
             ret (changed_after (m_changed mnew) since)
         end
   end) st s.
Proof.
  intros Hk. apply wp_bind, wp_get.
  destruct (d_memo s q) as [m |] eqn:Hm; [| now apply release_ret_t].
  eapply keeps_then; [exact (verify_memo_t L (q :: st) HL' q m s Hk (proj1 Hk q m Hq Hm)) |].
  intros r s2 Hk2. destruct (fst r); [now apply release_ret_t |].
  destruct (m_val m); [| now apply release_ret_t].
  eapply wp_then; [exact (execute_t L (q :: st) HL' q (Some m) s2 Hq Hk2) |].
  intros mnew s3 (Hk3 & _). now apply release_ret_t.
Qed.

End Claimed.

Lemma fetch_cold_t s : kept st s -> keeps (fetch_cold prog noeq L q) st s.
Proof.
  intros Hk. unfold fetch_cold. eapply wp_then; [exact (claim_t s Hk) |].
  intros ? s1 (Hk1 & Hnq). exact (fetch_claimed_t Hnq s1 Hk1).
Qed.

Lemma mca_cold_t since s : kept st s -> keeps (mca_cold prog noeq L q since) st s.
Proof.
  intros Hk. unfold mca_cold. eapply wp_then; [exact (claim_t s Hk) |].
  intros ? s1 (Hk1 & Hnq). exact (mca_claimed_t Hnq since s1 Hk1).
Qed.

Lemma fetch_t s : kept st s -> keeps (fetch prog noeq L q) st s.
Proof.
  intros Hk. unfold fetch.
  assert (Hlru : forall s1 (r : memo * val), kept st s1 ->
     keeps (modify (fun s => set_lru s (updN (d_lru s) (fst q) (lru_record_use (d_lru s (fst q)) (snd q)))) ;;;
            ret (memo_qres (fst r) (snd r))) st s1).
  { intros s1 r Hk1. apply wp_bind, wp_modify, wp_ret. apply (kept_eq st s1); [reflexivity | reflexivity | exact Hk1]. }
  assert (Hcold : keeps (r <- fetch_cold prog noeq L q ;;
         modify (fun s => set_lru s (updN (d_lru s) (fst q) (lru_record_use (d_lru s (fst q)) (snd q)))) ;;;
         ret (memo_qres (fst r) (snd r))) st s).
  { eapply keeps_then; [exact (fetch_cold_t s Hk) |]. intros r s1 Hk1. exact (Hlru s1 r Hk1). }
  apply wp_bind. unfold fetch_hot. apply wp_bind, wp_get.
  destruct (d_memo s q) as [m |] eqn:Hm; [destruct (m_val m) as [v |] eqn:Hv |]; [| apply wp_ret; exact Hcold ..].
  assert (Hhot : forall u, u <> ShNo ->
     wp (m' <- update_shallow q m u ;; ret (Some (m', v)))
        (fun hot s' => keeps (r <- match hot with Some mv => ret mv | None => fetch_cold prog noeq L q end ;;
                              modify (fun s => set_lru s (updN (d_lru s) (fst q) (lru_record_use (d_lru s (fst q)) (snd q)))) ;;;
                              ret (memo_qres (fst r) (snd r))) st s')
        (fun _ s' => EI s') s).
  { intros u _. eapply wp_then; [exact (update_shallow_t st q m u s Hk (proj1 Hk q m Hq Hm)) |].
    intros m' s1 Hk1. apply wp_ret. apply wp_bind, wp_ret. exact (Hlru s1 (m', v) Hk1). }
  destruct (shallow_verify s m); [apply Hhot; discriminate | apply Hhot; discriminate | apply wp_ret; exact Hcold].
Qed.

Lemma mca_t since s : kept st s -> keeps (mca prog noeq L q since) st s.
Proof.
  intros Hk. unfold mca. apply wp_bind, wp_get.
  destruct (d_memo s q) as [m |] eqn:Hm; [| now apply wp_ret].
  assert (Hhot : forall u, keeps (m' <- update_shallow q m u ;; ret (changed_after (m_changed m') since)) st s).
  { intros u. eapply keeps_then; [exact (update_shallow_t st q m u s Hk (proj1 Hk q m Hq Hm)) |].
    intros m' s1 Hk1. now apply wp_ret. }
  destruct (shallow_verify s m); [apply Hhot | apply Hhot | exact (mca_cold_t since s Hk)].
Qed.

End Fetch.

Theorem level_t : forall n, serves ns tserves (level prog noeq n) n.
Proof.
  apply level_serves. intros L n HL st Hroom s q Hk Hq. cbn [l_fetch l_mca].
  split; [exact (fetch_t L n HL st q Hroom Hq s Hk) | intros since; exact (mca_t L n HL st q Hroom Hq since s Hk)].
Qed.

End Term.
