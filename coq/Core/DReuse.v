(* Core/DReuse.v — reuse at the level of events (C03, C04): what a computation inside one Get
   does to the log and to the memo table, as a relation [RX s s'] between the state before and
   after.  No lemma here has an invariant among its premises: these are facts about the
   algorithm.  The reason for an execution, [J], is the one of Core/LevelOps.v. *)
From Salsa Require Import Base.
From Salsa.Kern Require Import CoreK CoreKFacts.
From Salsa.Core Require Import Model Spec SpecProofs Wp Inv InvFrame InvSem DurSem DInv DInvSem DInvOps.

Section Reuse.
Variable noeq : qkey -> bool.

(* d has no memoized value (never computed, or its value was evicted) *)
Definition noval (s : db) (d : qkey) : Prop := forall md, d_memo s d = Some md -> m_val md = None.

(* why an execution of d replaced its memo m by m' with a different changed_at (no backdating) *)
Definition reasons (d : qkey) (m m' : memo) : Prop :=
  noeq d = true \/ m_val m = None \/ m_dur m' < m_dur m \/
  exists ov v', m_val m = Some ov /\ m_val m' = Some v' /\ ov <> v'.

Record RX (s s' : db) : Prop := {
  rx_cur : cur s' = cur s;
  rx_in : d_in s' = d_in s;
  (* a memo is left alone or replaced by one verified in the current revision *)
  rx_same : forall q, d_memo s' q = d_memo s q \/
                      exists m', d_memo s' q = Some m' /\ m_verified m' = cur s;
  (* values are not lost inside a revision *)
  rx_val : forall q m v, d_memo s q = Some m -> m_val m = Some v ->
           exists m' v', d_memo s' q = Some m' /\ m_val m' = Some v';
  rx_valid : forall q m, d_memo s q = Some m -> m_verified m = cur s -> m_val m <> None ->
             d_memo s' q = Some m;
  rx_mono : forall q m, d_memo s q = Some m ->
            exists m', d_memo s' q = Some m' /\ m_changed m <= m_changed m';
  rx_log : exists new, d_log s' = new ++ d_log s /\
     (* every execution is justified *)
     (forall q, In (EvExec q) new -> J s s' q) /\
     (* a changed_at stamp moves only by an execution that could not backdate *)
     (forall d m m', d_memo s d = Some m -> d_memo s' d = Some m' -> m_changed m <> m_changed m' ->
        In (EvExec d) new /\ reasons d m m' /\ m_verified m' = cur s /\ m_val m' <> None)
}.

Lemma noval_back s s' d : RX s s' -> noval s' d -> noval s d.
Proof.
  intros HR Hn md Hmd. destruct (m_val md) as [v|] eqn:Hv; [|reflexivity].
  destruct (rx_val _ _ HR d md v Hmd Hv) as (m' & v' & Hm' & Hv').
  rewrite (Hn m' Hm') in Hv'. discriminate.
Qed.

Lemma RX_refl s : RX s s.
Proof.
  constructor; auto.
  - intros q m v Hm Hv. exists m, v. split; assumption.
  - intros q m Hm. exists m. split; [exact Hm | lia].
  - exists []. split; [reflexivity|]. split; [intros q []|].
    intros d m m' Hm Hm' Hne. rewrite Hm in Hm'. injection Hm' as <-. contradiction.
Qed.

Lemma J_post s s1 s2 q :
  (forall d m, d_memo s1 d = Some m -> exists m', d_memo s2 d = Some m' /\ m_changed m <= m_changed m') ->
  J s s1 q -> J s s2 q.
Proof.
  intros Hmono [Hnv Hj]. split; [exact Hnv|].
  destruct Hj as [Hn | (m & Hm & Hx)]; [left; exact Hn | right].
  exists m. split; [exact Hm|].
  destruct Hx as [A | [A | [A | (d & Hd & [B | (md' & Hmd' & Hlt)])]]];
    [left; exact A | right; left; exact A | right; right; left; exact A | |].
  - right; right; right. exists d. split; [exact Hd | left; exact B].
  - right; right; right. exists d. split; [exact Hd | right].
    destruct (Hmono d md' Hmd') as (md'' & Hmd'' & Hle). exists md''. split; [exact Hmd'' | lia].
Qed.

Lemma RX_trans s1 s2 s3 : RX s1 s2 -> RX s2 s3 -> RX s1 s3.
Proof.
  intros R12 R23.
  pose proof (rx_cur _ _ R12) as Hc12. pose proof (rx_cur _ _ R23) as Hc23.
  destruct (rx_log _ _ R12) as (n12 & Hl12 & HJ12 & HX12).
  destruct (rx_log _ _ R23) as (n23 & Hl23 & HJ23 & HX23).
  constructor.
  - congruence.
  - rewrite (rx_in _ _ R23). apply (rx_in _ _ R12).
  - intros q. destruct (rx_same _ _ R23 q) as [A | (m' & A & B)].
    + rewrite A. apply (rx_same _ _ R12 q).
    + right. exists m'. split; [exact A | congruence].
  - intros q m v Hm Hv. destruct (rx_val _ _ R12 q m v Hm Hv) as (m' & v' & Hm' & Hv').
    apply (rx_val _ _ R23 q m' v' Hm' Hv').
  - intros q m Hm Hv Hx. apply (rx_valid _ _ R23); [apply (rx_valid _ _ R12); assumption | congruence | exact Hx].
  - intros q m Hm. destruct (rx_mono _ _ R12 q m Hm) as (m' & Hm' & Hle).
    destruct (rx_mono _ _ R23 q m' Hm') as (m'' & Hm'' & Hle').
    exists m''. split; [exact Hm'' | lia].
  - exists (n23 ++ n12). split; [rewrite Hl23, Hl12, app_assoc; reflexivity|]. split.
    + intros q Hq. apply in_app_iff in Hq. destruct Hq as [Hq | Hq].
      * (* executed in the second part *)
        destruct (HJ23 q Hq) as [Hnv2 Hj2].
        assert (Hnv1 : not_valid_with_value s1 q).
        { intros m0 Hm0 Hv0. destruct (m_val m0) as [v|] eqn:Hval; [|reflexivity].
          exfalso. assert (Hm2 : d_memo s2 q = Some m0).
          { apply (rx_valid _ _ R12); [exact Hm0 | exact Hv0 | rewrite Hval; discriminate]. }
          rewrite (Hnv2 m0 Hm2) in Hval; [discriminate | congruence]. }
        split; [exact Hnv1|].
        destruct (rx_same _ _ R12 q) as [Hsame | (m' & Hm' & Hv')].
        -- rewrite Hsame in Hj2. rewrite (rx_in _ _ R12) in Hj2.
           destruct Hj2 as [Hn | (m & Hm & Hx)]; [left; exact Hn | right].
           exists m. split; [exact Hm|].
           destruct Hx as [A | [A | [A | (d & Hd & [B | B])]]];
             [left; exact A | right; left; exact A | right; right; left; exact A | |].
           ++ right; right; right. exists d. split; [exact Hd | left].
              apply (noval_back s1 s2 d R12 B).
           ++ right; right; right. exists d. split; [exact Hd | right; exact B].
        -- assert (Hval2 : m_val m' = None) by (apply Hnv2; [exact Hm' | congruence]).
           destruct (d_memo s1 q) as [m1|] eqn:Hm1; [right | left; reflexivity].
           exists m1. split; [reflexivity|]. left.
           destruct (m_val m1) as [v|] eqn:Hv1; [|reflexivity].
           destruct (rx_val _ _ R12 q m1 v Hm1 Hv1) as (m2 & v2 & Hm2 & Hv2).
           rewrite Hm' in Hm2. injection Hm2 as <-. rewrite Hval2 in Hv2. discriminate.
      * (* executed in the first part *)
        apply (J_post s1 s2 s3 q); [intros d m Hm; apply (rx_mono _ _ R23 d m Hm) | apply HJ12; exact Hq].
    + intros d m1 m3 Hm1 Hm3 Hne.
      destruct (rx_mono _ _ R12 d m1 Hm1) as (m2 & Hm2 & _).
      destruct (N.eq_dec (m_changed m1) (m_changed m2)) as [Heq | Hne12].
      * assert (Hne23 : m_changed m2 <> m_changed m3) by congruence.
        destruct (HX23 d m2 m3 Hm2 Hm3 Hne23) as (Hin & Hre & Hv3 & Hx3).
        split; [apply in_app_iff; left; exact Hin|]. split; [|split; [congruence | exact Hx3]].
        destruct (rx_same _ _ R12 d) as [Hsame | (m' & Hm' & Hv')].
        -- rewrite Hsame, Hm1 in Hm2. injection Hm2 as <-. exact Hre.
        -- rewrite Hm' in Hm2. injection Hm2 as <-.
           destruct (HJ23 d Hin) as [Hnv2 _].
           assert (Hval2 : m_val m' = None) by (apply Hnv2; [exact Hm' | congruence]).
           right; left.
           destruct (m_val m1) as [v|] eqn:Hv1; [|reflexivity].
           destruct (rx_val _ _ R12 d m1 v Hm1 Hv1) as (m2' & v2 & Hm2' & Hv2).
           rewrite Hm' in Hm2'. injection Hm2' as <-. rewrite Hval2 in Hv2. discriminate.
      * destruct (HX12 d m1 m2 Hm1 Hm2 Hne12) as (Hin & Hre & Hv2 & Hx2).
        assert (Hm3' : d_memo s3 d = Some m2).
        { apply (rx_valid _ _ R23); [exact Hm2 | congruence | exact Hx2]. }
        rewrite Hm3 in Hm3'. injection Hm3' as ->.
        split; [apply in_app_iff; right; exact Hin|]. split; [exact Hre|]. split; assumption.
Qed.

(* nothing but the log moved, by one event *)
Lemma RX_event s s1 e :
  d_revs s1 = d_revs s -> d_in s1 = d_in s -> d_memo s1 = d_memo s -> d_log s1 = e :: d_log s ->
  (forall q, e = EvExec q -> J s s q) -> RX s s1.
Proof.
  intros Hr Hi Hm Hl He.
  constructor; rewrite ?Hm; auto.
  - unfold cur. rewrite Hr. reflexivity.
  - intros q m v Hq Hv. exists m, v. split; assumption.
  - intros q m Hq. exists m. split; [exact Hq | lia].
  - exists [e]. split; [exact Hl|]. split.
    + intros q [-> | []]. specialize (He q eq_refl).
      apply (J_post s s s1 q); [|exact He].
      intros d m Hd. exists m. rewrite Hm. split; [exact Hd | lia].
    + intros d m m' Hd Hd' Hne. rewrite Hd in Hd'. injection Hd' as <-. contradiction.
Qed.

(* nothing the relation talks about moved *)
Lemma RX_quiet s s1 :
  d_revs s1 = d_revs s -> d_in s1 = d_in s -> d_memo s1 = d_memo s -> d_log s1 = d_log s -> RX s s1.
Proof.
  intros Hr Hi Hm Hl.
  constructor; rewrite ?Hm; auto.
  - unfold cur. rewrite Hr. reflexivity.
  - intros q m v Hq Hv. exists m, v. split; assumption.
  - intros q m Hq. exists m. split; [exact Hq | lia].
  - exists []. split; [exact Hl|]. split; [intros q []|].
    intros d m m' Hd Hd' Hne. rewrite Hd in Hd'. injection Hd' as <-. contradiction.
Qed.

(* a memo is marked verified now *)
Lemma RX_mark s q m : d_memo s q = Some m -> RX s (store s q (reverify m (cur s))).
Proof.
  intros Hm. set (m' := reverify m (cur s)).
  assert (Hother : forall p, p <> q -> d_memo (store s q m') p = d_memo s p).
  { intros p Hp. apply memo_store_other. congruence. }
  assert (Hq : d_memo (store s q m') q = Some m') by (apply memo_store_same).
  constructor; auto.
  - intros p. destruct (key_eqb_spec p q) as [-> | Hne]; [right | left; apply Hother; exact Hne].
    exists m'. split; [exact Hq | reflexivity].
  - intros p mp v Hp Hv. destruct (key_eqb_spec p q) as [-> | Hne].
    + rewrite Hm in Hp. injection Hp as <-. exists m', v. split; [exact Hq | exact Hv].
    + exists mp, v. rewrite (Hother p Hne). split; assumption.
  - intros p mp Hp Hv Hx. destruct (key_eqb_spec p q) as [-> | Hne].
    + rewrite Hm in Hp. injection Hp as <-. rewrite Hq. unfold m'. rewrite <- Hv.
      rewrite reverify_same. reflexivity.
    + rewrite (Hother p Hne). exact Hp.
  - intros p mp Hp. destruct (key_eqb_spec p q) as [-> | Hne].
    + rewrite Hm in Hp. injection Hp as <-. exists m'. split; [exact Hq | cbn; lia].
    + exists mp. rewrite (Hother p Hne). split; [exact Hp | lia].
  - exists []. split; [reflexivity|]. split; [intros p []|].
    intros d md md' Hd Hd' Hne. exfalso. apply Hne.
    destruct (key_eqb_spec d q) as [-> | Hnq].
    + rewrite Hm in Hd. rewrite Hq in Hd'. injection Hd as <-. injection Hd' as <-. reflexivity.
    + rewrite (Hother d Hnq), Hd in Hd'. injection Hd' as <-. reflexivity.
Qed.

(* the end of an execution of q: the fresh memo m' is stored.  s is the state in which the
   execution was decided, s2 the state after the body has run. *)
Lemma RX_finish s s2 q m' :
  RX s s2 -> d_memo s2 q = d_memo s q -> not_valid_with_value s q ->
  (forall new, d_log s2 = new ++ d_log s -> In (EvExec q) new) ->
  m_verified m' = cur s -> m_val m' <> None ->
  (forall o, d_memo s q = Some o -> m_changed o <= m_changed m') ->
  (forall o, d_memo s q = Some o -> m_changed o <> m_changed m' -> reasons q o m') ->
  RX s (store s2 q m').
Proof.
  intros HR Hsame Hnv Hev Hv' Hx' Hmono Hre.
  assert (Hother : forall p, p <> q -> d_memo (store s2 q m') p = d_memo s2 p).
  { intros p Hp. apply memo_store_other. congruence. }
  assert (Hq : d_memo (store s2 q m') q = Some m') by (apply memo_store_same).
  destruct (rx_log _ _ HR) as (new & Hl & HJ & HX).
  constructor.
  - apply (rx_cur _ _ HR).
  - apply (rx_in _ _ HR).
  - intros p. destruct (key_eqb_spec p q) as [-> | Hne].
    + right. exists m'. split; assumption.
    + rewrite (Hother p Hne). apply (rx_same _ _ HR).
  - intros p mp v Hp Hv. destruct (key_eqb_spec p q) as [-> | Hne].
    + destruct (m_val m') as [v'|] eqn:Hvm; [|contradiction]. exists m', v'. split; assumption.
    + rewrite (Hother p Hne). apply (rx_val _ _ HR p mp v Hp Hv).
  - intros p mp Hp Hv Hx. destruct (key_eqb_spec p q) as [-> | Hne].
    + exfalso. apply Hx. apply Hnv; assumption.
    + rewrite (Hother p Hne). apply (rx_valid _ _ HR); assumption.
  - intros p mp Hp. destruct (key_eqb_spec p q) as [-> | Hne].
    + exists m'. split; [exact Hq | apply Hmono; exact Hp].
    + rewrite (Hother p Hne). apply (rx_mono _ _ HR); exact Hp.
  - exists new. split; [exact Hl|]. split.
    + intros p Hp. apply (J_post s s2 (store s2 q m') p); [|apply HJ; exact Hp].
      intros d md Hd. destruct (key_eqb_spec d q) as [-> | Hne].
      * exists m'. split; [exact Hq|]. apply Hmono. rewrite <- Hsame. exact Hd.
      * exists md. rewrite (Hother d Hne). split; [exact Hd | lia].
    + intros d md md' Hd Hd' Hne. destruct (key_eqb_spec d q) as [-> | Hnq].
      * rewrite Hq in Hd'. injection Hd' as <-.
        split; [apply Hev; exact Hl|]. split; [apply Hre; assumption|]. split; assumption.
      * rewrite (Hother d Hnq) in Hd'. apply (HX d md md' Hd Hd' Hne).
Qed.

End Reuse.
