(* Core/InvOps.v — the invariant [Inv] (inputs of LOW durability, ghost [seen] sets) provides
   the facts that Core/LevelOps.v asks for ([Inv_level_facts]); Core/InvTop.v instantiates
   [LevelOps.fetch_top] with them. *)
From Salsa Require Import Base.
From Salsa.Kern Require Import CoreK CoreKFacts.
From Salsa.Core Require Import Model Spec SpecProofs Wp Inv InvFrame InvSem LevelOps.

Section Ops.
Variable prog : qkey -> body.
Variable noeq : qkey -> bool.
Variable rank : qkey -> nat.
Hypothesis Hrank : calls_below prog rank.
Variable NF : nat.
Hypothesis Hbound : forall q, (rank q < NF)%nat.
Variable H : hist.
Notation E := (E prog NF H).
Notation tr := (tr prog NF H).
Notation envat := (envat prog NF H).
Notation memo_ok := (memo_ok prog NF H).
Notation Inv := (Inv prog NF H).
Notation quiet := (quiet prog NF).
Notation touch_below := (touch_below rank).
Notation stack_ok := (stack_ok rank).

Lemma ext_of_core_eq s s' :
  core_eq s s' -> d_pcell s' = d_pcell s -> (d_evfault s = None -> d_evfault s' = None) -> ext s s'.
Proof.
  intros (Hr & Hi & Hce & Hm & Hs) Hp Hev. constructor; auto.
  - intros q r. unfold seen. rewrite Hs. auto.
  - intros q m Hq _ _. rewrite Hm. exact Hq.
Qed.

Lemma touch_of_core_eq s s' k : core_eq s s' -> touch_below s s' k.
Proof.
  intros (_ & _ & _ & Hm & Hs) p _. split; [rewrite Hm; reflexivity|].
  intros r. unfold seen. rewrite Hs. auto.
Qed.

Lemma core_eq_refl s : core_eq s s.
Proof. repeat split. Qed.

Lemma core_eq_log s l : core_eq s (set_log s l).
Proof. repeat split. Qed.

Lemma touch_store s q m k : (rank q < k)%nat -> touch_below s (store s q m) k.
Proof.
  intros Hk p Hp. assert (Hne : q <> p) by (intros ->; lia).
  split.
  - apply memo_store_other; exact Hne.
  - intros r Hs. apply seen_store in Hs. destruct Hs as [[-> _] | Hs]; [contradiction | exact Hs].
Qed.

Lemma covers_ext s s' pre fr : ext s s' -> covers s pre fr -> covers s' pre fr.
Proof.
  intros He [Cin Cq Ccell Cei Ceq Cle Cdur Cuntr]. pose proof (ext_cur _ _ He) as Hc.
  constructor; rewrite ?Hc, ?(ext_in _ _ He); auto.
  (* cv_q: a callee's memo that is valid now and has a value stays in place *)
  intros d0 Hd0. destruct (Cq d0 Hd0) as (md & Hmd & Hv & Hx & Hrest).
  exists md. split; [apply (ext_valid _ _ He); assumption|]. split; [exact Hv|]. split; assumption.
Qed.

Lemma covers_add_read s pre fr x e dd cc :
  Inv s -> covers s pre fr -> tracked s x e dd cc ->
  covers s (pre ++ [x]) (add_read fr e dd cc).
Proof.
  intros HI [Cin Cq Ccell Cei Ceq Cle Cdur Cuntr] Htr.
  destruct (edges_add_read fr e dd cc) as (Hold & Hnew & Hback).
  assert (Hcc : cc <= cur s).
  { destruct Htr as [i | d0 md Hmd Hv Hx]; [apply (inv_in_le _ _ _ _ HI)|].
    pose proof (mo_order _ _ _ _ _ _ (inv_memo _ _ _ _ HI d0 md Hmd)). lia. }
  assert (Hdd : dd = 0 \/ dd = 3).
  { destruct Htr as [i | d0 md Hmd Hv Hx]; [left; apply (inv_low _ _ _ _ HI)|].
    destruct (mo_dur _ _ _ _ _ _ (inv_memo _ _ _ _ HI d0 md Hmd)) as [A | (A & _)]; auto. }
  unfold add_read, dur_min, rev_max in *. cbn [fr_edges] in Hold, Hnew, Hback.
  constructor; cbn [fr_dur fr_changed fr_edges fr_untracked].
  - (* cv_in *) intros j Hj. apply in_app_iff in Hj. destruct Hj as [Hj | [Hj | []]].
    + destruct (Cin j Hj) as (A & B & C). split; [apply Hold; exact A|]. split; lia.
    + destruct Htr as [i | d0 md Hmd Hv Hx]; [|discriminate]. injection Hj as <-.
      pose proof (inv_low _ _ _ _ HI i) as Hlow.
      split; [apply Hnew; rewrite Hlow; discriminate|]. split; lia.
  - (* cv_q *) intros d0 Hd0. apply in_app_iff in Hd0. destruct Hd0 as [Hd0 | [Hd0 | []]].
    + destruct (Cq d0 Hd0) as (md0 & A & B & C & D & E0 & F).
      exists md0. conj; auto; try lia.
      destruct F as [F | F]; [left; apply Hold; exact F | right; exact F].
    + destruct Htr as [i | d1 md Hmd Hv Hx]; [discriminate|]. injection Hd0 as <-.
      exists md. conj; auto; try lia.
      destruct (N.eq_dec (m_dur md) D_NEVER) as [H3 | Hn3];
        [right; exact H3 | left; apply Hnew; exact Hn3].
  - (* cv_cell *) intros y Hy Hk. apply in_app_iff in Hy. destruct Hy as [Hy | [Hy | []]].
    + destruct (Ccell y Hy Hk) as (A & B & C). conj; auto; lia.
    + subst y. destruct Htr; destruct Hk as [Hk | (c0 & Hk)]; discriminate.
  - (* cv_edges_in *) intros j Hj. apply in_app_iff. destruct (Hback _ Hj) as [A | A].
    + left. apply Cei; exact A.
    + right; left. destruct Htr; [congruence | discriminate].
  - (* cv_edges_q *) intros d0 Hd0. apply in_app_iff. destruct (Hback _ Hd0) as [A | A].
    + left. apply Ceq; exact A.
    + right; left. destruct Htr; [discriminate | congruence].
  - (* cv_le *) lia.
  - (* cv_dur *) destruct Cdur as [g | g], Hdd as [Hd | Hd]; rewrite g, Hd; cbn; auto.
  - (* cv_untr *) intros Hu. rewrite (Cuntr Hu). lia.
Qed.

Lemma covers_add_in s pre fr i :
  Inv s -> covers s pre fr ->
  covers s (pre ++ [RIn i])
         (add_read fr (EIn i) (f_dur (d_in s i)) (f_changed (d_in s i))).
Proof. intros HI Hcv. apply (covers_add_read s pre fr _ _ _ _ HI Hcv). apply tracked_in. Qed.

Lemma covers_add_q s pre fr d md :
  Inv s -> covers s pre fr ->
  d_memo s d = Some md -> m_verified md = cur s -> m_val md <> None ->
  covers s (pre ++ [RQ d]) (add_read fr (EQ d) (m_dur md) (m_changed md)).
Proof.
  intros HI Hcv Hmd Hv Hx. apply (covers_add_read s pre fr _ _ _ _ HI Hcv).
  apply tracked_q; assumption.
Qed.

Lemma covers_add_untracked s pre fr x :
  Inv s -> covers s pre fr -> (x = RTouch \/ exists c, x = RCell c) ->
  covers s (pre ++ [x]) (add_untracked fr (cur s)).
Proof.
  intros HI [Cin Cq Ccell Cei Ceq Cle Cdur Cuntr] Hx.
  unfold add_untracked, D_LOW.
  constructor; cbn [fr_dur fr_changed fr_edges fr_untracked].
  - (* cv_in *) intros j Hj. apply in_app_iff in Hj. destruct Hj as [Hj | [Hj | []]].
    + destruct (Cin j Hj) as (A & B & C). conj; auto. apply (inv_in_le _ _ _ _ HI).
    + subst x. destruct Hx as [Hx | (c0 & Hx)]; discriminate.
  - (* cv_q *) intros d0 Hd0. apply in_app_iff in Hd0. destruct Hd0 as [Hd0 | [Hd0 | []]].
    + destruct (Cq d0 Hd0) as (md0 & A & B & C & D & E0 & F).
      pose proof (mo_order _ _ _ _ _ _ (inv_memo _ _ _ _ HI d0 md0 A)).
      exists md0. conj; auto; try lia.
    + subst x. destruct Hx as [Hx | (c0 & Hx)]; discriminate.
  - (* cv_cell *) intros y Hy Hk. conj; reflexivity.
  - (* cv_edges_in *) intros j Hj. apply in_app_iff. left. apply Cei; exact Hj.
  - (* cv_edges_q *) intros d0 Hd0. apply in_app_iff. left. apply Ceq; exact Hd0.
  - (* cv_le *) lia.
  - (* cv_dur *) left; reflexivity.
  - (* cv_untr *) intros _; reflexivity.
Qed.

(* before the walk, the recorded callee d was seen when the walker's memo m was verified; once
   d answered "unchanged", it has the value it had then and is seen now *)
Definition edge_pre (s : db) (q : qkey) (m : memo) (d : qkey) : Prop := seen s d (m_verified m).

Definition edge_done (s : db) (q : qkey) (m : memo) (d : qkey) : Prop :=
  E (m_verified m) d = E (cur s) d /\ seen s d (cur s).

Lemma Inv_level_facts :
  level_facts prog noeq rank NF H Inv ext touch_below (allowed) covers edge_pre edge_done
    (fun _ _ _ => True).
Proof.
  constructor.
  - (* lf_core *) apply (Inv_core_eq prog NF H).
  - (* lf_ext_core *) intros s s' Hce _. apply ext_of_core_eq. exact Hce.
  - (* lf_ext_validate *) intros s s' q Hce _. apply ext_of_core_eq. exact Hce.
  - (* lf_ext_exec *) intros s s' q _ Hce _. apply ext_of_core_eq. exact Hce.
  - (* lf_touch_core *) intros s s' k. apply touch_of_core_eq.
  - (* lf_ext_refl *) apply ext_refl.
  - (* lf_ext_trans *) apply ext_trans.
  - (* lf_ext_revs *) apply ext_revs.
  - (* lf_ext_in *) apply ext_in.
  - (* lf_ext_pcell *) apply ext_pcell.
  - (* lf_ext_evfault *) apply ext_evfault.
  - (* lf_touch_refl *) apply touch_below_refl.
  - (* lf_touch_trans *) apply touch_below_trans.
  - (* lf_touch_store *) apply touch_store.
  - (* lf_touch_memo *) intros s s' k p Ht Hp. apply (Ht p Hp).
  - (* lf_allowed_ext *) apply allowed_ext.
  - (* lf_injected *) intros s Hf. right. split; [reflexivity | exact Hf].
  - (* lf_in *) intros s i r HI. apply (inv_in _ _ _ _ HI).
  - (* lf_in_le *) intros s i HI. apply (inv_in_le _ _ _ _ HI).
  - (* lf_cell *) intros s c HI. apply (inv_cell _ _ _ _ HI).
  - (* lf_val *) intros s q m x HI Hm. apply (mo_val _ _ _ _ _ _ (inv_memo _ _ _ _ HI q m Hm)).
  - (* lf_shortcut *) apply (shortcut_ok prog rank Hrank NF Hbound H).
  - (* lf_edges *) intros s q m d HI Hm Hd.
    destruct (mo_edges_q _ _ _ _ _ _ (inv_memo _ _ _ _ HI q m Hm) d Hd) as [Hin Hs].
    split; [apply (tr_calls prog rank Hrank NF H _ _ _ Hin) | exact Hs].
  - (* lf_pre_ext *) intros s s' q m d He. apply (ext_seen _ _ He).
  - (* lf_done_ext *) intros s s' q m d He [HE Hs]. split; [rewrite (ext_cur _ _ He); exact HE|].
    rewrite (ext_cur _ _ He). apply (ext_seen _ _ He). exact Hs.
  - (* lf_unchanged *) intros s q m d md HI Hm Hpre Hmd Hvd Hcd.
    pose proof (inv_memo _ _ _ _ HI d md Hmd) as Hok. unfold edge_done. rewrite <- Hvd. split.
    + apply (mo_changed _ _ _ _ _ _ Hok); assumption.
    + apply (mo_seen _ _ _ _ _ _ Hok).
  - (* lf_deep *) apply (deep_ok prog rank Hrank NF Hbound H).
  - (* lf_cov0 *) intros s HI. apply covers_frame0. apply (inv_cur _ _ _ _ HI).
  - (* lf_cov_ext *) apply covers_ext.
  - (* lf_cov_in *) apply covers_add_in.
  - (* lf_cov_q *) apply covers_add_q.
  - (* lf_cov_untracked *) apply covers_add_untracked.
  - (* lf_fresh *) intros s0 s1 s q fr v ch old Hnv0 Hold0 He01 _ He1 HI Hcv Hv Hold Hch.
    destruct (fresh_memo_ok prog rank Hrank NF Hbound H s q fr v ch old HI Hcv Hv Hold) as [HI3 He3].
    + intros m0 A B. apply (Hnv0 m0); [congruence|].
      rewrite B, (ext_cur _ _ He1), (ext_cur _ _ He01). reflexivity.
    + destruct Hch as [[Hch _] | (o & ov & A & B & C & D & _)]; [left; exact Hch | right].
      exists o, ov. repeat split; assumption.
    + split; [exact HI3|]. split; [|exact I].
      apply (ext_trans s0 s1); [exact He01|]. apply (ext_trans s1 s); assumption.
  - (* lf_backdate *) intros s0 s q fr o _ _ _ _. left. reflexivity.
Qed.

End Ops.
