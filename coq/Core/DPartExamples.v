(* Core/DPartExamples.v — non-vacuity of the from-scratch theorem for possibly-cyclic programs
   (Core/DPartTop.v): the program of Core/DCycleExamples.v (cyclic while an input bit is set) and
   its whole history — cycle panics, a write that clears the bit, Gets of the formerly cyclic
   nodes, a write that sets it again — satisfy the hypotheses, hence the conclusion. *)
From Coq Require Import Lia.
From Salsa Require Import Base.
From Salsa.Kern Require Import CoreK.
From Salsa.Core Require Import Model Spec InvTop DInvTop DCycleExamples DPartOps DPartTop.

Lemma cy_idur_le : forall i, cy_idur i <= 3.
Proof. intros i. unfold cy_idur, D_LOW. lia. Qed.

Lemma cy_dur_ops : Forall dur_op cy_ops.
Proof. repeat constructor. Qed.

Lemma cy_wf : wf_ops false cy_ops.
Proof. cbn. repeat split. Qed.

(* by the theorem, for every sufficient fuel *)
Example cy_part : forall fuel, (3 <= fuel)%nat ->
  outs_part cy_prog cy_noeq [] 3 fuel cy_init cy_ops.
Proof.
  intros fuel Hf.
  exact (from_scratch_part_init cy_prog cy_noeq [] cy_ns cy_closed 3 (le_n 3) fuel Hf
           cy_iv cy_idur cy_lru cy_ops cy_idur_le cy_dur_ops cy_listed cy_wf).
Qed.

(* what it says about the Get after the write that cleared the bit: no fault switch is on and the
   from-scratch evaluation at that snapshot is acyclic with value 8, so the Get returns 8 *)
Example cy_part_after_write :
  let s := fst (run_ops cy_prog cy_noeq [] 3 cy_init (firstn 4 cy_ops)) in
  get_ok_part cy_prog 3 s cy_b (Ok 8) /\ ~ get_ok_part cy_prog 3 s cy_b (Panic PCycle) /\
  evalo cy_prog 3 (snap_of s) cy_b = Some 8.
Proof.
  vm_compute. split; [right; reflexivity |]. split; [| reflexivity].
  intros [[A _] | A]; discriminate.
Qed.
