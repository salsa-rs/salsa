(* Core/DCycleTop.v — Gets on a fresh revision state of the Core model, programs that may be
   cyclic (depending on the inputs), no cycle recovery.  Every Get answers exactly what the
   from-scratch evaluation says: its value when that evaluation is acyclic, the cycle panic when it
   re-enters a node; never out of fuel, never another panic; and the state after either outcome
   is again a fresh-revision state (memo table holds only from-scratch values, no claim is left). *)
From Coq Require Import PeanoNat Lia.
From Salsa Require Import Base.
From Salsa.Kern Require Import CoreK.
From Salsa.Core Require Import Model Spec Wp DCycleSem DCycleInv.

Section Top.
Variable prog : qkey -> body.
Variable noeq : qkey -> bool.
Variable fams : list N.
Variable sn : snapshot.
Variable ns : list qkey.
Hypothesis Hclosed : closed_calls prog ns.

(* the state between two Gets *)
Definition fresh_state (s : db) : Prop := FI prog sn s /\ d_stack s = [].

(* what a Get of q must answer *)
Definition get_answer (q : qkey) (o : out) : Prop :=
  match evalo prog (length ns) sn q with
  | Some v => o = Ok v
  | None => o = Panic PCycle
  end.

Lemma step_get fuel s q : (length ns <= fuel)%nat -> In q ns -> fresh_state s ->
  fresh_state (fst (step prog noeq fams fuel s (OGet q))) /\
  get_answer q (snd (step prog noeq fams fuel s (OGet q))).
Proof.
  intros Hfuel Hq (HF & Hs).
  pose proof (level_spec prog noeq sn ns Hclosed (S fuel) [] (room_nil ns fuel Hfuel) s q HF Hs Hq) as H.
  cbn [level l_fetch] in H.
  unfold wp in H. cbn [step].
  destruct (fetch prog noeq (level prog noeq fuel) q s) as [s' [[[v du] ch] | p |]]; cbn [fst snd].
  - destruct H as (HF' & Hs' & Hv). cbn [fst] in Hv. split; [exact (conj HF' Hs') |].
    unfold get_answer. now rewrite (evalo_bound prog sn ns Hclosed q v Hq Hv).
  - destruct H as (HF' & -> & Hb). split.
    + split; [| reflexivity]. apply (FI_eq prog sn s'); auto.
    + unfold get_answer. now rewrite (qblk_nil prog sn q Hb (length ns)).
  - destruct H.
Qed.

Theorem gets_fresh fuel : (length ns <= fuel)%nat -> forall qs s, incl qs ns -> fresh_state s ->
  fresh_state (fst (run_ops prog noeq fams fuel s (map OGet qs))) /\
  Forall2 get_answer qs (snd (run_ops prog noeq fams fuel s (map OGet qs))).
Proof.
  intros Hfuel. induction qs as [| q qs IH]; intros s Hin Hfs; cbn [map run_ops].
  - split; [exact Hfs | constructor].
  - destruct (step_get fuel s q Hfuel (Hin q (or_introl eq_refl)) Hfs) as (H1 & H2).
    destruct (step prog noeq fams fuel s (OGet q)) as [s1 r]. cbn [fst snd] in H1, H2.
    specialize (IH s1 (fun x Hx => Hin x (or_intror Hx)) H1).
    destruct (run_ops prog noeq fams fuel s1 (map OGet qs)) as [s2 rs]. cbn [fst snd] in *.
    destruct IH as (I1 & I2). split; [exact I1 | constructor; assumption].
Qed.

End Top.

Lemma init_fresh prog iv idur lru0 :
  fresh_state prog (snap_of (init iv idur lru0)) (init iv idur lru0).
Proof.
  split; [| reflexivity]. unfold FI. cbn [init d_in d_cell d_pcell d_evfault d_memo f_val snap_of sn_in sn_cell].
  split; [reflexivity |]. split; [reflexivity |]. split; [reflexivity |]. split; [reflexivity |].
  intros q m Hm. discriminate.
Qed.
