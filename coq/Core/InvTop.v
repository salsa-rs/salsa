(* Core/InvTop.v — the invariant across API operations: new revisions, writes, eviction,
   reads; and the from-scratch theorem for histories whose inputs all have LOW durability. *)
From Salsa Require Import Base.
From Salsa.Kern Require Import CoreK CoreKFacts.
From Salsa.Core Require Import Model Spec SpecProofs LruProofs Wp Inv InvFrame InvSem LevelOps InvOps.

Section Top.
Variable prog : qkey -> body.
Variable noeq : qkey -> bool.
Variable fams : list N.
Variable rank : qkey -> nat.
Hypothesis Hrank : calls_below prog rank.
Variable NF : nat.
Hypothesis Hbound : forall q, (rank q < NF)%nat.
Notation E := (E prog NF).
Notation tr := (tr prog NF).
Notation memo_ok := (memo_ok prog NF).
Notation Inv := (Inv prog NF).
Notation quiet := (quiet prog NF).

Definition extend (H : hist) (c : rev) (sn : snapshot) : hist :=
  fun r => if r =? c then sn else H r.

Lemma extend_same H c sn : extend H c sn c = sn.
Proof. unfold extend. rewrite N.eqb_refl. reflexivity. Qed.

Lemma extend_other H c sn r : r <> c -> extend H c sn r = H r.
Proof. unfold extend. intros Hne. apply N.eqb_neq in Hne. rewrite Hne. reflexivity. Qed.

Lemma E_hist_eq H H' r q : H' r = H r -> E H' r q = E H r q.
Proof. unfold E, Inv.E. intros ->. reflexivity. Qed.

Lemma tr_hist_eq H H' r q : H' r = H r -> tr H' r q = tr H r q.
Proof. unfold tr, Inv.tr, envat, Inv.E. intros ->. reflexivity. Qed.

Definition evicted_from (mm mm' : qkey -> option memo) : Prop :=
  forall q, mm' q = mm q \/ exists m, mm q = Some m /\ mm' q = Some (evict_memo m).

Lemma evicted_refl mm : evicted_from mm mm.
Proof. intros q; left; reflexivity. Qed.

Lemma evicted_trans a b c : evicted_from a b -> evicted_from b c -> evicted_from a c.
Proof.
  intros Hab Hbc q. destruct (Hab q) as [Hq | (m & Hm & Hq)], (Hbc q) as [Hq' | (m' & Hm' & Hq')].
  - left; congruence.
  - right. exists m'. split; congruence.
  - right. exists m. split; congruence.
  - right. exists m. split; [exact Hm|]. rewrite Hq', Hq in *. injection Hm' as <-.
    rewrite evict_memo_idem. reflexivity.
Qed.

Lemma evict_keys_evicted fam ks : forall mm, evicted_from mm (evict_keys fam ks mm).
Proof.
  unfold evict_keys. induction ks as [|k ks IH]; intros mm; cbn [fold_left].
  - apply evicted_refl.
  - eapply evicted_trans; [|apply IH].
    intros q. destruct (mm (fam, k)) as [m|] eqn:Hm; [|left; reflexivity].
    unfold upd. destruct (key_eqb_spec (fam, k) q) as [<- | Hne]; [|left; reflexivity].
    right. exists m. split; [exact Hm | reflexivity].
Qed.

(* what an eviction pass leaves alone *)
Record same_but_memos (s s' : db) : Prop := {
  sb_revs : d_revs s' = d_revs s;
  sb_in : d_in s' = d_in s;
  sb_cell : d_cell s' = d_cell s;
  sb_seen : d_seen s' = d_seen s;
  sb_memo : evicted_from (d_memo s) (d_memo s')
}.

Lemma sbm_refl s : same_but_memos s s.
Proof. constructor; auto using evicted_refl. Qed.

Lemma sbm_trans a b c : same_but_memos a b -> same_but_memos b c -> same_but_memos a c.
Proof.
  intros [a1 a2 a3 a4 a5] [b1 b2 b3 b4 b5]. constructor; try congruence.
  eapply evicted_trans; eassumption.
Qed.

Lemma evict_all_sbm : forall fs s, same_but_memos s (evict_all fs s).
Proof.
  unfold evict_all. induction fs as [|f fs IH]; intros s; cbn [fold_left].
  - apply sbm_refl.
  - eapply sbm_trans; [|apply IH].
    destruct (lru_evict (d_lru s f)) as [ev l'].
    constructor; try reflexivity. cbn. apply evict_keys_evicted.
Qed.

Lemma seen_eq s s' : d_seen s' = d_seen s -> forall p r, seen s' p r <-> seen s p r.
Proof. intros Hs p r. unfold seen. rewrite Hs. split; intros A; exact A. Qed.

Lemma memo_ok_evict H s q m : memo_ok H s q m -> memo_ok H s q (evict_memo m).
Proof.
  intros Hok. unfold evict_memo. destruct (m_untracked m) eqn:Hu; [exact Hok|].
  destruct Hok as [Hord Hval Hrin Hrq Hrcell Hedg Hchg Huntr Hdur Hseen0].
  (* a tracked memo loses its value and nothing else *)
  constructor; cbn; auto.
  - (* mo_val *) intros x Hx; discriminate.
  - (* mo_reads_cell *) rewrite Hu in Hrcell. exact Hrcell.
  - (* mo_untr *) discriminate.
  - (* mo_dur *) rewrite Hu in Hdur. exact Hdur.
Qed.

(* moving a memo_ok fact to a state with the same ghost pairs, a later (or equal) current
   revision and a history that agrees on the past *)
Lemma memo_ok_move H H' s s' q m :
  d_seen s' = d_seen s -> cur s <= cur s' ->
  H' (m_verified m) = H (m_verified m) ->
  (forall r, seen s q r -> H' r = H r) ->
  memo_ok H s q m -> memo_ok H' s' q m.
Proof.
  intros Hs Hc HHv HHs [Hord Hval Hrin Hrq Hrcell Hedg Hchg Huntr Hdur Hseen0].
  pose proof (seen_eq s s' Hs) as Hseen.
  (* the trace at [m_verified m] is the same under H'; what is left speaks of E or of [seen] *)
  constructor; rewrite ?(tr_hist_eq H H' _ q HHv); auto.
  - (* mo_order *) lia.
  - (* mo_val *) intros x Hx. rewrite (E_hist_eq H H' _ q HHv). apply Hval; exact Hx.
  - (* mo_edges_q *) intros d0 Hd0. destruct (Hedg d0 Hd0) as [A B]. split; [exact A | apply Hseen; exact B].
  - (* mo_changed *) intros r Hr Hle. apply Hseen in Hr.
    rewrite (E_hist_eq H H' _ q HHv), (E_hist_eq H H' r q (HHs r Hr)).
    apply Hchg; assumption.
  - (* mo_seen *) apply Hseen; exact Hseen0.
Qed.

(* [Inv_d]: the invariant, except that the external cells may have moved since the current
   revision started (they are re-read into the history at the next revision). *)
Definition Inv_d (H : hist) (s : db) : Prop := Inv H (set_cell s (sn_cell (H (cur s)))).

Lemma Inv_to_d H s : Inv H s -> Inv_d H s.
Proof.
  intros [Hcur1 Hin Hinle Hcell Hlow Hmemo Hsn]. unfold Inv_d.
  constructor; auto.
  (* inv_memo *)
  intros q m Hm.
  apply (memo_ok_move H H s (set_cell s (sn_cell (H (cur s)))) q m eq_refl (N.le_refl _) eq_refl
           (fun r _ => eq_refl) (Hmemo q m Hm)).
Qed.

(* One lemma for every API operation other than Get (LOW writes, cell writes, a new revision,
   eviction, the switches): the operation takes s, whose cells may be ahead of the history
   ([Inv_d]), under the ghost history H to s' under H'.  The seen sets stay, of the memo table
   only eviction is allowed, and H' keeps the past wherever something was verified or seen.
   The remaining premises are the clauses of [Inv] about inputs and cells ([inv_in],
   [inv_in_le], [inv_cell], [inv_low]) restated for s' under H': each operation checks them for its own s'. *)
Lemma Inv_transfer H H' s s' :
  Inv_d H s ->
  cur s <= cur s' -> 1 <= cur s' ->
  d_seen s' = d_seen s ->
  evicted_from (d_memo s) (d_memo s') ->
  (* the past is kept on everything verified or seen *)
  (forall r, (exists q, seen s q r) \/ (exists q m, d_memo s q = Some m /\ m_verified m = r) ->
             H' r = H r) ->
  (forall i r, f_changed (d_in s' i) <= r -> r <= cur s' -> sn_in (H' r) i = f_val (d_in s' i)) ->
  (forall i, f_changed (d_in s' i) <= cur s') ->
  (forall c, sn_cell (H' (cur s')) c = d_cell s' c) ->
  (forall i, f_dur (d_in s' i) = 0) ->
  Inv H' s'.
Proof.
  intros HI Hc H1 Hs Hev Hpast Hin Hinle Hcell Hlow.
  unfold Inv_d in HI. destruct HI as [Hcur1 Hin0 Hinle0 Hcell0 Hlow0 Hmemo Hsn].
  change (cur (set_cell s _)) with (cur s) in *.
  change (d_memo (set_cell s _)) with (d_memo s) in *.
  pose proof (seen_eq s s' Hs) as Hseen.
  assert (Hok : forall q m, d_memo s q = Some m -> memo_ok H' s' q m).
  { intros q m Hm.
    apply (memo_ok_move H H' (set_cell s (sn_cell (H (cur s)))) s' q m Hs Hc); [| |apply Hmemo; exact Hm].
    - apply Hpast. right. exists q, m. split; [exact Hm | reflexivity].
    - intros r Hr. apply Hpast. left. exists q. exact Hr. }
  constructor; auto.
  - (* inv_memo: a memo of s' is one of s, possibly evicted *)
    intros q m' Hm'. destruct (Hev q) as [Heq | (m & Hm & Heq)].
    + apply Hok. congruence.
    + rewrite Heq in Hm'. injection Hm' as <-. apply memo_ok_evict. apply Hok; exact Hm.
  - (* inv_seen *) intros q r Hr. apply Hseen in Hr.
    destruct (Hsn q r Hr) as (Hle & (m & Hm & Hrv) & Hcl).
    split; [lia|]. split.
    + destruct (Hev q) as [Heq | (m0 & Hm0 & Heq)].
      * exists m. split; [congruence | exact Hrv].
      * exists (evict_memo m0). split; [exact Heq|].
        assert (m0 = m) by congruence. subst m0.
        unfold evict_memo. destruct (m_untracked m); exact Hrv.
    + assert (HHr : H' r = H r) by (apply Hpast; left; exists q; exact Hr).
      intros d0 Hd0. rewrite (tr_hist_eq H H' r q HHr) in Hd0.
      destruct (Hcl d0 Hd0) as [A | B]; [left; apply Hseen; exact A | right; exact B].
Qed.

Definition snap_eq (a b : snapshot) : Prop :=
  (forall i, sn_in a i = sn_in b i) /\ (forall c, sn_cell a c = sn_cell b c).

Lemma eval_snap_eq a b : snap_eq a b -> forall n q, eval prog n a q = eval prog n b q.
Proof.
  intros [Hi Hc]. induction n as [|n IH]; intros q; [reflexivity|].
  cbn [eval].
  set (ea := {| e_in := sn_in a; e_cell := sn_cell a; e_q := eval prog n a |}).
  set (eb := {| e_in := sn_in b; e_cell := sn_cell b; e_q := eval prog n b |}).
  destruct (trace_determined (prog q) ea eb) as [_ Hr]; [|symmetry; exact Hr].
  intros x _. destruct x as [i | d | c |]; cbn; auto.
Qed.

Lemma Inv_snap H s : Inv H s -> snap_eq (H (cur s)) (snap_of s).
Proof.
  intros HI. split; cbn.
  - intros i. apply (inv_in _ _ _ _ HI); [apply (inv_in_le _ _ _ _ HI) | lia].
  - apply (inv_cell _ _ _ _ HI).
Qed.

Definition OK (s : db) : Prop := exists H, Inv H s.
Definition OK_d (s : db) : Prop := exists H, Inv_d H s.

Lemma OK_to_d s : OK s -> OK_d s.
Proof. intros [H HI]. exists H. apply Inv_to_d; exact HI. Qed.

Lemma Inv_d_facts H s : Inv_d H s ->
  1 <= cur s /\
  (forall q r, seen s q r -> r <= cur s) /\
  (forall q m, d_memo s q = Some m -> m_verified m <= cur s) /\
  (forall i r, f_changed (d_in s i) <= r -> r <= cur s -> sn_in (H r) i = f_val (d_in s i)) /\
  (forall i, f_changed (d_in s i) <= cur s) /\ (forall i, f_dur (d_in s i) = 0).
Proof.
  unfold Inv_d. intros [Hcur1 Hin Hinle Hcell Hlow Hmemo Hsn].
  split; [exact Hcur1|]. split; [intros q r Hr; apply (Hsn q r Hr)|]. split.
  - intros q m Hm. pose proof (mo_order _ _ _ _ _ _ (Hmemo q m Hm)) as (_ & _ & Hv). exact Hv.
  - auto.
Qed.

Lemma Inv_keep H s s' :
  Inv_d H s -> cur s' = cur s -> d_in s' = d_in s -> d_seen s' = d_seen s ->
  evicted_from (d_memo s) (d_memo s') -> (forall c, sn_cell (H (cur s)) c = d_cell s' c) ->
  Inv H s'.
Proof.
  intros HI Hc Hi Hs Hev Hcell.
  destruct (Inv_d_facts H s HI) as (F1 & F2 & F3 & F4 & F5 & F6).
  apply (Inv_transfer H H s s' HI); rewrite ?Hc, ?Hi;
    [lia | exact F1 | exact Hs | exact Hev | intros r _; reflexivity | exact F4 | exact F5
    | exact Hcell | exact F6].
Qed.

Lemma OK_d_same s s' :
  OK_d s -> cur s' = cur s -> d_in s' = d_in s -> d_seen s' = d_seen s ->
  evicted_from (d_memo s) (d_memo s') -> OK_d s'.
Proof.
  intros [H HI] Hc Hi Hs Hev. exists H.
  apply (Inv_keep H s (set_cell s' (sn_cell (H (cur s')))) HI Hc Hi Hs Hev).
  intros c. cbn. rewrite Hc. reflexivity.
Qed.

Lemma OK_same s s' :
  OK s -> cur s' = cur s -> d_in s' = d_in s -> d_cell s' = d_cell s ->
  d_seen s' = d_seen s -> evicted_from (d_memo s) (d_memo s') -> OK s'.
Proof.
  intros [H HI] Hc Hi Hce Hs Hev. exists H.
  apply (Inv_keep H s s' (Inv_to_d H s HI) Hc Hi Hs Hev).
  intros c. rewrite Hce. apply (inv_cell _ _ _ _ HI).
Qed.

(* a state in which nothing has been verified or seen at the current revision yet *)
Definition fresh (s : db) : Prop :=
  (forall q r, seen s q r -> r < cur s) /\
  (forall q m, d_memo s q = Some m -> m_verified m < cur s).

(* The history is extended by the snapshot of s' at its current revision: this serves as long
   as nothing was seen or verified at that revision before, and every input is as before or
   stamped with it. *)
Lemma Inv_extend H s s' :
  Inv_d H s -> cur s <= cur s' -> cur s' <= cur s + 1 -> d_seen s' = d_seen s ->
  evicted_from (d_memo s) (d_memo s') ->
  (forall q r, seen s q r -> r < cur s') ->
  (forall q m, d_memo s q = Some m -> m_verified m < cur s') ->
  (forall i, d_in s' i = d_in s i \/ f_changed (d_in s' i) = cur s') ->
  (forall i, f_dur (d_in s' i) = 0) ->
  Inv (extend H (cur s') (snap_of s')) s'.
Proof.
  intros HI Hc Hc' Hs Hev Hf1 Hf2 Hin Hlow.
  destruct (Inv_d_facts H s HI) as (F1 & F2 & F3 & F4 & F5 & F6).
  apply (Inv_transfer H _ s s' HI); [exact Hc | lia | exact Hs | exact Hev | | | | | exact Hlow].
  - intros r Hr. apply extend_other. destruct Hr as [(q & Hq) | (q & m & Hm & <-)].
    + specialize (Hf1 q r Hq). lia.
    + specialize (Hf2 q m Hm). lia.
  - intros i r Hle Hr. destruct (N.eq_dec r (cur s')) as [-> | Hne].
    + rewrite extend_same. reflexivity.
    + rewrite extend_other by exact Hne.
      destruct (Hin i) as [Heq | Hch]; [|lia].
      rewrite Heq in *. apply F4; lia.
  - intros i. destruct (Hin i) as [Heq | Hch]; [|lia]. rewrite Heq. specialize (F5 i). lia.
  - intros c. rewrite extend_same. reflexivity.
Qed.

(* starting a new revision, possibly rewriting inputs in it *)
Lemma OK_advance s s' :
  OK_d s -> cur s' = cur s + 1 -> d_seen s' = d_seen s ->
  evicted_from (d_memo s) (d_memo s') ->
  (forall i, d_in s' i = d_in s i \/ f_changed (d_in s' i) = cur s') ->
  (forall i, f_dur (d_in s' i) = 0) ->
  OK s' /\ fresh s'.
Proof.
  intros [H HI] Hc Hs Hev Hin Hlow.
  destruct (Inv_d_facts H s HI) as (F1 & F2 & F3 & _).
  assert (Hf1 : forall q r, seen s q r -> r < cur s') by (intros q r Hr; specialize (F2 q r Hr); lia).
  assert (Hf2 : forall q m, d_memo s q = Some m -> m_verified m < cur s')
    by (intros q m Hm; specialize (F3 q m Hm); lia).
  split.
  - exists (extend H (cur s') (snap_of s')).
    apply (Inv_extend H s s' HI); [lia | lia | exact Hs | exact Hev | exact Hf1 | exact Hf2 | exact Hin | exact Hlow].
  - split.
    + intros q r Hr. apply (seen_eq s s' Hs) in Hr. apply (Hf1 q r Hr).
    + intros q m Hm. destruct (Hev q) as [Heq | (m0 & Hm0 & Heq)].
      * rewrite Heq in Hm. apply (Hf2 q m Hm).
      * rewrite Heq in Hm. injection Hm as <-. specialize (Hf2 q m0 Hm0).
        unfold evict_memo. destruct (m_untracked m0); cbn; lia.
Qed.

(* rewriting inputs inside a fresh revision *)
Lemma OK_rewrite s s' :
  OK s -> fresh s -> cur s' = cur s -> d_seen s' = d_seen s -> d_memo s' = d_memo s ->
  (forall i, d_in s' i = d_in s i \/ f_changed (d_in s' i) = cur s') ->
  (forall i, f_dur (d_in s' i) = 0) ->
  OK s'.
Proof.
  intros [H HI] [Hf1 Hf2] Hc Hs Hm Hin Hlow.
  exists (extend H (cur s') (snap_of s')).
  apply (Inv_extend H s s' (Inv_to_d H s HI)); rewrite ?Hc;
    [lia | lia | exact Hs | rewrite Hm; apply evicted_refl | exact Hf1 | exact Hf2
    | rewrite <- Hc; exact Hin | exact Hlow].
Qed.

Lemma new_revision_facts s :
  cur (new_revision fams s) = cur s + 1 /\ d_seen (new_revision fams s) = d_seen s /\
  d_in (new_revision fams s) = d_in s /\ d_cell (new_revision fams s) = d_cell s /\
  d_stack (new_revision fams s) = d_stack s /\
  evicted_from (d_memo s) (d_memo (new_revision fams s)).
Proof.
  unfold new_revision.
  set (s1 := set_ccount _ 0).
  destruct (evict_all_sbm fams s1) as [Hrevs Hin Hcell Hseen Hmemo].
  assert (Hst : forall fs t, d_stack (evict_all fs t) = d_stack t).
  { unfold evict_all. induction fs as [|f fs IH]; intros t; cbn [fold_left]; [reflexivity|].
    rewrite IH. destruct (lru_evict (d_lru t f)); reflexivity. }
  unfold cur. rewrite Hrevs, Hin, Hcell, Hseen, Hst. cbn. conj; auto.
Qed.

Lemma OK_d_new_revision s : OK_d s -> OK (new_revision fams s) /\ fresh (new_revision fams s).
Proof.
  intros Hok. destruct (new_revision_facts s) as (A & B & C & D & _ & F).
  destruct Hok as [H HI]. destruct (Inv_d_facts H s HI) as (_ & _ & _ & _ & _ & F6).
  apply (OK_advance s); auto.
  - exists H; exact HI.
  - intros i. left. rewrite C. reflexivity.
  - intros i. rewrite C. apply F6.
Qed.

Lemma zalsa_mut_stack s : d_stack (zalsa_mut fams s) = d_stack s.
Proof.
  unfold zalsa_mut. destruct (d_ccount s =? 255); [|reflexivity].
  destruct (new_revision_facts s) as (_ & _ & _ & _ & E0 & _). exact E0.
Qed.

Lemma OK_d_zalsa_mut s : OK_d s -> OK_d (zalsa_mut fams s).
Proof.
  intros Hok. unfold zalsa_mut. destruct (d_ccount s =? 255).
  - apply OK_to_d. apply OK_d_new_revision; exact Hok.
  - apply (OK_d_same s); auto. apply evicted_refl.
Qed.

Lemma OK_zalsa_mut s : OK s -> OK (zalsa_mut fams s).
Proof.
  intros Hok. unfold zalsa_mut. destruct (d_ccount s =? 255).
  - apply OK_d_new_revision. apply OK_to_d; exact Hok.
  - apply (OK_same s); auto. apply evicted_refl.
Qed.

Lemma evict_all_facts s :
  cur (evict_all fams s) = cur s /\ d_seen (evict_all fams s) = d_seen s /\
  d_in (evict_all fams s) = d_in s /\ d_cell (evict_all fams s) = d_cell s /\
  evicted_from (d_memo s) (d_memo (evict_all fams s)).
Proof.
  destruct (evict_all_sbm fams s) as [Hrevs Hin Hcell Hseen Hmemo]. unfold cur. rewrite Hrevs. conj; auto.
Qed.

Lemma evict_all_stack : forall fs t, d_stack (evict_all fs t) = d_stack t.
Proof.
  unfold evict_all. induction fs as [|f fs IH]; intros t; cbn [fold_left]; [reflexivity|].
  rewrite IH. destruct (lru_evict (d_lru t f)); reflexivity.
Qed.

Definition low_op (o : op) : Prop :=
  match o with OSet _ _ (Some d) => d = 0 | _ => True end.

(* a cell change must be followed by a new revision before the next read *)
Fixpoint wf_ops (dirty : bool) (os : list op) : Prop :=
  match os with
  | [] => True
  | o :: os' =>
      match o with
      | OGet _ => dirty = false /\ wf_ops false os'
      | OSetCell _ _ => wf_ops true os'
      | OSet _ _ _ | OSynth _ => wf_ops false os'
      | _ => wf_ops dirty os'
      end
  end.

Definition dirty_after (dirty : bool) (o : op) : bool :=
  match o with
  | OSetCell _ _ => true
  | OSet _ _ _ | OSynth _ | OGet _ => false
  | _ => dirty
  end.

Lemma wf_ops_cons dirty o os :
  wf_ops dirty (o :: os) ->
  (forall q, o = OGet q -> dirty = false) /\ wf_ops (dirty_after dirty o) os.
Proof.
  destruct o; cbn [wf_ops dirty_after]; intros Hwf;
    try (split; [intros q0 Hq0; discriminate | exact Hwf]).
  destruct Hwf as [Hd Hwf]. split; [intros _ _; exact Hd | exact Hwf].
Qed.

Definition get_ok (s : db) (q : qkey) (r : out) : Prop :=
  r = Ok (eval prog NF (snap_of s) q) \/ exists p, r = Panic p /\ allowed s p.

Fixpoint outs_ok (fuel : nat) (s : db) (os : list op) : Prop :=
  match os with
  | [] => True
  | o :: os' =>
      (match o with OGet q => get_ok s q (snd (step prog noeq fams fuel s o)) | _ => True end) /\
      outs_ok fuel (fst (step prog noeq fams fuel s o)) os'
  end.

Definition state_ok (dirty : bool) (s : db) : Prop :=
  (if dirty then OK_d s else OK s) /\ d_stack s = [].

Lemma state_ok_weaken dirty s : state_ok false s -> state_ok dirty s.
Proof using noeq. destruct dirty; [|auto]. intros [A B]. split; [apply OK_to_d; exact A | exact B]. Qed.

Lemma state_ok_d dirty s : state_ok dirty s -> OK_d s.
Proof. destruct dirty; intros [A _]; [exact A | apply OK_to_d; exact A]. Qed.

(* One induction over a history of operations serves every property of its Gets: [S] is what
   holds of the states on the way, [P] what a Get from such a state satisfies, [T] the property
   of the whole history, built up from the back. *)
Lemma ops_ind fuel (okop : op -> Prop) (S : bool -> db -> Prop)
    (P : db -> qkey -> db -> out -> Prop) (T : db -> list op -> Prop) :
  (forall s, T s []) ->
  (forall s o os,
     match o with
     | OGet q => P s q (fst (step prog noeq fams fuel s o)) (snd (step prog noeq fams fuel s o))
     | _ => True
     end ->
     T (fst (step prog noeq fams fuel s o)) os -> T s (o :: os)) ->
  (forall s q, S false s ->
     P s q (fst (step prog noeq fams fuel s (OGet q))) (snd (step prog noeq fams fuel s (OGet q))) /\
     S false (fst (step prog noeq fams fuel s (OGet q)))) ->
  (forall dirty s o, okop o -> S dirty s ->
     match o with
     | OGet _ => True
     | _ => S (dirty_after dirty o) (fst (step prog noeq fams fuel s o))
     end) ->
  forall ops dirty s, Forall okop ops -> wf_ops dirty ops -> S dirty s -> T s ops.
Proof.
  intros Tnil Tcons Hget Hother.
  induction ops as [|o ops IH]; intros dirty s Hd Hwf Hok; [apply Tnil|].
  inversion Hd as [|? ? Hdo Hds]; subst.
  destruct (wf_ops_cons _ _ _ Hwf) as [Hg Hwf'].
  pose proof (Hother dirty s o Hdo Hok) as Ho.
  destruct o as [i v d | d | c v | c v | ef | q | fam n |];
    try (apply Tcons; [exact I | apply (IH _ _ Hds Hwf' Ho)]).
  rewrite (Hg q eq_refl) in Hok. destruct (Hget s q Hok) as [A B].
  apply Tcons; [exact A | apply (IH false); assumption].
Qed.

Lemma step_get_ok fuel s q :
  (forall p, (rank p < fuel)%nat) -> state_ok false s ->
  get_ok s q (snd (step prog noeq fams fuel s (OGet q))) /\
  state_ok false (fst (step prog noeq fams fuel s (OGet q))).
Proof.
  intros Hfuel [[H HI] Hst]. cbn [step].
  assert (Hso : stack_ok rank s q) by (intros p Hp; rewrite Hst in Hp; destruct Hp).
  assert (Hq : (rank q <= fuel)%nat) by (specialize (Hfuel q); lia).
  pose proof (fetch_top prog noeq rank Hrank NF Hbound H
                (Inv_level_facts prog noeq rank Hrank NF Hbound H) fuel q s Hq HI Hso) as Hwp.
  unfold wp in Hwp.
  destruct (fetch prog noeq (level prog noeq fuel) q s) as [s' [[[v d] c] | p |]] eqn:Hf.
  - cbn [fst snd].
    destruct Hwp as (HI' & He & _ & Hs' & Hv & _). cbn [fst snd] in Hv.
    split.
    + left. f_equal. rewrite Hv. unfold E, Inv.E.
      apply eval_snap_eq. apply Inv_snap; exact HI.
    + split; [exists H; exact HI' | congruence].
  - cbn [fst snd]. destruct Hwp as (Ha & HI' & _).
    split; [right; exists p; split; [reflexivity | exact Ha]|].
    split; [|reflexivity].
    exists H. apply (Inv_core_eq prog NF H s'); [repeat split | exact HI'].
  - destruct Hwp.
Qed.

Lemma state_ok_sbm dirty s s' :
  state_ok dirty s -> same_but_memos s s' -> d_stack s' = d_stack s -> state_ok dirty s'.
Proof.
  intros [A B] [Hrevs Hin Hcell Hseen Hmemo] Hst.
  assert (Hc : cur s' = cur s) by (unfold cur; rewrite Hrevs; reflexivity).
  split; [|congruence].
  destruct dirty; [apply (OK_d_same s) | apply (OK_same s)]; assumption.
Qed.

Lemma state_ok_zalsa_mut dirty s : state_ok dirty s -> state_ok dirty (zalsa_mut fams s).
Proof.
  intros [A B]. split; [|rewrite zalsa_mut_stack; exact B].
  destruct dirty; [apply OK_d_zalsa_mut | apply OK_zalsa_mut]; exact A.
Qed.

Lemma write_start dirty s :
  state_ok dirty s ->
  state_ok false (new_revision fams (zalsa_mut fams s)) /\ fresh (new_revision fams (zalsa_mut fams s)).
Proof.
  intros Hok. pose proof (state_ok_zalsa_mut dirty s Hok) as [Hz Hst].
  destruct (OK_d_new_revision (zalsa_mut fams s)) as [Hn Hfresh].
  { destruct dirty; [exact Hz | apply OK_to_d; exact Hz]. }
  split; [|exact Hfresh]. split; [exact Hn|].
  destruct (new_revision_facts (zalsa_mut fams s)) as (_ & _ & _ & _ & E0 & _).
  rewrite E0. exact Hst.
Qed.

Lemma step_other_ok fuel dirty s o :
  low_op o -> state_ok dirty s ->
  match o with
  | OGet _ => True
  | _ => state_ok (dirty_after dirty o) (fst (step prog noeq fams fuel s o))
  end.
Proof.
  intros Hlow Hok.
  destruct o as [i v d | d | c v | c v | ef | q | fam n |]; cbn [step fst dirty_after].
  - (* OSet *)
    destruct (write_start dirty s Hok) as [[Hn Hst1] Hfresh].
    set (s1 := new_revision fams (zalsa_mut fams s)) in *.
    destruct (f_dur (d_in s1 i) =? D_NEVER) eqn:Hnever; cbn [fst].
    + split; assumption.
    + split; [|exact Hst1].
      assert (Hlow1 : forall j, f_dur (d_in s1 j) = 0).
      { destruct Hn as [H1 HI1]. apply (inv_low _ _ _ _ HI1). }
      apply (OK_rewrite s1); auto.
      * cbn. unfold cur. cbn. destruct (f_dur (d_in s1 i) =? D_LOW); reflexivity.
      * intros j. cbn. unfold upd. destruct (key_eqb_spec i j) as [<- | Hne]; [right | left; reflexivity].
        cbn. unfold cur. cbn. destruct (f_dur (d_in s1 i) =? D_LOW); reflexivity.
      * intros j. cbn. unfold upd. destruct (key_eqb_spec i j) as [<- | Hne]; [|apply Hlow1].
        cbn. destruct d as [d'|]; [exact Hlow | apply Hlow1].
  - (* OSynth *)
    destruct (write_start dirty s Hok) as [[Hn Hst1] Hfresh].
    set (s1 := new_revision fams (zalsa_mut fams s)) in *.
    destruct (d =? D_NEVER); cbn [fst].
    + split; assumption.
    + split; [|exact Hst1]. apply (OK_same s1); auto. apply evicted_refl.
  - (* OSetCell *)
    pose proof (state_ok_d dirty s Hok) as Hd. destruct Hok as [_ Hst]. split; [|exact Hst].
    apply (OK_d_same s); auto. apply evicted_refl.
  - (* OSetPanic *)
    apply (state_ok_sbm dirty s); [exact Hok | constructor; try reflexivity; apply evicted_refl | reflexivity].
  - (* OSetEvFault *)
    apply (state_ok_sbm dirty s); [exact Hok | constructor; try reflexivity; apply evicted_refl | reflexivity].
  - exact I.
  - (* OSetLru *)
    apply (state_ok_sbm dirty (zalsa_mut fams s));
      [apply state_ok_zalsa_mut; exact Hok | constructor; try reflexivity; apply evicted_refl | reflexivity].
  - (* OEvict *)
    apply (state_ok_sbm dirty (zalsa_mut fams s));
      [apply state_ok_zalsa_mut; exact Hok | apply evict_all_sbm | apply evict_all_stack].
Qed.

Theorem from_scratch_low fuel :
  (forall p, (rank p < fuel)%nat) ->
  forall ops dirty s, Forall low_op ops -> wf_ops dirty ops -> state_ok dirty s ->
  outs_ok fuel s ops.
Proof.
  intros Hfuel.
  apply (ops_ind fuel low_op state_ok (fun s q _ r => get_ok s q r) (outs_ok fuel)).
  - intros s. exact I.
  - intros s o os A B. split; [destruct o; exact A | exact B].
  - intros s q. apply (step_get_ok fuel s q Hfuel).
  - intros dirty s o. apply step_other_ok.
Qed.

Lemma init_ok iv lru0 : state_ok false (init iv (fun _ => 0) lru0).
Proof.
  split; [|reflexivity].
  exists (fun _ => snap_of (init iv (fun _ => 0) lru0)).
  constructor.
  - cbn. unfold REV_START. lia.
  - intros i r _ _. reflexivity.
  - intros i. cbn. unfold REV_START. lia.
  - intros c. reflexivity.
  - intros i. reflexivity.
  - intros q m Hm. discriminate.
  - intros q r [].
Qed.

End Top.
