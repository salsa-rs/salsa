(* Core/DCycleSem.v — the from-scratch evaluation [evalo] on programs that may be cyclic.  The
   regress lemma: a query whose body cannot be evaluated while the query itself is open cannot be
   evaluated at all (its evaluation re-enters it).  The depth bound: fuel [length ns] decides. *)
From Coq Require Import PeanoNat Lia Wf_nat.
From Salsa Require Import Base.
From Salsa.Core Require Import Model Spec.

Lemma notin_existsb q (st : list qkey) : ~ In q st -> existsb (key_eqb q) st = false.
Proof.
  intros Hn. destruct (existsb (key_eqb q) st) eqn:He; [| reflexivity].
  apply existsb_exists in He. destruct He as (x & Hx & Hqx). apply key_eqb_eq in Hqx. subst x. contradiction.
Qed.

Lemma existsb_in q (st : list qkey) : existsb (key_eqb q) st = false -> ~ In q st.
Proof.
  intros He Hi. assert (H : existsb (key_eqb q) st = true).
  { apply existsb_exists. exists q. split; [exact Hi | apply key_eqb_refl]. }
  congruence.
Qed.

Section Sem.
Variable prog : qkey -> body.
Variable sn : snapshot.
Notation ro := (runo (sn_in sn) (sn_cell sn)).

(* Replacing the callees' answers by others that agree wherever the run asks, except that a
   call may instead establish P: the run has the same value, or P holds.  Monotonicity in the
   answers is the case where P is absurd. *)
Lemma runo_split_calls : forall b (eq eq' : qkey -> option val) v (P : Prop),
  (forall d w, calls b d -> eq d = Some w -> eq' d = Some w \/ P) ->
  ro eq b = Some v -> ro eq' b = Some v \/ P.
Proof.
  induction b as [v0 | i k IH | d k IH | c k IH | k IH | c k IH]; intros eq eq' v P He H; cbn in *.
  - now left.
  - apply (IH _ eq eq' v P); [| exact H]. intros d w Hc. apply He. econstructor; exact Hc.
  - destruct (eq d) as [w |] eqn:Ed; [| discriminate].
    destruct (He d w (calls_here d k) Ed) as [Hd | HP]; [| now right]. rewrite Hd.
    apply (IH _ eq eq' v P); [| exact H]. intros d' w' Hc. apply He. econstructor; exact Hc.
  - apply (IH _ eq eq' v P); [| exact H]. intros d w Hc. apply He. econstructor; exact Hc.
  - apply (IH eq eq' v P); [| exact H]. intros d w Hc. apply He. constructor; exact Hc.
  - apply (IH eq eq' v P); [| exact H]. intros d w Hc. apply He. constructor; exact Hc.
Qed.

Lemma runo_split b (eq eq' : qkey -> option val) v (P : Prop) :
  (forall d w, eq d = Some w -> eq' d = Some w \/ P) -> ro eq b = Some v -> ro eq' b = Some v \/ P.
Proof. intros He. apply runo_split_calls. intros d w _. apply He. Qed.

Lemma runo_mono b (eq eq' : qkey -> option val) v :
  (forall q w, eq q = Some w -> eq' q = Some w) -> ro eq b = Some v -> ro eq' b = Some v.
Proof.
  intros He H. destruct (runo_split b eq eq' v False) as [Hv | []]; [| exact H | exact Hv].
  intros d w Hd. left. exact (He d w Hd).
Qed.

Lemma evalo_step : forall n q v, evalo prog n sn q = Some v -> evalo prog (S n) sn q = Some v.
Proof.
  induction n as [| n IH]; intros q v H; [discriminate |].
  cbn [evalo] in *. apply (runo_mono _ (evalo prog n sn)); [| exact H]. intros d w Hd. now apply IH.
Qed.

Lemma evalo_mono : forall n m q v, (n <= m)%nat -> evalo prog n sn q = Some v -> evalo prog m sn q = Some v.
Proof.
  intros n m q v Hle H. induction Hle as [| m Hle IH]; [exact H | now apply evalo_step].
Qed.

Lemma evalo_det n m q v v' : evalo prog n sn q = Some v -> evalo prog m sn q = Some v' -> v = v'.
Proof.
  intros H1 H2. apply (evalo_mono n (max n m)) in H1; [| apply Nat.le_max_l].
  apply (evalo_mono m (max n m)) in H2; [| apply Nat.le_max_r]. congruence.
Qed.

(* ---------------------------------------------------------------- avoiding open calls *)
Fixpoint evaloa (n : nat) (st : list qkey) (q : qkey) : option val :=
  match n with
  | O => None
  | S n' => if existsb (key_eqb q) st then None else ro (evaloa n' st) (prog q)
  end.

Lemma evaloa_nil : forall n q, evaloa n [] q = evalo prog n sn q.
Proof.
  induction n as [| n IH]; intros q; [reflexivity |]. cbn.
  assert (He : forall b, ro (evaloa n []) b = ro (evalo prog n sn) b).
  { induction b as [v0 | i k IHb | d k IHb | c k IHb | k IHb | c k IHb]; cbn; auto.
    rewrite IH. destruct (evalo prog n sn d); auto. }
  apply He.
Qed.

Lemma evaloa_evalo : forall n st q v, evaloa n st q = Some v -> evalo prog n sn q = Some v.
Proof.
  induction n as [| n IH]; intros st q v H; [discriminate |]. cbn in *.
  destruct (existsb (key_eqb q) st); [discriminate |].
  apply (runo_mono _ (evaloa n st)); [| exact H]. intros d w Hd. now apply (IH st).
Qed.

Lemma evaloa_split q st : forall n e w, evaloa n st e = Some w ->
  evaloa n (q :: st) e = Some w \/ exists m u, (m <= n)%nat /\ evaloa m st q = Some u.
Proof.
  induction n as [| n IH]; intros e w H; [discriminate |]. cbn [evaloa] in H.
  destruct (existsb (key_eqb e) st) eqn:Est; [discriminate |].
  destruct (key_eqb_spec e q) as [-> | Hne].
  - right. exists (S n), w. split; [lia |]. cbn [evaloa]. now rewrite Est.
  - cbn [evaloa existsb]. apply key_eqb_neq in Hne. rewrite Hne, Est. cbn [orb].
    destruct (runo_split (prog e) (evaloa n st) (evaloa n (q :: st)) w
                (exists m u, (m <= n)%nat /\ evaloa m st q = Some u)) as [Hs | (m & u & Hm & Hu)].
    + intros d w' Hd. apply IH. exact Hd.
    + exact H.
    + now left.
    + right. exists m, u. split; [lia | exact Hu].
Qed.

(* the body of q cannot be evaluated while q is open: then q cannot be evaluated at all *)
Lemma regress q st : existsb (key_eqb q) st = false ->
  (forall n, ro (evaloa n (q :: st)) (prog q) = None) -> forall n, evaloa n st q = None.
Proof.
  intros Hq Hb.
  assert (Hall : forall n m, (m <= n)%nat -> evaloa m st q = None).
  { induction n as [| n IH]; intros m Hm.
    - assert (m = 0)%nat by lia. subst. reflexivity.
    - destruct (Nat.eq_dec m (S n)) as [-> | Hne]; [| apply IH; lia].
      cbn [evaloa]. rewrite Hq.
      destruct (ro (evaloa n st) (prog q)) as [v |] eqn:Hr; [| reflexivity]. exfalso.
      destruct (runo_split (prog q) (evaloa n st) (evaloa n (q :: st)) v
                  (exists m u, (m <= n)%nat /\ evaloa m st q = Some u)) as [Hs | (m & u & Hm' & Hu)].
      + intros d w Hd. now apply evaloa_split.
      + exact Hr.
      + rewrite Hb in Hs. discriminate.
      + rewrite (IH m Hm') in Hu. discriminate. }
  intros n. now apply (Hall n n).
Qed.

(* ---------------------------------------------------------------- bodies: value / blocked *)
Definition bval (b : body) (v : val) : Prop := exists n, ro (evalo prog n sn) b = Some v.
Definition qval (q : qkey) (v : val) : Prop := exists n, evalo prog n sn q = Some v.
Definition bblk (st : list qkey) (b : body) : Prop := forall n, ro (evaloa n st) b = None.
Definition qblk (st : list qkey) (q : qkey) : Prop := forall n, evaloa n st q = None.

Lemma qval_of_body q v : bval (prog q) v -> qval q v.
Proof. intros (n & H). exists (S n). exact H. Qed.

Lemma bval_call d k w v : qval d w -> bval (k w) v -> bval (CallQ d k) v.
Proof.
  intros (n1 & H1) (n2 & H2). exists (max n1 n2). cbn.
  rewrite (evalo_mono n1 (max n1 n2) d w (Nat.le_max_l _ _) H1).
  apply (runo_mono _ (evalo prog n2 sn)); [| exact H2].
  intros q' w' Hq'. apply (evalo_mono n2); [apply Nat.le_max_r | exact Hq'].
Qed.

Lemma bblk_call_blocked st d k : qblk st d -> bblk st (CallQ d k).
Proof. intros H n. cbn. now rewrite H. Qed.

Lemma bblk_call_value st d k w : qval d w -> bblk st (k w) -> bblk st (CallQ d k).
Proof.
  intros (n0 & H0) Hb n. cbn. destruct (evaloa n st d) as [w' |] eqn:Ed; [| reflexivity].
  apply evaloa_evalo in Ed. rewrite (evalo_det _ _ _ _ _ Ed H0). apply Hb.
Qed.

Lemma qblk_stacked st q : existsb (key_eqb q) st = true -> qblk st q.
Proof. intros H n. destruct n; [reflexivity |]. cbn. now rewrite H. Qed.

Lemma qblk_nil q : qblk [] q -> forall n, evalo prog n sn q = None.
Proof. intros H n. rewrite <- evaloa_nil. apply H. Qed.

Lemma qval_not_blocked q v : qval q v -> qblk [] q -> False.
Proof. intros (n & H) Hb. rewrite (qblk_nil q Hb n) in H. discriminate. Qed.

End Sem.

(* Over a call-closed list [ns] of keys, a key that has a value at all has it with fuel
   [length ns]; so [evalo prog (length ns) sn q = None] decides "the from-scratch evaluation of q
   re-enters a node".  (An acyclic call chain visits distinct keys.) *)
Section Bound.
Variable prog : qkey -> body.
Variable sn : snapshot.
Variable ns : list qkey.

Notation ro := (runo (sn_in sn) (sn_cell sn)).
Notation evaloa := (evaloa prog sn).

Hypothesis Hclosed : forall q d, In q ns -> calls (prog q) d -> In d ns.

Lemma evaloa_weaken q st : forall n e w, evaloa n (q :: st) e = Some w -> evaloa n st e = Some w.
Proof.
  induction n as [| n IH]; intros e w H; [discriminate |]. cbn [evaloa existsb] in *.
  destruct (key_eqb e q); [discriminate |]. cbn [orb] in H.
  destruct (existsb (key_eqb e) st); [discriminate |].
  apply (runo_mono sn _ (evaloa n (q :: st))); [| exact H]. intros d w' Hd. now apply IH.
Qed.

(* [evaloa n st q] evaluates with fuel n and refuses the keys on the stack st.  The measure is
   d, the number of listed keys not yet on the stack.  At d = 0 the duplicate-free stack holds
   all of ns, so a listed q that is not on it would make it longer than ns (pigeonhole,
   [NoDup_incl_length]): nothing has a value.  In the step q is pushed: a callee either has
   its value while avoiding q too (the measure drops), or it got it by coming back to q; then
   q already has a value with less fuel (inner induction on the fuel), and that value is the
   same one because the evaluation is deterministic ([evalo_det]). *)
Lemma evaloa_bound : forall d st, NoDup st -> incl st ns -> d = (length ns - length st)%nat ->
  forall n q v, In q ns -> evaloa n st q = Some v -> evaloa d st q = Some v.
Proof.
  induction d as [| d' IHd]; intros st Hnd Hin Hd n.
  - intros q v Hq H. exfalso. destruct n as [| n]; [discriminate |]. cbn [evaloa] in H.
    destruct (existsb (key_eqb q) st) eqn:Eq; [discriminate |].
    pose proof (existsb_in q st Eq) as Hnq.
    assert (Hle : (length (q :: st) <= length ns)%nat).
    { apply NoDup_incl_length; [constructor; assumption |].
      intros x [Hx | Hx]; [now subst x | now apply Hin]. }
    cbn [length] in Hle. lia.
  - induction n as [n IHn] using lt_wf_ind. intros q v Hq H.
    destruct n as [| n]; [discriminate |]. cbn [evaloa] in H.
    destruct (existsb (key_eqb q) st) eqn:Eq; [discriminate |].
    pose proof (existsb_in q st Eq) as Hnq.
    assert (Hnd' : NoDup (q :: st)) by (constructor; assumption).
    assert (Hin' : incl (q :: st) ns) by (intros x [Hx | Hx]; [now subst x | now apply Hin]).
    assert (Hd' : d' = (length ns - length (q :: st))%nat) by (cbn [length]; lia).
    destruct (runo_split_calls sn (prog q) (evaloa n st) (evaloa d' (q :: st)) v
                (exists m u, (m <= n)%nat /\ evaloa m st q = Some u)) as [Hs | (m & u & Hm & Hu)].
    + intros e w Hc He. destruct (evaloa_split prog sn q st n e w He) as [Hl | Hr].
      * left. apply (IHd (q :: st) Hnd' Hin' Hd' n e w); [| exact Hl]. now apply (Hclosed q).
      * right. exact Hr.
    + exact H.
    + cbn [evaloa]. rewrite Eq.
      apply (runo_mono sn _ (evaloa d' (q :: st))); [| exact Hs]. intros e w He. now apply evaloa_weaken in He.
    + assert (Hu' : evaloa (S d') st q = Some u) by (apply (IHn m); [lia | exact Hq | exact Hu]).
      assert (E1 : evalo prog (S n) sn q = Some v).
      { apply (evaloa_evalo prog sn (S n) st). cbn [evaloa]. now rewrite Eq. }
      pose proof (evaloa_evalo prog sn _ _ _ _ Hu) as E2.
      rewrite (evalo_det prog sn _ _ _ _ _ E1 E2). exact Hu'.
Qed.

Theorem evalo_bound q v : In q ns -> qval prog sn q v -> evalo prog (length ns) sn q = Some v.
Proof.
  intros Hq (n & H). rewrite <- evaloa_nil. rewrite <- evaloa_nil in H.
  apply (evaloa_bound (length ns) [] (NoDup_nil _) (incl_nil_l _)) with (n := n);
    [cbn [length]; lia | exact Hq | exact H].
Qed.

(* so [None] at that fuel is [None] at every fuel: the evaluation re-enters a node *)
Theorem evalo_cyclic_iff q : In q ns ->
  (evalo prog (length ns) sn q = None <-> forall n, evalo prog n sn q = None).
Proof.
  intros Hq. split; [| intros H; apply H].
  intros H n. destruct (evalo prog n sn q) as [v |] eqn:E; [| reflexivity].
  rewrite (evalo_bound q v Hq (ex_intro _ n E)) in H. discriminate.
Qed.

End Bound.
