(* Core/Wp.v — a small weakest-precondition calculus for the state+error monad. *)
From Salsa Require Import Base.
From Salsa.Core Require Import Model.

Ltac conj := repeat match goal with |- _ /\ _ => split end.

(* [wp m Q X s]: running m from s never runs out of fuel; a normal result satisfies Q,
   a panic satisfies X. *)
Definition wp {A} (m : M A) (Q : A -> db -> Prop) (X : panic -> db -> Prop) (s : db) : Prop :=
  match m s with
  | (s', Ok a) => Q a s'
  | (s', Panic p) => X p s'
  | (_, Fuel) => False
  end.

Lemma wp_ret {A} (a : A) (Q : A -> db -> Prop) (X : panic -> db -> Prop) s : Q a s -> wp (ret a) Q X s.
Proof. intros H; exact H. Qed.

Lemma wp_bind {A B} (m : M A) (f : A -> M B) (Q : B -> db -> Prop) (X : panic -> db -> Prop) s :
  wp m (fun a s' => wp (f a) Q X s') X s -> wp (bind m f) Q X s.
Proof.
  unfold wp, bind. destruct (m s) as [s' [a | p |]]; intros H; exact H.
Qed.

Lemma wp_get (Q : db -> db -> Prop) (X : panic -> db -> Prop) s : Q s s -> wp get Q X s.
Proof. intros H; exact H. Qed.

Lemma wp_modify f (Q : unit -> db -> Prop) (X : panic -> db -> Prop) s : Q tt (f s) -> wp (modify f) Q X s.
Proof. intros H; exact H. Qed.

Lemma wp_fail {A} p (Q : A -> db -> Prop) (X : panic -> db -> Prop) s : X p s -> wp (fail p) Q X s.
Proof. intros H; exact H. Qed.

(* [emit e] logs e and changes nothing else, except that an armed countdown steps down (a
   fault that is off stays off); or the countdown is at 0: it is disarmed and the callback
   panics.  The fields are listed one by one because the clients group them differently
   ([core_eq] in LevelOps.v, the equations themselves in DReuseOps.v). *)
Lemma wp_emit e (Q : unit -> db -> Prop) (X : panic -> db -> Prop) s :
  (forall s1, d_revs s1 = d_revs s -> d_in s1 = d_in s -> d_cell s1 = d_cell s ->
              d_pcell s1 = d_pcell s -> d_memo s1 = d_memo s -> d_seen s1 = d_seen s ->
              d_stack s1 = d_stack s -> d_lru s1 = d_lru s ->
              (d_evfault s = None -> d_evfault s1 = None) ->
              d_log s1 = e :: d_log s -> Q tt s1) ->
  (d_evfault s <> None -> X PInjected (set_evfault s None)) ->
  wp (emit e) Q X s.
Proof.
  intros HQ HX. unfold wp, emit.
  destruct (d_evfault s) as [[|n]|] eqn:He.
  - apply HX. discriminate.
  - apply HQ; try reflexivity. discriminate.
  - apply HQ; try reflexivity. intros _. cbn. exact He.
Qed.

Lemma wp_conseq {A} (m : M A) (Q Q' : A -> db -> Prop) (X X' : panic -> db -> Prop) s :
  wp m Q X s -> (forall a s', Q a s' -> Q' a s') -> (forall p s', X p s' -> X' p s') -> wp m Q' X' s.
Proof.
  unfold wp. destruct (m s) as [s' [a | p |]]; intros H HQ HX; auto.
Qed.

(* two specifications of the same (deterministic) computation hold together *)
Lemma wp_and {A} (m : M A) (Q Q' : A -> db -> Prop) (X X' : panic -> db -> Prop) s :
  wp m Q X s -> wp m Q' X' s ->
  wp m (fun a s' => Q a s' /\ Q' a s') (fun p s' => X p s' /\ X' p s') s.
Proof.
  unfold wp. destruct (m s) as [s' [a | p |]]; intros H1 H2; try (split; assumption). exact H1.
Qed.

Lemma wp_inv {A} (m : M A) (Q : A -> db -> Prop) (X : panic -> db -> Prop) s :
  wp m Q X s ->
  (exists s' a, m s = (s', Ok a) /\ Q a s') \/ (exists s' p, m s = (s', Panic p) /\ X p s').
Proof.
  unfold wp. destruct (m s) as [s' [a | p |]]; intros H.
  - left; eauto.
  - right; eauto.
  - destruct H.
Qed.
