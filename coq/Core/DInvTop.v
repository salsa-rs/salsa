(* Core/DInvTop.v — the durability invariant across API operations (new revisions, writes that
   report the OLD durability and install the new one, synthetic writes, eviction, reads), and
   the from-scratch theorem for inputs of ARBITRARY durability: [from_scratch_dur]. *)
From Salsa Require Import Base.
From Salsa.Kern Require Import CoreK CoreKFacts.
From Salsa.Core Require Import Model Spec SpecProofs Wp Inv InvFrame InvSem InvTop DurSem DInv DInvSem DInvOps.

Section Top.
Variable prog : qkey -> body.
Variable noeq : qkey -> bool.
Variable fams : list N.
Variable rank : qkey -> nat.
Hypothesis Hrank : calls_below prog rank.
Variable NF : nat.
Hypothesis Hbound : forall q, (rank q < NF)%nat.
Notation E := (E prog NF).
Notation tr := (tr prog NF).
Notation durge := (durge prog NF).
Notation clos := (clos prog NF).
Notation dmemo_ok := (dmemo_ok prog NF).
Notation DInv := (DInv prog NF).
Notation obs_pre := (obs_pre prog NF).

Definition extendD (D : dhist) (c : rev) (f : ikey -> dur) : dhist :=
  fun r => if r =? c then f else D r.

Lemma extendD_same D c f : extendD D c f c = f.
Proof. unfold extendD. rewrite N.eqb_refl. reflexivity. Qed.

Lemma extendD_other D c f r : r <> c -> extendD D c f r = D r.
Proof. unfold extendD. intros Hne. apply N.eqb_neq in Hne. rewrite Hne. reflexivity. Qed.

Definition durs_of (s : db) : ikey -> dur := fun i => f_dur (d_in s i).

Definition memo_sim (m m' : memo) : Prop :=
  m_verified m' = m_verified m /\ m_changed m' = m_changed m /\ m_dur m' = m_dur m /\
  m_untracked m' = m_untracked m /\ m_edges m' = m_edges m /\
  (forall x, m_val m' = Some x -> m_val m = Some x).

Lemma memo_sim_refl m : memo_sim m m.
Proof. repeat split; auto. Qed.

Lemma memo_sim_evict m : memo_sim m (evict_memo m).
Proof.
  unfold evict_memo. destruct (m_untracked m) eqn:Hu; [apply memo_sim_refl|].
  repeat split; cbn; auto. discriminate.
Qed.

Lemma evicted_fwd mm mm' q m : evicted_from mm mm' -> mm q = Some m ->
  exists m', mm' q = Some m' /\ memo_sim m m'.
Proof.
  intros Hev Hm. destruct (Hev q) as [Heq | (m0 & Hm0 & Heq)].
  - exists m. split; [congruence | apply memo_sim_refl].
  - rewrite Hm in Hm0. injection Hm0 as <-. exists (evict_memo m). split; [exact Heq | apply memo_sim_evict].
Qed.

Lemma evicted_bwd mm mm' q m' : evicted_from mm mm' -> mm' q = Some m' ->
  exists m, mm q = Some m /\ memo_sim m m'.
Proof.
  intros Hev Hm'. destruct (Hev q) as [Heq | (m0 & Hm0 & Heq)].
  - exists m'. split; [congruence | apply memo_sim_refl].
  - rewrite Heq in Hm'. injection Hm' as <-. exists m0. split; [exact Hm0 | apply memo_sim_evict].
Qed.

Definition DInv_d (H : hist) (D : dhist) (s : db) : Prop :=
  DInv H D (set_cell s (sn_cell (H (cur s)))).

(* One lemma for every API operation other than Get (writes of any durability, synthetic
   writes, cell writes, a new revision, eviction, the switches): the operation takes s, whose
   cells may be ahead of the history ([DInv_d]), under the ghost histories (H, D) to s' under
   (H', D').  Of the memo table only eviction is allowed; revisions, last-changed entries and
   input stamps only grow; the histories keep the past wherever a memo was verified.  The
   remaining premises are the clauses of [DInv] about inputs, cells and durabilities
   ([inv_in], [inv_dur], [inv_in_le], [inv_cell], [inv_dur3], the write rule
   [inv_wr]) restated for s' under (H', D'): each operation checks them for its own s'. *)
Lemma DInv_transfer H D H' D' s s' :
  DInv_d H D s ->
  cur s <= cur s' -> 1 <= cur s' -> revs_ok (d_revs s') ->
  (forall k, lcs s k <= lcs s' k) ->
  evicted_from (d_memo s) (d_memo s') ->
  (forall i, f_changed (d_in s i) <= f_changed (d_in s' i)) ->
  (* the past is kept wherever a memo was verified *)
  (forall q m, d_memo s q = Some m ->
     H' (m_verified m) = H (m_verified m) /\ forall i, D' (m_verified m) i = D (m_verified m) i) ->
  (forall i r, f_changed (d_in s' i) <= r -> r <= cur s' -> sn_in (H' r) i = f_val (d_in s' i)) ->
  (forall i r, f_changed (d_in s' i) <= r -> r <= cur s' -> D' r i = f_dur (d_in s' i)) ->
  (forall i, f_changed (d_in s' i) <= cur s') ->
  (forall c, sn_cell (H' (cur s')) c = d_cell s' c) ->
  (forall r i, D' r i <= 3) ->
  (forall r i, r < cur s' -> lcs s' (D' r i) <= r ->
     sn_in (H' (r + 1)) i = sn_in (H' r) i /\ D' (r + 1) i = D' r i) ->
  DInv H' D' s'.
Proof.
  intros HI Hc H1 Hrv Hlc Hev Hfc Hpast Hin Hdur Hinle Hcell Hd3 Hwr.
  unfold DInv_d in HI. destruct HI as [Hcur1 Hrevs Hin0 Hdur0 Hinle0 Hcell0 Hd30 Hwr0 Hmemo].
  change (cur (set_cell s _)) with (cur s) in *.
  change (d_memo (set_cell s _)) with (d_memo s) in *.
  assert (Hok : forall q m m', d_memo s q = Some m -> memo_sim m m' -> dmemo_ok H' D' s' q m').
  { intros q m m' Hm (S1 & S2 & S3 & S4 & S5 & S6).
    destruct (Hmemo q m Hm) as [Hord Hval Hrin Hrq Hrcell Hedg Huntr Hdurge Hdur3 Hstamp Hobs0].
    destruct (Hpast q m Hm) as [HHv HDv].
    assert (Hdg : forall k x, durge H D (m_verified m) k x -> durge H' D' (m_verified m) k x).
    { intros k x. apply (durge_hist_eq prog NF H D H' D'); assumption. }
    assert (Hdg' : forall k x, durge H' D' (m_verified m) k x -> durge H D (m_verified m) k x).
    { intros k x. apply (durge_hist_eq prog NF H' D' H D); [symmetry; exact HHv | intros i; symmetry; apply HDv]. }
    constructor; rewrite ?S1, ?S2, ?S3, ?S4, ?S5, ?(tr_hist_eq prog NF H H' _ q HHv); auto.
    - (* mo_order *) change (cur (set_cell s _)) with (cur s) in Hord. lia.
    - (* mo_val *) intros x Hx. rewrite (E_hist_eq prog NF H H' _ q HHv). apply Hval. apply S6; exact Hx.
    - (* mo_reads_in *) intros i Hi. rewrite HDv. apply Hrin; exact Hi.
    - (* mo_reads_q *) intros d1 Hd1. destruct (Hrq d1 Hd1) as [A | A]; [left; exact A | right; apply Hdg; exact A].
    - (* mo_stamp: input stamps and memo stamps only grow *)
      destruct Hstamp as [A | (x & Hx & Hs)]; [left; exact A | right].
      exists x. split; [exact Hx|]. destruct x as [i1 | d1 | c1 |]; cbn in *; try exact Hs.
      + change (d_in (set_cell s _) i1) with (d_in s i1) in Hs. specialize (Hfc i1). lia.
      + destruct Hs as (md & Hmd & Hle).
        change (d_memo (set_cell s _) d1) with (d_memo s d1) in Hmd.
        destruct (evicted_fwd _ _ d1 md Hev Hmd) as (md' & Hmd' & (_ & T2 & _)).
        exists md'. split; [exact Hmd' | lia].
    - (* mo_obs: the observed memo may have been evicted, which keeps stamps and durability *)
      intros d1 Hd1. apply (clos_hist_eq prog NF H' H) in Hd1; [|symmetry; exact HHv].
      destruct (Hobs0 d1 Hd1) as (md & Hmd & Hobs).
      change (d_memo (set_cell s _) d1) with (d_memo s d1) in Hmd.
      destruct (evicted_fwd _ _ d1 md Hev Hmd) as (md' & Hmd' & (T1 & T2 & T3 & _)).
      exists md'. split; [exact Hmd'|].
      intros Hp. rewrite T1, T3.
      destruct (Hpast d1 md Hmd) as [HHd _].
      rewrite (E_hist_eq prog NF H H' _ d1 HHv), (E_hist_eq prog NF H H' _ d1 HHd).
      apply Hobs. destruct Hp as [Hp | (k & Hk & Hlk)].
      + left. rewrite <- T2. exact Hp.
      + right. exists k. split; [apply Hdg'; exact Hk|].
        change (lcs (set_cell s _) k) with (lcs s k). specialize (Hlc k). lia. }
  constructor; auto.
  (* inv_memo *)
  intros q m' Hm'. destruct (evicted_bwd _ _ q m' Hev Hm') as (m & Hm & Hsim).
  apply (Hok q m m' Hm Hsim).
Qed.

Lemma DInv_to_d H D s : DInv H D s -> DInv_d H D s.
Proof.
  intros [Hcur1 Hrevs Hin0 Hdur0 Hinle0 Hcell0 Hd30 Hwr0 Hmemo]. unfold DInv_d. constructor; auto.
  (* inv_memo: no clause of [dmemo_ok] reads the cells *)
  intros q m Hm. destruct (Hmemo q m Hm) as [Hord Hval Hrin Hrq Hrcell Hedg Huntr Hdurge Hdur3 Hstamp Hobs0].
  constructor; auto.
Qed.

Lemma DInv_d_facts H D s : DInv_d H D s ->
  1 <= cur s /\ revs_ok (d_revs s) /\
  (forall q m, d_memo s q = Some m -> m_verified m <= cur s) /\
  (forall i r, f_changed (d_in s i) <= r -> r <= cur s -> sn_in (H r) i = f_val (d_in s i)) /\
  (forall i r, f_changed (d_in s i) <= r -> r <= cur s -> D r i = f_dur (d_in s i)) /\
  (forall i, f_changed (d_in s i) <= cur s) /\ (forall r i, D r i <= 3) /\
  (forall r i, r < cur s -> lcs s (D r i) <= r ->
     sn_in (H (r + 1)) i = sn_in (H r) i /\ D (r + 1) i = D r i).
Proof.
  unfold DInv_d. intros [Hcur1 Hrevs Hin0 Hdur0 Hinle0 Hcell0 Hd30 Hwr0 Hmemo].
  split; [exact Hcur1|]. split; [exact Hrevs|]. split.
  - intros q m Hm. pose proof (mo_order _ _ _ _ _ _ _ (Hmemo q m Hm)) as (_ & _ & Hv). exact Hv.
  - split; [exact Hin0|]. split; [exact Hdur0|]. split; [exact Hinle0|]. split; [exact Hd30 | exact Hwr0].
Qed.

Definition OK (s : db) : Prop := exists H D, DInv H D s.
Definition OK_d (s : db) : Prop := exists H D, DInv_d H D s.

Lemma OK_to_d s : OK s -> OK_d s.
Proof. intros (H & D & HI). exists H, D. apply DInv_to_d; exact HI. Qed.

Lemma DInv_snap H D s : DInv H D s -> snap_eq (H (cur s)) (snap_of s).
Proof.
  intros HI. split; cbn.
  - intros i. apply (inv_in _ _ _ _ _ HI); [apply (inv_in_le _ _ _ _ _ HI) | lia].
  - apply (inv_cell _ _ _ _ _ HI).
Qed.

Lemma DInv_keep H D s s' :
  DInv_d H D s -> cur s' = cur s -> revs_ok (d_revs s') -> (forall k, lcs s k <= lcs s' k) ->
  d_in s' = d_in s -> evicted_from (d_memo s) (d_memo s') ->
  (forall c, sn_cell (H (cur s)) c = d_cell s' c) ->
  DInv H D s'.
Proof.
  intros HI Hc Hrv Hlc Hi Hev Hcell.
  destruct (DInv_d_facts H D s HI) as (F1 & F2 & F3 & F4 & F5 & F6 & F7 & F8).
  apply (DInv_transfer H D H D s s' HI); rewrite ?Hc, ?Hi;
    [lia | exact F1 | exact Hrv | exact Hlc | exact Hev | intros i; lia | | exact F4 | exact F5
    | exact F6 | exact Hcell | exact F7 |].
  - intros q m _. split; reflexivity.
  - intros r i Hlt Hl. apply F8; [exact Hlt|]. specialize (Hlc (D r i)). lia.
Qed.

Lemma OK_d_same s s' :
  OK_d s -> d_revs s' = d_revs s -> d_in s' = d_in s ->
  evicted_from (d_memo s) (d_memo s') -> OK_d s'.
Proof.
  intros (H & D & HI) Hr Hi Hev. exists H, D.
  destruct (DInv_d_facts H D s HI) as (_ & F2 & _).
  assert (Hc : cur s' = cur s) by (unfold cur; rewrite Hr; reflexivity).
  apply (DInv_keep H D s (set_cell s' (sn_cell (H (cur s')))) HI Hc); cbn [d_revs d_in d_memo set_cell];
    [rewrite Hr; exact F2 | | exact Hi | exact Hev | intros c; rewrite Hc; reflexivity].
  intros k. unfold lcs. cbn. rewrite Hr. lia.
Qed.

Lemma OK_same s s' :
  OK s -> d_revs s' = d_revs s -> d_in s' = d_in s -> d_cell s' = d_cell s ->
  evicted_from (d_memo s) (d_memo s') -> OK s'.
Proof.
  intros (H & D & HI) Hr Hi Hce Hev. exists H, D.
  assert (Hc : cur s' = cur s) by (unfold cur; rewrite Hr; reflexivity).
  apply (DInv_keep H D s s' (DInv_to_d H D s HI) Hc);
    [rewrite Hr; apply (inv_revs _ _ _ _ _ HI) | | exact Hi | exact Hev
    | intros c; rewrite Hce; apply (inv_cell _ _ _ _ _ HI)].
  intros k. unfold lcs. rewrite Hr. lia.
Qed.

(* a state in which nothing has been verified at the current revision yet *)
Definition fresh (s : db) : Prop :=
  forall q m, d_memo s q = Some m -> m_verified m < cur s.

(* The histories are extended by the snapshot and the durabilities of s' at its current
   revision (the one of s, or the next): this serves as long as no memo was verified at that
   revision before, every input is as before or stamped with it, and the step into it obeys
   the write rule. *)
Lemma DInv_extend H D s s' :
  DInv_d H D s -> cur s <= cur s' -> cur s' <= cur s + 1 -> revs_ok (d_revs s') ->
  (forall k, lcs s k <= lcs s' k) ->
  evicted_from (d_memo s) (d_memo s') ->
  (forall q m, d_memo s q = Some m -> m_verified m < cur s') ->
  (forall i, d_in s' i = d_in s i \/ (f_changed (d_in s' i) = cur s' /\ f_dur (d_in s' i) <= 3)) ->
  (forall r i, r + 1 = cur s' -> lcs s' (D r i) <= r ->
     sn_in (snap_of s') i = sn_in (H r) i /\ durs_of s' i = D r i) ->
  DInv (extend H (cur s') (snap_of s')) (extendD D (cur s') (durs_of s')) s'.
Proof.
  intros HI Hc Hc' Hrv Hlc Hev Hfresh Hin Hstep.
  destruct (DInv_d_facts H D s HI) as (F1 & F2 & F3 & F4 & F5 & F6 & F7 & F8).
  apply (DInv_transfer H D _ _ s s' HI); [exact Hc | lia | exact Hrv | exact Hlc | exact Hev | ..].
  - intros i. destruct (Hin i) as [-> | [Hch _]]; [lia|]. specialize (F6 i). lia.
  - intros q m Hm. specialize (Hfresh q m Hm).
    split; [apply extend_other; lia | intros i; rewrite extendD_other by lia; reflexivity].
  - intros i r Hle Hrc. destruct (N.eq_dec r (cur s')) as [-> | Hne].
    + rewrite extend_same. reflexivity.
    + rewrite extend_other by exact Hne.
      destruct (Hin i) as [Heq | [Hch _]]; [|lia]. rewrite Heq in *. apply F4; lia.
  - intros i r Hle Hrc. destruct (N.eq_dec r (cur s')) as [-> | Hne].
    + rewrite extendD_same. reflexivity.
    + rewrite extendD_other by exact Hne.
      destruct (Hin i) as [Heq | [Hch _]]; [|lia]. rewrite Heq in *. apply F5; lia.
  - intros i. destruct (Hin i) as [-> | [Hch _]]; [|lia]. specialize (F6 i). lia.
  - intros c. rewrite extend_same. reflexivity.
  - intros r i. unfold extendD. destruct (r =? cur s'); [|apply F7].
    unfold durs_of. destruct (Hin i) as [-> | [_ Hd]]; [|exact Hd].
    rewrite <- (F5 i (cur s)); [apply F7 | apply F6 | lia].
  - intros r i Hlt Hl. rewrite extendD_other in Hl by lia.
    destruct (N.eq_dec (r + 1) (cur s')) as [Heq | Hne].
    + rewrite Heq, extend_same, extendD_same, extend_other, extendD_other by lia.
      apply Hstep; assumption.
    + rewrite !extend_other, !extendD_other by lia.
      apply F8; [lia|]. specialize (Hlc (D r i)). lia.
Qed.

(* starting a new revision: the current-revision slot moves, nothing else *)
Lemma OK_advance s s' :
  OK_d s ->
  d_revs s' = {| r_cur := r_cur (d_revs s) + 1; r_med := r_med (d_revs s); r_high := r_high (d_revs s) |} ->
  d_in s' = d_in s ->
  evicted_from (d_memo s) (d_memo s') ->
  OK s' /\ fresh s'.
Proof.
  intros (H & D & HI) Hr Hi Hev.
  destruct (DInv_d_facts H D s HI) as (F1 & F2 & F3 & F4 & F5 & F6 & F7 & F8).
  assert (Hc : cur s' = cur s + 1) by (unfold cur; rewrite Hr; reflexivity).
  assert (Hfresh : forall q m, d_memo s q = Some m -> m_verified m < cur s')
    by (intros q m Hm; specialize (F3 q m Hm); lia).
  split.
  - exists (extend H (cur s') (snap_of s')), (extendD D (cur s') (durs_of s')).
    apply (DInv_extend H D s s' HI); [lia | lia | | | exact Hev | exact Hfresh | |].
    + destruct F2 as (A & B & C). rewrite Hr. unfold revs_ok; cbn. lia.
    + intros k. unfold lcs. rewrite Hr.
      destruct (lc_cases (d_revs s) k) as [[-> ->] | [[-> ->] | [[-> ->] | [Hk ->]]]]; cbn; try lia.
      rewrite lc_never by exact Hk. lia.
    + intros i. left. rewrite Hi. reflexivity.
    + intros r i Hr1 _. assert (r = cur s) by lia. subst r.
      unfold durs_of; cbn. rewrite Hi.
      split; symmetry; [apply F4 | apply F5]; try apply F6; lia.
  - intros q m' Hm'. destruct (evicted_bwd _ _ q m' Hev Hm') as (m & Hm & (S1 & _)).
    rewrite S1. apply (Hfresh q m Hm).
Qed.

(* a revision-vector change alone (a synthetic write): levels only move forward *)
Lemma OK_revs s s' :
  OK s -> cur s' = cur s -> revs_ok (d_revs s') -> (forall k, lcs s k <= lcs s' k) ->
  d_in s' = d_in s -> d_cell s' = d_cell s -> d_memo s' = d_memo s -> OK s'.
Proof.
  intros (H & D & HI) Hc Hrv Hlc Hi Hce Hm. exists H, D.
  apply (DInv_keep H D s s' (DInv_to_d H D s HI) Hc Hrv Hlc Hi).
  - rewrite Hm. apply evicted_refl.
  - intros c. rewrite Hce. apply (inv_cell _ _ _ _ _ HI).
Qed.

(* the write rule: rewriting ONE input inside a fresh revision, reporting its OLD durability *)
Lemma OK_write s i v nd :
  OK s -> fresh s -> f_dur (d_in s i) <> 3 -> nd <= 3 ->
  let od := f_dur (d_in s i) in
  let r1 := if od =? D_LOW then d_revs s else report_write (d_revs s) od in
  let f' := {| f_val := v; f_changed := cur s; f_dur := nd |} in
  OK (set_in (set_revs s r1) (upd (d_in s) i f')).
Proof.
  intros (H & D & HI) Hfresh Hod Hnd od r1 f'.
  set (s' := set_in (set_revs s r1) (upd (d_in s) i f')).
  destruct (DInv_d_facts H D s (DInv_to_d H D s HI)) as (F1 & F2 & F3 & F4 & F5 & F6 & F7 & F8).
  assert (Hod3 : od < 3).
  { unfold od. pose proof (F7 (cur s) i) as A. rewrite (F5 i (cur s)) in A; [lia | apply F6 | lia]. }
  assert (Hcur_r1 : r_cur r1 = r_cur (d_revs s)).
  { unfold r1. destruct (od =? D_LOW); reflexivity. }
  assert (Hc : cur s' = cur s) by (unfold cur, s'; cbn; exact Hcur_r1).
  assert (Hrv : revs_ok r1).
  { unfold r1. destruct (od =? D_LOW); [exact F2 | apply revs_ok_report_write; exact F2]. }
  assert (Hlc : forall k, lcs s k <= lcs s' k).
  { intros k. unfold lcs, s'; cbn. unfold r1. destruct (od =? D_LOW); [lia|].
    apply lc_report_write_ge; exact F2. }
  assert (Hlc_od : forall k, k <= od -> lcs s' k = cur s).
  { intros k Hk. unfold lcs, s'; cbn. unfold r1.
    destruct (N.eqb_spec od D_LOW) as [H0 | H0].
    - unfold D_LOW in H0. replace k with 0 by lia. apply lc_zero.
    - rewrite lc_report_write.
      destruct (N.eqb_spec k 0) as [-> | Hk0]; [reflexivity|].
      destruct (N.leb_spec k od) as [_ | Hx]; [|lia].
      destruct (N.ltb_spec k 3) as [_ | Hx]; [|lia]. reflexivity. }
  assert (Hin' : forall j, j <> i -> d_in s' j = d_in s j).
  { intros j Hj. unfold s'; cbn. apply upd_other. congruence. }
  assert (Hin_i : d_in s' i = f') by (unfold s'; cbn; apply upd_same).
  exists (extend H (cur s') (snap_of s')), (extendD D (cur s') (durs_of s')).
  apply (DInv_extend H D s s' (DInv_to_d H D s HI));
    [lia | lia | exact Hrv | exact Hlc | apply evicted_refl | | |].
  - intros q m Hm. rewrite Hc. apply (Hfresh q m Hm).
  - intros j. destruct (key_eqb_spec j i) as [-> | Hji]; [right | left; apply (Hin' j Hji)].
    rewrite Hin_i. cbn. split; [symmetry; exact Hc | exact Hnd].
  - (* the step into the rewritten revision *)
    intros r j Hr1 Hl. rewrite Hc in Hr1.
    destruct (key_eqb_spec j i) as [-> | Hji].
    + exfalso.
      destruct (N.le_gt_cases (lcs s (D r i)) r) as [Hold | Hold].
      * destruct (F8 r i) as [_ B]; [lia | exact Hold|].
        rewrite Hr1 in B. rewrite (F5 i (cur s)) in B; [|apply F6 | lia].
        fold od in B. rewrite <- B in Hl. rewrite Hlc_od in Hl by lia. lia.
      * specialize (Hlc (D r i)). lia.
    + unfold durs_of, snap_of. cbn [sn_in]. rewrite !(Hin' j Hji).
      destruct (F8 r j) as [A B]; [lia | specialize (Hlc (D r j)); lia|].
      rewrite Hr1 in A, B.
      rewrite <- A, <- B. split; symmetry; [apply F4 | apply F5]; try apply F6; lia.
Qed.

Lemma new_revision_revs s :
  d_revs (new_revision fams s) =
  {| r_cur := r_cur (d_revs s) + 1; r_med := r_med (d_revs s); r_high := r_high (d_revs s) |}.
Proof.
  unfold new_revision. set (s1 := set_ccount _ 0).
  destruct (evict_all_sbm fams s1) as [a _ _ _ _]. rewrite a. reflexivity.
Qed.

Lemma OK_d_new_revision s : OK_d s -> OK (new_revision fams s) /\ fresh (new_revision fams s).
Proof.
  intros Hok. destruct (new_revision_facts fams s) as (_ & _ & C & _ & _ & F).
  apply (OK_advance s); auto. apply new_revision_revs.
Qed.

Lemma zalsa_mut_revs s : d_ccount s =? 255 = false -> d_revs (zalsa_mut fams s) = d_revs s.
Proof. intros Hc. unfold zalsa_mut. rewrite Hc. reflexivity. Qed.

Lemma OK_d_zalsa_mut s : OK_d s -> OK_d (zalsa_mut fams s).
Proof.
  intros Hok. unfold zalsa_mut. destruct (d_ccount s =? 255).
  - apply OK_to_d. apply OK_d_new_revision; exact Hok.
  - apply (OK_d_same s); auto. apply evicted_refl.
Qed.

Lemma OK_zalsa_mut s : OK s -> OK (zalsa_mut fams s).
Proof.
  intros Hok. unfold zalsa_mut. destruct (d_ccount s =? 255).
  - apply OK_d_new_revision. apply OK_to_d; exact Hok.
  - apply (OK_same s); auto. apply evicted_refl.
Qed.

Lemma evict_all_revs s : d_revs (evict_all fams s) = d_revs s.
Proof. destruct (evict_all_sbm fams s) as [a _ _ _ _]. exact a. Qed.

(* the durabilities an operation may install: the four levels *)
Definition dur_op (o : op) : Prop :=
  match o with OSet _ _ (Some d) => d <= 3 | _ => True end.

Definition state_ok (dirty : bool) (s : db) : Prop :=
  (if dirty then OK_d s else OK s) /\ d_stack s = [].

Lemma state_ok_d dirty s : state_ok dirty s -> OK_d s.
Proof. destruct dirty; intros [A _]; [exact A | apply OK_to_d; exact A]. Qed.

Notation get_ok := (get_ok prog NF).
Notation outs_ok := (outs_ok prog noeq fams NF).

(* the outcome of a Get, with the sharp set of panics: the from-scratch value, or an injected
   fault while some fault switch is on.  (The backdate-violation assertion is unreachable.) *)
Definition get_ok_strict (s : db) (q : qkey) (r : out) : Prop :=
  r = Ok (eval prog NF (snap_of s) q) \/
  (r = Panic PInjected /\ ((exists c, d_pcell s c <> 0) \/ d_evfault s <> None)).

Fixpoint outs_ok_strict (fuel : nat) (s : db) (os : list op) : Prop :=
  match os with
  | [] => True
  | o :: os' =>
      (match o with OGet q => get_ok_strict s q (snd (step prog noeq fams fuel s o)) | _ => True end) /\
      outs_ok_strict fuel (fst (step prog noeq fams fuel s o)) os'
  end.

Lemma get_ok_strict_get_ok s q r : get_ok_strict s q r -> get_ok s q r.
Proof.
  intros [Hx | [Hp Ha]]; [left; exact Hx | right].
  exists PInjected. split; [exact Hp | right; split; [reflexivity | exact Ha]].
Qed.

Lemma outs_ok_strict_outs_ok fuel : forall os s, outs_ok_strict fuel s os -> outs_ok fuel s os.
Proof.
  induction os as [|o os IH]; intros s Hx; [exact I|].
  cbn [outs_ok_strict InvTop.outs_ok] in *. destruct Hx as [A B].
  split; [|apply IH; exact B].
  destruct o; try exact I. apply get_ok_strict_get_ok; exact A.
Qed.

Lemma step_get_ok fuel s q :
  (forall p, (rank p < fuel)%nat) -> state_ok false s ->
  get_ok_strict s q (snd (step prog noeq fams fuel s (OGet q))) /\
  state_ok false (fst (step prog noeq fams fuel s (OGet q))).
Proof.
  intros Hfuel [(H & D & HI) Hst]. cbn [step].
  assert (Hso : stack_ok rank s q) by (intros p Hp; rewrite Hst in Hp; destruct Hp).
  assert (Hq : (rank q <= fuel)%nat) by (specialize (Hfuel q); lia).
  pose proof (fetch_top prog noeq rank Hrank NF Hbound H D fuel q s Hq HI Hso) as Hwp.
  unfold wp in Hwp.
  destruct (fetch prog noeq (level prog noeq fuel) q s) as [s' [[[v d] c] | p |]] eqn:Hf.
  - cbn [fst snd].
    destruct Hwp as (HI' & He & _ & Hs' & Hv & _). cbn [fst snd] in Hv.
    split.
    + left. f_equal. rewrite Hv. unfold Inv.E.
      apply (eval_snap_eq prog). apply (DInv_snap H D); exact HI.
    + split; [exists H, D; exact HI' | congruence].
  - cbn [fst snd]. destruct Hwp as ([-> Ha] & HI' & _).
    split; [right; split; [reflexivity | exact Ha]|].
    split; [|reflexivity].
    exists H, D. apply (DInv_core_eq prog NF H D s'); [repeat split | exact HI'].
  - destruct Hwp.
Qed.

Lemma state_ok_sbm dirty s s' :
  state_ok dirty s -> same_but_memos s s' -> d_stack s' = d_stack s -> state_ok dirty s'.
Proof.
  intros [A B] [Hrevs Hin Hcell Hseen Hmemo] Hst. split; [|congruence].
  destruct dirty; [apply (OK_d_same s) | apply (OK_same s)]; assumption.
Qed.

Lemma state_ok_zalsa_mut dirty s : state_ok dirty s -> state_ok dirty (zalsa_mut fams s).
Proof.
  intros [A B]. split; [|rewrite zalsa_mut_stack; exact B].
  destruct dirty; [apply OK_d_zalsa_mut | apply OK_zalsa_mut]; exact A.
Qed.

Lemma write_start dirty s :
  state_ok dirty s ->
  state_ok false (new_revision fams (zalsa_mut fams s)) /\ fresh (new_revision fams (zalsa_mut fams s)).
Proof.
  intros Hok. pose proof (state_ok_zalsa_mut dirty s Hok) as [Hz Hst].
  destruct (OK_d_new_revision (zalsa_mut fams s)) as [Hn Hfresh].
  { destruct dirty; [exact Hz | apply OK_to_d; exact Hz]. }
  split; [|exact Hfresh]. split; [exact Hn|].
  destruct (new_revision_facts fams (zalsa_mut fams s)) as (_ & _ & _ & _ & E0 & _).
  rewrite E0. exact Hst.
Qed.

Lemma step_other_ok fuel dirty s o :
  dur_op o -> state_ok dirty s ->
  match o with
  | OGet _ => True
  | _ => state_ok (dirty_after dirty o) (fst (step prog noeq fams fuel s o))
  end.
Proof.
  intros Hdop Hok.
  destruct o as [i v d | d | c v | c v | ef | q | fam n |]; cbn [step fst dirty_after].
  - (* OSet *)
    destruct (write_start dirty s Hok) as [[Hn Hst1] Hfresh].
    set (s1 := new_revision fams (zalsa_mut fams s)) in *.
    destruct (f_dur (d_in s1 i) =? D_NEVER) eqn:Hnever; cbn [fst].
    + split; assumption.
    + split; [|exact Hst1].
      apply N.eqb_neq in Hnever. unfold D_NEVER in Hnever.
      assert (Hnd : match d with Some d' => d' | None => f_dur (d_in s1 i) end <= 3).
      { destruct d as [d'|]; [exact Hdop|].
        destruct Hn as (H1 & D1 & HI1).
        rewrite <- (inv_dur _ _ _ _ _ HI1 i (cur s1)); [apply (inv_dur3 _ _ _ _ _ HI1) | apply (inv_in_le _ _ _ _ _ HI1) | lia]. }
      exact (OK_write s1 i v _ Hn Hfresh Hnever Hnd).
  - (* OSynth *)
    destruct (write_start dirty s Hok) as [[Hn Hst1] Hfresh].
    set (s1 := new_revision fams (zalsa_mut fams s)) in *.
    destruct (d =? D_NEVER); cbn [fst].
    + split; assumption.
    + split; [|exact Hst1].
      assert (Hrv1 : revs_ok (d_revs s1)) by (destruct Hn as (H1 & D1 & HI1); apply (inv_revs _ _ _ _ _ HI1)).
      apply (OK_revs s1); auto.
      * cbn. apply revs_ok_report_write; exact Hrv1.
      * intros k. unfold lcs; cbn. apply lc_report_write_ge; exact Hrv1.
  - (* OSetCell *)
    pose proof (state_ok_d dirty s Hok) as Hd. destruct Hok as [_ Hst]. split; [|exact Hst].
    apply (OK_d_same s); auto. apply evicted_refl.
  - (* OSetPanic *)
    apply (state_ok_sbm dirty s);
      [exact Hok | constructor; try reflexivity; apply evicted_refl | reflexivity].
  - (* OSetEvFault *)
    apply (state_ok_sbm dirty s);
      [exact Hok | constructor; try reflexivity; apply evicted_refl | reflexivity].
  - exact I.
  - (* OSetLru *)
    apply (state_ok_sbm dirty (zalsa_mut fams s));
      [apply state_ok_zalsa_mut; exact Hok | constructor; try reflexivity; apply evicted_refl | reflexivity].
  - (* OEvict *)
    apply (state_ok_sbm dirty (zalsa_mut fams s));
      [apply state_ok_zalsa_mut; exact Hok | apply evict_all_sbm | apply evict_all_stack].
Qed.

(* The from-scratch theorem for inputs and writes of arbitrary durability, with the sharp
   set of panics: no backdate-violation panic, injected panics only while a switch is on. *)
Theorem from_scratch_dur_strong fuel :
  (forall p, (rank p < fuel)%nat) ->
  forall ops dirty s, Forall dur_op ops -> wf_ops dirty ops -> state_ok dirty s ->
  outs_ok_strict fuel s ops.
Proof.
  intros Hfuel.
  apply (ops_ind prog noeq fams fuel dur_op state_ok (fun s q _ r => get_ok_strict s q r)
           (outs_ok_strict fuel)).
  - intros s. exact I.
  - intros s o os A B. split; [destruct o; exact A | exact B].
  - intros s q. apply (step_get_ok fuel s q Hfuel).
  - intros dirty s o. apply step_other_ok.
Qed.

Theorem from_scratch_dur fuel :
  (forall p, (rank p < fuel)%nat) ->
  forall ops dirty s, Forall dur_op ops -> wf_ops dirty ops -> state_ok dirty s ->
  outs_ok fuel s ops.
Proof.
  intros Hfuel ops dirty s Hdur Hwf Hok. apply outs_ok_strict_outs_ok.
  apply (from_scratch_dur_strong fuel Hfuel ops dirty s Hdur Hwf Hok).
Qed.

Lemma init_ok_dur iv idur lru0 : (forall i, idur i <= 3) -> state_ok false (init iv idur lru0).
Proof.
  intros Hid. split; [|reflexivity].
  exists (fun _ => snap_of (init iv idur lru0)), (fun _ => idur).
  constructor.
  - cbn. unfold REV_START. lia.
  - cbn. unfold revs_ok, REV_START; cbn. lia.
  - intros i r _ _. reflexivity.
  - intros i r _ _. reflexivity.
  - intros i. cbn. unfold REV_START. lia.
  - intros c. reflexivity.
  - intros r i. apply Hid.
  - intros r i _ _. split; reflexivity.
  - intros q m Hm. discriminate.
Qed.

Theorem from_scratch_dur_init fuel :
  (forall p, (rank p < fuel)%nat) ->
  forall iv idur lru0 ops, (forall i, idur i <= 3) -> Forall dur_op ops -> wf_ops false ops ->
  outs_ok fuel (init iv idur lru0) ops.
Proof.
  intros Hfuel iv idur lru0 ops Hid Hdur Hwf.
  apply (from_scratch_dur fuel Hfuel ops false _ Hdur Hwf). apply init_ok_dur. exact Hid.
Qed.

Theorem from_scratch_dur_strong_init fuel :
  (forall p, (rank p < fuel)%nat) ->
  forall iv idur lru0 ops, (forall i, idur i <= 3) -> Forall dur_op ops -> wf_ops false ops ->
  outs_ok_strict fuel (init iv idur lru0) ops.
Proof.
  intros Hfuel iv idur lru0 ops Hid Hdur Hwf.
  apply (from_scratch_dur_strong fuel Hfuel ops false _ Hdur Hwf). apply init_ok_dur. exact Hid.
Qed.

Lemma low_op_dur_op o : low_op o -> dur_op o.
Proof. destruct o as [i v [d|] | d | c v | c v | ef | q | fam n |]; cbn; intros Hl; try exact I. lia. Qed.

(* the statement of [InvTop.from_scratch_low] (LOW writes only, all inputs initially LOW) as
   an instance of the theorem for all durabilities *)
Corollary from_scratch_low_again fuel :
  (forall p, (rank p < fuel)%nat) ->
  forall iv lru0 ops, Forall low_op ops -> wf_ops false ops ->
  outs_ok fuel (init iv (fun _ => 0) lru0) ops.
Proof.
  intros Hfuel iv lru0 ops Hlow Hwf.
  apply (from_scratch_dur_init fuel Hfuel); [intros _; lia | | exact Hwf].
  eapply Forall_impl; [|exact Hlow]. exact low_op_dur_op.
Qed.

End Top.
