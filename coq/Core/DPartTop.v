(* Core/DPartTop.v — the counterpart of Core/DInvTop.v for programs that may be cyclic: the pair
   ([DInv], [PM]) across API operations, and the from-scratch theorem over every well-formed
   history: a Get answers the from-scratch value when the from-scratch evaluation at the current
   snapshot is acyclic, and panics with the cycle error when it re-enters a node (or with an
   injected fault while a fault switch is on); never out of fuel. *)
From Coq Require Import Lia.
From Salsa Require Import Base.
From Salsa.Kern Require Import CoreK CoreKFacts K2_WriteReport.
From Salsa.Core Require Import Model Spec SpecProofs Wp Inv InvFrame InvSem InvOps InvTop.
From Salsa.Core Require Import DurSem DInv DInvSem DInvOps DInvTop.
From Salsa.Core Require Import DCycleSem DCycleInv DPartSem DPartInvSem DPartOps.

Section Top.
Variable prog : qkey -> body.
Variable noeq : qkey -> bool.
Variable fams : list N.
Variable ns : list qkey.
Hypothesis Hclosed : forall q d, In q ns -> calls (prog q) d -> In d ns.
Variable NF : nat.
Hypothesis HNF : (length ns <= NF)%nat.
Notation E := (E prog NF).
Notation DInv := (DInv prog NF).
Notation DInv_d := (DInv_d prog NF).
Notation PM := (PM prog ns NF).
Notation fresh := (DInvTop.fresh).

(* [PM] only talks about the history at the revisions where memos were verified *)
Lemma PM_transfer H D H' D' s s' :
  evicted_from (d_memo s) (d_memo s') ->
  (forall q m, d_memo s q = Some m ->
     H' (m_verified m) = H (m_verified m) /\ forall i, D' (m_verified m) i = D (m_verified m) i) ->
  PM H D s -> PM H' D' s'.
Proof.
  intros Hev Hpast HP q m' Hm'.
  destruct (evicted_bwd _ _ q m' Hev Hm') as (m & Hm & (S1 & _ & _ & _ & S5 & _)).
  destruct (HP q m Hm) as (Hqn & Hac & Hord). destruct (Hpast q m Hm) as [HHv HDv].
  split; [exact Hqn |]. rewrite S1, S5. split.
  - apply (ac_hist_eq prog H H' _ q HHv Hac).
  - intros epre d epost Hes. destruct (Hord epre d epost Hes) as (tpre & tpost & Ht & Hi & Hq).
    exists tpre, tpost. split; [rewrite (tr_hist_eq prog NF H H' _ q HHv); exact Ht |]. split.
    + intros i Hin. destruct (Hi i Hin) as [A | A]; [left; exact A | right; rewrite HDv; exact A].
    + intros e Hin. destruct (Hq e Hin) as [A | A]; [left; exact A | right].
      apply (durge_hist_eq prog NF H D H' D'); assumption.
Qed.

Lemma PInv_transfer H D H' D' s s' :
  DInv_d H D s -> PM H D s ->
  cur s <= cur s' -> 1 <= cur s' -> revs_ok (d_revs s') ->
  (forall k, lcs s k <= lcs s' k) ->
  evicted_from (d_memo s) (d_memo s') ->
  (forall i, f_changed (d_in s i) <= f_changed (d_in s' i)) ->
  (forall q m, d_memo s q = Some m ->
     H' (m_verified m) = H (m_verified m) /\ forall i, D' (m_verified m) i = D (m_verified m) i) ->
  (forall i r, f_changed (d_in s' i) <= r -> r <= cur s' -> sn_in (H' r) i = f_val (d_in s' i)) ->
  (forall i r, f_changed (d_in s' i) <= r -> r <= cur s' -> D' r i = f_dur (d_in s' i)) ->
  (forall i, f_changed (d_in s' i) <= cur s') ->
  (forall c, sn_cell (H' (cur s')) c = d_cell s' c) ->
  (forall r i, D' r i <= 3) ->
  (forall r i, r < cur s' -> lcs s' (D' r i) <= r ->
     sn_in (H' (r + 1)) i = sn_in (H' r) i /\ D' (r + 1) i = D' r i) ->
  DInv H' D' s' /\ PM H' D' s'.
Proof.
  intros HI HP Hc H1 Hrv Hlc Hev Hfc Hpast Hin Hdur Hinle Hcell Hd3 Hwr. split.
  - apply (DInv_transfer prog NF H D H' D' s s'); assumption.
  - apply (PM_transfer H D H' D' s s'); assumption.
Qed.

Definition OKp (s : db) : Prop := exists H D, DInv H D s /\ PM H D s.
Definition OKp_d (s : db) : Prop := exists H D, DInv_d H D s /\ PM H D s.

Lemma OKp_to_d s : OKp s -> OKp_d s.
Proof. intros (H & D & HI & HP). exists H, D. split; [apply (DInv_to_d prog NF); exact HI | exact HP]. Qed.

Lemma PInv_keep H D s s' :
  DInv_d H D s -> PM H D s -> cur s' = cur s -> revs_ok (d_revs s') ->
  (forall k, lcs s k <= lcs s' k) -> d_in s' = d_in s ->
  evicted_from (d_memo s) (d_memo s') -> (forall c, sn_cell (H (cur s)) c = d_cell s' c) ->
  DInv H D s' /\ PM H D s'.
Proof.
  intros HI HP Hc Hrv Hlc Hi Hev Hcell.
  split; [exact (DInv_keep prog NF H D s s' HI Hc Hrv Hlc Hi Hev Hcell) |].
  apply (PM_transfer H D H D s s' Hev); [| exact HP]. intros q m _. split; reflexivity.
Qed.

Lemma OKp_d_same s s' :
  OKp_d s -> d_revs s' = d_revs s -> d_in s' = d_in s ->
  evicted_from (d_memo s) (d_memo s') -> OKp_d s'.
Proof.
  intros (H & D & HI & HP) Hr Hi Hev. exists H, D.
  assert (Hc : cur s' = cur s) by (unfold cur; rewrite Hr; reflexivity).
  apply (PInv_keep H D s (set_cell s' (sn_cell (H (cur s'))))); auto.
  - cbn [d_revs set_cell]. rewrite Hr. apply (DInv_d_facts prog NF H D s HI).
  - intros k. unfold lcs. cbn [d_revs set_cell]. rewrite Hr. lia.
  - intros c. cbn [d_cell set_cell]. now rewrite Hc.
Qed.

Lemma OKp_revs s s' :
  OKp s -> cur s' = cur s -> revs_ok (d_revs s') -> (forall k, lcs s k <= lcs s' k) ->
  d_in s' = d_in s -> d_cell s' = d_cell s -> evicted_from (d_memo s) (d_memo s') -> OKp s'.
Proof.
  intros (H & D & HI & HP) Hc Hrv Hlc Hi Hce Hev. exists H, D.
  apply (PInv_keep H D s s'); auto; [apply (DInv_to_d prog NF); exact HI |].
  intros c. rewrite Hce. apply (inv_cell _ _ _ _ _ HI).
Qed.

Lemma OKp_same s s' :
  OKp s -> d_revs s' = d_revs s -> d_in s' = d_in s -> d_cell s' = d_cell s ->
  evicted_from (d_memo s) (d_memo s') -> OKp s'.
Proof.
  intros Hok Hr Hi Hce Hev. apply (OKp_revs s s' Hok); [| | | exact Hi | exact Hce | exact Hev].
  - unfold cur. now rewrite Hr.
  - rewrite Hr. destruct Hok as (H & D & HI & _). exact (inv_revs _ _ _ _ _ HI).
  - intros k. unfold lcs. rewrite Hr. lia.
Qed.

(* The ghost histories get a new entry at the current revision of s' (its own snapshot and
   durabilities) when every memo was verified before it, every input is either untouched or
   stamped with it, and the step into it obeys the write rule (the last premise: an input whose
   level was not written keeps value and durability): opening a revision, and
   rewriting an input inside a revision in which nothing is verified yet. *)
Lemma PInv_extend H D s s' :
  DInv_d H D s -> PM H D s ->
  cur s <= cur s' -> cur s' <= cur s + 1 -> revs_ok (d_revs s') -> (forall k, lcs s k <= lcs s' k) ->
  evicted_from (d_memo s) (d_memo s') ->
  (forall q m, d_memo s q = Some m -> m_verified m < cur s') ->
  (forall j, d_in s' j = d_in s j \/ f_changed (d_in s' j) = cur s') ->
  (forall j, f_dur (d_in s' j) <= 3) ->
  (forall r j, r + 1 = cur s' -> lcs s' (D r j) <= r ->
     f_val (d_in s' j) = sn_in (H r) j /\ f_dur (d_in s' j) = D r j) ->
  DInv (extend H (cur s') (snap_of s')) (extendD D (cur s') (durs_of s')) s' /\
  PM (extend H (cur s') (snap_of s')) (extendD D (cur s') (durs_of s')) s'.
Proof.
  intros HI HP Hle Hle1 Hrv Hlc Hev Hpast Hin Hd3 Hwr. split.
  - apply (DInv_extend prog NF H D s s' HI Hle Hle1 Hrv Hlc Hev Hpast); [| exact Hwr].
    intros j. destruct (Hin j) as [E | E]; [left; exact E | right; split; [exact E | apply Hd3]].
  - apply (PM_transfer H D _ _ s s' Hev); [| exact HP]. intros q m Hm. specialize (Hpast q m Hm).
    split; [apply extend_other; lia | intros i; rewrite extendD_other by lia; reflexivity].
Qed.

Lemma OKp_advance s s' :
  OKp_d s ->
  d_revs s' = {| r_cur := r_cur (d_revs s) + 1; r_med := r_med (d_revs s); r_high := r_high (d_revs s) |} ->
  d_in s' = d_in s ->
  evicted_from (d_memo s) (d_memo s') ->
  OKp s' /\ fresh s'.
Proof.
  intros (H & D & HI & HP) Hr Hi Hev.
  destruct (DInv_d_facts prog NF H D s HI) as (F1 & F2 & F3 & F4 & F5 & F6 & F7 & F8).
  assert (Hc : cur s' = cur s + 1) by (unfold cur; rewrite Hr; reflexivity).
  assert (Hd3 : forall j, f_dur (d_in s j) <= 3).
  { intros j. rewrite <- (F5 j (cur s)); [apply F7 | apply F6 | lia]. }
  split.
  - exists (extend H (cur s') (snap_of s')), (extendD D (cur s') (durs_of s')).
    apply (PInv_extend H D s s' HI HP); rewrite ?Hi; auto; try lia.
    + destruct F2 as (A & B & C). rewrite Hr. unfold revs_ok; cbn. lia.
    + intros k. unfold lcs. rewrite Hr.
      destruct (lc_cases (d_revs s) k) as [[-> ->] | [[-> ->] | [[-> ->] | [Hk ->]]]]; cbn; try lia.
      rewrite lc_never by exact Hk. lia.
    + intros q m Hm. specialize (F3 q m Hm). lia.
    + intros r j Hr1 _. assert (r = cur s) by lia. subst r.
      split; symmetry; [apply F4 | apply F5]; try apply F6; lia.
  - intros q m' Hm'. destruct (evicted_bwd _ _ q m' Hev Hm') as (m & Hm & (S1 & _)).
    rewrite S1. specialize (F3 q m Hm). lia.
Qed.

Lemma OKp_write s i v nd :
  OKp s -> fresh s -> f_dur (d_in s i) <> 3 -> nd <= 3 ->
  let od := f_dur (d_in s i) in
  let r1 := if od =? D_LOW then d_revs s else report_write (d_revs s) od in
  let f' := {| f_val := v; f_changed := cur s; f_dur := nd |} in
  OKp (set_in (set_revs s r1) (upd (d_in s) i f')).
Proof.
  intros (H & D & HI & HP) Hfresh Hod Hnd od r1 f'.
  set (s' := set_in (set_revs s r1) (upd (d_in s) i f')).
  destruct (DInv_d_facts prog NF H D s (DInv_to_d prog NF H D s HI)) as (F1 & F2 & F3 & F4 & F5 & F6 & F7 & F8).
  assert (Hd3 : forall j, f_dur (d_in s j) <= 3).
  { intros j. rewrite <- (F5 j (cur s)); [apply F7 | apply F6 | lia]. }
  assert (Hc : cur s' = cur s) by (unfold cur, s', r1; cbn; destruct (od =? D_LOW); reflexivity).
  assert (Hlc : forall k, lcs s k <= lcs s' k).
  { intros k. unfold lcs, s'; cbn. unfold r1. destruct (od =? D_LOW); [lia|].
    apply lc_report_write_ge; exact F2. }
  (* the write moves every level up to the old durability to the current revision *)
  assert (Hlc_od : forall k, k <= od -> lcs s' k = cur s).
  { intros k Hk. unfold lcs, s'; cbn. unfold r1.
    destruct (N.eqb_spec od D_LOW) as [H0 | H0].
    - unfold D_LOW in H0. replace k with 0 by lia. apply lc_zero.
    - assert (Hod3 : od < 3) by (specialize (Hd3 i); fold od in Hd3; lia).
      rewrite lc_report_write.
      destruct (N.eqb_spec k 0) as [-> | Hk0]; [reflexivity|].
      destruct (N.leb_spec k od) as [_ | Hx]; [|lia].
      destruct (N.ltb_spec k 3) as [_ | Hx]; [|lia]. reflexivity. }
  assert (Hin' : forall j, j <> i -> d_in s' j = d_in s j).
  { intros j Hj. unfold s'; cbn. apply upd_other. congruence. }
  assert (Hin_i : d_in s' i = f') by (unfold s'; cbn; apply upd_same).
  exists (extend H (cur s') (snap_of s')), (extendD D (cur s') (durs_of s')).
  apply (PInv_extend H D s s' (DInv_to_d prog NF H D s HI) HP); auto; try lia.
  - unfold s', r1; cbn. destruct (od =? D_LOW); [exact F2 | apply revs_ok_report_write; exact F2].
  - apply evicted_refl.
  - intros q m Hm. specialize (Hfresh q m Hm). lia.
  - intros j. destruct (key_eqb_spec j i) as [-> | Hji]; [right; rewrite Hin_i; cbn; lia | left; exact (Hin' j Hji)].
  - intros j. destruct (key_eqb_spec j i) as [-> | Hji]; [rewrite Hin_i; exact Hnd | rewrite (Hin' j Hji); apply Hd3].
  - intros r j Hr1 Hl. rewrite Hc in Hr1.
    destruct (key_eqb_spec j i) as [-> | Hji].
    + (* the rewritten input: its old level was reported, so the window is closed *)
      exfalso.
      destruct (N.le_gt_cases (lcs s (D r i)) r) as [Hold | Hold].
      * destruct (F8 r i) as [_ B]; [lia | exact Hold|].
        rewrite Hr1 in B. rewrite (F5 i (cur s)) in B; [|apply F6 | lia].
        fold od in B. rewrite <- B in Hl. rewrite Hlc_od in Hl by lia. lia.
      * specialize (Hlc (D r i)). lia.
    + rewrite (Hin' j Hji).
      destruct (F8 r j) as [A B]; [lia | specialize (Hlc (D r j)); lia|].
      rewrite Hr1 in A, B.
      rewrite <- A, <- B. split; symmetry; [apply F4 | apply F5]; try apply F6; lia.
Qed.

Lemma OKp_d_new_revision s : OKp_d s -> OKp (new_revision fams s) /\ fresh (new_revision fams s).
Proof.
  intros Hok. destruct (InvTop.new_revision_facts fams s) as (_ & _ & C & _ & _ & F).
  apply (OKp_advance s); auto. apply new_revision_revs.
Qed.

Lemma OKp_d_zalsa_mut s : OKp_d s -> OKp_d (zalsa_mut fams s).
Proof.
  intros Hok. unfold zalsa_mut. destruct (d_ccount s =? 255).
  - apply OKp_to_d. apply OKp_d_new_revision; exact Hok.
  - apply (OKp_d_same s); auto. apply evicted_refl.
Qed.

Lemma OKp_zalsa_mut s : OKp s -> OKp (zalsa_mut fams s).
Proof.
  intros Hok. unfold zalsa_mut. destruct (d_ccount s =? 255).
  - apply OKp_d_new_revision. apply OKp_to_d; exact Hok.
  - apply (OKp_same s); auto. apply evicted_refl.
Qed.


(* ---------------------------------------------------------------- operations *)
Definition state_ok (dirty : bool) (s : db) : Prop :=
  (if dirty then OKp_d s else OKp s) /\ d_stack s = [].

Lemma state_ok_d dirty s : state_ok dirty s -> OKp_d s.
Proof. destruct dirty; intros [A _]; [exact A | apply OKp_to_d; exact A]. Qed.

Lemma state_ok_same dirty s s' :
  state_ok dirty s -> d_revs s' = d_revs s -> d_in s' = d_in s -> d_cell s' = d_cell s ->
  evicted_from (d_memo s) (d_memo s') -> d_stack s' = d_stack s -> state_ok dirty s'.
Proof.
  intros [Hok Hst] Hr Hi Hc Hev Hs. split; [| congruence].
  destruct dirty; [exact (OKp_d_same s s' Hok Hr Hi Hev) | exact (OKp_same s s' Hok Hr Hi Hc Hev)].
Qed.

Lemma state_ok_zalsa_mut dirty s : state_ok dirty s -> state_ok dirty (zalsa_mut fams s).
Proof.
  intros [Hok Hst]. split; [| rewrite zalsa_mut_stack; exact Hst].
  destruct dirty; [exact (OKp_d_zalsa_mut s Hok) | exact (OKp_zalsa_mut s Hok)].
Qed.

(* a write first cancels and opens a revision, in which nothing is verified yet *)
Lemma write_start dirty s : state_ok dirty s ->
  OKp (new_revision fams (zalsa_mut fams s)) /\ fresh (new_revision fams (zalsa_mut fams s)) /\
  d_stack (new_revision fams (zalsa_mut fams s)) = [].
Proof.
  intros Hok. destruct (OKp_d_new_revision _ (OKp_d_zalsa_mut s (state_ok_d dirty s Hok))) as [Hn Hfresh].
  split; [exact Hn |]. split; [exact Hfresh |].
  destruct (InvTop.new_revision_facts fams (zalsa_mut fams s)) as (_ & _ & _ & _ & E0 & _).
  rewrite E0, zalsa_mut_stack. apply Hok.
Qed.

Lemma step_other_ok fuel dirty s o :
  dur_op o -> state_ok dirty s -> (forall q, o <> OGet q) ->
  state_ok (dirty_after dirty o) (fst (step prog noeq fams fuel s o)).
Proof.
  intros Hdop Hok Hng.
  destruct o as [i v d | d | c v | c v | ef | q | fam n |]; cbn [step fst dirty_after].
  - (* OSet *)
    destruct (write_start dirty s Hok) as (Hn & Hfresh & Hst1).
    set (s1 := new_revision fams (zalsa_mut fams s)) in *.
    destruct (f_dur (d_in s1 i) =? D_NEVER) eqn:Hnever; cbn [fst]; [split; assumption |].
    split; [| exact Hst1].
    apply N.eqb_neq in Hnever. unfold D_NEVER in Hnever.
    assert (Hnd : match d with Some d' => d' | None => f_dur (d_in s1 i) end <= 3).
    { destruct d as [d'|]; [exact Hdop|].
      destruct Hn as (H1 & D1 & HI1 & HP1).
      rewrite <- (inv_dur _ _ _ _ _ HI1 i (cur s1)); [apply (inv_dur3 _ _ _ _ _ HI1) | apply (inv_in_le _ _ _ _ _ HI1) | lia]. }
    exact (OKp_write s1 i v _ Hn Hfresh Hnever Hnd).
  - (* OSynth *)
    destruct (write_start dirty s Hok) as (Hn & Hfresh & Hst1).
    set (s1 := new_revision fams (zalsa_mut fams s)) in *.
    destruct (d =? D_NEVER); cbn [fst]; [split; assumption |].
    split; [| exact Hst1].
    assert (Hrv1 : revs_ok (d_revs s1)) by (destruct Hn as (H1 & D1 & HI1 & HP1); apply (inv_revs _ _ _ _ _ HI1)).
    apply (OKp_revs s1); auto.
    + cbn. apply revs_ok_report_write; exact Hrv1.
    + intros k. unfold lcs; cbn. apply lc_report_write_ge; exact Hrv1.
    + apply evicted_refl.
  - (* OSetCell: only the cells move, which the invariant modulo cells ignores *)
    split; [| apply Hok]. apply (OKp_d_same s); [exact (state_ok_d dirty s Hok) | reflexivity | reflexivity | apply evicted_refl].
  - (* OSetPanic *)
    apply (state_ok_same dirty s); auto. apply evicted_refl.
  - (* OSetEvFault *)
    apply (state_ok_same dirty s); auto. apply evicted_refl.
  - destruct (Hng q eq_refl).
  - (* OSetLru *)
    apply (state_ok_same dirty (zalsa_mut fams s)); auto; [apply state_ok_zalsa_mut; exact Hok | apply evicted_refl].
  - (* OEvict *)
    destruct (evict_all_facts fams (zalsa_mut fams s)) as (_ & _ & A3 & A4 & A5).
    apply (state_ok_same dirty (zalsa_mut fams s)); auto;
      [apply state_ok_zalsa_mut; exact Hok | apply evict_all_revs | apply evict_all_stack].
Qed.


(* ---------------------------------------------------------------- a Get *)
Lemma runo_ext : forall b ein ecell ein' ecell' (eq eq' : qkey -> option val),
  (forall i, ein i = ein' i) -> (forall c, ecell c = ecell' c) -> (forall d, eq d = eq' d) ->
  runo ein ecell eq b = runo ein' ecell' eq' b.
Proof.
  induction b as [v0 | i k IH | d k IH | c k IH | k IH | pc k IH]; intros ein ecell ein' ecell' eq eq' Hi Hc Hq;
    cbn [runo].
  - reflexivity.
  - rewrite (Hi i). apply IH; assumption.
  - rewrite (Hq d). destruct (eq' d); [apply IH; assumption | reflexivity].
  - rewrite (Hc c). apply IH; assumption.
  - apply IH; assumption.
  - apply IH; assumption.
Qed.

Lemma evalo_snap_eq a b : snap_eq a b -> forall n q, evalo prog n a q = evalo prog n b q.
Proof.
  intros [Hi Hc]. induction n as [| n IH]; intros q; [reflexivity |]. cbn [evalo].
  apply runo_ext; assumption.
Qed.

(* the outcome of a Get: an injected fault while a fault switch is on, or exactly what the
   from-scratch evaluation at the current snapshot says *)
Definition get_ok_part (s : db) (q : qkey) (r : out) : Prop :=
  (r = Panic PInjected /\ ((exists c, d_pcell s c <> 0) \/ d_evfault s <> None)) \/
  match evalo prog NF (snap_of s) q with
  | Some v => r = Ok v
  | None => r = Panic PCycle
  end.

Definition op_listed (o : op) : Prop := match o with OGet q => In q ns | _ => True end.

Fixpoint outs_part (fuel : nat) (s : db) (os : list op) : Prop :=
  match os with
  | [] => True
  | o :: os' =>
      (match o with OGet q => get_ok_part s q (snd (step prog noeq fams fuel s o)) | _ => True end) /\
      outs_part fuel (fst (step prog noeq fams fuel s o)) os'
  end.

Lemma step_get_ok' fuel s q :
  (length ns <= fuel)%nat -> In q ns -> state_ok false s ->
  get_ok_part s q (snd (step prog noeq fams fuel s (OGet q))) /\
  state_ok false (fst (step prog noeq fams fuel s (OGet q))).
Proof.
  intros Hfuel Hq [(H & D & HI & HP) Hst]. cbn [step].
  assert (Hctx : ctx [] s) by (split; [exact Hst | intros p m []]).
  pose proof (proj1 (plevel_ok prog noeq ns Hclosed NF HNF H D (S fuel) [] (room_nil ns fuel Hfuel))
                q s Hq (conj HI HP) Hctx) as Hwp.
  cbn [level l_fetch] in Hwp.
  pose proof (DInv_snap prog NF H D s HI) as Hsn.
  unfold wp in Hwp. unfold get_ok_part.
  rewrite <- (evalo_snap_eq _ _ Hsn NF q).
  destruct (fetch prog noeq (level prog noeq fuel) q s) as [s' [[[v d] c] | p |]] eqn:Hf.
  - cbn [fst snd].
    destruct Hwp as (([HI' HP'] & _ & _ & Hs') & Hv & (m & Hm & Hvm & _)). cbn [fst snd] in Hv.
    split.
    + right. destruct (HP' q m Hm) as (_ & Hac & _). rewrite Hvm in Hac.
      rewrite (acs_value prog ns Hclosed NF HNF (H (cur s)) q Hq Hac). f_equal. exact Hv.
    + split; [exists H, D; split; assumption | congruence].
  - cbn [fst snd]. destruct Hwp as (Hp & HI' & _).
    split.
    + destruct Hp as [[-> Ha] | [-> Hb]]; [left; split; [reflexivity | exact Ha] | right].
      rewrite (qblk_nil prog (H (cur s)) q Hb NF). reflexivity.
    + split; [| reflexivity].
      exists H, D. apply (PInv_core_eq prog ns NF H D s'); [repeat split | exact HI'].
  - destruct Hwp.
Qed.

(* The from-scratch theorem for programs that may be cyclic: every well-formed history, inputs
   and writes of any durability. *)
Theorem from_scratch_part fuel :
  (length ns <= fuel)%nat ->
  forall ops dirty s, Forall dur_op ops -> Forall op_listed ops -> wf_ops dirty ops ->
  state_ok dirty s -> outs_part fuel s ops.
Proof.
  intros Hfuel. induction ops as [|o ops IH]; intros dirty s Hdur Hlist Hwf Hok; [exact I|].
  inversion Hdur as [|? ? Hdo Hdurs]; subst. inversion Hlist as [|? ? Hlo Hlists]; subst.
  destruct (wf_ops_cons dirty o ops Hwf) as [Hclean Hwf'].
  assert (Hstep : state_ok (dirty_after dirty o) (fst (step prog noeq fams fuel s o)) /\
                  match o with OGet q => get_ok_part s q (snd (step prog noeq fams fuel s o)) | _ => True end).
  { destruct o as [i v d | d | c v | c v | ef | q | fam n |];
      try (split; [apply (step_other_ok fuel dirty s _ Hdo Hok); discriminate | exact I]).
    rewrite (Hclean q eq_refl) in Hok. destruct (step_get_ok' fuel s q Hfuel Hlo Hok) as [Hg Hs]. split; assumption. }
  cbn [outs_part]. split; [apply Hstep | exact (IH _ _ Hdurs Hlists Hwf' (proj1 Hstep))].
Qed.

Lemma init_ok_part iv idur lru0 : (forall i, idur i <= 3) -> state_ok false (init iv idur lru0).
Proof.
  intros Hid. split; [|reflexivity].
  exists (fun _ => snap_of (init iv idur lru0)), (fun _ => idur). split.
  - constructor.
    + cbn. unfold REV_START. lia.
    + cbn. unfold revs_ok, REV_START; cbn. lia.
    + intros i r _ _. reflexivity.
    + intros i r _ _. reflexivity.
    + intros i. cbn. unfold REV_START. lia.
    + intros c. reflexivity.
    + intros r i. apply Hid.
    + intros r i _ _. split; reflexivity.
    + intros q m Hm. discriminate.
  - intros q m Hm. discriminate.
Qed.

Theorem from_scratch_part_init fuel :
  (length ns <= fuel)%nat ->
  forall iv idur lru0 ops, (forall i, idur i <= 3) -> Forall dur_op ops -> Forall op_listed ops ->
  wf_ops false ops -> outs_part fuel (init iv idur lru0) ops.
Proof.
  intros Hfuel iv idur lru0 ops Hid Hdur Hlist Hwf.
  apply (from_scratch_part fuel Hfuel ops false _ Hdur Hlist Hwf). apply init_ok_part. exact Hid.
Qed.


(* ---------------------------------------------------------------- the same, per Get of a history *)
Lemma run_ops_fst_cons fuel s o os :
  fst (run_ops prog noeq fams fuel s (o :: os)) =
  fst (run_ops prog noeq fams fuel (fst (step prog noeq fams fuel s o)) os).
Proof.
  cbn [run_ops]. destruct (step prog noeq fams fuel s o) as [s1 r]. cbn [fst].
  destruct (run_ops prog noeq fams fuel s1 os) as [s2 rs]. reflexivity.
Qed.

Lemma outs_part_at fuel : forall pre s q post,
  outs_part fuel s (pre ++ OGet q :: post) ->
  get_ok_part (fst (run_ops prog noeq fams fuel s pre)) q
    (snd (step prog noeq fams fuel (fst (run_ops prog noeq fams fuel s pre)) (OGet q))).
Proof.
  induction pre as [| o pre IH]; intros s q post Hout.
  - cbn [app outs_part run_ops fst] in *. exact (proj1 Hout).
  - rewrite run_ops_fst_cons. cbn [app outs_part] in Hout. apply (IH _ q post). exact (proj2 Hout).
Qed.

Theorem usable_afterwards fuel :
  (length ns <= fuel)%nat ->
  forall iv idur lru0 pre q, (forall i, idur i <= 3) ->
  Forall dur_op (pre ++ [OGet q]) -> Forall op_listed (pre ++ [OGet q]) -> wf_ops false (pre ++ [OGet q]) ->
  get_ok_part (fst (run_ops prog noeq fams fuel (init iv idur lru0) pre)) q
    (snd (step prog noeq fams fuel (fst (run_ops prog noeq fams fuel (init iv idur lru0) pre)) (OGet q))).
Proof.
  intros Hfuel iv idur lru0 pre q Hid Hdur Hlist Hwf.
  apply (outs_part_at fuel pre (init iv idur lru0) q []).
  apply (from_scratch_part_init fuel Hfuel iv idur lru0 _ Hid Hdur Hlist Hwf).
Qed.

(* ---------------------------------------------------------------- sanity: acyclic programs *)
Section Acyclic.
Variable rank : qkey -> nat.
Hypothesis Hrank : calls_below prog rank.
Hypothesis Hbound : forall q, (rank q < NF)%nat.

Lemma runo_total : forall b ein ecell (eq : qkey -> option val),
  (forall d, calls b d -> exists w, eq d = Some w) -> exists v, runo ein ecell eq b = Some v.
Proof.
  induction b as [v0 | i k IH | d k IH | c k IH | k IH | pc k IH]; intros ein ecell eq Hall; cbn [runo].
  - eauto.
  - apply IH. intros d Hd. apply Hall. econstructor; exact Hd.
  - destruct (Hall d (calls_here d k)) as (w & ->). apply IH. intros d' Hd. apply Hall. econstructor; exact Hd.
  - apply IH. intros d Hd. apply Hall. econstructor; exact Hd.
  - apply IH. intros d Hd. apply Hall. constructor; exact Hd.
  - apply IH. intros d Hd. apply Hall. constructor; exact Hd.
Qed.

Lemma rank_acs sn : forall n q, (rank q < n)%nat -> exists v, evalo prog n sn q = Some v.
Proof.
  induction n as [| n IH]; intros q Hq; [lia |]. cbn [evalo].
  apply runo_total. intros d Hd. apply IH. pose proof (Hrank q d Hd). lia.
Qed.

Lemma get_ok_part_strict s q r : get_ok_part s q r -> get_ok_strict prog NF s q r.
Proof.
  intros [Hx | Hx]; [right; exact Hx | left].
  destruct (rank_acs (snap_of s) NF q (Hbound q)) as (v & Hv). rewrite Hv in Hx.
  rewrite Hx. f_equal. symmetry. apply (eval_evalo prog ns NF HNF (snap_of s) NF q v Hv NF). lia.
Qed.

Lemma outs_part_strict fuel : forall os s, outs_part fuel s os -> outs_ok_strict prog noeq fams NF fuel s os.
Proof.
  induction os as [| o os IH]; intros s Hx; [exact I |].
  cbn [outs_part outs_ok_strict] in *. destruct Hx as [A B]. split; [| apply IH; exact B].
  destruct o; try exact I. apply get_ok_part_strict; exact A.
Qed.

(* [from_scratch_dur_strong_init] of Core/DInvTop.v, for the Gets of listed keys *)
Corollary from_scratch_dur_strong_init_again fuel :
  (length ns <= fuel)%nat ->
  forall iv idur lru0 ops, (forall i, idur i <= 3) -> Forall dur_op ops -> Forall op_listed ops ->
  wf_ops false ops -> outs_ok_strict prog noeq fams NF fuel (init iv idur lru0) ops.
Proof.
  intros Hfuel iv idur lru0 ops Hid Hdur Hlist Hwf. apply outs_part_strict.
  apply (from_scratch_part_init fuel Hfuel iv idur lru0 ops Hid Hdur Hlist Hwf).
Qed.

End Acyclic.

End Top.
