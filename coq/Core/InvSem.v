(* Core/InvSem.v — the semantic lemmas of the LOW-durability proof: when is a memo that is marked
   verified now, or freshly computed now, ok with respect to the history. *)
From Salsa Require Import Base.
From Salsa.Kern Require Import CoreK CoreKFacts.
From Salsa.Core Require Import Model Spec SpecProofs Wp Inv InvFrame.

Section Sem.
Variable prog : qkey -> body.
Variable rank : qkey -> nat.
Hypothesis Hrank : calls_below prog rank.
Variable NF : nat.
Hypothesis Hbound : forall q, (rank q < NF)%nat.
Notation E := (E prog NF).
Notation tr := (tr prog NF).
Notation envat := (envat prog NF).
Notation memo_ok := (memo_ok prog NF).
Notation Inv := (Inv prog NF).
Notation quiet := (quiet prog NF).

Definition reverify (m : memo) (now : rev) : memo :=
  {| m_val := m_val m; m_verified := now; m_changed := m_changed m; m_dur := m_dur m;
     m_untracked := m_untracked m; m_edges := m_edges m |}.

Lemma reverify_same m : reverify m (m_verified m) = m.
Proof. destruct m; reflexivity. Qed.

(* A memo whose recorded reads all still have the answers they had when it was verified
   may be marked verified now. *)
Lemma revalidate_ok H s q m :
  Inv H s -> d_memo s q = Some m ->
  agree_on (envat H (m_verified m)) (envat H (cur s)) (tr H (m_verified m) q) ->
  (forall d, In (EQ d) (m_edges m) -> seen s d (cur s)) ->
  let m' := reverify m (cur s) in
  Inv H (store s q m') /\ ext s (store s q m') /\ E H (cur s) q = E H (m_verified m) q.
Proof.
  intros HI Hm Hag Hedges m'.
  pose proof (inv_memo _ _ _ _ HI q m Hm) as Hok.
  destruct (trace_determined (prog q) _ _ Hag) as [Htr Hrun].
  assert (HE : E H (cur s) q = E H (m_verified m) q).
  { rewrite !(E_unfold prog rank Hrank NF Hbound). exact Hrun. }
  assert (Htr' : tr H (cur s) q = tr H (m_verified m) q) by exact Htr.
  destruct Hok as [Hord Hval Hrin Hrq Hrcell Hedg Hchg Huntr Hdur Hseen0].
  enough (Hfin : Inv H (store s q m') /\ ext s (store s q m'))
    by (destruct Hfin as [A B]; split; [exact A | split; [exact B | exact HE]]).
  apply (Inv_store prog NF H s q m' HI eq_refl).
  - (* the re-verified memo is ok: the clauses of the old one, moved to the current revision *)
    constructor; cbn [m' reverify m_val m_verified m_changed m_dur m_untracked m_edges];
      rewrite ?cur_store, ?Htr'; auto.
    + (* mo_order *) pose proof (inv_cur _ _ _ _ HI). lia.
    + (* mo_val *) intros x Hx. rewrite HE. apply Hval; exact Hx.
    + (* mo_edges_q *) intros d0 Hd0. destruct (Hedg d0 Hd0) as [Hin _]. split; [exact Hin|].
      apply seen_store; right. apply Hedges; exact Hd0.
    + (* mo_changed *) intros r Hr Hle. apply seen_store in Hr. destruct Hr as [[_ ->] | Hr]; [reflexivity|].
      rewrite HE. apply Hchg; assumption.
    + (* mo_seen *) apply seen_store; left; split; reflexivity.
  - (* the callees of the trace are seen now, or quiet *)
    intros d0 Hd0. rewrite Htr' in Hd0. destruct (Hrq d0 Hd0) as [Hin | Hq]; [left | right; exact Hq].
    apply Hedges; exact Hin.
  - (* q's memo, if valid now, is m *)
    intros m0 Hm0 Hv0 _. rewrite Hm in Hm0. injection Hm0 as <-.
    unfold m'. rewrite <- Hv0. symmetry. apply reverify_same.
Qed.

Lemma quiet_agree H q r r' : quiet q -> agree_on (envat H r) (envat H r') (tr H r q).
Proof.
  intros Hq x Hx. destruct Hq as [q Hq].
  destruct (Hq (H r) x Hx) as (d & -> & Hd). cbn.
  apply (quiet_E prog rank Hrank NF Hbound); exact Hd.
Qed.

(* With LOW inputs the durability short-cut only ever fires for quiet queries. *)
Lemma shortcut_ok H s q m :
  Inv H s -> d_memo s q = Some m -> m_verified m <> cur s ->
  last_changed (d_revs s) (m_dur m) <= m_verified m ->
  let m' := reverify m (cur s) in
  Inv H (store s q m') /\ ext s (store s q m') /\ E H (cur s) q = E H (m_verified m) q.
Proof.
  intros HI Hm Hne Hlc.
  pose proof (inv_memo _ _ _ _ HI q m Hm) as Hok.
  destruct (mo_dur _ _ _ _ _ _ Hok) as [H0 | (_ & _ & Hq & Hed)].
  - exfalso. rewrite H0, last_changed_low in Hlc.
    pose proof (mo_order _ _ _ _ _ _ Hok) as (_ & _ & Hle). unfold cur in *. lia.
  - apply (revalidate_ok H s q m HI Hm (quiet_agree H q _ _ Hq)).
    rewrite Hed. intros d [].
Qed.

Lemma deep_ok H s q m :
  Inv H s -> d_memo s q = Some m -> m_untracked m = false ->
  (forall e, In e (m_edges m) ->
     match e with
     | EIn i => f_changed (d_in s i) <= m_verified m
     | EQ d => E H (m_verified m) d = E H (cur s) d /\ seen s d (cur s)
     end) ->
  let m' := reverify m (cur s) in
  Inv H (store s q m') /\ ext s (store s q m') /\ E H (cur s) q = E H (m_verified m) q.
Proof.
  intros HI Hm Hu Hc.
  pose proof (inv_memo _ _ _ _ HI q m Hm) as Hok.
  apply (revalidate_ok H s q m HI Hm).
  - intros x Hx. destruct x as [i | d | c |]; cbn.
    + pose proof (Hc _ (mo_reads_in _ _ _ _ _ _ Hok i Hx)) as Hle. cbn in Hle.
      pose proof (mo_order _ _ _ _ _ _ Hok) as (_ & _ & Hv).
      rewrite (inv_in _ _ _ _ HI i (m_verified m) Hle Hv).
      rewrite (inv_in _ _ _ _ HI i (cur s)); [reflexivity | apply (inv_in_le _ _ _ _ HI) | lia].
    + destruct (mo_reads_q _ _ _ _ _ _ Hok d Hx) as [Hin | Hq].
      * exact (proj1 (Hc _ Hin)).
      * apply (quiet_E prog rank Hrank NF Hbound); exact Hq.
    + rewrite (mo_reads_cell _ _ _ _ _ _ Hok (RCell c) Hx) in Hu; [discriminate | right; eauto].
    + reflexivity.
  - intros d Hd. exact (proj2 (Hc _ Hd)).
Qed.

Lemma In_add_edge e' es e : In e' (add_edge es e) <-> In e' es \/ e' = e.
Proof.
  unfold add_edge. destruct (existsb (edge_eqb e) es) eqn:Hex.
  - split; [auto|]. intros [Hin | ->]; [exact Hin|].
    apply existsb_exists in Hex. destruct Hex as (x & Hx & Heq).
    assert (x = e); [|subst; exact Hx].
    destruct e as [i | d], x as [j | d']; cbn in Heq; try discriminate;
      apply key_eqb_eq in Heq; congruence.
  - rewrite in_app_iff. cbn. split.
    + intros [A | [A | []]]; [left; exact A | right; symmetry; exact A].
    + intros [A | A]; [left; exact A | right; left; symmetry; exact A].
Qed.

Lemma edges_add_read fr e d c :
  (forall e', In e' (fr_edges fr) -> In e' (fr_edges (add_read fr e d c))) /\
  (d <> D_NEVER -> In e (fr_edges (add_read fr e d c))) /\
  (forall e', In e' (fr_edges (add_read fr e d c)) -> In e' (fr_edges fr) \/ e' = e).
Proof.
  cbn. destruct (N.eqb_spec d D_NEVER) as [Hd | Hd].
  - split; [intros e' A; exact A|]. split; [intros Hn; contradiction | intros e' A; left; exact A].
  - split; [intros e' A; apply In_add_edge; left; exact A|].
    split; [intros _; apply In_add_edge; right; reflexivity | intros e' A; apply In_add_edge; exact A].
Qed.

Inductive tracked (s : db) : rd -> edge -> dur -> rev -> Prop :=
| tracked_in i : tracked s (RIn i) (EIn i) (f_dur (d_in s i)) (f_changed (d_in s i))
| tracked_q d md : d_memo s d = Some md -> m_verified md = cur s -> m_val md <> None ->
    tracked s (RQ d) (EQ d) (m_dur md) (m_changed md).

(* The frame fr accounts for the reads pre performed so far in the current revision: every
   read is recorded with its stamp and durability folded into the frame ([cv_in], [cv_q]: the
   callee's memo is valid now and has a value; its edge may be missing only when it never
   changes; [cv_cell]: an untracked read sets the flag, the stamp [cur s] and LOW), and
   nothing else is recorded ([cv_edges_in], [cv_edges_q]). *)
Record covers (s : db) (pre : list rd) (fr : frame) : Prop := {
  cv_in : forall i, In (RIn i) pre ->
          In (EIn i) (fr_edges fr) /\ f_changed (d_in s i) <= fr_changed fr /\ fr_dur fr = 0;
  cv_q : forall d, In (RQ d) pre ->
         exists md, d_memo s d = Some md /\ m_verified md = cur s /\ m_val md <> None /\
                    m_changed md <= fr_changed fr /\ fr_dur fr <= m_dur md /\
                    (In (EQ d) (fr_edges fr) \/ m_dur md = 3);
  cv_cell : forall x, In x pre -> (x = RTouch \/ exists c, x = RCell c) ->
            fr_untracked fr = true /\ fr_changed fr = cur s /\ fr_dur fr = 0;
  cv_edges_in : forall i, In (EIn i) (fr_edges fr) -> In (RIn i) pre;
  cv_edges_q : forall d, In (EQ d) (fr_edges fr) -> In (RQ d) pre;
  cv_le : fr_changed fr <= cur s;
  cv_dur : fr_dur fr = 0 \/ fr_dur fr = 3;
  cv_untr : fr_untracked fr = true -> fr_dur fr = 0
}.

Lemma covers_frame0 s : 1 <= cur s -> covers s [] frame0.
Proof.
  intros Hc. constructor.
  - intros i [].
  - intros d [].
  - intros x [].
  - intros i [].
  - intros d [].
  - exact Hc.
  - right; reflexivity.
  - discriminate.
Qed.

(* the memo built by execute from a completed frame *)
Definition fresh_memo (v : val) (now : rev) (ch : rev) (fr : frame) : memo :=
  {| m_val := Some v; m_verified := now; m_changed := ch; m_dur := fr_dur fr;
     m_untracked := fr_untracked fr;
     m_edges := if (fr_dur fr =? D_NEVER) && negb (fr_untracked fr) then [] else fr_edges fr |}.

Lemma quiet_of_covers H s q fr :
  Inv H s -> covers s (tr H (cur s) q) fr -> fr_dur fr = 3 -> quiet q.
Proof.
  intros HI Hcv Hd.
  assert (Hall : forall x, In x (tr H (cur s) q) -> exists d, x = RQ d /\ quiet d).
  { intros x Hx. destruct x as [i | d | c |].
    - destruct (cv_in _ _ _ Hcv i Hx) as (_ & _ & H0). rewrite H0 in Hd; discriminate.
    - exists d; split; [reflexivity|].
      destruct (cv_q _ _ _ Hcv d Hx) as (md & Hmd & _ & _ & _ & Hle & _).
      pose proof (inv_memo _ _ _ _ HI d md Hmd) as Hok.
      destruct (mo_dur _ _ _ _ _ _ Hok) as [H0 | (_ & _ & Hq & _)]; [|exact Hq].
      rewrite Hd, H0 in Hle. lia.
    - destruct (cv_cell _ _ _ Hcv (RCell c) Hx) as (_ & _ & H0); [right; eauto|].
      rewrite H0 in Hd; discriminate.
    - destruct (cv_cell _ _ _ Hcv RTouch Hx) as (_ & _ & H0); [left; reflexivity|].
      rewrite H0 in Hd; discriminate. }
  constructor. intros sn x Hx.
  assert (Hsame : trace (env_of prog NF sn) (prog q) = tr H (cur s) q).
  { destruct (trace_determined (prog q) (envat H (cur s)) (env_of prog NF sn)) as [Ht _]; [|exact Ht].
    intros y Hy. destruct (Hall y Hy) as (d & -> & Hq). cbn.
    apply (quiet_const prog rank Hrank NF Hbound); exact Hq. }
  rewrite Hsame in Hx. apply Hall; exact Hx.
Qed.

(* A freshly computed memo is ok: the changed_at clause is the interesting one. *)
Lemma fresh_memo_ok H s q fr v ch (old : option memo) :
  Inv H s ->
  covers s (tr H (cur s) q) fr ->
  v = E H (cur s) q ->
  d_memo s q = old ->
  (forall m0, old = Some m0 -> m_verified m0 = cur s -> m_val m0 = None) ->
  (* ch is either the frame's stamp, or the old memo's stamp when the value is unchanged *)
  (ch = fr_changed fr \/
   exists o ov, old = Some o /\ m_val o = Some ov /\ ov = v /\ ch = m_changed o) ->
  let m' := fresh_memo v (cur s) ch fr in
  Inv H (store s q m') /\ ext s (store s q m').
Proof.
  intros HI Hcv Hv Hold Hnv Hch m'.
  assert (Hclos : forall d, In (RQ d) (tr H (cur s) q) -> seen s d (cur s) \/ quiet d).
  { intros d Hd. left.
    destruct (cv_q _ _ _ Hcv d Hd) as (md & Hmd & Hvd & _).
    pose proof (mo_seen _ _ _ _ _ _ (inv_memo _ _ _ _ HI d md Hmd)) as Hs.
    rewrite Hvd in Hs. exact Hs. }
  (* q has no memo that is valid and has a value: the stored memo replaces nothing of use *)
  assert (Hsame : forall m0, d_memo s q = Some m0 -> m_verified m0 = cur s -> m_val m0 <> None -> m0 = m').
  { intros m0 Hm0 Hv0 Hx0. exfalso. apply Hx0. apply Hnv; [congruence | exact Hv0]. }
  apply (Inv_store prog NF H s q m' HI eq_refl); [|exact Hclos | exact Hsame].
  (* what is left: [memo_ok] of the new memo *)
  assert (Hch_le : ch <= cur s).
  { destruct Hch as [-> | (o & ov & Ho & _ & _ & ->)].
    - apply (cv_le _ _ _ Hcv).
    - subst old. pose proof (mo_order _ _ _ _ _ _ (inv_memo _ _ _ _ HI q o Ho)). lia. }
  assert (Hedges_sub : forall e, In e (m_edges m') -> In e (fr_edges fr)).
  { intros e. cbn. destruct ((fr_dur fr =? D_NEVER) && negb (fr_untracked fr)); [intros [] | auto]. }
  constructor; cbn [m' fresh_memo m_val m_verified m_changed m_dur m_untracked]; rewrite ?cur_store.
  - pose proof (inv_cur _ _ _ _ HI). lia.
  - intros x Hx. injection Hx as <-. exact Hv.
  - intros i Hi. destruct (cv_in _ _ _ Hcv i Hi) as (Hin & _ & H0).
    cbn. rewrite H0. cbn. exact Hin.
  - intros d Hd. destruct (cv_q _ _ _ Hcv d Hd) as (md & Hmd & _ & _ & _ & Hle & Hor).
    pose proof (inv_memo _ _ _ _ HI d md Hmd) as Hok.
    assert (Hq3 : m_dur md = 3 -> quiet d).
    { intros H3. destruct (mo_dur _ _ _ _ _ _ Hok) as [H0 | (_ & _ & Hq & _)]; [|exact Hq].
      rewrite H0 in H3; discriminate. }
    cbn. destruct ((fr_dur fr =? D_NEVER) && negb (fr_untracked fr)) eqn:Hb.
    + right. apply Hq3. apply andb_true_iff in Hb. destruct Hb as [Hb _].
      apply N.eqb_eq in Hb. unfold D_NEVER in Hb. rewrite Hb in Hle.
      destruct (mo_dur _ _ _ _ _ _ Hok) as [H0 | (H3 & _)]; [rewrite H0 in Hle; lia | exact H3].
    + destruct Hor as [Hin | H3]; [left; exact Hin | right; apply Hq3; exact H3].
  - intros x Hx Hc. destruct (cv_cell _ _ _ Hcv x Hx Hc) as (Hu & _). exact Hu.
  - intros d Hd. apply Hedges_sub in Hd.
    pose proof (cv_edges_q _ _ _ Hcv d Hd) as Hin. split; [exact Hin|].
    apply seen_store; right. destruct (Hclos d Hin) as [Hs | Hq]; [exact Hs|].
    (* quiet callees are still seen: they were fetched *)
    destruct (cv_q _ _ _ Hcv d Hin) as (md & Hmd & Hvd & _).
    pose proof (mo_seen _ _ _ _ _ _ (inv_memo _ _ _ _ HI d md Hmd)) as Hs.
    rewrite Hvd in Hs. exact Hs.
  - (* changed_at *)
    intros r Hr Hle. apply seen_store in Hr. destruct Hr as [[_ ->] | Hr]; [reflexivity|].
    destruct (inv_seen _ _ _ _ HI q r Hr) as (Hrle & _ & Hcl).
    destruct (N.eq_dec r (cur s)) as [-> | Hrne]; [reflexivity|].
    assert (Hrlt : r < cur s) by lia.
    destruct Hch as [-> | (o & ov & Ho & Hov & Heq & ->)].
    + (* not backdated: every read of the new run has a stamp <= r *)
      rewrite !(E_unfold prog rank Hrank NF Hbound).
      apply (trace_determined (prog q) (envat H (cur s)) (envat H r)).
      apply agree_on_common. change (forall x, In x (tr H (cur s) q) -> In x (tr H r q) ->
                                       answer (envat H (cur s)) x = answer (envat H r) x).
      intros x Hx Hx'. destruct x as [i | d | c |]; cbn.
      * destruct (cv_in _ _ _ Hcv i Hx) as (_ & Hst & _).
        rewrite (inv_in _ _ _ _ HI i (cur s)); [|apply (inv_in_le _ _ _ _ HI) | lia].
        rewrite (inv_in _ _ _ _ HI i r); [reflexivity | lia | lia].
      * destruct (cv_q _ _ _ Hcv d Hx) as (md & Hmd & Hvd & _ & Hcd & _).
        destruct (Hcl d Hx') as [Hsd | Hq].
        -- pose proof (mo_changed _ _ _ _ _ _ (inv_memo _ _ _ _ HI d md Hmd) r Hsd) as Hc.
           rewrite Hvd in Hc. symmetry. apply Hc. lia.
        -- apply (quiet_E prog rank Hrank NF Hbound); exact Hq.
      * destruct (cv_cell _ _ _ Hcv (RCell c) Hx) as (_ & Hcc & _); [right; eauto | lia].
      * reflexivity.
    + (* backdated: the value equals the old one *)
      subst old.
      pose proof (inv_memo _ _ _ _ HI q o Ho) as Hok.
      rewrite (mo_changed _ _ _ _ _ _ Hok r Hr Hle).
      rewrite <- (mo_val _ _ _ _ _ _ Hok ov Hov). rewrite Heq. exact Hv.
  - intros Hu. apply (cv_untr _ _ _ Hcv Hu).
  - destruct (cv_dur _ _ _ Hcv) as [H0 | H3]; [left; exact H0 | right].
    assert (Hu : fr_untracked fr = false).
    { destruct (fr_untracked fr) eqn:Hu; [|reflexivity].
      rewrite (cv_untr _ _ _ Hcv Hu) in H3; discriminate. }
    split; [exact H3|]. split; [exact Hu|]. split.
    + apply (quiet_of_covers H s q fr HI Hcv H3).
    + cbn. rewrite H3, Hu. reflexivity.
  - apply seen_store; left; split; reflexivity.
Qed.

End Sem.
