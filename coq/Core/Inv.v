(* Core/Inv.v — the invariant of the Core model, relative to a ghost history of snapshots.
   Definitions and basic facts. *)
From Salsa Require Import Base.
From Salsa.Kern Require Import CoreK CoreKFacts.
From Salsa.Core Require Import Model Spec SpecProofs Wp.

Section Inv.
Variable prog : qkey -> body.
Variable rank : qkey -> nat.
Hypothesis Hrank : calls_below prog rank.
Variable NF : nat.                       (* a bound above every rank *)
Hypothesis Hbound : forall q, (rank q < NF)%nat.

Definition hist := rev -> snapshot.

Definition E (H : hist) (r : rev) (q : qkey) : val := eval prog NF (H r) q.

Definition envat (H : hist) (r : rev) : env :=
  {| e_in := sn_in (H r); e_cell := sn_cell (H r); e_q := E H r |}.

Definition tr (H : hist) (r : rev) (q : qkey) : list rd := trace (envat H r) (prog q).

Lemma E_unfold H r q : E H r q = run (envat H r) (prog q).
Proof.
  unfold E. pose proof (Hbound q) as Hq.
  destruct NF as [|n] eqn:HN; [inversion Hq|].
  cbn [eval].
  set (e := {| e_in := sn_in (H r); e_cell := sn_cell (H r); e_q := eval prog n (H r) |}).
  destruct (trace_determined (prog q) e (envat H r)) as [_ Hr]; [|symmetry; exact Hr].
  intros x Hx; destruct x as [i | d | c |]; cbn; try reflexivity.
  apply calls_of_trace in Hx. apply Hrank in Hx.
  unfold E. rewrite HN.
  apply (eval_fuel_irrelevant prog rank Hrank); lia.
Qed.

Lemma tr_calls H r q d : In (RQ d) (tr H r q) -> (rank d < rank q)%nat.
Proof. intros Hx. apply calls_of_trace in Hx. apply Hrank in Hx. exact Hx. Qed.

Definition env_of (sn : snapshot) : env :=
  {| e_in := sn_in sn; e_cell := sn_cell sn; e_q := eval prog NF sn |}.

(* A query is quiet when, under every snapshot, it performs no input, cell or untracked
   read and calls only quiet queries: these are the queries whose memo has durability
   NEVER_CHANGE when every input is LOW. *)
Inductive quiet : qkey -> Prop :=
| quiet_intro q :
    (forall sn x, In x (trace (env_of sn) (prog q)) -> exists d, x = RQ d /\ quiet d) -> quiet q.

Lemma eval_unfold sn q : eval prog NF sn q = run (env_of sn) (prog q).
Proof.
  exact (E_unfold (fun _ => sn) 0 q).
Qed.

Lemma quiet_const_n : forall n q, (rank q < n)%nat -> quiet q ->
  forall sn sn', eval prog NF sn q = eval prog NF sn' q.
Proof.
  induction n as [|n IH]; intros q Hn Hq sn sn'; [inversion Hn|].
  destruct Hq as [q Hq].
  rewrite !eval_unfold.
  destruct (trace_determined (prog q) (env_of sn) (env_of sn')) as [_ Hr]; [|symmetry; exact Hr].
  intros x Hx. destruct (Hq sn x Hx) as (d & -> & Hd). cbn.
  apply IH; [|exact Hd].
  apply calls_of_trace in Hx. apply Hrank in Hx. lia.
Qed.

Lemma quiet_const q : quiet q -> forall sn sn', eval prog NF sn q = eval prog NF sn' q.
Proof. intros Hq. apply (quiet_const_n (S (rank q))); [lia | exact Hq]. Qed.

Lemma quiet_E H q : quiet q -> forall r r', E H r q = E H r' q.
Proof. intros Hq r r'. apply quiet_const; exact Hq. Qed.

Lemma envat_env_of H r : envat H r = env_of (H r).
Proof. reflexivity. Qed.

Definition seen (s : db) (q : qkey) (r : rev) : Prop := In (q, r) (d_seen s).

(* What the history says about a memo m stored for q.  [mo_val]: the value is the
   specification's at the revision m was verified in.  [mo_reads_*]: every read of the
   specification's trace at that revision is recorded -- an input as an edge, a callee as an
   edge unless it is quiet, an untracked read by the flag.  [mo_edges_q]: a recorded callee is
   really called, and was seen at that revision.  [mo_changed]: the promise of changed_at --
   at every revision r at which q was seen, from [m_changed m] on, q has the value it has at
   [m_verified m].  [mo_dur]: with LOW inputs only two durabilities occur, LOW (0), and
   NEVER_CHANGE (3) for a quiet query, whose memo then carries no edges. *)
Record memo_ok (H : hist) (s : db) (q : qkey) (m : memo) : Prop := {
  mo_order : 1 <= m_verified m /\ m_changed m <= m_verified m /\ m_verified m <= cur s;
  mo_val : forall x, m_val m = Some x -> x = E H (m_verified m) q;
  mo_reads_in : forall i, In (RIn i) (tr H (m_verified m) q) -> In (EIn i) (m_edges m);
  mo_reads_q : forall d, In (RQ d) (tr H (m_verified m) q) -> In (EQ d) (m_edges m) \/ quiet d;
  mo_reads_cell : forall x, In x (tr H (m_verified m) q) -> (x = RTouch \/ exists c, x = RCell c) ->
                  m_untracked m = true;
  mo_edges_q : forall d, In (EQ d) (m_edges m) ->
               In (RQ d) (tr H (m_verified m) q) /\ seen s d (m_verified m);
  mo_changed : forall r, seen s q r -> m_changed m <= r -> E H r q = E H (m_verified m) q;
  mo_untr : m_untracked m = true -> m_dur m = 0;
  mo_dur : m_dur m = 0 \/ (m_dur m = 3 /\ m_untracked m = false /\ quiet q /\ m_edges m = []);
  mo_seen : seen s q (m_verified m)
}.

(* The invariant for inputs of LOW durability.  [inv_in]: an input has had its present value
   since it was last changed; [inv_cell]: the cells are those of the current snapshot;
   [inv_low]: every input is LOW (Core/DInv.v does without this clause); [inv_seen]: the
   ghost set [d_seen] holds (q, r) only when q has a memo verified at r or later, and is
   closed under the calls of q's trace at r, quiet callees excepted. *)
Record Inv (H : hist) (s : db) : Prop := {
  inv_cur : 1 <= cur s;
  inv_in : forall i r, f_changed (d_in s i) <= r -> r <= cur s -> sn_in (H r) i = f_val (d_in s i);
  inv_in_le : forall i, f_changed (d_in s i) <= cur s;
  inv_cell : forall c, sn_cell (H (cur s)) c = d_cell s c;
  inv_low : forall i, f_dur (d_in s i) = 0;
  inv_memo : forall q m, d_memo s q = Some m -> memo_ok H s q m;
  inv_seen : forall q r, seen s q r ->
             r <= cur s /\ (exists m, d_memo s q = Some m /\ r <= m_verified m) /\
             (forall d, In (RQ d) (tr H r q) -> seen s d r \/ quiet d)
}.

(* within-revision extension: what a sub-computation may change *)
Record ext (s s' : db) : Prop := {
  ext_revs : d_revs s' = d_revs s;
  ext_in : d_in s' = d_in s;
  ext_cell : d_cell s' = d_cell s;
  ext_pcell : d_pcell s' = d_pcell s;
  ext_evfault : d_evfault s = None -> d_evfault s' = None;
  ext_seen : forall q r, seen s q r -> seen s' q r;
  ext_valid : forall q m, d_memo s q = Some m -> m_verified m = cur s -> m_val m <> None ->
              d_memo s' q = Some m
}.

Lemma ext_refl s : ext s s.
Proof. constructor; auto. Qed.

Lemma ext_cur s s' : ext s s' -> cur s' = cur s.
Proof. intros [Hr _ _ _ _ _ _]. unfold cur. rewrite Hr. reflexivity. Qed.

Lemma ext_trans s1 s2 s3 : ext s1 s2 -> ext s2 s3 -> ext s1 s3.
Proof.
  intros H12 H23. pose proof (ext_cur _ _ H12) as Hc.
  destruct H12 as [a1 b1 c1 d1 g1 e1 f1], H23 as [a2 b2 c2 d2 g2 e2 f2].
  constructor; try congruence; auto.
  intros q m Hm Hv Hx. apply f2; [apply f1; assumption | rewrite Hc; exact Hv | exact Hx].
Qed.

(* a computation for a query of rank < k leaves memos and ghost pairs of rank >= k alone *)
Definition touch_below (s s' : db) (k : nat) : Prop :=
  forall p, (k <= rank p)%nat ->
    d_memo s' p = d_memo s p /\ (forall r, seen s' p r -> seen s p r).

Lemma touch_below_refl s k : touch_below s s k.
Proof. intros p _; split; auto. Qed.

Lemma touch_below_trans s1 s2 s3 k1 k2 k :
  (k1 <= k)%nat -> (k2 <= k)%nat ->
  touch_below s1 s2 k1 -> touch_below s2 s3 k2 -> touch_below s1 s3 k.
Proof.
  intros H1 H2 T1 T2 p Hp.
  destruct (T1 p ltac:(lia)) as [a1 b1], (T2 p ltac:(lia)) as [a2 b2].
  split; [congruence | auto].
Qed.

Definition stack_ok (s : db) (q : qkey) : Prop :=
  forall p, In p (d_stack s) -> (rank q < rank p)%nat.

(* panics that can escape a Get on an acyclic program: the backdate-violation assertion, or
   an injected fault -- and the latter only while some fault switch is on *)
Definition allowed (s : db) (p : panic) : Prop :=
  p = PBackdate \/ (p = PInjected /\ ((exists c, d_pcell s c <> 0) \/ d_evfault s <> None)).

Lemma allowed_ext s s' p :
  d_pcell s' = d_pcell s -> (d_evfault s = None -> d_evfault s' = None) ->
  allowed s' p -> allowed s p.
Proof.
  intros He Hf [-> | [-> [(c & Hc) | Hn]]]; [left; reflexivity | right; split; [reflexivity|] ..].
  - left. exists c. rewrite <- He. exact Hc.
  - right. intros H0. apply Hn. apply Hf. exact H0.
Qed.

End Inv.
