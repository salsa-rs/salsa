(* Core/DInvOps.v — the durability invariant [DInv] (inputs of any durability, so that the
   shallow verification may succeed through the durability short-cut) provides the facts that
   Core/LevelOps.v asks for ([DInv_level_facts]); the lemmas of that file are then restated
   at [DInv]. *)
From Salsa Require Import Base.
From Salsa.Kern Require Import CoreK CoreKFacts.
From Salsa.Core Require Import Model Spec SpecProofs Wp Inv InvFrame InvSem DurSem DInv DInvSem.
From Salsa.Core Require Export LevelOps.

Section Ops.
Variable prog : qkey -> body.
Variable noeq : qkey -> bool.
Variable rank : qkey -> nat.
Hypothesis Hrank : calls_below prog rank.
Variable NF : nat.
Hypothesis Hbound : forall q, (rank q < NF)%nat.
Variable H : hist.
Variable D : dhist.
Notation E := (E prog NF H).
Notation tr := (tr prog NF H).
Notation envat := (envat prog NF H).
Notation durge := (durge prog NF H D).
Notation clos := (clos prog NF H).
Notation dmemo_ok := (dmemo_ok prog NF H D).
Notation DInv := (DInv prog NF H D).
Notation dtouch_below := (dtouch_below rank).
Notation stack_ok := (stack_ok rank).
Notation covers := (DInvSem.covers).

Lemma dext_of_core_eq' s s' :
  dcore_eq s s' -> d_pcell s' = d_pcell s -> (d_evfault s = None -> d_evfault s' = None) -> dext s s'.
Proof.
  intros (Hr & Hi & Hce & Hm) Hp Hev. constructor; auto.
  - intros q m Hq _ _. rewrite Hm. exact Hq.
  - intros q m Hq Hv. exists m. rewrite Hm. split; [exact Hq|]. split; [exact Hv | lia].
  - intros q m Hq. exists m. rewrite Hm. split; [exact Hq | lia].
Qed.

Lemma dext_of_core_eq s s' :
  dcore_eq s s' -> d_pcell s' = d_pcell s -> d_evfault s' = d_evfault s -> dext s s'.
Proof.
  intros Hc Hp Hev. apply dext_of_core_eq'; [exact Hc | exact Hp | congruence].
Qed.

Lemma dtouch_of_core_eq s s' k : dcore_eq s s' -> dtouch_below s s' k.
Proof. intros (_ & _ & _ & Hm) p _. rewrite Hm; reflexivity. Qed.

Lemma dcore_eq_refl s : dcore_eq s s.
Proof. repeat split. Qed.
Lemma dcore_eq_log s l : dcore_eq s (set_log s l).
Proof. repeat split. Qed.
Lemma dcore_eq_stack s l : dcore_eq s (set_stack s l).
Proof. repeat split. Qed.
Lemma dcore_eq_lru s l : dcore_eq s (set_lru s l).
Proof. repeat split. Qed.

Lemma dcore_of_core s s' : core_eq s s' -> dcore_eq s s'.
Proof. intros (Hr & Hi & Hce & Hm & _). repeat split; assumption. Qed.

Lemma dext_set_stack s l : dext s (set_stack s l).
Proof. apply dext_of_core_eq; [apply dcore_eq_stack | reflexivity | reflexivity]. Qed.

Lemma shallow_cases s m :
  match shallow_verify s m with
  | ShVerified => m_verified m = cur s
  | ShHigher => m_verified m <> cur s /\ lcs s (m_dur m) <= m_verified m
  | ShNo => m_verified m <> cur s
  end.
Proof. exact (LevelOps.shallow_cases s m). Qed.

Lemma sle_ext s s' c x : dext s s' -> sle s c x -> sle s' c x.
Proof using.
  intros He. destruct x as [i | d | c0 |]; cbn; try (intros _; exact I).
  - rewrite (ext_in _ _ He). intros Hle; exact Hle.
  - intros (md & Hmd & Hle). destruct (ext_mono _ _ He d md Hmd) as (md' & Hmd' & Hc).
    exists md'. split; [exact Hmd'|]. lia.
Qed.

Lemma covers_ext s s' pre fr : dext s s' -> covers s pre fr -> covers s' pre fr.
Proof using.
  intros He [Cin Cq Ccell Ceq Cle Cge1 Cstamp Cdur3 Cuntr Clb]. pose proof (dext_cur _ _ He) as Hc.
  constructor; rewrite ?Hc, ?(ext_in _ _ He); auto.
  - (* cv_q *) intros d0 Hd0. destruct (Cq d0 Hd0) as (md & Hmd & Hv & Hx & Hrest).
    exists md. split; [apply (ext_valid _ _ He); assumption|]. split; [exact Hv|]. split; assumption.
  - (* cv_stamp *) destruct Cstamp as [A | (x & Hx & Hs)]; [left; exact A | right].
    exists x. split; [exact Hx | apply (sle_ext s s'); assumption].
  - (* cv_lb *) intros k Hk Hki Hkq Hku. apply Clb; try assumption.
    intros d0 Hd0 md Hmd. destruct (Cq d0 Hd0) as (md0 & Hmd0 & Hv & Hx & _).
    rewrite Hmd in Hmd0. injection Hmd0 as <-.
    apply (Hkq d0 Hd0). apply (ext_valid _ _ He); assumption.
Qed.

Lemma covers_add_read s pre fr x e dd cc :
  DInv s -> covers s pre fr -> tracked s x e dd cc ->
  covers s (pre ++ [x]) (add_read fr e dd cc).
Proof.
  intros HI [Cin Cq Ccell Ceq Cle Cge1 Cstamp Cdur3 Cuntr Clb] Htr.
  destruct (edges_add_read fr e dd cc) as (Hold & Hnew & Hback).
  assert (Hcc : cc <= cur s).
  { destruct Htr as [i | d0 md Hmd Hv Hx]; [apply (inv_in_le _ _ _ _ _ HI)|].
    pose proof (mo_order _ _ _ _ _ _ _ (inv_memo _ _ _ _ _ HI d0 md Hmd)). lia. }
  assert (Hsle : sle s cc x).
  { destruct Htr as [i | d0 md Hmd Hv Hx]; cbn; [lia | exists md; split; [exact Hmd | lia]]. }
  unfold add_read, dur_min, rev_max in *. cbn [fr_edges] in Hold, Hnew, Hback.
  constructor; cbn [fr_dur fr_changed fr_edges fr_untracked].
  - (* cv_in *) intros j Hj. apply in_app_iff in Hj. destruct Hj as [Hj | [Hj | []]].
    + destruct (Cin j Hj) as (A & B & C). split; [|split; lia].
      destruct A as [A | A]; [left; apply Hold; exact A | right; exact A].
    + destruct Htr as [i | d0 md Hmd Hv Hx]; [|discriminate]. injection Hj as <-.
      split; [|split; lia].
      destruct (N.eq_dec (f_dur (d_in s i)) D_NEVER) as [H3 | Hn3];
        [right; exact H3 | left; apply Hnew; exact Hn3].
  - (* cv_q *) intros d0 Hd0. apply in_app_iff in Hd0. destruct Hd0 as [Hd0 | [Hd0 | []]].
    + destruct (Cq d0 Hd0) as (md0 & A & B & C & D0 & E0 & F).
      exists md0. conj; auto; try lia.
      destruct F as [F | F]; [left; apply Hold; exact F | right; exact F].
    + destruct Htr as [i | d1 md Hmd Hv Hx]; [discriminate|]. injection Hd0 as <-.
      exists md. conj; auto; try lia.
      destruct (N.eq_dec (m_dur md) D_NEVER) as [H3 | Hn3];
        [right; exact H3 | left; apply Hnew; exact Hn3].
  - (* cv_cell *) intros y Hy Hk. apply in_app_iff in Hy. destruct Hy as [Hy | [Hy | []]].
    + destruct (Ccell y Hy Hk) as (A & B & C). conj; auto; lia.
    + subst y. destruct Htr; destruct Hk as [Hk | (c0 & Hk)]; discriminate.
  - (* cv_edges_q *) intros d0 Hd0. apply in_app_iff. destruct (Hback _ Hd0) as [A | A].
    + left. apply Ceq; exact A.
    + right; left. destruct Htr; [discriminate | congruence].
  - (* cv_le *) lia.
  - (* cv_ge1 *) lia.
  - (* cv_stamp *) destruct (N.max_spec (fr_changed fr) cc) as [[Hlt ->] | [Hge ->]].
    + right. exists x. split; [apply in_app_iff; right; left; reflexivity | exact Hsle].
    + destruct Cstamp as [A | (y & Hy & Hs)]; [left; exact A | right].
      exists y. split; [apply in_app_iff; left; exact Hy | exact Hs].
  - (* cv_dur3 *) lia.
  - (* cv_untr *) intros Hu. rewrite (Cuntr Hu). lia.
  - (* cv_lb *) intros k Hk Hki Hkq Hku.
    assert (k <= fr_dur fr).
    { apply Clb; [exact Hk | | |].
      - intros j Hj. apply Hki. apply in_app_iff; left; exact Hj.
      - intros d0 Hd0. apply Hkq. apply in_app_iff; left; exact Hd0.
      - intros y Hy. apply Hku. apply in_app_iff; left; exact Hy. }
    assert (k <= dd); [|lia].
    destruct Htr as [i | d0 md Hmd Hv Hx].
    + apply Hki. apply in_app_iff; right; left; reflexivity.
    + apply (Hkq d0); [apply in_app_iff; right; left; reflexivity | exact Hmd].
Qed.

Lemma covers_add_in s pre fr i :
  DInv s -> covers s pre fr ->
  covers s (pre ++ [RIn i])
         (add_read fr (EIn i) (f_dur (d_in s i)) (f_changed (d_in s i))).
Proof. intros HI Hcv. apply (covers_add_read s pre fr _ _ _ _ HI Hcv). apply tracked_in. Qed.

Lemma covers_add_q s pre fr d md :
  DInv s -> covers s pre fr ->
  d_memo s d = Some md -> m_verified md = cur s -> m_val md <> None ->
  covers s (pre ++ [RQ d]) (add_read fr (EQ d) (m_dur md) (m_changed md)).
Proof.
  intros HI Hcv Hmd Hv Hx. apply (covers_add_read s pre fr _ _ _ _ HI Hcv).
  apply tracked_q; assumption.
Qed.

Lemma covers_add_untracked s pre fr x :
  DInv s -> covers s pre fr -> untr x ->
  covers s (pre ++ [x]) (add_untracked fr (cur s)).
Proof.
  intros HI [Cin Cq Ccell Ceq Cle Cge1 Cstamp Cdur3 Cuntr Clb] Hx.
  unfold add_untracked, D_LOW.
  constructor; cbn [fr_dur fr_changed fr_edges fr_untracked].
  - (* cv_in *) intros j Hj. apply in_app_iff in Hj. destruct Hj as [Hj | [Hj | []]].
    + destruct (Cin j Hj) as (A & B & C). conj; auto; [apply (inv_in_le _ _ _ _ _ HI) | lia].
    + subst x. destruct Hx as [Hx | (c0 & Hx)]; discriminate.
  - (* cv_q *) intros d0 Hd0. apply in_app_iff in Hd0. destruct Hd0 as [Hd0 | [Hd0 | []]].
    + destruct (Cq d0 Hd0) as (md0 & A & B & C & D0 & E0 & F).
      pose proof (mo_order _ _ _ _ _ _ _ (inv_memo _ _ _ _ _ HI d0 md0 A)).
      exists md0. conj; auto; try lia.
    + subst x. destruct Hx as [Hx | (c0 & Hx)]; discriminate.
  - (* cv_cell *) intros y Hy Hk. conj; reflexivity.
  - (* cv_edges_q *) intros d0 Hd0. apply in_app_iff. left. apply Ceq; exact Hd0.
  - (* cv_le *) lia.
  - (* cv_ge1 *) apply (inv_cur _ _ _ _ _ HI).
  - (* cv_stamp *) right. exists x. split; [apply in_app_iff; right; left; reflexivity|].
    destruct Hx as [-> | (c0 & ->)]; exact I.
  - (* cv_dur3 *) lia.
  - (* cv_untr *) intros _; reflexivity.
  - (* cv_lb *) intros k Hk Hki Hkq Hku.
    assert (k = 0); [|lia]. apply (Hku x); [apply in_app_iff; right; left; reflexivity | exact Hx].
Qed.

(* the walker's memo m recorded the callee d because the run it stands for called d; once d
   answered "unchanged", d has the value it had then, at least m's durability, and a memo
   verified now that is at least as durable as m (m observes d: [mo_obs]) *)
Definition edge_pre (s : db) (q : qkey) (m : memo) (d : qkey) : Prop :=
  In (RQ d) (tr (m_verified m) q).

Definition edge_done (s : db) (q : qkey) (m : memo) (d : qkey) : Prop :=
  E (m_verified m) d = E (cur s) d /\ durge (cur s) (m_dur m) d /\
  exists md, d_memo s d = Some md /\ m_verified md = cur s /\ m_dur m <= m_dur md.

Lemma edge_unchanged s q m d md :
  DInv s -> d_memo s q = Some m -> edge_pre s q m d ->
  d_memo s d = Some md -> m_verified md = cur s -> m_changed md <= m_verified m ->
  edge_done s q m d.
Proof.
  intros HI Hm Hin Hmd Hvd Hcd.
  pose proof (inv_memo _ _ _ _ _ HI q m Hm) as Hok.
  pose proof (inv_memo _ _ _ _ _ HI d md Hmd) as Hokd.
  destruct (mo_obs _ _ _ _ _ _ _ Hok d (clos_one _ _ _ _ _ _ Hin)) as (md0 & Hmd0 & Hobs).
  rewrite Hmd in Hmd0. injection Hmd0 as <-.
  destruct Hobs as [HEd Hdd]; [left; exact Hcd|].
  rewrite Hvd in HEd.
  split; [exact HEd|]. split.
  - eapply durge_mono; [exact Hdd|]. rewrite <- Hvd. apply (mo_durge _ _ _ _ _ _ _ Hokd).
  - exists md. split; [exact Hmd|]. split; [exact Hvd | exact Hdd].
Qed.

Lemma DInv_level_facts :
  level_facts prog noeq rank NF H DInv dext dtouch_below dallowed covers edge_pre edge_done
    (fun _ _ _ => True).
Proof using Hrank Hbound.
  constructor.
  - (* lf_core *) intros s s' Hce. apply (DInv_core_eq prog NF H D s). apply dcore_of_core; exact Hce.
  - (* lf_ext_core *) intros s s' Hce _. apply dext_of_core_eq'. apply dcore_of_core; exact Hce.
  - (* lf_ext_validate *) intros s s' q Hce _. apply dext_of_core_eq'. apply dcore_of_core; exact Hce.
  - (* lf_ext_exec *) intros s s' q _ Hce _. apply dext_of_core_eq'. apply dcore_of_core; exact Hce.
  - (* lf_touch_core *) intros s s' k Hce. apply dtouch_of_core_eq. apply dcore_of_core; exact Hce.
  - (* lf_ext_refl *) apply dext_refl.
  - (* lf_ext_trans *) apply dext_trans.
  - (* lf_ext_revs *) apply ext_revs.
  - (* lf_ext_in *) apply ext_in.
  - (* lf_ext_pcell *) apply ext_pcell.
  - (* lf_ext_evfault *) apply ext_evfault.
  - (* lf_touch_refl *) apply dtouch_refl.
  - (* lf_touch_trans *) apply dtouch_trans.
  - (* lf_touch_store *) apply dtouch_store.
  - (* lf_touch_memo *) intros s s' k p Ht Hp. apply (Ht p Hp).
  - (* lf_allowed_ext *) apply dallowed_ext.
  - (* lf_injected *) intros s Hf. split; [reflexivity | exact Hf].
  - (* lf_in *) intros s i r HI. apply (inv_in _ _ _ _ _ HI).
  - (* lf_in_le *) intros s i HI. apply (inv_in_le _ _ _ _ _ HI).
  - (* lf_cell *) intros s c HI. apply (inv_cell _ _ _ _ _ HI).
  - (* lf_val *) intros s q m x HI Hm. apply (mo_val _ _ _ _ _ _ _ (inv_memo _ _ _ _ _ HI q m Hm)).
  - (* lf_shortcut *) intros s q m HI Hm _ Hlc. apply (shortcut_ok prog rank Hrank NF Hbound H D s q m HI Hm Hlc).
  - (* lf_edges *) intros s q m d HI Hm Hd.
    pose proof (mo_edges_q _ _ _ _ _ _ _ (inv_memo _ _ _ _ _ HI q m Hm) d Hd) as Hin.
    split; [apply (tr_calls prog rank Hrank NF H _ _ _ Hin) | exact Hin].
  - (* lf_pre_ext *) intros s s' q m d _ Hpre. exact Hpre.
  - (* lf_done_ext *) intros s s' q m d He (HE & Hdg & md & Hmd & Hvd & Hdd). unfold edge_done.
    rewrite (dext_cur _ _ He).
    split; [exact HE|]. split; [exact Hdg|].
    destruct (ext_vcur _ _ He d md Hmd Hvd) as (md' & Hmd' & Hvd' & Hdd').
    exists md'. split; [exact Hmd'|]. split; [exact Hvd' | lia].
  - (* lf_unchanged *) apply edge_unchanged.
  - (* lf_deep *) apply (deep_ok prog rank Hrank NF Hbound H D).
  - (* lf_cov0 *) intros s HI. apply covers_frame0. apply (inv_cur _ _ _ _ _ HI).
  - (* lf_cov_ext *) apply covers_ext.
  - (* lf_cov_in *) apply covers_add_in.
  - (* lf_cov_q *) apply covers_add_q.
  - (* lf_cov_untracked *) apply covers_add_untracked.
  - (* lf_fresh *) intros s0 s1 s q fr v ch old Hnv0 Hold0 He01 _ He1 HI Hcv Hv Hold Hch.
    destruct (fresh_store_ok prog rank Hrank NF Hbound H D s q fr v ch old HI Hcv Hv Hold) as [HI3 He3].
    + intros m0 A B. apply (Hnv0 m0); [congruence|].
      rewrite B, (dext_cur _ _ He1), (dext_cur _ _ He01). reflexivity.
    + destruct Hch as [[Hch _] | Hch]; [left; exact Hch | right; exact Hch].
    + split; [exact HI3|]. split; [|exact I].
      apply (dext_trans s0 s1); [exact He01|]. apply (dext_trans s1 s); assumption.
  - (* lf_backdate: the backdate-violation assertion is unreachable *)
    intros s0 s q fr o HI Hcv Ho Hlt. exfalso.
    pose proof (frame_changed_lb prog NF H D s q fr o HI Hcv Ho). lia.
Qed.

Definition XP (s0 : db) : panic -> db -> Prop :=
  fun p s' => dallowed s0 p /\ DInv s' /\ dext s0 s'.

Definition fetch_post (s0 : db) (q : qkey) (r : qres) (s' : db) : Prop :=
  DInv s' /\ dext s0 s' /\ dtouch_below s0 s' (S (rank q)) /\ d_stack s' = d_stack s0 /\
  fst (fst r) = E (cur s0) q /\
  exists m, d_memo s' q = Some m /\ m_verified m = cur s0 /\ m_val m = Some (fst (fst r)) /\
            m_dur m = snd (fst r) /\ m_changed m = snd r.

Definition fetch_spec (L : lower) (n : nat) : Prop :=
  forall q s, (rank q < n)%nat -> DInv s -> stack_ok s q ->
    wp (l_fetch L q) (fetch_post s q) (XP s) s.

Definition mca_post (s0 : db) (q : qkey) (since : rev) (b : bool) (s' : db) : Prop :=
  DInv s' /\ dext s0 s' /\ dtouch_below s0 s' (S (rank q)) /\ d_stack s' = d_stack s0 /\
  (b = false -> exists m, d_memo s' q = Some m /\ m_verified m = cur s0 /\ m_changed m <= since).

Definition mca_spec (L : lower) (n : nat) : Prop :=
  forall q since s, (rank q < n)%nat -> DInv s -> stack_ok s q ->
    wp (l_mca L q since) (mca_post s q since) (XP s) s.

(* The specifications of Core/LevelOps.v written out at [DInv], less what a "changed" answer
   means.  The proofs in Core/ use [fetch_top] and [dlevel_full] below, whose posts are
   LevelOps' own. *)
Theorem dlevel_ok : forall n,
  fetch_spec (level prog noeq n) n /\ mca_spec (level prog noeq n) n.
Proof.
  intros n. destruct (LevelOps.level_ok prog noeq rank Hrank NF Hbound H DInv_level_facts n)
    as [HF HM].
  split; [exact HF|].
  intros q since s Hq HI Hst.
  eapply wp_conseq; [apply (HM q since s Hq HI Hst) | | intros; assumption].
  intros b s' (A & B & C & D0 & E0 & _). exact (conj A (conj B (conj C (conj D0 E0)))).
Qed.

(* the lemmas of Core/LevelOps.v at [DInv]: DInvTop.v uses [fetch_top], DReuseValid.v the rest *)
Definition dlevel_full := LevelOps.level_ok prog noeq rank Hrank NF Hbound H DInv_level_facts.
Definition walk_edges_ok := LevelOps.walk_edges_ok prog noeq rank NF H DInv_level_facts.
Definition verify_memo_ok := LevelOps.verify_memo_ok prog noeq rank NF H DInv_level_facts.
Definition fetch_top :=
  LevelOps.fetch_top prog noeq rank Hrank NF Hbound H DInv_level_facts.

End Ops.
