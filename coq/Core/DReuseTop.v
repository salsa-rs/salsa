(* Core/DReuseTop.v — the event-level reuse theorems over whole histories (C03, C04):
   in every state reachable from the initial database, every execution a Get performs is
   justified by something recorded in the state before the Get; a changed_at stamp moves only
   when backdating is impossible; an untracked memo is executed again in every later revision. *)
From Salsa Require Import Base.
From Salsa.Kern Require Import CoreK CoreKFacts.
From Salsa.Core Require Import Model Spec SpecProofs Wp Inv InvFrame InvSem InvTop DurSem DInv DInvSem DInvOps DInvTop
     ReuseProofs DReuse DReuseOps.

Section RTop.
Variable prog : qkey -> body.
Variable noeq : qkey -> bool.
Variable fams : list N.
Variable rank : qkey -> nat.
Hypothesis Hrank : calls_below prog rank.
Variable NF : nat.
Hypothesis Hbound : forall q, (rank q < NF)%nat.
Notation DInv := (DInv prog NF).
Notation RX := (RX noeq).
Notation state_ok := (state_ok prog NF).

(* [P s q s' r]: the Get of q from s ends in s' with outcome r *)
Fixpoint gets_sat (P : db -> qkey -> db -> out -> Prop) (fuel : nat) (s : db) (os : list op) : Prop :=
  match os with
  | [] => True
  | o :: os' =>
      (match o with
       | OGet q => P s q (fst (step prog noeq fams fuel s o)) (snd (step prog noeq fams fuel s o))
       | _ => True
       end) /\
      gets_sat P fuel (fst (step prog noeq fams fuel s o)) os'
  end.

Lemma gets_sat_reachable (P : db -> qkey -> db -> out -> Prop) fuel :
  (forall p, (rank p < fuel)%nat) ->
  (forall s q, state_ok false s ->
     P s q (fst (step prog noeq fams fuel s (OGet q))) (snd (step prog noeq fams fuel s (OGet q)))) ->
  forall ops dirty s, Forall dur_op ops -> wf_ops dirty ops -> state_ok dirty s ->
  gets_sat P fuel s ops.
Proof.
  intros Hfuel HP.
  apply (ops_ind prog noeq fams fuel dur_op state_ok P (gets_sat P fuel)).
  - intros s. exact I.
  - intros s o os A B. split; assumption.
  - intros s q Hok. split; [apply HP; exact Hok|].
    apply (step_get_ok prog noeq fams rank Hrank NF Hbound fuel s q Hfuel Hok).
  - intros dirty s o. apply step_other_ok.
Qed.

(* a Get that returns a value relates its end states by RX, and the invariant holds after it *)
Lemma get_rx fuel s q s' v :
  (forall p, (rank p < fuel)%nat) -> state_ok false s ->
  step prog noeq fams fuel s (OGet q) = (s', Ok v) ->
  RX s s' /\ v = eval prog NF (snap_of s) q /\ exists H D, DInv H D s /\ DInv H D s'.
Proof.
  intros Hfuel [(H & D & HI) Hst] Hstep. cbn [step] in Hstep.
  assert (Hso : stack_ok rank s q) by (intros p Hp; rewrite Hst in Hp; destruct Hp).
  assert (Hq : (rank q <= fuel)%nat) by (specialize (Hfuel q); lia).
  pose proof (rfetch_top prog noeq rank Hrank NF Hbound H D fuel q s Hq HI Hso) as Hwp.
  unfold wp in Hwp.
  destruct (fetch prog noeq (level prog noeq fuel) q s) as [s1 [[[v1 d1] c1] | p |]] eqn:Hf;
    [|discriminate | discriminate].
  injection Hstep as <- <-.
  destruct Hwp as (HI' & [_ HR] & _ & _ & Hv & _). cbn [fst snd] in Hv.
  split; [exact HR|]. split.
  - rewrite Hv. unfold Inv.E. apply (eval_snap_eq prog). apply (DInv_snap prog NF H D); exact HI.
  - exists H, D. split; assumption.
Qed.

(* Why a Get that took s to s' and logged [new] executed q.  Everything is read off the state
   BEFORE the Get, except for callees that were executed in this very Get. *)
Definition justified (s s' : db) (new : list event) (q : qkey) : Prop :=
  (* no memo *)
  d_memo s q = None \/
  exists m, d_memo s q = Some m /\
    ((* the value was evicted *)
     m_val m = None \/
     (* the previous execution read untracked state *)
     m_untracked m = true \/
     (* an input field it read was written since it was validated *)
     (exists i, In (EIn i) (m_edges m) /\ m_verified m < f_changed (d_in s i)) \/
     (* a tracked function it called ... *)
     (exists d, In (EQ d) (m_edges m) /\
        ((* ... has no value (evicted): the known finding C03_refuted_evicted_callee *)
         noval s d \/
         (* ... was re-executed without backdating since then, in an earlier request *)
         (exists md, d_memo s d = Some md /\ m_verified m < m_changed md) \/
         (* ... was executed in this Get and could not backdate: it is no_eq, or became less
            durable, or produced a value differing from its previous one *)
         (In (EvExec d) new /\
          exists md md', d_memo s d = Some md /\ d_memo s' d = Some md' /\
            (noeq d = true \/ m_dur md' < m_dur md \/
             exists ov, m_val md = Some ov /\ ov <> eval prog NF (snap_of s) d))))).

Definition exec_justified (s : db) (q0 : qkey) (s' : db) (r : out) : Prop :=
  forall v, r = Ok v ->
  exists new, d_log s' = new ++ d_log s /\
    forall q, In (EvExec q) new -> justified s s' new q.

Lemma get_exec_justified fuel s q0 :
  (forall p, (rank p < fuel)%nat) -> state_ok false s ->
  exec_justified s q0 (fst (step prog noeq fams fuel s (OGet q0))) (snd (step prog noeq fams fuel s (OGet q0))).
Proof.
  intros Hfuel Hok v Hr.
  destruct (step prog noeq fams fuel s (OGet q0)) as [s' r] eqn:Hstep. cbn [fst snd] in *. subst r.
  destruct (get_rx fuel s q0 s' v Hfuel Hok Hstep) as (HR & _ & H & D & HI & HI').
  destruct (rx_log _ _ _ HR) as (new & Hl & HJ & HX).
  exists new. split; [exact Hl|].
  intros q Hq. destruct (HJ q Hq) as [_ Hj].
  destruct Hj as [Hn | (m & Hm & Hx)]; [left; exact Hn | right].
  exists m. split; [exact Hm|].
  destruct Hx as [A | [A | [A | (d & Hd & [B | (md' & Hmd' & Hlt)])]]];
    [left; exact A | right; left; exact A | right; right; left; exact A | |].
  - right; right; right. exists d. split; [exact Hd | left; exact B].
  - right; right; right. exists d. split; [exact Hd|].
    destruct (d_memo s d) as [md|] eqn:Hmd; [|left; intros md0 Hmd0; congruence].
    destruct (N.le_gt_cases (m_changed md) (m_verified m)) as [Hle | Hgt];
      [|right; left; exists md; split; [reflexivity | exact Hgt]].
    assert (Hne : m_changed md <> m_changed md') by lia.
    destruct (HX d md md' Hmd Hmd' Hne) as (Hin & Hre & Hv' & Hx').
    destruct Hre as [R1 | [R2 | [R3 | (ov & v' & Hov & Hv'' & Hdiff)]]].
    + right; right. split; [exact Hin|]. exists md, md'. split; [reflexivity|]. split; [exact Hmd'|].
      left; exact R1.
    + left. intros md0 Hmd0. assert (md0 = md) by congruence. subst md0. exact R2.
    + right; right. split; [exact Hin|]. exists md, md'. split; [reflexivity|]. split; [exact Hmd'|].
      right; left; exact R3.
    + right; right. split; [exact Hin|]. exists md, md'. split; [reflexivity|]. split; [exact Hmd'|].
      right; right. exists ov. split; [exact Hov|].
      pose proof (mo_val _ _ _ _ _ _ _ (inv_memo _ _ _ _ _ HI' d md' Hmd') v' Hv'') as Hval.
      rewrite Hv', <- (rx_cur _ _ _ HR) in Hval.
      assert (HE : Inv.E prog NF H (cur s') d = eval prog NF (snap_of s) d).
      { rewrite (rx_cur _ _ _ HR). unfold Inv.E. apply (eval_snap_eq prog).
        apply (DInv_snap prog NF H D); exact HI. }
      rewrite HE in Hval. congruence.
Qed.

(* In a Get that returns a value: if the changed_at stamp of d differs before and after, then
   d was executed in this Get and backdating was impossible. *)
Definition stamp_moves_justified (s : db) (q0 : qkey) (s' : db) (r : out) : Prop :=
  forall v, r = Ok v ->
  exists new, d_log s' = new ++ d_log s /\
    forall d md md', d_memo s d = Some md -> d_memo s' d = Some md' ->
      m_changed md <> m_changed md' ->
      In (EvExec d) new /\ reasons noeq d md md'.

Lemma get_stamp_moves fuel s q0 :
  (forall p, (rank p < fuel)%nat) -> state_ok false s ->
  stamp_moves_justified s q0 (fst (step prog noeq fams fuel s (OGet q0))) (snd (step prog noeq fams fuel s (OGet q0))).
Proof.
  intros Hfuel Hok v Hr.
  destruct (step prog noeq fams fuel s (OGet q0)) as [s' r] eqn:Hstep. cbn [fst snd] in *. subst r.
  destruct (get_rx fuel s q0 s' v Hfuel Hok Hstep) as (HR & _).
  destruct (rx_log _ _ _ HR) as (new & Hl & _ & HX).
  exists new. split; [exact Hl|].
  intros d md md' Hmd Hmd' Hne. destruct (HX d md md' Hmd Hmd' Hne) as (A & B & _). split; assumption.
Qed.

Definition untracked_reexecutes (s : db) (q : qkey) (s' : db) (r : out) : Prop :=
  forall m v, d_memo s q = Some m -> m_untracked m = true -> m_verified m < cur s -> r = Ok v ->
  v = eval prog NF (snap_of s) q /\
  exists new, d_log s' = new ++ d_log s /\ In (EvExec q) new.

Lemma get_untracked_reexecutes fuel s q :
  (forall p, (rank p < fuel)%nat) -> state_ok false s ->
  untracked_reexecutes s q (fst (step prog noeq fams fuel s (OGet q))) (snd (step prog noeq fams fuel s (OGet q))).
Proof.
  intros Hfuel Hok m v Hm Hu Hv Hr.
  destruct (step prog noeq fams fuel s (OGet q)) as [s' r] eqn:Hstep. cbn [fst snd] in *. subst r.
  destruct (get_rx fuel s q s' v Hfuel Hok Hstep) as (HR & Hval & _).
  split; [exact Hval|].
  destruct (rx_log _ _ _ HR) as (new & Hl & _). exists new. split; [exact Hl|].
  destruct Hok as [(H & D & HI) Hst]. cbn [step] in Hstep.
  destruct (rlevel_ok prog noeq rank Hrank NF Hbound H D fuel) as [HF _].
  assert (Hso : stack_ok rank s q) by (intros p Hp; rewrite Hst in Hp; destruct Hp).
  assert (Hq : (rank q <= fuel)%nat) by (specialize (Hfuel q); lia).
  pose proof (fetch_untracked_rx prog noeq rank Hrank NF Hbound H D (level prog noeq fuel) fuel q m s
                HF Hq HI Hso Hm Hu Hv) as Hwp.
  unfold wp in Hwp.
  destruct (fetch prog noeq (level prog noeq fuel) q s) as [s1 [[[v1 d1] c1] | p |]] eqn:Hf;
    [|discriminate | discriminate].
  injection Hstep as <- <-. apply Hwp. exact Hl.
Qed.

Theorem exec_justified_all fuel :
  (forall p, (rank p < fuel)%nat) ->
  forall ops dirty s, Forall dur_op ops -> wf_ops dirty ops -> state_ok dirty s ->
  gets_sat exec_justified fuel s ops.
Proof.
  intros Hfuel. apply (gets_sat_reachable exec_justified fuel Hfuel).
  intros s q Hok. apply get_exec_justified; assumption.
Qed.

Theorem stamp_moves_all fuel :
  (forall p, (rank p < fuel)%nat) ->
  forall ops dirty s, Forall dur_op ops -> wf_ops dirty ops -> state_ok dirty s ->
  gets_sat stamp_moves_justified fuel s ops.
Proof.
  intros Hfuel. apply (gets_sat_reachable stamp_moves_justified fuel Hfuel).
  intros s q Hok. apply get_stamp_moves; assumption.
Qed.

Theorem untracked_reexecutes_all fuel :
  (forall p, (rank p < fuel)%nat) ->
  forall ops dirty s, Forall dur_op ops -> wf_ops dirty ops -> state_ok dirty s ->
  gets_sat untracked_reexecutes fuel s ops.
Proof.
  intros Hfuel. apply (gets_sat_reachable untracked_reexecutes fuel Hfuel).
  intros s q Hok. apply get_untracked_reexecutes; assumption.
Qed.

(* a callee that executes again and returns an equal value (not no_eq, durability not lower)
   keeps its changed_at stamp: it is backdated *)
Lemma equal_value_backdated s q0 s' r :
  stamp_moves_justified s q0 s' r -> forall v, r = Ok v ->
  forall d md md' ov, d_memo s d = Some md -> d_memo s' d = Some md' ->
    noeq d = false -> m_dur md <= m_dur md' -> m_val md = Some ov -> m_val md' = Some ov ->
    m_changed md' = m_changed md.
Proof.
  intros Hs v Hr d md md' ov Hmd Hmd' Hne Hdur Hov Hov'.
  destruct (Hs v Hr) as (new & _ & HX).
  destruct (N.eq_dec (m_changed md) (m_changed md')) as [Heq | Hneq]; [symmetry; exact Heq|].
  exfalso. destruct (HX d md md' Hmd Hmd' Hneq) as (_ & [R | [R | [R | (ov0 & v' & A & B & C)]]]).
  - congruence.
  - congruence.
  - lia.
  - congruence.
Qed.

Lemma gets_sat_init (P : db -> qkey -> db -> out -> Prop) fuel :
  (forall p, (rank p < fuel)%nat) ->
  (forall s q, state_ok false s ->
     P s q (fst (step prog noeq fams fuel s (OGet q))) (snd (step prog noeq fams fuel s (OGet q)))) ->
  forall iv idur lru0 ops, (forall i, idur i <= 3) -> Forall dur_op ops -> wf_ops false ops ->
  gets_sat P fuel (init iv idur lru0) ops.
Proof.
  intros Hfuel HP iv idur lru0 ops Hid Hdur Hwf.
  apply (gets_sat_reachable P fuel Hfuel HP ops false _ Hdur Hwf). apply init_ok_dur. exact Hid.
Qed.

Theorem exec_justified_init fuel :
  (forall p, (rank p < fuel)%nat) ->
  forall iv idur lru0 ops, (forall i, idur i <= 3) -> Forall dur_op ops -> wf_ops false ops ->
  gets_sat exec_justified fuel (init iv idur lru0) ops.
Proof.
  intros Hfuel. apply (gets_sat_init exec_justified fuel Hfuel).
  intros s q Hok. apply get_exec_justified; assumption.
Qed.

Theorem stamp_moves_init fuel :
  (forall p, (rank p < fuel)%nat) ->
  forall iv idur lru0 ops, (forall i, idur i <= 3) -> Forall dur_op ops -> wf_ops false ops ->
  gets_sat stamp_moves_justified fuel (init iv idur lru0) ops.
Proof.
  intros Hfuel. apply (gets_sat_init stamp_moves_justified fuel Hfuel).
  intros s q Hok. apply get_stamp_moves; assumption.
Qed.

Theorem untracked_reexecutes_init fuel :
  (forall p, (rank p < fuel)%nat) ->
  forall iv idur lru0 ops, (forall i, idur i <= 3) -> Forall dur_op ops -> wf_ops false ops ->
  gets_sat untracked_reexecutes fuel (init iv idur lru0) ops.
Proof.
  intros Hfuel. apply (gets_sat_init untracked_reexecutes fuel Hfuel).
  intros s q Hok. apply get_untracked_reexecutes; assumption.
Qed.

End RTop.
