(* Core/DCycleTermTop.v — never out of fuel, over every history of operations (see DCycleTerm.v). *)
From Coq Require Import PeanoNat Lia.
From Salsa Require Import Base.
From Salsa.Kern Require Import CoreK.
From Salsa.Core Require Import Model Spec Wp.
From Salsa.Core Require InvTop.
From Salsa.Core Require Import DCycleInv DCycleTerm.

Section TermTop.
Variable prog : qkey -> body.
Variable noeq : qkey -> bool.
Variable fams : list N.
Variable ns : list qkey.
Hypothesis Hclosed : closed_calls prog ns.

(* between two operations: recorded dependencies of listed keys are listed, no claim is held *)
Definition idle (s : db) : Prop := EI ns s /\ d_stack s = [].

(* the Gets of the history ask for listed keys *)
Definition op_listed (o : op) : Prop := match o with OGet q => In q ns | _ => True end.

Lemma idle_eq s s' : d_memo s' = d_memo s -> d_stack s' = d_stack s -> idle s -> idle s'.
Proof. intros Hm Hs (HE & Hst). split; [exact (EI_eq ns s s' Hm HE) | congruence]. Qed.

Lemma EI_evicted s s' : InvTop.evicted_from (d_memo s) (d_memo s') -> EI ns s -> EI ns s'.
Proof.
  intros Hev HE q m Hq Hm. destruct (Hev q) as [He | (m0 & Hm0 & He)].
  - rewrite He in Hm. exact (HE q m Hq Hm).
  - rewrite He in Hm. injection Hm as <-. pose proof (HE q m0 Hq Hm0) as H0.
    unfold evict_memo. destruct (m_untracked m0); [exact H0 | exact H0].
Qed.

Lemma idle_evict_all s : idle s -> idle (evict_all fams s).
Proof.
  intros (HE & Hst). split.
  - apply (EI_evicted s); [| exact HE]. apply (InvTop.sb_memo _ _ (InvTop.evict_all_sbm fams s)).
  - rewrite InvTop.evict_all_stack. exact Hst.
Qed.

Lemma idle_new_revision s : idle s -> idle (new_revision fams s).
Proof. intros H. unfold new_revision. apply idle_evict_all. apply (idle_eq s); [reflexivity | reflexivity | exact H]. Qed.

Lemma idle_zalsa_mut s : idle s -> idle (zalsa_mut fams s).
Proof.
  intros H. unfold zalsa_mut. destruct (d_ccount s =? 255).
  - now apply idle_new_revision.
  - apply (idle_eq s); [reflexivity | reflexivity | exact H].
Qed.

Lemma step_t fuel s o : (length ns <= fuel)%nat -> op_listed o -> idle s ->
  idle (fst (step prog noeq fams fuel s o)) /\ snd (step prog noeq fams fuel s o) <> Fuel.
Proof.
  intros Hfuel Ho Hi. destruct o as [i v d | d | c v | c v | e | q | fam k |]; cbn [step].
  - pose proof (idle_new_revision _ (idle_zalsa_mut s Hi)) as H1.
    destruct (f_dur (d_in (new_revision fams (zalsa_mut fams s)) i) =? D_NEVER); cbn [fst snd].
    + split; [exact H1 | discriminate].
    + split; [| discriminate]. eapply idle_eq; [| | exact H1]; reflexivity.
  - pose proof (idle_new_revision _ (idle_zalsa_mut s Hi)) as H1.
    destruct (d =? D_NEVER); cbn [fst snd].
    + split; [exact H1 | discriminate].
    + split; [| discriminate]. eapply idle_eq; [| | exact H1]; reflexivity.
  - cbn [fst snd]. split; [| discriminate]. eapply idle_eq; [| | exact Hi]; reflexivity.
  - cbn [fst snd]. split; [| discriminate]. eapply idle_eq; [| | exact Hi]; reflexivity.
  - cbn [fst snd]. split; [| discriminate]. eapply idle_eq; [| | exact Hi]; reflexivity.
  - destruct Hi as (HE & Hs). cbn [op_listed] in Ho.
    pose proof (proj1 (level_t prog noeq ns Hclosed (S fuel) [] (room_nil ns fuel Hfuel) s q (conj HE Hs) Ho)) as H.
    cbn [level l_fetch] in H.
    unfold keeps, wp in H.
    destruct (fetch prog noeq (level prog noeq fuel) q s) as [s' [[[v du] ch] | p |]]; cbn [fst snd].
    + split; [exact H | discriminate].
    + split; [| discriminate]. split; [apply (EI_eq ns s'); [reflexivity | exact H] | reflexivity].
    + destruct H.
  - cbn [fst snd]. split; [| discriminate]. eapply idle_eq; [| | exact (idle_zalsa_mut s Hi)]; reflexivity.
  - cbn [fst snd]. split; [| discriminate]. exact (idle_evict_all _ (idle_zalsa_mut s Hi)).
Qed.

Theorem never_fuel fuel : (length ns <= fuel)%nat -> forall ops s, Forall op_listed ops -> idle s ->
  idle (fst (run_ops prog noeq fams fuel s ops)) /\
  Forall (fun o => o <> Fuel) (snd (run_ops prog noeq fams fuel s ops)).
Proof.
  intros Hfuel. induction ops as [| o ops IH]; intros s Hops Hi; cbn [run_ops].
  - split; [exact Hi | constructor].
  - inversion Hops as [| ? ? Ho Hops']; subst.
    destruct (step_t fuel s o Hfuel Ho Hi) as (H1 & H2).
    destruct (step prog noeq fams fuel s o) as [s1 r]. cbn [fst snd] in H1, H2.
    specialize (IH s1 Hops' H1).
    destruct (run_ops prog noeq fams fuel s1 ops) as [s2 rs]. cbn [fst snd] in *.
    destruct IH as (I1 & I2). split; [exact I1 | constructor; assumption].
Qed.

End TermTop.

Lemma init_idle ns iv idur lru0 : idle ns (init iv idur lru0).
Proof. split; [| reflexivity]. intros q m _ Hm. discriminate. Qed.
