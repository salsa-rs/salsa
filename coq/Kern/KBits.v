(* Two fields packed in one word: the arithmetic form (a low field below a modulus m, a high
   field counted in units of m), and the bitwise spellings (`|`, `<<`, `>>`, `& mask`) reduced
   to it with m = 2^n. *)
From Coq Require Import NArith Bool Lia.
Open Scope N_scope.

Lemma split_lo m lo hi : lo < m -> (lo + m * hi) mod m = lo.
Proof. intros H. symmetry. apply N.mod_unique with hi; [exact H | apply N.add_comm]. Qed.

Lemma split_hi m lo hi : lo < m -> (lo + m * hi) / m = hi.
Proof. intros H. symmetry. apply N.div_unique with lo; [exact H | apply N.add_comm]. Qed.

Lemma split_eta m x : x mod m + m * (x / m) = x.
Proof. rewrite N.add_comm. symmetry. apply N.div_mod'. Qed.

Lemma split_bound m lo hi n : lo < m -> hi < n -> lo + m * hi < m * n.
Proof.
  intros Hlo Hhi. apply N.lt_le_trans with (m * (hi + 1)); [lia|].
  apply N.mul_le_mono_l. lia.
Qed.

Lemma pack_lt m lo hi lo' hi' :
  lo < m -> lo' < m -> (lo + m * hi < lo' + m * hi' <-> hi < hi' \/ (hi = hi' /\ lo < lo')).
Proof.
  intros Hlo Hlo'. split.
  - intros H. destruct (N.lt_trichotomy hi hi') as [L|[->|G]]; [now left | right; lia | exfalso].
    assert (m * (hi' + 1) <= m * hi) by (apply N.mul_le_mono_l; lia). lia.
  - intros [L|(-> & L)]; [|lia].
    assert (m * (hi + 1) <= m * hi') by (apply N.mul_le_mono_l; lia). lia.
Qed.

Lemma split_lt m x y :
  m <> 0 -> (x < y <-> x / m < y / m \/ (x / m = y / m /\ x mod m < y mod m)).
Proof.
  intros Hm. pose proof (pack_lt m (x mod m) (x / m) (y mod m) (y / m)) as H.
  rewrite !split_eta in H. apply H; now apply N.mod_lt.
Qed.

Lemma split_succ m x :
  x mod m + 1 < m -> (x + 1) mod m = x mod m + 1 /\ (x + 1) / m = x / m.
Proof.
  intros H.
  assert (x + 1 = x mod m + 1 + m * (x / m)) as -> by (pose proof (split_eta m x); lia).
  split; [now apply split_lo | now apply split_hi].
Qed.

(* wrapping_sub(1) on a nonzero word *)
Lemma wrap_pred m i : 1 <= i -> i < m -> (i + m - 1) mod m = i - 1.
Proof.
  intros H1 Hm. replace (i + m - 1) with (i - 1 + 1 * m) by lia.
  rewrite N.mod_add by lia. apply N.mod_small. lia.
Qed.

Lemma pow2_nz n : 2 ^ n <> 0.
Proof. now apply N.pow_nonzero. Qed.

Lemma testbit_small a n k : a < 2 ^ n -> n <= k -> N.testbit a k = false.
Proof.
  intros Ha Hk. destruct (N.eq_dec a 0) as [->|Hz]; [apply N.bits_0|].
  apply N.bits_above_log2. apply N.lt_le_trans with n; [|exact Hk].
  apply N.log2_lt_pow2; lia.
Qed.

(* the two fields share no bit, so OR is addition *)
Lemma lor_shiftl_add a b n : a < 2 ^ n -> N.lor a (N.shiftl b n) = a + 2 ^ n * b.
Proof.
  intros Ha.
  assert (N.land a (N.shiftl b n) = 0) as Hdisj.
  { apply N.bits_inj_0; intro k. rewrite N.land_spec.
    destruct (N.lt_ge_cases k n) as [Hk|Hk].
    - now rewrite N.shiftl_spec_low, andb_false_r.
    - now rewrite (testbit_small a n k Ha Hk). }
  rewrite <- N.lxor_lor, <- N.add_nocarry_lxor by exact Hdisj.
  now rewrite N.shiftl_mul_pow2, N.mul_comm.
Qed.

(* both fields are recovered, and the pair determines the word *)
Lemma lor_shiftl_inj a b a' b' n :
  a < 2 ^ n -> a' < 2 ^ n ->
  N.lor a (N.shiftl b n) = N.lor a' (N.shiftl b' n) -> a = a' /\ b = b'.
Proof.
  intros Ha Ha' E. rewrite !lor_shiftl_add in E by assumption. split.
  - rewrite <- (split_lo (2 ^ n) a b Ha), E. now apply split_lo.
  - rewrite <- (split_hi (2 ^ n) a b Ha), E. now apply split_hi.
Qed.

Lemma lt_pow2_bits a n : a < 2 ^ n <-> forall k, n <= k -> N.testbit a k = false.
Proof.
  split; [intros H k; now apply testbit_small|].
  intros H. destruct (N.lt_ge_cases a (2 ^ n)) as [|Hge]; [assumption|exfalso].
  assert (a <> 0) as Hnz by (pose proof (pow2_nz n); lia).
  pose proof (N.bit_log2 a Hnz) as B. rewrite H in B; [discriminate|].
  apply N.log2_le_pow2; lia.
Qed.

(* a single-bit mask *)
Lemma land_pow2 a n : N.land a (2 ^ n) = if N.testbit a n then 2 ^ n else 0.
Proof.
  apply N.bits_inj; intro k. rewrite N.land_spec, N.pow2_bits_eqb.
  destruct (N.eqb_spec n k) as [->|Hne].
  - destruct (N.testbit a k) eqn:E; cbn [andb].
    + now rewrite N.pow2_bits_true.
    + now rewrite N.bits_0.
  - rewrite andb_false_r. destruct (N.testbit a n).
    + symmetry. now apply N.pow2_bits_false.
    + now rewrite N.bits_0.
Qed.

Lemma testbit_split lo (b : bool) n : lo < 2 ^ n -> N.testbit (lo + 2 ^ n * N.b2n b) n = b.
Proof. intros H. rewrite N.testbit_eqb, split_hi by exact H. now destruct b. Qed.

Lemma testbit_top a n : a < 2 ^ (n + 1) -> (N.testbit a n = true <-> 2 ^ n <= a).
Proof.
  intros Ha. rewrite N.testbit_eqb, N.eqb_eq.
  rewrite N.pow_add_r in Ha. change (2 ^ 1) with 2 in Ha.
  assert (2 ^ n <> 0) as Hnz by (apply N.pow_nonzero; lia).
  assert (a / 2 ^ n < 2) as Hq by (apply N.div_lt_upper_bound; lia).
  rewrite N.mod_small by exact Hq.
  split; intros H.
  - pose proof (N.mul_div_le a (2 ^ n) Hnz) as L. rewrite H in L. lia.
  - assert (1 <= a / 2 ^ n) by (apply N.div_le_lower_bound; lia). lia.
Qed.
