(* Kern/K6_Page.v — interface lemmas about the translated page/slot packing of table ids
   (src/table.rs: PAGE_LEN_BITS, PAGE_LEN, MAX_PAGES, make_id, split_id). *)
From Coq Require Import NArith Bool Lia.
From Salsa.gen Require Import Kernels.
From Salsa.Kern Require Import KBits K5_Id.
Open Scope N_scope.

Lemma k_PAGE_LEN_BITS_val : k_PAGE_LEN_BITS = 7.  Proof. reflexivity. Qed.
Lemma k_PAGE_LEN_val : k_PAGE_LEN = 128.          Proof. reflexivity. Qed.
Lemma k_PAGE_LEN_MASK_val : k_PAGE_LEN_MASK = 127. Proof. reflexivity. Qed.
Lemma k_MAX_PAGES_val : k_MAX_PAGES = 33554430.   Proof. reflexivity. Qed.

Lemma k_PAGE_LEN_pow : k_PAGE_LEN = 2 ^ k_PAGE_LEN_BITS /\ k_PAGE_LEN_MASK = N.ones k_PAGE_LEN_BITS.
Proof. split; reflexivity. Qed.

(* the raw index word built by make_id *)
Lemma make_id_word p s :
  p < k_MAX_PAGES -> s < k_PAGE_LEN ->
  N.lor ((N.shiftl (p mod 4294967296) k_PAGE_LEN_BITS) mod 4294967296) (s mod 4294967296)
  = s + p * 128.
Proof.
  rewrite k_MAX_PAGES_val, k_PAGE_LEN_val, k_PAGE_LEN_BITS_val. intros Hp Hs.
  rewrite (N.mod_small p), (N.mod_small s) by lia.
  rewrite N.mod_small.
  - rewrite N.lor_comm, (N.mul_comm p). change 128 with (2 ^ 7). now apply lor_shiftl_add.
  - rewrite N.shiftl_mul_pow2. change (2 ^ 7) with 128. lia.
Qed.

Lemma k_make_id_eq p s :
  p < k_MAX_PAGES -> s < k_PAGE_LEN -> k_make_id p s = k_id_from_index (s + p * 128).
Proof.
  intros Hp Hs. unfold k_make_id. cbn zeta. now rewrite make_id_word.
Qed.

(* MAX_PAGES * PAGE_LEN = Id::MAX_U32 exactly, so the result satisfies Id::from_index's
   precondition: index < Id::MAX_U32 *)
Lemma make_id_lt p s : p < k_MAX_PAGES -> s < k_PAGE_LEN -> s + p * 128 < 4294967040.
Proof. rewrite k_MAX_PAGES_val, k_PAGE_LEN_val. lia. Qed.

Lemma k_make_id_pre p s :
  p < k_MAX_PAGES -> s < k_PAGE_LEN -> k_id_from_index_pre (s + p * 128) = true.
Proof.
  intros Hp Hs. unfold k_id_from_index_pre. rewrite k_ID_MAX_U32_val.
  now apply N.ltb_lt, make_id_lt.
Qed.

Lemma k_make_id_wf p s : p < k_MAX_PAGES -> s < k_PAGE_LEN -> id_wf (k_make_id p s).
Proof.
  intros Hp Hs. rewrite k_make_id_eq by assumption.
  apply k_id_from_index_pre_wf. now apply k_make_id_pre.
Qed.

Lemma k_make_id_index p s :
  p < k_MAX_PAGES -> s < k_PAGE_LEN -> k_id_index (k_make_id p s) = s + p * 128.
Proof.
  intros Hp Hs. rewrite k_make_id_eq by assumption.
  apply k_id_index_from_index. pose proof (make_id_lt p s Hp Hs). lia.
Qed.

Lemma k_make_id_index_lt_max p s :
  p < k_MAX_PAGES -> s < k_PAGE_LEN -> k_id_index (k_make_id p s) < k_ID_MAX_U32.
Proof.
  intros Hp Hs. rewrite k_make_id_index, k_ID_MAX_U32_val by assumption.
  now apply make_id_lt.
Qed.

Lemma k_split_id_eq id :
  k_split_id id = (N.shiftr (k_id_index id) 7, N.land (k_id_index id) 127).
Proof. reflexivity. Qed.

(* split_id (make_id p s) = (p, s) *)
Lemma k_split_make_id p s :
  p < k_MAX_PAGES -> s < k_PAGE_LEN -> k_split_id (k_make_id p s) = (p, s).
Proof.
  intros Hp Hs. rewrite k_split_id_eq, k_make_id_index by assumption.
  change 127 with (N.ones 7). rewrite N.shiftr_div_pow2, N.land_ones, (N.mul_comm p).
  change (2 ^ 7) with 128. rewrite k_PAGE_LEN_val in Hs. now rewrite split_hi, split_lo.
Qed.

Lemma k_make_id_inj p s p' s' :
  p < k_MAX_PAGES -> s < k_PAGE_LEN -> p' < k_MAX_PAGES -> s' < k_PAGE_LEN ->
  k_make_id p s = k_make_id p' s' -> p = p' /\ s = s'.
Proof.
  intros Hp Hs Hp' Hs' E. apply (f_equal k_split_id) in E.
  rewrite !k_split_make_id in E by assumption. now injection E.
Qed.

(* split_id yields in-range components, and make_id rebuilds the id *)
Lemma slot_of_lt idx : N.land idx 127 < k_PAGE_LEN.
Proof. change 127 with (N.ones 7). rewrite N.land_ones. now apply N.mod_lt. Qed.

Lemma page_of_lt idx : idx < k_ID_MAX_U32 -> N.shiftr idx 7 < k_MAX_PAGES.
Proof. intros H. rewrite N.shiftr_div_pow2. now apply N.div_lt_upper_bound. Qed.

Lemma k_split_id_range id :
  let '(p, s) := k_split_id id in k_slot_index_new_pre s = true.
Proof. rewrite k_split_id_eq. apply N.ltb_lt, slot_of_lt. Qed.

Lemma k_split_id_page_range id :
  id_wf id -> k_id_index id < k_ID_MAX_U32 ->
  k_page_index_new_pre (fst (k_split_id id)) = true.
Proof. intros _ Hi. rewrite k_split_id_eq. now apply N.ltb_lt, page_of_lt. Qed.

Lemma k_make_split_id id :
  id_wf id -> k_id_index id < k_ID_MAX_U32 ->
  let '(p, s) := k_split_id id in
  k_id_with_generation (k_make_id p s) (k_id_generation id) = id.
Proof.
  intros Hwf Hi. rewrite k_split_id_eq.
  rewrite (k_make_id_eq _ _ (page_of_lt _ Hi) (slot_of_lt _)).
  assert (N.land (k_id_index id) 127 + N.shiftr (k_id_index id) 7 * 128 = k_id_index id) as ->.
  { change 127 with (N.ones 7). rewrite N.land_ones, N.shiftr_div_pow2, N.mul_comm.
    apply split_eta. }
  now apply k_id_from_index_index.
Qed.

Example k_make_id_ex :
  k_split_id (k_make_id 33554429 127) = (33554429, 127) /\ k_id_index (k_make_id 1 0) = 128.
Proof. split; reflexivity. Qed.
