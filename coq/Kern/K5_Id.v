(* Kern/K5_Id.v — interface lemmas about the translated salsa::Id (src/id.rs). *)
From Coq Require Import NArith Bool Lia.
From Salsa.gen Require Import Kernels.
From Salsa.Kern Require Import KBits.
Open Scope N_scope.

Lemma k_ID_MAX_U32_val : k_ID_MAX_U32 = 4294967040.
Proof. reflexivity. Qed.
Lemma k_ID_MAX_USIZE_val : k_ID_MAX_USIZE = 4294967040.
Proof. reflexivity. Qed.

(* a well-formed Id: NonZeroU32 index word, u32 generation *)
Definition id_wf (id : k_Id) : Prop :=
  1 <= k_Id_index id /\ k_Id_index id < 4294967296 /\ k_Id_generation id < 4294967296.

Lemma k_id_as_bits_eq id :
  id_wf id -> k_id_as_bits id = k_Id_index id + 4294967296 * k_Id_generation id.
Proof.
  intros (H1 & H2 & H3). unfold k_id_as_bits.
  rewrite N.mod_small.
  - change 4294967296 with (2 ^ 32). apply lor_shiftl_add. exact H2.
  - rewrite N.shiftl_mul_pow2. change (2 ^ 32) with 4294967296. lia.
Qed.

Lemma k_id_as_bits_range id : id_wf id -> k_id_as_bits id < 18446744073709551616.
Proof.
  intros H. rewrite k_id_as_bits_eq by exact H. destruct H as (H1 & H2 & H3).
  now apply (split_bound 4294967296 _ _ 4294967296).
Qed.

Lemma k_id_from_bits_eq bits :
  k_id_from_bits bits =
  if bits mod 4294967296 =? 0 then None
  else Some (mk_k_Id (bits mod 4294967296) ((bits / 4294967296) mod 4294967296)).
Proof.
  unfold k_id_from_bits. cbn zeta. rewrite N.shiftr_div_pow2.
  change (2 ^ 32) with 4294967296.
  destruct (bits mod 4294967296 =? 0); reflexivity.
Qed.

(* from_bits ∘ as_bits = id *)
Lemma k_id_from_bits_as_bits id : id_wf id -> k_id_from_bits (k_id_as_bits id) = Some id.
Proof.
  intros H. rewrite k_id_from_bits_eq, k_id_as_bits_eq by exact H.
  destruct id as [i g]. destruct H as (H1 & H2 & H3). cbn [k_Id_index k_Id_generation] in *.
  rewrite split_lo, split_hi, (N.mod_small g) by assumption.
  destruct (N.eqb_spec i 0); [lia | reflexivity].
Qed.

Lemma k_id_as_bits_inj a b : id_wf a -> id_wf b -> k_id_as_bits a = k_id_as_bits b -> a = b.
Proof.
  intros Ha Hb E. apply (f_equal k_id_from_bits) in E.
  rewrite !k_id_from_bits_as_bits in E by assumption. now injection E.
Qed.

Lemma k_id_from_bits_wf bits id : k_id_from_bits bits = Some id -> id_wf id.
Proof.
  rewrite k_id_from_bits_eq. destruct (N.eqb_spec (bits mod 4294967296) 0); [discriminate|].
  intros E. injection E as <-. unfold id_wf. cbn [k_Id_index k_Id_generation].
  split; [now apply (N.le_succ_l 0), N.neq_0_lt_0|]. split; now apply N.mod_lt.
Qed.

Lemma k_id_as_bits_from_bits bits id :
  bits < 18446744073709551616 -> k_id_from_bits bits = Some id -> k_id_as_bits id = bits.
Proof.
  intros Hb E. pose proof (k_id_from_bits_wf _ _ E) as Hwf.
  rewrite k_id_as_bits_eq by exact Hwf. revert E. rewrite k_id_from_bits_eq.
  destruct (N.eqb_spec (bits mod 4294967296) 0); [discriminate|].
  intros E. injection E as <-. cbn [k_Id_index k_Id_generation].
  rewrite (N.mod_small (bits / 4294967296)) by (now apply N.div_lt_upper_bound).
  apply split_eta.
Qed.

Lemma k_id_from_bits_none_iff bits : k_id_from_bits bits = None <-> bits mod 4294967296 = 0.
Proof.
  rewrite k_id_from_bits_eq. destruct (N.eqb_spec (bits mod 4294967296) 0); split;
    intros; try discriminate; try reflexivity; congruence.
Qed.

Lemma k_id_from_bits_unchecked_agrees bits id :
  k_id_from_bits bits = Some id -> k_id_from_bits_unchecked bits = id.
Proof.
  intros E. rewrite k_id_from_bits_eq in E.
  destruct (N.eqb_spec (bits mod 4294967296) 0); [discriminate|]. injection E as <-.
  unfold k_id_from_bits_unchecked. cbn zeta. rewrite N.shiftr_div_pow2.
  change (2 ^ 32) with 4294967296. reflexivity.
Qed.

(* serde: persisted as the u64 bits, restored by from_bits *)
Lemma k_id_serde id : id_wf id -> k_id_de (k_id_ser id) = Some id.
Proof. intros H. unfold k_id_de, k_id_ser. now apply k_id_from_bits_as_bits. Qed.

(* ---- generations *)
Lemma k_id_generation_eq id : k_id_generation id = k_Id_generation id.
Proof. reflexivity. Qed.

Lemma k_id_with_generation_proj id g :
  k_Id_index (k_id_with_generation id g) = k_Id_index id /\
  k_id_generation (k_id_with_generation id g) = g /\
  k_id_index (k_id_with_generation id g) = k_id_index id.
Proof. repeat split. Qed.

Lemma k_id_with_generation_wf id g : id_wf id -> g < 4294967296 -> id_wf (k_id_with_generation id g).
Proof. intros (H1 & H2 & H3) Hg. unfold id_wf. cbn. auto. Qed.

Lemma k_id_next_generation_some id :
  k_id_generation id < 4294967295 ->
  k_id_next_generation id = Some (k_id_with_generation id (k_id_generation id + 1)).
Proof.
  intros H. unfold k_id_next_generation. cbn zeta.
  destruct (N.ltb_spec (k_id_generation id + 1) 4294967296); [reflexivity | lia].
Qed.

Lemma k_id_next_generation_none_iff id :
  k_id_generation id < 4294967296 ->
  (k_id_next_generation id = None <-> k_id_generation id = 4294967295).
Proof.
  intros Hg. unfold k_id_next_generation. cbn zeta.
  destruct (N.ltb_spec (k_id_generation id + 1) 4294967296); split; intros; try discriminate;
    try reflexivity; lia.
Qed.

Lemma k_id_next_generation_spec id id' :
  k_id_next_generation id = Some id' ->
  k_id_generation id' = k_id_generation id + 1 /\ k_id_index id' = k_id_index id /\
  k_id_generation id' < 4294967296.
Proof.
  unfold k_id_next_generation. cbn zeta.
  destruct (N.ltb_spec (k_id_generation id + 1) 4294967296); [|discriminate].
  intros E. injection E as <-. cbn. repeat split. exact H.
Qed.

(* NonZero representation: the stored word is index + 1 *)
Lemma k_id_index_eq id : 1 <= k_Id_index id -> k_Id_index id < 4294967296 ->
  k_id_index id = k_Id_index id - 1.
Proof. apply wrap_pred. Qed.

Lemma k_id_from_index_eq i : i < 4294967295 -> k_id_from_index i = mk_k_Id (i + 1) 0.
Proof. intros H. unfold k_id_from_index. rewrite N.mod_small by lia. reflexivity. Qed.

Lemma k_id_from_index_wf i : i < 4294967295 -> id_wf (k_id_from_index i).
Proof.
  intros H. rewrite k_id_from_index_eq by exact H.
  unfold id_wf. cbn [k_Id_index k_Id_generation]. lia.
Qed.

Lemma k_id_from_index_pre_wf i : k_id_from_index_pre i = true -> id_wf (k_id_from_index i).
Proof.
  unfold k_id_from_index_pre. rewrite k_ID_MAX_U32_val. intros H%N.ltb_lt.
  apply k_id_from_index_wf. lia.
Qed.

Lemma k_id_index_from_index i :
  i < 4294967295 -> k_id_index (k_id_from_index i) = i /\ k_id_generation (k_id_from_index i) = 0.
Proof.
  intros H. rewrite k_id_from_index_eq by exact H. split; [|reflexivity].
  rewrite k_id_index_eq; cbn [k_Id_index]; lia.
Qed.

Lemma k_id_from_index_inj i j :
  i < 4294967295 -> j < 4294967295 -> k_id_from_index i = k_id_from_index j -> i = j.
Proof.
  intros Hi Hj E. apply (f_equal k_id_index) in E.
  now rewrite (proj1 (k_id_index_from_index i Hi)), (proj1 (k_id_index_from_index j Hj)) in E.
Qed.

Lemma k_id_from_index_index id :
  id_wf id -> k_id_with_generation (k_id_from_index (k_id_index id)) (k_id_generation id) = id.
Proof.
  destruct id as [i g]. intros (H1 & H2 & H3). cbn [k_Id_index k_Id_generation] in *.
  rewrite k_id_index_eq by assumption. cbn [k_Id_index].
  rewrite k_id_from_index_eq by lia. unfold k_id_with_generation, k_id_generation.
  cbn [k_Id_index k_Id_generation]. f_equal. lia.
Qed.

Example id_wf_ex : id_wf (mk_k_Id 1 4294967295) /\
  k_id_from_bits (k_id_as_bits (mk_k_Id 1 4294967295)) = Some (mk_k_Id 1 4294967295) /\
  k_id_next_generation (mk_k_Id 1 4294967295) = None.
Proof. unfold id_wf. cbn [k_Id_index k_Id_generation]. repeat split; lia. Qed.
