(* Kern/K3_Shortcut.v — interface lemmas about the translated comparisons of the
   durability short-cut, the `changed_at > revision` tests and the can_backdate durability
   conjunct (src/function/maybe_changed_after.rs, src/function/backdate.rs,
   src/input/input_field.rs, src/tracked_struct/tracked_field.rs). *)
From Coq Require Import NArith Bool Lia.
From Salsa.gen Require Import Kernels.
Open Scope N_scope.

Lemma k_shallow_ok_eq lc va : k_shallow_ok lc va = (lc <=? va).
Proof. unfold k_shallow_ok. now destruct (lc <=? va). Qed.

Lemma k_shallow_ok_iff lc va : k_shallow_ok lc va = true <-> lc <= va.
Proof. rewrite k_shallow_ok_eq. apply N.leb_le. Qed.

Lemma k_shallow_ok_false_iff lc va : k_shallow_ok lc va = false <-> va < lc.
Proof. rewrite k_shallow_ok_eq. apply N.leb_gt. Qed.

Lemma k_changed_if_id b : k_changed_if b = b.
Proof. now destruct b. Qed.

Lemma k_changed_after_eq s r : k_changed_after s r = (r <? s).
Proof. apply (k_changed_if_id (r <? s)). Qed.

Lemma k_changed_after_iff s r : k_changed_after s r = true <-> r < s.
Proof. rewrite k_changed_after_eq. apply N.ltb_lt. Qed.

Lemma k_changed_after_false_iff s r : k_changed_after s r = false <-> s <= r.
Proof. rewrite k_changed_after_eq. apply N.ltb_ge. Qed.

(* all five sites are the same comparison *)
Lemma k_changed_after_hot_eq s r : k_changed_after_hot s r = k_changed_after s r.
Proof. reflexivity. Qed.
Lemma k_changed_after_cold1_eq s r : k_changed_after_cold1 s r = k_changed_after s r.
Proof. reflexivity. Qed.
Lemma k_changed_after_cold2_eq s r : k_changed_after_cold2 s r = k_changed_after s r.
Proof. reflexivity. Qed.
Lemma k_changed_after_input_field_eq s r : k_changed_after_input_field s r = k_changed_after s r.
Proof. reflexivity. Qed.
Lemma k_changed_after_tracked_field_eq s r :
  k_changed_after_tracked_field s r = k_changed_after s r.
Proof. reflexivity. Qed.

Lemma k_changed_after_sites_agree s r :
  k_changed_after_hot s r = k_changed_after s r /\
  k_changed_after_cold1 s r = k_changed_after s r /\
  k_changed_after_cold2 s r = k_changed_after s r /\
  k_changed_after_input_field s r = k_changed_after s r /\
  k_changed_after_tracked_field s r = k_changed_after s r.
Proof.
  repeat split.
Qed.

Lemma k_can_backdate_dur_iff n o : k_can_backdate_dur n o = true <-> o <= n.
Proof. unfold k_can_backdate_dur. apply N.leb_le. Qed.

Lemma k_can_backdate_dur_false_iff n o : k_can_backdate_dur n o = false <-> n < o.
Proof. unfold k_can_backdate_dur. apply N.leb_gt. Qed.

Example k_shallow_ok_ex : k_shallow_ok 3 3 = true /\ k_shallow_ok 4 3 = false.
Proof. split; reflexivity. Qed.
Example k_changed_after_ex : k_changed_after 4 3 = true /\ k_changed_after 3 3 = false.
Proof. split; reflexivity. Qed.
