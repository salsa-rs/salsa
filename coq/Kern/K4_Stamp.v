(* Kern/K4_Stamp.v — interface lemmas about the translated IterationStamp (src/cycle.rs)
   and Runtime::bump_cancellation_count (src/runtime.rs). *)
From Coq Require Import NArith Bool Lia.
From Salsa.gen Require Import Kernels.
From Salsa.Kern Require Import KBits.
Open Scope N_scope.

Lemma k_MAX_ITERATIONS_val : k_MAX_ITERATIONS = 200.
Proof. reflexivity. Qed.

(* a stamp is the pair (iteration, count) split at 256 *)
Lemma stamp_div_lt s : s < 65536 -> s / 256 < 256.
Proof. intros H. now apply N.div_lt_upper_bound. Qed.

Lemma k_stamp_count_eq s : s < 65536 -> k_stamp_cancellation_count s = s / 256.
Proof. intros H. apply N.mod_small. now apply stamp_div_lt. Qed.

Lemma k_stamp_new_range i c : i < 256 -> c < 256 -> k_stamp_new i c < 65536.
Proof. apply (split_bound 256 i c 256). Qed.

Lemma k_stamp_iteration_new i c : i < 256 -> k_stamp_iteration (k_stamp_new i c) = i.
Proof. apply (split_lo 256). Qed.

Lemma k_stamp_count_new i c :
  i < 256 -> c < 256 -> k_stamp_cancellation_count (k_stamp_new i c) = c.
Proof.
  intros Hi Hc. unfold k_stamp_cancellation_count, k_stamp_new.
  rewrite (split_hi 256) by exact Hi. now apply N.mod_small.
Qed.

Lemma k_stamp_new_parts s :
  s < 65536 -> k_stamp_new (k_stamp_iteration s) (k_stamp_cancellation_count s) = s.
Proof. intros H. rewrite k_stamp_count_eq by exact H. apply (split_eta 256). Qed.

Lemma k_stamp_iteration_range s : k_stamp_iteration s < 256.
Proof. now apply N.mod_lt. Qed.

Lemma k_stamp_count_range s : k_stamp_cancellation_count s < 256.
Proof. now apply N.mod_lt. Qed.

Lemma k_stamp_initial_parts c :
  c < 256 ->
  k_stamp_iteration (k_stamp_initial c) = 0 /\ k_stamp_cancellation_count (k_stamp_initial c) = c.
Proof.
  intros. unfold k_stamp_initial. split.
  - now apply k_stamp_iteration_new.
  - now apply k_stamp_count_new.
Qed.

Lemma k_stamp_is_default_iff s : k_stamp_is_default s = true <-> s = 0.
Proof. unfold k_stamp_is_default. apply N.eqb_eq. Qed.

Lemma k_stamp_default_is_initial_0 : k_stamp_initial 0 = 0.
Proof. reflexivity. Qed.

Lemma k_stamp_is_initial_iteration_iff s :
  k_stamp_is_initial_iteration s = true <-> k_stamp_iteration s = 0.
Proof. unfold k_stamp_is_initial_iteration. apply N.eqb_eq. Qed.

Lemma k_stamp_iteration_as_u32_eq s : k_stamp_iteration_as_u32 s = k_stamp_iteration s.
Proof. reflexivity. Qed.

(* ---- increment_iteration *)

(* MAX_ITERATIONS is below the top of the byte: the increment does not carry into the count,
   the u16 does not wrap, and the test alone decides *)
Lemma k_stamp_succ s :
  s < 65536 -> k_stamp_iteration s <= k_MAX_ITERATIONS ->
  (s + 1) mod 65536 = s + 1 /\
  k_stamp_iteration (s + 1) = k_stamp_iteration s + 1 /\
  k_stamp_cancellation_count (s + 1) = k_stamp_cancellation_count s.
Proof.
  intros Hs Hi.
  assert (k_stamp_iteration s + 1 < 256) as Hi' by (rewrite k_MAX_ITERATIONS_val in Hi; lia).
  destruct (split_succ 256 s Hi') as (Elo & Ehi).
  assert (s + 1 < 65536) as Hs'.
  { rewrite <- (split_eta 256 (s + 1)), Elo, Ehi.
    apply (split_bound 256 _ _ 256); [exact Hi' | now apply stamp_div_lt]. }
  split; [now apply N.mod_small|]. split; [exact Elo|].
  rewrite !k_stamp_count_eq by assumption. exact Ehi.
Qed.

Lemma k_stamp_increment_eq s :
  s < 65536 -> k_stamp_iteration s <= k_MAX_ITERATIONS ->
  k_stamp_increment_iteration s =
  if k_stamp_iteration s + 1 <=? k_MAX_ITERATIONS then Some (s + 1) else None.
Proof.
  intros Hs Hi. unfold k_stamp_increment_iteration. cbn zeta.
  destruct (k_stamp_succ s Hs Hi) as (-> & -> & _). reflexivity.
Qed.

Lemma k_stamp_increment_some s s' :
  s < 65536 -> k_stamp_iteration s <= k_MAX_ITERATIONS ->
  k_stamp_increment_iteration s = Some s' ->
  s' = s + 1 /\
  k_stamp_iteration s' = k_stamp_iteration s + 1 /\
  k_stamp_cancellation_count s' = k_stamp_cancellation_count s /\
  k_stamp_iteration s' <= k_MAX_ITERATIONS.
Proof.
  intros Hs Hi. rewrite k_stamp_increment_eq by assumption.
  destruct (k_stamp_succ s Hs Hi) as (_ & Ei & Ec).
  destruct (N.leb_spec (k_stamp_iteration s + 1) k_MAX_ITERATIONS); [|discriminate].
  intros E. injection E as <-. rewrite Ei. auto.
Qed.

Lemma k_stamp_increment_lt s s' : k_stamp_increment_iteration s = Some s' -> s' < 65536.
Proof.
  unfold k_stamp_increment_iteration. cbn zeta.
  destruct (_ <=? _); [|discriminate]. intros E. injection E as <-. now apply N.mod_lt.
Qed.

Lemma k_stamp_increment_none_iff s :
  s < 65536 -> k_stamp_iteration s <= k_MAX_ITERATIONS ->
  (k_stamp_increment_iteration s = None <-> k_stamp_iteration s = k_MAX_ITERATIONS).
Proof.
  intros Hs Hi. rewrite k_stamp_increment_eq by assumption.
  destruct (N.leb_spec (k_stamp_iteration s + 1) k_MAX_ITERATIONS);
    split; intros E; try discriminate; try reflexivity; lia.
Qed.

Lemma k_stamp_increment_bound s s' :
  s < 65536 -> k_stamp_iteration s <= k_MAX_ITERATIONS ->
  k_stamp_increment_iteration s = Some s' -> k_stamp_iteration s < k_MAX_ITERATIONS.
Proof.
  intros Hs Hi. rewrite k_stamp_increment_eq by assumption.
  destruct (N.leb_spec (k_stamp_iteration s + 1) k_MAX_ITERATIONS); [lia | discriminate].
Qed.

(* ---- order = lexicographic (count, iteration) *)
Lemma k_stamp_order s t :
  s < 65536 -> t < 65536 ->
  (s < t <->
   k_stamp_cancellation_count s < k_stamp_cancellation_count t \/
   (k_stamp_cancellation_count s = k_stamp_cancellation_count t /\
    k_stamp_iteration s < k_stamp_iteration t)).
Proof.
  intros Hs Ht. rewrite !k_stamp_count_eq by assumption. now apply (split_lt 256).
Qed.

Lemma k_stamp_eq s t :
  s < 65536 -> t < 65536 ->
  k_stamp_cancellation_count s = k_stamp_cancellation_count t ->
  k_stamp_iteration s = k_stamp_iteration t -> s = t.
Proof.
  intros Hs Ht Ec Ei.
  rewrite <- (k_stamp_new_parts s Hs), <- (k_stamp_new_parts t Ht), Ec, Ei. reflexivity.
Qed.

(* ---- bump_cancellation_count: (overflowed, new count) *)
Definition bump_count (c : N) : option N :=
  let '(overflow, c') := k_bump_count c in if overflow then None else Some c'.

Lemma k_bump_count_ok c : c < 255 -> k_bump_count c = (false, c + 1).
Proof.
  intros H. unfold k_bump_count. cbn zeta.
  destruct (N.ltb_spec (c + 1) 256); [reflexivity | lia].
Qed.

Lemma k_bump_count_overflow c : 255 <= c -> k_bump_count c = (true, c).
Proof.
  intros H. unfold k_bump_count. cbn zeta.
  destruct (N.ltb_spec (c + 1) 256); [lia | reflexivity].
Qed.

Lemma bump_count_none_iff c : bump_count c = None <-> 255 <= c.
Proof.
  unfold bump_count. destruct (N.lt_ge_cases c 255) as [H|H].
  - rewrite k_bump_count_ok by exact H. split; [discriminate | lia].
  - rewrite k_bump_count_overflow by exact H. split; auto.
Qed.

Lemma bump_count_some c : c < 255 -> bump_count c = Some (c + 1).
Proof. intros H. unfold bump_count. now rewrite k_bump_count_ok. Qed.

Example k_stamp_ex :
  k_stamp_increment_iteration (k_stamp_new 199 7) = Some (k_stamp_new 200 7) /\
  k_stamp_increment_iteration (k_stamp_new 200 7) = None.
Proof. split; reflexivity. Qed.
