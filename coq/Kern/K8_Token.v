(* Kern/K8_Token.v — interface lemmas about the translated CancellationToken flag byte
   (src/zalsa_local.rs).  The AtomicU8 is read as the plain byte `st`; every kernel maps the
   old byte to the new byte (and a result). *)
From Coq Require Import NArith Bool Lia.
From Salsa.gen Require Import Kernels.
From Salsa.Kern Require Import KBits.
Open Scope N_scope.

Lemma k_TOK_masks : k_TOK_CANCELLED_MASK = 2 ^ 0 /\ k_TOK_DISABLED_MASK = 2 ^ 1.
Proof. split; reflexivity. Qed.

Lemma k_TOK_masks_disjoint : N.land k_TOK_CANCELLED_MASK k_TOK_DISABLED_MASK = 0.
Proof. reflexivity. Qed.

(* the two flags as bits of the byte *)
Definition tok_cancelled (st : N) : bool := N.testbit st 0.
Definition tok_disabled (st : N) : bool := N.testbit st 1.

Lemma k_tok_is_cancelled_eq st : k_tok_is_cancelled st = tok_cancelled st.
Proof.
  unfold k_tok_is_cancelled, tok_cancelled. change k_TOK_CANCELLED_MASK with (2 ^ 0).
  rewrite land_pow2. now destruct (N.testbit st 0).
Qed.

(* !DISABLED_MASK on a u8: the whole byte minus bit 1 *)
Lemma not_disabled_bits k : N.testbit (255 - k_TOK_DISABLED_MASK) k = (k <? 8) && negb (k =? 1).
Proof.
  change (255 - k_TOK_DISABLED_MASK) with (N.ldiff (N.ones 8) (2 ^ 1)).
  rewrite N.ldiff_spec, N.pow2_bits_eqb, (N.eqb_sym 1 k). f_equal.
  destruct (N.ltb_spec k 8); [now apply N.ones_spec_low | now apply N.ones_spec_high].
Qed.

(* ---- cancel *)
Lemma k_tok_cancel_bits st k :
  N.testbit (k_tok_cancel st) k = N.testbit st k || (k =? 0).
Proof.
  unfold k_tok_cancel. cbn zeta. change k_TOK_CANCELLED_MASK with (2 ^ 0).
  rewrite N.lor_spec, N.pow2_bits_eqb. now rewrite (N.eqb_sym 0 k).
Qed.

Lemma k_tok_cancel_spec st :
  tok_cancelled (k_tok_cancel st) = true /\ tok_disabled (k_tok_cancel st) = tok_disabled st.
Proof.
  unfold tok_cancelled, tok_disabled. rewrite !k_tok_cancel_bits. cbn [N.eqb].
  split; [apply orb_true_r | apply orb_false_r].
Qed.

(* ---- set_cancellation_disabled: (previous disabled bit, new byte) *)
Lemma k_tok_set_disabled_prev st b :
  fst (k_tok_set_cancellation_disabled st b) = tok_disabled st.
Proof.
  unfold k_tok_set_cancellation_disabled, tok_disabled. destruct b; cbn [fst];
    change k_TOK_DISABLED_MASK with (2 ^ 1); rewrite land_pow2; now destruct (N.testbit st 1).
Qed.

Lemma k_tok_set_disabled_bits st b k :
  st < 256 ->
  N.testbit (snd (k_tok_set_cancellation_disabled st b)) k =
  if k =? 1 then b else N.testbit st k.
Proof.
  intros Hst. unfold k_tok_set_cancellation_disabled. destruct b; cbn [snd].
  - change k_TOK_DISABLED_MASK with (2 ^ 1). rewrite N.lor_spec, N.pow2_bits_eqb.
    rewrite (N.eqb_sym 1 k). destruct (k =? 1); [apply orb_true_r | apply orb_false_r].
  - rewrite N.land_spec, not_disabled_bits.
    destruct (N.eqb_spec k 1) as [->|Hne]; cbn [negb]; [now rewrite andb_false_r|].
    rewrite andb_true_r. destruct (N.ltb_spec k 8) as [Hk|Hk]; [apply andb_true_r|].
    rewrite andb_false_r. symmetry. apply (testbit_small st 8 k); [exact Hst | exact Hk].
Qed.

Lemma k_tok_set_disabled_spec st b :
  st < 256 ->
  let st' := snd (k_tok_set_cancellation_disabled st b) in
  tok_disabled st' = b /\ tok_cancelled st' = tok_cancelled st.
Proof.
  intros Hst. cbn zeta. unfold tok_disabled, tok_cancelled.
  rewrite !k_tok_set_disabled_bits by exact Hst. split; reflexivity.
Qed.

Lemma k_tok_set_disabled_range st b :
  st < 256 -> snd (k_tok_set_cancellation_disabled st b) < 256.
Proof.
  intros Hst. apply (lt_pow2_bits _ 8). intros k Hk.
  rewrite k_tok_set_disabled_bits by exact Hst.
  destruct (N.eqb_spec k 1); [lia | now apply (testbit_small st 8)].
Qed.

(* setting and restoring the disabled flag gives back the byte *)
Lemma k_tok_set_disabled_restore st b :
  st < 256 ->
  let '(prev, st1) := k_tok_set_cancellation_disabled st b in
  snd (k_tok_set_cancellation_disabled st1 prev) = st.
Proof.
  intros Hst. destruct (k_tok_set_cancellation_disabled st b) as [prev st1] eqn:E.
  assert (prev = tok_disabled st) as -> by (rewrite <- (k_tok_set_disabled_prev st b), E; reflexivity).
  assert (st1 = snd (k_tok_set_cancellation_disabled st b)) as -> by (now rewrite E).
  apply N.bits_inj; intro k.
  rewrite k_tok_set_disabled_bits by (now apply k_tok_set_disabled_range).
  rewrite k_tok_set_disabled_bits by exact Hst.
  destruct (N.eqb_spec k 1) as [->|]; reflexivity.
Qed.

(* ---- should_trigger_local_cancellation *)
Definition tok_wf (st : N) : Prop := st < 4.

Lemma k_tok_should_trigger_eq st : k_tok_should_trigger st = (st =? 1).
Proof. reflexivity. Qed.

Lemma k_tok_should_trigger_iff st :
  tok_wf st ->
  (k_tok_should_trigger st = true <-> tok_cancelled st = true /\ tok_disabled st = false).
Proof.
  unfold tok_wf. intros H. rewrite k_tok_should_trigger_eq, N.eqb_eq.
  assert (st = 0 \/ st = 1 \/ st = 2 \/ st = 3) as [->|[->|[->| ->]]] by lia;
    cbv [tok_cancelled tok_disabled N.testbit Pos.testbit]; intuition discriminate.
Qed.

(* ---- reset *)
Lemma k_tok_reset_eq st : k_tok_reset st = 0.
Proof. reflexivity. Qed.

(* the reachable bytes: 0 initially; every operation keeps st < 4 *)
Lemma tok_wf_0 : tok_wf 0.  Proof. reflexivity. Qed.

Lemma tok_wf_bits st : tok_wf st <-> forall k, 2 <= k -> N.testbit st k = false.
Proof. apply (lt_pow2_bits st 2). Qed.

Lemma tok_wf_cancel st : tok_wf st -> tok_wf (k_tok_cancel st).
Proof.
  rewrite !tok_wf_bits. intros H k Hk. rewrite k_tok_cancel_bits, H by exact Hk.
  destruct (N.eqb_spec k 0); [lia | reflexivity].
Qed.

Lemma tok_wf_set_disabled st b :
  tok_wf st -> tok_wf (snd (k_tok_set_cancellation_disabled st b)).
Proof.
  intros Hwf. assert (st < 256) as H256 by (unfold tok_wf in Hwf; lia).
  revert Hwf. rewrite !tok_wf_bits. intros H k Hk.
  rewrite k_tok_set_disabled_bits by exact H256.
  destruct (N.eqb_spec k 1); [lia | now apply H].
Qed.

Lemma tok_wf_reset st : tok_wf (k_tok_reset st).
Proof. reflexivity. Qed.

Example tok_ex :
  k_tok_should_trigger (k_tok_cancel 0) = true /\
  k_tok_should_trigger (snd (k_tok_set_cancellation_disabled (k_tok_cancel 0) true)) = false /\
  k_tok_set_cancellation_disabled 3 false = (true, 1).
Proof. repeat split. Qed.
