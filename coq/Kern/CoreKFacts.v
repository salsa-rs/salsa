(* Kern/CoreKFacts.v — the facts about the (translated) kernels that the Core proofs use.
   Proved against whatever coq/gen/Kernels.v says on this run. *)
From Salsa Require Import Base.
From Salsa.gen Require Import Kernels.
From Salsa.Kern Require Import CoreK K3_Shortcut.

Lemma shallow_ok_spec lc v : shallow_ok lc v = true <-> lc <= v.
Proof. apply k_shallow_ok_iff. Qed.

Lemma changed_after_spec stamp since : changed_after stamp since = true <-> since < stamp.
Proof. apply k_changed_after_iff. Qed.

Lemma changed_after_false stamp since : changed_after stamp since = false <-> stamp <= since.
Proof. apply k_changed_after_false_iff. Qed.

Lemma can_backdate_dur_spec n o : can_backdate_dur n o = true <-> o <= n.
Proof. apply k_can_backdate_dur_iff. Qed.

Lemma last_changed_low r : last_changed r 0 = r_cur r.
Proof. reflexivity. Qed.

Lemma last_changed_medium r : last_changed r 1 = r_med r.
Proof. reflexivity. Qed.

Lemma last_changed_high r : last_changed r 2 = r_high r.
Proof. reflexivity. Qed.

Lemma last_changed_never r : last_changed r 3 = 1.
Proof. reflexivity. Qed.

Lemma report_write_cur r d : r_cur (report_write r d) = r_cur r.
Proof. reflexivity. Qed.

