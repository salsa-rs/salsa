(* Kern/K9_Retention.v — interface lemmas about the translated interned-value retention
   kernels (src/interned.rs: is_reusable, IMMORTAL, RevisionQueue::{record, record_cold,
   is_stale, is_primed}).  The queue (SmallVec of AtomicRevision) is a `list N`, newest first;
   the shift loop of record_cold is the translated fold. *)
From Coq Require Import NArith Bool List Lia.
From Salsa.gen Require Import Kernels.
From Salsa.Kern Require Import KBits K1_Durability.
Import ListNotations.
Open Scope N_scope.

Lemma k_IMMORTAL_val : k_IMMORTAL = 18446744073709551615.
Proof. reflexivity. Qed.

Lemma k_reusable_iff revisions d :
  k_reusable revisions d = true <-> revisions <> k_IMMORTAL /\ d = k_DUR_LOW.
Proof.
  unfold k_reusable. destruct (N.eqb_spec revisions k_IMMORTAL) as [E|E].
  - split; [discriminate | intros (H & _); contradiction].
  - rewrite N.eqb_eq. tauto.
Qed.

(* ---- list idioms *)
Lemma k_len_length q : k_len q = N.of_nat (length q).
Proof. induction q as [|x t IH]; [reflexivity|]. cbn [k_len length]. rewrite IH. lia. Qed.

Lemma k_nth_cons x t k : k_nth (x :: t) k = if k =? 0 then x else k_nth t (k - 1).
Proof. reflexivity. Qed.

Lemma k_len_set_nth q i v : k_len (k_set_nth q i v) = k_len q.
Proof.
  revert i. induction q as [|x t IH]; intros i; [reflexivity|].
  cbn [k_set_nth]. destruct (i =? 0); cbn [k_len]; [reflexivity | now rewrite IH].
Qed.

Lemma k_nth_set_nth_same q i v : i < k_len q -> k_nth (k_set_nth q i v) i = v.
Proof.
  revert i. induction q as [|x t IH]; intros i Hi; cbn [k_len] in Hi; [lia|].
  cbn [k_set_nth]. destruct (N.eqb_spec i 0) as [->|Hi0]; [reflexivity|].
  rewrite k_nth_cons, (proj2 (N.eqb_neq i 0) Hi0). apply IH. lia.
Qed.

Lemma k_nth_set_nth_other q i v j : j <> i -> k_nth (k_set_nth q i v) j = k_nth q j.
Proof.
  revert i j. induction q as [|x t IH]; intros i j Hji; [reflexivity|].
  cbn [k_set_nth]. destruct (N.eqb_spec i 0) as [->|Hi0]; rewrite !k_nth_cons.
  - now rewrite (proj2 (N.eqb_neq j 0) Hji).
  - destruct (N.eqb_spec j 0); [reflexivity|]. apply IH. lia.
Qed.

Lemma k_nth_beyond q k : k_len q <= k -> k_nth q k = 0.
Proof.
  revert k. induction q as [|x t IH]; intros k Hk; [reflexivity|].
  cbn [k_len] in Hk. rewrite k_nth_cons. destruct (N.eqb_spec k 0); [lia|]. apply IH. lia.
Qed.

Lemma k_list_ext a b :
  k_len a = k_len b -> (forall k, k < k_len a -> k_nth a k = k_nth b k) -> a = b.
Proof.
  revert b. induction a as [|x t IH]; intros [|y u] Hl Hn; cbn [k_len] in *; try lia.
  - reflexivity.
  - f_equal.
    + specialize (Hn 0 ltac:(lia)). now rewrite !k_nth_cons in Hn.
    + apply IH; [lia|]. intros k Hk. specialize (Hn (k + 1) ltac:(lia)).
      rewrite !k_nth_cons in Hn. destruct (N.eqb_spec (k + 1) 0); [lia|].
      now replace (k + 1 - 1) with k in Hn by lia.
Qed.

Lemma k_len_removelast q : q <> [] -> k_len (removelast q) + 1 = k_len q.
Proof.
  induction q as [|x t IH]; [congruence|]. intros _. destruct t as [|y u]; [reflexivity|].
  change (removelast (x :: y :: u)) with (x :: removelast (y :: u)). cbn [k_len] in *.
  rewrite <- IH by discriminate. lia.
Qed.

Lemma k_nth_removelast q k : k + 1 < k_len q -> k_nth (removelast q) k = k_nth q k.
Proof.
  revert k. induction q as [|x t IH]; intros k Hk; [reflexivity|].
  destruct t as [|y u]; [cbn [k_len] in Hk; lia|].
  change (removelast (x :: y :: u)) with (x :: removelast (y :: u)).
  rewrite !k_nth_cons. destruct (N.eqb_spec k 0); [reflexivity|].
  apply IH. cbn [k_len] in *. lia.
Qed.

Lemma k_last_spec q : k_last q = match q with [] => None | _ => Some (last q 0) end.
Proof.
  induction q as [|x t IH]; [reflexivity|]. destruct t as [|y u]; [reflexivity|].
  change (k_last (x :: y :: u)) with (k_last (y :: u)). rewrite IH. reflexivity.
Qed.

(* ---- the shift loop *)
Definition shift_step (q : list N) (i : N) : list N :=
  k_set_nth q i (k_nth q ((i + 18446744073709551616 - 1) mod 18446744073709551616)).

(* the loop runs from the top down, so the value it copies has not been overwritten yet *)
Lemma fold_down_shift n : forall lo q,
  1 <= lo -> lo + N.of_nat n <= k_len q -> k_len q < 18446744073709551616 ->
  let q' := k_fold_down shift_step n lo q in
  k_len q' = k_len q /\
  (forall k, lo <= k < lo + N.of_nat n -> k_nth q' k = k_nth q (k - 1)) /\
  (forall k, k < lo \/ lo + N.of_nat n <= k -> k_nth q' k = k_nth q k).
Proof.
  induction n as [|m IH]; intros lo q Hlo Hlen Hmax; cbn zeta; cbn [k_fold_down].
  - split; [reflexivity|]. split; [intros k Hk; lia | reflexivity].
  - remember (lo + N.of_nat m) as i eqn:Ei. assert (i < k_len q) as Hi by lia.
    assert (shift_step q i = k_set_nth q i (k_nth q (i - 1))) as ->
      by (unfold shift_step; now rewrite wrap_pred by lia).
    destruct (IH lo (k_set_nth q i (k_nth q (i - 1))) Hlo) as (HL & Hin & Hout);
      [rewrite k_len_set_nth; lia ..|].
    rewrite k_len_set_nth in HL. rewrite <- Ei in Hin, Hout.
    split; [exact HL|]. split; intros k Hk.
    + destruct (N.eq_dec k i) as [->|Hne].
      * rewrite Hout by lia. now apply k_nth_set_nth_same.
      * rewrite Hin by lia. apply k_nth_set_nth_other. lia.
    + rewrite Hout by lia. apply k_nth_set_nth_other. lia.
Qed.

Lemma k_rq_record_cold_spec q r :
  q <> [] -> k_len q < 18446744073709551616 ->
  k_rq_record_cold q r = if r <=? k_nth q 0 then q else r :: removelast q.
Proof.
  intros Hne Hmax. unfold k_rq_record_cold.
  destruct (r <=? k_nth q 0); [reflexivity|]. cbn zeta.
  change (fun q_1 i => k_set_nth q_1 i
            (k_nth q_1 ((i + 18446744073709551616 - 1) mod 18446744073709551616)))
    with shift_step.
  unfold k_fold_range_rev.
  assert (1 <= k_len q) as H1 by (destruct q; [congruence | cbn [k_len]; lia]).
  destruct (fold_down_shift (N.to_nat (k_len q - 1)) 1 q) as (HL & Hin & _); [lia ..|].
  rewrite N2Nat.id in Hin.
  pose proof (k_len_removelast q Hne) as HR.
  apply k_list_ext; rewrite k_len_set_nth, HL; [cbn [k_len]; lia|].
  intros k Hk. destruct (N.eq_dec k 0) as [->|Hk0].
  - apply k_nth_set_nth_same. rewrite HL. lia.
  - rewrite k_nth_set_nth_other by exact Hk0. rewrite Hin by lia.
    rewrite k_nth_cons, (proj2 (N.eqb_neq k 0) Hk0). symmetry. apply k_nth_removelast. lia.
Qed.

Lemma k_rq_record_eq q r :
  k_rq_record q r = if r <=? k_nth q 0 then q else k_rq_record_cold q r.
Proof. reflexivity. Qed.

Lemma k_rq_record_spec q r :
  q <> [] -> k_len q < 18446744073709551616 ->
  k_rq_record q r = if r <=? k_nth q 0 then q else r :: removelast q.
Proof.
  intros Hne Hmax. rewrite k_rq_record_eq, k_rq_record_cold_spec by assumption.
  now destruct (r <=? k_nth q 0).
Qed.

Lemma k_rq_record_pre_iff q r : k_rq_record_pre q r = true <-> q <> [].
Proof.
  unfold k_rq_record_pre. destruct q as [|x t]; cbn [k_len].
  - split; [discriminate | congruence].
  - destruct (N.eqb_spec (1 + k_len t) 0); [lia|]. split; [discriminate | reflexivity].
Qed.

Fixpoint desc (q : list N) : Prop :=
  match q with
  | x :: ((y :: _) as t) => y <= x /\ desc t
  | _ => True
  end.

Lemma desc_removelast q : desc q -> desc (removelast q).
Proof.
  induction q as [|x t IH]; [auto|]. destruct t as [|y u]; [auto|].
  intros (Hxy & Ht). destruct u as [|z v]; [exact I|].
  change (removelast (x :: y :: z :: v)) with (x :: y :: removelast (z :: v)).
  split; [exact Hxy|]. apply (IH Ht).
Qed.

Lemma k_rq_record_length q r :
  q <> [] -> k_len q < 18446744073709551616 -> k_len (k_rq_record q r) = k_len q.
Proof.
  intros Hne Hmax. rewrite k_rq_record_spec by assumption.
  destruct (r <=? k_nth q 0); [reflexivity|]. cbn [k_len].
  pose proof (k_len_removelast q Hne). lia.
Qed.

Lemma k_rq_record_desc q r :
  q <> [] -> k_len q < 18446744073709551616 -> desc q -> desc (k_rq_record q r).
Proof.
  intros Hne Hmax Hd. rewrite k_rq_record_spec by assumption.
  destruct (N.leb_spec r (k_nth q 0)) as [|Hlt]; [exact Hd|].
  destruct q as [|x t]; [congruence|]. rewrite k_nth_cons in Hlt. cbn [N.eqb] in Hlt.
  destruct t as [|y u]; [exact I|].
  change (removelast (x :: y :: u)) with (x :: removelast (y :: u)).
  split; [lia|]. apply (desc_removelast (x :: y :: u) Hd).
Qed.

Lemma k_rq_record_head q r :
  q <> [] -> k_len q < 18446744073709551616 -> k_nth (k_rq_record q r) 0 = N.max r (k_nth q 0).
Proof.
  intros Hne Hmax. rewrite k_rq_record_spec by assumption.
  destruct (N.leb_spec r (k_nth q 0)); [lia|]. rewrite k_nth_cons. cbn [N.eqb]. lia.
Qed.

Lemma k_rq_record_idem q r :
  q <> [] -> k_len q < 18446744073709551616 ->
  k_rq_record (k_rq_record q r) r = k_rq_record q r.
Proof.
  intros Hne Hmax. rewrite (k_rq_record_eq (k_rq_record q r) r).
  rewrite k_rq_record_head by assumption.
  destruct (N.leb_spec r (N.max r (k_nth q 0))); [reflexivity | lia].
Qed.

(* is_stale / is_primed through the oldest entry *)
Lemma k_rq_is_primed_iff q :
  k_rq_is_primed q = true <-> exists o, k_last q = Some o /\ k_rev_start < o.
Proof.
  unfold k_rq_is_primed. destruct (k_last q) as [o|].
  - rewrite N.ltb_lt. split; [intros H; now exists o | intros (o' & E & H); now injection E as ->].
  - split; [discriminate | intros (o & E & _); discriminate].
Qed.

Lemma k_rq_is_stale_iff q r :
  Forall (fun x => k_rev_start <= x) q ->
  (k_rq_is_stale q r = true <-> k_rq_is_primed q = true /\ exists o, k_last q = Some o /\ r < o).
Proof.
  intros Hall. unfold k_rq_is_stale, k_rq_is_primed. rewrite k_last_spec.
  destruct q as [|x t].
  - split; [discriminate | intros (H & _); discriminate].
  - cbn zeta. set (o := last (x :: t) 0).
    assert (k_rev_start <= o) as Ho.
    { pose proof (proj1 (Forall_forall _ _) Hall o) as F. apply F. unfold o.
      destruct (exists_last (l := x :: t) ltac:(discriminate)) as (l' & a & E).
      rewrite E, last_last. apply in_or_app. right. now left. }
    change k_rev_start with 1 in *.
    destruct (N.eqb_spec o 1) as [E1|E1].
    + split; [discriminate|]. intros (H & _). apply N.ltb_lt in H. lia.
    + rewrite N.ltb_lt. split.
      * intros H. split; [apply N.ltb_lt; lia | now exists o].
      * intros (_ & o' & E & H). now injection E as <-.
Qed.

Lemma k_rq_is_stale_not_primed q r : k_rq_is_primed q = false -> Forall (fun x => k_rev_start <= x) q ->
  k_rq_is_stale q r = false.
Proof.
  intros Hp Hall. destruct (k_rq_is_stale q r) eqn:E; [|reflexivity].
  apply k_rq_is_stale_iff in E; [|exact Hall]. destruct E as (E & _). congruence.
Qed.

Example k_rq_ex :
  k_rq_record [1; 1; 1] 5 = [5; 1; 1] /\
  k_rq_record (k_rq_record (k_rq_record [1; 1; 1] 5) 7) 9 = [9; 7; 5] /\
  k_rq_record [9; 7; 5] 9 = [9; 7; 5] /\
  k_rq_is_stale [9; 7; 5] 4 = true /\ k_rq_is_stale [9; 7; 5] 5 = false /\
  k_rq_is_primed [5; 1; 1] = false /\ k_rq_is_stale [5; 1; 1] 0 = false.
Proof. repeat split. Qed.
