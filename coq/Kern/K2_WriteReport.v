(* Kern/K2_WriteReport.v — interface lemmas about the translated Runtime::report_tracked_write,
   Runtime::last_changed_revision and Revision::next (src/runtime.rs, src/revision.rs). *)
From Coq Require Import NArith Bool Lia.
From Salsa.gen Require Import Kernels.
From Salsa.Kern Require Import K1_Durability.
Open Scope N_scope.

Lemma k_REV_START_val : k_REV_START = 1.  Proof. reflexivity. Qed.
Lemma k_rev_start_val : k_rev_start = 1.  Proof. reflexivity. Qed.
Lemma k_never_changed_revision_val : k_never_changed_revision = 1.  Proof. reflexivity. Qed.

(* ---- report_tracked_write: exactly the slots 1..=d are set to the current revision *)
Lemma k_report_write_slot_spec j cur old d :
  k_report_write_slot j cur old d = if (1 <=? j) && (j <=? d) then cur else old.
Proof. reflexivity. Qed.

Lemma k_report_write_slot_in j cur old d :
  1 <= j -> j <= d -> k_report_write_slot j cur old d = cur.
Proof.
  intros H1 H2. rewrite k_report_write_slot_spec.
  apply N.leb_le in H1. apply N.leb_le in H2. now rewrite H1, H2.
Qed.

Lemma k_report_write_slot_zero cur old d : k_report_write_slot 0 cur old d = old.
Proof. rewrite k_report_write_slot_spec. reflexivity. Qed.

Lemma k_report_write_slot_above j cur old d :
  d < j -> k_report_write_slot j cur old d = old.
Proof.
  intros H. rewrite k_report_write_slot_spec.
  apply N.leb_gt in H. rewrite H. now rewrite andb_false_r.
Qed.

Lemma k_report_write_slot_iff j cur old d :
  cur <> old -> (k_report_write_slot j cur old d = cur <-> 1 <= j <= d).
Proof.
  intros Hne. rewrite k_report_write_slot_spec.
  destruct (N.leb_spec 1 j), (N.leb_spec j d); cbn [andb]; split; intros; try lia; congruence.
Qed.

(* a LOW write touches no slot besides slot 0 (which new_revision handles) *)
Lemma k_report_write_slot_low j cur old : k_report_write_slot j cur old k_DUR_LOW = old.
Proof.
  rewrite k_report_write_slot_spec, k_DUR_LOW_val.
  destruct (N.leb_spec 1 j), (N.leb_spec j 0); cbn [andb]; try reflexivity; lia.
Qed.

Lemma k_report_write_rejects_iff d : k_report_write_rejects d = true <-> d = k_DUR_NEVER.
Proof.
  unfold k_report_write_rejects. rewrite negb_involutive. apply N.eqb_eq.
Qed.

(* an accepted durability keeps the slice inside the array *)
Lemma k_report_write_in_bounds d :
  d <= k_DUR_MAX -> k_report_write_rejects d = false -> k_report_write_slot_in_bounds d = true.
Proof.
  intros Hd Hr. assert (d <> k_DUR_NEVER) as Hn.
  { intros E. apply k_report_write_rejects_iff in E. congruence. }
  rewrite k_DUR_MAX_is_NEVER in Hd. rewrite k_DUR_NEVER_val in *.
  unfold k_report_write_slot_in_bounds. rewrite k_dur_index_id.
  apply andb_true_iff; split; apply N.leb_le; lia.
Qed.

(* the declining invariant r0 >= r1 >= r2 is preserved when cur = r0 *)
Lemma k_report_write_declining r0 r1 r2 d :
  r2 <= r1 -> r1 <= r0 ->
  let r1' := k_report_write_slot 1 r0 r1 d in
  let r2' := k_report_write_slot 2 r0 r2 d in
  r2' <= r1' /\ r1' <= r0.
Proof.
  intros H21 H10. cbn zeta. rewrite !k_report_write_slot_spec.
  destruct (N.leb_spec 1 d), (N.leb_spec 2 d); cbn [N.leb andb]; cbn; lia.
Qed.

(* ---- last_changed_revision *)
Lemma k_last_changed_revision_0 r0 r1 r2 : k_last_changed_revision r0 r1 r2 0 = r0.
Proof. reflexivity. Qed.
Lemma k_last_changed_revision_1 r0 r1 r2 : k_last_changed_revision r0 r1 r2 1 = r1.
Proof. reflexivity. Qed.
Lemma k_last_changed_revision_2 r0 r1 r2 : k_last_changed_revision r0 r1 r2 2 = r2.
Proof. reflexivity. Qed.
Lemma k_last_changed_revision_3 r0 r1 r2 : k_last_changed_revision r0 r1 r2 3 = 1.
Proof. reflexivity. Qed.

Lemma k_last_changed_revision_low r0 r1 r2 : k_last_changed_revision r0 r1 r2 k_DUR_LOW = r0.
Proof. reflexivity. Qed.

Lemma k_last_changed_revision_never r0 r1 r2 :
  k_last_changed_revision r0 r1 r2 k_DUR_NEVER = k_rev_start.
Proof. reflexivity. Qed.

Lemma k_last_changed_revision_ge_len r0 r1 r2 d :
  k_DUR_LEN <= d -> k_last_changed_revision r0 r1 r2 d = k_rev_start.
Proof.
  rewrite k_DUR_LEN_val. intros H. unfold k_last_changed_revision. rewrite k_dur_index_id.
  cbn zeta. destruct (N.ltb_spec d 3); [lia | reflexivity].
Qed.

Lemma k_last_changed_revision_cases r0 r1 r2 d :
  let lc := k_last_changed_revision r0 r1 r2 d in
  d = 0 /\ lc = r0 \/ d = 1 /\ lc = r1 \/ d = 2 /\ lc = r2 \/ 3 <= d /\ lc = 1.
Proof.
  unfold k_last_changed_revision. rewrite k_dur_index_id. cbn zeta.
  destruct (N.ltb_spec d 3) as [H|H]; [|now right; right; right].
  destruct (N.eqb_spec d 0) as [->|H0]; [now left|].
  destruct (N.eqb_spec d 1) as [->|H1]; [now right; left|].
  right; right; left. split; [lia | reflexivity].
Qed.

Lemma k_last_changed_revision_anti r0 r1 r2 d d' :
  1 <= r2 -> r2 <= r1 -> r1 <= r0 -> d <= d' ->
  k_last_changed_revision r0 r1 r2 d' <= k_last_changed_revision r0 r1 r2 d.
Proof.
  intros H2 H21 H10 Hd.
  destruct (k_last_changed_revision_cases r0 r1 r2 d)
    as [(-> & ->)|[(-> & ->)|[(-> & ->)|(H3 & ->)]]];
  destruct (k_last_changed_revision_cases r0 r1 r2 d')
    as [(-> & ->)|[(-> & ->)|[(-> & ->)|(H3' & ->)]]]; lia.
Qed.

(* ---- Revision::next: +1, a panic (None) exactly on usize overflow *)
Lemma k_rev_next_ok r :
  r + 1 < 18446744073709551616 -> k_rev_next r = Some (r + 1).
Proof.
  intros H. unfold k_rev_next, k_rev_from. cbn zeta.
  rewrite N.mod_small by exact H. destruct (N.eqb_spec (r + 1) 0); [lia | reflexivity].
Qed.

Lemma k_rev_next_overflow : k_rev_next 18446744073709551615 = None.
Proof. reflexivity. Qed.

Lemma k_rev_next_none_iff r :
  r < 18446744073709551616 -> (k_rev_next r = None <-> r = 18446744073709551615).
Proof.
  intros Hr. split.
  - intros H. destruct (N.eq_dec r 18446744073709551615) as [|Hne]; [assumption|].
    rewrite k_rev_next_ok in H by lia. discriminate.
  - intros ->. reflexivity.
Qed.

Lemma k_rev_next_increases r r' : r < 18446744073709551616 -> k_rev_next r = Some r' -> r < r'.
Proof.
  intros Hr H. destruct (N.eq_dec r 18446744073709551615) as [->|Hne].
  - rewrite k_rev_next_overflow in H. discriminate.
  - rewrite k_rev_next_ok in H by lia. injection H as <-. lia.
Qed.
