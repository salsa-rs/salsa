(* Kern/K7_Edge.v — interface lemmas about the translated IngredientIndex tag bit
   (src/zalsa.rs), QueryEdge / PackedQueryEdge (src/zalsa_local.rs), DatabaseKeyIndex
   (src/key.rs), the persisted raw key, and the origin tag bytes.  These are the kernel
   theorems of property C25. *)
From Coq Require Import NArith Bool Lia.
From Salsa.gen Require Import Kernels.
From Salsa.Kern Require Import KBits K5_Id.
Open Scope N_scope.

Lemma k_ING_MAX_INDEX_val : k_ING_MAX_INDEX = 2147483647.  Proof. reflexivity. Qed.
Lemma k_PE_INGREDIENT_SHIFT_val : k_PE_INGREDIENT_SHIFT = 20.  Proof. reflexivity. Qed.
Lemma k_PE_GENERATION_MASK_val : k_PE_GENERATION_MASK = 1048575.  Proof. reflexivity. Qed.
Lemma k_PE_INGREDIENT_MASK_val : k_PE_INGREDIENT_MASK = 4095.  Proof. reflexivity. Qed.

(* the packed word is exactly filled: 12 + 20 = 32 bits, masks are the all-ones fields *)
Lemma k_PE_layout :
  k_PE_GENERATION_MASK = N.ones k_PE_INGREDIENT_SHIFT /\
  k_PE_INGREDIENT_MASK = N.ones (32 - k_PE_INGREDIENT_SHIFT).
Proof. split; reflexivity. Qed.

(* IngredientIndex: the index in the low 31 bits, the tag in bit 31 *)
Lemma k_ing_with_tag_eq x b :
  k_ing_with_tag x b = x mod 2147483648 + 2147483648 * N.b2n b.
Proof.
  unfold k_ing_with_tag. cbn zeta. rewrite k_ING_MAX_INDEX_val.
  change 2147483647 with (N.ones 31). rewrite N.land_ones.
  replace (N.shiftl (if b then 1 else 0) 31 mod 4294967296) with (N.shiftl (N.b2n b) 31)
    by (now destruct b).
  apply lor_shiftl_add. now apply N.mod_lt.
Qed.

Lemma k_ing_tag_eq x : k_ing_tag x = N.testbit x 31.
Proof.
  unfold k_ing_tag. rewrite k_ING_MAX_INDEX_val.
  change (4294967295 - 2147483647) with (2 ^ 31). rewrite land_pow2.
  now destruct (N.testbit x 31).
Qed.

Lemma k_ing_tag_iff x : x < 4294967296 -> (k_ing_tag x = true <-> 2147483648 <= x).
Proof. intros Hx. rewrite k_ing_tag_eq. now apply (testbit_top x 31). Qed.

Lemma k_ing_tag_with_tag x b : k_ing_tag (k_ing_with_tag x b) = b.
Proof.
  rewrite k_ing_tag_eq, k_ing_with_tag_eq. apply (testbit_split _ b 31). now apply N.mod_lt.
Qed.

Lemma k_ing_with_tag_false_id x : x <= k_ING_MAX_INDEX -> k_ing_with_tag x false = x.
Proof.
  rewrite k_ING_MAX_INDEX_val, k_ing_with_tag_eq. intros H. cbn [N.b2n].
  rewrite N.mul_0_r, N.add_0_r. apply N.mod_small. lia.
Qed.

Lemma k_ing_untag x b :
  x <= k_ING_MAX_INDEX -> k_ing_with_tag (k_ing_with_tag x b) false = x.
Proof.
  intros Hx. rewrite (k_ing_with_tag_eq x b), k_ing_with_tag_eq. cbn [N.b2n].
  rewrite N.mul_0_r, N.add_0_r, split_lo by (now apply N.mod_lt).
  apply N.mod_small. rewrite k_ING_MAX_INDEX_val in Hx. lia.
Qed.

Lemma k_ing_with_tag_range x b : k_ing_with_tag x b < 4294967296.
Proof.
  rewrite k_ing_with_tag_eq.
  apply (split_bound 2147483648 _ _ 2); [now apply N.mod_lt | now destruct b].
Qed.

Lemma k_ing_new_iff v : k_ing_new v = Some v <-> v <= k_ING_MAX_INDEX.
Proof.
  unfold k_ing_new. destruct (N.leb_spec v k_ING_MAX_INDEX); split; intros; try lia;
    try reflexivity; discriminate.
Qed.

(* ---- QueryEdge::{input, output, key, kind} : C25_tag *)
Definition key_wf (k : k_DatabaseKeyIndex) : Prop :=
  id_wf (k_DatabaseKeyIndex_key_index k) /\ k_DatabaseKeyIndex_ingredient_index k <= k_ING_MAX_INDEX.

Lemma k_qe_id_key k :
  id_wf (k_DatabaseKeyIndex_key_index k) ->
  k_qe_id (k_qe_input k) = k_DatabaseKeyIndex_key_index k /\
  k_qe_id (k_qe_output k) = k_DatabaseKeyIndex_key_index k.
Proof. intros H. split; exact (k_id_from_index_index _ H). Qed.

Lemma k_qe_kind_input k : key_wf k -> k_qe_kind (k_qe_input k) = k_QueryEdgeKind_Input.
Proof.
  intros (Hid & Hing). unfold k_qe_kind, k_qe_input. cbn zeta. cbn [k_QueryEdge_ingredient].
  unfold k_dki_ingredient_index. rewrite k_ING_MAX_INDEX_val in Hing.
  destruct (k_ing_tag (k_DatabaseKeyIndex_ingredient_index k)) eqn:E; [|reflexivity].
  apply k_ing_tag_iff in E; lia.
Qed.

Lemma k_qe_kind_output k : k_qe_kind (k_qe_output k) = k_QueryEdgeKind_Output.
Proof.
  unfold k_qe_kind, k_qe_output. cbn zeta. cbn [k_QueryEdge_ingredient].
  now rewrite k_ing_tag_with_tag.
Qed.

Lemma k_qe_key_input k : key_wf k -> k_qe_key (k_qe_input k) = k.
Proof.
  intros (Hid & Hing). unfold k_qe_key. rewrite (proj1 (k_qe_id_key k Hid)).
  unfold k_qe_input. cbn zeta. cbn [k_QueryEdge_ingredient]. unfold k_dki_ingredient_index.
  rewrite k_ing_with_tag_false_id by exact Hing. now destruct k.
Qed.

Lemma k_qe_key_output k : key_wf k -> k_qe_key (k_qe_output k) = k.
Proof.
  intros (Hid & Hing). unfold k_qe_key. rewrite (proj2 (k_qe_id_key k Hid)).
  unfold k_qe_output. cbn zeta. cbn [k_QueryEdge_ingredient]. unfold k_dki_ingredient_index.
  rewrite k_ing_untag by exact Hing. now destruct k.
Qed.

Lemma k_QueryEdgeKind_distinct : k_QueryEdgeKind_Input <> k_QueryEdgeKind_Output.
Proof. discriminate. Qed.

(* input and output edges of the same key differ (the tag is part of the edge) *)
Lemma k_qe_input_output_differ k : key_wf k -> k_qe_input k <> k_qe_output k.
Proof.
  intros Hk E. apply (f_equal k_qe_kind) in E.
  rewrite k_qe_kind_input, k_qe_kind_output in E by exact Hk. discriminate.
Qed.

(* ---- PackedQueryEdge::{new, edge} : C25_packed_roundtrip *)
Lemma k_pe_new_none_iff e :
  k_pe_new e = None <->
  k_PE_INGREDIENT_MASK < k_QueryEdge_ingredient e \/ k_PE_GENERATION_MASK < k_QueryEdge_generation e.
Proof.
  unfold k_pe_new. cbn zeta. unfold k_ing_as_u32.
  destruct (N.ltb_spec k_PE_INGREDIENT_MASK (k_QueryEdge_ingredient e)),
           (N.ltb_spec k_PE_GENERATION_MASK (k_QueryEdge_generation e));
    cbn [orb]; split; intros; try reflexivity; try discriminate; try lia; tauto.
Qed.

Lemma k_pe_new_some e p :
  k_pe_new e = Some p ->
  k_QueryEdge_ingredient e < 4096 /\ k_QueryEdge_generation e < 1048576 /\
  p = mk_k_PackedQueryEdge (k_QueryEdge_index e)
        (k_QueryEdge_generation e + 1048576 * k_QueryEdge_ingredient e).
Proof.
  unfold k_pe_new. cbn zeta. unfold k_ing_as_u32.
  rewrite k_PE_INGREDIENT_MASK_val, k_PE_GENERATION_MASK_val, k_PE_INGREDIENT_SHIFT_val.
  destruct (N.ltb_spec 4095 (k_QueryEdge_ingredient e)) as [|Hing]; [discriminate|].
  destruct (N.ltb_spec 1048575 (k_QueryEdge_generation e)) as [|Hgen]; [discriminate|].
  cbn [orb]. intros E. injection E as <-. split; [lia|]. split; [lia|]. f_equal.
  rewrite N.mod_small.
  - change 1048576 with (2 ^ 20). apply lor_shiftl_add. change (2 ^ 20) with 1048576. lia.
  - rewrite N.shiftl_mul_pow2. change (2 ^ 20) with 1048576. lia.
Qed.

Lemma k_pe_new_some_iff e :
  (exists p, k_pe_new e = Some p) <->
  k_QueryEdge_ingredient e <= 4095 /\ k_QueryEdge_generation e <= 1048575.
Proof.
  split.
  - intros (p & H). destruct (k_pe_new_some e p H) as (Hing & Hgen & _). lia.
  - intros (Hing & Hgen). destruct (k_pe_new e) as [p|] eqn:E; [now exists p|].
    apply k_pe_new_none_iff in E.
    rewrite k_PE_INGREDIENT_MASK_val, k_PE_GENERATION_MASK_val in E. lia.
Qed.

Lemma k_pe_new_roundtrip e p : k_pe_new e = Some p -> k_pe_edge p = e.
Proof.
  intros H. destruct (k_pe_new_some e p H) as (Hing & Hgen & ->).
  destruct e as [idx gen ing]. cbn [k_QueryEdge_index k_QueryEdge_generation k_QueryEdge_ingredient] in *.
  unfold k_pe_edge, k_ing_new_unchecked.
  cbn [k_PackedQueryEdge_index k_PackedQueryEdge_metadata].
  rewrite k_PE_GENERATION_MASK_val, k_PE_INGREDIENT_SHIFT_val.
  change 1048575 with (N.ones 20). rewrite N.land_ones, N.shiftr_div_pow2.
  change (2 ^ 20) with 1048576. now rewrite split_lo, split_hi.
Qed.

(* the packed metadata word fits in 32 bits *)
Lemma k_pe_new_range e p :
  k_QueryEdge_index e < 4294967296 -> k_pe_new e = Some p ->
  k_PackedQueryEdge_index p < 4294967296 /\ k_PackedQueryEdge_metadata p < 4294967296.
Proof.
  intros Hi H. destruct (k_pe_new_some e p H) as (Hing & Hgen & ->).
  cbn [k_PackedQueryEdge_index k_PackedQueryEdge_metadata]. split; [exact Hi|].
  now apply (split_bound 1048576 _ _ 4096).
Qed.

(* only input edges pack: an output edge (tag bit set) is always wide *)
Lemma k_pe_new_input e p : k_pe_new e = Some p -> k_qe_kind e = k_QueryEdgeKind_Input.
Proof.
  intros Hp. destruct (k_pe_new_some e p Hp) as (Hing & _).
  unfold k_qe_kind. destruct (k_ing_tag (k_QueryEdge_ingredient e)) eqn:E; [|reflexivity].
  apply k_ing_tag_iff in E; lia.
Qed.

Lemma k_pe_new_output_none e : k_qe_kind e = k_QueryEdgeKind_Output -> k_pe_new e = None.
Proof.
  intros Hk. destruct (k_pe_new e) as [p|] eqn:E; [|reflexivity].
  rewrite (k_pe_new_input e p E) in Hk. discriminate.
Qed.

Lemma k_pe_edge_kind p e : k_pe_new e = Some p -> k_qe_kind (k_pe_edge p) = k_qe_kind e.
Proof. intros H. now rewrite (k_pe_new_roundtrip e p H). Qed.

(* ---- persisted raw key (serde of QueryEdge): C25_serde kernel *)
Lemma k_qe_deserialize_raw_key e :
  k_QueryEdge_index e < 4294967295 -> k_qe_deserialize (k_qe_raw_key e) = e.
Proof.
  intros Hi. destruct e as [idx gen ing]. cbn [k_QueryEdge_index] in Hi.
  unfold k_qe_deserialize, k_qe_raw_key, k_qe_id, k_dki_new, k_dki_key_index,
    k_dki_ingredient_index. cbn zeta.
  cbn [k_QueryEdge_index k_QueryEdge_generation k_QueryEdge_ingredient
       k_DatabaseKeyIndex_key_index k_DatabaseKeyIndex_ingredient_index].
  assert (k_id_index (k_id_with_generation (k_id_from_index idx) gen) = idx) as ->.
  { rewrite (proj2 (proj2 (k_id_with_generation_proj (k_id_from_index idx) gen))).
    now apply k_id_index_from_index. }
  reflexivity.
Qed.

Lemma k_qe_raw_key_wf e :
  k_QueryEdge_index e < 4294967295 -> k_QueryEdge_generation e < 4294967296 ->
  id_wf (k_DatabaseKeyIndex_key_index (k_qe_raw_key e)).
Proof.
  intros Hi Hg. unfold k_qe_raw_key, k_dki_new, k_qe_id. cbn [k_DatabaseKeyIndex_key_index].
  apply k_id_with_generation_wf; [now apply k_id_from_index_wf | exact Hg].
Qed.

(* the raw key keeps the tag: it is *not* the public key of an output edge *)
Lemma k_qe_raw_key_ingredient e :
  k_DatabaseKeyIndex_ingredient_index (k_qe_raw_key e) = k_QueryEdge_ingredient e.
Proof. reflexivity. Qed.

(* an edge built from a well-formed key satisfies the hypothesis of k_qe_deserialize_raw_key;
   stated for k_qe_input, and k_qe_output stores the same index and generation *)
Lemma k_qe_of_key_range k :
  id_wf (k_DatabaseKeyIndex_key_index k) ->
  k_QueryEdge_index (k_qe_input k) < 4294967295 /\
  k_QueryEdge_generation (k_qe_input k) < 4294967296.
Proof.
  intros (H1 & H2 & H3). unfold k_qe_input. cbn zeta.
  cbn [k_QueryEdge_index k_QueryEdge_generation]. unfold k_dki_key_index, k_id_generation.
  rewrite k_id_index_eq by assumption. lia.
Qed.

(* ---- origin tag bytes *)
Lemma k_tag_consts :
  k_QOT_KIND_MASK = 3 /\ k_QOT_LAYOUT_MASK = 4 /\ k_OET_WITH_EXTRA_MASK = 8 /\
  k_DerivedOriginKind_Derived = 3 /\ k_DerivedOriginKind_DerivedUntracked = 2 /\
  k_QueryOriginKind_Assigned = 1 /\ k_QueryEdgeLayout_Packed = 0 /\ k_QueryEdgeLayout_Wide = 4.
Proof. repeat split. Qed.

Definition is_derived_kind (k : N) : Prop :=
  k = k_DerivedOriginKind_Derived \/ k = k_DerivedOriginKind_DerivedUntracked.
Definition is_layout (l : N) : Prop :=
  l = k_QueryEdgeLayout_Packed \/ l = k_QueryEdgeLayout_Wide.

(* the byte written by with_extra/without_extra (derived (kind, layout)) decodes to the
   same kind, edge layout and extra flag *)
Lemma k_tag_roundtrip k l (x : bool) :
  is_derived_kind k -> is_layout l ->
  let tag := if x then k_oet_with_extra (k_qot_derived k l)
             else k_oet_without_extra (k_qot_derived k l) in
  k_qot_kind (k_oet_origin tag) = Some k /\
  k_qot_layout (k_oet_origin tag) = l /\
  k_oet_layout tag = (if x then k_OriginAndExtraLayout_WithExtra
                      else k_OriginAndExtraLayout_WithoutExtra).
Proof.
  intros [->| ->] [->| ->]; destruct x; cbn zeta; repeat split.
Qed.

Lemma k_tag_roundtrip_assigned (x : bool) :
  let tag := if x then k_oet_with_extra k_qot_assigned else k_oet_without_extra k_qot_assigned in
  k_qot_kind (k_oet_origin tag) = Some k_QueryOriginKind_Assigned /\
  k_oet_layout tag = (if x then k_OriginAndExtraLayout_WithExtra
                      else k_OriginAndExtraLayout_WithoutExtra).
Proof. destruct x; cbn zeta; repeat split. Qed.

Example key_wf_ex :
  key_wf (mk_k_DatabaseKeyIndex (mk_k_Id 4294967040 4294967295) 2147483647) /\
  k_pe_new (mk_k_QueryEdge 4294967039 1048575 4095)
    = Some (mk_k_PackedQueryEdge 4294967039 4294967295) /\
  k_pe_new (mk_k_QueryEdge 0 1048576 0) = None /\ k_pe_new (mk_k_QueryEdge 0 0 4096) = None.
Proof.
  unfold key_wf, id_wf. cbn [k_DatabaseKeyIndex_key_index k_DatabaseKeyIndex_ingredient_index
    k_Id_index k_Id_generation]. rewrite k_ING_MAX_INDEX_val. repeat split; lia.
Qed.
