(* Codec/Proofs.v — lemmas about Codec/Model.v.  The integer facts come from Kern/K5_Id.v and
   Kern/K7_Edge.v (proved about the translated kernels); this file adds the list-level
   reasoning (any length, any position of the first wide edge). *)
From Coq Require Import NArith Bool List Lia.
From Salsa.gen Require Import Kernels.
From Salsa.Kern Require Import KBits K5_Id K7_Edge.
From Salsa.Codec Require Import Model.
Import ListNotations.
Open Scope N_scope.

Definition packs (e : QE) : Prop := exists p, k_pe_new e = Some p.

Lemma packs_dec e : {packs e} + {k_pe_new e = None}.
Proof. unfold packs. destruct (k_pe_new e) as [p|]; [left; now exists p | now right]. Qed.

(* ---- kinds *)
Lemma k_qe_kind_cases e :
  k_qe_kind e = k_QueryEdgeKind_Input \/ k_qe_kind e = k_QueryEdgeKind_Output.
Proof. unfold k_qe_kind. destruct (k_ing_tag _); auto. Qed.

Lemma is_input_negb e : is_input e = negb (is_output e).
Proof.
  unfold is_input, is_output. destruct (k_qe_kind_cases e) as [-> | ->]; reflexivity.
Qed.

Lemma packs_is_input e : packs e -> is_output e = false.
Proof. intros (p & Hp). unfold is_output. now rewrite (k_pe_new_input e p Hp). Qed.

(* ---- the pack-then-spill loop *)
Lemma alloc_loop_spec es : forall packed,
  match alloc_loop packed es with
  | inl ps => map k_pe_edge ps = map k_pe_edge packed ++ es /\ Forall packs es /\
              length ps = (length packed + length es)%nat
  | inr ws => ws = map k_pe_edge packed ++ es /\ Exists (fun e => k_pe_new e = None) es
  end.
Proof.
  induction es as [|e rest IH]; intros packed; cbn [alloc_loop].
  - rewrite app_nil_r. repeat split; [constructor | cbn; lia].
  - destruct (k_pe_new e) as [p|] eqn:E.
    + specialize (IH (packed ++ [p])). rewrite map_app in IH. cbn [map] in IH.
      rewrite (k_pe_new_roundtrip e p E), <- app_assoc in IH. cbn [app] in IH.
      destruct (alloc_loop (packed ++ [p]) rest) as [ps|ws].
      * destruct IH as (Hm & Hf & Hl).
        split; [exact Hm|]. split; [constructor; [now exists p | exact Hf]|].
        rewrite app_length in Hl. cbn [length] in *. lia.
      * destruct IH as (Hm & Hx). split; [exact Hm | now apply Exists_cons_tl].
    + split; [reflexivity | now apply Exists_cons_hd].
Qed.

Lemma read_packed_words ps : read_packed (length ps) (flat_map packed_words ps) = ps.
Proof.
  induction ps as [|p t IH]; [reflexivity|]. cbn [length flat_map packed_words app read_packed].
  rewrite IH. now destruct p.
Qed.

Lemma read_wide_words es : read_wide (length es) (flat_map wide_words es) = es.
Proof.
  induction es as [|e t IH]; [reflexivity|]. cbn [length flat_map wide_words app read_wide].
  rewrite IH. now destruct e.
Qed.

(* ---- the tag byte *)
Lemma tag_roundtrip kind layout (x : bool) :
  is_derived_kind kind -> is_layout layout ->
  k_qot_kind (k_oet_origin (tag_byte x (k_qot_derived kind layout))) = Some kind /\
  k_qot_layout (k_oet_origin (tag_byte x (k_qot_derived kind layout))) = layout /\
  k_oet_layout (tag_byte x (k_qot_derived kind layout)) =
    (if x then k_OriginAndExtraLayout_WithExtra else k_OriginAndExtraLayout_WithoutExtra).
Proof. intros Hk Hl. exact (k_tag_roundtrip kind layout x Hk Hl). Qed.

Lemma derived_kind_not_assigned kind :
  is_derived_kind kind -> (kind =? k_QueryOriginKind_Assigned) = false.
Proof. intros [-> | ->]; reflexivity. Qed.

(* ---- encode / origin *)
Definition origin_of_kind (kind : N) (v : edges_view) : origin_ref :=
  if kind =? k_QueryOriginKind_Derived then ODerived v else ODerivedUntracked v.

Lemma origin_of_kind_kind kind v : is_derived_kind kind -> origin_kind (origin_of_kind kind v) = kind.
Proof. intros [-> | ->]; reflexivity. Qed.

Lemma origin_of_kind_edges kind v : origin_edges (origin_of_kind kind v) = view_iter v.
Proof. unfold origin_of_kind. now destruct (kind =? _). Qed.

Lemma origin_of_kind_outputs kind v :
  origin_outputs (origin_of_kind kind v) = map k_qe_key (view_iter_outputs v).
Proof. unfold origin_of_kind. now destruct (kind =? _). Qed.

Lemma encode_some_iff {X} kind es (extra : option X) :
  (exists st, encode kind es extra = Some st) <-> N.of_nat (length es) <= u32_max.
Proof.
  unfold encode, allocate_derived.
  destruct (N.leb_spec (N.of_nat (length es)) u32_max) as [H|H].
  - split; [auto|]. intros _. destruct (alloc_loop [] es); eexists; reflexivity.
  - split; [intros (st & E); discriminate | lia].
Qed.

(* the tag byte alone decides how the stored edge words are read *)
Lemma origin_stored {X} kind layout (extra : option X) ws n :
  is_derived_kind kind -> is_layout layout ->
  let st := mk_stored (tag_byte (match extra with Some _ => true | None => false end)
                                (k_qot_derived kind layout)) extra (PWords ws) (N.of_nat n) in
  origin st = Some (origin_of_kind kind
                      (if layout =? k_QueryEdgeLayout_Packed then VPacked (read_packed n ws)
                       else VWide (read_wide n ws))) /\
  stored_extra st = extra /\
  is_packed_layout st = (layout =? k_QueryEdgeLayout_Packed) /\
  k_qot_kind (k_oet_origin (s_tag st)) = Some kind.
Proof.
  intros Hk Hl st.
  destruct (tag_roundtrip kind layout (match extra with Some _ => true | None => false end) Hk Hl)
    as (Tk & Tl & Te).
  unfold origin, stored_extra, is_packed_layout, st. cbn [s_tag s_payload s_metadata s_header].
  rewrite Tk, Tl, Te, (derived_kind_not_assigned kind Hk), Nnat.Nat2N.id.
  repeat split. now destruct extra.
Qed.

(* the central lemma: what origin() sees in a freshly encoded origin *)
Lemma origin_encode {X} kind es (extra : option X) st :
  is_derived_kind kind -> encode kind es extra = Some st ->
  exists v, origin st = Some (origin_of_kind kind v) /\ view_iter v = es /\
            stored_extra st = extra /\ s_metadata st = N.of_nat (length es) /\
            (match v with VPacked _ => Forall packs es
                        | VWide _ => Exists (fun e => k_pe_new e = None) es end) /\
            is_packed_layout st = (match v with VPacked _ => true | VWide _ => false end) /\
            k_qot_kind (k_oet_origin (s_tag st)) = Some kind.
Proof.
  intros Hk. unfold encode, allocate_derived.
  destruct (N.leb_spec (N.of_nat (length es)) u32_max) as [Hlen|]; [|discriminate].
  pose proof (alloc_loop_spec es []) as Hloop. cbn [map app length Nat.add] in Hloop.
  destruct (alloc_loop [] es) as [ps|ws]; intros E; injection E as <-.
  - destruct Hloop as (Hm & Hf & Hl).
    destruct (origin_stored kind k_QueryEdgeLayout_Packed extra (flat_map packed_words ps)
                (length es) Hk (or_introl eq_refl)) as (Ho & Hx & Hp & Ht).
    exists (VPacked ps). rewrite Ho, Hx, Hp, Ht, <- Hl, read_packed_words. now repeat split.
  - destruct Hloop as (-> & Hx').
    destruct (origin_stored kind k_QueryEdgeLayout_Wide extra (flat_map wide_words es)
                (length es) Hk (or_intror eq_refl)) as (Ho & Hx & Hp & Ht).
    exists (VWide es). rewrite Ho, Hx, Hp, Ht, read_wide_words. now repeat split.
Qed.

Lemma filter_none {A} (f : A -> bool) l : Forall (fun a => f a = false) l -> filter f l = [].
Proof.
  induction 1 as [|a l Ha _ IH]; [reflexivity|]. cbn [filter]. now rewrite Ha.
Qed.

(* outputs(): the packed short-cut loses nothing *)
Lemma view_outputs_complete v es :
  view_iter v = es ->
  (match v with VPacked _ => Forall packs es | VWide _ => True end) ->
  view_iter_outputs v = filter is_output es.
Proof.
  destruct v as [ps|ws]; cbn [view_iter view_iter_outputs]; intros <- Hf.
  - symmetry. apply filter_none. eapply Forall_impl; [|exact Hf].
    intros e He. now apply packs_is_input.
  - reflexivity.
Qed.

Lemma filter_partition_length {A} (f : A -> bool) l :
  (length (filter f l) + length (filter (fun a => negb (f a)) l))%nat = length l.
Proof.
  induction l as [|a l IH]; [reflexivity|]. cbn [filter]. destruct (f a); cbn [negb length]; lia.
Qed.

(* ---- the full round trip *)
Lemma origin_roundtrip {X} kind es (extra : option X) :
  is_derived_kind kind -> N.of_nat (length es) <= u32_max ->
  exists st o,
    encode kind es extra = Some st /\ origin st = Some o /\
    origin_kind o = kind /\
    origin_edges o = es /\
    stored_extra st = extra /\
    origin_inputs o = map k_qe_key (filter is_input es) /\
    origin_outputs o = map k_qe_key (filter is_output es) /\
    (is_packed_layout st = true <-> Forall packs es).
Proof.
  intros Hk Hlen. destruct (proj2 (encode_some_iff kind es extra) Hlen) as (st & Hst).
  destruct (origin_encode kind es extra st Hk Hst)
    as (v & Ho & Hv & Hx & Hm & Hshape & Hlay & _).
  exists st, (origin_of_kind kind v). repeat split; try assumption.
  - now apply origin_of_kind_kind.
  - now rewrite origin_of_kind_edges.
  - unfold origin_inputs. now rewrite origin_of_kind_edges, Hv.
  - rewrite origin_of_kind_outputs. f_equal. apply view_outputs_complete; [exact Hv|].
    destruct v; [exact Hshape | exact I].
  - rewrite Hlay. destruct v; [intros _; exact Hshape | discriminate].
  - rewrite Hlay. destruct v; [reflexivity|]. intros Hall. exfalso.
    apply Exists_exists in Hshape. destruct Hshape as (e & Hin & Hnone).
    rewrite Forall_forall in Hall. destruct (Hall e Hin) as (p & Hp). congruence.
Qed.

(* inputs and outputs partition the edges, each preserving order *)
Lemma inputs_outputs_partition es :
  filter is_input es = filter (fun e => negb (is_output e)) es /\
  (length (filter is_output es) + length (filter is_input es))%nat = length es /\
  (forall e, In e es -> (In e (filter is_input es) /\ ~ In e (filter is_output es)) \/
                        (In e (filter is_output es) /\ ~ In e (filter is_input es))).
Proof.
  assert (filter is_input es = filter (fun e => negb (is_output e)) es) as E.
  { apply filter_ext. intros e. apply is_input_negb. }
  split; [exact E|]. split.
  - rewrite E. apply filter_partition_length.
  - intros e Hin. rewrite !filter_In, is_input_negb.
    destruct (is_output e); cbn [negb]; [right | left]; split; auto; intros (_ & H); discriminate.
Qed.

(* ---- clear_edges *)
Lemma encode_nil {X} kind (extra : option X) :
  exists st, encode kind [] extra = Some st /\ s_metadata st = 0.
Proof. unfold encode, allocate_derived. cbn. eexists. split; reflexivity. Qed.

Lemma clear_edges_encode {X} kind es (extra : option X) st :
  is_derived_kind kind -> encode kind es extra = Some st ->
  clear_edges st = encode kind [] extra.
Proof.
  intros Hk Hst.
  destruct (origin_encode kind es extra st Hk Hst) as (v & _ & _ & Hx & Hm & _ & _ & Htag).
  unfold clear_edges. rewrite Htag, Hx, Hm, (derived_kind_not_assigned kind Hk).
  destruct (N.eqb_spec (N.of_nat (length es)) 0) as [Hz|_].
  - (* nothing to remove: the origin is returned unchanged, and it already is the empty one *)
    destruct es; [now rewrite Hst | discriminate].
  - now destruct Hk as [-> | ->].
Qed.

Lemma clear_edges_roundtrip {X} kind es (extra : option X) st :
  is_derived_kind kind -> encode kind es extra = Some st ->
  exists st' o, clear_edges st = Some st' /\ origin st' = Some o /\
                origin_edges o = [] /\ origin_kind o = kind /\ stored_extra st' = extra /\
                origin_inputs o = [] /\ origin_outputs o = [].
Proof.
  intros Hk Hst. rewrite (clear_edges_encode kind es extra st Hk Hst).
  destruct (origin_roundtrip kind [] extra Hk) as (st' & o & E & Ho & Hkd & He & Hx & Hi & Hout & _).
  { cbn. unfold u32_max. lia. }
  exists st', o. repeat split; assumption.
Qed.

(* ---- assigned origins (no edges) *)
Lemma origin_assigned {X} key (extra : option X) :
  origin (encode_assigned key extra) = Some (OAssigned key) /\
  stored_extra (encode_assigned key extra) = extra.
Proof.
  unfold encode_assigned, origin, stored_extra. cbn [s_tag s_payload s_metadata s_header].
  destruct key as [id ing]. destruct extra as [x|]; split; reflexivity.
Qed.

(* ---- persistence *)
Definition ser_wf (e : QE) : Prop :=
  k_QueryEdge_index e < 4294967295 /\ k_QueryEdge_generation e < 4294967296.

Lemma dki_eta k :
  k_dki_new (k_DatabaseKeyIndex_ingredient_index k) (k_DatabaseKeyIndex_key_index k) = k.
Proof. now destruct k. Qed.

Lemma restore_persist_edge e : ser_wf e -> restore_edge (persist_edge e) = Some e.
Proof.
  intros (Hi & Hg). unfold restore_edge, persist_edge. cbn zeta. cbn [fst snd].
  unfold k_dki_key_index, k_dki_ingredient_index.
  rewrite k_id_serde by (now apply k_qe_raw_key_wf).
  now rewrite dki_eta, k_qe_deserialize_raw_key.
Qed.

Lemma restore_persist_edges es :
  Forall ser_wf es -> restore_edges (map persist_edge es) = Some es.
Proof.
  induction 1 as [|e t He _ IH]; [reflexivity|]. cbn [map restore_edges].
  now rewrite restore_persist_edge, IH.
Qed.

Lemma serde_roundtrip {X} kind es (extra : option X) st :
  is_derived_kind kind -> Forall ser_wf es -> encode kind es extra = Some st ->
  exists raws, persist_origin_edges st = Some raws /\ raws = map persist_edge es /\
               restore_origin kind raws extra = Some st.
Proof.
  intros Hk Hwf Hst.
  destruct (origin_encode kind es extra st Hk Hst) as (v & Ho & Hv & _).
  exists (map persist_edge es). unfold persist_origin_edges. rewrite Ho, origin_of_kind_edges, Hv.
  repeat split. unfold restore_origin. now rewrite restore_persist_edges.
Qed.

(* edges built from well-formed keys are serialisable *)
Lemma ser_wf_input k : key_wf k -> ser_wf (k_qe_input k).
Proof. intros (Hid & _). exact (k_qe_of_key_range k Hid). Qed.
Lemma ser_wf_output k : key_wf k -> ser_wf (k_qe_output k).
Proof. intros (Hid & _). exact (k_qe_of_key_range k Hid). Qed.

Lemma mk_key_wf ing idx gen :
  ing <= k_ING_MAX_INDEX -> idx < k_ID_MAX_U32 -> gen < 4294967296 -> key_wf (mk_key ing idx gen).
Proof.
  intros Hi Hx Hg. rewrite k_ID_MAX_U32_val in Hx. unfold key_wf, mk_key, k_dki_new.
  cbn [k_DatabaseKeyIndex_key_index k_DatabaseKeyIndex_ingredient_index]. split; [|exact Hi].
  apply k_id_with_generation_wf; [apply k_id_from_index_wf; lia | exact Hg].
Qed.

Lemma C25_packed_roundtrip_proof : forall e : k_QueryEdge,
  (forall p, k_pe_new e = Some p -> k_pe_edge p = e) /\
  (k_pe_new e = None <->
     4095 < k_QueryEdge_ingredient e \/ 1048575 < k_QueryEdge_generation e) /\
  (k_QueryEdge_ingredient e < 4294967296 -> k_qe_kind e = k_QueryEdgeKind_Output ->
     k_pe_new e = None).
Proof.
  intros e. split; [intros p; apply k_pe_new_roundtrip|]. split.
  - rewrite <- k_PE_INGREDIENT_MASK_val, <- k_PE_GENERATION_MASK_val. apply k_pe_new_none_iff.
  - intros _. apply k_pe_new_output_none.
Qed.

Lemma C25_tag_proof : forall ingredient index generation : N,
  ingredient <= k_ING_MAX_INDEX -> index < k_ID_MAX_U32 -> generation < 4294967296 ->
  let k := mk_key ingredient index generation in
  k_qe_kind (k_qe_input k) = k_QueryEdgeKind_Input /\
  k_qe_kind (k_qe_output k) = k_QueryEdgeKind_Output /\
  k_qe_key (k_qe_input k) = k /\
  k_qe_key (k_qe_output k) = k /\
  k_QueryEdgeKind_Input <> k_QueryEdgeKind_Output.
Proof.
  intros ing idx gen Hi Hx Hg k. pose proof (mk_key_wf ing idx gen Hi Hx Hg) as Hk. fold k in Hk.
  repeat split.
  - now apply k_qe_kind_input.
  - apply k_qe_kind_output.
  - now apply k_qe_key_input.
  - now apply k_qe_key_output.
  - exact k_QueryEdgeKind_distinct.
Qed.

Lemma C25_origin_roundtrip_proof :
  forall (X : Type) (kind : N) (es : list k_QueryEdge) (extra : option X),
  kind = k_DerivedOriginKind_Derived \/ kind = k_DerivedOriginKind_DerivedUntracked ->
  N.of_nat (length es) <= 4294967295 ->
  exists st o,
    encode kind es extra = Some st /\ origin st = Some o /\
    origin_kind o = kind /\
    origin_edges o = es /\
    stored_extra st = extra /\
    origin_inputs o = map k_qe_key (filter is_input es) /\
    origin_outputs o = map k_qe_key (filter is_output es) /\
    (is_packed_layout st = true <-> forall e, In e es -> exists p, k_pe_new e = Some p) /\
    (length (filter is_output es) + length (filter is_input es))%nat = length es /\
    (forall e, is_input e = negb (is_output e)) /\
    exists st' o',
      clear_edges st = Some st' /\ origin st' = Some o' /\
      origin_edges o' = [] /\ origin_kind o' = kind /\ stored_extra st' = extra.
Proof.
  intros X kind es extra Hk Hlen.
  destruct (origin_roundtrip kind es extra Hk Hlen)
    as (st & o & Hst & Ho & Hkd & He & Hx & Hi & Hout & Hlay).
  exists st, o. repeat split; try assumption.
  - intros H. apply (proj1 (Forall_forall _ _)). now apply Hlay.
  - intros H. apply Hlay. now apply Forall_forall.
  - apply (inputs_outputs_partition es).
  - apply is_input_negb.
  - destruct (clear_edges_roundtrip kind es extra st Hk Hst)
      as (st' & o' & Hc & Ho' & He' & Hk' & Hx' & _).
    exists st', o'. repeat split; assumption.
Qed.

Lemma is_io_input k : key_wf k -> is_input (k_qe_input k) = true /\ is_output (k_qe_input k) = false.
Proof. intros Hk. unfold is_input, is_output. rewrite k_qe_kind_input by exact Hk. split; reflexivity. Qed.

Lemma is_io_output k : is_input (k_qe_output k) = false /\ is_output (k_qe_output k) = true.
Proof. unfold is_input, is_output. rewrite k_qe_kind_output. split; reflexivity. Qed.

Lemma deps_inputs deps :
  (forall d, In d deps -> key_wf (snd d)) ->
  map k_qe_key (filter is_input (map edge_of_dep deps)) =
    map snd (filter (fun d => negb (fst d)) deps) /\
  map k_qe_key (filter is_output (map edge_of_dep deps)) = map snd (filter fst deps).
Proof.
  induction deps as [|[out k] t IH]; intros Hwf; [split; reflexivity|].
  assert (key_wf k) as Hk by (apply (Hwf (out, k)); now left).
  destruct IH as (IH1 & IH2); [intros d Hd; apply Hwf; now right|].
  destruct out; cbn [map]; unfold edge_of_dep at 1 3; cbn [filter fst snd negb].
  - destruct (is_io_output k) as (-> & ->). cbn [map snd].
    rewrite k_qe_key_output by exact Hk. split; [exact IH1 | now f_equal].
  - destruct (is_io_input k Hk) as (-> & ->). cbn [map snd].
    rewrite k_qe_key_input by exact Hk. split; [now f_equal | exact IH2].
Qed.

Lemma C25_origin_keys_proof :
  forall (X : Type) (kind : N) (deps : list (bool * k_DatabaseKeyIndex)) (extra : option X),
  kind = k_DerivedOriginKind_Derived \/ kind = k_DerivedOriginKind_DerivedUntracked ->
  N.of_nat (length deps) <= 4294967295 ->
  (forall d, In d deps ->
     1 <= k_Id_index (k_DatabaseKeyIndex_key_index (snd d)) < 4294967296 /\
     k_Id_generation (k_DatabaseKeyIndex_key_index (snd d)) < 4294967296 /\
     k_DatabaseKeyIndex_ingredient_index (snd d) <= k_ING_MAX_INDEX) ->
  exists st o,
    encode kind (map edge_of_dep deps) extra = Some st /\ origin st = Some o /\
    origin_inputs o = map snd (filter (fun d => negb (fst d)) deps) /\
    origin_outputs o = map snd (filter fst deps).
Proof.
  intros X kind deps extra Hk Hlen Hwf.
  destruct (origin_roundtrip kind (map edge_of_dep deps) extra Hk)
    as (st & o & Hst & Ho & _ & _ & _ & Hi & Hout & _); [now rewrite map_length|].
  destruct (deps_inputs deps) as (D1 & D2).
  { intros d Hd. destruct (Hwf d Hd) as ((A & B) & C & D). repeat split; assumption. }
  exists st, o. repeat split; try assumption; congruence.
Qed.

Lemma C25_serde_proof :
  forall (X : Type) (kind : N) (es : list k_QueryEdge) (extra : option X) (st : stored X),
  kind = k_DerivedOriginKind_Derived \/ kind = k_DerivedOriginKind_DerivedUntracked ->
  (forall e, In e es ->
     k_QueryEdge_index e < 4294967295 /\ k_QueryEdge_generation e < 4294967296) ->
  encode kind es extra = Some st ->
  (forall e, In e es -> restore_edge (persist_edge e) = Some e) /\
  exists raws,
    persist_origin_edges st = Some raws /\ raws = map persist_edge es /\
    restore_edges raws = Some es /\
    restore_origin kind raws extra = Some st.
Proof.
  intros X kind es extra st Hk Hwf Hst.
  assert (Forall ser_wf es) as HF by (apply Forall_forall; exact Hwf).
  split; [intros e He; apply restore_persist_edge; now apply Hwf|].
  destruct (serde_roundtrip kind es extra st Hk HF Hst) as (raws & H1 & H2 & H3).
  exists raws. repeat split; try assumption. subst raws. now apply restore_persist_edges.
Qed.
