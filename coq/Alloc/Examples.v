(* Alloc/Examples.v — the lemmas behind Props/C24.v in the form they are quoted there, and
   non-vacuity witnesses: a concrete interleaving with two handles allocating concurrently,
   a handle dropped and re-created, a recycled partially filled page, a deleted slot reused
   with a generation bump. *)
From Salsa Require Import Base.
From Salsa.Alloc Require Import Model.
From Salsa.Alloc Require Export Proofs.

Lemma C24_distinct_lemma :
  (forall s, areach s -> NoDup (map fst (a_ret s))) /\
  (forall s n m e1 e2, areach s ->
     nth_error (a_ret s) n = Some e1 -> nth_error (a_ret s) m = Some e2 ->
     fst e1 = fst e2 -> n = m) /\
  (forall s i g v, areach s -> In ((i, g), v) (a_ret s) -> i < ID_MAX_U32 /\ g <= U32_MAX).
Proof. split; [exact distinct_ids |]. split; [exact distinct_ids_pairwise | exact returned_id_bounds]. Qed.

Lemma C24_readback_lemma :
  (forall s i g v, areach s -> In ((i, g), v) (a_ret s) -> a_cur s i = Some (g, false) ->
     astep s (ARead i) = Some (s, OVal (Some v))) /\
  (forall s p sl, areach s -> p < a_npages s -> sl < a_alloc s p ->
     exists g fr, a_cur s (make_id p sl) = Some (g, fr) /\
       (fr = false -> exists v, In ((make_id p sl, g), v) (a_ret s) /\ a_data s p sl = Some v)).
Proof. split; [exact readback | exact published_slot_initialised]. Qed.

(* the ownership discipline that makes the non-atomic load/write/store sequence safe *)
Lemma C24_ownership_lemma :
  forall s, areach s ->
  (forall x y p, In x (a_hs s) -> In y (a_hs s) -> In p (pages_of x) -> In p (pages_of y) ->
                 ah_id x = ah_id y) /\
  (forall x, In x (a_hs s) -> NoDup (pages_of x)) /\
  NoDup (map snd (a_shared s)) /\
  (forall x p, In x (a_hs s) -> In p (pages_of x) -> ~ In p (map snd (a_shared s))) /\
  (forall p, a_alloc s p <= PAGE_LEN).
Proof. intros s Hr. destruct (areach_ainv _ Hr) as [[] [] _ _]. auto 10. Qed.

Definition alloc_demo : list aact :=
  [ APush 0 5;                              (* handle 0, ingredient 5: fresh page 0 *)
    ALoad 0 5; AWrite 0 100; APublish 0;    (* id 0 *)
    AClone 0;                               (* handle 1 *)
    APush 1 5;                              (* nothing to take: fresh page 1 *)
    ALoad 0 5; ALoad 1 5;                   (* two allocations in flight, interleaved *)
    AWrite 1 201; AWrite 0 101;
    APublish 1;                             (* id 128 = make_id 1 0 *)
    APublish 0;                             (* id 1 *)
    ARecord 1 5; ADropDone 1;               (* handle 1 dropped: page 1 goes to the shared list *)
    AClone 0;                               (* handle 2 (a handle "re-created") *)
    ATake 2 5;                              (* takes the partially filled page 1 *)
    ALoad 2 5; AWrite 2 202; APublish 2;    (* id 129: continues after slot 0 *)
    AFree 5 128 0;                          (* tracked struct 128 deleted *)
    AReuse 0 5 300;                         (* slot reused: id (128, generation 1) *)
    ARead 128; ARead 1; ARead 130 ].

Example alloc_demo_outputs :
  option_map snd (arun_out ainit alloc_demo) =
  Some [ OPage 0; OIndex 0 0; ONone; OId 0 0; ONewHandle 1; OPage 1; OIndex 0 1; OIndex 1 0;
         ONone; ONone; OId 128 0; OId 1 0; OPage 1; ONone; ONewHandle 2; OPage 1; OIndex 1 1;
         ONone; OId 129 0; ONone; OId 128 1; OVal (Some 300); OVal (Some 101); OOob ].
Proof. vm_compute. reflexivity. Qed.

Definition alloc_demo_state : astate :=
  match arun ainit alloc_demo with Some s => s | None => ainit end.

Example alloc_demo_reach : areach alloc_demo_state.
Proof. apply (arun_reach alloc_demo ainit); [apply ar_init | vm_compute; reflexivity]. Qed.

(* hypotheses of C24_distinct / C24_readback hold in a state with five returned ids, one of
   them a reused slot, one of them no longer current *)
Example alloc_demo_facts :
  a_ret alloc_demo_state =
    [ ((128, 1), 300); ((129, 0), 202); ((1, 0), 101); ((128, 0), 201); ((0, 0), 100) ] /\
  a_cur alloc_demo_state 128 = Some (1, false) /\
  a_cur alloc_demo_state 1 = Some (0, false) /\
  a_npages alloc_demo_state = 2 /\ a_alloc alloc_demo_state 1 = 2.
Proof. vm_compute. auto 10. Qed.

(* what goes wrong without exclusive page ownership: if two handles could load the same page
   before either publishes, both would obtain the same index.  In the model this schedule is
   not executable — the second handle has no way to get the page: *)
Example no_second_owner :
  match arun ainit [ APush 0 5; AClone 0; ALoad 0 5 ] with
  | Some s => astep s (ATake 1 5) = None /\ astep s (ALoad 1 5) = None
  | None => False
  end.
Proof. vm_compute. auto. Qed.

(* make_id / split_id on the boundary values *)
Example make_id_boundary :
  make_id 0 0 = 0 /\ make_id 1 0 = 128 /\ make_id 33554429 127 = 4294967039 /\
  split_id 4294967039 = (33554429, 127).
Proof. vm_compute. auto. Qed.

(* beyond MAX_PAGES the u32 shift wraps — which is why APush is disabled there *)
Example make_id_wraps_beyond_bound : make_id 33554432 0 = make_id 0 0.
Proof. vm_compute. reflexivity. Qed.
