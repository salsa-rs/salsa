(* Alloc/Proofs.v — invariant and lemmas of the page-allocation model (C24). *)
From Salsa Require Import Base.
From Salsa.Alloc Require Import Model.

(* ---------- generic list lemmas ---------- *)

Lemma NoDup_snoc {A} (l : list A) x : NoDup l -> ~ In x l -> NoDup (l ++ [x]).
Proof.
  induction l as [| y l IH]; intros Hnd Hn; cbn.
  - constructor; [intros [] | constructor].
  - inversion Hnd as [| ? ? Hy Hnd']; subst. constructor.
    + intros Hin. apply in_app_or in Hin. destruct Hin as [Hin | [<- | []]]; [auto |].
      apply Hn. left; reflexivity.
    + apply IH; [exact Hnd' |]. intros Hin. apply Hn. right; exact Hin.
Qed.

Lemma NoDup_map_filter {A B} (g : A -> B) (f : A -> bool) l :
  NoDup (map g l) -> NoDup (map g (filter f l)).
Proof.
  induction l as [| x l IH]; intros Hnd; [constructor |].
  cbn in Hnd. inversion Hnd as [| ? ? Hx Hnd']; subst.
  cbn. destruct (f x); [| apply IH; exact Hnd'].
  cbn. constructor; [| apply IH; exact Hnd'].
  intros Hin. apply Hx. apply in_map_iff in Hin. destruct Hin as [y [Hy Hin]].
  apply filter_In in Hin. apply in_map_iff. exists y. tauto.
Qed.

Lemma in_map_filter {A B} (g : A -> B) (f : A -> bool) l b :
  In b (map g (filter f l)) -> In b (map g l).
Proof.
  intros Hin. apply in_map_iff in Hin. destruct Hin as [y [Hy Hin]].
  apply filter_In in Hin. apply in_map_iff. exists y. tauto.
Qed.

(* ---------- association lists ---------- *)

Lemma lookup_some c ing p : lookup c ing = Some p -> In (ing, p) c.
Proof.
  unfold lookup. destruct (find (fun e => fst e =? ing) c) as [e |] eqn:E; [| discriminate].
  intros H; inversion H; subst. apply find_some in E. destruct E as [Hin He].
  apply N.eqb_eq in He. destruct e as [k v]; cbn in *. subst. exact Hin.
Qed.

Lemma lookup_none c ing : lookup c ing = None -> ~ In ing (map fst c).
Proof.
  unfold lookup. destruct (find (fun e => fst e =? ing) c) as [e |] eqn:E; [discriminate |].
  intros _ Hin. apply in_map_iff in Hin. destruct Hin as [e [He Hin]].
  pose proof (find_none _ _ E e Hin) as Hn. cbn in Hn. apply N.eqb_neq in Hn. contradiction.
Qed.

Lemma remove_key_none c ing : ~ In ing (map fst c) -> remove_key c ing = c.
Proof.
  induction c as [| e c IH]; intros Hn; [reflexivity |].
  cbn in *. destruct (N.eqb_spec (fst e) ing) as [E | E]; [exfalso; auto |].
  cbn. f_equal. apply IH. tauto.
Qed.

Lemma in_remove_key c ing e : In e (remove_key c ing) <-> In e c /\ fst e <> ing.
Proof. unfold remove_key. rewrite filter_In, negb_true_iff, N.eqb_neq. tauto. Qed.

Lemma remove_key_notin c ing : ~ In ing (map fst (remove_key c ing)).
Proof.
  intros Hin. apply in_map_iff in Hin. destruct Hin as [e [He Hin]].
  apply in_remove_key in Hin. tauto.
Qed.

(* removing the entry of `ing` also removes its page, because pages are distinct *)
Lemma remove_key_page c ing p :
  NoDup (map snd c) -> In (ing, p) c -> ~ In p (map snd (remove_key c ing)).
Proof.
  induction c as [| e c IH]; intros Hnd Hin Hp; [contradiction |].
  cbn in Hnd. inversion Hnd as [| ? ? He Hnd']; subst.
  cbn in Hp. destruct Hin as [-> | Hin].
  - cbn in Hp. rewrite N.eqb_refl in Hp. cbn in Hp. apply He. cbn.
    eapply in_map_filter. exact Hp.
  - destruct (negb (fst e =? ing)); cbn in Hp.
    + destruct Hp as [Hp | Hp]; [| apply IH; auto].
      apply He. rewrite Hp. apply in_map_iff. exists (ing, p). auto.
    + apply IH; auto.
Qed.

Lemma take_first_split l ing p rest :
  take_first l ing = Some (p, rest) ->
  exists l1 l2, l = l1 ++ (ing, p) :: l2 /\ rest = l1 ++ l2.
Proof.
  revert p rest. induction l as [| e l IH]; intros p rest H; [discriminate |].
  cbn in H. destruct (N.eqb_spec (fst e) ing) as [E | E].
  - inversion H; subst. destruct e as [k v]; cbn in *; subst. exists []. eexists. split; reflexivity.
  - destruct (take_first l ing) as [[p' rest'] |]; [| discriminate].
    inversion H; subst. destruct (IH _ _ eq_refl) as [l1 [l2 [-> ->]]].
    exists (e :: l1), l2. auto.
Qed.

(* ---------- handle lists ---------- *)

Lemma find_ah_some hs h x : find_ah hs h = Some x -> In x hs /\ ah_id x = h.
Proof.
  unfold find_ah. intros H. apply find_some in H. destruct H as [Hin He].
  apply N.eqb_eq in He. auto.
Qed.

Lemma ah_ids_inj hs a b :
  NoDup (map ah_id hs) -> In a hs -> In b hs -> ah_id a = ah_id b -> a = b.
Proof.
  induction hs as [| x hs IH]; intros Hnd Ha Hb He; [contradiction |].
  cbn in Hnd. inversion Hnd as [| ? ? Hnot Hnd']; subst.
  destruct Ha as [-> | Ha], Hb as [-> | Hb]; auto.
  - exfalso. apply Hnot. rewrite He. apply in_map; exact Hb.
  - exfalso. apply Hnot. rewrite <- He. apply in_map; exact Ha.
Qed.

Lemma upd_ah_ids hs h f :
  (forall x, ah_id (f x) = ah_id x) -> map ah_id (upd_ah hs h f) = map ah_id hs.
Proof.
  intros Hf. unfold upd_ah. rewrite map_map. apply map_ext. intros x.
  destruct (ah_id x =? h); auto.
Qed.

Lemma in_upd_ah hs h f x0 x' :
  NoDup (map ah_id hs) -> find_ah hs h = Some x0 ->
  In x' (upd_ah hs h f) -> (In x' hs /\ ah_id x' <> h) \/ x' = f x0.
Proof.
  intros Hnd Hf Hin. destruct (find_ah_some _ _ _ Hf) as [H0 H0e].
  unfold upd_ah in Hin. apply in_map_iff in Hin. destruct Hin as [y [Hy Hin]].
  destruct (N.eqb_spec (ah_id y) h) as [E | E]; subst x'.
  - right. f_equal. eapply ah_ids_inj; eauto. congruence.
  - left. auto.
Qed.

Lemma in_upd_ah_other hs h f x : In x hs -> ah_id x <> h -> In x (upd_ah hs h f).
Proof.
  intros Hin Hne. unfold upd_ah. apply in_map_iff. exists x. split; [| exact Hin].
  apply N.eqb_neq in Hne. rewrite Hne. reflexivity.
Qed.

Lemma in_upd_ah_same hs h f x : In x hs -> ah_id x = h -> In (f x) (upd_ah hs h f).
Proof.
  intros Hin He. unfold upd_ah. apply in_map_iff. exists x. split; [| exact Hin].
  apply N.eqb_eq in He. rewrite He. reflexivity.
Qed.

Lemma in_del_ah hs h x : In x (del_ah hs h) <-> In x hs /\ ah_id x <> h.
Proof. unfold del_ah. rewrite filter_In, negb_true_iff, N.eqb_neq. tauto. Qed.

(* ---------- the invariant ---------- *)

(* The invariant, grouped by the components of the state a group speaks of, so that a step
   carries the groups it does not touch as they are. *)

(* handles: names and caches; a page is in at most one cache *)
Record handles_ok (hs : list ahandle) (next : N) : Prop := {
  ai_nodup : NoDup (map ah_id hs);
  ai_fresh : forall x, In x hs -> ah_id x < next;
  ai_keys : forall x, In x hs -> NoDup (map fst (ah_cache x));
  ai_own_cache : forall x, In x hs -> NoDup (pages_of x);
  ai_own_excl : forall x y p, In x hs -> In y hs ->
      In p (pages_of x) -> In p (pages_of y) -> ah_id x = ah_id y
}.

(* page table: a cached page is never in the shared list as well; cached and shared pages exist
   and belong to the ingredient they are filed under *)
Record pages_ok (hs : list ahandle) (shared : list (N * N)) (npages : N) (ing alloc : N -> N)
  : Prop := {
  ai_own_shared : NoDup (map snd shared);
  ai_own_disj : forall x p, In x hs -> In p (pages_of x) -> ~ In p (map snd shared);
  ai_cache_ok : forall x k p, In x hs -> In (k, p) (ah_cache x) -> p < npages /\ ing p = k;
  ai_shared_ok : forall k p, In (k, p) shared -> p < npages /\ ing p = k;
  ai_npages : npages <= MAX_PAGES;
  ai_alloc_le : forall p, alloc p <= PAGE_LEN;
  ai_alloc_0 : forall p, npages <= p -> alloc p = 0
}.

(* slots and ids; `ai_distinct` is C24.  [cur i] is the current generation of slot i and whether
   the slot is on a free list; [ret] is the list of identities returned so far with their values. *)
Record ids_ok (npages : N) (ing alloc : N -> N) (data : N -> N -> option val)
  (free : N -> list id) (cur : N -> option (N * bool)) (ret : list (id * val)) : Prop := {
  ai_cur : forall i g fr, cur i = Some (g, fr) ->
      fst (split_id i) < npages /\ snd (split_id i) < alloc (fst (split_id i)) /\
      i = make_id (fst (split_id i)) (snd (split_id i)) /\ g <= U32_MAX;
  ai_pub : forall p sl, p < npages -> sl < alloc p -> exists g fr, cur (make_id p sl) = Some (g, fr);
  ai_ret_cur : forall i g v, In ((i, g), v) ret -> exists g' fr, cur i = Some (g', fr) /\ g <= g';
  ai_ret_data : forall i g v, In ((i, g), v) ret -> cur i = Some (g, false) ->
      data (fst (split_id i)) (snd (split_id i)) = Some v;
  ai_cur_ret : forall i g, cur i = Some (g, false) -> exists v, In ((i, g), v) ret;
  ai_free_ok : forall k i g, In (i, g) (free k) ->
      cur i = Some (g, true) /\ ing (fst (split_id i)) = k;
  ai_free_nodup : forall k, NoDup (map fst (free k));
  ai_distinct : NoDup (map fst ret)
}.

Arguments ai_nodup {_ _}. Arguments ai_fresh {_ _}. Arguments ai_keys {_ _}.
Arguments ai_own_cache {_ _}. Arguments ai_own_excl {_ _}.
Arguments ai_own_shared {_ _ _ _ _}. Arguments ai_own_disj {_ _ _ _ _}.
Arguments ai_cache_ok {_ _ _ _ _}. Arguments ai_shared_ok {_ _ _ _ _}.
Arguments ai_npages {_ _ _ _ _}. Arguments ai_alloc_le {_ _ _ _ _}. Arguments ai_alloc_0 {_ _ _ _ _}.
Arguments ai_cur {_ _ _ _ _ _ _}. Arguments ai_pub {_ _ _ _ _ _ _}. Arguments ai_ret_cur {_ _ _ _ _ _ _}.
Arguments ai_ret_data {_ _ _ _ _ _ _}. Arguments ai_cur_ret {_ _ _ _ _ _ _}.
Arguments ai_free_ok {_ _ _ _ _ _ _}. Arguments ai_free_nodup {_ _ _ _ _ _ _}.
Arguments ai_distinct {_ _ _ _ _ _ _}.

Record ainv (s : astate) : Prop := {
  ai_handles : handles_ok (a_hs s) (a_next s);
  ai_pages : pages_ok (a_hs s) (a_shared s) (a_npages s) (a_ing s) (a_alloc s);
  (* the in-flight allocation of a handle *)
  ai_pend : forall x pd, In x (a_hs s) -> ah_pend x = Some pd ->
      In (p_ing pd, p_page pd) (ah_cache x) /\
      p_idx pd = a_alloc s (p_page pd) /\ p_idx pd < PAGE_LEN /\
      (forall v, p_val pd = Some v -> a_data s (p_page pd) (p_idx pd) = Some v) /\
      ah_dropping x = false;
  ai_ids : ids_ok (a_npages s) (a_ing s) (a_alloc s) (a_data s) (a_free s) (a_cur s) (a_ret s)
}.

Lemma ainv_init : ainv ainit.
Proof.
  constructor; [constructor | constructor | | constructor]; cbn;
    try (intros; contradiction); try (intros; discriminate); try (constructor; fail).
  - constructor; [intros [] | constructor].
  - intros x [<- | []]. cbn. lia.
  - intros x [<- | []]. constructor.
  - intros x [<- | []]. constructor.
  - intros x y p [<- | []] [<- | []]. reflexivity.
  - intros x p [<- | []]. cbn. auto.
  - intros x ing p [<- | []]. cbn. contradiction.
  - intros x pd [<- | []]. cbn. discriminate.
  - intros p sl H. lia.
Qed.

(* the fields of the invariant, for `eauto with ainv` with the groups in the context *)
Create HintDb ainv.
#[local] Hint Resolve ai_nodup ai_fresh ai_keys ai_own_cache ai_own_excl ai_own_shared ai_own_disj
  ai_cache_ok ai_shared_ok ai_cur ai_pub ai_ret_cur ai_ret_data ai_cur_ret ai_free_ok
  ai_free_nodup : ainv.

(* the invariant of the state after a step, from the groups Ihs Ipg Iid of the state before:
   a group the step does not touch is carried over whole; of the others the fields that are as
   before or already in the context are discharged, the rest remain, in the order of `ainv` *)
Ltac unchanged_fields Ihs Ipg Iid :=
  constructor;
  cbn [a_npages a_ing a_alloc a_data a_shared a_hs a_next a_free a_cur a_ret with_ahs];
  [ first [assumption | constructor; try assumption; try apply Ihs]
  | first [assumption | constructor; try assumption; try apply Ipg]
  | try assumption
  | first [assumption | constructor; try assumption; try apply Iid] ].

Local Arguments cache_set : simpl never.
Local Arguments remove_key : simpl never.
Local Arguments take_first : simpl never.

Lemma ainv_clone s src s' o : ainv s -> astep s (AClone src) = Some (s', o) -> ainv s'.
Proof.
  intros Hi Hstep. pose proof Hi as [Ihs Ipg Ipe Iid]. cbn in Hstep. destruct (find_ah (a_hs s) src); [| discriminate].
  injection Hstep as <- <-.
  set (nh := {| ah_id := a_next s; ah_cache := []; ah_pend := None; ah_dropping := false |}).
  assert (Hin : forall x, In x (a_hs s ++ [nh]) -> In x (a_hs s) \/ x = nh).
  { intros x Hx. apply in_app_or in Hx. destruct Hx as [? | [<- | []]]; auto. }
  unchanged_fields Ihs Ipg Iid.
  - rewrite map_app. cbn. apply NoDup_snoc; [apply Ihs |].
    intros H. apply in_map_iff in H. destruct H as [x [Hx Hxin]].
    pose proof (ai_fresh Ihs x Hxin). lia.
  - intros x Hx. destruct (Hin x Hx) as [Hx' | ->]; [pose proof (ai_fresh Ihs x Hx'); lia | cbn; lia].
  - intros x Hx. destruct (Hin x Hx) as [Hx' | ->]; [eauto with ainv | constructor].
  - intros x Hx. destruct (Hin x Hx) as [Hx' | ->]; [eauto with ainv | constructor].
  - intros x y p Hx Hy Hpx Hpy.
    destruct (Hin x Hx) as [Hx' | ->]; [| contradiction].
    destruct (Hin y Hy) as [Hy' | ->]; [| contradiction]. eauto with ainv.
  - intros x p Hx Hp. destruct (Hin x Hx) as [Hx' | ->]; [eauto with ainv | contradiction].
  - intros x ing p Hx Hp. destruct (Hin x Hx) as [Hx' | ->]; [eauto with ainv | contradiction].
  - intros x pd Hx Hp. destruct (Hin x Hx) as [Hx' | ->]; [eauto with ainv | discriminate].
Qed.

Lemma ainv_dropdone s h s' o : ainv s -> astep s (ADropDone h) = Some (s', o) -> ainv s'.
Proof.
  intros Hi Hstep. pose proof Hi as [Ihs Ipg Ipe Iid]. cbn in Hstep. destruct (find_ah (a_hs s) h) as [x0 |]; [| discriminate].
  destruct (ah_pend x0); [discriminate |]. destruct (ah_cache x0); [| discriminate].
  injection Hstep as <- <-.
  assert (Hin : forall x, In x (del_ah (a_hs s) h) -> In x (a_hs s)).
  { intros x Hx. apply in_del_ah in Hx. tauto. }
  (* the remaining handles are handles of s: every field about handles follows from the same field of s *)
  unchanged_fields Ihs Ipg Iid; [unfold del_ah; apply NoDup_map_filter; apply Ihs | eauto with ainv ..].
Qed.

Lemma ready_inv x : ready x = true -> ah_dropping x = false /\ ah_pend x = None.
Proof.
  unfold ready. destruct (ah_dropping x), (ah_pend x); cbn; intros H; try discriminate; auto.
Qed.

(* steps that replace one handle: what has to be shown about its new cache *)
Lemma ainv_setcache_hs s h x0 (g : ahandle -> ahandle) c' :
  ainv s -> find_ah (a_hs s) h = Some x0 ->
  (forall x, ah_id (g x) = ah_id x) -> ah_cache (g x0) = c' ->
  NoDup (map fst c') -> NoDup (map snd c') ->
  (* pages of the new cache are not held by any other handle *)
  (forall y p, In y (a_hs s) -> ah_id y <> h -> In p (map snd c') -> ~ In p (pages_of y)) ->
  let hs' := upd_ah (a_hs s) h g in
  handles_ok hs' (a_next s) /\
  (forall x, In x hs' -> (In x (a_hs s) /\ ah_id x <> h) \/ x = g x0).
Proof.
  intros [Ihs _ _ _] Hf Hgid Hgc Hk Hp Hothers hs'.
  destruct (find_ah_some _ _ _ Hf) as [H0 H0e].
  assert (Hin : forall x, In x hs' -> (In x (a_hs s) /\ ah_id x <> h) \/ x = g x0).
  { intros x Hx. eapply in_upd_ah; eauto with ainv. }
  split; [| exact Hin]. constructor.
  - unfold hs'. rewrite upd_ah_ids by exact Hgid. apply Ihs.
  - intros x Hx. destruct (Hin x Hx) as [[Hx' _] | ->]; [eauto with ainv |]. rewrite Hgid. eauto with ainv.
  - intros x Hx. destruct (Hin x Hx) as [[Hx' _] | ->]; [eauto with ainv |]. rewrite Hgc. exact Hk.
  - intros x Hx. destruct (Hin x Hx) as [[Hx' _] | ->]; [eauto with ainv |]. unfold pages_of. rewrite Hgc. exact Hp.
  - intros x y p Hx Hy Hpx Hpy.
    destruct (Hin x Hx) as [[Hx' Hnx] | ->]; destruct (Hin y Hy) as [[Hy' Hny] | ->].
    + eauto with ainv.
    + exfalso. unfold pages_of in Hpy. rewrite Hgc in Hpy. exact (Hothers x p Hx' Hnx Hpy Hpx).
    + exfalso. unfold pages_of in Hpx. rewrite Hgc in Hpx. exact (Hothers y p Hy' Hny Hpx Hpy).
    + reflexivity.
Qed.

(* steps that only replace the `pend` field of one handle: its cache stays, and with it
   everything that is said about caches *)
Lemma ainv_setpend_hs s h x0 pd' :
  ainv s -> find_ah (a_hs s) h = Some x0 ->
  let hs' := upd_ah (a_hs s) h (set_pend pd') in
  handles_ok hs' (a_next s) /\
  pages_ok hs' (a_shared s) (a_npages s) (a_ing s) (a_alloc s) /\
  (forall x, In x hs' -> (In x (a_hs s) /\ ah_id x <> h) \/ x = set_pend pd' x0).
Proof.
  intros Hi Hf hs'. pose proof Hi as [Ihs Ipg _ _]. destruct (find_ah_some _ _ _ Hf) as [H0 H0e].
  destruct (ainv_setcache_hs s h x0 (set_pend pd') (ah_cache x0) Hi Hf) as [Hh Hin];
    try reflexivity.
  { exact (ai_keys Ihs x0 H0). }
  { exact (ai_own_cache Ihs x0 H0). }
  { intros y p Hy Hne Hp Hpy. apply Hne. rewrite <- H0e. symmetry.
    exact (ai_own_excl Ihs x0 y p H0 Hy Hp Hpy). }
  refine (conj Hh (conj _ Hin)). constructor; try apply Ipg.
  - intros x p Hx Hp. destruct (Hin x Hx) as [[Hx' _] | ->]; eauto with ainv.
  - intros x k p Hx Hp. destruct (Hin x Hx) as [[Hx' _] | ->]; eauto with ainv.
Qed.

Lemma ainv_load s h ing s' o : ainv s -> astep s (ALoad h ing) = Some (s', o) -> ainv s'.
Proof.
  intros Hi Hstep. pose proof Hi as [Ihs Ipg Ipe Iid]. cbn in Hstep. destruct (find_ah (a_hs s) h) as [x0 |] eqn:Hf; [| discriminate].
  destruct (ready x0) eqn:Hr; [| discriminate].
  destruct (lookup (ah_cache x0) ing) as [p |] eqn:Hl; [| discriminate].
  destruct (N.leb_spec PAGE_LEN (a_alloc s p)) as [Hfull | Hlt]; injection Hstep as <- <-;
    [exact Hi |].
  destruct (ready_inv _ Hr) as [Hd Hp].
  set (pd := {| p_ing := ing; p_page := p; p_idx := a_alloc s p; p_val := None |}).
  destruct (ainv_setpend_hs s h x0 (Some pd) Hi Hf) as [Ihs' [Ipg' Hin]].
  unchanged_fields Ihs Ipg Iid.
  intros x pd' Hx Hpd. destruct (Hin x Hx) as [[Hx' _] | ->]; [eauto with ainv |].
  cbn in Hpd. inversion Hpd; subst pd'. cbn.
  repeat split; auto. apply lookup_some; exact Hl. discriminate.
Qed.

Lemma updN_below {A} (f : N -> A) n v p : p < n -> updN f n v p = f p.
Proof. intros H. apply updN_other. intros ->. exact (N.lt_irrefl _ H). Qed.

Lemma upd2_same {A} (m : N -> N -> A) p sl v : upd2 m p sl v p sl = v.
Proof. unfold upd2. rewrite !N.eqb_refl. reflexivity. Qed.

Lemma upd2_other {A} (m : N -> N -> A) p sl v p' sl' :
  (p, sl) <> (p', sl') -> upd2 m p sl v p' sl' = m p' sl'.
Proof.
  intros Hne. unfold upd2.
  destruct (N.eqb_spec p p') as [-> | ?]; [| reflexivity].
  destruct (N.eqb_spec sl sl') as [-> | ?]; [| reflexivity].
  exfalso; apply Hne; reflexivity.
Qed.

(* two handles never have in-flight allocations on the same page *)
Lemma pend_pages_differ s x y pdx pdy :
  ainv s -> In x (a_hs s) -> In y (a_hs s) -> ah_id x <> ah_id y ->
  ah_pend x = Some pdx -> ah_pend y = Some pdy -> p_page pdx <> p_page pdy.
Proof.
  intros [Ihs _ Ipe _] Hx Hy Hne Hpx Hpy E.
  destruct (Ipe x pdx Hx Hpx) as [Hcx _]. destruct (Ipe y pdy Hy Hpy) as [Hcy _].
  apply Hne. apply (ai_own_excl Ihs x y (p_page pdx) Hx Hy).
  - unfold pages_of. apply in_map_iff. exists (p_ing pdx, p_page pdx). auto.
  - unfold pages_of. apply in_map_iff. exists (p_ing pdy, p_page pdy). rewrite E. auto.
Qed.

Lemma ainv_write s h v s' o : ainv s -> astep s (AWrite h v) = Some (s', o) -> ainv s'.
Proof.
  intros Hi Hstep. pose proof Hi as [Ihs Ipg Ipe Iid]. cbn in Hstep. destruct (find_ah (a_hs s) h) as [x0 |] eqn:Hf; [| discriminate].
  destruct (ah_pend x0) as [pd |] eqn:Hp; [| discriminate].
  destruct (p_val pd) eqn:Hv; [discriminate |].
  injection Hstep as <- <-.
  destruct (find_ah_some _ _ _ Hf) as [H0 H0e].
  set (pd1 := {| p_ing := p_ing pd; p_page := p_page pd; p_idx := p_idx pd; p_val := Some v |}).
  destruct (ainv_setpend_hs s h x0 (Some pd1) Hi Hf) as [Ihs' [Ipg' Hin]].
  destruct (Ipe x0 pd H0 Hp) as [Hc0 [Hidx0 [Hlt0 [_ Hd0]]]].
  unchanged_fields Ihs Ipg Iid.
  - (* pend *)
    intros x pd' Hx Hpd. destruct (Hin x Hx) as [[Hx' Hne] | ->].
    + destruct (Ipe x pd' Hx' Hpd) as [A [B [C [D E]]]].
      repeat split; auto. intros v' Hv'. rewrite upd2_other; [auto |].
      intros Heq. apply pair_equal_spec in Heq. destruct Heq as [E1 E2].
      apply (pend_pages_differ s x0 x pd pd' Hi H0 Hx'); auto. congruence.
    + cbn in Hpd. inversion Hpd; subst pd'. cbn.
      repeat split; auto. intros v' Hv'. inversion Hv'; subst. apply upd2_same.
  - (* ret_data *)
    intros i g v' Hr Hc. rewrite upd2_other; [eauto with ainv |].
    destruct (ai_cur Iid i g false Hc) as [_ [Hsl _]].
    intros Heq. apply pair_equal_spec in Heq. destruct Heq as [E1 E2].
    rewrite <- E1, <- E2, <- Hidx0 in Hsl. exact (N.lt_irrefl _ Hsl).
Qed.

(* The three conclusions are [ai_ret_cur], [ai_cur_ret] and [ai_distinct] for the extended [ret]
   and the updated [cur]; the first three hypotheses are the same fields before the step. *)
Lemma returned_new (cur : N -> option (N * bool)) (ret : list (id * val)) i g v :
  (forall i g v, In ((i, g), v) ret -> exists g' fr, cur i = Some (g', fr) /\ g <= g') ->
  (forall i g, cur i = Some (g, false) -> exists v, In ((i, g), v) ret) ->
  NoDup (map fst ret) ->
  (forall g0 fr, cur i = Some (g0, fr) -> g0 < g) ->
  (forall i1 g1 v1, In ((i1, g1), v1) (((i, g), v) :: ret) ->
     exists g' fr, updN cur i (Some (g, false)) i1 = Some (g', fr) /\ g1 <= g') /\
  (forall i1 g1, updN cur i (Some (g, false)) i1 = Some (g1, false) ->
     exists v1, In ((i1, g1), v1) (((i, g), v) :: ret)) /\
  NoDup (map fst (((i, g), v) :: ret)).
Proof.
  intros RC CR ND Hold. split; [| split].
  - intros i1 g1 v1 [E | Hr].
    + injection E as <- <- <-. exists g, false. rewrite updN_same. split; [reflexivity | apply N.le_refl].
    + destruct (RC i1 g1 v1 Hr) as [g' [fr [Ec Hle]]]. unfold updN.
      destruct (N.eqb_spec i i1) as [<- | Hne]; [| eauto]. exists g, false. split; [reflexivity |].
      apply N.lt_le_incl. exact (N.le_lt_trans _ _ _ Hle (Hold _ _ Ec)).
  - intros i1 g1. unfold updN. destruct (N.eqb_spec i i1) as [<- | Hne].
    + intros E. injection E as <-. exists v. left; reflexivity.
    + intros E. destruct (CR i1 g1 E) as [v1 Hr]. exists v1. right; exact Hr.
  - cbn. constructor; [| exact ND]. intros Hin. apply in_map_iff in Hin.
    destruct Hin as [[[i1 g1] v1] [E Hr]]. cbn in E. injection E as -> ->.
    destruct (RC _ _ _ Hr) as [g' [fr [Ec Hle]]].
    exact (N.lt_irrefl _ (N.le_lt_trans _ _ _ Hle (Hold _ _ Ec))).
Qed.

Lemma ainv_publish s h s' o : ainv s -> astep s (APublish h) = Some (s', o) -> ainv s'.
Proof.
  intros Hi Hstep. pose proof Hi as [Ihs Ipg Ipe Iid]. cbn in Hstep. destruct (find_ah (a_hs s) h) as [x0 |] eqn:Hf; [| discriminate].
  destruct (ah_pend x0) as [[ing P I [v |]] |] eqn:Hp; try discriminate.
  cbn [p_page p_idx] in Hstep.
  injection Hstep as <- <-.
  destruct (find_ah_some _ _ _ Hf) as [H0 H0e].
  destruct (ainv_setpend_hs s h x0 None Hi Hf) as [Ihs' [Ipg' Hin]].
  destruct (Ipe x0 _ H0 Hp) as [Hc0 [Hidx0 [Hlt0 [Hdat0 Hd0]]]].
  cbn [p_ing p_page p_idx p_val] in *.
  destruct (ai_cache_ok Ipg x0 _ _ H0 Hc0) as [Hpg0 _].
  pose proof (ai_npages Ipg) as Hnp.
  assert (Hpm : P < MAX_PAGES) by exact (N.lt_le_trans _ _ _ Hpg0 Hnp).
  set (i0 := make_id P I).
  assert (Hsplit : split_id i0 = (P, I)) by (apply split_make_id; assumption).
  assert (Hfresh : a_cur s i0 = None).
  { destruct (a_cur s i0) as [[g fr] |] eqn:E; [| reflexivity].
    destruct (ai_cur Iid i0 g fr E) as [_ [Hsl _]]. rewrite Hsplit in Hsl. cbn in Hsl.
    rewrite <- Hidx0 in Hsl. destruct (N.lt_irrefl _ Hsl). }
  destruct (returned_new (a_cur s) (a_ret s) i0 0 v (ai_ret_cur Iid) (ai_cur_ret Iid)
              (ai_distinct Iid)) as [Hrc [Hcr Hdist]]; [intros g0 fr E; congruence |].
  unchanged_fields Ihs Ipg' Iid.
  - (* alloc_le *)
    intros p. unfold updN. destruct (N.eqb_spec P p); [| apply Ipg].
    rewrite N.add_1_r. apply N.le_succ_l. exact Hlt0.
  - (* alloc_0 *)
    intros p Hge. unfold updN. destruct (N.eqb_spec P p) as [<- |]; [| apply Ipg; assumption].
    destruct (N.lt_irrefl _ (N.lt_le_trans _ _ _ Hpg0 Hge)).
  - (* pend *)
    intros x pd' Hx Hpd. destruct (Hin x Hx) as [[Hx' Hne] | ->]; [| discriminate].
    destruct (Ipe x pd' Hx' Hpd) as [A [B [C [D E]]]].
    assert (Hpp : P <> p_page pd').
    { refine (pend_pages_differ s x0 x _ pd' Hi H0 Hx' _ Hp Hpd). congruence. }
    repeat split; auto. rewrite updN_other by exact Hpp. exact B.
  - (* cur *)
    intros i g fr. unfold updN at 1. destruct (N.eqb_spec i0 i) as [<- | Hne].
    + intros E; inversion E; subst g fr. rewrite Hsplit. cbn.
      rewrite updN_same.
      repeat split; [exact Hpg0 | apply N.lt_add_pos_r; reflexivity | apply N.le_0_l].
    + intros E. destruct (ai_cur Iid i g fr E) as [A [B [C D]]]. repeat split; auto.
      unfold updN. destruct (N.eqb_spec P (fst (split_id i))) as [Ep | ?]; [| exact B].
      rewrite <- Ep, <- Hidx0 in B. apply N.lt_lt_add_r. exact B.
  - (* pub *)
    intros p sl Hp' Hsl. unfold updN at 1.
    destruct (N.eqb_spec i0 (make_id p sl)) as [E | Hne]; [eauto with ainv |].
    apply (ai_pub Iid); [exact Hp' |]. unfold updN in Hsl.
    destruct (N.eqb_spec P p) as [<- | ?]; [| exact Hsl].
    rewrite <- Hidx0. rewrite N.add_1_r in Hsl. apply N.lt_succ_r in Hsl.
    apply N.le_neq. split; [exact Hsl |]. intros ->. apply Hne. reflexivity.
  - (* ret_data *)
    intros i g v' [E | Hr] Hc.
    + inversion E; subst. rewrite Hsplit. cbn. apply Hdat0; reflexivity.
    + destruct (ai_ret_cur Iid i g v' Hr) as [g' [fr [Ec _]]].
      assert (i0 <> i) by (intros <-; congruence).
      rewrite updN_other in Hc by assumption. eauto with ainv.
  - (* free_ok *)
    intros k i g Hfr. destruct (ai_free_ok Iid k i g Hfr) as [Ec Ei]. split; [| exact Ei].
    rewrite updN_other; [exact Ec |]. intros <-. congruence.
Qed.

Lemma in_pages_of x p : In p (pages_of x) <-> exists ing, In (ing, p) (ah_cache x).
Proof.
  unfold pages_of. rewrite in_map_iff. split.
  - intros [[ing p'] [E Hin]]. cbn in E. subst. eauto with ainv.
  - intros [ing Hin]. exists (ing, p). auto.
Qed.

Lemma ainv_take s h ing s' o : ainv s -> astep s (ATake h ing) = Some (s', o) -> ainv s'.
Proof.
  intros Hi Hstep. pose proof Hi as [Ihs Ipg Ipe Iid]. cbn in Hstep. destruct (find_ah (a_hs s) h) as [x0 |] eqn:Hf; [| discriminate].
  destruct (ready x0) eqn:Hr; [| discriminate].
  destruct (lookup (ah_cache x0) ing) eqn:Hl; [discriminate |].
  destruct (take_first (a_shared s) ing) as [[p rest] |] eqn:Ht; [| discriminate].
  injection Hstep as <- <-.
  destruct (find_ah_some _ _ _ Hf) as [H0 H0e]. destruct (ready_inv _ Hr) as [Hd Hp].
  destruct (take_first_split _ _ _ _ Ht) as [l1 [l2 [Esh Erest]]].
  pose proof (lookup_none _ _ Hl) as Hnk.
  assert (Ec' : cache_set (ah_cache x0) ing p = (ing, p) :: ah_cache x0).
  { unfold cache_set. rewrite remove_key_none by exact Hnk. reflexivity. }
  pose proof (ai_own_shared Ipg) as Hns. rewrite Esh, map_app in Hns. cbn in Hns.
  apply NoDup_remove in Hns. destruct Hns as [Hns1 Hns2]. rewrite <- map_app, <- Erest in Hns1, Hns2.
  assert (Hpsh : In p (map snd (a_shared s))).
  { rewrite Esh, map_app. apply in_or_app. right. left. reflexivity. }
  assert (Hsub : forall e, In e rest -> In e (a_shared s)).
  { intros e He. rewrite Erest in He. rewrite Esh. apply in_app_or in He.
    apply in_or_app. destruct He; [left | right; right]; assumption. }
  assert (Hnot0 : ~ In p (pages_of x0)) by (intros Hx; exact (ai_own_disj Ipg x0 p H0 Hx Hpsh)).
  destruct (ainv_setcache_hs s h x0 (fun x => set_cache (cache_set (ah_cache x) ing p) x)
              ((ing, p) :: ah_cache x0) Hi Hf) as [Ihs' Hin]; cbn; auto.
  { constructor; [exact Hnk | apply (ai_keys Ihs); exact H0]. }
  { constructor; [exact Hnot0 | apply (ai_own_cache Ihs); exact H0]. }
  { intros y q Hy Hne [<- | Hq] Hqy.
    - exact (ai_own_disj Ipg y p Hy Hqy Hpsh).
    - apply Hne. rewrite <- H0e. symmetry. apply (ai_own_excl Ihs x0 y q H0 Hy Hq Hqy). }
  unchanged_fields Ihs Ipg Iid.
  - (* own_disj *)
    intros x q Hx Hq Hqs.
    assert (Hqs' : In q (map snd (a_shared s))).
    { apply in_map_iff in Hqs. destruct Hqs as [e [E He]]. apply in_map_iff. exists e. auto. }
    destruct (Hin x Hx) as [[Hx' _] | ->]; [exact (ai_own_disj Ipg x q Hx' Hq Hqs') |].
    unfold pages_of in Hq. cbn in Hq. rewrite Ec' in Hq. cbn in Hq.
    destruct Hq as [<- | Hq]; [exact (Hns2 Hqs) | exact (ai_own_disj Ipg x0 q H0 Hq Hqs')].
  - (* cache_ok *)
    intros x ing' q Hx Hq. destruct (Hin x Hx) as [[Hx' _] | ->]; [eauto with ainv |].
    cbn in Hq. rewrite Ec' in Hq. destruct Hq as [E | Hq]; [| eauto with ainv].
    inversion E; subst. apply (ai_shared_ok Ipg). rewrite Esh. apply in_or_app. right. left. reflexivity.
  - (* shared_ok *)
    intros ing' q Hq. apply (ai_shared_ok Ipg). apply Hsub; exact Hq.
  - (* pend *)
    intros x pd Hx Hpd. destruct (Hin x Hx) as [[Hx' _] | ->]; [eauto with ainv |].
    cbn in Hpd. congruence.
Qed.

Lemma cache_set_keys c ing p : NoDup (map fst c) -> NoDup (map fst (cache_set c ing p)).
Proof.
  intros Hnd. unfold cache_set. cbn. constructor; [apply remove_key_notin |].
  unfold remove_key. apply NoDup_map_filter. exact Hnd.
Qed.

Lemma in_cache_set c ing p e : In e (cache_set c ing p) -> e = (ing, p) \/ (In e c /\ fst e <> ing).
Proof.
  unfold cache_set. intros [<- | Hin]; [left; reflexivity |]. right. apply in_remove_key. exact Hin.
Qed.

Lemma ainv_push s h ing s' o : ainv s -> astep s (APush h ing) = Some (s', o) -> ainv s'.
Proof.
  intros Hi Hstep. pose proof Hi as [Ihs Ipg Ipe Iid]. cbn in Hstep. destruct (find_ah (a_hs s) h) as [x0 |] eqn:Hf; [| discriminate].
  match type of Hstep with (if ?c then _ else _) = _ => destruct c eqn:Hc; [| discriminate] end.
  injection Hstep as <- <-.
  apply andb_true_iff in Hc. destruct Hc as [Hc _]. apply andb_true_iff in Hc. destruct Hc as [Hr Hmax].
  apply N.ltb_lt in Hmax.
  destruct (find_ah_some _ _ _ Hf) as [H0 H0e]. destruct (ready_inv _ Hr) as [Hd Hp].
  set (P := a_npages s) in *.
  assert (Hold_lt : forall y q, In y (a_hs s) -> In q (pages_of y) -> q < P).
  { intros y q Hy Hq. apply in_pages_of in Hq. destruct Hq as [k Hq].
    apply (ai_cache_ok Ipg y k q Hy Hq). }
  assert (Hgrow : forall q, q < P -> forall k, a_ing s q = k -> q < P + 1 /\ updN (a_ing s) P ing q = k).
  { intros q Hq k Hk. split; [apply N.lt_lt_add_r; exact Hq |]. rewrite updN_below by exact Hq. exact Hk. }
  assert (Hpages' : forall q, In q (map snd (cache_set (ah_cache x0) ing P)) -> q = P \/ In q (pages_of x0)).
  { intros q Hq. apply in_map_iff in Hq. destruct Hq as [e [E He]]. apply in_cache_set in He.
    destruct He as [-> | [He _]]; [left; cbn in E; auto |]. right. unfold pages_of.
    apply in_map_iff. exists e. auto. }
  destruct (ainv_setcache_hs s h x0 (fun x => set_cache (cache_set (ah_cache x) ing P) x)
              (cache_set (ah_cache x0) ing P) Hi Hf) as [Ihs' Hin]; cbn; auto.
  { apply cache_set_keys. apply (ai_keys Ihs); exact H0. }
  { unfold cache_set. cbn. constructor.
    - intros Hq. apply in_map_filter in Hq. exact (N.lt_irrefl _ (Hold_lt x0 P H0 Hq)).
    - unfold remove_key. apply NoDup_map_filter. apply (ai_own_cache Ihs); exact H0. }
  { intros y q Hy Hne Hq Hqy. destruct (Hpages' q Hq) as [-> | Hq0].
    - exact (N.lt_irrefl _ (Hold_lt y P Hy Hqy)).
    - apply Hne. rewrite <- H0e. symmetry. apply (ai_own_excl Ihs x0 y q H0 Hy Hq0 Hqy). }
  unchanged_fields Ihs Ipg Iid.
  - (* own_disj *)
    intros x q Hx Hq Hqs. destruct (Hin x Hx) as [[Hx' _] | ->]; [exact (ai_own_disj Ipg x q Hx' Hq Hqs) |].
    unfold pages_of in Hq. cbn in Hq. destruct (Hpages' q Hq) as [-> | Hq0].
    + apply in_map_iff in Hqs. destruct Hqs as [[k q'] [E He]]. cbn in E. subst q'.
      exact (N.lt_irrefl _ (proj1 (ai_shared_ok Ipg k P He))).
    + exact (ai_own_disj Ipg x0 q H0 Hq0 Hqs).
  - (* cache_ok *)
    intros x k q Hx Hq.
    assert (Hcase : (k = ing /\ q = P) \/ exists y, In y (a_hs s) /\ In (k, q) (ah_cache y)).
    { destruct (Hin x Hx) as [[Hx' _] | ->]; [eauto |]. cbn in Hq.
      apply in_cache_set in Hq. destruct Hq as [E | [Hq _]]; [inversion E; auto | eauto]. }
    destruct Hcase as [[-> ->] | [y [Hy Hq']]].
    + split; [apply N.lt_add_pos_r; reflexivity | apply updN_same].
    + destruct (ai_cache_ok Ipg y k q Hy Hq') as [A B]. apply (Hgrow q A). exact B.
  - (* shared_ok *)
    intros k q Hq. destruct (ai_shared_ok Ipg k q Hq) as [A B]. apply (Hgrow q A). exact B.
  - (* npages *) rewrite N.add_1_r. apply N.le_succ_l. exact Hmax.
  - (* alloc_le *)
    intros p. unfold updN. destruct (P =? p); [apply N.le_0_l | apply Ipg].
  - (* alloc_0 *)
    intros p Hge. unfold updN. destruct (N.eqb_spec P p); [reflexivity |].
    apply (ai_alloc_0 Ipg). exact (N.le_trans _ _ _ (N.le_add_r _ _) Hge).
  - (* pend *)
    intros x pd Hx Hpd. destruct (Hin x Hx) as [[Hx' _] | ->]; [| cbn in Hpd; congruence].
    destruct (Ipe x pd Hx' Hpd) as [A [B [C [D E]]]].
    destruct (ai_cache_ok Ipg x _ _ Hx' A) as [Hlt _].
    repeat split; auto. rewrite updN_below by exact Hlt. exact B.
  - (* cur *)
    intros i g fr E. destruct (ai_cur Iid i g fr E) as [A [B [C D]]].
    repeat split; auto; [apply N.lt_lt_add_r; exact A |]. rewrite updN_below by exact A. exact B.
  - (* pub *)
    intros p sl Hp' Hsl. unfold updN in Hsl. destruct (N.eqb_spec P p) as [<- | Hne].
    + destruct (N.nlt_0_r _ Hsl).
    + apply (ai_pub Iid); [| exact Hsl]. rewrite N.add_1_r in Hp'. apply N.lt_succ_r in Hp'.
      apply N.le_neq. split; [exact Hp' | exact (not_eq_sym Hne)].
  - (* free_ok *)
    intros k i g Hfr. destruct (ai_free_ok Iid k i g Hfr) as [Ec Ei]. split; [exact Ec |].
    destruct (ai_cur Iid i g true Ec) as [A _]. rewrite updN_below by exact A. exact Ei.
Qed.

Lemma ainv_record s h ing s' o : ainv s -> astep s (ARecord h ing) = Some (s', o) -> ainv s'.
Proof.
  intros Hi Hstep. pose proof Hi as [Ihs Ipg Ipe Iid]. cbn in Hstep. destruct (find_ah (a_hs s) h) as [x0 |] eqn:Hf; [| discriminate].
  destruct (ah_pend x0) eqn:Hp; [discriminate |].
  destruct (lookup (ah_cache x0) ing) as [p |] eqn:Hl; [| discriminate].
  injection Hstep as <- <-.
  destruct (find_ah_some _ _ _ Hf) as [H0 H0e]. apply lookup_some in Hl.
  assert (Hp0 : In p (pages_of x0)) by (apply in_pages_of; eauto with ainv).
  assert (Hsub : forall q, In q (map snd (remove_key (ah_cache x0) ing)) -> In q (pages_of x0)).
  { intros q Hq. unfold remove_key in Hq. apply in_map_filter in Hq. exact Hq. }
  destruct (ainv_setcache_hs s h x0
              (fun x => set_dropping (set_cache (remove_key (ah_cache x) ing) x))
              (remove_key (ah_cache x0) ing) Hi Hf) as [Ihs' Hin]; cbn; auto.
  { unfold remove_key. apply NoDup_map_filter. apply (ai_keys Ihs); exact H0. }
  { unfold remove_key. apply NoDup_map_filter. apply (ai_own_cache Ihs); exact H0. }
  { intros y q Hy Hne Hq Hqy. apply Hne. rewrite <- H0e. symmetry.
    apply (ai_own_excl Ihs x0 y q H0 Hy (Hsub q Hq) Hqy). }
  unchanged_fields Ihs Ipg Iid.
  - (* own_shared *)
    constructor; [| apply Ipg]. exact (ai_own_disj Ipg x0 p H0 Hp0).
  - (* own_disj *)
    intros x q Hx Hq [<- | Hqs].
    + destruct (Hin x Hx) as [[Hx' Hne] | ->].
      * apply Hne. rewrite <- H0e. apply (ai_own_excl Ihs x x0 p Hx' H0 Hq Hp0).
      * unfold pages_of in Hq. cbn in Hq.
        exact (remove_key_page _ _ _ (ai_own_cache Ihs x0 H0) Hl Hq).
    + destruct (Hin x Hx) as [[Hx' _] | ->]; [exact (ai_own_disj Ipg x q Hx' Hq Hqs) |].
      unfold pages_of in Hq. cbn in Hq. exact (ai_own_disj Ipg x0 q H0 (Hsub q Hq) Hqs).
  - (* cache_ok *)
    intros x k q Hx Hq. destruct (Hin x Hx) as [[Hx' _] | ->]; [eauto with ainv |].
    cbn in Hq. apply in_remove_key in Hq. destruct Hq as [Hq _]. eauto with ainv.
  - (* shared_ok *)
    intros k q [E | Hq]; [inversion E; subst; eauto with ainv | eauto with ainv].
  - (* pend *)
    intros x pd Hx Hpd. destruct (Hin x Hx) as [[Hx' _] | ->]; [eauto with ainv |].
    cbn in Hpd. congruence.
Qed.

Lemma ainv_free s ing idx gen s' o : ainv s -> astep s (AFree ing idx gen) = Some (s', o) -> ainv s'.
Proof.
  intros Hi Hstep. pose proof Hi as [Ihs Ipg Ipe Iid]. cbn in Hstep.
  destruct (a_cur s idx) as [[g fr] |] eqn:Ec; [| discriminate].
  destruct fr; [discriminate |].
  destruct (N.eqb_spec g gen) as [-> | ?]; cbn in Hstep; [| discriminate].
  destruct (N.eqb_spec (a_ing s (fst (split_id idx))) ing) as [Eing | ?]; [| discriminate].
  injection Hstep as <- <-.
  unchanged_fields Ihs Ipg Iid.
  - (* cur *)
    intros i g fr. unfold updN. destruct (N.eqb_spec idx i) as [<- | Hne]; [| apply (ai_cur Iid)].
    intros E; inversion E; subst. exact (ai_cur Iid idx g false Ec).
  - (* pub *)
    intros p sl Hp Hsl. unfold updN. destruct (N.eqb_spec idx (make_id p sl)); eauto with ainv.
  - (* ret_cur *)
    intros i g v Hr. destruct (ai_ret_cur Iid i g v Hr) as [g' [fr [E Hle]]].
    unfold updN. destruct (N.eqb_spec idx i) as [<- | Hne]; [| eauto with ainv].
    rewrite Ec in E. inversion E; subst. eauto with ainv.
  - (* ret_data *)
    intros i g v Hr. unfold updN. destruct (N.eqb_spec idx i) as [<- | Hne]; [discriminate |].
    apply (ai_ret_data Iid); exact Hr.
  - (* cur_ret *)
    intros i g. unfold updN. destruct (N.eqb_spec idx i) as [<- | Hne]; [discriminate |].
    apply (ai_cur_ret Iid).
  - (* free_ok *)
    intros k i g. unfold updN at 1. destruct (N.eqb_spec ing k) as [<- | Hk].
    + intros Hin. apply in_app_or in Hin. destruct Hin as [Hin | [E | []]].
      * destruct (ai_free_ok Iid ing i g Hin) as [A B]. split; [| exact B].
        rewrite updN_other; [exact A |]. intros <-. congruence.
      * inversion E; subst. rewrite updN_same. auto.
    + intros Hin. destruct (ai_free_ok Iid k i g Hin) as [A B]. split; [| exact B].
      rewrite updN_other; [exact A |]. intros <-. congruence.
  - (* free_nodup *)
    intros k. unfold updN. destruct (N.eqb_spec ing k) as [<- | Hk]; [| apply (ai_free_nodup Iid)].
    rewrite map_app. cbn. apply NoDup_snoc; [apply (ai_free_nodup Iid) |].
    intros Hin. apply in_map_iff in Hin. destruct Hin as [[i g] [E Hin]]. cbn in E. subst i.
    destruct (ai_free_ok Iid ing idx g Hin) as [A _]. congruence.
Qed.

Lemma ainv_reuse s h ing v s' o : ainv s -> astep s (AReuse h ing v) = Some (s', o) -> ainv s'.
Proof.
  intros Hi Hstep. pose proof Hi as [Ihs Ipg Ipe Iid]. cbn in Hstep. destruct (find_ah (a_hs s) h) as [x0 |] eqn:Hf; [| discriminate].
  destruct (ready x0) eqn:Hrdy; [| discriminate].
  destruct (a_free s ing) as [| [idx gen] rest] eqn:Efree; [discriminate |].
  assert (Hhead : In (idx, gen) (a_free s ing)) by (rewrite Efree; left; reflexivity).
  destruct (ai_free_ok Iid ing idx gen Hhead) as [Ecur Eing].
  pose proof (ai_free_nodup Iid ing) as Hnd. rewrite Efree in Hnd. cbn in Hnd.
  apply NoDup_cons_iff in Hnd. destruct Hnd as [Hnotin Hnd'].
  assert (Hrest : forall k i g, In (i, g) (updN (a_free s) ing rest k) ->
                                In (i, g) (a_free s k) /\ i <> idx).
  { intros k i g. unfold updN. destruct (N.eqb_spec ing k) as [Ek | Hk].
    - rewrite <- Ek. intros Hin. split; [rewrite Efree; right; exact Hin |].
      intros Ei. apply Hnotin. apply in_map_iff. exists (i, g). split; [exact Ei | exact Hin].
    - intros Hin. split; [exact Hin |]. intros Ei. rewrite Ei in Hin.
      destruct (ai_free_ok Iid k idx g Hin) as [_ B]. congruence. }
  assert (Hrest_nd : forall k, NoDup (map fst (updN (a_free s) ing rest k))).
  { intros k. unfold updN. destruct (N.eqb_spec ing k) as [Ek | Hk]; [exact Hnd' |].
    apply (ai_free_nodup Iid). }
  destruct (next_generation gen) as [gen' |] eqn:Eg.
  - (* reuse with the next generation *)
    destruct (split_id idx) as [P SL] eqn:Esplit.
    injection Hstep as Es' Eo. rewrite <- Es'. clear Es' Eo.
    destruct (next_generation_spec _ _ Eg) as [Egen' Hmax].
    destruct (ai_cur Iid idx gen true Ecur) as [Hpg [Hsl [Hmk _]]].
    rewrite Esplit in Hpg, Hsl, Hmk. cbn [fst snd] in Hpg, Hsl, Hmk.
    assert (Hlt : forall g1, g1 <= gen -> g1 < gen').
    { intros g1 H. rewrite Egen', N.add_1_r. apply N.lt_succ_r. exact H. }
    destruct (returned_new (a_cur s) (a_ret s) idx gen' v (ai_ret_cur Iid) (ai_cur_ret Iid)
                (ai_distinct Iid)) as [Hrc [Hcr Hdist]].
    { intros g0 fr E. rewrite Ecur in E. injection E as <- _. apply Hlt, N.le_refl. }
    unchanged_fields Ihs Ipg Iid.
    + (* pend *)
      intros x pd Hx Hpd. destruct (Ipe x pd Hx Hpd) as [A [B [C [D E]]]].
      repeat split; auto. intros v' Hv'. rewrite upd2_other; [auto |].
      intros Heq. apply pair_equal_spec in Heq. destruct Heq as [E1 E2].
      rewrite <- E1, <- E2 in B. rewrite <- B in Hsl. exact (N.lt_irrefl _ Hsl).
    + (* cur *)
      intros i g fr. unfold updN. destruct (N.eqb_spec idx i) as [Ei | Hne]; [| apply (ai_cur Iid)].
      intros E. injection E as Eg1 Efr. rewrite <- Ei, Esplit. cbn [fst snd].
      repeat split; auto. rewrite <- Eg1. exact Hmax.
    + (* pub *)
      intros p sl Hp Hsl'. unfold updN. destruct (N.eqb_spec idx (make_id p sl)); eauto with ainv.
    + (* ret_data *)
      intros i g v' [E | Hret].
      * injection E as Ei Eg1 Ev. intros _. rewrite <- Ei, Esplit, <- Ev. cbn [fst snd].
        apply upd2_same.
      * unfold updN. destruct (N.eqb_spec idx i) as [Ei | Hne].
        -- intros Ec. injection Ec as Eg1. exfalso.
           destruct (ai_ret_cur Iid i g v' Hret) as [g1 [fr [Ec' Hle]]].
           rewrite <- Ei, Ecur in Ec'. injection Ec' as Eg2 Efr.
           apply (N.lt_irrefl gen'), Hlt. congruence.
        -- intros Ec. rewrite upd2_other; [apply (ai_ret_data Iid i g v'); auto |].
           destruct (ai_cur Iid i g false Ec) as [_ [_ [Hmk' _]]].
           intros Heq. apply pair_equal_spec in Heq. destruct Heq as [E1 E2].
           apply Hne. rewrite Hmk, Hmk', <- E1, <- E2. reflexivity.
    + (* free_ok *)
      intros k i g Hin. destruct (Hrest k i g Hin) as [Hin' Hne].
      destruct (ai_free_ok Iid k i g Hin') as [A B]. split; [| exact B].
      rewrite updN_other; [exact A |]. intros Ei. apply Hne. symmetry. exact Ei.
  - (* generation overflow: the slot is leaked *)
    injection Hstep as Es' Eo. rewrite <- Es'. clear Es' Eo.
    unchanged_fields Ihs Ipg Iid.
    intros k i g Hin. destruct (Hrest k i g Hin) as [Hin' _]. eauto with ainv.
Qed.

Lemma ainv_step s a s' o : ainv s -> astep s a = Some (s', o) -> ainv s'.
Proof.
  intros Hi Hstep. destruct a.
  - eapply ainv_clone; eauto.
  - eapply ainv_record; eauto.
  - eapply ainv_dropdone; eauto.
  - eapply ainv_take; eauto.
  - eapply ainv_push; eauto.
  - eapply ainv_load; eauto.
  - eapply ainv_write; eauto.
  - eapply ainv_publish; eauto.
  - eapply ainv_free; eauto.
  - eapply ainv_reuse; eauto.
  - cbn in Hstep. destruct (split_id idx) as [p sl].
    destruct (sl <? a_alloc s p); inversion Hstep; subst; exact Hi.
Qed.

Lemma areach_ainv s : areach s -> ainv s.
Proof.
  induction 1 as [| s a s' o Hr IH Hs]; [apply ainv_init | eapply ainv_step; eauto].
Qed.

Lemma distinct_ids s : areach s -> NoDup (map fst (a_ret s)).
Proof. intros Hr. apply (ai_distinct (ai_ids _ (areach_ainv _ Hr))). Qed.

(* two allocation events with the same identity are the same event *)
Lemma distinct_ids_pairwise s n m e1 e2 :
  areach s -> nth_error (a_ret s) n = Some e1 -> nth_error (a_ret s) m = Some e2 ->
  fst e1 = fst e2 -> n = m.
Proof.
  intros Hr H1 H2 E. pose proof (distinct_ids _ Hr) as Hnd.
  rewrite NoDup_nth_error in Hnd. apply Hnd.
  - rewrite map_length. apply nth_error_Some. congruence.
  - rewrite !nth_error_map, H1, H2. cbn. congruence.
Qed.

(* an id that is still current reads back the value it was created with *)
Lemma readback s i g v :
  areach s -> In ((i, g), v) (a_ret s) -> a_cur s i = Some (g, false) ->
  astep s (ARead i) = Some (s, OVal (Some v)).
Proof.
  intros Hr Hin Hc. destruct (areach_ainv _ Hr) as [Ihs Ipg Ipe Iid].
  destruct (ai_cur Iid i g false Hc) as [_ [Hsl _]].
  pose proof (ai_ret_data Iid i g v Hin Hc) as Hd.
  cbn. destruct (split_id i) as [p sl]. cbn in *.
  apply N.ltb_lt in Hsl. rewrite Hsl, Hd. reflexivity.
Qed.

(* whatever slot a reader finds below `allocated` is initialised, belongs to an id that was
   returned, and (unless the slot has since been deleted) holds that id's value *)
Lemma published_slot_initialised s p sl :
  areach s -> p < a_npages s -> sl < a_alloc s p ->
  exists g fr, a_cur s (make_id p sl) = Some (g, fr) /\
    (fr = false -> exists v, In ((make_id p sl, g), v) (a_ret s) /\ a_data s p sl = Some v).
Proof.
  intros Hr Hp Hsl. destruct (areach_ainv _ Hr) as [Ihs Ipg Ipe Iid].
  destruct (ai_pub Iid p sl Hp Hsl) as [g [fr Ec]]. exists g, fr. split; [exact Ec |].
  intros ->. destruct (ai_cur_ret Iid _ _ Ec) as [v Hin]. exists v. split; [exact Hin |].
  pose proof (ai_ret_data Iid _ _ _ Hin Ec) as Hd.
  pose proof (ai_npages Ipg). pose proof (ai_alloc_le Ipg p).
  rewrite split_make_id in Hd; [exact Hd | |]; eapply N.lt_le_trans; eassumption.
Qed.

(* a returned id is within the bounds `Id::from_index` requires *)
Lemma returned_id_bounds s i g v :
  areach s -> In ((i, g), v) (a_ret s) -> i < ID_MAX_U32 /\ g <= U32_MAX.
Proof.
  intros Hr Hin. destruct (areach_ainv _ Hr) as [Ihs Ipg Ipe Iid].
  destruct (ai_ret_cur Iid i g v Hin) as [g' [fr [Ec Hle]]].
  destruct (ai_cur Iid i g' fr Ec) as [A [B [C D]]].
  pose proof (ai_npages Ipg). pose proof (ai_alloc_le Ipg (fst (split_id i))).
  split; [| exact (N.le_trans _ _ _ Hle D)].
  rewrite C. apply make_id_bound; eapply N.lt_le_trans; eassumption.
Qed.

Lemma arun_reach : forall acts s s', areach s -> arun s acts = Some s' -> areach s'.
Proof.
  induction acts as [| a acts IH]; intros s s' Hr Hrun; cbn in Hrun.
  - inversion Hrun; subst; exact Hr.
  - destruct (astep s a) as [[s1 o] |] eqn:Es; [| discriminate].
    eapply IH; [| exact Hrun]. eapply ar_step; eauto.
Qed.
