(* Alloc/PageK.v — the integer kernels of src/table.rs (`make_id`, `split_id`, PAGE_LEN constants) and of
   `Id::next_generation` (src/id.rs), transcribed by hand.

   No file imports this one: Alloc/Model.v exports Alloc/PageKGen.v, which gives the same names,
   types and lemmas on top of the translator's output (coq/gen/Kernels.v: k_make_id, k_split_id
   and the k_id_ family), and every other file of the layer gets the kernels through
   Alloc/Model.v.  This file is the arithmetic reading of those kernels, with the same lemmas
   proved about it.  Types:
     make_id  : N -> N -> N        (page index, slot index) -> Id index (u32)
     split_id : N -> N * N         Id index -> (page index, slot index)
     next_generation : N -> option N     u32 checked_add(1) *)
From Coq Require Import NArith Bool Lia.
Open Scope N_scope.

(* const PAGE_LEN_BITS: usize = 7; const PAGE_LEN_MASK = PAGE_LEN - 1; const PAGE_LEN = 1 << 7; *)
Definition PAGE_LEN_BITS : N := 7.
Definition PAGE_LEN : N := 128.
Definition PAGE_LEN_MASK : N := 127.
(* Id::MAX_U32 = u32::MAX - 0xFF; const MAX_PAGES: usize = Id::MAX_USIZE / PAGE_LEN; *)
Definition ID_MAX_U32 : N := 4294967040.
Definition MAX_PAGES : N := 33554430.
Definition U32_MOD : N := 4294967296.
Definition U32_MAX : N := 4294967295.

(* fn make_id(page: PageIndex, slot: SlotIndex) -> Id {
     let page = page.0 as u32; let slot = slot.0 as u32;
     unsafe { Id::from_index((page << PAGE_LEN_BITS) | slot) } }
   `as u32` truncates, `<<` on u32 drops the high bits. *)
Definition make_id (page slot : N) : N :=
  N.lor (N.shiftl (page mod U32_MOD) PAGE_LEN_BITS mod U32_MOD) (slot mod U32_MOD).

(* pub fn split_id(id: Id) -> (PageIndex, SlotIndex) {
     let index = id.index() as usize;
     let slot = index & PAGE_LEN_MASK; let page = index >> PAGE_LEN_BITS; (page, slot) } *)
Definition split_id (index : N) : N * N :=
  (N.shiftr index PAGE_LEN_BITS, N.land index PAGE_LEN_MASK).

(* Id::next_generation: self.generation().checked_add(1) *)
Definition next_generation (g : N) : option N :=
  if g <? U32_MAX then Some (g + 1) else None.

Lemma max_pages_ok : MAX_PAGES = ID_MAX_U32 / PAGE_LEN.
Proof. vm_compute. reflexivity. Qed.

Lemma make_id_arith page slot :
  page < MAX_PAGES -> slot < PAGE_LEN -> make_id page slot = page * PAGE_LEN + slot.
Proof.
  intros Hp Hs. unfold make_id, MAX_PAGES, PAGE_LEN, U32_MOD, PAGE_LEN_BITS in *.
  rewrite (N.mod_small page) by lia. rewrite (N.mod_small slot) by lia.
  rewrite N.shiftl_mul_pow2. change (2 ^ 7) with 128.
  rewrite (N.mod_small (page * 128)) by lia.
  (* disjoint bits: lor = add *)
  apply N.bits_inj. intros n.
  rewrite N.lor_spec.
  destruct (N.lt_ge_cases n 7) as [Hn | Hn].
  - (* low bit: comes from slot *)
    replace (page * 128) with (page * 2 ^ 7) by reflexivity.
    rewrite N.mul_pow2_bits_low by exact Hn. cbn [orb].
    replace (page * 2 ^ 7 + slot) with (slot + page * 2 ^ 7) by lia.
    rewrite <- (N.mod_pow2_bits_low (slot + page * 2 ^ 7) 7 n Hn).
    rewrite N.mod_add by (cbn; lia).
    rewrite N.mod_small by (cbn; lia). reflexivity.
  - (* high bit: comes from page *)
    assert (Es : N.testbit slot n = false).
    { destruct (N.eq_dec slot 0) as [-> | Hne]; [apply N.bits_0 |].
      apply N.bits_above_log2. apply N.lt_le_trans with 7; [| exact Hn].
      apply N.log2_lt_pow2; [lia | cbn; lia]. }
    rewrite Es, orb_false_r.
    replace (page * 128) with (page * 2 ^ 7) by reflexivity.
    rewrite N.mul_pow2_bits_high by exact Hn.
    replace n with (n - 7 + 7) at 2 by lia.
    rewrite <- N.div_pow2_bits.
    replace (page * 2 ^ 7 + slot) with (slot + page * 2 ^ 7) by lia.
    rewrite N.div_add by (cbn; lia).
    rewrite N.div_small by (cbn; lia). reflexivity.
Qed.

Lemma split_make_id page slot :
  page < MAX_PAGES -> slot < PAGE_LEN -> split_id (make_id page slot) = (page, slot).
Proof.
  intros Hp Hs. rewrite (make_id_arith _ _ Hp Hs). unfold split_id, PAGE_LEN, PAGE_LEN_BITS, PAGE_LEN_MASK in *.
  f_equal.
  - rewrite N.shiftr_div_pow2. change (2 ^ 7) with 128.
    replace (page * 128 + slot) with (slot + page * 128) by lia.
    rewrite N.div_add by lia. rewrite N.div_small by lia. reflexivity.
  - change 127 with (N.ones 7). rewrite N.land_ones. change (2 ^ 7) with 128.
    replace (page * 128 + slot) with (slot + page * 128) by lia.
    rewrite N.mod_add by lia. apply N.mod_small; lia.
Qed.

Lemma make_id_inj p1 s1 p2 s2 :
  p1 < MAX_PAGES -> s1 < PAGE_LEN -> p2 < MAX_PAGES -> s2 < PAGE_LEN ->
  make_id p1 s1 = make_id p2 s2 -> p1 = p2 /\ s1 = s2.
Proof.
  intros H1 H2 H3 H4 E.
  pose proof (split_make_id _ _ H1 H2) as E1. pose proof (split_make_id _ _ H3 H4) as E2.
  rewrite E in E1. rewrite E1 in E2. inversion E2; auto.
Qed.

(* the precondition of the unsafe `Id::from_index` *)
Lemma make_id_bound page slot :
  page < MAX_PAGES -> slot < PAGE_LEN -> make_id page slot < ID_MAX_U32.
Proof.
  intros Hp Hs. rewrite (make_id_arith _ _ Hp Hs).
  unfold MAX_PAGES, PAGE_LEN, ID_MAX_U32 in *. lia.
Qed.

Lemma split_id_slot_bound i : snd (split_id i) < PAGE_LEN.
Proof.
  unfold split_id, PAGE_LEN_MASK, PAGE_LEN. cbn [snd].
  change 127 with (N.ones 7). rewrite N.land_ones. apply N.mod_lt. cbn; lia.
Qed.

Lemma next_generation_spec g g' : next_generation g = Some g' -> g' = g + 1 /\ g' <= U32_MAX.
Proof.
  unfold next_generation. destruct (N.ltb_spec g U32_MAX); [| discriminate].
  intros E; inversion E; subst. split; [reflexivity | lia].
Qed.

Global Arguments make_id : simpl never.
Global Arguments split_id : simpl never.
Global Arguments next_generation : simpl never.
