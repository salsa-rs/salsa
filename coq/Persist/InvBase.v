(* Persist/InvBase.v — the notions about database states that both invariants of the persist-mode
   model are phrased in.  LInv.v and PInv.v define, with the same bodies, the ones their statements
   mention; the lemmas here apply to those by conversion. *)
From Salsa Require Import Base.
From Salsa.Kern Require Import CoreK CoreKFacts.
From Salsa.Core Require Import Model Spec SpecProofs Inv DurSem.
From Salsa.Persist Require Import Model PSem.

Definition lcs (s : db) (k : dur) : rev := last_changed (d_revs s) k.

(* (verified_at, changed_at) of the memos that a restore dropped *)
Definition ghost := qkey -> option (rev * rev).

Definition phi (s : db) (F : ghost) (d : qkey) : option rev :=
  match d_memo s d with
  | Some md => Some (m_changed md)
  | None => option_map snd (F d)
  end.

Definition sle (s : db) (F : ghost) (c : rev) (x : rd) : Prop :=
  match x with
  | RIn i => c <= f_changed (d_in s i)
  | RQ d => exists c', phi s F d = Some c' /\ c <= c'
  | _ => True
  end.

Definition dcore_eq (s s' : db) : Prop :=
  d_revs s' = d_revs s /\ d_in s' = d_in s /\ d_cell s' = d_cell s /\ d_memo s' = d_memo s.

Definition store (s : db) (q : qkey) (m : memo) : db := set_memo s (upd (d_memo s) q (Some m)).

Definition reverify (m : memo) (now : rev) : memo :=
  {| m_val := m_val m; m_verified := now; m_changed := m_changed m; m_dur := m_dur m;
     m_untracked := m_untracked m; m_edges := m_edges m |}.

Definition fresh_memo (v : val) (now : rev) (ch : rev) (fr : frame) : memo :=
  {| m_val := Some v; m_verified := now; m_changed := ch; m_dur := fr_dur fr;
     m_untracked := fr_untracked fr; m_edges := fr_edges fr |}.

Definition dallowed (s : db) (p : ppanic) : Prop :=
  (p = PB PInjected /\ exists c, d_pcell s c <> 0) \/
  (p = PUninit /\ exists fam, d_init s fam = false).

Lemma dcore_eq_cur s s' : dcore_eq s s' -> cur s' = cur s.
Proof. intros (Hr & _). unfold cur; rewrite Hr; reflexivity. Qed.

Lemma dcore_eq_log s l : dcore_eq s (set_log s l).
Proof. repeat split. Qed.
Lemma dcore_eq_stack s l : dcore_eq s (set_stack s l).
Proof. repeat split. Qed.
Lemma dcore_eq_lru s l : dcore_eq s (set_lru s l).
Proof. repeat split. Qed.
Lemma dcore_eq_init s l : dcore_eq s (set_init s l).
Proof. repeat split. Qed.

Lemma cur_store s q m : cur (store s q m) = cur s.
Proof. reflexivity. Qed.

Lemma reverify_same m : reverify m (m_verified m) = m.
Proof. destruct m; reflexivity. Qed.

Lemma phi_same s s' F d : d_memo s' = d_memo s -> phi s' F d = phi s F d.
Proof. intros Hm. unfold phi. rewrite Hm. reflexivity. Qed.

Lemma sle_same s s' F c x : d_in s' = d_in s -> d_memo s' = d_memo s -> sle s F c x -> sle s' F c x.
Proof.
  intros Hi Hm. destruct x as [i | d | cc |]; cbn; auto.
  - rewrite Hi. auto.
  - rewrite (phi_same s s' F d Hm). auto.
Qed.

Lemma phi_store s F q m d c :
  (forall c0, phi s F q = Some c0 -> c0 <= m_changed m) ->
  phi s F d = Some c -> exists c', phi (store s q m) F d = Some c' /\ c <= c'.
Proof.
  intros Hmono Hd. unfold phi, store; cbn. unfold upd.
  destruct (key_eqb_spec q d) as [<- | Hne].
  - exists (m_changed m). split; [reflexivity | apply Hmono; exact Hd].
  - exists c. split; [exact Hd | lia].
Qed.

Lemma sle_mono s s' F c x :
  d_in s' = d_in s ->
  (forall d c0, phi s F d = Some c0 -> exists c', phi s' F d = Some c' /\ c0 <= c') ->
  sle s F c x -> sle s' F c x.
Proof.
  intros Hi Hm. destruct x as [i | d | cc |]; cbn; auto.
  - rewrite Hi. auto.
  - intros (c0 & Hc0 & Hle). destruct (Hm d c0 Hc0) as (c' & Hc' & Hle'). exists c'. split; [exact Hc' | lia].
Qed.

Lemma dallowed_ext s s' p :
  d_pcell s' = d_pcell s -> (forall fam, d_init s fam = true -> d_init s' fam = true) ->
  dallowed s' p -> dallowed s p.
Proof.
  intros He Hi [[-> (c & Hc)] | [-> (fam & Hf)]].
  - left. split; [reflexivity|]. exists c. rewrite <- He. exact Hc.
  - right. split; [reflexivity|]. exists fam.
    destruct (d_init s fam) eqn:Hs; [|reflexivity]. rewrite (Hi fam Hs) in Hf. discriminate.
Qed.

Section Rank.
Variable rank : qkey -> nat.

Definition dtouch_below (s s' : db) (k : nat) : Prop :=
  forall p, (k <= rank p)%nat -> d_memo s' p = d_memo s p.

Lemma dtouch_refl s k : dtouch_below s s k.
Proof. intros p _; reflexivity. Qed.

Lemma dtouch_trans s1 s2 s3 k1 k2 k :
  (k1 <= k)%nat -> (k2 <= k)%nat ->
  dtouch_below s1 s2 k1 -> dtouch_below s2 s3 k2 -> dtouch_below s1 s3 k.
Proof.
  intros H1 H2 T1 T2 p Hp. rewrite (T2 p) by lia. apply T1. lia.
Qed.

Lemma dtouch_of_core_eq s s' k : dcore_eq s s' -> dtouch_below s s' k.
Proof. intros (_ & _ & _ & Hm) p _. rewrite Hm; reflexivity. Qed.

Lemma dtouch_store s q m k : (rank q < k)%nat -> dtouch_below s (store s q m) k.
Proof.
  intros Hk p Hp. assert (Hne : q <> p) by (intros ->; lia).
  unfold store; cbn. apply upd_other; exact Hne.
Qed.

Definition stack_ok (s : db) (q : qkey) : Prop :=
  forall p, In p (d_stack s) -> (rank q < rank p)%nat.

End Rank.

Definition evicted_from (mm mm' : qkey -> option memo) : Prop :=
  forall q, mm' q = mm q \/ exists m, mm q = Some m /\ mm' q = Some (evict_memo m).

Lemma evict_memo_idem m : evict_memo (evict_memo m) = evict_memo m.
Proof. unfold evict_memo. destruct (m_untracked m) eqn:Hu; [rewrite Hu; reflexivity | reflexivity]. Qed.

Lemma evicted_refl mm : evicted_from mm mm.
Proof. intros q; left; reflexivity. Qed.

Lemma evicted_trans a b c : evicted_from a b -> evicted_from b c -> evicted_from a c.
Proof.
  intros Hab Hbc q. destruct (Hab q) as [Hq | (m & Hm & Hq)], (Hbc q) as [Hq' | (m' & Hm' & Hq')].
  - left; congruence.
  - right. exists m'. split; congruence.
  - right. exists m. split; congruence.
  - right. exists m. split; [exact Hm|]. rewrite Hq', Hq in *. injection Hm' as <-.
    rewrite evict_memo_idem. reflexivity.
Qed.

Lemma evict_keys_evicted fam ks : forall mm, evicted_from mm (evict_keys fam ks mm).
Proof.
  unfold evict_keys. induction ks as [|k ks IH]; intros mm; cbn [fold_left].
  - apply evicted_refl.
  - eapply evicted_trans; [|apply IH].
    intros q. destruct (mm (fam, k)) as [m|] eqn:Hm; [|left; reflexivity].
    unfold upd. destruct (key_eqb_spec (fam, k) q) as [<- | Hne]; [|left; reflexivity].
    right. exists m. split; [exact Hm | reflexivity].
Qed.

Record same_but_memos (s s' : db) : Prop := {
  sb_revs : d_revs s' = d_revs s;
  sb_in : d_in s' = d_in s;
  sb_cell : d_cell s' = d_cell s;
  sb_pcell : d_pcell s' = d_pcell s;
  sb_init : d_init s' = d_init s;
  sb_stack : d_stack s' = d_stack s;
  sb_memo : evicted_from (d_memo s) (d_memo s')
}.

Lemma sbm_refl s : same_but_memos s s.
Proof. constructor; auto using evicted_refl. Qed.

Lemma sbm_trans a b c : same_but_memos a b -> same_but_memos b c -> same_but_memos a c.
Proof.
  intros [a1 a2 a3 a4 a5 a6 a7] [b1 b2 b3 b4 b5 b6 b7]. constructor; try congruence.
  eapply evicted_trans; eassumption.
Qed.

Lemma evict_all_sbm : forall fs s, same_but_memos s (evict_all fs s).
Proof.
  unfold evict_all. induction fs as [|f fs IH]; intros s; cbn [fold_left].
  - apply sbm_refl.
  - eapply sbm_trans; [|apply IH].
    destruct (lru_evict (d_lru s f)) as [ev l'].
    constructor; try reflexivity. cbn. apply evict_keys_evicted.
Qed.

Definition extendD (D : dhist) (c : rev) (f : ikey -> dur) : dhist :=
  fun r => if r =? c then f else D r.

Lemma extendD_same D c f : extendD D c f c = f.
Proof. unfold extendD. rewrite N.eqb_refl. reflexivity. Qed.

Lemma extendD_other D c f r : r <> c -> extendD D c f r = D r.
Proof. unfold extendD. intros Hne. apply N.eqb_neq in Hne. rewrite Hne. reflexivity. Qed.

Definition durs_of (s : db) : ikey -> dur := fun i => f_dur (d_in s i).

Definition memo_sim (m m' : memo) : Prop :=
  m_verified m' = m_verified m /\ m_changed m' = m_changed m /\ m_dur m' = m_dur m /\
  m_untracked m' = m_untracked m /\ (forall e, In e (m_edges m') <-> In e (m_edges m)) /\
  (forall x, m_val m' = Some x -> m_val m = Some x).

Lemma memo_sim_refl m : memo_sim m m.
Proof. repeat split; auto. Qed.

(* memos may lose their value (eviction) or disappear: a restored database has no memos of
   non-persisted functions and no value-less ones *)
Definition sub_sim (mm mm' : qkey -> option memo) : Prop :=
  forall q m', mm' q = Some m' -> exists m, mm q = Some m /\ memo_sim m m'.

Lemma memo_sim_evict m : memo_sim m (evict_memo m).
Proof.
  unfold evict_memo. destruct (m_untracked m) eqn:Hu; [apply memo_sim_refl|].
  repeat split; cbn; auto. discriminate.
Qed.

Lemma evicted_fwd mm mm' q m : evicted_from mm mm' -> mm q = Some m ->
  exists m', mm' q = Some m' /\ memo_sim m m'.
Proof.
  intros Hev Hm. destruct (Hev q) as [Heq | (m0 & Hm0 & Heq)].
  - exists m. split; [congruence | apply memo_sim_refl].
  - rewrite Hm in Hm0. injection Hm0 as <-. exists (evict_memo m). split; [exact Heq | apply memo_sim_evict].
Qed.

Lemma evicted_bwd mm mm' q m' : evicted_from mm mm' -> mm' q = Some m' ->
  exists m, mm q = Some m /\ memo_sim m m'.
Proof.
  intros Hev Hm'. destruct (Hev q) as [Heq | (m0 & Hm0 & Heq)].
  - exists m'. split; [congruence | apply memo_sim_refl].
  - rewrite Heq in Hm'. injection Hm' as <-. exists m0. split; [exact Hm0 | apply memo_sim_evict].
Qed.

Lemma evicted_sub_sim mm mm' : evicted_from mm mm' -> sub_sim mm mm'.
Proof. intros Hev q m' Hm'. exact (evicted_bwd mm mm' q m' Hev Hm'). Qed.

Definition core_sim (m m' : memo) : Prop :=
  m_verified m' = m_verified m /\ m_changed m' = m_changed m /\ m_dur m' = m_dur m /\
  (forall x, m_val m' = Some x -> m_val m = Some x).

Definition sub_core (mm mm' : qkey -> option memo) : Prop :=
  forall q m', mm' q = Some m' -> exists m, mm q = Some m /\ core_sim m m'.

Lemma sub_sim_core mm mm' : sub_sim mm mm' -> sub_core mm mm'.
Proof.
  intros Hs q m' Hm'. destruct (Hs q m' Hm') as (m & Hm & (A & B & C & _ & _ & F)).
  exists m. split; [exact Hm | repeat split; assumption].
Qed.

Lemma snapshot_sub_core pfam sfuel mm : sub_core mm (snap_memo pfam mm sfuel).
Proof.
  intros q m' Hs. unfold snap_memo in Hs.
  destruct (mm q) as [m|] eqn:Hm; [|discriminate].
  destruct (m_val m) as [x|] eqn:Hx; [|discriminate].
  destruct (pfam (fst q)); [|discriminate]. injection Hs as <-.
  exists m. split; [reflexivity|]. repeat split; cbn; auto. rewrite Hx. auto.
Qed.

(* the ghost stamps after memos of s were dropped: what they had *)
Definition lift (s : db) (F : ghost) : ghost :=
  fun d => match d_memo s d with
           | Some md => Some (m_verified md, m_changed md)
           | None => F d
           end.

(* a write reports the OLD durability od of the input, and nothing when that is LOW *)
Lemma write_revs r od : revs_ok r -> od < 3 ->
  let r1 := if od =? D_LOW then r else report_write r od in
  r_cur r1 = r_cur r /\ revs_ok r1 /\ (forall k, last_changed r k <= last_changed r1 k) /\
  last_changed r1 od = r_cur r.
Proof.
  intros Rv Hod3. cbn zeta. destruct (N.eqb_spec od D_LOW) as [H0 | H0].
  - split; [reflexivity|]. split; [exact Rv|]. split; [intros k; apply N.le_refl|].
    unfold D_LOW in H0. rewrite H0. apply lc_zero.
  - split; [reflexivity|]. split; [apply revs_ok_report_write; exact Rv|].
    split; [intros k; apply lc_report_write_ge; exact Rv|].
    rewrite lc_report_write.
    destruct (N.eqb_spec od 0) as [E0 | Hk0]; [reflexivity|].
    destruct (N.leb_spec od od) as [_ | Hx]; [|lia].
    destruct (N.ltb_spec od 3) as [_ | Hx]; [|lia]. reflexivity.
Qed.

Section Revisions.
Variable fams : list N.

Lemma new_revision_revs s :
  d_revs (new_revision fams s) =
  {| r_cur := r_cur (d_revs s) + 1; r_med := r_med (d_revs s); r_high := r_high (d_revs s) |}.
Proof.
  unfold new_revision. set (s1 := set_ccount _ 0).
  destruct (evict_all_sbm fams s1) as [a _ _ _ _ _ _]. rewrite a. reflexivity.
Qed.

Lemma new_revision_facts s :
  d_in (new_revision fams s) = d_in s /\ d_cell (new_revision fams s) = d_cell s /\
  d_stack (new_revision fams s) = d_stack s /\
  evicted_from (d_memo s) (d_memo (new_revision fams s)).
Proof.
  unfold new_revision. set (s1 := set_ccount _ 0).
  destruct (evict_all_sbm fams s1) as [a b c d e f g]. rewrite b, c, f. repeat split; auto.
Qed.

Lemma new_revision_lcs s k :
  revs_ok (d_revs s) ->
  lcs s k <= lcs (new_revision fams s) k /\ (1 <= k -> lcs (new_revision fams s) k = lcs s k).
Proof.
  intros (R1 & R2 & R3). unfold lcs. rewrite new_revision_revs.
  destruct (lc_cases (d_revs s) k) as [[-> E0] | [[-> E0] | [[-> E0] | [Hk E0]]]]; rewrite E0.
  - cbn. split; [lia | intros; lia].
  - rewrite last_changed_medium. cbn. split; [lia | reflexivity].
  - rewrite last_changed_high. cbn. split; [lia | reflexivity].
  - rewrite lc_never by exact Hk. split; [lia | reflexivity].
Qed.

Lemma zalsa_mut_stack s : d_stack (zalsa_mut fams s) = d_stack s.
Proof.
  unfold zalsa_mut. destruct (d_ccount s =? 255); [|reflexivity].
  apply (new_revision_facts s).
Qed.

Lemma zalsa_mut_cell s : d_cell (zalsa_mut fams s) = d_cell s.
Proof.
  unfold zalsa_mut. destruct (d_ccount s =? 255); [|reflexivity].
  apply (new_revision_facts s).
Qed.

Lemma evict_all_facts s :
  d_revs (evict_all fams s) = d_revs s /\ d_in (evict_all fams s) = d_in s /\
  d_cell (evict_all fams s) = d_cell s /\ d_stack (evict_all fams s) = d_stack s /\
  evicted_from (d_memo s) (d_memo (evict_all fams s)).
Proof. destruct (evict_all_sbm fams s) as [a b c d e f g]. repeat split; auto. Qed.

End Revisions.

Lemma edge_in_dec (e : edge) (L : list edge) : {In e L} + {~ In e L}.
Proof. apply in_dec. repeat decide equality. Qed.

Section Runs.
Variable prog : qkey -> CM.body.
Variable rank : qkey -> nat.
Hypothesis Hrank : calls_below prog rank.
Variable NF : nat.
Hypothesis Hbound : forall q, (rank q < NF)%nat.
Notation E := (E prog NF).
Notation tr := (tr prog NF).
Notation envat := (envat prog NF).

Lemma same_run H a w q :
  agree_on (envat H a) (envat H w) (tr H a q) -> tr H w q = tr H a q /\ E H w q = E H a q.
Proof.
  intros Hag. destruct (trace_determined (prog q) _ _ Hag) as [Htr Hrun].
  split; [exact Htr | rewrite !(E_unfold prog rank Hrank NF Hbound); exact Hrun].
Qed.

Lemma same_run_common H a w q :
  (forall x, In x (tr H a q) -> In x (tr H w q) -> answer (envat H a) x = answer (envat H w) x) ->
  tr H w q = tr H a q /\ E H w q = E H a q.
Proof.
  intros Hc. apply same_run.
  destruct (first_changed_is_read_again (prog q) (envat H a) (envat H w))
    as [Hag | (pre & x & post & Ht & _ & Hnea & post' & Ht')]; [exact Hag|].
  exfalso. apply Hnea. apply Hc.
  - unfold tr, Inv.tr. rewrite Ht. apply in_or_app; right; left; reflexivity.
  - unfold tr, Inv.tr. rewrite Ht'. apply in_or_app; right; left; reflexivity.
Qed.

End Runs.

Section Frames.
Variable prog : qkey -> CM.body.
Variable rank : qkey -> nat.
Hypothesis Hrank : calls_below prog rank.
Variable NF : nat.
Hypothesis Hbound : forall q, (rank q < NF)%nat.
Variable F : ghost.
Notation E := (E prog NF).
Notation tr := (tr prog NF).
Notation envat := (envat prog NF).
Notation durge := (durge prog NF).
Notation clos := (clos prog NF).

Definition prov (H : hist) (s : db) (q : qkey) (v c : rev) : Prop :=
  c <= 1 \/ exists x, In x (tr H v q) /\ sle s F c x.

Definition obs_pre (H : hist) (D : dhist) (s : db) (v : rev) (d : qkey) (md : memo) : Prop :=
  m_changed md <= v \/ exists k, durge H D v k d /\ lcs s k <= v.

(* query g as evaluated at revision w, with durability k, is owed the observer clause *)
Record observer (H : hist) (D : dhist) (s : db) (g : qkey) (w : rev) (k : dur) : Prop := {
  ov_order : 1 <= w /\ w <= cur s;
  ov_durge : durge H D w k g;
  ov_dur3 : k <= 3;
  ov_obs : forall d md, clos H w g d -> d_memo s d = Some md -> obs_pre H D s w d md ->
           E H w d = E H (m_verified md) d /\ k <= m_dur md
}.

Record inputs_ok (H : hist) (D : dhist) (s : db) : Prop := {
  io_in : forall i r, f_changed (d_in s i) <= r -> r <= cur s -> sn_in (H r) i = f_val (d_in s i);
  io_dur : forall i r, f_changed (d_in s i) <= r -> r <= cur s -> D r i = f_dur (d_in s i);
  io_in_le : forall i, f_changed (d_in s i) <= cur s
}.

(* the frame fr of a run that has read pre so far *)
Record covers (s : db) (pre : list rd) (fr : frame) : Prop := {
  cv_in : forall i, In (RIn i) pre ->
          In (EIn i) (fr_edges fr) /\
          f_changed (d_in s i) <= fr_changed fr /\ fr_dur fr <= f_dur (d_in s i);
  cv_q : forall d, In (RQ d) pre ->
         exists md, d_memo s d = Some md /\ m_verified md = cur s /\ m_val md <> None /\
                    m_changed md <= fr_changed fr /\ fr_dur fr <= m_dur md /\
                    In (EQ d) (fr_edges fr);
  cv_cell : forall x, In x pre -> untr x ->
            fr_untracked fr = true /\ fr_changed fr = cur s /\ fr_dur fr = 0;
  cv_edges_q : forall d, In (EQ d) (fr_edges fr) -> In (RQ d) pre;
  cv_le : fr_changed fr <= cur s;
  cv_ge1 : 1 <= fr_changed fr;
  cv_stamp : fr_changed fr <= 1 \/ exists x, In x pre /\ sle s F (fr_changed fr) x;
  cv_dur3 : fr_dur fr <= 3;
  cv_untr : fr_untracked fr = true -> fr_dur fr = 0;
  (* the frame's durability is exactly the minimum over what was read *)
  cv_lb : forall k, k <= 3 ->
          (forall i, In (RIn i) pre -> k <= f_dur (d_in s i)) ->
          (forall d, In (RQ d) pre -> forall md, d_memo s d = Some md -> k <= m_dur md) ->
          (forall x, In x pre -> untr x -> k = 0) ->
          k <= fr_dur fr
}.

Lemma covers_callee H D s q fr d :
  (forall d md, d_memo s d = Some md -> durge H D (m_verified md) (m_dur md) d) ->
  covers s (tr H (cur s) q) fr -> In (RQ d) (tr H (cur s) q) ->
  exists md, d_memo s d = Some md /\ m_verified md = cur s /\
             m_changed md <= fr_changed fr /\ fr_dur fr <= m_dur md /\
             durge H D (cur s) (m_dur md) d.
Proof.
  intros Hdg Hcv Hd. destruct (cv_q _ _ _ Hcv d Hd) as (md & Hmd & Hvd & _ & Hcd & Hdd & _).
  exists md. split; [exact Hmd|]. split; [exact Hvd|]. split; [exact Hcd|]. split; [exact Hdd|].
  rewrite <- Hvd. exact (Hdg d md Hmd).
Qed.

Lemma covers_durge H D s q fr :
  inputs_ok H D s -> (forall d md, d_memo s d = Some md -> durge H D (m_verified md) (m_dur md) d) ->
  covers s (tr H (cur s) q) fr -> durge H D (cur s) (fr_dur fr) q.
Proof.
  intros HI Hdg Hcv. constructor.
  - intros i Hi. rewrite (io_dur _ _ _ HI i (cur s)); [|apply (io_in_le _ _ _ HI) | lia].
    apply (cv_in _ _ _ Hcv i Hi).
  - intros d Hd. destruct (covers_callee H D s q fr d Hdg Hcv Hd) as (md & _ & _ & _ & Hle & Hdd).
    eapply durge_mono; [exact Hle | exact Hdd].
  - intros x Hx Hu. apply (cv_cell _ _ _ Hcv x Hx Hu).
Qed.

Lemma frame_dur_lb H D s q fr g w k :
  inputs_ok H D s -> covers s (tr H (cur s) q) fr ->
  observer H D s g w k -> clos H w g q ->
  tr H (cur s) q = tr H w q ->
  (forall i, In (RIn i) (tr H (cur s) q) -> D (cur s) i = D w i) ->
  (forall d md, In (RQ d) (tr H (cur s) q) -> d_memo s d = Some md ->
                obs_pre H D s w d md) ->
  k <= fr_dur fr.
Proof.
  intros HI Hcv Hog Hcl Htr HDi Hpre.
  pose proof (durge_clos _ _ _ _ _ _ _ _ (ov_durge _ _ _ _ _ _ Hog) Hcl) as Hdq.
  apply (cv_lb _ _ _ Hcv).
  - apply (ov_dur3 _ _ _ _ _ _ Hog).
  - intros i Hi.
    rewrite <- (io_dur _ _ _ HI i (cur s)); [|apply (io_in_le _ _ _ HI) | lia].
    rewrite (HDi i Hi). rewrite Htr in Hi. apply (durge_in _ _ _ _ _ _ _ _ Hdq Hi).
  - intros d Hd md Hmd. pose proof Hd as Hd'. rewrite Htr in Hd'.
    pose proof (clos_right _ _ _ _ _ _ _ Hcl Hd') as Hcd.
    apply (ov_obs _ _ _ _ _ _ Hog d md Hcd Hmd). apply Hpre; assumption.
  - intros x Hx Hu. rewrite Htr in Hx. apply (durge_untr _ _ _ _ _ _ _ _ Hdq Hx Hu).
Qed.

(* Stamps never decrease: the stamp of a completed frame is at least the stamp c that q had as
   observer at rho (its old memo, or the memo a restore dropped).  Either the run at rho and the
   run now read the same things: then the read that carries c ([prov]) is read now, with a stamp
   that did not go down; or some read is the first whose answer differs, and it is made in both
   runs ([first_changed_is_read_again]): what it reads changed after rho, so its stamp, which the
   frame carries, is above rho and above c. *)
Lemma frame_changed_lb H D s q fr rho c k :
  inputs_ok H D s -> covers s (tr H (cur s) q) fr ->
  observer H D s q rho k -> c <= rho -> prov H s q rho c ->
  c <= fr_changed fr.
Proof.
  intros HI Hcv Hog Hcr Hpv.
  pose proof (ov_order _ _ _ _ _ _ Hog) as (Ho1 & Ho3).
  assert (Hsle : forall x, In x (tr H (cur s) q) -> sle s F c x -> c <= fr_changed fr).
  { intros x Hx Hs. destruct x as [i | d | cc |]; cbn in Hs.
    - destruct (cv_in _ _ _ Hcv i Hx) as (_ & A & _). lia.
    - destruct Hs as (c' & Hc' & Hle).
      destruct (cv_q _ _ _ Hcv d Hx) as (md0 & Hmd0 & _ & _ & A & _).
      unfold phi in Hc'. rewrite Hmd0 in Hc'. injection Hc' as <-. lia.
    - destruct (cv_cell _ _ _ Hcv (RCell cc) Hx) as (_ & A & _); [right; eauto | lia].
    - destruct (cv_cell _ _ _ Hcv RTouch Hx) as (_ & A & _); [left; reflexivity | lia]. }
  destruct (first_changed_is_read_again (prog q) (envat H rho) (envat H (cur s)))
    as [Hag | (pre & x & post & Ht & _ & Hnea & post' & Ht')].
  - destruct (trace_determined _ _ _ Hag) as [Htr _].
    assert (Htr' : tr H (cur s) q = tr H rho q) by exact Htr.
    destruct Hpv as [A | (x & Hx & Hs)].
    + pose proof (cv_ge1 _ _ _ Hcv). lia.
    + apply (Hsle x); [rewrite Htr'; exact Hx | exact Hs].
  - assert (Hx : In x (tr H rho q)).
    { unfold tr, Inv.tr. rewrite Ht. apply in_or_app; right; left; reflexivity. }
    assert (Hx' : In x (tr H (cur s) q)).
    { unfold tr, Inv.tr. rewrite Ht'. apply in_or_app; right; left; reflexivity. }
    destruct x as [i | d | cc |]; cbn in Hnea.
    + destruct (cv_in _ _ _ Hcv i Hx') as (_ & A & _).
      destruct (N.le_gt_cases (f_changed (d_in s i)) rho) as [Hle | Hgt]; [|lia].
      exfalso. apply Hnea.
      rewrite (io_in _ _ _ HI i rho Hle Ho3).
      symmetry. apply (io_in _ _ _ HI i (cur s)); [apply (io_in_le _ _ _ HI) | lia].
    + destruct (cv_q _ _ _ Hcv d Hx') as (md & Hmd & Hvd & _ & A & _).
      destruct (N.le_gt_cases (m_changed md) rho) as [Hle | Hgt]; [|lia].
      exfalso. apply Hnea.
      destruct (ov_obs _ _ _ _ _ _ Hog d md (clos_one _ _ _ _ _ _ Hx) Hmd) as [B _]; [left; exact Hle|].
      rewrite B, Hvd. reflexivity.
    + destruct (cv_cell _ _ _ Hcv (RCell cc) Hx') as (_ & A & _); [right; eauto | lia].
    + exfalso. apply Hnea. reflexivity.
Qed.

Lemma observed_stable H D s q fr g w k k0 :
  inputs_ok H D s -> wstable H D k0 w (cur s) -> 1 <= k0 ->
  covers s (tr H (cur s) q) fr -> observer H D s g w k -> clos H w g q ->
  durge H D w k0 q -> lcs s k0 <= w ->
  E H w q = E H (cur s) q /\ k <= fr_dur fr.
Proof.
  intros HI Hw Hk Hcv Hog Hcl Hdk Hlck.
  pose proof (ov_order _ _ _ _ _ _ Hog) as (Hg1 & Hg3).
  destruct (durge_stable prog rank Hrank NF Hbound H D k0 w (cur s) q (cur s) Hk Hw Hdk Hg3 (N.le_refl _))
    as (Htr & HE & _).
  split; [symmetry; exact HE|].
  apply (frame_dur_lb H D s q fr g w k HI Hcv Hog Hcl Htr).
  - intros i Hi. rewrite Htr in Hi.
    apply (Hw i); [apply (durge_in _ _ _ _ _ _ _ _ Hdk Hi) | lia | lia].
  - intros d md Hd _. rewrite Htr in Hd. right. exists k0.
    split; [apply (durge_q _ _ _ _ _ _ _ _ Hdk Hd) | exact Hlck].
Qed.

Lemma observed_old_stamps H D s q fr g w k :
  inputs_ok H D s -> covers s (tr H (cur s) q) fr -> observer H D s g w k -> clos H w g q ->
  w < cur s -> fr_changed fr <= w ->
  E H w q = E H (cur s) q /\ k <= fr_dur fr.
Proof.
  intros HI Hcv Hog Hcl Hlt Hle.
  pose proof (ov_order _ _ _ _ _ _ Hog) as (Hg1 & Hg3).
  destruct (same_run_common prog rank Hrank NF Hbound H (cur s) w q) as [Htr HE].
  { intros x Hx Hx'. destruct x as [i | d | c |]; cbn.
    - destruct (cv_in _ _ _ Hcv i Hx) as (_ & Hst & _).
      rewrite (io_in _ _ _ HI i (cur s)); [|apply (io_in_le _ _ _ HI) | lia].
      rewrite (io_in _ _ _ HI i w); [reflexivity | lia | lia].
    - destruct (cv_q _ _ _ Hcv d Hx) as (md & Hmd & Hvd & _ & Hcd & _).
      pose proof (clos_right _ _ _ _ _ _ _ Hcl Hx') as Hcd'.
      destruct (ov_obs _ _ _ _ _ _ Hog d md Hcd' Hmd) as [A _]; [left; lia|].
      rewrite A, Hvd. reflexivity.
    - destruct (cv_cell _ _ _ Hcv (RCell c) Hx) as (_ & Hcc & _); [right; eauto | lia].
    - reflexivity. }
  split; [exact HE|].
  apply (frame_dur_lb H D s q fr g w k HI Hcv Hog Hcl (eq_sym Htr)).
  - intros i Hi. destruct (cv_in _ _ _ Hcv i Hi) as (_ & Hst & _).
    rewrite (io_dur _ _ _ HI i (cur s)); [|apply (io_in_le _ _ _ HI) | lia].
    symmetry. apply (io_dur _ _ _ HI); lia.
  - intros d md Hd Hmd. destruct (cv_q _ _ _ Hcv d Hd) as (md0 & Hmd0 & _ & _ & Hcd & _).
    rewrite Hmd in Hmd0. injection Hmd0 as <-. left. lia.
Qed.

(* What an observer g of q, verified at w, is owed by the memo of a completed run: g was verified
   now; or nothing at some level of q was written since w ([observed_stable]); or every read of the
   new run carries a stamp that g has already seen ([observed_old_stamps]); or the memo is
   backdated to the old one, which served g. *)
Lemma fresh_observed H D s q fr v ch (old : option memo) g w k :
  inputs_ok H D s ->
  (forall k0 a, lcs s k0 <= a -> wstable H D k0 a (cur s)) ->
  (forall d md, d_memo s d = Some md -> m_changed md <= cur s) ->
  (forall o ov, d_memo s q = Some o -> m_val o = Some ov -> ov = E H (m_verified o) q) ->
  covers s (tr H (cur s) q) fr -> v = E H (cur s) q -> d_memo s q = old ->
  (ch = fr_changed fr \/
   exists o ov, old = Some o /\ m_val o = Some ov /\ ov = v /\ ch = m_changed o /\
                m_dur o <= fr_dur fr) ->
  observer H D s g w k -> clos H w g q ->
  obs_pre H D s w q (fresh_memo v (cur s) ch fr) ->
  E H w q = E H (cur s) q /\ k <= m_dur (fresh_memo v (cur s) ch fr).
Proof.
  intros HI Hstab Hmdle Hval Hcv Hv Hold Hch Hog Hcl Hpre. cbn [fresh_memo m_dur m_changed] in *.
  pose proof (ov_order _ _ _ _ _ _ Hog) as (Hg1 & Hg3).
  destruct (N.eq_dec w (cur s)) as [Heq | Hnow].
  { (* g is verified now *)
    split; [rewrite Heq; reflexivity|].
    apply (frame_dur_lb H D s q fr g w k HI Hcv Hog Hcl); rewrite ?Heq; auto.
    intros d md _ Hmd. left. apply (Hmdle d md Hmd). }
  assert (Hlt : w < cur s) by lia.
  destruct Hpre as [Hle | (k0 & Hdk & Hlck)].
  2:{ (* second case of [obs_pre]: nothing of durability k0 was written since w *)
      apply (observed_stable H D s q fr g w k k0 HI (Hstab k0 w Hlck)); try assumption.
      destruct (N.eq_dec k0 0) as [-> | H0]; [|lia].
      unfold lcs in Hlck. rewrite lc_zero in Hlck. unfold cur in *. lia. }
  destruct Hch as [-> | (o & ov & Ho & Hov & Heq & -> & Hdo)].
  - exact (observed_old_stamps H D s q fr g w k HI Hcv Hog Hcl Hlt Hle).
  - (* backdated: the value equals the old one, the durability did not decrease *)
    subst old.
    destruct (ov_obs _ _ _ _ _ _ Hog q o Hcl Ho) as [A B]; [left; exact Hle|].
    split; [|lia].
    rewrite A. rewrite <- (Hval o ov Ho Hov).
    rewrite Heq. exact Hv.
Qed.

End Frames.
