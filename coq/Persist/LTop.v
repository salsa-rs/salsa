(* Persist/LTop.v — the persist-mode model across ALL its API operations, snapshot and restore
   included, in flat mode (all durabilities LOW), and the results theorem of C26 for EVERY program
   and choice of persisted functions:

   [restore_flat_ok], [restore_flat_ok_clean]
                         restore (snapshot s) re-establishes the invariant in the fresh database
                         (same ghost histories: the revision counter is rewound to the snapshot's,
                         the inputs come back with their stamps): the flattened dependencies, to
                         any depth, become observers at the revisions their memos were verified at
                         ([exp_good], from ProofsFlatten.flatten_closed / flatten_fn / flatten_under);
   [results_low]         hence: every Get of every history with snapshots and restores returns
                         the from-scratch value of the current inputs, or unwinds with a base
                         panic, outside the uninitialised-ingredient class;
   [results_no_restore], [results_closed]
                         the theorems of PTop.v for all durabilities.

   The [_strict] form says which panics may unwind a request: an injected fault while a fault
   switch is on, and the panic of an uninitialised function ingredient (LInv.dallowed; the
   results theorems leave the second out by [known_class_free]); the backdate-violation
   assertion is unreachable (stamps never decrease: LInv.ext_mono, LInvSem.frame_changed_lb). *)
From Salsa Require Import Base.
From Salsa.Kern Require Import CoreK CoreKFacts.
From Salsa.Core Require Import Model Spec SpecProofs Inv DurSem.
From Salsa.Core Require InvTop.
From Salsa.Persist Require Import Model PSem PWp InvBase LInv LInvSem LInvOps LInvTop ProofsRoundtrip ProofsFlatten.
From Salsa.Persist Require Statement Run PTop.

Section Top.
Variable uprog : qkey -> body.
Variable noeq : qkey -> bool.
Variable pfam : N -> bool.
Variable fams : list N.
Variable lru0 : N -> lru_state.
Variable rank : qkey -> nat.
Hypothesis Hrank : calls_below (tprog uprog) rank.
Variable NF : nat.
Hypothesis Hbound : forall q, (rank q < NF)%nat.
Variable sfuel : nat.
(* flat mode: restored memos whose dependencies were flattened away are allowed, all
   durabilities are LOW; otherwise every memo records its direct reads *)
Variable fm : bool.
Let prog : qkey -> CM.body := tprog uprog.
Notation DInv := (DInv prog NF fm).
Notation OK := (OK uprog NF fm).
Notation OK_d := (OK_d uprog NF fm).

Definition state_ok (dirty : bool) (s : db) : Prop :=
  (if dirty then OK_d s else OK s) /\ d_stack s = [].

(* a Get: the from-scratch value or an allowed panic; the database stays ok, inputs and cells
   are untouched *)
Lemma get_ok fuel s q :
  (forall p, (rank p < fuel)%nat) -> OK s -> d_stack s = [] ->
  let r := fetch uprog noeq (level uprog noeq fuel) q s in
  (match snd r with
   | POk (v, _, _) => v = Spec.eval uprog NF (Spec.snap_of s) q /\ OK (fst r) /\ d_stack (fst r) = []
   | PPanic p => dallowed s p /\ OK (set_stack (fst r) [])
   | PFuel => False
   end) /\ d_in (fst r) = d_in s /\ d_cell (fst r) = d_cell s.
Proof.
  intros Hfuel (H & D & F & HI) Hst. cbn zeta.
  destruct (dlevel_ok uprog noeq rank Hrank NF Hbound fm H D F fuel) as [HF HM].
  assert (Hso : stack_ok rank s q) by (intros p Hp; rewrite Hst in Hp; destruct Hp).
  assert (Hq : (rank q <= fuel)%nat) by (specialize (Hfuel q); lia).
  pose proof (fetch_ok uprog noeq rank Hrank NF Hbound fm H D F (level uprog noeq fuel) fuel HF HM q s Hq HI Hso) as Hwp.
  unfold wp in Hwp.
  destruct (fetch uprog noeq (level uprog noeq fuel) q s) as [s' [[[v d] c] | p |]] eqn:Hf; cbn [fst snd].
  - destruct Hwp as (HI' & He & _ & Hs' & Hv & _). cbn [fst snd] in Hv.
    split; [|split; [apply (ext_in _ _ _ _ _ _ _ He) | apply (ext_cell _ _ _ _ _ _ _ He)]].
    split.
    + rewrite Hv. unfold Inv.E.
      rewrite <- (eval_tb uprog NF (Spec.snap_of s) q). rewrite <- csnap_snap_of.
      exact (Salsa.Core.InvTop.eval_snap_eq (tprog uprog) _ _ (DInv_snap uprog NF fm H D F s HI) NF q).
    + split; [exists H, D, F; exact HI' | congruence].
  - destruct Hwp as (Ha & HI' & He).
    split; [|split; [apply (ext_in _ _ _ _ _ _ _ He) | apply (ext_cell _ _ _ _ _ _ _ He)]].
    split; [exact Ha|].
    exists H, D, F. apply (DInv_core_eq prog NF fm H D F s'); [repeat split | exact HI'].
  - destruct Hwp.
Qed.

Lemma run_facts_ok : Run.run_facts uprog noeq rank NF (fm = true) OK OK_d.
Proof.
  exact {|
    Run.rf_to_d := OK_to_d uprog NF fm;
    Run.rf_inputs := OK_d_inputs uprog NF fm;
    Run.rf_advance := fun s s' Hok Hrc Hrv Hlc Hins Hd3 Hlow Hev =>
      OK_advance_gen uprog rank Hrank NF fm s s' Hok Hrc Hrv Hlc Hins Hd3 Hlow (evicted_sub_sim _ _ Hev);
    Run.rf_d_same := fun s s' Hok Hr Hi Hev =>
      OK_d_same uprog rank Hrank NF fm s s' Hok Hr Hi (evicted_sub_sim _ _ Hev);
    Run.rf_same := fun s s' Hok Hr Hi Hc Hev =>
      OK_same uprog rank Hrank NF fm s s' Hok Hr Hi Hc (evicted_sub_sim _ _ Hev);
    Run.rf_revs := OK_revs uprog rank Hrank NF fm;
    Run.rf_get := get_ok |}.
Qed.

(* ---------------------------------------------------------------- restore (snapshot s), flat mode *)
(* Any program, any choice of persisted functions; all durabilities LOW.  The dependencies
   that the snapshot flattened away become virtual observers at the revision their memos were
   verified at. *)
Section Flat.
Hypothesis Hfm : fm = true.
Hypothesis Hsfuel : forall p, (S (rank p) < sfuel)%nat.
Notation good := (good prog NF fm).
Notation obs_ok := (obs_ok prog NF).
Notation dmemo_ok := (dmemo_ok prog NF fm).

Lemma good_subst H D s s2 L L' v0 v d :
  (forall g w k, obs_ok H D s g w k -> obs_ok H D s2 g w k) -> cur s <= cur s2 -> v <= v0 ->
  (forall i, In (EIn i) L -> In (EIn i) L') ->
  (forall e, In (EQ e) L -> ~ In (EQ e) L' -> good H D s2 L' v e) ->
  good H D s L v0 d -> good H D s2 L' v d.
Proof.
  intros Hot Hc Hv Hin Hfn Hg. induction Hg as [d a k Hf Hk Ha Hd | d rho k Ho Hv0 Hu Hi Hq IH].
  - apply (good_never prog NF fm H D s2 L' v d a k Hf Hk); [lia | exact Hd].
  - apply (good_exp prog NF fm H D s2 L' v d rho k); auto; [lia|].
    intros d' Hd' Hn. destruct (edge_in_dec (EQ d') L) as [HinL | HnL].
    + apply Hfn; assumption.
    + apply IH; assumption.
Qed.

Section OneState.
Variables (H : hist) (D : dhist) (F : ghost) (s s2 : db).
Hypothesis HIm : forall g mg, d_memo s g = Some mg -> dmemo_ok H D F s g mg.
Hypothesis Hot : forall g w k, obs_ok H D s g w k -> obs_ok H D s2 g w k.
Hypothesis Hc2 : cur s2 = cur s.
Hypothesis Hm2 : d_memo s2 = snap_memo pfam (d_memo s) sfuel.
Let mm := d_memo s.

Let edge_rank : forall g m c, mm g = Some m -> In (EQ c) (m_edges m) -> (rank c < rank g)%nat.
Proof.
  intros g m c Hm Hc. apply (reach_rank prog rank Hrank).
  apply (mo_edges_reach _ _ _ _ _ _ _ _ _ (HIm g m Hm) c Hc).
Qed.

Section OneMemo.
Variables (q : qkey) (m : memo).
Hypothesis Hm : mm q = Some m.
Let L := m_edges m.
Let v := m_verified m.
Let out := fst (flatten_full pfam mm sfuel L).
Let vis := snd (flatten_full pfam mm sfuel L).

Let Hes : forall e, In e L -> (erank rank e < sfuel)%nat.
Proof. intros e _. destruct e as [i|c]; cbn; [specialize (Hsfuel q); lia | apply Hsfuel]. Qed.

Let Hcut := flatten_closed pfam mm rank edge_rank sfuel L Hes.

Let Hvis_memo g : In (EQ g) vis -> exists mg, mm g = Some mg.
Proof.
  intros Hg. destruct Hcut as (V & _ & _). destruct (V _ Hg) as (g' & mg & E0 & Hmg).
  injection E0 as <-. exists mg. exact Hmg.
Qed.

(* no expanded dependency had untracked reads *)
Hypothesis Hvt : forall g mg, In (EQ g) vis -> mm g = Some mg -> m_untracked mg = false.

Lemma exp_good : forall n g mg, (rank g < n)%nat -> In (EQ g) vis -> mm g = Some mg ->
  v <= m_verified mg -> good H D s2 out v g.
Proof.
  induction n as [|n IH]; intros g mg Hn Hg Hmg Hvg; [inversion Hn|].
  pose proof (HIm g mg Hmg) as Hok.
  pose proof (mo_order _ _ _ _ _ _ _ _ _ Hok) as (O1 & O2 & O3).
  destruct (N.eq_dec (m_dur mg) 0) as [Hz | Hnz].
  2:{ (* a durability above LOW: in flat mode g reads no input at all *)
      apply (good_never prog NF fm H D s2 out v g (m_verified mg) (m_dur mg) Hfm); [lia | lia|].
      apply (mo_durge _ _ _ _ _ _ _ _ _ Hok). }
  destruct Hcut as (V & C & Cov).
  assert (Hedge : forall e, In e (m_edges mg) ->
            match e with
            | EIn i => In (EIn i) out
            | EQ e' => ~ In (EQ e') out -> good H D s2 out v e'
            end).
  { intros e He. pose proof (C g mg Hg (fun F => F) Hmg e He) as Hcv.
    destruct e as [i | e'].
    - destruct Hcv as [Ho | Hv]; [exact Ho|]. destruct (V _ Hv) as (g' & mg' & E0 & _). discriminate.
    - intros Hn'. destruct Hcv as [Ho | Hv]; [contradiction|].
      destruct (Hvis_memo e' Hv) as (me & Hme).
      apply (IH e' me); [pose proof (edge_rank g mg e' Hmg He); lia | exact Hv | exact Hme|].
      pose proof (mo_sync _ _ _ _ _ _ _ _ _ Hok Hz e' me He Hme). lia. }
  apply (good_exp prog NF fm H D s2 out v g (m_verified mg) (m_dur mg)).
  - apply Hot. apply (obs_of_memo prog NF fm H D F s g mg Hok).
  - exact Hvg.
  - intros x Hx Hux. pose proof (mo_reads_cell _ _ _ _ _ _ _ _ _ Hok x Hx Hux) as A.
    pose proof (Hvt g mg Hg Hmg). congruence.
  - intros i Hi. apply (Hedge _ (mo_in _ _ _ _ _ _ _ _ _ Hok i Hi)).
  - intros d' Hd' Hn'. destruct (edge_in_dec (EQ d') (m_edges mg)) as [HinL | HnL].
    + apply (Hedge _ HinL). exact Hn'.
    + apply (good_subst H D s s2 (m_edges mg) out (m_verified mg) v d' Hot); [lia | exact Hvg | | |].
      * intros i Hi. apply (Hedge _ Hi).
      * intros e He Hne. apply (Hedge _ He). exact Hne.
      * apply (mo_q _ _ _ _ _ _ _ _ _ Hok (Hvt g mg Hg Hmg) d' Hd' HnL).
Qed.

Lemma flat_reach g : In (EQ g) out -> reach prog q g.
Proof.
  intros Hg. destruct (flatten_under pfam mm sfuel L) as [Uo _]. specialize (Uo _ Hg).
  assert (G : forall e, under mm L e -> forall g0, e = EQ g0 -> reach prog q g0).
  { intros e Hu. induction Hu as [e He | g1 m1 e Hu IH Hm1 He]; intros g0 ->.
    - apply (mo_edges_reach _ _ _ _ _ _ _ _ _ (HIm q m Hm) g0 He).
    - eapply reach_trans; [apply (IH g1 eq_refl)|].
      apply (mo_edges_reach _ _ _ _ _ _ _ _ _ (HIm g1 m1 Hm1) g0 He). }
  apply (G _ Uo g eq_refl).
Qed.

End OneMemo.

(* the serialised memo of q, in the restored database *)
Lemma flat_edges_ok q m' : d_memo s2 q = Some m' -> edges_ok uprog NF fm H D s2 q m'.
Proof.
  rewrite Hm2. unfold snap_memo. fold mm.
  destruct (mm q) as [m|] eqn:Hm; [|discriminate].
  destruct (m_val m) as [x|] eqn:Hx; [|discriminate].
  destruct (pfam (fst q)) eqn:Hp; [|discriminate]. intros E0. injection E0 as <-.
  pose proof (HIm q m Hm) as Hok.
  pose proof (mo_order _ _ _ _ _ _ _ _ _ Hok) as (O1 & O2 & O3).
  set (L := m_edges m). set (L' := flatten pfam mm sfuel L).
  assert (Hes : forall e, In e L -> (erank rank e < sfuel)%nat).
  { intros e _. destruct e as [i|c]; cbn; [specialize (Hsfuel q); lia | apply Hsfuel]. }
  destruct (flatten_closed pfam mm rank edge_rank sfuel L Hes) as (V & C & Cov).
  assert (Hcov_in : forall i, In (EIn i) L -> In (EIn i) L').
  { intros i Hi. destruct (Cov _ Hi) as [Ho | Hv]; [exact Ho|].
    destruct (V _ Hv) as (g' & mg & E0 & _). discriminate. }
  constructor; cbn [m_verified m_edges m_untracked m_dur].
  - intros i Hi. apply Hcov_in. apply (mo_in _ _ _ _ _ _ _ _ _ Hok i Hi).
  - intros Hu d Hd Hn. apply orb_false_iff in Hu. destruct Hu as [Hu Hlost].
    assert (Hvt : forall g mg, In (EQ g) (snd (flatten_full pfam mm sfuel L)) -> mm g = Some mg ->
              m_untracked mg = false).
    { intros g mg Hg Hmg. destruct (m_untracked mg) eqn:Hug; [|reflexivity].
      unfold lost_untracked in Hlost. fold mm L in Hlost.
      assert (X : existsb (fun e => match e with
                                    | EQ g => match mm g with Some m => m_untracked m | None => false end
                                    | EIn _ => false
                                    end) (snd (flatten_full pfam mm sfuel L)) = true).
      { apply existsb_exists. exists (EQ g). split; [exact Hg|]. rewrite Hmg. exact Hug. }
      congruence. }
    destruct (N.eq_dec (m_dur m) 0) as [Hz | Hnz].
    2:{ (* a durability above LOW: in flat mode d reads no input at all *)
        apply (good_never prog NF fm H D s2 L' (m_verified m) d (m_verified m) (m_dur m) Hfm); [lia | lia|].
        apply (durge_q _ _ _ _ _ _ _ _ (mo_durge _ _ _ _ _ _ _ _ _ Hok) Hd). }
    assert (Hedge : forall e, In (EQ e) L -> ~ In (EQ e) L' -> good H D s2 L' (m_verified m) e).
    { intros e He Hne. destruct (Cov _ He) as [Ho | Hv]; [contradiction|].
      destruct (V _ Hv) as (g' & me & E0 & Hme). injection E0 as <-.
      apply (exp_good q m Hvt (S (rank e)) e me (le_n _) Hv Hme).
      apply (mo_sync _ _ _ _ _ _ _ _ _ Hok Hz e me He Hme). }
    destruct (edge_in_dec (EQ d) L) as [HinL | HnL].
    + apply Hedge; assumption.
    + apply (good_subst H D s s2 L L' (m_verified m) (m_verified m) d Hot); [lia | lia | exact Hcov_in | exact Hedge|].
      apply (mo_q _ _ _ _ _ _ _ _ _ Hok Hu d Hd HnL).
  - intros y Hy Huy. rewrite (mo_reads_cell _ _ _ _ _ _ _ _ _ Hok y Hy Huy). reflexivity.
  - intros g Hg. apply (flat_reach q m Hm g Hg).
  - left. exact Hfm.
  - intros Hz d md' Hd Hmd'. rewrite Hm2 in Hmd'. unfold snap_memo in Hmd'. fold mm in Hmd'.
    destruct (mm d) as [md|] eqn:Hmd; [|discriminate].
    destruct (m_val md); [|discriminate]. destruct (pfam (fst d)); [|discriminate].
    injection Hmd' as <-. cbn.
    destruct (flatten_fn pfam mm sfuel L d Hd) as [HinL | Hnone]; [|congruence].
    apply (mo_sync _ _ _ _ _ _ _ _ _ Hok Hz d md HinL Hmd).
Qed.

End OneState.

(* the transfer, for a target s2 that has the restored memo table and the revisions and inputs of s *)
Lemma restore_transfer H D F s s2 :
  DInv_d uprog NF fm H D F s ->
  d_revs s2 = d_revs s -> d_in s2 = d_in s -> d_memo s2 = snap_memo pfam (d_memo s) sfuel ->
  (forall c, sn_cell (H (cur s2)) c = d_cell s2 c) ->
  DInv H D (lift s F) s2.
Proof.
  intros HI Hr Hi Hmm Hcell.
  destruct (DInv_d_facts uprog NF fm H D F s HI) as (Hcur1 & Hrvs & Hmver & HinH & HinD & Hinle & HD3 & Hstab & HlowD & Hlowrev).
  assert (Hc : cur s2 = cur s) by (unfold cur; rewrite Hr; reflexivity).
  assert (Hcle : cur s <= cur s2) by lia.
  assert (Hlc : forall k, lcs s k <= lcs s2 k) by (intros k; unfold lcs; rewrite Hr; lia).
  assert (Hsub : sub_core (d_memo s) (d_memo s2)) by (rewrite Hmm; apply (snapshot_sub_core pfam sfuel)).
  assert (Hpast : forall r, r <= cur s -> H r = H r /\ forall i, D r i = D r i) by (intros; split; reflexivity).
  assert (Hstamp : forall i, f_changed (d_in s i) <= f_changed (d_in s2 i)) by (intros i; rewrite Hi; lia).
  assert (HIm : forall g mg, d_memo s g = Some mg -> dmemo_ok H D F s g mg).
  { intros g mg Hg. apply (dmemo_ok_same prog NF fm H D F (set_cell s (sn_cell (H (cur s))))); [reflexivity | reflexivity | reflexivity|].
    apply (inv_memo _ _ _ _ _ _ _ HI g mg Hg). }
  apply (DInv_transfer uprog rank Hrank NF fm H D F H D s s2 HI Hcle Hlc Hsub Hpast Hstamp); rewrite ?Hc, ?Hi, ?Hr; auto.
  - intros q m' Hm'.
    apply (flat_edges_ok H D F s s2 HIm (obs_transfer uprog NF fm H D F H D s s2 HI Hcle Hlc Hsub Hpast) Hc Hmm q m' Hm').
  - rewrite <- Hc. exact Hcell.
  - intros r i Hlt Hl. apply Hstab; [exact Hlt|]. unfold lcs in *. rewrite Hr in Hl. exact Hl.
  - intros Hf k Hk. specialize (Hlowrev Hf k Hk). unfold lcs in *. rewrite Hr. exact Hlowrev.
Qed.

Theorem restore_flat_ok s ext :
  OK_d s -> d_stack s = [] ->
  state_ok true (restore (snapshot pfam sfuel s) ext lru0).
Proof.
  intros (H & D & F & HI) Hst. split; [|reflexivity].
  exists H, D, (lift s F). unfold DInv_d.
  apply (restore_transfer H D F s _ HI); [reflexivity | reflexivity | reflexivity | intros c; reflexivity].
Qed.

Theorem restore_flat_ok_clean s ext :
  OK s -> d_stack s = [] -> d_cell ext = d_cell s ->
  state_ok false (restore (snapshot pfam sfuel s) ext lru0).
Proof.
  intros (H & D & F & HI) Hst Hce. split; [|reflexivity].
  exists H, D, (lift s F).
  apply (restore_transfer H D F s _ (DInv_to_d uprog NF fm H D F s HI)); [reflexivity | reflexivity | reflexivity|].
  intros c. cbn. rewrite Hce. apply (inv_cell _ _ _ _ _ _ _ HI).
Qed.

End Flat.

(* ---------------------------------------------------------------- the run *)
(* [Run.restore_good] for this invariant; proved in Section Flat when [fm = true] *)
Definition restore_good : Prop :=
  (forall s ext, OK_d s -> d_stack s = [] -> state_ok true (restore (snapshot pfam sfuel s) ext lru0)) /\
  (forall s ext, OK s -> d_stack s = [] -> d_cell ext = d_cell s ->
                 state_ok false (restore (snapshot pfam sfuel s) ext lru0)).

Lemma init_ok iv idur :
  (forall i, idur i <= 3) -> (fm = true -> forall i, idur i = 0) ->
  Run.pstate_ok pfam sfuel OK OK_d false false (pinit iv idur lru0).
Proof.
  intros Hid Hlow. split; [|split; [discriminate | intros img Hi; discriminate]].
  split; [|reflexivity].
  exists (fun _ => csnap (init iv idur lru0)), (fun _ => idur), (fun _ => None).
  constructor.
  - cbn. unfold REV_START. lia.
  - cbn. unfold revs_ok, REV_START; cbn. lia.
  - intros i r _ _. reflexivity.
  - intros i r _ _. reflexivity.
  - intros i. cbn. unfold REV_START. lia.
  - intros c. reflexivity.
  - intros r i. apply Hid.
  - intros r i _ _. split; reflexivity.
  - intros q m Hm. discriminate.
  - intros d rho c _ HF. discriminate.
  - intros Hf r i. apply (Hlow Hf).
  - intros Hf k Hk. unfold lcs, init; cbn.
    destruct (lc_cases {| r_cur := REV_START; r_med := REV_START; r_high := REV_START |} k)
      as [[-> E0] | [[-> E0] | [[-> E0] | [Hk3 E0]]]]; rewrite E0; cbn; unfold REV_START; lia.
Qed.

Lemma restore_good_flat : fm = true -> (forall p, (S (rank p) < sfuel)%nat) -> restore_good.
Proof.
  intros Hf Hs. split.
  - intros s ext. apply restore_flat_ok; assumption.
  - intros s ext. apply restore_flat_ok_clean; assumption.
Qed.

End Top.

(* ---------------------------------------------------------------- in the terms of Statement.v *)
Section Final.
Variable prog : qkey -> body.
Variable noeq : qkey -> bool.
Variable pfam : N -> bool.
Variable fams : list N.
Variable lru0 : N -> lru_state.
Variable rank : qkey -> nat.
Hypothesis Hrank : Spec.calls_below prog rank.
Variable NF : nat.
Hypothesis Hbound : forall q, (rank q < NF)%nat.

(* histories with snapshots AND restores, EVERY program and choice of persisted functions
   (dependencies are flattened away to any depth), when all durabilities are LOW *)
Theorem results_low_strict fuel sfuel :
  (forall p, (rank p < fuel)%nat) -> (forall p, (S (rank p) < sfuel)%nat) ->
  forall iv ops,
    Forall Statement.low_op ops -> Statement.wf_ops false false ops ->
    Statement.known_class_free prog noeq pfam fams lru0 sfuel fuel (pinit iv (fun _ => 0) lru0) ops ->
    Statement.results_ok_strict prog noeq pfam fams lru0 NF sfuel fuel (pinit iv (fun _ => 0) lru0) ops.
Proof.
  intros Hfuel Hsfuel iv ops Hlow Hwf Hk.
  assert (Hdur : Forall Statement.dur_op ops).
  { apply Forall_forall. intros o Ho. rewrite Forall_forall in Hlow. specialize (Hlow o Ho).
    destruct o as [i v [d|] | d | | | | | | |]; cbn in *; try exact I. lia. }
  assert (Hl : Forall (Run.low_op (true = true)) ops).
  { apply Forall_forall. intros o Ho _. rewrite Forall_forall in Hlow. specialize (Hlow o Ho).
    destruct o as [i v [d|] | d | | | | | | |]; cbn in *; auto. }
  pose proof (calls_below_tb prog rank Hrank) as Hr.
  apply (Run.results_general prog noeq pfam fams lru0 rank NF sfuel (true = true) _ _
           (run_facts_ok prog noeq rank Hr NF Hbound true) fuel Hfuel ops false false _ Hdur Hl Hwf);
    [intros _; exact (restore_good_flat prog pfam lru0 rank Hr NF sfuel true eq_refl Hsfuel) | | exact Hk].
  apply init_ok; [intros i; lia | intros _ i; reflexivity].
Qed.

(* ... and in the terms of the full statement (any panic of the base model allowed) *)
Theorem results_no_restore fuel sfuel :
  (forall p, (rank p < fuel)%nat) ->
  forall iv idur ops,
    (forall i, idur i <= 3) -> Forall Statement.dur_op ops -> Statement.wf_ops false false ops ->
    ~ In ORestore ops ->
    Statement.known_class_free prog noeq pfam fams lru0 sfuel fuel (pinit iv idur lru0) ops ->
    Statement.results_ok prog noeq pfam fams lru0 NF sfuel fuel (pinit iv idur lru0) ops.
Proof. exact (PTop.results_no_restore prog noeq pfam fams lru0 rank Hrank NF Hbound fuel sfuel). Qed.

Theorem results_closed fuel sfuel :
  (forall p, (rank p < fuel)%nat) ->
  Statement.persisted_closed prog pfam ->
  forall iv idur ops,
    (forall i, idur i <= 3) -> Forall Statement.dur_op ops -> Statement.wf_ops false false ops ->
    Statement.known_class_free prog noeq pfam fams lru0 sfuel fuel (pinit iv idur lru0) ops ->
    Statement.results_ok prog noeq pfam fams lru0 NF sfuel fuel (pinit iv idur lru0) ops.
Proof. exact (PTop.results_closed prog noeq pfam fams lru0 rank Hrank NF Hbound fuel sfuel). Qed.

Theorem results_low fuel sfuel :
  (forall p, (rank p < fuel)%nat) -> (forall p, (S (rank p) < sfuel)%nat) ->
  forall iv ops,
    Forall Statement.low_op ops -> Statement.wf_ops false false ops ->
    Statement.known_class_free prog noeq pfam fams lru0 sfuel fuel (pinit iv (fun _ => 0) lru0) ops ->
    Statement.results_ok prog noeq pfam fams lru0 NF sfuel fuel (pinit iv (fun _ => 0) lru0) ops.
Proof.
  intros Hfuel Hsfuel iv ops Hlow Hwf Hk. apply Statement.results_ok_of_strict.
  apply (results_low_strict fuel sfuel Hfuel Hsfuel iv ops Hlow Hwf Hk).
Qed.

End Final.
