(* Persist/ProofsFlatten.v — the flattening of non-persisted dependencies
   (collect_minimum_serialized_edges) covers them.

   [flatten_closed]  structural: after flattening the edges of a memo, every original edge is
                     either serialised directly or was expanded ("visited"), and every expanded
                     dependency has all ITS edges serialised or expanded: the serialised edges are
                     a cut of the dependency graph below the memo.
   [flatten_sound]   hence: if every serialised edge is unchanged since r (inputs: stamp; kept
                     function edges: their whole recorded support), and no expanded dependency
                     had untracked reads ([lost_untracked] = false), then every ORIGINAL edge has
                     an unchanged recorded support since r.
   [snap_memo_tracked]  the side condition holds of every memo that a snapshot serialises with a
                     tracked origin: a memo that lost an untracked dependency is serialised as
                     untracked. *)
From Salsa Require Import Base.
From Salsa.Kern Require Import CoreK.
From Salsa.Persist Require Import Model.

Lemma edge_eqb_eq a b : edge_eqb a b = true <-> a = b.
Proof.
  destruct a as [i|p], b as [j|q]; cbn; try (split; congruence).
  - rewrite key_eqb_eq; split; congruence.
  - rewrite key_eqb_eq; split; congruence.
Qed.

Lemma edge_eq_dec (a b : edge) : {a = b} + {a <> b}.
Proof.
  destruct (edge_eqb a b) eqn:E.
  - left; now apply edge_eqb_eq.
  - right; intros H; apply edge_eqb_eq in H; congruence.
Qed.

Lemma mem_edge_In e l : mem_edge e l = true <-> In e l.
Proof.
  unfold mem_edge. rewrite existsb_exists. split.
  - intros (x & Hx & E). apply edge_eqb_eq in E. now subst.
  - intros H. exists e. split; [exact H | now apply edge_eqb_eq].
Qed.

Lemma In_add_edge x l e : In x (add_edge l e) <-> In x l \/ x = e.
Proof.
  unfold add_edge. change (existsb (edge_eqb e) l) with (mem_edge e l).
  destruct (mem_edge e l) eqn:M.
  - apply mem_edge_In in M. split; [tauto|]. intros [H|H]; [assumption | now subst].
  - rewrite in_app_iff. cbn. split.
    + intros [H|[H|[]]]; [now left | right; now symmetry].
    + intros [H|H]; [now left | right; left; now symmetry].
Qed.

Section Collect.
Variable pfam : N -> bool.
Variable mm : qkey -> option memo.

Definition cstep (fuel : nat) (acc : list edge * list edge) (e2 : edge) : list edge * list edge :=
  if mem_edge e2 (snd acc) then acc
  else if mem_edge e2 (fst acc) then acc
  else collect mm fuel e2 acc.

Lemma collect_S fuel e acc :
  collect mm (S fuel) e acc =
  match e with
  | EIn _ => (add_edge (fst acc) e, snd acc)
  | EQ g => match mm g with
            | None => (add_edge (fst acc) e, snd acc)
            | Some m => fold_left (cstep fuel) (m_edges m) (fst acc, e :: snd acc)
            end
  end.
Proof. reflexivity. Qed.

(* One induction for every property of the form "all serialised edges satisfy A, all expanded
   dependencies satisfy B": it is enough that an edge waiting to be looked at (Pnd) satisfies A
   when it is serialised (an input, a function without memo) and, when it is expanded, satisfies
   B and hands Pnd on to the edges of its memo. *)
Section AccInv.
Variables A B Pnd : edge -> Prop.
Hypothesis leaf_in : forall i, Pnd (EIn i) -> A (EIn i).
Hypothesis leaf_none : forall g, Pnd (EQ g) -> mm g = None -> A (EQ g).
Hypothesis expand : forall g m, Pnd (EQ g) -> mm g = Some m ->
  B (EQ g) /\ forall e2, In e2 (m_edges m) -> Pnd e2.

Definition acc_ok (acc : list edge * list edge) : Prop :=
  (forall x, In x (fst acc) -> A x) /\ (forall x, In x (snd acc) -> B x).

Lemma acc_add acc e : acc_ok acc -> A e -> acc_ok (add_edge (fst acc) e, snd acc).
Proof.
  intros [Ha Hb] He. split; [|exact Hb].
  intros x Hx. apply In_add_edge in Hx. destruct Hx as [Hx | ->]; [apply Ha; exact Hx | exact He].
Qed.

Lemma collect_acc fuel : forall e acc, Pnd e -> acc_ok acc -> acc_ok (collect mm fuel e acc).
Proof.
  induction fuel as [|fuel IH]; intros e acc He Ha; [exact Ha|].
  rewrite collect_S. destruct e as [i|g]; [apply acc_add; auto|].
  destruct (mm g) as [m|] eqn:Hg; [|apply acc_add; auto].
  destruct (expand g m He Hg) as [Hb Hes].
  assert (G : forall es acc0, (forall e2, In e2 es -> Pnd e2) -> acc_ok acc0 ->
            acc_ok (fold_left (cstep fuel) es acc0)).
  { induction es as [|e2 es IHes]; intros acc0 Hes0 Ha0; [exact Ha0|]. cbn [fold_left].
    apply IHes; [intros x Hx; apply Hes0; now right|]. unfold cstep.
    destruct (mem_edge e2 (snd acc0)); [exact Ha0|]. destruct (mem_edge e2 (fst acc0)); [exact Ha0|].
    apply IH; [apply Hes0; now left | exact Ha0]. }
  apply G; [exact Hes|]. split; [exact (proj1 Ha)|].
  intros x [<- | Hx]; [exact Hb | apply (proj2 Ha); exact Hx].
Qed.

(* the whole origin: its inputs and persisted functions are serialised, the others wait *)
Lemma flatten_acc fuel edges :
  (forall i, In (EIn i) edges -> A (EIn i)) ->
  (forall q, In (EQ q) edges -> if pfam (fst q) then A (EQ q) else Pnd (EQ q)) ->
  acc_ok (flatten_full pfam mm fuel edges).
Proof.
  intros Hi Hq. unfold flatten_full.
  assert (G : forall es acc, (forall e, In e es -> In e edges) -> acc_ok acc ->
            acc_ok (fold_left (flatten_step pfam mm fuel) es acc)).
  { induction es as [|e es IHes]; intros acc Hes Ha; [exact Ha|]. cbn [fold_left].
    apply IHes; [intros x Hx; apply Hes; now right|].
    pose proof (Hes e (or_introl eq_refl)) as He. unfold flatten_step.
    destruct e as [i|q]; [apply acc_add; auto|].
    specialize (Hq q He). destruct (pfam (fst q)); [apply acc_add; auto | apply collect_acc; auto]. }
  apply G; [auto | split; intros x []].
Qed.

End AccInv.

End Collect.

Section Flatten.
Variable pfam : N -> bool.
Variable mm : qkey -> option memo.
Variable rank : qkey -> nat.
(* the memo graph is acyclic (a recorded function edge may point to a function WITHOUT memo: the
   dependency is then kept as an edge) *)
Hypothesis edge_rank : forall g m c, mm g = Some m -> In (EQ c) (m_edges m) -> (rank c < rank g)%nat.

Definition erank (e : edge) : nat := match e with EIn _ => O | EQ g => S (rank g) end.

Definition covered (out vis : list edge) (e : edge) : Prop := In e out \/ In e vis.
Definition vis_ok (vis : list edge) : Prop := forall e, In e vis -> exists g m, e = EQ g /\ mm g = Some m.
(* every expanded dependency outside X has all its edges covered *)
Definition closedX (X out vis : list edge) : Prop :=
  forall g m, In (EQ g) vis -> ~ In (EQ g) X -> mm g = Some m ->
              forall e2, In e2 (m_edges m) -> covered out vis e2.

Lemma covered_mono out vis out' vis' e :
  incl out out' -> incl vis vis' -> covered out vis e -> covered out' vis' e.
Proof. intros A B [H|H]; [left; now apply A | right; now apply B]. Qed.

Notation cstep := (cstep mm).

Definition step_closed (X : list edge) (f : list edge * list edge -> edge -> list edge * list edge)
    (e : edge) : Prop :=
  forall out vis, vis_ok vis -> closedX X out vis ->
    let a := f (out, vis) e in
    incl out (fst a) /\ incl vis (snd a) /\ vis_ok (snd a) /\ closedX X (fst a) (snd a) /\
    covered (fst a) (snd a) e.

Lemma fold_closed X f : forall es, (forall e, In e es -> step_closed X f e) ->
  forall out vis, vis_ok vis -> closedX X out vis ->
    let r := fold_left f es (out, vis) in
    incl out (fst r) /\ incl vis (snd r) /\ vis_ok (snd r) /\ closedX X (fst r) (snd r) /\
    (forall e, In e es -> covered (fst r) (snd r) e).
Proof.
  induction es as [|e es IHes]; intros Hes out vis Hv Hc; cbn [fold_left].
  - cbn. repeat split; try apply incl_refl; try assumption. intros e2 [].
  - pose proof (Hes e (or_introl eq_refl) out vis Hv Hc) as Hstep.
    destruct (f (out, vis) e) as [out1 vis1]. cbn [fst snd] in Hstep.
    destruct Hstep as (I1 & I2 & V1 & C1 & Cov1).
    destruct (IHes (fun e2 He2 => Hes e2 (or_intror He2)) out1 vis1 V1 C1) as (J1 & J2 & V2 & C2 & Cov2).
    repeat split.
    + eapply incl_tran; eauto.
    + eapply incl_tran; eauto.
    + exact V2.
    + exact C2.
    + intros e2 [<-|He2]; [eapply covered_mono; eauto | now apply Cov2].
Qed.

Lemma add_closed X e : step_closed X (fun acc e => (add_edge (fst acc) e, snd acc)) e.
Proof.
  intros out vis Hv Hc. cbn [fst snd]. repeat split.
  - intros x Hx. apply In_add_edge. now left.
  - apply incl_refl.
  - exact Hv.
  - intros g m Hg HX Hmg e2 He2. eapply covered_mono; [| apply incl_refl | exact (Hc g m Hg HX Hmg e2 He2)].
    intros x Hx. apply In_add_edge. now left.
  - left. apply In_add_edge. now right.
Qed.

Definition collect_ok (fuel : nat) : Prop :=
  forall e X, (erank e < fuel)%nat -> step_closed X (fun acc e => collect mm fuel e acc) e.

Lemma cstep_closed fuel (IH : collect_ok fuel) X e : (erank e < fuel)%nat -> step_closed X (cstep fuel) e.
Proof.
  intros Hr out vis Hv Hc. unfold cstep. cbn [fst snd]. destruct (mem_edge e vis) eqn:M1.
  - cbn. repeat split; try apply incl_refl; try assumption. right. now apply mem_edge_In.
  - destruct (mem_edge e out) eqn:M2.
    + cbn. repeat split; try apply incl_refl; try assumption. left. now apply mem_edge_In.
    + exact (IH e X Hr out vis Hv Hc).
Qed.

Lemma collect_ok_all fuel : collect_ok fuel.
Proof.
  induction fuel as [|fuel IH]; intros e X Hr out vis Hv Hc; [lia|].
  cbn beta. rewrite collect_S. cbn [fst snd]. destruct e as [i|g]; [exact (add_closed X _ out vis Hv Hc)|].
  destruct (mm g) as [m|] eqn:Hg; [|exact (add_closed X _ out vis Hv Hc)].
  assert (Hv' : vis_ok (EQ g :: vis)).
  { intros e [<-|He]; [exists g, m; now split | now apply Hv]. }
  assert (Hc' : closedX (EQ g :: X) out (EQ g :: vis)).
  { intros g' m' Hg' HX Hmg' e2 He2.
    destruct Hg' as [E|Hg']; [exfalso; apply HX; left; exact E|].
    eapply covered_mono; [apply incl_refl | | apply (Hc g' m' Hg'); eauto].
    - intros x Hx. now right.
    - intros HX'. apply HX. now right. }
  destruct (fold_closed (EQ g :: X) (cstep fuel) (m_edges m)) with (out := out) (vis := EQ g :: vis)
    as (I1 & I2 & V & C & Cov); [| exact Hv' | exact Hc' |].
  { intros e2 He2. apply (cstep_closed fuel IH).
    destruct e2 as [i|c]; cbn; [cbn in Hr; lia|]. pose proof (edge_rank g m c Hg He2). cbn in Hr. lia. }
  repeat split.
  + exact I1.
  + intros x Hx. apply I2. now right.
  + exact V.
  + intros g' m' Hg' HX Hmg' e2 He2.
    destruct (edge_eq_dec (EQ g') (EQ g)) as [E|NE].
    * injection E as ->. rewrite Hg in Hmg'. injection Hmg' as <-. now apply Cov.
    * apply (C g' m' Hg'); [|exact Hmg'|exact He2]. intros [E|HX']; [apply NE; now symmetry | now apply HX].
  + right. apply I2. now left.
Qed.

(* ---------------------------------------------------------------- the whole origin *)
Theorem flatten_closed (fuel : nat) (edges : list edge) :
  (forall e, In e edges -> (erank e < fuel)%nat) ->
  let r := flatten_full pfam mm fuel edges in
  vis_ok (snd r) /\ closedX [] (fst r) (snd r) /\ (forall e, In e edges -> covered (fst r) (snd r) e).
Proof.
  intros Hes. unfold flatten_full.
  destruct (fold_closed [] (flatten_step pfam mm fuel) edges) with (out := @nil edge) (vis := @nil edge)
    as (_ & _ & V & C & Cov); [| intros e [] | intros g m [] | repeat split; assumption].
  intros e He out vis Hv Hc. unfold flatten_step. cbn [fst snd].
  destruct e as [i|q]; [exact (add_closed [] _ out vis Hv Hc)|].
  destruct (pfam (fst q)); [exact (add_closed [] _ out vis Hv Hc)|].
  exact (collect_ok_all fuel (EQ q) [] (Hes _ He) out vis Hv Hc).
Qed.

(* ---------------------------------------------------------------- unchanged supports *)
Variable din : ikey -> infield.
Variable r : rev.

(* the recorded support of a dependency has not changed since r (no untracked read in it) *)
Inductive ok_edge : edge -> Prop :=
| ok_in i : changed_after (f_changed (din i)) r = false -> ok_edge (EIn i)
| ok_q g m : mm g = Some m -> m_untracked m = false ->
             (forall e, In e (m_edges m) -> ok_edge e) -> ok_edge (EQ g).

Theorem flatten_sound (fuel : nat) (edges : list edge) :
  (forall e, In e edges -> (erank e < fuel)%nat) ->
  lost_untracked pfam mm fuel edges = false ->
  (forall x, In x (flatten pfam mm fuel edges) -> ok_edge x) ->
  forall e, In e edges -> ok_edge e.
Proof.
  intros Hes Hlost Hout.
  destruct (flatten_closed fuel edges Hes) as (V & C & Cov).
  unfold flatten in Hout. unfold lost_untracked in Hlost.
  set (OUT := fst (flatten_full pfam mm fuel edges)) in *.
  set (VIS := snd (flatten_full pfam mm fuel edges)) in *.
  assert (Hvis : forall n g, (rank g < n)%nat -> In (EQ g) VIS -> ok_edge (EQ g)).
  { induction n as [|n IHn]; intros g Hr Hg; [lia|].
    destruct (V _ Hg) as (g' & m & E & Hm). injection E as <-.
    apply (ok_q g m Hm).
    - destruct (m_untracked m) eqn:U; [|reflexivity].
      assert (X : existsb (fun e => match e with
                                    | EQ g => match mm g with Some m => m_untracked m | None => false end
                                    | EIn _ => false
                                    end) VIS = true).
      { apply existsb_exists. exists (EQ g). split; [exact Hg|]. now rewrite Hm. }
      congruence.
    - intros e2 He2. destruct (C g m Hg (fun F => F) Hm e2 He2) as [Ho|Hv2]; [now apply Hout|].
      destruct (V _ Hv2) as (c & mc & -> & Hmc).
      apply IHn; [|exact Hv2]. pose proof (edge_rank g m c Hm He2). lia. }
  intros e He. destruct (Cov e He) as [Ho|Hv2]; [now apply Hout|].
  destruct (V _ Hv2) as (c & mc & -> & Hmc). apply (Hvis (S (rank c))); [lia | exact Hv2].
Qed.

(* A memo that the snapshot serialises with a TRACKED origin lost no untracked dependency: the
   side condition of [flatten_sound] holds of every such memo by construction. *)
Lemma snap_memo_tracked (fuel : nat) q m' :
  snap_memo pfam mm fuel q = Some m' -> m_untracked m' = false ->
  exists m, mm q = Some m /\ m_untracked m = false /\
            lost_untracked pfam mm fuel (m_edges m) = false /\
            m_edges m' = flatten pfam mm fuel (m_edges m) /\
            m_val m' = m_val m /\ m_verified m' = m_verified m /\ m_changed m' = m_changed m /\
            m_dur m' = m_dur m.
Proof.
  unfold snap_memo. destruct (mm q) as [m|]; [|discriminate].
  destruct (m_val m) eqn:Hv; [|discriminate]. destruct (pfam (fst q)); [|discriminate].
  intros E Hu. injection E as <-. cbn in Hu. apply orb_false_iff in Hu. destruct Hu as (Hu1 & Hu2).
  exists m. cbn. rewrite Hv. repeat split; assumption.
Qed.

(* ... hence the flattening lemma without side condition, for the memos of a real snapshot *)
Theorem flatten_sound_snapshot (fuel : nat) q m' :
  (forall p, (S (rank p) < fuel)%nat) ->
  snap_memo pfam mm fuel q = Some m' -> m_untracked m' = false ->
  (forall x, In x (m_edges m') -> ok_edge x) ->
  exists m, mm q = Some m /\ m_untracked m = false /\ forall e, In e (m_edges m) -> ok_edge e.
Proof.
  intros Hf Hs Hu Hok.
  destruct (snap_memo_tracked fuel q m' Hs Hu) as (m & Hm & Hum & Hl & He & _).
  exists m. split; [exact Hm|]. split; [exact Hum|].
  apply (flatten_sound fuel (m_edges m)); [| exact Hl | now rewrite <- He].
  intros e Hin.
  destruct e as [i|c]; cbn; [specialize (Hf q); lia | apply Hf].
Qed.

End Flatten.

(* ---------------------------------------------------------------- serialised origins *)
Section Persistable.
Variable pfam : N -> bool.

(* an edge that is serialised directly: an input field or a persisted function *)
Definition persistable (e : edge) : bool :=
  match e with EIn _ => true | EQ q => pfam (fst q) end.

Definition all_persistable (l : list edge) : Prop := forall e, In e l -> persistable e = true.

Lemma all_persistable_add l e : all_persistable l -> persistable e = true -> all_persistable (add_edge l e).
Proof. intros A B x Hx. apply In_add_edge in Hx. destruct Hx as [Hx| ->]; [now apply A | exact B]. Qed.

(* what a flattened origin consists of: edges that are serialised directly, and function
   dependencies that had NO memo when the origin was flattened (nothing covers them) *)
Definition kept (mm : qkey -> option memo) (e : edge) : Prop :=
  persistable e = true \/ exists g, e = EQ g /\ mm g = None.
Definition all_kept (mm : qkey -> option memo) (l : list edge) : Prop := forall e, In e l -> kept mm e.

(* every edge of a flattened origin is serialised directly, or had no memo ... *)
Theorem flatten_kept mm fuel edges : all_kept mm (flatten pfam mm fuel edges).
Proof.
  refine (proj1 (flatten_acc pfam mm (kept mm) (fun _ => True) (fun _ => True) _ _ _ fuel edges _ _)).
  - intros i _. now left.
  - intros g _ Hg. right. now exists g.
  - intros g m _ _. split; [exact I | intros; exact I].
  - intros i _. now left.
  - intros q _. destruct (pfam (fst q)) eqn:P; [left; exact P | exact I].
Qed.

(* ... and flattening an origin all of whose edges are serialised directly expands nothing *)
Lemma flatten_full_persistable mm fuel edges :
  all_persistable edges -> snd (flatten_full pfam mm fuel edges) = [].
Proof.
  unfold flatten_full.
  assert (G : forall es acc, all_persistable es -> snd acc = [] ->
            snd (fold_left (flatten_step pfam mm fuel) es acc) = []).
  { induction es as [|e es IHes]; intros acc Ha Hs; [exact Hs|]. cbn [fold_left]. apply IHes.
    - intros x Hx. apply Ha. now right.
    - pose proof (Ha e (or_introl eq_refl)) as Pe. unfold flatten_step. destruct e as [i|q]; [exact Hs|].
      cbn in Pe. rewrite Pe. exact Hs. }
  intros A. now apply G.
Qed.

(* serialising a restored memo again can not lose an untracked dependency when all its edges are
   serialised directly: whatever the memo tables are then, nothing is expanded.  (An edge kept for
   a dependency that had no memo is expanded by a later snapshot if the dependency has a memo
   then; if that memo is untracked the origin becomes untracked, as for any other memo.) *)
Theorem reserialise_loses_nothing mm' fuel' edges :
  all_persistable edges -> lost_untracked pfam mm' fuel' edges = false.
Proof.
  intros A. unfold lost_untracked. now rewrite (flatten_full_persistable mm' fuel' _ A).
Qed.

End Persistable.

(* flattening an origin all of whose edges are serialised directly keeps exactly its edges *)
Lemma flatten_In_persistable pfam mm fuel edges :
  all_persistable pfam edges -> forall e, In e (flatten pfam mm fuel edges) <-> In e edges.
Proof.
  unfold flatten, flatten_full. intros A.
  assert (G : forall es acc, all_persistable pfam es ->
            forall e, In e (fst (fold_left (flatten_step pfam mm fuel) es acc)) <-> In e (fst acc) \/ In e es).
  { induction es as [|x es IHes]; intros acc Ha e; cbn [fold_left]; [cbn; tauto|].
    rewrite IHes by (intros y Hy; apply Ha; now right).
    pose proof (Ha x (or_introl eq_refl)) as Px. unfold flatten_step.
    assert (Hs : fst (match x with
                      | EIn _ => (add_edge (fst acc) x, snd acc)
                      | EQ q => if pfam (fst q) then (add_edge (fst acc) x, snd acc) else collect mm fuel x acc
                      end) = add_edge (fst acc) x).
    { destruct x as [i|q]; [reflexivity|]. cbn in Px. rewrite Px. reflexivity. }
    rewrite Hs, In_add_edge. cbn [In]. intuition (subst; auto). }
  intros e. rewrite (G edges ([], []) A e). cbn. tauto.
Qed.

(* ---------------------------------------------------------------- where flattened edges come from *)
Section Origin.
Variable pfam : N -> bool.
Variable mm : qkey -> option memo.

(* a function edge of a flattened origin is an original edge, or points to a function without memo *)
Theorem flatten_fn fuel edges g :
  In (EQ g) (flatten pfam mm fuel edges) -> In (EQ g) edges \/ mm g = None.
Proof.
  intros Hg.
  refine (proj1 (flatten_acc pfam mm (fun e => forall g, e = EQ g -> In (EQ g) edges \/ mm g = None)
                   (fun _ => True) (fun _ => True) _ _ _ fuel edges _ _) (EQ g) Hg g eq_refl).
  - discriminate.
  - intros g0 _ Hn g1 [= <-]. right. exact Hn.
  - intros g0 m _ _. split; [exact I | intros; exact I].
  - discriminate.
  - intros q Hq. destruct (pfam (fst q)); [intros g1 [= <-]; left; exact Hq | exact I].
Qed.

(* every flattened edge, and every expanded dependency, is an original edge or an edge of an
   expanded dependency's memo *)
Inductive under (edges : list edge) : edge -> Prop :=
| under_top e : In e edges -> under edges e
| under_step g m e : under edges (EQ g) -> mm g = Some m -> In e (m_edges m) -> under edges e.

Theorem flatten_under fuel edges :
  let r := flatten_full pfam mm fuel edges in
  (forall x, In x (fst r) -> under edges x) /\ (forall x, In x (snd r) -> under edges x).
Proof.
  apply (flatten_acc pfam mm (under edges) (under edges) (under edges)); auto.
  - intros g m Hg Hm. split; [exact Hg|]. intros e2 He2. eapply under_step; eassumption.
  - intros i Hi. apply under_top; exact Hi.
  - intros q Hq. destruct (pfam (fst q)); apply under_top; exact Hq.
Qed.

(* an invariant of the expanded dependencies: whatever holds of the non-persistable original
   edges and is inherited along the edges of memos holds of every expanded dependency *)
Section VisInv.
Variable P : qkey -> Prop.
Hypothesis Pstep : forall g m g2, P g -> mm g = Some m -> In (EQ g2) (m_edges m) -> P g2.

Theorem flatten_vis_inv fuel edges :
  (forall g, In (EQ g) edges -> pfam (fst g) = false -> P g) ->
  forall g, In (EQ g) (snd (flatten_full pfam mm fuel edges)) -> P g.
Proof.
  intros Htop g Hg.
  set (B := fun e => forall g, e = EQ g -> P g).
  refine (proj2 (flatten_acc pfam mm (fun _ => True) B B _ _ _ fuel edges _ _) (EQ g) Hg g eq_refl).
  - intros; exact I.
  - intros; exact I.
  - intros g0 m Hg0 Hm. split; [exact Hg0|].
    intros e2 He2 g2 ->. exact (Pstep g0 m g2 (Hg0 g0 eq_refl) Hm He2).
  - intros; exact I.
  - intros q Hq. destruct (pfam (fst q)) eqn:Hp; [exact I|]. intros g0 [= <-]. exact (Htop q Hq Hp).
Qed.

End VisInv.

End Origin.
