(* Persist/Examples.v — concrete runs of the Persist model: a positive example (the shape of
   tests/persistence.rs::partial_query) satisfying the hypotheses of the C26 theorems, two
   histories in which flattening meets an untracked read and a dependency without memo (every
   request returns the from-scratch value), and the two refutation witnesses that were replayed
   on the real crate (checks/notes/C26.txt). *)
From Salsa Require Import Base.
From Salsa.Kern Require Import CoreK.
From Salsa.Persist Require Import Model Spec ProofsRoundtrip ProofsFlatten.

Definition pfam (fam : N) : bool := fam <? 2.          (* families 0, 1 persisted; 2, 3 not *)
Definition noeq (q : qkey) : bool := fst q =? 2.
Definition nolru : N -> lru_state := fun _ => {| lru_cap := None; lru_set := [] |}.
Definition lru2 : N -> lru_state :=
  fun fam => if fam =? 1 then {| lru_cap := Some 2; lru_set := [] |} else {| lru_cap := None; lru_set := [] |}.
Definition iv (i : ikey) : val := 1.
Definition FUEL := 6%nat.

Definition run (prog : qkey -> body) (fams : list N) (lru0 : N -> lru_state) (ops : list op) :=
  run_ops prog noeq pfam fams lru0 FUEL FUEL (pinit iv (fun _ => 0) lru0) ops.

(* ---------------------------------------------------------------- positive: partial_query *)
(* plain(0) (persisted) = np(0) + 1, np(0) (not persisted) = input 0.0 *)
Definition prog_pq (q : qkey) : body :=
  if key_eqb q (0, 0) then CallQ (3, 0) (fun a => Ret ((a + 1) mod 256))
  else if key_eqb q (3, 0) then RdIn (0, 0) Ret
  else Ret 0.

Definition s_pq := ps_db (fst (run prog_pq [] nolru [OGet (0, 0)])).
Definition s_pq_restored := restore (Model.snapshot pfam FUEL s_pq) s_pq nolru.

Example ex_pq_flattened :
  option_map m_edges (d_memo s_pq (0, 0)) = Some [EQ (3, 0)] /\
  option_map m_edges (d_memo s_pq_restored (0, 0)) = Some [EIn (0, 0)] /\
  d_memo s_pq_restored (3, 0) = None /\
  lost_untracked pfam (d_memo s_pq) FUEL [EQ (3, 0)] = false.
Proof. vm_compute. repeat split. Qed.

(* restore; new revision; request: validated, not executed, same value *)
Example ex_pq_reuse :
  let r := run prog_pq [] nolru [OGet (0, 0); OSnapshot; ORestore; OSynth 0; OGet (0, 0)] in
  snd r = [POk 2; POk 0; POk 0; POk 0; POk 2] /\
  d_log (ps_db (fst r)) = [EvValidate (0, 0); EvExec (3, 0); EvExec (0, 0)].
Proof. vm_compute. split; reflexivity. Qed.

(* ... and after a write to the leaf the restored database re-executes and is from-scratch *)
Example ex_pq_write :
  let r := run prog_pq [] nolru [OGet (0, 0); OSnapshot; ORestore; OSet (0, 0) 7 None; OGet (0, 0)] in
  snd r = [POk 2; POk 0; POk 0; POk 0; POk 8] /\
  evalo prog_pq FUEL (snap_of (ps_db (fst r))) (0, 0) = Some 8.
Proof. vm_compute. split; reflexivity. Qed.

(* the hypotheses of flatten_closed / flatten_sound hold of these memo tables (written out as a
   finite map; it agrees with the state above on the two functions that have memos) *)
Definition m0 : memo := {| m_val := Some 2; m_verified := 1; m_changed := 1; m_dur := 0;
                           m_untracked := false; m_edges := [EQ (3, 0)] |}.
Definition m3 : memo := {| m_val := Some 1; m_verified := 1; m_changed := 1; m_dur := 0;
                           m_untracked := false; m_edges := [EIn (0, 0)] |}.
Definition mm_pq : qkey -> option memo := upd (upd (fun _ => None) (3, 0) (Some m3)) (0, 0) (Some m0).
Definition rank_pq (q : qkey) : nat := if key_eqb q (0, 0) then 1%nat else 0%nat.

Example ex_pq_mm : d_memo s_pq (0, 0) = mm_pq (0, 0) /\ d_memo s_pq (3, 0) = mm_pq (3, 0).
Proof. vm_compute. split; reflexivity. Qed.

Lemma mm_pq_cases g m : mm_pq g = Some m -> (g = (0, 0) /\ m = m0) \/ (g = (3, 0) /\ m = m3).
Proof.
  unfold mm_pq, upd. destruct (key_eqb_spec (0, 0) g) as [<-|_].
  - intros E. injection E as <-. now left.
  - destruct (key_eqb_spec (3, 0) g) as [<-|_]; [|discriminate]. intros E. injection E as <-. now right.
Qed.

Example ex_pq_hyps :
  (forall g m c, mm_pq g = Some m -> In (EQ c) (m_edges m) -> (rank_pq c < rank_pq g)%nat) /\
  (forall e, In e [EQ (3, 0)] -> (erank rank_pq e < FUEL)%nat) /\
  lost_untracked pfam mm_pq FUEL [EQ (3, 0)] = false /\
  flatten pfam mm_pq FUEL [EQ (3, 0)] = [EIn (0, 0)].
Proof.
  split; [|split; [|split]].
  - intros g m c Hm Hc. destruct (mm_pq_cases g m Hm) as [(-> & ->)|(-> & ->)]; cbn in Hc;
      destruct Hc as [Hc|[]]; try discriminate. injection Hc as <-. vm_compute. lia.
  - intros e [<-|[]]. vm_compute; lia.
  - vm_compute. reflexivity.
  - vm_compute. reflexivity.
Qed.

(* ---------------------------------------------------------------- flattened untracked dependency *)
(* plain(0) (persisted) = np(0), np(0) (not persisted) = external cell 0.  The
   snapshot flattens np(0) away; because np(0) read untracked state, the memo of plain(0) is
   serialised as untracked (a memo with origin `derived` and no edges would be validated and
   return the stale 0) and is re-executed in the new revision. *)
Definition prog_f2 (q : qkey) : body :=
  if key_eqb q (0, 0) then CallQ (3, 0) Ret
  else if key_eqb q (3, 0) then RdCell 0 Ret
  else Ret 0.
Definition ops_f2 := [OGet (0, 0); OSnapshot; ORestore; OSetCell 0 1; OSynth 0; OGet (0, 0)].

Example ex_f2_fixed :
  let r := run prog_f2 [] nolru ops_f2 in
  snd r = [POk 0; POk 0; POk 0; POk 0; POk 0; POk 1] /\               (* the last request returns 1 *)
  evalo prog_f2 FUEL (snap_of (ps_db (fst r))) (0, 0) = Some 1 /\    (* = from scratch *)
  d_log (ps_db (fst r)) = [EvExec (3, 0); EvExec (0, 0); EvExec (3, 0); EvExec (0, 0)] /\
  (* the serialised memo: no edges, untracked, because the expanded np(0) was untracked *)
  lost_untracked pfam (d_memo (ps_db (fst (run prog_f2 [] nolru [OGet (0, 0)])))) FUEL [EQ (3, 0)] = true /\
  option_map (fun m => (m_untracked m, m_edges m))
    (d_memo (ps_db (fst (run prog_f2 [] nolru [OGet (0, 0); OSnapshot; ORestore]))) (0, 0)) = Some (true, []).
Proof. vm_compute. repeat split. Qed.

(* in the revision of the snapshot the restored (untracked) memo is still returned without executing *)
Example ex_f2_same_revision :
  let r := run prog_f2 [] nolru [OGet (0, 0); OSnapshot; ORestore; OGet (0, 0)] in
  snd r = [POk 0; POk 0; POk 0; POk 0] /\ d_log (ps_db (fst r)) = [EvExec (3, 0); EvExec (0, 0)].
Proof. vm_compute. split; reflexivity. Qed.

(* the same history without snapshot/restore *)
Example ex_f2_twin :
  snd (run prog_f2 [] nolru [OGet (0, 0); OSetCell 0 1; OSynth 0; OGet (0, 0)]) = [POk 0; POk 0; POk 0; POk 1].
Proof. vm_compute. reflexivity. Qed.

(* ---------------------------------------------------------------- F1: uninitialised ingredient *)
(* plain(0) = lru_fn(0) (both persisted), lru_fn(0) = input 0.0 *)
Definition prog_f1 (q : qkey) : body :=
  if key_eqb q (0, 0) then CallQ (1, 0) Ret
  else if key_eqb q (1, 0) then RdIn (0, 0) Ret
  else Ret 0.
Definition ops_f1 := [OGet (0, 0); OSnapshot; ORestore; OSynth 0; OGet (0, 0)].

Example ex_f1 :
  let r := run prog_f1 [1] lru2 ops_f1 in
  snd r = [POk 1; POk 0; POk 0; POk 0; PPanic PUninit] /\
  evalo prog_f1 FUEL (snap_of (ps_db (fst r))) (0, 0) = Some 1.
Proof. vm_compute. split; reflexivity. Qed.

(* calling the dependency's function once (on any key) before avoids the panic *)
Example ex_f1_warm :
  snd (run prog_f1 [1] lru2 [OGet (0, 0); OSnapshot; ORestore; OGet (1, 5); OSynth 0; OGet (0, 0)])
  = [POk 1; POk 0; POk 0; POk 0; POk 0; POk 1].
Proof. vm_compute. reflexivity. Qed.

(* ---------------------------------------------------------------- F3: evicted dependency *)
(* plain(0) = lru_fn(0); lru_fn(k) = input k.0; capacity 2: lru_fn(0) is evicted by the new revision *)
Definition prog_f3 (q : qkey) : body :=
  if key_eqb q (0, 0) then CallQ (1, 0) Ret
  else if fst q =? 1 then RdIn (snd q, 0) Ret
  else Ret 0.
Definition ops_f3 := [OGet (0, 0); OGet (1, 1); OGet (1, 2); OSynth 0; OSnapshot; ORestore; OGet (1, 3); OGet (0, 0)].
Definition ops_f3_twin := [OGet (0, 0); OGet (1, 1); OGet (1, 2); OSynth 0; OGet (1, 3); OGet (0, 0)].

Example ex_f3 :
  let r := run prog_f3 [1] lru2 ops_f3 in
  let t := run prog_f3 [1] lru2 ops_f3_twin in
  (* same results ... *)
  snd r = [POk 1; POk 1; POk 1; POk 0; POk 0; POk 0; POk 1; POk 1] /\
  snd t = [POk 1; POk 1; POk 1; POk 0; POk 1; POk 1] /\
  (* ... but the restored database executes plain(0) and lru_fn(0) again, the original validates them *)
  firstn 2 (d_log (ps_db (fst r))) = [EvExec (1, 0); EvExec (0, 0)] /\
  firstn 2 (d_log (ps_db (fst t))) = [EvValidate (0, 0); EvValidate (1, 0)] /\
  (* no input changed at all *)
  (forall i, f_changed (d_in (ps_db (fst r)) i) = 1).
Proof. vm_compute. repeat split. Qed.

(* ---------------------------------------------------------------- the results theorems apply *)
(* (Persist/PTop.v; non-vacuity of their hypotheses on concrete histories) *)
From Salsa.Persist Require Statement PTop LTop.

(* a program whose persisted functions only call persisted functions:
   plain(0) = lru_fn(0) + input 0.1, lru_fn(0) = input 0.0; families 0 and 1 are persisted *)
Definition prog_cl (q : qkey) : body :=
  if key_eqb q (0, 0) then CallQ (1, 0) (fun a => RdIn (0, 1) (fun b => Ret ((a + b) mod 256)))
  else if key_eqb q (1, 0) then RdIn (0, 0) Ret
  else Ret 0.
Definition rank_cl (q : qkey) : nat := if key_eqb q (0, 0) then 1%nat else 0%nat.

(* requests; a write with durability HIGH; a snapshot; a write after the snapshot (lost by the
   restore); restore; the dependency's function is called once (see F1); a write to a leaf of a
   restored memo; requests *)
Definition ops_cl : list op :=
  [OGet (0, 0); OSet (0, 1) 5 (Some 2); OGet (0, 0); OSnapshot; OSet (0, 0) 9 None; OGet (0, 0);
   ORestore; OGet (1, 0); OGet (0, 0); OSet (0, 0) 7 None; OGet (0, 0); OSynth 1; OGet (0, 0)].

Lemma prog_cl_calls q q' : calls (prog_cl q) q' -> q = (0, 0) /\ q' = (1, 0).
Proof.
  unfold prog_cl. destruct (key_eqb_spec q (0, 0)) as [-> | _].
  - intros Hc. split; [reflexivity|].
    inversion Hc as [ | ? ? ? ? Hc1 | | | | ]; subst; [reflexivity|].
    inversion Hc1 as [ | | ? ? ? ? Hc2 | | | ]; subst. inversion Hc2.
  - destruct (key_eqb_spec q (1, 0)) as [-> | _]; intros Hc.
    + inversion Hc as [ | | ? ? ? ? Hc1 | | | ]; subst. inversion Hc1.
    + inversion Hc.
Qed.

Example ex_cl_hyps :
  calls_below prog_cl rank_cl /\ (forall q, (rank_cl q < FUEL)%nat) /\
  Statement.persisted_closed prog_cl pfam /\
  Forall Statement.dur_op ops_cl /\ Statement.wf_ops false false ops_cl /\
  Statement.known_class_free prog_cl noeq pfam [1] lru2 FUEL FUEL (pinit iv (fun _ => 0) lru2) ops_cl.
Proof.
  split; [|split; [|split; [|split; [|split]]]].
  - intros q q' Hc. destruct (prog_cl_calls q q' Hc) as [-> ->]. vm_compute. lia.
  - intros q. unfold rank_cl, FUEL. destruct (key_eqb q (0, 0)); lia.
  - intros q q' _ Hc. destruct (prog_cl_calls q q' Hc) as [-> ->]. reflexivity.
  - repeat constructor. cbn. lia.
  - cbn. repeat split.
  - vm_compute. repeat split; discriminate.
Qed.

(* ... so C26_results_partial applies: every request of this history returns the from-scratch
   value; and this is what they return *)
Example ex_cl_results :
  Statement.results_ok prog_cl noeq pfam [1] lru2 FUEL FUEL FUEL (pinit iv (fun _ => 0) lru2) ops_cl /\
  snd (run prog_cl [1] lru2 ops_cl)
  = [POk 2; POk 0; POk 6; POk 0; POk 0; POk 14; POk 0; POk 1; POk 6; POk 0; POk 12; POk 0; POk 12].
Proof.
  split; [|vm_compute; reflexivity].
  destruct ex_cl_hyps as (A & B & C & D0 & E0 & F0).
  apply (PTop.results_closed prog_cl noeq pfam [1] lru2 rank_cl A FUEL B FUEL FUEL B C iv (fun _ => 0) ops_cl);
    [intros i; lia | exact D0 | exact E0 | exact F0].
Qed.

(* a history WITHOUT restore over the partial_query program (a persisted function over a
   non-persisted one; the snapshot flattens): C26_results_no_restore applies *)
Definition ops_nr : list op :=
  [OGet (0, 0); OSnapshot; OSet (0, 0) 7 (Some 1); OGet (0, 0); OSnapshot; OSetCell 3 1; OSynth 0; OGet (3, 0)].

Lemma prog_pq_calls q q' : calls (prog_pq q) q' -> q = (0, 0) /\ q' = (3, 0).
Proof.
  unfold prog_pq. destruct (key_eqb_spec q (0, 0)) as [-> | _].
  - intros Hc. split; [reflexivity|].
    inversion Hc as [ | ? ? ? ? Hc1 | | | | ]; subst; [reflexivity | inversion Hc1].
  - destruct (key_eqb_spec q (3, 0)) as [-> | _]; intros Hc.
    + inversion Hc as [ | | ? ? ? ? Hc1 | | | ]; subst. inversion Hc1.
    + inversion Hc.
Qed.

Lemma prog_pq_below : calls_below prog_pq rank_pq.
Proof. intros q q' Hc. destruct (prog_pq_calls q q' Hc) as [-> ->]. vm_compute. lia. Qed.

Lemma rank_pq_fuel q : (S (rank_pq q) < FUEL)%nat.
Proof. unfold rank_pq, FUEL. destruct (key_eqb q (0, 0)); lia. Qed.

Example ex_nr_results :
  Statement.results_ok prog_pq noeq pfam [] nolru FUEL FUEL FUEL (pinit iv (fun _ => 0) nolru) ops_nr /\
  snd (run prog_pq [] nolru ops_nr) = [POk 2; POk 0; POk 0; POk 8; POk 0; POk 0; POk 0; POk 7].
Proof.
  split; [|vm_compute; reflexivity].
  pose proof prog_pq_below as A.
  assert (B : forall q, (rank_pq q < FUEL)%nat) by (intros q; pose proof (rank_pq_fuel q); lia).
  apply (PTop.results_no_restore prog_pq noeq pfam [] nolru rank_pq A FUEL B FUEL FUEL B iv (fun _ => 0) ops_nr).
  - intros i; lia.
  - repeat constructor. cbn. lia.
  - cbn. repeat split.
  - cbn. intuition discriminate.
  - vm_compute. repeat split; discriminate.
Qed.

(* the partial_query program is not persisted_closed (the snapshot flattens np(0) away); all
   durabilities are LOW: C26_results_low applies — snapshot, restore, a request served from the
   restored memo, a later write to the FLATTENED leaf of the restored memo, a second round, and
   requests that return the from-scratch values *)
Definition ops_flat : list op :=
  [OGet (0, 0); OSnapshot; ORestore; OGet (0, 0); OSet (0, 0) 7 None; OGet (0, 0); OGet (3, 0);
   OSnapshot; OSet (0, 0) 8 (Some 0); ORestore; OGet (0, 0); OSynth 0; OGet (0, 0)].

Example ex_flat_results :
  let r := run prog_pq [] nolru ops_flat in
  Statement.results_ok prog_pq noeq pfam [] nolru FUEL FUEL FUEL (pinit iv (fun _ => 0) nolru) ops_flat /\
  snd r = [POk 2; POk 0; POk 0; POk 2; POk 0; POk 8; POk 7; POk 0; POk 0; POk 0; POk 8; POk 0; POk 8] /\
  Forall Statement.low_op ops_flat /\ Statement.wf_ops false false ops_flat /\
  ~ Statement.persisted_closed prog_pq pfam.
Proof.
  pose proof prog_pq_below as A. pose proof rank_pq_fuel as B'.
  assert (B : forall q, (rank_pq q < FUEL)%nat) by (intros q; specialize (B' q); lia).
  assert (L : Forall Statement.low_op ops_flat) by (repeat constructor).
  assert (W : Statement.wf_ops false false ops_flat) by (cbn; repeat split).
  cbv zeta. split; [|split; [vm_compute; reflexivity | split; [exact L | split; [exact W|]]]].
  - apply (LTop.results_low prog_pq noeq pfam [] nolru rank_pq A FUEL B FUEL FUEL B B' iv ops_flat L W).
    vm_compute. repeat split; discriminate.
  - intros Hc. specialize (Hc (0, 0) (3, 0) eq_refl (calls_here (3, 0) _)). discriminate Hc.
Qed.

(* F4, memo-less dependency.
   Flattening meets a dependency WITHOUT memo: collect_minimum_serialized_edges keeps the edge of
   a dependency it cannot expand (dropping it would lose the dependency: a stale value).
   plain(0) = np(0), np(0) = plain(1), plain(1) = lru_fn(0), lru_fn(k) = input k.0
   (plain, lru_fn persisted; np not; lru_fn has capacity 2).
   1. plain(1) is computed; lru_fn(0) is evicted by the next revision; plain(1) is validated in
      it (lru_fn(0) is validated without a value).
   2. snapshot: the value-less lru_fn(0) is not serialised (F3), plain(1) is, with its edge to it.
   3. restore; plain(0) is computed: np(0) is executed, plain(1) is returned from its restored
      memo (verified in this revision, no walk), so lru_fn(0) still has NO memo.
   4. snapshot: flattening plain(0) expands np(0), then — no persistability test in the inner
      recursion of collect_minimum_serialized_edges — expands plain(1), whose only edge leads to a
      function WITHOUT memo: the edge is kept.  (Were nothing collected, plain(0) would be
      serialised tracked with NO edges, and step 5 would return the stale 1.)
   5. restore; lru_fn is called once (F1); input 0.0 := 7; plain(0): the kept edge is walked,
      lru_fn(0) is executed and has changed, plain(0) is executed again and returns 7. *)
Definition prog_f4 (q : qkey) : body :=
  if key_eqb q (0, 0) then CallQ (3, 0) Ret
  else if key_eqb q (3, 0) then CallQ (0, 1) Ret
  else if key_eqb q (0, 1) then CallQ (1, 0) Ret
  else if fst q =? 1 then RdIn (snd q, 0) Ret
  else Ret 0.
Definition ops_f4 : list op :=
  [OGet (0, 1); OGet (1, 1); OGet (1, 2); OSynth 0; OGet (0, 1); OSnapshot; ORestore;
   OGet (0, 0); OSnapshot; ORestore; OGet (1, 5); OSet (0, 0) 7 None; OGet (0, 0)].

Example ex_f4_fixed :
  let r := run prog_f4 [1] lru2 ops_f4 in
  last (snd r) PFuel = POk 7 /\                                                   (* the last request returns 7 *)
  evalo prog_f4 FUEL (snap_of (ps_db (fst r))) (0, 0) = Some 7 /\               (* = from scratch *)
  firstn 4 (d_log (ps_db (fst r))) = [EvExec (1, 0); EvExec (0, 1); EvExec (3, 0); EvExec (0, 0)] /\
  (* the second serialised memo of plain(0): tracked, the kept edge *)
  option_map (fun m => (m_untracked m, m_edges m, m_verified m))
    (d_memo (ps_db (fst (run prog_f4 [1] lru2 (firstn 10 ops_f4)))) (0, 0)) = Some (false, [EQ (1, 0)], 2) /\
  (* lru_fn(0) has no memo in the first restored database, plain(1) keeps its edge to it *)
  d_memo (ps_db (fst (run prog_f4 [1] lru2 (firstn 8 ops_f4)))) (1, 0) = None /\
  option_map m_edges (d_memo (ps_db (fst (run prog_f4 [1] lru2 (firstn 8 ops_f4)))) (0, 1)) = Some [EQ (1, 0)].
Proof. vm_compute. repeat split. Qed.

(* without the call of lru_fn after the second restore the kept edge leads to an uninitialised
   function ingredient: the known class F1, not a stale value *)
Example ex_f4_cold :
  last (snd (run prog_f4 [1] lru2
    [OGet (0, 1); OGet (1, 1); OGet (1, 2); OSynth 0; OGet (0, 1); OSnapshot; ORestore;
     OGet (0, 0); OSnapshot; ORestore; OSet (0, 0) 7 None; OGet (0, 0)])) PFuel = PPanic PUninit.
Proof. vm_compute. reflexivity. Qed.

Definition rank_f4 (q : qkey) : nat :=
  if key_eqb q (0, 0) then 3%nat else if key_eqb q (3, 0) then 2%nat else if key_eqb q (0, 1) then 1%nat else 0%nat.

Lemma prog_f4_calls q q' : calls (prog_f4 q) q' -> (rank_f4 q' < rank_f4 q)%nat.
Proof.
  unfold prog_f4. destruct (key_eqb_spec q (0, 0)) as [-> | _].
  { intros Hc. inversion Hc as [ | ? ? ? ? Hc1 | | | | ]; subst; [vm_compute; lia | inversion Hc1]. }
  destruct (key_eqb_spec q (3, 0)) as [-> | _].
  { intros Hc. inversion Hc as [ | ? ? ? ? Hc1 | | | | ]; subst; [vm_compute; lia | inversion Hc1]. }
  destruct (key_eqb_spec q (0, 1)) as [-> | _].
  { intros Hc. inversion Hc as [ | ? ? ? ? Hc1 | | | | ]; subst; [vm_compute; lia | inversion Hc1]. }
  destruct (fst q =? 1); intros Hc.
  - inversion Hc as [ | | ? ? ? ? Hc1 | | | ]; subst. inversion Hc1.
  - inversion Hc.
Qed.

(* this history is an instance of C26_results_low: every request
   returns the from-scratch value *)
Example ex_f4_results :
  Statement.results_ok prog_f4 noeq pfam [1] lru2 FUEL FUEL FUEL (pinit iv (fun _ => 0) lru2) ops_f4.
Proof.
  assert (R : forall q, (rank_f4 q <= 3)%nat).
  { intros q. unfold rank_f4. repeat match goal with |- context [if ?b then _ else _] => destruct b end; lia. }
  assert (B : forall q, (rank_f4 q < FUEL)%nat) by (intros q; specialize (R q); unfold FUEL; lia).
  assert (B' : forall q, (S (rank_f4 q) < FUEL)%nat) by (intros q; specialize (R q); unfold FUEL; lia).
  apply (LTop.results_low prog_f4 noeq pfam [1] lru2 rank_f4 prog_f4_calls FUEL B FUEL FUEL B B' iv ops_f4).
  - repeat constructor.
  - cbn. repeat split.
  - vm_compute. repeat split; discriminate.
Qed.

(* ---------------------------------------------------------------- durabilities above LOW and flattening *)
(* plain(0) = np(0) + 1 over input 0.0, which is made HIGH: the program is np_closed (np only reads
   an input), so C26_results_np applies.  The memo of plain(0) gets durability HIGH; after a LOW
   write elsewhere it is validated by the durability short-cut (np(0)'s memo stays at the older
   revision); the snapshot flattens np(0) away; in the restored database a synthetic HIGH write
   leaves it valid (validated by the walk over the flattened leaf), a HIGH write to the leaf
   invalidates it, and a write that makes the input LOW again is seen as well. *)
Definition ops_high : list op :=
  [OSet (0, 0) 4 (Some 2); OGet (0, 0); OSet (1, 0) 9 None; OGet (0, 0); OSnapshot; ORestore;
   OGet (0, 0); OSynth 2; OGet (0, 0); OSet (0, 0) 7 None; OGet (0, 0); OSnapshot; ORestore;
   OSet (0, 0) 8 (Some 0); OGet (0, 0); OGet (3, 0)].

Lemma prog_pq_np : Statement.np_closed prog_pq pfam.
Proof. intros q q' Hp Hc. destruct (prog_pq_calls q q' Hc) as [-> ->]. discriminate Hp. Qed.

Example ex_high_results :
  let r := run prog_pq [] nolru ops_high in
  Statement.results_ok prog_pq noeq pfam [] nolru FUEL FUEL FUEL (pinit iv (fun _ => 0) nolru) ops_high /\
  snd r = [POk 0; POk 5; POk 0; POk 5; POk 0; POk 0; POk 5; POk 0; POk 5; POk 0; POk 8; POk 0; POk 0;
           POk 0; POk 9; POk 8] /\
  Statement.wf_ops false false ops_high /\ Forall Statement.dur_op ops_high /\
  (* executed once; validated by the short-cut after the LOW write; after the restore validated
     by the walk over the flattened leaf (synthetic HIGH write); executed after each write to it *)
  List.rev (d_log (ps_db (fst r)))
  = [EvExec (0, 0); EvExec (3, 0); EvValidate (0, 0); EvValidate (0, 0); EvExec (0, 0); EvExec (3, 0);
     EvExec (0, 0); EvExec (3, 0)] /\
  (* the serialised memo: durability HIGH, verified in the revision of the LOW write, one leaf *)
  option_map (fun m => (m_dur m, m_verified m, m_edges m))
    (d_memo (ps_db (fst (run prog_pq [] nolru (firstn 6 ops_high)))) (0, 0)) = Some (2, 3, [EIn (0, 0)]).
Proof.
  pose proof prog_pq_below as A. pose proof rank_pq_fuel as B'.
  assert (B : forall q, (rank_pq q < FUEL)%nat) by (intros q; specialize (B' q); lia).
  assert (Dop : Forall Statement.dur_op ops_high) by (repeat constructor; cbn; lia).
  assert (W : Statement.wf_ops false false ops_high) by (cbn; repeat split).
  cbv zeta. split; [|split; [vm_compute; reflexivity | split; [exact W | split; [exact Dop | vm_compute; split; reflexivity]]]].
  apply (PTop.results_np prog_pq noeq pfam [] nolru rank_pq A FUEL B FUEL FUEL B B' prog_pq_np iv (fun _ => 0) ops_high);
    [intros i; lia | exact Dop | exact W|].
  vm_compute. repeat split; discriminate.
Qed.
