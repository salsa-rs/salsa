(* Persist/LInv.v — the invariant of the persist-mode model with a flat mode ([fm] = true): EVERY
   program and choice of persisted functions, memos whose dependencies were flattened away to any
   depth, all durabilities LOW (C26_results_low); Persist/PInv*.v has the invariant for all
   durabilities.  The file corresponds to Core/DInv.v (definitions, basic facts, the frame rule for
   storing a memo); the notions it shares with PInv.v have their lemmas in InvBase.v.

   Differences from Core/DInv.v:
   - the semantic side (E, tr, durge, clos, ...) is Core's, for the translated program (PSem.v);
   - observers are VIRTUAL ([obs_ok]): a query at a revision with a durability, that is owed the
     observer clause by every memo in its closure.  Every memo is one; so is every dependency
     that a snapshot flattened away ([good]): the edges of a restored memo are the leaves of
     its flattened dependencies, and the memo is covered by them ([mo_in], [mo_q]);
   - [fm] (flat mode): flattened memos are allowed and all durabilities are LOW; otherwise every
     memo records its direct reads ([mo_flat]);
   - the observer clause [mo_obs] speaks about the memos that EXIST (a restored database has
     lost the memos of non-persisted functions and the value-less ones);
   - changed_at stamps never decrease ([mo_stamp], [ext_mono], as in Core/DInv.v), across
     restores as well: the stamp of a memo that a restore dropped is kept in a ghost table
     ([ghost], [phi], [inv_ghost]); hence the backdate-violation assertion is unreachable.  The
     only panics that may escape a request are an injected fault and the panic of an
     uninitialised function ingredient ([dallowed]). *)
From Salsa Require Import Base.
From Salsa.Kern Require Import CoreK CoreKFacts.
From Salsa.Core Require Import Model Spec SpecProofs Inv DurSem.
From Salsa.Persist Require Import Model PSem PWp.
From Salsa.Persist Require Export InvBase.

Section LInv.
Variable prog : qkey -> CM.body.            (* the translated program *)
Variable rank : qkey -> nat.
Hypothesis Hrank : calls_below prog rank.
Variable NF : nat.
Hypothesis Hbound : forall q, (rank q < NF)%nat.
(* flat mode: memos whose edges are the flattening of their reads (restored memos) are allowed;
   all durabilities are LOW.  Otherwise every memo records its direct reads. *)
Variable fm : bool.
Notation E := (E prog NF).
Notation tr := (tr prog NF).
Notation envat := (envat prog NF).
Notation durge := (durge prog NF).
Notation clos := (clos prog NF).

Definition lcs (s : db) (k : dur) : rev := last_changed (d_revs s) k.

(* The stamp of a query: the changed_at of its memo, or, when the memo was dropped by a restore
   (non-persisted function, value-less memo), the changed_at it had, kept in a ghost table
   together with the revision it was verified at.  Stamps never decrease ([ext_mono]). *)
Definition ghost := qkey -> option (rev * rev).

Definition phi (s : db) (F : ghost) (d : qkey) : option rev :=
  match d_memo s d with
  | Some md => Some (m_changed md)
  | None => option_map snd (F d)
  end.

(* the stamp c is at most the current stamp of the read x (an untracked read is stamped with
   the revision of the run, which bounds every stamp) *)
Definition sle (s : db) (F : ghost) (c : rev) (x : rd) : Prop :=
  match x with
  | RIn i => c <= f_changed (d_in s i)
  | RQ d => exists c', phi s F d = Some c' /\ c <= c'
  | _ => True
  end.

(* changed_at is bounded by the current stamp of something the run at revision v reads *)
Definition prov (H : hist) (s : db) (F : ghost) (q : qkey) (v c : rev) : Prop :=
  c <= 1 \/ exists x, In x (tr H v q) /\ sle s F c x.

(* when the observer clause fires for an observer verified at v and d's memo md *)
Definition obs_pre (H : hist) (D : dhist) (s : db) (v : rev) (d : qkey) (md : memo) : Prop :=
  m_changed md <= v \/ exists k, durge H D v k d /\ lcs s k <= v.

(* the static call relation, transitively: what a recorded edge may point to (a direct callee,
   or, for a restored memo, a callee of a dependency that was flattened away) *)
Inductive reach : qkey -> qkey -> Prop :=
| reach_one q d : calls (prog q) d -> reach q d
| reach_step q d e : calls (prog q) d -> reach d e -> reach q e.

Lemma reach_rank q d : reach q d -> (rank d < rank q)%nat.
Proof.
  induction 1 as [q d Hc | q d e Hc _ IH]; [apply Hrank; exact Hc|].
  pose proof (Hrank q d Hc). lia.
Qed.

Lemma reach_trans q d e : reach q d -> reach d e -> reach q e.
Proof.
  induction 1 as [q d Hc | q d x Hc _ IH]; intros He.
  - eapply reach_step; eassumption.
  - eapply reach_step; [exact Hc | apply IH; exact He].
Qed.

(* A (virtual) observer: query g as evaluated at revision w, with durability k.  Every memo is
   one (at its verified_at, with its recorded durability); so is every dependency that was
   flattened away, at the revision its memo was verified at when it was flattened. *)
Record obs_ok (H : hist) (D : dhist) (s : db) (g : qkey) (w : rev) (k : dur) : Prop := {
  ob_order : 1 <= w /\ w <= cur s;
  ob_durge : durge H D w k g;
  ob_dur3 : k <= 3;
  ob_obs : forall d md, clos H w g d -> d_memo s d = Some md -> obs_pre H D s w d md ->
           E H w d = E H (m_verified md) d /\ k <= m_dur md
}.

(* The dependency d of a memo verified at v with edges L was flattened away: its reads at some
   revision rho >= v are covered by L — inputs are in L, function reads are in L or were flattened
   away in turn — and it is still an observer at rho.  (In flat mode a dependency with a recorded
   durability >= 1 reads no input at all: nothing is required of L.) *)
Inductive good (H : hist) (D : dhist) (s : db) (L : list edge) (v : rev) : qkey -> Prop :=
| good_never d a k : fm = true -> 1 <= k -> a <= cur s -> durge H D a k d -> good H D s L v d
| good_exp d rho k :
    obs_ok H D s d rho k -> v <= rho ->
    (forall x, In x (tr H rho d) -> ~ untr x) ->
    (forall i, In (RIn i) (tr H rho d) -> In (EIn i) L) ->
    (forall d', In (RQ d') (tr H rho d) -> ~ In (EQ d') L -> good H D s L v d') ->
    good H D s L v d.

Record dmemo_ok (H : hist) (D : dhist) (F : ghost) (s : db) (q : qkey) (m : memo) : Prop := {
  mo_order : 1 <= m_verified m /\ m_changed m <= m_verified m /\ m_verified m <= cur s;
  mo_val : forall x, m_val m = Some x -> x = E H (m_verified m) q;
  mo_in : forall i, In (RIn i) (tr H (m_verified m) q) -> In (EIn i) (m_edges m);
  mo_q : m_untracked m = false ->
         forall d, In (RQ d) (tr H (m_verified m) q) -> ~ In (EQ d) (m_edges m) ->
         good H D s (m_edges m) (m_verified m) d;
  mo_reads_cell : forall x, In x (tr H (m_verified m) q) -> untr x -> m_untracked m = true;
  mo_edges_reach : forall d, In (EQ d) (m_edges m) -> reach q d;
  mo_flat : fm = true \/ forall d, In (RQ d) (tr H (m_verified m) q) -> In (EQ d) (m_edges m);
  mo_durge : durge H D (m_verified m) (m_dur m) q;
  mo_dur3 : m_dur m <= 3;
  mo_stamp : prov H s F q (m_verified m) (m_changed m);
  mo_obs : forall d md, clos H (m_verified m) q d -> d_memo s d = Some md ->
           obs_pre H D s (m_verified m) d md ->
           E H (m_verified m) d = E H (m_verified md) d /\ m_dur m <= m_dur md;
  (* a memo of durability LOW was verified by a walk or an execution: its dependencies that
     have memos were verified then or later *)
  mo_sync : m_dur m = 0 -> forall d md, In (EQ d) (m_edges m) -> d_memo s d = Some md ->
            m_verified m <= m_verified md
}.

Lemma obs_of_memo H D F s q m : dmemo_ok H D F s q m -> obs_ok H D s q (m_verified m) (m_dur m).
Proof.
  intros [a b c d e f g h i st j k]. constructor; auto. lia.
Qed.

Record DInv (H : hist) (D : dhist) (F : ghost) (s : db) : Prop := {
  inv_cur : 1 <= cur s;
  inv_revs : revs_ok (d_revs s);
  inv_in : forall i r, f_changed (d_in s i) <= r -> r <= cur s -> sn_in (H r) i = f_val (d_in s i);
  inv_dur : forall i r, f_changed (d_in s i) <= r -> r <= cur s -> D r i = f_dur (d_in s i);
  inv_in_le : forall i, f_changed (d_in s i) <= cur s;
  inv_cell : forall c, sn_cell (H (cur s)) c = d_cell s c;
  inv_dur3 : forall r i, D r i <= 3;
  (* the write rule: an input whose level had not been written after r is the same at r+1 *)
  inv_wr : forall r i, r < cur s -> lcs s (D r i) <= r ->
           sn_in (H (r + 1)) i = sn_in (H r) i /\ D (r + 1) i = D r i;
  inv_memo : forall q m, d_memo s q = Some m -> dmemo_ok H D F s q m;
  (* a dropped memo is still an observer at the revision it was verified at, and its stamp has
     a provenance *)
  inv_ghost : forall d rho c, d_memo s d = None -> F d = Some (rho, c) ->
              c <= rho /\ obs_ok H D s d rho 0 /\ prov H s F d rho c;
  (* flat mode: no input has, or ever had, a durability above LOW *)
  inv_lowD : fm = true -> forall r i, D r i = 0;
  inv_lowrev : fm = true -> forall k, 1 <= k -> lcs s k <= 1
}.

(* ---------------------------------------------------------------- stability from the write rule *)
Lemma lcs_anti H D F s k k' : DInv H D F s -> k <= k' -> lcs s k' <= lcs s k.
Proof. intros HI. apply lc_anti. apply (inv_revs _ _ _ _ HI). Qed.

Lemma lcs_le_cur H D F s k : DInv H D F s -> lcs s k <= cur s.
Proof. intros HI. apply lc_le_cur. apply (inv_revs _ _ _ _ HI). Qed.

Lemma stable_now H D F s k a : DInv H D F s -> lcs s k <= a -> wstable H D k a (cur s).
Proof.
  intros HI Hlc i Hi.
  assert (Hn : forall n r, r = a + N.of_nat n -> r <= cur s ->
                 sn_in (H r) i = sn_in (H a) i /\ D r i = D a i).
  { induction n as [|n IH]; intros r Hr Hle.
    - replace r with a by lia. split; reflexivity.
    - assert (Hr' : a + N.of_nat n <= cur s) by lia.
      destruct (IH (a + N.of_nat n) eq_refl Hr') as [A B].
      destruct (inv_wr _ _ _ _ HI (a + N.of_nat n) i) as [A' B'].
      + lia.
      + rewrite B. pose proof (lcs_anti H D F s k (D a i) HI Hi). lia.
      + replace r with (a + N.of_nat n + 1) by lia. split; congruence. }
  intros r Ha Hb. apply (Hn (N.to_nat (r - a))); [lia | exact Hb].
Qed.

Lemma stable_never H D F s a : DInv H D F s -> 1 <= a -> wstable H D 3 a (cur s).
Proof.
  intros HI Ha. apply (stable_now H D F s 3 a HI).
  unfold lcs. rewrite lc_never by lia. exact Ha.
Qed.

(* ---------------------------------------------------------------- extension within a revision *)
Record dext (H : hist) (D : dhist) (F : ghost) (s s' : db) : Prop := {
  ext_revs : d_revs s' = d_revs s;
  ext_in : d_in s' = d_in s;
  ext_cell : d_cell s' = d_cell s;
  ext_pcell : d_pcell s' = d_pcell s;
  ext_init : forall fam, d_init s fam = true -> d_init s' fam = true;
  ext_valid : forall q m, d_memo s q = Some m -> m_verified m = cur s -> m_val m <> None ->
              d_memo s' q = Some m;
  ext_vcur : forall q m, d_memo s q = Some m -> m_verified m = cur s ->
             exists m', d_memo s' q = Some m' /\ m_verified m' = cur s /\ m_dur m <= m_dur m';
  (* memos are only stored with verified_at = the current revision *)
  ext_old : forall q m', d_memo s' q = Some m' -> m_verified m' < cur s -> d_memo s q = Some m';
  (* observers stay observers *)
  ext_obs : forall g w k, obs_ok H D s g w k -> obs_ok H D s' g w k;
  (* stamps never decrease *)
  ext_mono : forall d c, phi s F d = Some c -> exists c', phi s' F d = Some c' /\ c <= c'
}.

Lemma dext_refl H D F s : dext H D F s s.
Proof.
  constructor; auto.
  - intros q m Hm Hv. exists m. split; [exact Hm|]. split; [exact Hv | lia].
  - intros d c Hc. exists c. split; [exact Hc | lia].
Qed.

Lemma dext_cur H D F s s' : dext H D F s s' -> cur s' = cur s.
Proof. intros [Hr _ _ _ _ _ _ _ _ _]. unfold cur. rewrite Hr. reflexivity. Qed.

Lemma dext_trans H D F s1 s2 s3 : dext H D F s1 s2 -> dext H D F s2 s3 -> dext H D F s1 s3.
Proof.
  intros H12 H23. pose proof (dext_cur _ _ _ _ _ H12) as Hc.
  destruct H12 as [Hrevs1 Hin1 Hcell1 Hpcell1 Hinit1 Hvalid1 Hvcur1 Hold1 Hobs1 Hmono1], H23 as [Hrevs2 Hin2 Hcell2 Hpcell2 Hinit2 Hvalid2 Hvcur2 Hold2 Hobs2 Hmono2].
  constructor; try congruence; auto.
  - intros q m Hm Hv Hx. apply Hvalid2; [apply Hvalid1; assumption | rewrite Hc; exact Hv | exact Hx].
  - intros q m Hm Hv. destruct (Hvcur1 q m Hm Hv) as (m' & Hm' & Hv' & Hd').
    destruct (Hvcur2 q m' Hm') as (m'' & Hm'' & Hv'' & Hd''); [rewrite Hc; exact Hv'|].
    exists m''. split; [exact Hm''|]. split; [rewrite <- Hc; exact Hv'' | lia].
  - intros q m' Hm' Hv. apply Hold1; [|exact Hv]. apply Hold2; [exact Hm' | rewrite Hc; exact Hv].
  - intros d c Hd. destruct (Hmono1 d c Hd) as (c' & Hc' & Hle). destruct (Hmono2 d c' Hc') as (c'' & Hc'' & Hle').
    exists c''. split; [exact Hc'' | lia].
Qed.

(* a computation for a query of rank < k leaves memos of rank >= k alone *)
Definition dtouch_below (s s' : db) (k : nat) : Prop :=
  forall p, (k <= rank p)%nat -> d_memo s' p = d_memo s p.

Definition stack_ok (s : db) (q : qkey) : Prop :=
  forall p, In p (d_stack s) -> (rank q < rank p)%nat.

(* ---------------------------------------------------------------- the part of the state that matters *)
Definition dcore_eq (s s' : db) : Prop :=
  d_revs s' = d_revs s /\ d_in s' = d_in s /\ d_cell s' = d_cell s /\ d_memo s' = d_memo s.

Lemma obs_pre_core_eq H D s s' v d md :
  d_revs s' = d_revs s -> obs_pre H D s v d md -> obs_pre H D s' v d md.
Proof. intros Hr. unfold obs_pre, lcs. rewrite Hr. auto. Qed.

Lemma obs_ok_core_eq H D s s' g w k : dcore_eq s s' -> obs_ok H D s g w k -> obs_ok H D s' g w k.
Proof.
  intros Hc Ho. pose proof (dcore_eq_cur _ _ Hc) as Hcur.
  destruct Hc as (Hr & Hi & _ & Hmm). destruct Ho as [Oorder Odurge Odur3 Oobs].
  constructor; rewrite ?Hcur; auto.
  intros d0 md Hd0 Hmd Hp. apply (Oobs d0 md Hd0); [rewrite <- Hmm; exact Hmd|].
  apply (obs_pre_core_eq H D s' s); [congruence | exact Hp].
Qed.

Lemma obs_ok_same H D s s' g w k :
  d_revs s' = d_revs s -> d_memo s' = d_memo s -> obs_ok H D s g w k -> obs_ok H D s' g w k.
Proof.
  intros Hr Hmm [Oorder Odurge Odur3 Oobs]. constructor; auto.
  - unfold cur in *. rewrite Hr. exact Oorder.
  - intros d0 md Hd0 Hmd Hp. apply (Oobs d0 md Hd0); [rewrite <- Hmm; exact Hmd|].
    apply (obs_pre_core_eq H D s' s); [congruence | exact Hp].
Qed.

Lemma good_mono H D s s' L v d :
  cur s <= cur s' ->
  (forall g w k, obs_ok H D s g w k -> obs_ok H D s' g w k) ->
  good H D s L v d -> good H D s' L v d.
Proof.
  intros Hc Hm Hg. induction Hg as [d a k Hf Hk Ha Hd | d rho k Ho Hv Hu Hi Hq IH].
  - apply (good_never H D s' L v d a k Hf Hk); [lia | exact Hd].
  - eapply good_exp; eauto.
Qed.

Lemma prov_same H s s' F q v c :
  d_in s' = d_in s -> d_memo s' = d_memo s -> prov H s F q v c -> prov H s' F q v c.
Proof.
  intros Hi Hm [A | (x & Hx & Hs)]; [left; exact A | right].
  exists x. split; [exact Hx | apply (sle_same s s'); assumption].
Qed.

Lemma dmemo_ok_same H D F s s' q m :
  d_revs s' = d_revs s -> d_in s' = d_in s -> d_memo s' = d_memo s ->
  dmemo_ok H D F s q m -> dmemo_ok H D F s' q m.
Proof.
  intros Hr Hi Hmm Hm.
  assert (Hcur : cur s' = cur s) by (unfold cur; rewrite Hr; reflexivity).
  destruct Hm as [Morder Mval Min Mq Mcell Mreach Mflat Mdurge Mdur3 Mstamp Mobs Msync].
  constructor; rewrite ?Hcur; auto.
  - intros Hu0 d0 Hd0 Hn. apply (good_mono H D s s'); [lia | intros; eapply obs_ok_same; eassumption | auto].
  - apply (prov_same H s s'); assumption.
  - intros d0 md Hd0 Hmd Hp. apply (Mobs d0 md Hd0); [rewrite <- Hmm; exact Hmd|].
    apply (obs_pre_core_eq H D s' s); [congruence | exact Hp].
  - intros Hz d0 md Hd0 Hmd. apply (Msync Hz d0 md Hd0). rewrite <- Hmm; exact Hmd.
Qed.

Lemma dmemo_ok_core_eq H D F s s' q m : dcore_eq s s' -> dmemo_ok H D F s q m -> dmemo_ok H D F s' q m.
Proof. intros (Hr & Hi & _ & Hmm). apply dmemo_ok_same; assumption. Qed.

Lemma DInv_core_eq H D F s s' : dcore_eq s s' -> DInv H D F s -> DInv H D F s'.
Proof.
  intros Hc HI. pose proof (dcore_eq_cur _ _ Hc) as Hcur.
  pose proof Hc as (Hr & Hi & Hce & Hm).
  destruct HI as [Icur Irevs Iin Idur Iinle Icell Id3 Iwr Imemo Ighost IlowD Ilowrev].
  constructor; unfold lcs in *; rewrite ?Hcur, ?Hi, ?Hce, ?Hm, ?Hr; auto.
  - intros q m Hq. apply (dmemo_ok_core_eq H D F s); [exact Hc | apply Imemo; exact Hq].
  - intros d0 rho c0 Hn HF. destruct (Ighost d0 rho c0 Hn HF) as (A & B & C0).
    split; [exact A|]. split; [apply (obs_ok_core_eq H D s s' _ _ _ Hc B) | apply (prov_same H s s'); assumption].
Qed.

(* ---------------------------------------------------------------- storing a memo *)
Definition store (s : db) (q : qkey) (m : memo) : db := set_memo s (upd (d_memo s) q (Some m)).

Lemma lcs_store s q m k : lcs (store s q m) k = lcs s k.
Proof. reflexivity. Qed.

(* the memo built by execute from a completed frame (persist mode: the edges are kept) *)
Definition fresh_memo (v : val) (now : rev) (ch : rev) (fr : frame) : memo :=
  {| m_val := Some v; m_verified := now; m_changed := ch; m_dur := fr_dur fr;
     m_untracked := fr_untracked fr; m_edges := fr_edges fr |}.

(* The frame rule: store a memo verified now.  Besides the new memo being ok, every other
   memo that observes q must be served by the new memo. *)
Lemma obs_store H D s q m g w k :
  m_verified m = cur s ->
  obs_ok H D s g w k ->
  (clos H w g q -> obs_pre H D s w q m -> E H w q = E H (cur s) q /\ k <= m_dur m) ->
  obs_ok H D (store s q m) g w k.
Proof.
  intros Hv [Oorder Odurge Odur3 Oobs] Hq. constructor; rewrite ?cur_store; auto.
  intros d0 md Hd0 Hmd Hp0. unfold store in Hmd; cbn in Hmd. unfold upd in Hmd.
  destruct (key_eqb_spec q d0) as [<- | Hne0].
  - injection Hmd as <-. rewrite Hv. apply Hq; [exact Hd0 | exact Hp0].
  - apply (Oobs d0 md Hd0 Hmd). exact Hp0.
Qed.

Lemma prov_mono H s s' F q v c :
  d_in s' = d_in s ->
  (forall d c0, phi s F d = Some c0 -> exists c', phi s' F d = Some c' /\ c0 <= c') ->
  prov H s F q v c -> prov H s' F q v c.
Proof.
  intros Hi Hm [A | (x & Hx & Hs)]; [left; exact A | right].
  exists x. split; [exact Hx | apply (sle_mono s s'); assumption].
Qed.

Lemma DInv_store H D F s q m :
  DInv H D F s ->
  m_verified m = cur s ->
  dmemo_ok H D F (store s q m) q m ->
  (* every observer that has q in its closure gets what it is owed from the new memo *)
  (forall g w k, obs_ok H D s g w k -> clos H w g q ->
     obs_pre H D s w q m ->
     E H w q = E H (cur s) q /\ k <= m_dur m) ->
  (* a memo of q that is verified now and has a value is not replaced ([ext_valid]); one without
     a value is replaced by a memo of at least its durability ([ext_vcur]) *)
  (forall m0, d_memo s q = Some m0 -> m_verified m0 = cur s ->
     (m_val m0 <> None -> m0 = m) /\ m_dur m0 <= m_dur m) ->
  (* the stamp does not decrease *)
  (forall c0, phi s F q = Some c0 -> c0 <= m_changed m) ->
  DInv H D F (store s q m) /\ dext H D F s (store s q m).
Proof.
  intros HI Hv Hok Hobs Hsame Hmono.
  assert (Hall : forall g w k, obs_ok H D s g w k -> obs_ok H D (store s q m) g w k).
  { intros g w k Ho. apply obs_store; [exact Hv | exact Ho|]. intros Hcl Hp. apply (Hobs g w k Ho Hcl Hp). }
  assert (Hphi : forall d c0, phi s F d = Some c0 -> exists c', phi (store s q m) F d = Some c' /\ c0 <= c').
  { intros d c0. apply phi_store. exact Hmono. }
  destruct HI as [Icur Irevs Iin Idur Iinle Icell Id3 Iwr Imemo Ighost IlowD Ilowrev].
  split.
  - (* the invariant *)
    constructor; rewrite ?cur_store; auto.
    + (* inv_memo: the stored memo by hypothesis, the others clause by clause *)
      intros p mp Hp. unfold store in Hp; cbn in Hp. unfold upd in Hp.
      destruct (key_eqb_spec q p) as [<- | Hne].
      * injection Hp as <-. exact Hok.
      * pose proof (Imemo p mp Hp) as Hmp. pose proof (obs_of_memo _ _ _ _ _ _ Hmp) as Hop.
        destruct Hmp as [Morder Mval Min Mq Mcell Mreach Mflat Mdurge Mdur3 Mstamp Mobs Msync].
        constructor; rewrite ?cur_store; auto.
        -- (* mo_q *) intros Hu0 d0 Hd0 Hn. apply (good_mono H D s); [rewrite cur_store; lia | exact Hall | auto].
        -- (* mo_stamp *) apply (prov_mono H s (store s q m)); [reflexivity | exact Hphi | exact Mstamp].
        -- (* mo_obs: p is an observer, and observers stay observers *)
           apply (ob_obs _ _ _ _ _ _ (Hall _ _ _ Hop)).
        -- (* mo_sync *) intros Hz d0 md Hd0 Hmd. unfold store in Hmd; cbn in Hmd. unfold upd in Hmd.
           destruct (key_eqb_spec q d0) as [<- | Hne0].
           ++ injection Hmd as <-. rewrite Hv. lia.
           ++ apply (Msync Hz d0 md Hd0 Hmd).
    + (* inv_ghost *)
      intros d0 rho c0 Hn HF. unfold store in Hn; cbn in Hn. unfold upd in Hn.
      destruct (key_eqb_spec q d0) as [<- | Hne]; [discriminate|].
      destruct (Ighost d0 rho c0 Hn HF) as (A & B & C0).
      split; [exact A|]. split; [apply Hall; exact B|].
      apply (prov_mono H s (store s q m)); [reflexivity | exact Hphi | exact C0].
  - (* the extension *)
    constructor; try reflexivity; auto.
    + (* ext_valid *) intros p mp Hp Hvp Hxp. unfold store; cbn. unfold upd.
      destruct (key_eqb_spec q p) as [<- | Hne]; [|exact Hp].
      destruct (Hsame mp Hp Hvp) as [Heq _]. rewrite (Heq Hxp). reflexivity.
    + (* ext_vcur *) intros p mp Hp Hvp. unfold store; cbn. unfold upd.
      destruct (key_eqb_spec q p) as [<- | Hne].
      * exists m. split; [reflexivity|]. split; [exact Hv|].
        destruct (Hsame mp Hp Hvp) as [_ Hle]. exact Hle.
      * exists mp. split; [exact Hp|]. split; [exact Hvp | lia].
    + (* ext_old *) intros p mp Hp Hvp. unfold store in Hp; cbn in Hp. unfold upd in Hp.
      destruct (key_eqb_spec q p) as [<- | Hne]; [|exact Hp].
      injection Hp as <-. lia.
Qed.

(* ---------------------------------------------------------------- panics that may escape a Get *)
(* an injected fault while some fault switch is on, and the panic of an uninitialised function
   ingredient while some function ingredient is uninitialised (the backdate-violation assertion
   of debug builds is unreachable: stamps never decrease, [ext_mono]) *)
Definition dallowed (s : db) (p : ppanic) : Prop :=
  (p = PB PInjected /\ exists c, d_pcell s c <> 0) \/
  (p = PUninit /\ exists fam, d_init s fam = false).

End LInv.
