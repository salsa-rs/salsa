(* Persist/PInvSem.v — what Core/DInvSem.v is for the Core model, for the invariant of PInv.v:
   when may a memo be marked verified now (edge walk or durability short-cut), and when is a
   freshly computed memo ok, including what every observer of the query is owed, and that stamps
   never decrease ([frame_changed_lb]). *)
From Salsa Require Import Base.
From Salsa.Kern Require Import CoreK CoreKFacts.
From Salsa.Core Require Import Model Spec SpecProofs Inv DurSem.
From Salsa.Persist Require Import Model PSem PWp PInv.

Section Sem.
Variable prog : qkey -> CM.body.
Variable rank : qkey -> nat.
Hypothesis Hrank : calls_below prog rank.
Variable NF : nat.
Hypothesis Hbound : forall q, (rank q < NF)%nat.
Variable pf : qkey -> bool.
Variable F : ghost.
Notation E := (E prog NF).
Notation tr := (tr prog NF).
Notation envat := (envat prog NF).
Notation durge := (durge prog NF).
Notation clos := (clos prog NF).
Notation dmemo_ok := (fun H D => dmemo_ok prog NF pf H D F).
Notation DInv := (fun H D => DInv prog NF pf H D F).
Notation obs_pre := (obs_pre prog NF).
Notation obs_ok := (obs_ok prog NF).
Notation good := (good prog NF pf).
Notation dext := (fun H D => dext prog NF H D F).
Notation sle := (fun s => sle s F).
Notation prov := (fun H s => prov prog NF H s F).

Notation same_run := (same_run prog rank Hrank NF Hbound).
Notation same_run_common := (same_run_common prog rank Hrank NF Hbound).

(* a memo verified now serves the whole closure of its query *)
Lemma obs_of_callee H D s d1 md1 d md :
  DInv H D s -> d_memo s d1 = Some md1 -> m_verified md1 = cur s -> clos H (cur s) d1 d ->
  d_memo s d = Some md ->
  E H (cur s) d = E H (m_verified md) d /\ m_dur md1 <= m_dur md.
Proof.
  intros HI Hm1 Hv1 Hc Hmd.
  pose proof (inv_memo _ _ _ _ _ _ _ HI d1 md1 Hm1) as Hok1.
  rewrite <- Hv1 in Hc. rewrite <- Hv1.
  apply (mo_obs _ _ _ _ _ _ _ _ _ Hok1 d md Hc Hmd).
  left. pose proof (mo_order _ _ _ _ _ _ _ _ _ (inv_memo _ _ _ _ _ _ _ HI d md Hmd)) as (_ & A & B).
  rewrite Hv1. lia.
Qed.

(* never-change callees stay what they are *)
Lemma never_now H D s a d :
  DInv H D s -> 1 <= a -> a <= cur s -> durge H D a 3 d ->
  tr H (cur s) d = tr H a d /\ E H (cur s) d = E H a d /\ durge H D (cur s) 3 d.
Proof.
  intros HI Ha Hle Hd.
  apply (durge_stable prog rank Hrank NF Hbound H D 3 a (cur s) d (cur s));
    [lia | apply (stable_never prog NF pf H D F s a HI Ha) | exact Hd | exact Hle | lia].
Qed.

Lemma reverified_dok H D s q m :
  DInv H D s -> d_memo s q = Some m ->
  tr H (cur s) q = tr H (m_verified m) q -> E H (cur s) q = E H (m_verified m) q ->
  durge H D (cur s) (m_dur m) q ->
  (* what was flattened away is covered from now on as well *)
  (m_untracked m = false ->
   forall d, In (RQ d) (tr H (m_verified m) q) -> ~ In (EQ d) (m_edges m) ->
     good H D s (m_edges m) (cur s) d) ->
  (forall d md, In (EQ d) (m_edges m) -> clos H (cur s) q d -> d_memo s d = Some md ->
     cur s <= m_verified md \/ cconst prog NF H (m_verified md) (cur s) d) ->
  (forall d md, clos H (cur s) q d -> d <> q -> d_memo s d = Some md ->
     E H (cur s) d = E H (m_verified md) d /\ m_dur m <= m_dur md) ->
  let m' := reverify m (cur s) in
  (forall g w k, obs_ok H D s g w k -> obs_ok H D (store s q m') g w k) ->
  dmemo_ok H D (store s q m') q m'.
Proof.
  intros HI Hm Htr' HE Hdg Hgood Hsync Hclos m' Hall.
  pose proof (inv_memo _ _ _ _ _ _ _ HI q m Hm) as Hok.
  pose proof (mo_order _ _ _ _ _ _ _ _ _ Hok) as (Ho1 & Ho2 & Ho3).
  assert (Hphi : forall c0, PInv.phi s F q = Some c0 -> c0 <= m_changed m').
  { intros c0 Hc0. unfold PInv.phi in Hc0. rewrite Hm in Hc0. injection Hc0 as <-. cbn. lia. }
  destruct Hok as [Morder Mval Min Mq Mcell Mreach Mdirect Mdurge Mdur3 Mstamp Mobs Msync].
  constructor; cbn [m' reverify m_val m_verified m_changed m_dur m_untracked m_edges];
    rewrite ?cur_store; unfold PInv.prov; rewrite ?Htr'; try assumption.
  + (* mo_order *) pose proof (inv_cur _ _ _ _ _ _ _ HI). lia.
  + (* mo_val: the value is the same at both revisions *)
    intros x Hx. rewrite HE. apply Mval; exact Hx.
  + (* mo_q: what was flattened away *)
    intros Hu0 d0 Hd0 Hn. apply (good_mono prog NF pf H D s); [apply N.le_refl | exact Hall | | apply Hgood; assumption].
    intros e0 me0 He0. unfold store in He0; cbn in He0. unfold upd in He0.
    destruct (key_eqb_spec q e0) as [<- | Hne1]; [right; injection He0 as <-; cbn; lia | left; exact He0].
  + (* mo_stamp: the provenance of the unchanged stamp, over stamps that did not go down *)
    apply (prov_mono prog NF H s (store s q m') F q (m_verified m) (m_changed m)); [reflexivity | | exact Mstamp].
    intros d0 c0. apply phi_store. exact Hphi.
  + (* mo_obs: the memo observes its closure from now on *)
    intros d0 md Hd0 Hmd _. unfold store in Hmd; cbn in Hmd. unfold upd in Hmd.
    destruct (key_eqb_spec q d0) as [<- | Hne].
    * injection Hmd as <-. split; [reflexivity | cbn; lia].
    * apply (Hclos d0 md Hd0); [congruence | exact Hmd].
  + (* mo_sync: the memos of its edges; q is not an edge of itself *)
    intros d0 md Hd0 Hcl0 Hmd. unfold store in Hmd; cbn in Hmd. unfold upd in Hmd.
    destruct (key_eqb_spec q d0) as [<- | Hne].
    * exfalso. pose proof (reach_rank prog rank Hrank q q (Mreach q Hd0)). lia.
    * apply (Hsync d0 md Hd0 Hcl0 Hmd).
Qed.

Lemma revalidate_ok H D s q m :
  DInv H D s -> d_memo s q = Some m ->
  agree_on (envat H (m_verified m)) (envat H (cur s)) (tr H (m_verified m) q) ->
  (forall i, In (RIn i) (tr H (m_verified m) q) -> D (cur s) i = D (m_verified m) i) ->
  durge H D (cur s) (m_dur m) q ->
  (* what was flattened away is covered from now on as well *)
  (m_untracked m = false ->
   forall d, In (RQ d) (tr H (m_verified m) q) -> ~ In (EQ d) (m_edges m) ->
     good H D s (m_edges m) (cur s) d) ->
  (forall d md, In (EQ d) (m_edges m) -> clos H (cur s) q d -> d_memo s d = Some md ->
     cur s <= m_verified md \/ cconst prog NF H (m_verified md) (cur s) d) ->
  (forall d md, clos H (cur s) q d -> d <> q -> d_memo s d = Some md ->
     E H (cur s) d = E H (m_verified md) d /\ m_dur m <= m_dur md) ->
  let m' := reverify m (cur s) in
  DInv H D (store s q m') /\ dext H D s (store s q m') /\ E H (cur s) q = E H (m_verified m) q.
Proof.
  intros HI Hm Hag HDin Hdg Hgood Hsync Hclos m'.
  pose proof (inv_memo _ _ _ _ _ _ _ HI q m Hm) as Hok.
  destruct (same_run H _ _ q Hag) as [Htr' HE].
  pose proof (mo_order _ _ _ _ _ _ _ _ _ Hok) as (Ho1 & Ho2 & Ho3).
  assert (Hobs : forall g w k, obs_ok H D s g w k -> clos H w g q -> obs_pre H D s w q m' ->
             E H w q = E H (cur s) q /\ k <= m_dur m').
  { intros g w k Hog Hcl Hpre.
    destruct (ob_obs _ _ _ _ _ _ _ _ Hog q m Hcl Hm) as [A B]; [exact Hpre|].
    split; [rewrite A; symmetry; exact HE | exact B]. }
  assert (Hall : forall g w k, obs_ok H D s g w k -> obs_ok H D (store s q m') g w k).
  { intros g w k Ho. apply obs_store; [reflexivity | exact Ho|]. intros Hcl Hp. apply (Hobs g w k Ho Hcl Hp). }
  assert (Hfin : DInv H D (store s q m') /\ dext H D s (store s q m')).
  assert (Hphi : forall c0, PInv.phi s F q = Some c0 -> c0 <= m_changed m').
  { intros c0 Hc0. unfold PInv.phi in Hc0. rewrite Hm in Hc0. injection Hc0 as <-. cbn. lia. }
  { apply (DInv_store prog NF pf H D F s q m' HI); [reflexivity | | exact Hobs | | exact Hphi | left; exists m; split; [exact Hm | reflexivity]].
    - exact (reverified_dok H D s q m HI Hm Htr' HE Hdg Hgood Hsync Hclos Hall).
    - intros m0 Hm0 Hv0. rewrite Hm in Hm0. injection Hm0 as <-.
      split; [|cbn; lia]. intros _. unfold m'. rewrite <- Hv0. symmetry. apply reverify_same. }
  destruct Hfin as [A B]. split; [exact A|]. split; [exact B | exact HE].
Qed.

(* Nothing at the memo's level was written since it was verified: what was flattened away is
   constant in the window, and covered by observers at the current revision. *)
Lemma stable_reroot H D s q m :
  DInv H D s -> d_memo s q = Some m -> 1 <= m_dur m -> lcs s (m_dur m) <= m_verified m ->
  (forall d, durge H D (m_verified m) (m_dur m) d ->
     tr H (cur s) d = tr H (m_verified m) d /\ E H (cur s) d = E H (m_verified m) d /\
     durge H D (cur s) (m_dur m) d) ->
  forall d, good H D s (m_edges m) (m_verified m) d -> clos H (m_verified m) q d ->
    good H D s (m_edges m) (cur s) d.
Proof.
  intros HI Hm Hk Hlc Hst.
  pose proof (stable_now prog NF pf H D F s (m_dur m) (m_verified m) HI Hlc) as Hw.
  pose proof (inv_memo _ _ _ _ _ _ _ HI q m Hm) as Hok.
  pose proof (mo_order _ _ _ _ _ _ _ _ _ Hok) as (Ho1 & Ho2 & Ho3).
  pose proof (mo_durge _ _ _ _ _ _ _ _ _ Hok) as Hdg.
  refine (good_rec prog rank Hrank NF pf H D s (m_edges m) (m_verified m) _ _).
  intros d rho kd Hg Ho Hv Hun Hi Hl Hq IH Hcl.
  pose proof (ob_order _ _ _ _ _ _ _ _ Ho) as (_ & Hr2).
  pose proof (durge_clos _ _ _ _ _ _ _ _ Hdg Hcl) as Hdd.
  destruct (durge_stable prog rank Hrank NF Hbound H D (m_dur m) (m_verified m) (cur s) d rho Hk Hw Hdd Hv Hr2)
    as (Htr_r & _ & _).
  destruct (Hst d Hdd) as (Htr_c & _ & _).
  assert (Htr : tr H (cur s) d = tr H rho d) by congruence.
  apply (good_exp prog NF pf H D s (m_edges m) (cur s) d (cur s) 0).
  - constructor.
    + split; [apply (inv_cur _ _ _ _ _ _ _ HI) | apply N.le_refl].
    + apply (durge_zero prog rank Hrank NF H D).
    + lia.
    + intros x mx Hx Hmx _. split; [|lia].
      apply (clos_stable prog rank Hrank NF Hbound H D (m_dur m) (m_verified m) (cur s) d (cur s) Hk Hw Hdd Ho3 (N.le_refl _)) in Hx.
      assert (Hqx : clos H (m_verified m) q x) by (eapply clos_trans; eassumption).
      pose proof (durge_clos _ _ _ _ _ _ _ _ Hdg Hqx) as Hdx.
      destruct (mo_obs _ _ _ _ _ _ _ _ _ Hok x mx Hqx Hmx) as [A _];
        [right; exists (m_dur m); split; assumption|].
      rewrite <- A. apply (Hst x Hdx).
  - apply N.le_refl.
  - intros y Hy. rewrite Htr in Hy. apply (Hun y Hy).
  - intros i Hi0. rewrite Htr in Hi0. apply (Hi i Hi0).
  - (* a leaf: its memo is at least as recent, or it is constant up to now *)
    intros e me He HeL Hpe Hme. rewrite Htr in He.
    pose proof (mo_order _ _ _ _ _ _ _ _ _ (inv_memo _ _ _ _ _ _ _ HI e me Hme)) as (_ & _ & Hve).
    assert (Hqe : clos H (m_verified m) q e) by (eapply clos_right; [exact Hcl | rewrite <- Htr_r; exact He]).
    pose proof (durge_clos _ _ _ _ _ _ _ _ Hdg Hqe) as Hde.
    pose proof (cconst_stable prog rank Hrank NF Hbound H D (m_dur m) (m_verified m) (cur s) e Hk Hw Hde) as Hcc.
    right. destruct (N.le_gt_cases (m_verified m) (m_verified me)) as [Hle | Hgt].
    + apply (cconst_win prog NF H (m_verified m) (m_verified me) (cur s) e Hcc Hle Hve).
    + destruct (Hl e me He HeL Hpe Hme) as [A | A]; [lia|].
      pose proof (cconst_win prog NF H (m_verified m) rho (cur s) e Hcc Hv Hr2) as Hcc2.
      apply (cconst_trans prog NF H (m_verified me) rho (cur s) e A Hcc2); lia.
  - intros d' Hd' HnL. rewrite Htr in Hd'.
    apply (IH d' Hd' HnL).
    eapply clos_right; [exact Hcl|]. rewrite <- Htr_r. exact Hd'.
Qed.

(* The durability short-cut: nothing at the memo's level was written since it was verified. *)
Lemma shortcut_ok H D s q m :
  DInv H D s -> d_memo s q = Some m ->
  lcs s (m_dur m) <= m_verified m ->
  let m' := reverify m (cur s) in
  DInv H D (store s q m') /\ dext H D s (store s q m') /\ E H (cur s) q = E H (m_verified m) q.
Proof.
  intros HI Hm Hlc.
  pose proof (inv_memo _ _ _ _ _ _ _ HI q m Hm) as Hok.
  pose proof (mo_order _ _ _ _ _ _ _ _ _ Hok) as (Ho1 & Ho2 & Ho3).
  destruct (N.eq_dec (m_verified m) (cur s)) as [Heq | Hne].
  - (* already verified now: nothing moves *)
    apply (revalidate_ok H D s q m HI Hm); rewrite <- ?Heq.
    + intros x _. reflexivity.
    + intros i _. reflexivity.
    + apply (mo_durge _ _ _ _ _ _ _ _ _ Hok).
    + apply (mo_q _ _ _ _ _ _ _ _ _ Hok).
    + apply (mo_sync _ _ _ _ _ _ _ _ _ Hok).
    + intros d md Hd Hdq Hmd.
      apply (mo_obs _ _ _ _ _ _ _ _ _ Hok d md Hd Hmd). left.
      pose proof (mo_order _ _ _ _ _ _ _ _ _ (inv_memo _ _ _ _ _ _ _ HI d md Hmd)) as (_ & A & B). lia.
  - assert (Hk : 1 <= m_dur m).
    { destruct (N.eq_dec (m_dur m) 0) as [H0 | H0]; [|lia].
      rewrite H0 in Hlc. unfold lcs in Hlc. rewrite lc_zero in Hlc. unfold cur in *. lia. }
    pose proof (stable_now prog NF pf H D F s (m_dur m) (m_verified m) HI Hlc) as Hw.
    pose proof (mo_durge _ _ _ _ _ _ _ _ _ Hok) as Hdg.
    assert (Hst : forall d, durge H D (m_verified m) (m_dur m) d ->
              tr H (cur s) d = tr H (m_verified m) d /\ E H (cur s) d = E H (m_verified m) d /\
              durge H D (cur s) (m_dur m) d).
    { intros d Hd.
      apply (durge_stable prog rank Hrank NF Hbound H D (m_dur m) (m_verified m) (cur s) d (cur s));
        [exact Hk | exact Hw | exact Hd | exact Ho3 | lia]. }
    apply (revalidate_ok H D s q m HI Hm).
    + intros x Hx. destruct x as [i | d | c |]; cbn.
      * symmetry. apply (Hw i); [apply (durge_in _ _ _ _ _ _ _ _ Hdg Hx) | lia | lia].
      * symmetry. apply (Hst d). apply (durge_q _ _ _ _ _ _ _ _ Hdg Hx).
      * exfalso. assert (m_dur m = 0); [|lia].
        apply (durge_untr _ _ _ _ _ _ _ _ Hdg Hx). right; eauto.
      * reflexivity.
    + intros i Hi. apply (Hw i); [apply (durge_in _ _ _ _ _ _ _ _ Hdg Hi) | lia | lia].
    + apply (Hst q Hdg).
    + (* what was flattened away: constant in the window, observers at the current revision *)
      intros Hu0.
      intros d Hd Hn.
      apply (stable_reroot H D s q m HI Hm Hk Hlc Hst d (mo_q _ _ _ _ _ _ _ _ _ Hok Hu0 d Hd Hn)). apply clos_one. exact Hd.
    + intros d md Hd Hcl Hmd.
      apply (clos_stable prog rank Hrank NF Hbound H D (m_dur m) (m_verified m) (cur s) q (cur s) Hk Hw Hdg Ho3 (N.le_refl _)) in Hcl.
      pose proof (durge_clos _ _ _ _ _ _ _ _ Hdg Hcl) as Hdd.
      pose proof (cconst_stable prog rank Hrank NF Hbound H D (m_dur m) (m_verified m) (cur s) d Hk Hw Hdd) as Hcc.
      pose proof (mo_order _ _ _ _ _ _ _ _ _ (inv_memo _ _ _ _ _ _ _ HI d md Hmd)) as (_ & _ & Hvd).
      destruct (mo_sync _ _ _ _ _ _ _ _ _ Hok d md Hd Hcl Hmd) as [Hle | Hold].
      * right. apply (cconst_win prog NF H (m_verified m) (m_verified md) (cur s) d Hcc Hle Hvd).
      * right. destruct (N.le_gt_cases (m_verified m) (m_verified md)) as [Hle | Hgt].
        -- apply (cconst_win prog NF H (m_verified m) (m_verified md) (cur s) d Hcc Hle Hvd).
        -- apply (cconst_trans prog NF H (m_verified md) (m_verified m) (cur s) d Hold Hcc); lia.
    + intros d md Hd Hdq Hmd.
      apply (clos_stable prog rank Hrank NF Hbound H D (m_dur m) (m_verified m) (cur s) q (cur s) Hk Hw Hdg Ho3 (N.le_refl _)) in Hd.
      pose proof (durge_clos _ _ _ _ _ _ _ _ Hdg Hd) as Hdd.
      destruct (mo_obs _ _ _ _ _ _ _ _ _ Hok d md Hd Hmd) as [A B];
        [right; exists (m_dur m); split; assumption|].
      split; [|exact B]. rewrite <- A. apply (Hst d Hdd).
Qed.

(* ---------------------------------------------------------------- frames *)
Record covers (s : db) (pre : list rd) (fr : frame) : Prop := {
  cv_in : forall i, In (RIn i) pre ->
          In (EIn i) (fr_edges fr) /\
          f_changed (d_in s i) <= fr_changed fr /\ fr_dur fr <= f_dur (d_in s i);
  cv_q : forall d, In (RQ d) pre ->
         exists md, d_memo s d = Some md /\ m_verified md = cur s /\ m_val md <> None /\
                    m_changed md <= fr_changed fr /\ fr_dur fr <= m_dur md /\
                    In (EQ d) (fr_edges fr);
  cv_cell : forall x, In x pre -> untr x ->
            fr_untracked fr = true /\ fr_changed fr = cur s /\ fr_dur fr = 0;
  cv_edges_q : forall d, In (EQ d) (fr_edges fr) -> In (RQ d) pre;
  cv_le : fr_changed fr <= cur s;
  cv_ge1 : 1 <= fr_changed fr;
  (* the frame's stamp is the stamp of something that was read *)
  cv_stamp : fr_changed fr <= 1 \/ exists x, In x pre /\ sle s (fr_changed fr) x;
  cv_dur3 : fr_dur fr <= 3;
  cv_untr : fr_untracked fr = true -> fr_dur fr = 0;
  (* the frame's durability is exactly the minimum over what was read *)
  cv_lb : forall k, k <= 3 ->
          (forall i, In (RIn i) pre -> k <= f_dur (d_in s i)) ->
          (forall d, In (RQ d) pre -> forall md, d_memo s d = Some md -> k <= m_dur md) ->
          (forall x, In x pre -> untr x -> k = 0) ->
          k <= fr_dur fr
}.

(* the invariant's clauses in the terms of InvBase.v *)
Lemma obs_to H D s g w k : obs_ok H D s g w k -> observer prog NF H D s g w k.
Proof. intros [Oorder Odurge Odur3 Oobs]. constructor; assumption. Qed.

Lemma covers_to s pre fr : covers s pre fr -> InvBase.covers F s pre fr.
Proof. intros [a b c d e f g h i j]. constructor; assumption. Qed.

Lemma DInv_inputs H D s : DInv H D s -> inputs_ok H D s.
Proof.
  intros HI. constructor;
    [apply (inv_in _ _ _ _ _ _ _ HI) | apply (inv_dur _ _ _ _ _ _ _ HI) | apply (inv_in_le _ _ _ _ _ _ _ HI)].
Qed.

Lemma DInv_durge H D s : DInv H D s ->
  forall d md, d_memo s d = Some md -> durge H D (m_verified md) (m_dur md) d.
Proof. intros HI d md Hmd. apply (mo_durge _ _ _ _ _ _ _ _ _ (inv_memo _ _ _ _ _ _ _ HI d md Hmd)). Qed.

(* Stamps never decrease: the stamp of a completed frame is at least the stamp c that q had as
   observer at rho (its old memo, or the memo a restore dropped). *)
Lemma frame_changed_lb H D s q fr rho c k :
  DInv H D s -> covers s (tr H (cur s) q) fr ->
  obs_ok H D s q rho k -> c <= rho -> prov H s q rho c ->
  c <= fr_changed fr.
Proof.
  intros HI Hcv Hog.
  exact (InvBase.frame_changed_lb prog NF F H D s q fr rho c k (DInv_inputs H D s HI) (covers_to s _ fr Hcv) (obs_to H D s q rho k Hog)).
Qed.

Lemma phi_entry H D s d c0 :
  DInv H D s -> PInv.phi s F d = Some c0 ->
  exists r k, c0 <= r /\ obs_ok H D s d r k /\ prov H s d r c0.
Proof.
  intros HI Hc0. unfold PInv.phi in Hc0. destruct (d_memo s d) as [md|] eqn:Hmd.
  - injection Hc0 as <-. pose proof (inv_memo _ _ _ _ _ _ _ HI d md Hmd) as Hokd.
    exists (m_verified md), (m_dur md). split; [pose proof (mo_order _ _ _ _ _ _ _ _ _ Hokd); lia|].
    split; [apply (obs_of_memo prog NF pf H D F s d md Hokd) | apply (mo_stamp _ _ _ _ _ _ _ _ _ Hokd)].
  - destruct (F d) as [[r cc]|] eqn:HF; [|discriminate]. cbn in Hc0. injection Hc0 as <-.
    destruct (inv_ghost _ _ _ _ _ _ _ HI d r cc Hmd HF) as (A & B & C0).
    exists r, 0. split; [exact A|]. split; assumption.
Qed.

(* the stamp that q has now is at most the stamp of a completed frame *)
Lemma phi_frame_lb H D s q fr c0 :
  DInv H D s -> covers s (tr H (cur s) q) fr -> PInv.phi s F q = Some c0 -> c0 <= fr_changed fr.
Proof.
  intros HI Hcv Hc0. destruct (phi_entry H D s q c0 HI Hc0) as (r & k & A & B & C0).
  exact (frame_changed_lb H D s q fr r c0 k HI Hcv B A C0).
Qed.

Lemma fresh_memo_dok H D s q fr v ch :
  DInv H D s -> covers s (tr H (cur s) q) fr -> v = E H (cur s) q ->
  ch <= fr_changed fr -> (forall c0, PInv.phi s F q = Some c0 -> c0 <= ch) ->
  let m' := fresh_memo v (cur s) ch fr in
  dmemo_ok H D (store s q m') q m'.
Proof.
  intros HI Hcv Hv Hch_fr Hmono m'.
  pose proof (cv_le _ _ _ Hcv) as Hfr_le.
  assert (Hch_le : ch <= cur s) by lia.
  assert (Hcur1 : 1 <= cur s) by apply (inv_cur _ _ _ _ _ _ _ HI).
  pose proof (covers_durge prog NF F H D s q fr (DInv_inputs H D s HI) (DInv_durge H D s HI) (covers_to s _ fr Hcv)) as Hdg.
    constructor; cbn [m' fresh_memo m_val m_verified m_changed m_dur m_untracked m_edges]; rewrite ?cur_store.
    + lia.
    + intros x Hx. injection Hx as <-. exact Hv.
    + intros i Hi. apply (cv_in _ _ _ Hcv i Hi).
    + intros _ d Hd Hn. exfalso. apply Hn.
      destruct (cv_q _ _ _ Hcv d Hd) as (md & _ & _ & _ & _ & _ & Hin). exact Hin.
    + intros x Hx Hu. apply (cv_cell _ _ _ Hcv x Hx Hu).
    + intros d Hd. apply reach_one. apply (calls_of_trace _ _ _ (cv_edges_q _ _ _ Hcv d Hd)).
    + intros _ d Hd. destruct (cv_q _ _ _ Hcv d Hd) as (md & _ & _ & _ & _ & _ & Hin). exact Hin.
    + exact Hdg.
    + apply (cv_dur3 _ _ _ Hcv).
    + (* the stamp has a provenance in the new run *)
      destruct (cv_stamp _ _ _ Hcv) as [A | (x & Hx & Hs)]; [left; lia | right].
      exists x. split; [exact Hx|].
      apply (sle_mono s (store s q m') F ch x); [reflexivity | intros d0 c0; apply phi_store; exact Hmono|].
      destruct x as [i | d | cc |]; cbn in Hs |- *; auto.
      * lia.
      * destruct Hs as (c' & Hc' & Hle). exists c'. split; [exact Hc' | lia].
    + intros d md Hd Hmd _. unfold store in Hmd; cbn in Hmd. unfold upd in Hmd.
      destruct (key_eqb_spec q d) as [<- | Hne].
      * injection Hmd as <-. split; [reflexivity | cbn; lia].
      * assert (Hstep : exists d1, In (RQ d1) (tr H (cur s) q) /\ clos H (cur s) d1 d).
        { destruct Hd as [f | f d1 e Hin Hd1]; [contradiction | exists d1; split; assumption]. }
        destruct Hstep as (d1 & Hin1 & Hd1).
        destruct (covers_callee prog NF F H D s q fr d1 (DInv_durge H D s HI) (covers_to s _ fr Hcv) Hin1) as (md1 & Hmd1 & Hvd1 & _ & Hle1 & _).
        destruct (obs_of_callee H D s d1 md1 d md HI Hmd1 Hvd1 Hd1 Hmd) as (HEd & Hdd).
        split; [exact HEd | lia].
    + intros d md Hd _ Hmd. left. unfold store in Hmd; cbn in Hmd. unfold upd in Hmd.
      pose proof (cv_edges_q _ _ _ Hcv d Hd) as Hrd.
      destruct (key_eqb_spec q d) as [<- | Hne].
      * pose proof (tr_calls prog rank Hrank NF H _ _ _ Hrd). lia.
      * destruct (cv_q _ _ _ Hcv d Hrd) as (md0 & Hmd0 & Hvd0 & _).
        rewrite Hmd in Hmd0. injection Hmd0 as <-. lia.
Qed.

Lemma fresh_memo_lb H D s q fr v ch :
  DInv H D s -> covers s (tr H (cur s) q) fr ->
  let m' := fresh_memo v (cur s) ch fr in
  fresh_lb prog NF H D (store s q m') q (m_dur m').
Proof.
  intros HI Hcv m'.
  assert (HDcur : forall i, D (cur s) i = f_dur (d_in s i)).
  { intros i. apply (inv_dur _ _ _ _ _ _ _ HI); [apply (inv_in_le _ _ _ _ _ _ _ HI) | lia]. }
  cbn [m' fresh_memo m_dur]. unfold fresh_lb. rewrite cur_store.
    assert (Hsame_memo : forall d, In (RQ d) (tr H (cur s) q) -> d_memo (store s q m') d = d_memo s d).
  { intros d Hd. unfold store; cbn. apply upd_other. intros <-.
    pose proof (tr_calls prog rank Hrank NF H _ _ _ Hd). lia. }
  split.
  + intros d Hd. rewrite (Hsame_memo d Hd).
    destruct (cv_q _ _ _ Hcv d Hd) as (md & A & B & C & _). exists md. split; [exact A|]. split; assumption.
  + intros k0 Hk0 Hi Hq Hu. apply (cv_lb _ _ _ Hcv k0 Hk0).
    * intros i Hi0. rewrite <- HDcur. apply Hi. exact Hi0.
    * intros d Hd md Hmd. apply (Hq d md Hd). rewrite (Hsame_memo d Hd). exact Hmd.
    * exact Hu.
Qed.

Lemma fresh_store_ok H D s q fr v ch (old : option memo) :
  DInv H D s ->
  covers s (tr H (cur s) q) fr ->
  v = E H (cur s) q ->
  d_memo s q = old ->
  (forall m0, old = Some m0 -> m_verified m0 = cur s -> m_val m0 = None) ->
  (* ch is the frame's stamp, or the old memo's (backdating) *)
  (ch = fr_changed fr \/
   exists o ov, old = Some o /\ m_val o = Some ov /\ ov = v /\ ch = m_changed o /\
                m_dur o <= fr_dur fr) ->
  let m' := fresh_memo v (cur s) ch fr in
  DInv H D (store s q m') /\ dext H D s (store s q m').
Proof.
  intros HI Hcv Hv Hold Hnv Hch m'.
  assert (Hmono : forall c0, PInv.phi s F q = Some c0 -> c0 <= ch).
  { intros c0 Hc0. destruct Hch as [-> | (o & ov & Ho & _ & _ & -> & _)].
    - apply (phi_frame_lb H D s q fr c0 HI Hcv Hc0).
    - subst old. unfold PInv.phi in Hc0. rewrite Ho in Hc0. injection Hc0 as <-. lia. }
  assert (Hch_fr : ch <= fr_changed fr).
  { destruct Hch as [-> | (o & ov & Ho & _ & _ & -> & _)]; [lia|].
    subst old. apply (phi_frame_lb H D s q fr (m_changed o) HI Hcv). unfold PInv.phi. rewrite Ho. reflexivity. }
  assert (Hmdle : forall d md, d_memo s d = Some md -> m_changed md <= cur s).
  { intros d md Hmd. pose proof (mo_order _ _ _ _ _ _ _ _ _ (inv_memo _ _ _ _ _ _ _ HI d md Hmd)). lia. }
  apply (DInv_store prog NF pf H D F s q m' HI); [reflexivity | | | | exact Hmono |].
  - exact (fresh_memo_dok H D s q fr v ch HI Hcv Hv Hch_fr Hmono).
  - (* observers *)
    intros g w k Hog Hcl Hpre.
    apply (fresh_observed prog rank Hrank NF Hbound F H D s q fr v ch old g w k (DInv_inputs H D s HI));
      [intros k0 a; apply (stable_now prog NF pf H D F s k0 a HI) | exact Hmdle | | apply covers_to; exact Hcv
       | exact Hv | exact Hold | exact Hch | apply obs_to; exact Hog | exact Hcl | exact Hpre].
    intros o ov Ho. apply (mo_val _ _ _ _ _ _ _ _ _ (inv_memo _ _ _ _ _ _ _ HI q o Ho)).
  - (* the query's own memo, if it was verified now (and evicted) *)
    intros m0 Hm0 Hv0.
    split; [intros Hx; exfalso; apply Hx; apply Hnv; [congruence | exact Hv0]|].
    cbn [m' fresh_memo m_dur].
    apply (InvBase.frame_dur_lb prog NF F H D s q fr q (m_verified m0) (m_dur m0) (DInv_inputs H D s HI)
             (covers_to s _ fr Hcv) (obs_to _ _ _ _ _ _ (obs_of_memo prog NF pf H D F s q m0 (inv_memo _ _ _ _ _ _ _ HI q m0 Hm0))));
      rewrite ?Hv0; auto.
    + apply clos_refl.
    + intros d md _ Hmd. left. apply (Hmdle d md Hmd).
  - (* computed now *)
    right. exact (fresh_memo_lb H D s q fr v ch HI Hcv).
Qed.

(* ---------------------------------------------------------------- the edge walk succeeded *)
(* What the walk (from state s0 to state s) established about an edge of q's memo m:
   an input field has an old stamp; a function has a memo that is verified now, every observer
   of the state the walk started in, at a revision >= verified_at, that has it in its closure
   saw the value it has now, and if q itself has it in its closure its recorded durability is
   above the memo's. *)
Definition leaf_ok H D (s0 s : db) (q : qkey) (m : memo) (e : edge) : Prop :=
  match e with
  | EIn i => f_changed (d_in s i) <= m_verified m
  | EQ d =>
      (exists md, d_memo s d = Some md /\ m_verified md = cur s) /\
      (forall g w k, obs_ok H D s0 g w k -> m_verified m <= w -> clos H w g d ->
                     E H w d = E H (cur s) d) /\
      (clos H (m_verified m) q d ->
         durge H D (cur s) (m_dur m) d /\ exists md, d_memo s d = Some md /\ m_dur m <= m_dur md) /\
      (* the stamp it had when the walk started is old *)
      (forall c0, PInv.phi s0 F d = Some c0 -> c0 <= m_verified m)
  end.

Section Walked.
Variables (H : hist) (D : dhist) (s0 s : db) (q : qkey) (m : memo).
Hypothesis HI0 : DInv H D s0.
Hypothesis HI : DInv H D s.
Hypothesis Hext : dext H D s0 s.
Hypothesis Hm0 : d_memo s0 q = Some m.
Hypothesis Hm : d_memo s q = Some m.
Hypothesis Hu : m_untracked m = false.
Hypothesis Hleaf : forall e, In e (m_edges m) -> leaf_ok H D s0 s q m e.
Let v := m_verified m.
Let L := m_edges m.
Let c := cur s.

Let Hcur : cur s0 = c.
Proof. symmetry. apply (dext_cur _ _ _ _ _ _ _ Hext). Qed.

Let in_same i w : In (EIn i) L -> v <= w -> w <= c ->
  sn_in (H w) i = sn_in (H c) i /\ D w i = D c i.
Proof.
  intros Hi Hv Hw. pose proof (Hleaf _ Hi) as Hle. cbn in Hle. fold v in Hle.
  pose proof (inv_in_le _ _ _ _ _ _ _ HI i) as Hic. fold c in Hic.
  split.
  - rewrite (inv_in _ _ _ _ _ _ _ HI i w); [|lia | exact Hw].
    symmetry. apply (inv_in _ _ _ _ _ _ _ HI i c); [exact Hic | apply N.le_refl].
  - rewrite (inv_dur _ _ _ _ _ _ _ HI i w); [|lia | exact Hw].
    symmetry. apply (inv_dur _ _ _ _ _ _ _ HI i c); [exact Hic | apply N.le_refl].
Qed.

(* a dependency that was flattened away looks now as it looked to every observer *)
Definition seen_as_now (d : qkey) : Prop :=
  forall g w k, obs_ok H D s0 g w k -> v <= w -> clos H w g d ->
    tr H w d = tr H c d /\ E H w d = E H c d.

Lemma good_seen : forall d, good H D s0 L v d -> seen_as_now d.
Proof.
  apply (good_rec prog rank Hrank NF pf). intros d rho k Hg Ho Hv Hun Hi Hl Hq IH.
  - pose proof (ob_order _ _ _ _ _ _ _ _ Ho) as (Hr1 & Hr2). rewrite Hcur in Hr2.
    assert (Hchild : forall d' g w k', In (RQ d') (tr H rho d) -> obs_ok H D s0 g w k' -> v <= w ->
               clos H w g d' -> E H w d' = E H c d').
    { intros d' g w k' Hd' Hog Hvw Hcl.
      destruct (edge_in_dec (EQ d') L) as [HinL | HnL].
      - destruct (Hleaf _ HinL) as (_ & A & _ & _). apply (A g w k' Hog Hvw Hcl).
      - apply (IH d' Hd' HnL g w k' Hog Hvw Hcl). }
    (* its own revision *)
    assert (Hown : tr H c d = tr H rho d /\ E H c d = E H rho d).
    { apply same_run. intros x Hx. destruct x as [i | d' | cc |]; cbn.
      - apply (in_same i rho (Hi i Hx) Hv Hr2).
      - apply (Hchild d' d rho k Hx Ho Hv). apply clos_one. exact Hx.
      - exfalso. apply (Hun _ Hx). right; eauto.
      - reflexivity. }
    destruct Hown as [Htr HE].
    intros g w k' Hog Hvw Hcl.
    pose proof (ob_order _ _ _ _ _ _ _ _ Hog) as (Hw1 & Hw2). rewrite Hcur in Hw2.
    apply same_run_common. intros x Hx Hx'. rewrite Htr in Hx.
    destruct x as [i | d' | cc |]; cbn.
    + symmetry. apply (in_same i w (Hi i Hx) Hvw Hw2).
    + symmetry. apply (Hchild d' g w k' Hx Hog Hvw). eapply clos_right; eassumption.
    + exfalso. apply (Hun _ Hx). right; eauto.
    + reflexivity.
Qed.

Let Hok0 : dmemo_ok H D s0 q m := inv_memo _ _ _ _ _ _ _ HI0 q m Hm0.
Let Hobq : obs_ok H D s0 q v (m_dur m) := obs_of_memo prog NF pf H D F s0 q m Hok0.

Lemma walked_read d : In (RQ d) (tr H v q) -> E H v d = E H c d.
Proof.
  intros Hd. destruct (edge_in_dec (EQ d) L) as [HinL | HnL].
  - destruct (Hleaf _ HinL) as (_ & A & _ & _). apply (A q v (m_dur m) Hobq (N.le_refl _)).
    apply clos_one. exact Hd.
  - apply (good_seen d (mo_q _ _ _ _ _ _ _ _ _ Hok0 Hu d Hd HnL)
             q v (m_dur m) Hobq (N.le_refl _)).
    apply clos_one. exact Hd.
Qed.

Lemma walked_agree : agree_on (envat H v) (envat H c) (tr H v q).
Proof.
  pose proof (mo_order _ _ _ _ _ _ _ _ _ Hok0) as (Ho1 & Ho2 & Ho3). fold v in Ho1, Ho3. rewrite Hcur in Ho3.
  intros x Hx. destruct x as [i | d | cc |]; cbn.
  - apply (in_same i v (mo_in _ _ _ _ _ _ _ _ _ Hok0 i Hx) (N.le_refl _) Ho3).
  - apply walked_read. exact Hx.
  - rewrite (mo_reads_cell _ _ _ _ _ _ _ _ _ Hok0 (RCell cc) Hx) in Hu; [discriminate | right; eauto].
  - reflexivity.
Qed.

Lemma walked_tr : tr H c q = tr H v q /\ E H c q = E H v q.
Proof. apply same_run. exact walked_agree. Qed.

(* what is below a flattened dependency: every memo there has the value of now *)
Lemma below_good : forall x, good H D s0 L v x -> clos H v q x ->
  forall d md, clos H c x d -> d_memo s d = Some md -> E H c d = E H (m_verified md) d.
Proof.
  refine (good_rec prog rank Hrank NF pf H D s0 L v _ _). intros x rho k Hg Ho Hv Hun Hi Hl Hq IH Hqx d md Hcl Hmd.
  pose proof (mo_order _ _ _ _ _ _ _ _ _ (inv_memo _ _ _ _ _ _ _ HI d md Hmd)) as (Hmo1 & Hmo2 & Hmo3).
  fold c in Hmo3.
  - pose proof (good_seen x Hg) as Hseen.
    destruct (Hseen q v (m_dur m) Hobq (N.le_refl _) Hqx) as [Htrv HEv].
    destruct (Hseen x rho k Ho Hv (clos_refl _ _ _ _ _)) as [Htrr HEr].
    inversion Hcl as [f | f d1 e Hin Hd1]; subst.
    + (* the dependency's own memo *)
      destruct (N.eq_dec (m_verified md) c) as [-> | Hnc]; [reflexivity|].
      assert (Hmd0 : d_memo s0 d = Some md).
      { apply (ext_old _ _ _ _ _ _ _ Hext d md Hmd). rewrite Hcur. lia. }
      pose proof (inv_memo _ _ _ _ _ _ _ HI0 d md Hmd0) as Hokd.
      destruct (N.le_gt_cases (m_verified md) v) as [Hle | Hgt].
      * destruct (mo_obs _ _ _ _ _ _ _ _ _ Hok0 d md Hqx Hmd0) as [A _]; [left; fold v; lia|].
        fold v in A. rewrite <- A. symmetry. exact HEv.
      * destruct (Hseen d (m_verified md) (m_dur md) (obs_of_memo prog NF pf H D F s0 d md Hokd))
          as [_ A]; [lia | apply clos_refl|]. symmetry. exact A.
    + rewrite <- Htrr in Hin.
      destruct (edge_in_dec (EQ d1) L) as [HinL | HnL].
      * destruct (Hleaf _ HinL) as ((md1 & Hmd1 & Hv1) & _ & _ & _).
        apply (obs_of_callee H D s d1 md1 d md HI Hmd1 Hv1 Hd1 Hmd).
      * apply (IH d1 Hin HnL); [|exact Hd1 | exact Hmd].
        eapply clos_right; [exact Hqx|]. rewrite Htrv, <- Htrr. exact Hin.
Qed.

(* the flattened dependencies are covered from now on: they are observers at the current revision *)
Lemma reroot : forall x, good H D s0 L v x -> clos H v q x ->
  good H D s L c x.
Proof.
  refine (good_rec prog rank Hrank NF pf H D s0 L v _ _). intros x rho k Hg Ho Hv Hun Hi Hl Hq IH Hqx.
  - pose proof (good_seen x Hg) as Hseen.
    destruct (Hseen q v (m_dur m) Hobq (N.le_refl _) Hqx) as [Htrv HEv].
    destruct (Hseen x rho k Ho Hv (clos_refl _ _ _ _ _)) as [Htrr HEr].
    apply (good_exp prog NF pf H D s L c x c 0).
    + constructor.
      * split; [apply (inv_cur _ _ _ _ _ _ _ HI) | apply N.le_refl].
      * apply (durge_zero prog rank Hrank NF H D).
      * lia.
      * intros d md Hcl Hmd _. split; [|lia].
        apply (below_good x Hg Hqx d md Hcl Hmd).
    + apply N.le_refl.
    + intros y Hy. rewrite <- Htrr in Hy. apply (Hun y Hy).
    + intros i Hi0. rewrite <- Htrr in Hi0. apply (Hi i Hi0).
    + (* a leaf was walked: its memo is verified now *)
      intros e me He HeL _ Hme. left.
      destruct (Hleaf _ HeL) as ((me' & Hme' & Hve') & _). rewrite Hme in Hme'. injection Hme' as <-. fold c in Hve'. lia.
    + intros d' Hd' HnL. rewrite <- Htrr in Hd'.
      apply (IH d' Hd' HnL).
      eapply clos_right; [exact Hqx|]. rewrite Htrv, <- Htrr. exact Hd'.
Qed.

(* the stamp that a flattened dependency had when the walk started is old: by its provenance,
   from the leaves up *)
Lemma stamp_le : forall d, good H D s0 L v d -> clos H v q d ->
  forall c0, PInv.phi s0 F d = Some c0 -> c0 <= v.
Proof.
  refine (good_rec prog rank Hrank NF pf H D s0 L v _ _). intros d rho k Hg Ho Hvr Hun Hi Hl Hq IH Hqd c0 Hc0.
  pose proof (mo_order _ _ _ _ _ _ _ _ _ Hok0) as (Hv1 & _ & _). fold v in Hv1.
  pose proof (good_seen d Hg) as Hseen.
  destruct (Hseen q v (m_dur m) Hobq (N.le_refl _) Hqd) as [Htrv _].
  destruct (Hseen d rho k Ho Hvr (clos_refl _ _ _ _ _)) as [Htrr _].
  destruct (phi_entry H D s0 d c0 HI0 Hc0) as (r & k' & Hcr & Hor & Hpv).
  destruct (N.le_gt_cases r v) as [Hle | Hgt]; [lia|].
  destruct (Hseen d r k' Hor ltac:(lia) (clos_refl _ _ _ _ _)) as [Htr_r _].
  destruct Hpv as [A | (x & Hx & Hs)]; [lia|].
  rewrite Htr_r, <- Htrr in Hx.
  destruct x as [i | d' | cc |]; cbn in Hs.
  - pose proof (Hleaf _ (Hi i Hx)) as Hle. cbn in Hle. fold v in Hle.
    rewrite <- (ext_in _ _ _ _ _ _ _ Hext) in Hs. lia.
  - destruct Hs as (c' & Hc' & Hle').
    destruct (edge_in_dec (EQ d') L) as [HinL | HnL].
    + destruct (Hleaf _ HinL) as (_ & _ & _ & B). specialize (B c' Hc'). fold v in B. lia.
    + assert (Hqd' : clos H v q d').
      { eapply clos_right; [exact Hqd|]. rewrite Htrv, <- Htrr. exact Hx. }
      pose proof (IH d' Hx HnL Hqd' c' Hc'). lia.
  - exfalso. apply (Hun _ Hx). right; eauto.
  - exfalso. apply (Hun _ Hx). left; reflexivity.
Qed.

(* what is owed to the memos of the flattened dependencies: the recorded durability of q's memo
   is below theirs — for a memo that was there when the walk started because its stamp is old,
   for one that was marked verified during the walk because it has the durability it had, for
   one that was computed during the walk because its durability is the minimum over its reads *)
Lemma floor_dur : forall d, good H D s0 L v d -> clos H v q d ->
  forall md, d_memo s d = Some md -> m_dur m <= m_dur md.
Proof.
  refine (good_rec prog rank Hrank NF pf H D s0 L v _ _). intros d rho k Hg Ho Hvr Hun Hi Hl Hq IH Hqd md Hmd.
  pose proof (good_seen d Hg) as Hseen.
  destruct (Hseen q v (m_dur m) Hobq (N.le_refl _) Hqd) as [Htrv _].
  assert (Hold : forall md0, d_memo s0 d = Some md0 -> m_dur m <= m_dur md0).
  { intros md0 Hmd0.
    assert (Hc : m_changed md0 <= v).
    { apply (stamp_le d Hg Hqd). unfold PInv.phi. rewrite Hmd0. reflexivity. }
    apply (mo_obs _ _ _ _ _ _ _ _ _ Hok0 d md0 Hqd Hmd0). left. exact Hc. }
  pose proof (mo_order _ _ _ _ _ _ _ _ _ (inv_memo _ _ _ _ _ _ _ HI d md Hmd)) as (_ & _ & Hvd). fold c in Hvd.
  destruct (N.eq_dec (m_verified md) c) as [Hvc | Hvc].
  2:{ (* md was not verified during the walk: it is the memo the walk started with *)
      apply Hold. apply (ext_old _ _ _ _ _ _ _ Hext d md Hmd). rewrite Hcur. lia. }
  destruct (ext_new _ _ _ _ _ _ _ Hext d md Hmd) as [(md0 & Hmd0 & Hd0 & _) | [Hcal Hlb]]; [rewrite Hcur; exact Hvc | |].
  { rewrite Hd0. apply Hold. exact Hmd0. }
  destruct (Hseen d rho k Ho Hvr (clos_refl _ _ _ _ _)) as [Htrr _].
  pose proof (mo_durge _ _ _ _ _ _ _ _ _ Hok0) as Hdg. fold v in Hdg.
  pose proof (durge_clos _ _ _ _ _ _ _ _ Hdg Hqd) as Hdd.
  pose proof (ob_order _ _ _ _ _ _ _ _ Ho) as (_ & Hr2). rewrite Hcur in Hr2.
  fold c in Hlb. apply Hlb.
  - apply (mo_dur3 _ _ _ _ _ _ _ _ _ Hok0).
  - intros i Hi0. rewrite <- Htrv in Hi0.
    pose proof (durge_in _ _ _ _ _ _ _ _ Hdd Hi0) as Hle.
    rewrite Htrv, <- Htrr in Hi0.
    pose proof (mo_order _ _ _ _ _ _ _ _ _ Hok0) as (_ & _ & Hvc0). fold v in Hvc0. rewrite Hcur in Hvc0.
    destruct (in_same i v (Hi i Hi0) (N.le_refl _) Hvc0) as [_ B]. rewrite <- B. exact Hle.
  - intros d' md' Hd' Hmd'. rewrite <- Htrr in Hd'.
    assert (Hqd' : clos H v q d').
    { eapply clos_right; [exact Hqd|]. rewrite Htrv, <- Htrr. exact Hd'. }
    destruct (edge_in_dec (EQ d') L) as [HinL | HnL].
    + destruct (Hleaf _ HinL) as (_ & _ & C & _). destruct (C Hqd') as (_ & md'' & Hmd'' & Hle).
      rewrite Hmd' in Hmd''. injection Hmd'' as <-. exact Hle.
    + apply (IH d' Hd' HnL Hqd' md' Hmd').
  - intros x Hx Hux. exfalso. rewrite <- Htrr in Hx. apply (Hun x Hx Hux).
Qed.

Lemma floor_below : forall x, good H D s0 L v x -> clos H v q x ->
  forall d md, clos H c x d -> d_memo s d = Some md -> m_dur m <= m_dur md.
Proof.
  refine (good_rec prog rank Hrank NF pf H D s0 L v _ _).
  intros x rho k Hg Ho Hvr Hun Hi Hl Hq IH Hqx d md Hcl Hmd.
  pose proof (good_seen x Hg) as Hseen.
  destruct (Hseen q (m_verified m) (m_dur m) Hobq (N.le_refl _) Hqx) as [Htrv _].
  inversion Hcl as [f | f d1 e Hin Hd1]; subst.
  - apply (floor_dur d Hg Hqx md Hmd).
  - rewrite <- Htrv in Hin.
    assert (Hqd1 : clos H (m_verified m) q d1) by (eapply clos_right; eassumption).
    destruct (Hseen x rho k Ho Hvr (clos_refl _ _ _ _ _)) as [Htrr _].
    destruct (edge_in_dec (EQ d1) (m_edges m)) as [HinL | HnL].
    + destruct (Hleaf _ HinL) as ((md1 & Hmd1 & Hv1) & _ & C & _).
      destruct (obs_of_callee H D s d1 md1 d md HI Hmd1 Hv1 Hd1 Hmd) as (_ & Hdd).
      destruct (C Hqd1) as (_ & md1' & Hmd1' & Hle).
      rewrite Hmd1 in Hmd1'. injection Hmd1' as <-. lia.
    + assert (Hin1 : In (RQ d1) (tr H rho x)) by (rewrite Htrr, <- Htrv; exact Hin).
      apply (IH d1 Hin1 HnL Hqd1 d md Hd1 Hmd).
Qed.

(* the level now: q's closure is what it was, and its inputs have the durabilities they had *)
Lemma durge_now : forall d, good H D s0 L v d -> clos H v q d ->
  durge H D c (m_dur m) d.
Proof.
  refine (good_rec prog rank Hrank NF pf H D s0 L v _ _). intros d rho k Hg Ho Hvr Hun Hi Hl Hq IH Hqd.
  pose proof (good_seen d Hg) as Hseen.
  destruct (Hseen q v (m_dur m) Hobq (N.le_refl _) Hqd) as [Htrv _].
  destruct (Hseen d rho k Ho Hvr (clos_refl _ _ _ _ _)) as [Htrr _].
  pose proof (mo_durge _ _ _ _ _ _ _ _ _ Hok0) as Hdg. fold v in Hdg.
  pose proof (durge_clos _ _ _ _ _ _ _ _ Hdg Hqd) as Hdd.
  pose proof (mo_order _ _ _ _ _ _ _ _ _ Hok0) as (_ & _ & Hvc0). fold v in Hvc0. rewrite Hcur in Hvc0.
  constructor; rewrite <- Htrv.
  - intros i Hi0. pose proof (durge_in _ _ _ _ _ _ _ _ Hdd Hi0) as Hle.
    rewrite Htrv, <- Htrr in Hi0.
    destruct (in_same i v (Hi i Hi0) (N.le_refl _) Hvc0) as [_ B]. rewrite <- B. exact Hle.
  - intros d' Hd'.
    assert (Hqd' : clos H v q d') by (eapply clos_right; eassumption).
    rewrite Htrv, <- Htrr in Hd'.
    destruct (edge_in_dec (EQ d') L) as [HinL | HnL].
    + destruct (Hleaf _ HinL) as (_ & _ & C & _). apply (C Hqd').
    + apply (IH d' Hd' HnL Hqd').
  - intros x Hx Hux. apply (durge_untr _ _ _ _ _ _ _ _ Hdd Hx Hux).
Qed.

End Walked.

(* Every recorded edge is unchanged since the memo was verified: the memo may be marked
   verified now. *)
Lemma deep_ok H D s0 s q m :
  DInv H D s0 -> DInv H D s -> dext H D s0 s ->
  d_memo s0 q = Some m -> d_memo s q = Some m -> m_untracked m = false ->
  (forall e, In e (m_edges m) -> leaf_ok H D s0 s q m e) ->
  let m' := reverify m (cur s) in
  DInv H D (store s q m') /\ dext H D s (store s q m') /\ E H (cur s) q = E H (m_verified m) q.
Proof.
  intros HI0 HI Hext Hm0 Hm Hu Hleaf.
  pose proof (inv_memo _ _ _ _ _ _ _ HI0 q m Hm0) as Hok0.
  pose proof (mo_order _ _ _ _ _ _ _ _ _ Hok0) as (Ho1 & Ho2 & Ho3).
  pose proof (mo_durge _ _ _ _ _ _ _ _ _ Hok0) as Hdg.
  assert (Hcur : cur s0 = cur s) by (symmetry; apply (dext_cur _ _ _ _ _ _ _ Hext)).
  rewrite Hcur in Ho3.
  pose proof (walked_agree H D s0 s q m HI0 HI Hext Hm0 Hu Hleaf) as Hag.
  destruct (walked_tr H D s0 s q m HI0 HI Hext Hm0 Hu Hleaf) as [Htr HE].
  assert (Hinc : forall i, In (RIn i) (tr H (m_verified m) q) -> D (cur s) i = D (m_verified m) i).
  { intros i Hi. pose proof (Hleaf _ (mo_in _ _ _ _ _ _ _ _ _ Hok0 i Hi)) as Hle. cbn in Hle.
    rewrite (inv_dur _ _ _ _ _ _ _ HI i (m_verified m) Hle Ho3).
    apply (inv_dur _ _ _ _ _ _ _ HI i (cur s)); [apply (inv_in_le _ _ _ _ _ _ _ HI) | lia]. }
  apply (revalidate_ok H D s q m HI Hm Hag Hinc).
  - (* the level now *)
    constructor; rewrite Htr.
    + intros i Hi. rewrite (Hinc i Hi). apply (durge_in _ _ _ _ _ _ _ _ Hdg Hi).
    + intros d Hd. destruct (edge_in_dec (EQ d) (m_edges m)) as [HinL | HnL].
      * destruct (Hleaf _ HinL) as (_ & _ & C & _). apply C. apply clos_one. exact Hd.
      * apply (durge_now H D s0 s q m HI0 HI Hext Hm0 Hleaf d
                 (mo_q _ _ _ _ _ _ _ _ _ Hok0 Hu d Hd HnL)).
        apply clos_one. exact Hd.
    + intros x Hx Hux. apply (durge_untr _ _ _ _ _ _ _ _ Hdg Hx Hux).
  - (* the cover from now on *)
    intros _ d Hd HnL.
    apply (reroot H D s0 s q m HI0 HI Hext Hm0 Hleaf d
             (mo_q _ _ _ _ _ _ _ _ _ Hok0 Hu d Hd HnL)).
    apply clos_one. exact Hd.
  - intros d md Hd _ Hmd. left. destruct (Hleaf _ Hd) as ((md' & Hmd' & Hv') & _).
    rewrite Hmd in Hmd'. injection Hmd' as <-. lia.
  - (* everything below *)
    intros d md Hcl Hdq Hmd.
    inversion Hcl as [f | f d1 e Hin Hd1]; subst; [contradiction|].
    rewrite Htr in Hin.
    destruct (edge_in_dec (EQ d1) (m_edges m)) as [HinL | HnL].
    + destruct (Hleaf _ HinL) as ((md1 & Hmd1 & Hv1) & _ & C & _).
      destruct (obs_of_callee H D s d1 md1 d md HI Hmd1 Hv1 Hd1 Hmd) as (HEd & Hdd).
      split; [exact HEd|].
      destruct (C (clos_one _ _ _ _ _ _ Hin)) as (_ & md1' & Hmd1' & Hle).
      rewrite Hmd1 in Hmd1'. injection Hmd1' as <-. lia.
    + pose proof (mo_q _ _ _ _ _ _ _ _ _ Hok0 Hu d1 Hin HnL) as Hg1.
      split.
      * apply (below_good H D s0 s q m HI0 HI Hext Hm0 Hleaf d1
                 Hg1 (clos_one _ _ _ _ _ _ Hin) d md Hd1 Hmd).
      * apply (floor_below H D s0 s q m HI0 HI Hext Hm0 Hleaf d1 Hg1 (clos_one _ _ _ _ _ _ Hin) d md Hd1 Hmd).
Qed.

End Sem.
