(* Persist/PTop.v — the persist-mode model across ALL its API operations, snapshot and restore
   included, and the results theorems of C26:

   [results_no_restore]  every Get of every history WITHOUT restore (snapshots allowed: they do
                         not touch the database) returns the from-scratch value — C01 for the
                         persist-mode model, inputs and writes of any durability, any choice of
                         persisted functions;
   [restore_ok], [restore_ok_clean]
                         restore (snapshot s) re-establishes the invariant in the fresh database
                         (same ghost histories: the revision counter is rewound to the snapshot's,
                         the inputs come back with their stamps), when the persisted functions
                         only call persisted functions ([Statement.persisted_closed]);
   [restore_np_ok], [restore_np_ok_clean]
                         the same for ALL durabilities when the functions that are not persisted
                         only call functions that are not persisted ([Statement.np_closed]): the
                         flattened dependencies, to any depth, become observers at the revisions
                         their memos were verified at, or at their caller's revision when they
                         are older ([exp_good], from ProofsFlatten.flatten_closed / flatten_fn /
                         flatten_under / flatten_vis_inv);
   [results_closed], [results_np]
                         hence: every Get of every history with snapshots and restores returns
                         the from-scratch value of the current inputs, or unwinds with a base
                         panic, outside the uninitialised-ingredient class.

   The [_strict] forms say which panics may unwind a request: an injected fault while a fault
   switch is on, and the panic of an uninitialised function ingredient (PInv.dallowed; the
   results theorems leave the second out by [known_class_free]); the backdate-violation
   assertion is unreachable (stamps never decrease: PInv.ext_mono, PInvSem.frame_changed_lb). *)
From Salsa Require Import Base.
From Salsa.Kern Require Import CoreK CoreKFacts.
From Salsa.Core Require Import Model Spec SpecProofs Inv DurSem.
From Salsa.Core Require InvTop.
From Salsa.Persist Require Import Model PSem PWp InvBase PInv PInvSem PInvOps PInvTop ProofsRoundtrip ProofsFlatten.
From Salsa.Persist Require Statement Run.

Section Top.
Variable uprog : qkey -> body.
Variable noeq : qkey -> bool.
Variable pfam : N -> bool.
Variable fams : list N.
Variable lru0 : N -> lru_state.
Variable rank : qkey -> nat.
Hypothesis Hrank : calls_below (tprog uprog) rank.
Variable NF : nat.
Hypothesis Hbound : forall q, (rank q < NF)%nat.
Variable sfuel : nat.
Let prog : qkey -> CM.body := tprog uprog.
Let pf : qkey -> bool := fun q => pfam (fst q).
Notation DInv := (DInv prog NF pf).
Notation OK := (OK uprog NF pf).
Notation OK_d := (OK_d uprog NF pf).

Definition state_ok (dirty : bool) (s : db) : Prop :=
  (if dirty then OK_d s else OK s) /\ d_stack s = [].

(* a Get: the from-scratch value or an allowed panic; the database stays ok, inputs and cells
   are untouched *)
Lemma get_ok fuel s q :
  (forall p, (rank p < fuel)%nat) -> OK s -> d_stack s = [] ->
  let r := fetch uprog noeq (level uprog noeq fuel) q s in
  (match snd r with
   | POk (v, _, _) => v = Spec.eval uprog NF (Spec.snap_of s) q /\ OK (fst r) /\ d_stack (fst r) = []
   | PPanic p => dallowed s p /\ OK (set_stack (fst r) [])
   | PFuel => False
   end) /\ d_in (fst r) = d_in s /\ d_cell (fst r) = d_cell s.
Proof.
  intros Hfuel (H & D & F & HI) Hst. cbn zeta.
  destruct (dlevel_ok uprog noeq rank Hrank NF Hbound pf H D F fuel) as [HF HM].
  assert (Hso : stack_ok rank s q) by (intros p Hp; rewrite Hst in Hp; destruct Hp).
  assert (Hq : (rank q <= fuel)%nat) by (specialize (Hfuel q); lia).
  pose proof (fetch_ok uprog noeq rank Hrank NF Hbound pf H D F (level uprog noeq fuel) fuel HF HM q s Hq HI Hso) as Hwp.
  unfold wp in Hwp.
  destruct (fetch uprog noeq (level uprog noeq fuel) q s) as [s' [[[v d] c] | p |]] eqn:Hf; cbn [fst snd].
  - destruct Hwp as (HI' & He & _ & Hs' & Hv & _). cbn [fst snd] in Hv.
    split; [|split; [apply (ext_in _ _ _ _ _ _ _ He) | apply (ext_cell _ _ _ _ _ _ _ He)]].
    split.
    + rewrite Hv. unfold Inv.E.
      rewrite <- (eval_tb uprog NF (Spec.snap_of s) q). rewrite <- csnap_snap_of.
      exact (Salsa.Core.InvTop.eval_snap_eq (tprog uprog) _ _ (DInv_snap uprog NF pf H D F s HI) NF q).
    + split; [exists H, D, F; exact HI' | congruence].
  - destruct Hwp as (Ha & HI' & He).
    split; [|split; [apply (ext_in _ _ _ _ _ _ _ He) | apply (ext_cell _ _ _ _ _ _ _ He)]].
    split; [exact Ha|].
    exists H, D, F. apply (DInv_core_eq prog NF pf H D F s'); [repeat split | exact HI'].
  - destruct Hwp.
Qed.

(* no flat mode on this side: the third part is void *)
Lemma inputs_ok s :
  OK_d s -> revs_ok (d_revs s) /\ (forall i, f_dur (d_in s i) <= 3) /\ (False -> Run.low s).
Proof.
  intros Hok. destruct (OK_d_inputs uprog NF pf s Hok) as [A B].
  split; [exact A|]. split; [exact B | intros []].
Qed.

Lemma run_facts_ok : Run.run_facts uprog noeq rank NF False OK OK_d.
Proof.
  exact {|
    Run.rf_to_d := OK_to_d uprog NF pf;
    Run.rf_inputs := inputs_ok;
    Run.rf_advance := fun s s' Hok Hrc Hrv Hlc Hins Hd3 _ Hev =>
      OK_advance_gen uprog rank Hrank NF pf s s' Hok Hrc Hrv Hlc Hins Hd3 (evicted_sub_sim _ _ Hev);
    Run.rf_d_same := fun s s' Hok Hr Hi Hev =>
      OK_d_same uprog rank Hrank NF pf s s' Hok Hr Hi (evicted_sub_sim _ _ Hev);
    Run.rf_same := fun s s' Hok Hr Hi Hc Hev =>
      OK_same uprog rank Hrank NF pf s s' Hok Hr Hi Hc (evicted_sub_sim _ _ Hev);
    Run.rf_revs := fun s s' Hok Hc Hrv Hlc _ =>
      OK_revs uprog rank Hrank NF pf s s' Hok Hc Hrv Hlc;
    Run.rf_get := get_ok |}.
Qed.

(* ---------------------------------------------------------------- restore (snapshot s) *)
Section Closed.
Hypothesis Hclosed : Statement.persisted_closed uprog pfam.

(* with [persisted_closed] every edge of a persisted function's memo is serialised directly *)
Lemma reach_closed q d : pfam (fst q) = true -> reach prog q d -> pfam (fst d) = true.
Proof.
  intros Hp Hr. induction Hr as [q d Hc | q d e Hc _ IH].
  - apply (Hclosed q d Hp). apply calls_tb. exact Hc.
  - apply IH. apply (Hclosed q d Hp). apply calls_tb. exact Hc.
Qed.

Lemma edges_persistable H D F s q m :
  DInv H D F s -> d_memo s q = Some m -> pfam (fst q) = true -> all_persistable pfam (m_edges m).
Proof.
  intros HI Hm Hp e He. destruct e as [i|d]; [reflexivity|]. cbn.
  apply (reach_closed q d Hp).
  apply (mo_edges_reach _ _ _ _ _ _ _ _ _ (inv_memo _ _ _ _ _ _ _ HI q m Hm) d He).
Qed.

Lemma snapshot_sub_sim H D F s :
  DInv_d uprog NF pf H D F s -> sub_sim (d_memo s) (snap_memo pfam (d_memo s) sfuel).
Proof.
  intros HI q m' Hs. unfold snap_memo in Hs.
  destruct (d_memo s q) as [m|] eqn:Hm; [|discriminate].
  destruct (m_val m) as [v|] eqn:Hv; [|discriminate].
  destruct (pfam (fst q)) eqn:Hp; [|discriminate]. injection Hs as <-.
  exists m. split; [reflexivity|].
  assert (Ha : all_persistable pfam (m_edges m)).
  { apply (edges_persistable H D F (set_cell s (sn_cell (H (cur s)))) q m HI Hm Hp). }
  unfold memo_sim; cbn. repeat split; auto.
  - unfold lost_untracked. rewrite (flatten_full_persistable pfam (d_memo s) sfuel _ Ha). cbn.
    apply orb_false_r.
  - apply (flatten_In_persistable pfam (d_memo s) sfuel _ Ha).
  - apply (flatten_In_persistable pfam (d_memo s) sfuel _ Ha).
  - rewrite Hv. auto.
Qed.

(* the fresh database after deserialisation satisfies the invariant for the ghost histories of
   the serialised one: always up to the external cells, and exactly when these are the ones the
   serialised database saw *)
Theorem restore_ok s ext :
  OK_d s -> d_stack s = [] ->
  state_ok true (restore (snapshot pfam sfuel s) ext lru0).
Proof.
  intros (H & D & F & HI) Hst. split; [|reflexivity].
  apply (OK_d_same uprog rank Hrank NF pf s); try reflexivity; [exists H, D, F; exact HI|].
  apply (snapshot_sub_sim H D F s HI).
Qed.

Theorem restore_ok_clean s ext :
  OK s -> d_stack s = [] -> d_cell ext = d_cell s ->
  state_ok false (restore (snapshot pfam sfuel s) ext lru0).
Proof.
  intros (H & D & F & HI) Hst Hc. split; [|reflexivity].
  apply (OK_same uprog rank Hrank NF pf s); try reflexivity; [exists H, D, F; exact HI | exact Hc|].
  apply (snapshot_sub_sim H D F s). apply DInv_to_d. exact HI.
Qed.

End Closed.

(* ---------------------------------------------------------------- restore (snapshot s), flattening *)
(* Any durabilities; the functions that are not persisted only call functions that are not
   persisted, so that what a snapshot flattens away are memos that record their direct reads.
   The dependencies that the snapshot flattened away become virtual observers at the revision
   their memos were verified at, or, when such a memo is older than its caller's (the caller was
   validated by the durability short-cut), at the caller's revision. *)
Section NpClosed.
Hypothesis Hnp : Statement.np_closed uprog pfam.
Hypothesis Hsfuel : forall p, (S (rank p) < sfuel)%nat.
Notation good := (good prog NF pf).
Notation obs_ok := (obs_ok prog NF).
Notation dmemo_ok := (dmemo_ok prog NF pf).
Notation cconst := (cconst prog NF).

Lemma obs_sub H D s g w k d :
  obs_ok H D s g w k -> In (RQ d) (tr prog NF H w g) -> obs_ok H D s d w 0.
Proof.
  intros [a b c e] Hd. constructor; auto.
  - apply (durge_zero prog rank Hrank NF H D).
  - lia.
  - intros x mx Hx Hmx Hp. destruct (e x mx (clos_step _ _ _ _ _ _ _ Hd Hx) Hmx Hp) as [A _].
    split; [exact A | lia].
Qed.

Lemma reach_np q d : pfam (fst q) = false -> reach prog q d -> pfam (fst d) = false.
Proof.
  intros Hp Hr. induction Hr as [q d Hc | q d e Hc _ IH].
  - apply (Hnp q d Hp). apply calls_tb. exact Hc.
  - apply IH. apply (Hnp q d Hp). apply calls_tb. exact Hc.
Qed.

Section OneState.
Variables (H : hist) (D : dhist) (F : ghost) (s s2 : db).
Hypothesis HIm : forall g mg, d_memo s g = Some mg -> dmemo_ok H D F s g mg.
Hypothesis Hot : forall g w k, obs_ok H D s g w k -> obs_ok H D s2 g w k.
Hypothesis Hc2 : cur s2 = cur s.
Hypothesis Hm2 : d_memo s2 = snap_memo pfam (d_memo s) sfuel.
Let mm := d_memo s.

Let edge_rank : forall g m c, mm g = Some m -> In (EQ c) (m_edges m) -> (rank c < rank g)%nat.
Proof.
  intros g m c Hm Hc. apply (reach_rank prog rank Hrank).
  apply (mo_edges_reach _ _ _ _ _ _ _ _ _ (HIm g m Hm) c Hc).
Qed.

(* a memo of the restored database is a memo of a persisted function *)
Let s2_pf e me2 : d_memo s2 e = Some me2 -> pf e = true.
Proof.
  rewrite Hm2. unfold snap_memo. fold mm. destruct (mm e) as [me|]; [|discriminate].
  destruct (m_val me); [|discriminate]. unfold pf. destruct (pfam (fst e)); [reflexivity | discriminate].
Qed.

Section OneMemo.
Variables (q : qkey) (m : memo).
Hypothesis Hm : mm q = Some m.
Let L := m_edges m.
Let v := m_verified m.
Let out := fst (flatten_full pfam mm sfuel L).
Let vis := snd (flatten_full pfam mm sfuel L).

Let Hes : forall e, In e L -> (erank rank e < sfuel)%nat.
Proof. intros e _. destruct e as [i|c]; cbn; [specialize (Hsfuel q); lia | apply Hsfuel]. Qed.

Let Hcut := flatten_closed pfam mm rank edge_rank sfuel L Hes.

Let Hvis_memo g : In (EQ g) vis -> exists mg, mm g = Some mg.
Proof.
  intros Hg. destruct Hcut as (V & _ & _). destruct (V _ Hg) as (g' & mg & E0 & Hmg).
  injection E0 as <-. exists mg. exact Hmg.
Qed.

(* what was expanded is not persisted *)
Let vis_np g : In (EQ g) vis -> pfam (fst g) = false.
Proof.
  apply (flatten_vis_inv pfam mm (fun g => pfam (fst g) = false)).
  - intros g0 m0 g2 Hp0 Hm0 Hg2. apply (reach_np g0 g2 Hp0).
    apply (mo_edges_reach _ _ _ _ _ _ _ _ _ (HIm g0 m0 Hm0) g2 Hg2).
  - intros g0 _ Hp0. exact Hp0.
Qed.

(* no expanded dependency had untracked reads *)
Hypothesis Hvt : forall g mg, In (EQ g) vis -> mm g = Some mg -> m_untracked mg = false.

(* an expanded dependency, read by something that is an observer at beta >= v: a cover node at
   its memo's revision, or at beta when the memo is older and the dependency constant since *)
Lemma exp_good : forall n g mg beta, (rank g < n)%nat -> In (EQ g) vis -> mm g = Some mg ->
  v <= beta -> beta <= cur s ->
  (m_verified mg < beta -> cconst H (m_verified mg) beta g /\ obs_ok H D s2 g beta 0) ->
  good H D s2 out beta g.
Proof.
  induction n as [|n IH]; intros g mg beta Hn Hg Hmg Hvb Hbc Hlift; [inversion Hn|].
  pose proof (HIm g mg Hmg) as Hok.
  pose proof (mo_order _ _ _ _ _ _ _ _ _ Hok) as (O1 & O2 & O3).
  pose proof (mo_direct _ _ _ _ _ _ _ _ _ Hok (vis_np g Hg)) as Hdir.
  destruct Hcut as (V & C & Cov).
  (* the revision of the node, its observer, its reads *)
  assert (Hnode : exists rho k, beta <= rho /\ rho <= cur s /\ obs_ok H D s2 g rho k /\
            tr prog NF H rho g = tr prog NF H (m_verified mg) g /\
            (forall d' me, In (RQ d') (tr prog NF H (m_verified mg) g) -> mm d' = Some me ->
               m_verified me < rho -> cconst H (m_verified me) rho d')).
  { destruct (N.le_gt_cases beta (m_verified mg)) as [Hle | Hgt].
    - exists (m_verified mg), (m_dur mg). split; [exact Hle|]. split; [exact O3|].
      split; [apply Hot; apply (obs_of_memo prog NF pf H D F s g mg Hok)|]. split; [reflexivity|].
      intros d' me Hd' Hme Hlt.
      destruct (mo_sync _ _ _ _ _ _ _ _ _ Hok d' me (Hdir d' Hd') (clos_one _ _ _ _ _ _ Hd') Hme) as [A | A]; [lia | exact A].
    - destruct (Hlift Hgt) as [CCg Og]. exists beta, 0. split; [lia|]. split; [exact Hbc|].
      split; [exact Og|]. split.
      + apply (CCg g (clos_refl _ _ _ _ _) beta); lia.
      + intros d' me Hd' Hme Hlt.
        pose proof (cconst_sub prog NF H _ _ g d' CCg (clos_one _ _ _ _ _ _ Hd')) as CCd.
        destruct (mo_sync _ _ _ _ _ _ _ _ _ Hok d' me (Hdir d' Hd') (clos_one _ _ _ _ _ _ Hd') Hme) as [A | A].
        * apply (cconst_win prog NF H (m_verified mg) (m_verified me) beta d' CCd A). lia.
        * destruct (N.le_gt_cases (m_verified mg) (m_verified me)) as [B | B].
          -- apply (cconst_win prog NF H (m_verified mg) (m_verified me) beta d' CCd B). lia.
          -- apply (cconst_trans prog NF H (m_verified me) (m_verified mg) beta d' A CCd); lia. }
  destruct Hnode as (rho & k & Hbr & Hrc & Orho & TR & Hstale).
  apply (good_exp prog NF pf H D s2 out beta g rho k Orho Hbr); rewrite TR.
  - intros x Hx Hux. pose proof (mo_reads_cell _ _ _ _ _ _ _ _ _ Hok x Hx Hux) as A.
    pose proof (Hvt g mg Hg Hmg). congruence.
  - intros i Hi. pose proof (C g mg Hg (fun X => X) Hmg _ (mo_in _ _ _ _ _ _ _ _ _ Hok i Hi)) as [Ho | Hv].
    + exact Ho.
    + destruct (V _ Hv) as (g' & mg' & E0 & _). discriminate.
  - intros e me2 _ _ Hpe Hme2. rewrite (s2_pf e me2 Hme2) in Hpe. discriminate.
  - intros d' Hd' Hn'.
    pose proof (C g mg Hg (fun X => X) Hmg _ (Hdir d' Hd')) as [Ho | Hv]; [contradiction|].
    destruct (Hvis_memo d' Hv) as (me & Hme).
    pose proof (edge_rank g mg d' Hmg (Hdir d' Hd')) as Hrk.
    apply (IH d' me rho ltac:(lia) Hv Hme); [lia | exact Hrc|].
    intros Hlt. split; [apply (Hstale d' me Hd' Hme Hlt)|].
    apply (obs_sub H D s2 g rho k d' Orho). rewrite TR. exact Hd'.
Qed.

Lemma flat_reach g : In (EQ g) out -> reach prog q g.
Proof.
  intros Hg. destruct (flatten_under pfam mm sfuel L) as [Uo _]. specialize (Uo _ Hg).
  assert (G : forall e, under mm L e -> forall g0, e = EQ g0 -> reach prog q g0).
  { intros e Hu. induction Hu as [e He | g1 m1 e Hu IH Hm1 He]; intros g0 ->.
    - apply (mo_edges_reach _ _ _ _ _ _ _ _ _ (HIm q m Hm) g0 He).
    - eapply reach_trans; [apply (IH g1 eq_refl)|].
      apply (mo_edges_reach _ _ _ _ _ _ _ _ _ (HIm g1 m1 Hm1) g0 He). }
  apply (G _ Uo g eq_refl).
Qed.

(* the cover of a memo that was itself restored (its edges are leaves already): the nodes are
   kept; a leaf that has a memo now and is expanded by this snapshot becomes a node *)
Lemma good_subst : forall v0 d, good H D s L v0 d -> v <= v0 -> good H D s2 out v0 d.
Proof.
  intros v0 d Hg. induction Hg as [v0 d rho k Ho Hv Hu Hi Hl Hq IH]; intros Hvv.
  destruct Hcut as (V & C & Cov).
  pose proof (ob_order _ _ _ _ _ _ _ _ Ho) as (_ & Hrc).
  apply (good_exp prog NF pf H D s2 out v0 d rho k (Hot _ _ _ Ho) Hv Hu).
  - intros i Hi0. destruct (Cov _ (Hi i Hi0)) as [A | A]; [exact A|].
    destruct (V _ A) as (g' & mg' & E0 & _). discriminate.
  - intros e me2 _ _ Hpe Hme2. rewrite (s2_pf e me2 Hme2) in Hpe. discriminate.
  - intros d' Hd' Hn'. destruct (edge_in_dec (EQ d') L) as [HinL | HnL]; [|apply (IH d' Hd' HnL); lia].
    destruct (Cov _ HinL) as [A | A]; [contradiction|].
    destruct (Hvis_memo d' A) as (me & Hme).
    apply (exp_good (S (rank d')) d' me rho (le_n _) A Hme); [lia | exact Hrc|].
    intros Hlt. split; [|apply (obs_sub H D s2 d rho k d' (Hot _ _ _ Ho) Hd')].
    destruct (Hl d' me Hd' HinL (vis_np d' A) Hme) as [B | B]; [lia | exact B].
Qed.

End OneMemo.

(* the serialised memo of q, in the restored database *)
Lemma flat_edges_ok q m' : d_memo s2 q = Some m' -> edges_ok uprog NF pf H D s2 q m'.
Proof.
  intros Hm'. pose proof (s2_pf q m' Hm') as Hpq. revert Hm'.
  rewrite Hm2. unfold snap_memo. fold mm.
  destruct (mm q) as [m|] eqn:Hm; [|discriminate].
  destruct (m_val m) as [x|] eqn:Hx; [|discriminate].
  destruct (pfam (fst q)) eqn:Hp; [|discriminate]. intros E0. injection E0 as <-.
  pose proof (HIm q m Hm) as Hok.
  pose proof (mo_order _ _ _ _ _ _ _ _ _ Hok) as (O1 & O2 & O3).
  set (L := m_edges m). set (L' := flatten pfam mm sfuel L).
  assert (Hes : forall e, In e L -> (erank rank e < sfuel)%nat).
  { intros e _. destruct e as [i|c]; cbn; [specialize (Hsfuel q); lia | apply Hsfuel]. }
  destruct (flatten_closed pfam mm rank edge_rank sfuel L Hes) as (V & C & Cov).
  assert (Hcov_in : forall i, In (EIn i) L -> In (EIn i) L').
  { intros i Hi. destruct (Cov _ Hi) as [Ho | Hv]; [exact Ho|].
    destruct (V _ Hv) as (g' & mg & E0 & _). discriminate. }
  constructor; cbn [m_verified m_edges m_untracked m_dur].
  - intros i Hi. apply Hcov_in. apply (mo_in _ _ _ _ _ _ _ _ _ Hok i Hi).
  - intros Hu d Hd Hn. apply orb_false_iff in Hu. destruct Hu as [Hu Hlost].
    assert (Hvt : forall g mg, In (EQ g) (snd (flatten_full pfam mm sfuel L)) -> mm g = Some mg ->
              m_untracked mg = false).
    { intros g mg Hg Hmg. destruct (m_untracked mg) eqn:Hug; [|reflexivity].
      unfold lost_untracked in Hlost. fold mm L in Hlost.
      assert (X : existsb (fun e => match e with
                                    | EQ g => match mm g with Some m => m_untracked m | None => false end
                                    | EIn _ => false
                                    end) (snd (flatten_full pfam mm sfuel L)) = true).
      { apply existsb_exists. exists (EQ g). split; [exact Hg|]. rewrite Hmg. exact Hug. }
      congruence. }
    pose proof (obs_of_memo prog NF pf H D F s q m Hok) as Oq.
    destruct (edge_in_dec (EQ d) L) as [HinL | HnL].
    + destruct (Cov _ HinL) as [Ho | Hv]; [contradiction|].
      destruct (V _ Hv) as (g' & md & E0 & Hmd). injection E0 as <-.
      apply (exp_good q m Hvt (S (rank d)) d md (m_verified m) (le_n _) Hv Hmd); [lia | exact O3|].
      intros Hlt. split; [|apply (obs_sub H D s2 q (m_verified m) (m_dur m) d (Hot _ _ _ Oq) Hd)].
      destruct (mo_sync _ _ _ _ _ _ _ _ _ Hok d md HinL (clos_one _ _ _ _ _ _ Hd) Hmd) as [B | B]; [lia | exact B].
    + apply (good_subst q m Hvt (m_verified m) d (mo_q _ _ _ _ _ _ _ _ _ Hok Hu d Hd HnL)). lia.
  - intros y Hy Huy. rewrite (mo_reads_cell _ _ _ _ _ _ _ _ _ Hok y Hy Huy). reflexivity.
  - intros g Hg. apply (flat_reach q m Hm g Hg).
  - intros Hpf. unfold pf in Hpf. rewrite Hp in Hpf. discriminate.
  - intros d md' Hd Hcl Hmd'. rewrite Hm2 in Hmd'. unfold snap_memo in Hmd'. fold mm in Hmd'.
    destruct (mm d) as [md|] eqn:Hmd; [|discriminate].
    destruct (m_val md); [|discriminate]. destruct (pfam (fst d)); [|discriminate].
    injection Hmd' as <-. cbn.
    destruct (flatten_fn pfam mm sfuel L d Hd) as [HinL | Hnone]; [|congruence].
    apply (mo_sync _ _ _ _ _ _ _ _ _ Hok d md HinL Hcl Hmd).
Qed.

End OneState.

(* the transfer, for a target s2 that has the restored memo table and the revisions and inputs of s *)
Lemma restore_transfer H D F s s2 :
  DInv_d uprog NF pf H D F s ->
  d_revs s2 = d_revs s -> d_in s2 = d_in s -> d_memo s2 = snap_memo pfam (d_memo s) sfuel ->
  (forall c, sn_cell (H (cur s2)) c = d_cell s2 c) ->
  DInv H D (lift s F) s2.
Proof.
  intros HI Hr Hi Hmm Hcell.
  destruct (DInv_d_facts uprog NF pf H D F s HI) as (Hcur1 & Hrvs & Hmver & HinH & HinD & Hinle & HD3 & Hstab).
  assert (Hc : cur s2 = cur s) by (unfold cur; rewrite Hr; reflexivity).
  assert (Hcle : cur s <= cur s2) by lia.
  assert (Hlc : forall k, lcs s k <= lcs s2 k) by (intros k; unfold lcs; rewrite Hr; lia).
  assert (Hsub : sub_core (d_memo s) (d_memo s2)) by (rewrite Hmm; apply (snapshot_sub_core pfam sfuel)).
  assert (Hpast : forall r, r <= cur s -> H r = H r /\ forall i, D r i = D r i) by (intros; split; reflexivity).
  assert (Hstamp : forall i, f_changed (d_in s i) <= f_changed (d_in s2 i)) by (intros i; rewrite Hi; lia).
  assert (HIm : forall g mg, d_memo s g = Some mg -> dmemo_ok H D F s g mg).
  { intros g mg Hg. apply (dmemo_ok_same prog NF pf H D F (set_cell s (sn_cell (H (cur s))))); [reflexivity | reflexivity | reflexivity|].
    apply (inv_memo _ _ _ _ _ _ _ HI g mg Hg). }
  apply (DInv_transfer uprog rank Hrank NF pf H D F H D s s2 HI Hcle Hlc Hsub Hpast Hstamp); rewrite ?Hc, ?Hi, ?Hr; auto.
  - intros q m' Hm'.
    apply (flat_edges_ok H D F s s2 HIm (obs_transfer uprog NF pf H D F H D s s2 HI Hcle Hlc Hsub Hpast) Hc Hmm q m' Hm').
  - rewrite <- Hc. exact Hcell.
  - intros r i Hlt Hl. apply Hstab; [exact Hlt|]. unfold lcs in *. rewrite Hr in Hl. exact Hl.
Qed.

Theorem restore_np_ok s ext :
  OK_d s -> d_stack s = [] ->
  state_ok true (restore (snapshot pfam sfuel s) ext lru0).
Proof.
  intros (H & D & F & HI) Hst. split; [|reflexivity].
  exists H, D, (lift s F). unfold DInv_d.
  apply (restore_transfer H D F s _ HI); [reflexivity | reflexivity | reflexivity | intros c; reflexivity].
Qed.

Theorem restore_np_ok_clean s ext :
  OK s -> d_stack s = [] -> d_cell ext = d_cell s ->
  state_ok false (restore (snapshot pfam sfuel s) ext lru0).
Proof.
  intros (H & D & F & HI) Hst Hce. split; [|reflexivity].
  exists H, D, (lift s F).
  apply (restore_transfer H D F s _ (DInv_to_d uprog NF pf H D F s HI)); [reflexivity | reflexivity | reflexivity|].
  intros c. cbn. rewrite Hce. apply (inv_cell _ _ _ _ _ _ _ HI).
Qed.

End NpClosed.

(* ---------------------------------------------------------------- the run *)
(* [Run.restore_good] for this invariant; proved in Section Closed and in Section NpClosed *)
Definition restore_good : Prop :=
  (forall s ext, OK_d s -> d_stack s = [] -> state_ok true (restore (snapshot pfam sfuel s) ext lru0)) /\
  (forall s ext, OK s -> d_stack s = [] -> d_cell ext = d_cell s ->
                 state_ok false (restore (snapshot pfam sfuel s) ext lru0)).

Theorem results_general fuel :
  (forall q, (rank q < fuel)%nat) ->
  forall ops p, Forall Statement.dur_op ops ->
    Statement.wf_ops false false ops ->
    (In ORestore ops -> restore_good) ->
    Run.pstate_ok pfam sfuel OK OK_d false false p ->
    Statement.known_class_free uprog noeq pfam fams lru0 sfuel fuel p ops ->
    Statement.results_ok_strict uprog noeq pfam fams lru0 NF sfuel fuel p ops.
Proof.
  intros Hfuel ops p Hdur.
  apply (Run.results_general uprog noeq pfam fams lru0 rank NF sfuel False OK OK_d run_facts_ok fuel Hfuel
           ops false false p Hdur).
  apply Forall_forall. intros o _ [].
Qed.

Lemma init_ok iv idur :
  (forall i, idur i <= 3) ->
  Run.pstate_ok pfam sfuel OK OK_d false false (pinit iv idur lru0).
Proof.
  intros Hid. split; [|split; [discriminate | intros img Hi; discriminate]].
  split; [|reflexivity].
  exists (fun _ => csnap (init iv idur lru0)), (fun _ => idur), (fun _ => None).
  constructor.
  - cbn. unfold REV_START. lia.
  - cbn. unfold revs_ok, REV_START; cbn. lia.
  - intros i r _ _. reflexivity.
  - intros i r _ _. reflexivity.
  - intros i. cbn. unfold REV_START. lia.
  - intros c. reflexivity.
  - intros r i. apply Hid.
  - intros r i _ _. split; reflexivity.
  - intros q m Hm. discriminate.
  - intros d rho c _ HF. discriminate.
Qed.

Lemma restore_good_closed : Statement.persisted_closed uprog pfam -> restore_good.
Proof.
  intros Hcl. split.
  - intros s ext. apply restore_ok. exact Hcl.
  - intros s ext. apply restore_ok_clean. exact Hcl.
Qed.

Lemma restore_good_np : Statement.np_closed uprog pfam -> (forall p, (S (rank p) < sfuel)%nat) -> restore_good.
Proof.
  intros Hn Hs. split.
  - intros s ext. apply restore_np_ok; assumption.
  - intros s ext. apply restore_np_ok_clean; assumption.
Qed.

End Top.

(* ---------------------------------------------------------------- in the terms of Statement.v *)
Section Final.
Variable prog : qkey -> body.
Variable noeq : qkey -> bool.
Variable pfam : N -> bool.
Variable fams : list N.
Variable lru0 : N -> lru_state.
Variable rank : qkey -> nat.
Hypothesis Hrank : Spec.calls_below prog rank.
Variable NF : nat.
Hypothesis Hbound : forall q, (rank q < NF)%nat.

(* the common form: restores are allowed when the persisted functions only call persisted
   functions (nothing is flattened away), or when the functions that are not persisted only call
   functions that are not persisted (what is flattened away are memos with direct reads) *)
Theorem results_strict fuel sfuel :
  (forall p, (rank p < fuel)%nat) ->
  forall iv idur ops,
    (forall i, idur i <= 3) -> Forall Statement.dur_op ops -> Statement.wf_ops false false ops ->
    (~ In ORestore ops \/ Statement.persisted_closed prog pfam \/
     (Statement.np_closed prog pfam /\ forall p, (S (rank p) < sfuel)%nat)) ->
    Statement.known_class_free prog noeq pfam fams lru0 sfuel fuel (pinit iv idur lru0) ops ->
    Statement.results_ok_strict prog noeq pfam fams lru0 NF sfuel fuel (pinit iv idur lru0) ops.
Proof.
  intros Hfuel iv idur ops Hid Hdur Hwf Hcase Hk.
  apply (results_general prog noeq pfam fams lru0 rank (calls_below_tb prog rank Hrank) NF Hbound sfuel fuel Hfuel
           ops _ Hdur Hwf); [| apply init_ok; exact Hid | exact Hk].
  intros Hin. destruct Hcase as [Hn | [Hc | [Hn Hs]]]; [contradiction | |].
  - exact (restore_good_closed prog pfam lru0 rank (calls_below_tb prog rank Hrank) NF sfuel Hc).
  - exact (restore_good_np prog pfam lru0 rank (calls_below_tb prog rank Hrank) NF sfuel Hn Hs).
Qed.

Theorem results_no_restore fuel sfuel :
  (forall p, (rank p < fuel)%nat) ->
  forall iv idur ops,
    (forall i, idur i <= 3) -> Forall Statement.dur_op ops -> Statement.wf_ops false false ops ->
    ~ In ORestore ops ->
    Statement.known_class_free prog noeq pfam fams lru0 sfuel fuel (pinit iv idur lru0) ops ->
    Statement.results_ok prog noeq pfam fams lru0 NF sfuel fuel (pinit iv idur lru0) ops.
Proof.
  intros Hfuel iv idur ops Hid Hdur Hwf Hnr Hk. apply Statement.results_ok_of_strict.
  apply (results_strict fuel sfuel Hfuel iv idur ops Hid Hdur Hwf (or_introl Hnr) Hk).
Qed.

Theorem results_closed fuel sfuel :
  (forall p, (rank p < fuel)%nat) ->
  Statement.persisted_closed prog pfam ->
  forall iv idur ops,
    (forall i, idur i <= 3) -> Forall Statement.dur_op ops -> Statement.wf_ops false false ops ->
    Statement.known_class_free prog noeq pfam fams lru0 sfuel fuel (pinit iv idur lru0) ops ->
    Statement.results_ok prog noeq pfam fams lru0 NF sfuel fuel (pinit iv idur lru0) ops.
Proof.
  intros Hfuel Hcl iv idur ops Hid Hdur Hwf Hk. apply Statement.results_ok_of_strict.
  apply (results_strict fuel sfuel Hfuel iv idur ops Hid Hdur Hwf (or_intror (or_introl Hcl)) Hk).
Qed.

(* the full statement with ONE more hypothesis: the functions that are not persisted only call
   functions that are not persisted — all durabilities, flattening to any depth *)
Theorem results_np fuel sfuel :
  (forall p, (rank p < fuel)%nat) -> (forall p, (S (rank p) < sfuel)%nat) ->
  Statement.np_closed prog pfam ->
  forall iv idur ops,
    (forall i, idur i <= 3) -> Forall Statement.dur_op ops -> Statement.wf_ops false false ops ->
    Statement.known_class_free prog noeq pfam fams lru0 sfuel fuel (pinit iv idur lru0) ops ->
    Statement.results_ok prog noeq pfam fams lru0 NF sfuel fuel (pinit iv idur lru0) ops.
Proof.
  intros Hfuel Hsfuel Hn iv idur ops Hid Hdur Hwf Hk. apply Statement.results_ok_of_strict.
  apply (results_strict fuel sfuel Hfuel iv idur ops Hid Hdur Hwf (or_intror (or_intror (conj Hn Hsfuel))) Hk).
Qed.

End Final.
