(* Persist/LInvSem.v — what Core/DInvSem.v is for the Core model, for the invariant of LInv.v:
   when may a memo be marked verified now (edge walk or durability short-cut), and when is a
   freshly computed memo ok, including what every observer of the query is owed, and that stamps
   never decrease ([frame_changed_lb]). *)
From Salsa Require Import Base.
From Salsa.Kern Require Import CoreK CoreKFacts.
From Salsa.Core Require Import Model Spec SpecProofs Inv DurSem.
From Salsa.Persist Require Import Model PSem PWp LInv.

Section Sem.
Variable prog : qkey -> CM.body.
Variable rank : qkey -> nat.
Hypothesis Hrank : calls_below prog rank.
Variable NF : nat.
Hypothesis Hbound : forall q, (rank q < NF)%nat.
Variable fm : bool.
Variable F : ghost.
Notation E := (E prog NF).
Notation tr := (tr prog NF).
Notation envat := (envat prog NF).
Notation durge := (durge prog NF).
Notation clos := (clos prog NF).
Notation dmemo_ok := (fun H D => dmemo_ok prog NF fm H D F).
Notation DInv := (fun H D => DInv prog NF fm H D F).
Notation obs_pre := (obs_pre prog NF).
Notation obs_ok := (obs_ok prog NF).
Notation good := (good prog NF fm).
Notation dext := (fun H D => dext prog NF H D F).
Notation sle := (fun s => sle s F).
Notation prov := (fun H s => prov prog NF H s F).

Notation same_run := (same_run prog rank Hrank NF Hbound).
Notation same_run_common := (same_run_common prog rank Hrank NF Hbound).

(* a memo verified now serves the whole closure of its query *)
Lemma obs_of_callee H D s d1 md1 d md :
  DInv H D s -> d_memo s d1 = Some md1 -> m_verified md1 = cur s -> clos H (cur s) d1 d ->
  d_memo s d = Some md ->
  E H (cur s) d = E H (m_verified md) d /\ m_dur md1 <= m_dur md.
Proof.
  intros HI Hm1 Hv1 Hc Hmd.
  pose proof (inv_memo _ _ _ _ _ _ _ HI d1 md1 Hm1) as Hok1.
  rewrite <- Hv1 in Hc. rewrite <- Hv1.
  apply (mo_obs _ _ _ _ _ _ _ _ _ Hok1 d md Hc Hmd).
  left. pose proof (mo_order _ _ _ _ _ _ _ _ _ (inv_memo _ _ _ _ _ _ _ HI d md Hmd)) as (_ & A & B).
  rewrite Hv1. lia.
Qed.

(* never-change callees stay what they are *)
Lemma never_now H D s a d :
  DInv H D s -> 1 <= a -> a <= cur s -> durge H D a 3 d ->
  tr H (cur s) d = tr H a d /\ E H (cur s) d = E H a d /\ durge H D (cur s) 3 d.
Proof.
  intros HI Ha Hle Hd.
  apply (durge_stable prog rank Hrank NF Hbound H D 3 a (cur s) d (cur s));
    [lia | apply (stable_never prog NF fm H D F s a HI Ha) | exact Hd | exact Hle | lia].
Qed.

(* flat mode: a query of level >= 1 reads no input at all; it is the same at every revision *)
Lemma low_never H D a k : (forall r i, D r i = 0) -> 1 <= k ->
  forall n d, (rank d < n)%nat -> durge H D a k d ->
  forall w, tr H w d = tr H a d /\ E H w d = E H a d /\ durge H D w 3 d.
Proof.
  intros HD Hk. induction n as [|n IH]; intros d Hn Hd w; [inversion Hn|].
  assert (Hag : agree_on (envat H a) (envat H w) (tr H a d)).
  { intros x Hx. destruct x as [i | d' | c |]; cbn.
    - pose proof (durge_in _ _ _ _ _ _ _ _ Hd Hx) as Hle. rewrite HD in Hle. lia.
    - symmetry. apply (IH d'); [|eapply durge_q; eassumption].
      pose proof (tr_calls prog rank Hrank NF H _ _ _ Hx). lia.
    - assert (k = 0); [|lia]. apply (durge_untr _ _ _ _ _ _ _ _ Hd Hx). right; eauto.
    - reflexivity. }
  destruct (same_run H a w d Hag) as [Htr HE]. split; [exact Htr|]. split; [exact HE|].
  constructor; rewrite Htr.
  - intros i Hi. pose proof (durge_in _ _ _ _ _ _ _ _ Hd Hi) as Hle. rewrite HD in Hle. lia.
  - intros d' Hd'. apply (IH d'); [|eapply durge_q; eassumption].
    pose proof (tr_calls prog rank Hrank NF H _ _ _ Hd'). lia.
  - intros x Hx Hu. assert (k = 0); [|lia]. apply (durge_untr _ _ _ _ _ _ _ _ Hd Hx Hu).
Qed.

(* ---------------------------------------------------------------- marking a memo verified now *)
Lemma reverified_dok H D s q m :
  DInv H D s -> d_memo s q = Some m ->
  tr H (cur s) q = tr H (m_verified m) q -> E H (cur s) q = E H (m_verified m) q ->
  durge H D (cur s) (m_dur m) q ->
  (* what was flattened away is covered from now on as well *)
  (m_untracked m = false ->
   forall d, In (RQ d) (tr H (m_verified m) q) -> ~ In (EQ d) (m_edges m) ->
     good H D s (m_edges m) (cur s) d) ->
  (m_dur m = 0 -> forall d md, In (EQ d) (m_edges m) -> d_memo s d = Some md -> cur s <= m_verified md) ->
  (forall d md, clos H (cur s) q d -> d <> q -> d_memo s d = Some md ->
     E H (cur s) d = E H (m_verified md) d /\ m_dur m <= m_dur md) ->
  let m' := reverify m (cur s) in
  (forall g w k, obs_ok H D s g w k -> obs_ok H D (store s q m') g w k) ->
  dmemo_ok H D (store s q m') q m'.
Proof.
  intros HI Hm Htr' HE Hdg Hgood Hsync Hclos m' Hall.
  pose proof (inv_memo _ _ _ _ _ _ _ HI q m Hm) as Hok.
  pose proof (mo_order _ _ _ _ _ _ _ _ _ Hok) as (Ho1 & Ho2 & Ho3).
  assert (Hphi : forall c0, LInv.phi s F q = Some c0 -> c0 <= m_changed m').
  { intros c0 Hc0. unfold LInv.phi in Hc0. rewrite Hm in Hc0. injection Hc0 as <-. cbn. lia. }
  destruct Hok as [Morder Mval Min Mq Mcell Mreach Mflat Mdurge Mdur3 Mstamp Mobs Msync].
  constructor; cbn [m' reverify m_val m_verified m_changed m_dur m_untracked m_edges];
    rewrite ?cur_store; unfold LInv.prov; rewrite ?Htr'; auto.
  + (* mo_order *) pose proof (inv_cur _ _ _ _ _ _ _ HI). lia.
  + (* mo_val: the value is the same at both revisions *)
    intros x Hx. rewrite HE. apply Mval; exact Hx.
  + (* mo_q: what was flattened away *)
    intros Hu0 d0 Hd0 Hn. apply (good_mono prog NF fm H D s); [apply N.le_refl | exact Hall | apply Hgood; assumption].
  + (* mo_stamp: the provenance of the unchanged stamp, over stamps that did not go down *)
    apply (prov_mono prog NF H s (store s q m') F q (m_verified m) (m_changed m)); [reflexivity | | exact Mstamp].
    intros d0 c0. apply phi_store. exact Hphi.
  + (* mo_obs: the memo observes its closure from now on *)
    intros d0 md Hd0 Hmd _. unfold store in Hmd; cbn in Hmd. unfold upd in Hmd.
    destruct (key_eqb_spec q d0) as [<- | Hne].
    * injection Hmd as <-. split; [reflexivity | cbn; lia].
    * apply (Hclos d0 md Hd0); [congruence | exact Hmd].
  + (* mo_sync: a LOW memo and the memos of its edges; q is not an edge of itself *)
    intros Hz d0 md Hd0 Hmd. unfold store in Hmd; cbn in Hmd. unfold upd in Hmd.
    destruct (key_eqb_spec q d0) as [<- | Hne].
    * exfalso. pose proof (reach_rank prog rank Hrank q q (Mreach q Hd0)). lia.
    * apply (Hsync Hz d0 md Hd0 Hmd).
Qed.

Lemma revalidate_ok H D s q m :
  DInv H D s -> d_memo s q = Some m ->
  agree_on (envat H (m_verified m)) (envat H (cur s)) (tr H (m_verified m) q) ->
  (forall i, In (RIn i) (tr H (m_verified m) q) -> D (cur s) i = D (m_verified m) i) ->
  durge H D (cur s) (m_dur m) q ->
  (* what was flattened away is covered from now on as well *)
  (m_untracked m = false ->
   forall d, In (RQ d) (tr H (m_verified m) q) -> ~ In (EQ d) (m_edges m) ->
     good H D s (m_edges m) (cur s) d) ->
  (m_dur m = 0 -> forall d md, In (EQ d) (m_edges m) -> d_memo s d = Some md -> cur s <= m_verified md) ->
  (forall d md, clos H (cur s) q d -> d <> q -> d_memo s d = Some md ->
     E H (cur s) d = E H (m_verified md) d /\ m_dur m <= m_dur md) ->
  let m' := reverify m (cur s) in
  DInv H D (store s q m') /\ dext H D s (store s q m') /\ E H (cur s) q = E H (m_verified m) q.
Proof.
  intros HI Hm Hag HDin Hdg Hgood Hsync Hclos m'.
  pose proof (inv_memo _ _ _ _ _ _ _ HI q m Hm) as Hok.
  destruct (same_run H _ _ q Hag) as [Htr' HE].
  pose proof (mo_order _ _ _ _ _ _ _ _ _ Hok) as (Ho1 & Ho2 & Ho3).
  assert (Hobs : forall g w k, obs_ok H D s g w k -> clos H w g q -> obs_pre H D s w q m' ->
             E H w q = E H (cur s) q /\ k <= m_dur m').
  { intros g w k Hog Hcl Hpre.
    destruct (ob_obs _ _ _ _ _ _ _ _ Hog q m Hcl Hm) as [A B]; [exact Hpre|].
    split; [rewrite A; symmetry; exact HE | exact B]. }
  assert (Hall : forall g w k, obs_ok H D s g w k -> obs_ok H D (store s q m') g w k).
  { intros g w k Ho. apply obs_store; [reflexivity | exact Ho|]. intros Hcl Hp. apply (Hobs g w k Ho Hcl Hp). }
  assert (Hfin : DInv H D (store s q m') /\ dext H D s (store s q m')).
  assert (Hphi : forall c0, LInv.phi s F q = Some c0 -> c0 <= m_changed m').
  { intros c0 Hc0. unfold LInv.phi in Hc0. rewrite Hm in Hc0. injection Hc0 as <-. cbn. lia. }
  { apply (DInv_store prog NF fm H D F s q m' HI); [reflexivity | | exact Hobs | | exact Hphi].
    - exact (reverified_dok H D s q m HI Hm Htr' HE Hdg Hgood Hsync Hclos Hall).
    - intros m0 Hm0 Hv0. rewrite Hm in Hm0. injection Hm0 as <-.
      split; [|cbn; lia]. intros _. unfold m'. rewrite <- Hv0. symmetry. apply reverify_same. }
  destruct Hfin as [A B]. split; [exact A|]. split; [exact B | exact HE].
Qed.

(* The durability short-cut: nothing at the memo's level was written since it was verified. *)
Lemma shortcut_ok H D s q m :
  DInv H D s -> d_memo s q = Some m ->
  lcs s (m_dur m) <= m_verified m ->
  let m' := reverify m (cur s) in
  DInv H D (store s q m') /\ dext H D s (store s q m') /\ E H (cur s) q = E H (m_verified m) q.
Proof.
  intros HI Hm Hlc.
  pose proof (inv_memo _ _ _ _ _ _ _ HI q m Hm) as Hok.
  pose proof (mo_order _ _ _ _ _ _ _ _ _ Hok) as (Ho1 & Ho2 & Ho3).
  destruct (N.eq_dec (m_verified m) (cur s)) as [Heq | Hne].
  - (* already verified now: nothing moves *)
    apply (revalidate_ok H D s q m HI Hm); rewrite <- ?Heq.
    + intros x _. reflexivity.
    + intros i _. reflexivity.
    + apply (mo_durge _ _ _ _ _ _ _ _ _ Hok).
    + apply (mo_q _ _ _ _ _ _ _ _ _ Hok).
    + apply (mo_sync _ _ _ _ _ _ _ _ _ Hok).
    + intros d md Hd Hdq Hmd.
      apply (mo_obs _ _ _ _ _ _ _ _ _ Hok d md Hd Hmd). left.
      pose proof (mo_order _ _ _ _ _ _ _ _ _ (inv_memo _ _ _ _ _ _ _ HI d md Hmd)) as (_ & A & B). lia.
  - assert (Hk : 1 <= m_dur m).
    { destruct (N.eq_dec (m_dur m) 0) as [H0 | H0]; [|lia].
      rewrite H0 in Hlc. unfold lcs in Hlc. rewrite lc_zero in Hlc. unfold cur in *. lia. }
    pose proof (stable_now prog NF fm H D F s (m_dur m) (m_verified m) HI Hlc) as Hw.
    pose proof (mo_durge _ _ _ _ _ _ _ _ _ Hok) as Hdg.
    assert (Hst : forall d, durge H D (m_verified m) (m_dur m) d ->
              tr H (cur s) d = tr H (m_verified m) d /\ E H (cur s) d = E H (m_verified m) d /\
              durge H D (cur s) (m_dur m) d).
    { intros d Hd.
      apply (durge_stable prog rank Hrank NF Hbound H D (m_dur m) (m_verified m) (cur s) d (cur s));
        [exact Hk | exact Hw | exact Hd | exact Ho3 | lia]. }
    apply (revalidate_ok H D s q m HI Hm).
    + intros x Hx. destruct x as [i | d | c |]; cbn.
      * symmetry. apply (Hw i); [apply (durge_in _ _ _ _ _ _ _ _ Hdg Hx) | lia | lia].
      * symmetry. apply (Hst d). apply (durge_q _ _ _ _ _ _ _ _ Hdg Hx).
      * exfalso. assert (m_dur m = 0); [|lia].
        apply (durge_untr _ _ _ _ _ _ _ _ Hdg Hx). right; eauto.
      * reflexivity.
    + intros i Hi. apply (Hw i); [apply (durge_in _ _ _ _ _ _ _ _ Hdg Hi) | lia | lia].
    + apply (Hst q Hdg).
    + intros _ d Hd Hn. destruct (mo_flat _ _ _ _ _ _ _ _ _ Hok) as [Hf | Hdir].
      * apply (good_never prog NF fm H D s _ _ d (m_verified m) (m_dur m) Hf Hk Ho3).
        apply (durge_q _ _ _ _ _ _ _ _ Hdg Hd).
      * exfalso. apply Hn. apply Hdir. exact Hd.
    + intros Hz. lia.
    + intros d md Hd Hdq Hmd.
      apply (clos_stable prog rank Hrank NF Hbound H D (m_dur m) (m_verified m) (cur s) q (cur s) Hk Hw Hdg Ho3 (N.le_refl _)) in Hd.
      pose proof (durge_clos _ _ _ _ _ _ _ _ Hdg Hd) as Hdd.
      destruct (mo_obs _ _ _ _ _ _ _ _ _ Hok d md Hd Hmd) as [A B];
        [right; exists (m_dur m); split; assumption|].
      split; [|exact B]. rewrite <- A. apply (Hst d Hdd).
Qed.

(* ---------------------------------------------------------------- frames *)
Record covers (s : db) (pre : list rd) (fr : frame) : Prop := {
  cv_in : forall i, In (RIn i) pre ->
          In (EIn i) (fr_edges fr) /\
          f_changed (d_in s i) <= fr_changed fr /\ fr_dur fr <= f_dur (d_in s i);
  cv_q : forall d, In (RQ d) pre ->
         exists md, d_memo s d = Some md /\ m_verified md = cur s /\ m_val md <> None /\
                    m_changed md <= fr_changed fr /\ fr_dur fr <= m_dur md /\
                    In (EQ d) (fr_edges fr);
  cv_cell : forall x, In x pre -> untr x ->
            fr_untracked fr = true /\ fr_changed fr = cur s /\ fr_dur fr = 0;
  cv_edges_q : forall d, In (EQ d) (fr_edges fr) -> In (RQ d) pre;
  cv_le : fr_changed fr <= cur s;
  cv_ge1 : 1 <= fr_changed fr;
  (* the frame's stamp is the stamp of something that was read *)
  cv_stamp : fr_changed fr <= 1 \/ exists x, In x pre /\ sle s (fr_changed fr) x;
  cv_dur3 : fr_dur fr <= 3;
  cv_untr : fr_untracked fr = true -> fr_dur fr = 0;
  (* the frame's durability is exactly the minimum over what was read *)
  cv_lb : forall k, k <= 3 ->
          (forall i, In (RIn i) pre -> k <= f_dur (d_in s i)) ->
          (forall d, In (RQ d) pre -> forall md, d_memo s d = Some md -> k <= m_dur md) ->
          (forall x, In x pre -> untr x -> k = 0) ->
          k <= fr_dur fr
}.

(* the invariant's clauses in the terms of InvBase.v *)
Lemma obs_to H D s g w k : obs_ok H D s g w k -> observer prog NF H D s g w k.
Proof. intros [Oorder Odurge Odur3 Oobs]. constructor; assumption. Qed.

Lemma covers_to s pre fr : covers s pre fr -> InvBase.covers F s pre fr.
Proof. intros [a b c d e f g h i j]. constructor; assumption. Qed.

Lemma DInv_inputs H D s : DInv H D s -> inputs_ok H D s.
Proof.
  intros HI. constructor;
    [apply (inv_in _ _ _ _ _ _ _ HI) | apply (inv_dur _ _ _ _ _ _ _ HI) | apply (inv_in_le _ _ _ _ _ _ _ HI)].
Qed.

Lemma DInv_durge H D s : DInv H D s ->
  forall d md, d_memo s d = Some md -> durge H D (m_verified md) (m_dur md) d.
Proof. intros HI d md Hmd. apply (mo_durge _ _ _ _ _ _ _ _ _ (inv_memo _ _ _ _ _ _ _ HI d md Hmd)). Qed.

(* Stamps never decrease: the stamp of a completed frame is at least the stamp c that q had as
   observer at rho (its old memo, or the memo a restore dropped). *)
Lemma frame_changed_lb H D s q fr rho c k :
  DInv H D s -> covers s (tr H (cur s) q) fr ->
  obs_ok H D s q rho k -> c <= rho -> prov H s q rho c ->
  c <= fr_changed fr.
Proof.
  intros HI Hcv Hog.
  exact (InvBase.frame_changed_lb prog NF F H D s q fr rho c k (DInv_inputs H D s HI) (covers_to s _ fr Hcv) (obs_to H D s q rho k Hog)).
Qed.

Lemma phi_entry H D s d c0 :
  DInv H D s -> LInv.phi s F d = Some c0 ->
  exists r k, c0 <= r /\ obs_ok H D s d r k /\ prov H s d r c0.
Proof.
  intros HI Hc0. unfold LInv.phi in Hc0. destruct (d_memo s d) as [md|] eqn:Hmd.
  - injection Hc0 as <-. pose proof (inv_memo _ _ _ _ _ _ _ HI d md Hmd) as Hokd.
    exists (m_verified md), (m_dur md). split; [pose proof (mo_order _ _ _ _ _ _ _ _ _ Hokd); lia|].
    split; [apply (obs_of_memo prog NF fm H D F s d md Hokd) | apply (mo_stamp _ _ _ _ _ _ _ _ _ Hokd)].
  - destruct (F d) as [[r cc]|] eqn:HF; [|discriminate]. cbn in Hc0. injection Hc0 as <-.
    destruct (inv_ghost _ _ _ _ _ _ _ HI d r cc Hmd HF) as (A & B & C0).
    exists r, 0. split; [exact A|]. split; assumption.
Qed.

(* the stamp that q has now is at most the stamp of a completed frame *)
Lemma phi_frame_lb H D s q fr c0 :
  DInv H D s -> covers s (tr H (cur s) q) fr -> LInv.phi s F q = Some c0 -> c0 <= fr_changed fr.
Proof.
  intros HI Hcv Hc0. destruct (phi_entry H D s q c0 HI Hc0) as (r & k & A & B & C0).
  exact (frame_changed_lb H D s q fr r c0 k HI Hcv B A C0).
Qed.

Lemma fresh_memo_dok H D s q fr v ch :
  DInv H D s -> covers s (tr H (cur s) q) fr -> v = E H (cur s) q ->
  ch <= fr_changed fr -> (forall c0, LInv.phi s F q = Some c0 -> c0 <= ch) ->
  let m' := fresh_memo v (cur s) ch fr in
  dmemo_ok H D (store s q m') q m'.
Proof.
  intros HI Hcv Hv Hch_fr Hmono m'.
  pose proof (cv_le _ _ _ Hcv) as Hfr_le.
  assert (Hch_le : ch <= cur s) by lia.
  assert (Hcur1 : 1 <= cur s) by apply (inv_cur _ _ _ _ _ _ _ HI).
  pose proof (covers_durge prog NF F H D s q fr (DInv_inputs H D s HI) (DInv_durge H D s HI) (covers_to s _ fr Hcv)) as Hdg.
    constructor; cbn [m' fresh_memo m_val m_verified m_changed m_dur m_untracked m_edges]; rewrite ?cur_store.
    + lia.
    + intros x Hx. injection Hx as <-. exact Hv.
    + intros i Hi. apply (cv_in _ _ _ Hcv i Hi).
    + intros _ d Hd Hn. exfalso. apply Hn.
      destruct (cv_q _ _ _ Hcv d Hd) as (md & _ & _ & _ & _ & _ & Hin). exact Hin.
    + intros x Hx Hu. apply (cv_cell _ _ _ Hcv x Hx Hu).
    + intros d Hd. apply reach_one. apply (calls_of_trace _ _ _ (cv_edges_q _ _ _ Hcv d Hd)).
    + right. intros d Hd. destruct (cv_q _ _ _ Hcv d Hd) as (md & _ & _ & _ & _ & _ & Hin). exact Hin.
    + exact Hdg.
    + apply (cv_dur3 _ _ _ Hcv).
    + (* the stamp has a provenance in the new run *)
      destruct (cv_stamp _ _ _ Hcv) as [A | (x & Hx & Hs)]; [left; lia | right].
      exists x. split; [exact Hx|].
      apply (sle_mono s (store s q m') F ch x); [reflexivity | intros d0 c0; apply phi_store; exact Hmono|].
      destruct x as [i | d | cc |]; cbn in Hs |- *; auto.
      * lia.
      * destruct Hs as (c' & Hc' & Hle). exists c'. split; [exact Hc' | lia].
    + intros d md Hd Hmd _. unfold store in Hmd; cbn in Hmd. unfold upd in Hmd.
      destruct (key_eqb_spec q d) as [<- | Hne].
      * injection Hmd as <-. split; [reflexivity | cbn; lia].
      * assert (Hstep : exists d1, In (RQ d1) (tr H (cur s) q) /\ clos H (cur s) d1 d).
        { destruct Hd as [f | f d1 e Hin Hd1]; [contradiction | exists d1; split; assumption]. }
        destruct Hstep as (d1 & Hin1 & Hd1).
        destruct (covers_callee prog NF F H D s q fr d1 (DInv_durge H D s HI) (covers_to s _ fr Hcv) Hin1) as (md1 & Hmd1 & Hvd1 & _ & Hle1 & _).
        destruct (obs_of_callee H D s d1 md1 d md HI Hmd1 Hvd1 Hd1 Hmd) as (HEd & Hdd).
        split; [exact HEd | lia].
    + intros _ d md Hd Hmd. unfold store in Hmd; cbn in Hmd. unfold upd in Hmd.
      pose proof (cv_edges_q _ _ _ Hcv d Hd) as Hrd.
      destruct (key_eqb_spec q d) as [<- | Hne].
      * pose proof (tr_calls prog rank Hrank NF H _ _ _ Hrd). lia.
      * destruct (cv_q _ _ _ Hcv d Hrd) as (md0 & Hmd0 & Hvd0 & _).
        rewrite Hmd in Hmd0. injection Hmd0 as <-. lia.
Qed.

Lemma fresh_store_ok H D s q fr v ch (old : option memo) :
  DInv H D s ->
  covers s (tr H (cur s) q) fr ->
  v = E H (cur s) q ->
  d_memo s q = old ->
  (forall m0, old = Some m0 -> m_verified m0 = cur s -> m_val m0 = None) ->
  (* ch is the frame's stamp, or the old memo's (backdating) *)
  (ch = fr_changed fr \/
   exists o ov, old = Some o /\ m_val o = Some ov /\ ov = v /\ ch = m_changed o /\
                m_dur o <= fr_dur fr) ->
  let m' := fresh_memo v (cur s) ch fr in
  DInv H D (store s q m') /\ dext H D s (store s q m').
Proof.
  intros HI Hcv Hv Hold Hnv Hch m'.
  assert (Hmono : forall c0, LInv.phi s F q = Some c0 -> c0 <= ch).
  { intros c0 Hc0. destruct Hch as [-> | (o & ov & Ho & _ & _ & -> & _)].
    - apply (phi_frame_lb H D s q fr c0 HI Hcv Hc0).
    - subst old. unfold LInv.phi in Hc0. rewrite Ho in Hc0. injection Hc0 as <-. lia. }
  assert (Hch_fr : ch <= fr_changed fr).
  { destruct Hch as [-> | (o & ov & Ho & _ & _ & -> & _)]; [lia|].
    subst old. apply (phi_frame_lb H D s q fr (m_changed o) HI Hcv). unfold LInv.phi. rewrite Ho. reflexivity. }
  assert (Hmdle : forall d md, d_memo s d = Some md -> m_changed md <= cur s).
  { intros d md Hmd. pose proof (mo_order _ _ _ _ _ _ _ _ _ (inv_memo _ _ _ _ _ _ _ HI d md Hmd)). lia. }
  apply (DInv_store prog NF fm H D F s q m' HI); [reflexivity | | | | exact Hmono].
  - exact (fresh_memo_dok H D s q fr v ch HI Hcv Hv Hch_fr Hmono).
  - (* observers *)
    intros g w k Hog Hcl Hpre.
    apply (fresh_observed prog rank Hrank NF Hbound F H D s q fr v ch old g w k (DInv_inputs H D s HI));
      [intros k0 a; apply (stable_now prog NF fm H D F s k0 a HI) | exact Hmdle | | apply covers_to; exact Hcv
       | exact Hv | exact Hold | exact Hch | apply obs_to; exact Hog | exact Hcl | exact Hpre].
    intros o ov Ho. apply (mo_val _ _ _ _ _ _ _ _ _ (inv_memo _ _ _ _ _ _ _ HI q o Ho)).
  - (* the query's own memo, if it was verified now (and evicted) *)
    intros m0 Hm0 Hv0.
    split; [intros Hx; exfalso; apply Hx; apply Hnv; [congruence | exact Hv0]|].
    cbn [m' fresh_memo m_dur].
    apply (InvBase.frame_dur_lb prog NF F H D s q fr q (m_verified m0) (m_dur m0) (DInv_inputs H D s HI)
             (covers_to s _ fr Hcv) (obs_to _ _ _ _ _ _ (obs_of_memo prog NF fm H D F s q m0 (inv_memo _ _ _ _ _ _ _ HI q m0 Hm0))));
      rewrite ?Hv0; auto.
    + apply clos_refl.
    + intros d md _ Hmd. left. apply (Hmdle d md Hmd).
Qed.

(* ---------------------------------------------------------------- the edge walk succeeded *)
(* What the walk (from state s0 to state s) established about an edge of q's memo m:
   an input field has an old stamp; a function has a memo that is verified now, every observer
   of the state the walk started in, at a revision >= verified_at, that has it in its closure
   saw the value it has now, and if q itself has it in its closure its recorded durability is
   above the memo's. *)
Definition leaf_ok H D (s0 s : db) (q : qkey) (m : memo) (e : edge) : Prop :=
  match e with
  | EIn i => f_changed (d_in s i) <= m_verified m
  | EQ d =>
      (exists md, d_memo s d = Some md /\ m_verified md = cur s) /\
      (forall g w k, obs_ok H D s0 g w k -> m_verified m <= w -> clos H w g d ->
                     E H w d = E H (cur s) d) /\
      (clos H (m_verified m) q d ->
         durge H D (cur s) (m_dur m) d /\ exists md, d_memo s d = Some md /\ m_dur m <= m_dur md)
  end.

Section Walked.
Variables (H : hist) (D : dhist) (s0 s : db) (q : qkey) (m : memo).
Hypothesis HI0 : DInv H D s0.
Hypothesis HI : DInv H D s.
Hypothesis Hext : dext H D s0 s.
Hypothesis Hm0 : d_memo s0 q = Some m.
Hypothesis Hm : d_memo s q = Some m.
Hypothesis Hu : m_untracked m = false.
Hypothesis Hleaf : forall e, In e (m_edges m) -> leaf_ok H D s0 s q m e.
Let v := m_verified m.
Let L := m_edges m.
Let c := cur s.

Let Hcur : cur s0 = c.
Proof. symmetry. apply (dext_cur _ _ _ _ _ _ _ Hext). Qed.

Let in_same i w : In (EIn i) L -> v <= w -> w <= c ->
  sn_in (H w) i = sn_in (H c) i /\ D w i = D c i.
Proof.
  intros Hi Hv Hw. pose proof (Hleaf _ Hi) as Hle. cbn in Hle. fold v in Hle.
  pose proof (inv_in_le _ _ _ _ _ _ _ HI i) as Hic. fold c in Hic.
  split.
  - rewrite (inv_in _ _ _ _ _ _ _ HI i w); [|lia | exact Hw].
    symmetry. apply (inv_in _ _ _ _ _ _ _ HI i c); [exact Hic | apply N.le_refl].
  - rewrite (inv_dur _ _ _ _ _ _ _ HI i w); [|lia | exact Hw].
    symmetry. apply (inv_dur _ _ _ _ _ _ _ HI i c); [exact Hic | apply N.le_refl].
Qed.

(* a dependency that was flattened away looks now as it looked to every observer *)
Definition seen_as_now (d : qkey) : Prop :=
  forall g w k, obs_ok H D s0 g w k -> v <= w -> clos H w g d ->
    tr H w d = tr H c d /\ E H w d = E H c d.

Lemma good_seen : forall n d, (rank d < n)%nat -> good H D s0 L v d -> seen_as_now d.
Proof.
  induction n as [|n IH]; intros d Hn Hg; [inversion Hn|].
  inversion Hg as [d0 a k Hf Hk Ha Hd | d0 rho k Ho Hv Hun Hi Hq]; subst d0.
  - intros g w k' _ _ _.
    pose proof (inv_lowD _ _ _ _ _ _ _ HI Hf) as HD0.
    destruct (low_never H D a k HD0 Hk (S (rank d)) d (le_n _) Hd w) as (A1 & A2 & _).
    destruct (low_never H D a k HD0 Hk (S (rank d)) d (le_n _) Hd c) as (B1 & B2 & _).
    split; congruence.
  - pose proof (ob_order _ _ _ _ _ _ _ _ Ho) as (Hr1 & Hr2). rewrite Hcur in Hr2.
    assert (Hchild : forall d' g w k', In (RQ d') (tr H rho d) -> obs_ok H D s0 g w k' -> v <= w ->
               clos H w g d' -> E H w d' = E H c d').
    { intros d' g w k' Hd' Hog Hvw Hcl.
      pose proof (tr_calls prog rank Hrank NF H _ _ _ Hd') as Hrk.
      destruct (edge_in_dec (EQ d') L) as [HinL | HnL].
      - destruct (Hleaf _ HinL) as (_ & A & _). apply (A g w k' Hog Hvw Hcl).
      - apply (IH d' ltac:(lia) (Hq d' Hd' HnL) g w k' Hog Hvw Hcl). }
    (* its own revision *)
    assert (Hown : tr H c d = tr H rho d /\ E H c d = E H rho d).
    { apply same_run. intros x Hx. destruct x as [i | d' | cc |]; cbn.
      - apply (in_same i rho (Hi i Hx) Hv Hr2).
      - apply (Hchild d' d rho k Hx Ho Hv). apply clos_one. exact Hx.
      - exfalso. apply (Hun _ Hx). right; eauto.
      - reflexivity. }
    destruct Hown as [Htr HE].
    intros g w k' Hog Hvw Hcl.
    pose proof (ob_order _ _ _ _ _ _ _ _ Hog) as (Hw1 & Hw2). rewrite Hcur in Hw2.
    apply same_run_common. intros x Hx Hx'. rewrite Htr in Hx.
    destruct x as [i | d' | cc |]; cbn.
    + symmetry. apply (in_same i w (Hi i Hx) Hvw Hw2).
    + symmetry. apply (Hchild d' g w k' Hx Hog Hvw). eapply clos_right; eassumption.
    + exfalso. apply (Hun _ Hx). right; eauto.
    + reflexivity.
Qed.

Let Hok0 : dmemo_ok H D s0 q m := inv_memo _ _ _ _ _ _ _ HI0 q m Hm0.
Let Hobq : obs_ok H D s0 q v (m_dur m) := obs_of_memo prog NF fm H D F s0 q m Hok0.

Lemma walked_read d : In (RQ d) (tr H v q) -> E H v d = E H c d.
Proof.
  intros Hd. destruct (edge_in_dec (EQ d) L) as [HinL | HnL].
  - destruct (Hleaf _ HinL) as (_ & A & _). apply (A q v (m_dur m) Hobq (N.le_refl _)).
    apply clos_one. exact Hd.
  - apply (good_seen (S (rank d)) d (le_n _) (mo_q _ _ _ _ _ _ _ _ _ Hok0 Hu d Hd HnL)
             q v (m_dur m) Hobq (N.le_refl _)).
    apply clos_one. exact Hd.
Qed.

Lemma walked_agree : agree_on (envat H v) (envat H c) (tr H v q).
Proof.
  pose proof (mo_order _ _ _ _ _ _ _ _ _ Hok0) as (Ho1 & Ho2 & Ho3). fold v in Ho1, Ho3. rewrite Hcur in Ho3.
  intros x Hx. destruct x as [i | d | cc |]; cbn.
  - apply (in_same i v (mo_in _ _ _ _ _ _ _ _ _ Hok0 i Hx) (N.le_refl _) Ho3).
  - apply walked_read. exact Hx.
  - rewrite (mo_reads_cell _ _ _ _ _ _ _ _ _ Hok0 (RCell cc) Hx) in Hu; [discriminate | right; eauto].
  - reflexivity.
Qed.

Lemma walked_tr : tr H c q = tr H v q /\ E H c q = E H v q.
Proof. apply same_run. exact walked_agree. Qed.

(* what is below a flattened dependency: every memo there has the value of now *)
Lemma below_good : forall n x, (rank x < n)%nat -> good H D s0 L v x -> clos H v q x ->
  forall d md, clos H c x d -> d_memo s d = Some md -> E H c d = E H (m_verified md) d.
Proof.
  induction n as [|n IH]; intros x Hn Hg Hqx d md Hcl Hmd; [inversion Hn|].
  pose proof (mo_order _ _ _ _ _ _ _ _ _ (inv_memo _ _ _ _ _ _ _ HI d md Hmd)) as (Hmo1 & Hmo2 & Hmo3).
  fold c in Hmo3.
  inversion Hg as [d0 a k Hf Hk Ha Hd | d0 rho k Ho Hv Hun Hi Hq]; subst d0.
  - (* no input below x *)
    pose proof (inv_lowD _ _ _ _ _ _ _ HI Hf) as HD0.
    destruct (low_never H D a k HD0 Hk (S (rank x)) x (le_n _) Hd c) as (_ & _ & H3).
    pose proof (durge_clos _ _ _ _ _ _ _ _ H3 Hcl) as H3d.
    assert (H13 : 1 <= 3) by lia.
    destruct (low_never H D c 3 HD0 H13 (S (rank d)) d (le_n _) H3d (m_verified md)) as (_ & A & _).
    symmetry. exact A.
  - pose proof (good_seen (S (rank x)) x (le_n _) Hg) as Hseen.
    destruct (Hseen q v (m_dur m) Hobq (N.le_refl _) Hqx) as [Htrv HEv].
    destruct (Hseen x rho k Ho Hv (clos_refl _ _ _ _ _)) as [Htrr HEr].
    inversion Hcl as [f | f d1 e Hin Hd1]; subst.
    + (* the dependency's own memo *)
      destruct (N.eq_dec (m_verified md) c) as [-> | Hnc]; [reflexivity|].
      assert (Hmd0 : d_memo s0 d = Some md).
      { apply (ext_old _ _ _ _ _ _ _ Hext d md Hmd). rewrite Hcur. lia. }
      pose proof (inv_memo _ _ _ _ _ _ _ HI0 d md Hmd0) as Hokd.
      destruct (N.le_gt_cases (m_verified md) v) as [Hle | Hgt].
      * destruct (mo_obs _ _ _ _ _ _ _ _ _ Hok0 d md Hqx Hmd0) as [A _]; [left; fold v; lia|].
        fold v in A. rewrite <- A. symmetry. exact HEv.
      * destruct (Hseen d (m_verified md) (m_dur md) (obs_of_memo prog NF fm H D F s0 d md Hokd))
          as [_ A]; [lia | apply clos_refl|]. symmetry. exact A.
    + rewrite <- Htrr in Hin.
      destruct (edge_in_dec (EQ d1) L) as [HinL | HnL].
      * destruct (Hleaf _ HinL) as ((md1 & Hmd1 & Hv1) & _ & _).
        apply (obs_of_callee H D s d1 md1 d md HI Hmd1 Hv1 Hd1 Hmd).
      * pose proof (tr_calls prog rank Hrank NF H _ _ _ Hin) as Hrk.
        apply (IH d1 ltac:(lia) (Hq d1 Hin HnL)); [|exact Hd1 | exact Hmd].
        eapply clos_right; [exact Hqx|]. rewrite Htrv, <- Htrr. exact Hin.
Qed.

(* the flattened dependencies are covered from now on: they are observers at the current revision *)
Lemma reroot : forall n x, (rank x < n)%nat -> good H D s0 L v x -> clos H v q x ->
  good H D s L c x.
Proof.
  induction n as [|n IH]; intros x Hn Hg Hqx; [inversion Hn|].
  inversion Hg as [d0 a k Hf Hk Ha Hd | d0 rho k Ho Hv Hun Hi Hq]; subst d0.
  - apply (good_never prog NF fm H D s L c x a k Hf Hk); [rewrite Hcur in Ha; exact Ha | exact Hd].
  - pose proof (good_seen (S (rank x)) x (le_n _) Hg) as Hseen.
    destruct (Hseen q v (m_dur m) Hobq (N.le_refl _) Hqx) as [Htrv HEv].
    destruct (Hseen x rho k Ho Hv (clos_refl _ _ _ _ _)) as [Htrr HEr].
    apply (good_exp prog NF fm H D s L c x c 0).
    + constructor.
      * split; [apply (inv_cur _ _ _ _ _ _ _ HI) | apply N.le_refl].
      * apply (durge_zero prog rank Hrank NF H D).
      * lia.
      * intros d md Hcl Hmd _. split; [|lia].
        apply (below_good (S (rank x)) x (le_n _) Hg Hqx d md Hcl Hmd).
    + apply N.le_refl.
    + intros y Hy. rewrite <- Htrr in Hy. apply (Hun y Hy).
    + intros i Hi0. rewrite <- Htrr in Hi0. apply (Hi i Hi0).
    + intros d' Hd' HnL. rewrite <- Htrr in Hd'.
      pose proof (tr_calls prog rank Hrank NF H _ _ _ Hd') as Hrk.
      apply (IH d' ltac:(lia) (Hq d' Hd' HnL)).
      eapply clos_right; [exact Hqx|]. rewrite Htrv, <- Htrr. exact Hd'.
Qed.

End Walked.

(* Every recorded edge is unchanged since the memo was verified: the memo may be marked
   verified now.  The memo's durability is LOW, or its edges are its direct reads. *)
Lemma deep_ok H D s0 s q m :
  DInv H D s0 -> DInv H D s -> dext H D s0 s ->
  d_memo s0 q = Some m -> d_memo s q = Some m -> m_untracked m = false ->
  (m_dur m = 0 \/ forall d, In (RQ d) (tr H (m_verified m) q) -> In (EQ d) (m_edges m)) ->
  (forall e, In e (m_edges m) -> leaf_ok H D s0 s q m e) ->
  let m' := reverify m (cur s) in
  DInv H D (store s q m') /\ dext H D s (store s q m') /\ E H (cur s) q = E H (m_verified m) q.
Proof.
  intros HI0 HI Hext Hm0 Hm Hu Hflat Hleaf.
  pose proof (inv_memo _ _ _ _ _ _ _ HI0 q m Hm0) as Hok0.
  pose proof (mo_order _ _ _ _ _ _ _ _ _ Hok0) as (Ho1 & Ho2 & Ho3).
  pose proof (mo_durge _ _ _ _ _ _ _ _ _ Hok0) as Hdg.
  assert (Hcur : cur s0 = cur s) by (symmetry; apply (dext_cur _ _ _ _ _ _ _ Hext)).
  rewrite Hcur in Ho3.
  pose proof (walked_agree H D s0 s q m HI0 HI Hext Hm0 Hu Hleaf) as Hag.
  destruct (walked_tr H D s0 s q m HI0 HI Hext Hm0 Hu Hleaf) as [Htr HE].
  assert (Hinc : forall i, In (RIn i) (tr H (m_verified m) q) -> D (cur s) i = D (m_verified m) i).
  { intros i Hi. pose proof (Hleaf _ (mo_in _ _ _ _ _ _ _ _ _ Hok0 i Hi)) as Hle. cbn in Hle.
    rewrite (inv_dur _ _ _ _ _ _ _ HI i (m_verified m) Hle Ho3).
    apply (inv_dur _ _ _ _ _ _ _ HI i (cur s)); [apply (inv_in_le _ _ _ _ _ _ _ HI) | lia]. }
  apply (revalidate_ok H D s q m HI Hm Hag Hinc).
  - (* the level now *)
    constructor; rewrite Htr.
    + intros i Hi. rewrite (Hinc i Hi). apply (durge_in _ _ _ _ _ _ _ _ Hdg Hi).
    + intros d Hd. destruct Hflat as [Hz | Hdir].
      * rewrite Hz. apply (durge_zero prog rank Hrank NF H D).
      * destruct (Hleaf _ (Hdir d Hd)) as (_ & _ & C). apply C. apply clos_one. exact Hd.
    + intros x Hx Hux. apply (durge_untr _ _ _ _ _ _ _ _ Hdg Hx Hux).
  - (* the cover from now on *)
    intros _ d Hd HnL. destruct Hflat as [Hz | Hdir]; [|exfalso; apply HnL; apply Hdir; exact Hd].
    apply (reroot H D s0 s q m HI0 HI Hext Hm0 Hleaf (S (rank d)) d (le_n _)
             (mo_q _ _ _ _ _ _ _ _ _ Hok0 Hu d Hd HnL)).
    apply clos_one. exact Hd.
  - intros _ d md Hd Hmd. destruct (Hleaf _ Hd) as ((md' & Hmd' & Hv') & _).
    rewrite Hmd in Hmd'. injection Hmd' as <-. lia.
  - (* everything below *)
    intros d md Hcl Hdq Hmd.
    inversion Hcl as [f | f d1 e Hin Hd1]; subst; [contradiction|].
    rewrite Htr in Hin.
    destruct (edge_in_dec (EQ d1) (m_edges m)) as [HinL | HnL].
    + destruct (Hleaf _ HinL) as ((md1 & Hmd1 & Hv1) & _ & C).
      destruct (obs_of_callee H D s d1 md1 d md HI Hmd1 Hv1 Hd1 Hmd) as (HEd & Hdd).
      split; [exact HEd|].
      destruct Hflat as [Hz | Hdir]; [lia|].
      destruct (C (clos_one _ _ _ _ _ _ Hin)) as (_ & md1' & Hmd1' & Hle).
      rewrite Hmd1 in Hmd1'. injection Hmd1' as <-. lia.
    + destruct Hflat as [Hz | Hdir]; [|exfalso; apply HnL; apply Hdir; exact Hin].
      split; [|lia].
      apply (below_good H D s0 s q m HI0 HI Hext Hm0 Hleaf (S (rank d1)) d1 (le_n _)
               (mo_q _ _ _ _ _ _ _ _ _ Hok0 Hu d1 Hin HnL) (clos_one _ _ _ _ _ _ Hin) d md Hd1 Hmd).
Qed.

End Sem.
