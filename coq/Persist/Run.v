(* Persist/Run.v — the persist-mode model across its API operations and the induction over a
   history ([results_general]), for ANY pair of state predicates [OK] (the invariant holds for
   some ghost histories) and [OK_d] (the same up to the external cells) with the properties
   collected in [run_facts]. *)
From Salsa Require Import Base.
From Salsa.Kern Require Import CoreK CoreKFacts.
From Salsa.Core Require Import Model Spec SpecProofs Inv DurSem.
From Salsa.Persist Require Import Model PSem PWp InvBase.
From Salsa.Persist Require Statement.

Section Run.
Variable uprog : qkey -> body.
Variable noeq : qkey -> bool.
Variable pfam : N -> bool.
Variable fams : list N.
Variable lru0 : N -> lru_state.
Variable rank : qkey -> nat.
Variable NF : nat.
Variable sfuel : nat.
Variable flat : Prop.
Variable OK OK_d : db -> Prop.
Notation pstep := (Statement.pstep uprog noeq pfam fams lru0 sfuel).

(* every durability is LOW: of the inputs, and nothing was ever written at a higher level *)
Definition low (s : db) : Prop :=
  (forall i, f_dur (d_in s i) = 0) /\ forall k, 1 <= k -> lcs s k <= 1.

(* [flat] says that the run is in flat mode.  The invariant of PInv.v has no such mode and takes
   [flat := False] (PTop.run_facts_ok); the invariant of LInv.v takes [flat := (fm = true)]
   (LTop.run_facts_ok), and its flat mode only admits LOW durabilities. *)
Record run_facts : Prop := {
  (* between a write to an external cell and the next revision only [OK_d] is known *)
  rf_to_d : forall s, OK s -> OK_d s;
  (* what the invariant says of the revision vector and the input durabilities: the premises of
     [rf_advance] for the state after a write are derived from these *)
  rf_inputs : forall s, OK_d s ->
              revs_ok (d_revs s) /\ (forall i, f_dur (d_in s i) <= 3) /\ (flat -> low s);
  (* a new revision and the writes made inside it, [s'] being the state when they are done (no
     write at all: a plain new revision).  A write reports the OLD durability of what it writes:
     every input that changes had a level that was reported *)
  rf_advance : forall s s', OK_d s ->
               r_cur (d_revs s') = r_cur (d_revs s) + 1 -> revs_ok (d_revs s') ->
               (forall k, lcs s k <= lcs s' k) ->
               (forall i, d_in s' i = d_in s i \/
                          (f_changed (d_in s' i) = cur s' /\ lcs s' (f_dur (d_in s i)) = cur s')) ->
               (forall i, f_dur (d_in s' i) <= 3) -> (flat -> low s') ->
               evicted_from (d_memo s) (d_memo s') -> OK s';
  (* eviction, and the operations on external cells, fault switches and LRU capacities *)
  rf_d_same : forall s s', OK_d s -> d_revs s' = d_revs s -> d_in s' = d_in s ->
              evicted_from (d_memo s) (d_memo s') -> OK_d s';
  rf_same : forall s s', OK s -> d_revs s' = d_revs s -> d_in s' = d_in s -> d_cell s' = d_cell s ->
            evicted_from (d_memo s) (d_memo s') -> OK s';
  (* a synthetic write *)
  rf_revs : forall s s', OK s -> cur s' = cur s -> revs_ok (d_revs s') ->
            (forall k, lcs s k <= lcs s' k) -> (flat -> forall k, 1 <= k -> lcs s' k <= 1) ->
            d_in s' = d_in s -> d_cell s' = d_cell s -> d_memo s' = d_memo s -> OK s';
  (* a Get: the from-scratch value or an allowed panic *)
  rf_get : forall fuel s q, (forall p, (rank p < fuel)%nat) -> OK s -> d_stack s = [] ->
           let r := fetch uprog noeq (level uprog noeq fuel) q s in
           (match snd r with
            | POk (v, _, _) => v = Spec.eval uprog NF (Spec.snap_of s) q /\
                               OK (fst r) /\ d_stack (fst r) = []
            | PPanic p => dallowed s p /\ OK (set_stack (fst r) [])
            | PFuel => False
            end) /\ d_in (fst r) = d_in s /\ d_cell (fst r) = d_cell s
}.
Hypothesis Facts : run_facts.

Lemma OK_d_new_revision s : OK_d s -> OK (new_revision fams s).
Proof.
  intros Hok. destruct (new_revision_facts fams s) as (A & _ & _ & F).
  destruct (rf_inputs Facts s Hok) as (Rv & Hd3 & Hlow).
  pose proof (new_revision_revs fams s) as Hr.
  apply (rf_advance Facts s); auto.
  - rewrite Hr. reflexivity.
  - destruct Rv as (R1 & R2 & R3). rewrite Hr. unfold revs_ok; cbn. lia.
  - intros k. apply (new_revision_lcs fams s k Rv).
  - intros i. left. rewrite A. reflexivity.
  - intros i. rewrite A. apply Hd3.
  - intros Hf. destruct (Hlow Hf) as [L1 L2]. split; [intros i; rewrite A; apply L1|].
    intros k Hk. rewrite (proj2 (new_revision_lcs fams s k Rv) Hk). apply (L2 k Hk).
Qed.

Lemma OK_d_zalsa_mut s : OK_d s -> OK_d (zalsa_mut fams s).
Proof.
  intros Hok. unfold zalsa_mut. destruct (d_ccount s =? 255).
  - apply (rf_to_d Facts). apply OK_d_new_revision; exact Hok.
  - apply (rf_d_same Facts s); auto. apply evicted_refl.
Qed.

Lemma OK_zalsa_mut s : OK s -> OK (zalsa_mut fams s).
Proof.
  intros Hok. unfold zalsa_mut. destruct (d_ccount s =? 255).
  - apply OK_d_new_revision. apply (rf_to_d Facts); exact Hok.
  - apply (rf_same Facts s); auto. apply evicted_refl.
Qed.

Definition state_ok (dirty : bool) (s : db) : Prop :=
  (if dirty then OK_d s else OK s) /\ d_stack s = [].

Lemma state_ok_d dirty s : state_ok dirty s -> OK_d s.
Proof. destruct dirty; intros [A _]; [exact A | apply (rf_to_d Facts); exact A]. Qed.

Lemma state_ok_weaken dirty s : state_ok false s -> state_ok dirty s.
Proof. destruct dirty; [|auto]. intros [A B]. split; [apply (rf_to_d Facts); exact A | exact B]. Qed.

Lemma db_get_ok fuel s q :
  (forall p, (rank p < fuel)%nat) -> state_ok false s ->
  let r := fetch uprog noeq (level uprog noeq fuel) q s in
  (match snd r with
   | POk (v, _, _) => v = Spec.eval uprog NF (Spec.snap_of s) q /\ state_ok false (fst r)
   | PPanic p => dallowed s p /\ state_ok false (set_stack (fst r) [])
   | PFuel => False
   end) /\ d_in (fst r) = d_in s /\ d_cell (fst r) = d_cell s.
Proof.
  intros Hfuel [Hok Hst]. pose proof (rf_get Facts fuel s q Hfuel Hok Hst) as G. cbn zeta in *.
  destruct (fetch uprog noeq (level uprog noeq fuel) q s) as [s' [[[v d] c] | p |]]; cbn [fst snd] in *.
  - exact G.
  - destruct G as ((Ha & Hs') & Hrest). split; [|exact Hrest]. split; [exact Ha|]. split; [exact Hs' | reflexivity].
  - exact G.
Qed.

Lemma OK_d_same_cells s s' :
  OK_d s -> d_revs s' = d_revs s -> d_in s' = d_in s -> d_memo s' = d_memo s -> OK_d s'.
Proof.
  intros Hok Hr Hi Hm. apply (rf_d_same Facts s); auto.
  rewrite Hm. apply evicted_refl.
Qed.

Lemma OK_same_all s s' :
  OK s -> d_revs s' = d_revs s -> d_in s' = d_in s -> d_cell s' = d_cell s -> d_memo s' = d_memo s -> OK s'.
Proof.
  intros Hok Hr Hi Hc Hm. apply (rf_same Facts s); auto.
  rewrite Hm. apply evicted_refl.
Qed.

Definition low_dur (d : option dur) : Prop :=
  flat -> match d with Some d' => d' = 0 | None => True end.

Lemma db_set_ok dirty s i v d :
  Statement.dur_op (OSet i v d) -> low_dur d -> state_ok dirty s ->
  let s1 := new_revision fams (zalsa_mut fams s) in
  state_ok false s1 /\
  (f_dur (d_in s1 i) =? D_NEVER = false ->
   let r1 := if f_dur (d_in s1 i) =? D_LOW then d_revs s1 else report_write (d_revs s1) (f_dur (d_in s1 i)) in
   let f' := {| f_val := v; f_changed := cur s1;
                f_dur := match d with Some d' => d' | None => f_dur (d_in s1 i) end |} in
   state_ok false (set_in (set_revs s1 r1) (upd (d_in s1) i f'))).
Proof.
  intros Hdop Hlowd Hok. pose proof (state_ok_d dirty s Hok) as Hd.
  assert (Hst : d_stack s = []) by (destruct Hok; assumption).
  pose proof (OK_d_zalsa_mut s Hd) as Hz.
  pose proof (OK_d_new_revision _ Hz) as Hn.
  cbn zeta. set (z := zalsa_mut fams s) in *. set (s1 := new_revision fams z) in *.
  assert (Hst1 : d_stack s1 = []).
  { unfold s1. destruct (new_revision_facts fams z) as (_ & _ & E0 & _).
    rewrite E0. unfold z. rewrite zalsa_mut_stack. exact Hst. }
  split; [split; assumption|].
  intros Hnever. split; [|exact Hst1].
  apply N.eqb_neq in Hnever. unfold D_NEVER in Hnever.
  destruct (new_revision_facts fams z) as (A & _ & _ & F). fold s1 in A, F.
  destruct (rf_inputs Facts z Hz) as (Rv & Hd3 & Hlow).
  pose proof (new_revision_revs fams z) as Hr. fold s1 in Hr.
  assert (Rv1 : revs_ok (d_revs s1)).
  { destruct Rv as (R1 & R2 & R3). rewrite Hr. unfold revs_ok; cbn. lia. }
  set (od := f_dur (d_in s1 i)) in *.
  assert (Hod : od = f_dur (d_in z i)) by (unfold od; rewrite A; reflexivity).
  assert (Hod3 : od < 3) by (specialize (Hd3 i); rewrite <- Hod in Hd3; lia).
  set (r1 := if od =? D_LOW then d_revs s1 else report_write (d_revs s1) od).
  set (f' := {| f_val := v; f_changed := cur s1;
                f_dur := match d with Some d' => d' | None => od end |}).
  set (s2 := set_in (set_revs s1 r1) (upd (d_in s1) i f')).
  destruct (write_revs (d_revs s1) od Rv1 Hod3) as (Hcur_r1 & Rv2 & Hlc12' & Hlc_od'). fold r1 in Hcur_r1, Rv2, Hlc12', Hlc_od'.
  assert (Hc2 : cur s2 = cur s1) by exact Hcur_r1.
  assert (Hlc12 : forall k, lcs s1 k <= lcs s2 k) by exact Hlc12'.
  assert (Hlc_od : lcs s2 od = cur s1) by exact Hlc_od'.
  apply (rf_advance Facts z s2 Hz).
  - (* the current revision moved by one *)
    cbn. rewrite Hcur_r1, Hr. reflexivity.
  - exact Rv2.
  - (* the other slots only moved forward *)
    intros k. pose proof (proj1 (new_revision_lcs fams z k Rv)) as B. fold s1 in B. specialize (Hlc12 k). lia.
  - (* the written input carries the new revision, and its OLD durability was reported *)
    intros j. destruct (key_eqb_spec j i) as [-> | Hji].
    + right. split.
      * unfold s2 at 1; cbn. rewrite upd_same. cbn. symmetry. exact Hc2.
      * rewrite <- Hod, Hc2. exact Hlc_od.
    + left. unfold s2; cbn. rewrite upd_other by congruence. rewrite A. reflexivity.
  - (* durabilities stay within range *)
    intros j. destruct (key_eqb_spec j i) as [-> | Hji].
    + unfold s2; cbn. rewrite upd_same. cbn. destruct d as [d'|]; [exact Hdop | lia].
    + unfold s2; cbn. rewrite upd_other by congruence. rewrite A. apply Hd3.
  - (* flat mode: everything stays LOW *)
    intros Hf. destruct (Hlow Hf) as [L1 L2].
    assert (Hod0 : od = 0) by (rewrite Hod; apply L1).
    split.
    + intros j. destruct (key_eqb_spec j i) as [-> | Hji].
      * unfold s2; cbn. rewrite upd_same. cbn. specialize (Hlowd Hf). destruct d as [d'|]; [exact Hlowd | exact Hod0].
      * unfold s2; cbn. rewrite upd_other by congruence. rewrite A. apply L1.
    + intros k Hk. unfold lcs, s2; cbn. unfold r1. rewrite Hod0. cbn.
      pose proof (proj2 (new_revision_lcs fams z k Rv) Hk) as B. fold s1 in B. unfold lcs in B. rewrite B.
      apply (L2 k Hk).
  - (* the memos: only eviction *)
    unfold s2; cbn. exact F.
Qed.

Lemma db_synth_ok dirty s d :
  (flat -> d = 0) ->
  state_ok dirty s ->
  let s1 := new_revision fams (zalsa_mut fams s) in
  state_ok false s1 /\ state_ok false (set_revs s1 (report_write (d_revs s1) d)).
Proof.
  intros Hlowd Hok. pose proof (state_ok_d dirty s Hok) as Hd.
  assert (Hst : d_stack s = []) by (destruct Hok; assumption).
  pose proof (OK_d_zalsa_mut s Hd) as Hz.
  pose proof (OK_d_new_revision _ Hz) as Hn.
  cbn zeta. set (s1 := new_revision fams (zalsa_mut fams s)) in *.
  assert (Hst1 : d_stack s1 = []).
  { unfold s1. destruct (new_revision_facts fams (zalsa_mut fams s)) as (_ & _ & E0 & _).
    rewrite E0, zalsa_mut_stack. exact Hst. }
  split; [split; assumption|]. split; [|exact Hst1].
  destruct (rf_inputs Facts s1 (rf_to_d Facts s1 Hn)) as (Hrv1 & _ & Hlow).
  apply (rf_revs Facts s1); auto.
  - cbn. apply revs_ok_report_write; exact Hrv1.
  - intros k. unfold lcs; cbn. apply lc_report_write_ge; exact Hrv1.
  - intros Hf k Hk. rewrite (Hlowd Hf). unfold lcs; cbn. rewrite lc_report_write.
    destruct (N.eqb_spec k 0) as [-> | _]; [lia|].
    destruct (N.leb_spec k 0) as [Hx | _]; [lia|]. cbn. apply (proj2 (Hlow Hf) k Hk).
Qed.

(* the harness state: the database is ok; the serialised database, if any, was taken from an ok
   database whose external cells are the current ones unless they changed since *)
Definition pstate_ok (now since : bool) (p : pstate) : Prop :=
  state_ok now (ps_db p) /\ (now = true -> since = true) /\
  forall img, ps_img p = Some img ->
    exists s0, img = snapshot pfam sfuel s0 /\ OK s0 /\ d_stack s0 = [] /\
               (since = false -> d_cell s0 = d_cell (ps_db p)).

Lemma img_keep now since p s' :
  pstate_ok now since p -> (since = false -> d_cell s' = d_cell (ps_db p)) ->
  forall img, ps_img p = Some img ->
    exists s0, img = snapshot pfam sfuel s0 /\ OK s0 /\ d_stack s0 = [] /\
               (since = false -> d_cell s0 = d_cell s').
Proof.
  intros (_ & _ & Hi) Hc img Himg. destruct (Hi img Himg) as (s0 & A & B & C & D0).
  exists s0. repeat split; auto. intros Hs. rewrite (Hc Hs). apply D0; exact Hs.
Qed.

Lemma pstate_move now' now since p s' :
  pstate_ok now since p -> state_ok now' s' -> (now' = true -> since = true) ->
  (since = false -> d_cell s' = d_cell (ps_db p)) ->
  pstate_ok now' since (with_db p s').
Proof.
  intros Hok Hs' Hns Hc. split; [exact Hs'|]. split; [exact Hns|]. exact (img_keep now since p s' Hok Hc).
Qed.

Lemma cell_new_revision s : d_cell (new_revision fams (zalsa_mut fams s)) = d_cell s.
Proof.
  destruct (new_revision_facts fams (zalsa_mut fams s)) as (_ & B & _). rewrite B. apply zalsa_mut_cell.
Qed.

(* what a restore has to deliver: ok up to the external cells; ok when they are the ones the
   snapshot saw *)
Definition restore_good : Prop :=
  (forall s ext, OK_d s -> d_stack s = [] -> state_ok true (restore (snapshot pfam sfuel s) ext lru0)) /\
  (forall s ext, OK s -> d_stack s = [] -> d_cell ext = d_cell s ->
                 state_ok false (restore (snapshot pfam sfuel s) ext lru0)).

Definition low_op (o : op) : Prop :=
  flat -> match o with OSet _ _ (Some d) => d = 0 | OSynth d => d = 0 | _ => True end.

Lemma step_ok fuel now since p o :
  (forall q, (rank q < fuel)%nat) -> Statement.dur_op o -> low_op o ->
  (o = ORestore -> restore_good) ->
  pstate_ok now since p ->
  match o with
  | OGet q =>
      now = false ->
      (Statement.get_ok_strict uprog NF p (fst (pstep fuel p o)) q (snd (pstep fuel p o)) \/
       snd (pstep fuel p o) = PPanic PUninit) /\
      pstate_ok false since (fst (pstep fuel p o))
  | OSetCell _ _ => pstate_ok true true (fst (pstep fuel p o))
  | OSet _ _ _ | OSynth _ => pstate_ok false since (fst (pstep fuel p o))
  | OSnapshot => now = false -> pstate_ok false false (fst (pstep fuel p o))
  | ORestore => pstate_ok since since (fst (pstep fuel p o))
  | _ => pstate_ok now since (fst (pstep fuel p o))
  end.
Proof.
  intros Hfuel Hdop Hlop Hcl Hok. pose proof Hok as (Hdb & Hns & Himg).
  set (s := ps_db p) in *.
  assert (Hst : d_stack s = []) by (destruct Hdb; assumption).
  unfold Statement.pstep.
  destruct o as [i v d | d | c v | c v | q | fam n | | |]; cbn [step fst snd]; fold s.
  - (* OSet *)
    assert (Hld : low_dur d) by (intros Hf; specialize (Hlop Hf); destruct d; [exact Hlop | exact I]).
    destruct (db_set_ok now s i v d Hdop Hld Hdb) as [H1 H2].
    destruct (f_dur (d_in (new_revision fams (zalsa_mut fams s)) i) =? D_NEVER) eqn:Hn; cbn [fst];
      (apply (pstate_move false now since p _ Hok); [| discriminate | intros _; apply cell_new_revision]).
    + exact H1.
    + exact (H2 eq_refl).
  - (* OSynth *)
    destruct (db_synth_ok now s d Hlop Hdb) as [H1 H2].
    destruct (d =? D_NEVER); cbn [fst];
      (apply (pstate_move false now since p _ Hok); [| discriminate | intros _; apply cell_new_revision]).
    + exact H1.
    + exact H2.
  - (* OSetCell *)
    unfold pstate_ok; cbn [with_db ps_db ps_img]. split.
    + split; [|exact Hst]. apply (OK_d_same_cells s); auto. apply (state_ok_d now s Hdb).
    + split; [reflexivity|]. intros img Hi. destruct (Himg img Hi) as (s0 & A & B & C & _).
      exists s0. repeat split; auto. discriminate.
  - (* OSetPanic *)
    apply (pstate_move now now since p _ Hok); [| exact Hns | reflexivity].
    split; [|exact Hst]. destruct now; destruct Hdb as [A _].
    + apply (OK_d_same_cells s); auto.
    + apply (OK_same_all s); auto.
  - (* OGet *)
    intros ->.
    destruct (db_get_ok fuel s q Hfuel Hdb) as (Hres & Hin & Hcell).
    destruct (fetch uprog noeq (level uprog noeq fuel) q s) as [s' [[[v dd] cc] | e |]] eqn:Hf;
      cbn [fst snd] in *.
    + destruct Hres as [Hv Hs']. split.
      * left. left. f_equal. rewrite Hv. unfold Spec.snap_of. cbn. rewrite Hin, Hcell. reflexivity.
      * apply (pstate_move false false since p _ Hok Hs'); [discriminate | intros _; exact Hcell].
    + destruct Hres as [Ha Hs']. split.
      * destruct Ha as [[-> Hc] | [-> _]]; [left; right; split; [reflexivity | exact Hc] | right; reflexivity].
      * apply (pstate_move false false since p _ Hok Hs'); [discriminate | intros _; exact Hcell].
    + destruct Hres.
  - (* OSetLru *)
    apply (pstate_move now now since p _ Hok); [| exact Hns | intros _; cbn; apply zalsa_mut_cell].
    split; [|cbn; rewrite zalsa_mut_stack; exact Hst].
    destruct now; destruct Hdb as [A _].
    + apply (OK_d_same_cells (zalsa_mut fams s)); auto. apply OK_d_zalsa_mut; exact A.
    + apply (OK_same_all (zalsa_mut fams s)); auto. apply OK_zalsa_mut; exact A.
  - (* OEvict *)
    destruct (evict_all_facts fams (zalsa_mut fams s)) as (A1 & A2 & A3 & A4 & A5).
    apply (pstate_move now now since p _ Hok); [| exact Hns | intros _; rewrite A3; apply zalsa_mut_cell].
    split; [|rewrite A4, zalsa_mut_stack; exact Hst].
    destruct now; destruct Hdb as [A _].
    + apply (rf_d_same Facts (zalsa_mut fams s)); auto. apply OK_d_zalsa_mut; exact A.
    + apply (rf_same Facts (zalsa_mut fams s)); auto. apply OK_zalsa_mut; exact A.
  - (* OSnapshot *)
    unfold pstate_ok; cbn [with_db ps_db ps_img]. intros ->. split; [exact Hdb|]. split; [discriminate|].
    intros img Hi. cbn in Hi. injection Hi as <-.
    exists s. destruct Hdb as [A B]. repeat split; auto.
  - (* ORestore *)
    unfold pstate_ok. destruct (ps_img p) as [img|] eqn:Hi; cbn [fst ps_db ps_img].
    + destruct (Himg img eq_refl) as (s0 & -> & B & C & D0).
      split; [|split; [auto|]].
      * destruct since.
        -- apply (proj1 (Hcl eq_refl)); [apply (rf_to_d Facts); exact B | exact C].
        -- apply (proj2 (Hcl eq_refl)); [exact B | exact C | symmetry; apply D0; reflexivity].
      * intros img' Hi'. injection Hi' as <-.
        exists s0. repeat split; auto.
    + fold s. split; [|split; [auto|]].
      * destruct now.
        -- rewrite (Hns eq_refl). exact Hdb.
        -- apply state_ok_weaken; exact Hdb.
      * intros img' Hi'. rewrite Hi in Hi'. discriminate.
Qed.

Theorem results_general fuel :
  (forall q, (rank q < fuel)%nat) ->
  forall ops now since p, Forall Statement.dur_op ops -> Forall low_op ops ->
    Statement.wf_ops now since ops ->
    (In ORestore ops -> restore_good) ->
    pstate_ok now since p ->
    Statement.known_class_free uprog noeq pfam fams lru0 sfuel fuel p ops ->
    Statement.results_ok_strict uprog noeq pfam fams lru0 NF sfuel fuel p ops.
Proof.
  intros Hfuel. induction ops as [|o ops IH]; intros now since p Hdur Hlow Hwf Hcl Hok Hk; [exact I|].
  inversion Hdur as [|? ? Hdo Hdurs]; subst. inversion Hlow as [|? ? Hlo Hlows]; subst.
  cbn [Statement.results_ok_strict Statement.known_class_free] in *. destruct Hk as [Hk1 Hk2].
  assert (Hcl1 : o = ORestore -> restore_good) by (intros ->; apply Hcl; now left).
  assert (Hcl2 : In ORestore ops -> restore_good) by (intros Hin; apply Hcl; now right).
  pose proof (step_ok fuel now since p o Hfuel Hdo Hlo Hcl1 Hok) as Hs.
  destruct o as [i v d | d | c v | c v | q | fam n | | |]; cbn [Statement.wf_ops] in Hwf.
  - split; [exact I|]. apply (IH false since); assumption.
  - split; [exact I|]. apply (IH false since); assumption.
  - split; [exact I|]. apply (IH true true); assumption.
  - split; [exact I|]. apply (IH now since); assumption.
  - destruct Hwf as [-> Hwf]. destruct (Hs eq_refl) as [[Hg | Hu] Hs'].
    + split; [exact Hg|]. apply (IH false since); assumption.
    + contradiction.
  - split; [exact I|]. apply (IH now since); assumption.
  - split; [exact I|]. apply (IH now since); assumption.
  - destruct Hwf as [-> Hwf]. split; [exact I|]. apply (IH false false); auto.
  - split; [exact I|]. apply (IH since since); assumption.
Qed.

End Run.
