(* Persist/InvOps.v — every level function of the persist-mode model preserves an invariant and
   meets its specification (weakest-precondition proofs, then one induction on the level), for
   ANY invariant [DInv] with extension relation [dext] that has the properties collected in
   [ops_facts].  Panics that may escape: see [dallowed] (injected fault, uninitialised function
   ingredient); the backdate-violation assertion is unreachable ([fact_frame_lb]).

   [ops_facts] plays the part of [level_facts] in Core/LevelOps.v for the model of Persist/Model.v.
   There the relations [touch], [allowed], [covers] and the two edge predicates are abstract;
   here [dtouch_below], [dallowed] and [covers] (InvBase.v) are the same for both invariants and
   are used directly: the laws of the first two are lemmas of InvBase.v and not fields, and what
   [level_facts] asks of [covers] (the fields [lf_cov_*]) is derived in this file, from the
   fields [fact_memo_order], [fact_ext_valid], [fact_ext_mono], which have no counterpart
   there.  The pair [edge_pre]/[edge_done] is replaced by one predicate [leaf_ok s0 s q m e] that
   also mentions the state the walk started in. *)
From Salsa Require Import Base.
From Salsa.Kern Require Import CoreK CoreKFacts.
From Salsa.Core Require Import Model Spec SpecProofs Inv DurSem.
From Salsa.Persist Require Import Model PSem PWp InvBase ProofsFlatten.

Section Ops.
Variable uprog : qkey -> body.
Let prog : qkey -> CM.body := tprog uprog.
Variable noeq : qkey -> bool.
Variable rank : qkey -> nat.
Hypothesis Hrank : calls_below prog rank.
Variable NF : nat.
Hypothesis Hbound : forall q, (rank q < NF)%nat.
Variable H : hist.
Variable F : ghost.
Notation E := (E prog NF H).
Notation tr := (tr prog NF H).
Notation envat := (envat prog NF H).
Notation dtouch_below := (dtouch_below rank).
Notation stack_ok := (stack_ok rank).
Notation sle := (fun s => sle s F).
Notation covers := (covers F).

Variable DInv : db -> Prop.
Variable dext : db -> db -> Prop.
(* what a successful edge walk from s0 to s established about an edge of q's memo m *)
Variable leaf_ok : db -> db -> qkey -> memo -> edge -> Prop.

Record ops_facts : Prop := {
  (* the invariant does not look at the log, the stack, the LRU lists or the fault switches, so
     emitting an event keeps it *)
  fact_core_eq : forall s s', dcore_eq s s' -> DInv s -> DInv s';
  (* revisions start at 1 (stamps are compared with [1 <=]) *)
  fact_cur : forall s, DInv s -> 1 <= cur s;
  (* makes the input reads of the model agree with the reads of [tr] *)
  fact_in : forall s, DInv s -> forall i r, f_changed (d_in s i) <= r -> r <= cur s ->
            sn_in (H r) i = f_val (d_in s i);
  (* for the bound [cv_le] of a frame that reads an input *)
  fact_in_le : forall s, DInv s -> forall i, f_changed (d_in s i) <= cur s;
  (* the same for the reads of external cells *)
  fact_cell : forall s, DInv s -> forall c, sn_cell (H (cur s)) c = d_cell s c;
  (* for the bound [cv_le] of a frame that reads a callee *)
  fact_memo_order : forall s q m, DInv s -> d_memo s q = Some m ->
                    1 <= m_verified m /\ m_changed m <= m_verified m /\ m_verified m <= cur s;
  (* a memo that is verified now holds the from-scratch value: what [fetch] returns on a hit *)
  fact_memo_val : forall s q m x, DInv s -> d_memo s q = Some m -> m_val m = Some x ->
                  x = E (m_verified m) q;
  (* the walk over a memo's edges only asks functions of lower rank: the induction on the level *)
  fact_memo_edges : forall s q m d, DInv s -> d_memo s q = Some m -> In (EQ d) (m_edges m) ->
                    (rank d < rank q)%nat;
  (* [dext s s']: what a sub-computation started in s may have done when it leaves s' *)
  fact_ext_refl : forall s, dext s s;
  fact_ext_trans : forall s1 s2 s3, dext s1 s2 -> dext s2 s3 -> dext s1 s3;
  (* emitting an event is such a step; faults only get switched off, ingredients only initialised *)
  fact_ext_core_eq : forall s s', dcore_eq s s' -> d_pcell s' = d_pcell s ->
                (forall fam, d_init s fam = true -> d_init s' fam = true) -> dext s s';
  fact_ext_cur : forall s s', dext s s' -> cur s' = cur s;
  fact_ext_in : forall s s', dext s s' -> d_in s' = d_in s;
  (* a panic allowed where a callee started is allowed where its caller started *)
  fact_ext_allowed : forall s s' p, dext s s' -> dallowed s' p -> dallowed s p;
  (* a memo with a value that is verified now is not touched again in this revision: the
     callees a frame has read stay as the frame recorded them while the body goes on
     ([covers_ext]) *)
  fact_ext_valid : forall s s', dext s s' -> forall q m, d_memo s q = Some m -> m_verified m = cur s ->
              m_val m <> None -> d_memo s' q = Some m;
  (* changed_at stamps never decrease: the read that carries the frame's stamp ([cv_stamp])
     still carries at least that stamp later ([covers_ext]) *)
  fact_ext_mono : forall s s', dext s s' -> forall d c, phi s F d = Some c ->
             exists c', phi s' F d = Some c' /\ c <= c';
  (* the durability short-cut justifies marking the memo verified *)
  fact_shortcut : forall s q m, DInv s -> d_memo s q = Some m -> lcs s (m_dur m) <= m_verified m ->
                  DInv (store s q (reverify m (cur s))) /\ dext s (store s q (reverify m (cur s))) /\
                  E (cur s) q = E (m_verified m) q;
  (* [leaf_ok s0 s' q m e] once the walk has reached s': an input edge that passed the test in s
     (s0 plays no part for an input edge) ... *)
  fact_leaf_in : forall s0 s s' q m i, dext s s' -> f_changed (d_in s i) <= m_verified m ->
                 leaf_ok s0 s' q m (EIn i);
  (* ... a function edge d that answered "unchanged since m was verified" in s1 *)
  fact_leaf_q : forall s0 s1 s' q m d md, DInv s1 -> dext s0 s1 -> dext s1 s' ->
                d_memo s1 q = Some m -> d_memo s1 d = Some md -> m_verified md = cur s1 ->
                m_changed md <= m_verified m -> leaf_ok s0 s' q m (EQ d);
  (* ... and the event emitted after the walk does not disturb it *)
  fact_leaf_core_eq : forall s0 s s' q m e, dcore_eq s s' -> leaf_ok s0 s q m e -> leaf_ok s0 s' q m e;
  (* all edges walked: the memo may be marked verified.  The walk started in s0, where the
     short-cut had failed (in flat mode this is what tells that the memo's durability is LOW) *)
  fact_deep : forall s0 s q m, DInv s0 -> DInv s -> dext s0 s ->
              d_memo s0 q = Some m -> d_memo s q = Some m -> m_untracked m = false ->
              ~ lcs s0 (m_dur m) <= m_verified m ->
              (forall e, In e (m_edges m) -> leaf_ok s0 s q m e) ->
              DInv (store s q (reverify m (cur s))) /\ dext s (store s q (reverify m (cur s))) /\
              E (cur s) q = E (m_verified m) q;
  (* storing the memo of a completed run; the stamp ch is the frame's, or the old memo's when
     the value is the same and the durability did not go down (backdating) *)
  fact_fresh_store : forall s q fr v ch old, DInv s -> covers s (tr (cur s) q) fr ->
                     v = E (cur s) q -> d_memo s q = old ->
                     (forall m0, old = Some m0 -> m_verified m0 = cur s -> m_val m0 = None) ->
                     (ch = fr_changed fr \/
                      exists o ov, old = Some o /\ m_val o = Some ov /\ ov = v /\ ch = m_changed o /\
                                   m_dur o <= fr_dur fr) ->
                     DInv (store s q (fresh_memo v (cur s) ch fr)) /\
                     dext s (store s q (fresh_memo v (cur s) ch fr));
  (* the stamp q had ([phi]) is not above the stamp of the completed frame: the comparison the
     backdate assertion makes never fails *)
  fact_frame_lb : forall s q fr c0, DInv s -> covers s (tr (cur s) q) fr -> phi s F q = Some c0 ->
                  c0 <= fr_changed fr
}.
Hypothesis Facts : ops_facts.

Ltac conj := repeat match goal with |- _ /\ _ => split end.

Definition XP (s0 : db) : ppanic -> db -> Prop :=
  fun p s' => dallowed s0 p /\ DInv s' /\ dext s0 s'.

Lemma emit_ok e s s0 (Q : unit -> db -> Prop) :
  DInv s -> dext s0 s ->
  (forall s1, dcore_eq s s1 -> DInv s1 -> dext s s1 -> d_stack s1 = d_stack s ->
              d_log s1 = e :: d_log s -> Q tt s1) ->
  wp (emit e) Q (XP s0) s.
Proof.
  intros HI He HQ. apply wp_emit.
  assert (Hce : dcore_eq s (set_log s (e :: d_log s))) by apply dcore_eq_log.
  apply HQ; try reflexivity; [exact Hce | apply ((fact_core_eq Facts) s); assumption |].
  apply (fact_ext_core_eq Facts); [exact Hce | reflexivity | auto].
Qed.

(* the last premise is asked of every state that differs from s only outside the core: the event
   is emitted before the memo is stored *)
Lemma mark_verified_ok q m s s0 :
  dext s0 s ->
  DInv s -> d_memo s q = Some m ->
  (forall s1, dcore_eq s s1 -> DInv s1 -> dext s s1 ->
     DInv (store s1 q (reverify m (cur s))) /\ dext s1 (store s1 q (reverify m (cur s))) /\
     E (cur s) q = E (m_verified m) q) ->
  wp (mark_verified q m)
     (fun m' s' => m' = reverify m (cur s) /\ DInv s' /\ dext s s' /\
                   dtouch_below s s' (S (rank q)) /\ d_stack s' = d_stack s /\
                   d_memo s' q = Some m' /\ E (cur s) q = E (m_verified m) q) (XP s0) s.
Proof.
  intros He0 HI Hm Hjust.
  unfold mark_verified.
  apply wp_bind, wp_get. apply wp_bind. apply (emit_ok _ s s0); [exact HI | exact He0|].
  intros s1 Hce HI1 He01 Hst1 _.
  apply wp_bind.
  unfold set_memo_at. apply wp_modify. apply wp_ret.
  set (m' := {| m_val := m_val m; m_verified := cur s; m_changed := m_changed m; m_dur := m_dur m;
               m_untracked := m_untracked m; m_edges := m_edges m |}).
  change (set_memo s1 _) with (store s1 q m').
  destruct (Hjust s1 Hce HI1 He01) as (HI2 & Hext & HE).
  change (reverify m (cur s)) with m' in HI2, Hext.
  split; [reflexivity|]. split; [exact HI2|]. split.
  { eapply (fact_ext_trans Facts); [exact He01 | exact Hext]. }
  split.
  { eapply dtouch_trans with (k1 := S (rank q)) (k2 := S (rank q));
      [auto with arith | auto with arith | apply dtouch_of_core_eq; exact Hce | apply dtouch_store; exact (le_n _)]. }
  split; [cbn; exact Hst1|]. split; [|exact HE].
  unfold store; cbn. apply upd_same.
Qed.

Lemma shallow_cases s m :
  match shallow_verify s m with
  | ShVerified => m_verified m = cur s
  | ShHigher => m_verified m <> cur s /\ lcs s (m_dur m) <= m_verified m
  | ShNo => m_verified m <> cur s /\ ~ lcs s (m_dur m) <= m_verified m
  end.
Proof.
  unfold shallow_verify.
  destruct (N.eqb_spec (m_verified m) (cur s)) as [Heq | Hne]; [exact Heq|].
  destruct (shallow_ok (last_changed (d_revs s) (m_dur m)) (m_verified m)) eqn:Hsh.
  - split; [exact Hne|]. apply shallow_ok_spec in Hsh. exact Hsh.
  - split; [exact Hne|]. intros Hle. apply shallow_ok_spec in Hle. unfold lcs in Hle. congruence.
Qed.

Definition verified_now (s0 : db) (q : qkey) (m : memo) (m' : memo) (s' : db) : Prop :=
  DInv s' /\ dext s0 s' /\ dtouch_below s0 s' (S (rank q)) /\ d_stack s' = d_stack s0 /\
  d_memo s' q = Some m' /\ m_verified m' = cur s0 /\ m_val m' = m_val m /\
  m_dur m' = m_dur m /\ m_changed m' = m_changed m /\ E (cur s0) q = E (m_verified m) q.

Lemma update_shallow_ok q m s u s0 :
  dext s0 s ->
  DInv s -> d_memo s q = Some m -> shallow_verify s m = u -> u <> ShNo ->
  wp (update_shallow q m u) (fun m' s' => verified_now s q m m' s') (XP s0) s.
Proof.
  intros He0 HI Hm Hu Hne.
  pose proof (shallow_cases s m) as Hc. rewrite Hu in Hc.
  destruct u; [| |contradiction]; cbn [update_shallow].
  - apply wp_ret. unfold verified_now. rewrite Hc.
    split; [exact HI|]. split; [apply (fact_ext_refl Facts)|]. split; [apply dtouch_refl|].
    conj; auto.
  - destruct Hc as [_ Hlc].
    assert (Hjust : forall s1, dcore_eq s s1 -> DInv s1 -> dext s s1 ->
              DInv (store s1 q (reverify m (cur s))) /\ dext s1 (store s1 q (reverify m (cur s))) /\
              E (cur s) q = E (m_verified m) q).
    { intros s1 Hce HI1 _. pose proof (dcore_eq_cur _ _ Hce) as Hc1.
      destruct Hce as (Hr & _ & _ & Hmm).
      rewrite <- Hc1.
      apply (fact_shortcut Facts s1 q m HI1).
      - rewrite Hmm. exact Hm.
      - unfold lcs in *. rewrite Hr. exact Hlc. }
    pose proof (mark_verified_ok q m s s0 He0 HI Hm Hjust) as Hmv.
    eapply wp_conseq; [exact Hmv | | intros; assumption].
    intros m' s' (-> & HI' & Hext & Ht & Hst & Hm' & HE).
    unfold verified_now. conj; first [assumption | reflexivity].
Qed.

Definition fetch_post (s0 : db) (q : qkey) (r : qres) (s' : db) : Prop :=
  DInv s' /\ dext s0 s' /\ dtouch_below s0 s' (S (rank q)) /\ d_stack s' = d_stack s0 /\
  fst (fst r) = E (cur s0) q /\
  exists m, d_memo s' q = Some m /\ m_verified m = cur s0 /\ m_val m = Some (fst (fst r)) /\
            m_dur m = snd (fst r) /\ m_changed m = snd r.

Definition fetch_spec (L : lower) (n : nat) : Prop :=
  forall q s, (rank q < n)%nat -> DInv s -> stack_ok s q ->
    wp (l_fetch L q) (fetch_post s q) (XP s) s.

Definition mca_post (s0 : db) (q : qkey) (since : rev) (b : bool) (s' : db) : Prop :=
  DInv s' /\ dext s0 s' /\ dtouch_below s0 s' (S (rank q)) /\ d_stack s' = d_stack s0 /\
  (b = false -> exists m, d_memo s' q = Some m /\ m_verified m = cur s0 /\ m_changed m <= since).

Definition mca_spec (L : lower) (n : nat) : Prop :=
  forall q since s, (rank q < n)%nat -> DInv s -> stack_ok s q ->
    wp (l_mca L q since) (mca_post s q since) (XP s) s.

Lemma XP_trans s0 s1 p s' : dext s0 s1 -> XP s1 p s' -> XP s0 p s'.
Proof.
  intros He (Ha & HI & He'). split; [apply (fact_ext_allowed Facts s0 s1 p He Ha)|].
  split; [exact HI|].
  eapply (fact_ext_trans Facts); eassumption.
Qed.

(* the walker q's memo m stays in the table during the walk (the walk only touches lower
   ranks); s0 is the state the walk started in *)
Lemma walk_edges_ok L n q m s0 (HM : mca_spec L n) : forall es s,
  DInv s -> dext s0 s -> d_memo s q = Some m ->
  (forall d, In (EQ d) es -> (rank d < n)%nat /\ (rank d < rank q)%nat) ->
  (forall p, In p (d_stack s) -> (rank q <= rank p)%nat) ->
  wp (walk_edges L es (m_verified m))
     (fun b s' => DInv s' /\ dext s s' /\ dtouch_below s s' (rank q) /\ d_stack s' = d_stack s /\
        (b = false -> forall e, In e es -> leaf_ok s0 s' q m e)) (XP s) s.
Proof.
  induction es as [|e es IH]; intros s HI He0 Hm Hes Hst; cbn [walk_edges].
  - apply wp_ret. split; [exact HI|]. split; [apply (fact_ext_refl Facts)|]. split; [apply dtouch_refl|].
    split; [reflexivity|]. intros _ e [].
  - destruct e as [i | d].
    + apply wp_bind, wp_get.
      destruct (changed_after (f_changed (d_in s i)) (m_verified m)) eqn:Hca.
      * apply wp_ret. split; [exact HI|]. split; [apply (fact_ext_refl Facts)|]. split; [apply dtouch_refl|].
        split; [reflexivity|]. discriminate.
      * apply changed_after_false in Hca.
        eapply wp_conseq; [apply (IH s HI He0 Hm) | |intros; assumption].
        -- intros d Hd. apply Hes. right; exact Hd.
        -- exact Hst.
        -- intros b s' (HI' & He & Ht & Hs & Hb). conj; auto.
           intros Hbf e [<- | He']; [|apply Hb; assumption].
           apply (fact_leaf_in Facts s0 s s' q m i He Hca).
    + destruct (Hes d (or_introl eq_refl)) as (Hdn & Hdq).
      apply wp_bind.
      eapply wp_conseq; [apply (HM d (m_verified m) s Hdn HI) | |intros; assumption].
      { intros p Hp. exact (PeanoNat.Nat.lt_le_trans _ _ _ Hdq (Hst p Hp)). }
      intros c s1 (HI1 & He1 & Ht1 & Hs1 & Hc).
      pose proof ((fact_ext_cur Facts) _ _ He1) as Hcur1.
      assert (Hm1 : d_memo s1 q = Some m) by (rewrite (Ht1 q Hdq); exact Hm).
      assert (He01 : dext s0 s1) by (eapply (fact_ext_trans Facts); eassumption).
      destruct c.
      * apply wp_ret. split; [exact HI1|]. split; [exact He1|]. split.
        { eapply dtouch_trans with (k1 := S (rank d)) (k2 := rank q);
            [auto with arith | auto with arith | exact Ht1 | apply dtouch_refl]. }
        split; [exact Hs1|]. discriminate.
      * destruct (Hc eq_refl) as (md & Hmd & Hvd & Hcd).
        eapply wp_conseq; [apply (IH s1 HI1 He01 Hm1) | |].
        -- intros d' Hd'. apply (Hes d' (or_intror Hd')).
        -- rewrite Hs1. exact Hst.
        -- intros b s' (HI' & He & Ht & Hs & Hb).
           split; [exact HI'|]. split; [eapply (fact_ext_trans Facts); eassumption|]. split.
           { eapply dtouch_trans with (k1 := S (rank d)) (k2 := rank q);
               [auto with arith | auto with arith | exact Ht1 | exact Ht]. }
           split; [congruence|].
           intros Hbf e [<- | He']; [|apply (Hb Hbf e He')].
           apply (fact_leaf_q Facts s0 s1 s' q m d md HI1 He01 He Hm1 Hmd); [congruence | exact Hcd].
        -- intros p s' Hx. eapply XP_trans; eassumption.
Qed.

Definition verify_post (s0 : db) (q : qkey) (m : memo) (r : bool * memo) (s' : db) : Prop :=
  DInv s' /\ dext s0 s' /\ dtouch_below s0 s' (S (rank q)) /\ d_stack s' = d_stack s0 /\
  (fst r = true -> verified_now s0 q m (snd r) s') /\
  (fst r = false -> d_memo s' q = d_memo s0 q).

Lemma deep_verify_ok L n q m s (HM : mca_spec L n) :
  (rank q <= n)%nat -> DInv s -> d_memo s q = Some m ->
  ~ lcs s (m_dur m) <= m_verified m ->
  (forall p, In p (d_stack s) -> (rank q <= rank p)%nat) ->
  wp (deep_verify L q m) (verify_post s q m) (XP s) s.
Proof.
  intros Hn HI Hm Hnsh Hst. unfold deep_verify.
  destruct (m_untracked m) eqn:Hu.
  - apply wp_ret. unfold verify_post; cbn [fst snd].
    split; [exact HI|]. split; [apply (fact_ext_refl Facts)|]. split; [apply dtouch_refl|].
    split; [reflexivity|]. split; [discriminate | reflexivity].
  - apply wp_bind.
    eapply wp_conseq; [apply (walk_edges_ok L n q m s HM (m_edges m) s HI ((fact_ext_refl Facts) s) Hm) | |intros; assumption].
    { intros d Hd. pose proof (fact_memo_edges Facts s q m d HI Hm Hd). lia. }
    { exact Hst. }
    intros c s1 (HI1 & He1 & Ht1 & Hs1 & Hc).
    pose proof ((fact_ext_cur Facts) _ _ He1) as Hcur1.
    assert (Hm1 : d_memo s1 q = Some m) by (rewrite (Ht1 q (le_n _)); exact Hm).
    destruct c.
    + apply wp_ret. unfold verify_post; cbn [fst snd].
      split; [exact HI1|]. split; [exact He1|]. split.
      { eapply dtouch_trans with (k1 := rank q) (k2 := 0%nat);
          [auto with arith | auto with arith | exact Ht1 | apply dtouch_refl]. }
      split; [exact Hs1|]. split; [discriminate|]. intros _. congruence.
    + specialize (Hc eq_refl).
      apply wp_bind.
      assert (Hjust : forall s2, dcore_eq s1 s2 -> DInv s2 -> dext s1 s2 ->
                DInv (store s2 q (reverify m (cur s1))) /\ dext s2 (store s2 q (reverify m (cur s1))) /\
                E (cur s1) q = E (m_verified m) q).
      { intros s2 Hce HI2 He12. pose proof (dcore_eq_cur _ _ Hce) as Hc2.
        rewrite <- Hc2.
        apply (fact_deep Facts s s2 q m HI HI2);
          [eapply (fact_ext_trans Facts); eassumption | exact Hm | | exact Hu | exact Hnsh |].
        - destruct Hce as (_ & _ & _ & Hmm2). rewrite Hmm2. exact Hm1.
        - intros e He. apply (fact_leaf_core_eq Facts s s1 s2 q m e Hce (Hc e He)). }
      eapply wp_conseq; [apply (mark_verified_ok q m s1 s He1 HI1 Hm1 Hjust) | |intros; assumption].
      intros m' s2 (-> & HI2 & He2 & Ht2 & Hs2 & Hm2 & HE).
      apply wp_ret. unfold verify_post; cbn [fst snd].
      split; [exact HI2|]. split; [eapply (fact_ext_trans Facts); eassumption|]. split.
      { eapply dtouch_trans with (k1 := rank q) (k2 := S (rank q));
          [auto with arith | auto with arith | exact Ht1 | exact Ht2]. }
      split; [congruence|]. split; [|discriminate].
      intros _. unfold verified_now. rewrite Hcur1 in *.
      split; [exact HI2|]. split; [eapply (fact_ext_trans Facts); eassumption|]. split.
      { eapply dtouch_trans with (k1 := rank q) (k2 := S (rank q));
          [auto with arith | auto with arith | exact Ht1 | exact Ht2]. }
      conj; auto. congruence.
Qed.

Lemma verify_memo_ok L n q m s (HM : mca_spec L n) :
  (rank q <= n)%nat -> DInv s -> d_memo s q = Some m ->
  (forall p, In p (d_stack s) -> (rank q <= rank p)%nat) ->
  wp (verify_memo L q m) (verify_post s q m) (XP s) s.
Proof.
  intros Hn HI Hm Hst. unfold verify_memo.
  apply wp_bind, wp_get.
  destruct (shallow_verify s m) eqn:Hsh.
  - apply wp_bind.
    eapply wp_conseq; [apply (update_shallow_ok q m s ShVerified s ((fact_ext_refl Facts) s) HI Hm Hsh); discriminate | |intros; assumption].
    intros m' s' Hv. apply wp_ret. unfold verify_post; cbn [fst snd].
    pose proof Hv as (A & B & C & D0 & _).
    conj; auto. discriminate.
  - apply wp_bind.
    eapply wp_conseq; [apply (update_shallow_ok q m s ShHigher s ((fact_ext_refl Facts) s) HI Hm Hsh); discriminate | |intros; assumption].
    intros m' s' Hv. apply wp_ret. unfold verify_post; cbn [fst snd].
    pose proof Hv as (A & B & C & D0 & _).
    conj; auto. discriminate.
  - pose proof (shallow_cases s m) as Hsc. rewrite Hsh in Hsc.
    apply (deep_verify_ok L n q m s HM Hn HI Hm (proj2 Hsc) Hst).
Qed.

Lemma covers_frame0 s : 1 <= cur s -> covers s [] frame0.
Proof.
  intros Hc. constructor.
  - intros i [].
  - intros d [].
  - intros x [].
  - intros d [].
  - cbn. unfold REV_START. exact Hc.
  - cbn. unfold REV_START. lia.
  - left. cbn. unfold REV_START. lia.
  - cbn. unfold D_NEVER. lia.
  - discriminate.
  - intros k Hk _ _ _. exact Hk.
Qed.

Lemma covers_ext s s' pre fr : dext s s' -> covers s pre fr -> covers s' pre fr.
Proof.
  intros He [Cin Cq Ccell Cedges Cle Cge1 Cstamp Cdur3 Cuntr Clb]. pose proof ((fact_ext_cur Facts) _ _ He) as Hc.
  constructor; rewrite ?Hc, ?((fact_ext_in Facts) _ _ He); auto.
  - intros d0 Hd0. destruct (Cq d0 Hd0) as (md & Hmd & Hv & Hx & Hrest).
    exists md. split; [apply ((fact_ext_valid Facts) _ _ He); assumption|]. split; [exact Hv|]. split; assumption.
  - destruct Cstamp as [A | (x & Hx & Hs)]; [left; exact A | right].
    exists x. split; [exact Hx|].
    apply (sle_mono s s' F _ x ((fact_ext_in Facts) _ _ He) ((fact_ext_mono Facts) _ _ He) Hs).
  - intros k Hk Hki Hkq Hku. apply Clb; try assumption.
    intros d0 Hd0 md Hmd. destruct (Cq d0 Hd0) as (md0 & Hmd0 & Hv & Hx & _).
    rewrite Hmd in Hmd0. injection Hmd0 as <-.
    apply (Hkq d0 Hd0). apply ((fact_ext_valid Facts) _ _ He); assumption.
Qed.

Lemma covers_add_read s pre fr x e du ch :
  covers s pre fr ->
  match x with
  | RIn i => e = EIn i /\ ch = f_changed (d_in s i) /\ du = f_dur (d_in s i)
  | RQ d => e = EQ d /\ exists md, d_memo s d = Some md /\ m_verified md = cur s /\ m_val md <> None /\
                                   ch = m_changed md /\ du = m_dur md
  | _ => False
  end ->
  ch <= cur s ->
  covers s (pre ++ [x]) (add_read fr e du ch).
Proof.
  intros [Cin Cq Ccell Cedges Cle Cge1 Cstamp Cdur3 Cuntr Clb] Hx Hch.
  unfold add_read, dur_min, rev_max.
  pose proof (N.le_max_l (fr_changed fr) ch) as Mc1. pose proof (N.le_max_r (fr_changed fr) ch) as Mc2.
  pose proof (N.le_min_l (fr_dur fr) du) as Md1. pose proof (N.le_min_r (fr_dur fr) du) as Md2.
  assert (Hold : forall e', In e' (fr_edges fr) -> In e' (add_edge (fr_edges fr) e))
    by (intros e' He'; apply In_add_edge; left; exact He').
  assert (Hnew : In e (add_edge (fr_edges fr) e)) by (apply In_add_edge; right; reflexivity).
  constructor; cbn [fr_dur fr_changed fr_edges fr_untracked].
  - intros j Hj. apply in_app_iff in Hj. destruct Hj as [Hj | [Hj | []]].
    + destruct (Cin j Hj) as (A & B & C). split; [exact (Hold _ A)|]. split; [exact (N.le_trans _ _ _ B Mc1) | exact (N.le_trans _ _ _ Md1 C)].
    + subst x. destruct Hx as (-> & -> & ->). split; [exact Hnew|]. split; assumption.
  - intros d0 Hd0. apply in_app_iff in Hd0. destruct Hd0 as [Hd0 | [Hd0 | []]].
    + destruct (Cq d0 Hd0) as (md0 & A & B & C & D0 & E0 & F0).
      exists md0. split; [exact A|]. split; [exact B|]. split; [exact C|].
      split; [exact (N.le_trans _ _ _ D0 Mc1)|]. split; [exact (N.le_trans _ _ _ Md1 E0) | exact (Hold _ F0)].
    + subst x. destruct Hx as (-> & md & A & B & C & -> & ->).
      exists md. split; [exact A|]. split; [exact B|]. split; [exact C|]. split; [exact Mc2|]. split; [exact Md2 | exact Hnew].
  - intros y Hy Hu. apply in_app_iff in Hy. destruct Hy as [Hy | [Hy | []]].
    + destruct (Ccell y Hy Hu) as (A & B & C). split; [exact A|]. rewrite B, C in *. split.
      * apply N.le_antisymm; [apply N.max_lub; [apply N.le_refl | exact Hch] | exact Mc1].
      * apply N.le_antisymm; [exact Md1 | apply N.le_0_l].
    + subst y. destruct x; try contradiction; destruct Hu as [Hu | (c0 & Hu)]; discriminate.
  - intros d0 Hd0. apply in_app_iff. apply In_add_edge in Hd0.
    destruct Hd0 as [Hd0 | Hd0]; [left; apply Cedges; exact Hd0 | right; left].
    subst e. destruct x as [i | d | |]; try contradiction.
    + destruct Hx as (Hx & _). discriminate Hx.
    + destruct Hx as (Hx & _). congruence.
  - apply N.max_lub; assumption.
  - exact (N.le_trans _ _ _ Cge1 Mc1).
  - destruct (N.max_spec (fr_changed fr) ch) as [[Hlt ->] | [Hge ->]].
    + right. exists x. split; [apply in_app_iff; right; left; reflexivity|].
      destruct x as [i | d | |]; try contradiction; cbn.
      * destruct Hx as (_ & -> & _). apply N.le_refl.
      * destruct Hx as (_ & md & A & _ & _ & -> & _). exists (m_changed md).
        split; [unfold phi; rewrite A; reflexivity | apply N.le_refl].
    + destruct Cstamp as [A | (y & Hy & Hs)]; [left; exact A | right].
      exists y. split; [apply in_app_iff; left; exact Hy | exact Hs].
  - exact (N.le_trans _ _ _ Md1 Cdur3).
  - intros Hu. rewrite (Cuntr Hu) in *. apply N.le_antisymm; [exact Md1 | apply N.le_0_l].
  - intros k Hk Hki Hkq Hku. apply N.min_glb.
    + apply Clb; [exact Hk | | |].
      * intros j Hj. apply Hki. apply in_app_iff; left; exact Hj.
      * intros d0 Hd0. apply Hkq. apply in_app_iff; left; exact Hd0.
      * intros y Hy. apply Hku. apply in_app_iff; left; exact Hy.
    + assert (Hin : In x (pre ++ [x])) by (apply in_app_iff; right; left; reflexivity).
      destruct x as [i | d | |]; try contradiction.
      * destruct Hx as (_ & _ & ->). apply Hki. exact Hin.
      * destruct Hx as (_ & md & A & _ & _ & _ & ->). apply (Hkq d Hin md A).
Qed.

Lemma covers_add_untracked s pre fr x :
  DInv s -> covers s pre fr -> untr x ->
  covers s (pre ++ [x]) (add_untracked fr (cur s)).
Proof.
  intros HI [Cin Cq Ccell Cedges Cle Cge1 Cstamp Cdur3 Cuntr Clb] Hx.
  unfold add_untracked, D_LOW.
  constructor; cbn [fr_dur fr_changed fr_edges fr_untracked].
  - intros j Hj. apply in_app_iff in Hj. destruct Hj as [Hj | [Hj | []]].
    + destruct (Cin j Hj) as (A & B & C). split; [exact A|]. split; [apply ((fact_in_le Facts) _ HI) | apply N.le_0_l].
    + subst x. destruct Hx as [Hx | (c0 & Hx)]; discriminate.
  - intros d0 Hd0. apply in_app_iff in Hd0. destruct Hd0 as [Hd0 | [Hd0 | []]].
    + destruct (Cq d0 Hd0) as (md0 & A & B & C & D0 & E0 & F0).
      pose proof ((fact_memo_order Facts) s d0 md0 HI A) as (_ & O2 & O3).
      exists md0. split; [exact A|]. split; [exact B|]. split; [exact C|].
      split; [exact (N.le_trans _ _ _ O2 O3)|]. split; [apply N.le_0_l | exact F0].
    + subst x. destruct Hx as [Hx | (c0 & Hx)]; discriminate.
  - intros y Hy Hk. conj; reflexivity.
  - intros d0 Hd0. apply in_app_iff. left. apply Cedges; exact Hd0.
  - apply N.le_refl.
  - apply ((fact_cur Facts) _ HI).
  - right. exists x. split; [apply in_app_iff; right; left; reflexivity|].
    destruct Hx as [-> | (c0 & ->)]; exact I.
  - apply N.le_0_l.
  - intros _; reflexivity.
  - intros k Hk Hki Hkq Hku.
    rewrite (Hku x); [apply N.le_refl | apply in_app_iff; right; left; reflexivity | exact Hx].
Qed.

Lemma run_body_ok L n q c0 (HF : fetch_spec L n) : forall b pre fr s,
  cur s = c0 ->
  tr c0 q = pre ++ trace (envat c0) (tb b) ->
  E c0 q = run (envat c0) (tb b) ->
  (forall d, calls (tb b) d -> (rank d < n)%nat /\ (rank d < rank q)%nat) ->
  DInv s -> covers s pre fr ->
  (forall p, In p (d_stack s) -> (rank q <= rank p)%nat) ->
  wp (run_body L b fr)
     (fun r s' => DInv s' /\ dext s s' /\ dtouch_below s s' (rank q) /\ d_stack s' = d_stack s /\
                  fst r = E c0 q /\ covers s' (tr c0 q) (snd r)) (XP s) s.
Proof.
  induction b as [v | i k IH | d k IH | c k IH | k IH | pc k IH];
    intros pre fr s Hc Htr HE Hcalls HI Hcv Hst; cbn [run_body tb] in *.
  - (* Ret *)
    apply wp_ret. cbn [trace run] in *. rewrite app_nil_r in Htr.
    split; [exact HI|]. split; [apply (fact_ext_refl Facts)|]. split; [apply dtouch_refl|].
    split; [reflexivity|]. cbn [fst snd]. split; [congruence|]. rewrite Htr. exact Hcv.
  - (* RdIn *)
    apply wp_bind, wp_get.
    assert (Hval : e_in (envat c0) i = f_val (d_in s i)).
    { cbn. apply ((fact_in Facts) _ HI); [rewrite <- Hc; apply ((fact_in_le Facts) _ HI) | lia]. }
    cbn [trace run] in Htr, HE. rewrite Hval in Htr, HE.
    apply (IH (f_val (d_in s i)) (pre ++ [RIn i]) _ s Hc).
    + rewrite <- app_assoc. exact Htr.
    + exact HE.
    + intros d Hd. apply Hcalls. eapply calls_in_rdin; exact Hd.
    + exact HI.
    + apply (covers_add_read s pre fr (RIn i) (EIn i)); [exact Hcv | repeat split | apply ((fact_in_le Facts) _ HI)].
    + exact Hst.
  - (* CallQ *)
    destruct (Hcalls d (calls_here d _)) as [Hdn Hdq].
    apply wp_bind.
    eapply wp_conseq; [apply (HF d s Hdn HI) | |intros; assumption].
    { intros p Hp. exact (PeanoNat.Nat.lt_le_trans _ _ _ Hdq (Hst p Hp)). }
    intros [[v dd] cd] s1 (HI1 & He1 & Ht1 & Hs1 & Hv & (md & Hmd & Hvd & Hxd & Hdd & Hcd)).
    cbn [fst snd] in *.
    pose proof ((fact_ext_cur Facts) _ _ He1) as Hc1.
    assert (Hval : e_q (envat c0) d = v).
    { cbn. rewrite Hv, Hc. reflexivity. }
    cbn [trace run] in Htr, HE. rewrite Hval in Htr, HE.
    eapply wp_conseq; [apply (IH v (pre ++ [RQ d]) _ s1) | |].
    + congruence.
    + rewrite <- app_assoc. exact Htr.
    + exact HE.
    + intros d' Hd'. apply Hcalls. eapply calls_in_call; exact Hd'.
    + exact HI1.
    + subst dd cd. pose proof ((fact_memo_order Facts) s1 d md HI1 Hmd) as (_ & Ho2 & Ho3).
      apply (covers_add_read s1 pre fr (RQ d) (EQ d)).
      * eapply covers_ext; eassumption.
      * split; [reflexivity|]. exists md. split; [exact Hmd|]. split; [congruence|].
        split; [rewrite Hxd; discriminate|]. split; reflexivity.
      * eapply N.le_trans; eassumption.
    + rewrite Hs1. exact Hst.
    + intros r s2 (HI2 & He2 & Ht2 & Hs2 & Hr & Hcv2).
      split; [exact HI2|]. split; [eapply (fact_ext_trans Facts); eassumption|]. split.
      { eapply dtouch_trans with (k1 := S (rank d)) (k2 := rank q);
          [auto with arith | auto with arith | exact Ht1 | exact Ht2]. }
      split; [congruence|]. split; assumption.
    + intros p s2 Hx. eapply XP_trans; eassumption.
  - (* RdCell *)
    apply wp_bind, wp_get.
    assert (Hval : e_cell (envat c0) c = d_cell s c).
    { cbn. rewrite <- Hc. apply ((fact_cell Facts) _ HI). }
    cbn [trace run] in Htr, HE. rewrite Hval in Htr, HE.
    apply (IH (d_cell s c) (pre ++ [RCell c]) _ s Hc).
    + rewrite <- app_assoc. exact Htr.
    + exact HE.
    + intros d Hd. apply Hcalls. eapply calls_in_cell; exact Hd.
    + exact HI.
    + apply covers_add_untracked; [assumption | assumption | right; eauto].
    + exact Hst.
  - (* Touch *)
    apply wp_bind, wp_get.
    cbn [trace run] in Htr, HE.
    apply (IH (pre ++ [RTouch]) _ s Hc).
    + rewrite <- app_assoc. exact Htr.
    + exact HE.
    + intros d Hd. apply Hcalls. eapply calls_in_touch; exact Hd.
    + exact HI.
    + apply covers_add_untracked; [assumption | assumption | left; reflexivity].
    + exact Hst.
  - (* PanicIf *)
    apply wp_bind, wp_get.
    cbn [trace run] in Htr, HE.
    destruct (d_pcell s pc =? 0) eqn:Hpc.
    + apply (IH pre fr s Hc); try assumption.
      intros d Hd. apply Hcalls. eapply calls_in_panicif; exact Hd.
    + apply wp_fail. split; [left; split; [reflexivity | exists pc; apply N.eqb_neq; exact Hpc]|].
      split; [exact HI | apply (fact_ext_refl Facts)].
Qed.

Definition exec_post (s0 : db) (q : qkey) (m : memo) (s' : db) : Prop :=
  DInv s' /\ dext s0 s' /\ dtouch_below s0 s' (S (rank q)) /\ d_stack s' = d_stack s0 /\
  d_memo s' q = Some m /\ m_verified m = cur s0 /\ m_val m = Some (E (cur s0) q).

Lemma store_fresh_ok q s0 s2 v fr ch old :
  DInv s2 -> dext s0 s2 -> dtouch_below s0 s2 (rank q) ->
  covers s2 (tr (cur s2) q) fr -> v = E (cur s2) q ->
  d_memo s2 q = old ->
  (forall m0, old = Some m0 -> m_verified m0 = cur s2 -> m_val m0 = None) ->
  (ch = fr_changed fr \/
   exists o ov, old = Some o /\ m_val o = Some ov /\ ov = v /\ ch = m_changed o /\
                m_dur o <= fr_dur fr) ->
  let m := fresh_memo v (cur s2) ch fr in
  DInv (store s2 q m) /\ dext s0 (store s2 q m) /\ dtouch_below s0 (store s2 q m) (S (rank q)) /\
  d_memo (store s2 q m) q = Some m.
Proof.
  intros HI2 He Ht Hcv Hv Hold Hnv Hch m.
  destruct (fact_fresh_store Facts s2 q fr v ch old HI2 Hcv Hv Hold Hnv Hch) as [HI3 He3].
  split; [exact HI3|]. split; [eapply (fact_ext_trans Facts); eassumption|]. split.
  { eapply dtouch_trans with (k1 := rank q) (k2 := S (rank q));
      [auto with arith | auto with arith | exact Ht | apply dtouch_store; exact (le_n _)]. }
  unfold store; cbn. apply upd_same.
Qed.

Lemma execute_ok L n q s old (HF : fetch_spec L n) :
  (rank q <= n)%nat -> DInv s -> d_memo s q = old ->
  (forall m0, old = Some m0 -> m_verified m0 = cur s -> m_val m0 = None) ->
  (forall p, In p (d_stack s) -> (rank q <= rank p)%nat) ->
  wp (execute uprog noeq L q old) (exec_post s q) (XP s) s.
Proof.
  intros Hn HI Hold Hnv Hst. unfold execute.
  apply wp_bind. apply (emit_ok _ s s); [exact HI | apply (fact_ext_refl Facts)|].
  intros s1 Hce HI1 He01 Hst01 _.
  assert (Hcur01 : cur s1 = cur s) by (apply dcore_eq_cur; exact Hce).
  apply wp_bind.
  eapply wp_conseq; [apply (run_body_ok L n q (cur s) HF (uprog q) [] frame0 s1) | |].
  - exact Hcur01.
  - reflexivity.
  - apply (E_unfold prog rank Hrank NF Hbound).
  - intros d Hd. pose proof (Hrank q d Hd) as Hr. split; [exact (PeanoNat.Nat.lt_le_trans _ _ _ Hr Hn) | exact Hr].
  - exact HI1.
  - apply covers_frame0. apply ((fact_cur Facts) _ HI1).
  - rewrite Hst01. exact Hst.
  - intros [v fr] s2 (HI2 & He2 & Ht2 & Hs2 & Hv & Hcv). cbn [fst snd] in *.
    pose proof ((fact_ext_cur Facts) _ _ He2) as Hc2. rewrite Hcur01 in Hc2.
    apply wp_bind, wp_get.
    assert (He02 : dext s s2) by (eapply (fact_ext_trans Facts); eassumption).
    assert (Ht02 : dtouch_below s s2 (rank q)).
    { eapply dtouch_trans with (k1 := 0%nat) (k2 := rank q);
        [auto with arith | auto with arith | apply dtouch_of_core_eq; exact Hce | exact Ht2]. }
    assert (Hold2 : d_memo s2 q = old) by (rewrite (Ht02 q (le_n _)); exact Hold).
    assert (Hnv2 : forall m0, old = Some m0 -> m_verified m0 = cur s2 -> m_val m0 = None).
    { intros m0 A B. apply Hnv; [exact A | congruence]. }
    assert (Hcv' : covers s2 (tr (cur s2) q) fr) by (rewrite Hc2; exact Hcv).
    assert (Hv' : v = E (cur s2) q) by (rewrite Hc2; exact Hv).
    (* the common ending: store the fresh memo with stamp ch *)
    assert (Hfin : forall ch,
      (ch = fr_changed fr \/
       exists o ov, old = Some o /\ m_val o = Some ov /\ ov = v /\ ch = m_changed o /\
                    m_dur o <= fr_dur fr) ->
      wp (set_memo_at q (fresh_memo v (cur s2) ch fr) ;;; ret (fresh_memo v (cur s2) ch fr))
         (exec_post s q) (XP s) s2).
    { intros ch Hch. apply wp_bind. unfold set_memo_at. apply wp_modify. apply wp_ret.
      change (set_memo s2 _) with (store s2 q (fresh_memo v (cur s2) ch fr)).
      destruct (store_fresh_ok q s s2 v fr ch old HI2 He02 Ht02 Hcv' Hv' Hold2 Hnv2 Hch)
        as (A & B & C & D0).
      unfold exec_post.
      split; [exact A|]. split; [exact B|]. split; [exact C|].
      split; [cbn; rewrite Hs2; exact Hst01|]. split; [exact D0|].
      split; [cbn; exact Hc2 | cbn; rewrite Hv; reflexivity]. }
    change (fresh_memo v (cur s2)) with (fun ch fr0 => fresh_memo v (cur s2) ch fr0) in Hfin.
    destruct old as [o|].
    + destruct (m_val o) as [ov|] eqn:Hov.
      * destruct (can_backdate_dur (fr_dur fr) (m_dur o) && negb (noeq q) && (ov =? v)) eqn:Hbk.
        -- apply andb_true_iff in Hbk. destruct Hbk as [Hbk Hbd].
           apply andb_true_iff in Hbk. destruct Hbk as [Hbk _]. apply can_backdate_dur_spec in Hbk.
           destruct (changed_after (m_changed o) (fr_changed fr)) eqn:Hca.
           ++ (* the backdate-violation assertion is unreachable: stamps never decrease *)
              exfalso. apply changed_after_spec in Hca.
              pose proof (fact_frame_lb Facts s2 q fr (m_changed o) HI2 Hcv') as Hlb.
              unfold phi in Hlb. rewrite Hold2 in Hlb. specialize (Hlb eq_refl). lia.
           ++ apply (Hfin (m_changed o)). right. exists o, ov. conj; auto. apply N.eqb_eq in Hbd. exact Hbd.
        -- apply (Hfin (fr_changed fr)). left; reflexivity.
      * apply (Hfin (fr_changed fr)). left; reflexivity.
    + apply (Hfin (fr_changed fr)). left; reflexivity.
  - intros p s' Hx. eapply XP_trans; eassumption.
Qed.

Lemma claim_ok q s (Q : unit -> db -> Prop) (X : ppanic -> db -> Prop) :
  stack_ok s q -> Q tt (set_stack s (q :: d_stack s)) -> wp (claim q) Q X s.
Proof.
  intros Hst HQ. unfold claim. apply wp_bind, wp_get.
  destruct (existsb (key_eqb q) (d_stack s)) eqn:Hex.
  - exfalso. apply existsb_exists in Hex. destruct Hex as (x & Hx & Heq).
    apply key_eqb_eq in Heq. subst x. specialize (Hst q Hx). lia.
  - apply wp_modify. exact HQ.
Qed.

Definition got (s0 : db) (q : qkey) (mv : memo * val) (s' : db) : Prop :=
  DInv s' /\ dext s0 s' /\ dtouch_below s0 s' (S (rank q)) /\ d_stack s' = d_stack s0 /\
  d_memo s' q = Some (fst mv) /\ m_verified (fst mv) = cur s0 /\
  m_val (fst mv) = Some (snd mv) /\ snd mv = E (cur s0) q.

Definition not_valid_with_value (s : db) (q : qkey) : Prop :=
  forall m0, d_memo s q = Some m0 -> m_verified m0 = cur s -> m_val m0 = None.

Lemma stacked s q :
  stack_ok s q ->
  forall p, In p (d_stack (set_stack s (q :: d_stack s))) -> (rank q <= rank p)%nat.
Proof. intros Hst p [<- | Hp]; [lia | specialize (Hst p Hp); lia]. Qed.

Lemma dext_set_stack s l : dext s (set_stack s l).
Proof. apply (fact_ext_core_eq Facts); [apply dcore_eq_stack | reflexivity | auto]. Qed.

Lemma released q s s2 :
  DInv s2 -> dext (set_stack s (q :: d_stack s)) s2 ->
  dtouch_below (set_stack s (q :: d_stack s)) s2 (S (rank q)) ->
  d_stack s2 = q :: d_stack s ->
  let s4 := set_stack s2 (tl (d_stack s2)) in
  DInv s4 /\ dext s s4 /\ dtouch_below s s4 (S (rank q)) /\ d_stack s4 = d_stack s.
Proof.
  intros HI2 He2 Ht2 Hs2 s4.
  split; [apply ((fact_core_eq Facts) s2); [apply dcore_eq_stack | exact HI2]|].
  split; [eapply (fact_ext_trans Facts); [apply dext_set_stack|]; eapply (fact_ext_trans Facts); [exact He2 | apply dext_set_stack]|].
  split; [|cbn; rewrite Hs2; reflexivity].
  eapply dtouch_trans with (k1 := 0%nat) (k2 := S (rank q));
    [auto with arith | auto with arith | apply dtouch_of_core_eq; apply dcore_eq_stack|].
  eapply dtouch_trans with (k1 := S (rank q)) (k2 := 0%nat);
    [auto with arith | auto with arith | exact Ht2 | apply dtouch_of_core_eq; apply dcore_eq_stack].
Qed.

Lemma fetch_cold_ok L n q s (HF : fetch_spec L n) (HM : mca_spec L n) :
  (rank q <= n)%nat -> DInv s -> stack_ok s q -> not_valid_with_value s q ->
  wp (fetch_cold uprog noeq L q) (got s q) (XP s) s.
Proof.
  intros Hn HI Hst Hnv. unfold fetch_cold.
  apply wp_bind. apply claim_ok; [exact Hst|].
  set (s1 := set_stack s (q :: d_stack s)).
  assert (Hce : dcore_eq s s1) by apply dcore_eq_stack.
  assert (HI1 : DInv s1) by (apply ((fact_core_eq Facts) s); assumption).
  assert (He01 : dext s s1) by apply dext_set_stack.
  assert (Hst1 : forall p, In p (d_stack s1) -> (rank q <= rank p)%nat) by (apply stacked; exact Hst).
  apply wp_bind, wp_get. change (d_memo s1 q) with (d_memo s q).
  (* the execute branch, from any state s2 reached without touching q's memo *)
  assert (Hexec : forall s2, DInv s2 -> dext s1 s2 -> dtouch_below s1 s2 (S (rank q)) ->
            d_stack s2 = d_stack s1 -> d_memo s2 q = d_memo s q ->
            wp (m <- execute uprog noeq L q (d_memo s q) ;;
                release q ;;;
                match m_val m with Some v => ret (m, v) | None => nofuel end)
               (got s q) (XP s) s2).
  { intros s2 HI2 He2 Ht2 Hs2 Hm2.
    pose proof ((fact_ext_cur Facts) _ _ He2) as Hc2. change (cur s1) with (cur s) in Hc2.
    apply wp_bind.
    eapply wp_conseq; [apply (execute_ok L n q s2 (d_memo s q) HF Hn HI2 Hm2) | |].
    - intros m0 A B. apply Hnv; [exact A | congruence].
    - rewrite Hs2. exact Hst1.
    - intros m s3 (HI3 & He3 & Ht3 & Hs3 & Hm3 & Hv3 & Hx3).
      apply wp_bind. unfold release. apply wp_modify.
      rewrite Hx3. apply wp_ret.
      destruct (released q s s3 HI3) as (A & B & C & D0).
      { eapply (fact_ext_trans Facts); eassumption. }
      { eapply dtouch_trans with (k1 := S (rank q)) (k2 := S (rank q));
          [auto with arith | auto with arith | exact Ht2 | exact Ht3]. }
      { rewrite Hs3, Hs2. reflexivity. }
      unfold got; cbn [fst snd].
      split; [exact A|]. split; [exact B|]. split; [exact C|]. split; [exact D0|].
      split; [exact Hm3|]. split; [congruence|]. split; [congruence | congruence].
    - intros p s3 Hx. eapply XP_trans; [eapply (fact_ext_trans Facts); [exact He01 | exact He2] | exact Hx]. }
  destruct (d_memo s q) as [m|] eqn:Hm.
  - destruct (m_val m) as [v|] eqn:Hv.
    + apply wp_bind. apply wp_bind.
      eapply wp_conseq; [apply (verify_memo_ok L n q m s1 HM Hn HI1 Hm Hst1) | |].
      * intros [b m'] s2 (HI2 & He2 & Ht2 & Hs2 & Htrue & Hfalse). cbn [fst snd] in *.
        apply wp_ret.
        destruct b.
        -- destruct (Htrue eq_refl) as (_ & _ & _ & _ & Hm' & Hv' & Hval' & _ & _ & HE).
           apply wp_bind. unfold release. apply wp_modify. apply wp_ret.
           destruct (released q s s2 HI2 He2 Ht2 Hs2) as (A & B & C & D0).
           unfold got; cbn [fst snd].
           split; [exact A|]. split; [exact B|]. split; [exact C|]. split; [exact D0|].
           split; [exact Hm'|]. split; [exact Hv'|]. split; [congruence|].
           change (cur s1) with (cur s) in HE. rewrite HE.
           apply (fact_memo_val Facts s q m _ HI Hm Hv).
        -- apply Hexec; try assumption. rewrite (Hfalse eq_refl). exact Hm.
      * intros p s2 Hx. eapply XP_trans; eassumption.
    + apply wp_bind, wp_ret.
      apply Hexec; [exact HI1 | apply (fact_ext_refl Facts) | apply dtouch_refl | reflexivity | exact Hm].
  - apply wp_bind, wp_ret.
    apply Hexec; [exact HI1 | apply (fact_ext_refl Facts) | apply dtouch_refl | reflexivity | exact Hm].
Qed.

Lemma not_valid_of_ne s q m : d_memo s q = Some m -> m_verified m <> cur s -> not_valid_with_value s q.
Proof. intros Hm Hne m0 Hm0 Hv0. congruence. Qed.

Lemma fetch_hot_ok q s :
  DInv s ->
  wp (fetch_hot q)
     (fun hot s' => match hot with
                    | Some mv => got s q mv s'
                    | None => s' = s /\ not_valid_with_value s q
                    end) (XP s) s.
Proof.
  intros HI. unfold fetch_hot. apply wp_bind, wp_get.
  destruct (d_memo s q) as [m|] eqn:Hm.
  - destruct (m_val m) as [v|] eqn:Hv.
    + assert (Hgot : forall u, shallow_verify s m = u -> u <> ShNo ->
                wp (m' <- update_shallow q m u ;; ret (Some (m', v)))
                   (fun hot s' => match hot with
                                  | Some mv => got s q mv s'
                                  | None => s' = s /\ not_valid_with_value s q
                                  end) (XP s) s).
      { intros u Hu Hne. apply wp_bind.
        eapply wp_conseq; [apply (update_shallow_ok q m s u s ((fact_ext_refl Facts) s) HI Hm Hu Hne) | |intros; assumption].
        intros m' s' (A & B & C & D0 & Hm' & Hv' & Hval' & _ & _ & HE).
        apply wp_ret. unfold got; cbn [fst snd]. conj; try assumption; try congruence.
        rewrite HE. apply (fact_memo_val Facts s q m _ HI Hm Hv). }
      destruct (shallow_verify s m) eqn:Hsh.
      * apply Hgot; [reflexivity | discriminate].
      * apply Hgot; [reflexivity | discriminate].
      * apply wp_ret. split; [reflexivity|].
        pose proof (shallow_cases s m) as Hc. rewrite Hsh in Hc. destruct Hc as [Hc _].
        eapply not_valid_of_ne; eassumption.
    + apply wp_ret. split; [reflexivity|]. intros m0 Hm0 _. congruence.
  - apply wp_ret. split; [reflexivity|]. intros m0 Hm0. congruence.
Qed.

Definition fetch_rest (L : lower) (q : qkey) : M qres :=
  hot <- fetch_hot q ;;
  r <- match hot with
       | Some mv => ret mv
       | None => fetch_cold uprog noeq L q
       end ;;
  modify (fun s => set_lru s (updN (d_lru s) (fst q) (lru_record_use (d_lru s (fst q)) (snd q)))) ;;;
  ret (memo_qres (fst r) (snd r)).

Lemma fetch_rest_ok L n (HF : fetch_spec L n) (HM : mca_spec L n) :
  forall q s, (rank q <= n)%nat -> DInv s -> stack_ok s q ->
    wp (fetch_rest L q) (fetch_post s q) (XP s) s.
Proof.
  intros q s Hn HI Hst. unfold fetch_rest.
  apply wp_bind.
  eapply wp_conseq; [apply (fetch_hot_ok q s HI) | |intros; assumption].
  intros hot s1 Hhot.
  assert (Hfin : forall mv s2, got s q mv s2 ->
            wp (modify (fun s => set_lru s (updN (d_lru s) (fst q) (lru_record_use (d_lru s (fst q)) (snd q)))) ;;;
                ret (memo_qres (fst mv) (snd mv))) (fetch_post s q) (XP s) s2).
  { intros [m v] s2 (A & B & C & D0 & Hm & Hv & Hval & HE). cbn [fst snd] in *.
    apply wp_bind, wp_modify, wp_ret.
    set (s3 := set_lru s2 _).
    assert (Hce : dcore_eq s2 s3) by apply dcore_eq_lru.
    unfold fetch_post, memo_qres; cbn [fst snd].
    split; [apply ((fact_core_eq Facts) s2); assumption|].
    split; [eapply (fact_ext_trans Facts); [exact B | apply (fact_ext_core_eq Facts); [exact Hce | reflexivity | auto]]|].
    split.
    { eapply dtouch_trans with (k1 := S (rank q)) (k2 := 0%nat);
        [auto with arith | auto with arith | exact C | apply dtouch_of_core_eq; exact Hce]. }
    split; [exact D0|]. split; [exact HE|].
    exists m. conj; auto. }
  apply wp_bind.
  destruct hot as [mv|].
  - apply wp_ret. apply Hfin. exact Hhot.
  - destruct Hhot as [-> Hnv].
    eapply wp_conseq; [apply (fetch_cold_ok L n q s HF HM Hn HI Hst Hnv) | |intros; assumption].
    intros mv s2 Hgot. apply Hfin. exact Hgot.
Qed.

(* the typed entry point initialises the function ingredient first *)
Lemma init_step s fam :
  let s0 := set_init s (updN (d_init s) fam true) in
  dcore_eq s s0 /\ dext s s0 /\ d_stack s0 = d_stack s /\ d_init s0 fam = true.
Proof.
  cbn. split; [apply dcore_eq_init|]. split; [|split; [reflexivity | cbn; apply updN_same]].
  apply (fact_ext_core_eq Facts); [apply dcore_eq_init | reflexivity|].
  intros f Hf. cbn. unfold updN. destruct (fam =? f); [reflexivity | exact Hf].
Qed.

Lemma fetch_ok L n (HF : fetch_spec L n) (HM : mca_spec L n) :
  forall q s, (rank q <= n)%nat -> DInv s -> stack_ok s q ->
    wp (fetch uprog noeq L q) (fetch_post s q) (XP s) s.
Proof.
  intros q s Hn HI Hst. unfold fetch.
  apply wp_bind. unfold init_family. apply wp_modify.
  destruct (init_step s (fst q)) as (Hce0 & He0 & Hst0 & _).
  set (s0 := set_init s (updN (d_init s) (fst q) true)) in *.
  assert (HI0 : DInv s0) by (apply ((fact_core_eq Facts) s); assumption).
  eapply wp_conseq; [apply (fetch_rest_ok L n HF HM q s0 Hn HI0) | |].
  - intros p Hp. apply Hst. rewrite <- Hst0. exact Hp.
  - intros r s' (A & B & C & D0 & Hv & Hm). unfold fetch_post.
    split; [exact A|]. split; [eapply (fact_ext_trans Facts); eassumption|]. split.
    { eapply dtouch_trans with (k1 := 0%nat) (k2 := S (rank q));
        [auto with arith | auto with arith | apply dtouch_of_core_eq; exact Hce0 | exact C]. }
    split; [congruence|]. split; [exact Hv | exact Hm].
  - intros p s' Hx. eapply XP_trans; eassumption.
Qed.

Lemma mca_cold_ok L n q since s (HF : fetch_spec L n) (HM : mca_spec L n) :
  (rank q <= n)%nat -> DInv s -> stack_ok s q -> not_valid_with_value s q ->
  wp (mca_cold uprog noeq L q since) (mca_post s q since) (XP s) s.
Proof.
  intros Hn HI Hst Hnv. unfold mca_cold.
  apply wp_bind. apply claim_ok; [exact Hst|].
  set (s1 := set_stack s (q :: d_stack s)).
  assert (Hce : dcore_eq s s1) by apply dcore_eq_stack.
  assert (HI1 : DInv s1) by (apply ((fact_core_eq Facts) s); assumption).
  assert (He01 : dext s s1) by apply dext_set_stack.
  assert (Hst1 : forall p, In p (d_stack s1) -> (rank q <= rank p)%nat) by (apply stacked; exact Hst).
  apply wp_bind, wp_get. change (d_memo s1 q) with (d_memo s q).
  (* leaving: release and return b, from a state s2 *)
  assert (Hleave : forall b s2, DInv s2 -> dext s1 s2 -> dtouch_below s1 s2 (S (rank q)) ->
            d_stack s2 = d_stack s1 ->
            (b = false -> exists m, d_memo s2 q = Some m /\ m_verified m = cur s /\ m_changed m <= since) ->
            wp (release q ;;; ret b) (mca_post s q since) (XP s) s2).
  { intros b s2 HI2 He2 Ht2 Hs2 Hb.
    apply wp_bind. unfold release. apply wp_modify. apply wp_ret.
    destruct (released q s s2 HI2 He2 Ht2 Hs2) as (A & B & C & D0).
    unfold mca_post. split; [exact A|]. split; [exact B|]. split; [exact C|]. split; [exact D0 | exact Hb]. }
  destruct (d_memo s q) as [old|] eqn:Hm.
  - apply wp_bind.
    eapply wp_conseq; [apply (verify_memo_ok L n q old s1 HM Hn HI1 Hm Hst1) | |].
    + intros [b m'] s2 (HI2 & He2 & Ht2 & Hs2 & Htrue & Hfalse). cbn [fst snd] in *.
      destruct b.
      * destruct (Htrue eq_refl) as (_ & _ & _ & _ & Hm' & Hv' & _ & _ & Hch' & _).
        apply Hleave; try assumption.
        intros Hca. apply changed_after_false in Hca.
        exists m'. conj; auto.
      * specialize (Hfalse eq_refl). change (d_memo s1 q) with (d_memo s q) in Hfalse.
        destruct (m_val old) as [ov|] eqn:Hov.
        -- apply wp_bind.
           pose proof ((fact_ext_cur Facts) _ _ He2) as Hc2. change (cur s1) with (cur s) in Hc2.
           eapply wp_conseq; [apply (execute_ok L n q s2 (Some old) HF Hn HI2) | |].
           ++ congruence.
           ++ intros m0 A B. injection A as <-. apply Hnv; [exact Hm | congruence].
           ++ rewrite Hs2. exact Hst1.
           ++ intros mnew s3 (HI3 & He3 & Ht3 & Hs3 & Hm3 & Hv3 & _).
              apply Hleave.
              ** exact HI3.
              ** eapply (fact_ext_trans Facts); eassumption.
              ** eapply dtouch_trans with (k1 := S (rank q)) (k2 := S (rank q));
                   [auto with arith | auto with arith | exact Ht2 | exact Ht3].
              ** congruence.
              ** intros Hca. apply changed_after_false in Hca.
                 exists mnew. conj; auto. congruence.
           ++ intros p s3 Hx. eapply XP_trans; [eapply (fact_ext_trans Facts); [exact He01 | exact He2] | exact Hx].
        -- apply Hleave; try assumption. discriminate.
    + intros p s2 Hx. eapply XP_trans; eassumption.
  - apply Hleave; [exact HI1 | apply (fact_ext_refl Facts) | apply dtouch_refl | reflexivity | discriminate].
Qed.

Lemma mca_ok L n (HF : fetch_spec L n) (HM : mca_spec L n) :
  forall q since s, (rank q <= n)%nat -> DInv s -> stack_ok s q ->
    wp (mca uprog noeq L q since) (mca_post s q since) (XP s) s.
Proof.
  intros q since s Hn HI Hst. unfold mca.
  apply wp_bind, wp_get.
  destruct (d_init s (fst q)) eqn:Hinit; cbn [negb].
  2:{ (* the ingredient of q's function is not initialised: the panic [dallowed] admits *)
      apply wp_fail. split; [right; split; [reflexivity | exists (fst q); exact Hinit]|].
      split; [exact HI | apply (fact_ext_refl Facts)]. }
  destruct (d_memo s q) as [m|] eqn:Hm.
  - assert (Hgot : forall u, shallow_verify s m = u -> u <> ShNo ->
              wp (m' <- update_shallow q m u ;; ret (changed_after (m_changed m') since))
                 (mca_post s q since) (XP s) s).
    { intros u Hu Hne. apply wp_bind.
      eapply wp_conseq; [apply (update_shallow_ok q m s u s ((fact_ext_refl Facts) s) HI Hm Hu Hne) | |intros; assumption].
      intros m' s' (A & B & C & D0 & Hm' & Hv' & _ & _ & Hch' & _).
      apply wp_ret. unfold mca_post. conj; auto.
      intros Hca. apply changed_after_false in Hca. exists m'. conj; auto. }
    destruct (shallow_verify s m) eqn:Hsh.
    + apply Hgot; [reflexivity | discriminate].
    + apply Hgot; [reflexivity | discriminate].
    + apply (mca_cold_ok L n q since s HF HM Hn HI Hst).
      pose proof (shallow_cases s m) as Hc. rewrite Hsh in Hc. destruct Hc as [Hc _].
      eapply not_valid_of_ne; eassumption.
  - apply wp_ret. unfold mca_post.
    split; [exact HI|]. split; [apply (fact_ext_refl Facts)|]. split; [apply dtouch_refl|].
    split; [reflexivity | discriminate].
Qed.

Theorem dlevel_ok : forall n,
  fetch_spec (level uprog noeq n) n /\ mca_spec (level uprog noeq n) n.
Proof.
  induction n as [|n [IHF IHM]].
  - split; intros q; intros; lia.
  - split.
    + intros q s Hq HI Hst. cbn [level l_fetch].
      apply (fetch_ok (level uprog noeq n) n IHF IHM q s); [lia | exact HI | exact Hst].
    + intros q since s Hq HI Hst. cbn [level l_mca].
      apply (mca_ok (level uprog noeq n) n IHF IHM q since s); [lia | exact HI | exact Hst].
Qed.

End Ops.
