(* Persist/PInvOps.v — every level function of the persist-mode model preserves the invariant
   [DInv] of PInv.v and meets its specification: the invariant has the properties that
   InvOps.v asks for ([ops_facts_ok]).  Panics that may escape: see [dallowed] (injected fault,
   uninitialised function ingredient); the backdate-violation assertion is unreachable. *)
From Salsa Require Import Base.
From Salsa.Kern Require Import CoreK CoreKFacts.
From Salsa.Core Require Import Model Spec SpecProofs Inv DurSem.
From Salsa.Persist Require Import Model PSem PWp PInv PInvSem.
From Salsa.Persist Require InvOps.

Section Ops.
Variable uprog : qkey -> body.           (* the program of the persist-mode model *)
Let prog : qkey -> CM.body := tprog uprog.
Variable noeq : qkey -> bool.
Variable rank : qkey -> nat.
Hypothesis Hrank : calls_below prog rank.
Variable NF : nat.
Hypothesis Hbound : forall q, (rank q < NF)%nat.
Variable pf : qkey -> bool.
Variable H : hist.
Variable D : dhist.
Variable F : ghost.
Notation E := (E prog NF H).
Notation DInv := (DInv prog NF pf H D F).
Notation dext := (dext prog NF H D F).
Notation dtouch_below := (dtouch_below rank).
Notation dallowed := (PInv.dallowed).
Notation stack_ok := (stack_ok rank).
Notation covers := (PInvSem.covers F).

Lemma dcore_eq_refl s : dcore_eq s s.
Proof. repeat split. Qed.

Definition XP (s0 : db) : ppanic -> db -> Prop :=
  fun p s' => dallowed s0 p /\ DInv s' /\ dext s0 s'.

Definition fetch_post (s0 : db) (q : qkey) (r : qres) (s' : db) : Prop :=
  DInv s' /\ dext s0 s' /\ dtouch_below s0 s' (S (rank q)) /\ d_stack s' = d_stack s0 /\
  fst (fst r) = E (cur s0) q /\
  exists m, d_memo s' q = Some m /\ m_verified m = cur s0 /\ m_val m = Some (fst (fst r)) /\
            m_dur m = snd (fst r) /\ m_changed m = snd r.

Definition fetch_spec (L : lower) (n : nat) : Prop :=
  forall q s, (rank q < n)%nat -> DInv s -> stack_ok s q ->
    wp (l_fetch L q) (fetch_post s q) (XP s) s.

Definition mca_post (s0 : db) (q : qkey) (since : rev) (b : bool) (s' : db) : Prop :=
  DInv s' /\ dext s0 s' /\ dtouch_below s0 s' (S (rank q)) /\ d_stack s' = d_stack s0 /\
  (b = false -> exists m, d_memo s' q = Some m /\ m_verified m = cur s0 /\ m_changed m <= since).

Definition mca_spec (L : lower) (n : nat) : Prop :=
  forall q since s, (rank q < n)%nat -> DInv s -> stack_ok s q ->
    wp (l_mca L q since) (mca_post s q since) (XP s) s.

Lemma dext_of_core_eq s s' :
  dcore_eq s s' -> d_pcell s' = d_pcell s ->
  (forall fam, d_init s fam = true -> d_init s' fam = true) -> dext s s'.
Proof.
  intros (Hr & Hi & Hce & Hm) Hp Hin. constructor; auto.
  - intros q m Hq _ _. rewrite Hm. exact Hq.
  - intros q m Hq Hv. exists m. rewrite Hm. split; [exact Hq|]. split; [exact Hv | lia].
  - intros q m' Hq _. rewrite <- Hm. exact Hq.
  - intros g w k Ho. apply (obs_ok_same prog NF H D s s'); assumption.
  - intros d c Hc. exists c. split; [|lia]. exact (eq_trans (phi_same s s' F d Hm) Hc).
  - intros q m' Hq Hv. left. exists m'. rewrite <- Hm. split; [exact Hq|]. split; [reflexivity | lia].
Qed.

Lemma leaf_q_ok s0 s1 s' q m d md :
  DInv s1 -> dext s0 s1 -> dext s1 s' -> d_memo s1 q = Some m -> d_memo s1 d = Some md ->
  m_verified md = cur s1 -> m_changed md <= m_verified m ->
  leaf_ok prog NF F H D s0 s' q m (EQ d).
Proof.
  intros HI1 He01 He Hm1 Hmd Hvd Hcd.
  pose proof (dext_cur _ _ _ _ _ _ _ He) as Hcur'.
  pose proof (inv_memo _ _ _ _ _ _ _ HI1 q m Hm1) as Hok.
  pose proof (inv_memo _ _ _ _ _ _ _ HI1 d md Hmd) as Hokd.
  destruct (ext_vcur _ _ _ _ _ _ _ He d md Hmd Hvd) as (md' & Hmd' & Hvd' & Hdd').
  cbn. split; [exists md'; split; [exact Hmd' | congruence]|]. split; [|split].
  - intros g w k Hog Hvw Hcl.
    pose proof (ext_obs _ _ _ _ _ _ _ He01 g w k Hog) as Hog1.
    destruct (ob_obs _ _ _ _ _ _ _ _ Hog1 d md Hcl Hmd) as [A _]; [left; lia|].
    rewrite A. congruence.
  - intros Hcl.
    destruct (mo_obs _ _ _ _ _ _ _ _ _ Hok d md Hcl Hmd) as [_ Hdd]; [left; exact Hcd|].
    split.
    + rewrite Hcur', <- Hvd. eapply durge_mono; [exact Hdd|].
      apply (mo_durge _ _ _ _ _ _ _ _ _ Hokd).
    + exists md'. split; [exact Hmd' | lia].
  - intros c0 Hc0. destruct (ext_mono _ _ _ _ _ _ _ He01 d c0 Hc0) as (c' & Hc' & Hle).
    unfold PInv.phi in Hc'. rewrite Hmd in Hc'. injection Hc' as <-. lia.
Qed.

Lemma covers_of s pre fr : InvBase.covers F s pre fr -> covers s pre fr.
Proof.
  intros Hc.
  exact {| cv_in := InvBase.cv_in _ _ _ _ Hc; cv_q := InvBase.cv_q _ _ _ _ Hc;
           cv_cell := InvBase.cv_cell _ _ _ _ Hc; cv_edges_q := InvBase.cv_edges_q _ _ _ _ Hc;
           cv_le := InvBase.cv_le _ _ _ _ Hc; cv_ge1 := InvBase.cv_ge1 _ _ _ _ Hc;
           cv_stamp := InvBase.cv_stamp _ _ _ _ Hc; cv_dur3 := InvBase.cv_dur3 _ _ _ _ Hc;
           cv_untr := InvBase.cv_untr _ _ _ _ Hc; cv_lb := InvBase.cv_lb _ _ _ _ Hc |}.
Qed.

Lemma leaf_in_ok s0 s s' q m i :
  dext s s' -> f_changed (d_in s i) <= m_verified m -> leaf_ok prog NF F H D s0 s' q m (EIn i).
Proof. intros He Hca. cbn. rewrite (ext_in _ _ _ _ _ _ _ He). exact Hca. Qed.

Lemma leaf_core_eq s0 s s' q m e :
  dcore_eq s s' -> leaf_ok prog NF F H D s0 s q m e -> leaf_ok prog NF F H D s0 s' q m e.
Proof.
  intros Hce Hc. pose proof (dcore_eq_cur _ _ Hce) as Hc2.
  destruct Hce as (_ & Hi2 & _ & Hmm2). destruct e as [i | d]; cbn in Hc |- *.
  - rewrite Hi2. exact Hc.
  - rewrite Hc2, Hmm2. exact Hc.
Qed.

Lemma ops_facts_ok : InvOps.ops_facts uprog rank NF H F DInv dext (leaf_ok prog NF F H D).
Proof.
  exact {|
    InvOps.fact_core_eq := DInv_core_eq prog NF pf H D F;
    InvOps.fact_cur := fun s HI => inv_cur _ _ _ _ _ _ _ HI;
    InvOps.fact_in := fun s HI => inv_in _ _ _ _ _ _ _ HI;
    InvOps.fact_in_le := fun s HI => inv_in_le _ _ _ _ _ _ _ HI;
    InvOps.fact_cell := fun s HI => inv_cell _ _ _ _ _ _ _ HI;
    InvOps.fact_memo_order := fun s q m HI Hm => mo_order _ _ _ _ _ _ _ _ _ (inv_memo _ _ _ _ _ _ _ HI q m Hm);
    InvOps.fact_memo_val := fun s q m x HI Hm => mo_val _ _ _ _ _ _ _ _ _ (inv_memo _ _ _ _ _ _ _ HI q m Hm) x;
    InvOps.fact_memo_edges := fun s q m d HI Hm Hd =>
      reach_rank prog rank Hrank q d (mo_edges_reach _ _ _ _ _ _ _ _ _ (inv_memo _ _ _ _ _ _ _ HI q m Hm) d Hd);
    InvOps.fact_ext_refl := dext_refl prog NF H D F;
    InvOps.fact_ext_trans := dext_trans prog NF H D F;
    InvOps.fact_ext_core_eq := dext_of_core_eq;
    InvOps.fact_ext_cur := dext_cur prog NF H D F;
    InvOps.fact_ext_in := fun s s' He => ext_in _ _ _ _ _ _ _ He;
    InvOps.fact_ext_allowed := fun s s' p He => dallowed_ext s s' p (ext_pcell _ _ _ _ _ _ _ He) (ext_init _ _ _ _ _ _ _ He);
    InvOps.fact_ext_valid := fun s s' He => ext_valid _ _ _ _ _ _ _ He;
    InvOps.fact_ext_mono := fun s s' He => ext_mono _ _ _ _ _ _ _ He;
    InvOps.fact_shortcut := shortcut_ok prog rank Hrank NF Hbound pf F H D;
    InvOps.fact_leaf_in := leaf_in_ok;
    InvOps.fact_leaf_q := leaf_q_ok;
    InvOps.fact_leaf_core_eq := leaf_core_eq;
    InvOps.fact_deep := fun s0 s q m HI0 HI He Hm0 Hm Hu _ => deep_ok prog rank Hrank NF Hbound pf F H D s0 s q m HI0 HI He Hm0 Hm Hu;
    InvOps.fact_fresh_store := fun s q fr v ch old HI Hcv =>
      fresh_store_ok prog rank Hrank NF Hbound pf F H D s q fr v ch old HI (covers_of _ _ _ Hcv);
    InvOps.fact_frame_lb := fun s q fr c0 HI Hcv =>
      phi_frame_lb prog NF pf F H D s q fr c0 HI (covers_of _ _ _ Hcv) |}.
Qed.

Lemma fetch_ok L n (HF : fetch_spec L n) (HM : mca_spec L n) :
  forall q s, (rank q <= n)%nat -> DInv s -> stack_ok s q ->
    wp (fetch uprog noeq L q) (fetch_post s q) (XP s) s.
Proof. exact (InvOps.fetch_ok uprog noeq rank Hrank NF Hbound H F _ _ _ ops_facts_ok L n HF HM). Qed.

Theorem dlevel_ok : forall n,
  fetch_spec (level uprog noeq n) n /\ mca_spec (level uprog noeq n) n.
Proof. exact (InvOps.dlevel_ok uprog noeq rank Hrank NF Hbound H F _ _ _ ops_facts_ok). Qed.

End Ops.
