(* Persist/PInvTop.v — what Core/DInvTop.v is for the Core model, for the invariant of PInv.v:
   the invariant across the changes that the API operations other than Get and restore make to a
   state, all through [DInv_transfer].  What eviction and a new revision do to a state is in
   InvBase.v; the operations themselves are in Run.v. *)
From Salsa Require Import Base.
From Salsa.Kern Require Import CoreK CoreKFacts.
From Salsa.Core Require Import Model Spec SpecProofs Inv DurSem.
From Salsa.Core Require InvTop.
From Salsa.Persist Require Import Model PSem PWp InvBase PInv PInvSem PInvOps.

Notation extend := Salsa.Core.InvTop.extend.
Notation extend_same := Salsa.Core.InvTop.extend_same.
Notation extend_other := Salsa.Core.InvTop.extend_other.
Notation snap_eq := Salsa.Core.InvTop.snap_eq.

(* ---------------------------------------------------------------- eviction only forgets values *)
Definition evicted_from (mm mm' : qkey -> option memo) : Prop :=
  forall q, mm' q = mm q \/ exists m, mm q = Some m /\ mm' q = Some (evict_memo m).

Section Top.
Variable uprog : qkey -> body.
Let prog : qkey -> CM.body := tprog uprog.
Variable noeq : qkey -> bool.
Variable fams : list N.
Variable rank : qkey -> nat.
Hypothesis Hrank : calls_below prog rank.
Variable NF : nat.
Hypothesis Hbound : forall q, (rank q < NF)%nat.
Variable pf : qkey -> bool.
Notation E := (E prog NF).
Notation tr := (tr prog NF).
Notation durge := (durge prog NF).
Notation clos := (clos prog NF).
Notation dmemo_ok := (dmemo_ok prog NF pf).
Notation DInv := (DInv prog NF pf).
Notation obs_pre := (obs_pre prog NF).
Notation obs_ok := (obs_ok prog NF).
Notation good := (good prog NF pf).
Notation E_hist_eq := (Salsa.Core.InvTop.E_hist_eq).
Notation tr_hist_eq := (Salsa.Core.InvTop.tr_hist_eq).

(* ---------------------------------------------------------------- eviction keeps everything but values *)
Definition memo_sim (m m' : memo) : Prop :=
  m_verified m' = m_verified m /\ m_changed m' = m_changed m /\ m_dur m' = m_dur m /\
  m_untracked m' = m_untracked m /\ (forall e, In e (m_edges m') <-> In e (m_edges m)) /\
  (forall x, m_val m' = Some x -> m_val m = Some x).

Lemma evicted_fwd mm mm' q m : evicted_from mm mm' -> mm q = Some m ->
  exists m', mm' q = Some m' /\ memo_sim m m'.
Proof. exact (InvBase.evicted_fwd mm mm' q m). Qed.

(* ---------------------------------------------------------------- the invariant modulo cells *)
Definition DInv_d (H : hist) (D : dhist) (F : ghost) (s : db) : Prop :=
  DInv H D F (set_cell s (sn_cell (H (cur s)))).

(* the clauses of a memo that speak about its edges *)
Record edges_ok (H : hist) (D : dhist) (s : db) (q : qkey) (m : memo) : Prop := {
  eo_in : forall i, In (RIn i) (tr H (m_verified m) q) -> In (EIn i) (m_edges m);
  eo_q : m_untracked m = false ->
         forall d, In (RQ d) (tr H (m_verified m) q) -> ~ In (EQ d) (m_edges m) ->
         good H D s (m_edges m) (m_verified m) d;
  eo_cell : forall x, In x (tr H (m_verified m) q) -> untr x -> m_untracked m = true;
  eo_reach : forall d, In (EQ d) (m_edges m) -> reach prog q d;
  eo_direct : pf q = false -> forall d, In (RQ d) (tr H (m_verified m) q) -> In (EQ d) (m_edges m);
  eo_sync : forall d md, In (EQ d) (m_edges m) -> clos H (m_verified m) q d -> d_memo s d = Some md ->
            m_verified m <= m_verified md \/ cconst prog NF H (m_verified md) (m_verified m) d
}.

Lemma edges_ok_of H D F s q m : dmemo_ok H D F s q m -> edges_ok H D s q m.
Proof. intros [a b c d e f f' h i st j k]. constructor; assumption. Qed.

(* ---------------------------------------------------------------- from s under (H, D) to s' under (H', D') *)
Section Transfer.
Variables (H : hist) (D : dhist) (F : ghost) (H' : hist) (D' : dhist) (s s' : db).
Hypothesis HI : DInv_d H D F s.
Hypothesis Hc : cur s <= cur s'.
Hypothesis Hlc : forall k, lcs s k <= lcs s' k.
Hypothesis Hsub : sub_core (d_memo s) (d_memo s').
(* the past is kept *)
Hypothesis Hpast : forall r, r <= cur s -> H' r = H r /\ forall i, D' r i = D r i.

Let Hver : forall q m, d_memo s q = Some m -> m_verified m <= cur s.
Proof.
  intros q m Hm. pose proof (mo_order _ _ _ _ _ _ _ _ _ (inv_memo _ _ _ _ _ _ _ HI q m Hm)) as (_ & _ & A).
  exact A.
Qed.

Let sd := set_cell s (sn_cell (H (cur s))).

Let obs_s g w k : obs_ok H D sd g w k -> obs_ok H D s g w k.
Proof. apply (obs_ok_same prog NF H D sd s); reflexivity. Qed.

Let good_s L v d : good H D sd L v d -> good H D s L v d.
Proof.
  apply (good_mono prog NF pf H D sd s); [apply N.le_refl | intros g w k; apply obs_s|].
  intros e me He. left. exact He.
Qed.

Lemma obs_transfer g w k : obs_ok H D s g w k -> obs_ok H' D' s' g w k.
Proof.
  intros [Oorder Odurge Odur3 Oobs]. destruct Oorder as [Hw1 Hw2]. destruct (Hpast w Hw2) as [HHw HDw].
  constructor.
  - lia.
  - apply (durge_hist_eq prog NF H D H' D'); assumption.
  - exact Odur3.
  - intros d1 md' Hd1 Hmd' Hp. apply (clos_hist_eq prog NF H' H) in Hd1; [|symmetry; exact HHw].
    destruct (Hsub d1 md' Hmd') as (md & Hmd & (T1 & T2 & T3 & _)).
    rewrite T1, T3.
    destruct (Hpast (m_verified md) (Hver d1 md Hmd)) as [HHd _].
    rewrite (E_hist_eq prog NF H H' _ d1 HHw), (E_hist_eq prog NF H H' _ d1 HHd).
    apply (Oobs d1 md Hd1 Hmd). destruct Hp as [Hp | (k0 & Hk & Hlk)].
    + left. rewrite <- T2. exact Hp.
    + right. exists k0. split.
      * apply (durge_hist_eq prog NF H' D' H D); [symmetry; exact HHw | intros i; symmetry; apply HDw | exact Hk].
      * specialize (Hlc k0). lia.
Qed.

Lemma cconst_transfer a b x : b <= cur s -> cconst prog NF H a b x -> cconst prog NF H' a b x.
Proof.
  intros Hb Hcc y Hy w Hw1 Hw2.
  destruct (N.le_gt_cases a b) as [Hab | Hab]; [|lia].
  destruct (Hpast a ltac:(lia)) as [HHa _]. destruct (Hpast w ltac:(lia)) as [HHw _].
  apply (clos_hist_eq prog NF H' H) in Hy; [|symmetry; exact HHa].
  destruct (Hcc y Hy w Hw1 Hw2) as [A B].
  rewrite (tr_hist_eq prog NF H H' _ y HHw), (tr_hist_eq prog NF H H' _ y HHa).
  rewrite (E_hist_eq prog NF H H' _ y HHw), (E_hist_eq prog NF H H' _ y HHa).
  split; assumption.
Qed.

Lemma good_transfer L L' v d :
  (forall e, In e L <-> In e L') -> good H D s L v d -> good H' D' s' L' v d.
Proof.
  intros Hinc Hg. induction Hg as [v d rho k Ho Hv Hu Hi Hl Hq IH].
  pose proof (ob_order _ _ _ _ _ _ _ _ Ho) as (_ & Hr2).
  destruct (Hpast rho Hr2) as [HHr _].
  apply (good_exp prog NF pf H' D' s' L' v d rho k);
    rewrite ?(tr_hist_eq prog NF H H' _ d HHr); auto.
  - apply obs_transfer. exact Ho.
  - intros i Hi0. apply Hinc. apply Hi. exact Hi0.
  - intros e me' He HeL Hpe Hme'. destruct (Hsub e me' Hme') as (me & Hme & (T1 & _)).
    rewrite T1. destruct (Hl e me He (proj2 (Hinc _) HeL) Hpe Hme) as [A | A]; [left; exact A | right].
    apply cconst_transfer; [exact Hr2 | exact A].
  - intros d' Hd' Hn. apply IH; [exact Hd'|]. intros Hin. apply Hn. apply Hinc. exact Hin.
Qed.

(* a memo with the same edges (as a set) and the same origin kind *)
Lemma edges_sim q m m' :
  d_memo s q = Some m -> memo_sim m m' ->
  (forall d md', In (EQ d) (m_edges m') -> d_memo s' d = Some md' ->
     exists md, d_memo s d = Some md /\ m_verified md' = m_verified md) ->
  edges_ok H' D' s' q m'.
Proof.
  intros Hm (S1 & S2 & S3 & S4 & S5 & S6) Hd.
  pose proof (inv_memo _ _ _ _ _ _ _ HI q m Hm) as Hok.
  destruct (Hpast (m_verified m) (Hver q m Hm)) as [HHv HDv].
  pose proof (mo_order _ _ _ _ _ _ _ _ _ Hok) as (_ & _ & Hvm). change (cur (set_cell s _)) with (cur s) in Hvm.
  destruct Hok as [a0 b0 c0 d0 e0 f0 f0' h0 i0 st0 j0 k0].
  constructor; rewrite ?S1, ?S3, ?S4, ?(tr_hist_eq prog NF H H' _ q HHv); auto.
  - intros i Hi. apply S5. apply c0. exact Hi.
  - intros Hu0 d1 Hd1 Hn. apply (good_transfer (m_edges m)); [intros e; symmetry; apply S5|].
    apply good_s. apply d0; [congruence | exact Hd1|]. intros Hin. apply Hn. apply S5. exact Hin.
  - intros d1 Hd1. apply f0. apply S5. exact Hd1.
  - intros Hp d1 Hd1. apply S5. apply (f0' Hp d1 Hd1).
  - intros d1 md' Hd1 Hcl1 Hmd'. destruct (Hd d1 md' Hd1 Hmd') as (md & Hmd & ->).
    apply (clos_hist_eq prog NF H' H) in Hcl1; [|symmetry; exact HHv].
    destruct (k0 d1 md (proj1 (S5 _) Hd1) Hcl1 Hmd) as [A | A]; [left; exact A | right].
    apply cconst_transfer; [exact Hvm | exact A].
Qed.

(* stamps: the inputs' only grow; a dropped memo leaves its stamp in the ghost table *)
Hypothesis Hstamp : forall i, f_changed (d_in s i) <= f_changed (d_in s' i).

Let F' := lift s F.

Lemma phi_transfer d c : phi s F d = Some c -> exists c', phi s' F' d = Some c' /\ c <= c'.
Proof.
  unfold phi, F', lift. destruct (d_memo s d) as [md|] eqn:Hmd.
  - intros E0. injection E0 as <-. destruct (d_memo s' d) as [md'|] eqn:Hmd'.
    + destruct (Hsub d md' Hmd') as (md0 & Hmd0 & (_ & T2 & _)). rewrite Hmd in Hmd0. injection Hmd0 as <-.
      exists (m_changed md'). split; [reflexivity | lia].
    + exists (m_changed md). split; [reflexivity | lia].
  - intros E0. destruct (d_memo s' d) as [md'|] eqn:Hmd'.
    + destruct (Hsub d md' Hmd') as (md0 & Hmd0 & _). congruence.
    + exists c. split; [exact E0 | lia].
Qed.

Lemma sle_transfer c x : sle s F c x -> sle s' F' c x.
Proof.
  destruct x as [i | d | cc |]; cbn; auto.
  - specialize (Hstamp i). lia.
  - intros (c0 & Hc0 & Hle). destruct (phi_transfer d c0 Hc0) as (c' & Hc' & Hle'). exists c'. split; [exact Hc' | lia].
Qed.

Lemma prov_transfer q rho c : rho <= cur s -> prov prog NF H s F q rho c -> prov prog NF H' s' F' q rho c.
Proof.
  intros Hr [A | (x & Hx & Hs)]; [left; exact A | right].
  destruct (Hpast rho Hr) as [HHr _].
  exists x. split; [rewrite (tr_hist_eq prog NF H H' _ q HHr); exact Hx | apply sle_transfer; exact Hs].
Qed.

(* From s to a later state s' whose memos come from memos of s ([Hsub]) and whose histories
   extend those of s ([Hpast]): the invariant holds in s' once the clauses that speak of the
   inputs, the cells and the revision vector of s' are given (the premises, in the order of the
   fields of [DInv]; in the place of [inv_memo], the edge clauses of every memo, [edges_ok]); what
   memos owe to observers, the stamps and the ghost table carry over. *)
Lemma DInv_transfer :
  1 <= cur s' -> revs_ok (d_revs s') ->
  (forall q m', d_memo s' q = Some m' -> edges_ok H' D' s' q m') ->
  (forall i r, f_changed (d_in s' i) <= r -> r <= cur s' -> sn_in (H' r) i = f_val (d_in s' i)) ->
  (forall i r, f_changed (d_in s' i) <= r -> r <= cur s' -> D' r i = f_dur (d_in s' i)) ->
  (forall i, f_changed (d_in s' i) <= cur s') ->
  (forall c, sn_cell (H' (cur s')) c = d_cell s' c) ->
  (forall r i, D' r i <= 3) ->
  (forall r i, r < cur s' -> lcs s' (D' r i) <= r ->
     sn_in (H' (r + 1)) i = sn_in (H' r) i /\ D' (r + 1) i = D' r i) ->
  DInv H' D' F' s'.
Proof.
  intros H1 Hrv Hedges Hin Hdur Hinle Hcell Hd3 Hwr.
  assert (Hprov_sd : forall q rho c, prov prog NF H sd F q rho c -> prov prog NF H s F q rho c).
  { intros q rho c. apply (prov_same prog NF H sd s); reflexivity. }
  constructor; auto.
  - intros q m' Hm'. destruct (Hsub q m' Hm') as (m & Hm & (S1 & S2 & S3 & S6)).
    pose proof (obs_transfer q (m_verified m) (m_dur m)
                  (obs_s _ _ _ (obs_of_memo prog NF pf H D F _ q m (inv_memo _ _ _ _ _ _ _ HI q m Hm)))) as Ho.
    destruct (Hedges q m' Hm') as [e1 e2 e3 e4 e5 e6].
    destruct (Hpast (m_verified m) (Hver q m Hm)) as [HHv HDv].
    pose proof (mo_order _ _ _ _ _ _ _ _ _ (inv_memo _ _ _ _ _ _ _ HI q m Hm)) as (O1 & O2 & O3).
    constructor; auto; rewrite ?S1, ?S2, ?S3.
    + change (cur (set_cell s _)) with (cur s) in O3. lia.
    + intros x Hx. rewrite (E_hist_eq prog NF H H' _ q HHv).
      apply (mo_val _ _ _ _ _ _ _ _ _ (inv_memo _ _ _ _ _ _ _ HI q m Hm)). apply S6. exact Hx.
    + apply (ob_durge _ _ _ _ _ _ _ _ Ho).
    + apply (ob_dur3 _ _ _ _ _ _ _ _ Ho).
    + apply prov_transfer; [apply (Hver q m Hm)|]. apply Hprov_sd.
      apply (mo_stamp _ _ _ _ _ _ _ _ _ (inv_memo _ _ _ _ _ _ _ HI q m Hm)).
    + apply (ob_obs _ _ _ _ _ _ _ _ Ho).
  - (* dropped memos, old and new *)
    intros d rho c Hn HF. unfold F', lift in HF.
    destruct (d_memo s d) as [md|] eqn:Hmd.
    + injection HF as <- <-.
      pose proof (inv_memo _ _ _ _ _ _ _ HI d md Hmd) as Hok.
      pose proof (mo_order _ _ _ _ _ _ _ _ _ Hok) as (O1 & O2 & O3).
      split; [exact O2|]. split.
      * apply obs_transfer. apply obs_s.
        destruct (obs_of_memo prog NF pf H D F _ d md Hok) as [Oorder Odurge Odur3 Oobs].
        constructor; auto; [apply (durge_zero prog rank Hrank NF H D) | lia|].
        intros x mx Hx Hmx Hp. destruct (Oobs x mx Hx Hmx Hp) as [A _]. split; [exact A | lia].
      * apply prov_transfer; [apply (Hver d md Hmd)|]. apply Hprov_sd. apply (mo_stamp _ _ _ _ _ _ _ _ _ Hok).
    + destruct (inv_ghost _ _ _ _ _ _ _ HI d rho c Hmd HF) as (A & B & C0).
      split; [exact A|]. split; [apply obs_transfer; apply obs_s; exact B|].
      apply prov_transfer; [|apply Hprov_sd; exact C0].
      pose proof (ob_order _ _ _ _ _ _ _ _ B) as (_ & Hr). exact Hr.
Qed.

End Transfer.

Lemma DInv_to_d H D F s : DInv H D F s -> DInv_d H D F s.
Proof.
  intros [Icur Irevs Iin Idur Iinle Icell Id3 Iwr Imemo Ighost]. unfold DInv_d. constructor; auto.
  - intros q m Hm. apply (dmemo_ok_same prog NF pf H D F s); [reflexivity | reflexivity | reflexivity|].
    apply Imemo. exact Hm.
  - intros d0 rho c0 Hn HF. destruct (Ighost d0 rho c0 Hn HF) as (A & B & C0).
    split; [exact A|]. split; [apply (obs_ok_same prog NF H D s); [reflexivity | reflexivity | exact B]|].
    apply (prov_same prog NF H s); [reflexivity | reflexivity | exact C0].
Qed.

Lemma DInv_d_facts H D F s : DInv_d H D F s ->
  1 <= cur s /\ revs_ok (d_revs s) /\
  (forall q m, d_memo s q = Some m -> m_verified m <= cur s) /\
  (forall i r, f_changed (d_in s i) <= r -> r <= cur s -> sn_in (H r) i = f_val (d_in s i)) /\
  (forall i r, f_changed (d_in s i) <= r -> r <= cur s -> D r i = f_dur (d_in s i)) /\
  (forall i, f_changed (d_in s i) <= cur s) /\ (forall r i, D r i <= 3) /\
  (forall r i, r < cur s -> lcs s (D r i) <= r ->
     sn_in (H (r + 1)) i = sn_in (H r) i /\ D (r + 1) i = D r i).
Proof.
  unfold DInv_d. intros HI.
  split; [exact (inv_cur _ _ _ _ _ _ _ HI)|]. split; [exact (inv_revs _ _ _ _ _ _ _ HI)|]. split.
  - intros q m Hm. pose proof (mo_order _ _ _ _ _ _ _ _ _ (inv_memo _ _ _ _ _ _ _ HI q m Hm)) as (_ & _ & Hv). exact Hv.
  - split; [exact (inv_in _ _ _ _ _ _ _ HI)|]. split; [exact (inv_dur _ _ _ _ _ _ _ HI)|]. split; [exact (inv_in_le _ _ _ _ _ _ _ HI)|].
    split; [exact (inv_dur3 _ _ _ _ _ _ _ HI)|]. exact (inv_wr _ _ _ _ _ _ _ HI).
Qed.

(* ---------------------------------------------------------------- "ok" states *)
Definition OK (s : db) : Prop := exists H D F, DInv H D F s.
Definition OK_d (s : db) : Prop := exists H D F, DInv_d H D F s.

Lemma OK_to_d s : OK s -> OK_d s.
Proof. intros (H & D & F & HI). exists H, D, F. apply DInv_to_d; exact HI. Qed.

Lemma DInv_snap H D F s : DInv H D F s -> snap_eq (H (cur s)) (csnap s).
Proof.
  intros HI. split; cbn.
  - intros i. apply (inv_in _ _ _ _ _ _ _ HI); [apply (inv_in_le _ _ _ _ _ _ _ HI) | lia].
  - apply (inv_cell _ _ _ _ _ _ _ HI).
Qed.

Lemma OK_d_inputs s : OK_d s ->
  revs_ok (d_revs s) /\ (forall i, f_dur (d_in s i) <= 3).
Proof.
  intros (H & D & F & HI).
  destruct (DInv_d_facts H D F s HI) as (_ & Hrvs & _ & _ & HinD & Hinle & HD3 & _).
  split; [exact Hrvs|].
  intros i. rewrite <- (HinD i (cur s)); [apply HD3 | apply Hinle | lia].
Qed.

(* memos of s' that come from memos of s with the same edges: their dependencies' memos do *)
Lemma sub_sim_deps mm mm' : sub_sim mm mm' ->
  forall d md', mm' d = Some md' -> exists md, mm d = Some md /\ m_verified md' = m_verified md.
Proof.
  intros Hs d md' Hmd'. destruct (Hs d md' Hmd') as (md & Hmd & (A & _)). exists md. split; assumption.
Qed.

Lemma DInv_move H D F s s' :
  DInv_d H D F s -> cur s' = cur s -> revs_ok (d_revs s') -> (forall k, lcs s k <= lcs s' k) ->
  d_in s' = d_in s -> sub_sim (d_memo s) (d_memo s') ->
  (forall c, sn_cell (H (cur s)) c = d_cell s' c) ->
  DInv H D (lift s F) s'.
Proof.
  intros HI Hc Hrv Hlc Hi Hev Hcell.
  destruct (DInv_d_facts H D F s HI) as (Hcur1 & Hrvs & Hmver & HinH & HinD & Hinle & HD3 & Hstab).
  assert (Hpast : forall r, r <= cur s -> H r = H r /\ forall i, D r i = D r i) by (intros; split; reflexivity).
  assert (Hcle : cur s <= cur s') by lia.
  assert (Hstamp : forall i, f_changed (d_in s i) <= f_changed (d_in s' i)) by (intros i; rewrite Hi; lia).
  apply (DInv_transfer H D F H D s s' HI Hcle Hlc (sub_sim_core _ _ Hev) Hpast Hstamp); rewrite ?Hc, ?Hi; try assumption; try lia.
  - (* the edge clauses of a memo *)
    intros q m' Hm'. destruct (Hev q m' Hm') as (m & Hm & Hsim).
    apply (edges_sim H D F H D s s' HI Hcle Hlc (sub_sim_core _ _ Hev) Hpast q m m' Hm Hsim).
    intros d md' _ Hmd'. apply (sub_sim_deps _ _ Hev d md' Hmd').
  - (* inv_wr: levels moved forward, so a level not written after r in s' was not in s *)
    intros r i Hlt Hl. apply Hstab; [exact Hlt|]. specialize (Hlc (D r i)). lia.
Qed.

Lemma OK_d_same s s' :
  OK_d s -> d_revs s' = d_revs s -> d_in s' = d_in s ->
  sub_sim (d_memo s) (d_memo s') -> OK_d s'.
Proof.
  intros (H & D & F & HI) Hr Hi Hev. exists H, D, (lift s F).
  destruct (DInv_d_facts H D F s HI) as (Hcur1 & Hrvs & Hmver & HinH & HinD & Hinle & HD3 & Hstab).
  assert (Hc : cur s' = cur s) by (unfold cur; rewrite Hr; reflexivity).
  apply (DInv_move H D F s _ HI); unfold lcs; cbn; rewrite ?Hr, ?Hc; auto; try (intros; lia).
Qed.

Lemma OK_same s s' :
  OK s -> d_revs s' = d_revs s -> d_in s' = d_in s -> d_cell s' = d_cell s ->
  sub_sim (d_memo s) (d_memo s') -> OK s'.
Proof.
  intros (H & D & F & HI) Hr Hi Hce Hev. exists H, D, (lift s F).
  pose proof (DInv_to_d H D F s HI) as HId.
  destruct (DInv_d_facts H D F s HId) as (Hcur1 & Hrvs & Hmver & HinH & HinD & Hinle & HD3 & Hstab).
  assert (Hc : cur s' = cur s) by (unfold cur; rewrite Hr; reflexivity).
  apply (DInv_move H D F s s' HId); unfold lcs; rewrite ?Hr, ?Hce; auto; try (intros; lia).
  apply (inv_cell _ _ _ _ _ _ _ HI).
Qed.

(* supplies the field [rf_advance] of Run.run_facts, where the premises are explained *)
Lemma OK_advance_gen s s' :
  OK_d s ->
  r_cur (d_revs s') = r_cur (d_revs s) + 1 -> revs_ok (d_revs s') ->
  (forall k, lcs s k <= lcs s' k) ->
  (* an input is untouched, or stamped now after its old level was reported *)
  (forall i, d_in s' i = d_in s i \/
             (f_changed (d_in s' i) = cur s' /\ lcs s' (f_dur (d_in s i)) = cur s')) ->
  (forall i, f_dur (d_in s' i) <= 3) ->
  sub_sim (d_memo s) (d_memo s') ->
  OK s'.
Proof.
  intros (H & D & F & HI) Hrc Hrv Hlc Hins Hd3 Hev.
  destruct (DInv_d_facts H D F s HI) as (_ & _ & _ & HinH & HinD & Hinle & HD3 & Hstab).
  assert (Hc : cur s' = cur s + 1) by (unfold cur; exact Hrc).
  assert (Hpast : forall r, r <= cur s ->
            extend H (cur s') (csnap s') r = H r /\
            forall i, extendD D (cur s') (durs_of s') r i = D r i).
  { intros r Hr. split; [apply extend_other; lia | intros i; rewrite extendD_other by lia; reflexivity]. }
  exists (extend H (cur s') (csnap s')), (extendD D (cur s') (durs_of s')), (lift s F).
  assert (Hcle : cur s <= cur s') by lia.
  assert (Hstamp : forall i, f_changed (d_in s i) <= f_changed (d_in s' i)).
  { intros i. destruct (Hins i) as [-> | (Hst & _)]; [lia|]. rewrite Hst. specialize (Hinle i). lia. }
  apply (DInv_transfer H D F _ _ s s' HI Hcle Hlc (sub_sim_core _ _ Hev) Hpast Hstamp); try assumption; try lia.
  + (* the edge clauses of a memo *)
    intros q m' Hm'. destruct (Hev q m' Hm') as (m & Hm & Hsim).
    apply (edges_sim H D F _ _ s s' HI Hcle Hlc (sub_sim_core _ _ Hev) Hpast q m m' Hm Hsim).
    intros d md' _ Hmd'. apply (sub_sim_deps _ _ Hev d md' Hmd').
  + (* inv_in: the new snapshot at the new revision, the old ones below *)
    intros i r Hle Hrc'. destruct (N.eq_dec r (cur s')) as [-> | Hne].
    * rewrite extend_same. reflexivity.
    * rewrite extend_other by exact Hne.
      destruct (Hins i) as [Hsame | (Hst & _)]; [|lia].
      rewrite Hsame in *. apply HinH; lia.
  + (* inv_dur *)
    intros i r Hle Hrc'. destruct (N.eq_dec r (cur s')) as [-> | Hne].
    * rewrite extendD_same. reflexivity.
    * rewrite extendD_other by exact Hne.
      destruct (Hins i) as [Hsame | (Hst & _)]; [|lia].
      rewrite Hsame in *. apply HinD; lia.
  + (* inv_in_le *)
    intros i. destruct (Hins i) as [Hsame | (Hst & _)]; [|lia].
    rewrite Hsame. specialize (Hinle i). lia.
  + (* inv_cell *)
    intros c. rewrite extend_same. reflexivity.
  + (* inv_dur3 *)
    intros r i. unfold extendD. destruct (r =? cur s'); [|apply HD3]. apply Hd3.
  + (* inv_wr: the step into the new revision is the only new one; an input written there had its old level reported *)
    intros r i Hlt Hl.
    destruct (N.eq_dec (r + 1) (cur s')) as [Heq | Hne].
    * assert (r = cur s) by lia. subst r.
      rewrite extendD_other in Hl by lia.
      rewrite Heq, extend_same, extendD_same, extend_other, extendD_other by lia.
      rewrite (HinD i (cur s)) in Hl; [|apply Hinle | lia].
      destruct (Hins i) as [Hsame | (_ & Hrep)]; [|lia].
      unfold durs_of, csnap; cbn [sn_in]. rewrite Hsame.
      split; symmetry; [apply HinH | apply HinD]; try apply Hinle; lia.
    * rewrite !extend_other, !extendD_other by lia.
      rewrite extendD_other in Hl by lia.
      apply Hstab; [lia|]. specialize (Hlc (D r i)). lia.
Qed.

(* a revision-vector change alone (a synthetic write): levels only move forward *)
Lemma OK_revs s s' :
  OK s -> cur s' = cur s -> revs_ok (d_revs s') -> (forall k, lcs s k <= lcs s' k) ->
  d_in s' = d_in s -> d_cell s' = d_cell s -> d_memo s' = d_memo s -> OK s'.
Proof.
  intros (H & D & F & HI) Hc Hrv Hlc Hi Hce Hm. exists H, D, (lift s F).
  apply (DInv_move H D F s s' (DInv_to_d H D F s HI)); auto.
  - rewrite Hm. apply evicted_sub_sim, evicted_refl.
  - rewrite Hce. apply (inv_cell _ _ _ _ _ _ _ HI).
Qed.

End Top.
