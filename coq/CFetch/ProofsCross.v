(* CFetch/ProofsCross.v — C14, cross-thread part, at the protocol level: a request that would
   close a wait cycle is answered Cycle (the caller does not wait), and when the holder of a
   claim unwinds, every thread waiting for that claim receives Panicked, which
   Running::block_on turns into Cancelled::PropagatedPanic. *)
From Salsa Require Import Base.
From Salsa.Proto Require Import Model ProofsGraph ProofsList ProofsInv ProofsWake ProofsStep
  ProofsExamples.
From Salsa.CFetch Require Import Model.

(* try_claim / peek_claim on a key owned by a thread: the answer is decided by reachability in
   the wait graph, and the dependency graph is not touched *)
Lemma claim_owned_decided fuel s o t k allow st owner s' r :
  o = OClaim t k allow \/ o = OPeek t k allow ->
  sync s k = Some st -> ss_id st = OThread owner ->
  Model.step fuel s o = ROk (s', XClaim r) ->
  dg s' = dg s /\
  (reaches (eproj (dg s)) owner t -> r = CCycle false) /\
  (~ reaches (eproj (dg s)) owner t -> r = CRunning owner).
Proof.
  intros Ho Hs Hid H.
  assert (Hc : exists c, try_claim fuel c s t k allow = ROk (s', r)).
  { destruct Ho as [-> | ->]; cbn [Model.step] in H;
      apply bind_ok in H as ([s1 r1] & Hc & H); cbn [fst snd] in H; injection H as <- <-; eauto. }
  destruct Hc as [c Hc]. unfold try_claim in Hc. rewrite Hs, Hid in Hc.
  apply bind_ok in Hc as (r0 & Hr & Hc). injection Hc as <- <-. cbn [dg set_sync] in *.
  split; [reflexivity|].
  apply runtime_block_spec in Hr as [[-> Hr] | [-> Hr]]; split; auto; contradiction.
Qed.

Theorem cross_thread_reported fuel s :
  reachable fuel s ->
  (* the request that re-enters through waiting threads is reported, not waited for *)
  (forall o t k allow st owner s' r,
     o = OClaim t k allow \/ o = OPeek t k allow ->
     sync s k = Some st -> ss_id st = OThread owner ->
     reaches (eproj (dg s)) owner t ->
     Model.step fuel s o = ROk (s', XClaim r) ->
     r = CCycle false /\ dg s' = dg s) /\
  (forall t k other s' out,
     reaches (eproj (dg s)) other t ->
     Model.step fuel s (OBlockOn t k other) = ROk (s', out) ->
     out = XBlock BCycle /\ s' = s) /\
  (* the unwinding holder hands Panicked to every waiter; receiving it is PropagatedPanic *)
  (forall t k s1 out,
     Model.step fuel s (OUnblock t k Panicked) = ROk (s1, out) ->
     forall d u, edges (dg s) d = Some (u, k) ->
       edges (dg s1) d = None /\ wres (dg s1) d = Some Panicked /\
       (exists s2, Model.step fuel s1 (OReceive d) = ROk (s2, XReceive (Some Panicked))) /\
       on_wait_result Panicked = Panic PPropagated).
Proof.
  intros HR. split; [|split].
  - intros o t k allow st owner s' r Ho Hs Hid Hreach H.
    destruct (claim_owned_decided _ _ _ _ _ _ _ _ _ _ Ho Hs Hid H) as (Hdg & Hc & _). auto.
  - intros t k other s' out Hreach H.
    destruct (cycle_reported fuel s HR) as [Hb _].
    destruct (Hb _ _ _ _ _ H) as (Hiff & Hsame & _).
    assert (out = XBlock BCycle) by now apply Hiff. auto.
  - intros t k s1 out H d u Hd.
    destruct (release_wakes_all _ _ _ _ _ _ _ HR H) as (_ & Hw & _).
    destruct (Hw d) as [He Hr]; [eauto|]. repeat split; auto.
    cbn [Model.step]. unfold receive. rewrite Hr, He. cbn. eauto.
Qed.

(* non-vacuity: a -> b on thread 1, b -> a on thread 2 *)

(* thread 1 holds a = 10, thread 2 holds b = 20 and waits for a; thread 1 now requests b *)
Definition ex_cross_prefix : list op :=
  [ OClaim 1 10 true; OClaim 2 20 true; OClaim 2 10 true; OBlockOn 2 10 1 ].

Definition ex_cross_state : state :=
  match run 20 ex_cross_prefix init with ROk s => s | RErr _ => init end.

Example ex_cross_reachable : reachable 20 ex_cross_state.
Proof. eapply reachable_prefix with (l := ex_cross_prefix); vm_compute; reflexivity. Qed.

(* thread 1 is answered Cycle; it unwinds: removes its claim on a, unblocks with Panicked;
   thread 2 receives Panicked *)
Example ex_cross_run :
  match run_out 20 [OClaim 1 20 true; ORemove 1 10; OUnblock 1 10 Panicked; OReceive 2]
                ex_cross_state with
  | ROk (_, outs) => Some (nth 0 outs XUnit, nth 3 outs XUnit)
  | RErr _ => None
  end = Some (XClaim (CCycle false), XReceive (Some Panicked)).
Proof. vm_compute. reflexivity. Qed.

Example ex_cross_premises :
  exists st, sync ex_cross_state 20 = Some st /\ ss_id st = OThread 2 /\
             reaches (eproj (dg ex_cross_state)) 2 1.
Proof.
  eexists. split; [vm_compute; reflexivity|]. split; [reflexivity|].
  econstructor; [vm_compute; reflexivity | constructor].
Qed.
