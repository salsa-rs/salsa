(* CFetch/ProofsTerm.v — termination of the concurrent fetch loop for rank-respecting programs.

   A measure [Phi] on states — computed from the program, the memo table, the stacks and the
   outstanding requests — strictly decreases with EVERY thread step of EVERY handle (no fairness
   needed: a blocked handle simply has no step).  Hence within one revision every schedule makes
   at most [Phi s] steps, and together with deadlock freedom every maximal execution ends with
   all handles done.

   The measure.  [Wf n mm cur k] bounds the cost of a request for [k]: 1 if [k]'s memo is
   verified in the current revision (a hot hit), else 8 + the cost of walking the edges recorded
   in its (stale) memo + the cost of walking the calls of an execution, each edge costing 1 + the
   cost of the callee (recursion on the rank).  A frame weighs what is left of that budget in its
   phase; a handle weighs its frames plus 1 + W per outstanding request.  Why a waiter does not
   loop: whoever is woken finds the memo verified (the releaser published or verified it before
   releasing — invariant [WokenInv]), so each frame blocks at most once. *)
From Coq Require Import Sorted Wf_nat.
From Salsa Require Import Base.
From Salsa.Proto Require Import Model ProofsGraph ProofsList ProofsInv ProofsWake ProofsStep.
From Salsa.CFetch Require Import Model ProofsProto ProofsRel ProofsSafe ProofsLive.

Definition verb (mm : key -> option memo) (cur : rev) (k : key) : bool :=
  match mm k with Some m => m_ver m =? cur | None => false end.

Definition vdeps (mm : key -> option memo) (k : key) : list key :=
  match mm k with Some m => m_deps m | None => [] end.

Lemma verb_spec s k : verb (c_memo s) (c_cur s) k = true <-> verified s k.
Proof.
  unfold verb, verified. destruct (c_memo s k) as [m|]; split.
  - intros H. apply N.eqb_eq in H. eauto.
  - intros (m' & [= <-] & H). now apply N.eqb_eq.
  - discriminate.
  - intros (m' & H & _). discriminate.
Qed.

Section Term.
Variable fuel : nat.
Variable P : prog.
Variable rank : key -> nat.

(* cost of a request *)
Fixpoint Wf (n : nat) (mm : key -> option memo) (cur : rev) (k : key) : nat :=
  if verb mm cur k then 1 else
  match n with
  | O => 8
  | S n' => 8 + list_sum (map (fun d => S (Wf n' mm cur d)) (vdeps mm k))
              + list_sum (map (fun d => S (Wf n' mm cur d)) (p_deps P cur k))
  end.

Definition Sw (n : nat) mm cur (l : list key) : nat :=
  list_sum (map (fun d => S (Wf n mm cur d)) l).

Definition Wk mm cur (k : key) : nat := Wf (rank k) mm cur k.

(* what is left of the budget of a frame.  The constants count the steps the frame still takes
   itself, calls apart: PUnblock (1) wakes the waiters and returns; PRelease (2) releases and, if
   someone waits, goes to PUnblock; PExec (3) walks its calls, then publishes; PVerify (5) walks
   its edges, then marks and goes to PRelease, or starts an execution.  An unverified frame goes
   cold, claims, starts the walk, starts executing, publishes, releases and unblocks: 7 steps
   besides the two walks, within the 8 of [Wf].  A woken frame restarts at PStart, where the
   verified memo makes it weigh 1: hence PWait = 2.  When another thread verified the memo in
   the meantime, PCold and PClaimed weigh one more than the phase they lead to (PClaimed = 3,
   to PRelease; PCold = 4, to PClaimed or PWait). *)
Definition fw mm cur (f : frame) : nat :=
  let k := f_key f in
  let n := pred (rank k) in
  match f_phase f with
  | PStart => Wk mm cur k
  | PCold => if verb mm cur k then 4 else Wk mm cur k - 1
  | PWait => 2
  | PClaimed => if verb mm cur k then 3 else Wk mm cur k - 2
  | PVerify l => Sw n mm cur l + Sw n mm cur (p_deps P cur k) + 5
  | PExec l => Sw n mm cur l + 3
  | PRelease _ => 2
  | PUnblock _ => 1
  end.

Definition stw mm cur (l : list frame) : nat := list_sum (map (fw mm cur) l).
Definition tdw mm cur (l : list key) : nat := list_sum (map (fun k => S (Wk mm cur k)) l).

Definition tw (s : cstate) (t : thread) : nat :=
  stw (c_memo s) (c_cur s) (stack_of s t) + tdw (c_memo s) (c_cur s) (todo_of s t).

(* THE BOUND: the number of thread steps any schedule can still make in this revision *)
Definition Phi (s : cstate) : nat := list_sum (map (tw s) (c_tids s)).

Lemma Wf_pos n mm cur k : (1 <= Wf n mm cur k)%nat.
Proof. destruct n; cbn [Wf]; destruct (verb mm cur k); lia. Qed.

Lemma Wf_unver n mm cur k : verb mm cur k = false -> (8 <= Wf n mm cur k)%nat.
Proof. intros H. destruct n; cbn [Wf]; rewrite H; lia. Qed.

Lemma Wf_ver n mm cur k : verb mm cur k = true -> Wf n mm cur k = 1%nat.
Proof. intros H. destruct n; cbn [Wf]; now rewrite H. Qed.

Lemma cost_le a a' b b' : (a' <= a)%nat -> (b' <= b)%nat -> (8 + a' + b' <= 8 + a + b)%nat.
Proof. lia. Qed.

Lemma list_sum_le {A} (f g : A -> nat) l :
  (forall x, In x l -> (f x <= g x)%nat) -> (list_sum (map f l) <= list_sum (map g l))%nat.
Proof.
  unfold list_sum. induction l as [|a l IH]; intros H; cbn [map fold_right]; [lia|].
  pose proof (H a (or_introl eq_refl)).
  assert (fold_right Nat.add 0 (map f l) <= fold_right Nat.add 0 (map g l))%nat.
  { apply IH. intros x Hx. apply H. now right. }
  lia.
Qed.

Lemma Wf_S n mm cur k :
  Wf (S n) mm cur k =
  if verb mm cur k then 1%nat else (8 + Sw n mm cur (vdeps mm k) + Sw n mm cur (p_deps P cur k))%nat.
Proof. reflexivity. Qed.

Lemma Sw_le n n' mm mm' cur l :
  (forall d, (Wf n mm cur d <= Wf n' mm' cur d)%nat) -> (Sw n mm cur l <= Sw n' mm' cur l)%nat.
Proof. intros H. apply list_sum_le. intros x _. specialize (H x). lia. Qed.

(* more fuel never lowers the cost *)
Lemma Wf_fuel_mono mm cur : forall n k, (Wf n mm cur k <= Wf (S n) mm cur k)%nat.
Proof.
  induction n as [|n IH]; intros k.
  - cbn [Wf]. destruct (verb mm cur k); lia.
  - rewrite (Wf_S (S n)), (Wf_S n). destruct (verb mm cur k); [lia|].
    apply cost_le; apply Sw_le; exact IH.
Qed.

Lemma Wf_fuel_le mm cur k : forall n m, (n <= m)%nat -> (Wf n mm cur k <= Wf m mm cur k)%nat.
Proof.
  intros n m H. induction H as [|m H IH]; [lia|]. pose proof (Wf_fuel_mono mm cur m k). lia.
Qed.

Definition memo_le (mm mm' : key -> option memo) (cur : rev) : Prop :=
  forall k, (verb mm cur k = true -> verb mm' cur k = true) /\
            (verb mm' cur k = false -> mm' k = mm k).

Lemma memo_le_refl mm cur : memo_le mm mm cur.
Proof. intros k. auto. Qed.

Lemma Wf_memo_mono mm mm' cur :
  memo_le mm mm' cur -> forall n k, (Wf n mm' cur k <= Wf n mm cur k)%nat.
Proof.
  intros L. induction n as [|n IH]; intros k; destruct (L k) as [A B].
  - cbn [Wf]. destruct (verb mm' cur k) eqn:E'; [destruct (verb mm cur k); lia|].
    destruct (verb mm cur k) eqn:E; [pose proof (A eq_refl); congruence | lia].
  - rewrite !Wf_S. destruct (verb mm' cur k) eqn:E'; [destruct (verb mm cur k); lia|].
    destruct (verb mm cur k) eqn:E; [pose proof (A eq_refl); congruence|].
    unfold vdeps. rewrite (B eq_refl). apply cost_le; apply Sw_le; exact IH.
Qed.

Lemma Sw_memo_mono mm mm' cur n l : memo_le mm mm' cur -> (Sw n mm' cur l <= Sw n mm cur l)%nat.
Proof. intros L. apply Sw_le. apply (Wf_memo_mono _ _ _ L). Qed.

Lemma fw_memo_mono mm mm' cur f : memo_le mm mm' cur -> (fw mm' cur f <= fw mm cur f)%nat.
Proof.
  intros L. unfold fw, Wk. destruct (L (f_key f)) as [A B].
  pose proof (Wf_memo_mono _ _ _ L (rank (f_key f)) (f_key f)) as HW.
  destruct (f_phase f); try lia.
  - destruct (verb mm' cur (f_key f)) eqn:E', (verb mm cur (f_key f)) eqn:E; try lia;
      try (pose proof (Wf_unver (rank (f_key f)) _ _ _ E); lia);
      try (pose proof (A eq_refl); congruence).
  - destruct (verb mm' cur (f_key f)) eqn:E', (verb mm cur (f_key f)) eqn:E; try lia;
      try (pose proof (Wf_unver (rank (f_key f)) _ _ _ E); lia);
      try (pose proof (A eq_refl); congruence).
  - pose proof (Sw_memo_mono _ _ cur (pred (rank (f_key f))) rest L).
    pose proof (Sw_memo_mono _ _ cur (pred (rank (f_key f))) (p_deps P cur (f_key f)) L). lia.
  - pose proof (Sw_memo_mono _ _ cur (pred (rank (f_key f))) rest L). lia.
Qed.

Lemma stw_memo_mono mm mm' cur l : memo_le mm mm' cur -> (stw mm' cur l <= stw mm cur l)%nat.
Proof. intros L. apply list_sum_le. intros f _. now apply fw_memo_mono. Qed.

Lemma tdw_memo_mono mm mm' cur l : memo_le mm mm' cur -> (tdw mm' cur l <= tdw mm cur l)%nat.
Proof.
  intros L. apply list_sum_le. intros k _. pose proof (Wf_memo_mono _ _ _ L (rank k) k).
  unfold Wk. lia.
Qed.

Lemma memo_step_le s mm' :
  (forall k m, c_memo s k = Some m -> m_ver m <= c_cur s) ->
  memo_step P s mm' -> memo_le (c_memo s) mm' (c_cur s).
Proof.
  intros Hle [->|[(k0 & m0 & Hm0 & _ & ->)|(k0 & ->)]]; [apply memo_le_refl| |];
    intros k; unfold verb, mark, publish, updN; destruct (N.eqb_spec k0 k) as [<-|Hne]; cbn;
    rewrite ?N.eqb_refl; auto; split; auto; discriminate.
Qed.

End Term.

(* whoever is woken finds the memo verified: the releaser published or marked it before
   releasing ([SI_rel]) *)
Definition WokenInv (s : cstate) : Prop :=
  forall t r k below, wres (dg (c_proto s)) t = Some r ->
    stack_of s t = (k @: PWait) :: below -> verified s k.

Section Steps.
Variable fuel : nat.
Variable P : prog.
Variable rank : key -> nat.

Lemma woken_generic s t u :
  SafeInv P s -> LiveInv fuel rank s -> WokenInv s -> memo_step P s (u_memo u) ->
  (forall t' r, t' <> t -> wres (dg (u_proto u)) t' = Some r ->
     wres (dg (c_proto s)) t' = Some r \/
     exists k below, stack_of s t' = (k @: PWait) :: below /\ verified s k) ->
  (forall k b r, u_stack u = (k @: PWait) :: b -> wres (dg (u_proto u)) t = Some r -> False) ->
  WokenInv (apply_upd s t u).
Proof.
  intros I L W MS Ho Ht t' r k below Hw Hst. cbn [c_proto apply_upd] in Hw.
  destruct (N.eq_dec t' t) as [->|Hne].
  - rewrite stack_self in Hst. exfalso. eapply Ht; eauto.
  - rewrite stack_other in Hst by auto. apply (verified_apply P); auto.
    destruct (Ho _ _ Hne Hw) as [Hold | (k0 & b0 & Hs0 & Hv0)].
    + eapply W; eauto.
    + rewrite Hst in Hs0. injection Hs0 as <- _. exact Hv0.
Qed.

Lemma pres_woken s t u :
  SafeInv P s -> LiveInv fuel rank s -> WokenInv s -> path fuel P s t u ->
  WokenInv (apply_upd s t u).
Proof.
  intros I L W Hp. pose proof (path_memo_step _ _ _ _ _ Hp) as MS.
  assert (Run : forall k ph below, stack_of s t = (k @: ph) :: below -> ph <> PWait ->
                edges (dg (c_proto s)) t = None /\ wres (dg (c_proto s)) t = None).
  { intros; eapply running_no_wres; eauto. }
  dpath Hp; (apply woken_generic; [exact I | exact L | exact W | exact MS | |]); cbn [u_proto u_stack];
    try (intros t' r' _ Hw'; left; first [exact Hw' | rewrite Hdg in Hw'; exact Hw']; fail);
    try (intros k0 b0 r0 E0; discriminate E0);
    try (intros k0 b0 r0 E0 _; eapply below_not_wait; eauto; fail).
  - (* R_blocked: self *)
    intros k0 b0 r0 _ Hw'. rewrite Hdg in Hw'. cbn in Hw'.
    destruct (Run _ _ _ Hst ltac:(discriminate)) as [_ Hn]. congruence.
  - (* R_woken: others *)
    intros t' r' Hne' Hw'. left. rewrite Hdg in Hw'. cbn in Hw'. now rewrite updN_other in Hw' by auto.
  - (* R_unblock: others *)
    intros t' r' Hne' Hw'.
    destruct (in_dec N.eq_dec t' (qdeps (dg (c_proto s)) k)) as [Hq|Hq].
    + right. pose proof (reachable_Inv _ _ (LI_reach _ _ _ L)) as [[G D ND Wr] _].
      apply D in Hq as [u0 Hu0]. destruct (LI_edge _ _ _ L _ _ _ Hu0) as [b Hb].
      exists k, b. split; auto.
      apply (SI_rel _ _ I t (k @: PUnblock v) v); [rewrite Hst; now left | now right].
    + left. destruct (HB _ Hq) as [_ E]. now rewrite E in Hw'.
Qed.

Lemma stw_cons mm cur f l : stw P rank mm cur (f :: l) = (fw P rank mm cur f + stw P rank mm cur l)%nat.
Proof. reflexivity. Qed.

Lemma tdw_cons mm cur k l :
  tdw P rank mm cur (k :: l) = (S (Wk P rank mm cur k) + tdw P rank mm cur l)%nat.
Proof. reflexivity. Qed.

Lemma Sw_cons n mm cur d l : Sw P n mm cur (d :: l) = (S (Wf P n mm cur d) + Sw P n mm cur l)%nat.
Proof. reflexivity. Qed.

Lemma no_lower_rank0 (l : list key) k :
  rank k = O -> (forall d, In d l -> (rank d < rank k)%nat) -> l = [].
Proof.
  intros H0 H. destruct l as [|d l]; auto. specialize (H d (or_introl eq_refl)). lia.
Qed.

Lemma Wk_unfold mm cur k n :
  rank k = S n -> verb mm cur k = false ->
  Wk P rank mm cur k = (8 + Sw P n mm cur (vdeps mm k) + Sw P n mm cur (p_deps P cur k))%nat.
Proof. intros Hr Hv. unfold Wk. rewrite Hr. cbn [Wf]. now rewrite Hv. Qed.

Lemma top_decreases mm mm' cur new top below td :
  memo_le mm mm' cur ->
  (stw P rank mm' cur new < fw P rank mm cur top)%nat ->
  (stw P rank mm' cur (new ++ below) + tdw P rank mm' cur td <
   stw P rank mm cur (top :: below) + tdw P rank mm cur td)%nat.
Proof.
  intros ML H. pose proof (stw_memo_mono P rank _ _ cur below ML).
  pose proof (tdw_memo_mono P rank _ _ cur td ML).
  rewrite stw_cons. unfold stw in *. rewrite map_app, list_sum_app. lia.
Qed.

Lemma thread_decreases s t u :
  ranked P rank -> SafeInv P s -> LiveInv fuel rank s -> WokenInv s -> path fuel P s t u ->
  (stw P rank (u_memo u) (c_cur s) (u_stack u) + tdw P rank (u_memo u) (c_cur s) (u_todo u) <
   stw P rank (c_memo s) (c_cur s) (stack_of s t) + tdw P rank (c_memo s) (c_cur s) (todo_of s t))%nat.
Proof.
  intros RK I L W Hp.
  assert (ML : memo_le (c_memo s) (u_memo u) (c_cur s)).
  { apply (memo_step_le P); [|exact (path_memo_step _ _ _ _ _ Hp)].
    intros k m Hm. apply (SI_memo _ _ I _ _ Hm). }
  pose proof (LI_rest _ _ _ L t) as RE. pose proof (LI_mdeps _ _ _ L) as MD.
  assert (Hver : forall k m, (c_memo s) k = Some m -> m_ver m = (c_cur s) -> verb (c_memo s) (c_cur s) k = true).
  { intros k m Hm Hv. unfold verb. rewrite Hm. now apply N.eqb_eq. }
  assert (Hunv : forall k, (forall m, (c_memo s) k = Some m -> m_ver m <> (c_cur s)) -> verb (c_memo s) (c_cur s) k = false).
  { intros k H. unfold verb. destruct ((c_memo s) k) as [m|] eqn:Em; auto. apply N.eqb_neq. eauto. }
  dpath Hp; cbn [u_memo u_stack u_todo] in ML |- *; rewrite ?Hst in RE |- *;
    (* except in R_begin, where the stack is empty, the top frame returns, takes another phase
       or calls: none, one or two frames replace it *)
    try (first [ apply (top_decreases _ _ _ [] _ below _ ML)
               | apply (top_decreases _ _ _ [_] _ below _ ML)
               | apply (top_decreases _ _ _ [_; _] _ below _ ML) ]);
    cbn [stw map list_sum fold_right]; unfold fw; cbn [f_key f_phase].
  - (* R_begin: the request leaves the list of those to come and becomes a frame *)
    rewrite Htd, tdw_cons. lia.
  - (* R_hot_hit *) pose proof (Wf_pos P (rank k) (c_memo s) (c_cur s) k). unfold Wk. lia.
  - (* R_hot_mark *) pose proof (Wf_pos P (rank k) (c_memo s) (c_cur s) k). unfold Wk. lia.
  - (* R_go_cold *)
    rewrite (Hunv k Hnv). pose proof (Wf_unver P (rank k) (c_memo s) (c_cur s) k (Hunv k Hnv)). unfold Wk. lia.
  - (* R_claimed *)
    destruct (verb (c_memo s) (c_cur s) k) eqn:E; [lia|].
    pose proof (Wf_unver P (rank k) (c_memo s) (c_cur s) k E). unfold Wk. lia.
  - (* R_blocked *)
    destruct (verb (c_memo s) (c_cur s) k) eqn:E; [lia|].
    pose proof (Wf_unver P (rank k) (c_memo s) (c_cur s) k E). unfold Wk. lia.
  - (* R_cycle: not in a rank-respecting program *)
    exfalso. eapply no_cycle_answer; eauto.
  - (* R_woken: the memo is verified *)
    assert (Hv : verb (c_memo s) (c_cur s) k = true) by (apply verb_spec; eapply W; eauto).
    unfold Wk. rewrite (Wf_ver P _ _ _ _ Hv). lia.
  - (* R_recheck_hit *) rewrite (Hver _ _ Hm Hv). lia.
  - (* R_to_verify *)
    assert (E : verb (c_memo s) (c_cur s) k = false) by (apply Hunv; intros m' Hm'; congruence). rewrite E.
    destruct (rank k) as [|n] eqn:Er.
    + assert (m_deps m = []) by (eapply no_lower_rank0; eauto; intros d Hd; rewrite Er; rewrite <- Er; eapply MD; eauto).
      assert (p_deps P (c_cur s) k = []) by (eapply no_lower_rank0; eauto; intros d Hd; apply (RK (c_cur s) k d Hd)).
      rewrite H, H0. unfold Wk. rewrite Er. cbn [Wf Sw map list_sum fold_right pred]. rewrite E. lia.
    + rewrite (Wk_unfold (c_memo s) (c_cur s) k n Er E). unfold vdeps. rewrite Hm. cbn [pred]. lia.
  - (* R_exec_start *)
    destruct Hph as [[-> Hnv] | [l ->]].
    + rewrite (Hunv k Hnv). destruct (rank k) as [|n] eqn:Er.
      * assert (p_deps P (c_cur s) k = []) by (eapply no_lower_rank0; eauto; intros d Hd; apply (RK (c_cur s) k d Hd)).
        rewrite H. unfold Wk. rewrite Er. cbn [Wf Sw map list_sum fold_right pred]. rewrite (Hunv k Hnv). lia.
      * rewrite (Wk_unfold (c_memo s) (c_cur s) k n Er (Hunv k Hnv)). cbn [pred]. lia.
    + lia.
  - (* R_call_v *)
    rewrite Sw_cons.
    assert (Hlt : (rank d < rank k)%nat).
    { apply (RE (k @: PVerify (d :: rest)) d); [now left | now left]. }
    pose proof (Wf_fuel_le P (c_memo s) (c_cur s) d (rank d) (pred (rank k)) ltac:(lia)). unfold Wk. lia.
  - (* R_call_x *)
    rewrite Sw_cons.
    assert (Hlt : (rank d < rank k)%nat).
    { apply (RE (k @: PExec (d :: rest)) d); [now left | now left]. }
    pose proof (Wf_fuel_le P (c_memo s) (c_cur s) d (rank d) (pred (rank k)) ltac:(lia)). unfold Wk. lia.
  - (* R_mark *) lia.
  - (* R_publish *) lia.
  - (* R_release_quiet *) lia.
  - (* R_release_wake *) lia.
  - (* R_unblock *) lia.
Qed.

End Steps.

Definition is_gstep (o : gop) : Prop := match o with GStep _ _ => True | _ => False end.

Section Bound.
Variable fuel : nat.
Variable P : prog.
Variable rank : key -> nat.

Lemma list_sum_lt {A} (f g : A -> nat) l x :
  (forall y, In y l -> (f y <= g y)%nat) -> In x l -> (f x < g x)%nat ->
  (list_sum (map f l) < list_sum (map g l))%nat.
Proof.
  unfold list_sum. induction l as [|a l IH]; intros H Hin Hlt; [destruct Hin|].
  cbn [map fold_right]. pose proof (H a (or_introl eq_refl)).
  assert (Hle : (fold_right Nat.add 0 (map f l) <= fold_right Nat.add 0 (map g l))%nat).
  { apply (list_sum_le f g l). intros y Hy. apply H. now right. }
  destruct Hin as [->|Hin]; [lia|].
  assert (fold_right Nat.add 0 (map f l) < fold_right Nat.add 0 (map g l))%nat.
  { apply IH; auto. intros y Hy. apply H. now right. }
  lia.
Qed.

Lemma creach_woken s : ranked P rank -> creach fuel P s -> WokenInv s.
Proof.
  intros RK. induction 1 as [|s o s' HR IH Hs].
  - intros t r k below H. discriminate.
  - destruct (creach_inv _ _ _ _ RK HR) as [I L].
    destruct o as [t c | | t ks]; cbn [gstep] in Hs.
    + destruct (tstep_path _ _ _ _ _ _ I Hs) as (Ht & u & Hp & ->). eapply pres_woken; eauto.
    + destruct (forallb _ _) eqn:Ef; [|discriminate]. injection Hs as <-.
      intros t r k below _ Hst. unfold stack_of in Hst. cbn in Hst.
      pose proof (all_idle _ _ I Ef t) as E. unfold stack_of in E. congruence.
    + destruct (idleb (c_thr s t)) eqn:Ei; [|discriminate]. injection Hs as <-.
      apply idleb_spec in Ei as (Es & Et & Ec).
      intros t' r k below Hw Hst. cbn in Hw. unfold stack_of in Hst. cbn in Hst.
      unfold updN in Hst. destruct (N.eqb_spec t t') as [<-|Hne]; [discriminate|].
      destruct (IH t' r k below Hw Hst) as (m & Hm & Hv). exists m. auto.
Qed.

(* C16, termination: every thread step strictly lowers the measure *)
Theorem step_decreases s t c s' :
  ranked P rank -> creach fuel P s -> tstep fuel P s t c = Some s' ->
  (Phi P rank s' < Phi P rank s)%nat.
Proof.
  intros RK HR Hs. destruct (creach_inv _ _ _ _ RK HR) as [I L].
  pose proof (creach_woken _ RK HR) as W.
  destruct (tstep_path _ _ _ _ _ _ I Hs) as (Ht & u & Hp & ->).
  pose proof (path_memo_step _ _ _ _ _ Hp) as MS.
  assert (ML : memo_le (c_memo s) (u_memo u) (c_cur s)).
  { apply (memo_step_le P); auto. intros k m Hm. apply (SI_memo _ _ I _ _ Hm). }
  assert (Tself : todo_of (apply_upd s t u) t = u_todo u).
  { unfold todo_of, apply_upd. cbn. now rewrite updN_same. }
  assert (Tother : forall y, y <> t -> todo_of (apply_upd s t u) y = todo_of s y).
  { intros y Hy. unfold todo_of, apply_upd. cbn. now rewrite updN_other by auto. }
  pose proof (thread_decreases fuel P rank s t u RK I L W Hp) as H.
  unfold Phi. change (c_tids (apply_upd s t u)) with (c_tids s).
  apply list_sum_lt with (x := t); auto.
  - intros y _. unfold tw. change (c_memo (apply_upd s t u)) with (u_memo u).
    change (c_cur (apply_upd s t u)) with (c_cur s).
    destruct (N.eq_dec y t) as [->|Hne].
    + rewrite stack_self, Tself. lia.
    + rewrite stack_other, Tother by auto.
      pose proof (stw_memo_mono P rank _ _ (c_cur s) (stack_of s y) ML).
      pose proof (tdw_memo_mono P rank _ _ (c_cur s) (todo_of s y) ML). lia.
  - unfold tw. change (c_memo (apply_upd s t u)) with (u_memo u).
    change (c_cur (apply_upd s t u)) with (c_cur s). rewrite stack_self, Tself. exact H.
Qed.

Lemma grun_gsteps_creach : forall l s s',
  creach fuel P s -> grun fuel P l s = Some s' -> creach fuel P s'.
Proof.
  induction l as [|o l IH]; intros s s' HR; cbn [grun]; [now intros [= <-]|].
  destruct (gstep fuel P s o) as [s1|] eqn:E; [|discriminate]. apply IH. econstructor; eauto.
Qed.

(* ... hence any schedule of thread steps from [s] has at most [Phi s] steps: the bound is the
   measure of the start state, whatever the interleaving *)
Theorem run_bounded : forall l s s',
  ranked P rank -> creach fuel P s -> Forall is_gstep l -> grun fuel P l s = Some s' ->
  (length l + Phi P rank s' <= Phi P rank s)%nat.
Proof.
  induction l as [|o l IH]; intros s s' RK HR HG; cbn [grun length].
  - intros [= <-]. lia.
  - destruct (gstep fuel P s o) as [s1|] eqn:E; [|discriminate]. intros Hrun.
    inversion HG as [|? ? Ho HG']; subst. destruct o as [t c| |t ks]; try destruct Ho.
    cbn [gstep] in E. pose proof (step_decreases _ _ _ _ RK HR E).
    assert (HR1 : creach fuel P s1) by (eapply cr_step with (o := GStep t c); eauto).
    pose proof (IH _ _ RK HR1 HG' Hrun). lia.
Qed.

Theorem terminates :
  forall s, ranked P rank -> creach fuel P s ->
  exists n, forall l s', grun fuel P l s = Some s' ->
    (forall o, In o l -> exists t c, o = GStep t c) -> (length l <= n)%nat.
Proof.
  intros s RK HR. exists (Phi P rank s). intros l s' Hrun Hall.
  assert (HG : Forall is_gstep l).
  { apply Forall_forall. intros o Ho. destruct (Hall o Ho) as (t & c & ->). exact Logic.I. }
  pose proof (run_bounded l s s' RK HR HG Hrun). lia.
Qed.

(* [terminates] under the hypotheses of [completes]; the bound on the number of handles is not
   needed here *)
Lemma terminates_stmt :
  forall s, ranked P rank -> creach fuel P s -> (length (c_tids s) < fuel)%nat ->
  exists n, forall l s', grun fuel P l s = Some s' ->
    (forall o, In o l -> exists t c, o = GStep t c) -> (length l <= n)%nat.
Proof. intros s RK HR _. now apply terminates. Qed.

(* with deadlock freedom: all handles can be run to completion, within the bound *)
Theorem completes :
  forall s, ranked P rank -> creach fuel P s -> (length (c_tids s) < fuel)%nat ->
  exists l s', Forall is_gstep l /\ grun fuel P l s = Some s' /\ (length l <= Phi P rank s)%nat /\
               forall t, In t (c_tids s') -> doneb (c_thr s' t) = true.
Proof.
  intros s RK. remember (Phi P rank s) as n eqn:En. revert s En.
  induction n as [n IH] using lt_wf_ind. intros s En HR Hf.
  destruct (forallb (fun t => doneb (c_thr s t)) (c_tids s)) eqn:Ed.
  - exists [], s. split; [constructor|]. split; [reflexivity|]. split; [cbn; lia|].
    intros t Ht. rewrite forallb_forall in Ed. now apply Ed.
  - assert (Hex : exists t, In t (c_tids s) /\ doneb (c_thr s t) = false).
    { clear -Ed. induction (c_tids s) as [|a l IHl]; [discriminate|]. cbn in Ed.
      destruct (doneb (c_thr s a)) eqn:Ea.
      - destruct (IHl Ed) as (t & Ht & Hd). exists t. split; [now right | auto].
      - exists a. split; [now left | auto]. }
    destruct (some_thread_can_step fuel P rank s RK HR Hf Hex) as (t & c & s1 & Ht & Hs).
    pose proof (step_decreases _ _ _ _ RK HR Hs) as Hlt.
    assert (HR1 : creach fuel P s1) by (eapply cr_step with (o := GStep t c); eauto).
    assert (Htids : c_tids s1 = c_tids s).
    { destruct (tstep_path _ _ _ _ _ _ (creach_safe _ _ _ HR) Hs) as (_ & u & _ & ->). reflexivity. }
    destruct (IH (Phi P rank s1) ltac:(lia) s1 eq_refl HR1 ltac:(rewrite Htids; exact Hf))
      as (l & s' & HG & Hrun & Hlen & Hdone).
    exists (GStep t c :: l), s'. split; [constructor; [exact Logic.I | exact HG]|].
    split; [cbn [grun gstep]; rewrite Hs; exact Hrun|]. split; [cbn [length]; lia | exact Hdone].
Qed.

(* a state in which no handle can step any more has all handles done: every maximal execution
   ends with all requests answered *)
Theorem stuck_is_done :
  forall s, ranked P rank -> creach fuel P s -> (length (c_tids s) < fuel)%nat ->
  (forall t c, In t (c_tids s) -> tstep fuel P s t c = None) ->
  forall t, In t (c_tids s) -> doneb (c_thr s t) = true.
Proof.
  intros s RK HR Hf Hstuck t Ht. destruct (doneb (c_thr s t)) eqn:Ed; auto. exfalso.
  destruct (some_thread_can_step fuel P rank s RK HR Hf) as (t' & c & s' & Ht' & Hs); eauto.
  rewrite (Hstuck t' c Ht') in Hs. discriminate.
Qed.

End Bound.
