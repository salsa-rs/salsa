(* CFetch/ProofsProto.v — what the CFetch layer needs from the Proto model: the shape of each
   protocol step in the transfer-free fragment, and that the steps cannot fail there. *)
From Salsa Require Import Base.
From Salsa.Proto Require Import Model ProofsGraph ProofsList ProofsInv ProofsWake ProofsStep.

(* the fragment: every sync entry is owned by a thread; no transfer bookkeeping *)
Definition only_threads (pr : state) : Prop :=
  forall k st, sync pr k = Some st ->
  exists u, ss_id st = OThread u /\ ss_twice st = false /\ ss_target st = false.

Lemma claim_cases fuel pr t k a pr1 r :
  only_threads pr ->
  Model.step fuel pr (OClaim t k a) = ROk (pr1, XClaim r) ->
  dg pr1 = dg pr /\
  ((sync pr k = None /\ r = CClaimed MDefault /\
    sync pr1 = updN (sync pr) k (Some (fresh_sync t))) \/
   (exists st u, sync pr k = Some st /\ ss_id st = OThread u /\
      sync pr1 = updN (sync pr) k (Some (set_waiting st)) /\
      ((r = CCycle false /\ reaches (eproj (dg pr)) u t) \/
       (r = CRunning u /\ u <> t /\ ~ reaches (eproj (dg pr)) u t)))).
Proof.
  intros OT H. cbn [Model.step] in H. apply bind_ok in H as ([s1 r1] & Hc & H).
  cbn [fst snd] in H. injection H as <- <-.
  unfold try_claim in Hc. destruct (sync pr k) as [st|] eqn:Es.
  - destruct (OT _ _ Es) as (u & Eu & _). rewrite Eu in Hc.
    apply bind_ok in Hc as (r0 & Hr & Hc). injection Hc as <- <-. cbn [dg set_sync sync].
    split; [reflexivity|]. right. exists st, u. repeat split; auto.
    cbn [dg set_sync] in Hr. apply runtime_block_spec in Hr as [[-> Hr] | [-> Hr]]; [now left|].
    right. repeat split; auto. intros ->. apply Hr. constructor.
  - injection Hc as <- <-. cbn. split; [reflexivity|]. now left.
Qed.

Lemma block_cases fuel pr t k o pr2 b :
  Model.step fuel pr (OBlockOn t k o) = ROk (pr2, XBlock b) ->
  sync pr2 = sync pr /\
  ((b = BCycle /\ reaches (eproj (dg pr)) o t /\ dg pr2 = dg pr) \/
   (b = BBlocked /\ ~ reaches (eproj (dg pr)) o t /\ t <> o /\ edges (dg pr) t = None /\
    dg pr2 = set_qdeps (set_edges (dg pr) (updN (edges (dg pr)) t (Some (o, k))))
                       (updN (qdeps (dg pr)) k (qdeps (dg pr) k ++ [t])))).
Proof.
  intros H. cbn [Model.step] in H. apply bind_ok in H as ([g1 b1] & Hb & H).
  cbn [fst snd] in H. injection H as <- <-. cbn [sync set_dg dg]. split; [reflexivity|].
  apply block_on_spec in Hb as (Hc & Hsame & Hadd). destruct b1.
  - right. specialize (Hadd eq_refl). apply add_edge_ok in Hadd as (Hne & He & Hr & ->).
    repeat split; auto.
  - left. split; auto. split; [now apply Hc | now apply Hsame].
Qed.

Lemma receive_cases fuel pr t pr1 r :
  Model.step fuel pr (OReceive t) = ROk (pr1, XReceive (Some r)) ->
  sync pr1 = sync pr /\ wres (dg pr) t = Some r /\ edges (dg pr) t = None /\
  dg pr1 = set_wres (dg pr) (updN (wres (dg pr)) t None).
Proof.
  intros H. cbn [Model.step] in H. apply bind_ok in H as ([g1 o1] & Hb & H).
  cbn [fst snd] in H. injection H as E1 E2. subst pr1 o1. cbn [sync set_dg dg].
  split; [reflexivity|].
  apply receive_ok in Hb as [(Hn & _) | (r' & Hr' & Hw & He & ->)]; [discriminate|].
  injection Hr' as <-. auto.
Qed.

Lemma remove_cases fuel pr t k pr1 st :
  Model.step fuel pr (ORemove t k) = ROk (pr1, XRemoved st) ->
  dg pr1 = dg pr /\ sync pr k = Some st /\ sync pr1 = updN (sync pr) k None.
Proof.
  intros H. cbn [Model.step] in H. apply bind_ok in H as ([s1 st1] & Hb & H).
  cbn [fst snd] in H. injection H as <- <-. unfold sync_remove in Hb.
  destruct (sync pr k) as [st0|] eqn:Es; [|discriminate]. injection Hb as <- <-. cbn. auto.
Qed.

Lemma release_script_cases t k st :
  ss_twice st = false -> ss_target st = false ->
  (ss_waiting st = false /\ release_script t k st Completed = []) \/
  (ss_waiting st = true /\ release_script t k st Completed = [OUnblock t k Completed]).
Proof.
  intros T G. unfold release_script. rewrite T, G. destruct (ss_waiting st); cbn; auto.
Qed.

(* the fold of unblock_runtime, field by field *)
Lemma unblock_fold_fields r : forall l g g',
  foldM (fun g' from_id => unblock_runtime g' from_id r) l g = ROk g' ->
  (forall x, In x l -> edges g' x = None /\ wres g' x = Some r) /\
  (forall x, ~ In x l -> edges g' x = edges g x /\ wres g' x = wres g x) /\
  qdeps g' = qdeps g /\ transferred g' = transferred g /\ tdeps g' = tdeps g.
Proof.
  induction l as [|d l IH]; intros g g'; cbn [foldM].
  - intros [= <-]. split; [intros x []|]. split; [intros x _; auto|]. auto.
  - intros H. apply bind_ok in H as (g1 & H1 & H2).
    apply unblock_runtime_ok in H1 as (_ & ->). apply IH in H2 as (A & B & Q & T1 & T2).
    cbn in *. split; [|split; [|auto]].
    + intros x [<-|Hx]; [|now apply A].
      destruct (in_dec N.eq_dec d l) as [Hd|Hd]; [now apply A|].
      destruct (B _ Hd) as [E W]. rewrite E, W, !updN_same. auto.
    + intros x Hx. assert (Hne : d <> x) by (intros ->; apply Hx; now left).
      destruct (B x) as [E W]; [intros Hi; apply Hx; now right|].
      rewrite E, W, !updN_other by auto. auto.
Qed.

Lemma unblock_cases fuel pr t k r pr1 out :
  Model.step fuel pr (OUnblock t k r) = ROk (pr1, out) ->
  sync pr1 = sync pr /\
  (forall x, In x (qdeps (dg pr) k) -> edges (dg pr1) x = None /\ wres (dg pr1) x = Some r) /\
  (forall x, ~ In x (qdeps (dg pr) k) ->
     edges (dg pr1) x = edges (dg pr) x /\ wres (dg pr1) x = wres (dg pr) x).
Proof.
  intros H. cbn [Model.step] in H. apply bind_ok in H as (g1 & Hb & H). injection H as <- <-.
  cbn [sync set_dg dg]. split; [reflexivity|].
  unfold unblock_runtimes_blocked_on in Hb. apply unblock_fold_fields in Hb as (A & B & _).
  cbn in B. auto.
Qed.

(* the blocked threads met when following the edges from [t] *)
Inductive chain_nodes (e : gmap) : N -> list N -> Prop :=
| cn_root t : e t = None -> chain_nodes e t []
| cn_step t u l : e t = Some u -> chain_nodes e u l -> chain_nodes e t (t :: l).

Lemma chain_has_nodes e t r : chain e t r -> exists l, chain_nodes e t l.
Proof.
  induction 1 as [t Ht | t u r Ht Hc [l IH]]; [exists []; now constructor|].
  exists (t :: l). econstructor; eauto.
Qed.

Lemma chain_nodes_reaches e t l x : chain_nodes e t l -> In x l -> reaches e t x /\ e x <> None.
Proof.
  induction 1 as [t Ht | t u l Ht Hc IH]; [intros []|].
  intros [<-|Hx]; [split; [constructor | congruence]|].
  destruct (IH Hx) as [Hr Hn]. split; auto. econstructor; eauto.
Qed.

Lemma chain_nodes_nodup e t l : grounded e -> chain_nodes e t l -> NoDup l.
Proof.
  intros G. induction 1 as [t Ht | t u l Ht Hc IH]; constructor; auto.
  intros Hin. destruct (chain_nodes_reaches _ _ _ _ Hc Hin) as [Hr _].
  eapply grounded_no_cycle; eauto.
Qed.

Lemma depends_on_enough e to p l :
  chain_nodes (eproj_f e) p l -> forall fuel, (length l < fuel)%nat ->
  exists b, depends_on_loop fuel e p to = ROk b.
Proof.
  induction 1 as [t Ht | t u l Ht Hc IH]; intros fuel Hlt;
    (destruct fuel as [|f]; [inversion Hlt|]); cbn [depends_on_loop].
  - unfold eproj_f in Ht. destruct (e t) as [[q kq]|]; [discriminate | eauto].
  - unfold eproj_f in Ht. destruct (e t) as [[q kq]|]; [|discriminate]. cbn in Ht.
    injection Ht as ->. destruct (u =? to); [eauto|]. apply IH. cbn in Hlt. lia.
Qed.

(* [dom] lists every thread that may be blocked *)
Lemma depends_on_total fuel g dom p to :
  grounded (eproj g) -> (forall x, edges g x <> None -> In x dom) -> (length dom < fuel)%nat ->
  exists b, depends_on fuel g p to = ROk b.
Proof.
  intros G D L. destruct (G p) as [r Hc]. apply chain_has_nodes in Hc as [l Hl].
  unfold depends_on. eapply depends_on_enough; [exact Hl|].
  assert (Hle : (length l <= length dom)%nat).
  { apply NoDup_incl_length; [eapply chain_nodes_nodup; eauto|].
    intros x Hx. apply D. destruct (chain_nodes_reaches _ _ _ _ Hl Hx) as [_ Hn].
    unfold eproj, eproj_f in Hn. destruct (edges g x); [discriminate | contradiction]. }
  lia.
Qed.

Lemma claim_total fuel pr dom t k a :
  only_threads pr -> grounded (eproj (dg pr)) ->
  (forall x, edges (dg pr) x <> None -> In x dom) -> (length dom < fuel)%nat ->
  exists pr1 r, Model.step fuel pr (OClaim t k a) = ROk (pr1, XClaim r).
Proof.
  intros OT G D L. cbn [Model.step]. unfold try_claim.
  destruct (sync pr k) as [st|] eqn:Es.
  - destruct (OT _ _ Es) as (u & -> & _). cbn [dg set_sync]. unfold runtime_block.
    destruct (t =? u); [cbn; eauto|].
    destruct (depends_on_total fuel (dg pr) dom u t G D L) as [b ->]. cbn.
    destruct b; cbn; eauto.
  - cbn. eauto.
Qed.

Lemma block_total fuel pr dom t k o :
  grounded (eproj (dg pr)) ->
  (forall x, edges (dg pr) x <> None -> In x dom) -> (length dom < fuel)%nat ->
  o <> t -> ~ reaches (eproj (dg pr)) o t -> edges (dg pr) t = None ->
  exists pr2, Model.step fuel pr (OBlockOn t k o) = ROk (pr2, XBlock BBlocked).
Proof.
  intros G D L Hne Hr He. cbn [Model.step]. unfold block_on.
  destruct (N.eqb_spec t o) as [->|_]; [congruence|].
  destruct (depends_on_total fuel (dg pr) dom o t G D L) as [b Hb]. rewrite Hb. cbn [bind].
  destruct b; [exfalso; apply Hr; eapply depends_on_true; exact Hb|].
  unfold add_edge. destruct (N.eqb_spec t o) as [->|_]; [congruence|].
  rewrite He, Hb. cbn. eauto.
Qed.

Lemma unblock_fold_total r : forall l g,
  NoDup l -> (forall d, In d l -> edges g d <> None) ->
  exists g', foldM (fun g' from_id => unblock_runtime g' from_id r) l g = ROk g'.
Proof.
  induction l as [|d l IH]; intros g ND E; cbn [foldM]; [eauto|].
  inversion ND as [|? ? Hd ND']; subst.
  destruct (edges g d) as [[u k]|] eqn:Ed; [|exfalso; apply (E d); [now left | exact Ed]].
  assert (H1 : exists g1, unblock_runtime g d r = ROk g1 /\ edges g1 = updN (edges g) d None).
  { unfold unblock_runtime. rewrite Ed. eexists; split; reflexivity. }
  destruct H1 as (g1 & H1 & E1). rewrite H1. cbn [bind]. apply IH; auto.
  intros d' Hd'. rewrite E1, updN_other by (intros ->; contradiction). apply E. now right.
Qed.

Lemma unblock_total fuel pr t k r :
  einv (dg pr) -> exists pr1, Model.step fuel pr (OUnblock t k r) = ROk (pr1, XUnit).
Proof.
  intros [G D ND W]. cbn [Model.step]. unfold unblock_runtimes_blocked_on.
  destruct (unblock_fold_total r (qdeps (dg pr) k)
              (set_qdeps (dg pr) (updN (qdeps (dg pr)) k []))) as [g' Hg'].
  - apply ND.
  - intros d Hd. cbn. apply D in Hd as [u Hu]. congruence.
  - rewrite Hg'. cbn. eauto.
Qed.

Lemma receive_total fuel pr t r :
  einv (dg pr) -> wres (dg pr) t = Some r ->
  exists pr1, Model.step fuel pr (OReceive t) = ROk (pr1, XReceive (Some r)).
Proof.
  intros [G D ND W] Hw. cbn [Model.step]. unfold receive. rewrite Hw, (W _ _ Hw). cbn. eauto.
Qed.

Lemma remove_total fuel pr t k st :
  sync pr k = Some st -> exists pr1, Model.step fuel pr (ORemove t k) = ROk (pr1, XRemoved st).
Proof. intros Es. cbn [Model.step]. unfold sync_remove. rewrite Es. cbn. eauto. Qed.
