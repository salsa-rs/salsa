(* CFetch/ExamplesTerm.v — the termination measure on the witness runs of CFetch/Examples.v. *)
From Salsa Require Import Base.
From Salsa.Proto Require Import Model.
From Salsa.CFetch Require Import Model ProofsProto ProofsRel ProofsSafe ProofsLive ProofsTerm Examples.

(* after the two handles received their request (key 2, which calls key 1) *)
Definition ex_spawned : cstate :=
  match grun 10 ex_prog [GSpawn 1 [2]; GSpawn 2 [2]] cinit with Some s => s | None => cinit end.

Definition ex_round1_steps : list gop := steps 1 5 ++ steps 2 3 ++ steps 1 8 ++ steps 2 2.

Example ex_spawned_reachable : creach 10 ex_prog ex_spawned.
Proof. apply grun_reached. Qed.

(* budget 36 at the start; the witness schedule (one handle waits and reuses) takes 18 steps;
   in the blocked state 13 are left; at the end 0 *)
Example ex_measure :
  (Phi ex_prog ex_rank ex_spawned, length ex_round1_steps, Phi ex_prog ex_rank ex_blocked,
   Phi ex_prog ex_rank ex_state1) = (36, 18, 13, 0)%nat.
Proof. vm_compute. reflexivity. Qed.

Example ex_round1_run :
  Forall is_gstep ex_round1_steps /\ grun 10 ex_prog ex_round1_steps ex_spawned = Some ex_state1.
Proof.
  split.
  - apply Forall_forall. intros o Ho. vm_compute in Ho.
    repeat (destruct Ho as [<-|Ho]; [exact Logic.I|]). destruct Ho.
  - vm_compute. reflexivity.
Qed.
