(* CFetch/ProofsSafe.v — the safety invariant of the concurrent fetch loop (no assumption on the
   call graph): claims are exclusive, a memo verified in the current revision carries the
   from-scratch value, WillExecute is logged at most once per (key, revision). *)
From Salsa Require Import Base.
From Salsa.Proto Require Import Model ProofsGraph ProofsList ProofsInv ProofsWake ProofsStep.
From Salsa.CFetch Require Import Model ProofsProto ProofsRel.

Definition holding (ph : phase) : bool :=
  match ph with PClaimed | PVerify _ | PExec _ | PRelease _ => true | _ => false end.

Definition hkeys (l : list frame) : list key :=
  map f_key (filter (fun f => holding (f_phase f)) l).

Definition is_exec (ph : phase) : Prop := match ph with PExec _ => True | _ => False end.

Definition verified (s : cstate) (k : key) : Prop :=
  exists m, c_memo s k = Some m /\ m_ver m = c_cur s.

Record SafeInv (P : prog) (s : cstate) : Prop := mkSafe {
  SI_only : only_threads (c_proto s);
  SI_owner : forall k st u, sync (c_proto s) k = Some st -> ss_id st = OThread u ->
    exists f, In f (stack_of s u) /\ f_key f = k /\ holding (f_phase f) = true;
  SI_hold : forall t f, In f (stack_of s t) -> holding (f_phase f) = true ->
    exists st, sync (c_proto s) (f_key f) = Some st /\ ss_id st = OThread t;
  SI_nodup : forall t, NoDup (hkeys (stack_of s t));
  SI_memo : forall k m, c_memo s k = Some m ->
    m_ver m <= c_cur s /\ (m_ver m = c_cur s -> m_val m = p_val P (c_cur s) k);
  SI_rel : forall t f v, In f (stack_of s t) ->
    f_phase f = PRelease v \/ f_phase f = PUnblock v ->
    v = p_val P (c_cur s) (f_key f) /\ verified s (f_key f);
  SI_ret : forall t k r v, In (ERet t k r v) (c_log s) -> r <= c_cur s /\ v = p_val P r k;
  SI_exec_le : forall t k r, In (EExec t k r) (c_log s) -> r <= c_cur s;
  SI_exec_live : forall k, (1 <= count_exec k (c_cur s) (c_log s))%nat ->
    verified s k \/ exists t f, In f (stack_of s t) /\ f_key f = k /\ is_exec (f_phase f);
  SI_verify0 : forall t f l, In f (stack_of s t) -> f_phase f = PVerify l ->
    count_exec (f_key f) (c_cur s) (c_log s) = 0%nat;
  (* [SI_exec_live] and [SI_verify0] make this clause inductive *)
  SI_once : forall k r, (count_exec k r (c_log s) <= 1)%nat;
  SI_dom : forall t, ~ In t (c_tids s) -> c_thr s t = t_idle
}.

Lemma stack_apply s t u t' :
  stack_of (apply_upd s t u) t' = if t =? t' then u_stack u else stack_of s t'.
Proof. unfold stack_of, apply_upd; cbn. unfold updN. destruct (t =? t'); reflexivity. Qed.

Lemma in_stack_apply s t u t' f :
  In f (stack_of (apply_upd s t u) t') ->
  (t' <> t /\ In f (stack_of s t')) \/ (t' = t /\ In f (u_stack u)).
Proof.
  rewrite stack_apply. destruct (N.eqb_spec t t') as [->|Hne]; [now right|].
  left. split; auto.
Qed.

Lemma in_stack_other s t u t' f :
  t' <> t -> In f (stack_of s t') -> In f (stack_of (apply_upd s t u) t').
Proof.
  intros Hne Hin. rewrite stack_apply. destruct (N.eqb_spec t t'); [congruence | exact Hin].
Qed.

Lemma in_stack_self s t u f : In f (u_stack u) -> In f (stack_of (apply_upd s t u) t).
Proof. intros Hin. rewrite stack_apply, N.eqb_refl. exact Hin. Qed.

Lemma count_exec_none k r l :
  (forall t, ~ In (EExec t k r) l) -> count_exec k r l = 0%nat.
Proof.
  induction l as [|e l IH]; intros H; cbn; auto. destruct e as [t k' r'|t k' r' v].
  - destruct (N.eqb_spec k k') as [<-|Hk], (N.eqb_spec r r') as [<-|Hr]; cbn;
      try (apply IH; intros t' Ht'; apply (H t'); now right).
    exfalso. apply (H t). now left.
  - apply IH. intros t' Ht'. apply (H t'). now right.
Qed.

(* two holding frames for one key are the same frame of the same thread *)
Lemma holder_unique P s t1 f1 t2 f2 :
  SafeInv P s -> In f1 (stack_of s t1) -> In f2 (stack_of s t2) ->
  holding (f_phase f1) = true -> holding (f_phase f2) = true -> f_key f1 = f_key f2 -> t1 = t2.
Proof.
  intros I H1 H2 A1 A2 E. destruct (SI_hold _ _ I _ _ H1 A1) as (st1 & S1 & O1).
  destruct (SI_hold _ _ I _ _ H2 A2) as (st2 & S2 & O2). rewrite E in S1. congruence.
Qed.

Lemma hkeys_in f l : In f l -> holding (f_phase f) = true -> In (f_key f) (hkeys l).
Proof.
  intros Hin Hh. unfold hkeys. apply in_map. apply filter_In. auto.
Qed.

Lemma top_unique P s t k ph below f :
  SafeInv P s -> stack_of s t = (k @: ph) :: below -> holding ph = true ->
  In f below -> holding (f_phase f) = true -> f_key f <> k.
Proof.
  intros I Hst Hh Hin Hf E. pose proof (SI_nodup _ _ I t) as ND. rewrite Hst in ND.
  unfold hkeys in ND. cbn [filter f_phase] in ND. rewrite Hh in ND. cbn [map f_key] in ND.
  inversion ND as [|? ? Hn _]. apply Hn. rewrite <- E. now apply hkeys_in.
Qed.

(* a holding frame for the key held by [t]'s top frame IS that top frame *)
Lemma top_holder P s t k ph below t' f :
  SafeInv P s -> stack_of s t = (k @: ph) :: below -> holding ph = true ->
  In f (stack_of s t') -> holding (f_phase f) = true -> f_key f = k ->
  t' = t /\ f = k @: ph.
Proof.
  intros I Hst Hh Hin Hf E.
  assert (Htop : In (k @: ph) (stack_of s t)) by (rewrite Hst; now left).
  assert (t' = t) by (eapply holder_unique; eauto). subst t'. split; auto.
  rewrite Hst in Hin. destruct Hin as [<-|Hin]; auto.
  exfalso. eapply top_unique; eauto.
Qed.

Lemma verified_mark s k m k' cur' :
  cur' = c_cur s -> verified s k' ->
  exists m', mark s k m k' = Some m' /\ m_ver m' = cur'.
Proof.
  intros -> (m0 & Hm & Hv). unfold mark, updN. destruct (k =? k'); eauto.
Qed.

Ltac dpath Hp :=
  destruct Hp as
    [ k td Hst Htd
    | k below m Hst Hm Hv
    | k below m Hst Hm Hv Hval
    | k below Hst Hnv
    | k below pr1 md Hst Hcl Hn Hdg Hs
    | k below pr1 pr2 o st Hst Hcl Hbl Hk Ho Hne Hnr He Hs Hdg
    | k below pr1 o st inner Hst Hcl Hk Ho Hr Hdg Hs
    | k below pr1 r Hst Hrc Hs Hw He Hdg
    | k below m Hst Hm Hv
    | k below m Hst Hm Hv
    | k ph below Hst Hph
    | k d rest below Hst
    | k d rest below Hst
    | k below m Hst Hm Hval
    | k below Hst
    | k v below pr1 st Hst Hrm Hk Hw Hdg Hs
    | k v below pr1 st Hst Hrm Hk Hw Hdg Hs
    | k v below pr1 out Hst Hub Hs HA HB ].

Section Pres.
Variable fuel : nat.
Variable P : prog.

(* the memo table only changes by [mark] / [publish] at the current revision *)
Definition memo_step (s : cstate) (mm : key -> option memo) : Prop :=
  mm = c_memo s \/
  (exists k m, c_memo s k = Some m /\ m_val m = p_val P (c_cur s) k /\ mm = mark s k m) \/
  (exists k, mm = publish P s k).

Lemma path_memo_step s t u : path fuel P s t u -> memo_step s (u_memo u).
Proof.
  destruct 1; cbn [u_memo]; try (left; reflexivity).
  - right; left; eauto.
  - right; left; eauto.
  - right; right; eauto.
Qed.

Lemma memo_step_verified s mm k :
  memo_step s mm -> verified s k -> exists m', mm k = Some m' /\ m_ver m' = c_cur s.
Proof.
  intros [->|[(k0 & m & _ & _ & ->)|(k0 & ->)]] (m0 & Hm & Hv); eauto.
  - unfold mark, updN. destruct (k0 =? k); eauto.
  - unfold publish, updN. destruct (k0 =? k); eauto.
Qed.

Lemma memo_step_inv s mm :
  (forall k m, c_memo s k = Some m ->
     m_ver m <= c_cur s /\ (m_ver m = c_cur s -> m_val m = p_val P (c_cur s) k)) ->
  memo_step s mm ->
  forall k m, mm k = Some m ->
     m_ver m <= c_cur s /\ (m_ver m = c_cur s -> m_val m = p_val P (c_cur s) k).
Proof.
  intros H [->|[(k0 & m0 & Hm0 & Hv0 & ->)|(k0 & ->)]] k m; auto.
  - unfold mark, updN. destruct (N.eqb_spec k0 k) as [<-|Hne]; auto.
    intros [= <-]. cbn. split; [lia | auto].
  - unfold publish, updN. destruct (N.eqb_spec k0 k) as [<-|Hne]; auto.
    intros [= <-]. cbn. split; [lia | auto].
Qed.

Lemma verified_apply s t u k :
  memo_step s (u_memo u) -> verified s k -> verified (apply_upd s t u) k.
Proof. intros Hm Hv. unfold verified. cbn. eapply memo_step_verified; eauto. Qed.

Lemma below_in s t top below f : stack_of s t = top :: below -> In f below -> In f (stack_of s t).
Proof. intros -> H. now right. Qed.

(* owner and flags agree entry by entry (the waiting flag may differ) *)
Definition sync_sim (sy sy' : key -> option sync_state) : Prop :=
  forall k, match sy k, sy' k with
            | Some a, Some b => ss_id a = ss_id b /\ ss_twice a = ss_twice b /\ ss_target a = ss_target b
            | None, None => True
            | _, _ => False
            end.

Lemma sync_sim_refl sy : sync_sim sy sy.
Proof. intros k. destruct (sy k); auto. Qed.

Lemma sync_sim_eq sy sy' : sy' = sy -> sync_sim sy sy'.
Proof. intros ->. apply sync_sim_refl. Qed.

Lemma sync_sim_waiting sy sy' k st :
  sy k = Some st -> sy' = updN sy k (Some (set_waiting st)) -> sync_sim sy sy'.
Proof.
  intros Hk -> k'. unfold updN. destruct (N.eqb_spec k k') as [<-|Hne].
  - rewrite Hk. cbn. auto.
  - destruct (sy k'); auto.
Qed.

(* [SI_only], [SI_owner], [SI_hold], [SI_nodup] after thread [t] applied [u] *)
Definition SyncGoal (s : cstate) (t : thread) (u : upd) : Prop :=
  only_threads (u_proto u) /\
  (forall k st o, sync (u_proto u) k = Some st -> ss_id st = OThread o ->
     exists f, In f (stack_of (apply_upd s t u) o) /\ f_key f = k /\ holding (f_phase f) = true) /\
  (forall t' f, In f (stack_of (apply_upd s t u) t') -> holding (f_phase f) = true ->
     exists st, sync (u_proto u) (f_key f) = Some st /\ ss_id st = OThread t') /\
  (forall t', NoDup (hkeys (stack_of (apply_upd s t u) t'))).

Lemma hkeys_spec k l :
  (exists f, In f l /\ f_key f = k /\ holding (f_phase f) = true) <-> In k (hkeys l).
Proof.
  unfold hkeys. rewrite in_map_iff. split.
  - intros (f & Hin & Hk' & Hh). exists f. split; auto. apply filter_In. auto.
  - intros (f & Hk' & Hin). apply filter_In in Hin as [Hin Hh]. eauto.
Qed.

Lemma hkeys_app l1 l2 : hkeys (l1 ++ l2) = hkeys l1 ++ hkeys l2.
Proof. unfold hkeys. now rewrite filter_app, map_app. Qed.

(* paths that keep the owner of every sync entry and the set of keys [t] holds *)
Lemma sync_generic s t u oldtop below new :
  SafeInv P s ->
  stack_of s t = oldtop ++ below -> u_stack u = new ++ below -> hkeys new = hkeys oldtop ->
  sync_sim (sync (c_proto s)) (sync (u_proto u)) ->
  SyncGoal s t u.
Proof.
  intros I Hst Hu Hk Hs.
  pose proof (SI_only _ _ I) as OT. pose proof (SI_owner _ _ I) as OW.
  pose proof (SI_hold _ _ I) as HD. pose proof (SI_nodup _ _ I) as ND.
  assert (HK : hkeys (u_stack u) = hkeys (stack_of s t)).
  { rewrite Hu, Hst, !hkeys_app, Hk. reflexivity. }
  split; [|split; [|split]].
  - intros k st' Hk'. specialize (Hs k). rewrite Hk' in Hs.
    destruct (sync (c_proto s) k) as [st|] eqn:Es; [|contradiction].
    destruct (OT _ _ Es) as (o & Ho & Htw & Htg). destruct Hs as (E1 & E2 & E3).
    exists o. repeat split; congruence.
  - intros k st' o Hk' Ho. specialize (Hs k). rewrite Hk' in Hs.
    destruct (sync (c_proto s) k) as [st|] eqn:Es; [|contradiction]. destruct Hs as (E1 & _).
    destruct (OW k st o Es) as (f & Hin & Hfk & Hh); [congruence|].
    destruct (N.eq_dec o t) as [->|Hne].
    + destruct (proj2 (hkeys_spec k (u_stack u))) as (f' & Hin' & Hk'' & Hh').
      { rewrite HK. apply hkeys_spec. eauto. }
      exists f'. split; auto. now apply in_stack_self.
    + exists f. split; auto. now apply in_stack_other.
  - intros t' f Hin Hh.
    assert (Hold : exists f0, In f0 (stack_of s t') /\ f_key f0 = f_key f /\ holding (f_phase f0) = true).
    { apply in_stack_apply in Hin as [[Hne Hin]|[-> Hin]]; [eauto|].
      apply hkeys_spec. rewrite <- HK. apply hkeys_spec. eauto. }
    destruct Hold as (f0 & Hin0 & Hk0 & Hh0). destruct (HD _ _ Hin0 Hh0) as (st & Es & Ho).
    rewrite Hk0 in Es. specialize (Hs (f_key f)). rewrite Es in Hs.
    destruct (sync (u_proto u) (f_key f)) as [st'|]; [|contradiction].
    destruct Hs as (E1 & _). exists st'. split; auto. congruence.
  - intros t'. rewrite stack_apply. destruct (t =? t'); [rewrite HK|]; apply ND.
Qed.

(* the top frame is replaced by zero, one or two frames holding the same keys as it did, and
   the sync table is unchanged up to a waiting flag: [sync_generic] applies *)
Ltac generic_sync I :=
  match goal with
  | Hst : stack_of ?s ?t = ?top :: ?below |- SyncGoal ?s ?t (mkU ?pr _ (?a :: ?b :: ?below) _ _ _) =>
    apply (sync_generic s t _ [top] below [a; b] I Hst); cbn;
      auto using sync_sim_refl, sync_sim_eq; eapply sync_sim_waiting; eauto
  | Hst : stack_of ?s ?t = ?top :: ?below |- SyncGoal ?s ?t (mkU ?pr _ (?a :: ?below) _ _ _) =>
    apply (sync_generic s t _ [top] below [a] I Hst); cbn;
      auto using sync_sim_refl, sync_sim_eq; eapply sync_sim_waiting; eauto
  | Hst : stack_of ?s ?t = ?top :: ?below |- SyncGoal ?s ?t (mkU ?pr _ ?below _ _ _) =>
    apply (sync_generic s t _ [top] below [] I Hst); cbn;
      auto using sync_sim_refl, sync_sim_eq; eapply sync_sim_waiting; eauto
  end.

(* releasing [k]: the entry disappears, every other holding frame has another key *)
Lemma sync_release s t u k v below newtop :
  SafeInv P s -> stack_of s t = (k @: PRelease v) :: below ->
  sync (u_proto u) = updN (sync (c_proto s)) k None ->
  u_stack u = newtop ++ below -> hkeys newtop = [] ->
  SyncGoal s t u.
Proof.
  intros I Hst Hs Hu Hnt.
  pose proof (SI_only _ _ I) as OT. pose proof (SI_owner _ _ I) as OW.
  pose proof (SI_hold _ _ I) as HD. pose proof (SI_nodup _ _ I) as ND.
  assert (Htop : In (k @: PRelease v) (stack_of s t)) by (rewrite Hst; now left).
  assert (Hnew : forall f, In f (u_stack u) -> holding (f_phase f) = true -> In f below).
  { intros f Hin Hh. rewrite Hu in Hin. apply in_app_or in Hin as [Hin|Hin]; auto.
    exfalso. assert (Hk : In (f_key f) (hkeys newtop)) by now apply hkeys_in.
    rewrite Hnt in Hk. destruct Hk. }
  split; [|split; [|split]].
  - intros k' st'. rewrite Hs. unfold updN. destruct (k =? k'); [discriminate | apply OT].
  - intros k' st' o. rewrite Hs. unfold updN. destruct (N.eqb_spec k k') as [<-|Hne]; [discriminate|].
    intros Hk' Ho. destruct (OW _ _ _ Hk' Ho) as (f & Hin & Hfk & Hh).
    exists f. split; auto. destruct (N.eq_dec o t) as [->|Hot].
    + apply in_stack_self. rewrite Hu. apply in_or_app. right.
      rewrite Hst in Hin. destruct Hin as [<-|Hin]; [cbn in Hfk; congruence | exact Hin].
    + now apply in_stack_other.
  - intros t' f Hin Hh. rewrite Hs.
    assert (Hold : In f (stack_of s t') /\ f_key f <> k).
    { apply in_stack_apply in Hin as [[Hne Hin]|[-> Hin]].
      - split; auto. intros E.
        destruct (top_holder P s t k (PRelease v) below t' f) as [Ht _]; auto.
      - apply Hnew in Hin; auto. split; [eapply below_in; eauto|].
        eapply top_unique; eauto. }
    destruct Hold as [Hin0 Hne]. destruct (HD _ _ Hin0 Hh) as (st' & Es & Ho).
    exists st'. rewrite updN_other by congruence. auto.
  - intros t'. rewrite stack_apply. destruct (t =? t'); [|apply ND].
    rewrite Hu, hkeys_app, Hnt. cbn [app]. specialize (ND t). rewrite Hst in ND.
    unfold hkeys in ND. cbn in ND. now inversion ND.
Qed.

Lemma pres_sync s t u : SafeInv P s -> path fuel P s t u -> SyncGoal s t u.
Proof.
  intros I Hp.
  pose proof (SI_only _ _ I) as OT. pose proof (SI_owner _ _ I) as OW.
  pose proof (SI_hold _ _ I) as HD. pose proof (SI_nodup _ _ I) as ND.
  dpath Hp; try (generic_sync I; fail).
  - (* R_begin *)
    apply (sync_generic s t _ [] [] [k @: PStart] I); cbn; auto using sync_sim_refl.
  - (* R_claimed *)
    assert (Hnok : forall t' f, In f (stack_of s t') -> holding (f_phase f) = true -> f_key f <> k).
    { intros t' f Hin Hh E. destruct (HD _ _ Hin Hh) as (st & Es & _). congruence. }
    split; [|split; [|split]]; cbn [u_proto].
    + intros k' st'. rewrite Hs. unfold updN. destruct (k =? k'); [|apply OT].
      intros [= <-]. exists t. cbn. auto.
    + intros k' st' o'. rewrite Hs. unfold updN. destruct (N.eqb_spec k k') as [<-|Hne].
      * intros [= <-] [= <-]. exists (k @: PClaimed). split; [|cbn; auto].
        apply in_stack_self. now left.
      * intros Hk' Ho'. destruct (OW _ _ _ Hk' Ho') as (f & Hin & Hfk & Hh).
        exists f. split; auto. destruct (N.eq_dec o' t) as [->|Hot]; [|now apply in_stack_other].
        apply in_stack_self. cbn. right. rewrite Hst in Hin.
        destruct Hin as [<-|Hin]; [discriminate | exact Hin].
    + intros t' f Hin Hh. rewrite Hs.
      apply in_stack_apply in Hin as [[Hne Hin]|[-> Hin]].
      * destruct (HD _ _ Hin Hh) as (st' & Es & Ho). exists st'.
        rewrite updN_other; auto. intros E. eapply Hnok; eauto.
      * cbn in Hin. destruct Hin as [<-|Hin].
        -- cbn. rewrite updN_same. eexists; split; reflexivity.
        -- pose proof (below_in _ _ _ _ _ Hst Hin) as Hin0.
           destruct (HD _ _ Hin0 Hh) as (st' & Es & Ho). exists st'.
           rewrite updN_other; auto. intros E. eapply Hnok; eauto.
    + intros t'. rewrite stack_apply. destruct (t =? t'); [|apply ND]. cbn [u_stack].
      specialize (ND t). rewrite Hst in ND. unfold hkeys in *. cbn in *. constructor; auto.
      intros Hin. apply in_map_iff in Hin as (f & Hfk & Hin). apply filter_In in Hin as [Hin Hh].
      eapply (Hnok t f); eauto. eapply below_in; eauto.
  - (* R_exec_start *)
    destruct Hph as [[-> _] | [l ->]]; generic_sync I.
  - (* R_release_quiet *)
    eapply (sync_release s t _ k v below []); eauto.
  - (* R_release_wake *)
    eapply (sync_release s t _ k v below [k @: PUnblock v]); eauto.
Qed.

(* [SI_memo], [SI_rel], [SI_ret] after the update *)
Definition ValGoal (s : cstate) (t : thread) (u : upd) : Prop :=
  (forall k m, u_memo u k = Some m ->
     m_ver m <= c_cur s /\ (m_ver m = c_cur s -> m_val m = p_val P (c_cur s) k)) /\
  (forall t' f v, In f (stack_of (apply_upd s t u) t') ->
     f_phase f = PRelease v \/ f_phase f = PUnblock v ->
     v = p_val P (c_cur s) (f_key f) /\ verified (apply_upd s t u) (f_key f)) /\
  (forall t' k r v, In (ERet t' k r v) (u_ev u ++ c_log s) -> r <= c_cur s /\ v = p_val P r k).

Lemma verified_publish s t u k :
  u_memo u = publish P s k -> verified (apply_upd s t u) k.
Proof.
  intros E. unfold verified. cbn. rewrite E. unfold publish. rewrite updN_same. eauto.
Qed.

Lemma verified_marked s t u k m :
  u_memo u = mark s k m -> verified (apply_upd s t u) k.
Proof.
  intros E. unfold verified. cbn. rewrite E. unfold mark. rewrite updN_same. eauto.
Qed.

Lemma pres_val s t u : SafeInv P s -> path fuel P s t u -> ValGoal s t u.
Proof.
  intros I Hp. pose proof (path_memo_step _ _ _ Hp) as MS.
  pose proof (SI_memo _ _ I) as VM. pose proof (SI_rel _ _ I) as VR.
  pose proof (SI_ret _ _ I) as VT.
  split; [|split].
  - eapply memo_step_inv; eauto.
  - intros t1 f1 v1 Hin Hrel.
    assert (Hold : In f1 (stack_of s t1) ->
                   v1 = p_val P (c_cur s) (f_key f1) /\ verified (apply_upd s t u) (f_key f1)).
    { intros Hin0. destruct (VR _ _ _ Hin0 Hrel) as [Hv1 Hver]. split; auto.
      now apply verified_apply. }
    apply in_stack_apply in Hin as [[Hne1 Hin]|[-> Hin]]; [auto|].
    dpath Hp; cbn [u_stack] in Hin;
      repeat match goal with
      | H : In _ (_ :: _) |- _ => destruct H as [<-|H]
      | H : In _ [] |- _ => destruct H
      end;
      try (apply Hold; eapply below_in; eauto; fail);
      try (cbn in Hrel; destruct Hrel; discriminate).
    + (* R_recheck_hit *)
      cbn in Hrel |- *. assert (v1 = m_val m) by (destruct Hrel; congruence). subst v1.
      destruct (VM _ _ Hm) as [_ Hval]. split; auto.
      apply verified_apply; auto. exists m. auto.
    + (* R_mark *)
      cbn in Hrel |- *. assert (v1 = m_val m) by (destruct Hrel; congruence). subst v1.
      split; auto. now apply verified_marked with (m := m).
    + (* R_publish *)
      cbn in Hrel |- *. assert (v1 = p_val P (c_cur s) k) by (destruct Hrel; congruence). subst v1.
      split; auto. now apply verified_publish.
    + (* R_release_wake *)
      cbn in Hrel |- *. assert (v1 = v) by (destruct Hrel; congruence). subst v1.
      assert (Htop : In (k @: PRelease v) (stack_of s t)) by (rewrite Hst; now left).
      destruct (VR _ _ v Htop) as [Hv1 Hver]; [now left|]. split; auto; now apply verified_apply.
  - intros t1 k1 r1 v1 Hin. apply in_app_or in Hin as [Hin|Hin]; [|eauto].
    dpath Hp; cbn [u_ev] in Hin;
      repeat match goal with
      | H : In _ (_ :: _) |- _ => destruct H as [H|H]
      | H : In _ [] |- _ => destruct H
      end; try discriminate; injection Hin as <- <- <- <-.
    + (* R_hot_hit *) destruct (VM _ _ Hm) as [_ Hval]. split; [lia | auto].
    + (* R_hot_mark *) split; [lia | auto].
    + (* R_release_quiet *)
      assert (Htop : In (k @: PRelease v) (stack_of s t)) by (rewrite Hst; now left).
      destruct (VR _ _ v Htop) as [Hv1 _]; [now left|]. split; [lia | auto].
    + (* R_unblock *)
      assert (Htop : In (k @: PUnblock v) (stack_of s t)) by (rewrite Hst; now left).
      destruct (VR _ _ v Htop) as [Hv1 _]; [now right|]. split; [lia | auto].
Qed.

Lemma count_exec_app k r a b : count_exec k r (a ++ b) = (count_exec k r a + count_exec k r b)%nat.
Proof.
  induction a as [|e a IH]; cbn; auto. destruct e; rewrite IH; lia.
Qed.

Lemma count_exec_in k r l : (1 <= count_exec k r l)%nat -> exists t, In (EExec t k r) l.
Proof.
  induction l as [|e l IH]; cbn; [lia|]. destruct e as [t k' r'|t k' r' v].
  - destruct (N.eqb_spec k k') as [<-|Hk], (N.eqb_spec r r') as [<-|Hr]; cbn;
      try (intros H; destruct (IH H) as [t' Ht']; exists t'; now right).
    intros _. exists t. now left.
  - intros H. destruct (IH H) as [t' Ht']. exists t'. now right.
Qed.

(* [SI_exec_le], [SI_exec_live], [SI_verify0], [SI_once] after the update *)
Definition ExecGoal (s : cstate) (t : thread) (u : upd) : Prop :=
  (forall t' k r, In (EExec t' k r) (u_ev u ++ c_log s) -> r <= c_cur s) /\
  (forall k, (1 <= count_exec k (c_cur s) (u_ev u ++ c_log s))%nat ->
     verified (apply_upd s t u) k \/
     exists t' f, In f (stack_of (apply_upd s t u) t') /\ f_key f = k /\ is_exec (f_phase f)) /\
  (forall t' f l, In f (stack_of (apply_upd s t u) t') -> f_phase f = PVerify l ->
     count_exec (f_key f) (c_cur s) (u_ev u ++ c_log s) = 0%nat) /\
  (forall k r, (count_exec k r (u_ev u ++ c_log s) <= 1)%nat).

Lemma is_exec_holding ph : is_exec ph -> holding ph = true.
Proof. destruct ph; cbn; auto; intros []. Qed.

(* at the moment a claim holder decides to execute, nothing was executed for the key in the
   current revision *)
Lemma exec_start_zero s t k ph below :
  SafeInv P s -> stack_of s t = (k @: ph) :: below ->
  (ph = PClaimed /\ (forall m, c_memo s k = Some m -> m_ver m <> c_cur s)) \/
  (exists l, ph = PVerify l) ->
  count_exec k (c_cur s) (c_log s) = 0%nat.
Proof.
  intros I Hst [[-> Hnv] | [l ->]].
  - pose proof (SI_once _ _ I k (c_cur s)) as H1.
    destruct (count_exec k (c_cur s) (c_log s)) as [|n] eqn:E; auto.
    exfalso. destruct (SI_exec_live _ _ I k) as [(m & Hm & Hv) | (t0 & f0 & Hin & Hk & Hex)]; [lia| |].
    + eapply Hnv; eauto.
    + destruct (top_holder P s t k PClaimed below t0 f0) as [_ ->]; auto.
      now apply is_exec_holding.
  - apply (SI_verify0 _ _ I t (k @: PVerify l) l); [rewrite Hst; now left | reflexivity].
Qed.

(* paths that do not log WillExecute.  Other threads' stacks and all counts are unchanged, so
   what is left of [ExecGoal] concerns [t]'s own stack, and this is what the last three
   hypotheses say: an executing top frame ends verified or stays executing ([SI_exec_live]),
   the frames below the top are kept (they may be the executing ones), and a frame that walks
   dependencies was already there or its key was not executed in this revision ([SI_verify0]). *)
Lemma exec_generic s t u :
  SafeInv P s -> memo_step s (u_memo u) ->
  (forall k r, count_exec k r (u_ev u) = 0%nat) ->
  (forall top below, stack_of s t = top :: below -> is_exec (f_phase top) ->
     verified (apply_upd s t u) (f_key top) \/
     exists f, In f (u_stack u) /\ f_key f = f_key top /\ is_exec (f_phase f)) ->
  (forall top below f, stack_of s t = top :: below -> In f below -> In f (u_stack u)) ->
  (forall f l, In f (u_stack u) -> f_phase f = PVerify l ->
     In f (stack_of s t) \/ count_exec (f_key f) (c_cur s) (c_log s) = 0%nat) ->
  ExecGoal s t u.
Proof.
  intros I MS Hev Htop Hbelow Hver.
  pose proof (SI_exec_le _ _ I) as XL. pose proof (SI_exec_live _ _ I) as XV.
  pose proof (SI_verify0 _ _ I) as X0. pose proof (SI_once _ _ I) as X1.
  assert (Hcnt : forall k r, count_exec k r (u_ev u ++ c_log s) = count_exec k r (c_log s)).
  { intros k r. rewrite count_exec_app, Hev. reflexivity. }
  split; [|split; [|split]].
  - intros t' k r Hin. apply in_app_or in Hin as [Hin|Hin]; [|eauto].
    exfalso. assert (H1 : (1 <= count_exec k r (u_ev u))%nat).
    { clear -Hin. induction (u_ev u) as [|e l IH]; [destruct Hin|]. destruct Hin as [->|Hin].
      - cbn. rewrite !N.eqb_refl. cbn. lia.
      - specialize (IH Hin). cbn. destruct e; lia. }
    rewrite Hev in H1. lia.
  - intros k1. rewrite Hcnt. intros H1.
    destruct (XV _ H1) as [Hv | (t0 & f0 & Hin & Hk & Hex)].
    + left. now apply verified_apply.
    + destruct (N.eq_dec t0 t) as [->|Hne].
      * destruct (stack_of s t) as [|top below] eqn:Est; [destruct Hin|].
        destruct Hin as [<-|Hin].
        -- destruct (Htop _ _ eq_refl Hex) as [Hv | (f & Hf & Hfk & Hfe)].
           ++ left. now rewrite <- Hk.
           ++ right. exists t, f. split; [now apply in_stack_self|]. split; [congruence | auto].
        -- right. exists t, f0. split; auto. apply in_stack_self. eapply Hbelow; eauto.
      * right. exists t0, f0. split; auto. now apply in_stack_other.
  - intros t' f l Hin Hph. rewrite Hcnt.
    apply in_stack_apply in Hin as [[Hne Hin]|[-> Hin]]; [eauto|].
    destruct (Hver _ _ Hin Hph) as [Hold|H0]; eauto.
  - intros k r. rewrite Hcnt. apply X1.
Qed.

Lemma exec_retop s t u k ph ph' below :
  SafeInv P s -> memo_step s (u_memo u) ->
  stack_of s t = (k @: ph) :: below -> u_stack u = (k @: ph') :: below -> u_ev u = [] ->
  (is_exec ph -> is_exec ph') ->
  (forall l, ph' = PVerify l -> count_exec k (c_cur s) (c_log s) = 0%nat) ->
  ExecGoal s t u.
Proof.
  intros I MS Hst Hs Hev Hx Hv. apply exec_generic; [exact I | exact MS | | | |]; rewrite ?Hev, ?Hs.
  - intros; reflexivity.
  - intros top0 below0 Hst0 Hex. rewrite Hst in Hst0. injection Hst0 as <- <-. right.
    exists (k @: ph'). split; [now left | split; [reflexivity | apply Hx; exact Hex]].
  - intros top0 below0 f Hst0 Hin. rewrite Hst in Hst0. injection Hst0 as <- <-. now right.
  - intros f l [<-|Hin] Hph; [right; exact (Hv l Hph) | left; rewrite Hst; now right].
Qed.

Lemma exec_return s t u k ph below :
  SafeInv P s -> memo_step s (u_memo u) ->
  stack_of s t = (k @: ph) :: below -> ~ is_exec ph -> u_stack u = below ->
  (forall k0 r0, count_exec k0 r0 (u_ev u) = 0%nat) ->
  ExecGoal s t u.
Proof.
  intros I MS Hst Hnx Hs Hev. apply exec_generic; [exact I | exact MS | exact Hev | | |]; rewrite ?Hs.
  - intros top0 below0 Hst0 Hex. rewrite Hst in Hst0. injection Hst0 as <- <-. destruct (Hnx Hex).
  - intros top0 below0 f Hst0 Hin. rewrite Hst in Hst0. injection Hst0 as <- <-. exact Hin.
  - intros f l Hin Hph. left. rewrite Hst. now right.
Qed.

(* the top frame goes from a phase other than PExec to a phase other than PVerify *)
Ltac rephase I MS Hst :=
  eapply exec_retop;
    [exact I | exact MS | exact Hst | reflexivity | reflexivity | intros [] | intros l0 E0; discriminate E0].

(* a top frame that does not execute is popped *)
Ltac pop I MS Hst :=
  eapply exec_return;
    [exact I | exact MS | exact Hst | intros [] | reflexivity | intros; reflexivity].

Lemma pres_exec s t u : SafeInv P s -> path fuel P s t u -> ExecGoal s t u.
Proof.
  intros I Hp. pose proof (path_memo_step _ _ _ Hp) as MS.
  pose proof (SI_exec_le _ _ I) as XL. pose proof (SI_exec_live _ _ I) as XV.
  pose proof (SI_verify0 _ _ I) as X0. pose proof (SI_once _ _ I) as X1.
  dpath Hp.
  - (* R_begin *)
    apply exec_generic; [exact I | exact MS | intros; reflexivity | | |]; cbn [u_stack].
    + intros top0 below0 Hst0. rewrite Hst in Hst0. discriminate.
    + intros top0 below0 f0 Hst0. rewrite Hst in Hst0. discriminate.
    + intros f0 l0 [<-|[]] Hph0. discriminate.
  - (* R_hot_hit *) pop I MS Hst.
  - (* R_hot_mark *) pop I MS Hst.
  - (* R_go_cold *) rephase I MS Hst.
  - (* R_claimed *) rephase I MS Hst.
  - (* R_blocked *) rephase I MS Hst.
  - (* R_cycle *) rephase I MS Hst.
  - (* R_woken *) rephase I MS Hst.
  - (* R_recheck_hit *) rephase I MS Hst.
  - (* R_to_verify: the key was not executed in this revision *)
    eapply exec_retop; [exact I | exact MS | exact Hst | reflexivity | reflexivity | intros [] |].
    intros l0 _. eapply exec_start_zero; eauto. left. split; auto. intros m' Hm'. congruence.
  - (* R_exec_start *)
    pose proof (exec_start_zero s t k ph below I Hst Hph) as Z.
    assert (Hhold : holding ph = true) by (destruct Hph as [[-> _] | [l ->]]; reflexivity).
    assert (Hnex : ~ is_exec ph) by (destruct Hph as [[-> _] | [l ->]]; cbn; auto).
    assert (Hcnt : forall k1 r1, count_exec k1 r1 ([EExec t k (c_cur s)] ++ c_log s) =
              ((if (k1 =? k) && (r1 =? c_cur s) then 1 else 0) + count_exec k1 r1 (c_log s))%nat).
    { intros k1 r1. reflexivity. }
    unfold ExecGoal. cbn [u_ev u_stack].
    split; [|split; [|split]].
    + intros t' k1 r1 [Hin|Hin]; [injection Hin as _ _ <-; lia | eauto].
    + intros k1. rewrite Hcnt. destruct (N.eqb_spec k1 k) as [->|Hk1].
      * intros _. right. exists t, (k @: PExec (p_deps P (c_cur s) k)).
        split; [apply in_stack_self; now left | cbn; auto].
      * cbn [andb Nat.add]. intros H1.
        destruct (XV _ H1) as [Hv | (t0 & f0 & Hin & Hk & Hex)].
        -- left. now apply verified_apply.
        -- right. exists t0, f0. split; auto.
           destruct (N.eq_dec t0 t) as [->|Hne]; [|now apply in_stack_other].
           apply in_stack_self. cbn. rewrite Hst in Hin. destruct Hin as [<-|Hin]; [|now right].
           cbn in Hex. contradiction.
    + intros t' f l Hin Hph'. rewrite Hcnt.
      assert (Hold : In f (stack_of s t') /\ (t' = t -> In f below)).
      { apply in_stack_apply in Hin as [[Hne Hin]|[-> Hin]]; [split; [auto | congruence]|].
        cbn in Hin. destruct Hin as [<-|Hin]; [discriminate|].
        split; auto. eapply below_in; eauto. }
      destruct Hold as [Hin0 Hb].
      assert (Hfh : holding (f_phase f) = true) by (rewrite Hph'; reflexivity).
      destruct (N.eqb_spec (f_key f) k) as [Ek|Ek].
      * exfalso. destruct (top_holder P s t k ph below t' f) as [-> _]; auto.
        eapply top_unique; eauto.
      * cbn [andb Nat.add]. eauto.
    + intros k1 r1. rewrite Hcnt.
      destruct (N.eqb_spec k1 k) as [->|Hk1], (N.eqb_spec r1 (c_cur s)) as [->|Hr1]; cbn [andb];
        try (apply X1). rewrite Z. lia.
  - (* R_call_v *)
    apply exec_generic; [exact I | exact MS | intros; reflexivity | | |]; cbn [u_stack].
    + intros top0 below0 Hst0 Hex. rewrite Hst in Hst0. injection Hst0 as <- <-. destruct Hex.
    + intros top0 below0 f0 Hst0 Hin. rewrite Hst in Hst0. injection Hst0 as <- <-. right. now right.
    + intros f0 l0 [<-|[<-|Hin]] Hph0; [discriminate | right | left; rewrite Hst; now right].
      apply (X0 t (k @: PVerify (d :: rest)) (d :: rest)); [rewrite Hst; now left | reflexivity].
  - (* R_call_x keeps an executing frame *)
    apply exec_generic; [exact I | exact MS | intros; reflexivity | | |]; cbn [u_stack].
    + intros top0 below0 Hst0 _. rewrite Hst in Hst0. injection Hst0 as <- <-.
      right. exists (k @: PExec rest). split; [right; now left | split; reflexivity].
    + intros top0 below0 f0 Hst0 Hin. rewrite Hst in Hst0. injection Hst0 as <- <-. right. now right.
    + intros f0 l0 [<-|[<-|Hin]] Hph0; [discriminate | discriminate | left; rewrite Hst; now right].
  - (* R_mark *) rephase I MS Hst.
  - (* R_publish: verified *)
    apply exec_generic; [exact I | exact MS | intros; reflexivity | | |]; cbn [u_stack].
    + intros top0 below0 Hst0 _. rewrite Hst in Hst0. injection Hst0 as <- <-.
      left. now apply verified_publish.
    + intros top0 below0 f0 Hst0 Hin. rewrite Hst in Hst0. injection Hst0 as <- <-. now right.
    + intros f0 l0 [<-|Hin] Hph0; [discriminate | left; rewrite Hst; now right].
  - (* R_release_quiet *) pop I MS Hst.
  - (* R_release_wake *) rephase I MS Hst.
  - (* R_unblock *) pop I MS Hst.
Qed.

End Pres.

Inductive creach (fuel : nat) (P : prog) : cstate -> Prop :=
| cr_init : creach fuel P cinit
| cr_step s o s' : creach fuel P s -> gstep fuel P s o = Some s' -> creach fuel P s'.

Lemma safe_init P : SafeInv P cinit.
Proof.
  constructor; cbn; try (intros; discriminate); try (intros; contradiction); auto.
  - intros t. constructor.
  - intros k H. lia.
Qed.

Lemma tstep_path fuel P s t c s' :
  SafeInv P s -> tstep fuel P s t c = Some s' ->
  In t (c_tids s) /\ exists u, path fuel P s t u /\ s' = apply_upd s t u.
Proof.
  intros I. unfold tstep. destruct (mem t (c_tids s)) eqn:Em; [|discriminate].
  destruct (step_thread fuel P s t c) as [u|] eqn:E; [|discriminate]. intros [= <-].
  split; [now apply mem_In|]. exists u. split; auto.
  eapply step_thread_path; eauto. apply (SI_only _ _ I).
Qed.

Lemma safe_tstep fuel P s t c s' :
  SafeInv P s -> tstep fuel P s t c = Some s' -> SafeInv P s'.
Proof.
  intros I H. destruct (tstep_path _ _ _ _ _ _ I H) as (Ht & u & Hp & ->).
  destruct (pres_sync fuel P s t u I Hp) as (A1 & A2 & A3 & A4).
  destruct (pres_val fuel P s t u I Hp) as (B1 & B2 & B3).
  destruct (pres_exec fuel P s t u I Hp) as (C1 & C2 & C3 & C4).
  constructor; auto.
  intros t' Ht'. cbn in Ht' |- *. rewrite updN_other by (intros ->; contradiction).
  apply (SI_dom _ _ I _ Ht').
Qed.

Lemma idleb_spec ts : idleb ts = true -> th_stack ts = [] /\ th_todo ts = [] /\ th_cycle ts = false.
Proof.
  unfold idleb. destruct (th_stack ts), (th_todo ts); try discriminate.
  destruct (th_cycle ts); [discriminate | auto].
Qed.

Lemma all_idle P s :
  SafeInv P s -> forallb (fun t => idleb (c_thr s t)) (c_tids s) = true ->
  forall t, stack_of s t = [].
Proof.
  intros I H t. destruct (in_dec N.eq_dec t (c_tids s)) as [Hin|Hin].
  - rewrite forallb_forall in H. apply H in Hin. now apply idleb_spec in Hin.
  - unfold stack_of. now rewrite (SI_dom _ _ I _ Hin).
Qed.

Lemma safe_gstep fuel P s o s' : SafeInv P s -> gstep fuel P s o = Some s' -> SafeInv P s'.
Proof.
  intros I. destruct o as [t c | | t ks]; cbn [gstep].
  - apply safe_tstep; auto.
  - destruct (forallb _ _) eqn:Ef; [|discriminate]. intros [= <-].
    pose proof (all_idle _ _ I Ef) as E.
    assert (E' : forall t, stack_of (mkC (c_cur s + 1) (c_memo s) (c_proto s) (c_thr s) (c_tids s) (c_log s)) t = []) by exact E.
    constructor; cbn [c_cur c_memo c_proto c_log c_tids c_thr].
    + apply (SI_only _ _ I).
    + intros k st u Hk Hu. destruct (SI_owner _ _ I _ _ _ Hk Hu) as (f & Hin & _).
      rewrite E in Hin. destruct Hin.
    + intros t f Hin. rewrite E' in Hin. destruct Hin.
    + intros t. rewrite E'. constructor.
    + intros k m Hm. destruct (SI_memo _ _ I _ _ Hm) as [Hle _]. split; lia.
    + intros t f v Hin. rewrite E' in Hin. destruct Hin.
    + intros t k r v Hin. destruct (SI_ret _ _ I _ _ _ _ Hin). split; [lia | auto].
    + intros t k r Hin. pose proof (SI_exec_le _ _ I _ _ _ Hin). lia.
    + intros k H1. apply count_exec_in in H1 as [t Ht].
      pose proof (SI_exec_le _ _ I _ _ _ Ht). lia.
    + intros t f l Hin. rewrite E' in Hin. destruct Hin.
    + apply (SI_once _ _ I).
    + apply (SI_dom _ _ I).
  - destruct (idleb (c_thr s t)) eqn:Ei; [|discriminate]. intros [= <-].
    apply idleb_spec in Ei as (Es & Et & Ec).
    assert (E : forall t', stack_of (mkC (c_cur s) (c_memo s) (c_proto s)
                  (updN (c_thr s) t (mkT [] ks false))
                  (if mem t (c_tids s) then c_tids s else t :: c_tids s) (c_log s)) t' = stack_of s t').
    { intros t'. unfold stack_of. cbn. unfold updN. destruct (N.eqb_spec t t') as [<-|]; auto. }
    constructor; cbn [c_cur c_memo c_proto c_log].
    + apply (SI_only _ _ I).
    + intros k st u. rewrite E. apply (SI_owner _ _ I).
    + intros t' f. rewrite E. apply (SI_hold _ _ I).
    + intros t'. rewrite E. apply (SI_nodup _ _ I).
    + apply (SI_memo _ _ I).
    + intros t' f v. rewrite E. apply (SI_rel _ _ I).
    + apply (SI_ret _ _ I).
    + apply (SI_exec_le _ _ I).
    + intros k H1. destruct (SI_exec_live _ _ I _ H1) as [Hv | (t0 & f0 & Hin & Hr)]; [now left|].
      right. exists t0, f0. now rewrite E.
    + intros t' f l. rewrite E. apply (SI_verify0 _ _ I).
    + apply (SI_once _ _ I).
    + intros t' Hn. cbn. assert (t' <> t).
      { intros ->. apply Hn. destruct (mem t (c_tids s)) eqn:Em; [now apply mem_In | now left]. }
      rewrite updN_other by auto. apply (SI_dom _ _ I). intros Hin. apply Hn.
      destruct (mem t (c_tids s)); [auto | now right].
Qed.

Lemma creach_safe fuel P s : creach fuel P s -> SafeInv P s.
Proof. induction 1; [apply safe_init | eapply safe_gstep; eauto]. Qed.

(* C17 *)
Theorem once_per_revision fuel P s :
  creach fuel P s -> forall k r, (count_exec k r (c_log s) <= 1)%nat.
Proof. intros H. apply (SI_once _ _ (creach_safe _ _ _ H)). Qed.

(* C16, values: in the log of every reachable state *)
Theorem returned_values fuel P s :
  creach fuel P s -> forall t k r v, In (ERet t k r v) (c_log s) -> v = p_val P r k.
Proof. intros H t k r v Hin. apply (SI_ret _ _ (creach_safe _ _ _ H) _ _ _ _ Hin). Qed.

(* C16, values: at the step that returns, the value is that of a memo verified in the current
   revision *)
Theorem returned_from_verified_memo fuel P s t c s' t1 k1 r1 v1 :
  creach fuel P s -> tstep fuel P s t c = Some s' -> c_log s' = ERet t1 k1 r1 v1 :: c_log s ->
  t1 = t /\ r1 = c_cur s' /\
  exists m, c_memo s' k1 = Some m /\ m_ver m = c_cur s' /\ m_val m = v1 /\ v1 = p_val P r1 k1.
Proof.
  intros HR Hstep Hlog. pose proof (creach_safe _ _ _ HR) as I.
  pose proof (safe_tstep _ _ _ _ _ _ I Hstep) as I'.
  destruct (tstep_path _ _ _ _ _ _ I Hstep) as (Ht & u & Hp & ->).
  assert (Hver : t1 = t /\ r1 = c_cur s /\ verified (apply_upd s t u) k1).
  { pose proof (path_memo_step _ _ _ _ _ Hp) as MS.
    dpath Hp; cbn in Hlog; try (apply (f_equal (@length event)) in Hlog; cbn in Hlog; lia);
      try (exfalso; inversion Hlog; fail);
      injection Hlog as <- <- <- <-; split; auto; split; auto.
    - apply (verified_apply P); auto. exists m; auto.
    - now apply verified_marked with (m := m).
    - apply (verified_apply P); auto.
      apply (SI_rel _ _ I t (k @: PRelease v) v); [rewrite Hst; now left | now left].
    - apply (verified_apply P); auto.
      apply (SI_rel _ _ I t (k @: PUnblock v) v); [rewrite Hst; now left | now right]. }
  destruct Hver as (-> & -> & m & Hm & Hv). split; auto. split; auto.
  exists m. split; auto. split; auto.
  assert (Hin : In (ERet t k1 (c_cur s) v1) (c_log (apply_upd s t u))) by (rewrite Hlog; now left).
  destruct (SI_ret _ _ I' _ _ _ _ Hin) as [_ Hval].
  destruct (SI_memo _ _ I' _ _ Hm) as [_ Hmv]. specialize (Hmv Hv). cbn in Hmv.
  split; [congruence | auto].
Qed.
