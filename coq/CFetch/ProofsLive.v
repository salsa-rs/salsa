(* CFetch/ProofsLive.v — rank-respecting programs: try_claim never answers Cycle, the wait graph
   stays grounded, every blocked thread has a releaser, and some thread can always step. *)
From Coq Require Import Sorted.
From Salsa Require Import Base.
From Salsa.Proto Require Import Model ProofsGraph ProofsList ProofsInv ProofsWake ProofsStep.
From Salsa.CFetch Require Import Model ProofsProto ProofsRel ProofsSafe.

Definition inner_ok (f : frame) : Prop :=
  match f_phase f with PVerify _ | PExec _ => True | _ => False end.

Definition rest_of (ph : phase) : list key :=
  match ph with PVerify l | PExec l => l | _ => [] end.

Section Live.
Variable fuel : nat.
Variable P : prog.
Variable rank : key -> nat.

(* the call graph of every revision descends along [rank] *)
Definition ranked : Prop := forall r k d, In d (p_deps P r k) -> (rank d < rank k)%nat.

Definition rk_lt (f g : frame) : Prop := (rank (f_key f) < rank (f_key g))%nat.

Record LiveInv (s : cstate) : Prop := mkLive {
  LI_reach : reachable fuel (c_proto s);
  LI_cycle : forall t, th_cycle (c_thr s t) = false;
  LI_shape : forall t top below, stack_of s t = top :: below -> Forall inner_ok below;
  LI_sorted : forall t, StronglySorted rk_lt (stack_of s t);
  LI_rest : forall t f d, In f (stack_of s t) -> In d (rest_of (f_phase f)) ->
    (rank d < rank (f_key f))%nat;
  LI_mdeps : forall k m d, c_memo s k = Some m -> In d (m_deps m) -> (rank d < rank k)%nat;
  LI_edge : forall t u k, edges (dg (c_proto s)) t = Some (u, k) ->
    exists below, stack_of s t = (k @: PWait) :: below;
  LI_wres : forall t r, wres (dg (c_proto s)) t = Some r ->
    exists k below, stack_of s t = (k @: PWait) :: below;
  LI_wait : forall t k below, stack_of s t = (k @: PWait) :: below ->
    (exists u, edges (dg (c_proto s)) t = Some (u, k)) \/
    (exists r, wres (dg (c_proto s)) t = Some r);
  (* every blocked handle has a releaser: its target still owns the key with the waiting flag set
     (so its release will unblock), or is about to unblock *)
  LI_target : forall x u k, edges (dg (c_proto s)) x = Some (u, k) ->
    (exists st, sync (c_proto s) k = Some st /\ ss_id st = OThread u /\ ss_waiting st = true) \/
    (exists v below, stack_of s u = (k @: PUnblock v) :: below)
}.

(* Along an edge of the wait graph the rank of the top frame does not grow ([rank_along]): the
   waiter's top frame is parked on a key for which the target has a frame, and stacks descend
   in rank towards the top.  So the owner of the key a cold frame asks for cannot wait, directly
   or not, for the asking thread ([no_cycle_answer]). *)

Definition toprank_le (s : cstate) (x : thread) (n : nat) : Prop :=
  exists f below, stack_of s x = f :: below /\ (rank (f_key f) <= n)%nat.

Lemma sorted_top_le s x f :
  LiveInv s -> In f (stack_of s x) -> toprank_le s x (rank (f_key f)).
Proof.
  intros L Hin. pose proof (LI_sorted _ L x) as S.
  destruct (stack_of s x) as [|top below] eqn:E; [destruct Hin|].
  exists top, below. split; auto. destruct Hin as [<-|Hin]; [lia|].
  apply StronglySorted_inv in S as [_ Hall]. rewrite Forall_forall in Hall.
  specialize (Hall _ Hin). unfold rk_lt in Hall. lia.
Qed.

Lemma sorted_below_lt s x top below f :
  LiveInv s -> stack_of s x = top :: below -> In f below ->
  (rank (f_key top) < rank (f_key f))%nat.
Proof.
  intros L E Hin. pose proof (LI_sorted _ L x) as S. rewrite E in S.
  apply StronglySorted_inv in S as [_ Hall]. rewrite Forall_forall in Hall. now apply Hall.
Qed.

(* the thread an edge points to has a frame for the key *)
Lemma target_frame s x u k :
  SafeInv P s -> LiveInv s -> edges (dg (c_proto s)) x = Some (u, k) ->
  exists f, In f (stack_of s u) /\ f_key f = k /\
            (holding (f_phase f) = true \/ exists v, f_phase f = PUnblock v).
Proof.
  intros I L He. destruct (LI_target _ L _ _ _ He) as [(st & Hs & Ho & _) | (v & below & Hst)].
  - destruct (SI_owner _ _ I _ _ _ Hs Ho) as (f & Hin & Hk & Hh). eauto.
  - exists (k @: PUnblock v). rewrite Hst. split; [now left|]. cbn. eauto.
Qed.

Lemma rank_along s x y n :
  SafeInv P s -> LiveInv s -> reaches (eproj (dg (c_proto s))) x y ->
  toprank_le s x n -> toprank_le s y n.
Proof.
  intros I L Hr. revert n. induction Hr as [x | x x' y Hx Hr IH]; intros n Hn; auto.
  apply IH. unfold eproj, eproj_f in Hx.
  destruct (edges (dg (c_proto s)) x) as [[x'' k']|] eqn:He; [|discriminate].
  cbn in Hx. injection Hx as ->.
  destruct (LI_edge _ L _ _ _ He) as [below Hst].
  destruct Hn as (f & below0 & Hst0 & Hle). rewrite Hst in Hst0. injection Hst0 as <- <-.
  cbn in Hle. destruct (target_frame _ _ _ _ I L He) as (f' & Hin & Hk & _).
  destruct (sorted_top_le _ _ _ L Hin) as (top & bl & E & Hle'). exists top, bl. split; auto.
  rewrite Hk in Hle'. lia.
Qed.

(* try_claim never has a reason to answer Cycle *)
Lemma no_cycle_answer s t k below st o :
  SafeInv P s -> LiveInv s ->
  stack_of s t = (k @: PCold) :: below ->
  sync (c_proto s) k = Some st -> ss_id st = OThread o ->
  ~ reaches (eproj (dg (c_proto s))) o t.
Proof.
  intros I L Hst Hs Ho Hr.
  destruct (SI_owner _ _ I _ _ _ Hs Ho) as (f & Hin & Hk & Hh).
  destruct (N.eq_dec o t) as [->|Hne].
  - rewrite Hst in Hin. destruct Hin as [<-|Hin]; [discriminate|].
    pose proof (sorted_below_lt _ _ _ _ _ L Hst Hin) as Hlt. cbn in Hlt. rewrite Hk in Hlt. lia.
  - inversion Hr as [|x x1 y Hx Hr']; subst; [congruence|].
    unfold eproj, eproj_f in Hx.
    destruct (edges (dg (c_proto s)) o) as [[x1' k1]|] eqn:He; [|discriminate].
    destruct (LI_edge _ L _ _ _ He) as [below_o Hsto].
    rewrite Hsto in Hin. destruct Hin as [<-|Hin]; [discriminate|].
    pose proof (sorted_below_lt _ _ _ _ _ L Hsto Hin) as Hlt. cbn in Hlt. try rewrite Hk in Hlt.
    assert (Ho' : toprank_le s o (rank k1)).
    { exists (k1 @: PWait), below_o. split; auto. }
    destruct (rank_along _ _ _ _ I L Hr Ho') as (top & bl & E & Hle).
    rewrite Hst in E. injection E as <- <-. cbn in Hle. lia.
Qed.

Lemma running_no_wres s t k ph below :
  LiveInv s -> stack_of s t = (k @: ph) :: below -> ph <> PWait ->
  edges (dg (c_proto s)) t = None /\ wres (dg (c_proto s)) t = None.
Proof.
  intros L Hst Hph. split.
  - destruct (edges (dg (c_proto s)) t) as [[u k']|] eqn:E; auto.
    destruct (LI_edge _ L _ _ _ E) as [b Hb]. rewrite Hst in Hb. injection Hb as _ -> _. congruence.
  - destruct (wres (dg (c_proto s)) t) as [r|] eqn:E; auto.
    destruct (LI_wres _ L _ _ E) as (k' & b & Hb). rewrite Hst in Hb. injection Hb as _ -> _. congruence.
Qed.

Lemma reach1 pr o pr' out :
  reachable fuel pr -> Model.step fuel pr o = ROk (pr', out) -> pre pr o -> reachable fuel pr'.
Proof. intros R Hs Hp. eapply reach_step; eauto. Qed.

Lemma pres_reach s t u :
  SafeInv P s -> LiveInv s -> path fuel P s t u -> reachable fuel (u_proto u).
Proof.
  intros I L Hp. pose proof (LI_reach _ L) as R. pose proof (SI_only _ _ I) as OT.
  dpath Hp; cbn [u_proto]; auto.
  - apply (reach1 _ _ _ _ R Hcl). exact Logic.I.
  - destruct (claim_cases _ _ _ _ _ _ _ OT Hcl) as [Hdg1 _].
    assert (R1 : reachable fuel pr1) by (apply (reach1 _ _ _ _ R Hcl); exact Logic.I).
    apply (reach1 _ _ _ _ R1 Hbl). cbn. rewrite Hdg1.
    eapply running_no_wres; eauto. discriminate.
  - apply (reach1 _ _ _ _ R Hcl). exact Logic.I.
  - apply (reach1 _ _ _ _ R Hrc). exact Logic.I.
  - apply (reach1 _ _ _ _ R Hrm). exact Logic.I.
  - apply (reach1 _ _ _ _ R Hrm). exact Logic.I.
  - apply (reach1 _ _ _ _ R Hub). exact Logic.I.
Qed.

Lemma sorted_retop k ph ph' below :
  StronglySorted rk_lt ((k @: ph) :: below) -> StronglySorted rk_lt ((k @: ph') :: below).
Proof.
  intros S. apply StronglySorted_inv in S as [S Hall]. constructor; auto.
Qed.

Lemma sorted_call k ph ph' d below :
  (rank d < rank k)%nat ->
  StronglySorted rk_lt ((k @: ph) :: below) ->
  StronglySorted rk_lt ((d @: PStart) :: (k @: ph') :: below).
Proof.
  intros Hlt S. pose proof (sorted_retop _ _ ph' _ S) as S'. constructor; auto.
  apply StronglySorted_inv in S as [_ Hall]. constructor; [exact Hlt|].
  rewrite Forall_forall in *. intros f Hf. specialize (Hall _ Hf). unfold rk_lt in *. cbn in *. lia.
Qed.

Lemma struct_cycle s t u :
  SafeInv P s -> LiveInv s -> path fuel P s t u -> u_cycle u = false.
Proof.
  intros I L Hp. dpath Hp; cbn [u_cycle]; auto. exfalso. eapply no_cycle_answer; eauto.
Qed.

Lemma struct_shape s t u :
  LiveInv s -> path fuel P s t u ->
  forall top below, u_stack u = top :: below -> Forall inner_ok below.
Proof.
  intros L Hp. pose proof (LI_shape _ L t) as SH.
  dpath Hp; cbn [u_stack]; rewrite Hst in SH; intros top0 below0 E.
  all: try (injection E as <- <-; exact (SH _ _ eq_refl)).
  all: try (pose proof (SH _ _ eq_refl) as SH'; rewrite E in SH'; inversion SH'; assumption).
  all: try (injection E as <- <-; constructor; [exact Logic.I | exact (SH _ _ eq_refl)]).
  injection E as <- <-. constructor.
Qed.

Lemma struct_sorted s t u :
  LiveInv s -> path fuel P s t u -> StronglySorted rk_lt (u_stack u).
Proof.
  intros L Hp. pose proof (LI_sorted _ L t) as SO. pose proof (LI_rest _ L t) as RE.
  dpath Hp; cbn [u_stack]; rewrite Hst in SO, RE.
  all: try (eapply sorted_retop; exact SO).
  all: try (apply StronglySorted_inv in SO as [SO _]; exact SO).
  - repeat constructor.
  - eapply sorted_call; [|exact SO]. apply (RE (k @: PVerify (d :: rest)) d); [now left | now left].
  - eapply sorted_call; [|exact SO]. apply (RE (k @: PExec (d :: rest)) d); [now left | now left].
Qed.

Lemma struct_rest s t u :
  ranked -> LiveInv s -> path fuel P s t u ->
  forall f d, In f (u_stack u) -> In d (rest_of (f_phase f)) -> (rank d < rank (f_key f))%nat.
Proof.
  intros RK L Hp. pose proof (LI_rest _ L t) as RE. pose proof (LI_mdeps _ L) as MD.
  dpath Hp; cbn [u_stack]; rewrite Hst in RE; intros f0 d0 Hin0 Hd0; cbn in Hin0;
    repeat match goal with
    | H : _ \/ _ |- _ => destruct H as [<-|H]
    | H : False |- _ => destruct H
    end; try (cbn in Hd0; contradiction);
    try (apply (RE f0 d0); [right; assumption | assumption]).
  - cbn in Hd0 |- *. eapply MD; eauto.
  - cbn in Hd0 |- *. exact (RK _ _ _ Hd0).
  - cbn in Hd0 |- *. apply (RE (k @: PVerify (d :: rest)) d0); [now left | now right].
  - cbn in Hd0 |- *. apply (RE (k @: PExec (d :: rest)) d0); [now left | now right].
Qed.

Lemma struct_mdeps s t u :
  ranked -> LiveInv s -> path fuel P s t u ->
  forall k m d, u_memo u k = Some m -> In d (m_deps m) -> (rank d < rank k)%nat.
Proof.
  intros RK L Hp. pose proof (LI_mdeps _ L) as MD.
  assert (MDmark : forall k0 m0, c_memo s k0 = Some m0 ->
            forall k m d, mark s k0 m0 k = Some m -> In d (m_deps m) -> (rank d < rank k)%nat).
  { intros k0 m0 Hm0 k m d. unfold mark, updN. destruct (N.eqb_spec k0 k) as [<-|_]; [|apply MD].
    intros [= <-]. cbn. eapply MD; eauto. }
  assert (MDpub : forall k0 k m d, publish P s k0 k = Some m -> In d (m_deps m) -> (rank d < rank k)%nat).
  { intros k0 k m d. unfold publish, updN. destruct (N.eqb_spec k0 k) as [<-|_]; [|apply MD].
    intros [= <-]. cbn. apply (RK (c_cur s) k0 d). }
  dpath Hp; cbn [u_memo]; try exact MD; try (eapply MDmark; eauto; fail); apply MDpub.
Qed.

(* [LI_edge], [LI_wres], [LI_wait], [LI_target] after thread [t] applied [u] *)
Definition WaitGoal (s : cstate) (t : thread) (u : upd) : Prop :=
  (forall x u0 k, edges (dg (u_proto u)) x = Some (u0, k) ->
     exists below, stack_of (apply_upd s t u) x = (k @: PWait) :: below) /\
  (forall x r, wres (dg (u_proto u)) x = Some r ->
     exists k below, stack_of (apply_upd s t u) x = (k @: PWait) :: below) /\
  (forall x k below, stack_of (apply_upd s t u) x = (k @: PWait) :: below ->
     (exists u0, edges (dg (u_proto u)) x = Some (u0, k)) \/
     (exists r, wres (dg (u_proto u)) x = Some r)) /\
  (forall x u0 k, edges (dg (u_proto u)) x = Some (u0, k) ->
     (exists st, sync (u_proto u) k = Some st /\ ss_id st = OThread u0 /\ ss_waiting st = true) \/
     (exists v below, stack_of (apply_upd s t u) u0 = (k @: PUnblock v) :: below)).

Lemma stack_other s t u x : x <> t -> stack_of (apply_upd s t u) x = stack_of s x.
Proof. intros H. rewrite stack_apply. destruct (N.eqb_spec t x); congruence. Qed.

Lemma stack_self s t u : stack_of (apply_upd s t u) t = u_stack u.
Proof. now rewrite stack_apply, N.eqb_refl. Qed.

(* paths that leave the dependency graph alone, taken by a running thread *)
Lemma wait_generic s t u :
  LiveInv s ->
  dg (u_proto u) = dg (c_proto s) ->
  edges (dg (c_proto s)) t = None -> wres (dg (c_proto s)) t = None ->
  (forall k b, u_stack u <> (k @: PWait) :: b) ->
  (forall x u0 k', edges (dg (c_proto s)) x = Some (u0, k') ->
     (exists st, sync (u_proto u) k' = Some st /\ ss_id st = OThread u0 /\ ss_waiting st = true) \/
     (exists v below, stack_of (apply_upd s t u) u0 = (k' @: PUnblock v) :: below)) ->
  WaitGoal s t u.
Proof.
  intros L Hdg He Hw Hnw Htg. unfold WaitGoal. rewrite Hdg.
  split; [|split; [|split]]; auto.
  - intros x u0 k Hx. assert (x <> t) by congruence. rewrite stack_other by auto.
    eapply LI_edge; eauto.
  - intros x r Hx. assert (x <> t) by congruence. rewrite stack_other by auto.
    eapply LI_wres; eauto.
  - intros x k below Hx. destruct (N.eq_dec x t) as [->|Hne].
    + rewrite stack_self in Hx. exfalso. eapply Hnw; eauto.
    + rewrite stack_other in Hx by auto. eapply LI_wait; eauto.
Qed.

(* the target clause when neither the sync table nor any PUnblock top changes *)
Lemma target_keep s t u k ph below :
  LiveInv s -> stack_of s t = (k @: ph) :: below -> (forall v, ph <> PUnblock v) ->
  sync (u_proto u) = sync (c_proto s) ->
  forall x u0 k', edges (dg (c_proto s)) x = Some (u0, k') ->
     (exists st, sync (u_proto u) k' = Some st /\ ss_id st = OThread u0 /\ ss_waiting st = true) \/
     (exists v below, stack_of (apply_upd s t u) u0 = (k' @: PUnblock v) :: below).
Proof.
  intros L Hst Hph Hs x u0 k' Hx. rewrite Hs.
  destruct (LI_target _ L _ _ _ Hx) as [Hl | (v & b & Hr)]; [now left|].
  right. exists v, b. rewrite stack_other; auto. intros ->. rewrite Hst in Hr.
  injection Hr as _ Hr _. eapply Hph; eauto.
Qed.

Lemma below_not_wait s t top below :
  LiveInv s -> stack_of s t = top :: below -> forall k b, below <> (k @: PWait) :: b.
Proof.
  intros L Hst k b E. pose proof (LI_shape _ L _ _ _ Hst) as SH. rewrite E in SH.
  inversion SH as [|? ? H1 _]. exact H1.
Qed.

Ltac wait_same L Hst Run :=
  let He := fresh "He" in let Hw := fresh "Hw" in
  destruct (Run _ _ _ Hst ltac:(discriminate)) as [He Hw];
  apply wait_generic; [exact L | reflexivity | exact He | exact Hw | |];
  [ cbn [u_stack]; first [ intros k0 b0; discriminate | solve [eapply below_not_wait; eauto] ]
  | apply (target_keep _ _ _ _ _ _ L Hst); [intros v0; discriminate | reflexivity] ].

Lemma pres_wait s t u :
  SafeInv P s -> LiveInv s -> path fuel P s t u -> WaitGoal s t u.
Proof.
  intros I L Hp.
  assert (Run : forall k ph below, stack_of s t = (k @: ph) :: below -> ph <> PWait ->
                edges (dg (c_proto s)) t = None /\ wres (dg (c_proto s)) t = None).
  { intros; eapply running_no_wres; eauto. }
  dpath Hp.
  - (* R_begin *)
    assert (He : edges (dg (c_proto s)) t = None).
    { destruct (edges (dg (c_proto s)) t) as [[u0 k']|] eqn:E; auto.
      destruct (LI_edge _ L _ _ _ E) as [b Hb]. congruence. }
    assert (Hw : wres (dg (c_proto s)) t = None).
    { destruct (wres (dg (c_proto s)) t) as [r|] eqn:E; auto.
      destruct (LI_wres _ L _ _ E) as (k' & b & Hb). congruence. }
    apply wait_generic; [exact L | reflexivity | exact He | exact Hw | |]; cbn [u_stack u_proto].
    + intros k0 b. discriminate.
    + intros x u0 k' Hx. destruct (LI_target _ L _ _ _ Hx) as [Hl | (v & b & Hr)]; [now left|].
      right. exists v, b. rewrite stack_other; auto. intros ->. congruence.
  - wait_same L Hst Run.
  - wait_same L Hst Run.
  - wait_same L Hst Run.
  - (* R_claimed *)
    destruct (Run _ _ _ Hst ltac:(discriminate)) as [He Hw].
    apply wait_generic; [exact L | exact Hdg | exact He | exact Hw | |]; cbn [u_stack u_proto]; [intros k0 b0; discriminate|].
    intros x u0 k' Hx.
    destruct (LI_target _ L _ _ _ Hx) as [(st & Hs' & Ho & Hwt) | (v & b & Hr)].
    + left. exists st. rewrite Hs, updN_other by congruence. auto.
    + right. exists v, b. rewrite stack_other; auto. intros ->. congruence.
  - (* R_blocked *)
    destruct (Run _ _ _ Hst ltac:(discriminate)) as [_ Hw].
    unfold WaitGoal. cbn [u_proto]. rewrite Hdg. cbn [edges wres set_qdeps set_edges].
    split; [|split; [|split]].
    + intros x u0 k'. unfold updN. destruct (N.eqb_spec t x) as [<-|Hxt].
      * intros [= <- <-]. rewrite stack_self. cbn. eauto.
      * intros Hx. rewrite stack_other by auto. eapply LI_edge; eauto.
    + intros x r Hx. assert (x <> t) by congruence. rewrite stack_other by auto.
      eapply LI_wres; eauto.
    + intros x k0 b Hx. unfold updN. destruct (N.eqb_spec t x) as [<-|Hxt].
      * rewrite stack_self in Hx. cbn in Hx. injection Hx as <- _. left. eauto.
      * rewrite stack_other in Hx by auto. eapply LI_wait; eauto.
    + intros x u0 k'. unfold updN at 1. destruct (N.eqb_spec t x) as [<-|Hxt].
      * intros [= <- <-]. left. exists (set_waiting st). rewrite Hs, updN_same. cbn. auto.
      * intros Hx. destruct (LI_target _ L _ _ _ Hx) as [(st0 & Hs' & Ho' & Hwt) | (v & b & Hr)].
        -- left. rewrite Hs. unfold updN. destruct (N.eqb_spec k k') as [<-|Hk'].
           ++ exists (set_waiting st). assert (st0 = st) by congruence. subst st0. cbn. auto.
           ++ eauto.
        -- right. exists v, b. rewrite stack_other; auto. intros ->. congruence.
  - (* R_cycle *) exfalso. eapply no_cycle_answer; eauto.
  - (* R_woken *)
    unfold WaitGoal. cbn [u_proto]. rewrite Hdg, Hs. cbn [edges wres set_wres].
    split; [|split; [|split]].
    + intros x u0 k' Hx. assert (x <> t) by congruence. rewrite stack_other by auto.
      eapply LI_edge; eauto.
    + intros x r0. unfold updN. destruct (N.eqb_spec t x) as [<-|Hxt]; [discriminate|].
      intros Hx. rewrite stack_other by auto. eapply LI_wres; eauto.
    + intros x k0 b Hx. destruct (N.eq_dec x t) as [->|Hxt].
      * rewrite stack_self in Hx. discriminate.
      * rewrite stack_other in Hx by auto. rewrite updN_other by auto. eapply LI_wait; eauto.
    + intros x u0 k' Hx.
      destruct (LI_target _ L _ _ _ Hx) as [Hl | (v & b & Hr)]; [now left|].
      right. exists v, b. rewrite stack_other; auto. intros ->. congruence.
  - wait_same L Hst Run.
  - wait_same L Hst Run.
  - (* R_exec_start *)
    destruct Hph as [[-> _] | [l ->]]; wait_same L Hst Run.
  - wait_same L Hst Run.
  - wait_same L Hst Run.
  - wait_same L Hst Run.
  - wait_same L Hst Run.
  - (* R_release_quiet *)
    destruct (Run _ _ _ Hst ltac:(discriminate)) as [He Hw'].
    apply wait_generic; [exact L | exact Hdg | exact He | exact Hw' | |]; cbn [u_stack u_proto]; [eapply below_not_wait; eauto|].
    intros x u0 k' Hx.
    destruct (LI_target _ L _ _ _ Hx) as [(st0 & Hs' & Ho' & Hwt) | (v0 & b & Hr)].
    + left. exists st0. rewrite Hs, updN_other; auto. intros <-. congruence.
    + right. exists v0, b. rewrite stack_other; auto. intros ->. congruence.
  - (* R_release_wake *)
    destruct (Run _ _ _ Hst ltac:(discriminate)) as [He Hw'].
    apply wait_generic; [exact L | exact Hdg | exact He | exact Hw' | |]; cbn [u_stack u_proto]; [intros k0 b0; discriminate|].
    intros x u0 k' Hx.
    destruct (LI_target _ L _ _ _ Hx) as [(st0 & Hs' & Ho' & Hwt) | (v0 & b & Hr)].
    + destruct (N.eq_dec k' k) as [->|Hk'].
      * right. exists v, below.
        assert (Htop : In (k @: PRelease v) (stack_of s t)) by (rewrite Hst; now left).
        destruct (SI_hold _ _ I _ _ Htop eq_refl) as (st1 & Hs1 & Ho1). cbn in Hs1.
        assert (u0 = t) by congruence. subst u0. now rewrite stack_self.
      * left. exists st0. rewrite Hs, updN_other; auto.
    + right. exists v0, b. rewrite stack_other; auto. intros ->. congruence.
  - (* R_unblock *)
    destruct (Run _ _ _ Hst ltac:(discriminate)) as [He Hw'].
    pose proof (reachable_Inv _ _ (LI_reach _ L)) as [[G D ND W] _].
    assert (Dk : forall x, In x (qdeps (dg (c_proto s)) k) <-> exists u0, edges (dg (c_proto s)) x = Some (u0, k)).
    { intros x. apply D. }
    assert (Htq : ~ In t (qdeps (dg (c_proto s)) k)).
    { intros Hin. apply Dk in Hin as [u0 Hu0]. congruence. }
    unfold WaitGoal. cbn [u_proto]. rewrite Hs.
    split; [|split; [|split]].
    + intros x u0 k' Hx.
      destruct (in_dec N.eq_dec x (qdeps (dg (c_proto s)) k)) as [Hq|Hq].
      * destruct (HA _ Hq) as [E _]. congruence.
      * destruct (HB _ Hq) as [E _]. rewrite E in Hx.
        assert (x <> t) by congruence. rewrite stack_other by auto. eapply LI_edge; eauto.
    + intros x r Hx.
      destruct (in_dec N.eq_dec x (qdeps (dg (c_proto s)) k)) as [Hq|Hq].
      * assert (x <> t) by (intros ->; contradiction). rewrite stack_other by auto.
        apply Dk in Hq as [u0 Hu0]. destruct (LI_edge _ L _ _ _ Hu0) as [b Hb]. eauto.
      * destruct (HB _ Hq) as [_ E]. rewrite E in Hx.
        assert (x <> t) by congruence. rewrite stack_other by auto. eapply LI_wres; eauto.
    + intros x k0 b Hx. destruct (N.eq_dec x t) as [->|Hxt].
      * rewrite stack_self in Hx. cbn in Hx. exfalso. eapply below_not_wait; eauto.
      * rewrite stack_other in Hx by auto.
        destruct (in_dec N.eq_dec x (qdeps (dg (c_proto s)) k)) as [Hq|Hq].
        -- right. destruct (HA _ Hq) as [_ E]. eauto.
        -- destruct (HB _ Hq) as [E1 E2]. rewrite E1, E2. eapply LI_wait; eauto.
    + intros x u0 k' Hx.
      destruct (in_dec N.eq_dec x (qdeps (dg (c_proto s)) k)) as [Hq|Hq].
      * destruct (HA _ Hq) as [E _]. congruence.
      * destruct (HB _ Hq) as [E _]. rewrite E in Hx.
        assert (k' <> k). { intros ->. apply Hq. apply Dk. eauto. }
        destruct (LI_target _ L _ _ _ Hx) as [Hl | (v0 & b & Hr)]; [now left|].
        right. exists v0, b. rewrite stack_other; auto. intros ->. rewrite Hst in Hr. congruence.
Qed.

Lemma live_init : LiveInv cinit.
Proof.
  constructor; cbn; try (intros; discriminate); auto.
  - apply reach_init.
  - intros t. constructor.
  - intros t f d [].
Qed.

Lemma live_tstep s t c s' :
  ranked -> SafeInv P s -> LiveInv s -> tstep fuel P s t c = Some s' -> LiveInv s'.
Proof.
  intros RK I L H. destruct (tstep_path _ _ _ _ _ _ I H) as (Ht & u & Hp & ->).
  destruct (pres_wait s t u I L Hp) as (W1 & W2 & W3 & W4).
  constructor; auto.
  - now apply (pres_reach s t u).
  - intros t'. cbn. unfold updN. destruct (t =? t'); [cbn; eapply struct_cycle; eauto | apply L].
  - intros t' top below. rewrite stack_apply. destruct (t =? t');
      [eapply struct_shape; eauto | apply (LI_shape _ L)].
  - intros t'. rewrite stack_apply. destruct (t =? t');
      [eapply struct_sorted; eauto | apply (LI_sorted _ L)].
  - intros t' f d Hin. apply in_stack_apply in Hin as [[_ Hin]|[-> Hin]];
      [eapply (LI_rest _ L); eauto | eapply struct_rest; eauto].
  - cbn. eapply struct_mdeps; eauto.
Qed.

Lemma live_gstep s o s' :
  ranked -> SafeInv P s -> LiveInv s -> gstep fuel P s o = Some s' -> LiveInv s'.
Proof.
  intros RK I L. destruct o as [t c | | t ks]; cbn [gstep].
  - now apply live_tstep.
  - destruct (forallb _ _); [|discriminate]. intros [= <-]. destruct L. constructor; auto.
  - destruct (idleb (c_thr s t)) eqn:Ei; [|discriminate]. intros [= <-].
    apply idleb_spec in Ei as (Es & Et & Ec).
    assert (E : forall t', stack_of (mkC (c_cur s) (c_memo s) (c_proto s)
                  (updN (c_thr s) t (mkT [] ks false))
                  (if mem t (c_tids s) then c_tids s else t :: c_tids s) (c_log s)) t' = stack_of s t').
    { intros t'. unfold stack_of. cbn. unfold updN. destruct (N.eqb_spec t t') as [<-|]; auto. }
    destruct L as [R C SH SO RE MD ED WR WT TG].
    constructor; cbn [c_proto c_memo]; auto.
    + intros t'. cbn. unfold updN. destruct (t =? t'); [reflexivity | apply C].
    + intros t'. rewrite E. apply SH.
    + intros t'. rewrite E. apply SO.
    + intros t'. rewrite E. apply RE.
    + intros t' u0 k. rewrite E. apply ED.
    + intros t' r. setoid_rewrite E. apply WR.
    + intros t' k below. rewrite E. apply WT.
    + intros x u0 k Hx. destruct (TG _ _ _ Hx) as [Hl|Hr]; [now left|]. right. now setoid_rewrite E.
Qed.

Lemma creach_inv s : ranked -> creach fuel P s -> SafeInv P s /\ LiveInv s.
Proof.
  intros RK. induction 1 as [|s o s' HR [I L] Hs].
  - split; [apply safe_init | apply live_init].
  - split; [eapply safe_gstep; eauto | eapply live_gstep; eauto].
Qed.

Lemma blocked_in_tids s x :
  SafeInv P s -> LiveInv s -> edges (dg (c_proto s)) x <> None -> In x (c_tids s).
Proof.
  intros I L He. destruct (in_dec N.eq_dec x (c_tids s)) as [Hin|Hin]; auto. exfalso.
  destruct (edges (dg (c_proto s)) x) as [[u k]|] eqn:E; [|congruence].
  destruct (LI_edge _ L _ _ _ E) as [b Hb]. unfold stack_of in Hb.
  rewrite (SI_dom _ _ I _ Hin) in Hb. discriminate.
Qed.

(* a thread that is not finished and not blocked can take a step *)
Lemma running_enabled s t :
  SafeInv P s -> LiveInv s -> (length (c_tids s) < fuel)%nat ->
  In t (c_tids s) -> doneb (c_thr s t) = false -> edges (dg (c_proto s)) t = None ->
  exists c s', tstep fuel P s t c = Some s'.
Proof.
  intros I L Hf Ht Hd He.
  pose proof (reachable_Inv _ _ (LI_reach _ L)) as [EI _].
  pose proof (E_grounded _ _ _ EI) as G.
  assert (Dom : forall x, edges (dg (c_proto s)) x <> None -> In x (c_tids s))
    by (intros x; now apply blocked_in_tids).
  assert (Hmem : mem t (c_tids s) = true) by now apply mem_In.
  unfold tstep. rewrite Hmem. unfold step_thread. rewrite (LI_cycle _ L t).
  unfold doneb in Hd.
  destruct (th_stack (c_thr s t)) as [|[k ph] below] eqn:Est.
  { destruct (th_todo (c_thr s t)); [discriminate|]. exists true. eexists; reflexivity. }
  cbn [f_key f_phase]. unfold step_frame.
  assert (Hst : stack_of s t = (k @: ph) :: below) by exact Est.
  destruct ph as [| | | |l|l|v|v].
  - exists true. destruct (c_memo s k) as [m|]; [|eexists; reflexivity].
    destruct (m_ver m =? c_cur s); [eexists; reflexivity|]. destruct (true && valid_now P s k m); eexists; reflexivity.
  - destruct (claim_total fuel (c_proto s) (c_tids s) t k true (SI_only _ _ I) G Dom Hf)
      as (pr1 & r & Hcl).
    exists true. rewrite Hcl.
    destruct (claim_cases _ _ _ _ _ _ _ (SI_only _ _ I) Hcl) as (Hdg & Hc).
    destruct r as [md|o|inner]; [eexists; reflexivity | | eexists; reflexivity].
    destruct Hc as [(_ & ? & _) | (st & u0 & _ & _ & _ & [[? _]|(Hr & Hne & Hnr)])]; try discriminate.
    injection Hr as <-.
    assert (Hb : exists pr2, Model.step fuel pr1 (OBlockOn t k o) = ROk (pr2, XBlock BBlocked)).
    { apply (block_total fuel pr1 (c_tids s) t k o); rewrite ?Hdg; auto. }
    destruct Hb as [pr2 Hbl]. rewrite Hbl. eexists; reflexivity.
  - destruct (LI_wait _ L _ _ _ Hst) as [[u0 Hu0] | [r Hr]]; [congruence|].
    destruct (receive_total fuel (c_proto s) t r EI Hr) as [pr1 Hrc].
    exists true. rewrite Hrc. eexists; reflexivity.
  - exists true. destruct (c_memo s k) as [m|]; [|eexists; reflexivity].
    destruct (m_ver m =? c_cur s); eexists; reflexivity.
  - exists true. destruct l as [|d rest]; [|eexists; reflexivity].
    destruct (c_memo s k) as [m|]; [|eexists; reflexivity]. destruct (true && valid_now P s k m); eexists; reflexivity.
  - exists true. destruct l; eexists; reflexivity.
  - assert (Htop : In (k @: PRelease v) (stack_of s t)) by (rewrite Hst; now left).
    destruct (SI_hold _ _ I _ _ Htop eq_refl) as (st & Hs & Ho). cbn in Hs.
    destruct (remove_total fuel (c_proto s) t k st Hs) as [pr1 Hrm].
    exists true. rewrite Hrm.
    destruct (SI_only _ _ I _ _ Hs) as (u0 & _ & Htw & Htg).
    destruct (release_script_cases t k st Htw Htg) as [[_ ->] | [_ ->]]; eexists; reflexivity.
  - destruct (unblock_total fuel (c_proto s) t k Completed EI) as [pr1 Hub].
    exists true. rewrite Hub. eexists; reflexivity.
Qed.

(* C16, deadlock freedom: as long as some handle is not finished, some handle can step *)
Theorem some_thread_can_step s :
  ranked -> creach fuel P s -> (length (c_tids s) < fuel)%nat ->
  (exists t, In t (c_tids s) /\ doneb (c_thr s t) = false) ->
  exists t c s', In t (c_tids s) /\ tstep fuel P s t c = Some s'.
Proof.
  intros RK HR Hf (t0 & Ht0 & Hd0). destruct (creach_inv _ RK HR) as [I L].
  pose proof (reachable_Inv _ _ (LI_reach _ L)) as [EI _].
  pose proof (E_grounded _ _ _ EI) as G.
  destruct (edges (dg (c_proto s)) t0) as [[u0 k0]|] eqn:E0.
  - (* t0 is blocked: follow the wait chain to its root *)
    destruct (someone_runs _ G t0) as (r & Hr & Hroot).
    assert (Hroot' : edges (dg (c_proto s)) r = None).
    { unfold eproj, eproj_f in Hroot. destruct (edges (dg (c_proto s)) r); [discriminate | auto]. }
    (* the root is the target of an edge, hence owns a frame *)
    assert (Hlast : exists x k, edges (dg (c_proto s)) x = Some (r, k)).
    { clear -Hr E0 Hroot'. revert u0 k0 E0. induction Hr as [x | x y z Hxy Hr IH]; intros u0 k0 E0.
      - congruence.
      - unfold eproj, eproj_f in Hxy. rewrite E0 in Hxy. cbn in Hxy. injection Hxy as <-.
        destruct (edges (dg (c_proto s)) u0) as [[u1 k1]|] eqn:E1.
        + eapply IH; eauto.
        + inversion Hr; subst; [eauto|].
          unfold eproj, eproj_f in H. rewrite E1 in H. discriminate. }
    destruct Hlast as (x & k & Hx).
    destruct (target_frame _ _ _ _ I L Hx) as (f & Hin & _).
    assert (Hrt : In r (c_tids s)).
    { destruct (in_dec N.eq_dec r (c_tids s)) as [H|H]; auto. exfalso.
      unfold stack_of in Hin. rewrite (SI_dom _ _ I _ H) in Hin. destruct Hin. }
    assert (Hrd : doneb (c_thr s r) = false).
    { unfold doneb. unfold stack_of in Hin. destruct (th_stack (c_thr s r)); [destruct Hin | reflexivity]. }
    destruct (running_enabled s r I L Hf Hrt Hrd Hroot') as (c & s' & Hs). eauto.
  - destruct (running_enabled s t0 I L Hf Ht0 Hd0 E0) as (c & s' & Hs). eauto.
Qed.

(* C16: try_claim never answers Cycle, no handle is ever parked *)
Theorem never_cycle s t : ranked -> creach fuel P s -> th_cycle (c_thr s t) = false.
Proof. intros RK HR. destruct (creach_inv _ RK HR) as [_ L]. apply (LI_cycle _ L). Qed.

(* C16: the protocol state of every reachable CFetch state is a reachable Proto state, so all
   of C19 applies to it *)
Theorem proto_reachable s : ranked -> creach fuel P s -> reachable fuel (c_proto s).
Proof. intros RK HR. destruct (creach_inv _ RK HR) as [_ L]. apply (LI_reach _ L). Qed.

(* C16, no lost wake-up, part 1: whoever is blocked waits for a key whose holder knows it
   (anyone_waiting is set) or whose former holder is about to unblock it *)
Theorem blocked_has_releaser s x u k :
  ranked -> creach fuel P s -> edges (dg (c_proto s)) x = Some (u, k) ->
  (exists below, stack_of s x = (k @: PWait) :: below) /\
  ((exists st f, sync (c_proto s) k = Some st /\ ss_id st = OThread u /\ ss_waiting st = true /\
                 In f (stack_of s u) /\ f_key f = k /\ holding (f_phase f) = true) \/
   (exists v below, stack_of s u = (k @: PUnblock v) :: below)).
Proof.
  intros RK HR Hx. destruct (creach_inv _ RK HR) as [I L]. split; [eapply LI_edge; eauto|].
  destruct (LI_target _ L _ _ _ Hx) as [(st & Hs & Ho & Hw) | Hr]; [|now right].
  left. destruct (SI_owner _ _ I _ _ _ Hs Ho) as (f & Hin & Hk & Hh). exists st, f. repeat split; auto.
Qed.

(* part 2: the unblock step wakes every thread blocked on the key, with Completed *)
Theorem unblock_wakes_all_waiters s t c s' k1 v1 below1 :
  ranked -> creach fuel P s -> stack_of s t = (k1 @: PUnblock v1) :: below1 ->
  tstep fuel P s t c = Some s' ->
  forall x u, edges (dg (c_proto s)) x = Some (u, k1) ->
    edges (dg (c_proto s')) x = None /\ wres (dg (c_proto s')) x = Some Completed.
Proof.
  intros RK HR Hst1 Hstep x u0 Hx. destruct (creach_inv _ RK HR) as [I L].
  destruct (tstep_path _ _ _ _ _ _ I Hstep) as (Ht & u & Hp & ->).
  pose proof (reachable_Inv _ _ (LI_reach _ L)) as [[G D ND W] _].
  assert (Hq : In x (qdeps (dg (c_proto s)) k1)) by (apply D; eauto).
  dpath Hp; rewrite Hst1 in Hst; try discriminate.
  - injection Hst as _ <- _. destruct Hph as [[? _]|[? ?]]; discriminate.
  - injection Hst as <- <- <-. cbn. now apply HA.
Qed.

End Live.
