(* CFetch/Examples.v — concrete interleavings (non-vacuity witnesses for Props/C16, C17). *)
From Salsa Require Import Base.
From Salsa.Proto Require Import Model.
From Salsa.CFetch Require Import Model ProofsProto ProofsRel ProofsSafe ProofsLive.
From Salsa.CFetch Require ProofsTerm.

(* key 2 calls key 1; the value of key 1 never changes, the value of key 2 changes with the
   revision *)
Definition ex_prog : prog :=
  mkProg (fun _ k => if k =? 2 then [1] else [])
         (fun r k => if k =? 1 then 11 else k * 10 + r).

Definition ex_rank (k : key) : nat := N.to_nat k.

Lemma ex_ranked : ranked ex_prog ex_rank.
Proof.
  intros r k d. cbn. destruct (N.eqb_spec k 2) as [->|_]; [|intros []].
  intros [<-|[]]. unfold ex_rank. cbn. lia.
Qed.

Definition steps (t : thread) (n : nat) : list gop := repeat (GStep t true) n.

(* revision 1: handles 1 and 2 both request key 2.  Handle 1 claims it and starts executing;
   handle 2 finds it claimed and blocks; handle 1 executes key 1 and key 2, releases, wakes
   handle 2, which retries and reuses the memo. *)
Definition ex_round1 : list gop :=
  [GSpawn 1 [2]; GSpawn 2 [2]] ++ steps 1 5 ++ steps 2 3 ++ steps 1 8 ++ steps 2 2.

(* a write, then revision 2: handle 1 requests key 2 again — key 1 is marked verified without a
   claim (its value is unchanged), key 2 is re-executed; handle 2 reads key 1 *)
Definition ex_round2 : list gop :=
  [GBump; GSpawn 1 [2]; GSpawn 2 [1]] ++ steps 1 11 ++ steps 2 2.

Definition ex_state1 : cstate :=
  match grun 10 ex_prog ex_round1 cinit with Some s => s | None => cinit end.
Definition ex_state2 : cstate :=
  match grun 10 ex_prog (ex_round1 ++ ex_round2) cinit with Some s => s | None => cinit end.

(* the state in the middle of round 1 in which handle 2 is blocked on handle 1 *)
Definition ex_blocked : cstate :=
  match grun 10 ex_prog ([GSpawn 1 [2]; GSpawn 2 [2]] ++ steps 1 5 ++ steps 2 3) cinit with
  | Some s => s | None => cinit end.

Lemma grun_reached fuel P l :
  creach fuel P (match grun fuel P l cinit with Some s => s | None => cinit end).
Proof.
  destruct (grun fuel P l cinit) as [s|] eqn:E; [|constructor].
  eapply ProofsTerm.grun_gsteps_creach; [constructor | exact E].
Qed.

Example ex_state1_reachable : creach 10 ex_prog ex_state1.
Proof. apply grun_reached. Qed.

Example ex_state2_reachable : creach 10 ex_prog ex_state2.
Proof. apply grun_reached. Qed.

Example ex_blocked_reachable : creach 10 ex_prog ex_blocked.
Proof. apply grun_reached. Qed.

(* one waits and reuses: two executions (keys 1 and 2), three returns, one wake-up *)
Example ex_round1_log :
  (c_log ex_state1, notified (dg (c_proto ex_state1))) =
  ([ERet 2 2 1 21; ERet 1 2 1 21; ERet 1 1 1 11; EExec 1 1 1; EExec 1 2 1], [(2, Completed)]).
Proof. vm_compute. reflexivity. Qed.

Example ex_round1_log_only :
  c_log ex_state1 = [ERet 2 2 1 21; ERet 1 2 1 21; ERet 1 1 1 11; EExec 1 1 1; EExec 1 2 1].
Proof. vm_compute. reflexivity. Qed.

Example ex_blocked_tids : (length (c_tids ex_blocked) < 10)%nat.
Proof. vm_compute. lia. Qed.

Example ex_blocked_shape :
  (th_stack (c_thr ex_blocked 1), th_stack (c_thr ex_blocked 2),
   edges (dg (c_proto ex_blocked)) 2) =
  ([mkFrame 1 PStart; mkFrame 2 (PExec [])], [mkFrame 2 PWait], Some (1, 2)).
Proof. vm_compute. reflexivity. Qed.

(* revision 2: key 2 executed once more (in revision 2), key 1 not at all *)
Example ex_round2_log :
  firstn 5 (c_log ex_state2) =
  [ERet 2 1 2 11; ERet 1 2 2 22; ERet 1 1 2 11; EExec 1 2 2; ERet 1 1 2 11].
Proof. vm_compute. reflexivity. Qed.

Example ex_counts :
  (count_exec 2 1 (c_log ex_state2), count_exec 2 2 (c_log ex_state2),
   count_exec 1 1 (c_log ex_state2), count_exec 1 2 (c_log ex_state2)) = (1, 1, 1, 0)%nat.
Proof. vm_compute. reflexivity. Qed.

(* in the blocked state some handle can step (handle 1), handle 2 cannot *)
Example ex_blocked_progress :
  (match tstep 10 ex_prog ex_blocked 1 true with Some _ => true | None => false end,
   match tstep 10 ex_prog ex_blocked 2 true with Some _ => true | None => false end) = (true, false).
Proof. vm_compute. reflexivity. Qed.
