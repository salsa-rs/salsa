(* CFetch2/ProofsSim.v — CFetch2 refines CFetch: every step of the computed model is a step of
   the abstract model on the abstracted state (forget changed_at, flags, collected values), with
   [p_val := the from-scratch value].  The two guards CFetch builds in are DISCHARGED here:
   what [Q_publish] computes from the returned values is the from-scratch value, and
   [Q_mark] only fires when the memo's value is still the from-scratch value. *)
From Salsa Require Import Base.
From Salsa.Proto Require Import Model.
From Salsa.CFetch Require Import Model ProofsProto ProofsRel ProofsSafe ProofsLive ProofsTerm.
From Salsa.CFetch2 Require Import Model ProofsEq ProofsRel ProofsVal.

Lemma absf_deliver mm v c below : map absf (deliver mm v c below) = map absf below.
Proof.
  destruct below as [|f b]; cbn [deliver map]; auto.
  destruct f as [k ph]. destruct ph; reflexivity.
Qed.

(* what a CFetch update has to be to match a CFetch2 update *)
Definition umatch (u : upd) (u2 : upd2) : Prop :=
  u_proto u = u2_proto u2 /\ (forall k, u_memo u k = option_map absm (u2_memo u2 k)) /\
  u_stack u = map absf (u2_stack u2) /\ u_todo u = u2_todo u2 /\ u_cycle u = u2_cycle u2 /\
  u_ev u = u2_ev u2.

Lemma umatch_ceq s2 t u u2 :
  umatch u u2 -> ceq (apply_upd (abs s2) t u) (abs (apply_upd2 s2 t u2)).
Proof.
  intros (A & B & C & D & E0 & F). unfold ceq, apply_upd, apply_upd2, abs. cbn.
  repeat split; auto; try congruence.
  intros t'. unfold updN. destruct (t =? t'); auto. unfold abst. cbn. congruence.
Qed.

Lemma umatch_mk pr mm mm2 st st2 td cy ev :
  (forall k, mm k = option_map absm (mm2 k)) -> st = map absf st2 ->
  umatch (mkU pr mm st td cy ev) (mkU2 pr mm2 st2 td cy ev).
Proof. intros H ->. repeat split; auto. Qed.

(* the memo maps and the stacks match by computation, unless the step writes a memo *)
Ltac um :=
  apply umatch_mk;
  [ try (intros; reflexivity)
  | try (cbn [map absf g_key g_phase absp]; rewrite ?absf_deliver; reflexivity) ].

Section Sim.
Variable fuel : nat.
Variable Q : prog2.
Variable rank : key -> nat.

Notation P' := (absP Q rank).
Notation Ev := (E Q rank).

Lemma sim_path seen s2 t u2 :
  ranked2 Q rank -> stamps_ok Q -> InvS Q rank seen s2 ->
  th2_cycle (c2_thr s2 t) = false -> path2 fuel Q s2 t u2 ->
  exists c' u, step_thread fuel P' (abs s2) t c' = Some u /\ umatch u u2.
Proof.
  intros RK SK I Hcyc Hp.
  pose proof (IV_stack _ _ _ _ I t) as Hok.
  assert (Hmemo : forall k, c_memo (abs s2) k = option_map absm (c2_memo s2 k)) by reflexivity.
  dpath2 Hp; unfold stack2 in Hst.
  all: try (rewrite Hst in Hok; cbn [stack_ok g_key] in Hok; destruct Hok as [Hf Hb];
            unfold frame_ok in Hf; cbn [g_phase g_key] in Hf).
  all: unfold step_thread; cbn [abs c_thr abst th_cycle th_stack th_todo]; rewrite Hcyc, Hst;
       cbn [map absf g_key g_phase absp f_key f_phase]; unfold step_frame;
       cbn [abs c_proto c_memo c_cur c_thr abst th_todo].
  - (* Q_begin *)
    unfold todo2 in Htd. rewrite Htd. exists true. eexists. split; [reflexivity | um].
  - (* Q_hit *)
    rewrite Hm. cbn [option_map absm m_ver m_val]. rewrite Hv, N.eqb_refl.
    exists true. eexists. split; [reflexivity | um].
  - (* Q_go_cold: the abstract choice bit has to be false; with true CFetch takes [R_hot_mark]
       whenever the stale value is still the from-scratch one, a path CFetch2 does not have *)
    exists false. destruct (c2_memo s2 k) as [m|] eqn:Em; cbn [option_map absm m_ver andb].
    + destruct (N.eqb_spec (n_ver m) (c2_cur s2)) as [E0|E0]; [exfalso; eapply Hnv; eauto|].
      eexists. split; [reflexivity | um].
    + eexists. split; [reflexivity | um].
  - (* Q_claimed *) rewrite Hcl. exists true. eexists. split; [reflexivity | um].
  - (* Q_blocked *) rewrite Hcl, Hbl. exists true. eexists. split; [reflexivity | um].
  - (* Q_cycle1 *) rewrite Hcl. exists true. eexists. split; [reflexivity | um].
  - (* Q_cycle2 *) rewrite Hcl, Hbl. exists true. eexists. split; [reflexivity | um].
  - (* Q_woken *) rewrite Hrc. exists true. eexists. split; [reflexivity | um].
  - (* Q_recheck_hit *)
    rewrite Hm. cbn [option_map absm m_ver m_val]. rewrite Hv, N.eqb_refl.
    exists true. eexists. split; [reflexivity | um].
  - (* Q_to_verify *)
    rewrite Hm. cbn [option_map absm m_ver m_deps].
    destruct (N.eqb_spec (n_ver m) (c2_cur s2)) as [E0|E0]; [contradiction|].
    exists true. eexists. split; [reflexivity | um].
  - (* Q_exec_start: false is the choice that gives up verifying; with true CFetch goes on with
       [R_to_verify], [R_call_v] or [R_mark] *)
    exists false. destruct Hph as [[-> Hnv] | (l & ok & ->)]; cbn [absp].
    + destruct (c2_memo s2 k) as [m|] eqn:Em; cbn [option_map absm m_ver].
      * destruct (N.eqb_spec (n_ver m) (c2_cur s2)) as [E0|E0]; [exfalso; eapply Hnv; eauto|].
        eexists. split; [reflexivity | um].
      * eexists. split; [reflexivity | um].
    + destruct l as [|d rest].
      * destruct (option_map absm (c2_memo s2 k)); cbn [andb]; eexists; (split; [reflexivity | um]).
      * eexists. split; [reflexivity | um].
  - (* Q_call_v *) exists true. eexists. split; [reflexivity | um].
  - (* Q_call_x *) exists true. eexists. split; [reflexivity | um].
  - (* Q_mark *)
    rewrite Hm. cbn [option_map]. exists true. cbn [andb].
    assert (HE : Ev (c2_cur s2) k = n_val m).
    { eapply (mark_value Q rank seen s2 t k below m); eauto. }
    unfold valid_now. cbn [absm m_val abs c_cur absP p_val]. rewrite HE, N.eqb_refl.
    eexists. split; [reflexivity|]. um.
    intros k0. unfold mark, updN. cbn [abs c_memo c_cur absm m_val m_deps].
    destruct (k =? k0); reflexivity.
  - (* Q_publish *)
    pose proof (publish_value Q rank seen s2 t k acc mc below RK I Hst) as HE.
    exists true. eexists. split; [reflexivity|]. um.
    + intros k0. unfold publish, updN. cbn [abs c_memo c_cur absP p_val p_deps].
      destruct (k =? k0); [|reflexivity]. rewrite <- HE. reflexivity.
    + cbn [absP p_val]. rewrite <- HE. reflexivity.
  - (* Q_release_quiet *) rewrite Hrm, Hrs. exists true. eexists. split; [reflexivity | um].
  - (* Q_release_wake *) rewrite Hrm, Hrs. exists true. eexists. split; [reflexivity | um].
  - (* Q_unblock *) rewrite Hub. exists true. eexists. split; [reflexivity | um].
Qed.

End Sim.

Inductive creach2 (fuel : nat) (Q : prog2) : cstate2 -> Prop :=
| cr2_init : creach2 fuel Q cinit2
| cr2_step s o s' : creach2 fuel Q s -> gstep2 fuel Q s o = Some s' -> creach2 fuel Q s'.

Lemma hold2_abs ph : holding (absp ph) = hold2 ph.
Proof. destruct ph; reflexivity. Qed.

Lemma idleb_abst ts : idleb (abst ts) = idleb2 ts.
Proof. unfold idleb, idleb2, abst. cbn. destruct (th2_stack ts); reflexivity. Qed.

Lemma doneb_abst ts : doneb (abst ts) = doneb2 ts.
Proof. unfold doneb, doneb2, abst. cbn. destruct (th2_stack ts); reflexivity. Qed.

Section Top.
Variable fuel : nat.
Variable Q : prog2.
Variable rank : key -> nat.

Notation P' := (absP Q rank).

Lemma stack_of_ceq s s2 t : ceq s (abs s2) -> stack_of s t = map absf (stack2 s2 t).
Proof. intros (_ & _ & _ & Ht & _). unfold stack_of. now rewrite Ht. Qed.

Lemma excl_of_safe s s2 : SafeInv P' s -> ceq s (abs s2) -> excl s2.
Proof.
  intros I He t k ph below t' f' Hst Hh Hin Hh' Hk.
  assert (Hst' : stack_of s t = (k @: absp ph) :: map absf below).
  { rewrite (stack_of_ceq _ _ _ He), Hst. reflexivity. }
  assert (Hin' : In (absf f') (stack_of s t')).
  { rewrite (stack_of_ceq _ _ _ He). now apply in_map. }
  assert (Hha : holding (absp ph) = true) by now rewrite hold2_abs.
  assert (Hhb : holding (f_phase (absf f')) = true) by (cbn; now rewrite hold2_abs).
  destruct (top_holder P' s t k (absp ph) (map absf below) t' (absf f') I Hst' Hha Hin' Hhb Hk) as [-> _].
  split; auto. intros Hb.
  apply (top_unique P' s t k (absp ph) (map absf below) (absf f') I Hst' Hha); auto.
  now apply in_map.
Qed.

Lemma tstep2_inv s2 t c s2' :
  tstep2 fuel Q s2 t c = Some s2' ->
  In t (c2_tids s2) /\ th2_cycle (c2_thr s2 t) = false /\
  exists u2, path2 fuel Q s2 t u2 /\ s2' = apply_upd2 s2 t u2.
Proof.
  unfold tstep2. destruct (mem t (c2_tids s2)) eqn:Em; [|discriminate].
  destruct (step_thread2 fuel Q s2 t c) as [u2|] eqn:E0; [|discriminate]. intros [= <-].
  split; [now apply ProofsList.mem_In|]. split.
  - unfold step_thread2 in E0. destruct (th2_cycle (c2_thr s2 t)); [discriminate | reflexivity].
  - exists u2. split; auto. eapply step_thread2_path; eauto.
Qed.

(* one step of the computed model = one step of the abstract model *)
Lemma sim_tstep seen s s2 t c s2' :
  ranked2 Q rank -> stamps_ok Q -> ceq s (abs s2) -> InvS Q rank seen s2 ->
  tstep2 fuel Q s2 t c = Some s2' ->
  exists c' s', tstep fuel P' s t c' = Some s' /\ ceq s' (abs s2').
Proof.
  intros RK SK He I Hs. destruct (tstep2_inv _ _ _ _ Hs) as (Ht & Hcyc & u2 & Hp & ->).
  destruct (sim_path fuel Q rank seen s2 t u2 RK SK I Hcyc Hp) as (c' & u & Hu & Hm).
  assert (Ha : tstep fuel P' (abs s2) t c' = Some (apply_upd (abs s2) t u)).
  { unfold tstep. cbn [abs c_tids]. apply ProofsList.mem_In in Ht. rewrite Ht, Hu. reflexivity. }
  destruct (tstep_ceq fuel P' _ _ _ _ _ (ceq_sym _ _ He) Ha) as (s' & Hs' & He').
  exists c', s'. split; auto.
  eapply ceq_trans; [apply ceq_sym; exact He'|]. now apply umatch_ceq.
Qed.

Lemma creach2_sim s2 :
  ranked2 Q rank -> stamps_ok Q -> creach2 fuel Q s2 ->
  exists seen s, creach fuel P' s /\ ceq s (abs s2) /\ InvS Q rank seen s2.
Proof.
  intros RK SK. induction 1 as [|s2 o s2' HR (seen & s & HC & He & I) Hs].
  - exists (fun _ _ => False), cinit. split; [constructor|]. split.
    + repeat split; auto.
    + constructor; cbn; try (intros; discriminate); try (intros; contradiction);
        try (intros t; exact Logic.I); try (unfold REV_START; lia).
  - destruct o as [t c| |t ks]; cbn [gstep2] in Hs.
    + destruct (sim_tstep seen s s2 t c s2' RK SK He I Hs) as (c' & s' & Hs' & He').
      destruct (tstep2_inv _ _ _ _ Hs) as (_ & _ & u2 & Hp & ->).
      destruct (inv_path fuel Q rank seen s2 t u2 RK SK I
                  (excl_of_safe _ _ (creach_safe _ _ _ HC) He) Hp) as (seen' & I').
      exists seen', s'. split; [eapply cr_step with (o := GStep t c'); eauto | auto].
    + destruct (forallb (fun t => idleb2 (c2_thr s2 t)) (c2_tids s2)) eqn:Ef; [|discriminate].
      injection Hs as <-.
      assert (Ha : gstep fuel P' (abs s2) GBump =
                   Some (abs (mkC2 (c2_cur s2 + 1) (c2_memo s2) (c2_proto s2) (c2_thr s2) (c2_tids s2) (c2_log s2)))).
      { cbn [gstep abs c_tids c_thr].
        rewrite (forallb_pw (fun t => idleb (abst (c2_thr s2 t))) (fun t => idleb2 (c2_thr s2 t)))
          by (intros x; apply idleb_abst).
        rewrite Ef. reflexivity. }
      destruct (gstep_ceq fuel P' _ _ _ _ (ceq_sym _ _ He) Ha) as (s' & Hs' & He').
      exists seen, s'. split; [eapply cr_step; eauto|]. split; [now apply ceq_sym|].
      assert (Hemp : forall t, stack2 s2 t = []).
      { intros t. pose proof (all_idle _ _ (creach_safe _ _ _ HC)) as AI.
        assert (Hf : forallb (fun t => idleb (c_thr s t)) (c_tids s) = true).
        { destruct He as (_ & _ & _ & Ht & Hd & _). rewrite Hd. cbn [abs c_tids].
          rewrite (forallb_pw _ (fun t => idleb2 (c2_thr s2 t))); auto.
          intros x. rewrite Ht. apply idleb_abst. }
        specialize (AI Hf t). rewrite (stack_of_ceq _ _ _ He) in AI.
        destruct (stack2 s2 t); [reflexivity | discriminate]. }
      destruct I as [A B C D E0 F]. constructor; cbn [c2_memo c2_cur].
      * intros k m Hm. destruct (A _ _ Hm) as (A1 & A2 & A3 & A4 & A5). repeat split; auto. lia.
      * intros k r Hr. specialize (B _ _ Hr). lia.
      * exact C.
      * intros t. unfold stack2 in *. cbn. rewrite Hemp. exact Logic.I.
      * lia.
      * exact F.
    + destruct (idleb2 (c2_thr s2 t)) eqn:Ei; [|discriminate]. injection Hs as <-.
      assert (Ha : gstep fuel P' (abs s2) (GSpawn t ks) =
                   Some (mkC (c2_cur s2) (fun k => option_map absm (c2_memo s2 k)) (c2_proto s2)
                             (updN (fun t => abst (c2_thr s2 t)) t (mkT [] ks false))
                             (if mem t (c2_tids s2) then c2_tids s2 else t :: c2_tids s2) (c2_log s2))).
      { cbn [gstep abs c_tids c_thr]. rewrite idleb_abst, Ei. reflexivity. }
      destruct (gstep_ceq fuel P' _ _ _ _ (ceq_sym _ _ He) Ha) as (s' & Hs' & He').
      exists seen, s'. split; [eapply cr_step; eauto|]. split.
      * eapply ceq_trans; [apply ceq_sym; exact He'|]. unfold ceq, abs. cbn.
        repeat split; auto. intros t'. unfold updN. destruct (t =? t'); reflexivity.
      * unfold idleb2 in Ei. destruct (th2_stack (c2_thr s2 t)) eqn:Es; [|discriminate].
        destruct I as [A B C D E0 F]. constructor; cbn [c2_memo c2_cur]; auto.
        intros t'. unfold stack2. cbn. unfold updN. destruct (N.eqb_spec t t') as [<-|Hne].
        -- cbn. exact Logic.I.
        -- apply D.
Qed.

End Top.
