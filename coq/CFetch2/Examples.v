(* CFetch2/Examples.v — concrete runs (non-vacuity witnesses): three handles, a shared
   sub-query, a waiter, two revisions with a verification that succeeds (mark), one that fails on
   an input stamp (re-execution), and a caller that re-executes because a callee changed. *)
From Salsa Require Import Base.
From Salsa.Proto Require Import Model.
From Salsa.CFetch Require Import Model ProofsTerm Examples.
From Salsa.CFetch2 Require Import Model ProofsEq ProofsRel ProofsVal ProofsSim ProofsTop.

Definition nsum (l : list val) : val := fold_right N.add 0 l.

(* key 1 = in0;  key 2 = in1 + key 1;  key 3 = key 1 + key 2.
   in0 = 5 always; in1 = 7 in revision 1, 9 from revision 2 on. *)
Definition ex2_prog : prog2 :=
  mkQ (fun k => if k =? 1 then [0] else if k =? 2 then [1] else [])
      (fun k => if k =? 2 then [1] else if k =? 3 then [1; 2] else [])
      (fun _ ins vals => nsum ins + nsum vals)
      (fun k => negb (k =? 3))       (* key 3 is a `no_eq` function *)
      (fun r i => if i =? 0 then 5 else if r <? 2 then 7 else 9)
      (fun r i => if i =? 0 then 1 else if r <? 2 then 1 else 2).

Definition ex2_rank (k : key) : nat := N.to_nat k.

Lemma ex2_ranked : ranked2 ex2_prog ex2_rank.
Proof.
  intros k d. cbn. unfold ex2_rank.
  destruct (N.eqb_spec k 2) as [->|_]; [intros [<-|[]]; cbn; lia|].
  destruct (N.eqb_spec k 3) as [->|_]; [intros [<-|[<-|[]]]; cbn; lia | intros []].
Qed.

Lemma ex2_stamps : stamps_ok ex2_prog.
Proof.
  split.
  - intros r i r'. cbn. destruct (i =? 0); [reflexivity|].
    destruct (N.ltb_spec r 2); intros H1 H2; destruct (N.ltb_spec r' 2); try reflexivity; lia.
  - intros r i Hr. cbn. destruct (i =? 0); [lia|]. destruct (N.ltb_spec r 2); lia.
Qed.

(* round-robin driver: every round each listed handle takes one step if it can; returns the
   state and the schedule it actually ran *)
Definition rr_round (ts : list thread) (s : cstate2) (acc : list gop) : cstate2 * list gop :=
  fold_left (fun sa t => match tstep2 10 ex2_prog (fst sa) t true with
                         | Some s' => (s', snd sa ++ [GStep t true])
                         | None => sa
                         end) ts (s, acc).

Fixpoint rr (n : nat) (ts : list thread) (s : cstate2) (acc : list gop) : cstate2 * list gop :=
  match n with
  | O => (s, acc)
  | S n' => let r := rr_round ts s acc in rr n' ts (fst r) (snd r)
  end.

Definition ex2_spawn1 : list gop := [GSpawn 1 [3]; GSpawn 2 [3]; GSpawn 3 [2]].
Definition ex2_start1 : cstate2 :=
  match grun2 10 ex2_prog ex2_spawn1 cinit2 with Some s => s | None => cinit2 end.
Definition ex2_sched1 : list gop := snd (rr 40 [1; 2; 3] ex2_start1 []).
Definition ex2_spawn2 : list gop := [GBump; GSpawn 1 [3]; GSpawn 2 [1]].
Definition ex2_mid : cstate2 :=
  match grun2 10 ex2_prog (ex2_spawn1 ++ ex2_sched1 ++ ex2_spawn2) cinit2 with
  | Some s => s | None => cinit2 end.
Definition ex2_sched2 : list gop := snd (rr 40 [1; 2] ex2_mid []).
Definition ex2_all : list gop := ex2_spawn1 ++ ex2_sched1 ++ ex2_spawn2 ++ ex2_sched2.
Definition ex2_end1 : cstate2 :=
  match grun2 10 ex2_prog (ex2_spawn1 ++ ex2_sched1) cinit2 with Some s => s | None => cinit2 end.
Definition ex2_final : cstate2 :=
  match grun2 10 ex2_prog ex2_all cinit2 with Some s => s | None => cinit2 end.

Lemma grun2_reached fuel Q l :
  creach2 fuel Q (match grun2 fuel Q l cinit2 with Some s => s | None => cinit2 end).
Proof.
  destruct (grun2 fuel Q l cinit2) as [s|] eqn:E; [|constructor].
  eapply grun2_creach; [constructor | exact E].
Qed.

Example ex2_start1_reachable : creach2 10 ex2_prog ex2_start1.
Proof. apply grun2_reached. Qed.

Example ex2_end1_reachable : creach2 10 ex2_prog ex2_end1.
Proof. apply grun2_reached. Qed.

Example ex2_final_reachable : creach2 10 ex2_prog ex2_final.
Proof. apply grun2_reached. Qed.

Example ex2_mid_reachable : creach2 10 ex2_prog ex2_mid.
Proof. apply grun2_reached. Qed.

(* revision 1: keys 1, 2, 3 are executed once each although three handles want them; values
   5, 12, 17; every handle waited once (three Completed wake-ups); all handles done *)
Example ex2_round1 :
  (c2_log ex2_end1, notified (dg (c2_proto ex2_end1)),
   forallb (fun t => doneb2 (c2_thr ex2_end1 t)) (c2_tids ex2_end1)) =
  ([ERet 2 3 1 17; ERet 1 3 1 17; ERet 1 2 1 12; ERet 3 2 1 12; ERet 3 1 1 5; ERet 1 1 1 5;
    EExec 1 1 1; EExec 3 2 1; EExec 1 3 1],
   [(2, Completed); (1, Completed); (3, Completed)], true).
Proof. vm_compute. reflexivity. Qed.

(* revision 2 (input 1 changed): key 1 is verified and marked (changed_at stays 1), key 2 is
   re-executed because its input stamp is newer than its verified_at (new value 14, changed_at
   2), key 3 is re-executed because the walk saw key 2 changed (19); handle 2 reads key 1 *)
Example ex2_round2 :
  (firstn 10 (c2_log ex2_final),
   (c2_memo ex2_final 1, c2_memo ex2_final 2, c2_memo ex2_final 3),
   forallb (fun t => doneb2 (c2_thr ex2_final t)) (c2_tids ex2_final)) =
  ([ERet 1 3 2 19; ERet 1 2 2 14; ERet 1 1 2 5; EExec 1 3 2; ERet 1 2 2 14; ERet 1 1 2 5;
    EExec 1 2 2; ERet 1 1 2 5; ERet 2 1 2 5; ERet 1 1 2 5],
   (Some (mkM2 2 5 1 []), Some (mkM2 2 14 2 [1]), Some (mkM2 2 19 2 [1; 2])), true).
Proof. vm_compute. reflexivity. Qed.

(* the from-scratch values of the two revisions *)
Example ex2_spec :
  (map (E ex2_prog ex2_rank 1) [1; 2; 3], map (E ex2_prog ex2_rank 2) [1; 2; 3]) =
  ([5; 12; 17], [5; 14; 19]).
Proof. vm_compute. reflexivity. Qed.

(* the bound: 90 steps are budgeted at the start of each round; the round-robin schedules took
   36 and 30; at the end nothing is left *)
Example ex2_bound :
  (Phi2 ex2_prog ex2_rank ex2_start1, length ex2_sched1, Phi2 ex2_prog ex2_rank ex2_end1,
   Phi2 ex2_prog ex2_rank ex2_mid, length ex2_sched2, Phi2 ex2_prog ex2_rank ex2_final) =
  (90, 36, 0, 90, 30, 0)%nat.
Proof. vm_compute. reflexivity. Qed.

Example ex2_sched1_run :
  Forall is_gstep ex2_sched1 /\ grun2 10 ex2_prog ex2_sched1 ex2_start1 = Some ex2_end1 /\
  (length (c2_tids ex2_start1) < 10)%nat.
Proof.
  split; [|split].
  - apply Forall_forall. intros o Ho. vm_compute in Ho.
    repeat (destruct Ho as [<-|Ho]; [exact Logic.I|]). destruct Ho.
  - vm_compute. reflexivity.
  - vm_compute. lia.
Qed.
