(* CFetch2/ProofsTop.v — the theorems about the computed model, obtained through the
   refinement: values, at-most-once, deadlock freedom, termination with an explicit bound. *)
From Coq Require Import Wf_nat.
From Salsa Require Import Base.
From Salsa.Proto Require Import Model.
From Salsa.CFetch Require Import Model ProofsProto ProofsRel ProofsSafe ProofsLive ProofsTerm.
From Salsa.CFetch2 Require Import Model ProofsEq ProofsRel ProofsVal ProofsSim.

Section Top2.
Variable fuel : nat.
Variable Q : prog2.
Variable rank : key -> nat.

Notation P' := (absP Q rank).
Notation Ev := (E Q rank).

Lemma ranked_abs : ranked2 Q rank -> ranked P' rank.
Proof. intros RK r k d Hd. exact (RK k d Hd). Qed.

(* THE BOUND of the computed model: the measure of the abstracted state *)
Definition Phi2 (s2 : cstate2) : nat := Phi P' rank (abs s2).

(* every memo of every reachable state carries the from-scratch value of the revision it was
   last verified in — whatever the interleaving; nothing about values is assumed *)
Theorem memo_sound s2 k m :
  ranked2 Q rank -> stamps_ok Q -> creach2 fuel Q s2 -> c2_memo s2 k = Some m ->
  Ev (n_ver m) k = n_val m /\ n_ver m <= c2_cur s2 /\ n_chg m <= n_ver m.
Proof.
  intros RK SK HR Hm. destruct (creach2_sim fuel Q rank s2 RK SK HR) as (seen & s & _ & _ & I).
  destruct (IV_memo _ _ _ _ I _ _ Hm) as (A & B & C & _ & F). repeat split; auto.
Qed.

(* the refinement, without the invariant *)
Theorem refines_abstract s2 :
  ranked2 Q rank -> stamps_ok Q -> creach2 fuel Q s2 ->
  exists s, creach fuel P' s /\ ceq s (abs s2).
Proof.
  intros RK SK HR. destruct (creach2_sim fuel Q rank s2 RK SK HR) as (seen & s & HC & He & _).
  eauto.
Qed.

(* C16_values over the computed model *)
Theorem values_computed s2 :
  ranked2 Q rank -> stamps_ok Q -> creach2 fuel Q s2 ->
  forall t k r v, In (ERet t k r v) (c2_log s2) -> v = Ev r k.
Proof.
  intros RK SK HR t k r v Hin.
  destruct (creach2_sim fuel Q rank s2 RK SK HR) as (seen & s & HC & He & I).
  destruct He as (_ & _ & _ & _ & _ & Hl). cbn [abs c_log] in Hl. rewrite <- Hl in Hin.
  exact (returned_values fuel P' s HC t k r v Hin).
Qed.

Theorem once_computed s2 :
  ranked2 Q rank -> stamps_ok Q -> creach2 fuel Q s2 ->
  forall k r, (count_exec k r (c2_log s2) <= 1)%nat.
Proof.
  intros RK SK HR k r.
  destruct (creach2_sim fuel Q rank s2 RK SK HR) as (seen & s & HC & He & I).
  destruct He as (_ & _ & _ & _ & _ & Hl). cbn [abs c_log] in Hl. rewrite <- Hl.
  exact (once_per_revision fuel P' s HC k r).
Qed.

Lemma enabled_back s2 t c u :
  step_thread fuel P' (abs s2) t c = Some u -> exists c2 u2, step_thread2 fuel Q s2 t c2 = Some u2.
Proof.
  unfold step_thread, step_thread2. cbn [abs c_thr abst th_cycle th_stack th_todo].
  destruct (th2_cycle (c2_thr s2 t)); [discriminate|].
  destruct (th2_stack (c2_thr s2 t)) as [|[k ph] below].
  { cbn [map]. destruct (th2_todo (c2_thr s2 t)); [discriminate | eauto]. }
  cbn [map absf g_key g_phase f_key f_phase]. unfold step_frame, step_frame2.
  cbn [abs c_proto c_memo c_cur c_thr abst th_todo].
  intros H. exists c.
  destruct ph as [| | | |l ok|l acc mc|v ch|v ch]; cbn [absp] in H.
  - destruct (c2_memo s2 k) as [m|]; [destruct (n_ver m =? c2_cur s2)|]; eauto.
  - destruct (Model.step fuel (c2_proto s2) (OClaim t k true)) as [[pr1 out]|]; [|discriminate].
    destruct out as [r| | | | | | |]; try discriminate. destruct r as [md|o|inner]; eauto.
    destruct (Model.step fuel pr1 (OBlockOn t k o)) as [[pr2 out2]|]; [|discriminate].
    destruct out2 as [|b| | | | | |]; try discriminate. destruct b; eauto.
  - destruct (Model.step fuel (c2_proto s2) (OReceive t)) as [[pr1 out]|]; [|discriminate].
    destruct out as [| |[r|]| | | | |]; try discriminate. eauto.
  - destruct (c2_memo s2 k) as [m|]; [destruct (n_ver m =? c2_cur s2); [|destruct c]|]; eauto.
  - destruct l as [|d rest].
    + destruct (c2_memo s2 k) as [m|]; [|eauto].
      destruct (ok && inputs_unchanged Q (c2_cur s2) k (n_ver m)); eauto.
    + destruct (ok && c); eauto.
  - destruct l; eauto.
  - destruct (Model.step fuel (c2_proto s2) (ORemove t k)) as [[pr1 out]|]; [|discriminate].
    destruct out as [| | |st| | | |]; try discriminate.
    destruct (release_script t k st Completed) as [|o1 [|o2 l2]]; eauto.
    + destruct o1; try discriminate; eauto.
    + destruct o1; discriminate.
  - destruct (Model.step fuel (c2_proto s2) (OUnblock t k Completed)) as [[pr1 out]|]; [|discriminate].
    eauto.
Qed.

Theorem no_deadlock_computed s2 :
  ranked2 Q rank -> stamps_ok Q -> creach2 fuel Q s2 -> (length (c2_tids s2) < fuel)%nat ->
  (exists t, In t (c2_tids s2) /\ doneb2 (c2_thr s2 t) = false) ->
  exists t c s2', In t (c2_tids s2) /\ tstep2 fuel Q s2 t c = Some s2'.
Proof.
  intros RK SK HR Hf (t0 & Ht0 & Hd0).
  destruct (creach2_sim fuel Q rank s2 RK SK HR) as (seen & s & HC & He & I).
  pose proof He as (_ & _ & _ & Hthr & Htids & _). cbn [abs c_tids c_thr] in Htids, Hthr.
  destruct (some_thread_can_step fuel P' rank s (ranked_abs RK) HC) as (t & c & s' & Ht & Hs).
  - now rewrite Htids.
  - exists t0. rewrite Htids, Hthr, doneb_abst. auto.
  - destruct (tstep_ceq fuel P' _ _ _ _ _ He Hs) as (a' & Ha & _).
    unfold tstep in Ha. cbn [abs c_tids] in Ha.
    destruct (mem t (c2_tids s2)) eqn:Em; [|discriminate].
    destruct (step_thread fuel P' (abs s2) t c) as [u|] eqn:Eu; [|discriminate].
    destruct (enabled_back _ _ _ _ Eu) as (c2 & u2 & Hu2).
    exists t, c2, (apply_upd2 s2 t u2). split; [now apply ProofsList.mem_In|].
    unfold tstep2. now rewrite Em, Hu2.
Qed.

Theorem step_decreases_computed s2 t c s2' :
  ranked2 Q rank -> stamps_ok Q -> creach2 fuel Q s2 -> tstep2 fuel Q s2 t c = Some s2' ->
  (Phi2 s2' < Phi2 s2)%nat.
Proof.
  intros RK SK HR Hs.
  destruct (creach2_sim fuel Q rank s2 RK SK HR) as (seen & s & HC & He & I).
  destruct (sim_tstep fuel Q rank seen s s2 t c s2' RK SK He I Hs) as (c' & s' & Hs' & He').
  pose proof (step_decreases fuel P' rank s t c' s' (ranked_abs RK) HC Hs') as Hlt.
  unfold Phi2. rewrite <- (Phi_ceq P' rank _ _ He), <- (Phi_ceq P' rank _ _ He'). exact Hlt.
Qed.

Theorem run_bounded_computed : forall l s2 s2',
  ranked2 Q rank -> stamps_ok Q -> creach2 fuel Q s2 -> Forall is_gstep l ->
  grun2 fuel Q l s2 = Some s2' -> (length l + Phi2 s2' <= Phi2 s2)%nat.
Proof.
  induction l as [|o l IH]; intros s2 s2' RK SK HR HG; cbn [grun2 length].
  - intros [= <-]. lia.
  - destruct (gstep2 fuel Q s2 o) as [s1|] eqn:E0; [|discriminate]. intros Hrun.
    inversion HG as [|? ? Ho HG']; subst. destruct o as [t c| |t ks]; try destruct Ho.
    cbn [gstep2] in E0. pose proof (step_decreases_computed _ _ _ _ RK SK HR E0).
    assert (HR1 : creach2 fuel Q s1) by (eapply cr2_step with (o := GStep t c); eauto).
    pose proof (IH _ _ RK SK HR1 HG' Hrun). lia.
Qed.

Lemma grun2_creach : forall l s2 s2',
  creach2 fuel Q s2 -> grun2 fuel Q l s2 = Some s2' -> creach2 fuel Q s2'.
Proof.
  induction l as [|o l IH]; intros s2 s2' HR; cbn [grun2]; [now intros [= <-]|].
  destruct (gstep2 fuel Q s2 o) as [s1|] eqn:E0; [|discriminate]. apply IH. econstructor; eauto.
Qed.

Theorem completes_computed :
  forall s2, ranked2 Q rank -> stamps_ok Q -> creach2 fuel Q s2 -> (length (c2_tids s2) < fuel)%nat ->
  exists l s2', Forall is_gstep l /\ grun2 fuel Q l s2 = Some s2' /\ (length l <= Phi2 s2)%nat /\
                forall t, In t (c2_tids s2') -> doneb2 (c2_thr s2' t) = true.
Proof.
  intros s2 RK SK. remember (Phi2 s2) as n eqn:En. revert s2 En.
  induction n as [n IH] using lt_wf_ind. intros s2 En HR Hf.
  destruct (forallb (fun t => doneb2 (c2_thr s2 t)) (c2_tids s2)) eqn:Ed.
  - exists [], s2. split; [constructor|]. split; [reflexivity|]. split; [cbn; lia|].
    intros t Ht. rewrite forallb_forall in Ed. now apply Ed.
  - assert (Hex : exists t, In t (c2_tids s2) /\ doneb2 (c2_thr s2 t) = false).
    { clear -Ed. induction (c2_tids s2) as [|a l IHl]; [discriminate|]. cbn in Ed.
      destruct (doneb2 (c2_thr s2 a)) eqn:Ea.
      - destruct (IHl Ed) as (t & Ht & Hd). exists t. split; [now right | auto].
      - exists a. split; [now left | auto]. }
    destruct (no_deadlock_computed s2 RK SK HR Hf Hex) as (t & c & s1 & Ht & Hs).
    pose proof (step_decreases_computed _ _ _ _ RK SK HR Hs) as Hlt.
    assert (HR1 : creach2 fuel Q s1) by (eapply cr2_step with (o := GStep t c); eauto).
    assert (Htids : c2_tids s1 = c2_tids s2).
    { destruct (tstep2_inv _ _ _ _ _ _ Hs) as (_ & _ & u2 & _ & ->). reflexivity. }
    destruct (IH (Phi2 s1) ltac:(lia) s1 eq_refl HR1 ltac:(rewrite Htids; exact Hf))
      as (l & s' & HG & Hrun & Hlen & Hdone).
    exists (GStep t c :: l), s'. split; [constructor; [exact Logic.I | exact HG]|].
    split; [cbn [grun2 gstep2]; rewrite Hs; exact Hrun|]. split; [cbn [length]; lia | exact Hdone].
Qed.

Theorem stuck_is_done_computed :
  forall s2, ranked2 Q rank -> stamps_ok Q -> creach2 fuel Q s2 -> (length (c2_tids s2) < fuel)%nat ->
  (forall t c, In t (c2_tids s2) -> tstep2 fuel Q s2 t c = None) ->
  forall t, In t (c2_tids s2) -> doneb2 (c2_thr s2 t) = true.
Proof.
  intros s2 RK SK HR Hf Hstuck t Ht. destruct (doneb2 (c2_thr s2 t)) eqn:Ed; auto. exfalso.
  destruct (no_deadlock_computed s2 RK SK HR Hf) as (t' & c & s' & Ht' & Hs); eauto.
  rewrite (Hstuck t' c Ht') in Hs. discriminate.
Qed.

(* C16, composed: concurrent readers observe sequential results, without deadlock, and
   terminate — over the model that computes what it stores *)
Theorem sequential_results_no_deadlock_terminates :
  forall s2, ranked2 Q rank -> stamps_ok Q -> creach2 fuel Q s2 -> (length (c2_tids s2) < fuel)%nat ->
  (* every value any request returned is the from-scratch value of its revision *)
  (forall t k r v, In (ERet t k r v) (c2_log s2) -> v = Ev r k) /\
  (* every schedule of thread steps from here has at most Phi2 s2 steps *)
  (forall l s2', Forall is_gstep l -> grun2 fuel Q l s2 = Some s2' ->
     (length l + Phi2 s2' <= Phi2 s2)%nat) /\
  (* a schedule that cannot be extended has answered every request: no deadlock *)
  (forall l s2', Forall is_gstep l -> grun2 fuel Q l s2 = Some s2' ->
     (forall t c, In t (c2_tids s2') -> tstep2 fuel Q s2' t c = None) ->
     (forall t, In t (c2_tids s2') -> doneb2 (c2_thr s2' t) = true) /\
     (forall t k r v, In (ERet t k r v) (c2_log s2') -> v = Ev r k)) /\
  (* and such a schedule exists *)
  (exists l s2', Forall is_gstep l /\ grun2 fuel Q l s2 = Some s2' /\ (length l <= Phi2 s2)%nat /\
     forall t, In t (c2_tids s2') -> doneb2 (c2_thr s2' t) = true).
Proof.
  intros s2 RK SK HR Hf. split; [now apply values_computed|]. split.
  { intros l s2' HG Hrun. now apply run_bounded_computed. }
  split; [|now apply completes_computed].
  intros l s2' HG Hrun Hstuck. pose proof (grun2_creach _ _ _ HR Hrun) as HR'.
  assert (Htids : c2_tids s2' = c2_tids s2).
  { clear -HG Hrun. revert s2 Hrun. induction l as [|o l IH]; intros s2; cbn [grun2]; [now intros [= <-]|].
    destruct (gstep2 fuel Q s2 o) as [s1|] eqn:E0; [|discriminate]. intros Hrun.
    inversion HG as [|? ? Ho HG']; subst. destruct o as [t c| |t ks]; try destruct Ho.
    rewrite (IH HG' _ Hrun). cbn [gstep2] in E0.
    destruct (tstep2_inv _ _ _ _ _ _ E0) as (_ & _ & u2 & _ & ->). reflexivity. }
  split; [apply stuck_is_done_computed; auto; now rewrite Htids | now apply values_computed].
Qed.

End Top2.
