(* CFetch2/ProofsVal.v — what the computed model computes is the from-scratch value.

   The invariant ([InvS], with a ghost set [seen k] of revisions in which [k]'s memo was known
   valid — the observer-relative device of the Core proof, DESIGN §7 C01):
     * a memo's value is the from-scratch value at every seen revision not before its
       changed_at (backdating keeps this; "constant on [changed_at, verified_at]" would be false);
     * the verified_at of a memo is a seen revision of each recorded dependency;
     * an executing frame holds the from-scratch values of the callees that returned so far;
       a verifying frame whose flag is still set has seen every walked dependency verified in
       the current revision with changed_at not after its own memo's verified_at;
     * a frame past publication holds the (value, changed_at) of a memo verified now.
   Rely: a memo verified in the current revision is never written again in this revision (the
   writers are executing/verifying claim holders of keys that are NOT verified, claims are
   exclusive — [excl], obtained from CFetch's SafeInv through the abstraction). *)
From Salsa Require Import Base.
From Salsa.Proto Require Import Model.
From Salsa.CFetch Require Import Model.
From Salsa.CFetch2 Require Import Model ProofsRel.

Definition walking (ph : phase2) : bool :=
  match ph with QVerify _ _ | QExec _ _ _ => true | _ => false end.

Definition hold2 (ph : phase2) : bool :=
  match ph with QClaimed | QVerify _ _ | QExec _ _ _ | QRelease _ _ => true | _ => false end.

(* claims are exclusive (what CFetch2 relies on; proved for CFetch) *)
Definition excl (s : cstate2) : Prop :=
  forall t k ph below t' f',
    stack2 s t = (k @@ ph) :: below -> hold2 ph = true ->
    In f' (stack2 s t') -> hold2 (g_phase f') = true -> g_key f' = k ->
    t' = t /\ ~ In f' below.

Section Val.
Variable fuel : nat.
Variable Q : prog2.
Variable rank : key -> nat.

Notation Ev := (E Q rank).

Definition ver2m (mm : key -> option memo2) (cur : rev) (k : key) : Prop :=
  exists m, mm k = Some m /\ n_ver m = cur.

Definition good_dep (mm : key -> option memo2) (cur since : rev) (d : key) : Prop :=
  exists md, mm d = Some md /\ n_ver md = cur /\ n_chg md <= since.

(* [pend] is the frame's call in flight: the key of the frame above it ([stack_ok]), none for
   the top frame.  That dependency has left the frame's list [l] but its result is not yet
   delivered, so it is neither among the walked ones nor among those still to walk. *)
Definition frame_ok mm cur (pend : list key) (f : frame2) : Prop :=
  match g_phase f with
  | QVerify l ok =>
    ~ ver2m mm cur (g_key f) /\
    (ok = true -> exists m, mm (g_key f) = Some m /\
       forall d, In d (n_deps m) -> ~ In d (pend ++ l) -> good_dep mm cur (n_ver m) d)
  | QExec l acc mc =>
    ~ ver2m mm cur (g_key f) /\ mc <= cur /\
    exists done, q_deps Q (g_key f) = done ++ pend ++ l /\ acc = map (Ev cur) done /\
                 forall d, In d done -> good_dep mm cur mc d
  | QRelease v c | QUnblock v c =>
    exists m, mm (g_key f) = Some m /\ n_ver m = cur /\ n_val m = v /\ n_chg m = c
  | _ => True
  end.

Fixpoint stack_ok mm cur (pend : list key) (l : list frame2) : Prop :=
  match l with
  | [] => True
  | f :: b => frame_ok mm cur pend f /\ stack_ok mm cur [g_key f] b
  end.

Record InvS (seen : key -> rev -> Prop) (s : cstate2) : Prop := mkInvS {
  IV_memo : forall k m, c2_memo s k = Some m ->
    n_chg m <= n_ver m /\ n_ver m <= c2_cur s /\ seen k (n_ver m) /\ n_deps m = q_deps Q k /\
    forall r, seen k r -> n_chg m <= r -> Ev r k = n_val m;
  IV_seen : forall k r, seen k r -> r <= c2_cur s;
  IV_dep : forall k m d, c2_memo s k = Some m -> In d (n_deps m) -> seen d (n_ver m);
  IV_stack : forall t, stack_ok (c2_memo s) (c2_cur s) [] (stack2 s t);
  IV_cur : 1 <= c2_cur s;
  IV_closed : forall k r d, seen k r -> In d (q_deps Q k) -> seen d r
}.

Lemma verified_value seen s d md :
  InvS seen s -> c2_memo s d = Some md -> n_ver md = c2_cur s -> Ev (c2_cur s) d = n_val md.
Proof.
  intros I Hm Hv. destruct (IV_memo _ _ I _ _ Hm) as (Hc & _ & Hs & _ & Hval).
  apply Hval; [now rewrite <- Hv | lia].
Qed.

Lemma chg_le_cur seen s d md :
  InvS seen s -> c2_memo s d = Some md -> n_ver md = c2_cur s -> n_chg md <= c2_cur s.
Proof. intros I Hm Hv. destruct (IV_memo _ _ I _ _ Hm) as (Hc & _). lia. Qed.

Lemma frame_stable mm mm' cur k0 pend f :
  ~ ver2m mm cur k0 -> (forall k, k <> k0 -> mm' k = mm k) ->
  (g_key f = k0 -> walking (g_phase f) = false) ->
  frame_ok mm cur pend f -> frame_ok mm' cur pend f.
Proof.
  intros Hun Hoth Hcond. unfold frame_ok.
  assert (Hv : forall d, ver2m mm cur d -> ver2m mm' cur d).
  { intros d (m & Hm & Hvv). exists m. split; auto. rewrite Hoth; auto.
    intros ->. apply Hun. exists m. auto. }
  assert (Hg : forall since d, good_dep mm cur since d -> good_dep mm' cur since d).
  { intros since d (m & Hm & Hvv & Hc). exists m. split; auto. rewrite Hoth; auto.
    intros ->. apply Hun. exists m. auto. }
  destruct (g_phase f) as [| | | |l ok|l acc mc|v c|v c] eqn:Eph; auto.
  - assert (Hne : g_key f <> k0) by (intros E0; specialize (Hcond E0); discriminate).
    intros [Hnv Hok]. split.
    + intros (m & Hm & Hvv). apply Hnv. exists m. rewrite <- Hoth; auto.
    + intros Eok. destruct (Hok Eok) as (m & Hm & Hd). exists m. rewrite Hoth by auto. split; auto.
  - assert (Hne : g_key f <> k0) by (intros E0; specialize (Hcond E0); discriminate).
    intros [Hnv [Hmc (done & Hd & Ha & Hall)]]. split; [|split; [exact Hmc|]].
    + intros (m & Hm & Hvv). apply Hnv. exists m. rewrite <- Hoth; auto.
    + exists done. repeat split; auto.
  - intros (m & Hm & Hvv & Hr). exists m. rewrite Hoth; auto.
    intros E0. apply Hun. exists m. rewrite <- E0. auto.
  - intros (m & Hm & Hvv & Hr). exists m. rewrite Hoth; auto.
    intros E0. apply Hun. exists m. rewrite <- E0. auto.
Qed.

Lemma stack_stable mm mm' cur k0 : forall l pend,
  ~ ver2m mm cur k0 -> (forall k, k <> k0 -> mm' k = mm k) ->
  (forall f, In f l -> g_key f = k0 -> walking (g_phase f) = false) ->
  stack_ok mm cur pend l -> stack_ok mm' cur pend l.
Proof.
  induction l as [|f b IH]; intros pend Hun Hoth Hc; cbn [stack_ok]; auto.
  intros [Hf Hb]. split.
  - exact (frame_stable mm mm' cur k0 pend f Hun Hoth (Hc f (or_introl eq_refl)) Hf).
  - apply IH; auto. intros f' Hf'. apply Hc. now right.
Qed.

Lemma deliver_ok mm cur d v c below md :
  mm d = Some md -> n_ver md = cur -> n_val md = v -> n_chg md = c -> Ev cur d = v -> c <= cur ->
  stack_ok mm cur [d] below -> stack_ok mm cur [] (deliver mm v c below).
Proof.
  intros Hm Hv Hval Hc HE Hcc. destruct below as [|f b]; cbn [deliver stack_ok]; auto.
  intros [Hf Hb]. unfold frame_ok in Hf.
  destruct (g_phase f) as [| | | |l ok|l acc mc|v0 c0|v0 c0] eqn:Eph; cbn [stack_ok g_key];
    (* only a walking frame takes the result in; the others are left as they are *)
    try (split; [unfold frame_ok; rewrite Eph; exact Hf | exact Hb]; fail).
  - (* QVerify *) destruct Hf as [Hnv Hok]. split; [|exact Hb]. unfold frame_ok. cbn [g_phase g_key].
    split; auto. intros Eok. apply andb_true_iff in Eok as [Eok Eun].
    destruct (Hok Eok) as (m & Hmk & Hd). exists m. split; auto.
    rewrite Hmk in Eun. apply N.leb_le in Eun.
    intros d' Hin Hnot. cbn [app] in Hnot.
    destruct (N.eq_dec d' d) as [->|Hne].
    + exists md. repeat split; auto. now rewrite Hc.
    + apply Hd; auto. cbn [app]. intros [E0|E0]; [congruence | contradiction].
  - (* QExec *) destruct Hf as [Hnv [Hmc (done & Hd & Ha & Hall)]]. split; [|exact Hb].
    unfold frame_ok. cbn [g_phase g_key]. split; auto. split; [lia|].
    exists (done ++ [d]). split; [|split].
    + rewrite Hd. cbn [app]. now rewrite <- app_assoc.
    + rewrite map_app, Ha. cbn [map]. now rewrite HE.
    + intros d' Hin. apply in_app_or in Hin as [Hin|[<-|[]]].
      * destruct (Hall _ Hin) as (md' & A & B & C). exists md'. repeat split; auto. lia.
      * exists md. repeat split; auto. lia.
Qed.

End Val.

Lemma fold_max_ge b l x : In x l -> x <= fold_right N.max b l.
Proof. induction l as [|a l IH]; intros []; cbn; [subst; lia | specialize (IH H); lia]. Qed.

Lemma fold_max_le b l c : (forall x, In x l -> x <= c) -> b <= c -> fold_right N.max b l <= c.
Proof.
  induction l as [|a l IH]; intros H Hb; cbn; auto.
  pose proof (H a (or_introl eq_refl)). assert (fold_right N.max b l <= c) by (apply IH; auto; intros x Hx; apply H; now right).
  lia.
Qed.

Section Pres.
Variable fuel : nat.
Variable Q : prog2.
Variable rank : key -> nat.

Notation Ev := (E Q rank).

Lemma stack2_apply s t u t' :
  stack2 (apply_upd2 s t u) t' = if t =? t' then u2_stack u else stack2 s t'.
Proof. unfold stack2, apply_upd2; cbn. unfold updN. destruct (t =? t'); reflexivity. Qed.

Lemma inv_nomemo seen s t u :
  InvS Q rank seen s -> u2_memo u = c2_memo s ->
  stack_ok Q rank (c2_memo s) (c2_cur s) [] (u2_stack u) ->
  InvS Q rank seen (apply_upd2 s t u).
Proof.
  intros [A B C D] Hm Hs. constructor; cbn [c2_memo c2_cur apply_upd2]; rewrite ?Hm; auto.
  intros t'. rewrite stack2_apply. destruct (t =? t'); auto.
Qed.

(* the two memo writes *)
Lemma inv_write seen s t u k0 ph below m' :
  InvS Q rank seen s -> excl s ->
  stack2 s t = (k0 @@ ph) :: below -> hold2 ph = true ->
  ~ ver2m (c2_memo s) (c2_cur s) k0 ->
  u2_memo u = updN (c2_memo s) k0 (Some m') ->
  n_ver m' = c2_cur s -> n_chg m' <= c2_cur s -> n_deps m' = q_deps Q k0 ->
  Ev (c2_cur s) k0 = n_val m' ->
  (forall r, seen k0 r -> n_chg m' <= r -> Ev r k0 = n_val m') ->
  (forall d, In d (q_deps Q k0) -> ver2m (c2_memo s) (c2_cur s) d) ->
  u2_stack u = (k0 @@ QRelease (n_val m') (n_chg m')) :: below ->
  InvS Q rank (fun k r => seen k r \/ (k = k0 /\ r = c2_cur s)) (apply_upd2 s t u).
Proof.
  intros I X Hst Hh Hun Hm Hv Hc Hd HE Hold Hdeps Hs.
  assert (Hoth : forall k, k <> k0 -> u2_memo u k = c2_memo s k).
  { intros k Hk. rewrite Hm. now rewrite updN_other by auto. }
  assert (Hk0 : u2_memo u k0 = Some m') by (rewrite Hm; apply updN_same).
  assert (Hwalk : forall t' f, In f (stack2 s t') -> (t' <> t \/ In f below) -> g_key f = k0 ->
                  walking (g_phase f) = false).
  { intros t' f Hin Hpos Hk. destruct (walking (g_phase f)) eqn:Ew; auto. exfalso.
    assert (Hh' : hold2 (g_phase f) = true) by (destruct (g_phase f); try discriminate; reflexivity).
    destruct (X _ _ _ _ _ _ Hst Hh Hin Hh' Hk) as [Et Hnb]. destruct Hpos; [congruence | contradiction]. }
  constructor; cbn [c2_memo c2_cur apply_upd2].
  - intros k m Hk. destruct (N.eq_dec k k0) as [->|Hne].
    + rewrite Hk0 in Hk. injection Hk as <-. rewrite Hv. split; [exact Hc|]. split; [lia|].
      split; [right; auto|]. split; [exact Hd|].
      intros r [Hr | [_ ->]] Hle; [now apply Hold | exact HE].
    + rewrite Hoth in Hk by auto. destruct (IV_memo _ _ _ _ I _ _ Hk) as (A & B & C & D & F).
      repeat split; auto. intros r [Hr | [E0 _]] Hle; [now apply F | congruence].
  - intros k r [Hr | [_ ->]]; [eapply IV_seen; eauto | lia].
  - intros k m d Hk Hin. destruct (N.eq_dec k k0) as [->|Hne].
    + rewrite Hk0 in Hk. injection Hk as <-. rewrite Hd in Hin. rewrite Hv.
      destruct (Hdeps _ Hin) as (md & Hmd & Hvd).
      destruct (IV_memo _ _ _ _ I _ _ Hmd) as (_ & _ & Hsn & _). left. now rewrite <- Hvd.
    + rewrite Hoth in Hk by auto. left. eapply IV_dep; eauto.
  - intros t'. rewrite stack2_apply. destruct (N.eqb_spec t t') as [<-|Hne].
    + rewrite Hs. cbn [stack_ok g_key]. split.
      * unfold frame_ok. cbn [g_phase g_key]. exists m'. auto.
      * pose proof (IV_stack _ _ _ _ I t) as Hok. rewrite Hst in Hok. cbn [stack_ok g_key] in Hok.
        destruct Hok as [_ Hb].
        eapply (stack_stable Q rank (c2_memo s) (u2_memo u) (c2_cur s) k0);
          [exact Hun | exact Hoth | | exact Hb].
        intros f Hf Hk. apply (Hwalk t f); [rewrite Hst; now right | now right | exact Hk].
    + eapply (stack_stable Q rank (c2_memo s) (u2_memo u) (c2_cur s) k0);
        [exact Hun | exact Hoth | | apply (IV_stack _ _ _ _ I)].
      intros f Hf Hk. apply (Hwalk t' f); auto.
  - apply (IV_cur _ _ _ _ I).
  - intros k r d [Hr | [-> ->]] Hin.
    + left. eapply IV_closed; eauto.
    + destruct (Hdeps _ Hin) as (md & Hmd & Hvd).
      destruct (IV_memo _ _ _ _ I _ _ Hmd) as (_ & _ & Hsn & _). left. now rewrite <- Hvd.
Qed.

Lemma forallb_stamps cur k since :
  inputs_unchanged Q cur k since = true -> forall i, In i (q_ins Q k) -> q_stamp Q cur i <= since.
Proof.
  unfold inputs_unchanged. rewrite forallb_forall. intros H i Hi. apply N.leb_le. now apply H.
Qed.

(* What the model is about to write is the from-scratch value: the two facts that CFetch's
   [R_mark] and [R_publish] take as premises. *)

(* mark_as_verified: every recorded dependency was seen verified now with changed_at not after
   the memo's verified_at, every input stamp is not after it: the old value is still right *)
Lemma mark_value seen s t k below m :
  ranked2 Q rank -> stamps_ok Q -> InvS Q rank seen s ->
  stack2 s t = (k @@ QVerify [] true) :: below -> c2_memo s k = Some m ->
  inputs_unchanged Q (c2_cur s) k (n_ver m) = true ->
  Ev (c2_cur s) k = n_val m.
Proof.
  intros RK SK I Hst Hm Hin.
  pose proof (IV_stack _ _ _ _ I t) as Hok. rewrite Hst in Hok. cbn [stack_ok g_key] in Hok.
  destruct Hok as [Hf _]. unfold frame_ok in Hf. cbn [g_phase g_key] in Hf.
  destruct Hf as [_ Hokk]. destruct (Hokk eq_refl) as (m0 & Hm0 & Hdeps).
  assert (m0 = m) by congruence. subst m0. cbn [app] in Hdeps.
  destruct (IV_memo _ _ _ _ I _ _ Hm) as (Hc & Hle & Hsn & Hd & Hval).
  rewrite <- (Hval (n_ver m) Hsn Hc).
  rewrite (E_unfold Q rank RK (c2_cur s) k), (E_unfold Q rank RK (n_ver m) k). f_equal.
  - apply map_ext_in. intros i Hi. pose proof (forallb_stamps _ _ _ Hin i Hi) as Hs.
    pose proof (proj1 SK (c2_cur s) i) as Hconst. symmetry. now apply Hconst.
  - apply map_ext_in. intros d Hdd. rewrite <- Hd in Hdd.
    destruct (Hdeps d Hdd ltac:(intros [])) as (md & Hmd & Hvd & Hcd).
    destruct (IV_memo _ _ _ _ I _ _ Hmd) as (Hc' & _ & Hsn' & _ & Hval').
    rewrite (Hval' (c2_cur s)); [|now rewrite <- Hvd | lia].
    rewrite (Hval' (n_ver m)); auto. eapply IV_dep; eauto.
Qed.

(* insert_memo: the body applied to the values the callees returned *)
Lemma publish_value seen s t k acc mc below :
  ranked2 Q rank -> InvS Q rank seen s ->
  stack2 s t = (k @@ QExec [] acc mc) :: below ->
  q_body Q k (map (q_in Q (c2_cur s)) (q_ins Q k)) acc = Ev (c2_cur s) k.
Proof.
  intros RK I Hst.
  pose proof (IV_stack _ _ _ _ I t) as Hok. rewrite Hst in Hok. cbn [stack_ok g_key] in Hok.
  destruct Hok as [Hf _]. unfold frame_ok in Hf. cbn [g_phase g_key] in Hf.
  destruct Hf as [_ [_ (done & Hd & Ha & _)]]. cbn [app] in Hd. rewrite app_nil_r in Hd.
  rewrite (E_unfold Q rank RK). now rewrite Ha, Hd.
Qed.

Lemma inv_path seen s t u :
  ranked2 Q rank -> stamps_ok Q -> InvS Q rank seen s -> excl s -> path2 fuel Q s t u ->
  exists seen', InvS Q rank seen' (apply_upd2 s t u).
Proof.
  intros RK SK I X Hp.
  pose proof (IV_stack _ _ _ _ I t) as Hok.
  dpath2 Hp; rewrite Hst in Hok; cbn [stack_ok g_key] in Hok;
    try (destruct Hok as [Hf Hb]; unfold frame_ok in Hf; cbn [g_phase g_key] in Hf).
  - (* Q_begin *)
    exists seen. apply inv_nomemo; auto. cbn. auto.
  - (* Q_hit *)
    exists seen. apply inv_nomemo; auto. cbn [u2_stack].
    eapply deliver_ok; eauto; [eapply verified_value; eauto | eapply chg_le_cur; eauto].
  - (* Q_go_cold *)
    exists seen. apply inv_nomemo; auto. cbn [u2_stack stack_ok g_key]. split; [exact Logic.I | auto].
  - (* Q_claimed *)
    exists seen. apply inv_nomemo; auto. cbn [u2_stack stack_ok g_key]. split; [exact Logic.I | auto].
  - (* Q_blocked *)
    exists seen. apply inv_nomemo; auto. cbn [u2_stack stack_ok g_key]. split; [exact Logic.I | auto].
  - (* Q_cycle1 *)
    exists seen. apply inv_nomemo; auto. cbn [u2_stack stack_ok g_key]. split; [exact Logic.I | auto].
  - (* Q_cycle2 *)
    exists seen. apply inv_nomemo; auto. cbn [u2_stack stack_ok g_key]. split; [exact Logic.I | auto].
  - (* Q_woken *)
    exists seen. apply inv_nomemo; auto. cbn [u2_stack stack_ok g_key]. split; [exact Logic.I | auto].
  - (* Q_recheck_hit *)
    exists seen. apply inv_nomemo; auto. cbn [u2_stack stack_ok g_key]. split; auto.
    unfold frame_ok. cbn [g_phase g_key]. exists m. auto.
  - (* Q_to_verify *)
    exists seen. apply inv_nomemo; auto. cbn [u2_stack stack_ok g_key]. split; auto.
    unfold frame_ok. cbn [g_phase g_key]. split.
    + intros (m0 & Hm0 & Hv0). congruence.
    + intros _. exists m. split; auto. intros d Hin Hnot. exfalso. apply Hnot. cbn [app]. exact Hin.
  - (* Q_exec_start *)
    exists seen. apply inv_nomemo; auto. cbn [u2_stack stack_ok g_key]. split; auto.
    unfold frame_ok. cbn [g_phase g_key]. split.
    + destruct Hph as [[-> Hnv] | (l & ok & ->)].
      * intros (m0 & Hm0 & Hv0). eapply Hnv; eauto.
      * unfold frame_ok in Hf. cbn [g_phase] in Hf. apply Hf.
    + split; [exact (IV_cur _ _ _ _ I)|]. exists []. cbn. repeat split; auto. intros d [].
  - (* Q_call_v *)
    exists seen. apply inv_nomemo; auto. cbn [u2_stack stack_ok g_key]. split; [exact Logic.I|].
    split; auto.
  - (* Q_call_x *)
    exists seen. apply inv_nomemo; auto. cbn [u2_stack stack_ok g_key]. split; [exact Logic.I|].
    split; auto.
  - (* Q_mark *)
    destruct Hf as [Hun Hokk]. destruct (Hokk eq_refl) as (m0 & Hm0 & Hdeps).
    assert (m0 = m) by congruence. subst m0. cbn [app] in Hdeps.
    destruct (IV_memo _ _ _ _ I _ _ Hm) as (Hc & Hle & Hsn & Hd & Hval).
    pose proof (mark_value seen s t k below m RK SK I Hst Hm Hin) as HE.
    eexists. eapply (inv_write seen s t _ k (QVerify [] true) below
                       (mkM2 (c2_cur s) (n_val m) (n_chg m) (n_deps m))); eauto; cbn [n_ver n_chg n_val n_deps]; auto.
    + lia.
    + intros d Hdd. rewrite <- Hd in Hdd.
      destruct (Hdeps d Hdd ltac:(intros [])) as (md & Hmd & Hvd & _). exists md. auto.
  - (* Q_publish *)
    destruct Hf as [Hun [Hmc (done & Hd & Ha & Hall)]]. cbn [app] in Hd. rewrite app_nil_r in Hd.
    pose proof (publish_value seen s t k acc mc below RK I Hst) as HE. symmetry in HE.
    fold nv in HE.
    assert (Hsm : forall i, In i (q_ins Q k) -> q_stamp Q (c2_cur s) i <= stamp_max Q (c2_cur s) k).
    { intros i Hi. unfold stamp_max. apply fold_max_ge. now apply in_map. }
    assert (Hsm2 : stamp_max Q (c2_cur s) k <= c2_cur s).
    { unfold stamp_max. pose proof (IV_cur _ _ _ _ I) as H1. apply fold_max_le; [|exact H1].
      intros x Hx. apply in_map_iff in Hx as (i & <- & _). exact (proj2 SK (c2_cur s) i H1). }
    assert (Hch0 : forall r, seen k r -> ch0 <= r -> Ev r k = nv).
    { intros r Hr Hle. pose proof (IV_seen _ _ _ _ I _ _ Hr) as Hrc. rewrite <- HE.
      rewrite (E_unfold Q rank RK r k), (E_unfold Q rank RK (c2_cur s) k). f_equal.
      - apply map_ext_in. intros i Hi. specialize (Hsm i Hi).
        apply (proj1 SK (c2_cur s) i r); unfold ch0 in Hle; lia.
      - apply map_ext_in. intros d Hdd. rewrite Hd in Hdd.
        destruct (Hall d Hdd) as (md & Hmd & Hvd & Hcd).
        destruct (IV_memo _ _ _ _ I _ _ Hmd) as (_ & _ & Hsn' & _ & Hval').
        rewrite (Hval' r); [|eapply IV_closed; eauto; now rewrite Hd | unfold ch0 in Hle; lia].
        rewrite (Hval' (c2_cur s)); auto; [now rewrite <- Hvd | lia]. }
    eexists. eapply (inv_write seen s t _ k (QExec [] acc mc) below
      (mkM2 (c2_cur s) nv
            (match c2_memo s k with
             | Some mo => if q_eq Q k && (n_val mo =? nv) then n_chg mo else ch0
             | None => ch0 end) (q_deps Q k))); eauto; cbn [n_ver n_chg n_val n_deps]; auto.
    + destruct (c2_memo s k) as [mo|] eqn:Emo; [|unfold ch0; lia].
      destruct (q_eq Q k && (n_val mo =? nv)); [|unfold ch0; lia].
      destruct (IV_memo _ _ _ _ I _ _ Emo) as (? & ? & _). lia.
    + intros r Hr Hle. destruct (c2_memo s k) as [mo|] eqn:Emo; [|now apply Hch0].
      destruct (q_eq Q k && (n_val mo =? nv)) eqn:Eb; [|now apply Hch0].
      apply andb_true_iff in Eb as [_ Eb]. apply N.eqb_eq in Eb.
      destruct (IV_memo _ _ _ _ I _ _ Emo) as (_ & _ & _ & _ & Hval). rewrite <- Eb. now apply Hval.
    + intros d Hdd. rewrite Hd in Hdd. destruct (Hall d Hdd) as (md & Hmd & Hvd & _). exists md. auto.
  - (* Q_release_quiet *)
    exists seen. apply inv_nomemo; auto. cbn [u2_stack].
    destruct Hf as (m & Hm & Hv & Hval & Hc).
    eapply deliver_ok; eauto; [rewrite <- Hval; eapply verified_value; eauto |
                               rewrite <- Hc; eapply chg_le_cur; eauto].
  - (* Q_release_wake *)
    exists seen. apply inv_nomemo; auto. cbn [u2_stack stack_ok g_key]. split; auto.
  - (* Q_unblock *)
    exists seen. apply inv_nomemo; auto. cbn [u2_stack].
    destruct Hf as (m & Hm & Hv & Hval & Hc).
    eapply deliver_ok; eauto; [rewrite <- Hval; eapply verified_value; eauto |
                               rewrite <- Hc; eapply chg_le_cur; eauto].
Qed.

End Pres.
