(* CFetch2/ProofsEq.v — CFetch states up to pointwise equality of their function components
   (no functional extensionality anywhere): the steps and the measure respect it; reachability
   up to [ceq] is [creach2_sim] in ProofsSim.v. *)
From Salsa Require Import Base.
From Salsa.Proto Require Import Model.
From Salsa.CFetch Require Import Model ProofsProto ProofsRel ProofsSafe ProofsLive ProofsTerm.

Definition ceq (s s' : cstate) : Prop :=
  c_cur s = c_cur s' /\ (forall k, c_memo s k = c_memo s' k) /\ c_proto s = c_proto s' /\
  (forall t, c_thr s t = c_thr s' t) /\ c_tids s = c_tids s' /\ c_log s = c_log s'.

Lemma ceq_refl s : ceq s s.
Proof. repeat split; auto. Qed.

Lemma ceq_sym s s' : ceq s s' -> ceq s' s.
Proof. intros (A & B & C & D & E & F). repeat split; auto. Qed.

Lemma ceq_trans s1 s2 s3 : ceq s1 s2 -> ceq s2 s3 -> ceq s1 s3.
Proof.
  intros (A & B & C & D & E & F) (A' & B' & C' & D' & E' & F').
  split; [congruence|]. split; [intros k; now rewrite B|]. split; [congruence|].
  split; [intros t; now rewrite D|]. split; congruence.
Qed.

Definition ueq (u u' : upd) : Prop :=
  u_proto u = u_proto u' /\ (forall k, u_memo u k = u_memo u' k) /\ u_stack u = u_stack u' /\
  u_todo u = u_todo u' /\ u_cycle u = u_cycle u' /\ u_ev u = u_ev u'.

Lemma apply_upd_ceq s s' t u u' : ceq s s' -> ueq u u' -> ceq (apply_upd s t u) (apply_upd s' t u').
Proof.
  intros (A & B & C & D & E & F) (A' & B' & C' & D' & E' & F').
  unfold apply_upd. repeat split; cbn; auto; try congruence.
  intros t'. unfold updN. destruct (t =? t'); [congruence | apply D].
Qed.

Lemma ueq_memo pr mm mm' st td cy ev :
  (forall k, mm k = mm' k) -> ueq (mkU pr mm st td cy ev) (mkU pr mm' st td cy ev).
Proof. intros H. repeat split; exact H. Qed.

Lemma forallb_pw {A} (f g : A -> bool) l : (forall x, f x = g x) -> forallb f l = forallb g l.
Proof. intros H. induction l as [|a l IH]; cbn; auto. now rewrite H, IH. Qed.

Section Eq.
Variable fuel : nat.
Variable P : prog.

Lemma step_thread_ceq s s' t c :
  ceq s s' ->
  match step_thread fuel P s t c, step_thread fuel P s' t c with
  | Some u, Some u' => ueq u u'
  | None, None => True
  | _, _ => False
  end.
Proof.
  intros (Hc & Hm & Hp & Ht & _ & _).
  unfold step_thread. rewrite <- (Ht t). rewrite <- Hp.
  destruct (th_cycle (c_thr s t)); auto.
  destruct (th_stack (c_thr s t)) as [|[k ph] below].
  { destruct (th_todo (c_thr s t)); auto. repeat split; auto. }
  assert (U : forall k0 v, forall k', updN (c_memo s) k0 v k' = updN (c_memo s') k0 v k').
  { intros k0 v k'. unfold updN. destruct (k0 =? k'); auto. }
  cbn [f_key f_phase]. destruct ph as [| | | |l|l|v|v]; cbn [step_frame]; unfold valid_now, mark, publish;
    rewrite <- ?(Hm k), <- ?Hc, <- ?Hp.
  all: repeat match goal with
       | |- context [match ?x with _ => _ end] =>
         lazymatch x with
         | context [match _ with _ => _ end] => fail
         | _ => destruct x
         end
       end; try exact Logic.I; apply ueq_memo; first [exact Hm | apply U].
Qed.

Lemma tstep_ceq s s' t c s1 :
  ceq s s' -> tstep fuel P s t c = Some s1 ->
  exists s1', tstep fuel P s' t c = Some s1' /\ ceq s1 s1'.
Proof.
  intros He. pose proof (step_thread_ceq s s' t c He) as H.
  destruct He as (Hc & Hm & Hp & Ht & Hd & Hl). unfold tstep. rewrite <- Hd.
  destruct (mem t (c_tids s)); [|discriminate].
  destruct (step_thread fuel P s t c) as [u|], (step_thread fuel P s' t c) as [u'|];
    try discriminate; try contradiction.
  intros [= <-]. eexists. split; [reflexivity|]. apply apply_upd_ceq; auto. repeat split; auto.
Qed.

Lemma gstep_ceq s s' o s1 :
  ceq s s' -> gstep fuel P s o = Some s1 ->
  exists s1', gstep fuel P s' o = Some s1' /\ ceq s1 s1'.
Proof.
  intros He. destruct o as [t c| |t ks]; cbn [gstep].
  - now apply tstep_ceq.
  - destruct He as (Hc & Hm & Hp & Ht & Hd & Hl). rewrite <- Hd.
    assert (E : forallb (fun t => idleb (c_thr s' t)) (c_tids s) =
                forallb (fun t => idleb (c_thr s t)) (c_tids s)).
    { apply forallb_pw. intros t. now rewrite Ht. }
    rewrite E. destruct (forallb (fun t => idleb (c_thr s t)) (c_tids s)); [|intros Hx; discriminate Hx].
    intros [= <-].
    eexists. split; [reflexivity|]. repeat split; cbn; auto. congruence.
  - destruct He as (Hc & Hm & Hp & Ht & Hd & Hl). rewrite <- (Ht t), <- Hd.
    destruct (idleb (c_thr s t)); [|intros Hx; discriminate Hx]. intros [= <-].
    eexists. split; [reflexivity|]. repeat split; cbn; auto.
    intros t'. unfold updN. destruct (t =? t'); auto.
Qed.

End Eq.

(* the termination measure only looks at the state pointwise *)
Section MeasureExt.
Variable P : prog.
Variable rank : key -> nat.

Lemma Wf_ext mm mm' cur : (forall k, mm k = mm' k) -> forall n k, Wf P n mm cur k = Wf P n mm' cur k.
Proof.
  intros H. induction n as [|n IH]; intros k; cbn [Wf]; unfold verb, vdeps; rewrite <- (H k); auto.
  destruct (match mm k with Some m => m_ver m =? cur | None => false end); auto.
  f_equal; [f_equal|]; f_equal; apply map_ext; intros d; now rewrite IH.
Qed.

Lemma fw_ext mm mm' cur f : (forall k, mm k = mm' k) -> fw P rank mm cur f = fw P rank mm' cur f.
Proof.
  intros H. unfold fw, Wk, Sw, verb. rewrite <- (H (f_key f)).
  destruct (f_phase f); auto; rewrite ?(Wf_ext mm mm' cur H); auto.
  - f_equal. f_equal; f_equal; apply map_ext; intros d; now rewrite (Wf_ext mm mm' cur H).
  - f_equal. f_equal. apply map_ext; intros d; now rewrite (Wf_ext mm mm' cur H).
Qed.

Lemma Phi_ceq s s' : ceq s s' -> Phi P rank s = Phi P rank s'.
Proof.
  intros (Hc & Hm & Hp & Ht & Hd & Hl). unfold Phi. rewrite <- Hd. f_equal. apply map_ext.
  intros t. unfold tw, stack_of, todo_of, stw, tdw, Wk. rewrite <- (Ht t), <- Hc. f_equal.
  - f_equal. apply map_ext. intros f. now apply fw_ext.
  - f_equal. apply map_ext. intros k. now rewrite (Wf_ext _ _ _ Hm).
Qed.

End MeasureExt.
