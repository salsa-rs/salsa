(* Cancel/ProofsWR.v — lemmas about the WRITER/READER machine and the stamp rule (C20). *)
From Salsa Require Import Base.
From Salsa.Cancel Require Import Model ProofsTok.

(* ---------- list-of-handles plumbing ---------- *)

Lemma find_h_some hs id h : find_h hs id = Some h -> In h hs /\ h_id h = id.
Proof.
  unfold find_h. intros H. apply find_some in H. destruct H as [Hin He].
  apply N.eqb_eq in He. auto.
Qed.

Lemma nodup_ids_inj hs a b :
  NoDup (map h_id hs) -> In a hs -> In b hs -> h_id a = h_id b -> a = b.
Proof.
  induction hs as [| x hs IH]; intros Hnd Ha Hb He; [contradiction |].
  cbn in Hnd. inversion Hnd as [| ? ? Hnot Hnd']; subst.
  destruct Ha as [-> | Ha], Hb as [-> | Hb]; auto.
  - exfalso. apply Hnot. rewrite He. apply in_map; exact Hb.
  - exfalso. apply Hnot. rewrite <- He. apply in_map; exact Ha.
Qed.

Lemma find_h_in hs id h :
  NoDup (map h_id hs) -> In h hs -> h_id h = id -> find_h hs id = Some h.
Proof.
  intros Hnd Hin He. unfold find_h.
  destruct (find (fun h0 => h_id h0 =? id) hs) as [g |] eqn:Ef.
  - apply find_some in Ef. destruct Ef as [Hg Hge]. apply N.eqb_eq in Hge.
    f_equal. eapply nodup_ids_inj; eauto. congruence.
  - exfalso. pose proof (find_none _ _ Ef h Hin) as Hn. cbn in Hn.
    apply N.eqb_neq in Hn. contradiction.
Qed.

Lemma upd_h_ids hs id f :
  (forall h, h_id (f h) = h_id h) -> map h_id (upd_h hs id f) = map h_id hs.
Proof.
  intros Hf. unfold upd_h. rewrite map_map. apply map_ext. intros h.
  destruct (h_id h =? id); auto.
Qed.

Lemma upd_h_length hs id f : length (upd_h hs id f) = length hs.
Proof. unfold upd_h. apply map_length. Qed.

Lemma upd_h_notin hs id f : ~ In id (map h_id hs) -> upd_h hs id f = hs.
Proof.
  induction hs as [| x hs IH]; intros Hn; [reflexivity |].
  cbn in *. destruct (N.eqb_spec (h_id x) id) as [E | E]; [exfalso; auto |].
  f_equal. apply IH. tauto.
Qed.

Lemma del_h_notin hs id : ~ In id (map h_id hs) -> del_h hs id = hs.
Proof.
  induction hs as [| x hs IH]; intros Hn; [reflexivity |].
  cbn in *. destruct (N.eqb_spec (h_id x) id) as [E | E]; [exfalso; auto |].
  cbn. f_equal. apply IH. tauto.
Qed.

(* Names being distinct, the handle found under [id] sits at one position of the list, and
   [upd_h] and [del_h] act there only.  Sums and searches over the changed list are then
   computed with the lemmas about [++]. *)
Lemma find_h_split hs id h :
  NoDup (map h_id hs) -> find_h hs id = Some h ->
  exists l1 l2, hs = l1 ++ h :: l2 /\
    (forall f, upd_h hs id f = l1 ++ f h :: l2) /\ del_h hs id = l1 ++ l2.
Proof.
  induction hs as [| x hs IH]; intros Hnd Hf; [discriminate |].
  cbn in Hnd. inversion Hnd as [| ? ? Hnot Hnd']; subst.
  unfold find_h in Hf. cbn [find] in Hf. unfold upd_h, del_h. cbn [map filter].
  fold (del_h hs id).
  destruct (h_id x =? id) eqn:E; cbn [negb].
  - apply N.eqb_eq in E. inversion Hf; subst x id. exists [], hs.
    split; [reflexivity |].
    split; [intros f; cbn [app]; f_equal; apply (upd_h_notin _ _ f Hnot) |
            apply del_h_notin; exact Hnot].
  - destruct (IH Hnd' Hf) as (l1 & l2 & E0 & Eu & Ed). exists (x :: l1), l2.
    split; [cbn [app]; f_equal; exact E0 |].
    split; [intros f; cbn [app]; f_equal; apply Eu | cbn [app]; f_equal; exact Ed].
Qed.

Lemma sumf_app g a b : sumf g (a ++ b) = (sumf g a + sumf g b)%nat.
Proof. induction a as [| x a IH]; cbn; [reflexivity | rewrite IH; lia]. Qed.

Lemma sumf_upd g hs id f h :
  NoDup (map h_id hs) -> find_h hs id = Some h ->
  (sumf g (upd_h hs id f) + g h = sumf g hs + g (f h))%nat.
Proof.
  intros Hnd Hf. destruct (find_h_split _ _ _ Hnd Hf) as (l1 & l2 & -> & Eu & _).
  rewrite Eu, !sumf_app. cbn. lia.
Qed.

Lemma sumf_del g hs id h :
  NoDup (map h_id hs) -> find_h hs id = Some h ->
  (sumf g (del_h hs id) + g h = sumf g hs)%nat.
Proof.
  intros Hnd Hf. destruct (find_h_split _ _ _ Hnd Hf) as (l1 & l2 & -> & _ & Ed).
  rewrite Ed, !sumf_app. cbn. lia.
Qed.

Lemma existsb_upd p hs id f h :
  NoDup (map h_id hs) -> find_h hs id = Some h -> p (f h) = p h ->
  existsb p (upd_h hs id f) = existsb p hs.
Proof.
  intros Hnd Hf Hp. destruct (find_h_split _ _ _ Hnd Hf) as (l1 & l2 & -> & Eu & _).
  rewrite Eu, !existsb_app. cbn. rewrite Hp. reflexivity.
Qed.

Lemma existsb_del (p : handle -> bool) hs id h :
  NoDup (map h_id hs) -> find_h hs id = Some h -> p h = false ->
  existsb p (del_h hs id) = existsb p hs.
Proof.
  intros Hnd Hf Hp. destruct (find_h_split _ _ _ Hnd Hf) as (l1 & l2 & -> & _ & Ed).
  rewrite Ed, !existsb_app. cbn. rewrite Hp. reflexivity.
Qed.

Lemma del_h_nodup hs id h :
  NoDup (map h_id hs) -> find_h hs id = Some h -> NoDup (map h_id (del_h hs id)).
Proof.
  intros Hnd Hf. destruct (find_h_split _ _ _ Hnd Hf) as (l1 & l2 & -> & _ & Ed).
  rewrite Ed. rewrite map_app in *. eapply NoDup_remove_1. exact Hnd.
Qed.

Lemma in_upd_h hs id f h :
  NoDup (map h_id hs) -> find_h hs id = Some h ->
  forall g, In g (upd_h hs id f) -> (In g hs /\ h_id g <> id) \/ g = f h.
Proof.
  intros Hnd Hf g H. unfold upd_h in H. apply in_map_iff in H. destruct H as [x [He Hx]].
  destruct (N.eqb_spec (h_id x) id) as [E | E]; subst g; [right | left; auto].
  destruct (find_h_some _ _ _ Hf) as [Hh Hhe]. f_equal. eapply nodup_ids_inj; eauto. congruence.
Qed.

Lemma in_upd_h_same hs id f h : find_h hs id = Some h -> In (f h) (upd_h hs id f).
Proof.
  intros Hf. destruct (find_h_some _ _ _ Hf) as [Hin He].
  unfold upd_h. apply in_map_iff. exists h. split; [| exact Hin].
  apply N.eqb_eq in He. rewrite He. reflexivity.
Qed.

Lemma in_del_h hs id h' : In h' (del_h hs id) <-> In h' hs /\ h_id h' <> id.
Proof.
  unfold del_h. rewrite filter_In. rewrite negb_true_iff, N.eqb_neq. tauto.
Qed.

Lemma sumf_one hs : sumf (fun _ => 1%nat) hs = length hs.
Proof. induction hs as [| x hs IH]; cbn; [reflexivity | rewrite IH; reflexivity]. Qed.

Lemma sumf_zero g hs : sumf g hs = 0%nat -> forall h, In h hs -> g h = 0%nat.
Proof.
  induction hs as [| x hs IH]; intros Hz h Hin; [contradiction |].
  cbn in Hz. destruct Hin as [-> | Hin]; [lia | apply IH; [lia | exact Hin]].
Qed.

Lemma sumf_pos g hs h : In h hs -> (g h <= sumf g hs)%nat.
Proof.
  induction hs as [| x hs IH]; intros Hin; [contradiction |].
  cbn. destruct Hin as [-> | Hin]; [lia |]. specialize (IH Hin). lia.
Qed.

Lemma in_length_pos (hs : list handle) h : In h hs -> (1 <= length hs)%nat.
Proof. destruct hs; [contradiction | cbn; lia]. Qed.

Lemma len1_in (hs : list handle) a b : length hs = 1%nat -> In a hs -> In b hs -> a = b.
Proof.
  destruct hs as [| x [| y hs]]; cbn; intros Hl Ha Hb; try discriminate.
  destruct Ha as [<- | []], Hb as [<- | []]. reflexivity.
Qed.

Lemma len1_upd hs id f h :
  length hs = 1%nat -> find_h hs id = Some h -> hs = [h] /\ upd_h hs id f = [f h].
Proof.
  intros Hl Hf. destruct (find_h_some _ _ _ Hf) as [Hin He].
  destruct hs as [| x [| y hs]]; cbn in Hl; try discriminate.
  destruct Hin as [-> | []]. split; [reflexivity |].
  cbn. apply N.eqb_eq in He. rewrite He. reflexivity.
Qed.

Lemma NoDup_app_single (l : list N) x : NoDup l -> ~ In x l -> NoDup (l ++ [x]).
Proof.
  induction l as [| y l IH]; intros Hnd Hn; cbn.
  - constructor; [intros [] | constructor].
  - inversion Hnd as [| ? ? Hy Hnd']; subst. constructor.
    + intros Hin. apply in_app_or in Hin. destruct Hin as [Hin | [<- | []]]; [auto |].
      apply Hn. left; reflexivity.
    + apply IH; [exact Hnd' |]. intros Hin. apply Hn. right; exact Hin.
Qed.

Definition b2n (b : bool) : nat := if b then 1%nat else 0%nat.

(* how many handles are inside a clone; how many still hold their Arc<Zalsa> *)
Definition cl_n (hs : list handle) : nat := sumf (fun h => b2n (h_cloning h)) hs.
Definition live_n (hs : list handle) : nat := sumf (fun h => b2n (negb (is_dropping h))) hs.

(* the ghost epoch a handle carries while it is inside tracked functions *)
Definition running_epoch (st : hst) : option epoch :=
  match st with HRunning e | HUnwinding e => Some e | _ => None end.

Definition dropping (st : hst) : bool := match st with HDropping => true | _ => false end.

Definition in_flag_phase (h : handle) : bool := flag_phase (h_st h).

(* ---------- epochs ---------- *)

Lemma ep_le_refl e : ep_le e e.
Proof. left; reflexivity. Qed.

Lemma ep_lt_le_trans a b c : ep_lt a b -> ep_le b c -> ep_lt a c.
Proof.
  intros Hab [-> | Hbc]; [exact Hab |].
  unfold ep_lt in *. lia.
Qed.

Lemma ep_le_lt_trans a b c : ep_le a b -> ep_lt b c -> ep_lt a c.
Proof.
  intros [-> | Hab] Hbc; [exact Hbc |].
  unfold ep_lt in *. lia.
Qed.

Lemma ep_le_trans a b c : ep_le a b -> ep_le b c -> ep_le a c.
Proof.
  intros [-> | Hab] Hbc; [exact Hbc |]. right. eapply ep_lt_le_trans; eauto.
Qed.

Lemma ep_lt_neq a b : ep_lt a b -> a <> b.
Proof. intros H ->. unfold ep_lt in H. lia. Qed.

Lemma stamp_accepts_true cur m : stamp_accepts cur m = true <-> m = cur.
Proof.
  unfold stamp_accepts. rewrite andb_true_iff, !N.eqb_eq.
  destruct cur, m; cbn. split; [intros [-> ->]; reflexivity | intros E; inversion E; auto].
Qed.

Lemma stamp_rejects_lt cur m : ep_lt m cur -> stamp_accepts cur m = false.
Proof.
  intros Hlt. destruct (stamp_accepts cur m) eqn:E; [| reflexivity].
  apply stamp_accepts_true in E. exfalso. exact (ep_lt_neq _ _ Hlt E).
Qed.

(* ---------- the invariant ---------- *)

Record winv (s : wstate) : Prop := {
  wi_nodup : NoDup (map h_id (w_hs s));
  wi_fresh : forall h, In h (w_hs s) -> h_id h < w_next s;
  (* the two counters say what the list says: a cloning handle is counted twice, as it has
     bumped [clones] and not yet produced the new handle *)
  wi_clones : w_clones s = N.of_nat (length (w_hs s) + cl_n (w_hs s));
  wi_arc : w_arc s = N.of_nat (live_n (w_hs s));
  (* a writer past its wait is alone: this is what makes Arc::get_mut succeed *)
  wi_excl : forall h, In h (w_hs s) -> past_wait (h_st h) = true ->
            length (w_hs s) = 1%nat /\ cl_n (w_hs s) = 0%nat;
  wi_cloning : forall h, In h (w_hs s) -> h_cloning h = true ->
               h_st h = HIdle \/ exists e, h_st h = HRunning e;
  (* the epoch moves only under a writer that is alone, so nobody runs in an old one
     and nothing is stamped ahead of it *)
  wi_epoch : forall h e, In h (w_hs s) -> running_epoch (h_st h) = Some e -> e = w_epoch s;
  wi_stamps : forall e, In e (w_stamps s) -> ep_le e (w_epoch s);
  wi_count : w_count s <= U8_MAX;
  wi_flag : w_flag s = existsb in_flag_phase (w_hs s)
}.

Lemma winv_init : winv winit.
Proof.
  constructor; cbn.
  - constructor; [intros [] | constructor].
  - intros h [<- | []]. cbn. lia.
  - reflexivity.
  - reflexivity.
  - intros h [<- | []]. cbn. discriminate.
  - intros h [<- | []]. cbn. discriminate.
  - intros h e [<- | []]. cbn. discriminate.
  - intros e [].
  - unfold U8_MAX. lia.
  - reflexivity.
Qed.

Lemma flag_iff s :
  winv s -> (w_flag s = true <-> exists g, In g (w_hs s) /\ flag_phase (h_st g) = true).
Proof. intros Hi. rewrite (wi_flag _ Hi). apply existsb_exists. Qed.

Lemma st_of_inv s id st :
  st_of s id = Some st ->
  exists h, find_h (w_hs s) id = Some h /\ h_cloning h = false /\ h_st h = st.
Proof.
  unfold st_of. destruct (find_h (w_hs s) id) as [h |]; [| discriminate].
  destruct (h_cloning h) eqn:Ec; [discriminate |]. intros E; inversion E. eauto.
Qed.

Lemma is_dropping_set_st st h : is_dropping (set_st st h) = match st with HDropping => true | _ => false end.
Proof. reflexivity. Qed.

(* every step that changes one handle and leaves their number alone is an instance *)
Lemma winv_upd s s' id h f :
  winv s -> find_h (w_hs s) id = Some h -> (forall x, h_id (f x) = h_id x) ->
  w_hs s' = upd_h (w_hs s) id f -> w_next s' = w_next s -> w_stamps s' = w_stamps s ->
  (* clones counts the handle twice while it is cloning, the Arc count not at all once it drops *)
  w_clones s' + N.of_nat (b2n (h_cloning h)) = w_clones s + N.of_nat (b2n (h_cloning (f h))) ->
  w_arc s' + N.of_nat (b2n (negb (is_dropping h)))
    = w_arc s + N.of_nat (b2n (negb (is_dropping (f h)))) ->
  (* a writer gets past its wait only by seeing clones = 1 *)
  (past_wait (h_st (f h)) = true ->
   h_cloning (f h) = false /\ (past_wait (h_st h) = true \/ w_clones s = 1)) ->
  (h_cloning (f h) = true -> h_st (f h) = HIdle \/ exists e, h_st (f h) = HRunning e) ->
  (forall e, running_epoch (h_st (f h)) = Some e -> e = w_epoch s') ->
  (w_epoch s' = w_epoch s \/ (ep_lt (w_epoch s) (w_epoch s') /\ past_wait (h_st h) = true)) ->
  w_count s' <= U8_MAX ->
  w_flag s' = existsb in_flag_phase (upd_h (w_hs s) id f) ->
  winv s'.
Proof.
  intros [Hnd Hfr Hcl Harc Hex Hcn Hep Hst Hct Hfl] Hf Hid Ehs En Est Ecl Earc Hpw Hcln Hrun
         Hmove Hct' Hflag.
  destruct (find_h_some _ _ _ Hf) as [Hh Hhe].
  pose proof (sumf_upd (fun x => b2n (h_cloning x)) _ _ f _ Hnd Hf) as Ecn.
  pose proof (sumf_upd (fun x => b2n (negb (is_dropping x))) _ _ f _ Hnd Hf) as Eln.
  pose proof (in_upd_h _ _ f _ Hnd Hf) as Hin. cbn beta in Ecn, Eln.
  assert (Hone : forall g, In g (w_hs s) -> h_id g <> id -> length (w_hs s) <> 1%nat).
  { intros g Hg Hne Hl. apply Hne. rewrite <- Hhe. f_equal. eapply len1_in; eauto. }
  unfold cl_n, live_n in *.
  constructor; rewrite ?Ehs; unfold cl_n, live_n.
  - rewrite upd_h_ids by exact Hid. exact Hnd.
  - rewrite En. intros g Hg. destruct (Hin g Hg) as [[Hg' _] | ->]; [| rewrite Hid]; auto.
  - rewrite upd_h_length. clear - Hcl Ecl Ecn. lia.
  - clear - Harc Earc Eln. lia.
  - rewrite upd_h_length. intros g Hg Hp. destruct (Hin g Hg) as [[Hg' Hne] | ->].
    + destruct (Hex g Hg' Hp) as [Hl _]. destruct (Hone g Hg' Hne Hl).
    + destruct (Hpw Hp) as [Hc' Halone]. rewrite Hc' in Ecn.
      assert (Hl : length (w_hs s) = 1%nat /\
                   sumf (fun x => b2n (h_cloning x)) (w_hs s) = 0%nat).
      { destruct Halone as [Hp' | E1]; [exact (Hex h Hh Hp') |].
        pose proof (in_length_pos _ _ Hh) as H1. clear - Hcl E1 H1. lia. }
      clear - Hl Ecn. cbn in Ecn. lia.
  - intros g Hg Hgc. destruct (Hin g Hg) as [[Hg' _] | ->]; auto.
  - intros g e Hg Hr. destruct (Hin g Hg) as [[Hg' Hne] | ->]; [| auto].
    destruct Hmove as [-> | [_ Hp]]; [eauto |].
    destruct (Hex h Hh Hp) as [Hl _]. destruct (Hone g Hg' Hne Hl).
  - rewrite Est. intros e He. eapply ep_le_trans; [apply Hst; exact He |].
    destruct Hmove as [-> | [Hlt _]]; [apply ep_le_refl | right; exact Hlt].
  - exact Hct'.
  - exact Hflag.
Qed.

Lemma flag_kept s id h st st' :
  winv s -> find_h (w_hs s) id = Some h -> h_st h = st -> flag_phase st' = flag_phase st ->
  w_flag s = existsb in_flag_phase (upd_h (w_hs s) id (set_st st')).
Proof.
  intros Hi Hf Hs Hp. rewrite (existsb_upd _ _ _ _ _ (wi_nodup _ Hi) Hf); [apply (wi_flag _ Hi) |].
  unfold in_flag_phase. cbn [set_st h_st]. rewrite Hs. exact Hp.
Qed.

Lemma winv_setst s s' id h st st' :
  winv s -> find_h (w_hs s) id = Some h -> h_cloning h = false -> h_st h = st ->
  w_hs s' = upd_h (w_hs s) id (set_st st') ->
  w_next s' = w_next s -> w_stamps s' = w_stamps s -> w_clones s' = w_clones s ->
  w_count s' = w_count s -> w_rev s' = w_rev s ->
  w_arc s' + N.of_nat (b2n (negb (dropping st))) = w_arc s + N.of_nat (b2n (negb (dropping st'))) ->
  (past_wait st' = true -> past_wait st = true \/ w_clones s = 1) ->
  (forall e, running_epoch st' = Some e -> e = w_epoch s) ->
  w_flag s' = existsb in_flag_phase (upd_h (w_hs s) id (set_st st')) ->
  winv s'.
Proof.
  intros Hi Hf Hc Hs Ehs En Est Ecl Ect Erv Earc Hpw Hrun Hflag.
  assert (Eep : w_epoch s' = w_epoch s) by (unfold w_epoch; congruence).
  apply (winv_upd s s' id h (set_st st') Hi Hf); auto; cbn [set_st h_st h_cloning].
  - rewrite Ecl. reflexivity.
  - unfold is_dropping. cbn [set_st h_st]. rewrite Hs. exact Earc.
  - rewrite Hs. auto.
  - congruence.
  - rewrite Eep. exact Hrun.
  - rewrite Ect. apply (wi_count _ Hi).
Qed.

Lemma winv_writer s s' id h st st' :
  winv s -> find_h (w_hs s) id = Some h -> h_cloning h = false -> h_st h = st ->
  past_wait st = true -> flag_phase st = false ->
  flag_phase st' = false -> running_epoch st' = None -> dropping st' = false ->
  w_hs s' = upd_h (w_hs s) id (set_st st') ->
  w_next s' = w_next s -> w_stamps s' = w_stamps s -> w_clones s' = w_clones s ->
  w_arc s' = w_arc s -> w_flag s' = w_flag s ->
  ep_le (w_epoch s) (w_epoch s') -> w_count s' <= U8_MAX ->
  winv s'.
Proof.
  intros Hi Hf Hc Hs Hp Hfp Hfp' Hre Hd' Ehs En Est Ecl Earc Efl Hle Hct'.
  assert (Hd : dropping st = false) by (destruct st; try discriminate; reflexivity).
  apply (winv_upd s s' id h (set_st st') Hi Hf); auto; cbn [set_st h_st h_cloning].
  - rewrite Ecl. reflexivity.
  - unfold is_dropping. cbn [set_st h_st]. rewrite Hs. fold (dropping st) (dropping st').
    rewrite Hd, Hd', Earc. reflexivity.
  - rewrite Hs. auto.
  - congruence.
  - rewrite Hre. discriminate.
  - destruct Hle as [<- | Hlt]; [left; reflexivity | right; rewrite Hs; auto].
  - rewrite Efl. apply (flag_kept _ _ _ _ _ Hi Hf Hs). congruence.
Qed.

Lemma winv_clone_end s id s' o : winv s -> wstep s (ACloneEnd id) = Some (s', o) -> winv s'.
Proof.
  intros [Hnd Hfr Hcl Harc Hex Hcn Hep Hst Hct Hfl] Hstep. cbn [wstep] in Hstep.
  destruct (find_h (w_hs s) id) as [h |] eqn:Hf; [| discriminate].
  destruct (h_cloning h) eqn:Hc; [| discriminate].
  injection Hstep as <- <-.
  destruct (find_h_some _ _ _ Hf) as [Hh Hhe].
  set (nh := {| h_id := w_next s; h_st := HIdle; h_cloning := false |}).
  assert (Hin : forall g, In g (upd_h (w_hs s) id (set_cloning false) ++ [nh]) ->
                (In g (w_hs s) /\ h_id g <> id) \/ g = set_cloning false h \/ g = nh).
  { intros g Hg. apply in_app_or in Hg. destruct Hg as [Hg | [<- | []]]; [| auto].
    destruct (in_upd_h _ _ _ _ Hnd Hf g Hg); auto. }
  pose proof (sumf_upd (fun x => b2n (h_cloning x)) _ _ (set_cloning false) _ Hnd Hf) as Ecn.
  pose proof (sumf_upd (fun x => b2n (negb (is_dropping x))) _ _ (set_cloning false) _ Hnd Hf)
    as Eln.
  cbn [set_cloning h_cloning] in Ecn. rewrite Hc in Ecn. cbn beta in Eln.
  change (is_dropping (set_cloning false h)) with (is_dropping h) in Eln.
  unfold cl_n, live_n in *.
  constructor; cbn [w_hs w_next w_clones w_arc w_flag w_count w_rev w_stamps w_epoch];
    unfold cl_n, live_n.
  - rewrite map_app, upd_h_ids by reflexivity.
    apply NoDup_app_single; [exact Hnd |].
    intros Hi. apply in_map_iff in Hi. destruct Hi as [g [Hge Hg]].
    change (h_id g = w_next s) in Hge. pose proof (Hfr g Hg) as Hlt. clear - Hge Hlt. lia.
  - intros g Hg. destruct (Hin g Hg) as [[Hg' _] | [-> | ->]]; cbn [set_cloning h_id nh].
    + pose proof (Hfr g Hg') as Hlt. clear - Hlt. lia.
    + pose proof (Hfr h Hh) as Hlt. clear - Hlt. lia.
    + clear. lia.
  - rewrite app_length, upd_h_length, sumf_app. clear - Hcl Ecn. cbn in *. lia.
  - rewrite sumf_app. clear - Harc Eln. cbn in *. lia.
  - (* the list was not a writer's: it held a cloning handle *)
    intros g Hg Hp. exfalso. destruct (Hin g Hg) as [[Hg' _] | [-> | ->]].
    + destruct (Hex g Hg' Hp) as [_ Hz]. clear - Hz Ecn. cbn in Ecn. lia.
    + destruct (Hcn h Hh Hc) as [E | [e E]]; cbn in Hp; rewrite E in Hp; discriminate.
    + discriminate.
  - intros g Hg Hgc. destruct (Hin g Hg) as [[Hg' _] | [-> | ->]]; [auto | |]; discriminate.
  - intros g e Hg Hr. destruct (Hin g Hg) as [[Hg' _] | [-> | ->]]; [eauto | eauto |].
    discriminate.
  - exact Hst.
  - exact Hct.
  - rewrite existsb_app, (existsb_upd _ _ _ _ _ Hnd Hf) by reflexivity. cbn.
    rewrite orb_false_r. exact Hfl.
Qed.

Lemma winv_drop_coord s id s' o : winv s -> wstep s (ADropCoord id) = Some (s', o) -> winv s'.
Proof.
  intros [Hnd Hfr Hcl Harc Hex Hcn Hep Hst Hct Hfl] Hstep. cbn [wstep] in Hstep.
  destruct (st_of s id) as [st |] eqn:Es; [| discriminate].
  destruct (st_of_inv _ _ _ Es) as (h & Hf & Hc & Hs).
  destruct st; try discriminate. injection Hstep as <- <-.
  destruct (find_h_some _ _ _ Hf) as [Hh Hhe].
  pose proof (sumf_del (fun _ => 1%nat) _ _ _ Hnd Hf) as Eone. rewrite !sumf_one in Eone.
  pose proof (sumf_del (fun x => b2n (h_cloning x)) _ _ _ Hnd Hf) as Ecn.
  pose proof (sumf_del (fun x => b2n (negb (is_dropping x))) _ _ _ Hnd Hf) as Eln.
  cbn beta in Ecn, Eln. unfold is_dropping at 2 in Eln. rewrite Hs in Eln. rewrite Hc in Ecn.
  unfold cl_n, live_n in *.
  constructor; cbn [w_hs w_next w_clones w_arc w_flag w_count w_rev w_stamps w_epoch];
    unfold cl_n, live_n.
  - eapply del_h_nodup; eauto.
  - intros g Hg. apply in_del_h in Hg. apply Hfr; tauto.
  - clear - Hcl Eone Ecn. cbn in Ecn. lia.
  - clear - Harc Eln. cbn in Eln. lia.
  - (* a writer past its wait is the only handle, and [h] was another one *)
    intros g Hg Hp. exfalso. apply in_del_h in Hg. destruct Hg as [Hg Hne].
    destruct (Hex g Hg Hp) as [Hl _]. apply Hne. rewrite <- Hhe. f_equal.
    eapply len1_in; eauto.
  - intros g Hg. apply in_del_h in Hg. apply Hcn; tauto.
  - intros g e Hg. apply in_del_h in Hg. apply Hep; tauto.
  - exact Hst.
  - exact Hct.
  - rewrite (existsb_del _ _ _ _ Hnd Hf); [exact Hfl |]. unfold in_flag_phase. rewrite Hs.
    reflexivity.
Qed.

Lemma winv_clone_begin s id s' o : winv s -> wstep s (ACloneBegin id) = Some (s', o) -> winv s'.
Proof.
  intros Hi Hstep. cbn [wstep] in Hstep.
  destruct (st_of s id) as [st |] eqn:Es; [| discriminate].
  destruct (st_of_inv _ _ _ Es) as (h & Hf & Hc & Hs).
  destruct (find_h_some _ _ _ Hf) as [Hh Hhe].
  assert (Hidle : h_st h = HIdle \/ exists e, h_st h = HRunning e).
  { rewrite Hs. destruct st; try discriminate; eauto. }
  assert (Es' : s' = {| w_clones := w_clones s + 1; w_arc := w_arc s; w_flag := w_flag s;
                        w_count := w_count s; w_rev := w_rev s;
                        w_hs := upd_h (w_hs s) id (set_cloning true);
                        w_next := w_next s; w_stamps := w_stamps s |}).
  { destruct st; try discriminate; injection Hstep as <- _; reflexivity. }
  subst s'.
  apply (winv_upd s _ id h (set_cloning true) Hi Hf); try reflexivity;
    cbn [set_cloning h_st h_cloning w_clones w_epoch w_count w_flag].
  - rewrite Hc. cbn. lia.
  - intros Hp. destruct Hidle as [E | [e E]]; rewrite E in Hp; discriminate.
  - intros _. exact Hidle.
  - intros e. apply (wi_epoch _ Hi h e Hh).
  - left; reflexivity.
  - apply (wi_count _ Hi).
  - rewrite (existsb_upd _ _ _ _ _ (wi_nodup _ Hi) Hf); [apply (wi_flag _ Hi) | reflexivity].
Qed.

Lemma winv_stamp s id s' o : winv s -> wstep s (AStamp id) = Some (s', o) -> winv s'.
Proof.
  intros [Hnd Hfr Hcl Harc Hex Hcn Hep Hst Hct Hfl] Hstep. cbn [wstep] in Hstep.
  assert (Es' : s' = {| w_clones := w_clones s; w_arc := w_arc s; w_flag := w_flag s;
                        w_count := w_count s; w_rev := w_rev s; w_hs := w_hs s;
                        w_next := w_next s; w_stamps := w_epoch s :: w_stamps s |}).
  { destruct (st_of s id) as [[] |]; try discriminate Hstep; injection Hstep as <- _;
      reflexivity. }
  subst s'. constructor; auto.
  intros e [<- | He]; [apply ep_le_refl | apply Hst; exact He].
Qed.

(* Every other step changes the status of the handle that takes it. *)
Lemma winv_step s a s' o : winv s -> wstep s a = Some (s', o) -> winv s'.
Proof.
  intros Hi Hstep.
  destruct a as [id | id | id | id tok | id | id | id | id | id | id | id | id | id | id | id nr];
    first [ exact (winv_clone_begin _ _ _ _ Hi Hstep) | exact (winv_clone_end _ _ _ _ Hi Hstep)
          | exact (winv_stamp _ _ _ _ Hi Hstep) | exact (winv_drop_coord _ _ _ _ Hi Hstep)
          | cbn [wstep] in Hstep ];
    (destruct (st_of s id) as [[| e | e | | | | | |] |] eqn:Es; try discriminate Hstep);
    destruct (st_of_inv _ _ _ Es) as (h & Hf & Hc & Hs);
    destruct (find_h_some _ _ _ Hf) as [Hh Hhe].
  - (* AStart *)
    injection Hstep as <- <-.
    apply (winv_setst s _ id h _ (HRunning (w_epoch s)) Hi Hf Hc Hs); try reflexivity.
    + discriminate.
    + intros e [= <-]. reflexivity.
    + apply (flag_kept _ _ _ _ _ Hi Hf Hs). reflexivity.
  - (* ACheck *)
    assert (Hun : winv (with_hs s (upd_h (w_hs s) id (set_st (HUnwinding e))))).
    { apply (winv_setst s _ id h _ (HUnwinding e) Hi Hf Hc Hs); try reflexivity.
      + discriminate.
      + intros e' [= <-]. apply (wi_epoch _ Hi h e Hh). rewrite Hs. reflexivity.
      + apply (flag_kept _ _ _ _ _ Hi Hf Hs). reflexivity. }
    destruct (check_outcome tok (w_flag s)); injection Hstep as <- <-; auto.
  - (* AFinish *)
    injection Hstep as <- <-.
    apply (winv_setst s _ id h _ HIdle Hi Hf Hc Hs); try reflexivity; try discriminate.
    apply (flag_kept _ _ _ _ _ Hi Hf Hs). reflexivity.
  - (* ACaught *)
    injection Hstep as <- <-.
    apply (winv_setst s _ id h _ HIdle Hi Hf Hc Hs); try reflexivity; try discriminate.
    apply (flag_kept _ _ _ _ _ Hi Hf Hs). reflexivity.
  - (* ADropArc *)
    injection Hstep as <- <-.
    apply (winv_setst s _ id h _ HDropping Hi Hf Hc Hs); try reflexivity; try discriminate.
    + (* this handle still held the Arc *)
      pose proof (sumf_pos (fun x => b2n (negb (is_dropping x))) _ _ Hh) as Hlive.
      cbn beta in Hlive. unfold is_dropping in Hlive at 1. rewrite Hs in Hlive.
      pose proof (wi_arc _ Hi) as Harc. unfold live_n in Harc. clear - Hlive Harc.
      cbn in *. lia.
    + apply (flag_kept _ _ _ _ _ Hi Hf Hs). reflexivity.
  - (* AWSetFlag *)
    injection Hstep as <- <-.
    apply (winv_setst s _ id h _ HWFlag Hi Hf Hc Hs); try reflexivity; try discriminate.
    symmetry. apply existsb_exists. exists (set_st HWFlag h).
    split; [apply in_upd_h_same; exact Hf | reflexivity].
  - (* AWEvent *)
    injection Hstep as <- <-.
    apply (winv_setst s _ id h _ HWEvent Hi Hf Hc Hs); try reflexivity; try discriminate.
    apply (flag_kept _ _ _ _ _ Hi Hf Hs). reflexivity.
  - (* AWWait *)
    destruct (N.eqb_spec (w_clones s) 1) as [E1 | E1]; [| discriminate].
    injection Hstep as <- <-.
    apply (winv_setst s _ id h _ HWWaited Hi Hf Hc Hs); try reflexivity; try discriminate.
    + intros _. right. exact E1.
    + apply (flag_kept _ _ _ _ _ Hi Hf Hs). reflexivity.
  - (* AWClear: the writer is alone, so the flag is down exactly if it is out of its flag phase *)
    injection Hstep as <- <-.
    apply (winv_setst s _ id h _ HWCleared Hi Hf Hc Hs); try reflexivity; try discriminate.
    + intros _. left. reflexivity.
    + destruct (wi_excl _ Hi h Hh) as [Hl _]; [rewrite Hs; reflexivity |].
      destruct (len1_upd _ _ (set_st HWCleared) _ Hl Hf) as [_ ->]. reflexivity.
  - (* AWBump *)
    pose proof (wi_count _ Hi) as Hct.
    destruct (bump_count_spec _ Hct) as [[Hlt Eb] | [Heq Eb]]; rewrite Eb in Hstep;
      injection Hstep as <- <-;
      apply (winv_writer s _ id h _ HWMut Hi Hf Hc Hs); try reflexivity.
    + right. right. cbn. lia.
    + unfold U8_MAX in *. cbn. lia.
    + right. left. cbn. lia.
    + discriminate.
  - (* AWMutate *)
    injection Hstep as <- <-.
    destruct nr; apply (winv_writer s _ id h _ HIdle Hi Hf Hc Hs); try reflexivity.
    + right. left. cbn. lia.
    + discriminate.
    + apply ep_le_refl.
    + apply (wi_count _ Hi).
Qed.

Lemma wreach_winv s : wreach s -> winv s.
Proof.
  induction 1 as [| s a s' o Hr IH Hs]; [apply winv_init | eapply winv_step; eauto].
Qed.

(* ---------- C20_exclusive ---------- *)

(* the steps of a writer that come after the wait: they use (or are about to use) &mut Zalsa *)
Definition needs_exclusive (a : wact) : option N :=
  match a with
  | AWClear h | AWBump h | AWMutate h _ => Some h
  | _ => None
  end.

Lemma exclusive s a w s' o :
  wreach s -> needs_exclusive a = Some w -> wstep s a = Some (s', o) ->
  w_clones s = 1 /\ w_arc s = 1 /\
  exists g, w_hs s = [g] /\ h_id g = w /\ h_cloning g = false.
Proof.
  intros Hr Hn Hstep. pose proof (wreach_winv _ Hr) as Hi.
  assert (Hpw : exists st, st_of s w = Some st /\ past_wait st = true).
  { destruct a; try discriminate Hn; injection Hn as ->; cbn [wstep] in Hstep;
      destruct (st_of s w) as [[] |]; try discriminate Hstep; eexists; split; reflexivity. }
  destruct Hpw as [st [Es Hp]].
  destruct (st_of_inv _ _ _ Es) as [g [Hf [Hc Hs]]].
  destruct (find_h_some _ _ _ Hf) as [Hg Hge].
  destruct (wi_excl _ Hi g Hg) as [Hl Hz]; [rewrite Hs; exact Hp |].
  destruct (len1_upd _ _ (fun x => x) _ Hl Hf) as [Ehs _].
  repeat split.
  - rewrite (wi_clones _ Hi), Hl, Hz. reflexivity.
  - rewrite (wi_arc _ Hi), Ehs. unfold live_n. cbn. unfold is_dropping. rewrite Hs.
    destruct st; try discriminate; reflexivity.
  - exists g. auto.
Qed.

(* ---------- C20_cancelled ---------- *)

Lemma cancelled s h tok s' o :
  w_flag s = true -> wstep s (ACheck h tok) = Some (s', o) ->
  (tok = CANCELLED_MASK -> o = WOutcome OLocal) /\
  (tok <> CANCELLED_MASK -> o = WOutcome OPendingWrite) /\
  o <> WOutcome OContinue /\
  exists e, st_of s h = Some (HRunning e) /\
            s' = with_hs s (upd_h (w_hs s) h (set_st (HUnwinding e))).
Proof.
  intros Hfl Hstep. cbn [wstep] in Hstep.
  destruct (st_of s h) as [[| e | | | | | | |] |]; try discriminate Hstep.
  rewrite Hfl in Hstep.
  destruct (N.eq_dec tok CANCELLED_MASK) as [E | E].
  - rewrite (proj2 (check_local_iff tok true) E) in Hstep. injection Hstep as <- <-.
    repeat split; eauto; try tauto; discriminate.
  - rewrite (proj2 (check_pending_iff tok true) (conj E eq_refl)) in Hstep.
    injection Hstep as <- <-. repeat split; eauto; try tauto; discriminate.
Qed.

(* the flag is up for as long as some writer is between its request and the end of its wait *)
Lemma flag_while_requested s g :
  wreach s -> In g (w_hs s) -> flag_phase (h_st g) = true -> w_flag s = true.
Proof.
  intros Hr Hg Hp. apply (flag_iff _ (wreach_winv _ Hr)). eauto.
Qed.

(* ... and it is down otherwise: readers are not cancelled spuriously *)
Lemma no_flag_without_request s :
  wreach s -> (forall g, In g (w_hs s) -> flag_phase (h_st g) = false) -> w_flag s = false.
Proof.
  intros Hr Hno. destruct (w_flag s) eqn:E; [| reflexivity].
  apply (flag_iff _ (wreach_winv _ Hr)) in E. destruct E as [g [Hg Hp]].
  rewrite (Hno g Hg) in Hp. discriminate.
Qed.

(* ---------- C20_progress ---------- *)

Lemma measure_lighter w s s' id st st' :
  NoDup (map h_id (w_hs s)) -> st_of s id = Some st ->
  w_hs s' = upd_h (w_hs s) id (set_st st') -> id <> w ->
  (st_weight st' < st_weight st)%nat ->
  (w_measure w s' < w_measure w s)%nat.
Proof.
  intros Hnd Es Ehs Hne Hlt. destruct (st_of_inv _ _ _ Es) as (h & Hf & Hc & Hs).
  unfold w_measure. rewrite Ehs.
  pose proof (sumf_upd (h_weight w) _ _ (set_st st') _ Hnd Hf) as E.
  destruct (find_h_some _ _ _ Hf) as [_ He].
  unfold h_weight in E at 2 4. cbn [set_st h_id h_st h_cloning] in E.
  apply N.eqb_neq in Hne. rewrite He, Hne, Hc, Hs in E. lia.
Qed.

Lemma progress_decreases s a h w s' o :
  wreach s -> draining s a = Some h -> h <> w -> wstep s a = Some (s', o) ->
  (w_measure w s' < w_measure w s)%nat.
Proof.
  intros Hr Hd Hne Hstep. pose proof (wi_nodup _ (wreach_winv _ Hr)) as Hnd.
  destruct a as [id | id | id | id tok | id | id | id | id | id | id | id | id | id | id | id nr];
    cbn [draining] in Hd; try discriminate Hd.
  - (* ACloneEnd: the new handle weighs less than the cloning it ends *)
    injection Hd as ->. cbn [wstep] in Hstep.
    destruct (find_h (w_hs s) h) as [g |] eqn:Hf; [| discriminate].
    destruct (h_cloning g) eqn:Hc; [| discriminate]. injection Hstep as <- _.
    unfold w_measure. cbn [w_hs]. rewrite sumf_app.
    pose proof (sumf_upd (h_weight w) _ _ (set_cloning false) _ Hnd Hf) as E.
    destruct (find_h_some _ _ _ Hf) as [_ He].
    unfold h_weight in E at 2 4. cbn [set_cloning h_id h_st h_cloning] in E.
    apply N.eqb_neq in Hne. rewrite He, Hne, Hc in E.
    cbn [sumf]. unfold h_weight at 2. cbn [h_id h_st h_cloning].
    destruct (w_next s =? w); cbn [st_weight] in *; lia.
  - (* ACheck, flag set *)
    destruct (w_flag s) eqn:Hfl; [| discriminate]. injection Hd as ->.
    destruct (cancelled _ _ _ _ _ Hfl Hstep) as (_ & _ & _ & e & Es & ->).
    apply (measure_lighter w s _ h _ (HUnwinding e) Hnd Es); [reflexivity | exact Hne | cbn; lia].
  - (* AFinish *)
    injection Hd as ->. cbn [wstep] in Hstep.
    destruct (st_of s h) as [[] |] eqn:Es; try discriminate Hstep. injection Hstep as <- _.
    apply (measure_lighter w s _ h _ HIdle Hnd Es); [reflexivity | exact Hne | cbn; lia].
  - (* ACaught *)
    injection Hd as ->. cbn [wstep] in Hstep.
    destruct (st_of s h) as [[] |] eqn:Es; try discriminate Hstep. injection Hstep as <- _.
    apply (measure_lighter w s _ h _ HIdle Hnd Es); [reflexivity | exact Hne | cbn; lia].
  - (* ADropArc *)
    injection Hd as ->. cbn [wstep] in Hstep.
    destruct (st_of s h) as [[] |] eqn:Es; try discriminate Hstep. injection Hstep as <- _.
    apply (measure_lighter w s _ h _ HDropping Hnd Es); [reflexivity | exact Hne | cbn; lia].
  - (* ADropCoord *)
    injection Hd as ->. cbn [wstep] in Hstep.
    destruct (st_of s h) as [[] |] eqn:Es; try discriminate Hstep. injection Hstep as <- _.
    destruct (st_of_inv _ _ _ Es) as (g & Hf & Hc & Hs).
    unfold w_measure. cbn [w_hs].
    pose proof (sumf_del (h_weight w) _ _ _ Hnd Hf) as E.
    destruct (find_h_some _ _ _ Hf) as [_ He].
    unfold h_weight in E at 2. apply N.eqb_neq in Hne. rewrite He, Hne, Hc, Hs in E.
    cbn in E. lia.
Qed.

Lemma weight_pos w h : h_id h <> w -> (1 <= h_weight w h)%nat.
Proof.
  intros Hne. unfold h_weight. apply N.eqb_neq in Hne. rewrite Hne.
  destruct (h_st h); cbn; lia.
Qed.

Lemma progress_wait_enabled s w :
  wreach s -> st_of s w = Some HWEvent -> w_measure w s = 0%nat ->
  w_clones s = 1 /\ exists s', wstep s (AWWait w) = Some (s', WNone).
Proof.
  intros Hr Es Hz. pose proof (wreach_winv _ Hr) as Hi. pose proof (wi_nodup _ Hi) as Hnd.
  destruct (st_of_inv _ _ _ Es) as [g [Hf [Hc Hs]]].
  destruct (find_h_some _ _ _ Hf) as [Hg Hge].
  (* every handle weighs nothing, so every handle is the writer's *)
  assert (Hall : forall x, In x (w_hs s) -> x = g).
  { intros x Hx. destruct (N.eq_dec (h_id x) w) as [E | E].
    - eapply nodup_ids_inj; eauto. congruence.
    - pose proof (sumf_zero _ _ Hz x Hx) as Hw. pose proof (weight_pos w x E). lia. }
  assert (Ehs : w_hs s = [g]).
  { destruct (w_hs s) as [| a [| b l]] eqn:E; [contradiction | |].
    - destruct Hg as [-> | []]. reflexivity.
    - exfalso. assert (a = g) by (apply Hall; left; reflexivity).
      assert (b = g) by (apply Hall; right; left; reflexivity). subst a b.
      cbn in Hnd. inversion Hnd as [| ? ? Hnot _]. apply Hnot. left; reflexivity. }
  assert (Hcl : w_clones s = 1).
  { rewrite (wi_clones _ Hi), Ehs. unfold cl_n. cbn. rewrite Hc. reflexivity. }
  split; [exact Hcl |]. cbn [wstep]. rewrite Es, Hcl. cbn. eauto.
Qed.

(* ---------- epochs move forward only, and only through an exclusive writer ---------- *)

Lemma wstep_epoch s a s' o :
  winv s -> wstep s a = Some (s', o) ->
  match a with
  | AWBump _ => ep_lt (w_epoch s) (w_epoch s')
  | AWMutate _ true => ep_lt (w_epoch s) (w_epoch s')
  | _ => w_epoch s' = w_epoch s
  end.
Proof.
  intros Hi Hstep. pose proof (wi_count _ Hi) as Hct.
  destruct a as [id | id | id | id tok | id | id | id | id | id | id | id | id | id | id | id nr];
    cbn [wstep] in Hstep;
    [| destruct (find_h (w_hs s) id) as [h |]; [destruct (h_cloning h) |];
       try discriminate Hstep; injection Hstep as <- _; reflexivity | ..];
    (destruct (st_of s id) as [[] |]; try discriminate Hstep);
    try (injection Hstep as <- _; reflexivity).
  - (* ACheck *)
    destruct (check_outcome tok (w_flag s)); injection Hstep as <- _; reflexivity.
  - (* AWWait *)
    destruct (w_clones s =? 1); [| discriminate]. injection Hstep as <- _; reflexivity.
  - (* AWBump *)
    destruct (bump_count_spec _ Hct) as [[Hlt Eb] | [Heq Eb]]; rewrite Eb in Hstep;
      injection Hstep as <- _; unfold ep_lt, w_epoch; cbn; lia.
  - (* AWMutate *)
    injection Hstep as <- _. destruct nr; [| reflexivity].
    unfold ep_lt, w_epoch; cbn; lia.
Qed.

Lemma wstep_epoch_le s a s' o :
  winv s -> wstep s a = Some (s', o) -> ep_le (w_epoch s) (w_epoch s').
Proof.
  intros Hi Hstep. pose proof (wstep_epoch _ _ _ _ Hi Hstep) as H.
  destruct a; try (left; symmetry; exact H); try (right; exact H).
  destruct new_rev; [right; exact H | left; symmetry; exact H].
Qed.

Lemma wrun_epoch_le : forall acts s s',
  winv s -> wrun s acts = Some s' -> ep_le (w_epoch s) (w_epoch s') /\ winv s'.
Proof.
  induction acts as [| a acts IH]; intros s s' Hi Hrun; cbn in Hrun.
  - inversion Hrun; subst. split; [apply ep_le_refl | exact Hi].
  - destruct (wstep s a) as [[s1 o] |] eqn:Es; [| discriminate].
    pose proof (winv_step _ _ _ _ Hi Es) as Hi1.
    destruct (IH _ _ Hi1 Hrun) as [Hle Hi'].
    split; [| exact Hi']. eapply ep_le_trans; [eapply wstep_epoch_le; eauto | exact Hle].
Qed.

Lemma wrun_reach : forall acts s s', wreach s -> wrun s acts = Some s' -> wreach s'.
Proof.
  induction acts as [| a acts IH]; intros s s' Hr Hrun; cbn in Hrun.
  - inversion Hrun; subst; exact Hr.
  - destruct (wstep s a) as [[s1 o] |] eqn:Es; [| discriminate].
    eapply IH; [| exact Hrun]. eapply wr_step; eauto.
Qed.

(* ---------- C20_no_mix_stamp ---------- *)

Lemma no_mix_stamp s w s1 o acts s2 :
  wreach s -> wstep s (AWBump w) = Some (s1, o) -> wrun s1 acts = Some s2 ->
  forall st, In st (w_stamps s) ->
    stamp_accepts (w_epoch s2) st = false /\
    ((fst st = fst (w_epoch s2) /\ snd st < snd (w_epoch s2)) \/ fst st < fst (w_epoch s2)).
Proof.
  intros Hr Hb Hrun st Hin. pose proof (wreach_winv _ Hr) as Hi.
  pose proof (wstep_epoch _ _ _ _ Hi Hb) as Hlt. cbn in Hlt.
  pose proof (winv_step _ _ _ _ Hi Hb) as Hi1.
  destruct (wrun_epoch_le _ _ _ Hi1 Hrun) as [Hle _].
  assert (Hst : ep_lt st (w_epoch s2)).
  { eapply ep_le_lt_trans; [apply (wi_stamps _ Hi); exact Hin |].
    eapply ep_lt_le_trans; eauto. }
  split; [apply stamp_rejects_lt; exact Hst |].
  unfold ep_lt in Hst. tauto.
Qed.

(* what the three reuse sites do with a rejected stamp *)
Lemma rejected_previous_iteration cur_rev cur_count verified_at stamp hv ih :
  stamp_accepts (cur_rev, cur_count) (verified_at, stamp_count stamp) = false ->
  previous_iteration cur_rev cur_count verified_at stamp hv ih = PIOtherRevision \/
  previous_iteration cur_rev cur_count verified_at stamp hv ih = PIDiscard.
Proof.
  unfold stamp_accepts, previous_iteration. cbn [fst snd]. intros H.
  destruct (verified_at =? cur_rev); cbn in *; [| left; reflexivity].
  rewrite H. cbn. right; reflexivity.
Qed.

Lemma rejected_fetch_cold_cycle cur_rev cur_count verified_at stamp hv mp ih :
  stamp_accepts (cur_rev, cur_count) (verified_at, stamp_count stamp) = false ->
  fetch_cold_cycle cur_rev cur_count verified_at stamp hv mp ih
  = CCInitial (stamp_new 0 cur_count).
Proof.
  unfold stamp_accepts, fetch_cold_cycle. cbn [fst snd]. intros H.
  destruct (verified_at =? cur_rev); cbn in *.
  - rewrite H. rewrite !andb_false_r. cbn. reflexivity.
  - rewrite !andb_false_r. cbn. reflexivity.
Qed.

Lemma rejected_validate cur_rev cur_count verified_at stamp rest :
  stamp_accepts (cur_rev, cur_count) (verified_at, stamp_count stamp) = false ->
  validate_may_be_provisional cur_rev cur_count verified_at stamp false rest = false.
Proof.
  unfold stamp_accepts, validate_may_be_provisional. cbn [fst snd]. intros H.
  destruct (stamp_count stamp =? cur_count); cbn; [| reflexivity].
  rewrite andb_true_r in H. rewrite H. reflexivity.
Qed.

(* conversely every reuse implies acceptance: the three sites never go beyond stamp_accepts *)
Lemma reuse_needs_accept cur_rev cur_count verified_at stamp hv mp ih rest :
  (forall i r, previous_iteration cur_rev cur_count verified_at stamp hv ih = PISeed i r ->
     stamp_accepts (cur_rev, cur_count) (verified_at, stamp_count stamp) = true) /\
  (fetch_cold_cycle cur_rev cur_count verified_at stamp hv mp ih = CCReuseProvisional ->
     stamp_accepts (cur_rev, cur_count) (verified_at, stamp_count stamp) = true) /\
  (validate_may_be_provisional cur_rev cur_count verified_at stamp false rest = true ->
     stamp_accepts (cur_rev, cur_count) (verified_at, stamp_count stamp) = true).
Proof.
  destruct (stamp_accepts (cur_rev, cur_count) (verified_at, stamp_count stamp)) eqn:E;
    [repeat split; reflexivity |].
  split; [| split].
  - intros i r H. destruct (rejected_previous_iteration _ _ _ _ hv ih E); congruence.
  - intros H. rewrite (rejected_fetch_cold_cycle _ _ _ _ hv mp ih E) in H. discriminate.
  - intros H. rewrite (rejected_validate _ _ _ _ rest E) in H. discriminate.
Qed.

(* ---------- C20: a reader's computation lives in a single epoch ---------- *)

Lemma single_epoch s h e :
  wreach s -> In h (w_hs s) -> (h_st h = HRunning e \/ h_st h = HUnwinding e) ->
  e = w_epoch s.
Proof.
  intros Hr Hh Hs. apply (wi_epoch _ (wreach_winv _ Hr) h e Hh).
  destruct Hs as [-> | ->]; reflexivity.
Qed.

Lemma stamps_not_ahead s st : wreach s -> In st (w_stamps s) -> ep_le st (w_epoch s).
Proof. intros Hr. apply (wi_stamps _ (wreach_winv _ Hr)). Qed.
