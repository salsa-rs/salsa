(* Cancel/Proofs.v — the statements of C20 and C21, each assembled from its lemmas in
   ProofsTok.v (token machine) and ProofsWR.v (writer/reader machine, stamps), with
   non-vacuity witnesses (`Example`s). *)
From Salsa Require Import Base.
From Salsa.Cancel Require Import Model.
From Salsa.Cancel Require Export ProofsTok ProofsWR.

Lemma C21_own_only_lemma :
  (* (a) a check unwinds with Local iff the byte is exactly CANCELLED, i.e. the cancelled bit
         is set and the disabled bit is clear; the global flag plays no role *)
  (forall tok flag, check_outcome tok flag = OLocal <-> tok = CANCELLED_MASK) /\
  (forall tok flag, tok_wf tok ->
     (check_outcome tok flag = OLocal <->
      tok_is_cancelled tok = true /\ tok_prev_disabled tok = false)) /\
  (* (b) the outcome of a check on h is a function of h's byte and the flag *)
  (forall s h flag s' o, tstep s (TCheck h flag) = Some (s', o) ->
     s' = s /\ o = TOutcome (check_outcome (t_tok s h) flag)) /\
  (* (c) no operation writes the token of a handle other than the one it is applied to *)
  (forall s op s' o, tstep s op = Some (s', o) ->
     forall h', op_handle s op <> Some h' -> t_tok s' h' = t_tok s h').
Proof.
  split; [exact check_local_iff |]. split; [exact check_local_bits |].
  split; [exact tstep_check_outcome | exact tstep_other_tokens].
Qed.

Lemma C21_not_in_fixpoint_lemma :
  (* no Local unwind while any disable guard of the handle is on a stack, whatever the nesting *)
  (forall s h flag, treach s ->
     (exists t w, In (FDis h w) (t_frames s t)) ->
     check_outcome (t_tok s h) flag <> OLocal) /\
  (* a request is not lost: only the reset at the end of the outermost scope consumes it *)
  (forall s op s' o h, treach s -> tstep s op = Some (s', o) ->
     tok_is_cancelled (t_tok s h) = true -> o <> TReset (Some h) ->
     tok_is_cancelled (t_tok s' h) = true) /\
  (* and it fires at the first check made when no guard is left *)
  (forall s h flag, treach s ->
     tok_is_cancelled (t_tok s h) = true ->
     (forall t w, ~ In (FDis h w) (t_frames s t)) ->
     check_outcome (t_tok s h) flag = OLocal).
Proof.
  split; [exact no_local_while_disabled |].
  split; [exact cancel_request_persists | exact local_fires_when_enabled].
Qed.

Lemma C21_reset_lemma :
  (* the end of the outermost scope resets the token ... *)
  (forall s t h s' o, treach s -> t_att s t = Some h -> t_frames s t = [FDb true None] ->
     tstep s (TPop t) = Some (s', o) ->
     t_tok s' h = 0 /\ t_att s' t = None /\ t_frames s' t = [] /\ o = TReset (Some h)) /\
  (* ... and nothing else does *)
  (forall s t s' o h, treach s -> tstep s (TPop t) = Some (s', o) ->
     (o = TReset (Some h) <-> (t_att s t = Some h /\ t_frames s t = [FDb true None]))) /\
  (* leaving every scope — by returning or by unwinding, from any depth, with any guards
     active — ends with token 0, nothing attached, empty stack, in a reachable state *)
  (forall s t h, treach s -> t_att s t = Some h ->
     t_tok (tunwind s t) h = 0 /\ t_att (tunwind s t) t = None /\
     t_frames (tunwind s t) t = [] /\ treach (tunwind s t)).
Proof.
  split; [exact reset_at_outermost |]. split; [exact reset_only_at_outermost |].
  intros s t h Hr Ha. destruct (reset_after_unwind s t h Hr Ha) as [A [B C]].
  repeat split; auto. apply tunwind_reach; exact Hr.
Qed.

Definition tok_demo_ops : list top :=
  [ TAttach 0 7;            (* outermost tracked-function call on handle 7, thread 0 *)
    TCheck 7 false;         (* -> Continue *)
    TAttach 0 7;            (* nested tracked-function call *)
    TDisable 0 7;           (* fixpoint guard (outer cycle head) *)
    TDisable 0 7;           (* nested fixpoint guard (inner cycle head): saved was = true *)
    TCancel 7;              (* token.cancel() from another thread *)
    TCheck 7 false;         (* inside iteration -> Continue *)
    TPop 0;                 (* inner guard restored (to disabled) *)
    TCheck 7 false;         (* still inside the outer iteration -> Continue *)
    TPop 0;                 (* outer guard restored *)
    TCheck 7 false;         (* first check outside -> Local *)
    TCancel 9;              (* another handle is cancelled meanwhile *)
    TPop 0;                 (* unwinding: nested scope *)
    TPop 0;                 (* unwinding: outermost scope -> reset of 7 *)
    TCheck 7 false;         (* next request on handle 7 runs *)
    TCheck 9 true ].        (* handle 9: Local is tested before the pending write *)

Example tok_demo_outputs :
  option_map snd (trun_out tinit tok_demo_ops) =
  Some [ TNone; TOutcome OContinue; TNone; TWas false; TWas true; TNone;
         TOutcome OContinue; TWas true; TOutcome OContinue; TWas true;
         TOutcome OLocal; TNone; TReset None; TReset (Some 7);
         TOutcome OContinue; TOutcome OLocal ].
Proof. vm_compute. reflexivity. Qed.

Ltac solve_trun_ok :=
  cbn; repeat split; try reflexivity;
  try (intros t' Hne; unfold updN;
       repeat match goal with
              | |- context [N.eqb ?a t'] => destruct (N.eqb_spec a t')
              end; congruence).

(* the state in the middle of the nested fixpoint, cancel pending *)
Definition tok_mid : tstate :=
  match trun tinit (firstn 6 tok_demo_ops) with Some s => s | None => tinit end.

Example tok_mid_reach : treach tok_mid.
Proof.
  apply (trun_reach (firstn 6 tok_demo_ops) tinit); [apply tr_init | | reflexivity].
  solve_trun_ok.
Qed.

(* hypotheses of C21_not_in_fixpoint are satisfiable: two nested guards, request pending *)
Example tok_mid_guards :
  t_frames tok_mid 0 = [FDis 7 true; FDis 7 false; FDb false None; FDb true None] /\
  tok_is_cancelled (t_tok tok_mid 7) = true /\ t_tok tok_mid 7 = 3.
Proof. vm_compute. auto. Qed.

(* unwinding from there (four frames) resets the token *)
Example tok_mid_unwind :
  t_tok (tunwind tok_mid 0) 7 = 0 /\ t_att (tunwind tok_mid 0) 0 = None.
Proof. vm_compute. auto. Qed.

(* the state just before the outermost scope ends (hypotheses of C21_reset, first part) *)
Definition tok_last_ops : list top := [ TAttach 0 7; TAttach 0 7; TCancel 7; TPop 0 ].
Definition tok_last : tstate :=
  match trun tinit tok_last_ops with Some s => s | None => tinit end.

Example tok_last_reach : treach tok_last.
Proof.
  apply (trun_reach tok_last_ops tinit); [apply tr_init | | reflexivity].
  solve_trun_ok.
Qed.

Example tok_last_outermost :
  t_att tok_last 0 = Some 7 /\ t_frames tok_last 0 = [FDb true None] /\ t_tok tok_last 7 = 1.
Proof. vm_compute. auto. Qed.

(* Outside the discipline of generated code: `attach_allow_change` A -> B -> A resets A's token
   when the INNER scope of A ends.  The DISABLED bit is cleared while A's fixpoint guard is
   still active, so a later request fires inside the iteration, and a request made before is
   lost.  (`attach_allow_change` is public API documented with "Switching databases can cause
   bugs"; tracked functions use `attach`, which panics on a database change.) *)
Definition allow_change_ops : list top :=
  [ TAttach 0 1; TDisable 0 1;      (* handle 1 inside a fixpoint iteration *)
    TAttachAC 0 2;                  (* switch to database 2 *)
    TAttachAC 0 1;                  (* and back to 1 *)
    TCancel 1;                      (* request *)
    TPop 0;                         (* inner scope of 1 ends: uncancel() *)
    TCheck 1 false;                 (* the request is gone *)
    TCancel 1;
    TCheck 1 false ].               (* fires although the guard of 1 is still on the stack *)

Example allow_change_corner :
  option_map snd (trun_out tinit allow_change_ops) =
  Some [ TNone; TWas false; TNone; TNone; TNone; TReset (Some 1);
         TOutcome OContinue; TNone; TOutcome OLocal ] /\
  (match trun tinit allow_change_ops with
   | Some s => In (FDis 1 false) (t_frames s 0)
   | None => False
   end).
Proof. split; [vm_compute; reflexivity | vm_compute; auto]. Qed.

Lemma C20_exclusive_lemma :
  forall s a w s' o,
    wreach s -> needs_exclusive a = Some w -> wstep s a = Some (s', o) ->
    w_clones s = 1 /\ w_arc s = 1 /\
    exists g, w_hs s = [g] /\ h_id g = w /\ h_cloning g = false.
Proof. exact exclusive. Qed.

Lemma C20_cancelled_lemma :
  (forall s h tok s' o,
     w_flag s = true -> wstep s (ACheck h tok) = Some (s', o) ->
     (tok = CANCELLED_MASK -> o = WOutcome OLocal) /\
     (tok <> CANCELLED_MASK -> o = WOutcome OPendingWrite) /\
     o <> WOutcome OContinue /\
     exists e, st_of s h = Some (HRunning e) /\
               s' = with_hs s (upd_h (w_hs s) h (set_st (HUnwinding e)))) /\
  (* the flag is up exactly while some writer is between its request and the end of its wait *)
  (forall s, wreach s ->
     (w_flag s = true <-> exists g, In g (w_hs s) /\ flag_phase (h_st g) = true)).
Proof.
  split; [exact cancelled |]. intros s Hr. apply (flag_iff _ (wreach_winv _ Hr)).
Qed.

Lemma C20_progress_lemma :
  (* every step by which another handle finishes, is cancelled, or is dropped strictly
     decreases the measure ... *)
  (forall s a h w s' o,
     wreach s -> draining s a = Some h -> h <> w -> wstep s a = Some (s', o) ->
     (w_measure w s' < w_measure w s)%nat) /\
  (* ... and at measure 0 the writer's wait is over *)
  (forall s w,
     wreach s -> st_of s w = Some HWEvent -> w_measure w s = 0%nat ->
     w_clones s = 1 /\ exists s', wstep s (AWWait w) = Some (s', WNone)).
Proof. split; [exact progress_decreases | exact progress_wait_enabled]. Qed.

Lemma C20_no_mix_stamp_lemma :
  (* after cancel_others has completed (AWBump), and forever after, every provisional stamp
     created before is rejected: same revision with a smaller count, or an older revision *)
  (forall s w s1 o acts s2,
     wreach s -> wstep s (AWBump w) = Some (s1, o) -> wrun s1 acts = Some s2 ->
     forall st, In st (w_stamps s) ->
       stamp_accepts (w_epoch s2) st = false /\
       ((fst st = fst (w_epoch s2) /\ snd st < snd (w_epoch s2)) \/ fst st < fst (w_epoch s2))) /\
  (* the three reuse sites of the implementation accept nothing that stamp_accepts rejects *)
  (forall cur_rev cur_count verified_at stamp hv mp ih rest,
     stamp_accepts (cur_rev, cur_count) (verified_at, stamp_count stamp) = false ->
     (previous_iteration cur_rev cur_count verified_at stamp hv ih = PIOtherRevision \/
      previous_iteration cur_rev cur_count verified_at stamp hv ih = PIDiscard) /\
     fetch_cold_cycle cur_rev cur_count verified_at stamp hv mp ih
       = CCInitial (stamp_new 0 cur_count) /\
     validate_may_be_provisional cur_rev cur_count verified_at stamp false rest = false) /\
  (* a reader's whole computation, including its unwinding, lives in one (revision, count) epoch *)
  (forall s h e, wreach s -> In h (w_hs s) ->
     (h_st h = HRunning e \/ h_st h = HUnwinding e) -> e = w_epoch s).
Proof.
  split; [exact no_mix_stamp |]. split; [| exact single_epoch].
  intros. split; [apply rejected_previous_iteration; assumption |].
  split; [apply rejected_fetch_cold_cycle; assumption | apply rejected_validate; assumption].
Qed.

Definition wr_demo_acts : list wact :=
  [ ACloneBegin 0; ACloneEnd 0;     (* handle 1 *)
    AStart 1; ACheck 1 0;           (* reader running, check passes *)
    AStamp 1;                       (* provisional memo stamped (1,0) *)
    AWSetFlag 0; AWEvent 0;         (* writer requests *)
    ACheck 1 0;                     (* -> PendingWrite *)
    AStamp 1;                       (* poison memo inserted while unwinding: still (1,0) *)
    ACaught 1; ADropArc 1; ADropCoord 1;
    AWWait 0; AWClear 0; AWBump 0;  (* count 0 -> 1, same revision *)
    AWMutate 0 false ].             (* trigger_cancellation / set_lru_capacity: no new revision *)

Example wr_demo_outputs :
  option_map snd (wrun_out winit wr_demo_acts) =
  Some [ WNone; WNew 1; WNone; WOutcome OContinue; WEpoch 1 0; WNone; WNone;
         WOutcome OPendingWrite; WEpoch 1 0; WNone; WNone; WNone; WNone; WNone;
         WOverflow false; WEpoch 1 1 ].
Proof. vm_compute. reflexivity. Qed.

(* the writer cannot get past the wait while the clone exists *)
Example wr_demo_blocked :
  match wrun winit (firstn 7 wr_demo_acts) with
  | Some s => wstep s (AWWait 0) = None /\ w_clones s = 2 /\ w_measure 0 s = 4%nat
  | None => False
  end.
Proof. vm_compute. auto. Qed.

Definition wr_before_bump : wstate :=
  match wrun winit (firstn 14 wr_demo_acts) with Some s => s | None => winit end.

Example wr_before_bump_reach : wreach wr_before_bump.
Proof. apply (wrun_reach (firstn 14 wr_demo_acts) winit); [apply wr_init | vm_compute; reflexivity]. Qed.

(* hypotheses of C20_no_mix_stamp: two stamps exist before the bump; of C20_exclusive: AWBump enabled *)
Example wr_before_bump_facts :
  w_stamps wr_before_bump = [(1, 0); (1, 0)] /\
  (exists s1, wstep wr_before_bump (AWBump 0) = Some (s1, WOverflow false) /\ w_epoch s1 = (1, 1)).
Proof. split; [vm_compute; reflexivity |]. eexists. vm_compute. split; reflexivity. Qed.

(* state with the flag up and a running reader (hypotheses of C20_cancelled / C20_progress) *)
Definition wr_flagged : wstate :=
  match wrun winit (firstn 7 wr_demo_acts) with Some s => s | None => winit end.

Example wr_flagged_facts :
  wreach wr_flagged /\ w_flag wr_flagged = true /\ st_of wr_flagged 0 = Some HWEvent /\
  st_of wr_flagged 1 = Some (HRunning (1, 0)) /\ draining wr_flagged (ACheck 1 0) = Some 1.
Proof.
  split; [apply (wrun_reach (firstn 7 wr_demo_acts) winit); [apply wr_init | vm_compute; reflexivity] |].
  vm_compute. auto.
Qed.

(* measure 0 state: the reader is gone *)
Example wr_drained_facts :
  match wrun winit (firstn 12 wr_demo_acts) with
  | Some s => st_of s 0 = Some HWEvent /\ w_measure 0 s = 0%nat /\ w_clones s = 1
  | None => False
  end.
Proof. vm_compute. auto. Qed.

(* One full cancel_others + a mutation that does not create a revision. *)
Definition cancel_cycle : list wact :=
  [ AWSetFlag 0; AWEvent 0; AWWait 0; AWClear 0; AWBump 0; AWMutate 0 false ].

Fixpoint repeat_acts (n : nat) (l : list wact) : list wact :=
  match n with O => [] | S n' => l ++ repeat_acts n' l end.

(* The u8 wrap case.  255 cancellations in revision 1 bring the count to 255; the 256th
   overflows and, because overflow forces new_revision, lands in (2, 0) — not in (1, 0). *)
Example wr_overflow_moves_revision :
  option_map w_epoch (wrun winit (repeat_acts 255 cancel_cycle)) = Some (1, 255) /\
  option_map w_epoch (wrun winit (repeat_acts 256 cancel_cycle)) = Some (2, 0).
Proof. split; vm_compute; reflexivity. Qed.

(* Why it has to: with a wrapping bump and no revision change the 256th cancellation would
   bring back the epoch (1, 0), and a stamp created before the first cancellation would be
   accepted again. *)
Example wrapping_bump_would_mix :
  N.iter 256 bump_wrapping 0 = 0 /\
  stamp_accepts (1, N.iter 256 bump_wrapping 0) (1, 0) = true.
Proof. split; vm_compute; reflexivity. Qed.

(* the three reuse sites on a concrete memo: stamp (iteration 2, count 0), verified_at 1 *)
Example sites_accept_same_epoch :
  previous_iteration 1 0 1 (stamp_new 2 0) true true = PISeed (stamp_new 2 0) true /\
  fetch_cold_cycle 1 0 1 (stamp_new 2 0) true true true = CCReuseProvisional /\
  validate_may_be_provisional 1 0 1 (stamp_new 2 0) false true = true.
Proof. vm_compute. auto. Qed.

Example sites_reject_after_cancellation :
  previous_iteration 1 1 1 (stamp_new 2 0) true true = PIDiscard /\
  fetch_cold_cycle 1 1 1 (stamp_new 2 0) true true true = CCInitial (stamp_new 0 1) /\
  validate_may_be_provisional 1 1 1 (stamp_new 2 0) false true = false.
Proof. vm_compute. auto. Qed.
