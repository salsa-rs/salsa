(* Cancel/ProofsTok.v — lemmas about the TOKEN machine of Cancel/Model.v (C21). *)
From Salsa Require Import Base.
From Salsa.Cancel Require Import Model.

(* ---------- check ---------- *)

Lemma check_local_iff tok flag :
  check_outcome tok flag = OLocal <-> tok = CANCELLED_MASK.
Proof.
  unfold check_outcome. rewrite <- tok_should_trigger_exact.
  destruct (tok_should_trigger tok); [tauto |].
  destruct flag; split; intros H; discriminate.
Qed.

Lemma check_local_bits tok flag :
  tok_wf tok ->
  (check_outcome tok flag = OLocal <->
   tok_is_cancelled tok = true /\ tok_prev_disabled tok = false).
Proof.
  intros Hwf. unfold check_outcome. rewrite (tok_should_trigger_spec _ Hwf).
  destruct (tok_is_cancelled tok), (tok_prev_disabled tok); cbn; destruct flag;
    split; try tauto; try discriminate; intros [? ?]; discriminate.
Qed.

Lemma check_pending_iff tok flag :
  check_outcome tok flag = OPendingWrite <-> (tok <> CANCELLED_MASK /\ flag = true).
Proof.
  unfold check_outcome. rewrite <- tok_should_trigger_exact.
  destruct (tok_should_trigger tok), flag; split; try discriminate; try tauto;
    try (intros [H ?]; try discriminate; exfalso; apply H; reflexivity).
  intros _. split; [discriminate | reflexivity].
Qed.

(* ---------- frames / small state lemmas ---------- *)

Lemma drop_frame_frames s t f : t_frames (fst (drop_frame s t f)) = t_frames s.
Proof.
  destruct f as [[|] prev | h was]; cbn; try reflexivity.
  destruct (t_att s t); reflexivity.
Qed.

Lemma has_dis_false_iff h fs :
  has_dis h fs = false <-> (forall w, ~ In (FDis h w) fs).
Proof.
  unfold has_dis. split.
  - intros H w Hin.
    assert (E : existsb (is_dis h) fs = true).
    { apply existsb_exists. exists (FDis h w). split; [exact Hin | cbn; apply N.eqb_refl]. }
    congruence.
  - intros H. destruct (existsb (is_dis h) fs) eqn:E; [| reflexivity].
    apply existsb_exists in E. destruct E as [f [Hin Hd]].
    destruct f as [a p | h' w]; cbn in Hd; [discriminate |].
    apply N.eqb_eq in Hd. subst h'. exfalso. exact (H w Hin).
Qed.

(* ---------- C21_own_only, second half: frame rule for tokens ---------- *)

Lemma tstep_tok s op s' o :
  tstep s op = Some (s', o) ->
  t_tok s' = t_tok s \/
  exists h v, op_handle s op = Some h /\ t_tok s' = updN (t_tok s) h v /\
    (v = tok_cancel (t_tok s h) \/ (exists b, v = tok_set_disabled (t_tok s h) b) \/
     (v = tok_reset (t_tok s h) /\ o = TReset (Some h))).
Proof.
  intros Hstep.
  destruct op as [h | t h | t h | t h | t | h flag]; cbn [tstep op_handle] in *.
  - injection Hstep as <- _. right. exists h, (tok_cancel (t_tok s h)).
    split; [reflexivity | split; [reflexivity | left; reflexivity]].
  - destruct (t_att s t) as [cur |]; [destruct (cur =? h) |]; injection Hstep as <- _;
      left; reflexivity.
  - destruct (t_att s t) as [cur |]; [destruct (cur =? h) |]; injection Hstep as <- _;
      left; reflexivity.
  - destruct (opt_eqb (t_att s t) (Some h)); [| discriminate]. injection Hstep as <- _.
    right. exists h, (tok_set_disabled (t_tok s h) true).
    split; [reflexivity | split; [reflexivity | right; left; exists true; reflexivity]].
  - destruct (t_frames s t) as [| [[|] prev | h was] fs]; [discriminate | | |];
      cbn [drop_frame set_frames t_att] in Hstep.
    + destruct (t_att s t) as [d |]; injection Hstep as <- <-; [| left; reflexivity].
      right. exists d, (tok_reset (t_tok s d)).
      split; [reflexivity | split; [reflexivity | right; right; split; reflexivity]].
    + injection Hstep as <- _. left; reflexivity.
    + injection Hstep as <- _. right. exists h, (tok_set_disabled (t_tok s h) was).
      split; [reflexivity | split; [reflexivity | right; left; exists was; reflexivity]].
  - injection Hstep as <- _. left; reflexivity.
Qed.

Lemma tstep_other_tokens s op s' o :
  tstep s op = Some (s', o) ->
  forall h', op_handle s op <> Some h' -> t_tok s' h' = t_tok s h'.
Proof.
  intros Hstep h' Hne.
  destruct (tstep_tok _ _ _ _ Hstep) as [-> | (h & v & Ho & -> & _)]; [reflexivity |].
  apply updN_other. congruence.
Qed.

(* the result of a check depends on this handle's byte and the flag only *)
Lemma tstep_check_outcome s h flag s' o :
  tstep s (TCheck h flag) = Some (s', o) ->
  s' = s /\ o = TOutcome (check_outcome (t_tok s h) flag).
Proof. cbn. intros H; inversion H; auto. Qed.

(* ---------- the invariant ---------- *)

(* The guard stack of a thread attached to [h], innermost frame first: above the outermost scope
   (which saved no previous database) only nested scopes of [h] and disable guards of [h], each
   of which saved whether a guard was already active below it. *)
Fixpoint stack_ok (h : N) (fs : list frame) : Prop :=
  match fs with
  | FDb true None :: rest => rest = []
  | FDb false None :: rest => stack_ok h rest
  | FDis h' w :: rest => h' = h /\ w = has_dis h rest /\ stack_ok h rest
  | _ => False
  end.

Record tinv (s : tstate) : Prop := {
  ti_wf : forall h, tok_wf (t_tok s h);
  ti_unatt : forall t, t_att s t = None -> t_frames s t = [];
  ti_att : forall t h, t_att s t = Some h ->
     stack_ok h (t_frames s t) /\ tok_prev_disabled (t_tok s h) = has_dis h (t_frames s t);
  ti_excl : forall t t' h, t_att s t = Some h -> t_att s t' = Some h -> t = t';
  ti_dis : forall h, tok_prev_disabled (t_tok s h) = true -> exists t, t_att s t = Some h
}.

Lemma tinv_init : tinv tinit.
Proof.
  constructor; cbn; intros; try discriminate; try reflexivity.
Qed.

Lemma opt_eqb_some a h : opt_eqb a (Some h) = true <-> a = Some h.
Proof.
  destruct a as [x |]; cbn; [| split; discriminate].
  rewrite N.eqb_eq. split; congruence.
Qed.

Lemma stack_ok_dis h fs h' w : stack_ok h fs -> In (FDis h' w) fs -> h' = h.
Proof.
  induction fs as [| [[|] [p |] | g v] fs IH]; cbn [stack_ok]; try contradiction.
  - intros -> [E | []]. discriminate.
  - intros Hs [E | Hin]; [discriminate | auto].
  - intros (-> & _ & Hs) [E | Hin]; [inversion E; reflexivity | auto].
Qed.

Lemma tinv_step s op s' o :
  tinv s -> plain_op op = true -> attach_ok s op -> tstep s op = Some (s', o) -> tinv s'.
Proof.
  intros [Hwf Hun Hat Hex Hfr] Hplain Hok Hstep.
  destruct op as [h | t h | t h | t h | t | h flag]; cbn [tstep] in Hstep; try discriminate Hplain.
  - (* TCancel: the DISABLED bit is kept *)
    injection Hstep as <- <-. constructor; cbn.
    + intros h'. unfold updN. destruct (h =? h'); [apply tok_cancel_wf |]; apply Hwf.
    + exact Hun.
    + intros t h' Ha. destruct (Hat t h' Ha) as [E1 E2]. split; [exact E1 |].
      unfold updN. destruct (N.eqb_spec h h') as [-> | Hn]; [| exact E2].
      rewrite tok_cancel_prev_disabled by apply Hwf. exact E2.
    + exact Hex.
    + intros h'. unfold updN. destruct (N.eqb_spec h h') as [-> | Hn]; [| apply Hfr].
      rewrite tok_cancel_prev_disabled by apply Hwf. apply Hfr.
  - (* TAttach *)
    destruct (t_att s t) as [cur |] eqn:Ea.
    + destruct (N.eqb_spec cur h) as [-> | Hn]; injection Hstep as <- <-.
      * (* nested scope of the same handle *)
        constructor; cbn; auto.
        -- intros t' Ha'. unfold updN. destruct (N.eqb_spec t t') as [-> | Hn]; [congruence |].
           apply Hun; exact Ha'.
        -- intros t' h' Ha'. unfold updN. destruct (N.eqb_spec t t') as [-> | Hn]; [| apply Hat; exact Ha'].
           exact (Hat t' h' Ha').
      * (* panic: state unchanged *)
        constructor; auto.
    + (* outermost scope: the handle is attached nowhere, so no guard of it is active *)
      injection Hstep as <- <-. cbn in Hok.
      assert (Hfree : forall t', t_att s t' <> Some h).
      { intros t'. destruct (N.eq_dec t' t) as [-> | Hn]; [congruence | apply Hok; exact Hn]. }
      constructor; cbn.
      * exact Hwf.
      * intros t'. unfold updN. destruct (N.eqb_spec t t') as [-> | Hn]; [discriminate |].
        apply Hun.
      * intros t' h'. unfold updN at 1 2 3. destruct (N.eqb_spec t t') as [-> | Hn]; [| apply Hat].
        intros [= <-]. rewrite (Hun t' Ea). cbn. split; [reflexivity |].
        destruct (tok_prev_disabled (t_tok s h)) eqn:Ed; [| reflexivity].
        destruct (Hfr h Ed) as [t0 Ht0]. destruct (Hfree t0 Ht0).
      * intros t1 t2 h'. unfold updN.
        destruct (N.eqb_spec t t1) as [E1 | Hn1]; destruct (N.eqb_spec t t2) as [E2 | Hn2].
        -- congruence.
        -- intros [= <-] B. destruct (Hfree t2 B).
        -- intros A [= <-]. destruct (Hfree t1 A).
        -- apply Hex.
      * intros h' Hd. destruct (Hfr h' Hd) as [t0 Ht0]. exists t0.
        unfold updN. destruct (N.eqb_spec t t0) as [-> | Hn]; [congruence | exact Ht0].
  - (* TDisable: the guard saves the DISABLED bit, which says whether one is active below *)
    destruct (opt_eqb (t_att s t) (Some h)) eqn:Eo; [| discriminate].
    apply opt_eqb_some in Eo. injection Hstep as <- <-.
    destruct (Hat t h Eo) as [E1 E2].
    constructor; cbn.
    + intros h'. unfold updN. destruct (h =? h'); [apply tok_set_disabled_wf |]; apply Hwf.
    + intros t' Ha'. unfold updN. destruct (N.eqb_spec t t') as [-> | Hn]; [congruence |].
      apply Hun; exact Ha'.
    + intros t' h' Ha'. unfold updN at 1 3. destruct (N.eqb_spec t t') as [-> | Hn].
      * assert (h' = h) by congruence. subst h'. rewrite updN_same. cbn.
        rewrite tok_set_disabled_prev by apply Hwf. rewrite N.eqb_refl. auto.
      * assert (Hne : h <> h') by (intros ->; apply Hn; exact (Hex _ _ _ Eo Ha')).
        rewrite updN_other by exact Hne. apply Hat; exact Ha'.
    + exact Hex.
    + intros h'. unfold updN. destruct (N.eqb_spec h h') as [-> | Hne]; [| apply Hfr].
      intros _. exists t. exact Eo.
  - (* TPop *)
    destruct (t_frames s t) as [| f fs] eqn:Ef; [discriminate |].
    injection Hstep as Hd.
    destruct (t_att s t) as [h |] eqn:Ea; [| rewrite (Hun t Ea) in Ef; discriminate].
    destruct (Hat t h Ea) as [E1 E2]. rewrite Ef in E1, E2.
    destruct f as [[|] [p |] | g w]; cbn [stack_ok] in E1; try contradiction;
      cbn [drop_frame set_frames t_att] in Hd.
    + (* the outermost scope ends: reset *)
      subst fs. rewrite Ea in Hd. injection Hd as <- <-. constructor; cbn.
      * intros h'. unfold updN. destruct (h =? h'); [apply tok_reset_wf | apply Hwf].
      * intros t'. unfold updN. destruct (N.eqb_spec t t') as [-> | Hn]; [reflexivity |].
        apply Hun.
      * intros t' h'. unfold updN at 1 2 4. destruct (N.eqb_spec t t') as [-> | Hn]; [discriminate |].
        intros Ha'. assert (Hne : h <> h') by (intros ->; apply Hn; exact (Hex _ _ _ Ea Ha')).
        rewrite updN_other by exact Hne. apply Hat; exact Ha'.
      * intros t1 t2 h'. unfold updN.
        destruct (N.eqb_spec t t1), (N.eqb_spec t t2); try discriminate. apply Hex.
      * intros h'. unfold updN at 1. destruct (N.eqb_spec h h') as [-> | Hne]; [discriminate |].
        intros Hd. destruct (Hfr h' Hd) as [t0 Ht0]. exists t0.
        unfold updN. destruct (N.eqb_spec t t0) as [-> | Hn]; [congruence | exact Ht0].
    + (* a nested attach scope ends: nothing but the stack changes *)
      injection Hd as <- <-. constructor; cbn; auto.
      * intros t' Ha'. unfold updN. destruct (N.eqb_spec t t') as [-> | Hn]; [congruence |].
        apply Hun; exact Ha'.
      * intros t' h' Ha'. unfold updN. destruct (N.eqb_spec t t') as [-> | Hn]; [| apply Hat; exact Ha'].
        assert (h' = h) by congruence. subst h'. auto.
    + (* a disable guard is restored *)
      destruct E1 as (-> & Ew & E1). injection Hd as <- <-. constructor; cbn.
      * intros h'. unfold updN. destruct (h =? h'); [apply tok_set_disabled_wf |]; apply Hwf.
      * intros t' Ha'. unfold updN. destruct (N.eqb_spec t t') as [-> | Hn]; [congruence |].
        apply Hun; exact Ha'.
      * intros t' h' Ha'. unfold updN at 1 3. destruct (N.eqb_spec t t') as [-> | Hn].
        -- assert (h' = h) by congruence. subst h'. rewrite updN_same.
           rewrite tok_set_disabled_prev by apply Hwf. auto.
        -- assert (Hne : h <> h') by (intros ->; apply Hn; exact (Hex _ _ _ Ea Ha')).
           rewrite updN_other by exact Hne. apply Hat; exact Ha'.
      * exact Hex.
      * intros h'. unfold updN. destruct (N.eqb_spec h h') as [-> | Hne]; [| apply Hfr].
        intros _. exists t. exact Ea.
  - (* TCheck *)
    injection Hstep as <- <-. constructor; auto.
Qed.

Lemma treach_tinv s : treach s -> tinv s.
Proof.
  induction 1 as [| s op s' o Hr IH Hp Hok Hs]; [apply tinv_init |].
  eapply tinv_step; eauto.
Qed.

(* ---------- C21_not_in_fixpoint ---------- *)

Lemma dis_frame_owner s t h w :
  tinv s -> In (FDis h w) (t_frames s t) -> tok_prev_disabled (t_tok s h) = true.
Proof.
  intros [Hwf Hun Hat Hex Hfr] Hin.
  destruct (t_att s t) as [h0 |] eqn:Ea; [| rewrite (Hun t Ea) in Hin; contradiction].
  destruct (Hat t h0 Ea) as [E1 E2].
  assert (h = h0) by (eapply stack_ok_dis; eauto). subst h0. rewrite E2.
  destruct (has_dis h (t_frames s t)) eqn:Ed; [reflexivity |].
  destruct (proj1 (has_dis_false_iff _ _) Ed w Hin).
Qed.

Lemma no_local_while_disabled s h flag :
  treach s ->
  (exists t w, In (FDis h w) (t_frames s t)) ->
  check_outcome (t_tok s h) flag <> OLocal.
Proof.
  intros Hr [t [w Hin]]. pose proof (treach_tinv _ Hr) as Hi.
  rewrite (check_local_bits _ _ (ti_wf _ Hi h)). intros [_ Hd].
  rewrite (dis_frame_owner _ _ _ _ Hi Hin) in Hd. discriminate.
Qed.

Lemma local_fires_when_enabled s h flag :
  treach s ->
  tok_is_cancelled (t_tok s h) = true ->
  (forall t w, ~ In (FDis h w) (t_frames s t)) ->
  check_outcome (t_tok s h) flag = OLocal.
Proof.
  intros Hr Hc Hno. pose proof (treach_tinv _ Hr) as Hi.
  apply (check_local_bits _ _ (ti_wf _ Hi h)). split; [exact Hc |].
  destruct Hi as [Hwf Hun Hat Hex Hfr].
  destruct (tok_prev_disabled (t_tok s h)) eqn:Ed; [| reflexivity].
  destruct (Hfr h Ed) as [t Ha]. destruct (Hat t h Ha) as [_ E2].
  rewrite Ed in E2. symmetry in E2. exfalso. revert E2.
  apply not_true_iff_false, has_dis_false_iff. apply Hno.
Qed.

(* a cancellation request is only ever consumed by the reset at the end of the outermost scope *)
Lemma cancel_request_persists s op s' o h :
  treach s -> tstep s op = Some (s', o) ->
  tok_is_cancelled (t_tok s h) = true ->
  o <> TReset (Some h) ->
  tok_is_cancelled (t_tok s' h) = true.
Proof.
  intros Hr Hstep Hc Hno. pose proof (ti_wf _ (treach_tinv _ Hr)) as Hwf.
  destruct (tstep_tok _ _ _ _ Hstep) as [-> | (h0 & v & _ & -> & Hv)]; [exact Hc |].
  unfold updN. destruct (N.eqb_spec h0 h) as [-> | Hn]; [| exact Hc].
  destruct Hv as [-> | [[b ->] | [-> ->]]].
  - apply tok_cancel_is_cancelled, Hwf.
  - rewrite tok_set_disabled_is_cancelled by apply Hwf. exact Hc.
  - exfalso. apply Hno. reflexivity.
Qed.

(* ---------- C21_reset ---------- *)

(* the reset happens exactly when the outermost scope of the handle ends *)
Lemma reset_only_at_outermost s t s' o h :
  treach s -> tstep s (TPop t) = Some (s', o) ->
  (o = TReset (Some h) <-> (t_att s t = Some h /\ t_frames s t = [FDb true None])).
Proof.
  intros Hr Hstep. destruct (treach_tinv _ Hr) as [Hwf Hun Hat Hex Hfr].
  cbn [tstep] in Hstep. destruct (t_frames s t) as [| f fs] eqn:Ef; [discriminate |].
  injection Hstep as Hd.
  destruct (t_att s t) as [h0 |] eqn:Ea; [| rewrite (Hun t Ea) in Ef; discriminate].
  destruct (Hat t h0 Ea) as [E1 _]. rewrite Ef in E1.
  destruct f as [[|] [p |] | g w]; cbn [stack_ok] in E1; try contradiction;
    cbn [drop_frame set_frames t_att] in Hd.
  - subst fs. rewrite Ea in Hd. injection Hd as _ <-.
    split; [intros [= ->]; auto | intros [[= ->] _]; reflexivity].
  - injection Hd as _ <-. split; [discriminate | intros [_ E]; discriminate E].
  - injection Hd as _ <-. split; [discriminate | intros [_ E]; discriminate E].
Qed.

Lemma reset_at_outermost s t h s' o :
  treach s -> t_att s t = Some h -> t_frames s t = [FDb true None] ->
  tstep s (TPop t) = Some (s', o) ->
  t_tok s' h = 0 /\ t_att s' t = None /\ t_frames s' t = [] /\ o = TReset (Some h).
Proof.
  intros Hr Ea Ef Hstep. cbn in Hstep. rewrite Ef in Hstep. cbn in Hstep. rewrite Ea in Hstep.
  inversion Hstep; subst; cbn. rewrite !updN_same. auto.
Qed.

(* unwinding (or returning through) every scope of the thread *)
Lemma tpops_stack t h : forall fs s,
  t_frames s t = fs -> stack_ok h fs -> t_att s t = Some h ->
  let s' := tpops s t (length fs) in
  t_tok s' h = 0 /\ t_att s' t = None /\ t_frames s' t = [].
Proof.
  induction fs as [| f fs IH]; intros s Ef Hs Ea; [destruct Hs |].
  cbn [length tpops tstep]. rewrite Ef.
  destruct f as [[|] [p |] | g w]; cbn [stack_ok] in Hs; try contradiction; cbn [drop_frame].
  - subst fs. cbn. rewrite Ea. cbn. rewrite !updN_same. auto.
  - apply IH; cbn; auto. apply updN_same.
  - destruct Hs as (-> & _ & Hs). apply IH; cbn; auto. apply updN_same.
Qed.

Lemma reset_after_unwind s t h :
  treach s -> t_att s t = Some h ->
  let s' := tunwind s t in
  t_tok s' h = 0 /\ t_att s' t = None /\ t_frames s' t = [].
Proof.
  intros Hr Ea. destruct (ti_att _ (treach_tinv _ Hr) t h Ea) as [E1 _].
  exact (tpops_stack t h _ s eq_refl E1 Ea).
Qed.

Lemma tpops_reach t : forall n s, treach s -> treach (tpops s t n).
Proof.
  induction n as [| n IH]; intros s Hr; cbn [tpops]; [exact Hr |].
  destruct (tstep s (TPop t)) as [[s' o] |] eqn:E; [| exact Hr].
  apply IH. exact (tr_step s (TPop t) s' o Hr eq_refl I E).
Qed.

Lemma tunwind_reach s t : treach s -> treach (tunwind s t).
Proof. apply tpops_reach. Qed.

Fixpoint trun_ok (s : tstate) (ops : list top) : Prop :=
  match ops with
  | [] => True
  | op :: rest =>
      plain_op op = true /\ attach_ok s op /\
      match tstep s op with
      | Some (s', _) => trun_ok s' rest
      | None => False
      end
  end.

Lemma trun_reach : forall ops s s',
  treach s -> trun_ok s ops -> trun s ops = Some s' -> treach s'.
Proof.
  induction ops as [| op ops IH]; intros s s' Hr Hok Hrun; cbn in *.
  - inversion Hrun; subst; exact Hr.
  - destruct Hok as [Hp [Ha Hrest]].
    destruct (tstep s op) as [[s1 o] |] eqn:E; [| contradiction].
    eapply IH; [| exact Hrest | exact Hrun]. exact (tr_step _ _ _ _ Hr Hp Ha E).
Qed.
