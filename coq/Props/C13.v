(* Props/C13.v — Fallback cycles return the fallback for exactly the cycle participants.
   The statements of C13.  Proofs in Cycle/FallbackProofs.v (specification, certificate) and
   Cycle/FbThm.v (fresh revision); witnesses in Cycle/Examples.v and Cycle/FbExamples.v.
   NOTE: the history-independence clause of the property is REFUTED for the unchanged crate
   (C13_history_dependent_refuted below, replayed on the implementation by checks/C13.py). *)
From Salsa Require Import Base.
From Salsa.Core Require Import Model Spec.
From Salsa.Cycle Require Import Spec FallbackProofs.
From Salsa.Cycle Require Cert Examples.
From Salsa.Cycle Require FbInv FbThm FbExamples.

(* The graph analysis of the specification computes what it should: [on_cycle g n q] holds
   exactly when a closed walk of at most n + 1 edges of the call graph passes through q. *)
Theorem C13_on_cycle_spec : forall (g : qkey -> list qkey) (n : nat) (q : qkey),
  on_cycle g n q = true <-> exists k, (k <= n)%nat /\ walk g (S k) q q.
Proof. exact on_cycle_spec. Qed.
Check C13_on_cycle_spec : forall (g : qkey -> list qkey) (n : nat) (q : qkey),
  on_cycle g n q = true <-> exists k, (k <= n)%nat /\ walk g (S k) q q.
Print Assumptions C13_on_cycle_spec.

(* [spec_fallback] is well defined: for programs whose call edges depend on inputs only, it does
   not depend on the evaluation fuel.  `_partial`: under a rank witnessing that the call graph
   minus its cyclic nodes is acyclic (it is, by definition of "cyclic node"; that a rank always
   exists is the pigeonhole argument not formalised here). *)
Theorem C13_spec_fallback_wd_partial : forall (prog : qkey -> body) (sn : snapshot) (fb : qkey -> val)
    (ns : list qkey) (rank : qkey -> nat),
  input_determined prog sn ->
  let cyc := fun q => mem q (cyclic_nodes (succs prog sn) ns) in
  (forall q q', cyc q = false -> In q' (succs prog sn q) -> cyc q' = false -> (rank q' < rank q)%nat) ->
  (forall q, (rank q < length ns)%nat) ->
  forall n q, (length ns < n)%nat -> spec_fb prog sn fb cyc n q = spec_fallback prog sn fb ns q.
Proof. exact spec_fallback_wd. Qed.
Check C13_spec_fallback_wd_partial : forall (prog : qkey -> body) (sn : snapshot) (fb : qkey -> val)
    (ns : list qkey) (rank : qkey -> nat),
  input_determined prog sn ->
  let cyc := fun q => mem q (cyclic_nodes (succs prog sn) ns) in
  (forall q q', cyc q = false -> In q' (succs prog sn q) -> cyc q' = false -> (rank q' < rank q)%nat) ->
  (forall q, (rank q < length ns)%nat) ->
  forall n q, (length ns < n)%nat -> spec_fb prog sn fb cyc n q = spec_fallback prog sn fb ns q.
Print Assumptions C13_spec_fallback_wd_partial.

(* The per-run certificate on a state of the executable Cycle model: if every settled memo of a
   cyclic node holds the fallback and every other settled memo re-evaluates to itself over the
   settled memos ([is_fallback_state], decidable, evaluated on every generated run), then every
   settled memo holds spec_fallback — whatever the entry order and history were. *)
Theorem C13_certified_partial : forall (prog : qkey -> body) (fb : qkey -> val) (ns : list qkey)
    (rank : qkey -> nat) (s : Salsa.Cycle.Model.cdb),
  input_determined prog (Cert.csnap_of s) ->
  let cyc := fun q => mem q (cyclic_nodes (succs prog (Cert.csnap_of s)) ns) in
  (forall q q', cyc q = false -> In q' (succs prog (Cert.csnap_of s) q) -> cyc q' = false -> (rank q' < rank q)%nat) ->
  (forall q, (rank q < length ns)%nat) ->
  Cert.is_fallback_state prog fb ns s = true ->
  (forall q v, Cert.final_val s q = Some v -> In q ns) ->
  forall q v, Cert.final_val s q = Some v -> v = spec_fallback prog (Cert.csnap_of s) fb ns q.
Proof.
  intros prog fb ns rank s Hdet cyc Hrank Hb Hcert Hdom.
  exact (certified_fallback prog (Cert.csnap_of s) fb ns rank (Cert.final_val s) Hdet Hrank Hb Hcert Hdom).
Qed.
Check C13_certified_partial : forall (prog : qkey -> body) (fb : qkey -> val) (ns : list qkey)
    (rank : qkey -> nat) (s : Salsa.Cycle.Model.cdb),
  input_determined prog (Cert.csnap_of s) ->
  let cyc := fun q => mem q (cyclic_nodes (succs prog (Cert.csnap_of s)) ns) in
  (forall q q', cyc q = false -> In q' (succs prog (Cert.csnap_of s) q) -> cyc q' = false -> (rank q' < rank q)%nat) ->
  (forall q, (rank q < length ns)%nat) ->
  Cert.is_fallback_state prog fb ns s = true ->
  (forall q v, Cert.final_val s q = Some v -> In q ns) ->
  forall q v, Cert.final_val s q = Some v -> v = spec_fallback prog (Cert.csnap_of s) fb ns q.
Print Assumptions C13_certified_partial.

(* The full statement of the property over the model: every Get returns spec_fallback.  It is
   FALSE of the faithful model (and of the unchanged crate): *)
Definition C13_full_statement : Prop :=
  forall (prog : qkey -> body) (iv : ikey -> val) (ops : list Salsa.Cycle.Model.cop) (ns : list qkey) (q : qkey),
    (forall sn, input_determined prog sn) ->
    let s := Examples.final_of prog iv ops in
    snd (Salsa.Cycle.Model.cstep prog Examples.ex_strat Examples.ex_cinit 12 12 s (Salsa.Cycle.Model.COGet q))
    = Salsa.Cycle.Model.COk (spec_fallback prog (Cert.csnap_of s) Examples.ex_cinit ns q).

(* Refutation witness (replayed on the implementation: identical).  f0 = 4 & (in | f1), f1 = f0,
   both cycle_result = 0xA5.  Enter at f1 (f1 head, f0 participant, both 0xA5; f0's memo stays
   provisional), write an UNRELATED input field, ask for f0: the model — and the crate — return
   4 = 4 & 0xA5, the body's value, although f0 still lies on the cycle; a fresh database returns
   0xA5 from either entry (C13_fresh_either_entry).
   The theorem is stated on the outputs of the whole history, not as [~ C13_full_statement]: it
   contradicts the instance of [C13_full_statement] at [ops] without its last Get (a Get leaves
   the snapshot unchanged), whose answer is the third output, 4, where [spec_fallback] is 165. *)
Theorem C13_history_dependent_refuted :
  exists (prog : qkey -> body) (iv : ikey -> val) (ops : list Salsa.Cycle.Model.cop) (ns : list qkey) (q : qkey),
    Examples.outs_of prog iv ops
      = [Salsa.Cycle.Model.COk 165; Salsa.Cycle.Model.COk 0; Salsa.Cycle.Model.COk 4] /\
    last ops (Salsa.Cycle.Model.COGet q) = Salsa.Cycle.Model.COGet q /\
    spec_fallback prog (Cert.csnap_of (Examples.final_of prog iv ops)) Examples.ex_cinit ns q = 165.
Proof.
  exists Examples.ex13_prog, Examples.ex13_iv, Examples.ex13_hist, Examples.ex13_ns, (3, 0).
  destruct Examples.ex13_refuted_run as [H1 H2]. split; [exact H1 | split; [reflexivity | exact H2]].
Qed.
Check C13_history_dependent_refuted :
  exists (prog : qkey -> body) (iv : ikey -> val) (ops : list Salsa.Cycle.Model.cop) (ns : list qkey) (q : qkey),
    Examples.outs_of prog iv ops
      = [Salsa.Cycle.Model.COk 165; Salsa.Cycle.Model.COk 0; Salsa.Cycle.Model.COk 4] /\
    last ops (Salsa.Cycle.Model.COGet q) = Salsa.Cycle.Model.COGet q /\
    spec_fallback prog (Cert.csnap_of (Examples.final_of prog iv ops)) Examples.ex_cinit ns q = 165.
Print Assumptions C13_history_dependent_refuted.

(* Non-vacuity of the positive part: on a fresh database the same program returns the fallback
   for both members from either entry, the specification agrees, the certificate holds. *)
Example C13_fresh_either_entry :
  Examples.outs_of Examples.ex13_prog Examples.ex13_iv
    [Salsa.Cycle.Model.COGet (3, 0); Salsa.Cycle.Model.COGet (3, 1)]
    = [Salsa.Cycle.Model.COk 165; Salsa.Cycle.Model.COk 165] /\
  Examples.outs_of Examples.ex13_prog Examples.ex13_iv
    [Salsa.Cycle.Model.COGet (3, 1); Salsa.Cycle.Model.COGet (3, 0)]
    = [Salsa.Cycle.Model.COk 165; Salsa.Cycle.Model.COk 165].
Proof. exact Examples.ex13_fresh. Qed.


(* The fresh revision.
   PROVED over the executable Cycle model, for all programs of the following class and all
   snapshots: starting from the initial database (no memos), ANY sequence of Gets (any entry order,
   any subset, repeats) returns [spec_fallback] for every Get — the fallback value for exactly the
   functions on a cycle of the current call graph, the body's value over those for every other
   function; hence never a panic and never out-of-fuel — and the final state passes the decidable
   certificate [is_fallback_state].  Fuel: any [fuel >= length ns], [nodes >= 1]; a cycle head
   iterates at most 5 times (only the metadata durability/untracked can move), independently of the
   number of nodes.  No monotonicity, no bound on the values.
   Class of programs ([FbInv.fbring_ok_of] + [input_determined] + [rank]): the call
   graph of the snapshot is input-determined and layered by [lvl]; the only same-level call of a
   node goes to [nxt] of it, [nxt] is injective and its edges are real calls; nodes with a
   same-level call are functions with cycle_result (SFallback).  So every strongly connected
   component is a simple ring of fallback functions, entered at any member; rings at different
   levels may call each other downwards; everything off the rings is acyclic with any strategy
   (fallback functions that are on no cycle return their body's value).  [rank] is the witness of
   C13_spec_fallback_wd_partial that the graph minus its cyclic nodes is acyclic.
   Several cycles through one node / nested heads are NOT covered. *)
Theorem C13_fresh :
  forall (prog : qkey -> body) (strat : N -> Salsa.Cycle.Model.strategy) (cinit : qkey -> val)
         (iv : ikey -> val) (idur : ikey -> dur) (ns : list qkey)
         (lvl : qkey -> nat) (nxt : qkey -> option qkey) (rank : qkey -> nat)
         (nodes fuel : nat) (qs : list qkey),
  let sn := Cert.csnap_of (Salsa.Cycle.Model.cinit_db iv idur) in
  let cyc := fun q => mem q (cyclic_nodes (succs prog sn) ns) in
  input_determined prog sn ->
  FbInv.fbring_ok_of prog strat sn ns lvl nxt ->
  (forall q q', cyc q = false -> In q' (succs prog sn q) -> cyc q' = false -> (rank q' < rank q)%nat) ->
  (forall q, (rank q < length ns)%nat) ->
  (1 <= nodes)%nat -> (length ns <= fuel)%nat -> (forall q, In q qs -> In q ns) ->
  exists s',
    Salsa.Cycle.Model.crun_ops prog strat cinit nodes fuel (Salsa.Cycle.Model.cinit_db iv idur)
      (map Salsa.Cycle.Model.COGet qs)
      = (s', map (fun q => Salsa.Cycle.Model.COk (spec_fallback prog sn cinit ns q)) qs) /\
    Cert.is_fallback_state prog cinit ns s' = true.
Proof. exact FbThm.fallback_ring. Qed.
Check C13_fresh :
  forall (prog : qkey -> body) (strat : N -> Salsa.Cycle.Model.strategy) (cinit : qkey -> val)
         (iv : ikey -> val) (idur : ikey -> dur) (ns : list qkey)
         (lvl : qkey -> nat) (nxt : qkey -> option qkey) (rank : qkey -> nat)
         (nodes fuel : nat) (qs : list qkey),
  let sn := Cert.csnap_of (Salsa.Cycle.Model.cinit_db iv idur) in
  let cyc := fun q => mem q (cyclic_nodes (succs prog sn) ns) in
  input_determined prog sn ->
  FbInv.fbring_ok_of prog strat sn ns lvl nxt ->
  (forall q q', cyc q = false -> In q' (succs prog sn q) -> cyc q' = false -> (rank q' < rank q)%nat) ->
  (forall q, (rank q < length ns)%nat) ->
  (1 <= nodes)%nat -> (length ns <= fuel)%nat -> (forall q, In q qs -> In q ns) ->
  exists s',
    Salsa.Cycle.Model.crun_ops prog strat cinit nodes fuel (Salsa.Cycle.Model.cinit_db iv idur)
      (map Salsa.Cycle.Model.COGet qs)
      = (s', map (fun q => Salsa.Cycle.Model.COk (spec_fallback prog sn cinit ns q)) qs) /\
    Cert.is_fallback_state prog cinit ns s' = true.
Print Assumptions C13_fresh.

(* NOT PROVED: the same statement for arbitrary strongly connected components of fallback
   functions (several cycles through one node, nested heads).  Random testing on fresh databases,
   with programs whose cycles go through fallback functions only, found no counterexample (values
   and certificate), and it holds on [FbExamples.exc_two_cycles]. *)
Definition C13_fresh_full_statement : Prop :=
  forall (prog : qkey -> body) (strat : N -> Salsa.Cycle.Model.strategy) (cinit : qkey -> val)
         (iv : ikey -> val) (idur : ikey -> dur) (ns : list qkey) (rank : qkey -> nat)
         (nodes fuel : nat) (qs : list qkey),
  let sn := Cert.csnap_of (Salsa.Cycle.Model.cinit_db iv idur) in
  let cyc := fun q => mem q (cyclic_nodes (succs prog sn) ns) in
  input_determined prog sn ->
  (forall q d, In q ns -> In d (succs prog sn q) -> In d ns) ->
  (forall q, cyc q = true -> strat (fst q) = Salsa.Cycle.Model.SFallback) ->
  (forall q q', cyc q = false -> In q' (succs prog sn q) -> cyc q' = false -> (rank q' < rank q)%nat) ->
  (forall q, (rank q < length ns)%nat) ->
  (length ns <= nodes)%nat -> (length ns <= fuel)%nat -> (forall q, In q qs -> In q ns) ->
  exists s',
    Salsa.Cycle.Model.crun_ops prog strat cinit nodes fuel (Salsa.Cycle.Model.cinit_db iv idur)
      (map Salsa.Cycle.Model.COGet qs)
      = (s', map (fun q => Salsa.Cycle.Model.COk (spec_fallback prog sn cinit ns q)) qs) /\
    Cert.is_fallback_state prog cinit ns s' = true.

(* Non-vacuity of C13_fresh: a 3-node ring of fallback functions with non-monotone bodies over a
   plain leaf, under a fallback function on no cycle and a plain caller, satisfies every
   hypothesis, for every list of Gets; the ring entered at each member. *)
Example C13_fresh_inhabited : forall (qs : list qkey), (forall q, In q qs -> In q FbExamples.exb_ns) ->
  exists s',
    Salsa.Cycle.Model.crun_ops FbExamples.exb_prog Examples.ex_strat Examples.ex_cinit 6 6
      (Salsa.Cycle.Model.cinit_db FbExamples.exb_iv (fun _ => 0)) (map Salsa.Cycle.Model.COGet qs)
      = (s', map (fun q => Salsa.Cycle.Model.COk
                   (spec_fallback FbExamples.exb_prog FbExamples.exb_sn Examples.ex_cinit FbExamples.exb_ns q)) qs) /\
    Cert.is_fallback_state FbExamples.exb_prog Examples.ex_cinit FbExamples.exb_ns s' = true.
Proof. exact FbExamples.exb_fresh. Qed.
Example C13_fresh_enter_each :
  FbExamples.exb_outs [Salsa.Cycle.Model.COGet (3, 0); Salsa.Cycle.Model.COGet (3, 1); Salsa.Cycle.Model.COGet (3, 2)]
    = [Salsa.Cycle.Model.COk 165; Salsa.Cycle.Model.COk 165; Salsa.Cycle.Model.COk 165] /\
  FbExamples.exb_outs [Salsa.Cycle.Model.COGet (3, 1); Salsa.Cycle.Model.COGet (3, 2); Salsa.Cycle.Model.COGet (3, 0)]
    = [Salsa.Cycle.Model.COk 165; Salsa.Cycle.Model.COk 165; Salsa.Cycle.Model.COk 165] /\
  FbExamples.exb_outs [Salsa.Cycle.Model.COGet (3, 2); Salsa.Cycle.Model.COGet (3, 0); Salsa.Cycle.Model.COGet (3, 1)]
    = [Salsa.Cycle.Model.COk 165; Salsa.Cycle.Model.COk 165; Salsa.Cycle.Model.COk 165] /\
  FbExamples.exb_outs [Salsa.Cycle.Model.COGet (0, 1); Salsa.Cycle.Model.COGet (3, 2); Salsa.Cycle.Model.COGet (3, 3);
                       Salsa.Cycle.Model.COGet (0, 0); Salsa.Cycle.Model.COGet (3, 1)]
    = [Salsa.Cycle.Model.COk 334; Salsa.Cycle.Model.COk 165; Salsa.Cycle.Model.COk 167;
       Salsa.Cycle.Model.COk 7; Salsa.Cycle.Model.COk 165].
Proof. exact FbExamples.exb_enter_each. Qed.
