(* Props/C12.v — Fixpoint cycles converge to the least fixpoint regardless of entry order.
   The statements of C12.  Their proofs are in Cycle/: SpecProofs.v and DslProofs.v (the
   specification), FreshThm.v (fresh revision), LockTop.v (claim discipline; the two theorems on
   whole fetches and runs are assembled here from its lemmas), HeadFetch.v (cycle heads).
   Programs are families of arbitrary deterministic bodies over the bit-set lattice (N with
   lor/land, bytes in the harness); "monotone bodies" is the semantic predicate [monotone_prog]. *)
From Salsa Require Import Base.
From Salsa.Core Require Import Model Spec.
From Salsa.Core Require Import Dsl.
From Salsa.Cycle Require Import Spec SpecProofs DslSpec DslProofs.
From Salsa.Cycle Require Cert Examples.
From Salsa.Cycle Require FreshInv FreshThm FreshExamples.

(* The specification is well defined and is what the property names: [kleene] satisfies every
   equation, lies below every assignment that satisfies (even: is closed under) the equations,
   and is reached after at most height(8) x nodes synchronous rounds from bottom. *)
Theorem C12_kleene_lfp : forall (prog : qkey -> body) (sn : snapshot) (ns : list qkey),
  monotone_prog prog sn -> fits8 prog sn ->
  is_fixpoint prog sn ns (kleene prog sn ns) /\
  (forall sigma, is_prefixpoint prog sn ns sigma -> env_le (kleene prog sn ns) sigma) /\
  (exists k, (k <= 8 * length ns)%nat /\
     forall m, (k <= m)%nat -> forall q, tlookup (kiter prog sn ns m (tbl0 ns)) q = kleene prog sn ns q).
Proof. exact kleene_lfp. Qed.
Check C12_kleene_lfp : forall (prog : qkey -> body) (sn : snapshot) (ns : list qkey),
  monotone_prog prog sn -> fits8 prog sn ->
  is_fixpoint prog sn ns (kleene prog sn ns) /\
  (forall sigma, is_prefixpoint prog sn ns sigma -> env_le (kleene prog sn ns) sigma) /\
  (exists k, (k <= 8 * length ns)%nat /\
     forall m, (k <= m)%nat -> forall q, tlookup (kiter prog sn ns m (tbl0 ns)) q = kleene prog sn ns q).
Print Assumptions C12_kleene_lfp.

(* Entry order is irrelevant by construction: ANY procedure (any entry node, any incremental
   history, any evaluation order) that only ever holds values below the least fixpoint and stops
   at a state satisfying every equation has computed the least fixpoint. *)
Theorem C12_chaotic : forall (prog : qkey -> body) (sn : snapshot) (ns : list qkey),
  monotone_prog prog sn ->
  forall sigma, env_le sigma (kleene prog sn ns) -> is_fixpoint prog sn ns sigma ->
  forall q, sigma q = kleene prog sn ns q.
Proof. exact chaotic. Qed.
Check C12_chaotic : forall (prog : qkey -> body) (sn : snapshot) (ns : list qkey),
  monotone_prog prog sn ->
  forall sigma, env_le sigma (kleene prog sn ns) -> is_fixpoint prog sn ns sigma ->
  forall q, sigma q = kleene prog sn ns q.
Print Assumptions C12_chaotic.

(* The per-run certificate on a state of the executable Cycle model: if the settled memos
   (final, or finalisable by validate_provisional, verified in the current revision) re-evaluate
   to themselves ([is_fixpoint_state], decidable, evaluated on every generated run) and hold
   values below the least fixpoint, then every one of them IS the least fixpoint's value. *)
Theorem C12_certified : forall (prog : qkey -> body) (ns : list qkey) (s : Salsa.Cycle.Model.cdb),
  monotone_prog prog (Cert.csnap_of s) -> fits8 prog (Cert.csnap_of s) ->
  Cert.is_fixpoint_state prog ns s = true ->
  (forall q v, Cert.final_val s q = Some v -> le_bits v (kleene prog (Cert.csnap_of s) ns q)) ->
  forall q v, In q ns -> Cert.final_val s q = Some v -> v = kleene prog (Cert.csnap_of s) ns q.
Proof.
  intros prog ns s Hm Hf Hc Hb. exact (certified_fix prog (Cert.csnap_of s) ns Hm Hf (Cert.final_val s) Hc Hb).
Qed.
Check C12_certified : forall (prog : qkey -> body) (ns : list qkey) (s : Salsa.Cycle.Model.cdb),
  monotone_prog prog (Cert.csnap_of s) -> fits8 prog (Cert.csnap_of s) ->
  Cert.is_fixpoint_state prog ns s = true ->
  (forall q v, Cert.final_val s q = Some v -> le_bits v (kleene prog (Cert.csnap_of s) ns q)) ->
  forall q v, In q ns -> Cert.final_val s q = Some v -> v = kleene prog (Cert.csnap_of s) ns q.
Print Assumptions C12_certified.

(* The hypotheses are not vacuous and not special: EVERY program of the `cycles` profile — DSL
   expressions (Core/Dsl.v) built from byte literals, input reads, union, intersection, calls with
   input-computed keys and input-controlled branches; the decidable class [mono_table], evaluated
   by the driver on every generated case — compiles to monotone, byte-valued bodies. *)
Theorem C12_profile_programs_monotone : forall (nk : N) (tbl : list (qkey * expr)) (sn : snapshot),
  mono_table tbl = true -> (forall i, sn_in sn i < 256) ->
  monotone_prog (prog_of nk tbl) sn /\ fits8 (prog_of nk tbl) sn.
Proof. intros nk tbl sn Ht Hin. split; [now apply dsl_monotone | now apply dsl_fits8]. Qed.
Check C12_profile_programs_monotone : forall (nk : N) (tbl : list (qkey * expr)) (sn : snapshot),
  mono_table tbl = true -> (forall i, sn_in sn i < 256) ->
  monotone_prog (prog_of nk tbl) sn /\ fits8 (prog_of nk tbl) sn.
Print Assumptions C12_profile_programs_monotone.

(* NOT PROVED: the two statements that would close C12 over the model for all programs and
   histories: the hypothesis of [C12_certified] that settled values lie below the least fixpoint,
   and its conclusion with no hypothesis on the reached state.  They are tested per generated
   run by the correspondence engine (implementation = model on values, events, state; values =
   kleene).  [C12_fresh] below proves, for Gets from the initial database and ring-shaped
   cycles, that every Get returns kleene and the final state passes the certificate. *)
Definition C12_below_full_statement : Prop :=
  forall (prog : qkey -> body) strat cinit nodes fuel iv idur ops ns q v,
    (forall sn, monotone_prog prog sn) -> (forall sn, closed_on prog sn ns) ->
    (forall q, cinit q = 0) ->
    (forall fam, strat fam = Salsa.Cycle.Model.SFix \/ strat fam = Salsa.Cycle.Model.SFixJoin) ->
    let s := fst (Salsa.Cycle.Model.crun_ops prog strat cinit nodes fuel (Salsa.Cycle.Model.cinit_db iv idur) ops) in
    Cert.final_val s q = Some v -> le_bits v (kleene prog (Cert.csnap_of s) ns q).
Definition C12_finalises_certified_full_statement : Prop :=
  forall (prog : qkey -> body) strat cinit nodes fuel iv idur ops ns,
    (forall sn, monotone_prog prog sn) -> (forall sn, closed_on prog sn ns) ->
    (forall q, cinit q = 0) ->
    (forall fam, strat fam = Salsa.Cycle.Model.SFix \/ strat fam = Salsa.Cycle.Model.SFixJoin) ->
    let s := fst (Salsa.Cycle.Model.crun_ops prog strat cinit nodes fuel (Salsa.Cycle.Model.cinit_db iv idur) ops) in
    forall q v, In q ns -> Cert.final_val s q = Some v -> v = kleene prog (Cert.csnap_of s) ns q.

(* Non-vacuity: a two-node cycle  x0 = in | x1, x1 = 2 | (x0 & 6)  satisfies the hypotheses for
   every snapshot; the executable model, entered at either node, before and after a write,
   returns the least fixpoint and its final state passes the certificate. *)
Example C12_hypotheses_inhabited : forall sn, (forall i, sn_in sn i < 256) ->
  monotone_prog Examples.ex12_prog sn /\ fits8 Examples.ex12_prog sn.
Proof. intros sn H. split; [apply Examples.ex12_monotone | now apply Examples.ex12_fits]. Qed.
Example C12_model_run :
  Examples.outs_of Examples.ex12_prog Examples.ex12_iv
    [Salsa.Cycle.Model.COGet (1, 0); Salsa.Cycle.Model.COGet (1, 1);
     Salsa.Cycle.Model.COSet (0, 0) 8 None; Salsa.Cycle.Model.COGet (1, 1); Salsa.Cycle.Model.COGet (1, 0)]
  = [Salsa.Cycle.Model.COk 7; Salsa.Cycle.Model.COk 6; Salsa.Cycle.Model.COk 0;
     Salsa.Cycle.Model.COk 2; Salsa.Cycle.Model.COk 10].
Proof. exact Examples.ex12_run. Qed.


(* The fresh revision.
   PROVED over the executable Cycle model, for all programs of the following class and all
   snapshots: starting from the initial database (no memos), ANY sequence of Gets (any entry order,
   any subset, repeats) returns the least fixpoint for every Get — hence never a panic and never
   out-of-fuel — and the final state's settled memos pass the certificate [is_fixpoint_state].
   Fuel: any [fuel >= length ns] (the recursion depth of fetch is bounded by the number of nodes)
   and [nodes >= 1]; the fixpoint loop never needs more than 13 iterations, independently of the
   number of nodes (stamps stay below 16, far from MAX_ITERATIONS = 200).
   Class of programs ([FreshInv.ring_ok_of] + [input_determined]): the call graph of
   the snapshot is input-determined and layered by [lvl]; the only same-level call of a node goes
   to [nxt] of it, [nxt] is injective and its edges are real calls; nodes with a same-level call
   use Fixpoint (default or joining cycle_fn) with cycle_initial = 0.  So every strongly connected
   component is a simple ring, entered at any member, no nested heads; rings at different levels
   may call each other downwards; nodes off the rings may use any strategy (plain / no-cycle
   families only occur acyclically).  Nested cycle heads are NOT covered. *)
Theorem C12_fresh :
  forall (prog : qkey -> body) (strat : N -> Salsa.Cycle.Model.strategy) (cinit : qkey -> val)
         (iv : ikey -> val) (idur : ikey -> dur) (ns : list qkey)
         (lvl : qkey -> nat) (nxt : qkey -> option qkey) (nodes fuel : nat) (qs : list qkey),
  let sn := Cert.csnap_of (Salsa.Cycle.Model.cinit_db iv idur) in
  monotone_prog prog sn -> fits8 prog sn -> input_determined prog sn ->
  FreshInv.ring_ok_of prog strat sn ns lvl nxt -> (forall q, cinit q = 0) ->
  (1 <= nodes)%nat -> (length ns <= fuel)%nat -> (forall q, In q qs -> In q ns) ->
  exists s',
    Salsa.Cycle.Model.crun_ops prog strat cinit nodes fuel (Salsa.Cycle.Model.cinit_db iv idur)
      (map Salsa.Cycle.Model.COGet qs)
      = (s', map (fun q => Salsa.Cycle.Model.COk (kleene prog sn ns q)) qs) /\
    Cert.is_fixpoint_state prog ns s' = true.
Proof. exact FreshThm.fresh_ring. Qed.
Check C12_fresh :
  forall (prog : qkey -> body) (strat : N -> Salsa.Cycle.Model.strategy) (cinit : qkey -> val)
         (iv : ikey -> val) (idur : ikey -> dur) (ns : list qkey)
         (lvl : qkey -> nat) (nxt : qkey -> option qkey) (nodes fuel : nat) (qs : list qkey),
  let sn := Cert.csnap_of (Salsa.Cycle.Model.cinit_db iv idur) in
  monotone_prog prog sn -> fits8 prog sn -> input_determined prog sn ->
  FreshInv.ring_ok_of prog strat sn ns lvl nxt -> (forall q, cinit q = 0) ->
  (1 <= nodes)%nat -> (length ns <= fuel)%nat -> (forall q, In q qs -> In q ns) ->
  exists s',
    Salsa.Cycle.Model.crun_ops prog strat cinit nodes fuel (Salsa.Cycle.Model.cinit_db iv idur)
      (map Salsa.Cycle.Model.COGet qs)
      = (s', map (fun q => Salsa.Cycle.Model.COk (kleene prog sn ns q)) qs) /\
    Cert.is_fixpoint_state prog ns s' = true.
Print Assumptions C12_fresh.

(* NOT PROVED: the same statement without the ring restriction — arbitrary (nested) cycles among
   Fixpoint families.  Random testing of monotone programs with nested cycles found no
   counterexample, and it holds on the nested program of [FreshExamples.exn_nested]. *)
Definition C12_fresh_full_statement : Prop :=
  forall (prog : qkey -> body) (strat : N -> Salsa.Cycle.Model.strategy) (cinit : qkey -> val)
         (iv : ikey -> val) (idur : ikey -> dur) (ns : list qkey) (nodes fuel : nat) (qs : list qkey),
  let sn := Cert.csnap_of (Salsa.Cycle.Model.cinit_db iv idur) in
  monotone_prog prog sn -> fits8 prog sn -> closed_on prog sn ns ->
  (forall q, cinit q = 0) ->
  (forall fam, strat fam = Salsa.Cycle.Model.SFix \/ strat fam = Salsa.Cycle.Model.SFixJoin) ->
  (length ns <= nodes)%nat -> (length ns <= fuel)%nat -> (8 * length ns < 200)%nat ->
  (forall q, In q qs -> In q ns) ->
  exists s',
    Salsa.Cycle.Model.crun_ops prog strat cinit nodes fuel (Salsa.Cycle.Model.cinit_db iv idur)
      (map Salsa.Cycle.Model.COGet qs)
      = (s', map (fun q => Salsa.Cycle.Model.COk (kleene prog sn ns q)) qs) /\
    Cert.is_fixpoint_state prog ns s' = true.

(* Non-vacuity of C12_fresh: a 3-node Fixpoint ring over a 2-node joining ring over a plain leaf
   satisfies every hypothesis, for every list of Gets; the 3-node ring entered at each member. *)
Example C12_fresh_inhabited : forall (qs : list qkey), (forall q, In q qs -> In q FreshExamples.exf_ns) ->
  let sn := Cert.csnap_of (Salsa.Cycle.Model.cinit_db FreshExamples.exf_iv (fun _ => 0)) in
  exists s',
    Salsa.Cycle.Model.crun_ops FreshExamples.exf_prog Examples.ex_strat FreshExamples.cinit0 6 6
      (Salsa.Cycle.Model.cinit_db FreshExamples.exf_iv (fun _ => 0)) (map Salsa.Cycle.Model.COGet qs)
      = (s', map (fun q => Salsa.Cycle.Model.COk (kleene FreshExamples.exf_prog sn FreshExamples.exf_ns q)) qs) /\
    Cert.is_fixpoint_state FreshExamples.exf_prog FreshExamples.exf_ns s' = true.
Proof. exact FreshExamples.exf_fresh. Qed.
Example C12_fresh_enter_each :
  FreshExamples.exf_outs [Salsa.Cycle.Model.COGet (1, 0); Salsa.Cycle.Model.COGet (1, 1); Salsa.Cycle.Model.COGet (1, 2)]
    = [Salsa.Cycle.Model.COk 93; Salsa.Cycle.Model.COk 13; Salsa.Cycle.Model.COk 12] /\
  FreshExamples.exf_outs [Salsa.Cycle.Model.COGet (1, 1); Salsa.Cycle.Model.COGet (1, 2); Salsa.Cycle.Model.COGet (1, 0)]
    = [Salsa.Cycle.Model.COk 13; Salsa.Cycle.Model.COk 12; Salsa.Cycle.Model.COk 93] /\
  FreshExamples.exf_outs [Salsa.Cycle.Model.COGet (1, 2); Salsa.Cycle.Model.COGet (1, 0); Salsa.Cycle.Model.COGet (1, 1)]
    = [Salsa.Cycle.Model.COk 12; Salsa.Cycle.Model.COk 93; Salsa.Cycle.Model.COk 13].
Proof. destruct FreshExamples.exf_enter_each as (H1 & H2 & H3 & _). now repeat split. Qed.

(* The claim (lock) discipline of the Cycle model — an invariant of EVERY run: all programs, all
   strategies (Panic / Fixpoint / joining / FallbackImmediate, mixed), nested and overlapping
   cycles, all histories, values and panics alike (proofs in Cycle/LockInv.v, LockOps.v,
   LockTop.v).  This much of the nested-heads analysis is proved; the value theorems for nested
   heads (C12_fresh_full_statement, C13_fresh_full_statement) are NOT proved: they additionally
   need the owner-chain invariant of the transferred-lock table and the completeness of
   cycle-head collection (a Tarjan-style argument), see the gap comment below.

   [LK hl s]: the keys with a sync-table entry that is not flagged transferred are exactly the
   keys of the (duplicate-free) list [hl] of open claim guards; the query stack only holds such
   keys; an entry claimed a second time (claimed_twice) is not flagged transferred. *)
From Salsa.Cycle Require LockInv LockOps LockTop LockExamples.

(* A fetch leaves exactly the claims and the query stack it found — whether it returns a value or
   unwinds with any panic (every guard is released, every frame popped). *)
Theorem C12_claims_balanced : forall (prog : qkey -> body) (strat : N -> Salsa.Cycle.Model.strategy)
    (cinit : qkey -> val) (nodes n : nat) (q : qkey) (hl : list qkey) (s : Salsa.Cycle.Model.cdb),
  LockInv.LK hl s ->
  match Salsa.Cycle.Model.cfetch prog strat cinit nodes (Salsa.Cycle.Model.clevel prog strat cinit nodes n) q s with
  | (s', Salsa.Cycle.Model.CFuel) => True
  | (s', _) => LockInv.LK hl s' /\ Salsa.Cycle.Model.c_qstack s' = Salsa.Cycle.Model.c_qstack s
  end.
Proof.
  intros prog strat cinit nodes n q hl s HL.
  destruct (LockTop.clevel_lk prog strat cinit nodes n) as [HF HM].
  pose proof (LockTop.cfetch_lk prog strat cinit _ HF HM nodes q hl _ s (conj HL eq_refl)) as H.
  unfold LockInv.awp in H.
  destruct (Salsa.Cycle.Model.cfetch prog strat cinit nodes (Salsa.Cycle.Model.clevel prog strat cinit nodes n) q s)
    as [s' [r | p |]]; [exact H | exact H | exact I].
Qed.
Check C12_claims_balanced : forall (prog : qkey -> body) (strat : N -> Salsa.Cycle.Model.strategy)
    (cinit : qkey -> val) (nodes n : nat) (q : qkey) (hl : list qkey) (s : Salsa.Cycle.Model.cdb),
  LockInv.LK hl s ->
  match Salsa.Cycle.Model.cfetch prog strat cinit nodes (Salsa.Cycle.Model.clevel prog strat cinit nodes n) q s with
  | (s', Salsa.Cycle.Model.CFuel) => True
  | (s', _) => LockInv.LK hl s' /\ Salsa.Cycle.Model.c_qstack s' = Salsa.Cycle.Model.c_qstack s
  end.
Print Assumptions C12_claims_balanced.

(* Between two operations of any history nothing is claimed and the query stack is empty: every
   remaining sync-table entry is flagged transferred and not claimed twice.  (Operations that run
   out of the model's fuel are excluded: no guard runs then.) *)
Theorem C12_lock_invariants_reachable : forall (prog : qkey -> body) (strat : N -> Salsa.Cycle.Model.strategy)
    (cinit : qkey -> val) (nodes fuel : nat) (iv : ikey -> val) (idur : ikey -> dur)
    (ops : list Salsa.Cycle.Model.cop),
  let r := Salsa.Cycle.Model.crun_ops prog strat cinit nodes fuel (Salsa.Cycle.Model.cinit_db iv idur) ops in
  Forall (fun o => o <> Salsa.Cycle.Model.CFuel) (snd r) ->
  Salsa.Cycle.Model.c_qstack (fst r) = [] /\
  forall q y, Salsa.Cycle.Model.c_sync (fst r) q = Some y ->
    Salsa.Cycle.Model.sy_trans y = true /\ Salsa.Cycle.Model.sy_twice y = false.
Proof.
  intros prog strat cinit nodes fuel iv idur ops r Hall.
  apply (proj1 (LockTop.idle_plain (fst r))).
  apply (LockTop.idle_reachable prog strat cinit nodes fuel ops _ (LockTop.idle_init iv idur) Hall).
Qed.
Check C12_lock_invariants_reachable : forall (prog : qkey -> body) (strat : N -> Salsa.Cycle.Model.strategy)
    (cinit : qkey -> val) (nodes fuel : nat) (iv : ikey -> val) (idur : ikey -> dur)
    (ops : list Salsa.Cycle.Model.cop),
  let r := Salsa.Cycle.Model.crun_ops prog strat cinit nodes fuel (Salsa.Cycle.Model.cinit_db iv idur) ops in
  Forall (fun o => o <> Salsa.Cycle.Model.CFuel) (snd r) ->
  Salsa.Cycle.Model.c_qstack (fst r) = [] /\
  forall q y, Salsa.Cycle.Model.c_sync (fst r) q = Some y ->
    Salsa.Cycle.Model.sy_trans y = true /\ Salsa.Cycle.Model.sy_twice y = false.
Print Assumptions C12_lock_invariants_reachable.

(* Under the invariant the sync table's own assertions cannot fire: claiming never panics (in
   particular debug_assert!(!claimed_twice)), ... *)
Theorem C12_try_claim_never_asserts : forall (q : qkey) (allow : bool) (hl : list qkey) (s : Salsa.Cycle.Model.cdb),
  LockInv.LK hl s -> forall p, snd (Salsa.Cycle.Model.try_claim q allow s) <> Salsa.Cycle.Model.CPanic p.
Proof. exact LockTop.try_claim_never_panics. Qed.
Check C12_try_claim_never_asserts : forall (q : qkey) (allow : bool) (hl : list qkey) (s : Salsa.Cycle.Model.cdb),
  LockInv.LK hl s -> forall p, snd (Salsa.Cycle.Model.try_claim q allow s) <> Salsa.Cycle.Model.CPanic p.
Print Assumptions C12_try_claim_never_asserts.

(* ... a re-entrant request is reported as a same-thread cycle exactly for the keys with an open
   claim guard, ... *)
Theorem C12_reentry_detected_exactly : forall (q : qkey) (allow : bool) (hl : list qkey) (s : Salsa.Cycle.Model.cdb),
  LockInv.LK hl s ->
  (snd (Salsa.Cycle.Model.try_claim q allow s) = Salsa.Cycle.Model.COk (Salsa.Cycle.Model.ClCycle false) <-> In q hl).
Proof. exact LockTop.try_claim_cycle_exact. Qed.
Check C12_reentry_detected_exactly : forall (q : qkey) (allow : bool) (hl : list qkey) (s : Salsa.Cycle.Model.cdb),
  LockInv.LK hl s ->
  (snd (Salsa.Cycle.Model.try_claim q allow s) = Salsa.Cycle.Model.COk (Salsa.Cycle.Model.ClCycle false) <-> In q hl).
Print Assumptions C12_reentry_detected_exactly.

(* ... and dropping the innermost guard in any release mode — default, self-only, or transfer to
   a key with an open guard (the outer cycle head always is one: LockTop.outer_cycle_ok) — never
   panics ("new owner to be a locked query", "new owner should be blocked on `query`", missing
   entry). *)
Theorem C12_drop_guard_never_asserts : forall (q : qkey) (mode : Salsa.Cycle.Model.rmode) (hl : list qkey)
    (s : Salsa.Cycle.Model.cdb),
  LockInv.LK (q :: hl) s -> ~ In q (Salsa.Cycle.Model.c_qstack s) -> LockOps.mode_ok hl mode ->
  forall p, snd (Salsa.Cycle.Model.drop_guard q mode s) <> Salsa.Cycle.Model.CPanic p.
Proof. exact LockTop.drop_guard_never_panics. Qed.
Check C12_drop_guard_never_asserts : forall (q : qkey) (mode : Salsa.Cycle.Model.rmode) (hl : list qkey)
    (s : Salsa.Cycle.Model.cdb),
  LockInv.LK (q :: hl) s -> ~ In q (Salsa.Cycle.Model.c_qstack s) -> LockOps.mode_ok hl mode ->
  forall p, snd (Salsa.Cycle.Model.drop_guard q mode s) <> Salsa.Cycle.Model.CPanic p.
Print Assumptions C12_drop_guard_never_asserts.

(* GAP towards C12_fresh_full_statement / C13_fresh_full_statement (nested heads), precisely:
   (1) the owner-chain invariant of [c_trans] (every entry (h, o): h reaches o in the call graph,
       following owners ends at a key with an open guard; needs the exact semantics of
       trans_unblock / trans_rewrite) — gives soundness of reused provisional memos: every head
       they report still leads to the query stack, hence "a node that ends with cycle heads lies
       on a cycle";
   (2) completeness of collect_all_cycle_heads + outer_cycle (Tarjan's low-link argument): a node
       that reaches the query stack reports a head on it, so a head without outer cycle closes its
       whole strongly connected component — gives "a node on a cycle ends with cycle heads", the
       certificate, and with it the values (fallback: immediate; fix: below kleene + equations);
   (3) a termination measure over the metadata of all heads of the component.
   Of these, the theorems above (Cycle/LockTop.v) and [C12_heads_sound] below give the parts of (1)
   and (2) that need no reasoning about [c_trans].
   Non-vacuity: the nested examples are instances (Cycle/LockExamples.v). *)
Example C12_nested_runs_end_idle : forall ops,
  Forall (fun r => r <> Salsa.Cycle.Model.CFuel)
    (snd (Salsa.Cycle.Model.crun_ops FreshExamples.exn_prog Examples.ex_strat FreshExamples.cinit0 3 6
            (Salsa.Cycle.Model.cinit_db FreshExamples.exf_iv (fun _ => 0)) ops)) ->
  LockTop.idle (fst (Salsa.Cycle.Model.crun_ops FreshExamples.exn_prog Examples.ex_strat FreshExamples.cinit0 3 6
            (Salsa.Cycle.Model.cinit_db FreshExamples.exf_iv (fun _ => 0)) ops)).
Proof. exact LockExamples.exn_idle. Qed.


(* Cycle heads are SOUND (proofs in Cycle/LockTop.v, HeadInv.v, HeadFetch.v), again for ALL
   programs, strategies, nested and overlapping cycles, all histories, values and panics alike;
   no c_trans reasoning needed.
   [reach prog p d]: p can (transitively, in at least one step) call d in the static call graph
   ([Core.Spec.calls], any answers).  Invariant carried through every level function: the open
   claims form a chain of calls (so a re-entered key lies on a cycle), every recorded query edge
   of a memo is a transitive callee (also after flattening), and every cycle head of a valued
   memo / of a frame / of the closure computed by collect_all_cycle_heads is reachable from the
   memo's key and lies on a cycle. *)
From Salsa.Cycle Require HeadInv HeadFetch HeadExamples.

Theorem C12_heads_sound : forall (prog : qkey -> body) (strat : N -> Salsa.Cycle.Model.strategy)
    (cinit : qkey -> val) (nodes fuel : nat) (iv : ikey -> val) (idur : ikey -> dur)
    (ops : list Salsa.Cycle.Model.cop),
  let r := Salsa.Cycle.Model.crun_ops prog strat cinit nodes fuel (Salsa.Cycle.Model.cinit_db iv idur) ops in
  Forall (fun o => o <> Salsa.Cycle.Model.CFuel) (snd r) ->
  forall p m, Salsa.Cycle.Model.c_memo (fst r) p = Some m ->
    (forall d, In (Salsa.Core.Model.EQ d) (Salsa.Cycle.Model.cm_edges m) -> HeadInv.reach prog p d) /\
    (Salsa.Cycle.Model.cm_val m <> None -> forall h, In h (Salsa.Cycle.Model.raw_heads m) ->
       (p = fst h \/ HeadInv.reach prog p (fst h)) /\ HeadInv.reach prog (fst h) (fst h)).
Proof. exact HeadFetch.heads_sound. Qed.
Check C12_heads_sound : forall (prog : qkey -> body) (strat : N -> Salsa.Cycle.Model.strategy)
    (cinit : qkey -> val) (nodes fuel : nat) (iv : ikey -> val) (idur : ikey -> dur)
    (ops : list Salsa.Cycle.Model.cop),
  let r := Salsa.Cycle.Model.crun_ops prog strat cinit nodes fuel (Salsa.Cycle.Model.cinit_db iv idur) ops in
  Forall (fun o => o <> Salsa.Cycle.Model.CFuel) (snd r) ->
  forall p m, Salsa.Cycle.Model.c_memo (fst r) p = Some m ->
    (forall d, In (Salsa.Core.Model.EQ d) (Salsa.Cycle.Model.cm_edges m) -> HeadInv.reach prog p d) /\
    (Salsa.Cycle.Model.cm_val m <> None -> forall h, In h (Salsa.Cycle.Model.raw_heads m) ->
       (p = fst h \/ HeadInv.reach prog p (fst h)) /\ HeadInv.reach prog (fst h) (fst h)).
Print Assumptions C12_heads_sound.

(* Consequence (the soundness half of "exactly the cycle participants", C12/C13/C14, every
   history): a function from which no cycle of the call graph can be reached never records a
   cycle head — its valued memo never names it a participant or a head, whatever happened. *)
Theorem C12_acyclic_never_participates : forall (prog : qkey -> body) (strat : N -> Salsa.Cycle.Model.strategy)
    (cinit : qkey -> val) (nodes fuel : nat) (iv : ikey -> val) (idur : ikey -> dur)
    (ops : list Salsa.Cycle.Model.cop) (p : qkey),
  (forall h, p = h \/ HeadInv.reach prog p h -> ~ HeadInv.reach prog h h) ->
  let r := Salsa.Cycle.Model.crun_ops prog strat cinit nodes fuel (Salsa.Cycle.Model.cinit_db iv idur) ops in
  Forall (fun o => o <> Salsa.Cycle.Model.CFuel) (snd r) ->
  forall m, Salsa.Cycle.Model.c_memo (fst r) p = Some m -> Salsa.Cycle.Model.cm_val m <> None ->
    Salsa.Cycle.Model.raw_heads m = [] /\ Salsa.Cycle.Model.heads_of m = [].
Proof. exact HeadFetch.no_cycle_no_heads. Qed.
Check C12_acyclic_never_participates : forall (prog : qkey -> body) (strat : N -> Salsa.Cycle.Model.strategy)
    (cinit : qkey -> val) (nodes fuel : nat) (iv : ikey -> val) (idur : ikey -> dur)
    (ops : list Salsa.Cycle.Model.cop) (p : qkey),
  (forall h, p = h \/ HeadInv.reach prog p h -> ~ HeadInv.reach prog h h) ->
  let r := Salsa.Cycle.Model.crun_ops prog strat cinit nodes fuel (Salsa.Cycle.Model.cinit_db iv idur) ops in
  Forall (fun o => o <> Salsa.Cycle.Model.CFuel) (snd r) ->
  forall m, Salsa.Cycle.Model.c_memo (fst r) p = Some m -> Salsa.Cycle.Model.cm_val m <> None ->
    Salsa.Cycle.Model.raw_heads m = [] /\ Salsa.Cycle.Model.heads_of m = [].
Print Assumptions C12_acyclic_never_participates.

(* A re-entered key lies on a cycle: inside any fetch, under the invariant, a same-thread cycle
   report of try_claim implies that the requested key can reach itself. *)
Theorem C12_reentered_key_is_cyclic : forall (prog : qkey -> body) (hl : list qkey) (q : qkey),
  HeadInv.chn prog hl -> HeadInv.req prog hl q -> In q hl -> HeadInv.reach prog q q.
Proof. exact HeadInv.reentry_cyc. Qed.
Check C12_reentered_key_is_cyclic : forall (prog : qkey -> body) (hl : list qkey) (q : qkey),
  HeadInv.chn prog hl -> HeadInv.req prog hl q -> In q hl -> HeadInv.reach prog q q.
Print Assumptions C12_reentered_key_is_cyclic.

(* Non-vacuity: exc_two_cycles and exn_nested record heads on the way (HeadExamples.exc_heads_recorded,
   exn_heads_recorded, by vm_compute), all on cycles by the theorem. *)
Example C12_two_cycles_heads_sound : forall ops,
  Forall (fun r => r <> Salsa.Cycle.Model.CFuel) (snd (FbExamples.exc_run ops)) ->
  forall p m, Salsa.Cycle.Model.c_memo (fst (FbExamples.exc_run ops)) p = Some m ->
  Salsa.Cycle.Model.cm_val m <> None ->
  forall h, In h (Salsa.Cycle.Model.raw_heads m) ->
    (p = fst h \/ HeadInv.reach FbExamples.exc_prog p (fst h)) /\ HeadInv.reach FbExamples.exc_prog (fst h) (fst h).
Proof. exact HeadExamples.exc_heads_sound. Qed.
