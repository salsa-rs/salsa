(* Props/C10.v — specified results.  The statements of property C10; each proof applies a lemma
   of Structs/ProofsSpecify.v or an example of Structs/Examples.v.
   Level: model-level lemmas about the transcribed specify_and_record / fetch / deep_verify_memo /
   validate_specified_value (for every program, identity hash, state), and a machine-checked
   REFUTATION of the full statement ("results equal a fresh evaluation, specify included") on
   the transcribed algorithm; the witness and three further deviation classes are replayed on
   the implementation by checks/C10.py (checks/notes/C10.txt, known-findings). *)
From Salsa Require Import Base.
From Salsa.Structs Require Import Model Spec Dsl ProofsSpecify Examples.

(* a specified value verified in this revision is returned without running the body: the fetch
   emits no event at all (no WillExecute) *)
Theorem C10_specified_returned_without_exec :
  forall prog skind sfams idhash L (q : qk) s sl m v,
  skind (fst q) = true -> d_slots s (fst (snd q)) = Some sl -> sl_updated sl <> None ->
  sl_memos sl (fst q) = Some m -> m_verified m = cur s -> m_val m = Some v ->
  fetch prog skind sfams idhash L q s =
    (locked_db s (fst (snd q)) sl, SOk (v, m_dur m, m_changed m)) /\
  d_log (locked_db s (fst (snd q)) sl) = d_log s.
Proof. exact fetch_specified_no_exec. Qed.
Check C10_specified_returned_without_exec :
  forall prog skind sfams idhash L (q : qk) s sl m v,
  skind (fst q) = true -> d_slots s (fst (snd q)) = Some sl -> sl_updated sl <> None ->
  sl_memos sl (fst q) = Some m -> m_verified m = cur s -> m_val m = Some v ->
  fetch prog skind sfams idhash L q s =
    (locked_db s (fst (snd q)) sl, SOk (v, m_dur m, m_changed m)) /\
  d_log (locked_db s (fst (snd q)) sl) = d_log s.
Print Assumptions C10_specified_returned_without_exec.

(* the value specified by the creator's latest execution replaces whatever memo an earlier
   revision left for the key (Assigned or Derived) *)
Theorem C10_latest_specification_wins :
  forall skind sfams n (q : qk) fam h v fr s sl s' fr',
  is_active (fr_ids fr) h = true -> skind fam = true ->
  existsb (qk_eqb (fam, h)) (d_stack s) = false ->
  d_slots s (fst h) = Some sl -> sl_updated sl <> None ->
  (forall old, sl_memos sl fam = Some old -> m_verified old <> cur s) ->
  specify skind sfams n q fam h v fr s = (s', SOk fr') ->
  In (EOut (fam, h)) (fr_edges fr') /\
  exists sl' m', d_slots s' (fst h) = Some sl' /\ sl_memos sl' fam = Some m' /\
                 m_val m' = Some v /\ m_origin m' = OAssigned q /\ m_verified m' = cur s /\
                 m_structs m' = [].
Proof. exact specify_overwrites. Qed.
Check C10_latest_specification_wins :
  forall skind sfams n (q : qk) fam h v fr s sl s' fr',
  is_active (fr_ids fr) h = true -> skind fam = true ->
  existsb (qk_eqb (fam, h)) (d_stack s) = false ->
  d_slots s (fst h) = Some sl -> sl_updated sl <> None ->
  (forall old, sl_memos sl fam = Some old -> m_verified old <> cur s) ->
  specify skind sfams n q fam h v fr s = (s', SOk fr') ->
  In (EOut (fam, h)) (fr_edges fr') /\
  exists sl' m', d_slots s' (fst h) = Some sl' /\ sl_memos sl' fam = Some m' /\
                 m_val m' = Some v /\ m_origin m' = OAssigned q /\ m_verified m' = cur s /\
                 m_structs m' = [].
Print Assumptions C10_latest_specification_wins.

(* a value computed for the key earlier in this revision is kept: specify changes neither the
   memo nor the frame (and does not panic) *)
Theorem C10_computed_value_kept :
  forall skind sfams n q fam h v fr s sl old,
  is_active (fr_ids fr) h = true -> skind fam = true ->
  existsb (qk_eqb (fam, h)) (d_stack s) = false ->
  d_slots s (fst h) = Some sl -> sl_updated sl <> None ->
  sl_memos sl fam = Some old ->
  m_verified old = cur s -> m_val old <> None -> (forall by_, m_origin old <> OAssigned by_) ->
  specify skind sfams n q fam h v fr s = (locked_db s (fst h) sl, SOk fr).
Proof. exact specify_computed_kept. Qed.
Check C10_computed_value_kept :
  forall skind sfams n q fam h v fr s sl old,
  is_active (fr_ids fr) h = true -> skind fam = true ->
  existsb (qk_eqb (fam, h)) (d_stack s) = false ->
  d_slots s (fst h) = Some sl -> sl_updated sl <> None ->
  sl_memos sl fam = Some old ->
  m_verified old = cur s -> m_val old <> None -> (forall by_, m_origin old <> OAssigned by_) ->
  specify skind sfams n q fam h v fr s = (locked_db s (fst h) sl, SOk fr).
Print Assumptions C10_computed_value_kept.

(* specifying a struct that the current execution did not create panics, nothing changes *)
Theorem C10_foreign_panics :
  forall skind sfams n q fam h v fr s,
  is_active (fr_ids fr) h = false ->
  specify skind sfams n q fam h v fr s = (s, SPanic PSpecForeign).
Proof. exact specify_foreign_panics. Qed.
Check C10_foreign_panics :
  forall skind sfams n q fam h v fr s,
  is_active (fr_ids fr) h = false ->
  specify skind sfams n q fam h v fr s = (s, SPanic PSpecForeign).
Print Assumptions C10_foreign_panics.

(* specifying the same key twice in one execution panics *)
Theorem C10_twice_panics :
  forall skind sfams n q fam h v fr s sl old,
  is_active (fr_ids fr) h = true -> skind fam = true ->
  existsb (qk_eqb (fam, h)) (d_stack s) = false ->
  d_slots s (fst h) = Some sl -> sl_updated sl <> None ->
  sl_memos sl fam = Some old ->
  m_verified old = cur s -> m_val old <> None -> m_origin old = OAssigned q ->
  existsb (edge_eqb (EOut (fam, h))) (fr_edges fr) = true ->
  exists s', specify skind sfams n q fam h v fr s = (s', SPanic PSpecTwice).
Proof. exact specify_twice_panics. Qed.
Check C10_twice_panics :
  forall skind sfams n q fam h v fr s sl old,
  is_active (fr_ids fr) h = true -> skind fam = true ->
  existsb (qk_eqb (fam, h)) (d_stack s) = false ->
  d_slots s (fst h) = Some sl -> sl_updated sl <> None ->
  sl_memos sl fam = Some old ->
  m_verified old = cur s -> m_val old <> None -> m_origin old = OAssigned q ->
  existsb (edge_eqb (EOut (fam, h))) (fr_edges fr) = true ->
  exists s', specify skind sfams n q fam h v fr s = (s', SPanic PSpecTwice).
Print Assumptions C10_twice_panics.

(* deep_verify on a memo of origin Assigned answers "not verified" and changes neither the state
   nor the memo, for EVERY such memo (no hypothesis on m_verified).  verify_memo reaches
   deep_verify only when the shallow check fails (m_verified m <> cur s, no durability shortcut);
   the memo was then neither re-specified nor marked by its validated creator in this revision
   (both set m_verified to cur s), and fetch_cold runs the function body
   (ProofsSpecify.execute_starts_with_exec: execute starts with WillExecute). *)
Theorem C10_unspecified_recomputes :
  forall skind L q m by_ s,
  m_origin m = OAssigned by_ -> deep_verify skind L q m s = (s, SOk (false, m)).
Proof. exact deep_verify_assigned. Qed.
Check C10_unspecified_recomputes :
  forall skind L q m by_ s,
  m_origin m = OAssigned by_ -> deep_verify skind L q m s = (s, SOk (false, m)).
Print Assumptions C10_unspecified_recomputes.

(* a validated creator marks its specified outputs verified in the current revision *)
Theorem C10_validated_creator_marks :
  forall skind (q o : qk) s sl m,
  skind (fst o) = true -> d_slots s (fst (snd o)) = Some sl -> sl_updated sl <> None ->
  sl_memos sl (fst o) = Some m -> m_origin m = OAssigned q ->
  exists s', validate_specified skind q o s = (s', SOk tt) /\
    exists sl', d_slots s' (fst (snd o)) = Some sl' /\
      exists m', sl_memos sl' (fst o) = Some m' /\ m_verified m' = cur s /\ m_val m' = m_val m /\
                 m_origin m' = m_origin m /\ In (EvValidate o) (d_log s').
Proof. exact validate_specified_marks. Qed.
Check C10_validated_creator_marks :
  forall skind (q o : qk) s sl m,
  skind (fst o) = true -> d_slots s (fst (snd o)) = Some sl -> sl_updated sl <> None ->
  sl_memos sl (fst o) = Some m -> m_origin m = OAssigned q ->
  exists s', validate_specified skind q o s = (s', SOk tt) /\
    exists sl', d_slots s' (fst (snd o)) = Some sl' /\
      exists m', sl_memos sl' (fst o) = Some m' /\ m_verified m' = cur s /\ m_val m' = m_val m /\
                 m_origin m' = m_origin m /\ In (EvValidate o) (d_log s').
Print Assumptions C10_validated_creator_marks.

(* C10_specify_full_statement: every Get of every program/history returns what a fresh database
   computes, specify included (path independence).  It is FALSE of the transcribed algorithm
   (C10_specify_refuted) and of the implementation (checks/C10.py replays the witness). *)
Definition C10_specify_full_statement : Prop := from_scratch_with_specify.

Theorem C10_specify_refuted : ~ C10_specify_full_statement.
Proof. exact from_scratch_with_specify_refuted. Qed.
Check C10_specify_refuted : ~ C10_specify_full_statement.
Print Assumptions C10_specify_refuted.

(* the three value-level deviation classes, on the executable model *)
Theorem C10_K1_specify_overwrites_value_computed_earlier :
  let '(s, outs) := run_case k1_nodes k1_ival k1_idur k1_ops k1_nk k1_idhash in
  nth_error outs 2 = Some (SOk (8, [])) /\
  spec_after k1_nodes k1_nk s (4, (1, 0)) = SOk (7, []).
Proof. exact k1_model_vs_from_scratch. Qed.
Print Assumptions C10_K1_specify_overwrites_value_computed_earlier.

Theorem C10_K2_backdate_assertion_when_unspecified :
  let '(s, outs) := run_case k2_nodes k2_ival k2_idur k2_ops k2_nk k2_idhash in
  nth_error outs 3 = Some (SPanic PBackdate) /\
  spec_after k2_nodes k2_nk s (4, (0, 0)) = SOk (7, []).
Proof. exact k2_model_vs_from_scratch. Qed.
Print Assumptions C10_K2_backdate_assertion_when_unspecified.

Theorem C10_K3_reader_validated_after_unspecify :
  let '(s, outs) := run_case k3_nodes k3_ival k3_idur k3_ops k3_nk k3_idhash in
  nth_error outs 3 = Some (SOk (7, [(0, 0)])) /\
  (exists nm, spec_after k3_nodes k3_nk s (1, (2, 0)) = SOk (4, nm)).
Proof. exact k3_model_vs_from_scratch. Qed.
Print Assumptions C10_K3_reader_validated_after_unspecify.
