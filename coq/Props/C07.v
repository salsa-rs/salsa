(* Props/C07.v — reclaimed identities never alias memoized state or field data: the
   tracked-struct part (the interned part is Props/C09.v + Intern/).  The statements of
   property C07; each proof applies a theorem of coq/Structs/.
   Slot-store accessors ignore the id generation (as Table::get / memo_table_for do); the IDEAL
   store [d_ideal] is keyed by the full id (index, generation).
   C07_invariant, C07_no_alias, C07_fresh_ids, C07_field_check are about the event machine
   (Structs/Machine.v; proofs in Structs/Theorems.v), every history, every identity hash.  The
   C07_model_ theorems are about the executable model (Structs/Model.v run_ops; Structs/Sim.v),
   every well-formed program and handle-safe history.  C07_dependents_partial,
   C07_dependents_writes_partial, C07_stale_edge_partial are about the executable model under
   the hypotheses of Props/C06.v C06_from_scratch_partial (Structs/SAdeq.v, S1b.v). *)
From Salsa Require Import Base.
From Salsa.Structs Require Import Model Dsl Machine ProofsStep Theorems Examples Guard SimBase Sim SimExamples
     ProofsBase SSem SInv SRun SStale STop STop2 SAdeq SDsl S1Examples S1b SKeyedEx.

(* C07_invariant: in every reachable state of the machine the ownership invariant holds: free-list
   entries are dead slots with their generation, dead slots have empty memo tables, every id
   somebody holds is the current id of a live slot, no slot is held by two holders, every id ever
   issued for a slot has generation <= the slot's current one, and every live slot's contents are
   the ideal store's entry for (index, current generation). *)
Theorem C07_invariant :
  forall (skind : N -> bool) (sfams : list N) (idhash : val -> N) (n : nat),
  (forall fam, In fam sfams -> skind fam = true) ->
  forall iv idur es s F,
  mrun skind sfams idhash n (init iv idur, []) es = Some (s, F) -> OInv skind s F.
Proof. intros skind sfams idhash n H. exact (reachable_oinv skind sfams idhash n H). Qed.
Check C07_invariant :
  forall (skind : N -> bool) (sfams : list N) (idhash : val -> N) (n : nat),
  (forall fam, In fam sfams -> skind fam = true) ->
  forall iv idur es s F,
  mrun skind sfams idhash n (init iv idur, []) es = Some (s, F) -> OInv skind s F.
Print Assumptions C07_invariant.

(* C07_no_alias: every read performed through an id that somebody currently holds (a running
   execution's identity map or a stored memo's tracked_struct_ids) agrees with the ideal store,
   although the slot store ignores the generation: tracked field, identity field, memo table. *)
Theorem C07_no_alias :
  forall (skind : N -> bool) s F o h,
  OInv skind s F -> owns skind s F o h ->
  (forall f fr s' v fr', read_field h f fr s = (s', SOk (v, fr')) ->
     exists idv f0 f1, ideal_get (d_ideal s) h = Some (idv, f0, f1) /\ v = (if f =? 0 then f0 else f1)) /\
  (forall s' v, read_idfield h s = (s', SOk v) ->
     exists f0 f1, ideal_get (d_ideal s) h = Some (v, f0, f1)) /\
  (forall fam, skind fam = true ->
     exists sl, d_slots s (fst h) = Some sl /\ sl_gen sl = snd h /\
                peek_memo skind s (fam, fst h) = sl_memos sl fam).
Proof.
  intros skind s F o h I Ho. split; [|split].
  - intros f fr s' v fr' H. exact (read_agrees_ideal skind s F o h f fr s' v fr' I Ho H).
  - intros s' v H. exact (idfield_agrees_ideal skind s F o h s' v I Ho H).
  - intros fam Hk. exact (memo_lookup_current skind s F o h fam I Ho Hk).
Qed.
Check C07_no_alias :
  forall (skind : N -> bool) s F o h,
  OInv skind s F -> owns skind s F o h ->
  (forall f fr s' v fr', read_field h f fr s = (s', SOk (v, fr')) ->
     exists idv f0 f1, ideal_get (d_ideal s) h = Some (idv, f0, f1) /\ v = (if f =? 0 then f0 else f1)) /\
  (forall s' v, read_idfield h s = (s', SOk v) ->
     exists f0 f1, ideal_get (d_ideal s) h = Some (v, f0, f1)) /\
  (forall fam, skind fam = true ->
     exists sl, d_slots s (fst h) = Some sl /\ sl_gen sl = snd h /\
                peek_memo skind s (fam, fst h) = sl_memos sl fam).
Print Assumptions C07_no_alias.

(* C07_fresh_ids: an id returned by TS::new is either one the execution's identity map already
   held (recreation in place: same slot generation; the slot was read-locked in this revision or
   holds the same identity value), or an id that was NEVER issued before — slot reuse and the
   identity-changed path always produce a new (index, generation) — and then the slot's memo
   table is empty (no memo of the previous occupant), its fields are the new ones and its field
   revisions are the creator's current changed_at stamp. *)
Theorem C07_fresh_ids :
  forall (skind : N -> bool) (sfams : list N) (idhash : val -> N) (n : nat),
  forall s F q fr idv f0 f1 s' h fr',
  OInv skind s F -> In (q, fr) F ->
  new_struct skind sfams idhash n q idv f0 f1 fr s = (s', SOk (h, fr')) ->
  (In h (frame_ids fr) /\ live s h /\
   exists sl sl', d_slots s (fst h) = Some sl /\ d_slots s' (fst h) = Some sl' /\ sl_gen sl' = sl_gen sl /\
                  (sl_updated sl = Some (cur s) \/ sl_idv sl = idv)) \/
  (~ In h (issued s) /\
   exists sl', d_slots s' (fst h) = Some sl' /\ sl_gen sl' = snd h /\ (forall fam, sl_memos sl' fam = None) /\
               slot_fields sl' = (idv, f0, f1) /\ sl_updated sl' = Some (cur s) /\
               sl_rev1 sl' = fr_changed fr).
Proof. exact fresh_or_held. Qed.
Check C07_fresh_ids :
  forall (skind : N -> bool) (sfams : list N) (idhash : val -> N) (n : nat),
  forall s F q fr idv f0 f1 s' h fr',
  OInv skind s F -> In (q, fr) F ->
  new_struct skind sfams idhash n q idv f0 f1 fr s = (s', SOk (h, fr')) ->
  (In h (frame_ids fr) /\ live s h /\
   exists sl sl', d_slots s (fst h) = Some sl /\ d_slots s' (fst h) = Some sl' /\ sl_gen sl' = sl_gen sl /\
                  (sl_updated sl = Some (cur s) \/ sl_idv sl = idv)) \/
  (~ In h (issued s) /\
   exists sl', d_slots s' (fst h) = Some sl' /\ sl_gen sl' = snd h /\ (forall fam, sl_memos sl' fam = None) /\
               slot_fields sl' = (idv, f0, f1) /\ sl_updated sl' = Some (cur s) /\
               sl_rev1 sl' = fr_changed fr).
Print Assumptions C07_fresh_ids.

(* C07_field_check: what a dependency check on a tracked field answers: it ignores the id's
   generation and compares the slot's CURRENT field revision with the dependent's verified_at. *)
Theorem C07_field_check :
  forall h f since s s' b,
  field_mca h f since s = (s', SOk b) ->
  s' = s /\ exists sl, d_slots s (fst h) = Some sl /\
    (b = true <-> since < (if f =? 0 then sl_rev0 sl else sl_rev1 sl)).
Proof. exact field_mca_spec. Qed.
Check C07_field_check :
  forall h f since s s' b,
  field_mca h f since s = (s', SOk b) ->
  s' = s /\ exists sl, d_slots s (fst h) = Some sl /\
    (b = true <-> since < (if f =? 0 then sl_rev0 sl else sl_rev1 sl)).
Print Assumptions C07_field_check.

(* C07_dependents_full_statement_as_first_stated: "in every reachable state of the machine, every
   dependency check on an issued id whose slot has since been reused answers changed".  It is
   FALSE (C07_dependents_first_statement_refuted below): the field check ignores the generation
   and compares the field's revision stamp with the caller's `since` (C07_field_check); a slot
   re-used by a creator whose reads are old carries an old stamp.  What protects a dependent is
   that an EARLIER edge of its memo answers changed.  The statement with that conclusion (about
   the walk over all edges of a memo, not one check) is C07_dependents_full_statement below, not
   proved; C07_stale_edge_partial proves it for programs without struct-keyed family. *)
Definition C07_dependents_full_statement_as_first_stated : Prop :=
  forall (skind : N -> bool) (sfams : list N) (idhash : val -> N) (n : nat) iv idur es s F,
  mrun skind sfams idhash n (init iv idur, []) es = Some (s, F) ->
  forall h f since sl,
    d_slots s (fst h) = Some sl -> snd h < sl_gen sl ->        (* the slot was reused since h was issued *)
    In h (issued s) ->
    fst (field_mca h f since s) = s /\ snd (field_mca h f since s) = SOk true.

(* Non-vacuity: the history of Examples.hist1 issues eight ids, among them (1,1) after (1,0)
   (identity change under a hash collision) and (2,1) after (2,0) (slot reuse). *)
Example C07_nonvacuous :
  match mrun skind5 sfams5 hmod2 10%nat (init (fun _ => 0) (fun _ => 0), []) hist1 with
  | Some (s, F) =>
      F = [] /\ d_free s = [] /\ d_nslots s = 4 /\
      option_map mids (peek_memo skind5 s (1, 0)) = Some [(0, 0); (1, 1)] /\
      option_map mids (peek_memo skind5 s (1, 1)) = Some [(3, 0); (2, 1)] /\
      map fst (d_ideal s) = [(2, 1); (3, 0); (1, 1); (0, 0); (3, 0); (2, 0); (1, 0); (0, 0)]
  | None => False
  end.
Proof. exact hist1_runs. Qed.

(* C07_model_invariant: the ownership invariant holds after EVERY operation of the EXECUTABLE
   model (run_ops), for every well-formed program, identity hash and handle-safe non-unwinding
   history (see Props/C06.v C06_model_invariant for the hypotheses); the real run equals the
   monitored run and no query is left claimed. *)
Theorem C07_model_invariant :
  forall (prog : qk -> body) (skind : N -> bool) (sfams : list N) (idhash : val -> N),
  (forall fam, In fam sfams -> skind fam = true) ->
  (forall q, bwf skind (prog q)) ->
  forall fuel iv idur os,
  handle_safe prog skind sfams idhash fuel (init iv idur) os = true ->
  forall os1 os2, os = os1 ++ os2 ->
  run_ops prog skind sfams idhash fuel (init iv idur) os1 = grun_ops prog skind sfams idhash fuel (init iv idur) os1 /\
  OInv skind (fst (run_ops prog skind sfams idhash fuel (init iv idur) os1)) [] /\
  d_stack (fst (run_ops prog skind sfams idhash fuel (init iv idur) os1)) = [].
Proof. exact model_invariant_every_op. Qed.
Check C07_model_invariant :
  forall (prog : qk -> body) (skind : N -> bool) (sfams : list N) (idhash : val -> N),
  (forall fam, In fam sfams -> skind fam = true) ->
  (forall q, bwf skind (prog q)) ->
  forall fuel iv idur os,
  handle_safe prog skind sfams idhash fuel (init iv idur) os = true ->
  forall os1 os2, os = os1 ++ os2 ->
  run_ops prog skind sfams idhash fuel (init iv idur) os1 = grun_ops prog skind sfams idhash fuel (init iv idur) os1 /\
  OInv skind (fst (run_ops prog skind sfams idhash fuel (init iv idur) os1)) [] /\
  d_stack (fst (run_ops prog skind sfams idhash fuel (init iv idur) os1)) = [].
Print Assumptions C07_model_invariant.

(* C07_model_interior: inside an operation.  In a state satisfying the invariant with frames F
   for the executions in progress (Cons: every frame's query is claimed, claimed keys are current
   ids and read-locked), running the body of q at any monitored level — new structs, specify,
   nested fetches, deletions by nested completions — leads to a state satisfying the invariant
   with q's frame replaced by the frame the body returns.  With C07_no_alias / C06_discard
   (stated over OInv) this gives the no-alias and discard statements for the interior states of
   the executable model. *)
Theorem C07_model_interior :
  forall (prog : qk -> body) (skind : N -> bool) (sfams : list N) (idhash : val -> N),
  (forall fam, In fam sfams -> skind fam = true) ->
  (forall q, bwf skind (prog q)) ->
  forall n q fr s F s' r,
  OInv skind s F -> Cons skind s F -> In (q, fr) F ->
  run_body skind sfams idhash (glevel prog skind sfams idhash n) q (prog q) fr s = (s', SOk r) ->
  OInv skind s' (set_frame F q (snd r)).
Proof. exact glevel_run_body. Qed.
Check C07_model_interior :
  forall (prog : qk -> body) (skind : N -> bool) (sfams : list N) (idhash : val -> N),
  (forall fam, In fam sfams -> skind fam = true) ->
  (forall q, bwf skind (prog q)) ->
  forall n q fr s F s' r,
  OInv skind s F -> Cons skind s F -> In (q, fr) F ->
  run_body skind sfams idhash (glevel prog skind sfams idhash n) q (prog q) fr s = (s', SOk r) ->
  OInv skind s' (set_frame F q (snd r)).
Print Assumptions C07_model_interior.

(* C07_model_no_alias: after every operation of the executable model, a read through any id
   listed by a stored memo agrees with the ideal store (keyed by the full id). *)
Theorem C07_model_no_alias :
  forall (prog : qk -> body) (skind : N -> bool) (sfams : list N) (idhash : val -> N),
  (forall fam, In fam sfams -> skind fam = true) ->
  (forall q, bwf skind (prog q)) ->
  forall fuel iv idur os,
  handle_safe prog skind sfams idhash fuel (init iv idur) os = true ->
  forall os1 os2, os = os1 ++ os2 ->
  forall o h, owns skind (fst (run_ops prog skind sfams idhash fuel (init iv idur) os1)) [] o h ->
  (forall f fr s' v fr', read_field h f fr (fst (run_ops prog skind sfams idhash fuel (init iv idur) os1)) = (s', SOk (v, fr')) ->
     exists idv f0 f1, ideal_get (d_ideal (fst (run_ops prog skind sfams idhash fuel (init iv idur) os1))) h = Some (idv, f0, f1) /\
                       v = (if f =? 0 then f0 else f1)) /\
  (forall s' v, read_idfield h (fst (run_ops prog skind sfams idhash fuel (init iv idur) os1)) = (s', SOk v) ->
     exists f0 f1, ideal_get (d_ideal (fst (run_ops prog skind sfams idhash fuel (init iv idur) os1))) h = Some (v, f0, f1)).
Proof. exact model_no_alias_every_op. Qed.
Print Assumptions C07_model_no_alias.

Example C07_model_nonvacuous :
  OInv skind5 (fst (run_case rc_nodes rc_ival rc_idur rc_ops rc_nk rc_idhash)) [] /\
  d_stack (fst (run_case rc_nodes rc_ival rc_idur rc_ops rc_nk rc_idhash)) = [].
Proof. exact rc_invariant. Qed.


(* C07_dependents_partial: what the dependents of a reused slot compute.
   C07_dependents_full_statement_as_first_stated speaks about ONE dependency check on a stale id;
   the property it stands for is that no dependent ever answers from a struct that is not the
   one its id was issued for.  That is proved here for the EXECUTABLE model under the hypotheses
   of Props/C06.v C06_from_scratch_partial (see there for the vocabulary): after every prefix
   os1 of the
   history, the next Get q answers SOk v where v is the from-scratch value of q in EVERY world
   consistent for q with the inputs, cells and allocator of the state after the Get — in such a
   world a handle denotes the struct its creator made, whatever the slot held before — and every
   handle in v is the current id of a live slot (no stale id leaves the engine).  Inside the
   proof (Structs/SVerify.v walk_ok, Structs/SRun.v lock_for_read): deep verification meets an
   edge whose answer changed before any field edge on a handle that is no longer live, and a
   re-execution reads fields only through live handles.
   Slot reuse with generation bump, deletion and re-creation are covered.  NOT proved:
   struct-keyed functions (hypothesis skind f = false), durabilities above LOW (initial
   durabilities fun _ => 0, s1_op), `specify` (nospec). *)
Theorem C07_dependents_partial :
  forall (prog : qk -> body) (skind : N -> bool) (idhash : val -> N) (rank : qk -> nat) (NF : nat),
  calls_below prog rank -> (forall q, (rank q < NF)%nat) ->
  no_forge idhash prog -> (forall q, nospec (prog q)) -> (forall f, skind f = false) ->
  (forall q d, calls (prog q) d -> gk d) -> (forall q d, calls (prog q) d -> first_read (prog d)) ->
  forall fuel iv os,
  Forall (s1_op prog) os -> 1 + 2 * N.of_nat (length os) < GMAX ->
  Forall2 okout os (snd (run_ops prog skind [] idhash fuel (init iv (fun _ => 0)) os)) ->
  forall os1 q os2, os = os1 ++ OGet q :: os2 ->
  let s1 := fst (run_ops prog skind [] idhash fuel (init iv (fun _ => 0)) os1) in
  let s' := fst (step prog skind [] idhash fuel s1 (OGet q)) in
  exists v, snd (step prog skind [] idhash fuel s1 (OGet q)) = SOk v /\
            (forall w, same_inputs (wcur s') w -> wcons prog idhash NF w q -> v = Ew idhash prog NF w q) /\
            wcons prog idhash NF (wcur s') q /\
            (forall h, In h (snd v) -> live s' h).
Proof. exact dependents_S1. Qed.
Check C07_dependents_partial :
  forall (prog : qk -> body) (skind : N -> bool) (idhash : val -> N) (rank : qk -> nat) (NF : nat),
  calls_below prog rank -> (forall q, (rank q < NF)%nat) ->
  no_forge idhash prog -> (forall q, nospec (prog q)) -> (forall f, skind f = false) ->
  (forall q d, calls (prog q) d -> gk d) -> (forall q d, calls (prog q) d -> first_read (prog d)) ->
  forall fuel iv os,
  Forall (s1_op prog) os -> 1 + 2 * N.of_nat (length os) < GMAX ->
  Forall2 okout os (snd (run_ops prog skind [] idhash fuel (init iv (fun _ => 0)) os)) ->
  forall os1 q os2, os = os1 ++ OGet q :: os2 ->
  let s1 := fst (run_ops prog skind [] idhash fuel (init iv (fun _ => 0)) os1) in
  let s' := fst (step prog skind [] idhash fuel s1 (OGet q)) in
  exists v, snd (step prog skind [] idhash fuel s1 (OGet q)) = SOk v /\
            (forall w, same_inputs (wcur s') w -> wcons prog idhash NF w q -> v = Ew idhash prog NF w q) /\
            wcons prog idhash NF (wcur s') q /\
            (forall h, In h (snd v) -> live s' h).
Print Assumptions C07_dependents_partial.

(* Non-vacuity: in the history of S1Examples the dependent rd holds a field edge on (0,0); the
   struct is deleted (rd = 99), slot 0 is reused for (0,1) and rd re-executes to 5 = the fields of
   the new struct; the last Get of rd is the 8th operation. *)
Example C07_dependents_nonvacuous :
  r1_ops = firstn 7 r1_ops ++ OGet (4, (0, 0)) :: skipn 8 r1_ops /\
  nth_error (snd (run_ops (prog_of r1_nk skind0 r1_nodes) skind0 [] r1_idhash 40%nat
                          (init (lookup3 r1_ival) (fun _ => 0)) r1_ops)) 7 = Some (SOk (5, [])) /\
  nth_error (snd (run_ops (prog_of r1_nk skind0 r1_nodes) skind0 [] r1_idhash 40%nat
                          (init (lookup3 r1_ival) (fun _ => 0)) r1_ops)) 8 = Some (SOk (0, [(0, 1)])) /\
  nth_error (snd (run_ops (prog_of r1_nk skind0 r1_nodes) skind0 [] r1_idhash 40%nat
                          (init (lookup3 r1_ival) (fun _ => 0)) r1_ops)) 0 = Some (SOk (3, [])).
Proof. vm_compute. repeat split. Qed.

(* C07_dependents_full_statement_as_first_stated is false: in the reachable state of
   Examples.hist1 slot 2 has
   been reused ((2,1) after (2,0)), (2,0) was issued, and the field check on (2,0) since
   revision 1 answers unchanged. *)
Theorem C07_dependents_first_statement_refuted : ~ C07_dependents_full_statement_as_first_stated.
Proof. exact dependents_first_statement_refuted. Qed.
Check C07_dependents_first_statement_refuted : ~ C07_dependents_full_statement_as_first_stated.
Print Assumptions C07_dependents_first_statement_refuted.

(* C07_dependents_full_statement: the statement about dependents whose conclusion is about the
   walk over ALL recorded edges of a memo.  NOT proved in this generality (struct-keyed families,
   any durabilities); C07_stale_edge_partial below proves its first conclusion under
   skind f = false, LOW durabilities and s1b_ops histories.  After any prefix
   of a handle-safe history of the executable model: take a stored memo m of a query q whose key
   is current, claim q and walk m's recorded edges as deep verification does.  If the walk
   answers at all and m has a tracked-field edge, or a call edge on a struct key, whose id is
   not the current id of a live slot (deleted, or reused with a later generation), the answer is
   "changed": m is not validated, no result belonging to the old struct is served. *)
Definition C07_dependents_full_statement : Prop :=
  forall (prog : qk -> body) (skind : N -> bool) (sfams : list N) (idhash : val -> N) (rank : qk -> nat) (NF : nat),
  calls_below prog rank -> (forall q, (rank q < NF)%nat) ->
  (forall fam, In fam sfams -> skind fam = true) ->
  (forall e q, prov idhash e (prog q) [] (if skind (fst q) then [snd q] else [])) ->
  (forall q, nospec (prog q)) ->
  forall fuel iv idur os,
  handle_safe prog skind sfams idhash fuel (init iv idur) os = true ->
  1 + 2 * N.of_nat (length os) < GMAX ->
  forall os1 os2, os = os1 ++ os2 ->
  let s := fst (run_ops prog skind sfams idhash fuel (init iv idur) os1) in
  forall q m n s' b,
  peek_memo skind s (loc_of q) = Some m -> (if skind (fst q) then live s (snd q) else gk q) ->
  m_verified m < cur s ->
  walk_edges skind (level prog skind sfams idhash n) q (m_edges m) (m_verified m) (set_stack s [q]) = (s', SOk b) ->
  (forall h f, In (EFld h f) (m_edges m) -> ~ live s' h -> b = true) /\
  (forall fam h, In (EQ (fam, h)) (m_edges m) -> skind fam = true -> ~ live s' h -> b = true).

(* C07_stale_edge_partial: the first conclusion (field edges) of C07_dependents_full_statement
   for programs with no struct-keyed family (skind f = false: the second conclusion, call edges
   on struct keys, is then vacuous) and no specify, and `s1b_ops` histories from LOW durabilities
   (Props/C06.v C06_from_scratch_writes_partial for the hypotheses).  Inside the proof
   (Structs/SVerify.v
   walk_ok, Structs/SStale.v): when the walk reaches a field edge after a prefix of unchanged
   edges, the handle was created by the memo's own query (then the memo lists it and it is live)
   or was returned by a callee whose edge is in the prefix (then the callee's memo is verified in
   this revision with an unchanged value, which lists the handle through a memo verified now). *)
Theorem C07_stale_edge_partial :
  forall (prog : qk -> body) (skind : N -> bool) (idhash : val -> N) (rank : qk -> nat) (NF : nat),
  calls_below prog rank -> (forall q, (rank q < NF)%nat) ->
  no_forge idhash prog -> (forall q, nospec (prog q)) -> (forall f, skind f = false) ->
  (forall q d, calls (prog q) d -> gk d) -> (forall q d, calls (prog q) d -> first_read (prog d)) ->
  forall fuel iv os,
  s1b_ops prog true os -> 1 + 2 * N.of_nat (length os) < GMAX ->
  Forall2 okout os (snd (run_ops prog skind [] idhash fuel (init iv (fun _ => 0)) os)) ->
  forall os1 os2, os = os1 ++ os2 ->
  let s := fst (run_ops prog skind [] idhash fuel (init iv (fun _ => 0)) os1) in
  forall q m n s' b,
  gk q -> d_memo s (loc_of q) = Some m -> m_verified m < cur s ->
  walk_edges skind (level prog skind [] idhash n) q (m_edges m) (m_verified m) (set_stack s [q]) = (s', SOk b) ->
  forall h f, In (EFld h f) (m_edges m) -> ~ live s' h -> b = true.
Proof. exact stale_edges_S1b. Qed.
Check C07_stale_edge_partial :
  forall (prog : qk -> body) (skind : N -> bool) (idhash : val -> N) (rank : qk -> nat) (NF : nat),
  calls_below prog rank -> (forall q, (rank q < NF)%nat) ->
  no_forge idhash prog -> (forall q, nospec (prog q)) -> (forall f, skind f = false) ->
  (forall q d, calls (prog q) d -> gk d) -> (forall q d, calls (prog q) d -> first_read (prog d)) ->
  forall fuel iv os,
  s1b_ops prog true os -> 1 + 2 * N.of_nat (length os) < GMAX ->
  Forall2 okout os (snd (run_ops prog skind [] idhash fuel (init iv (fun _ => 0)) os)) ->
  forall os1 os2, os = os1 ++ os2 ->
  let s := fst (run_ops prog skind [] idhash fuel (init iv (fun _ => 0)) os1) in
  forall q m n s' b,
  gk q -> d_memo s (loc_of q) = Some m -> m_verified m < cur s ->
  walk_edges skind (level prog skind [] idhash n) q (m_edges m) (m_verified m) (set_stack s [q]) = (s', SOk b) ->
  forall h f, In (EFld h f) (m_edges m) -> ~ live s' h -> b = true.
Print Assumptions C07_stale_edge_partial.

(* Non-vacuity, and what the refutation looks like with a genuine `since`: rd is verified in
   revision 2 with field edges on (0,0); in revision 3 mk deletes (0,0) and a second creator,
   executing for the first time with an input changed in revision 2, reuses slot 0 as (0,1) with
   field stamps 2.  The check of rd's field edge on (0,0) since 2 answers UNCHANGED; the walk over
   rd's edges answers changed (at the edge on mk); the next Get re-executes rd and returns 99.
   The hypotheses of C07_stale_edge_partial hold for this history. *)
Example C07_stale_edge_nonvacuous :
  (calls_below (prog_of r1_nk skind0 r3_nodes) (fun q => r3_frank (fst q)) /\ (forall q : qk, (r3_frank (fst q) < 2)%nat) /\
   no_forge r1_idhash (prog_of r1_nk skind0 r3_nodes) /\ (forall q, nospec (prog_of r1_nk skind0 r3_nodes q)) /\
   (forall f, skind0 f = false) /\
   (forall q d, calls (prog_of r1_nk skind0 r3_nodes q) d -> gk d) /\
   (forall q d, calls (prog_of r1_nk skind0 r3_nodes q) d -> first_read (prog_of r1_nk skind0 r3_nodes d)) /\
   s1b_ops (prog_of r1_nk skind0 r3_nodes) true r3_ops /\ 1 + 2 * N.of_nat (length r3_ops) < GMAX /\
   Forall2 okout r3_ops (snd (run_ops (prog_of r1_nk skind0 r3_nodes) skind0 [] r1_idhash 40%nat
                                      (init (lookup3 r1_ival) (fun _ => 0)) r3_ops))) /\
  (option_map m_verified (d_memo (fst (run_ops (prog_of r1_nk skind0 r3_nodes) skind0 [] r1_idhash 40%nat (init (lookup3 r1_ival) (fun _ => 0)) r3_ops)) (4, 0)) = Some 2 /\
   option_map m_edges (d_memo (fst (run_ops (prog_of r1_nk skind0 r3_nodes) skind0 [] r1_idhash 40%nat (init (lookup3 r1_ival) (fun _ => 0)) r3_ops)) (4, 0))
     = Some [EQ (1, (0, 0)); EFld (0, 0) 0; EFld (0, 0) 1] /\
   option_map sl_gen (d_slots (fst (run_ops (prog_of r1_nk skind0 r3_nodes) skind0 [] r1_idhash 40%nat (init (lookup3 r1_ival) (fun _ => 0)) r3_ops)) 0) = Some 1 /\
   snd (field_mca (0, 0) 0 2 (fst (run_ops (prog_of r1_nk skind0 r3_nodes) skind0 [] r1_idhash 40%nat (init (lookup3 r1_ival) (fun _ => 0)) r3_ops))) = SOk false /\
   snd (step (prog_of r1_nk skind0 r3_nodes) skind0 [] r1_idhash 40%nat
          (fst (run_ops (prog_of r1_nk skind0 r3_nodes) skind0 [] r1_idhash 40%nat (init (lookup3 r1_ival) (fun _ => 0)) r3_ops))
          (OGet (4, (0, 0)))) = SOk (99, []) /\
   hd_error (d_log (fst (step (prog_of r1_nk skind0 r3_nodes) skind0 [] r1_idhash 40%nat
          (fst (run_ops (prog_of r1_nk skind0 r3_nodes) skind0 [] r1_idhash 40%nat (init (lookup3 r1_ival) (fun _ => 0)) r3_ops))
          (OGet (4, (0, 0)))))) = Some (EvExec (4, (0, 0)))).
Proof. exact (conj r3_hyps r3_stale_check_answers_unchanged). Qed.

(* C07_dependents_writes_partial: C07_dependents_partial for the history class s1b_ops (synthetic
   writes of any durability, cell writes while nothing is verified in the revision). *)
Theorem C07_dependents_writes_partial :
  forall (prog : qk -> body) (skind : N -> bool) (idhash : val -> N) (rank : qk -> nat) (NF : nat),
  calls_below prog rank -> (forall q, (rank q < NF)%nat) ->
  no_forge idhash prog -> (forall q, nospec (prog q)) -> (forall f, skind f = false) ->
  (forall q d, calls (prog q) d -> gk d) -> (forall q d, calls (prog q) d -> first_read (prog d)) ->
  forall fuel iv os,
  s1b_ops prog true os -> 1 + 2 * N.of_nat (length os) < GMAX ->
  Forall2 okout os (snd (run_ops prog skind [] idhash fuel (init iv (fun _ => 0)) os)) ->
  forall os1 q os2, os = os1 ++ OGet q :: os2 ->
  let s1 := fst (run_ops prog skind [] idhash fuel (init iv (fun _ => 0)) os1) in
  let s' := fst (step prog skind [] idhash fuel s1 (OGet q)) in
  exists v, snd (step prog skind [] idhash fuel s1 (OGet q)) = SOk v /\
            (forall w, same_inputs (wcur s') w -> wcons prog idhash NF w q -> v = Ew idhash prog NF w q) /\
            wcons prog idhash NF (wcur s') q /\
            (forall h, In h (snd v) -> live s' h).
Proof. exact dependents_S1b. Qed.
Check C07_dependents_writes_partial :
  forall (prog : qk -> body) (skind : N -> bool) (idhash : val -> N) (rank : qk -> nat) (NF : nat),
  calls_below prog rank -> (forall q, (rank q < NF)%nat) ->
  no_forge idhash prog -> (forall q, nospec (prog q)) -> (forall f, skind f = false) ->
  (forall q d, calls (prog q) d -> gk d) -> (forall q d, calls (prog q) d -> first_read (prog d)) ->
  forall fuel iv os,
  s1b_ops prog true os -> 1 + 2 * N.of_nat (length os) < GMAX ->
  Forall2 okout os (snd (run_ops prog skind [] idhash fuel (init iv (fun _ => 0)) os)) ->
  forall os1 q os2, os = os1 ++ OGet q :: os2 ->
  let s1 := fst (run_ops prog skind [] idhash fuel (init iv (fun _ => 0)) os1) in
  let s' := fst (step prog skind [] idhash fuel s1 (OGet q)) in
  exists v, snd (step prog skind [] idhash fuel s1 (OGet q)) = SOk v /\
            (forall w, same_inputs (wcur s') w -> wcons prog idhash NF w q -> v = Ew idhash prog NF w q) /\
            wcons prog idhash NF (wcur s') q /\
            (forall h, In h (snd v) -> live s' h).
Print Assumptions C07_dependents_writes_partial.

(* Struct-keyed families: INSTANCES only (the general statement C07_dependents_full_statement /
   the keyed from-scratch theorem is not proved).  One handle-safe history of the executable
   model with two struct-keyed families (onS reads its key; own creates a struct of its own):
   the key struct is re-created in place with the same identity (only the no_eq field changes):
   both keyed memos survive and are VALIDATED, not re-executed; the key is deleted: the cascade
   discards the struct, the two memos keyed by it and the struct `own` created; the key is
   re-created in a reused slot with the next generation: onS is EXECUTED afresh on the new id
   (1,1) and answers from the new fields (6, not the old 4).  Every Get / GetS answer equals
   the data value of the specification Structs/Spec.v on the snapshot after it (k_agrees_spec),
   and the ownership invariant OInv holds at the end. *)
Example C07_keyed_instances :
  handle_safe (prog_of 1 skind5 k_nodes) skind5 sfams5 k_idhash 40%nat (init (lookup3 k_ival) (fun _ => 0)) k_ops = true /\
  snd (run_ops (prog_of 1 skind5 k_nodes) skind5 sfams5 k_idhash 40%nat (init (lookup3 k_ival) (fun _ => 0)) k_ops) =
    [SOk (4, []); SOk (103, []); SOk (2, []); SOk (0, []); SOk (4, []); SOk (103, []);
     SOk (0, []); SOk (0, []); SOk (0, []); SOk (0, []); SOk (0, []); SOk (6, []); SOk (1, [])] /\
  List.rev (d_log (fst (run_ops (prog_of 1 skind5 k_nodes) skind5 sfams5 k_idhash 40%nat (init (lookup3 k_ival) (fun _ => 0)) k_ops))) =
    [EvExec (1, (0, 0)); EvExec (2, (0, 0)); EvExec (3, (0, 0));
     EvExec (1, (0, 0)); EvValidate (2, (0, 0)); EvValidate (3, (0, 0));
     EvExec (1, (0, 0)); EvWillDiscard (1, (0, 0)) (0, 0); EvDiscardS (0, 0);
     EvDiscardM (2, (0, 0)); EvDiscardM (3, (0, 0)); EvDiscardS (1, 0);
     EvExec (1, (0, 0)); EvExec (2, (1, 1))] /\
  agree_ops (prog_of 1 skind5 k_nodes) (init (lookup3 k_ival) (fun _ => 0)) k_ops = true /\
  OInv skind5 (fst (run_ops (prog_of 1 skind5 k_nodes) skind5 sfams5 k_idhash 40%nat (init (lookup3 k_ival) (fun _ => 0)) k_ops)) [].
Proof. exact (conj k_handle_safe (conj k_outputs (conj k_log (conj k_agrees_spec (proj1 k_invariant))))). Qed.
