(* Props/C26.v — A persisted database restores identical results and valid memos.
   The statements; each is proved here by citing its proof in Persist/ProofsRoundtrip.v,
   Persist/ProofsFlatten.v (structure of the serialised image), Persist/PInv*.v and Persist/PTop.v
   (the invariant for all durabilities and its results theorems), Persist/LInv*.v and
   Persist/LTop.v (the invariant with a flat mode, all durabilities LOW, and its results theorem),
   Persist/InvOps.v (the level functions, for any invariant that supplies [ops_facts]),
   Persist/Run.v (the run over a history, for any invariant that supplies [run_facts]); concrete
   runs (positive ones, and two refutations replayed on the real crate) in Persist/Examples.v. *)
From Salsa Require Import Base.
From Salsa.Kern Require Import CoreK.
From Salsa.Persist Require Import Model Spec ProofsRoundtrip ProofsFlatten Statement Examples.
From Salsa.Persist Require PInvTop PTop LTop.

(* Round trip, for ALL states: deserialising the serialised database into a fresh one keeps the
   runtime revisions, every input slot, and for every persisted function every memo that has a
   value — value, verified_at, changed_at, durability — with the origin edges replaced by their
   flattening and the origin untracked if it was, or if flattening expanded an untracked
   dependency (flat_memo); nothing else survives (memos of non-persisted functions,
   value-less memos), and the rest is the state of a fresh database. *)
Theorem C26_roundtrip : forall (pfam : N -> bool) (fuel : nat) (s ext : db) (lru0 : N -> lru_state),
  let s' := restore (Model.snapshot pfam fuel s) ext lru0 in
  d_revs s' = d_revs s /\ (forall i, d_in s' i = d_in s i) /\
  (forall q m v, pfam (fst q) = true -> d_memo s q = Some m -> m_val m = Some v ->
     d_memo s' q = Some (flat_memo pfam (d_memo s) fuel m)) /\
  (forall q, ~ serialised pfam s q -> d_memo s' q = None) /\
  d_stack s' = [] /\ d_lru s' = lru0 /\ d_ccount s' = 1 /\ (forall fam, d_init s' fam = false) /\
  d_cell s' = d_cell ext /\ d_pcell s' = d_pcell ext /\ d_log s' = d_log ext.
Proof. exact roundtrip. Qed.
Check C26_roundtrip : forall (pfam : N -> bool) (fuel : nat) (s ext : db) (lru0 : N -> lru_state),
  let s' := restore (Model.snapshot pfam fuel s) ext lru0 in
  d_revs s' = d_revs s /\ (forall i, d_in s' i = d_in s i) /\
  (forall q m v, pfam (fst q) = true -> d_memo s q = Some m -> m_val m = Some v ->
     d_memo s' q = Some (flat_memo pfam (d_memo s) fuel m)) /\
  (forall q, ~ serialised pfam s q -> d_memo s' q = None) /\
  d_stack s' = [] /\ d_lru s' = lru0 /\ d_ccount s' = 1 /\ (forall fam, d_init s' fam = false) /\
  d_cell s' = d_cell ext /\ d_pcell s' = d_pcell ext /\ d_log s' = d_log ext.
Print Assumptions C26_roundtrip.

(* Flattening covers: for every memo table whose recorded graph is acyclic, after flattening the
   edges of an origin every original edge is serialised or was expanded, every expanded
   dependency has a memo, and every expanded dependency has all ITS edges serialised or expanded
   (a cut of the graph).  A dependency WITHOUT memo is serialised as an edge, so nothing is
   assumed about which functions have memos. *)
Theorem C26_flatten_covers : forall (pfam : N -> bool) (mm : qkey -> option memo) (rank : qkey -> nat),
  (forall g m c, mm g = Some m -> In (EQ c) (m_edges m) -> (rank c < rank g)%nat) ->
  forall (fuel : nat) (edges : list edge),
  (forall e, In e edges -> (erank rank e < fuel)%nat) ->
  let r := flatten_full pfam mm fuel edges in
  vis_ok mm (snd r) /\ closedX mm [] (fst r) (snd r) /\ (forall e, In e edges -> covered (fst r) (snd r) e).
Proof. exact flatten_closed. Qed.
Check C26_flatten_covers : forall (pfam : N -> bool) (mm : qkey -> option memo) (rank : qkey -> nat),
  (forall g m c, mm g = Some m -> In (EQ c) (m_edges m) -> (rank c < rank g)%nat) ->
  forall (fuel : nat) (edges : list edge),
  (forall e, In e edges -> (erank rank e < fuel)%nat) ->
  let r := flatten_full pfam mm fuel edges in
  vis_ok mm (snd r) /\ closedX mm [] (fst r) (snd r) /\ (forall e, In e edges -> covered (fst r) (snd r) e).
Print Assumptions C26_flatten_covers.

(* The flattening lemma (structural half): if none of the covering edges changed since r —
   input leaves by their stamp, directly serialised function edges by their whole recorded
   support — and flattening dropped no dependency with untracked reads, then no replaced
   dependency has a changed recorded support: every ORIGINAL edge is [ok_edge] since r. *)
Theorem C26_flatten_sound : forall (pfam : N -> bool) (mm : qkey -> option memo) (rank : qkey -> nat),
  (forall g m c, mm g = Some m -> In (EQ c) (m_edges m) -> (rank c < rank g)%nat) ->
  forall (din : ikey -> infield) (r : rev) (fuel : nat) (edges : list edge),
  (forall e, In e edges -> (erank rank e < fuel)%nat) ->
  lost_untracked pfam mm fuel edges = false ->
  (forall x, In x (flatten pfam mm fuel edges) -> ok_edge mm din r x) ->
  forall e, In e edges -> ok_edge mm din r e.
Proof. exact flatten_sound. Qed.
Check C26_flatten_sound : forall (pfam : N -> bool) (mm : qkey -> option memo) (rank : qkey -> nat),
  (forall g m c, mm g = Some m -> In (EQ c) (m_edges m) -> (rank c < rank g)%nat) ->
  forall (din : ikey -> infield) (r : rev) (fuel : nat) (edges : list edge),
  (forall e, In e edges -> (erank rank e < fuel)%nat) ->
  lost_untracked pfam mm fuel edges = false ->
  (forall x, In x (flatten pfam mm fuel edges) -> ok_edge mm din r x) ->
  forall e, In e edges -> ok_edge mm din r e.
Print Assumptions C26_flatten_sound.

(* For ALL memo tables: a memo that the snapshot serialises with a TRACKED origin lost no
   untracked dependency (and was tracked itself) ... *)
Theorem C26_snapshot_tracked_loses_nothing :
  forall (pfam : N -> bool) (mm : qkey -> option memo) (fuel : nat) q m',
  snap_memo pfam mm fuel q = Some m' -> m_untracked m' = false ->
  exists m, mm q = Some m /\ m_untracked m = false /\
            lost_untracked pfam mm fuel (m_edges m) = false /\
            m_edges m' = flatten pfam mm fuel (m_edges m) /\
            m_val m' = m_val m /\ m_verified m' = m_verified m /\ m_changed m' = m_changed m /\
            m_dur m' = m_dur m.
Proof. exact snap_memo_tracked. Qed.
Check C26_snapshot_tracked_loses_nothing :
  forall (pfam : N -> bool) (mm : qkey -> option memo) (fuel : nat) q m',
  snap_memo pfam mm fuel q = Some m' -> m_untracked m' = false ->
  exists m, mm q = Some m /\ m_untracked m = false /\
            lost_untracked pfam mm fuel (m_edges m) = false /\
            m_edges m' = flatten pfam mm fuel (m_edges m) /\
            m_val m' = m_val m /\ m_verified m' = m_verified m /\ m_changed m' = m_changed m /\
            m_dur m' = m_dur m.
Print Assumptions C26_snapshot_tracked_loses_nothing.

(* ... hence the flattening lemma WITHOUT side condition for the memos of a real snapshot: if a
   memo is serialised as tracked and none of its serialised edges changed since r, then the
   original memo was tracked and none of its original edges has a changed recorded support. *)
Theorem C26_flatten_sound_snapshot :
  forall (pfam : N -> bool) (mm : qkey -> option memo) (rank : qkey -> nat),
  (forall g m c, mm g = Some m -> In (EQ c) (m_edges m) -> (rank c < rank g)%nat) ->
  forall (din : ikey -> infield) (r : rev) (fuel : nat) q m',
  (forall p, (S (rank p) < fuel)%nat) ->
  snap_memo pfam mm fuel q = Some m' -> m_untracked m' = false ->
  (forall x, In x (m_edges m') -> ok_edge mm din r x) ->
  exists m, mm q = Some m /\ m_untracked m = false /\ forall e, In e (m_edges m) -> ok_edge mm din r e.
Proof. exact flatten_sound_snapshot. Qed.
Check C26_flatten_sound_snapshot :
  forall (pfam : N -> bool) (mm : qkey -> option memo) (rank : qkey -> nat),
  (forall g m c, mm g = Some m -> In (EQ c) (m_edges m) -> (rank c < rank g)%nat) ->
  forall (din : ikey -> infield) (r : rev) (fuel : nat) q m',
  (forall p, (S (rank p) < fuel)%nat) ->
  snap_memo pfam mm fuel q = Some m' -> m_untracked m' = false ->
  (forall x, In x (m_edges m') -> ok_edge mm din r x) ->
  exists m, mm q = Some m /\ m_untracked m = false /\ forall e, In e (m_edges m) -> ok_edge mm din r e.
Print Assumptions C26_flatten_sound_snapshot.

(* Serialised origins consist of directly serialised edges (input fields, persisted functions)
   and of function dependencies that had NO memo when the origin was flattened (nothing covers
   them; the edge is kept) — for all memo tables and fuels; and serialising again an origin all of
   whose edges are serialised directly expands nothing and cannot lose an untracked dependency. *)
Theorem C26_reserialise_loses_nothing :
  forall (pfam : N -> bool) (mm mm' : qkey -> option memo) (fuel fuel' : nat) (edges : list edge),
  (forall e, In e (flatten pfam mm fuel edges) ->
     persistable pfam e = true \/ exists g, e = EQ g /\ mm g = None) /\
  (all_persistable pfam edges -> lost_untracked pfam mm' fuel' edges = false).
Proof.
  intros pfam mm mm' fuel fuel' edges.
  split; [exact (flatten_kept pfam mm fuel edges) | exact (reserialise_loses_nothing pfam mm' fuel' edges)].
Qed.
Check C26_reserialise_loses_nothing :
  forall (pfam : N -> bool) (mm mm' : qkey -> option memo) (fuel fuel' : nat) (edges : list edge),
  (forall e, In e (flatten pfam mm fuel edges) ->
     persistable pfam e = true \/ exists g, e = EQ g /\ mm g = None) /\
  (all_persistable pfam edges -> lost_untracked pfam mm' fuel' edges = false).
Print Assumptions C26_reserialise_loses_nothing.

(* Reuse, same revision — for all programs and states: a restored memo that was verified in the
   revision of the snapshot is returned by the first request with no event at all. *)
Theorem C26_reuse_same_revision :
  forall (prog : qkey -> body) (noeq : qkey -> bool) (pfam : N -> bool) (L : lower)
         (fuel : nat) (s ext : db) (lru0 : N -> lru_state) q m v,
  pfam (fst q) = true -> d_memo s q = Some m -> m_val m = Some v -> m_verified m = cur s ->
  let s' := restore (Model.snapshot pfam fuel s) ext lru0 in
  exists s'', fetch prog noeq L q s' = (s'', POk (v, m_dur m, m_changed m)) /\ d_log s'' = d_log ext /\
              d_memo s'' = d_memo s'.
Proof. exact reuse_hot. Qed.
Check C26_reuse_same_revision :
  forall (prog : qkey -> body) (noeq : qkey -> bool) (pfam : N -> bool) (L : lower)
         (fuel : nat) (s ext : db) (lru0 : N -> lru_state) q m v,
  pfam (fst q) = true -> d_memo s q = Some m -> m_val m = Some v -> m_verified m = cur s ->
  let s' := restore (Model.snapshot pfam fuel s) ext lru0 in
  exists s'', fetch prog noeq L q s' = (s'', POk (v, m_dur m, m_changed m)) /\ d_log s'' = d_log ext /\
              d_memo s'' = d_memo s'.
Print Assumptions C26_reuse_same_revision.

(* Reuse, any later revision — PARTIAL: for a memo whose origin consists of input leaves (what a
   restored memo looks like when all its dependencies were flattened), has no untracked read and
   none of whose leaves changed since it was verified: the request returns its value and the event
   log grows by at most one DidValidateMemoizedValue — the function is not executed.  For every
   program, state and lower level.  Missing: origins that keep edges to persisted functions
   (needs the recursion through maybe_changed_after, i.e. the Core invariant; and is FALSE as
   stated when such a dependency was not serialised or its ingredient is uninitialised, see the
   refutations below). *)
Theorem C26_reuse_partial :
  forall (prog : qkey -> body) (noeq : qkey -> bool) (L : lower) (s : db) q m v,
  d_memo s q = Some m -> m_val m = Some v -> m_untracked m = false ->
  (forall e, In e (m_edges m) -> leaf_unchanged s (m_verified m) e) ->
  d_stack s = [] ->
  exists s', fetch prog noeq L q s = (s', POk (v, m_dur m, m_changed m)) /\
             (d_log s' = d_log s \/ d_log s' = EvValidate q :: d_log s).
Proof. exact reuse_leaves. Qed.
Check C26_reuse_partial :
  forall (prog : qkey -> body) (noeq : qkey -> bool) (L : lower) (s : db) q m v,
  d_memo s q = Some m -> m_val m = Some v -> m_untracked m = false ->
  (forall e, In e (m_edges m) -> leaf_unchanged s (m_verified m) e) ->
  d_stack s = [] ->
  exists s', fetch prog noeq L q s = (s', POk (v, m_dur m, m_changed m)) /\
             (d_log s' = d_log s \/ d_log s' = EvValidate q :: d_log s).
Print Assumptions C26_reuse_partial.

(* non-vacuity: the shape of tests/persistence.rs::partial_query — the hypotheses of the
   flattening theorems hold, the restored memo is validated without execution in a later
   revision, and after a write the restored database returns the from-scratch result *)
Theorem C26_example_partial_query :
  flatten Examples.pfam mm_pq FUEL [EQ (3, 0)] = [EIn (0, 0)] /\
  lost_untracked Examples.pfam mm_pq FUEL [EQ (3, 0)] = false /\
  (let r := run prog_pq [] nolru [OGet (0, 0); OSnapshot; ORestore; OSynth 0; OGet (0, 0)] in
   snd r = [POk 2; POk 0; POk 0; POk 0; POk 2] /\
   d_log (ps_db (fst r)) = [EvValidate (0, 0); EvExec (3, 0); EvExec (0, 0)]) /\
  (let r := run prog_pq [] nolru [OGet (0, 0); OSnapshot; ORestore; OSet (0, 0) 7 None; OGet (0, 0)] in
   snd r = [POk 2; POk 0; POk 0; POk 0; POk 8] /\
   evalo prog_pq FUEL (snap_of (ps_db (fst r))) (0, 0) = Some 8).
Proof.
  split; [exact (proj2 (proj2 (proj2 ex_pq_hyps)))|].
  split; [exact (proj1 (proj2 (proj2 ex_pq_hyps)))|].
  split; [exact ex_pq_reuse | exact ex_pq_write].
Qed.
Check C26_example_partial_query :
  flatten Examples.pfam mm_pq FUEL [EQ (3, 0)] = [EIn (0, 0)] /\
  lost_untracked Examples.pfam mm_pq FUEL [EQ (3, 0)] = false /\
  (let r := run prog_pq [] nolru [OGet (0, 0); OSnapshot; ORestore; OSynth 0; OGet (0, 0)] in
   snd r = [POk 2; POk 0; POk 0; POk 0; POk 2] /\
   d_log (ps_db (fst r)) = [EvValidate (0, 0); EvExec (3, 0); EvExec (0, 0)]) /\
  (let r := run prog_pq [] nolru [OGet (0, 0); OSnapshot; ORestore; OSet (0, 0) 7 None; OGet (0, 0)] in
   snd r = [POk 2; POk 0; POk 0; POk 0; POk 8] /\
   evalo prog_pq FUEL (snap_of (ps_db (fst r))) (0, 0) = Some 8).
Print Assumptions C26_example_partial_query.

(* a persisted function over a NON-persisted function with an untracked read; restore, external
   change, new revision: the restored memo is untracked, is re-executed, and the result is the
   from-scratch one (a tracked memo without edges would be validated and return a stale value);
   in the revision of the snapshot it is returned without executing *)
Theorem C26_example_flattened_untracked_fixed :
  (let r := run prog_f2 [] nolru ops_f2 in
   snd r = [POk 0; POk 0; POk 0; POk 0; POk 0; POk 1] /\
   evalo prog_f2 FUEL (snap_of (ps_db (fst r))) (0, 0) = Some 1) /\
  (let r := run prog_f2 [] nolru [OGet (0, 0); OSnapshot; ORestore; OGet (0, 0)] in
   snd r = [POk 0; POk 0; POk 0; POk 0] /\ d_log (ps_db (fst r)) = [EvExec (3, 0); EvExec (0, 0)]).
Proof.
  split; [split; [exact (proj1 ex_f2_fixed) | exact (proj1 (proj2 ex_f2_fixed))] | exact ex_f2_same_revision].
Qed.
Check C26_example_flattened_untracked_fixed :
  (let r := run prog_f2 [] nolru ops_f2 in
   snd r = [POk 0; POk 0; POk 0; POk 0; POk 0; POk 1] /\
   evalo prog_f2 FUEL (snap_of (ps_db (fst r))) (0, 0) = Some 1) /\
  (let r := run prog_f2 [] nolru [OGet (0, 0); OSnapshot; ORestore; OGet (0, 0)] in
   snd r = [POk 0; POk 0; POk 0; POk 0] /\ d_log (ps_db (fst r)) = [EvExec (3, 0); EvExec (0, 0)]).
Print Assumptions C26_example_flattened_untracked_fixed.

(* the memo-less dependency (an evicted, value-less memo is not serialised; its restored caller
   is returned without a walk; a second snapshot reaches that caller through a non-persisted
   function and finds a dependency WITHOUT memo): the edge is kept, and the request after the second restore and a write returns the from-scratch value;
   without a call that initialises the dependency's ingredient it ends in the known class
   (uninitialised ingredient), not in a stale value *)
Theorem C26_example_memoless_dependency_fixed :
  (let r := run prog_f4 [1] lru2 ops_f4 in
   last (snd r) PFuel = POk 7 /\
   evalo prog_f4 FUEL (snap_of (ps_db (fst r))) (0, 0) = Some 7 /\
   option_map (fun m => (m_untracked m, m_edges m, m_verified m))
     (d_memo (ps_db (fst (run prog_f4 [1] lru2 (firstn 10 ops_f4)))) (0, 0)) = Some (false, [EQ (1, 0)], 2) /\
   d_memo (ps_db (fst (run prog_f4 [1] lru2 (firstn 8 ops_f4)))) (1, 0) = None) /\
  last (snd (run prog_f4 [1] lru2
    [OGet (0, 1); OGet (1, 1); OGet (1, 2); OSynth 0; OGet (0, 1); OSnapshot; ORestore;
     OGet (0, 0); OSnapshot; ORestore; OSet (0, 0) 7 None; OGet (0, 0)])) PFuel = PPanic PUninit.
Proof.
  split; [|exact ex_f4_cold]. destruct ex_f4_fixed as (A & B & _ & C & D0 & _).
  split; [exact A|]. split; [exact B|]. split; [exact C | exact D0].
Qed.
Check C26_example_memoless_dependency_fixed :
  (let r := run prog_f4 [1] lru2 ops_f4 in
   last (snd r) PFuel = POk 7 /\
   evalo prog_f4 FUEL (snap_of (ps_db (fst r))) (0, 0) = Some 7 /\
   option_map (fun m => (m_untracked m, m_edges m, m_verified m))
     (d_memo (ps_db (fst (run prog_f4 [1] lru2 (firstn 10 ops_f4)))) (0, 0)) = Some (false, [EQ (1, 0)], 2) /\
   d_memo (ps_db (fst (run prog_f4 [1] lru2 (firstn 8 ops_f4)))) (1, 0) = None) /\
  last (snd (run prog_f4 [1] lru2
    [OGet (0, 1); OGet (1, 1); OGet (1, 2); OSynth 0; OGet (0, 1); OSnapshot; ORestore;
     OGet (0, 0); OSnapshot; ORestore; OSet (0, 0) 7 None; OGet (0, 0)])) PFuel = PPanic PUninit.
Print Assumptions C26_example_memoless_dependency_fixed.

(* ------------------------------------------------------------------------------------
   REFUTATIONS of the unrestricted property on the faithful model (each witness was replayed
   on the real crate with the same outcome, see checks/notes/C26.txt):

   1. results: a restored memo whose origin keeps an edge to a persisted function that has not
      been called in the new database: verifying it reaches the function ingredient through its
      dynamic entry before its view caster was initialised, and panics. *)
Theorem C26_results_refuted_uninitialised_ingredient :
  exists (prog : qkey -> body) (ops : list op),
    let r := run prog [1] lru2 ops in
    last (snd r) PFuel = PPanic PUninit /\
    evalo prog FUEL (snap_of (ps_db (fst r))) (0, 0) = Some 1 /\ last ops OEvict = OGet (0, 0).
Proof.
  exists prog_f1, ops_f1. cbv zeta. destruct ex_f1 as (A & B). rewrite A.
  split; [reflexivity|]. split; [exact B | reflexivity].
Qed.
Check C26_results_refuted_uninitialised_ingredient :
  exists (prog : qkey -> body) (ops : list op),
    let r := run prog [1] lru2 ops in
    last (snd r) PFuel = PPanic PUninit /\
    evalo prog FUEL (snap_of (ps_db (fst r))) (0, 0) = Some 1 /\ last ops OEvict = OGet (0, 0).
Print Assumptions C26_results_refuted_uninitialised_ingredient.

(* 2. reuse: a persisted dependency whose value was evicted (LRU) when the snapshot was taken is
      not serialised at all; the restored caller, none of whose inputs ever changed, is executed
      again — the same history without snapshot/restore validates it. *)
Theorem C26_reuse_refuted_evicted_dependency :
  exists (prog : qkey -> body) (ops twin : list op),
    let r := run prog [1] lru2 ops in
    let t := run prog [1] lru2 twin in
    firstn 2 (d_log (ps_db (fst r))) = [EvExec (1, 0); EvExec (0, 0)] /\
    firstn 2 (d_log (ps_db (fst t))) = [EvValidate (0, 0); EvValidate (1, 0)] /\
    (forall i, f_changed (d_in (ps_db (fst r)) i) = 1) /\
    last ops OEvict = OGet (0, 0) /\ last twin OEvict = OGet (0, 0).
Proof.
  exists prog_f3, ops_f3, ops_f3_twin. cbv zeta. destruct ex_f3 as (_ & _ & A & B & C).
  repeat split; assumption || reflexivity.
Qed.
Check C26_reuse_refuted_evicted_dependency :
  exists (prog : qkey -> body) (ops twin : list op),
    let r := run prog [1] lru2 ops in
    let t := run prog [1] lru2 twin in
    firstn 2 (d_log (ps_db (fst r))) = [EvExec (1, 0); EvExec (0, 0)] /\
    firstn 2 (d_log (ps_db (fst t))) = [EvValidate (0, 0); EvValidate (1, 0)] /\
    (forall i, f_changed (d_in (ps_db (fst r)) i) = 1) /\
    last ops OEvict = OGet (0, 0) /\ last twin OEvict = OGet (0, 0).
Print Assumptions C26_reuse_refuted_evicted_dependency.

(* ------------------------------------------------------------------------------------
   RESULTS.  The persist-mode model has an invariant of the kind the Core model has
   (Core/DInv*.v), for inputs of all durabilities, LRU eviction, untracked reads, injected panics.

   (P1) Histories with snapshots but WITHOUT restore, every program, every choice of persisted
   functions: each request returns the from-scratch value of the current inputs or unwinds with
   a panic of the base model — outside the known class (a request that hits an uninitialised
   function ingredient; the hypothesis is kept to have one shape of statement).  This is C01
   for the persist-mode model (every read recorded, edges never discarded). *)
Theorem C26_results_no_restore :
  forall (prog : qkey -> body) (noeq : qkey -> bool) (pfam : N -> bool) (fams : list N)
         (lru0 : N -> lru_state) (rank : qkey -> nat),
    calls_below prog rank -> forall NF : nat, (forall q, (rank q < NF)%nat) ->
    forall fuel sfuel : nat, (forall p, (rank p < fuel)%nat) ->
    forall (iv : ikey -> val) (idur : ikey -> dur) (ops : list op),
      (forall i, idur i <= 3) -> Forall dur_op ops -> wf_ops false false ops ->
      ~ In ORestore ops ->
      known_class_free prog noeq pfam fams lru0 sfuel fuel (pinit iv idur lru0) ops ->
      results_ok prog noeq pfam fams lru0 NF sfuel fuel (pinit iv idur lru0) ops.
Proof. exact PTop.results_no_restore. Qed.
Check C26_results_no_restore :
  forall (prog : qkey -> body) (noeq : qkey -> bool) (pfam : N -> bool) (fams : list N)
         (lru0 : N -> lru_state) (rank : qkey -> nat),
    calls_below prog rank -> forall NF : nat, (forall q, (rank q < NF)%nat) ->
    forall fuel sfuel : nat, (forall p, (rank p < fuel)%nat) ->
    forall (iv : ikey -> val) (idur : ikey -> dur) (ops : list op),
      (forall i, idur i <= 3) -> Forall dur_op ops -> wf_ops false false ops ->
      ~ In ORestore ops ->
      known_class_free prog noeq pfam fams lru0 sfuel fuel (pinit iv idur lru0) ops ->
      results_ok prog noeq pfam fams lru0 NF sfuel fuel (pinit iv idur lru0) ops.
Print Assumptions C26_results_no_restore.

(* (P2) restore after snapshot re-establishes the invariant in the fresh database, from ANY state
   that satisfies the invariant (PInvTop.OK: there are ghost histories of inputs and durabilities
   and ghost stamps of dropped memos for which PInv.DInv holds) with no query in flight, for ALL
   durabilities, in two settings:
   - the persisted functions only call persisted functions (nothing is flattened away);
   - the functions that are not persisted only call functions that are not persisted: the
     dependencies that the snapshot flattened away — to any depth — become observers at the
     revisions their memos were verified at, or, when such a memo is older than its caller's (the
     caller was validated by the durability short-cut; PInv.mo_sync, PInv.cconst), at the
     caller's revision (PInv.good, PTop.exp_good), and the restored memo is covered by its
     serialised edges.
   (For EVERY program with all durabilities LOW: the same in the development of
   Persist/LInv*.v, LTop.restore_flat_ok.)
   The revision rewind is sound: the inputs come back with their stamps.  If the external state
   is the one the snapshot saw the restored database is ready for requests (PTop.state_ok false),
   otherwise it is after a new revision (PTop.state_ok true). *)
Theorem C26_restore_reestablishes_invariant :
  forall (prog : qkey -> body) (pfam : N -> bool) (lru0 : N -> lru_state) (rank : qkey -> nat)
         (NF sfuel : nat),
    calls_below prog rank ->
    persisted_closed prog pfam \/ (np_closed prog pfam /\ forall p, (S (rank p) < sfuel)%nat) ->
    forall s ext : db,
      d_stack s = [] ->
      (PInvTop.OK_d prog NF (fun q => pfam (fst q)) s ->
       PTop.state_ok prog pfam NF true (restore (Model.snapshot pfam sfuel s) ext lru0)) /\
      (PInvTop.OK prog NF (fun q => pfam (fst q)) s -> d_cell ext = d_cell s ->
       PTop.state_ok prog pfam NF false (restore (Model.snapshot pfam sfuel s) ext lru0)).
Proof.
  intros prog pfam lru0 rank NF sfuel Hrank Hc s ext Hst.
  assert (G : PTop.restore_good prog pfam lru0 NF sfuel).
  { destruct Hc as [Hc | [Hn Hs]].
    - exact (PTop.restore_good_closed prog pfam lru0 rank (PSem.calls_below_tb prog rank Hrank) NF sfuel Hc).
    - exact (PTop.restore_good_np prog pfam lru0 rank (PSem.calls_below_tb prog rank Hrank) NF sfuel Hn Hs). }
  split.
  - intros Hok. exact (proj1 G s ext Hok Hst).
  - intros Hok He. exact (proj2 G s ext Hok Hst He).
Qed.
Check C26_restore_reestablishes_invariant :
  forall (prog : qkey -> body) (pfam : N -> bool) (lru0 : N -> lru_state) (rank : qkey -> nat)
         (NF sfuel : nat),
    calls_below prog rank ->
    persisted_closed prog pfam \/ (np_closed prog pfam /\ forall p, (S (rank p) < sfuel)%nat) ->
    forall s ext : db,
      d_stack s = [] ->
      (PInvTop.OK_d prog NF (fun q => pfam (fst q)) s ->
       PTop.state_ok prog pfam NF true (restore (Model.snapshot pfam sfuel s) ext lru0)) /\
      (PInvTop.OK prog NF (fun q => pfam (fst q)) s -> d_cell ext = d_cell s ->
       PTop.state_ok prog pfam NF false (restore (Model.snapshot pfam sfuel s) ext lru0)).
Print Assumptions C26_restore_reestablishes_invariant.

(* (P3) C26_results_full_statement with ONE more hypothesis, persisted_closed: histories with
   snapshots, restores, writes of all durabilities, external changes, evictions, injected
   panics; outside the known class every request returns the from-scratch value or unwinds with
   a panic of the base model.  (The hypothesis on the serialisation fuel of the full statement
   is not needed.)  Non-vacuity: Examples.ex_cl_hyps, ex_cl_results. *)
Theorem C26_results_partial :
  forall (prog : qkey -> body) (noeq : qkey -> bool) (pfam : N -> bool) (fams : list N)
         (lru0 : N -> lru_state) (rank : qkey -> nat),
    calls_below prog rank -> forall NF : nat, (forall q, (rank q < NF)%nat) ->
    forall fuel sfuel : nat, (forall p, (rank p < fuel)%nat) ->
    persisted_closed prog pfam ->
    forall (iv : ikey -> val) (idur : ikey -> dur) (ops : list op),
      (forall i, idur i <= 3) -> Forall dur_op ops -> wf_ops false false ops ->
      known_class_free prog noeq pfam fams lru0 sfuel fuel (pinit iv idur lru0) ops ->
      results_ok prog noeq pfam fams lru0 NF sfuel fuel (pinit iv idur lru0) ops.
Proof. exact PTop.results_closed. Qed.
Check C26_results_partial :
  forall (prog : qkey -> body) (noeq : qkey -> bool) (pfam : N -> bool) (fams : list N)
         (lru0 : N -> lru_state) (rank : qkey -> nat),
    calls_below prog rank -> forall NF : nat, (forall q, (rank q < NF)%nat) ->
    forall fuel sfuel : nat, (forall p, (rank p < fuel)%nat) ->
    persisted_closed prog pfam ->
    forall (iv : ikey -> val) (idur : ikey -> dur) (ops : list op),
      (forall i, idur i <= 3) -> Forall dur_op ops -> wf_ops false false ops ->
      known_class_free prog noeq pfam fams lru0 sfuel fuel (pinit iv idur lru0) ops ->
      results_ok prog noeq pfam fams lru0 NF sfuel fuel (pinit iv idur lru0) ops.
Print Assumptions C26_results_partial.

(* (P3') C26_results_full_statement for EVERY program and EVERY choice of persisted functions —
   dependencies flattened away to any depth, repeated snapshot/restore rounds, LRU eviction,
   untracked reads, injected panics — when all durabilities are LOW (the default: inputs are
   created LOW, writes keep or install LOW, synthetic writes are LOW).  The flattening keeps a
   dependency without memo as an edge.  Non-vacuity:
   Examples.ex_flat_results, ex_f4_results. *)
Theorem C26_results_low :
  forall (prog : qkey -> body) (noeq : qkey -> bool) (pfam : N -> bool) (fams : list N)
         (lru0 : N -> lru_state) (rank : qkey -> nat),
    calls_below prog rank -> forall NF : nat, (forall q, (rank q < NF)%nat) ->
    forall fuel sfuel : nat, (forall p, (rank p < fuel)%nat) -> (forall p, (S (rank p) < sfuel)%nat) ->
    forall (iv : ikey -> val) (ops : list op),
      Forall low_op ops -> wf_ops false false ops ->
      known_class_free prog noeq pfam fams lru0 sfuel fuel (pinit iv (fun _ => 0) lru0) ops ->
      results_ok prog noeq pfam fams lru0 NF sfuel fuel (pinit iv (fun _ => 0) lru0) ops.
Proof. exact LTop.results_low. Qed.
Check C26_results_low :
  forall (prog : qkey -> body) (noeq : qkey -> bool) (pfam : N -> bool) (fams : list N)
         (lru0 : N -> lru_state) (rank : qkey -> nat),
    calls_below prog rank -> forall NF : nat, (forall q, (rank q < NF)%nat) ->
    forall fuel sfuel : nat, (forall p, (rank p < fuel)%nat) -> (forall p, (S (rank p) < sfuel)%nat) ->
    forall (iv : ikey -> val) (ops : list op),
      Forall low_op ops -> wf_ops false false ops ->
      known_class_free prog noeq pfam fams lru0 sfuel fuel (pinit iv (fun _ => 0) lru0) ops ->
      results_ok prog noeq pfam fams lru0 NF sfuel fuel (pinit iv (fun _ => 0) lru0) ops.
Print Assumptions C26_results_low.

(* (P3'') C26_results_full_statement with ONE more hypothesis, for ALL durabilities: the
   functions that are not persisted only call functions that are not persisted (np_closed) —
   the usual shape: persisted entry points over non-persisted helpers over inputs.  Dependencies
   flattened away to any depth, memos validated by the durability short-cut while their
   dependencies' memos stayed older, durability-changing writes, repeated snapshot/restore
   rounds.  Non-vacuity: Examples.ex_high_results (a HIGH memo validated by the short-cut before
   the snapshot, flattened, restored, then invalidated by a HIGH write). *)
Theorem C26_results_np :
  forall (prog : qkey -> body) (noeq : qkey -> bool) (pfam : N -> bool) (fams : list N)
         (lru0 : N -> lru_state) (rank : qkey -> nat),
    calls_below prog rank -> forall NF : nat, (forall q, (rank q < NF)%nat) ->
    forall fuel sfuel : nat, (forall p, (rank p < fuel)%nat) -> (forall p, (S (rank p) < sfuel)%nat) ->
    np_closed prog pfam ->
    forall (iv : ikey -> val) (idur : ikey -> dur) (ops : list op),
      (forall i, idur i <= 3) -> Forall dur_op ops -> wf_ops false false ops ->
      known_class_free prog noeq pfam fams lru0 sfuel fuel (pinit iv idur lru0) ops ->
      results_ok prog noeq pfam fams lru0 NF sfuel fuel (pinit iv idur lru0) ops.
Proof. exact PTop.results_np. Qed.
Check C26_results_np :
  forall (prog : qkey -> body) (noeq : qkey -> bool) (pfam : N -> bool) (fams : list N)
         (lru0 : N -> lru_state) (rank : qkey -> nat),
    calls_below prog rank -> forall NF : nat, (forall q, (rank q < NF)%nat) ->
    forall fuel sfuel : nat, (forall p, (rank p < fuel)%nat) -> (forall p, (S (rank p) < sfuel)%nat) ->
    np_closed prog pfam ->
    forall (iv : ikey -> val) (idur : ikey -> dur) (ops : list op),
      (forall i, idur i <= 3) -> Forall dur_op ops -> wf_ops false false ops ->
      known_class_free prog noeq pfam fams lru0 sfuel fuel (pinit iv idur lru0) ops ->
      results_ok prog noeq pfam fams lru0 NF sfuel fuel (pinit iv idur lru0) ops.
Print Assumptions C26_results_np.

(* (P4) strictly: in the four settings above (no restore, persisted_closed, np_closed; all
   durabilities LOW) the ONLY panic of the base model that can unwind a
   request is an injected fault while some fault switch is on — in particular the
   backdate-violation assertion of debug builds is unreachable: changed_at stamps never
   decrease (PInv.ext_mono), across re-execution, eviction, snapshot and restore (the stamp of a
   memo that a restore dropped is kept in a ghost table, PInv.phi). *)
Theorem C26_results_strict :
  forall (prog : qkey -> body) (noeq : qkey -> bool) (pfam : N -> bool) (fams : list N)
         (lru0 : N -> lru_state) (rank : qkey -> nat),
    calls_below prog rank -> forall NF : nat, (forall q, (rank q < NF)%nat) ->
    forall fuel sfuel : nat, (forall p, (rank p < fuel)%nat) ->
    (forall (iv : ikey -> val) (idur : ikey -> dur) (ops : list op),
       (forall i, idur i <= 3) -> Forall dur_op ops -> wf_ops false false ops ->
       (~ In ORestore ops \/ persisted_closed prog pfam \/
        (np_closed prog pfam /\ forall p, (S (rank p) < sfuel)%nat)) ->
       known_class_free prog noeq pfam fams lru0 sfuel fuel (pinit iv idur lru0) ops ->
       results_ok_strict prog noeq pfam fams lru0 NF sfuel fuel (pinit iv idur lru0) ops) /\
    ((forall p, (S (rank p) < sfuel)%nat) ->
     forall (iv : ikey -> val) (ops : list op),
       Forall low_op ops -> wf_ops false false ops ->
       known_class_free prog noeq pfam fams lru0 sfuel fuel (pinit iv (fun _ => 0) lru0) ops ->
       results_ok_strict prog noeq pfam fams lru0 NF sfuel fuel (pinit iv (fun _ => 0) lru0) ops).
Proof.
  intros prog noeq pfam fams lru0 rank Hrank NF Hb fuel sfuel Hf. split.
  - intros iv idur ops Hid Hd Hw Hcase Hk.
    exact (PTop.results_strict prog noeq pfam fams lru0 rank Hrank NF Hb fuel sfuel Hf iv idur ops Hid Hd Hw Hcase Hk).
  - intros Hs iv ops Hl Hw Hk.
    exact (LTop.results_low_strict prog noeq pfam fams lru0 rank Hrank NF Hb fuel sfuel Hf Hs iv ops Hl Hw Hk).
Qed.
Check C26_results_strict :
  forall (prog : qkey -> body) (noeq : qkey -> bool) (pfam : N -> bool) (fams : list N)
         (lru0 : N -> lru_state) (rank : qkey -> nat),
    calls_below prog rank -> forall NF : nat, (forall q, (rank q < NF)%nat) ->
    forall fuel sfuel : nat, (forall p, (rank p < fuel)%nat) ->
    (forall (iv : ikey -> val) (idur : ikey -> dur) (ops : list op),
       (forall i, idur i <= 3) -> Forall dur_op ops -> wf_ops false false ops ->
       (~ In ORestore ops \/ persisted_closed prog pfam \/
        (np_closed prog pfam /\ forall p, (S (rank p) < sfuel)%nat)) ->
       known_class_free prog noeq pfam fams lru0 sfuel fuel (pinit iv idur lru0) ops ->
       results_ok_strict prog noeq pfam fams lru0 NF sfuel fuel (pinit iv idur lru0) ops) /\
    ((forall p, (S (rank p) < sfuel)%nat) ->
     forall (iv : ikey -> val) (ops : list op),
       Forall low_op ops -> wf_ops false false ops ->
       known_class_free prog noeq pfam fams lru0 sfuel fuel (pinit iv (fun _ => 0) lru0) ops ->
       results_ok_strict prog noeq pfam fams lru0 NF sfuel fuel (pinit iv (fun _ => 0) lru0) ops).
Print Assumptions C26_results_strict.

(* non-vacuity of C26_results_partial, C26_results_no_restore and C26_results_low: a
   persisted-closed program with a write of durability
   HIGH, a snapshot, a write that the restore undoes, a restore, a write to a leaf of a restored
   memo — the hypotheses hold and the requests return what the theorem says; a history without
   restore over the partial_query program (the snapshot flattens); restore + a later write to a
   FLATTENED leaf of the restored memo over partial_query, and the history with the memo-less
   dependency: both instances of C26_results_low *)
Theorem C26_example_results :
  (calls_below prog_cl rank_cl /\ (forall q, (rank_cl q < FUEL)%nat) /\
   persisted_closed prog_cl Examples.pfam /\
   Forall dur_op ops_cl /\ wf_ops false false ops_cl /\
   known_class_free prog_cl Examples.noeq Examples.pfam [1] lru2 FUEL FUEL (pinit Examples.iv (fun _ => 0) lru2) ops_cl) /\
  (results_ok prog_cl Examples.noeq Examples.pfam [1] lru2 FUEL FUEL FUEL (pinit Examples.iv (fun _ => 0) lru2) ops_cl /\
   snd (run prog_cl [1] lru2 ops_cl)
   = [POk 2; POk 0; POk 6; POk 0; POk 0; POk 14; POk 0; POk 1; POk 6; POk 0; POk 12; POk 0; POk 12]) /\
  (results_ok prog_pq Examples.noeq Examples.pfam [] nolru FUEL FUEL FUEL (pinit Examples.iv (fun _ => 0) nolru) ops_nr /\
   snd (run prog_pq [] nolru ops_nr) = [POk 2; POk 0; POk 0; POk 8; POk 0; POk 0; POk 0; POk 7]) /\
  (let r := run prog_pq [] nolru ops_flat in
   results_ok prog_pq Examples.noeq Examples.pfam [] nolru FUEL FUEL FUEL (pinit Examples.iv (fun _ => 0) nolru) ops_flat /\
   snd r = [POk 2; POk 0; POk 0; POk 2; POk 0; POk 8; POk 7; POk 0; POk 0; POk 0; POk 8; POk 0; POk 8] /\
   Forall low_op ops_flat /\ wf_ops false false ops_flat /\ ~ persisted_closed prog_pq Examples.pfam) /\
  results_ok prog_f4 Examples.noeq Examples.pfam [1] lru2 FUEL FUEL FUEL (pinit Examples.iv (fun _ => 0) lru2) ops_f4.
Proof. exact (conj ex_cl_hyps (conj ex_cl_results (conj ex_nr_results (conj ex_flat_results ex_f4_results)))). Qed.
Check C26_example_results :
  (calls_below prog_cl rank_cl /\ (forall q, (rank_cl q < FUEL)%nat) /\
   persisted_closed prog_cl Examples.pfam /\
   Forall dur_op ops_cl /\ wf_ops false false ops_cl /\
   known_class_free prog_cl Examples.noeq Examples.pfam [1] lru2 FUEL FUEL (pinit Examples.iv (fun _ => 0) lru2) ops_cl) /\
  (results_ok prog_cl Examples.noeq Examples.pfam [1] lru2 FUEL FUEL FUEL (pinit Examples.iv (fun _ => 0) lru2) ops_cl /\
   snd (run prog_cl [1] lru2 ops_cl)
   = [POk 2; POk 0; POk 6; POk 0; POk 0; POk 14; POk 0; POk 1; POk 6; POk 0; POk 12; POk 0; POk 12]) /\
  (results_ok prog_pq Examples.noeq Examples.pfam [] nolru FUEL FUEL FUEL (pinit Examples.iv (fun _ => 0) nolru) ops_nr /\
   snd (run prog_pq [] nolru ops_nr) = [POk 2; POk 0; POk 0; POk 8; POk 0; POk 0; POk 0; POk 7]) /\
  (let r := run prog_pq [] nolru ops_flat in
   results_ok prog_pq Examples.noeq Examples.pfam [] nolru FUEL FUEL FUEL (pinit Examples.iv (fun _ => 0) nolru) ops_flat /\
   snd r = [POk 2; POk 0; POk 0; POk 2; POk 0; POk 8; POk 7; POk 0; POk 0; POk 0; POk 8; POk 0; POk 8] /\
   Forall low_op ops_flat /\ wf_ops false false ops_flat /\ ~ persisted_closed prog_pq Examples.pfam) /\
  results_ok prog_f4 Examples.noeq Examples.pfam [1] lru2 FUEL FUEL FUEL (pinit Examples.iv (fun _ => 0) lru2) ops_f4.
Print Assumptions C26_example_results.

(* non-vacuity of C26_results_np (replayed on the real crate with the same values, events and
   states): a HIGH-durability persisted memo validated by the durability short-cut before the
   snapshot, flattened through a non-persisted function, restored; a synthetic HIGH write leaves
   it valid (validated through its flattened leaf), a HIGH write to the leaf invalidates it, and
   so does a write that makes the leaf LOW again: the theorem applies, and this is what the
   requests return *)
Theorem C26_example_high_durability_flattened :
  let r := run prog_pq [] nolru ops_high in
  results_ok prog_pq Examples.noeq Examples.pfam [] nolru FUEL FUEL FUEL (pinit Examples.iv (fun _ => 0) nolru) ops_high /\
  snd r = [POk 0; POk 5; POk 0; POk 5; POk 0; POk 0; POk 5; POk 0; POk 5; POk 0; POk 8; POk 0; POk 0;
           POk 0; POk 9; POk 8] /\
  wf_ops false false ops_high /\ Forall dur_op ops_high /\
  List.rev (d_log (ps_db (fst r)))
  = [EvExec (0, 0); EvExec (3, 0); EvValidate (0, 0); EvValidate (0, 0); EvExec (0, 0); EvExec (3, 0);
     EvExec (0, 0); EvExec (3, 0)] /\
  option_map (fun m => (m_dur m, m_verified m, m_edges m))
    (d_memo (ps_db (fst (run prog_pq [] nolru (firstn 6 ops_high)))) (0, 0)) = Some (2, 3, [EIn (0, 0)]).
Proof. exact ex_high_results. Qed.
Check C26_example_high_durability_flattened :
  let r := run prog_pq [] nolru ops_high in
  results_ok prog_pq Examples.noeq Examples.pfam [] nolru FUEL FUEL FUEL (pinit Examples.iv (fun _ => 0) nolru) ops_high /\
  snd r = [POk 0; POk 5; POk 0; POk 5; POk 0; POk 0; POk 5; POk 0; POk 5; POk 0; POk 8; POk 0; POk 0;
           POk 0; POk 9; POk 8] /\
  wf_ops false false ops_high /\ Forall dur_op ops_high /\
  List.rev (d_log (ps_db (fst r)))
  = [EvExec (0, 0); EvExec (3, 0); EvValidate (0, 0); EvValidate (0, 0); EvExec (0, 0); EvExec (3, 0);
     EvExec (0, 0); EvExec (3, 0)] /\
  option_map (fun m => (m_dur m, m_verified m, m_edges m))
    (d_memo (ps_db (fst (run prog_pq [] nolru (firstn 6 ops_high)))) (0, 0)) = Some (2, 3, [EIn (0, 0)]).
Print Assumptions C26_example_high_durability_flattened.

(* the positive statement outside the known class without an extra hypothesis.
   PROVED: without restore (C26_results_no_restore); with persisted_closed (C26_results_partial)
   or np_closed (C26_results_np), all durabilities; for EVERY program with LOW durabilities
   (C26_results_low).  NOT proved: a program in which a non-persisted function calls a persisted
   one, with some durability above LOW (see Persist/Statement.v): *)
Check C26_results_full_statement : Prop.
Print C26_results_full_statement.
