(* Props/C22.v — Panics in user code leave the database consistent and unblocked.
   The statements, each followed by the step from the theorem of coq/Core that proves it.
   Single-handle part, Core constructors (bodies with fault-injection
   points [PanicIf]); inputs and writes of every durability (see C01). *)
From Salsa Require Import Base.
From Salsa.Core Require Import Model Spec Inv InvTop DInvTop.

(* For every acyclic program, every history and every setting of the fault switches over
   time (the oracle): each Get either returns the from-scratch value of the current inputs,
   or unwinds with an injected panic -- raised by a fault point in a body, by the user's
   PartialEq during backdating (switch EQ_FAULT) or by the event callback (armed countdown), and
   only while some switch is on / the countdown is armed -- or with the backdate-violation
   assertion.  In particular a Get that panics returns no value, the
   state it leaves is again a good state (the induction goes through it: claims are dropped,
   nothing of the interrupted computation is stored for the interrupted node), and every
   later Get -- in the same revision or a later one -- made while no switch is on returns
   exactly what a fresh database would return. *)
Theorem C22_panic_safe :
  forall (prog : qkey -> body) (noeq : qkey -> bool) (fams : list N)
         (rank : qkey -> nat) (NF : nat),
  calls_below prog rank -> (forall q, (rank q < NF)%nat) ->
  forall fuel, (forall p, (rank p < fuel)%nat) ->
  forall iv idur lru0 ops,
    (forall i, idur i <= 3) -> Forall dur_op ops -> wf_ops false ops ->
    outs_ok prog noeq fams NF fuel (init iv idur lru0) ops.
Proof.
  intros prog noeq fams rank NF Hrank Hbound.
  exact (from_scratch_dur_init prog noeq fams rank Hrank NF Hbound).
Qed.
Check C22_panic_safe :
  forall (prog : qkey -> body) (noeq : qkey -> bool) (fams : list N)
         (rank : qkey -> nat) (NF : nat),
  calls_below prog rank -> (forall q, (rank q < NF)%nat) ->
  forall fuel, (forall p, (rank p < fuel)%nat) ->
  forall iv idur lru0 ops,
    (forall i, idur i <= 3) -> Forall dur_op ops -> wf_ops false ops ->
    outs_ok prog noeq fams NF fuel (init iv idur lru0) ops.
Print Assumptions C22_panic_safe.

(* The sharp form: the only panics that escape a Get are the injected ones (the
   backdate-violation assertion is unreachable, see C01_from_scratch_strict). *)
Theorem C22_panic_safe_strict :
  forall (prog : qkey -> body) (noeq : qkey -> bool) (fams : list N)
         (rank : qkey -> nat) (NF : nat),
  calls_below prog rank -> (forall q, (rank q < NF)%nat) ->
  forall fuel, (forall p, (rank p < fuel)%nat) ->
  forall iv idur lru0 ops,
    (forall i, idur i <= 3) -> Forall dur_op ops -> wf_ops false ops ->
    outs_ok_strict prog noeq fams NF fuel (init iv idur lru0) ops.
Proof.
  intros prog noeq fams rank NF Hrank Hbound.
  exact (from_scratch_dur_strong_init prog noeq fams rank Hrank NF Hbound).
Qed.
Check C22_panic_safe_strict :
  forall (prog : qkey -> body) (noeq : qkey -> bool) (fams : list N)
         (rank : qkey -> nat) (NF : nat),
  calls_below prog rank -> (forall q, (rank q < NF)%nat) ->
  forall fuel, (forall p, (rank p < fuel)%nat) ->
  forall iv idur lru0 ops,
    (forall i, idur i <= 3) -> Forall dur_op ops -> wf_ops false ops ->
    outs_ok_strict prog noeq fams NF fuel (init iv idur lru0) ops.
Print Assumptions C22_panic_safe_strict.

(* the instance for LOW durabilities: every input starts LOW and every field write that names
   a durability names LOW (synthetic writes may still be of any level) *)
Theorem C22_panic_safe_partial :
  forall (prog : qkey -> body) (noeq : qkey -> bool) (fams : list N)
         (rank : qkey -> nat) (NF : nat),
  calls_below prog rank -> (forall q, (rank q < NF)%nat) ->
  forall fuel, (forall p, (rank p < fuel)%nat) ->
  forall iv lru0 ops,
    Forall low_op ops -> wf_ops false ops ->
    outs_ok prog noeq fams NF fuel (init iv (fun _ => 0) lru0) ops.
Proof.
  intros prog noeq fams rank NF Hrank Hbound.
  exact (from_scratch_low_again prog noeq fams rank Hrank NF Hbound).
Qed.
Check C22_panic_safe_partial :
  forall (prog : qkey -> body) (noeq : qkey -> bool) (fams : list N)
         (rank : qkey -> nat) (NF : nat),
  calls_below prog rank -> (forall q, (rank q < NF)%nat) ->
  forall fuel, (forall p, (rank p < fuel)%nat) ->
  forall iv lru0 ops,
    Forall low_op ops -> wf_ops false ops ->
    outs_ok prog noeq fams NF fuel (init iv (fun _ => 0) lru0) ops.
Print Assumptions C22_panic_safe_partial.

(* what [outs_ok] says about one Get, spelled out *)
Theorem C22_get_outcomes : forall prog NF s q r,
  get_ok prog NF s q r ->
  r = Ok (eval prog NF (snap_of s) q) \/
  r = Panic PBackdate \/
  (r = Panic PInjected /\ ((exists c, d_pcell s c <> 0) \/ d_evfault s <> None)).
Proof.
  intros prog NF s q r [H | (p & -> & [-> | [-> Hc]])]; auto.
Qed.
Check C22_get_outcomes : forall prog NF s q r,
  get_ok prog NF s q r ->
  r = Ok (eval prog NF (snap_of s) q) \/
  r = Panic PBackdate \/
  (r = Panic PInjected /\ ((exists c, d_pcell s c <> 0) \/ d_evfault s <> None)).
Print Assumptions C22_get_outcomes.
