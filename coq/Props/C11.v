(* Props/C11.v — Accumulated values equal those of a from-scratch execution.  The statements;
   the proofs are in Acc/ProofsDfs.v (traversal), Acc/ProofsSpec.v (specification),
   Acc/ProofsLoop.v (the loop relative to a view of the memo tables) and Acc/AInv*.v (the
   invariant of the Acc model and the theorem over whole histories); examples in
   Acc/Examples.v and Acc/AInvExamples.v. *)
From Salsa Require Import Base.
From Salsa.Acc Require Import Model Spec ProofsDfs ProofsSpec ProofsLoop Statement Examples.
From Salsa.Acc Require Import AInv AInvTop AInvFull AInvExamples.

(* The stack loop of accumulated_by (pop; skip if visited; collect; push the inputs in
   reverse) computes the recursive pre-order depth-first traversal: for every graph. *)
Theorem C11_loop_is_dfs : forall (succ : qkey -> list edge) (own : qkey -> list val) n stack vis out r,
  ploop succ own n stack vis out = Some r ->
  exists o, dfs succ vis stack o /\ r = out ++ outs own o.
Proof. exact ploop_dfs. Qed.
Check C11_loop_is_dfs : forall (succ : qkey -> list edge) (own : qkey -> list val) n stack vis out r,
  ploop succ own n stack vis out = Some r ->
  exists o, dfs succ vis stack o /\ r = out ++ outs own o.
Print Assumptions C11_loop_is_dfs.

(* ... and reaches it: whenever the recursive traversal exists, the loop terminates with it. *)
Theorem C11_loop_terminates : forall (succ : qkey -> list edge) (own : qkey -> list val) v ks o,
  dfs succ v ks o ->
  forall st out, exists n0, forall n r, ploop succ own n st (o ++ v) (out ++ outs own o) = Some r ->
    ploop succ own (n0 + n) (ks ++ st) v out = Some r.
Proof. exact dfs_ploop. Qed.
Check C11_loop_terminates : forall (succ : qkey -> list edge) (own : qkey -> list val) v ks o,
  dfs succ v ks o ->
  forall st out, exists n0, forall n r, ploop succ own n st (o ++ v) (out ++ outs own o) = Some r ->
    ploop succ own (n0 + n) (ks ++ st) v out = Some r.
Print Assumptions C11_loop_terminates.

(* Each function contributes once, in first-visit order: the traversal visits no node twice,
   only nodes not visited before, every root and every successor of a visited node, and
   nothing that is not reachable from a root; the order is unique. *)
Theorem C11_each_function_once : forall (succ : qkey -> list edge) v ks o, dfs succ v ks o ->
  NoDup o /\ (forall k, In k o -> ~ In k v) /\
  (forall k, In k ks -> In k (o ++ v)) /\
  (forall q c, In (EQ q) o -> In c (succ q) -> In c (o ++ v)) /\
  (forall k, In k o -> exists r, In r ks /\ reach succ r k).
Proof. exact dfs_each_once. Qed.
Check C11_each_function_once : forall (succ : qkey -> list edge) v ks o, dfs succ v ks o ->
  NoDup o /\ (forall k, In k o -> ~ In k v) /\
  (forall k, In k ks -> In k (o ++ v)) /\
  (forall q c, In (EQ q) o -> In c (succ q) -> In c (o ++ v)) /\
  (forall k, In k o -> exists r, In r ks /\ reach succ r k).
Print Assumptions C11_each_function_once.

Theorem C11_order_unique : forall (succ : qkey -> list edge) v ks o, dfs succ v ks o ->
  forall o', dfs succ v ks o' -> o = o'.
Proof. exact dfs_fun. Qed.
Check C11_order_unique : forall (succ : qkey -> list edge) v ks o, dfs succ v ks o ->
  forall o', dfs succ v ks o' -> o = o'.
Print Assumptions C11_order_unique.

(* Repeated calls of one function are irrelevant (the recorded edges keep first occurrences). *)
Theorem C11_repeated_calls_irrelevant : forall (succ : qkey -> list edge) l seen v o,
  (forall k, In k seen -> In k v) -> (dfs succ v l o <-> dfs succ v (dd seen l) o).
Proof. exact dfs_dd. Qed.
Check C11_repeated_calls_irrelevant : forall (succ : qkey -> list edge) l seen v o,
  (forall k, In k seen -> In k v) -> (dfs succ v l o <-> dfs succ v (dd seen l) o).
Print Assumptions C11_repeated_calls_irrelevant.

(* Soundness of skipping: let [dead] be any set of nodes below which nothing is pushed.  Two
   graphs whose successor lists agree up to dead entries (a sub-tree skipped because its flag
   is Empty; a never-changing dependency without accumulated values whose edge was not
   recorded; input-field edges) collect the same values in the same order. *)
Theorem C11_skip_sound : forall (own : qkey -> list val) (dead : edge -> bool),
  (forall q, dead (EQ q) = true -> own q = []) ->
  forall succ1 succ2 : qkey -> list edge,
  (forall q, dead (EQ q) = true -> alldead dead (succ1 q)) ->
  (forall q, dead (EQ q) = true -> alldead dead (succ2 q)) ->
  (forall q, dead (EQ q) = false -> filter (live dead) (succ1 q) = filter (live dead) (succ2 q)) ->
  forall v ks o, dfs succ1 v ks o ->
  forall w ks2 p, eqv dead v w -> filter (live dead) ks = filter (live dead) ks2 -> dfs succ2 w ks2 p ->
    outs own o = outs own p /\ eqv dead (o ++ v) (p ++ w).
Proof. exact dfs_dead. Qed.
Check C11_skip_sound : forall (own : qkey -> list val) (dead : edge -> bool),
  (forall q, dead (EQ q) = true -> own q = []) ->
  forall succ1 succ2 : qkey -> list edge,
  (forall q, dead (EQ q) = true -> alldead dead (succ1 q)) ->
  (forall q, dead (EQ q) = true -> alldead dead (succ2 q)) ->
  (forall q, dead (EQ q) = false -> filter (live dead) (succ1 q) = filter (live dead) (succ2 q)) ->
  forall v ks o, dfs succ1 v ks o ->
  forall w ks2 p, eqv dead v w -> filter (live dead) ks = filter (live dead) ks2 -> dfs succ2 w ks2 p ->
    outs own o = outs own p /\ eqv dead (o ++ v) (p ++ w).
Print Assumptions C11_skip_sound.

(* The specification is well defined for acyclic programs: spec_acc is the value list of the
   (existing, unique) pre-order traversal of the from-scratch call graph. *)
Theorem C11_spec_well_defined : forall prog rank, calls_below prog rank ->
  forall n, (forall q, (rank q < n)%nat) -> forall sn q,
  (exists ord, dfs (sem_succ prog n sn) [] [EQ q] ord /\ spec_acc prog n sn q = outs (sem_own prog n sn) ord) /\
  (forall ord, dfs (sem_succ prog n sn) [] [EQ q] ord -> spec_acc prog n sn q = outs (sem_own prog n sn) ord).
Proof.
  intros prog rank A n B sn q. split; [exact (spec_acc_dfs prog rank A n B sn q) |].
  intros ord. exact (spec_acc_unique prog rank A n B sn q ord).
Qed.
Check C11_spec_well_defined : forall prog rank, calls_below prog rank ->
  forall n, (forall q, (rank q < n)%nat) -> forall sn q,
  (exists ord, dfs (sem_succ prog n sn) [] [EQ q] ord /\ spec_acc prog n sn q = outs (sem_own prog n sn) ord) /\
  (forall ord, dfs (sem_succ prog n sn) [] [EQ q] ord -> spec_acc prog n sn q = outs (sem_own prog n sn) ord).
Print Assumptions C11_spec_well_defined.

(* ------------------------------------------------------------------------------------
   The executable model: `accumulated_by` (fetch, then the loop that calls refresh_memo on
   every node it pops, re-executing evicted memos on the way) returns spec_acc — for every
   acyclic program, build (persist or not), lower level L, state and fuel — PROVIDED the memo
   tables present an [acc_view] during the loop: refresh_memo shows, for every function it may
   touch, the from-scratch pushes, a flag that is Empty only if all recorded edges are dead,
   and recorded edges equal to the from-scratch calls up to dead entries.
   The view is a hypothesis of the next two theorems and stays one: no theorem derives an
   [acc_view] from `fetch` or from the reachable states.  Acc/Examples.v exhibits a concrete
   non-trivial view (ex_view) and both theorems applied.  [C11_accumulated] below has no such
   hypothesis and does not use these two theorems. *)
Theorem C11_loop_partial :
  forall persist prog noeq (L : lower) n sn rank, calls_below prog rank -> (forall q, (rank q < n)%nat) ->
  forall dead gsucc gflag U P, acc_view persist prog noeq L n sn dead gsucc gflag U P ->
  forall afuel q s s' l, P s -> In q U ->
    acc_loop persist prog noeq L afuel [EQ q] [] [] s = (s', Ok l) ->
    l = spec_acc prog n sn q.
Proof.
  intros persist prog noeq L n sn rank A B dead gsucc gflag U P V.
  exact (acc_loop_spec persist prog noeq L n sn rank A B dead gsucc gflag U P V).
Qed.
Check C11_loop_partial :
  forall persist prog noeq (L : lower) n sn rank, calls_below prog rank -> (forall q, (rank q < n)%nat) ->
  forall dead gsucc gflag U P, acc_view persist prog noeq L n sn dead gsucc gflag U P ->
  forall afuel q s s' l, P s -> In q U ->
    acc_loop persist prog noeq L afuel [EQ q] [] [] s = (s', Ok l) ->
    l = spec_acc prog n sn q.
Print Assumptions C11_loop_partial.

Theorem C11_accumulated_partial :
  forall persist prog noeq (L : lower) n sn rank, calls_below prog rank -> (forall q, (rank q < n)%nat) ->
  forall dead gsucc gflag U P, acc_view persist prog noeq L n sn dead gsucc gflag U P ->
  forall afuel q s s' l, In q U ->
    (forall s1 r, fetch persist prog noeq L q s = (s1, Ok r) -> P s1) ->
    accumulated_by persist prog noeq L afuel q s = (s', Ok l) ->
    l = spec_acc prog n sn q.
Proof.
  intros persist prog noeq L n sn rank A B dead gsucc gflag U P V.
  exact (accumulated_by_spec persist prog noeq L n sn rank A B dead gsucc gflag U P V).
Qed.
Check C11_accumulated_partial :
  forall persist prog noeq (L : lower) n sn rank, calls_below prog rank -> (forall q, (rank q < n)%nat) ->
  forall dead gsucc gflag U P, acc_view persist prog noeq L n sn dead gsucc gflag U P ->
  forall afuel q s s' l, In q U ->
    (forall s1 r, fetch persist prog noeq L q s = (s1, Ok r) -> P s1) ->
    accumulated_by persist prog noeq L afuel q s = (s', Ok l) ->
    l = spec_acc prog n sn q.
Print Assumptions C11_accumulated_partial.

(* non-vacuity: a concrete view on a DAG with a shared callee, a repeated call, an unrecorded
   never-changing dependency and a skipped sub-tree; the model run returns the specification *)
Theorem C11_example_view :
  acc_view false Examples.prog Examples.noeq Examples.L Examples.NR Examples.sn
           Examples.dead Examples.gsucc Examples.gflag Examples.U (fun s => s = Examples.s1) /\
  snd (accumulated_by false Examples.prog Examples.noeq Examples.L 100 Examples.q4 Examples.s0)
    = Ok (spec_acc Examples.prog Examples.NR Examples.sn Examples.q4).
Proof. split; [exact ex_view | rewrite ex_spec; exact ex_accumulated_by_runs]. Qed.
Check C11_example_view :
  acc_view false Examples.prog Examples.noeq Examples.L Examples.NR Examples.sn
           Examples.dead Examples.gsucc Examples.gflag Examples.U (fun s => s = Examples.s1) /\
  snd (accumulated_by false Examples.prog Examples.noeq Examples.L 100 Examples.q4 Examples.s0)
    = Ok (spec_acc Examples.prog Examples.NR Examples.sn Examples.q4).
Print Assumptions C11_example_view.

(* [C11_accumulated] without its two bounds on durability numbers; NOT proved (the comment
   above [C11_dur_op_spec] says why the bounds are needed): *)
Check C11_accumulated_full_statement : Prop.
Print C11_accumulated_full_statement.

(* ------------------------------------------------------------------------------------
   THE THEOREM OVER HISTORIES, without a view hypothesis.  It is proved without [acc_view]:
   Acc/AInv*.v state the durability invariant of the Core model (Core/DInv*.v) for Acc/Model.v
   with the accumulator clauses added -- a memo's accumulated values are the from-scratch
   pushes of its query at verified_at; an Empty accumulated_inputs flag
   means nothing is pushed below any function it calls (recomputed by deep_verify_edges, kept by
   the durability short-cut, or-ed in add_read); the recorded edges are the first occurrences of
   the from-scratch reads minus never-changing entries below which nothing is pushed (the
   record_input and discard_edges_if_never_change exceptions).  Acc/AInvFull.v runs the
   accumulated_by loop over a state with that invariant: the graph the loop walks is read off
   the memos verified in the current revision, agrees with the from-scratch call graph up to
   dead entries, and the graph lemma behind [C11_loop_partial] (ProofsLoop.ploop_spec) gives
   spec_acc; the loop terminates within a bound computed from the from-scratch call tree.
   For every acyclic program, BOTH builds (persist or not), every no_eq / LRU configuration,
   initial durabilities and write durabilities among the four levels, and every history of
   writes, synthetic writes, cell changes followed by a new revision, Gets, `accumulated` calls,
   LRU capacity changes and evictions: every `accumulated` call returns spec_acc of the current
   snapshot (or unwinds; never out of fuel for a large enough loop bound). *)
Theorem C11_accumulated :
  forall (persist : bool) (prog : qkey -> body) (noeq : qkey -> bool) (fams : list N)
         (rank : qkey -> nat) (NF : nat),
  calls_below prog rank -> (forall q, (rank q < NF)%nat) ->
  forall fuel, (forall p, (rank p < fuel)%nat) ->
  forall iv idur lru0 ops,
    (forall i, idur i <= 3) -> Forall dur_op ops -> wf_ops false ops ->
    exists afuel0, forall afuel, (afuel0 <= afuel)%nat ->
      acc_outs_ok persist prog noeq fams NF fuel afuel (init iv idur lru0) ops.
Proof.
  intros persist prog noeq fams rank NF Hrank Hbound.
  exact (accumulated_full persist prog noeq fams rank Hrank NF Hbound).
Qed.
Check C11_accumulated :
  forall (persist : bool) (prog : qkey -> body) (noeq : qkey -> bool) (fams : list N)
         (rank : qkey -> nat) (NF : nat),
  calls_below prog rank -> (forall q, (rank q < NF)%nat) ->
  forall fuel, (forall p, (rank p < fuel)%nat) ->
  forall iv idur lru0 ops,
    (forall i, idur i <= 3) -> Forall dur_op ops -> wf_ops false ops ->
    exists afuel0, forall afuel, (afuel0 <= afuel)%nat ->
      acc_outs_ok persist prog noeq fams NF fuel afuel (init iv idur lru0) ops.
Print Assumptions C11_accumulated.

(* the same with the Gets of the history (each returns eval of the current snapshot) and with the
   sharp set of panics: only injected ones, and only while a fault switch is on *)
Theorem C11_read_ok_spec : forall prog NF s o r,
  read_ok prog NF s o r <->
  match o with
  | OGet q => r = Ok (OV (eval prog NF (snap_of s) q)) \/
              exists p, r = Panic p /\ p = PInjected /\ exists c, d_pcell s c <> 0
  | OAccumulated q => r = Ok (OL (spec_acc prog NF (snap_of s) q)) \/
              exists p, r = Panic p /\ p = PInjected /\ exists c, d_pcell s c <> 0
  | _ => True
  end.
Proof. intros prog NF s o r. destruct o; reflexivity. Qed.
Check C11_read_ok_spec : forall prog NF s o r,
  read_ok prog NF s o r <->
  match o with
  | OGet q => r = Ok (OV (eval prog NF (snap_of s) q)) \/
              exists p, r = Panic p /\ p = PInjected /\ exists c, d_pcell s c <> 0
  | OAccumulated q => r = Ok (OL (spec_acc prog NF (snap_of s) q)) \/
              exists p, r = Panic p /\ p = PInjected /\ exists c, d_pcell s c <> 0
  | _ => True
  end.
Print Assumptions C11_read_ok_spec.

Theorem C11_accumulated_and_gets :
  forall (persist : bool) (prog : qkey -> body) (noeq : qkey -> bool) (fams : list N)
         (rank : qkey -> nat) (NF : nat),
  calls_below prog rank -> (forall q, (rank q < NF)%nat) ->
  forall fuel, (forall p, (rank p < fuel)%nat) ->
  forall iv idur lru0 ops,
    (forall i, idur i <= 3) -> Forall dur_op ops -> wf_ops false ops ->
    exists afuel0, forall afuel, (afuel0 <= afuel)%nat ->
      all_ok persist prog noeq fams NF fuel afuel (init iv idur lru0) ops.
Proof.
  intros persist prog noeq fams rank NF Hrank Hbound.
  exact (all_ok_init persist prog noeq fams rank Hrank NF Hbound).
Qed.
Check C11_accumulated_and_gets :
  forall (persist : bool) (prog : qkey -> body) (noeq : qkey -> bool) (fams : list N)
         (rank : qkey -> nat) (NF : nat),
  calls_below prog rank -> (forall q, (rank q < NF)%nat) ->
  forall fuel, (forall p, (rank p < fuel)%nat) ->
  forall iv idur lru0 ops,
    (forall i, idur i <= 3) -> Forall dur_op ops -> wf_ops false ops ->
    exists afuel0, forall afuel, (afuel0 <= afuel)%nat ->
      all_ok persist prog noeq fams NF fuel afuel (init iv idur lru0) ops.
Print Assumptions C11_accumulated_and_gets.

(* [C11_accumulated_full_statement] (above) is this statement WITHOUT the two
   hypotheses that bound the durability numbers to the four levels of the API
   ([forall i, idur i <= 3] and [Forall dur_op ops]).  The model's [dur] is a number; with an
   out-of-range level a field is treated as never-changing by memos but still accepts writes
   (Props/C02.v, C02_durability_needs_levels, shows the stale result on the Core model), so the
   bounds are necessary; C11_accumulated is the full statement with them. *)
Theorem C11_dur_op_spec : forall o,
  dur_op o <-> (forall i v d, o = OSet i v (Some d) -> d <= 3).
Proof.
  intros o. split.
  - intros Hd i v d ->. exact Hd.
  - intros Hx. destruct o as [i v [d|] | d | c v | c v | q | q | fam n |]; cbn; try exact I.
    apply (Hx i v d eq_refl).
Qed.
Check C11_dur_op_spec : forall o,
  dur_op o <-> (forall i v d, o = OSet i v (Some d) -> d <= 3).
Print Assumptions C11_dur_op_spec.

(* non-vacuity (Acc/AInvExamples.v): d = 1 pushes 7 once the input a is >= 5; f = d + 1 pushes 3.
   After a: 4 -> 9 the second `accumulated` executes d again (equal value, backdated) and only
   VALIDATES f, whose accumulated_inputs flag is recomputed (Empty -> Any); the result is the
   from-scratch list [3; 7].  The history satisfies the hypotheses of the theorem (both builds). *)
Theorem C11_example_full :
  (forall persist, exists afuel0, forall afuel, (afuel0 <= afuel)%nat ->
     all_ok persist ax_prog ax_noeq [] 2 2 afuel ax_init ax_ops) /\
  snd (ax_run 6) = [Ok (OL [3]); Ok (OV 0); Ok (OL [3; 7]); Ok (OV 2); Ok (OV 0); Ok (OL [3])] /\
  spec_acc ax_prog 2 (snap_of (fst (ax_run 2))) (0, 0) = [3; 7] /\
  d_log (fst (ax_run 3)) = [EvValidate (0, 0); EvExec (1, 0); EvExec (1, 0); EvExec (0, 0)] /\
  option_map (fun m => (m_verified m, m_acc m, m_accin m)) (d_memo (fst (ax_run 1)) (0, 0)) = Some (1, [3], false) /\
  option_map (fun m => (m_verified m, m_acc m, m_accin m)) (d_memo (fst (ax_run 3)) (0, 0)) = Some (2, [3], true).
Proof.
  split; [exact ax_accumulated|].
  destruct ax_values as (A & _ & B & _). split; [exact A|]. split; [exact B|].
  destruct ax_deep_verified as (_ & C & D0 & E0 & _). split; [exact C|]. split; assumption.
Qed.
Check C11_example_full :
  (forall persist, exists afuel0, forall afuel, (afuel0 <= afuel)%nat ->
     all_ok persist ax_prog ax_noeq [] 2 2 afuel ax_init ax_ops) /\
  snd (ax_run 6) = [Ok (OL [3]); Ok (OV 0); Ok (OL [3; 7]); Ok (OV 2); Ok (OV 0); Ok (OL [3])] /\
  spec_acc ax_prog 2 (snap_of (fst (ax_run 2))) (0, 0) = [3; 7] /\
  d_log (fst (ax_run 3)) = [EvValidate (0, 0); EvExec (1, 0); EvExec (1, 0); EvExec (0, 0)] /\
  option_map (fun m => (m_verified m, m_acc m, m_accin m)) (d_memo (fst (ax_run 1)) (0, 0)) = Some (1, [3], false) /\
  option_map (fun m => (m_verified m, m_acc m, m_accin m)) (d_memo (fst (ax_run 3)) (0, 0)) = Some (2, [3], true).
Print Assumptions C11_example_full.
