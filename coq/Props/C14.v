(* Props/C14.v — Cycles through a function without recovery panic instead of hanging
   (single-thread part; the cross-thread part is served by the Proto layer).
   The statements of C14: first over the Cycle model (proofs in Cycle/ModelProofs.v), then over
   the Core model (proofs in Core/DCycle*.v and Core/DPart*.v; three of the theorems below
   instantiate a Core theorem at fuel bound [length ns]). *)
From Salsa Require Import Base.
From Salsa.Cycle Require Import StampK Model ModelProofs.
From Salsa.Cycle Require Examples.

(* While a key of a function WITHOUT cycle recovery is held by the thread (it was claimed for
   verification or execution and not released), requesting it again — when the memo table cannot
   answer at once — unwinds with the cycle error: never a value, never out-of-fuel, and nothing
   in the state changes except the `anyone_waiting` flag of that lock. *)
Theorem C14_panics : forall (prog : qkey -> body) (strat : N -> strategy) (cinit : qkey -> val)
    (n : nat) (L : clower) (q : qkey) (s : cdb),
  strat (fst q) = SPanic -> held s q ->
  cfetch_hot q s = (s, COk None) ->
  cfetch prog strat cinit n L q s = (mark_waiting s q, CPanic (PB PCycle)).
Proof. exact C14_panics_fetch. Qed.
Check C14_panics : forall (prog : qkey -> body) (strat : N -> strategy) (cinit : qkey -> val)
    (n : nat) (L : clower) (q : qkey) (s : cdb),
  strat (fst q) = SPanic -> held s q ->
  cfetch_hot q s = (s, COk None) ->
  cfetch prog strat cinit n L q s = (mark_waiting s q, CPanic (PB PCycle)).
Print Assumptions C14_panics.

(* the same when the key is reached through validation (maybe_changed_after) of a dependent *)
Theorem C14_panics_validation : forall (prog : qkey -> body) (strat : N -> strategy) (cinit : qkey -> val)
    (n : nat) (L : clower) (q : qkey) (since : rev) (s : cdb),
  strat (fst q) = SPanic -> held s q ->
  cmca_cold prog strat cinit n L q since s = (mark_waiting s q, CPanic (PB PCycle)).
Proof. exact reenter_mca_cold_panics. Qed.
Check C14_panics_validation : forall (prog : qkey -> body) (strat : N -> strategy) (cinit : qkey -> val)
    (n : nat) (L : clower) (q : qkey) (since : rev) (s : cdb),
  strat (fst q) = SPanic -> held s q ->
  cmca_cold prog strat cinit n L q since s = (mark_waiting s q, CPanic (PB PCycle)).
Print Assumptions C14_panics_validation.

(* a first request takes the lock (the entry half of "re-entered while still executing") *)
Theorem C14_claim_holds : forall (q : qkey) (s : cdb),
  c_sync s q = None ->
  exists s', try_claim q true s = (s', COk (Claimed RDefault)) /\ held s' q.
Proof. exact first_claim_holds. Qed.
Check C14_claim_holds : forall (q : qkey) (s : cdb),
  c_sync s q = None ->
  exists s', try_claim q true s = (s', COk (Claimed RDefault)) /\ held s' q.
Print Assumptions C14_claim_holds.

(* NOT PROVED over the Cycle model for all programs (tested by the correspondence engine's
   profile panic-cycles against the from-scratch specification evalo): every Get of a program
   whose from-scratch evaluation re-enters a no-recovery node panics with the cycle error, every
   other Get returns the from-scratch value, whatever happened before.  The statement of the same
   shape over the Core model is proved: [C14_usable_afterwards] at the end of this file. *)
Definition C14_usable_afterwards_full_statement : Prop :=
  forall (prog : qkey -> body) strat cinit nodes fuel iv idur ops q,
    (forall fam, strat fam = SPanic) ->
    let r := cstep prog strat cinit nodes fuel
               (fst (crun_ops prog strat cinit nodes fuel (cinit_db iv idur) ops)) (COGet q) in
    match Salsa.Core.Spec.evalo prog fuel (Salsa.Cycle.Cert.csnap_of (fst r)) q with
    | Some v => snd r = COk v
    | None => snd r = CPanic (PB PCycle)
    end.

(* Non-vacuity: n0 = if in then n1 else 7, n1 = in' | n0: cycle panic from either entry, an
   unrelated function in between is fine, and after the input breaks the cycle both return 7. *)
Example C14_model_run :
  Examples.outs_of Examples.ex14_prog Examples.ex14_iv
    [COGet (4, 0); COGet (0, 0); COGet (4, 1); COSet (0, 0) 0 None; COGet (4, 1); COGet (4, 0)]
  = [CPanic (PB PCycle); COk 2; CPanic (PB PCycle); COk 0; COk 7; COk 7].
Proof. exact Examples.ex14_run. Qed.

(* The single-thread statement over the CORE model (Core/Model.v: no cycle recovery, re-entry
   of a claimed key is `fail PCycle`), for ALL programs of deterministic bodies — no rank, no
   acyclicity hypothesis; cyclicity may depend on the inputs.  What is needed instead: a finite
   list [ns] of keys closed under "may call" that contains the requested keys, and fuel at
   least its length.

   Scope of the next theorems: Gets on a FRESH-REVISION state — a state whose memo table holds only
   values of the current revision (in particular the initial database, and every state reached
   from it by Gets, panicking or not).  Writes followed by Gets (validation of memos of older
   revisions on possibly-cyclic programs) are covered by C14_usable_afterwards at the end of this
   file (Core/DPart*.v); see also Core/DCycleExamples.v (cy_run) for a run.
   Proofs in Core/DCycleSem.v, DCycleInv.v, DCycleTop.v. *)
From Salsa.Core Require DCycleSem DCycleInv DCycleTop DCycleTerm DCycleTermTop DCycleExamples.

(* [evalo prog (length ns) sn q] decides cyclicity: a value found with any fuel is found with
   fuel [length ns] ... *)
Theorem C14_acyclic_depth : forall (prog : qkey -> Salsa.Core.Model.body) (sn : Salsa.Core.Spec.snapshot)
    (ns : list qkey),
  (forall q d, In q ns -> Salsa.Core.Spec.calls (prog q) d -> In d ns) ->
  forall q v, In q ns ->
  (exists n, Salsa.Core.Spec.evalo prog n sn q = Some v) ->
  Salsa.Core.Spec.evalo prog (length ns) sn q = Some v.
Proof. exact Salsa.Core.DCycleSem.evalo_bound. Qed.
Check C14_acyclic_depth : forall (prog : qkey -> Salsa.Core.Model.body) (sn : Salsa.Core.Spec.snapshot)
    (ns : list qkey),
  (forall q d, In q ns -> Salsa.Core.Spec.calls (prog q) d -> In d ns) ->
  forall q v, In q ns ->
  (exists n, Salsa.Core.Spec.evalo prog n sn q = Some v) ->
  Salsa.Core.Spec.evalo prog (length ns) sn q = Some v.
Print Assumptions C14_acyclic_depth.

(* ... and [None] with that fuel is [None] with every fuel: the from-scratch evaluation of q
   re-enters a node however long it is allowed to run. *)
Theorem C14_cyclic_iff : forall (prog : qkey -> Salsa.Core.Model.body) (sn : Salsa.Core.Spec.snapshot)
    (ns : list qkey),
  (forall q d, In q ns -> Salsa.Core.Spec.calls (prog q) d -> In d ns) ->
  forall q, In q ns ->
  (Salsa.Core.Spec.evalo prog (length ns) sn q = None <->
   forall n, Salsa.Core.Spec.evalo prog n sn q = None).
Proof. exact Salsa.Core.DCycleSem.evalo_cyclic_iff. Qed.
Check C14_cyclic_iff : forall (prog : qkey -> Salsa.Core.Model.body) (sn : Salsa.Core.Spec.snapshot)
    (ns : list qkey),
  (forall q d, In q ns -> Salsa.Core.Spec.calls (prog q) d -> In d ns) ->
  forall q, In q ns ->
  (Salsa.Core.Spec.evalo prog (length ns) sn q = None <->
   forall n, Salsa.Core.Spec.evalo prog n sn q = None).
Print Assumptions C14_cyclic_iff.

(* Any sequence of Gets from a fresh-revision state [s] of snapshot [sn]
   ([fresh_state prog sn s]: the environment of s is sn, no fault is armed, no claim is held, and
   every memo is verified in the current revision and holds a from-scratch value of sn):
   each Get of q answers `Ok v` with v the from-scratch value when the from-scratch evaluation
   of q is acyclic, and `Panic PCycle` — never a value, never out of fuel, never another panic —
   when it re-enters a node; and the state after the whole sequence (so after every prefix, and
   after every cycle panic) is again a fresh-revision state of the same snapshot: the database
   remains usable. *)
Theorem C14_fresh_state_gets : forall (prog : qkey -> Salsa.Core.Model.body) (noeq : qkey -> bool)
    (fams : list N) (sn : Salsa.Core.Spec.snapshot) (ns : list qkey),
  (forall q d, In q ns -> Salsa.Core.Spec.calls (prog q) d -> In d ns) ->
  forall fuel : nat, (length ns <= fuel)%nat ->
  forall (qs : list qkey) (s : Salsa.Core.Model.db), incl qs ns ->
  Salsa.Core.DCycleTop.fresh_state prog sn s ->
  let r := Salsa.Core.Model.run_ops prog noeq fams fuel s (map Salsa.Core.Model.OGet qs) in
  Salsa.Core.DCycleTop.fresh_state prog sn (fst r) /\
  Forall2 (fun q o => match Salsa.Core.Spec.evalo prog (length ns) sn q with
                      | Some v => o = Ok v
                      | None => o = Panic PCycle
                      end) qs (snd r).
Proof. exact Salsa.Core.DCycleTop.gets_fresh. Qed.
Check C14_fresh_state_gets : forall (prog : qkey -> Salsa.Core.Model.body) (noeq : qkey -> bool)
    (fams : list N) (sn : Salsa.Core.Spec.snapshot) (ns : list qkey),
  (forall q d, In q ns -> Salsa.Core.Spec.calls (prog q) d -> In d ns) ->
  forall fuel : nat, (length ns <= fuel)%nat ->
  forall (qs : list qkey) (s : Salsa.Core.Model.db), incl qs ns ->
  Salsa.Core.DCycleTop.fresh_state prog sn s ->
  let r := Salsa.Core.Model.run_ops prog noeq fams fuel s (map Salsa.Core.Model.OGet qs) in
  Salsa.Core.DCycleTop.fresh_state prog sn (fst r) /\
  Forall2 (fun q o => match Salsa.Core.Spec.evalo prog (length ns) sn q with
                      | Some v => o = Ok v
                      | None => o = Panic PCycle
                      end) qs (snd r).
Print Assumptions C14_fresh_state_gets.

(* the initial database (any input values, any durabilities, any LRU configuration) is one *)
Theorem C14_init_fresh : forall (prog : qkey -> Salsa.Core.Model.body) iv idur lru0,
  Salsa.Core.DCycleTop.fresh_state prog (Salsa.Core.Spec.snap_of (Salsa.Core.Model.init iv idur lru0))
    (Salsa.Core.Model.init iv idur lru0).
Proof. exact Salsa.Core.DCycleTop.init_fresh. Qed.
Check C14_init_fresh : forall (prog : qkey -> Salsa.Core.Model.body) iv idur lru0,
  Salsa.Core.DCycleTop.fresh_state prog (Salsa.Core.Spec.snap_of (Salsa.Core.Model.init iv idur lru0))
    (Salsa.Core.Model.init iv idur lru0).
Print Assumptions C14_init_fresh.

(* the two together, with nothing but model and specification in the statement *)
Theorem C14_first_revision : forall (prog : qkey -> Salsa.Core.Model.body) (noeq : qkey -> bool)
    (fams : list N) (ns : list qkey) iv idur lru0,
  (forall q d, In q ns -> Salsa.Core.Spec.calls (prog q) d -> In d ns) ->
  forall fuel : nat, (length ns <= fuel)%nat ->
  forall qs : list qkey, incl qs ns ->
  Forall2 (fun q o => match Salsa.Core.Spec.evalo prog (length ns)
                              (Salsa.Core.Spec.snap_of (Salsa.Core.Model.init iv idur lru0)) q with
                      | Some v => o = Ok v
                      | None => o = Panic PCycle
                      end) qs
    (snd (Salsa.Core.Model.run_ops prog noeq fams fuel (Salsa.Core.Model.init iv idur lru0)
            (map Salsa.Core.Model.OGet qs))).
Proof.
  intros prog noeq fams ns iv idur lru0 Hc fuel Hf qs Hq.
  exact (proj2 (Salsa.Core.DCycleTop.gets_fresh prog noeq fams _ ns Hc fuel Hf qs _ Hq
                  (Salsa.Core.DCycleTop.init_fresh prog iv idur lru0))).
Qed.
Check C14_first_revision : forall (prog : qkey -> Salsa.Core.Model.body) (noeq : qkey -> bool)
    (fams : list N) (ns : list qkey) iv idur lru0,
  (forall q d, In q ns -> Salsa.Core.Spec.calls (prog q) d -> In d ns) ->
  forall fuel : nat, (length ns <= fuel)%nat ->
  forall qs : list qkey, incl qs ns ->
  Forall2 (fun q o => match Salsa.Core.Spec.evalo prog (length ns)
                              (Salsa.Core.Spec.snap_of (Salsa.Core.Model.init iv idur lru0)) q with
                      | Some v => o = Ok v
                      | None => o = Panic PCycle
                      end) qs
    (snd (Salsa.Core.Model.run_ops prog noeq fams fuel (Salsa.Core.Model.init iv idur lru0)
            (map Salsa.Core.Model.OGet qs))).
Print Assumptions C14_first_revision.

(* "Panic instead of hanging", over EVERY history: all programs (cyclic or not), all operations
   (writes of any durability, synthetic writes, cell changes, fault injection, LRU capacity,
   eviction, Gets of listed keys), from any idle state — the initial database is one — with fuel
   at least the number of listed keys: no operation ever runs out of fuel (every Get ends with a
   value or a panic), and the state in between holds no claim.  (Nothing about values here.) *)
Theorem C14_never_hangs : forall (prog : qkey -> Salsa.Core.Model.body) (noeq : qkey -> bool)
    (fams : list N) (ns : list qkey),
  (forall q d, In q ns -> Salsa.Core.Spec.calls (prog q) d -> In d ns) ->
  forall fuel : nat, (length ns <= fuel)%nat ->
  forall (ops : list Salsa.Core.Model.op) (s : Salsa.Core.Model.db),
  Forall (fun o => match o with Salsa.Core.Model.OGet q => In q ns | _ => True end) ops ->
  Salsa.Core.DCycleTermTop.idle ns s ->
  let r := Salsa.Core.Model.run_ops prog noeq fams fuel s ops in
  Salsa.Core.DCycleTermTop.idle ns (fst r) /\ Forall (fun o => o <> Fuel) (snd r).
Proof. exact Salsa.Core.DCycleTermTop.never_fuel. Qed.
Check C14_never_hangs : forall (prog : qkey -> Salsa.Core.Model.body) (noeq : qkey -> bool)
    (fams : list N) (ns : list qkey),
  (forall q d, In q ns -> Salsa.Core.Spec.calls (prog q) d -> In d ns) ->
  forall fuel : nat, (length ns <= fuel)%nat ->
  forall (ops : list Salsa.Core.Model.op) (s : Salsa.Core.Model.db),
  Forall (fun o => match o with Salsa.Core.Model.OGet q => In q ns | _ => True end) ops ->
  Salsa.Core.DCycleTermTop.idle ns s ->
  let r := Salsa.Core.Model.run_ops prog noeq fams fuel s ops in
  Salsa.Core.DCycleTermTop.idle ns (fst r) /\ Forall (fun o => o <> Fuel) (snd r).
Print Assumptions C14_never_hangs.

Theorem C14_init_idle : forall (ns : list qkey) iv idur lru0,
  Salsa.Core.DCycleTermTop.idle ns (Salsa.Core.Model.init iv idur lru0).
Proof. exact Salsa.Core.DCycleTermTop.init_idle. Qed.
Check C14_init_idle : forall (ns : list qkey) iv idur lru0,
  Salsa.Core.DCycleTermTop.idle ns (Salsa.Core.Model.init iv idur lru0).
Print Assumptions C14_init_idle.

(* Non-vacuity over the Core model: a = if bit then b else 7, b = a + 1, c = x + 1.  Cycle panic
   from either entry while the bit is set, the unrelated c is served in between; a write clears
   the bit and both return their from-scratch values; setting it again makes them cyclic again. *)
Example C14_core_run :
  snd (Salsa.Core.Model.run_ops Salsa.Core.DCycleExamples.cy_prog Salsa.Core.DCycleExamples.cy_noeq [] 3
         Salsa.Core.DCycleExamples.cy_init Salsa.Core.DCycleExamples.cy_ops)
  = [Panic PCycle; Ok 5; Panic PCycle; Ok 0; Ok 8; Ok 7; Ok 0; Panic PCycle].
Proof. exact Salsa.Core.DCycleExamples.cy_run. Qed.


(* THE FULL STATEMENT over the Core model (proofs in Core/DPartSem.v, DPartInvSem.v,
   DPartOps.v, DPartTop.v): ALL programs of deterministic bodies (cyclic or not, cyclicity may
   depend on the inputs; no rank hypothesis), EVERY well-formed history from the initial
   database — writes of any durability, synthetic writes, cell changes, fault switches, LRU
   capacity changes, eviction, Gets — and every Get q in it.  Needed instead of a rank: a finite
   list [ns] closed under "may call" that contains the requested keys, and fuel >= length ns.
   Well-formed (as in C01/C02, Core/DInvTop.v): installed durabilities are <= 3 ([dur_op]), and a
   change of an untracked cell is followed by a new revision before the next Get ([wf_ops]).

   With s the state reached before the Get and r its outcome:
     - r is an injected fault, and then some fault switch is on in s; or
     - r = Ok v where v is the from-scratch value, when the from-scratch evaluation of q at the
       current snapshot is acyclic ([evalo .. (length ns) ..] = Some v, see C14_cyclic_iff); or
     - r = Panic PCycle when it re-enters a node ([evalo] = None);
   never out of fuel, never the backdate-violation panic, never a value for a cyclic query, never
   a cycle panic for an acyclic one.  In particular: once inputs break the cycle, the formerly
   cyclic functions return correct results, whatever panicked before. *)
From Salsa.Core Require DPartSem DPartInvSem DPartOps DPartTop DPartExamples.

Theorem C14_usable_afterwards : forall (prog : qkey -> Salsa.Core.Model.body) (noeq : qkey -> bool)
    (fams : list N) (ns : list qkey),
  (forall q d, In q ns -> Salsa.Core.Spec.calls (prog q) d -> In d ns) ->
  forall fuel : nat, (length ns <= fuel)%nat ->
  forall iv idur lru0 (pre : list Salsa.Core.Model.op) (q : qkey),
  (forall i, idur i <= 3) ->
  Forall Salsa.Core.DInvTop.dur_op (pre ++ [Salsa.Core.Model.OGet q]) ->
  Forall (fun o => match o with Salsa.Core.Model.OGet q' => In q' ns | _ => True end)
         (pre ++ [Salsa.Core.Model.OGet q]) ->
  Salsa.Core.InvTop.wf_ops false (pre ++ [Salsa.Core.Model.OGet q]) ->
  let s := fst (Salsa.Core.Model.run_ops prog noeq fams fuel (Salsa.Core.Model.init iv idur lru0) pre) in
  let r := snd (Salsa.Core.Model.step prog noeq fams fuel s (Salsa.Core.Model.OGet q)) in
  (r = Panic PInjected /\
   ((exists c, Salsa.Core.Model.d_pcell s c <> 0) \/ Salsa.Core.Model.d_evfault s <> None)) \/
  match Salsa.Core.Spec.evalo prog (length ns) (Salsa.Core.Spec.snap_of s) q with
  | Some v => r = Ok v
  | None => r = Panic PCycle
  end.
Proof.
  intros prog noeq fams ns Hc fuel Hf iv idur lru0 pre q Hid Hdur Hlist Hwf.
  exact (Salsa.Core.DPartTop.usable_afterwards prog noeq fams ns Hc (length ns) (le_n _) fuel Hf
           iv idur lru0 pre q Hid Hdur Hlist Hwf).
Qed.
Check C14_usable_afterwards : forall (prog : qkey -> Salsa.Core.Model.body) (noeq : qkey -> bool)
    (fams : list N) (ns : list qkey),
  (forall q d, In q ns -> Salsa.Core.Spec.calls (prog q) d -> In d ns) ->
  forall fuel : nat, (length ns <= fuel)%nat ->
  forall iv idur lru0 (pre : list Salsa.Core.Model.op) (q : qkey),
  (forall i, idur i <= 3) ->
  Forall Salsa.Core.DInvTop.dur_op (pre ++ [Salsa.Core.Model.OGet q]) ->
  Forall (fun o => match o with Salsa.Core.Model.OGet q' => In q' ns | _ => True end)
         (pre ++ [Salsa.Core.Model.OGet q]) ->
  Salsa.Core.InvTop.wf_ops false (pre ++ [Salsa.Core.Model.OGet q]) ->
  let s := fst (Salsa.Core.Model.run_ops prog noeq fams fuel (Salsa.Core.Model.init iv idur lru0) pre) in
  let r := snd (Salsa.Core.Model.step prog noeq fams fuel s (Salsa.Core.Model.OGet q)) in
  (r = Panic PInjected /\
   ((exists c, Salsa.Core.Model.d_pcell s c <> 0) \/ Salsa.Core.Model.d_evfault s <> None)) \/
  match Salsa.Core.Spec.evalo prog (length ns) (Salsa.Core.Spec.snap_of s) q with
  | Some v => r = Ok v
  | None => r = Panic PCycle
  end.
Print Assumptions C14_usable_afterwards.

(* the same for a whole history at once, from any state satisfying the invariant
   ([state_ok]: some ghost history makes DInv and PM hold, no claim is held) *)
Theorem C14_usable_afterwards_from : forall (prog : qkey -> Salsa.Core.Model.body) (noeq : qkey -> bool)
    (fams : list N) (ns : list qkey),
  (forall q d, In q ns -> Salsa.Core.Spec.calls (prog q) d -> In d ns) ->
  forall fuel : nat, (length ns <= fuel)%nat ->
  forall (ops : list Salsa.Core.Model.op) (dirty : bool) (s : Salsa.Core.Model.db),
  Forall Salsa.Core.DInvTop.dur_op ops -> Forall (Salsa.Core.DPartTop.op_listed ns) ops ->
  Salsa.Core.InvTop.wf_ops dirty ops ->
  Salsa.Core.DPartTop.state_ok prog ns (length ns) dirty s ->
  Salsa.Core.DPartTop.outs_part prog noeq fams (length ns) fuel s ops.
Proof.
  intros prog noeq fams ns Hc fuel Hf.
  exact (Salsa.Core.DPartTop.from_scratch_part prog noeq fams ns Hc (length ns) (le_n _) fuel Hf).
Qed.
Check C14_usable_afterwards_from : forall (prog : qkey -> Salsa.Core.Model.body) (noeq : qkey -> bool)
    (fams : list N) (ns : list qkey),
  (forall q d, In q ns -> Salsa.Core.Spec.calls (prog q) d -> In d ns) ->
  forall fuel : nat, (length ns <= fuel)%nat ->
  forall (ops : list Salsa.Core.Model.op) (dirty : bool) (s : Salsa.Core.Model.db),
  Forall Salsa.Core.DInvTop.dur_op ops -> Forall (Salsa.Core.DPartTop.op_listed ns) ops ->
  Salsa.Core.InvTop.wf_ops dirty ops ->
  Salsa.Core.DPartTop.state_ok prog ns (length ns) dirty s ->
  Salsa.Core.DPartTop.outs_part prog noeq fams (length ns) fuel s ops.
Print Assumptions C14_usable_afterwards_from.

(* Sanity: for acyclic programs (a rank exists) the theorem of Core/DInvTop.v
   ([from_scratch_dur_strong_init], C01/C02) comes out as a corollary, for the listed keys. *)
Theorem C14_acyclic_corollary : forall (prog : qkey -> Salsa.Core.Model.body) (noeq : qkey -> bool)
    (fams : list N) (ns : list qkey),
  (forall q d, In q ns -> Salsa.Core.Spec.calls (prog q) d -> In d ns) ->
  forall NF : nat, (length ns <= NF)%nat ->
  forall rank : qkey -> nat, Salsa.Core.Spec.calls_below prog rank -> (forall q, (rank q < NF)%nat) ->
  forall fuel : nat, (length ns <= fuel)%nat ->
  forall iv idur lru0 ops, (forall i, idur i <= 3) ->
  Forall Salsa.Core.DInvTop.dur_op ops -> Forall (Salsa.Core.DPartTop.op_listed ns) ops ->
  Salsa.Core.InvTop.wf_ops false ops ->
  Salsa.Core.DInvTop.outs_ok_strict prog noeq fams NF fuel (Salsa.Core.Model.init iv idur lru0) ops.
Proof. exact Salsa.Core.DPartTop.from_scratch_dur_strong_init_again. Qed.
Check C14_acyclic_corollary : forall (prog : qkey -> Salsa.Core.Model.body) (noeq : qkey -> bool)
    (fams : list N) (ns : list qkey),
  (forall q d, In q ns -> Salsa.Core.Spec.calls (prog q) d -> In d ns) ->
  forall NF : nat, (length ns <= NF)%nat ->
  forall rank : qkey -> nat, Salsa.Core.Spec.calls_below prog rank -> (forall q, (rank q < NF)%nat) ->
  forall fuel : nat, (length ns <= fuel)%nat ->
  forall iv idur lru0 ops, (forall i, idur i <= 3) ->
  Forall Salsa.Core.DInvTop.dur_op ops -> Forall (Salsa.Core.DPartTop.op_listed ns) ops ->
  Salsa.Core.InvTop.wf_ops false ops ->
  Salsa.Core.DInvTop.outs_ok_strict prog noeq fams NF fuel (Salsa.Core.Model.init iv idur lru0) ops.
Print Assumptions C14_acyclic_corollary.

(* Non-vacuity: the history of C14_core_run (cycle panics, a write that clears the bit, Gets of
   the formerly cyclic nodes, a write that sets it again) satisfies the hypotheses, for every
   fuel >= 3 *)
Example C14_core_history_by_theorem : forall fuel, (3 <= fuel)%nat ->
  Salsa.Core.DPartTop.outs_part Salsa.Core.DCycleExamples.cy_prog Salsa.Core.DCycleExamples.cy_noeq [] 3 fuel
    Salsa.Core.DCycleExamples.cy_init Salsa.Core.DCycleExamples.cy_ops.
Proof. exact Salsa.Core.DPartExamples.cy_part. Qed.
