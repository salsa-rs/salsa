(* Props/C06.v — tracked struct identities survive re-execution; dropped structs are discarded.
   The statements of property C06; each proof applies a theorem of coq/Structs/.
   C06_distinct, C06_stable, C06_discard and the two C06_nonvacuous Examples are about the event
   machine (Structs/Machine.v; proofs in Structs/Theorems.v, Structs/Examples.v): every history
   of executions that begin, create structs, specify, complete, in any interleaving, for every
   identity-hash function [idhash] (collisions included) and every family layout.
   C06_stable_collision_witness and everything from C06_model_invariant on are about the
   executable model (Structs/Model.v, run_ops): C06_model_invariant through the monitored run
   (Structs/Guard.v, Structs/Sim.v); C06_from_scratch_partial, _writes_partial,
   _canonical_partial and C06_model_is_spec_partial through Structs/SAdeq.v, S1b.v, SCanon.v,
   for programs without struct-keyed family and without specify, from LOW durabilities.
   Executions that unwind (panic) are outside (checks/notes/C06.txt). *)
From Salsa Require Import Base.
From Salsa.Structs Require Import Model Dsl Spec Machine ProofsStep Theorems Examples Guard Sim SimExamples
     SSem SInv SRun STop STop2 SAdeq SDsl SParam SParamK SSpec S1Examples S1b SCanon.

(* C06_distinct: at any time the ids held by running executions and stored memos are the
   current ids of live slots; ids held by different holders have different slot indices, hence
   differ as (index, generation); one holder never lists a slot twice. *)
Theorem C06_distinct :
  forall (skind : N -> bool) (sfams : list N) (idhash : val -> N) (n : nat),
  (forall fam, In fam sfams -> skind fam = true) ->
  forall iv idur es s F,
  mrun skind sfams idhash n (init iv idur, []) es = Some (s, F) ->
  (forall o h, owns skind s F o h -> live s h) /\
  (forall o1 o2 h1 h2, owns skind s F o1 h1 -> owns skind s F o2 h2 -> o1 <> o2 ->
     fst h1 <> fst h2 /\ h1 <> h2) /\
  (forall o ids, owner_ids skind s F o ids -> NoDup (map fst ids) /\ NoDup ids).
Proof. intros skind sfams idhash n H. exact (distinct_ids skind sfams idhash n H). Qed.
Check C06_distinct :
  forall (skind : N -> bool) (sfams : list N) (idhash : val -> N) (n : nat),
  (forall fam, In fam sfams -> skind fam = true) ->
  forall iv idur es s F,
  mrun skind sfams idhash n (init iv idur, []) es = Some (s, F) ->
  (forall o h, owns skind s F o h -> live s h) /\
  (forall o1 o2 h1 h2, owns skind s F o1 h1 -> owns skind s F o2 h2 -> o1 <> o2 ->
     fst h1 <> fst h2 /\ h1 <> h2) /\
  (forall o ids, owner_ids skind s F o ids -> NoDup (map fst ids) /\ NoDup ids).
Print Assumptions C06_distinct.

(* C06_stable: in any state satisfying the invariant (every reachable state does: C07_invariant),
   a creation whose identity (identity hash, disambiguator = number of earlier creations with
   that hash in this execution) is in the identity map seeded from the previous execution, and
   whose slot holds the same identity VALUE, returns the very same id, emits no event, keeps the
   slot's generation and its memo table (so memos keyed by the struct survive), and marks the
   entry active (so it is not discarded at completion).  The generation bound excludes the
   2^32-th reuse of one slot.  Scope: "same per-identity order" is per identity-HASH class; for
   a hash that is injective on the values used this is the property text, under forced hash
   collisions of different values it is not (C06_stable_collision_witness). *)
Theorem C06_stable :
  forall (skind : N -> bool) (sfams : list N) (idhash : val -> N) (n : nat),
  forall s F q fr idv f0 f1 l1 e l2 sl s' h fr',
  OInv skind s F -> In (q, fr) F ->
  fr_ids fr = l1 ++ e :: l2 ->
  key_eqb (te_ident e) (idhash idv, cnt_get (fr_disamb fr) (idhash idv)) = true ->
  (forall x, In x l1 -> key_eqb (te_ident x) (idhash idv, cnt_get (fr_disamb fr) (idhash idv)) = false) ->
  d_slots s (fst (te_id e)) = Some sl -> sl_idv sl = idv -> snd (te_id e) + 1 < 4294967296 ->
  new_struct skind sfams idhash n q idv f0 f1 fr s = (s', SOk (h, fr')) ->
  h = te_id e /\ d_log s' = d_log s /\
  exists sl', d_slots s' (fst h) = Some sl' /\ sl_gen sl' = sl_gen sl /\ sl_gen sl' = snd h /\
              sl_updated sl' = Some (cur s) /\ (forall fam, sl_memos sl' fam = sl_memos sl fam) /\
              is_active (fr_ids fr') h = true.
Proof. exact stable_recreation. Qed.
Check C06_stable :
  forall (skind : N -> bool) (sfams : list N) (idhash : val -> N) (n : nat),
  forall s F q fr idv f0 f1 l1 e l2 sl s' h fr',
  OInv skind s F -> In (q, fr) F ->
  fr_ids fr = l1 ++ e :: l2 ->
  key_eqb (te_ident e) (idhash idv, cnt_get (fr_disamb fr) (idhash idv)) = true ->
  (forall x, In x l1 -> key_eqb (te_ident x) (idhash idv, cnt_get (fr_disamb fr) (idhash idv)) = false) ->
  d_slots s (fst (te_id e)) = Some sl -> sl_idv sl = idv -> snd (te_id e) + 1 < 4294967296 ->
  new_struct skind sfams idhash n q idv f0 f1 fr s = (s', SOk (h, fr')) ->
  h = te_id e /\ d_log s' = d_log s /\
  exists sl', d_slots s' (fst h) = Some sl' /\ sl_gen sl' = sl_gen sl /\ sl_gen sl' = snd h /\
              sl_updated sl' = Some (cur s) /\ (forall fam, sl_memos sl' fam = sl_memos sl fam) /\
              is_active (fr_ids fr') h = true.
Print Assumptions C06_stable.

(* C06_discard: when an execution completes, (a) its stored memo lists exactly the entries it
   created or recreated (the active ones), the memo is stored, every listed id is live;
   (b) every seeded entry it did not recreate is deleted (when the previous memo was computed,
   not assigned): write lock None, memo table empty, id on the free list, not enumerated. *)
Theorem C06_discard :
  forall (skind : N -> bool) (sfams : list N) (n : nat),
  (forall fam, In fam sfams -> skind fam = true) ->
  forall s F q fr v s' m,
  OInv skind s F -> In (q, fr) F ->
  finish_exec skind sfams n q (peek_memo skind s (loc_of q)) v fr s = (s', SOk m) ->
  (mids m = map te_id (filter te_active (fr_ids fr)) /\
   peek_memo skind s' (loc_of q) = Some m /\
   (forall h, In h (mids m) -> live s' h)) /\
  (forall o e, peek_memo skind s (loc_of q) = Some o -> (forall by_, m_origin o <> OAssigned by_) ->
     In e (fr_ids fr) -> te_active e = false ->
     exists sl, d_slots s' (fst (te_id e)) = Some sl /\ sl_updated sl = None /\
                (forall fam, sl_memos sl fam = None) /\ In (te_id e) (d_free s') /\
                ~ In (fst (te_id e)) (live_slots s' (N.to_nat (d_nslots s')))).
Proof.
  intros skind sfams n Hsk s F q fr v s' m I Hq H. split.
  - exact (kept_exactly skind sfams n Hsk s F q fr v s' m I Hq H).
  - intros o e Ho Hor He Ha. exact (discard_stale skind sfams n s F q fr v s' m o e I Hq Ho Hor H He Ha).
Qed.
Check C06_discard :
  forall (skind : N -> bool) (sfams : list N) (n : nat),
  (forall fam, In fam sfams -> skind fam = true) ->
  forall s F q fr v s' m,
  OInv skind s F -> In (q, fr) F ->
  finish_exec skind sfams n q (peek_memo skind s (loc_of q)) v fr s = (s', SOk m) ->
  (mids m = map te_id (filter te_active (fr_ids fr)) /\
   peek_memo skind s' (loc_of q) = Some m /\
   (forall h, In h (mids m) -> live s' h)) /\
  (forall o e, peek_memo skind s (loc_of q) = Some o -> (forall by_, m_origin o <> OAssigned by_) ->
     In e (fr_ids fr) -> te_active e = false ->
     exists sl, d_slots s' (fst (te_id e)) = Some sl /\ sl_updated sl = None /\
                (forall fam, sl_memos sl fam = None) /\ In (te_id e) (d_free s') /\
                ~ In (fst (te_id e)) (live_slots s' (N.to_nat (d_nslots s')))).
Print Assumptions C06_discard.

(* Witness for the scope of C06_stable (replayed on the implementation by checks/C06.py):
   creations [0; 2] then [2; 0] keep the per-identity-value order; with an injective hash the
   ids are kept, with hash = value mod 2 both structs receive a new generation. *)
Theorem C06_stable_collision_witness :
  nth_error (snd (run_case coll2_nodes coll2_ival coll2_idur coll2_ops coll2_nk coll2_idhash)) 0
    = Some (SOk (0, [(0, 0); (1, 0)])) /\
  nth_error (snd (run_case coll2_nodes coll2_ival coll2_idur coll2_ops coll2_nk coll2_idhash)) 2
    = Some (SOk (0, [(0, 1); (1, 1)])) /\
  nth_error (snd (run_case coll0_nodes coll0_ival coll0_idur coll0_ops coll0_nk coll0_idhash)) 2
    = Some (SOk (0, [(1, 0); (0, 0)])).
Proof. exact collision_changes_ids. Qed.
Print Assumptions C06_stable_collision_witness.

(* Non-vacuity: a history with two creators, a recreation in place, an identity change under a
   hash collision (generation bump), a discarded struct and the reuse of its slot with the next
   generation reaches a state satisfying the invariant; a cascade through a memo keyed by a
   discarded struct. *)
Example C06_nonvacuous_history :
  exists s F, mrun skind5 sfams5 hmod2 10%nat (init (fun _ => 0) (fun _ => 0), []) hist1 = Some (s, F) /\
              OInv skind5 s F.
Proof. exact hist1_invariant. Qed.
Example C06_nonvacuous_cascade :
  match mrun skind5 sfams5 hmod2 10%nat (init (fun _ => 0) (fun _ => 0), []) hist2 with
  | Some (s, F) =>
      d_free s = [(1, 0); (0, 0)] /\ live_slots s 2 = [] /\
      List.rev (d_log s) = [EvWillDiscard qa (0, 0); EvDiscardS (0, 0); EvDiscardM (2, (0, 0)); EvDiscardS (1, 0)]
  | None => False
  end.
Proof. exact hist2_cascade. Qed.

(* C06_model_invariant: the EXECUTABLE model (Structs/Model.v: run_ops = the API over fetch /
   execute / run_body), not only the event machine.  For every program whose `specify` nodes name
   struct-keyed families (bwf; the Rust type system), every identity hash, every history that is
   handle-safe and does not unwind — the monitored run (Structs/Guard.v: every fetch /
   maybe_changed_after on a struct key checks that the key is the current id of a live slot;
   input keys have generation 0) answers every Get — after EVERY operation (every prefix os1):
   the run of the real model equals the monitored run, and the ids held by stored memos are
   current ids of live slots, different holders hold different slots, no holder lists a slot
   twice.  (Between operations no execution is running: F = [].) *)
Theorem C06_model_invariant :
  forall (prog : qk -> body) (skind : N -> bool) (sfams : list N) (idhash : val -> N),
  (forall fam, In fam sfams -> skind fam = true) ->
  (forall q, bwf skind (prog q)) ->
  forall fuel iv idur os,
  handle_safe prog skind sfams idhash fuel (init iv idur) os = true ->
  forall os1 os2, os = os1 ++ os2 ->
  let s := fst (run_ops prog skind sfams idhash fuel (init iv idur) os1) in
  (forall o h, owns skind s [] o h -> live s h) /\
  (forall o1 o2 h1 h2, owns skind s [] o1 h1 -> owns skind s [] o2 h2 -> o1 <> o2 ->
     fst h1 <> fst h2 /\ h1 <> h2) /\
  (forall o ids, owner_ids skind s [] o ids -> NoDup (map fst ids) /\ NoDup ids).
Proof. exact model_distinct_every_op. Qed.
Check C06_model_invariant :
  forall (prog : qk -> body) (skind : N -> bool) (sfams : list N) (idhash : val -> N),
  (forall fam, In fam sfams -> skind fam = true) ->
  (forall q, bwf skind (prog q)) ->
  forall fuel iv idur os,
  handle_safe prog skind sfams idhash fuel (init iv idur) os = true ->
  forall os1 os2, os = os1 ++ os2 ->
  let s := fst (run_ops prog skind sfams idhash fuel (init iv idur) os1) in
  (forall o h, owns skind s [] o h -> live s h) /\
  (forall o1 o2 h1 h2, owns skind s [] o1 h1 -> owns skind s [] o2 h2 -> o1 <> o2 ->
     fst h1 <> fst h2 /\ h1 <> h2) /\
  (forall o ids, owner_ids skind s [] o ids -> NoDup (map fst ids) /\ NoDup ids).
Print Assumptions C06_model_invariant.

(* Non-vacuity: a DSL program (well-formed) and a handle-safe history with conditional creation,
   deletion cascading into a memo keyed by the struct, re-creation in the reused slot (0,1) and a
   dependent that re-executes. *)
Example C06_model_nonvacuous :
  (forall q, bwf skind5 (prog_of rc_nk skind5 rc_nodes q)) /\
  handle_safe (prog_of rc_nk skind5 rc_nodes) skind5 sfams5 rc_idhash 40%nat
              (init (lookup3 rc_ival) (lookup3 rc_idur)) rc_ops = true /\
  snd (run_case rc_nodes rc_ival rc_idur rc_ops rc_nk rc_idhash) =
  [SOk (7, []); SOk (1, []); SOk (0, []); SOk (99, []); SOk (0, []);
   SOk (0, []); SOk (0, []); SOk (11, []); SOk (0, [(0, 1)]); SOk (1, [])].
Proof. exact (conj rc_bwf (conj rc_handle_safe rc_outputs)). Qed.


(* C06_from_scratch_partial: the EXECUTABLE model answers every Get of every history with the
   from-scratch value (under the hypotheses listed below).
   From-scratch value (Structs/SSem.v): a `world` gives the inputs, the cells, a struct store by
   handle and an allocator (creating query, identity) -> handle; `Ew w q` evaluates the body of q
   in w with no memo at all, callees evaluated recursively, a creation answering the allocator's
   handle, a tracked-field read answering the store.  A world is consistent for q (`wcons`) when
   every struct created in the call closure of q holds, in the store, the fields its creator
   gives it.  `gets_scratch` (Structs/SAdeq.v) says, for every `OGet q` of the history, with s'
   the state after it: the answer is `SOk v`; v = Ew w q for EVERY world w consistent for q that
   has the inputs and cells of s' and the allocator of s' (the handles listed by the memos of
   s'); the world read off s' is such a world (so the statement is not vacuous and v is unique:
   SAdeq.scratch_unique); every handle in v is the current id of a live slot.
   Covered: conditional creation, in-place update of both tracked fields with per-field revisions
   and backdating, deletion of structs not re-created, slot reuse with generation bump, dependents
   reading fields / identity fields through handles returned by other queries, early cutoff
   through backdated memos, untracked reads, `entries`.
   Hypotheses: no struct-keyed query family (skind = false: no memo lives in a slot,
   call keys have generation 0), no `specify`, acyclic calls (rank), bodies use only handles they
   created or were returned (no_forge), a called body starts with a read, all input durabilities
   LOW (ops: OSet with durability None or LOW, OGet, OEntries), no Get of the history unwinds
   (okout), fewer than 2^31 operations (generations stay below 2^32 - 1).
   NOT proved (C06_from_scratch_full_statement below): struct-keyed functions and their cascades
   (hypothesis skind f = false), durabilities above LOW (initial durabilities fun _ => 0, s1_op).
   OSetCell / OSynth: C06_from_scratch_writes_partial; independence of the value from
   the allocator's naming of handles: C06_from_scratch_canonical_partial; equality with the
   operational specification Structs/Spec.v: C06_model_is_spec_partial (all below). *)
Theorem C06_from_scratch_partial :
  forall (prog : qk -> body) (skind : N -> bool) (idhash : val -> N) (rank : qk -> nat) (NF : nat),
  calls_below prog rank -> (forall q, (rank q < NF)%nat) ->
  no_forge idhash prog -> (forall q, nospec (prog q)) -> (forall f, skind f = false) ->
  (forall q d, calls (prog q) d -> gk d) -> (forall q d, calls (prog q) d -> first_read (prog d)) ->
  forall fuel iv os,
  Forall (s1_op prog) os -> 1 + 2 * N.of_nat (length os) < GMAX ->
  Forall2 okout os (snd (run_ops prog skind [] idhash fuel (init iv (fun _ => 0)) os)) ->
  gets_scratch prog skind idhash NF fuel (init iv (fun _ => 0)) os.
Proof. exact from_scratch_S1_init. Qed.
Check C06_from_scratch_partial :
  forall (prog : qk -> body) (skind : N -> bool) (idhash : val -> N) (rank : qk -> nat) (NF : nat),
  calls_below prog rank -> (forall q, (rank q < NF)%nat) ->
  no_forge idhash prog -> (forall q, nospec (prog q)) -> (forall f, skind f = false) ->
  (forall q d, calls (prog q) d -> gk d) -> (forall q d, calls (prog q) d -> first_read (prog d)) ->
  forall fuel iv os,
  Forall (s1_op prog) os -> 1 + 2 * N.of_nat (length os) < GMAX ->
  Forall2 okout os (snd (run_ops prog skind [] idhash fuel (init iv (fun _ => 0)) os)) ->
  gets_scratch prog skind idhash NF fuel (init iv (fun _ => 0)) os.
Print Assumptions C06_from_scratch_partial.

(* C06_from_scratch_full_statement: `gets_scratch` for any struct kinds (struct-keyed families,
   whose bodies may use their own key: `prov` seeded with the key), any input durabilities,
   every handle-safe history.  NOT proved.  `nospec` stays: with specify the from-scratch
   statement is false (Props/C10.v C10_specify_refuted). *)
Definition C06_from_scratch_full_statement : Prop :=
  forall (prog : qk -> body) (skind : N -> bool) (idhash : val -> N) (rank : qk -> nat) (NF : nat),
  calls_below prog rank -> (forall q, (rank q < NF)%nat) ->
  (forall e q, prov idhash e (prog q) [] (if skind (fst q) then [snd q] else [])) ->
  (forall q, nospec (prog q)) ->
  forall fuel iv idur os,
  handle_safe prog skind [] idhash fuel (init iv idur) os = true ->
  1 + 2 * N.of_nat (length os) < GMAX ->
  gets_scratch prog skind idhash NF fuel (init iv idur) os.

(* Non-vacuity: mk = if in0 then new(id in1; f0 := in2, f1 := 0), rd = f0 + f1 of the struct mk
   returns (99 if none).  History: rd = 3 with the struct (0,0); in0 := 0: struct deleted, rd
   re-executes to 99; in2 := 5, in0 := 1: struct re-created in the reused slot as (0,1), rd
   re-executes to 5; mk returns [(0,1)]; one struct. All hypotheses hold. *)
Example C06_from_scratch_nonvacuous :
  (calls_below (prog_of r1_nk skind0 r1_nodes) (fun q => r1_frank (fst q)) /\
   (forall q : qk, (r1_frank (fst q) < r1_NF)%nat) /\
   no_forge r1_idhash (prog_of r1_nk skind0 r1_nodes) /\
   (forall q, nospec (prog_of r1_nk skind0 r1_nodes q)) /\ (forall f, skind0 f = false) /\
   (forall q d, calls (prog_of r1_nk skind0 r1_nodes q) d -> gk d) /\
   (forall q d, calls (prog_of r1_nk skind0 r1_nodes q) d -> first_read (prog_of r1_nk skind0 r1_nodes d)) /\
   Forall (s1_op (prog_of r1_nk skind0 r1_nodes)) r1_ops /\ 1 + 2 * N.of_nat (length r1_ops) < GMAX /\
   Forall2 okout r1_ops (snd (run_ops (prog_of r1_nk skind0 r1_nodes) skind0 [] r1_idhash 40%nat
                                      (init (lookup3 r1_ival) (fun _ => 0)) r1_ops))) /\
  snd (run_ops (prog_of r1_nk skind0 r1_nodes) skind0 [] r1_idhash 40%nat (init (lookup3 r1_ival) (fun _ => 0)) r1_ops) =
  [SOk (3, []); SOk (1, []); SOk (0, []); SOk (99, []); SOk (0, []);
   SOk (0, []); SOk (0, []); SOk (5, []); SOk (0, [(0, 1)]); SOk (1, [])].
Proof. exact (conj r1_hyps r1_outputs). Qed.

(* C06_from_scratch_writes_partial: C06_from_scratch_partial for the larger history
   class `s1b_ops` (Structs/STop2.v): OSet (durability None / LOW), OSynth with ANY durability
   (a synthetic write; with durability NEVER it panics after starting a revision, which is
   covered), OSetCell, OGet, OEntries.  A cell is read untracked and a cell write starts no
   revision, so OSetCell is allowed only while nothing has been verified in the current revision
   (the flag of s1b_ops: at the start, and after OSet / OSynth / OSetCell until the next OGet);
   outside this class the from-scratch statement is false (C06_cell_write_after_get_is_stale).
   Same conclusion `gets_scratch` and same hypotheses on the program as
   C06_from_scratch_partial.

   NOT proved, here or by any later theorem of this file (C06_from_scratch_canonical_partial and
   C06_model_is_spec_partial carry the same hypotheses):
   - struct-keyed families: `forall f, skind f = false`, `gk d` for every callee, and s1b_ops
     excludes OGetS.  So memos stored in a slot's memo table, and the cascade that deletes the
     memos keyed by a discarded struct, are not covered; one instance: Props/C07.v
     C07_keyed_instances.  The invariant of Structs/SInv.v depends on it: its clauses
     `sext.x_memo` (no memo disappears within a revision) and `sext.x_locked` (a slot
     read-locked in this revision is unchanged) are false with keyed families (a cascade
     deletes memos; storing a keyed memo changes its slot).
   - `specify`: `nospec`; with specify the statement is false (Props/C10.v C10_specify_refuted).
   - inputs of durability above LOW: initial durabilities `fun _ => 0`, and s1b_ops restricts
     OSet to durability None / LOW.  Every memo then has durability LOW (SInv.mo_low, si_low),
     and "the closure of a memo verified in this revision is verified in this revision"
     (SInv.settled_clos) holds; with the stable-window verification of higher durabilities
     (`last_changed (m_dur m) <= m_verified m`) it does not.
   - a Get on, or a call to, a body whose first instruction is not an input read, a call, a
     cell read or a touch (`first_read`); cyclic calls (`calls_below`); bodies using handles
     they neither created nor were returned (`no_forge`); histories in which a Get unwinds
     (`Forall2 okout`); histories of 2^31 operations or more (the GMAX bound: generation
     wrap-around). *)
Theorem C06_from_scratch_writes_partial :
  forall (prog : qk -> body) (skind : N -> bool) (idhash : val -> N) (rank : qk -> nat) (NF : nat),
  calls_below prog rank -> (forall q, (rank q < NF)%nat) ->
  no_forge idhash prog -> (forall q, nospec (prog q)) -> (forall f, skind f = false) ->
  (forall q d, calls (prog q) d -> gk d) -> (forall q d, calls (prog q) d -> first_read (prog d)) ->
  forall fuel iv os,
  s1b_ops prog true os -> 1 + 2 * N.of_nat (length os) < GMAX ->
  Forall2 okout os (snd (run_ops prog skind [] idhash fuel (init iv (fun _ => 0)) os)) ->
  gets_scratch prog skind idhash NF fuel (init iv (fun _ => 0)) os.
Proof. exact from_scratch_S1b_init. Qed.
Check C06_from_scratch_writes_partial :
  forall (prog : qk -> body) (skind : N -> bool) (idhash : val -> N) (rank : qk -> nat) (NF : nat),
  calls_below prog rank -> (forall q, (rank q < NF)%nat) ->
  no_forge idhash prog -> (forall q, nospec (prog q)) -> (forall f, skind f = false) ->
  (forall q d, calls (prog q) d -> gk d) -> (forall q d, calls (prog q) d -> first_read (prog d)) ->
  forall fuel iv os,
  s1b_ops prog true os -> 1 + 2 * N.of_nat (length os) < GMAX ->
  Forall2 okout os (snd (run_ops prog skind [] idhash fuel (init iv (fun _ => 0)) os)) ->
  gets_scratch prog skind idhash NF fuel (init iv (fun _ => 0)) os.
Print Assumptions C06_from_scratch_writes_partial.

(* Non-vacuity: cr = cell 0 + rd.  cell := 10, cr = 13; synthetic write (durability HIGH),
   cell := 20, cr = 23; in0 := 0, cr = 20 + 99.  All hypotheses hold. *)
Example C06_from_scratch_writes_nonvacuous :
  (calls_below (prog_of r1_nk skind0 r2_nodes) (fun q => r2_frank (fst q)) /\
   (forall q : qk, (r2_frank (fst q) < r2_NF)%nat) /\
   no_forge r1_idhash (prog_of r1_nk skind0 r2_nodes) /\
   (forall q, nospec (prog_of r1_nk skind0 r2_nodes q)) /\ (forall f, skind0 f = false) /\
   (forall q d, calls (prog_of r1_nk skind0 r2_nodes q) d -> gk d) /\
   (forall q d, calls (prog_of r1_nk skind0 r2_nodes q) d -> first_read (prog_of r1_nk skind0 r2_nodes d)) /\
   s1b_ops (prog_of r1_nk skind0 r2_nodes) true r2_ops /\ 1 + 2 * N.of_nat (length r2_ops) < GMAX /\
   Forall2 okout r2_ops (snd (run_ops (prog_of r1_nk skind0 r2_nodes) skind0 [] r1_idhash 40%nat
                                      (init (lookup3 r1_ival) (fun _ => 0)) r2_ops))) /\
  snd (run_ops (prog_of r1_nk skind0 r2_nodes) skind0 [] r1_idhash 40%nat (init (lookup3 r1_ival) (fun _ => 0)) r2_ops) =
  [SOk (0, []); SOk (13, []); SOk (0, []); SOk (0, []); SOk (23, []); SOk (0, []); SOk (119, []); SOk (0, [])].
Proof. exact (conj r2_hyps r2_outputs). Qed.

(* The restriction on cell writes is necessary: after a Get, a cell write in the same revision is
   not seen by the next Get (13 again, not 23). *)
Example C06_cell_write_after_get_is_stale :
  snd (run_ops (prog_of r1_nk skind0 r2_nodes) skind0 [] r1_idhash 40%nat (init (lookup3 r1_ival) (fun _ => 0))
         [OSetCell 0 10; OGet (5, (0, 0)); OSetCell 0 20; OGet (5, (0, 0))]) =
  [SOk (0, []); SOk (13, []); SOk (0, []); SOk (13, [])].
Proof. exact r2_cell_after_get_is_stale. Qed.

(* C06_from_scratch_canonical_partial: from-scratch UP TO THE NAMING OF HANDLES.  For programs
   that are parametric in handles (Structs/SParam.v `parametric`: bodies only pass handles
   around — `brel`; every DSL program is: SParam.table_param), the answer of every Get after
   every prefix of an `s1b_ops` history is related to the from-scratch value Ew w' q of EVERY world w'
   consistent for q with the current inputs and cells and an ARBITRARY allocator: the data values
   are equal and the struct lists correspond position by position (`rrel (crel ..)`: the two
   handles were created by the same query of the closure under the same identity with the same
   fields).  So the value does not depend on which slots and generations the engine happened to
   use. *)
Theorem C06_from_scratch_canonical_partial :
  forall (prog : qk -> body) (skind : N -> bool) (idhash : val -> N) (rank : qk -> nat) (NF : nat),
  calls_below prog rank -> (forall q, (rank q < NF)%nat) ->
  no_forge idhash prog -> parametric prog -> (forall q, nospec (prog q)) -> (forall f, skind f = false) ->
  (forall q d, calls (prog q) d -> gk d) -> (forall q d, calls (prog q) d -> first_read (prog d)) ->
  forall fuel iv os,
  s1b_ops prog true os -> 1 + 2 * N.of_nat (length os) < GMAX ->
  Forall2 okout os (snd (run_ops prog skind [] idhash fuel (init iv (fun _ => 0)) os)) ->
  forall os1 q os2, os = os1 ++ OGet q :: os2 ->
  let s1 := fst (run_ops prog skind [] idhash fuel (init iv (fun _ => 0)) os1) in
  let s' := fst (step prog skind [] idhash fuel s1 (OGet q)) in
  exists v, snd (step prog skind [] idhash fuel s1 (OGet q)) = SOk v /\
            (forall w', (forall i, w_in (wcur s') i = w_in w' i) -> (forall c, w_cell (wcur s') c = w_cell w' c) ->
                        wcons prog idhash NF w' q ->
                        rrel (crel prog idhash NF (wcur s') w' q) v (Ew idhash prog NF w' q)) /\
            wcons prog idhash NF (wcur s') q /\
            (forall h, In h (snd v) -> live s' h).
Proof. exact from_scratch_S1b_canon. Qed.
Check C06_from_scratch_canonical_partial :
  forall (prog : qk -> body) (skind : N -> bool) (idhash : val -> N) (rank : qk -> nat) (NF : nat),
  calls_below prog rank -> (forall q, (rank q < NF)%nat) ->
  no_forge idhash prog -> parametric prog -> (forall q, nospec (prog q)) -> (forall f, skind f = false) ->
  (forall q d, calls (prog q) d -> gk d) -> (forall q d, calls (prog q) d -> first_read (prog d)) ->
  forall fuel iv os,
  s1b_ops prog true os -> 1 + 2 * N.of_nat (length os) < GMAX ->
  Forall2 okout os (snd (run_ops prog skind [] idhash fuel (init iv (fun _ => 0)) os)) ->
  forall os1 q os2, os = os1 ++ OGet q :: os2 ->
  let s1 := fst (run_ops prog skind [] idhash fuel (init iv (fun _ => 0)) os1) in
  let s' := fst (step prog skind [] idhash fuel s1 (OGet q)) in
  exists v, snd (step prog skind [] idhash fuel s1 (OGet q)) = SOk v /\
            (forall w', (forall i, w_in (wcur s') i = w_in w' i) -> (forall c, w_cell (wcur s') c = w_cell w' c) ->
                        wcons prog idhash NF w' q ->
                        rrel (crel prog idhash NF (wcur s') w' q) v (Ew idhash prog NF w' q)) /\
            wcons prog idhash NF (wcur s') q /\
            (forall h, In h (snd v) -> live s' h).
Print Assumptions C06_from_scratch_canonical_partial.

(* Non-vacuity: the program of C06_from_scratch_writes_nonvacuous is parametric (its other
   hypotheses are in that Example). *)
Example C06_from_scratch_canonical_nonvacuous :
  parametric (prog_of r1_nk skind0 r2_nodes) /\ parametric (prog_of r1_nk skind0 r1_nodes).
Proof. exact (conj r2_param r1_param). Qed.

(* C06_model_is_spec_partial: the executable model computes the SPECIFICATION Structs/Spec.v —
   the operational from-scratch evaluator `spec_get` that the differential checks run against
   the implementation (one evaluation on a fresh database, no revisions, no slots: handles are
   interned canonical names (creator query, identity value, occurrence)).  After every prefix of
   an `s1b_ops` history the next Get q answers SOk v such that spec_get on the snapshot (inputs, cells)
   of the state after the Get, with fuel NF, answers SOk (fst v, names); the i-th name is Some nm
   where nm names the creation of the i-th struct of v (`cre`: created by the query d of the
   closure, as the occ-th creation of d with identity value idv; nm = CN (fam d) (KIn (key d))
   idv occ); and with ANY fuel, whenever spec_get answers, its data value is fst v.
   Program hypothesis: Kripke parametricity in handles (Structs/SParamK.v; every DSL program:
   SParamK.table_paramK).  Together with the correspondence implementation == executable model
   (tested by the differential checks, not proved) this gives "implementation == specification"
   on this class. *)
Theorem C06_model_is_spec_partial :
  forall (prog : qk -> body) (skind : N -> bool) (idhash : val -> N) (rank : qk -> nat) (NF : nat),
  calls_below prog rank -> (forall q, (rank q < NF)%nat) ->
  no_forge idhash prog -> parametricK prog -> (forall q, nospec (prog q)) -> (forall f, skind f = false) ->
  (forall q d, calls (prog q) d -> gk d) -> (forall q d, calls (prog q) d -> first_read (prog d)) ->
  forall fuel iv os,
  s1b_ops prog true os -> 1 + 2 * N.of_nat (length os) < GMAX ->
  Forall2 okout os (snd (run_ops prog skind [] idhash fuel (init iv (fun _ => 0)) os)) ->
  forall os1 q os2, os = os1 ++ OGet q :: os2 ->
  let s1 := fst (run_ops prog skind [] idhash fuel (init iv (fun _ => 0)) os1) in
  let s' := fst (step prog skind [] idhash fuel s1 (OGet q)) in
  exists v names,
    snd (step prog skind [] idhash fuel s1 (OGet q)) = SOk v /\
    spec_get prog skind (snap_of s') NF q = SOk (fst v, names) /\
    Forall2 (fun onm h => exists nm d, onm = Some nm /\ clos idhash prog NF (wcur s') q d /\
                                       cre prog idhash NF (wcur s') d nm h) names (snd v) /\
    (forall n x nms, spec_get prog skind (snap_of s') n q = SOk (x, nms) -> x = fst v).
Proof. exact model_is_spec_S1b. Qed.
Check C06_model_is_spec_partial :
  forall (prog : qk -> body) (skind : N -> bool) (idhash : val -> N) (rank : qk -> nat) (NF : nat),
  calls_below prog rank -> (forall q, (rank q < NF)%nat) ->
  no_forge idhash prog -> parametricK prog -> (forall q, nospec (prog q)) -> (forall f, skind f = false) ->
  (forall q d, calls (prog q) d -> gk d) -> (forall q d, calls (prog q) d -> first_read (prog d)) ->
  forall fuel iv os,
  s1b_ops prog true os -> 1 + 2 * N.of_nat (length os) < GMAX ->
  Forall2 okout os (snd (run_ops prog skind [] idhash fuel (init iv (fun _ => 0)) os)) ->
  forall os1 q os2, os = os1 ++ OGet q :: os2 ->
  let s1 := fst (run_ops prog skind [] idhash fuel (init iv (fun _ => 0)) os1) in
  let s' := fst (step prog skind [] idhash fuel s1 (OGet q)) in
  exists v names,
    snd (step prog skind [] idhash fuel s1 (OGet q)) = SOk v /\
    spec_get prog skind (snap_of s') NF q = SOk (fst v, names) /\
    Forall2 (fun onm h => exists nm d, onm = Some nm /\ clos idhash prog NF (wcur s') q d /\
                                       cre prog idhash NF (wcur s') d nm h) names (snd v) /\
    (forall n x nms, spec_get prog skind (snap_of s') n q = SOk (x, nms) -> x = fst v).
Print Assumptions C06_model_is_spec_partial.

(* Non-vacuity: the example programs are Kripke-parametric; the specification evaluated on the
   final snapshot of the S1Examples history answers mk = (0, [name (mk(0), identity 0, occ 0)]) and
   rd = 5, as the model does (C06_from_scratch_nonvacuous: (0, [(0,1)]) and 5). *)
Example C06_model_is_spec_nonvacuous :
  parametricK (prog_of r1_nk skind0 r1_nodes) /\ parametricK (prog_of r1_nk skind0 r2_nodes) /\
  spec_get (prog_of r1_nk skind0 r1_nodes) skind0
           (snap_of (fst (run_ops (prog_of r1_nk skind0 r1_nodes) skind0 [] r1_idhash 40%nat (init (lookup3 r1_ival) (fun _ => 0)) r1_ops)))
           r1_NF (1, (0, 0)) = SOk (0, [Some (CN 1 (KIn 0) 0 0)]) /\
  spec_get (prog_of r1_nk skind0 r1_nodes) skind0
           (snap_of (fst (run_ops (prog_of r1_nk skind0 r1_nodes) skind0 [] r1_idhash 40%nat (init (lookup3 r1_ival) (fun _ => 0)) r1_ops)))
           r1_NF (4, (0, 0)) = SOk (5, []).
Proof. exact (conj r1_paramK (conj r2_paramK r1_spec_get)). Qed.
