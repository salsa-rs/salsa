(* C23 — No memory errors in any history; returned references stay valid; everything is freed.
   PARTIAL, permanently: the theorems below are about the LIFETIME PROTOCOL (Life/Model.v): which
   operation may free or overwrite which memo cell / slot, under which access mode and which
   stamp, for arbitrary operation sequences.  They are tied to the code by hook H4 and the
   replayer ocaml/life/replay.ml (run by checks/C23.py).

   NOT covered by any statement in this file (outside the model; named as unverified in
   evidence): raw-pointer provenance and aliasing (Stacked/Tree Borrows), the layout arithmetic
   of `SliceWithHeader` / `OriginAndExtra` and of `PageData`, the `transmute` lifetime extensions
   themselves (`extend_memo_lifetime`, `lock_fields`, `to_internal_data`: assumed to yield exactly
   `'db`), `unsafe impl Send/Sync`, atomics and memory ordering, several handles / threads
   (C20, C24), the intrusive LRU list of the interned ingredient, type identity of pages
   (`assert_type`), allocation failure.  The client obligation for interned values (`contract_ok`:
   a reusable interned value is only used in a revision in which it was interned or validated) is
   an explicit refusal of the machine, checked on every replayed trace, not a theorem about salsa. *)
From Salsa Require Import Base.
From Salsa.gen Require Import Kernels.
From Salsa.Life Require Import Model Proofs Examples.

(* The protocol-level reading of the property text, for one history `ops` from an empty database
   with `nt` memo ingredient indices and revision queues of length `ql g`:
     "no use-after-free"                         l_err = false (no read/write of a Freed cell, of
                                                 dropped fields, of an uninitialised slot)
     "every reference ... keeps its value until  every outstanding reference denotes an allocated
      the database is next borrowed mutably"     cell / initialised fields with the recorded value
     "no double free"                            c_frees <= 1
     "no out-of-bounds access"                   initialised locations = slots below `allocated`
     "dropping the database frees everything"    after ODropDb every cell Freed exactly once
   The parts of the property text that are NOT in this statement are listed in the header. *)
Definition C23_protocol_statement (nt : N) (ql : N -> nat) (ops : list lop) : Prop :=
  let st := lrun (linit nt ql) ops in
  l_err st = false /\
  (forall r, In r (l_refs st) -> r_rev r = l_cur st /\ denotes st r) /\
  (forall c cl, l_cells st c = Some cl -> c_frees cl <= 1 /\ (c_frees cl = 1 <-> c_state cl = Freed)) /\
  (forall j, l_slots st j <> None <->
             exists p k, j = make_id p k /\ p < l_npages st /\ k < l_palloc st p) /\
  (l_dropped st = true ->
     forall c, c < l_ncells st ->
       exists cl, l_cells st c = Some cl /\ c_state cl = Freed /\ c_frees cl = 1).

Theorem C23_no_uaf_partial : forall nt ql, qlen_ok ql -> forall ops,
  let st := lrun (linit nt ql) ops in
  l_err st = false /\
  (forall r, In r (l_refs st) -> r_rev r = l_cur st /\ denotes st r) /\
  (forall ops', Forall (fun o => is_excl o = false) ops' ->
     forall r, In r (l_refs st) ->
       In r (l_refs (lrun st ops')) /\ denotes (lrun st ops') r /\ l_err (lrun st ops') = false) /\
  (forall n r, nth_error (l_refs st) n = Some r ->
     exists x, lstep st (OReadRef n) = (st, LOk (Some x) (Some (r_val r)))).
Proof. exact C23_no_uaf_lemma. Qed.

Check C23_no_uaf_partial : forall nt ql, qlen_ok ql -> forall ops,
  let st := lrun (linit nt ql) ops in
  l_err st = false /\
  (forall r, In r (l_refs st) -> r_rev r = l_cur st /\ denotes st r) /\
  (forall ops', Forall (fun o => is_excl o = false) ops' ->
     forall r, In r (l_refs st) ->
       In r (l_refs (lrun st ops')) /\ denotes (lrun st ops') r /\ l_err (lrun st ops') = false) /\
  (forall n r, nth_error (l_refs st) n = Some r ->
     exists x, lstep st (OReadRef n) = (st, LOk (Some x) (Some (r_val r)))).
Print Assumptions C23_no_uaf_partial.

Theorem C23_no_double_free_partial : forall nt ql, qlen_ok ql -> forall ops c cl,
  l_cells (lrun (linit nt ql) ops) c = Some cl ->
  c_frees cl <= 1 /\ (c_frees cl = 1 <-> c_state cl = Freed).
Proof. exact C23_no_double_free_lemma. Qed.

Check C23_no_double_free_partial : forall nt ql, qlen_ok ql -> forall ops c cl,
  l_cells (lrun (linit nt ql) ops) c = Some cl ->
  c_frees cl <= 1 /\ (c_frees cl = 1 <-> c_state cl = Freed).
Print Assumptions C23_no_double_free_partial.

Theorem C23_drop_frees_partial : forall nt ql, qlen_ok ql -> forall ops,
  let st := lrun (linit nt ql) ops in
  (l_dropped st = false -> l_dropped (fst (lstep st ODropDb)) = true) /\
  (l_dropped st = true ->
     (forall c, c < l_ncells st ->
        exists cl, l_cells st c = Some cl /\ c_state cl = Freed /\ c_frees cl = 1) /\
     (forall j sl, l_slots st j = Some sl -> s_fields sl = None /\ forall f, s_memos sl f = None) /\
     l_deleted st = [] /\ l_refs st = [] /\ l_err st = false).
Proof. exact C23_drop_frees_lemma. Qed.

Check C23_drop_frees_partial : forall nt ql, qlen_ok ql -> forall ops,
  let st := lrun (linit nt ql) ops in
  (l_dropped st = false -> l_dropped (fst (lstep st ODropDb)) = true) /\
  (l_dropped st = true ->
     (forall c, c < l_ncells st ->
        exists cl, l_cells st c = Some cl /\ c_state cl = Freed /\ c_frees cl = 1) /\
     (forall j sl, l_slots st j = Some sl -> s_fields sl = None /\ forall f, s_memos sl f = None) /\
     l_deleted st = [] /\ l_refs st = [] /\ l_err st = false).
Print Assumptions C23_drop_frees_partial.

Theorem C23_in_bounds_partial : forall nt ql, qlen_ok ql -> forall ops,
  let st := lrun (linit nt ql) ops in
  (forall j, l_slots st j <> None <->
             exists p k, j = make_id p k /\ p < l_npages st /\ k < l_palloc st p) /\
  (l_npages st <= MAX_PAGES /\ forall p, l_palloc st p <= PAGE_LEN) /\
  (forall j, l_slots st j <> None -> loc st j = Some j) /\
  (forall i j, loc st i = Some j -> l_slots st j <> None) /\
  (l_dropped st = false ->
     (forall c cl, l_cells st c = Some cl -> c_state cl = Live ->
                   l_slots st (c_slot cl) <> None /\ c_fn cl < l_ntypes st) /\
     (forall g j, In j (l_free st g) -> l_slots st j <> None) /\
     (forall r j, In r (l_refs st) -> r_tgt r = TField j -> l_slots st j <> None)).
Proof. exact C23_in_bounds_lemma. Qed.

Check C23_in_bounds_partial : forall nt ql, qlen_ok ql -> forall ops,
  let st := lrun (linit nt ql) ops in
  (forall j, l_slots st j <> None <->
             exists p k, j = make_id p k /\ p < l_npages st /\ k < l_palloc st p) /\
  (l_npages st <= MAX_PAGES /\ forall p, l_palloc st p <= PAGE_LEN) /\
  (forall j, l_slots st j <> None -> loc st j = Some j) /\
  (forall i j, loc st i = Some j -> l_slots st j <> None) /\
  (l_dropped st = false ->
     (forall c cl, l_cells st c = Some cl -> c_state cl = Live ->
                   l_slots st (c_slot cl) <> None /\ c_fn cl < l_ntypes st) /\
     (forall g j, In j (l_free st g) -> l_slots st j <> None) /\
     (forall r j, In r (l_refs st) -> r_tgt r = TField j -> l_slots st j <> None)).
Print Assumptions C23_in_bounds_partial.

Theorem C23_protocol_partial : forall nt ql, qlen_ok ql -> forall ops,
  C23_protocol_statement nt ql ops.
Proof. exact C23_protocol_lemma. Qed.

Check C23_protocol_partial : forall nt ql, qlen_ok ql -> forall ops,
  C23_protocol_statement nt ql ops.
Print Assumptions C23_protocol_partial.
