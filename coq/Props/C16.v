(* Props/C16.v — C16 "Concurrent readers observe sequential results without deadlock".

   Three models of a concurrent fetch over the claim protocol of Proto/Model.v; every theorem is
   for any number of handles and every interleaving.

   CFetch (CFetch/Model.v; its header names the Rust lines each step stands for) is the protocol
   skeleton of fetch / fetch_hot / fetch_cold / deep_verify_memo.  What it stores is ASSUMED
   right (the guards of DESIGN §7 C16), stated as a fact about the model in
   [C16_guards_by_construction]: its only writes to the memo table store a memo verified in the
   current revision with the from-scratch value; insert_memo is done by the claim holder.
   Proved over it (CFetch/ProofsSafe.v, ProofsLive.v, ProofsTop.v, ProofsTerm.v):
   * [C16_values]: every value any request returns is [p_val P r k], the from-scratch value of
     the key in the revision of the request — and ([C16_values_from_verified_memo]) at the moment
     of the return it is the value of a memo verified in the current revision.
   * for rank-respecting (acyclic) programs: try_claim never answers Cycle
     ([C16_never_cycle]); a handle only waits for a key of smaller rank than the keys it holds
     ([C16_waits_below]); the protocol component is a reachable Proto state, so all of C19
     applies, in particular the wait graph is acyclic and grounded ([C16_wait_graph_grounded]);
     as long as some handle is unfinished some handle can take a step ([C16_no_deadlock]); every
     blocked handle has a releaser that knows about it and the release wakes all waiters
     ([C16_no_lost_wakeup]).
   * termination with an explicit bound: every thread step lowers a measure computed from the
     state ([C16_step_decreases_measure], [C16_run_bounded], [C16_termination],
     [C16_completes], [C16_maximal_runs_end_done]).

   CFetch2 (CFetch2/Model.v) DISCHARGES the assumption: it COMPUTES what it stores from the
   values its callees returned and from computed dependency / input-stamp checks — for static
   call lists and LOW durabilities ([C16_values_computed], [C16_memo_writes_sound]) — and refines
   CFetch step by step ([C16_computed_refines_abstract]), so the theorems above transfer
   (composed: [C16_sequential_results_no_deadlock_terminates]).

   CFetchD (CFetchD/Model.v) has dynamic call lists, recorded dependency traces, durabilities
   and, behind the switch [sc], the durability short-cut.  Proved over it:
   * without the short-cut: returned values and memos are from-scratch values, the recorded
     edges of a memo determine its value ([C16_values_computed_dyn],
     [C16_memo_writes_sound_dyn], [C16_recorded_edges_determine_dyn]); claims are exclusive for
     both settings of the switch ([C16_claims_exclusive_dyn]).
   * with the short-cut, the same value theorem for three classes of programs: every
     durability level an input has is written in every revision
     ([C16_values_computed_shortcut_partial]); read paths and input durabilities do not depend
     on the revision ([C16_values_computed_shortcut_all_levels_partial]); every key has a
     semantic durability level that does not depend on the revision, whatever its read path
     ([C16_values_computed_shortcut_static_levels_partial], of which the second is an
     instance).  The last two cover MEDIUM / HIGH levels that stay unwritten over several
     revisions; they rest on the specification-side window theorem [C16_stable_window_partial].

   OPEN:
   * CFetchD with the short-cut, for programs in which the semantic level of a key depends on
     the read path or on the revision.  There a callee may be re-executed along another path
     with a lower durability and an equal value (the model then does not backdate its
     changed_at: [publish_chg]).  Keeping "the recorded durability is a semantic level of the
     key" ([durgeD], the hypothesis of [C16_shortcut_sound_of_semantic_level_partial]) when a
     caller's memo is marked verified after a walk needs, as an invariant, for each
     recorded callee d with memo md, [o_dur m <= o_dur md]: the observer clause of Core/DInv.v
     ([mo_obs] with the stable-window disjunct of [obs_pre], [mo_stamp], [ext_mono]; with
     [frame_dur_lb], [frame_changed_lb] of Core/DInvSem.v), which has no counterpart over
     CFetchD.  Of the lemmas behind it only [C16_first_changed_is_read_again_dyn] is proved
     here.  The program must in addition tie durability changes to stamps
     (forall r i r', d_stamp Q r i <= r' <= r -> d_idur Q r' i = d_idur Q r i): with [durab_ok]
     alone the statement [C16_values_computed_shortcut_full_statement] is false of the model
     ([C16_values_computed_shortcut_full_statement_refuted]).
   * CFetchD, no deadlock and termination ([C16_no_deadlock_dyn_full_statement],
     [C16_termination_dyn_full_statement], Definitions without proof): there is no refinement of
     CFetchD to CFetch.  CFetch's insert_memo stores the call list it executed; CFetchD's
     recorded list is shorter (repeated and never-changing callees are not recorded), so CFetch
     would first need a recorded list separate from the executed one.
   OUTSIDE THE MODELS (trusted): that the real fetch_cold / deep_verify_memo decompose into
   exactly these atomic steps (tie: H2 trace replay + shuttle exploration, checks/C16.py; the
   replay runs the model with the short-cut on and reports the runs in which it fires
   separately); atomics orderings; condvars. *)
From Salsa Require Import Base.
From Salsa.Proto Require Import Model ProofsGraph ProofsInv ProofsStep.
From Salsa.CFetch Require Import Model ProofsProto ProofsRel ProofsSafe ProofsLive ProofsTop Examples
  ProofsTerm ExamplesTerm.
From Salsa.CFetch2 Require Model ProofsEq ProofsRel ProofsVal ProofsSim ProofsTop Examples.
Import Salsa.CFetch2.Model Salsa.CFetch2.ProofsEq Salsa.CFetch2.ProofsRel Salsa.CFetch2.ProofsVal
  Salsa.CFetch2.ProofsSim Salsa.CFetch2.ProofsTop Salsa.CFetch2.Examples.

(* every value a request returns is the from-scratch value of the key in the revision of the
   request *)
Theorem C16_values :
  forall fuel P s, creach fuel P s ->
  forall t k r v, In (ERet t k r v) (c_log s) -> v = p_val P r k.
Proof. exact returned_values. Qed.

Check C16_values :
  forall fuel P s, creach fuel P s ->
  forall t k r v, In (ERet t k r v) (c_log s) -> v = p_val P r k.
Print Assumptions C16_values.

(* a reachable state of the witness program with two handles and its log *)
Example C16_values_witness :
  creach 10 ex_prog ex_state1 /\
  c_log ex_state1 = [ERet 2 2 1 21; ERet 1 2 1 21; ERet 1 1 1 11; EExec 1 1 1; EExec 1 2 1].
Proof. exact (conj ex_state1_reachable ex_round1_log_only). Qed.

(* the step that logs a return reads the value off a memo verified in the current revision *)
Theorem C16_values_from_verified_memo :
  forall fuel P s t c s' t1 k1 r1 v1,
  creach fuel P s -> tstep fuel P s t c = Some s' -> c_log s' = ERet t1 k1 r1 v1 :: c_log s ->
  t1 = t /\ r1 = c_cur s' /\
  exists m, c_memo s' k1 = Some m /\ m_ver m = c_cur s' /\ m_val m = v1 /\ v1 = p_val P r1 k1.
Proof. exact returned_from_verified_memo. Qed.

Check C16_values_from_verified_memo :
  forall fuel P s t c s' t1 k1 r1 v1,
  creach fuel P s -> tstep fuel P s t c = Some s' -> c_log s' = ERet t1 k1 r1 v1 :: c_log s ->
  t1 = t /\ r1 = c_cur s' /\
  exists m, c_memo s' k1 = Some m /\ m_ver m = c_cur s' /\ m_val m = v1 /\ v1 = p_val P r1 k1.
Print Assumptions C16_values_from_verified_memo.

(* what CFetch assumes, as a fact about the model: a step that changes the memo of k1 stores a
   memo verified in the current revision with the from-scratch value, and either keeps value
   and dependencies of the old memo (mark_verified) or is done by the holder of k1's claim
   (insert_memo) *)
Theorem C16_guards_by_construction :
  forall fuel P s t c s' k1 m1,
  creach fuel P s -> tstep fuel P s t c = Some s' ->
  c_memo s' k1 = Some m1 -> c_memo s k1 <> Some m1 ->
  m_ver m1 = c_cur s /\ m_val m1 = p_val P (c_cur s) k1 /\
  ((exists m, c_memo s k1 = Some m /\ m_val m1 = m_val m /\ m_deps m1 = m_deps m) \/
   (exists st, sync (c_proto s) k1 = Some st /\ ss_id st = OThread t)).
Proof. exact guards_by_construction. Qed.

Check C16_guards_by_construction :
  forall fuel P s t c s' k1 m1,
  creach fuel P s -> tstep fuel P s t c = Some s' ->
  c_memo s' k1 = Some m1 -> c_memo s k1 <> Some m1 ->
  m_ver m1 = c_cur s /\ m_val m1 = p_val P (c_cur s) k1 /\
  ((exists m, c_memo s k1 = Some m /\ m_val m1 = m_val m /\ m_deps m1 = m_deps m) \/
   (exists st, sync (c_proto s) k1 = Some st /\ ss_id st = OThread t)).
Print Assumptions C16_guards_by_construction.

(* calls of a rank-respecting program descend along [rank], so a handle never meets a key it
   holds itself: try_claim never answers Cycle *)
Theorem C16_never_cycle :
  forall fuel P rank s t, ranked P rank -> creach fuel P s -> th_cycle (c_thr s t) = false.
Proof. exact never_cycle. Qed.

Check C16_never_cycle :
  forall fuel P rank s t, ranked P rank -> creach fuel P s -> th_cycle (c_thr s t) = false.
Print Assumptions C16_never_cycle.

(* the witness program is rank-respecting; a state in which one handle is blocked is reachable *)
Example C16_ranked_witness : ranked ex_prog ex_rank /\ creach 10 ex_prog ex_blocked.
Proof. exact (conj ex_ranked ex_blocked_reachable). Qed.

(* a handle that waits for key k holds only keys of larger rank: it waits downwards *)
Theorem C16_waits_below :
  forall fuel P rank s t u k f, ranked P rank -> creach fuel P s ->
  edges (dg (c_proto s)) t = Some (u, k) ->
  In f (stack_of s t) -> holding (f_phase f) = true -> (rank k < rank (f_key f))%nat.
Proof. exact waits_below. Qed.

Check C16_waits_below :
  forall fuel P rank s t u k f, ranked P rank -> creach fuel P s ->
  edges (dg (c_proto s)) t = Some (u, k) ->
  In f (stack_of s t) -> holding (f_phase f) = true -> (rank k < rank (f_key f))%nat.
Print Assumptions C16_waits_below.

(* the connection to C19: the protocol component is a reachable state of the Proto model *)
Theorem C16_protocol_state_reachable :
  forall fuel P rank s, ranked P rank -> creach fuel P s -> reachable fuel (c_proto s).
Proof. exact proto_reachable. Qed.

Check C16_protocol_state_reachable :
  forall fuel P rank s, ranked P rank -> creach fuel P s -> reachable fuel (c_proto s).
Print Assumptions C16_protocol_state_reachable.

(* nobody waits, directly or through others, for itself; following the wait edges from any
   handle ends at a handle that is not waiting *)
Theorem C16_wait_graph_grounded :
  forall fuel P rank s, ranked P rank -> creach fuel P s ->
  (forall t u k, edges (dg (c_proto s)) t = Some (u, k) ->
     ~ reaches (eproj (dg (c_proto s))) u t) /\
  (forall t, exists r, reaches (eproj (dg (c_proto s))) t r /\ edges (dg (c_proto s)) r = None).
Proof. exact wait_graph_grounded. Qed.

Check C16_wait_graph_grounded :
  forall fuel P rank s, ranked P rank -> creach fuel P s ->
  (forall t u k, edges (dg (c_proto s)) t = Some (u, k) ->
     ~ reaches (eproj (dg (c_proto s))) u t) /\
  (forall t, exists r, reaches (eproj (dg (c_proto s))) t r /\ edges (dg (c_proto s)) r = None).
Print Assumptions C16_wait_graph_grounded.

(* [fuel] bounds the walk of Edges::depends_on; more handles than fuel would make the MODEL's
   depends_on give up, which is not a behaviour of the Rust loop *)
Theorem C16_no_deadlock :
  forall fuel P rank s, ranked P rank -> creach fuel P s -> (length (c_tids s) < fuel)%nat ->
  (exists t, In t (c_tids s) /\ doneb (c_thr s t) = false) ->
  exists t c s', In t (c_tids s) /\ tstep fuel P s t c = Some s'.
Proof. exact some_thread_can_step. Qed.

Check C16_no_deadlock :
  forall fuel P rank s, ranked P rank -> creach fuel P s -> (length (c_tids s) < fuel)%nat ->
  (exists t, In t (c_tids s) /\ doneb (c_thr s t) = false) ->
  exists t c s', In t (c_tids s) /\ tstep fuel P s t c = Some s'.
Print Assumptions C16_no_deadlock.

(* in the blocked state of the witness run handle 2 cannot step, handle 1 can *)
Example C16_no_deadlock_witness :
  creach 10 ex_prog ex_blocked /\ (length (c_tids ex_blocked) < 10)%nat /\
  (match tstep 10 ex_prog ex_blocked 1 true with Some _ => true | None => false end,
   match tstep 10 ex_prog ex_blocked 2 true with Some _ => true | None => false end) = (true, false).
Proof. exact (conj ex_blocked_reachable (conj ex_blocked_tids ex_blocked_progress)). Qed.

(* no lost wake-up: whoever is blocked sits in a PWait frame for the key; the key's holder has
   anyone_waiting set (so its release will unblock) or has already removed its claim and is
   about to unblock; and that unblock step wakes every waiter of the key with Completed *)
Theorem C16_no_lost_wakeup :
  forall fuel P rank s, ranked P rank -> creach fuel P s ->
  (forall x u k, edges (dg (c_proto s)) x = Some (u, k) ->
     (exists below, stack_of s x = (k @: PWait) :: below) /\
     ((exists st f, sync (c_proto s) k = Some st /\ ss_id st = OThread u /\
                    ss_waiting st = true /\
                    In f (stack_of s u) /\ f_key f = k /\ holding (f_phase f) = true) \/
      (exists v below, stack_of s u = (k @: PUnblock v) :: below))) /\
  (forall t c s' k1 v1 below1,
     stack_of s t = (k1 @: PUnblock v1) :: below1 -> tstep fuel P s t c = Some s' ->
     forall x u, edges (dg (c_proto s)) x = Some (u, k1) ->
       edges (dg (c_proto s')) x = None /\ wres (dg (c_proto s')) x = Some Completed).
Proof.
  exact (fun fuel P rank s RK HR =>
    conj (fun x u k => blocked_has_releaser fuel P rank s x u k RK HR)
         (fun t c s' k1 v1 below1 => unblock_wakes_all_waiters fuel P rank s t c s' k1 v1 below1 RK HR)).
Qed.

Check C16_no_lost_wakeup :
  forall fuel P rank s, ranked P rank -> creach fuel P s ->
  (forall x u k, edges (dg (c_proto s)) x = Some (u, k) ->
     (exists below, stack_of s x = (k @: PWait) :: below) /\
     ((exists st f, sync (c_proto s) k = Some st /\ ss_id st = OThread u /\
                    ss_waiting st = true /\
                    In f (stack_of s u) /\ f_key f = k /\ holding (f_phase f) = true) \/
      (exists v below, stack_of s u = (k @: PUnblock v) :: below))) /\
  (forall t c s' k1 v1 below1,
     stack_of s t = (k1 @: PUnblock v1) :: below1 -> tstep fuel P s t c = Some s' ->
     forall x u, edges (dg (c_proto s)) x = Some (u, k1) ->
       edges (dg (c_proto s')) x = None /\ wres (dg (c_proto s')) x = Some Completed).
Print Assumptions C16_no_lost_wakeup.

(* termination: from a reachable state the schedules of thread steps have bounded length;
   proved as [C16_termination], with the explicit bound [Phi] in [C16_run_bounded] *)
Definition C16_termination_full_statement : Prop :=
  forall fuel P rank s, ranked P rank -> creach fuel P s -> (length (c_tids s) < fuel)%nat ->
  exists n, forall l s', grun fuel P l s = Some s' ->
    (forall o, In o l -> exists t c, o = GStep t c) -> (length l <= n)%nat.

(* Termination: a measure that every thread step lowers (CFetch/ProofsTerm.v).

   [Phi P rank s] is computed from the program, the memo table, the stacks and the outstanding
   requests: a request for a key costs 1 if its memo is verified in the current revision, else
   8 + the walks over the edges of its stale memo and over the calls of an execution (1 + the
   cost of the callee per edge, recursion on the rank); a frame weighs what is left of that in
   its phase; a handle weighs its frames + (1 + cost) per outstanding request.  No fairness is
   needed: a blocked handle has no step, every step that exists lowers [Phi].  A waiter does not
   loop because whoever is woken finds the memo verified.  [GBump] (a new revision) is not a
   thread step: the bound is per revision / per segment between two bumps or spawns. *)
Theorem C16_step_decreases_measure :
  forall fuel P rank s t c s',
  ranked P rank -> creach fuel P s -> tstep fuel P s t c = Some s' ->
  (Phi P rank s' < Phi P rank s)%nat.
Proof. exact step_decreases. Qed.

Check C16_step_decreases_measure :
  forall fuel P rank s t c s',
  ranked P rank -> creach fuel P s -> tstep fuel P s t c = Some s' ->
  (Phi P rank s' < Phi P rank s)%nat.
Print Assumptions C16_step_decreases_measure.

(* the explicit bound: any schedule of thread steps from [s] has at most [Phi P rank s] steps *)
Theorem C16_run_bounded :
  forall fuel P rank l s s',
  ranked P rank -> creach fuel P s -> Forall is_gstep l -> grun fuel P l s = Some s' ->
  (length l + Phi P rank s' <= Phi P rank s)%nat.
Proof. exact run_bounded. Qed.

Check C16_run_bounded :
  forall fuel P rank l s s',
  ranked P rank -> creach fuel P s -> Forall is_gstep l -> grun fuel P l s = Some s' ->
  (length l + Phi P rank s' <= Phi P rank s)%nat.
Print Assumptions C16_run_bounded.

(* the schedules of thread steps from a reachable state have bounded length *)
Theorem C16_termination : C16_termination_full_statement.
Proof. exact terminates_stmt. Qed.

Check C16_termination : C16_termination_full_statement.
Print Assumptions C16_termination.

(* with deadlock freedom: the handles can always be run to completion within the bound, and a
   schedule that cannot be extended has answered every request *)
Theorem C16_completes :
  forall fuel P rank s,
  ranked P rank -> creach fuel P s -> (length (c_tids s) < fuel)%nat ->
  exists l s', Forall is_gstep l /\ grun fuel P l s = Some s' /\ (length l <= Phi P rank s)%nat /\
               forall t, In t (c_tids s') -> doneb (c_thr s' t) = true.
Proof. exact completes. Qed.

Check C16_completes :
  forall fuel P rank s,
  ranked P rank -> creach fuel P s -> (length (c_tids s) < fuel)%nat ->
  exists l s', Forall is_gstep l /\ grun fuel P l s = Some s' /\ (length l <= Phi P rank s)%nat /\
               forall t, In t (c_tids s') -> doneb (c_thr s' t) = true.
Print Assumptions C16_completes.

(* a state in which no handle can step has answered every request *)
Theorem C16_maximal_runs_end_done :
  forall fuel P rank s,
  ranked P rank -> creach fuel P s -> (length (c_tids s) < fuel)%nat ->
  (forall t c, In t (c_tids s) -> tstep fuel P s t c = None) ->
  forall t, In t (c_tids s) -> doneb (c_thr s t) = true.
Proof. exact stuck_is_done. Qed.

Check C16_maximal_runs_end_done :
  forall fuel P rank s,
  ranked P rank -> creach fuel P s -> (length (c_tids s) < fuel)%nat ->
  (forall t c, In t (c_tids s) -> tstep fuel P s t c = None) ->
  forall t, In t (c_tids s) -> doneb (c_thr s t) = true.
Print Assumptions C16_maximal_runs_end_done.

(* the witness run: budget 36, the schedule with a waiter takes 18 steps, 13 left in the blocked
   state, 0 at the end *)
Example C16_termination_witness :
  creach 10 ex_prog ex_spawned /\ ranked ex_prog ex_rank /\
  (Forall is_gstep ex_round1_steps /\ grun 10 ex_prog ex_round1_steps ex_spawned = Some ex_state1) /\
  (Phi ex_prog ex_rank ex_spawned, length ex_round1_steps, Phi ex_prog ex_rank ex_blocked,
   Phi ex_prog ex_rank ex_state1) = (36, 18, 13, 0)%nat.
Proof. exact (conj ex_spawned_reachable (conj ex_ranked (conj ex_round1_run ex_measure))). Qed.

(* The guards under interference: CFetch2 computes what it stores.

   CFetch2/Model.v has the same protocol skeleton, but insert_memo stores
   [q_body k (input values) (the values the callee frames RETURNED)] with a backdated
   changed_at, and mark_as_verified fires only after the walk saw every recorded dependency
   verified now with changed_at <= the memo's verified_at and every input stamp <= it — computed,
   not assumed.  CFetch2/ProofsVal.v proves by an invariant of the reachable states
   (rely/guarantee: a memo verified in the current revision is never rewritten in it; returned
   pairs are those of memos verified now; at a write [E_unfold] unfolds the from-scratch value
   once and the invariant supplies the callee values) that both writes store the from-scratch
   value [E Q rank cur k]; CFetch2/ProofsSim.v turns that into a step-by-step refinement of
   CFetch with [p_val := E], so every theorem above transfers.  Hypotheses: calls descend along
   a rank ([ranked2]); input stamps are honest ([stamps_ok]: the value did not change since the
   stamp, and a stamp is not above the revision it is read in).
   Fragment: static call lists, no durability short-cut (LOW durabilities, as C01). *)
Theorem C16_values_computed :
  forall fuel Q rank s2,
  ranked2 Q rank -> stamps_ok Q -> creach2 fuel Q s2 ->
  forall t k r v, In (ERet t k r v) (c2_log s2) -> v = E Q rank r k.
Proof. exact values_computed. Qed.

Check C16_values_computed :
  forall fuel Q rank s2,
  ranked2 Q rank -> stamps_ok Q -> creach2 fuel Q s2 ->
  forall t k r v, In (ERet t k r v) (c2_log s2) -> v = E Q rank r k.
Print Assumptions C16_values_computed.

(* every memo of every reachable state carries the from-scratch value of the revision it was
   last verified in: what publish computed and what mark_verified kept *)
Theorem C16_memo_writes_sound :
  forall fuel Q rank s2 k m,
  ranked2 Q rank -> stamps_ok Q -> creach2 fuel Q s2 -> c2_memo s2 k = Some m ->
  E Q rank (n_ver m) k = n_val m /\ n_ver m <= c2_cur s2 /\ n_chg m <= n_ver m.
Proof. exact memo_sound. Qed.

Check C16_memo_writes_sound :
  forall fuel Q rank s2 k m,
  ranked2 Q rank -> stamps_ok Q -> creach2 fuel Q s2 -> c2_memo s2 k = Some m ->
  E Q rank (n_ver m) k = n_val m /\ n_ver m <= c2_cur s2 /\ n_chg m <= n_ver m.
Print Assumptions C16_memo_writes_sound.

(* the refinement: a reachable CFetch2 state abstracts to a reachable CFetch state of the
   program [absP Q rank] (same call lists, p_val := from-scratch value), up to pointwise
   equality of the function components *)
Theorem C16_computed_refines_abstract :
  forall fuel Q rank s2,
  ranked2 Q rank -> stamps_ok Q -> creach2 fuel Q s2 ->
  exists s, creach fuel (absP Q rank) s /\ ceq s (abs s2).
Proof. exact refines_abstract. Qed.

Check C16_computed_refines_abstract :
  forall fuel Q rank s2,
  ranked2 Q rank -> stamps_ok Q -> creach2 fuel Q s2 ->
  exists s, creach fuel (absP Q rank) s /\ ceq s (abs s2).
Print Assumptions C16_computed_refines_abstract.

(* a key is executed at most once per revision, over all handles *)
Theorem C16_once_computed :
  forall fuel Q rank s2,
  ranked2 Q rank -> stamps_ok Q -> creach2 fuel Q s2 ->
  forall k r, (count_exec k r (c2_log s2) <= 1)%nat.
Proof. exact once_computed. Qed.

Check C16_once_computed :
  forall fuel Q rank s2,
  ranked2 Q rank -> stamps_ok Q -> creach2 fuel Q s2 ->
  forall k r, (count_exec k r (c2_log s2) <= 1)%nat.
Print Assumptions C16_once_computed.

(* values, the step bound, maximal schedules end with every handle done and right values, and
   a completing schedule within the bound exists — over CFetch2, in one statement *)
Theorem C16_sequential_results_no_deadlock_terminates :
  forall fuel Q rank s2,
  ranked2 Q rank -> stamps_ok Q -> creach2 fuel Q s2 -> (length (c2_tids s2) < fuel)%nat ->
  (forall t k r v, In (ERet t k r v) (c2_log s2) -> v = E Q rank r k) /\
  (forall l s2', Forall is_gstep l -> grun2 fuel Q l s2 = Some s2' ->
     (length l + Phi2 Q rank s2' <= Phi2 Q rank s2)%nat) /\
  (forall l s2', Forall is_gstep l -> grun2 fuel Q l s2 = Some s2' ->
     (forall t c, In t (c2_tids s2') -> tstep2 fuel Q s2' t c = None) ->
     (forall t, In t (c2_tids s2') -> doneb2 (c2_thr s2' t) = true) /\
     (forall t k r v, In (ERet t k r v) (c2_log s2') -> v = E Q rank r k)) /\
  (exists l s2', Forall is_gstep l /\ grun2 fuel Q l s2 = Some s2' /\
     (length l <= Phi2 Q rank s2)%nat /\
     forall t, In t (c2_tids s2') -> doneb2 (c2_thr s2' t) = true).
Proof. exact sequential_results_no_deadlock_terminates. Qed.

Check C16_sequential_results_no_deadlock_terminates :
  forall fuel Q rank s2,
  ranked2 Q rank -> stamps_ok Q -> creach2 fuel Q s2 -> (length (c2_tids s2) < fuel)%nat ->
  (forall t k r v, In (ERet t k r v) (c2_log s2) -> v = E Q rank r k) /\
  (forall l s2', Forall is_gstep l -> grun2 fuel Q l s2 = Some s2' ->
     (length l + Phi2 Q rank s2' <= Phi2 Q rank s2)%nat) /\
  (forall l s2', Forall is_gstep l -> grun2 fuel Q l s2 = Some s2' ->
     (forall t c, In t (c2_tids s2') -> tstep2 fuel Q s2' t c = None) ->
     (forall t, In t (c2_tids s2') -> doneb2 (c2_thr s2' t) = true) /\
     (forall t k r v, In (ERet t k r v) (c2_log s2') -> v = E Q rank r k)) /\
  (exists l s2', Forall is_gstep l /\ grun2 fuel Q l s2 = Some s2' /\
     (length l <= Phi2 Q rank s2)%nat /\
     forall t, In t (c2_tids s2') -> doneb2 (c2_thr s2' t) = true).
Print Assumptions C16_sequential_results_no_deadlock_terminates.

(* three handles, shared sub-query, everybody waits once; two revisions: a successful
   verification (mark), a re-execution forced by an input stamp, a re-execution forced by a
   changed callee; budgets 90 / 90, schedules of 36 / 30 steps, all handles done *)
Example C16_computed_witness :
  ranked2 ex2_prog ex2_rank /\ stamps_ok ex2_prog /\
  creach2 10 ex2_prog ex2_start1 /\ creach2 10 ex2_prog ex2_final /\
  (Forall is_gstep ex2_sched1 /\ grun2 10 ex2_prog ex2_sched1 ex2_start1 = Some ex2_end1 /\
   (length (c2_tids ex2_start1) < 10)%nat) /\
  (c2_log ex2_end1, notified (dg (c2_proto ex2_end1)),
   forallb (fun t => doneb2 (c2_thr ex2_end1 t)) (c2_tids ex2_end1)) =
  ([ERet 2 3 1 17; ERet 1 3 1 17; ERet 1 2 1 12; ERet 3 2 1 12; ERet 3 1 1 5; ERet 1 1 1 5;
    EExec 1 1 1; EExec 3 2 1; EExec 1 3 1],
   [(2, Completed); (1, Completed); (3, Completed)], true) /\
  (firstn 10 (c2_log ex2_final),
   (c2_memo ex2_final 1, c2_memo ex2_final 2, c2_memo ex2_final 3),
   forallb (fun t => doneb2 (c2_thr ex2_final t)) (c2_tids ex2_final)) =
  ([ERet 1 3 2 19; ERet 1 2 2 14; ERet 1 1 2 5; EExec 1 3 2; ERet 1 2 2 14; ERet 1 1 2 5;
    EExec 1 2 2; ERet 1 1 2 5; ERet 2 1 2 5; ERet 1 1 2 5],
   (Some (mkM2 2 5 1 []), Some (mkM2 2 14 2 [1]), Some (mkM2 2 19 2 [1; 2])), true) /\
  (map (E ex2_prog ex2_rank 1) [1; 2; 3], map (E ex2_prog ex2_rank 2) [1; 2; 3]) =
  ([5; 12; 17], [5; 14; 19]) /\
  (Phi2 ex2_prog ex2_rank ex2_start1, length ex2_sched1, Phi2 ex2_prog ex2_rank ex2_end1,
   Phi2 ex2_prog ex2_rank ex2_mid, length ex2_sched2, Phi2 ex2_prog ex2_rank ex2_final) =
  (90, 36, 0, 90, 30, 0)%nat.
Proof.
  exact (conj ex2_ranked (conj ex2_stamps (conj ex2_start1_reachable (conj ex2_final_reachable
        (conj ex2_sched1_run (conj ex2_round1 (conj ex2_round2 (conj ex2_spec ex2_bound)))))))).
Qed.

(* DYNAMIC CALL LISTS — the model CFetchD (CFetchD/Model.v): a body is a resumable
   computation ([BRet] / [BIn] / [BCall]: keys computed from values, branches, a callee called
   twice, bodies that read nothing); the recorded dependency list is the dynamic trace (inputs
   and calls interleaved, no repetition, reads of never-changing durability not recorded — as
   ActiveQuery::add_read); deep verification walks it; durabilities and the durability short-cut
   are in the model behind the switch [sc].
   The next four theorems are for the model without the short-cut ([sc = false]) and programs
   with no input of never-changing durability ([no_never]): every returned value and every memo
   is the from-scratch value ([C16_values_computed_dyn], [C16_memo_writes_sound_dyn]); the
   recorded edges of a memo determine its value, which is what makes mark_verified after a walk sound
   ([C16_recorded_edges_determine_dyn]); claims are exclusive, for both settings of the switch
   ([C16_claims_exclusive_dyn], directly from Proto). *)
From Salsa.CFetchD Require Model ProofsRel ProofsSync ProofsVal ProofsTop Examples.
Import Salsa.CFetchD.Model Salsa.CFetchD.ProofsSync Salsa.CFetchD.ProofsVal Salsa.CFetchD.ProofsTop
  Salsa.CFetchD.Examples.

(* without the short-cut: every returned value is the from-scratch value [ED Q rank r k] *)
Theorem C16_values_computed_dyn :
  forall fuel Q rank s t k r v,
  Salsa.CFetchD.ProofsRel.rankedD Q rank -> Salsa.CFetchD.ProofsRel.stampsD_ok Q -> no_never Q ->
  creachD fuel Q false s ->
  In (ERet t k r v) (cD_log s) -> v = ED Q rank r k.
Proof. exact values_computedD. Qed.

Check C16_values_computed_dyn :
  forall fuel Q rank s t k r v,
  Salsa.CFetchD.ProofsRel.rankedD Q rank -> Salsa.CFetchD.ProofsRel.stampsD_ok Q -> no_never Q ->
  creachD fuel Q false s ->
  In (ERet t k r v) (cD_log s) -> v = ED Q rank r k.
Print Assumptions C16_values_computed_dyn.

(* ... and every memo carries the from-scratch value of its verified_at *)
Theorem C16_memo_writes_sound_dyn :
  forall fuel Q rank s k m,
  Salsa.CFetchD.ProofsRel.rankedD Q rank -> Salsa.CFetchD.ProofsRel.stampsD_ok Q -> no_never Q ->
  creachD fuel Q false s ->
  cD_memo s k = Some m -> o_val m = ED Q rank (o_ver m) k.
Proof. exact memo_soundD. Qed.

Check C16_memo_writes_sound_dyn :
  forall fuel Q rank s k m,
  Salsa.CFetchD.ProofsRel.rankedD Q rank -> Salsa.CFetchD.ProofsRel.stampsD_ok Q -> no_never Q ->
  creachD fuel Q false s ->
  cD_memo s k = Some m -> o_val m = ED Q rank (o_ver m) k.
Print Assumptions C16_memo_writes_sound_dyn.

(* a revision that agrees with the memo's verified_at on every RECORDED edge (input values,
   from-scratch values of the recorded callees) has the memo's value as its from-scratch value *)
Theorem C16_recorded_edges_determine_dyn :
  forall fuel Q rank s k m r',
  Salsa.CFetchD.ProofsRel.rankedD Q rank -> Salsa.CFetchD.ProofsRel.stampsD_ok Q -> no_never Q ->
  creachD fuel Q false s ->
  cD_memo s k = Some m ->
  (forall e, In e (o_deps m) -> esameR Q rank (o_ver m) r' e) ->
  ED Q rank r' k = o_val m.
Proof. exact recorded_edges_determineD. Qed.

Check C16_recorded_edges_determine_dyn :
  forall fuel Q rank s k m r',
  Salsa.CFetchD.ProofsRel.rankedD Q rank -> Salsa.CFetchD.ProofsRel.stampsD_ok Q -> no_never Q ->
  creachD fuel Q false s ->
  cD_memo s k = Some m ->
  (forall e, In e (o_deps m) -> esameR Q rank (o_ver m) r' e) ->
  ED Q rank r' k = o_val m.
Print Assumptions C16_recorded_edges_determine_dyn.

(* two frames past the claim for one key belong to one handle and are one frame — with or
   without the short-cut, any program *)
Theorem C16_claims_exclusive_dyn :
  forall fuel Q sc s, creachD fuel Q sc s -> exclD s.
Proof. exact claims_exclusiveD. Qed.

Check C16_claims_exclusive_dyn :
  forall fuel Q sc s, creachD fuel Q sc s -> exclD s.
Print Assumptions C16_claims_exclusive_dyn.

(* no deadlock and termination over CFetchD: statements without proof (header, OPEN) *)
Definition C16_no_deadlock_dyn_full_statement : Prop :=
  forall fuel Q rank s,
  Salsa.CFetchD.ProofsRel.rankedD Q rank -> Salsa.CFetchD.ProofsRel.stampsD_ok Q -> no_never Q ->
  creachD fuel Q false s -> (length (cD_tids s) < fuel)%nat ->
  (exists t, In t (cD_tids s) /\ donebD (cD_thr s t) = false) ->
  exists t c s', tstepD fuel Q false s t c = Some s'.

Definition C16_termination_dyn_full_statement : Prop :=
  forall fuel Q rank s,
  Salsa.CFetchD.ProofsRel.rankedD Q rank -> Salsa.CFetchD.ProofsRel.stampsD_ok Q -> no_never Q ->
  creachD fuel Q false s ->
  exists bound, forall l s',
    Forall (fun o => match o with GStep _ _ => True | _ => False end) l ->
    grunD fuel Q false l s = Some s' -> (length l <= bound)%nat.

(* the write rule of the last-changed vector: writes at durability d move last_changed of the
   levels <= d; last_changed is not above the revision; an input is unchanged over a window in
   which its durability level saw no write *)
Definition durab_ok (Q : progD) : Prop :=
  (forall r d d', d <= d' -> d_lc Q r d' <= d_lc Q r d) /\
  (forall r d, d_lc Q r d <= r) /\
  (forall r r0 i, r0 <= r -> d_lc Q r (d_idur Q r0 i) <= r0 ->
     d_in Q r i = d_in Q r0 i /\ d_stamp Q r i = d_stamp Q r0 i /\ d_idur Q r i = d_idur Q r0 i).

(* the value theorem with the short-cut under [durab_ok] alone: FALSE of the model
   ([C16_values_computed_shortcut_full_statement_refuted]) *)
Definition C16_values_computed_shortcut_full_statement : Prop :=
  forall fuel Q rank s t k r v,
  Salsa.CFetchD.ProofsRel.rankedD Q rank -> Salsa.CFetchD.ProofsRel.stampsD_ok Q -> no_never Q ->
  durab_ok Q -> creachD fuel Q true s ->
  In (ERet t k r v) (cD_log s) -> v = ED Q rank r k.

(* non-vacuity: a program with a body that reads nothing, a branch on an input, a repeated
   callee and a computed key satisfies the hypotheses; two handles, three revisions; the
   returned values, with and without the short-cut, are the from-scratch values 9, 13, 18 *)
Example C16_dyn_witness :
  Salsa.CFetchD.ProofsRel.rankedD Qx rankx /\ Salsa.CFetchD.ProofsRel.stampsD_ok Qx /\ no_never Qx /\
  creachD 8 Qx false s2 /\
  (ED Qx rankx 1 4, ED Qx rankx 2 4, ED Qx rankx 3 4) = (9, 13, 18) /\
  top_rets s2 = [(1, 9); (1, 9); (2, 13); (3, 18); (3, 18)] /\
  top_rets s2c = top_rets s2 /\
  forallb (fun t => donebD (cD_thr s2 t)) (cD_tids s2) = true /\
  deps_of s1 3 = Some (3, 3, 0, [EIn 2; ECall 2]) /\
  deps_of s1 1 = Some (1, 1, 3, []).
Proof.
  exact (conj rankedx (conj stampsx (conj no_neverx (conj s2_reachable (conj spec4
        (conj run2_values (conj run2_values_shortcut (conj run2_all_done (conj run1_deps_3 run1_deps_1))))))))).
Qed.

(* WITH THE SHORT-CUT ([sc = true]), live levels (CFetchD/ProofsShort.v): the value theorem for
   programs in which every durability level an input ever has is written in every revision
   ([live_levels]: forall r i r', d_lc Q r' (d_idur Q r i) = r' — e.g. all inputs
   LOW, whose last-changed revision is the current one; the witness program is of this kind).
   There the short-cut fires exactly for memos of NEVER-CHANGING durability (memos whose whole call
   closure reads no input): on the hot path WITHOUT a claim — probe and store are two shared steps,
   other handles interleave between them — and at the re-check after the claim.  Any number of
   handles, dynamic call lists, repeated callees, input-free bodies, per-revision durabilities.
   The hypothesis excludes levels that are stable over a window without being never-changing
   (MEDIUM / HIGH inputs not written for some revisions); those are the subject of the theorems
   after [C16_stable_window_partial]. *)
From Salsa.CFetchD Require ProofsShort ExamplesShort.

(* live levels: every returned value is the from-scratch value, short-cut on *)
Theorem C16_values_computed_shortcut_partial :
  forall fuel Q rank s t k r v,
  Salsa.CFetchD.ProofsRel.rankedD Q rank -> Salsa.CFetchD.ProofsRel.stampsD_ok Q -> no_never Q ->
  (forall r0 i r', d_lc Q r' (d_idur Q r0 i) = r') ->
  creachD fuel Q true s ->
  In (ERet t k r v) (cD_log s) -> v = ED Q rank r k.
Proof. exact Salsa.CFetchD.ProofsShort.values_computed_shortcut. Qed.

Check C16_values_computed_shortcut_partial :
  forall fuel Q rank s t k r v,
  Salsa.CFetchD.ProofsRel.rankedD Q rank -> Salsa.CFetchD.ProofsRel.stampsD_ok Q -> no_never Q ->
  (forall r0 i r', d_lc Q r' (d_idur Q r0 i) = r') ->
  creachD fuel Q true s ->
  In (ERet t k r v) (cD_log s) -> v = ED Q rank r k.
Print Assumptions C16_values_computed_shortcut_partial.

(* ... and every memo carries the from-scratch value of its verified_at, also when the short-cut
   stored verified_at *)
Theorem C16_memo_writes_sound_shortcut_partial :
  forall fuel Q rank s k m,
  Salsa.CFetchD.ProofsRel.rankedD Q rank -> Salsa.CFetchD.ProofsRel.stampsD_ok Q -> no_never Q ->
  (forall r0 i r', d_lc Q r' (d_idur Q r0 i) = r') ->
  creachD fuel Q true s ->
  cD_memo s k = Some m -> o_val m = ED Q rank (o_ver m) k.
Proof. exact Salsa.CFetchD.ProofsShort.memo_sound_shortcut. Qed.

Check C16_memo_writes_sound_shortcut_partial :
  forall fuel Q rank s k m,
  Salsa.CFetchD.ProofsRel.rankedD Q rank -> Salsa.CFetchD.ProofsRel.stampsD_ok Q -> no_never Q ->
  (forall r0 i r', d_lc Q r' (d_idur Q r0 i) = r') ->
  creachD fuel Q true s ->
  cD_memo s k = Some m -> o_val m = ED Q rank (o_ver m) k.
Print Assumptions C16_memo_writes_sound_shortcut_partial.

(* in these programs a memo that passes the probe without being verified now is never-changing *)
Theorem C16_shortcut_fires_only_on_never_partial :
  forall fuel Q rank s k m,
  Salsa.CFetchD.ProofsRel.rankedD Q rank -> Salsa.CFetchD.ProofsRel.stampsD_ok Q -> no_never Q ->
  (forall r0 i r', d_lc Q r' (d_idur Q r0 i) = r') ->
  creachD fuel Q true s ->
  cD_memo s k = Some m -> o_ver m <> cD_cur s -> shortcut Q true (cD_cur s) m = true -> o_dur m = DUR_MAX.
Proof. exact Salsa.CFetchD.ProofsShort.shortcut_only_never. Qed.

Check C16_shortcut_fires_only_on_never_partial :
  forall fuel Q rank s k m,
  Salsa.CFetchD.ProofsRel.rankedD Q rank -> Salsa.CFetchD.ProofsRel.stampsD_ok Q -> no_never Q ->
  (forall r0 i r', d_lc Q r' (d_idur Q r0 i) = r') ->
  creachD fuel Q true s ->
  cD_memo s k = Some m -> o_ver m <> cD_cur s -> shortcut Q true (cD_cur s) m = true -> o_dur m = DUR_MAX.
Print Assumptions C16_shortcut_fires_only_on_never_partial.

(* non-vacuity: the C16_dyn_witness program satisfies the extra hypothesis; its two-handle,
   three-revision run with the short-cut ON is reachable, returns the from-scratch values by the
   theorem (and by computation: the same as without the short-cut), and key 1 — never-changing —
   is executed once in three revisions although it is returned in each *)
Example C16_dyn_witness_shortcut :
  (forall r0 i r', d_lc Qx r' (d_idur Qx r0 i) = r') /\
  creachD 8 Qx true s2c /\
  (forall t k r v, In (ERet t k r v) (cD_log s2c) -> v = ED Qx rankx r k) /\
  top_rets s2c = [(1, 9); (1, 9); (2, 13); (3, 18); (3, 18)] /\
  count_exec 1 1 (cD_log s2c) = 1%nat /\ count_exec 1 2 (cD_log s2c) = 0%nat /\ count_exec 1 3 (cD_log s2c) = 0%nat.
Proof.
  destruct Salsa.CFetchD.ExamplesShort.s2c_run as (A & B & C & D).
  exact (conj Salsa.CFetchD.ExamplesShort.live_levelsx (conj s2c_reachable
        (conj Salsa.CFetchD.ExamplesShort.s2c_values_from_theorem (conj A (conj B (conj C D)))))).
Qed.


(* FINDING: the full statement as written (hypotheses [durab_ok] etc.) is false of the model:
   [d_idur] may change without a new stamp, a callee re-verified by its unchanged input stamps
   then keeps a stale (too high) durability and the caller's short-cut returns a stale value one
   write later.  A hypothesis tying durability changes to stamps
   (forall r i r', d_stamp Q r i <= r' <= r -> d_idur Q r' i = d_idur Q r i) is needed.
   Witness (CFetchD/ExamplesShort.v, Qc): k = d, d = input 1; revision 2 lowers the input's
   durability from 2 to 0 without a new stamp, revision 3 writes it; the run with the short-cut
   returns 5 for k in revision 3, the from-scratch value is 9. *)
Theorem C16_values_computed_shortcut_full_statement_refuted :
  ~ C16_values_computed_shortcut_full_statement.
Proof.
  intros H.
  destruct Salsa.CFetchD.ExamplesShort.sc3_stale as (Hin & HE & _).
  pose proof (H 8%nat Salsa.CFetchD.ExamplesShort.Qc Salsa.CFetchD.ExamplesShort.rankc
                Salsa.CFetchD.ExamplesShort.sc3 1 2 3 5
                Salsa.CFetchD.ExamplesShort.rankedc Salsa.CFetchD.ExamplesShort.stampsc
                Salsa.CFetchD.ExamplesShort.no_neverc Salsa.CFetchD.ExamplesShort.durabc
                Salsa.CFetchD.ExamplesShort.sc3_reachable Hin) as E.
  rewrite HE in E. discriminate.
Qed.

Check C16_values_computed_shortcut_full_statement_refuted :
  ~ C16_values_computed_shortcut_full_statement.
Print Assumptions C16_values_computed_shortcut_full_statement_refuted.

(* THE SHORT-CUT FOR ALL LEVELS, specification side (CFetchD/ProofsWindow.v): [durge] /
   [durge_stable] of Core/DurSem.v over the resumable bodies of CFetchD.
   [durgeD Q rank r d k]: in revision r every input the from-scratch evaluation of k reads,
   transitively, has durability >= d.  Under the write rule of the last-changed vector (the first
   and third clause of [durab_ok]) such a key has the same value, the same read path and the same
   level in every later revision in which level d saw no write — for EVERY level (MEDIUM / HIGH
   windows included).  Hence the short-cut returns the from-scratch value for every memo that
   carries the from-scratch value of its verified_at and whose recorded durability is a semantic
   level of its key.
   These two theorems say nothing about reachable states: that every memo of a reachable state
   has [durgeD (o_ver m) (o_dur m) k] is a hypothesis here.  A fresh execution establishes it
   (the durability accumulated over the reads is their minimum); the model-level theorems below
   keep it through mark_verified for programs with static semantic levels, where the recorded
   durability of a callee's memo is never below that of its caller's. *)
From Salsa.CFetchD Require ProofsWindow ExamplesWindow.

(* a key at semantic level d in revision v has the same value, read path and level in every
   later revision cur with no write at level d in between ([d_lc Q cur d <= v]) *)
Theorem C16_stable_window_partial :
  forall (Q : progD) (rank : key -> nat), Salsa.CFetchD.ProofsRel.rankedD Q rank ->
  forall v cur d k,
  (forall r d0 d', d0 <= d' -> d_lc Q r d' <= d_lc Q r d0) ->
  (forall r r0 i, r0 <= r -> d_lc Q r (d_idur Q r0 i) <= r0 ->
     d_in Q r i = d_in Q r0 i /\ d_stamp Q r i = d_stamp Q r0 i /\ d_idur Q r i = d_idur Q r0 i) ->
  v <= cur -> d_lc Q cur d <= v -> Salsa.CFetchD.ProofsWindow.durgeD Q rank v d k ->
  ED Q rank cur k = ED Q rank v k /\
  Salsa.CFetchD.ProofsRel.readsb (ED Q rank cur) (d_in Q cur) (d_body Q k)
    = Salsa.CFetchD.ProofsRel.readsb (ED Q rank v) (d_in Q v) (d_body Q k) /\
  Salsa.CFetchD.ProofsWindow.durgeD Q rank cur d k.
Proof. exact Salsa.CFetchD.ProofsWindow.durgeD_stable. Qed.

Check C16_stable_window_partial :
  forall (Q : progD) (rank : key -> nat), Salsa.CFetchD.ProofsRel.rankedD Q rank ->
  forall v cur d k,
  (forall r d0 d', d0 <= d' -> d_lc Q r d' <= d_lc Q r d0) ->
  (forall r r0 i, r0 <= r -> d_lc Q r (d_idur Q r0 i) <= r0 ->
     d_in Q r i = d_in Q r0 i /\ d_stamp Q r i = d_stamp Q r0 i /\ d_idur Q r i = d_idur Q r0 i) ->
  v <= cur -> d_lc Q cur d <= v -> Salsa.CFetchD.ProofsWindow.durgeD Q rank v d k ->
  ED Q rank cur k = ED Q rank v k /\
  Salsa.CFetchD.ProofsRel.readsb (ED Q rank cur) (d_in Q cur) (d_body Q k)
    = Salsa.CFetchD.ProofsRel.readsb (ED Q rank v) (d_in Q v) (d_body Q k) /\
  Salsa.CFetchD.ProofsWindow.durgeD Q rank cur d k.
Print Assumptions C16_stable_window_partial.

(* the short-cut is sound for every memo whose recorded durability is a semantic level: the probe
   [shortcut Q true cur m = true] then implies that the memo's value is the from-scratch value of
   the current revision *)
Theorem C16_shortcut_sound_of_semantic_level_partial :
  forall (Q : progD) (rank : key -> nat), Salsa.CFetchD.ProofsRel.rankedD Q rank ->
  forall cur k (m : memoD),
  (forall r d0 d', d0 <= d' -> d_lc Q r d' <= d_lc Q r d0) ->
  (forall r r0 i, r0 <= r -> d_lc Q r (d_idur Q r0 i) <= r0 ->
     d_in Q r i = d_in Q r0 i /\ d_stamp Q r i = d_stamp Q r0 i /\ d_idur Q r i = d_idur Q r0 i) ->
  o_val m = ED Q rank (o_ver m) k ->
  Salsa.CFetchD.ProofsWindow.durgeD Q rank (o_ver m) (o_dur m) k -> o_ver m <= cur ->
  shortcut Q true cur m = true ->
  o_val m = ED Q rank cur k /\
  Salsa.CFetchD.ProofsRel.readsb (ED Q rank cur) (d_in Q cur) (d_body Q k)
    = Salsa.CFetchD.ProofsRel.readsb (ED Q rank (o_ver m)) (d_in Q (o_ver m)) (d_body Q k) /\
  Salsa.CFetchD.ProofsWindow.durgeD Q rank cur (o_dur m) k.
Proof. exact Salsa.CFetchD.ProofsWindow.shortcut_sound_of_durgeD. Qed.

Check C16_shortcut_sound_of_semantic_level_partial :
  forall (Q : progD) (rank : key -> nat), Salsa.CFetchD.ProofsRel.rankedD Q rank ->
  forall cur k (m : memoD),
  (forall r d0 d', d0 <= d' -> d_lc Q r d' <= d_lc Q r d0) ->
  (forall r r0 i, r0 <= r -> d_lc Q r (d_idur Q r0 i) <= r0 ->
     d_in Q r i = d_in Q r0 i /\ d_stamp Q r i = d_stamp Q r0 i /\ d_idur Q r i = d_idur Q r0 i) ->
  o_val m = ED Q rank (o_ver m) k ->
  Salsa.CFetchD.ProofsWindow.durgeD Q rank (o_ver m) (o_dur m) k -> o_ver m <= cur ->
  shortcut Q true cur m = true ->
  o_val m = ED Q rank cur k /\
  Salsa.CFetchD.ProofsRel.readsb (ED Q rank cur) (d_in Q cur) (d_body Q k)
    = Salsa.CFetchD.ProofsRel.readsb (ED Q rank (o_ver m)) (d_in Q (o_ver m)) (d_body Q k) /\
  Salsa.CFetchD.ProofsWindow.durgeD Q rank cur (o_dur m) k.
Print Assumptions C16_shortcut_sound_of_semantic_level_partial.

(* Non-vacuity, with a HIGH input (CFetchD/ExamplesWindow.v): key 3 depends on the HIGH input only
   (semantic level 2 in revision 1, by [durge3]); revision 2 writes the LOW input — the window
   theorem applies to key 3, and in the run handle 1 holds the pending claim-free store of the
   short-cut for key 3 WHILE handle 2 walks key 4; revision 3 writes the HIGH input — key 3 is
   executed again.  Every returned value is the from-scratch value (by computation). *)
Example C16_high_window_witness :
  Salsa.CFetchD.ProofsRel.rankedD Salsa.CFetchD.ExamplesWindow.Qw Salsa.CFetchD.ExamplesWindow.rankw /\
  Salsa.CFetchD.ProofsWindow.lc_antitone Salsa.CFetchD.ExamplesWindow.Qw /\
  Salsa.CFetchD.ProofsWindow.write_rule Salsa.CFetchD.ExamplesWindow.Qw /\
  Salsa.CFetchD.ProofsWindow.durgeD Salsa.CFetchD.ExamplesWindow.Qw Salsa.CFetchD.ExamplesWindow.rankw 1 2 3 /\
  ED Salsa.CFetchD.ExamplesWindow.Qw Salsa.CFetchD.ExamplesWindow.rankw 2 3
    = ED Salsa.CFetchD.ExamplesWindow.Qw Salsa.CFetchD.ExamplesWindow.rankw 1 3 /\
  creachD 8 Salsa.CFetchD.ExamplesWindow.Qw true Salsa.CFetchD.ExamplesWindow.sw /\
  Salsa.CFetchD.ExamplesWindow.phasesw Salsa.CFetchD.ExamplesWindow.swm 1 = [(3, DMark false (mkR 16 1 2))] /\
  Salsa.CFetchD.ExamplesWindow.phasesw Salsa.CFetchD.ExamplesWindow.swm 2 = [(4, DVerify [ECall 2; ECall 3] true)] /\
  (count_exec 3 1 (cD_log Salsa.CFetchD.ExamplesWindow.sw), count_exec 3 2 (cD_log Salsa.CFetchD.ExamplesWindow.sw),
   count_exec 3 3 (cD_log Salsa.CFetchD.ExamplesWindow.sw)) = (1, 0, 1)%nat /\
  map (fun r => (ED Salsa.CFetchD.ExamplesWindow.Qw Salsa.CFetchD.ExamplesWindow.rankw r 3,
                 ED Salsa.CFetchD.ExamplesWindow.Qw Salsa.CFetchD.ExamplesWindow.rankw r 4)) [1; 2; 3]
    = [(16, 18); (16, 22); (18, 24)].
Proof.
  destruct Salsa.CFetchD.ExamplesWindow.sw_shortcut_while_walking as [P1 P2].
  destruct Salsa.CFetchD.ExamplesWindow.sw_values as (_ & V2 & V3 & _).
  exact (conj Salsa.CFetchD.ExamplesWindow.rankedw (conj Salsa.CFetchD.ExamplesWindow.lc_antitonew
        (conj Salsa.CFetchD.ExamplesWindow.write_rulew (conj Salsa.CFetchD.ExamplesWindow.durge3
        (conj (proj1 Salsa.CFetchD.ExamplesWindow.window3) (conj Salsa.CFetchD.ExamplesWindow.sw_reachable
        (conj P1 (conj P2 (conj V3 V2))))))))).
Qed.

(* THE MODEL-LEVEL THEOREM FOR ALL LEVELS, static paths (CFetchD/ProofsStatic.v): with the
   short-cut on, any number of handles, EVERY durability level (MEDIUM / HIGH stable windows: a memo
   becomes verified in a revision in which its callees were not visited), for programs whose read
   paths do not depend on the revision ([static_paths]) and whose input durabilities do not change
   ([const_dur]), under the write rule of the last-changed vector (antitone in the level, monotone
   in the revision, unchanged inputs over a window without a write at their level).
   Such a program has static semantic levels (CFetchD/ProofsStatic.v, [static_levels_lev]: the
   minimum durability over the inputs a key reads, transitively, computed along the rank), so the
   theorem is [C16_values_computed_shortcut_static_levels_partial] at that level map.
   Invariant: [InvC] of CFetchD/ProofsVal.v at the static-levels discipline: every memo's recorded durability is a
   semantic level of its key ([durgeD], C16_stable_window_partial), recorded edges lie on the read
   path; when the short-cut marks a memo, the ghost set `seen` is closed over its call closure and
   the window theorem gives the values of the whole closure at once. *)
From Salsa.CFetchD Require ProofsStatic ExamplesStatic.

(* static paths and durabilities: every returned value is the from-scratch value, short-cut on *)
Theorem C16_values_computed_shortcut_all_levels_partial :
  forall fuel Q rank s t k r v,
  Salsa.CFetchD.ProofsRel.rankedD Q rank -> Salsa.CFetchD.ProofsRel.stampsD_ok Q -> no_never Q ->
  (forall r0 r' k0, Salsa.CFetchD.ProofsRel.readsb (ED Q rank r0) (d_in Q r0) (d_body Q k0)
                    = Salsa.CFetchD.ProofsRel.readsb (ED Q rank r') (d_in Q r') (d_body Q k0)) ->
  (forall r0 r' i, d_idur Q r0 i = d_idur Q r' i) ->
  (forall r0 d d', d <= d' -> d_lc Q r0 d' <= d_lc Q r0 d) ->
  (forall r0 r' d, r0 <= r' -> d_lc Q r0 d <= d_lc Q r' d) ->
  (forall r1 r0 i, r0 <= r1 -> d_lc Q r1 (d_idur Q r0 i) <= r0 ->
     d_in Q r1 i = d_in Q r0 i /\ d_stamp Q r1 i = d_stamp Q r0 i /\ d_idur Q r1 i = d_idur Q r0 i) ->
  creachD fuel Q true s ->
  In (ERet t k r v) (cD_log s) -> v = ED Q rank r k.
Proof. exact Salsa.CFetchD.ProofsStatic.values_computed_shortcut. Qed.

Check C16_values_computed_shortcut_all_levels_partial :
  forall fuel Q rank s t k r v,
  Salsa.CFetchD.ProofsRel.rankedD Q rank -> Salsa.CFetchD.ProofsRel.stampsD_ok Q -> no_never Q ->
  (forall r0 r' k0, Salsa.CFetchD.ProofsRel.readsb (ED Q rank r0) (d_in Q r0) (d_body Q k0)
                    = Salsa.CFetchD.ProofsRel.readsb (ED Q rank r') (d_in Q r') (d_body Q k0)) ->
  (forall r0 r' i, d_idur Q r0 i = d_idur Q r' i) ->
  (forall r0 d d', d <= d' -> d_lc Q r0 d' <= d_lc Q r0 d) ->
  (forall r0 r' d, r0 <= r' -> d_lc Q r0 d <= d_lc Q r' d) ->
  (forall r1 r0 i, r0 <= r1 -> d_lc Q r1 (d_idur Q r0 i) <= r0 ->
     d_in Q r1 i = d_in Q r0 i /\ d_stamp Q r1 i = d_stamp Q r0 i /\ d_idur Q r1 i = d_idur Q r0 i) ->
  creachD fuel Q true s ->
  In (ERet t k r v) (cD_log s) -> v = ED Q rank r k.
Print Assumptions C16_values_computed_shortcut_all_levels_partial.

(* ... and every memo carries the from-scratch value of its verified_at *)
Theorem C16_memo_writes_sound_shortcut_all_levels_partial :
  forall fuel Q rank s k m,
  Salsa.CFetchD.ProofsRel.rankedD Q rank -> Salsa.CFetchD.ProofsRel.stampsD_ok Q -> no_never Q ->
  Salsa.CFetchD.ProofsStatic.static_paths Q rank -> Salsa.CFetchD.ProofsStatic.const_dur Q ->
  Salsa.CFetchD.ProofsWindow.lc_antitone Q -> Salsa.CFetchD.ProofsStatic.lc_mono Q ->
  Salsa.CFetchD.ProofsWindow.write_rule Q ->
  creachD fuel Q true s ->
  cD_memo s k = Some m -> o_val m = ED Q rank (o_ver m) k.
Proof. exact Salsa.CFetchD.ProofsStatic.memo_sound_shortcut. Qed.

Check C16_memo_writes_sound_shortcut_all_levels_partial :
  forall fuel Q rank s k m,
  Salsa.CFetchD.ProofsRel.rankedD Q rank -> Salsa.CFetchD.ProofsRel.stampsD_ok Q -> no_never Q ->
  Salsa.CFetchD.ProofsStatic.static_paths Q rank -> Salsa.CFetchD.ProofsStatic.const_dur Q ->
  Salsa.CFetchD.ProofsWindow.lc_antitone Q -> Salsa.CFetchD.ProofsStatic.lc_mono Q ->
  Salsa.CFetchD.ProofsWindow.write_rule Q ->
  creachD fuel Q true s ->
  cD_memo s k = Some m -> o_val m = ED Q rank (o_ver m) k.
Print Assumptions C16_memo_writes_sound_shortcut_all_levels_partial.

(* non-vacuity: the HIGH-window witness (C16_high_window_witness: key 3 served through the
   short-cut by handle 1 while handle 2 walks key 4; the HIGH write invalidates it) satisfies every
   hypothesis, so its returned values are the from-scratch values BY THE THEOREM *)
Example C16_high_window_by_theorem :
  forall t k r v, In (ERet t k r v) (cD_log Salsa.CFetchD.ExamplesWindow.sw) ->
  v = ED Salsa.CFetchD.ExamplesWindow.Qw Salsa.CFetchD.ExamplesWindow.rankw r k.
Proof. exact Salsa.CFetchD.ExamplesStatic.sw_values_from_theorem. Qed.

(* DYNAMIC READ PATHS AND DURABILITY-CHANGING REVISIONS, ALL LEVELS (CFetchD/ProofsLevels.v):
   [static_paths] and [const_dur] are not needed.  What is required instead: STATIC SEMANTIC
   LEVELS — a map L such that, in every revision, L k is the minimum over the edges of k's read path of the durability of the input read, resp. of L of the
   key called (DUR_MAX for an empty path).  Which inputs and keys are read may depend on values
   and on the revision, durabilities may change; only that minimum may not.  Then the recorded
   durability of every memo is EXACTLY L of its key (the accumulated minimum is exact: [framT]),
   so the observer inequality [o_dur m <= o_dur md] of Core/DInv.v holds statically; when the
   short-cut marks a memo, `seen` is closed over its call closure and the window theorem gives
   values and read paths of the whole closure at once.  Programs whose semantic level depends on
   the path or the revision are the open case (header, OPEN). *)
From Salsa.CFetchD Require ProofsLevels ExamplesLevels.

(* static semantic levels [L]: every returned value is the from-scratch value, short-cut on *)
Theorem C16_values_computed_shortcut_static_levels_partial :
  forall fuel Q rank (L : key -> dur) s t k r v,
  Salsa.CFetchD.ProofsRel.rankedD Q rank -> Salsa.CFetchD.ProofsRel.stampsD_ok Q -> no_never Q ->
  (forall r0 k0, L k0 = fold_right (fun e acc => N.min (match e with EIn i => d_idur Q r0 i | ECall c => L c end) acc)
                          DUR_MAX (Salsa.CFetchD.ProofsRel.readsb (ED Q rank r0) (d_in Q r0) (d_body Q k0))) ->
  (forall r0 d d', d <= d' -> d_lc Q r0 d' <= d_lc Q r0 d) ->
  (forall r0 r' d, r0 <= r' -> d_lc Q r0 d <= d_lc Q r' d) ->
  (forall r1 r0 i, r0 <= r1 -> d_lc Q r1 (d_idur Q r0 i) <= r0 ->
     d_in Q r1 i = d_in Q r0 i /\ d_stamp Q r1 i = d_stamp Q r0 i /\ d_idur Q r1 i = d_idur Q r0 i) ->
  creachD fuel Q true s ->
  In (ERet t k r v) (cD_log s) -> v = ED Q rank r k.
Proof. exact Salsa.CFetchD.ProofsLevels.values_computed_shortcut. Qed.

Check C16_values_computed_shortcut_static_levels_partial :
  forall fuel Q rank (L : key -> dur) s t k r v,
  Salsa.CFetchD.ProofsRel.rankedD Q rank -> Salsa.CFetchD.ProofsRel.stampsD_ok Q -> no_never Q ->
  (forall r0 k0, L k0 = fold_right (fun e acc => N.min (match e with EIn i => d_idur Q r0 i | ECall c => L c end) acc)
                          DUR_MAX (Salsa.CFetchD.ProofsRel.readsb (ED Q rank r0) (d_in Q r0) (d_body Q k0))) ->
  (forall r0 d d', d <= d' -> d_lc Q r0 d' <= d_lc Q r0 d) ->
  (forall r0 r' d, r0 <= r' -> d_lc Q r0 d <= d_lc Q r' d) ->
  (forall r1 r0 i, r0 <= r1 -> d_lc Q r1 (d_idur Q r0 i) <= r0 ->
     d_in Q r1 i = d_in Q r0 i /\ d_stamp Q r1 i = d_stamp Q r0 i /\ d_idur Q r1 i = d_idur Q r0 i) ->
  creachD fuel Q true s ->
  In (ERet t k r v) (cD_log s) -> v = ED Q rank r k.
Print Assumptions C16_values_computed_shortcut_static_levels_partial.

(* ... and every memo carries the from-scratch value of its verified_at *)
Theorem C16_memo_writes_sound_shortcut_static_levels_partial :
  forall fuel Q rank (L : key -> dur) s k m,
  Salsa.CFetchD.ProofsRel.rankedD Q rank -> Salsa.CFetchD.ProofsRel.stampsD_ok Q -> no_never Q ->
  Salsa.CFetchD.ProofsLevels.static_levels Q rank L ->
  Salsa.CFetchD.ProofsWindow.lc_antitone Q -> Salsa.CFetchD.ProofsLevels.lc_mono Q ->
  Salsa.CFetchD.ProofsWindow.write_rule Q ->
  creachD fuel Q true s ->
  cD_memo s k = Some m -> o_val m = ED Q rank (o_ver m) k.
Proof. exact Salsa.CFetchD.ProofsLevels.memo_sound_shortcut. Qed.

Check C16_memo_writes_sound_shortcut_static_levels_partial :
  forall fuel Q rank (L : key -> dur) s k m,
  Salsa.CFetchD.ProofsRel.rankedD Q rank -> Salsa.CFetchD.ProofsRel.stampsD_ok Q -> no_never Q ->
  Salsa.CFetchD.ProofsLevels.static_levels Q rank L ->
  Salsa.CFetchD.ProofsWindow.lc_antitone Q -> Salsa.CFetchD.ProofsLevels.lc_mono Q ->
  Salsa.CFetchD.ProofsWindow.write_rule Q ->
  creachD fuel Q true s ->
  cD_memo s k = Some m -> o_val m = ED Q rank (o_ver m) k.
Print Assumptions C16_memo_writes_sound_shortcut_static_levels_partial.

(* non-vacuity with a DYNAMIC path (CFetchD/ExamplesLevels.v, Qv): key 4 reads the LOW input and,
   depending on its value, calls key 3 only or keys 2 and 3 — its recorded path changes from
   [EIn 2; ECall 3] to [EIn 2; ECall 2; ECall 3] — while key 3 (HIGH, level 2) is served through
   the short-cut in revision 2 and executed again after the HIGH write; hypotheses proved, values
   by the theorem and by computation *)
Example C16_dynamic_levels_witness :
  Salsa.CFetchD.ProofsLevels.static_levels Salsa.CFetchD.ExamplesLevels.Qv Salsa.CFetchD.ExamplesWindow.rankw
    Salsa.CFetchD.ExamplesLevels.Lv /\
  creachD 8 Salsa.CFetchD.ExamplesLevels.Qv true Salsa.CFetchD.ExamplesLevels.sv /\
  (forall t k r v, In (ERet t k r v) (cD_log Salsa.CFetchD.ExamplesLevels.sv) ->
     v = ED Salsa.CFetchD.ExamplesLevels.Qv Salsa.CFetchD.ExamplesWindow.rankw r k) /\
  deps_of (Salsa.CFetchD.ExamplesLevels.lenv true Salsa.CFetchD.ExamplesWindow.prew cinitD) 4
    = Some (1, 1, 0, [EIn 2; ECall 3]) /\
  deps_of Salsa.CFetchD.ExamplesLevels.sv 4 = Some (3, 3, 0, [EIn 2; ECall 2; ECall 3]) /\
  (count_exec 3 1 (cD_log Salsa.CFetchD.ExamplesLevels.sv), count_exec 3 2 (cD_log Salsa.CFetchD.ExamplesLevels.sv),
   count_exec 3 3 (cD_log Salsa.CFetchD.ExamplesLevels.sv)) = (1, 0, 1)%nat.
Proof.
  destruct Salsa.CFetchD.ExamplesLevels.sv_run as (_ & D1 & D2 & C).
  exact (conj Salsa.CFetchD.ExamplesLevels.static_levelsv (conj Salsa.CFetchD.ExamplesLevels.sv_reachable
        (conj Salsa.CFetchD.ExamplesLevels.sv_values_from_theorem (conj D1 (conj D2 C))))).
Qed.

(* Specification side only (CFetchD/ProofsObserver.v): [first_changed_is_read_again] of
   Core/SpecProofs.v over the resumable bodies of CFetchD — two evaluations of a body either
   agree on every edge of the first read path, or share the path up to and including a first
   edge on which they differ.  It is the lemma behind [frame_changed_lb] / [frame_dur_lb] of
   Core/DInvSem.v, which the open case (header, OPEN) would need. *)
From Salsa.CFetchD Require ProofsObserver.

Theorem C16_first_changed_is_read_again_dyn :
  forall (rec : key -> val) (inp : ikey -> val) (rec' : key -> val) (inp' : ikey -> val) (b : body),
  (forall e, In e (Salsa.CFetchD.ProofsRel.readsb rec inp b) -> Salsa.CFetchD.ProofsRel.esame rec rec' inp inp' e) \/
  (exists pre e post, Salsa.CFetchD.ProofsRel.readsb rec inp b = pre ++ e :: post /\
     (forall x, In x pre -> Salsa.CFetchD.ProofsRel.esame rec rec' inp inp' x) /\
     ~ Salsa.CFetchD.ProofsRel.esame rec rec' inp inp' e /\
     exists post', Salsa.CFetchD.ProofsRel.readsb rec' inp' b = pre ++ e :: post').
Proof. exact Salsa.CFetchD.ProofsObserver.first_changed_is_read_againD. Qed.

Check C16_first_changed_is_read_again_dyn :
  forall (rec : key -> val) (inp : ikey -> val) (rec' : key -> val) (inp' : ikey -> val) (b : body),
  (forall e, In e (Salsa.CFetchD.ProofsRel.readsb rec inp b) -> Salsa.CFetchD.ProofsRel.esame rec rec' inp inp' e) \/
  (exists pre e post, Salsa.CFetchD.ProofsRel.readsb rec inp b = pre ++ e :: post /\
     (forall x, In x pre -> Salsa.CFetchD.ProofsRel.esame rec rec' inp inp' x) /\
     ~ Salsa.CFetchD.ProofsRel.esame rec rec' inp inp' e /\
     exists post', Salsa.CFetchD.ProofsRel.readsb rec' inp' b = pre ++ e :: post').
Print Assumptions C16_first_changed_is_read_again_dyn.
