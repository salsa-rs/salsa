(* Props/C01.v — Incremental results always equal a from-scratch evaluation.
   The statements, each followed by the step from the theorem of coq/Core that proves it:
   Core/SpecProofs.v for the three facts about traces, the files named further down for the
   from-scratch theorem. *)
From Salsa Require Import Base.
From Salsa.Core Require Import Model Spec SpecProofs.

(* A body's run (value and read trace) is a function of the answers to the reads it
   performs: the fact that makes "all recorded dependencies unchanged => same value" sound. *)
Theorem C01_trace_determined : forall (b : body) (e e' : env),
  agree_on e e' (trace e b) -> trace e' b = trace e b /\ run e' b = run e b.
Proof. exact trace_determined. Qed.
Check C01_trace_determined : forall (b : body) (e e' : env),
  agree_on e e' (trace e b) -> trace e' b = trace e b /\ run e' b = run e b.
Print Assumptions C01_trace_determined.

(* Walking an old trace in order, the first read whose answer differs is performed by the
   new run too (so a re-execution caused by a changed dependency reads that dependency). *)
Theorem C01_first_changed_is_read_again : forall (b : body) (e e' : env),
  (agree_on e e' (trace e b)) \/
  (exists pre r post, trace e b = pre ++ r :: post /\ agree_on e e' pre /\
                      answer e r <> answer e' r /\
                      exists post', trace e' b = pre ++ r :: post').
Proof. exact first_changed_is_read_again. Qed.
Check C01_first_changed_is_read_again : forall (b : body) (e e' : env),
  (agree_on e e' (trace e b)) \/
  (exists pre r post, trace e b = pre ++ r :: post /\ agree_on e e' pre /\
                      answer e r <> answer e' r /\
                      exists post', trace e' b = pre ++ r :: post').
Print Assumptions C01_first_changed_is_read_again.

(* The from-scratch specification is well defined for acyclic programs: the value does not
   depend on the fuel once it exceeds the rank. *)
Theorem C01_eval_fuel_irrelevant : forall prog rank, calls_below prog rank ->
  forall sn n m q, (rank q < n)%nat -> (rank q < m)%nat -> eval prog n sn q = eval prog m sn q.
Proof. exact eval_fuel_irrelevant. Qed.
Check C01_eval_fuel_irrelevant : forall prog rank, calls_below prog rank ->
  forall sn n m q, (rank q < n)%nat -> (rank q < m)%nat -> eval prog n sn q = eval prog m sn q.
Print Assumptions C01_eval_fuel_irrelevant.

(* The from-scratch theorem over the executable Core model (Core/Model.v), for every acyclic
   program of deterministic bodies (input reads, calls with dynamic keys, branches, untracked
   reads, fault-injection points), every no_eq / LRU configuration, every assignment of initial
   durabilities to the input fields (LOW, MEDIUM, HIGH, NEVER_CHANGE) and every history of
   operations: writes that keep, raise or lower the field's durability (a write to a
   NEVER_CHANGE field is rejected with a panic and changes nothing), synthetic writes of any
   durability, cell changes followed by a new revision, reads in any order, LRU capacity
   changes, explicit eviction, fault switches:
   every Get returns eval of the current snapshot — or unwinds with the backdate-violation
   panic / an injected panic — and is never out of fuel, never a cycle panic.
   In particular the durability short-cut (shallow verification of a memo whose durability
   level saw no write since it was verified) never yields a stale value.
   Proof: Core/DurSem.v, DInv.v, DInvSem.v, LevelOps.v (the level functions, for any invariant
   that supplies [level_facts]), DInvOps.v, DInvTop.v. *)
From Salsa.Core Require Import Inv InvTop DInvTop.

Theorem C01_from_scratch :
  forall (prog : qkey -> body) (noeq : qkey -> bool) (fams : list N)
         (rank : qkey -> nat) (NF : nat),
  calls_below prog rank -> (forall q, (rank q < NF)%nat) ->
  forall fuel, (forall p, (rank p < fuel)%nat) ->
  forall iv idur lru0 ops,
    (forall i, idur i <= 3) -> Forall dur_op ops -> wf_ops false ops ->
    outs_ok prog noeq fams NF fuel (init iv idur lru0) ops.
Proof.
  intros prog noeq fams rank NF Hrank Hbound.
  exact (from_scratch_dur_init prog noeq fams rank Hrank NF Hbound).
Qed.
Check C01_from_scratch :
  forall (prog : qkey -> body) (noeq : qkey -> bool) (fams : list N)
         (rank : qkey -> nat) (NF : nat),
  calls_below prog rank -> (forall q, (rank q < NF)%nat) ->
  forall fuel, (forall p, (rank p < fuel)%nat) ->
  forall iv idur lru0 ops,
    (forall i, idur i <= 3) -> Forall dur_op ops -> wf_ops false ops ->
    outs_ok prog noeq fams NF fuel (init iv idur lru0) ops.
Print Assumptions C01_from_scratch.

(* The sharp form: the debug-build backdate-violation assertion is unreachable (changed_at
   stamps never decrease over time: a re-execution either reads what the old run read, whose
   stamps bound the old changed_at, or re-reads the first changed dependency, whose stamp is
   later than the old verified_at; an untracked read stamps the frame with the current
   revision).  So every Get returns the from-scratch value, or unwinds with an INJECTED panic
   while a fault switch is on -- nothing else. *)
Theorem C01_from_scratch_strict :
  forall (prog : qkey -> body) (noeq : qkey -> bool) (fams : list N)
         (rank : qkey -> nat) (NF : nat),
  calls_below prog rank -> (forall q, (rank q < NF)%nat) ->
  forall fuel, (forall p, (rank p < fuel)%nat) ->
  forall iv idur lru0 ops,
    (forall i, idur i <= 3) -> Forall dur_op ops -> wf_ops false ops ->
    outs_ok_strict prog noeq fams NF fuel (init iv idur lru0) ops.
Proof.
  intros prog noeq fams rank NF Hrank Hbound.
  exact (from_scratch_dur_strong_init prog noeq fams rank Hrank NF Hbound).
Qed.
Check C01_from_scratch_strict :
  forall (prog : qkey -> body) (noeq : qkey -> bool) (fams : list N)
         (rank : qkey -> nat) (NF : nat),
  calls_below prog rank -> (forall q, (rank q < NF)%nat) ->
  forall fuel, (forall p, (rank p < fuel)%nat) ->
  forall iv idur lru0 ops,
    (forall i, idur i <= 3) -> Forall dur_op ops -> wf_ops false ops ->
    outs_ok_strict prog noeq fams NF fuel (init iv idur lru0) ops.
Print Assumptions C01_from_scratch_strict.

(* what [outs_ok_strict] says about one Get, and that it refines [outs_ok] *)
Theorem C01_strict_outcomes : forall prog noeq fams NF fuel s q r,
  (get_ok_strict prog NF s q r <->
   (r = Ok (eval prog NF (snap_of s) q) \/
    (r = Panic PInjected /\ ((exists c, d_pcell s c <> 0) \/ d_evfault s <> None)))) /\
  (forall ops, outs_ok_strict prog noeq fams NF fuel s ops -> outs_ok prog noeq fams NF fuel s ops).
Proof.
  intros prog noeq fams NF fuel s q r. split; [reflexivity|].
  intros ops. apply outs_ok_strict_outs_ok.
Qed.
Check C01_strict_outcomes : forall prog noeq fams NF fuel s q r,
  (get_ok_strict prog NF s q r <->
   (r = Ok (eval prog NF (snap_of s) q) \/
    (r = Panic PInjected /\ ((exists c, d_pcell s c <> 0) \/ d_evfault s <> None)))) /\
  (forall ops, outs_ok_strict prog noeq fams NF fuel s ops -> outs_ok prog noeq fams NF fuel s ops).
Print Assumptions C01_strict_outcomes.

(* what the hypotheses on durabilities say: the four levels of the API *)
Theorem C01_dur_op_spec : forall o,
  dur_op o <-> (forall i v d, o = OSet i v (Some d) -> d <= 3).
Proof.
  intros o. split.
  - intros Hd i v d ->. exact Hd.
  - intros Hx. destruct o as [i v [d|] | d | c v | c v | ef | q | fam n |]; cbn; try exact I.
    apply (Hx i v d eq_refl).
Qed.
Check C01_dur_op_spec : forall o,
  dur_op o <-> (forall i v d, o = OSet i v (Some d) -> d <= 3).
Print Assumptions C01_dur_op_spec.

(* the instance for LOW durabilities: every input starts LOW and every field write that names
   a durability names LOW (synthetic writes may still be of any level) *)
Theorem C01_from_scratch_partial :
  forall (prog : qkey -> body) (noeq : qkey -> bool) (fams : list N)
         (rank : qkey -> nat) (NF : nat),
  calls_below prog rank -> (forall q, (rank q < NF)%nat) ->
  forall fuel, (forall p, (rank p < fuel)%nat) ->
  forall iv lru0 ops,
    Forall low_op ops -> wf_ops false ops ->
    outs_ok prog noeq fams NF fuel (init iv (fun _ => 0) lru0) ops.
Proof.
  intros prog noeq fams rank NF Hrank Hbound.
  exact (from_scratch_low_again prog noeq fams rank Hrank NF Hbound).
Qed.
Check C01_from_scratch_partial :
  forall (prog : qkey -> body) (noeq : qkey -> bool) (fams : list N)
         (rank : qkey -> nat) (NF : nat),
  calls_below prog rank -> (forall q, (rank q < NF)%nat) ->
  forall fuel, (forall p, (rank p < fuel)%nat) ->
  forall iv lru0 ops,
    Forall low_op ops -> wf_ops false ops ->
    outs_ok prog noeq fams NF fuel (init iv (fun _ => 0) lru0) ops.
Print Assumptions C01_from_scratch_partial.

(* non-vacuity: a concrete history with a HIGH input, a memo served through the short-cut
   after a LOW write, a HIGH write that invalidates it, durability changes and a frozen field
   satisfies the hypotheses and returns the from-scratch values *)
From Salsa.Core Require Import DurExamples.
Theorem C01_durability_example :
  outs_ok ex_prog ex_noeq [] 2 2 ex_init ex_ops /\
  snd (ex_run 17) =
    [Ok 3; Ok 2; Ok 0; Ok 2; Ok 7; Ok 0; Ok 5; Ok 10; Ok 0; Ok 0; Ok 11; Ok 0; Ok 11; Ok 0; Ok 16;
     Panic PNeverChange; Ok 16] /\
  d_log (fst (ex_run 4)) = [EvValidate (1, 0); EvExec (1, 0); EvExec (0, 0)] /\
  firstn 1 (d_log (fst (ex_run 7))) = [EvExec (1, 0)].
Proof.
  split; [exact ex_outs_ok|]. split; [exact (proj1 ex_values)|].
  destruct ex_shortcut_fires as (_ & _ & A & _ & _ & _ & B). split; assumption.
Qed.
Check C01_durability_example :
  outs_ok ex_prog ex_noeq [] 2 2 ex_init ex_ops /\
  snd (ex_run 17) =
    [Ok 3; Ok 2; Ok 0; Ok 2; Ok 7; Ok 0; Ok 5; Ok 10; Ok 0; Ok 0; Ok 11; Ok 0; Ok 11; Ok 0; Ok 16;
     Panic PNeverChange; Ok 16] /\
  d_log (fst (ex_run 4)) = [EvValidate (1, 0); EvExec (1, 0); EvExec (0, 0)] /\
  firstn 1 (d_log (fst (ex_run 7))) = [EvExec (1, 0)].
Print Assumptions C01_durability_example.
