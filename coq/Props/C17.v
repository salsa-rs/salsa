(* Props/C17.v — C17 "A function executes at most once per key per revision across all handles".

   Model: CFetch/Model.v — the concurrent fetch / maybe_changed_after loop over shared memos and
   the Proto sync table + dependency graph, one atomic step per shared access, any number of
   handles, any interleaving, any number of revisions (a new revision only when every handle is
   idle).  Proofs: CFetch/ProofsSafe.v, CFetch/ProofsTop.v; the same statements over CFetchD
   (dynamic call lists, durability short-cut) at the end of the file.

   Reading guide.
   * [creach fuel P s]: [s] is reachable from the initial state by ANY sequence of global steps
     ([GStep t c]: one atomic step of handle [t], [c] resolving its choice between verifying and
     executing; [GSpawn t ks]: handle [t] receives requests; [GBump]: a write, enabled only when
     all handles are idle).  No hypothesis on the program: also for cyclic call graphs (there a
     handle answered Cycle parks — the model has no panics, cancellation or eviction, which
     are exactly the exclusions of C17).
   * [EExec t k r] in the log = the WillExecute event of key [k] in revision [r].
   * the argument: an execution is only logged by the holder of the claim
     ([C17_exec_by_claim_holder]); claims are exclusive ([C17_claims_exclusive], from Proto's
     try_claim); the holder re-read the memo after claiming and found it not verified in this
     revision; whoever logged an execution publishes a memo verified in this revision before
     releasing; a memo verified in revision r stays so during r. *)
From Salsa Require Import Base.
From Salsa.Proto Require Import Model.
From Salsa.CFetch Require Import Model ProofsProto ProofsRel ProofsSafe ProofsLive ProofsTop Examples.

Theorem C17_once :
  forall fuel P s, creach fuel P s ->
  forall k r, (count_exec k r (c_log s) <= 1)%nat.
Proof. exact once_per_revision. Qed.

Check C17_once :
  forall fuel P s, creach fuel P s ->
  forall k r, (count_exec k r (c_log s) <= 1)%nat.
Print Assumptions C17_once.

(* two rounds in two revisions, two handles requesting the same key: key 2 is executed once in
   revision 1 (handle 2 waits and reuses) and once in revision 2, key 1 once in revision 1 and
   not at all in revision 2 (marked verified) *)
Example C17_once_witness :
  creach 10 ex_prog ex_state2 /\
  (count_exec 2 1 (c_log ex_state2), count_exec 2 2 (c_log ex_state2),
   count_exec 1 1 (c_log ex_state2), count_exec 1 2 (c_log ex_state2)) = (1, 1, 1, 0)%nat.
Proof. exact (conj ex_state2_reachable ex_counts). Qed.

Theorem C17_claims_exclusive :
  forall fuel P s t1 f1 t2 f2, creach fuel P s ->
  In f1 (stack_of s t1) -> In f2 (stack_of s t2) ->
  holding (f_phase f1) = true -> holding (f_phase f2) = true -> f_key f1 = f_key f2 -> t1 = t2.
Proof. exact claims_exclusive. Qed.

Check C17_claims_exclusive :
  forall fuel P s t1 f1 t2 f2, creach fuel P s ->
  In f1 (stack_of s t1) -> In f2 (stack_of s t2) ->
  holding (f_phase f1) = true -> holding (f_phase f2) = true -> f_key f1 = f_key f2 -> t1 = t2.
Print Assumptions C17_claims_exclusive.

(* the step that logs WillExecute is taken by the handle that holds the claim on the key, and
   if the key's memo is verified in this revision at that moment then the handle had found it
   unverified when it re-checked after claiming (it is in the middle of a verification walk
   that started before another handle's durability short-cut marked the memo) *)
Theorem C17_exec_by_claim_holder :
  forall fuel P s t c s' t1 k1 r1,
  creach fuel P s -> tstep fuel P s t c = Some s' -> c_log s' = EExec t1 k1 r1 :: c_log s ->
  t1 = t /\ r1 = c_cur s /\
  (exists st, sync (c_proto s) k1 = Some st /\ ss_id st = OThread t) /\
  (forall m, c_memo s k1 = Some m -> m_ver m = c_cur s ->
     exists l below, stack_of s t = (k1 @: PVerify l) :: below).
Proof. exact exec_by_holder. Qed.

Check C17_exec_by_claim_holder :
  forall fuel P s t c s' t1 k1 r1,
  creach fuel P s -> tstep fuel P s t c = Some s' -> c_log s' = EExec t1 k1 r1 :: c_log s ->
  t1 = t /\ r1 = c_cur s /\
  (exists st, sync (c_proto s) k1 = Some st /\ ss_id st = OThread t) /\
  (forall m, c_memo s k1 = Some m -> m_ver m = c_cur s ->
     exists l below, stack_of s t = (k1 @: PVerify l) :: below).
Print Assumptions C17_exec_by_claim_holder.

(* the blocked state of the witness run: handle 1 executes key 2 (holding its claim), handle 2
   waits for it *)
Example C17_exec_by_claim_holder_witness :
  creach 10 ex_prog ex_blocked /\
  (th_stack (c_thr ex_blocked 1), th_stack (c_thr ex_blocked 2),
   edges (dg (c_proto ex_blocked)) 2) =
  ([mkFrame 1 PStart; mkFrame 2 (PExec [])], [mkFrame 2 PWait], Some (1, 2)).
Proof. exact (conj ex_blocked_reachable ex_blocked_shape). Qed.

(* The same over CFetchD (CFetchD/Model.v): dynamic call lists (bodies as resumable
   computations), durabilities, and the durability short-cut, in which a handle that does NOT
   hold the claim stores verified_at (the switch [sc]; proved for both settings).  Proved
   directly (CFetchD/ProofsSync.v from Proto's try_claim, CFetchD/ProofsOnce.v), any program. *)
From Salsa.CFetchD Require Model ProofsRel ProofsSync ProofsVal ProofsOnce Examples.
Import Salsa.CFetchD.Model Salsa.CFetchD.ProofsSync Salsa.CFetchD.ProofsOnce Salsa.CFetchD.Examples.

Theorem C17_once_dyn :
  forall fuel Q sc s, creachD fuel Q sc s ->
  forall k r, (count_exec k r (cD_log s) <= 1)%nat.
Proof. exact once_per_revisionD. Qed.

Check C17_once_dyn :
  forall fuel Q sc s, creachD fuel Q sc s ->
  forall k r, (count_exec k r (cD_log s) <= 1)%nat.
Print Assumptions C17_once_dyn.

Theorem C17_claims_exclusive_dyn :
  forall fuel Q sc s, creachD fuel Q sc s -> exclD s.
Proof. exact claims_exclusiveD. Qed.

Check C17_claims_exclusive_dyn :
  forall fuel Q sc s, creachD fuel Q sc s -> exclD s.
Print Assumptions C17_claims_exclusive_dyn.

Theorem C17_exec_by_claim_holder_dyn :
  forall fuel Q sc s t c s' t1 k1 r1,
  creachD fuel Q sc s -> tstepD fuel Q sc s t c = Some s' ->
  cD_log s' = EExec t1 k1 r1 :: cD_log s ->
  t1 = t /\ r1 = cD_cur s /\
  (exists st, sync (cD_proto s) k1 = Some st /\ ss_id st = OThread t) /\
  (forall m, cD_memo s k1 = Some m -> o_ver m = cD_cur s ->
     exists l ok below, Salsa.CFetchD.ProofsRel.stackD s t = mkFD k1 (DVerify l ok) :: below).
Proof. exact exec_by_holderD. Qed.

Check C17_exec_by_claim_holder_dyn :
  forall fuel Q sc s t c s' t1 k1 r1,
  creachD fuel Q sc s -> tstepD fuel Q sc s t c = Some s' ->
  cD_log s' = EExec t1 k1 r1 :: cD_log s ->
  t1 = t /\ r1 = cD_cur s /\
  (exists st, sync (cD_proto s) k1 = Some st /\ ss_id st = OThread t) /\
  (forall m, cD_memo s k1 = Some m -> o_ver m = cD_cur s ->
     exists l ok below, Salsa.CFetchD.ProofsRel.stackD s t = mkFD k1 (DVerify l ok) :: below).
Print Assumptions C17_exec_by_claim_holder_dyn.

(* two handles, three revisions, short-cut on: a body that reads nothing is executed once in
   three revisions, a body whose input did not change is not re-executed, everything else once
   per revision *)
Example C17_once_dyn_witness :
  creachD 8 Qx true s2c /\
  (count_exec 4 1 (cD_log s2c), count_exec 4 2 (cD_log s2c), count_exec 4 3 (cD_log s2c),
   count_exec 1 1 (cD_log s2c), count_exec 1 2 (cD_log s2c), count_exec 3 2 (cD_log s2c),
   count_exec 3 3 (cD_log s2c)) = (1, 1, 1, 1, 0, 0, 1)%nat.
Proof. exact (conj s2c_reachable run2c_counts). Qed.
