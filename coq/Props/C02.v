(* Props/C02.v — Durabilities never cause stale results; never-change fields stay frozen.
   The statements, each followed by the step from the theorem of coq/Kern or coq/Core that
   proves it. *)
From Salsa Require Import Base.
From Salsa.gen Require Import Kernels.
From Salsa.Kern Require Import CoreK K1_Durability K2_WriteReport K3_Shortcut.
From Salsa.Core Require Import Model Spec ReuseProofs Inv InvTop DInvTop DurExamples.

(* Over the kernels translated from the Rust source (coq/gen/Kernels.v): *)

(* report_tracked_write(d) stamps exactly the levels 1..=d with the current revision *)
Theorem C02_write_report_levels : forall j cur old d,
  cur <> old -> (k_report_write_slot j cur old d = cur <-> 1 <= j <= d).
Proof. exact k_report_write_slot_iff. Qed.
Check C02_write_report_levels : forall j cur old d,
  cur <> old -> (k_report_write_slot j cur old d = cur <-> 1 <= j <= d).
Print Assumptions C02_write_report_levels.

(* a LOW write touches no last-changed level; NEVER_CHANGE is the only rejected durability *)
Theorem C02_write_report_low_never : forall j cur old d,
  k_report_write_slot j cur old k_DUR_LOW = old /\
  (k_report_write_rejects d = true <-> d = k_DUR_NEVER).
Proof. intros; split; [apply k_report_write_slot_low | apply k_report_write_rejects_iff]. Qed.
Check C02_write_report_low_never : forall j cur old d,
  k_report_write_slot j cur old k_DUR_LOW = old /\
  (k_report_write_rejects d = true <-> d = k_DUR_NEVER).
Print Assumptions C02_write_report_low_never.

(* last_changed: LOW is the current revision, NEVER_CHANGE is the start revision; the
   vector stays declining under a write report *)
Theorem C02_last_changed : forall r0 r1 r2 d,
  k_last_changed_revision r0 r1 r2 k_DUR_LOW = r0 /\
  k_last_changed_revision r0 r1 r2 3 = 1 /\
  (r2 <= r1 -> r1 <= r0 ->
   k_report_write_slot 2 r0 r2 d <= k_report_write_slot 1 r0 r1 d /\
   k_report_write_slot 1 r0 r1 d <= r0).
Proof.
  intros. split; [apply k_last_changed_revision_low|]. split; [apply k_last_changed_revision_3|].
  apply k_report_write_declining.
Qed.
Check C02_last_changed : forall r0 r1 r2 d,
  k_last_changed_revision r0 r1 r2 k_DUR_LOW = r0 /\
  k_last_changed_revision r0 r1 r2 3 = 1 /\
  (r2 <= r1 -> r1 <= r0 ->
   k_report_write_slot 2 r0 r2 d <= k_report_write_slot 1 r0 r1 d /\
   k_report_write_slot 1 r0 r1 d <= r0).
Print Assumptions C02_last_changed.

(* the short-cut comparison and the backdate durability guard *)
Theorem C02_shortcut_comparisons : forall lc va n o,
  (k_shallow_ok lc va = true <-> lc <= va) /\ (k_can_backdate_dur n o = true <-> o <= n).
Proof. intros; split; [apply k_shallow_ok_iff | apply k_can_backdate_dur_iff]. Qed.
Check C02_shortcut_comparisons : forall lc va n o,
  (k_shallow_ok lc va = true <-> lc <= va) /\ (k_can_backdate_dur n o = true <-> o <= n).
Print Assumptions C02_shortcut_comparisons.

(* Frozen fields, over the Core model: in EVERY state, with every program. *)
Theorem C02_frozen : forall prog noeq fams fuel s i v d,
  f_dur (d_in s i) = D_NEVER ->
  (* a write to the field panics and changes no input value or durability *)
  snd (step prog noeq fams fuel s (OSet i v d)) = Panic PNeverChange /\
  d_in (fst (step prog noeq fams fuel s (OSet i v d))) = d_in s /\
  (* a never-change synthetic write panics and changes no input *)
  snd (step prog noeq fams fuel s (OSynth D_NEVER)) = Panic PNeverChange /\
  d_in (fst (step prog noeq fams fuel s (OSynth D_NEVER))) = d_in s /\
  (* and every other write/eviction/capacity operation leaves the field alone *)
  (forall o, (forall j v' d', o = OSet j v' d' -> j <> i) -> (forall q, o <> OGet q) ->
             d_in (fst (step prog noeq fams fuel s o)) i = d_in s i).
Proof.
  intros prog noeq fams fuel s i v d Hn.
  destruct (frozen_set prog noeq fams fuel s i v d Hn) as [A B].
  destruct (frozen_synth prog noeq fams fuel s) as [C D].
  split; [exact A|]. split; [exact B|]. split; [exact C|]. split; [exact D|].
  intros o Ho Hq. apply other_ops_keep_field; assumption.
Qed.
Check C02_frozen : forall prog noeq fams fuel s i v d,
  f_dur (d_in s i) = D_NEVER ->
  snd (step prog noeq fams fuel s (OSet i v d)) = Panic PNeverChange /\
  d_in (fst (step prog noeq fams fuel s (OSet i v d))) = d_in s /\
  snd (step prog noeq fams fuel s (OSynth D_NEVER)) = Panic PNeverChange /\
  d_in (fst (step prog noeq fams fuel s (OSynth D_NEVER))) = d_in s /\
  (forall o, (forall j v' d', o = OSet j v' d' -> j <> i) -> (forall q, o <> OGet q) ->
             d_in (fst (step prog noeq fams fuel s o)) i = d_in s i).
Print Assumptions C02_frozen.

(* The from-scratch theorem for histories whose inputs and writes carry arbitrary durabilities:
   initial durabilities LOW/MEDIUM/HIGH/NEVER_CHANGE per field, writes that keep, raise or lower
   the field's durability in the same write, synthetic writes of any level.  Every Get returns
   the from-scratch value of the current inputs: in particular a memo that is re-verified by the
   durability short-cut alone (last_changed(durability) <= verified_at) is never stale.
   The ingredients, all machine-checked (Core/DurSem.v, DInv*.v): the write rule (set_field
   reports the OLD durability to report_tracked_write, then installs the new one) gives
   "an input whose level was not written after r is unchanged at r+1" ([inv_wr]); semantic
   durability levels [durge] with support constancy over write-free windows ([durge_stable]);
   memo durabilities are lower bounds of the semantic level ([mo_durge]) and decrease along
   recorded dependencies for every observer ([mo_obs], preserved by the can_backdate guard
   "new durability >= old"). *)
Theorem C02_durability :
  forall (prog : qkey -> body) (noeq : qkey -> bool) (fams : list N) (rank : qkey -> nat) (NF : nat),
  calls_below prog rank -> (forall q, (rank q < NF)%nat) ->
  forall fuel, (forall p, (rank p < fuel)%nat) ->
  forall iv idur lru0 ops,
    (forall i, idur i <= 3) -> Forall dur_op ops -> wf_ops false ops ->
    outs_ok prog noeq fams NF fuel (init iv idur lru0) ops.
Proof.
  intros prog noeq fams rank NF Hrank Hbound.
  exact (from_scratch_dur_init prog noeq fams rank Hrank NF Hbound).
Qed.
Check C02_durability :
  forall (prog : qkey -> body) (noeq : qkey -> bool) (fams : list N) (rank : qkey -> nat) (NF : nat),
  calls_below prog rank -> (forall q, (rank q < NF)%nat) ->
  forall fuel, (forall p, (rank p < fuel)%nat) ->
  forall iv idur lru0 ops,
    (forall i, idur i <= 3) -> Forall dur_op ops -> wf_ops false ops ->
    outs_ok prog noeq fams NF fuel (init iv idur lru0) ops.
Print Assumptions C02_durability.

(* The bounds on the durability values are necessary (the model's [dur] is a number; the Rust
   Durability has exactly the four levels 0..3).  The statement without them is FALSE of the
   model: an out-of-range level 4 is treated as never-changing by memos but still accepts
   writes (Core/DurExamples.v). *)
Definition C02_durability_full_statement : Prop :=
  forall (prog : qkey -> body) (noeq : qkey -> bool) (fams : list N) (rank : qkey -> nat) (NF : nat),
  calls_below prog rank -> (forall q, (rank q < NF)%nat) ->
  forall fuel, (forall p, (rank p < fuel)%nat) ->
  forall iv idur lru0 ops, wf_ops false ops ->
    outs_ok prog noeq fams NF fuel (init iv idur lru0) ops.

Theorem C02_durability_needs_levels : ~ C02_durability_full_statement.
Proof.
  intros Hall.
  apply (proj2 out_of_range_durability_is_stale).
  apply (Hall ex_prog ex_noeq [] ex_rank 2%nat ex_calls_below ex_bound 2%nat ex_bound).
  cbn. repeat split.
Qed.
Check C02_durability_needs_levels : ~ C02_durability_full_statement.
Print Assumptions C02_durability_needs_levels.

(* [C02_durability_full_statement] with the levels bounded is C02_durability *)
Theorem C02_durability_full_statement_bounded :
  forall (prog : qkey -> body) (noeq : qkey -> bool) (fams : list N) (rank : qkey -> nat) (NF : nat),
  calls_below prog rank -> (forall q, (rank q < NF)%nat) ->
  forall fuel, (forall p, (rank p < fuel)%nat) ->
  forall iv idur lru0 ops, (forall i, idur i <= 3) -> Forall dur_op ops -> wf_ops false ops ->
    outs_ok prog noeq fams NF fuel (init iv idur lru0) ops.
Proof. exact C02_durability. Qed.
Check C02_durability_full_statement_bounded :
  forall (prog : qkey -> body) (noeq : qkey -> bool) (fams : list N) (rank : qkey -> nat) (NF : nat),
  calls_below prog rank -> (forall q, (rank q < NF)%nat) ->
  forall fuel, (forall p, (rank p < fuel)%nat) ->
  forall iv idur lru0 ops, (forall i, idur i <= 3) -> Forall dur_op ops -> wf_ops false ops ->
    outs_ok prog noeq fams NF fuel (init iv idur lru0) ops.
Print Assumptions C02_durability_full_statement_bounded.

(* the instance for LOW durabilities: every input starts LOW and every field write that names
   a durability names LOW (synthetic writes may still be of any level) *)
Theorem C02_durability_partial :
  forall (prog : qkey -> body) (noeq : qkey -> bool) (fams : list N) (rank : qkey -> nat) (NF : nat),
  calls_below prog rank -> (forall q, (rank q < NF)%nat) ->
  forall fuel, (forall p, (rank p < fuel)%nat) ->
  forall iv lru0 ops,
    Forall low_op ops -> wf_ops false ops ->
    outs_ok prog noeq fams NF fuel (init iv (fun _ => 0) lru0) ops.
Proof.
  intros prog noeq fams rank NF Hrank Hbound.
  exact (from_scratch_low_again prog noeq fams rank Hrank NF Hbound).
Qed.
Check C02_durability_partial :
  forall (prog : qkey -> body) (noeq : qkey -> bool) (fams : list N) (rank : qkey -> nat) (NF : nat),
  calls_below prog rank -> (forall q, (rank q < NF)%nat) ->
  forall fuel, (forall p, (rank p < fuel)%nat) ->
  forall iv lru0 ops,
    Forall low_op ops -> wf_ops false ops ->
    outs_ok prog noeq fams NF fuel (init iv (fun _ => 0) lru0) ops.
Print Assumptions C02_durability_partial.

(* the short-cut at work on a concrete history (see Core/DurExamples.v) *)
Theorem C02_shortcut_example :
  d_log (fst (ex_run 3)) = [EvExec (1, 0); EvExec (0, 0)] /\
  option_map m_verified (d_memo (fst (ex_run 3)) (1, 0)) = Some 1 /\
  d_log (fst (ex_run 4)) = [EvValidate (1, 0); EvExec (1, 0); EvExec (0, 0)] /\
  option_map (fun m => (m_verified m, m_changed m, m_dur m)) (d_memo (fst (ex_run 4)) (1, 0)) = Some (2, 1, 2) /\
  d_revs (fst (ex_run 4)) = {| r_cur := 2; r_med := 1; r_high := 1 |} /\
  d_revs (fst (ex_run 6)) = {| r_cur := 3; r_med := 3; r_high := 3 |} /\
  firstn 1 (d_log (fst (ex_run 7))) = [EvExec (1, 0)].
Proof. exact ex_shortcut_fires. Qed.
Check C02_shortcut_example :
  d_log (fst (ex_run 3)) = [EvExec (1, 0); EvExec (0, 0)] /\
  option_map m_verified (d_memo (fst (ex_run 3)) (1, 0)) = Some 1 /\
  d_log (fst (ex_run 4)) = [EvValidate (1, 0); EvExec (1, 0); EvExec (0, 0)] /\
  option_map (fun m => (m_verified m, m_changed m, m_dur m)) (d_memo (fst (ex_run 4)) (1, 0)) = Some (2, 1, 2) /\
  d_revs (fst (ex_run 4)) = {| r_cur := 2; r_med := 1; r_high := 1 |} /\
  d_revs (fst (ex_run 6)) = {| r_cur := 3; r_med := 3; r_high := 3 |} /\
  firstn 1 (d_log (fst (ex_run 7))) = [EvExec (1, 0)].
Print Assumptions C02_shortcut_example.
