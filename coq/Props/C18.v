(* Props/C18.v — C18 "Cross-thread cycles terminate with single-threaded results".
   Proofs: CCycle/ProtoProofs.v (protocol level, over Proto/Model.v), CCycle/Proofs.v (values),
   witnesses in CCycle/Examples.v (the run of [C18_nested_scenario] is evaluated here).

   What is proved, and for what.
   (i)  Protocol level, for EVERY reachable state of the claim / wait / transfer protocol, any
        number of threads and queries: the hand-over of an inner cycle head's lock to the outer
        head's query ([C18_transfer_progress]), the release of the outer head
        ([C18_outer_release_wakes_nested]), and who a claimant is told to wait for
        ([C18_claim_never_waits_into_cycle], [C18_transferred_claim_resolves]).
   (ii) Values, for EVERY monotone program, every snapshot and ANY multi-handle final state
        (however it was reached: any schedule, any number of handles): if the decidable
        certificate holds, every returned value is the single-threaded result
        ([C18_values_certified], [C18_values_certified_seen], [C18_schedule_independent],
        [C18_fallback_certified_partial]); every value ANY interleaving can produce lies below
        the least fixpoint ([C18_seen_below]).
   (iii) The abstract chaotic multi-handle iteration (NOT a transcription of salsa's
        algorithm): every schedule makes at most height x nodes changing steps, every schedule
        that keeps sweeping ends at the least fixpoint, and the machine form of the full
        statement holds for it ([C18_chaotic_changes_bounded], [C18_chaotic_terminates_lfp],
        [C18_full_statement_abstract_machine]).
   NOT proved: the full statement for a faithful composition of Cycle/Model.v with
   Proto/Model.v ([C18_full_statement], a Definition without proof; that machine is not
   written).  The gap is closed PER RUN by checks/C18.py: termination by shuttle's deadlock detection and step
   bound on every explored schedule, the certificate of (ii) evaluated on every multi-threaded
   final state, every recorded protocol step replayed through Proto/Model.v. *)
From Salsa Require Import Base.
From Salsa.Core Require Import Model Spec.
From Salsa.Cycle Require Import Spec.
From Salsa.Proto Require Import Model ProofsGraph ProofsInv ProofsWake ProofsSubtree ProofsStep.
From Salsa.CCycle Require Import Model Proofs ProtoProofs.
From Salsa.CCycle Require Examples.

(* ================================================================ (i) protocol level *)

(* An inner cycle head (thread t, query k) hands its lock to the query n of the outer head
   (owner [id]).  From ANY reachable state: the successor is reachable (so I1–I3 of C19 hold:
   the wait graph is acyclic, the transfer relation a forest); from every thread the wait graph
   leads to a RUNNING thread; exactly the threads in W (all blocked before) are woken, each with
   Completed; nobody else's wait changes; t itself either now waits for the new owner's query
   or keeps running, and holds no stale wait result. *)
Theorem C18_transfer_progress :
  forall fuel s t k n id s' b,
  reachable fuel s -> pre s (OTransfer t k n id) ->
  step fuel s (OTransfer t k n id) = ROk (s', XTransfer b) ->
  reachable fuel s' /\
  (forall x, exists r, reaches (eproj (dg s')) x r /\ edges (dg s') r = None) /\
  exists W, NoDup W /\ ~ In t W /\
    (forall d, In d W -> edges (dg s) d <> None /\ edges (dg s') d = None /\
                         wres (dg s') d = Some Completed) /\
    (forall d, ~ In d W -> d <> t ->
               wait_key (dg s') d = wait_key (dg s) d /\ wres (dg s') d = wres (dg s) d) /\
    (if b then wait_key (dg s') t = Some n else edges (dg s') t = None) /\
    wres (dg s') t = None.
Proof. exact transfer_progress. Qed.

Check C18_transfer_progress :
  forall fuel s t k n id s' b,
  reachable fuel s -> pre s (OTransfer t k n id) ->
  step fuel s (OTransfer t k n id) = ROk (s', XTransfer b) ->
  reachable fuel s' /\
  (forall x, exists r, reaches (eproj (dg s')) x r /\ edges (dg s') r = None) /\
  exists W, NoDup W /\ ~ In t W /\
    (forall d, In d W -> edges (dg s) d <> None /\ edges (dg s') d = None /\
                         wres (dg s') d = Some Completed) /\
    (forall d, ~ In d W -> d <> t ->
               wait_key (dg s') d = wait_key (dg s) d /\ wres (dg s') d = wres (dg s) d) /\
    (if b then wait_key (dg s') t = Some n else edges (dg s') t = None) /\
    wres (dg s') t = None.
Print Assumptions C18_transfer_progress.

(* The owner of the outer head releases it (the two dependency-graph critical sections of
   ClaimGuard::release for a transfer target, in program order).  From ANY reachable state:
   every thread that waited for the head, and every thread that waited for ANY query whose
   ownership had been transferred to it — directly or through a chain of transfers (nested
   heads) — is woken with the release result, and those queries are cleared. *)
Theorem C18_outer_release_wakes_nested :
  forall fuel s a kout r s1 o1 s2 o2,
  reachable fuel s ->
  step fuel s (OUnblock a kout r) = ROk (s1, o1) ->
  step fuel s1 (OUnblockTransferred a kout r) = ROk (s2, o2) ->
  reachable fuel s2 /\
  (forall d u, edges (dg s) d = Some (u, kout) ->
               edges (dg s2) d = None /\ wres (dg s2) d = Some r) /\
  (forall x, x <> kout -> reaches (tproj (dg s)) x kout ->
     cleared (dg s2) x /\
     forall d u, edges (dg s) d = Some (u, x) ->
                 edges (dg s2) d = None /\ wres (dg s2) d = Some r) /\
  transferred (dg s2) kout = None.
Proof. exact outer_release_wakes_nested. Qed.

Check C18_outer_release_wakes_nested :
  forall fuel s a kout r s1 o1 s2 o2,
  reachable fuel s ->
  step fuel s (OUnblock a kout r) = ROk (s1, o1) ->
  step fuel s1 (OUnblockTransferred a kout r) = ROk (s2, o2) ->
  reachable fuel s2 /\
  (forall d u, edges (dg s) d = Some (u, kout) ->
               edges (dg s2) d = None /\ wres (dg s2) d = Some r) /\
  (forall x, x <> kout -> reaches (tproj (dg s)) x kout ->
     cleared (dg s2) x /\
     forall d u, edges (dg s) d = Some (u, x) ->
                 edges (dg s2) d = None /\ wres (dg s2) d = Some r) /\
  transferred (dg s2) kout = None.
Print Assumptions C18_outer_release_wakes_nested.

(* A claimant is told to wait for thread [other] only if [other] does not (transitively) wait
   for the claimant: a cross-thread cycle is never entered as a wait, it is answered Cycle (so
   that cycle-capable queries iterate and the others panic, C14) *)
Theorem C18_claim_never_waits_into_cycle :
  forall fuel s t k allow s' other,
  reachable fuel s ->
  step fuel s (OClaim t k allow) = ROk (s', XClaim (CRunning other)) ->
  other <> t /\ ~ reaches (eproj (dg s)) other t /\ dg s' = dg s.
Proof. exact claim_never_waits_into_cycle. Qed.

Check C18_claim_never_waits_into_cycle :
  forall fuel s t k allow s' other,
  reachable fuel s ->
  step fuel s (OClaim t k allow) = ROk (s', XClaim (CRunning other)) ->
  other <> t /\ ~ reaches (eproj (dg s)) other t /\ dg s' = dg s.
Print Assumptions C18_claim_never_waits_into_cycle.

(* ... and for a query whose lock was transferred, [other] is the thread the transfer chain
   resolves to (thread_id_of_transferred_query), not the thread that once claimed it *)
Theorem C18_transferred_claim_resolves :
  forall fuel s t k allow s' other st,
  sync s k = Some st -> ss_id st = OTransferred ->
  step fuel s (OClaim t k allow) = ROk (s', XClaim (CRunning other)) ->
  thread_id_of_transferred_query fuel (dg s) k None = ROk (Some other).
Proof. exact transferred_claim_resolves. Qed.

Check C18_transferred_claim_resolves :
  forall fuel s t k allow s' other st,
  sync s k = Some st -> ss_id st = OTransferred ->
  step fuel s (OClaim t k allow) = ROk (s', XClaim (CRunning other)) ->
  thread_id_of_transferred_query fuel (dg s) k None = ROk (Some other).
Print Assumptions C18_transferred_claim_resolves.

(* the nested scenario on three handles, as recorded from the real crate: ownership of b moves
   to the thread of c, then (with c) to the thread of a; a's release wakes everybody *)
Example C18_nested_scenario :
  valid_client 20 Examples.ex_nested /\
  reachable 20 Examples.ex_nested_mid /\
  (edges (dg Examples.ex_nested_mid) 1, edges (dg Examples.ex_nested_mid) 2,
   edges (dg Examples.ex_nested_mid) 3,
   transferred (dg Examples.ex_nested_mid) 11, transferred (dg Examples.ex_nested_mid) 12) =
  (None, Some (1, 10), Some (1, 12), Some (2, 12), Some (1, 10)) /\
  match run 20 Examples.ex_nested init with
  | ROk s => (edges (dg s) 1, edges (dg s) 2, edges (dg s) 3, wres (dg s) 2, wres (dg s) 3,
              transferred (dg s) 11, transferred (dg s) 12)
  | RErr _ => (None, None, None, Some Panicked, Some Panicked, Some (0, 0), Some (0, 0))
  end = (None, None, None, None, None, None, None).
Proof.
  split; [exact Examples.ex_nested_valid |]. split; [exact Examples.ex_nested_mid_reachable |].
  split; vm_compute; reflexivity.
Qed.

(* ================================================================ (ii) values *)

(* Every value a handle can compute, store or return for node q during fixpoint iteration —
   under ANY interleaving with any number of other handles, reading fresh or stale provisional
   memos, with identity or join recovery — lies below the least fixpoint. *)
Theorem C18_seen_below :
  forall (prog : qkey -> body) (sn : snapshot) (ns : list qkey),
  monotone_prog prog sn -> fits8 prog sn ->
  forall q v, seen prog sn ns q v -> le_bits v (kleene prog sn ns q).
Proof. exact seen_below. Qed.

Check C18_seen_below :
  forall (prog : qkey -> body) (sn : snapshot) (ns : list qkey),
  monotone_prog prog sn -> fits8 prog sn ->
  forall q v, seen prog sn ns q v -> le_bits v (kleene prog sn ns q).
Print Assumptions C18_seen_below.

(* ANY multi-handle final state (the snapshot, the settled memos, the values the handles
   returned — read off the real crate after every explored schedule): if it passes the decidable
   certificate, every returned value is the single-threaded result of C12. *)
Theorem C18_values_certified :
  forall (prog : qkey -> body) (ns : list qkey) (st : mh_final),
  monotone_prog prog (mh_snap st) -> fits8 prog (mh_snap st) ->
  mh_cert_fix prog ns st && mh_below prog ns st = true ->
  forall h q v, In (h, q, v) (mh_results st) -> v = kleene prog (mh_snap st) ns q.
Proof. exact mh_certified_values_dec. Qed.

Check C18_values_certified :
  forall (prog : qkey -> body) (ns : list qkey) (st : mh_final),
  monotone_prog prog (mh_snap st) -> fits8 prog (mh_snap st) ->
  mh_cert_fix prog ns st && mh_below prog ns st = true ->
  forall h q v, In (h, q, v) (mh_results st) -> v = kleene prog (mh_snap st) ns q.
Print Assumptions C18_values_certified.

(* the same with "below" discharged by [C18_seen_below] instead of by computation *)
Theorem C18_values_certified_seen :
  forall (prog : qkey -> body) (ns : list qkey) (st : mh_final),
  monotone_prog prog (mh_snap st) -> fits8 prog (mh_snap st) ->
  mh_cert_fix prog ns st = true ->
  (forall q v, mh_sig ns st q = Some v -> seen prog (mh_snap st) ns q v) ->
  forall h q v, In (h, q, v) (mh_results st) -> v = kleene prog (mh_snap st) ns q.
Proof. exact mh_certified_values_seen. Qed.

Check C18_values_certified_seen :
  forall (prog : qkey -> body) (ns : list qkey) (st : mh_final),
  monotone_prog prog (mh_snap st) -> fits8 prog (mh_snap st) ->
  mh_cert_fix prog ns st = true ->
  (forall q v, mh_sig ns st q = Some v -> seen prog (mh_snap st) ns q v) ->
  forall h q v, In (h, q, v) (mh_results st) -> v = kleene prog (mh_snap st) ns q.
Print Assumptions C18_values_certified_seen.

(* schedule independence: two rounds over the same inputs — any two schedules, any two sets of
   handles, any two entry members — whose final states pass the certificate returned the same
   value for the same key *)
Theorem C18_schedule_independent :
  forall (prog : qkey -> body) (ns : list qkey) (st1 st2 : mh_final),
  mh_snap st1 = mh_snap st2 ->
  monotone_prog prog (mh_snap st1) -> fits8 prog (mh_snap st1) ->
  mh_cert_fix prog ns st1 && mh_below prog ns st1 = true ->
  mh_cert_fix prog ns st2 && mh_below prog ns st2 = true ->
  forall h1 h2 q v1 v2, In (h1, q, v1) (mh_results st1) -> In (h2, q, v2) (mh_results st2) -> v1 = v2.
Proof. exact mh_schedule_independent. Qed.

Check C18_schedule_independent :
  forall (prog : qkey -> body) (ns : list qkey) (st1 st2 : mh_final),
  mh_snap st1 = mh_snap st2 ->
  monotone_prog prog (mh_snap st1) -> fits8 prog (mh_snap st1) ->
  mh_cert_fix prog ns st1 && mh_below prog ns st1 = true ->
  mh_cert_fix prog ns st2 && mh_below prog ns st2 = true ->
  forall h1 h2 q v1 v2, In (h1, q, v1) (mh_results st1) -> In (h2, q, v2) (mh_results st2) -> v1 = v2.
Print Assumptions C18_schedule_independent.

(* fallback cycles (C13): `_partial` for the same reason as C13_certified_partial (the rank
   witnessing that the call graph minus its cyclic nodes is acyclic is a hypothesis) *)
Theorem C18_fallback_certified_partial :
  forall (prog : qkey -> body) (fb : qkey -> val) (ns : list qkey) (rank : qkey -> nat) (st : mh_final),
  input_determined prog (mh_snap st) ->
  let cyc := fun q => Salsa.Cycle.Spec.mem q (cyclic_nodes (succs prog (mh_snap st)) ns) in
  (forall q q', cyc q = false -> In q' (succs prog (mh_snap st) q) -> cyc q' = false -> (rank q' < rank q)%nat) ->
  (forall q, (rank q < length ns)%nat) ->
  mh_cert_fb prog fb ns st = true ->
  forall h q v, In (h, q, v) (mh_results st) -> v = spec_fallback prog (mh_snap st) fb ns q.
Proof. exact mh_certified_fb_values. Qed.

Check C18_fallback_certified_partial :
  forall (prog : qkey -> body) (fb : qkey -> val) (ns : list qkey) (rank : qkey -> nat) (st : mh_final),
  input_determined prog (mh_snap st) ->
  let cyc := fun q => Salsa.Cycle.Spec.mem q (cyclic_nodes (succs prog (mh_snap st)) ns) in
  (forall q q', cyc q = false -> In q' (succs prog (mh_snap st) q) -> cyc q' = false -> (rank q' < rank q)%nat) ->
  (forall q, (rank q < length ns)%nat) ->
  mh_cert_fb prog fb ns st = true ->
  forall h q v, In (h, q, v) (mh_results st) -> v = spec_fallback prog (mh_snap st) fb ns q.
Print Assumptions C18_fallback_certified_partial.

(* the hypotheses are inhabited: two handles on the two-node fixpoint of Cycle/Examples.v; and
   the certificate's `below` conjunct is what rejects a leaked provisional value (a non-least
   fixpoint of the new revision's equations: the C20 clause) *)
Example C18_certificate_inhabited :
  mh_cert_fix Cycle.Examples.ex12_prog Cycle.Examples.ex12_ns Examples.ex_mh &&
  mh_below Cycle.Examples.ex12_prog Cycle.Examples.ex12_ns Examples.ex_mh = true.
Proof. exact Examples.ex_mh_certified. Qed.
Example C18_certificate_rejects_stale_fixpoint :
  let st := mkMh Examples.ex_snap_low (mh_sigma Examples.ex_mh) (mh_results Examples.ex_mh) in
  mh_cert_fix Cycle.Examples.ex12_prog Cycle.Examples.ex12_ns st = true /\
  mh_below Cycle.Examples.ex12_prog Cycle.Examples.ex12_ns st = false /\
  kleene Cycle.Examples.ex12_prog Examples.ex_snap_low Cycle.Examples.ex12_ns (1, 0) = 3.
Proof. exact Examples.ex_mh_stale_rejected. Qed.

(* ================================================================ (iii) the abstract iteration *)

(* any schedule — any list of (handle, node) picks, each re-evaluating the node atomically over
   the shared provisional assignment — contains at most height(8) x nodes picks that change
   anything *)
Theorem C18_chaotic_changes_bounded :
  forall (prog : qkey -> body) (sn : snapshot) (ns : list qkey),
  monotone_prog prog sn -> fits8 prog sn ->
  forall l : list pick, picks_in ns l -> (changes prog sn l bottom <= 8 * length ns)%nat.
Proof. exact cmi_changes_bounded. Qed.

Check C18_chaotic_changes_bounded :
  forall (prog : qkey -> body) (sn : snapshot) (ns : list qkey),
  monotone_prog prog sn -> fits8 prog sn ->
  forall l : list pick, picks_in ns l -> (changes prog sn l bottom <= 8 * length ns)%nat.
Print Assumptions C18_chaotic_changes_bounded.

(* any schedule that consists of more than height x nodes sweeps (each sweep gives every node to
   some handle at least once, in any order, with any repetitions) passes through a quiescent
   assignment and ends with the least fixpoint on every node *)
Theorem C18_chaotic_terminates_lfp :
  forall (prog : qkey -> body) (sn : snapshot) (ns : list qkey),
  monotone_prog prog sn -> fits8 prog sn ->
  forall sweeps : list (list pick),
  (forall s, In s sweeps -> is_sweep ns s) -> (8 * length ns < length sweeps)%nat ->
  (exists pre s post, sweeps = pre ++ s :: post /\
     quiescent prog sn ns (cmi_run prog sn (concat pre) bottom) = true) /\
  forall q, cmi_run prog sn (concat sweeps) bottom q = kleene prog sn ns q.
Proof. exact cmi_terminates_lfp. Qed.

Check C18_chaotic_terminates_lfp :
  forall (prog : qkey -> body) (sn : snapshot) (ns : list qkey),
  monotone_prog prog sn -> fits8 prog sn ->
  forall sweeps : list (list pick),
  (forall s, In s sweeps -> is_sweep ns s) -> (8 * length ns < length sweeps)%nat ->
  (exists pre s post, sweeps = pre ++ s :: post /\
     quiescent prog sn ns (cmi_run prog sn (concat pre) bottom) = true) /\
  forall q, cmi_run prog sn (concat sweeps) bottom q = kleene prog sn ns q.
Print Assumptions C18_chaotic_terminates_lfp.

Example C18_chaotic_run :
  let l := [(0, (1, 0)); (1, (1, 1)); (1, (1, 0)); (0, (1, 1)); (0, (1, 0)); (1, (1, 1))] in
  (cmi_run Cycle.Examples.ex12_prog Examples.ex_snap l bottom (1, 0),
   cmi_run Cycle.Examples.ex12_prog Examples.ex_snap l bottom (1, 1),
   quiescent Cycle.Examples.ex12_prog Examples.ex_snap Cycle.Examples.ex12_ns
             (cmi_run Cycle.Examples.ex12_prog Examples.ex_snap l bottom),
   changes Cycle.Examples.ex12_prog Examples.ex_snap l bottom) = (7, 6, true, 3%nat).
Proof. exact Examples.ex_cmi. Qed.

(* ================================================================ the full statement *)
(* [mh_full_statement M ns] (CCycle/Model.v): for every monotone program, every snapshot and
   every assignment of requests to handles, (a) EVERY schedule of the multi-handle machine M
   terminates (the step relation is well founded on the reachable states) and (b) in every
   terminal state every settled memo and every returned value is the least fixpoint's.
   It holds for the abstract chaotic iteration: *)
Theorem C18_full_statement_abstract_machine :
  forall ns : list qkey, mh_full_statement (cmi_machine ns) ns.
Proof. exact cmi_full. Qed.

Check C18_full_statement_abstract_machine :
  forall ns : list qkey, mh_full_statement (cmi_machine ns) ns.
Print Assumptions C18_full_statement_abstract_machine.

(* NOT PROVED: the same for a machine [salsa_mh] that transcribes the composition
   of the cycle algorithm (Cycle/Model.v: heads, provisional memos, nested iteration,
   validate_same_iteration, TryClaimCycleHeadsIter) with the protocol (Proto/Model.v) — one
   atomic step per shared access, as CFetch/Model.v does for acyclic programs.  That machine is
   not written; the statement is therefore about an arbitrary machine, with the refinement
   obligation spelled out: every value the machine stores is [seen] (so [C18_seen_below]
   applies), and every terminal state passes the certificate. *)
Definition C18_full_statement : Prop :=
  forall (salsa_mh : mh_machine) (ns : list qkey),
    (* refinement obligations on the (unwritten) faithful machine *)
    (forall prog sn reqs s, mm_reach salsa_mh prog (mm_init salsa_mh prog sn reqs) s ->
       mh_snap (mm_obs salsa_mh s) = sn /\
       forall q v, mh_sig ns (mm_obs salsa_mh s) q = Some v -> seen prog sn ns q v) ->
    (* the two unproved claims *)
    (forall prog sn reqs s, monotone_prog prog sn -> fits8 prog sn ->
       mm_reach salsa_mh prog (mm_init salsa_mh prog sn reqs) s ->
       Acc (fun s2 s1 => exists h, mm_step salsa_mh prog s1 h s2) s) /\
    (forall prog sn reqs s, monotone_prog prog sn -> fits8 prog sn ->
       mm_reach salsa_mh prog (mm_init salsa_mh prog sn reqs) s ->
       (forall h s', ~ mm_step salsa_mh prog s h s') ->
       mh_cert_fix prog ns (mm_obs salsa_mh s) = true).
