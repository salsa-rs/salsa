(* Props/C05.v — LRU eviction is transparent and bounded.  The statements, each
   followed by the step from the theorem of coq/Core that proves it. *)
From Salsa Require Import Base.
From Salsa.Core Require Import Model Spec LruProofs Inv InvTop DInvTop.

(* Bounded, least-recently-used first: the eviction pass splits the recency order into the
   evicted prefix and the kept suffix, keeps at most [c] keys, and leaves the capacity alone. *)
Theorem C05_bound : forall l c ev l',
  lru_cap l = Some c -> lru_evict l = (ev, l') ->
  lru_set l = ev ++ lru_set l' /\ N.of_nat (length (lru_set l')) <= c /\ lru_cap l' = Some c.
Proof. exact lru_evict_spec. Qed.
Check C05_bound : forall l c ev l',
  lru_cap l = Some c -> lru_evict l = (ev, l') ->
  lru_set l = ev ++ lru_set l' /\ N.of_nat (length (lru_set l')) <= c /\ lru_cap l' = Some c.
Print Assumptions C05_bound.

(* The evicted keys, and only they, lose their value. *)
Theorem C05_evicts_exactly : forall fam ks mm q,
  evict_keys fam ks mm q =
  if existsb (fun k => key_eqb (fam, k) q) ks then option_map evict_memo (mm q) else mm q.
Proof. exact evict_keys_spec. Qed.
Check C05_evicts_exactly : forall fam ks mm q,
  evict_keys fam ks mm q =
  if existsb (fun k => key_eqb (fam, k) q) ks then option_map evict_memo (mm q) else mm q.
Print Assumptions C05_evicts_exactly.

(* Dependency information is kept: eviction changes nothing but the value, and never
   touches a memo with untracked reads. *)
Theorem C05_keeps_deps : forall m,
  m_verified (evict_memo m) = m_verified m /\ m_changed (evict_memo m) = m_changed m /\
  m_dur (evict_memo m) = m_dur m /\ m_untracked (evict_memo m) = m_untracked m /\
  m_edges (evict_memo m) = m_edges m /\
  (m_untracked m = true -> evict_memo m = m) /\
  (m_untracked m = false -> m_val (evict_memo m) = None).
Proof. exact evict_memo_keeps. Qed.
Check C05_keeps_deps : forall m,
  m_verified (evict_memo m) = m_verified m /\ m_changed (evict_memo m) = m_changed m /\
  m_dur (evict_memo m) = m_dur m /\ m_untracked (evict_memo m) = m_untracked m /\
  m_edges (evict_memo m) = m_edges m /\
  (m_untracked m = true -> evict_memo m = m) /\
  (m_untracked m = false -> m_val (evict_memo m) = None).
Print Assumptions C05_keeps_deps.

(* A request moves the key to the most-recent end and keeps the set duplicate-free. *)
Theorem C05_recency : forall l k c, lru_cap l = Some c -> NoDup (lru_set l) ->
  NoDup (lru_set (lru_record_use l k)) /\
  exists pre, lru_set (lru_record_use l k) = pre ++ [k] /\ pre = remove_key k (lru_set l).
Proof.
  intros l k c Hc Hnd. split; [apply record_use_nodup; exact Hnd | apply (record_use_last l k c Hc)].
Qed.
Check C05_recency : forall l k c, lru_cap l = Some c -> NoDup (lru_set l) ->
  NoDup (lru_set (lru_record_use l k)) /\
  exists pre, lru_set (lru_record_use l k) = pre ++ [k] /\ pre = remove_key k (lru_set l).
Print Assumptions C05_recency.

(* Capacity zero disables eviction: the set is cleared, nothing is recorded, nothing is evicted. *)
Theorem C05_zero_disables : forall l k,
  lru_set_capacity l 0 = {| lru_cap := None; lru_set := [] |} /\
  (lru_cap l = None -> lru_record_use l k = l) /\
  (lru_cap l = None -> lru_evict l = ([], l)).
Proof.
  intros l k. split; [apply set_capacity_zero|]. split; [apply record_use_disabled | apply evict_disabled].
Qed.
Check C05_zero_disables : forall l k,
  lru_set_capacity l 0 = {| lru_cap := None; lru_set := [] |} /\
  (lru_cap l = None -> lru_record_use l k = l) /\
  (lru_cap l = None -> lru_evict l = ([], l)).
Print Assumptions C05_zero_disables.

(* Transparency: with set_lru_capacity / trigger_lru_eviction interleaved anywhere in the
   history (they are ordinary operations of the alphabet), every Get still returns the
   from-scratch value -- for inputs and writes of every durability (an evicted memo that is
   re-verified through the durability short-cut keeps no value and is recomputed on demand;
   an evicted memo that is verified in the current revision and recomputed does not lower its
   durability: [ext_vcur] in Core/DInv.v). *)
Theorem C05_transparent :
  forall (prog : qkey -> body) (noeq : qkey -> bool) (fams : list N)
         (rank : qkey -> nat) (NF : nat),
  calls_below prog rank -> (forall q, (rank q < NF)%nat) ->
  forall fuel, (forall p, (rank p < fuel)%nat) ->
  forall iv idur lru0 ops,
    (forall i, idur i <= 3) -> Forall dur_op ops -> wf_ops false ops ->
    outs_ok prog noeq fams NF fuel (init iv idur lru0) ops.
Proof.
  intros prog noeq fams rank NF Hrank Hbound.
  exact (from_scratch_dur_init prog noeq fams rank Hrank NF Hbound).
Qed.
Check C05_transparent :
  forall (prog : qkey -> body) (noeq : qkey -> bool) (fams : list N)
         (rank : qkey -> nat) (NF : nat),
  calls_below prog rank -> (forall q, (rank q < NF)%nat) ->
  forall fuel, (forall p, (rank p < fuel)%nat) ->
  forall iv idur lru0 ops,
    (forall i, idur i <= 3) -> Forall dur_op ops -> wf_ops false ops ->
    outs_ok prog noeq fams NF fuel (init iv idur lru0) ops.
Print Assumptions C05_transparent.

(* the instance for LOW durabilities: every input starts LOW and every field write that names
   a durability names LOW (synthetic writes may still be of any level) *)
Theorem C05_transparent_partial :
  forall (prog : qkey -> body) (noeq : qkey -> bool) (fams : list N)
         (rank : qkey -> nat) (NF : nat),
  calls_below prog rank -> (forall q, (rank q < NF)%nat) ->
  forall fuel, (forall p, (rank p < fuel)%nat) ->
  forall iv lru0 ops,
    Forall low_op ops -> wf_ops false ops ->
    outs_ok prog noeq fams NF fuel (init iv (fun _ => 0) lru0) ops.
Proof.
  intros prog noeq fams rank NF Hrank Hbound.
  exact (from_scratch_low_again prog noeq fams rank Hrank NF Hbound).
Qed.
Check C05_transparent_partial :
  forall (prog : qkey -> body) (noeq : qkey -> bool) (fams : list N)
         (rank : qkey -> nat) (NF : nat),
  calls_below prog rank -> (forall q, (rank q < NF)%nat) ->
  forall fuel, (forall p, (rank p < fuel)%nat) ->
  forall iv lru0 ops,
    Forall low_op ops -> wf_ops false ops ->
    outs_ok prog noeq fams NF fuel (init iv (fun _ => 0) lru0) ops.
Print Assumptions C05_transparent_partial.
