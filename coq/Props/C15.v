(* Props/C15.v — Non-converging fixpoint iteration ends in a bounded panic.
   The statements of C15.  Proofs in Kern/K4_Stamp.v (translated kernel), Cycle/ModelProofs.v
   (the loop under an epoch hypothesis) and Cycle/EpochTop.v (the loop under the epoch invariant). *)
From Salsa Require Import Base.
From Salsa.gen Require Import Kernels.
From Salsa.Kern Require Import K4_Stamp.
From Salsa.Cycle Require Import StampK Model ModelProofs.
From Salsa.Cycle Require Examples.
From Salsa.Cycle Require EpochInv EpochTop EpochExamples.

(* The translated counter (src/cycle.rs IterationStamp::increment_iteration, MAX_ITERATIONS):
   the increment fails exactly at iteration MAX_ITERATIONS = 200. *)
Theorem C15_increment_kernel : forall s, s < 65536 -> k_stamp_iteration s <= k_MAX_ITERATIONS ->
  (k_stamp_increment_iteration s = None <-> k_stamp_iteration s = k_MAX_ITERATIONS).
Proof. exact k_stamp_increment_none_iff. Qed.
Check C15_increment_kernel : forall s, s < 65536 -> k_stamp_iteration s <= k_MAX_ITERATIONS ->
  (k_stamp_increment_iteration s = None <-> k_stamp_iteration s = k_MAX_ITERATIONS).
Print Assumptions C15_increment_kernel.

(* The fixpoint loop of one `execute` of the Cycle model (execute_maybe_iterate): started at a
   well-formed stamp of epoch c, with the loop's own fuel above MAX_ITERATIONS + 1 - iteration,
   it never reports out-of-fuel unless a trip itself does — i.e. it ends with a value or a panic
   after at most MAX_ITERATIONS + 1 - iteration executions of the body.
   `_partial`: under [same_epoch_rounds], the hypothesis that the heads a trip meets carry
   well-formed stamps of the loop's own cancellation epoch.  It is FALSE once the cancellation
   count is nonzero ([C15_same_epoch_rounds_too_strong] below); [C15_bounded] replaces it by an
   invariant of the model. *)
Theorem C15_bounded_partial : forall prog strat cinit (n : nat) (L : clower) (q : qkey) (c : N),
  same_epoch_rounds prog strat cinit n L q c ->
  (forall st s, snd (round prog strat cinit n L q st s) <> CFuel) ->
  forall k st s, loop_inv c st -> (trips_left st < k)%nat ->
  snd (iter_loop prog strat cinit k n L q st s) <> CFuel.
Proof. exact loop_bounded. Qed.
Check C15_bounded_partial : forall prog strat cinit (n : nat) (L : clower) (q : qkey) (c : N),
  same_epoch_rounds prog strat cinit n L q c ->
  (forall st s, snd (round prog strat cinit n L q st s) <> CFuel) ->
  forall k st s, loop_inv c st -> (trips_left st < k)%nat ->
  snd (iter_loop prog strat cinit k n L q st s) <> CFuel.
Print Assumptions C15_bounded_partial.

(* Values that never stabilise (every trip says "iterate again") end in the too-many panic. *)
Theorem C15_diverging_panics_partial : forall prog strat cinit (n : nat) (L : clower) (q : qkey) (c : N),
  same_epoch_rounds prog strat cinit n L q c ->
  (forall st s, exists s' hm v rev hs, round prog strat cinit n L q st s = (s', COk (RIterate hm v rev hs))) ->
  forall k st s, loop_inv c st -> (trips_left st < k)%nat ->
  exists s', iter_loop prog strat cinit k n L q st s = (s', CPanic (PB PTooMany)).
Proof. exact loop_diverging_panics. Qed.
Check C15_diverging_panics_partial : forall prog strat cinit (n : nat) (L : clower) (q : qkey) (c : N),
  same_epoch_rounds prog strat cinit n L q c ->
  (forall st s, exists s' hm v rev hs, round prog strat cinit n L q st s = (s', COk (RIterate hm v rev hs))) ->
  forall k st s, loop_inv c st -> (trips_left st < k)%nat ->
  exists s', iter_loop prog strat cinit k n L q st s = (s', CPanic (PB PTooMany)).
Print Assumptions C15_diverging_panics_partial.

(* the fuel the model gives the loop (203) is above the number of trips left from any stamp *)
Theorem C15_loop_fuel : forall st, (trips_left st < LOOP_FUEL)%nat.
Proof. exact loop_fuel_enough. Qed.
Check C15_loop_fuel : forall st, (trips_left st < LOOP_FUEL)%nat.
Print Assumptions C15_loop_fuel.

(* NOT PROVED: the statement per Get — each head's body is executed at most MAX_ITERATIONS + 1
   times by one Get.  [C15_execute_bounded] below bounds one `execute` under a hypothesis on its
   trips; what is missing is how many `execute`s of one head a Get can start. *)
Definition C15_bounded_full_statement : Prop :=
  forall (prog : qkey -> body) strat cinit nodes fuel (s : cdb) q h,
    let s' := fst (cstep prog strat cinit nodes fuel s (COGet q)) in
    (length (filter (key_eqb h) (c_runs s')) - length (filter (key_eqb h) (c_runs s))
     <= S (N.to_nat MAX_ITERATIONS))%nat.

(* Non-vacuity: d0 = if in then 1 + d1 else 7, d1 = in' | d0 never stabilises: too-many panic
   after exactly MAX_ITERATIONS + 1 = 201 executions of the head's body; an unrelated function is
   correct at once; after the input breaks the cycle the same functions return 7. *)
Example C15_model_run :
  Examples.outs_of Examples.ex15_prog Examples.ex14_iv
    [COGet (1, 0); COGet (0, 0); COSet (0, 0) 0 None; COGet (1, 1); COGet (1, 0)]
  = [CPanic (PB PTooMany); COk 2; COk 0; COk 7; COk 7].
Proof. exact Examples.ex15_run. Qed.
Example C15_model_runs :
  Examples.count_runs (1, 0) (Examples.final_of Examples.ex15_prog Examples.ex14_iv [COGet (1, 0)]) = 201%nat.
Proof. exact Examples.ex15_runs. Qed.


(* Without the epoch hypothesis.
   FINDING: [same_epoch_rounds c] is too strong when c <> 0.  A trip whose only cycle head is the
   loop's own node reports hm = stamp_default, whose cancellation count is 0, whatever the epoch:
   after one COBump the hypothesis of C15_bounded_partial is false (so that theorem is vacuous
   there, not wrong).  Witness: the two-node cycle of Examples.ex12_prog, node (1,0), epoch 1. *)
Theorem C15_same_epoch_rounds_too_strong :
  ~ same_epoch_rounds Examples.ex12_prog Examples.ex_strat Examples.ex_cinit 12
      (clevel Examples.ex12_prog Examples.ex_strat Examples.ex_cinit 12 12) (1, 0) 1.
Proof. exact EpochExamples.same_epoch_rounds_too_strong. Qed.
Check C15_same_epoch_rounds_too_strong :
  ~ same_epoch_rounds Examples.ex12_prog Examples.ex_strat Examples.ex_cinit 12
      (clevel Examples.ex12_prog Examples.ex_strat Examples.ex_cinit 12 12) (1, 0) 1.
Print Assumptions C15_same_epoch_rounds_too_strong.

(* What IS an invariant of the model — for all programs, strategies and histories (writes,
   cancellation bumps, panics, nested cycles, every fuel) — is [EpochTop.epoch_inv strat s]
   (Cycle/EpochInv.v, [SI]): every memo carries a well-formed stamp; a provisional memo of the
   current revision and cancellation epoch lists only cycle heads whose stamps are well-formed
   stamps of the current epoch and whose own memos are final, poisoned or current.  It holds of
   the initial database, is preserved by every operation, and (by the same induction over the fuel
   levels, for every outcome: value, panic, out-of-fuel) at every intermediate state of a Get. *)
Theorem C15_epoch_reachable : forall prog strat cinit nodes fuel iv idur ops,
  EpochTop.epoch_inv strat (fst (crun_ops prog strat cinit nodes fuel (cinit_db iv idur) ops)).
Proof. exact EpochTop.epoch_inv_reachable. Qed.
Check C15_epoch_reachable : forall prog strat cinit nodes fuel iv idur ops,
  EpochTop.epoch_inv strat (fst (crun_ops prog strat cinit nodes fuel (cinit_db iv idur) ops)).
Print Assumptions C15_epoch_reachable.

Theorem C15_epoch_step : forall prog strat cinit nodes fuel s o,
  EpochTop.epoch_inv strat s -> EpochTop.epoch_inv strat (fst (cstep prog strat cinit nodes fuel s o)).
Proof. exact EpochTop.epoch_inv_step. Qed.
Check C15_epoch_step : forall prog strat cinit nodes fuel s o,
  EpochTop.epoch_inv strat s -> EpochTop.epoch_inv strat (fst (cstep prog strat cinit nodes fuel s o)).
Print Assumptions C15_epoch_step.

(* C15_bounded, no epoch hypothesis: from any state satisfying the invariant, the fixpoint loop
   of a recovering node, run against the model's own lower levels, with its own fuel above
   MAX_ITERATIONS + 1 - iteration, never reports out-of-fuel unless a trip (started in an
   invariant state) does: at most MAX_ITERATIONS + 1 - iteration executions of the body. *)
Theorem C15_bounded : forall prog strat cinit nodes fuel q,
  recovers (strat_of strat q) = true ->
  (forall ls1 s1, EpochTop.epoch_inv strat s1 ->
     snd (round prog strat cinit nodes (clevel prog strat cinit nodes fuel) q ls1 s1) <> CFuel) ->
  forall k ls s, EpochTop.epoch_inv strat s -> loop_inv (c_ccount s) ls -> (trips_left ls < k)%nat ->
  snd (iter_loop prog strat cinit k nodes (clevel prog strat cinit nodes fuel) q ls s) <> CFuel.
Proof. exact EpochTop.epoch_loop_bounded. Qed.
Check C15_bounded : forall prog strat cinit nodes fuel q,
  recovers (strat_of strat q) = true ->
  (forall ls1 s1, EpochTop.epoch_inv strat s1 ->
     snd (round prog strat cinit nodes (clevel prog strat cinit nodes fuel) q ls1 s1) <> CFuel) ->
  forall k ls s, EpochTop.epoch_inv strat s -> loop_inv (c_ccount s) ls -> (trips_left ls < k)%nat ->
  snd (iter_loop prog strat cinit k nodes (clevel prog strat cinit nodes fuel) q ls s) <> CFuel.
Print Assumptions C15_bounded.

Theorem C15_diverging_panics : forall prog strat cinit nodes fuel q,
  recovers (strat_of strat q) = true ->
  (forall ls1 s1, EpochTop.epoch_inv strat s1 -> exists s' hm v rv hs,
     round prog strat cinit nodes (clevel prog strat cinit nodes fuel) q ls1 s1 = (s', COk (RIterate hm v rv hs))) ->
  forall k ls s, EpochTop.epoch_inv strat s -> loop_inv (c_ccount s) ls -> (trips_left ls < k)%nat ->
  exists s', iter_loop prog strat cinit k nodes (clevel prog strat cinit nodes fuel) q ls s = (s', CPanic (PB PTooMany)).
Proof. exact EpochTop.epoch_loop_diverging. Qed.
Check C15_diverging_panics : forall prog strat cinit nodes fuel q,
  recovers (strat_of strat q) = true ->
  (forall ls1 s1, EpochTop.epoch_inv strat s1 -> exists s' hm v rv hs,
     round prog strat cinit nodes (clevel prog strat cinit nodes fuel) q ls1 s1 = (s', COk (RIterate hm v rv hs))) ->
  forall k ls s, EpochTop.epoch_inv strat s -> loop_inv (c_ccount s) ls -> (trips_left ls < k)%nat ->
  exists s', iter_loop prog strat cinit k nodes (clevel prog strat cinit nodes fuel) q ls s = (s', CPanic (PB PTooMany)).
Print Assumptions C15_diverging_panics.

(* execute is the only place a loop is started: from an invariant state, with the memo it is
   handed (none, or the table's), and with the model's LOOP_FUEL, it never reports out-of-fuel
   unless a trip does *)
Theorem C15_execute_bounded : forall prog strat cinit nodes fuel q old s,
  recovers (strat_of strat q) = true ->
  EpochTop.epoch_inv strat s -> (old = None \/ old = c_memo s q) ->
  (forall ls1 s1, EpochTop.epoch_inv strat s1 ->
     snd (round prog strat cinit nodes (clevel prog strat cinit nodes fuel) q ls1 s1) <> CFuel) ->
  snd (execute_iterate prog strat cinit nodes (clevel prog strat cinit nodes fuel) q old s) <> CFuel.
Proof. exact EpochTop.epoch_execute_bounded. Qed.
Check C15_execute_bounded : forall prog strat cinit nodes fuel q old s,
  recovers (strat_of strat q) = true ->
  EpochTop.epoch_inv strat s -> (old = None \/ old = c_memo s q) ->
  (forall ls1 s1, EpochTop.epoch_inv strat s1 ->
     snd (round prog strat cinit nodes (clevel prog strat cinit nodes fuel) q ls1 s1) <> CFuel) ->
  snd (execute_iterate prog strat cinit nodes (clevel prog strat cinit nodes fuel) q old s) <> CFuel.
Print Assumptions C15_execute_bounded.
